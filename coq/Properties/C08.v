(* C08 — returned matches are well-formed and index conversion is exact.
   This file only states the property theorems; proofs are in Proofs/Utf8Proofs.v and
   Proofs/OffsetsProofs.v.

   Scope (see bin/props.d/C08.py): these theorems cover, for ALL byte strings and ALL rune
   slices, the string -> rune view, every rune-index -> byte-index map of /repo, slicing
   (String / Runes / ByteRange) and group materialisation (newGroup, Groups()).
   The interpreter invariant "every stored capture word pair is in range after tidy"
   (DESIGN §4 C08 caps_in_bounds) is about the VM model and appears here only as the hypothesis
   [stored_ok] of C08_groups_wf_partial. *)
From Verif Require Proofs.SpecBoundsProofs.
From Verif Require Import Base.Prelude Base.Utf8 Model.Offsets Proofs.Utf8Proofs Proofs.OffsetsProofs.

(* decode_total: Go's range loop never faults and tiles the string: the widths (each 1..4) sum to
   the byte length, whatever the bytes are. *)
Theorem C08_decode_total : forall s : list Z,
  zsum (widths_of s) = zlen s /\ Forall (fun w => 1 <= w <= 4) (widths_of s).
Proof. exact decode_total_full. Qed.
Print Assumptions C08_decode_total.

(* decode . encode: string([]rune) read back gives every rune with width RuneLen; a rune that is
   not a Unicode scalar (negative, surrogate, > U+10FFFF) comes back as U+FFFD of width 3;
   the result is always valid UTF-8. *)
Theorem C08_decode_encode : forall rs : list Z,
  decode (encode_string rs) = map (fun r => (sanitize r, Z.to_nat (encode_len r))) rs /\
  (forallb valid_rune rs = true ->
   decode (encode_string rs) = map (fun r => (r, Z.to_nat (rune_len r))) rs) /\
  valid_utf8 (encode_string rs) = true.
Proof. exact decode_encode_full. Qed.
Print Assumptions C08_decode_encode.

(* encode . decode: on valid UTF-8 (no position decodes to the width-1 error rune) re-encoding
   the runes gives the bytes back. *)
Theorem C08_encode_decode : forall s : list Z,
  valid_utf8 s = true -> encode_string (runes_of s) = s.
Proof. exact encode_decode. Qed.
Print Assumptions C08_encode_decode.

(* offsets_spec.  With ws = the decode widths of s:
   - match.go stringByteOffsets, compat bytesToRunesAndOffsets return the table
     [0; w0; w0+w1; ...] (psums 0 ws), or nil exactly when every width is 1; none faults;
   - regexp.go newStringByteMapper is nil exactly when every width is 1;
   - compat readRunes returns the prefix sums of the sizes its reader reported;
   - match.go runeByteOffsets returns the prefix sums of the encoded lengths (3 for a non-scalar),
     i.e. the string table of string(runes); for valid UTF-8 s it is the table of s itself. *)
Theorem C08_offsets_spec :
  (forall s, string_byte_offsets s =
             Ok (if all_one (widths_of s) then None else Some (psums 0 (widths_of s)))) /\
  (forall s, new_byte_mapper s = None <-> all_one (widths_of s) = true) /\
  (forall s fuel, (length s < fuel)%nat ->
     bytes_to_runes_and_offsets fuel s =
     Ok (runes_of s, if all_one (widths_of s) then None else Some (psums 0 (widths_of s)))) /\
  (forall items, read_runes items = (map fst items, psums 0 (map snd items))) /\
  (forall rs, rune_byte_offsets rs =
              Ok (if all_one (map encode_len rs) then None else Some (psums 0 (map encode_len rs)))) /\
  (forall rs, rune_byte_offsets rs = string_byte_offsets (encode_string rs)) /\
  (forall s, valid_utf8 s = true -> rune_byte_offsets (runes_of s) = string_byte_offsets s).
Proof. exact offsets_spec_full. Qed.
Print Assumptions C08_offsets_spec.

(* byte_index_spec: the sparse table + sort.Search of regexp.go:385-420 equals the prefix-sum
   function at every rune index 0..n (and when no table is built, byte index = rune index). *)
Theorem C08_byte_index_spec : forall (s : list Z) (fuel q : nat),
  (q <= length (decode s))%nat -> (length s < fuel)%nat ->
  match new_byte_mapper s with
  | Some m => byte_index fuel m (Z.of_nat q) = Ok (byte_pos (widths_of s) q)
  | None => byte_pos (widths_of s) q = Z.of_nat q /\ all_one (widths_of s) = true
  end.
Proof. exact byte_index_spec. Qed.
Print Assumptions C08_byte_index_spec.

(* byte_range_slices: for a string input and any rune span (i, l) inside it, ByteRange succeeds,
   lies inside the string, and the addressed bytes decode to exactly runes[i, i+l) — which is what
   Runes() returns; String() equals those bytes whenever they are valid UTF-8 (otherwise each
   invalid byte was one U+FFFD rune and String() re-encodes it). *)
Theorem C08_byte_range_slices : forall (s : list Z) (i l : nat),
  (i + l <= length (decode s))%nat ->
  let t := new_string_match_text s (runes_of s) in
  exists bi bl sl,
    byte_range t (Z.of_nat i) (Z.of_nat l) = Ok (bi, bl) /\
    0 <= bi /\ 0 <= bl /\ bi + bl <= zlen s /\
    go_slice s bi (bi + bl) = Ok sl /\
    decode sl = firstn l (skipn i (decode s)) /\
    capture_runes t (Z.of_nat i) (Z.of_nat l) = Ok (runes_of sl) /\
    (valid_utf8 sl = true -> capture_string t (Z.of_nat i) (Z.of_nat l) = Ok sl).
Proof. exact byte_range_slices. Qed.
Print Assumptions C08_byte_range_slices.

(* the byte indexes of the find-all and adapter calls are consistent with ByteRange: for every rune
   span, Capture.ByteRange, FindAllStringIndex (mapper), compat FindAllIndex([]byte) and the compat
   reader offsets all report the prefix sums (bi, be) — ByteRange as (bi, be - bi). *)
Theorem C08_routes_agree : forall (s : list Z) (fuel i l : nat),
  (i + l <= length (decode s))%nat -> (length s < fuel)%nat ->
  let bi := byte_pos (widths_of s) i in
  let be := byte_pos (widths_of s) (i + l) in
  byte_range (new_string_match_text s (runes_of s)) (Z.of_nat i) (Z.of_nat l) = Ok (bi, be - bi) /\
  find_all_pair fuel (new_byte_mapper s) (Z.of_nat i) (Z.of_nat l) = Ok (bi, be) /\
  (do ro <- bytes_to_runes_and_offsets fuel s ; compat_pair (snd ro) (Z.of_nat i) (Z.of_nat l)) = Ok (bi, be) /\
  compat_pair (Some (snd (read_runes (map (fun p => (fst p, Z.of_nat (snd p))) (decode s)))))
              (Z.of_nat i) (Z.of_nat l) = Ok (bi, be) /\
  0 <= bi <= be /\ be <= zlen s.
Proof. exact routes_agree. Qed.
Print Assumptions C08_routes_agree.

(* []rune input: ByteRange of a span is its byte span inside string(runes), String() is the
   encoding of the span — for arbitrary int32 values. *)
Theorem C08_rune_input_byte_range : forall (rs : list Z) (i l : nat),
  (i + l <= length rs)%nat ->
  byte_range (new_match_text rs) (Z.of_nat i) (Z.of_nat l) =
    Ok (zlen (encode_string (firstn i rs)), zlen (encode_string (firstn l (skipn i rs)))) /\
  capture_string (new_match_text rs) (Z.of_nat i) (Z.of_nat l) =
    Ok (encode_string (firstn l (skipn i rs))).
Proof. exact rune_input_byte_range. Qed.
Print Assumptions C08_rune_input_byte_range.

(* newGroup: the captures are the first capcount stored pairs and the embedded capture is the
   last of them (the zero capture when there is none). *)
Theorem C08_new_group_embedded_last : forall (caps : list Z) (n : nat),
  (n <= length (cap_pairs caps))%nat ->
  exists g, new_group caps (Z.of_nat n) = Ok g /\
            g_caps g = firstn n (cap_pairs caps) /\
            group_embedded g = last (g_caps g) (0, 0).
Proof. exact new_group_spec. Qed.
Print Assumptions C08_new_group_embedded_last.

(* PARTIAL.  Groups() on a tidied match: IF the match (idx, len) is inside the input of n runes and
   every other group's storage holds capcount in-range pairs ([stored_ok]: the interpreter + tidy
   invariant caps_in_bounds, a fact about the VM model, NOT proved here), THEN Groups() does not
   fault, returns one group per slot, every capture of every group lies inside the input, group 0
   has exactly one capture equal to the match, and every embedded capture is the group's last capture.
   Missing for the full statement: the derivation of [stored_ok] from the interpreter. *)
Theorem C08_groups_wf_partial : forall (n idx len : Z) (matches : list (list Z)) (matchcount : list Z),
  in_bounds n (idx, len) ->
  (1 <= length matchcount)%nat -> length matches = length matchcount ->
  (forall j caps cnt, (1 <= j)%nat -> nth_error matches j = Some caps ->
                      nth_error matchcount j = Some cnt -> stored_ok n caps cnt) ->
  exists gs, groups_of (group0 idx len) matches matchcount = Ok gs /\
             length gs = length matchcount /\
             Forall (group_wf n) gs /\
             (exists others, gs = group0 idx len :: others) /\
             g_caps (group0 idx len) = [(idx, len)] /\
             group_embedded (group0 idx len) = (idx, len).
Proof. exact groups_of_wf. Qed.
Print Assumptions C08_groups_wf_partial.

(* ---------- non-vacuity ---------- *)

(* "a" "é" "€" "😀" literal-U+FFFD, then truncated E2 82, overlong C0 80, surrogate ED A0 80, "z" *)
Definition c08_ex : list Z :=
  [97; 195; 169; 226; 130; 172; 240; 159; 152; 128; 239; 191; 189;
   226; 130; 192; 128; 237; 160; 128; 122].

(* decode with the widths shown as Z, for readable literals *)
Definition decode_z (s : list Z) : list (Z * Z) := map (fun p => (fst p, Z.of_nat (snd p))) (decode s).

Example C08_decode_witness :
  decode_z c08_ex =
    [(97, 1); (233, 2); (8364, 3); (128512, 4); (65533, 3);
     (65533, 1); (65533, 1); (65533, 1); (65533, 1); (65533, 1); (65533, 1); (65533, 1);
     (122, 1)]
  /\ valid_utf8 c08_ex = false
  /\ decode_z [240; 159; 152] = [(65533, 1); (65533, 1); (65533, 1)]       (* truncated 4-byte *)
  /\ decode_z [224; 159; 191] = [(65533, 1); (65533, 1); (65533, 1)]       (* overlong 3-byte *)
  /\ decode_z [244; 144; 128; 128] = [(65533, 1); (65533, 1); (65533, 1); (65533, 1)] (* > U+10FFFF *)
  /\ decode_z [244; 143; 191; 191] = [(1114111, 4)]
  /\ encode_string [97; 233; 8364; 128512; 65533; 55296; -1] =
     [97; 195; 169; 226; 130; 172; 240; 159; 152; 128; 239; 191; 189; 239; 191; 189; 239; 191; 189].
Proof. vm_compute. repeat split; reflexivity. Qed.

Example C08_offsets_witness :
  string_byte_offsets c08_ex = Ok (Some [0; 1; 3; 6; 10; 13; 14; 15; 16; 17; 18; 19; 20; 21])
  /\ new_byte_mapper c08_ex = Some {| m_idx := [2; 3; 4; 5]; m_delta := [1; 3; 6; 8] |}
  /\ map (fun q => byte_index 30 {| m_idx := [2; 3; 4; 5]; m_delta := [1; 3; 6; 8] |} q)
         [0; 1; 2; 3; 4; 5; 6; 12; 13]
     = [Ok 0; Ok 1; Ok 3; Ok 6; Ok 10; Ok 13; Ok 14; Ok 20; Ok 21]
  /\ bytes_to_runes_and_offsets 30 c08_ex =
     Ok ([97; 233; 8364; 128512; 65533; 65533; 65533; 65533; 65533; 65533; 65533; 65533; 122],
         Some [0; 1; 3; 6; 10; 13; 14; 15; 16; 17; 18; 19; 20; 21])
  (* the []rune view of the same text re-encodes each invalid byte as 3 bytes *)
  /\ rune_byte_offsets (runes_of c08_ex) = Ok (Some [0; 1; 3; 6; 10; 13; 16; 19; 22; 25; 28; 31; 34; 35])
  /\ rune_byte_offsets [97; -1; 55296; 1114112; 233] = Ok (Some [0; 1; 4; 7; 10; 12])
  (* pure ASCII: no table at all *)
  /\ string_byte_offsets [97; 98; 99] = Ok None /\ new_byte_mapper [97; 98; 99] = None
  /\ rune_byte_offsets [97; 98; 99] = Ok None
  (* a lone invalid byte has width 1: still no table (rune index = byte index) *)
  /\ string_byte_offsets [97; 255; 98] = Ok None.
Proof. vm_compute. repeat split; reflexivity. Qed.

Example C08_slice_witness :
  let t := new_string_match_text c08_ex (runes_of c08_ex) in
  (* runes 2..5 = € 😀 U+FFFD(literal) U+FFFD(the byte E2) *)
  byte_range t 2 4 = Ok (3, 11)
  /\ go_slice c08_ex 3 14 = Ok [226; 130; 172; 240; 159; 152; 128; 239; 191; 189; 226]
  /\ capture_runes t 2 4 = Ok [8364; 128512; 65533; 65533]
  /\ runes_of [226; 130; 172; 240; 159; 152; 128; 239; 191; 189; 226] = [8364; 128512; 65533; 65533]
  (* String() re-encodes the invalid byte, so it differs from the addressed bytes here ... *)
  /\ capture_string t 2 4 = Ok [226; 130; 172; 240; 159; 152; 128; 239; 191; 189; 239; 191; 189]
  (* ... and equals them on a valid span *)
  /\ byte_range t 1 3 = Ok (1, 9)
  /\ capture_string t 1 3 = go_slice c08_ex 1 10
  /\ find_all_pair 30 (new_byte_mapper c08_ex) 2 4 = Ok (3, 14)
  (* out of range spans fault like the Go code *)
  /\ byte_range t 10 5 = Crash 1 /\ capture_runes t 10 5 = Crash 1.
Proof. vm_compute. repeat split; reflexivity. Qed.

Example C08_groups_witness :
  groups_of (group0 1 5) [[1; 5]; [1; 1; 3; 2; 0; 0; 0; 0]; []; [2; 0]] [1; 2; 0; 1] =
  Ok [ {| g_index := 1; g_length := 5; g_caps := [(1, 5)] |};
       {| g_index := 3; g_length := 2; g_caps := [(1, 1); (3, 2)] |};
       {| g_index := 0; g_length := 0; g_caps := [] |};
       {| g_index := 2; g_length := 0; g_caps := [(2, 0)] |} ]
  /\ stored_ok 6 [1; 1; 3; 2; 0; 0; 0; 0] 2
  (* more captures claimed than stored: the Go code would index out of range *)
  /\ new_group [1; 1] 2 = Crash 1.
Proof.
  split; [vm_compute; reflexivity|]. split; [|vm_compute; reflexivity].
  unfold stored_ok. change (Z.to_nat 2) with 2%nat. cbn [cap_pairs firstn length].
  split; [lia|]. split; [lia|]. repeat constructor; cbn [fst snd]; lia.
Qed.

(* ---- added by the lead: the interpreter-independent half of "every capture lies inside the input;
   group 0 has exactly one capture equal to the match", proved on the reference semantics for every
   tree (balancing groups included) in Proofs/SpecBoundsProofs.v. *)
Theorem C08_search_captures_in_bounds :
  ltac:(let t := type of Verif.Proofs.SpecBoundsProofs.C08_spec_captures_in_bounds in exact t).
Proof. exact Verif.Proofs.SpecBoundsProofs.C08_spec_captures_in_bounds. Qed.
Print Assumptions C08_search_captures_in_bounds.
Check Verif.Proofs.SpecBoundsProofs.C08_spec_captures_in_bounds.

Theorem C08_search_group0_single :
  ltac:(let t := type of Verif.Proofs.SpecBoundsProofs.C08_spec_group0_single in exact t).
Proof. exact Verif.Proofs.SpecBoundsProofs.C08_spec_group0_single. Qed.
Print Assumptions C08_search_group0_single.
Check Verif.Proofs.SpecBoundsProofs.C08_spec_group0_single.

(* ---- composition: the same two facts at the INTERPRETER level (Proofs/ComposeExec.v).
   C01_compile_correct2_exec_partial (whenever VM.exec_at returns, its state carries Spec.attempt's answer)
   o the two theorems above o C01_caps_rel2_reads (what a capture array with balanceMatch's markers denotes).
   Hypotheses: exactly those of C01_compile_correct2_exec_partial (cfg0 program of a supported2 tree -- every
   constructor, balancing groups included --, group numbers are slots, text length / reference fuel <= MaxInt32).
   [loops_min_ok root] is NOT a hypothesis here (it follows from supported2) and 0 < capsize p follows from
   groups_ok2.  Residual: [Spec.attempt e fuel root t0 = Ok r], i.e. the reference attempt terminates within the
   engine's counter range; nothing is claimed when exec_at does not return (C01_exec_total covers that).

   Whenever one execute() call returns with group 0 set:
   (1) Runtextpos is inside the text;
   (2) every slot g of the match object holds an array  flat (rev ps)  that DENOTES (Den) a stack stk of live
       captures, every capture of stk lies inside the text, and match.go's readers isMatched / matchIndex /
       matchLength answer from that stack (non-empty? / newest live capture). *)
From Verif Require Import Model.Tree Model.Spec Model.VM Model.Writer Proofs.SpecBoundsProofs Proofs.CompileBase Proofs.CompileDefs Proofs.CompileBalDen
  Proofs.CompileBalDefs Proofs.ComposeExec.

Theorem C08_exec_captures_in_bounds :
  forall (e : env) (p : program), 0 <= trackcount p -> tlen e <= INF ->
  forall L fuel vfuel o body t0 r s',
  let root := NCapture o 0 (-1) body in
  codes p = fst (compile cfg0 root) -> strings p = snd (compile cfg0 root) ->
  supported2 root = true -> groups_ok2 (capsize p) root -> 0 <= t0 <= tlen e ->
  Z.of_nat fuel <= INF ->
  Spec.attempt e fuel root t0 = Ok r ->
  exec_at e p L vfuel t0 = Ok s' -> matched0 s' = true ->
  0 <= tp s' <= tlen e /\
  forall g, 0 <= g < capsize p ->
    exists ps stk,
      nth (Z.to_nat g) (mcaps s') [] = flat (rev ps) /\ Den ps stk /\
      (forall i len, In (i, len) stk -> 0 <= i /\ 0 <= len /\ i + len <= tlen e) /\
      vm_is_matched g (mcaps s') = Some (match stk with [] => false | _ => true end) /\
      (forall i len rest, stk = (i, len) :: rest ->
         vm_match_index g (mcaps s') = Some i /\ vm_match_length g (mcaps s') = Some len).
Proof. exact cx_exec_captures_in_bounds. Qed.
Print Assumptions C08_exec_captures_in_bounds.

(* (3) group 0 is the match span: with the extra hypothesis [no_group0 body] (no node of the body writes or
   balances group 0), slot 0 denotes exactly the one capture [min t0 textpos, |textpos - t0|], so
   matchIndex(0) / matchLength(0) are the start and length of the match in either direction. *)
Theorem C08_exec_group0_is_match_span :
  forall (e : env) (p : program), 0 <= trackcount p -> tlen e <= INF ->
  forall L fuel vfuel o body t0 r s',
  let root := NCapture o 0 (-1) body in
  codes p = fst (compile cfg0 root) -> strings p = snd (compile cfg0 root) ->
  supported2 root = true -> groups_ok2 (capsize p) root -> 0 <= t0 <= tlen e ->
  Z.of_nat fuel <= INF ->
  Spec.attempt e fuel root t0 = Ok r ->
  no_group0 body ->
  exec_at e p L vfuel t0 = Ok s' -> matched0 s' = true ->
  0 < capsize p /\
  (exists ps, nth 0 (mcaps s') [] = flat (rev ps) /\
              Den ps [(Z.min t0 (tp s'), Z.abs (tp s' - t0))]) /\
  vm_is_matched 0 (mcaps s') = Some true /\
  vm_match_index 0 (mcaps s') = Some (Z.min t0 (tp s')) /\
  vm_match_length 0 (mcaps s') = Some (Z.abs (tp s' - t0)).
Proof. exact cx_exec_group0_is_match_span. Qed.
Print Assumptions C08_exec_group0_is_match_span.

(* non-vacuity: a^n b^n with (?<2-1>b) and (?<-2>) on "aabb" meets every hypothesis; the interpreter returns
   with group 0 set and marker pairs in slots 1 and 2 (Proofs/ComposeExec.v, by vm_compute) *)
Example C08_exec_witness := cx_demo.

(* ---- ... without the residual hypothesis "Spec.attempt e fuel root t0 = Ok r" (Proofs/SpecTermProofs.v proves
   that the reference attempt terminates with fuel  term_fuel e root  on trees with one-directional loop bodies;
   Proofs/ComposeTerm.v chains).  The two hypotheses that replace it are decidable on the instance:
   term_ok root = true  and  Z.of_nat (term_fuel e root) <= INF. *)
From Verif Require Import Proofs.SpecTermProofs Proofs.ComposeTerm.

Theorem C08_exec_captures_in_bounds_terminating :
  forall (e : env) (p : program), 0 <= trackcount p -> tlen e <= INF ->
  forall L vfuel o body t0 s',
  let root := NCapture o 0 (-1) body in
  codes p = fst (compile cfg0 root) -> strings p = snd (compile cfg0 root) ->
  supported2 root = true -> groups_ok2 (capsize p) root -> 0 <= t0 <= tlen e ->
  term_ok root = true -> Z.of_nat (term_fuel e root) <= INF ->
  exec_at e p L vfuel t0 = Ok s' -> matched0 s' = true ->
  0 <= tp s' <= tlen e /\
  forall g, 0 <= g < capsize p ->
    exists ps stk,
      nth (Z.to_nat g) (mcaps s') [] = flat (rev ps) /\ Den ps stk /\
      (forall i len, In (i, len) stk -> 0 <= i /\ 0 <= len /\ i + len <= tlen e) /\
      vm_is_matched g (mcaps s') = Some (match stk with [] => false | _ => true end) /\
      (forall i len rest, stk = (i, len) :: rest ->
         vm_match_index g (mcaps s') = Some i /\ vm_match_length g (mcaps s') = Some len).
Proof. exact ct_exec_captures_in_bounds. Qed.
Print Assumptions C08_exec_captures_in_bounds_terminating.

Theorem C08_exec_group0_is_match_span_terminating :
  forall (e : env) (p : program), 0 <= trackcount p -> tlen e <= INF ->
  forall L vfuel o body t0 s',
  let root := NCapture o 0 (-1) body in
  codes p = fst (compile cfg0 root) -> strings p = snd (compile cfg0 root) ->
  supported2 root = true -> groups_ok2 (capsize p) root -> 0 <= t0 <= tlen e ->
  term_ok root = true -> Z.of_nat (term_fuel e root) <= INF ->
  no_group0 body ->
  exec_at e p L vfuel t0 = Ok s' -> matched0 s' = true ->
  0 < capsize p /\
  (exists ps, nth 0 (mcaps s') [] = flat (rev ps) /\
              Den ps [(Z.min t0 (tp s'), Z.abs (tp s' - t0))]) /\
  vm_is_matched 0 (mcaps s') = Some true /\
  vm_match_index 0 (mcaps s') = Some (Z.min t0 (tp s')) /\
  vm_match_length 0 (mcaps s') = Some (Z.abs (tp s' - t0)).
Proof. exact ct_exec_group0_is_match_span. Qed.
Print Assumptions C08_exec_group0_is_match_span_terminating.

Example C08_terminating_witness := ct_demo.

(* C02 — every entry point reports the same matches: the bool-only entry points run a "quick"
   program from which unobservable captures are removed.
   This file only states the property theorems; proofs are in Proofs/EraseProofs.v.
   [observed g t]: group g is read inside t (back-reference, back-reference conditional, either side
   of a balancing capture).  [erase keep t]: every plain capture (?<g>...) with keep g = false becomes a
   non-capturing group. *)
From Verif Require Import Base.Prelude Model.Tree Model.Spec Model.VM Model.Writer Proofs.EraseProofs
  Proofs.EraseLinkProofs.

(* Spec level: if no erased group is observed in the tree, the leftmost priority-ordered search on
   the erased tree succeeds exactly when it does on the original, ends at the same text position,
   and records the same capture stack for every kept group — in particular group 0 (the match
   span) when keep 0 = true; it reports "no match" exactly when the original does (and runs out of
   fuel exactly when the original does).  All trees, inputs, directions, start offsets. *)
Theorem C02_erasing_unobserved_captures_preserves_matches :
  forall e keep fuel root rtl start prevlen,
  (forall g, keep g = false -> observed g root = false) ->
  let r1 := find e fuel root rtl start prevlen in
  let r2 := find e fuel (erase keep root) rtl start prevlen in
  (forall s1, r1 = Ok (Some s1) ->
     exists s2, r2 = Ok (Some s2) /\ pos s1 = pos s2 /\
                forall g, keep g = true -> cap_get g (caps s1) = cap_get g (caps s2)) /\
  (forall s2, r2 = Ok (Some s2) ->
     exists s1, r1 = Ok (Some s1) /\ pos s1 = pos s2 /\
                forall g, keep g = true -> cap_get g (caps s1) = cap_get g (caps s2)) /\
  (r1 = Ok None <-> r2 = Ok None) /\
  (r1 = Fuel <-> r2 = Fuel).
Proof. exact erase_find. Qed.
Print Assumptions C02_erasing_unobserved_captures_preserves_matches.

(* ... and the same at the level of whole result lists of any node from any two states that agree
   on the position and on the kept groups: same length, pairwise agreeing. *)
Theorem C02_erasing_unobserved_captures_preserves_result_lists :
  forall e keep fuel t s1 s2,
  (forall g, keep g = false -> observed g t = false) -> agree keep s1 s2 ->
  rrel (Forall2 (agree keep)) (sem e fuel t s1) (sem e fuel (erase keep t) s2).
Proof. exact erase_unobserved_obs. Qed.
Print Assumptions C02_erasing_unobserved_captures_preserves_result_lists.

(* Writer level: the quick program (code words and string table) is exactly the full program of
   the erased tree, where a plain capture of g is kept iff the writer's own test says so.
   Side condition: the slot map never maps a group to -1 (the Go writer builds it as
   caps[Capnumlist[i]] = i); it is needed — see EraseProofs.erase_compile_needs_bal_ok, and
   EraseProofs.erase_compile for the weakest tree-local form [bal_ok cm t = true]. *)
Theorem C02_quick_program_is_program_of_erased_tree :
  forall cm q t,
  capmap_ok cm ->
  compile {| capmap := cm; quick := Some q |} t =
  compile {| capmap := cm; quick := None |}
          (erase (fun g => emit_capture {| capmap := cm; quick := Some q |} g (-1)) t).
Proof. exact erase_compile_capmap_ok. Qed.
Print Assumptions C02_quick_program_is_program_of_erased_tree.

(* The two levels joined: whenever syntax.Write produces a quick program (captureSlotsInUse of the
   full program says some slot is unused), that program is the full program of a tree [erase keep root]
   whose search gives the same answers as the original's: same success / failure, same final
   position, same capture stacks for every kept group, and the groups of slot 0 (the match) are kept.
   [reads g t] (<= observed g t): g is the target of a back-reference, of a back-reference
   conditional, or the popped side of a balancing capture.
   Side conditions (invariants of the Go parser/writer): every balancing capture's popped group has
   a slot (bal_ok; follows from capmap_ok), every group the tree reads has a non-negative slot. *)
Theorem C02_quick_program_sound :
  forall cm capsize root prog,
  bal_ok cm root = true ->
  (forall g, reads g root = true -> 0 <= map_capnum {| capmap := cm; quick := None |} g) ->
  write_quick cm capsize root = Some prog ->
  exists keep,
    prog = fst (write_full cm (erase keep root)) /\
    (forall g, map_capnum {| capmap := cm; quick := None |} g = 0 -> keep g = true) /\
    forall e fuel rtl start prevlen,
      let r1 := find e fuel root rtl start prevlen in
      let r2 := find e fuel (erase keep root) rtl start prevlen in
      (forall s1, r1 = Ok (Some s1) -> exists s2, r2 = Ok (Some s2) /\ agree keep s1 s2) /\
      (forall s2, r2 = Ok (Some s2) -> exists s1, r1 = Ok (Some s1) /\ agree keep s1 s2) /\
      (r1 = Ok None <-> r2 = Ok None) /\
      (r1 = Fuel <-> r2 = Fuel).
Proof. exact write_quick_sound_spelled. Qed.
Print Assumptions C02_quick_program_sound.

(* Non-vacuity.  (a)(b)\1 on "aba": group 1 is referenced, group 2 is not.  The in-use vector
   computed from the full program keeps slots 0 and 1; erasing turns (b) into (?:b); both trees
   match [0,3) with the same groups 0 and 1; the quick program is the program of the erased tree
   and is 4 words shorter than the full one. *)
Example C02_witness :
  let e := {| txt := [97; 98; 97]; tstart := 0; ecma := false; endz_strict := false;
              set_in := fun _ _ => false; lower := fun x => x;
              is_word := fun _ => true; is_eword := fun _ => true |} in
  let root := NCapture 0 0 (-1)
                (NConcat 0 [NCapture 0 1 (-1) (NChar COne 0 97); NCapture 0 2 (-1) (NChar COne 0 98);
                            NRef 0 1]) in
  let q := slots_in_use (fst (write_full None root)) 3 in
  let keep := fun g => emit_capture {| capmap := None; quick := Some q |} g (-1) in
  let quickprog := [23; 16; 31; 31; 9; 97; 32; 1; -1; 9; 98; 13; 1; 32; 0; -1; 40] in
  q = [true; true; false] /\
  map (fun g => observed g root) [0; 1; 2] = [false; true; false] /\
  erase keep root =
    NCapture 0 0 (-1)
      (NConcat 0 [NCapture 0 1 (-1) (NChar COne 0 97); NGroup (NChar COne 0 98); NRef 0 1]) /\
  find e 20 root false 0 (-1) =
    Ok (Some {| pos := 3; caps := [(1, [(0, 1)]); (2, [(1, 1)]); (0, [(0, 3)])] |}) /\
  find e 20 (erase keep root) false 0 (-1) =
    Ok (Some {| pos := 3; caps := [(1, [(0, 1)]); (0, [(0, 3)])] |}) /\
  write_full None root =
    ([23; 20; 31; 31; 9; 97; 32; 1; -1; 31; 9; 98; 32; 2; -1; 13; 1; 32; 0; -1; 40], []) /\
  write_quick None 3 root = Some quickprog /\
  compile {| capmap := None; quick := None |} (erase keep root) = (quickprog, []).
Proof. vm_compute. repeat split; reflexivity. Qed.

(* ================================================================================================
   The string entry points (stringprefixfilter.go, regexp.go) — Model/Entry.v.
   Proofs: Proofs/EntryBase.v, EntryFilter.v, EntryProofs.v, EntryExamples.v.
   Leg c02-filter compares Model/Entry.v with the implementation on every run (filter choice, every
   filter answer on all short byte strings incl. invalid UTF-8, the glue of each entry point).

   b : byte string; runes_of b = []rune(b) (invalid bytes decode to U+FFFD one byte at a time);
   boundary b k = byte offset of rune k.  Rune positions are nat.
   ================================================================================================ *)
From Verif Require Import Base.Utf8 Gen.CodeGen Model.Offsets Model.Entry Proofs.Utf8Proofs
  Proofs.EntryBase Proofs.EntryFilter Proofs.EntryProofs Proofs.EntryBoundary Proofs.EntryExamples.

(* (iii) byte-level search agrees with the rune-level fact.
   Self-synchronisation: a decoded rune other than U+FFFD stands in the string as its own UTF-8
   encoding, at the byte offset of its rune position (U+FFFD may stand for an invalid byte instead —
   this is why literals containing U+FFFD are refused). *)
Theorem C02_decoded_rune_is_its_encoding :
  forall (s : list Z) (k : nat) (c : Z) (w : nat),
    nth_error (decode s) k = Some (c, w) -> c <> rune_error ->
    valid_rune c = true /\ Z.of_nat w = rune_len c /\
    skipn (boundary s k) s = encode c ++ skipn (boundary s (S k)) s.
Proof. exact enb_rune_bytes. Qed.
Print Assumptions C02_decoded_rune_is_its_encoding.

(* A literal fact in C04's form ("the re-encoded text from rune q on starts with the bytes P", cf.
   C04_find_prefix_sound) for a literal without U+FFFD is a byte occurrence of P in the RAW string
   at the byte offset of q: what strings.Index looks for. *)
Theorem C02_literal_fact_is_raw_byte_occurrence :
  forall (b : list Z) (q : nat) (P : list Z),
    en_contains_rune P rune_error = false ->
    (exists rest, encode_string (skipn q (runes_of b)) = P ++ rest) ->
    en_has_prefix (skipn (boundary b q) b) P = true.
Proof. exact enf_lit_bytes. Qed.
Print Assumptions C02_literal_fact_is_raw_byte_occurrence.

(* ... and the ordinal-ignore-case fact for an ASCII literal is what IndexStringIgnoreCaseASCII compares *)
Theorem C02_ignore_case_fact_is_raw_byte_occurrence :
  forall (b : list Z) (P : list Z) (q : nat),
    Forall (fun x => 0 <= x < 128) P ->
    en_equal_fold_prefix (skipn q (runes_of b)) P = true ->
    en_equal_fold_prefix (skipn (boundary b q) b) P = true.
Proof. exact enf_ci_bytes. Qed.
Print Assumptions C02_ignore_case_fact_is_raw_byte_occurrence.

(* utf8.DecodeLastRuneInString on the prefix ending at a rune boundary steps back exactly one rune of
   the FORWARD decoding, also through invalid bytes (stringFixedDistanceCandidateStart relies on it) *)
Theorem C02_backward_decoding_follows_forward_boundaries :
  forall (b : list Z) (k : nat) (c : Z) (w : nat),
    nth_error (decode b) k = Some (c, w) ->
    snd (en_decode_last_rune (firstn (boundary b (S k)) b)) = Z.of_nat w.
Proof. exact enf_dlr_step. Qed.
Print Assumptions C02_backward_decoding_follows_forward_boundaries.

(* (i)+(ii) Every filter closure is SOUND and TRANSPARENT.  [enf_ok f]: what the constructor
   guarantees about the needle (no U+FFFD, ASCII where required, distance >= 0, ...); [enf_fact f r q]:
   the compile-time fact f was built from holds at rune position q.  Called at the byte offset of rune
   k0 the closure always answers (no fault, the loops terminate within len+1 turns), and
   - "no candidate" : no position q >= k0 satisfies the fact,
   - candidate c     : every position q >= k0 satisfying the fact starts at byte c or later.
   All seven closures: Index / IgnoreCase prefix, prefix list (fallback and ASCII string set),
   fixed-distance set / char / string, literal after loop. *)
Theorem C02_prefilter_sound_and_transparent :
  forall f : en_filter, enf_ok f ->
  forall (b : list Z) (k0 : nat), (k0 <= length (decode b))%nat ->
    exists c ok, en_run_filter f b (Z.of_nat (boundary b k0)) = Ok (c, ok) /\
      (ok = false -> forall q, (k0 <= q <= length (decode b))%nat -> ~ enf_fact f (runes_of b) q) /\
      (ok = true -> forall q, (k0 <= q <= length (decode b))%nat -> enf_fact f (runes_of b) q ->
                    c <= Z.of_nat (boundary b q)).
Proof. exact enf_filter_sound. Qed.
Print Assumptions C02_prefilter_sound_and_transparent.

(* newStringPrefixFilter builds a filter only for a left-to-right program WITHOUT a Start (\G)
   instruction, the filter satisfies enf_ok, and the facts published in the FindOptimizations record
   (enp_code_fact, by FindMode: leading prefix / prefixes, ordinal-ignore-case prefix(es),
   fixed-distance set / char / string, literal after loop, and MinRequiredLength) are the fact of
   the filter it chose. *)
Theorem C02_constructor_guarantees :
  forall (c : en_code) (f : en_filter),
    en_new_filter c = Ok (Some f) ->
    cd_rtl c = false /\
    en_has_opcode (S (length (cd_codes c))) (cd_codes c) G_Start = Ok false /\
    enf_ok f /\
    exists o, cd_opts c = Some o /\ forall r q, enp_code_fact o r q -> enf_fact f r q.
Proof. exact enp_constructor. Qed.
Print Assumptions C02_constructor_guarantees.

(* (ii) a candidate answered by a filter the constructor built is the byte offset of a rune at or after
   the start: the defensive validation of findStringPrefixCandidate (candidate < startAt, > len, not
   on a boundary -> fall back to startAt) never fires, and the unvalidated use in MatchString /
   matchStringAt decodes the candidate to a rune index. *)
Theorem C02_candidate_is_rune_boundary_at_or_after_start :
  forall (c : en_code) (f : en_filter),
    en_new_filter c = Ok (Some f) ->
    forall (b : list Z) (k0 : nat) (cand : Z), (k0 <= length (decode b))%nat ->
      en_run_filter f b (Z.of_nat (boundary b k0)) = Ok (cand, true) ->
      exists k', (k0 <= k' <= length (decode b))%nat /\ cand = Z.of_nat (boundary b k').
Proof. exact enf_constructor_candidates_on_boundaries. Qed.
Print Assumptions C02_candidate_is_rune_boundary_at_or_after_start.

(* findStringPrefixCandidate (the filter call + its validation) from the byte offset of rune k:
   "no candidate" implies the engine finds nothing from k; otherwise the candidate is the byte offset
   of a rune k' >= k from which the engine finds exactly what it finds from k.
   [enp_flt_hyp]: right-to-left (filter ignored), or no filter, or a filter with enf_ok, its fact at
   every match start, and an engine that is start independent (enp_start_indep). *)
Theorem C02_candidate_sound_and_transparent :
  forall (M : Type) (m_index : M -> Z) (search : list Z -> Z -> option M) (rtl : bool) (flt : option en_filter)
         (b : list Z) (k : nat),
    enp_in_range M m_index search -> enp_flt_hyp M m_index search rtl flt -> (k <= length (decode b))%nat ->
    (en_prefix_candidate rtl flt b (Z.of_nat (boundary b k)) = Ok (0, false) /\
     search (runes_of b) (Z.of_nat k) = None) \/
    (exists k', (k <= k' <= length (decode b))%nat /\
       en_prefix_candidate rtl flt b (Z.of_nat (boundary b k)) = Ok (Z.of_nat (boundary b k'), true) /\
       search (runes_of b) (Z.of_nat k') = search (runes_of b) (Z.of_nat k)).
Proof. exact enp_prefix_candidate. Qed.
Print Assumptions C02_candidate_sound_and_transparent.

(* HEADLINE.  For every program data the constructor accepts or refuses (flt is whatever it returns),
   an abstract engine [search] (Runner.scan on a fresh scan; C01/C03 are about it) with
     enp_in_range      a match found from s starts in [s, len];
     enp_quick_agrees  the bool-only program answers "is there a match" (C02_quick_program_sound);
     start independence, required ONLY when the program has no Start instruction (the constructor's
                       \G exclusion; C02_start_anchor_exclusion_needed shows it cannot be dropped);
     the published facts at every match start, required only when a filter was built;
   every string entry point equals the rune entry point on the decoded input:
   FindStringMatch = FindRunesMatch; FindStringMatchStartingAt at the byte offset of rune k =
   FindRunesMatchStartingAt k; a negative start means the default start in both; a start past the end /
   inside a rune is the documented error; MatchString = MatchRunes.
   (The Match's byte indices are the image of the rune indices under the index map: C08.) *)
Theorem C02_string_entry_equals_rune_entry :
  forall (M : Type) (m_index : M -> Z) (search : list Z -> Z -> option M) (search_quick : list Z -> Z -> bool)
         (c : en_code) (flt : option en_filter),
    en_new_filter c = Ok flt ->
    enp_in_range M m_index search ->
    enp_quick_agrees M search search_quick ->
    (en_has_opcode (S (length (cd_codes c))) (cd_codes c) G_Start = Ok false -> enp_start_indep M m_index search) ->
    (forall o f, cd_opts c = Some o -> flt = Some f ->
       forall b q, enp_starts M m_index search (runes_of b) q -> enp_code_fact o (runes_of b) q) ->
    forall b : list Z,
      let rtl := cd_rtl c in
      let r := runes_of b in
      en_find_string_match M search rtl flt b = en_find_runes_match M search rtl r /\
      (forall k, (k <= length r)%nat ->
         en_find_string_match_starting_at M search rtl flt b (Z.of_nat (boundary b k)) =
         en_find_runes_match_starting_at M search rtl r (Z.of_nat k)) /\
      (forall i, i < 0 ->
         en_find_string_match_starting_at M search rtl flt b i = en_find_runes_match_starting_at M search rtl r i) /\
      (forall i, zlen b < i -> en_find_string_match_starting_at M search rtl flt b i = Err ERR_START_TOO_LARGE) /\
      (forall i, 0 <= i <= zlen b -> en_is_boundary b i = false ->
         en_find_string_match_starting_at M search rtl flt b i = Err ERR_START_NOT_BOUNDARY) /\
      en_match_string search_quick rtl flt b = en_match_runes search_quick rtl r.
Proof. exact enp_string_entry_equals_rune_entry. Qed.
Print Assumptions C02_string_entry_equals_rune_entry.

(* FindAllStringIndex up to its first scan: the rune slice is the decoded input and the first scan
   starts where it finds what a scan from the default start (0, or the end when right-to-left) finds;
   "return nil" exactly when that scan finds nothing.  The rest of the iteration depends only on
   that match (C07). *)
Theorem C02_find_all_string_first_scan :
  forall (M : Type) (m_index : M -> Z) (search : list Z -> Z -> option M) (rtl : bool) (flt : option en_filter)
         (b : list Z),
    enp_in_range M m_index search -> enp_flt_hyp M m_index search rtl flt ->
    (en_find_all_string_start rtl flt b = Ok None /\
     search (runes_of b) (Z.of_nat (enp_default_start rtl b)) = None) \/
    (exists k', (k' <= length (decode b))%nat /\
       en_find_all_string_start rtl flt b = Ok (Some (runes_of b, Z.of_nat k')) /\
       search (runes_of b) (Z.of_nat k') = search (runes_of b) (Z.of_nat (enp_default_start rtl b))).
Proof. exact enp_find_all_string_start. Qed.
Print Assumptions C02_find_all_string_first_scan.

(* Where the two engine hypotheses come from: ANY scan "attempt at s, s+1, ..., len, first success"
   whose single attempts do not read the scan start (the only channel is Runtextstart, read by the
   Start instruction alone) is in range and start independent.  The accelerator-free scan has this
   shape (Model/Scan.naive_scan) and C03 proves the accelerated scan equal to it. *)
Theorem C02_scan_of_start_blind_attempts_is_start_independent :
  forall (M : Type) (m_index : M -> Z) (attempt : list Z -> nat -> option M),
    (forall r q m, attempt r q = Some m -> m_index m = Z.of_nat q) ->
    enp_in_range M m_index (enp_scan M attempt) /\ enp_start_indep M m_index (enp_scan M attempt).
Proof. exact enp_scan_engine. Qed.
Print Assumptions C02_scan_of_start_blind_attempts_is_start_independent.

(* Each exclusion of the constructor is needed.
   \G: the engine of (?=\G)abc (a match only AT the scan start) is in range and satisfies the fact of
   the prefix filter "abc" at every match start, the filter satisfies enf_ok — only start
   independence fails — and on "xabc" FindStringMatch = match at 1, FindRunesMatch = no match. *)
Theorem C02_start_anchor_exclusion_needed :
  enp_in_range Z enx_index enx_search_G /\
  enf_ok (FPrefix enx_abc false 3) /\
  (forall b q, enp_starts Z enx_index enx_search_G (runes_of b) q -> enf_fact (FPrefix enx_abc false 3) (runes_of b) q) /\
  ~ enp_start_indep Z enx_index enx_search_G /\
  let b := [120; 97; 98; 99] in
  en_find_string_match Z enx_search_G false enx_flt_abc b = Ok (Some 1) /\
  en_find_runes_match Z enx_search_G false (runes_of b) = Ok None.
Proof. exact enx_start_indep_needed. Qed.
Print Assumptions C02_start_anchor_exclusion_needed.

(* U+FFFD: the engine of \x{fffd} satisfies every engine hypothesis and the literal fact EF BF BD; the
   filter searching those bytes (enf_ok fails: the needle contains U+FFFD) rejects "\xff", which
   decodes to U+FFFD and matches. *)
Theorem C02_fffd_guard_needed :
  enp_in_range Z enx_index (enx_scan enx_p_fffd) /\
  enp_start_indep Z enx_index (enx_scan enx_p_fffd) /\
  (forall b q, enp_starts Z enx_index (enx_scan enx_p_fffd) (runes_of b) q ->
               enf_fact (FPrefix enx_fffd_bytes false 1) (runes_of b) q) /\
  ~ enf_ok (FPrefix enx_fffd_bytes false 1) /\
  let b := [255] in
  en_find_string_match Z (enx_scan enx_p_fffd) false (Some (FPrefix enx_fffd_bytes false 1)) b = Ok None /\
  en_find_runes_match Z (enx_scan enx_p_fffd) false (runes_of b) = Ok (Some 0).
Proof. exact enx_fffd_guard_needed. Qed.
Print Assumptions C02_fffd_guard_needed.

(* Non-vacuity.  The constructor refuses a program with a Start instruction, a literal containing
   U+FFFD, a right-to-left program ... *)
Example C02_constructor_declines :
  en_new_filter {| cd_rtl := false; cd_codes := [23; 6; 19; 12; 0; 40]; cd_opts := cd_opts enx_code_abc |} = Ok None /\
  en_new_filter {| cd_rtl := false; cd_codes := [23; 5; 12; 0; 40];
                   cd_opts := Some {| fo_mode := MODE_LeadingString_LeftToRight; fo_min := 2; fo_prefix := 97 :: enx_fffd_bytes;
                                      fo_prefixes := []; fo_lit_s := []; fo_lit_c := 0; fo_lit_dist := 0; fo_sets := [];
                                      fo_lal := None |} |} = Ok None /\
  en_new_filter {| cd_rtl := true; cd_codes := cd_codes enx_code_abc; cd_opts := cd_opts enx_code_abc |} = Ok None.
Proof. vm_compute. repeat split; reflexivity. Qed.

(* ... and all hypotheses of the headline theorem hold together for the pattern abc (program
   Lazybranch; Multi "abc"; Stop, mode LeadingString_LeftToRight, prefix "abc", minimum 3) with the
   engine "first position where abc stands" ... *)
Example C02_entry_hypotheses_met :
  en_new_filter enx_code_abc = Ok enx_flt_abc /\
  enp_in_range Z enx_index (enx_scan enx_p_abc) /\
  enp_quick_agrees Z (enx_scan enx_p_abc) (enx_quick enx_p_abc) /\
  (en_has_opcode (S (length (cd_codes enx_code_abc))) (cd_codes enx_code_abc) G_Start = Ok false ->
   enp_start_indep Z enx_index (enx_scan enx_p_abc)) /\
  (forall o f, cd_opts enx_code_abc = Some o -> enx_flt_abc = Some f ->
     forall b q, enp_starts Z enx_index (enx_scan enx_p_abc) (runes_of b) q -> enp_code_fact o (runes_of b) q).
Proof. exact enx_abc_hypotheses. Qed.

(* ... where on "xéabc" the filter answers byte 3 (= rune 2), both entry points report the match at
   rune 2, byte 2 (inside é) is refused and byte 4 finds nothing. *)
Example C02_entry_witness :
  let b := [120; 195; 169; 97; 98; 99] in
  en_run_filter (FPrefix enx_abc false 3) b 0 = Ok (3, true) /\
  en_find_string_match Z (enx_scan enx_p_abc) false enx_flt_abc b = Ok (Some 2) /\
  en_find_runes_match Z (enx_scan enx_p_abc) false (runes_of b) = Ok (Some 2) /\
  en_match_string (enx_quick enx_p_abc) false enx_flt_abc b = Ok true /\
  en_find_string_match_starting_at Z (enx_scan enx_p_abc) false enx_flt_abc b 2 = Err ERR_START_NOT_BOUNDARY /\
  en_find_string_match_starting_at Z (enx_scan enx_p_abc) false enx_flt_abc b 4 = Ok None.
Proof. vm_compute. repeat split; reflexivity. Qed.

(* ================================================================================================
   Composition: the abstract engine of the headline instantiated by the REFERENCE SEMANTICS
   (Model/Spec.v: find = leftmost priority-ordered search; C01, C03 are about it), left-to-right.
   Proofs: Proofs/ComposeEntry.v.

     ce_env e0 r ts        the oracles of e0 on the text r with \G bound to ts
     ce_search e0 fuel_of root r s
                           FindRunesMatchStartingAt(r, s): Spec.find on a fresh scan (prevlen = -1) with
                           \G = s and fuel fuel_of r; "out of fuel" is no answer
     ce_index m            Match.RuneIndex: the start of the capture of group 0
     ce_search_quick ... keep root   the same search on [erase keep root], reporting only success
     ce_no_start t         the tree contains no \G (NAnchor AStart), anywhere
     ce_terminates e0 fuel_of root   RESIDUAL HYPOTHESIS: with fuel fuel_of r every single attempt
                           inside r returns (Spec.attempt is fuel-indexed; its termination is the accepted
                           residual hypothesis of the project).  Needed for start independence only:
                           without it a scan from s may die of fuel exhaustion at a position before s'
                           (answer: none) while the scan from s' succeeds.

   Right-to-left is NOT covered: for a right-to-left engine a match found from s lies at or before s, so
   the headline's hypothesis enp_in_range (s <= index) is the wrong shape for it (the headline itself only
   uses it on the filter path, which right-to-left programs never take); the theorems below are stated
   for cd_rtl c = false and trees with shape_ok false.
   ================================================================================================ *)
From Verif Require Import Model.Analysis Proofs.SpecBoundsProofs Proofs.ComposeEntry.

(* A tree without \G is evaluated without reading the scan start: two environments that agree on
   everything but [tstart] give the same result lists for every node, fuel and state, hence the same
   attempts and the same scans, in both directions.  No hypothesis. *)
Theorem C02_attempt_does_not_read_start :
  forall (e e' : env) (t : node),
    txt e' = txt e /\ ecma e' = ecma e /\ endz_strict e' = endz_strict e /\ set_in e' = set_in e /\
    lower e' = lower e /\ is_word e' = is_word e /\ is_eword e' = is_eword e ->
    ce_no_start t = true ->
    forall fuel,
      (forall s, sem e' fuel t s = sem e fuel t s) /\
      (forall p, attempt e' fuel t p = attempt e fuel t p) /\
      (forall rtl start prevlen, find e' fuel t rtl start prevlen = find e fuel t rtl start prevlen).
Proof. exact ce_sem_start_indep. Qed.
Print Assumptions C02_attempt_does_not_read_start.

(* Program <-> tree: Code.HasOpcode(Start) on the program the writer emits (any configuration: full or
   quick, any slot map) answers without fault, and says true exactly when the tree contains \G.  In
   particular the test the constructor makes ("no Start instruction") means "no \G in the tree".
   No hypothesis. *)
Theorem C02_has_opcode_start_is_tree_has_start_anchor :
  forall (cfg : wcfg) (root : node),
    en_has_opcode (S (length (fst (compile cfg root)))) (fst (compile cfg root)) G_Start =
    Ok (negb (ce_no_start root)).
Proof. exact ce_has_opcode_start. Qed.
Print Assumptions C02_has_opcode_start_is_tree_has_start_anchor.

Theorem C02_no_start_opcode_means_no_start_anchor :
  forall (cfg : wcfg) (root : node),
    en_has_opcode (S (length (fst (compile cfg root)))) (fst (compile cfg root)) G_Start = Ok false ->
    ce_no_start root = true.
Proof. exact ce_no_opcode_start_no_anchor. Qed.
Print Assumptions C02_no_start_opcode_means_no_start_anchor.

(* enp_in_range for the reference engine: a match found from s starts in [s, len].  Tree side
   conditions: left-to-right and well-shaped outside lookarounds (shape_ok false: C04's hypothesis on
   trees), nothing in the body writes group 0 (C08's).  No termination hypothesis. *)
Theorem C02_spec_search_in_range :
  forall (e0 : env) (fuel_of : list Z -> nat) (o : Z) (body : node),
    shape_ok false (NCapture o 0 (-1) body) = true -> no_group0 body ->
    enp_in_range st ce_index (ce_search e0 fuel_of (NCapture o 0 (-1) body)).
Proof. exact ce_in_range. Qed.
Print Assumptions C02_spec_search_in_range.

(* enp_start_indep for the reference engine of a tree without \G.  Hypothetical: ce_terminates. *)
Theorem C02_spec_search_start_independent :
  forall (e0 : env) (fuel_of : list Z -> nat) (o : Z) (body : node),
    shape_ok false (NCapture o 0 (-1) body) = true -> no_group0 body ->
    ce_no_start (NCapture o 0 (-1) body) = true ->
    ce_terminates e0 fuel_of (NCapture o 0 (-1) body) ->
    enp_start_indep st ce_index (ce_search e0 fuel_of (NCapture o 0 (-1) body)).
Proof. exact ce_start_indep. Qed.
Print Assumptions C02_spec_search_start_independent.

(* enp_quick_agrees for the reference engine: whenever syntax.Write produces a quick program it is the
   full program of [erase keep root] and the search on that tree answers "is there a match" exactly as
   the search on the original does (also when fuel runs out: both say no).  Side conditions: those of
   C02_quick_program_sound.  No termination hypothesis. *)
Theorem C02_spec_search_quick_agrees :
  forall (e0 : env) (fuel_of : list Z -> nat) cm capsize root prog,
    bal_ok cm root = true ->
    (forall g, reads g root = true -> 0 <= map_capnum {| capmap := cm; quick := None |} g) ->
    write_quick cm capsize root = Some prog ->
    exists keep,
      prog = fst (write_full cm (erase keep root)) /\
      (forall g, map_capnum {| capmap := cm; quick := None |} g = 0 -> keep g = true) /\
      enp_quick_agrees st (ce_search e0 fuel_of root) (ce_search_quick e0 fuel_of keep root).
Proof. exact ce_quick_agrees. Qed.
Print Assumptions C02_spec_search_quick_agrees.

(* ... and for any keep that erases only unobserved groups (C02_erasing_unobserved_captures_preserves_matches) *)
Theorem C02_spec_search_quick_agrees_for_unobserved :
  forall (e0 : env) (fuel_of : list Z -> nat) keep root,
    (forall g, keep g = false -> observed g root = false) ->
    enp_quick_agrees st (ce_search e0 fuel_of root) (ce_search_quick e0 fuel_of keep root).
Proof. exact ce_quick_agrees_of_keep. Qed.
Print Assumptions C02_spec_search_quick_agrees_for_unobserved.

(* HEADLINE FOR TREES.  The program is the one the writer emits for root = (capture 0 of body), left to
   right; the engine is the reference search on that tree.  enp_in_range and start independence are no
   longer hypotheses: the first is proved, the second follows from the constructor's own test (no Start
   opcode in the emitted program = no \G in the tree).  What stays hypothetical:
     - ce_terminates (residual termination of Spec.attempt);
     - the published facts at match starts (C04's business), only when a filter was built;
     - enp_quick_agrees for the bool-only search (discharged by the next theorem);
     - the tree side conditions shape_ok false root / no_group0 body.
   Conclusion: exactly that of C02_string_entry_equals_rune_entry with M := st, rtl := false. *)
Theorem C02_string_entry_equals_rune_entry_for_trees :
  forall (e0 : env) (fuel_of : list Z -> nat) (search_quick : list Z -> Z -> bool)
         (c : en_code) (flt : option en_filter) (cfg : wcfg) (o : Z) (body : node),
    let root := NCapture o 0 (-1) body in
    let search := ce_search e0 fuel_of root in
    cd_rtl c = false ->
    cd_codes c = fst (compile cfg root) ->
    en_new_filter c = Ok flt ->
    shape_ok false root = true ->
    no_group0 body ->
    ce_terminates e0 fuel_of root ->
    enp_quick_agrees st search search_quick ->
    (forall o' f, cd_opts c = Some o' -> flt = Some f ->
       forall b q, enp_starts st ce_index search (runes_of b) q -> enp_code_fact o' (runes_of b) q) ->
    forall b : list Z,
      let r := runes_of b in
      en_find_string_match st search false flt b = en_find_runes_match st search false r /\
      (forall k, (k <= length r)%nat ->
         en_find_string_match_starting_at st search false flt b (Z.of_nat (boundary b k)) =
         en_find_runes_match_starting_at st search false r (Z.of_nat k)) /\
      (forall i, i < 0 ->
         en_find_string_match_starting_at st search false flt b i = en_find_runes_match_starting_at st search false r i) /\
      (forall i, zlen b < i -> en_find_string_match_starting_at st search false flt b i = Err ERR_START_TOO_LARGE) /\
      (forall i, 0 <= i <= zlen b -> en_is_boundary b i = false ->
         en_find_string_match_starting_at st search false flt b i = Err ERR_START_NOT_BOUNDARY) /\
      en_match_string search_quick false flt b = en_match_runes search_quick false r.
Proof. exact ce_string_entry_for_trees. Qed.
Print Assumptions C02_string_entry_equals_rune_entry_for_trees.

(* ... with the bool-only search instantiated too: whenever syntax.Write produces a quick program (side
   conditions of C02_quick_program_sound) it is the program of [erase keep root], and MatchString /
   MatchRunes run the reference search on that tree. *)
Theorem C02_string_entry_equals_rune_entry_for_trees_with_quick_program :
  forall (e0 : env) (fuel_of : list Z -> nat)
         (c : en_code) (flt : option en_filter) (cfg : wcfg) (o : Z) (body : node)
         (cm : option (list (Z * Z))) (capsize : Z) (prog : list Z),
    let root := NCapture o 0 (-1) body in
    let search := ce_search e0 fuel_of root in
    cd_rtl c = false ->
    cd_codes c = fst (compile cfg root) ->
    en_new_filter c = Ok flt ->
    shape_ok false root = true ->
    no_group0 body ->
    ce_terminates e0 fuel_of root ->
    bal_ok cm root = true ->
    (forall g, reads g root = true -> 0 <= map_capnum {| capmap := cm; quick := None |} g) ->
    write_quick cm capsize root = Some prog ->
    (forall o' f, cd_opts c = Some o' -> flt = Some f ->
       forall b q, enp_starts st ce_index search (runes_of b) q -> enp_code_fact o' (runes_of b) q) ->
    exists keep,
      prog = fst (write_full cm (erase keep root)) /\
      forall b : list Z,
        let r := runes_of b in
        let search_quick := ce_search_quick e0 fuel_of keep root in
        en_find_string_match st search false flt b = en_find_runes_match st search false r /\
        (forall k, (k <= length r)%nat ->
           en_find_string_match_starting_at st search false flt b (Z.of_nat (boundary b k)) =
           en_find_runes_match_starting_at st search false r (Z.of_nat k)) /\
        (forall i, i < 0 ->
           en_find_string_match_starting_at st search false flt b i = en_find_runes_match_starting_at st search false r i) /\
        (forall i, zlen b < i -> en_find_string_match_starting_at st search false flt b i = Err ERR_START_TOO_LARGE) /\
        (forall i, 0 <= i <= zlen b -> en_is_boundary b i = false ->
           en_find_string_match_starting_at st search false flt b i = Err ERR_START_NOT_BOUNDARY) /\
        en_match_string search_quick false flt b = en_match_runes search_quick false r.
Proof. exact ce_string_entry_for_trees_quick. Qed.
Print Assumptions C02_string_entry_equals_rune_entry_for_trees_with_quick_program.

(* The \G exclusion is needed at this level too.  \Gabc under the root capture: well shaped, group 0
   untouched, every attempt terminates with fuel 4 — only ce_no_start fails; the emitted program
   Lazybranch; Setmark; Start; Multi; Capturemark 0; Stop has the Start opcode; and the reference
   engine is not start independent: on "xabc" nothing from 0, the match [1,4) from 1. *)
Example C02_tree_start_anchor_exclusion_needed :
  shape_ok false ce_x_G = true /\ no_group0 ce_x_G_body /\ ce_terminates ce_x_env ce_x_fuel ce_x_G /\
  ce_no_start ce_x_G = false /\
  fst (compile ce_x_cfg ce_x_G) = [23; 9; 31; 19; 12; 0; 32; 0; -1; 40] /\
  en_has_opcode (S (length (fst (compile ce_x_cfg ce_x_G)))) (fst (compile ce_x_cfg ce_x_G)) G_Start = Ok true /\
  ce_search ce_x_env ce_x_fuel ce_x_G [120; 97; 98; 99] 0 = None /\
  ce_search ce_x_env ce_x_fuel ce_x_G [120; 97; 98; 99] 1 = Some {| pos := 4; caps := [(0, [(1, 3)])] |} /\
  ~ enp_start_indep st ce_index (ce_search ce_x_env ce_x_fuel ce_x_G).
Proof. exact ce_x_G_start_indep_fails. Qed.

(* Non-vacuity: every hypothesis of C02_string_entry_equals_rune_entry_for_trees holds together for the
   pattern abc (tree Capture 0 (Multi "abc"), compiled codes, mode LeadingString_LeftToRight, filter
   prefix "abc", fuel 4), including termination and the published facts at every match start ... *)
Example C02_tree_entry_hypotheses_met :
  let search := ce_search ce_x_env ce_x_fuel ce_x_abc in
  cd_rtl ce_x_code_abc = false /\
  cd_codes ce_x_code_abc = fst (compile ce_x_cfg ce_x_abc) /\
  en_new_filter ce_x_code_abc = Ok enx_flt_abc /\
  shape_ok false ce_x_abc = true /\
  no_group0 ce_x_abc_body /\
  ce_terminates ce_x_env ce_x_fuel ce_x_abc /\
  enp_quick_agrees st search (ce_search_quick ce_x_env ce_x_fuel (fun _ => true) ce_x_abc) /\
  (forall o' f, cd_opts ce_x_code_abc = Some o' -> enx_flt_abc = Some f ->
     forall b q, enp_starts st ce_index search (runes_of b) q -> enp_code_fact o' (runes_of b) q).
Proof. exact ce_x_abc_hypotheses. Qed.

(* ... and on "xéabc" both entry points report the match at rune 2. *)
Example C02_tree_entry_witness :
  let b := [120; 195; 169; 97; 98; 99] in
  let search := ce_search ce_x_env ce_x_fuel ce_x_abc in
  ce_no_start ce_x_abc = true /\
  cd_codes ce_x_code_abc = [23; 8; 31; 12; 0; 32; 0; -1; 40] /\
  en_has_opcode (S (length (cd_codes ce_x_code_abc))) (cd_codes ce_x_code_abc) G_Start = Ok false /\
  en_find_string_match st search false enx_flt_abc b =
    Ok (Some {| pos := 5; caps := [(0, [(2, 3)])] |}) /\
  en_find_runes_match st search false (runes_of b) = Ok (Some {| pos := 5; caps := [(0, [(2, 3)])] |}) /\
  en_match_string (ce_search_quick ce_x_env ce_x_fuel (fun _ => true) ce_x_abc) false enx_flt_abc b = Ok true.
Proof. exact ce_x_abc_witness. Qed.

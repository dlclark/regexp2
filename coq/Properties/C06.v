(* C06 — RE2-mode adapter agrees with Go's regexp package.
   Statements only; proofs are in Proofs/CompatProofs.v.

   What is proved: everything the adapter (compat/regexp.go) and regexp2's find-all / next-match
   code add AROUND a single-match function equals what Go's standard library adds around ITS
   single-match function — [Go.all_matches_loop] in Model/Iter.v is a transcription of
   regexp.Regexp.allMatches (go1.25.0) and of its callers — for EVERY n : Z and for EVERY
   single-match function M, under the explicit hypothesis [bridge]:

       at every rune boundary i,  M (off i) = regexp2's fresh search from rune i, as byte pairs.

   regexp2's next-match is tied to that fresh search by C07 (next_is_fresh_search).
   What is NOT proved (hence the suffix _partial on the summary theorem): that the two ENGINES
   agree, i.e. that [bridge] holds for Go's doExecute on the RE2-common fragment.  That link is
   sampled on every run by leg c06-compat (stdlib = adapter = this model fed with the stdlib's own
   single-match table) and is KNOWN to fail for \b / \B next to non-ASCII word characters
   (known finding re2-boundary-nonascii) and for a literal U+FFFD against an invalid byte through
   the string prefilter (known finding re2-fffd-literal-prefilter).
   Other hypotheses: [forward] (C07's hypothesis on the matcher), [no_G] (no \G in the common
   syntax), group 0 = the match and 1+numSubexp groups, [off] strictly increasing from 0 to len(s),
   Go's step width = distance to the next rune boundary (0 at the end), and for the string entry
   points [cand_ok]: the string prefilter's candidate does not change the first match (C03). *)
From Verif Require Import Base.Prelude Model.Iter Proofs.IterProofs Proofs.CompatProofs.

(* [hyps] (Proofs/CompatProofs.v) collects the hypotheses listed above. *)

(* FindAllStringSubmatchIndex / FindAllSubmatchIndex (and, element-wise, FindAllString,
   FindAllStringSubmatch, FindAllSubmatch, which read the same delivered matches): the adapter's
   forEachStringMatch equals Go's allMatches, including nil-vs-non-nil, for every n *)
Theorem C06_compat_find_all_eq_go :
  forall len attempt off M width end_ num_subexp,
    hyps len attempt off M width end_ num_subexp ->
  forall cand n, cand_ok len attempt cand ->
    compat_find_all_string_submatch_index false len attempt off (dflt_fuel len) (dflt_fuel len) cand n
    = Go.find_all_submatch_index M width end_ num_subexp (Go.dflt_fuel end_) n.
Proof.
  intros len attempt off M width end_ num_subexp (H1 & H2 & H3 & H4 & H5 & H6 & H7 & H8 & H9 & H10) cand n Hc.
  eapply compat_find_all_submatch_eq; eassumption.
Qed.
Print Assumptions C06_compat_find_all_eq_go.

(* FindAllIndex / FindAll: through regexp2.FindAllRunesIndex and the rune->byte table *)
Theorem C06_compat_find_all_index_eq_go :
  forall len attempt off M width end_ num_subexp,
    hyps len attempt off M width end_ num_subexp ->
  forall n,
    compat_find_all_index false len attempt off (dflt_fuel len) (dflt_fuel len) n
    = Go.find_all_index M width end_ num_subexp (Go.dflt_fuel end_) n.
Proof.
  intros len attempt off M width end_ num_subexp (H1 & H2 & H3 & H4 & H5 & H6 & H7 & H8 & H9 & H10) n.
  eapply compat_find_all_index_eq; eassumption.
Qed.
Print Assumptions C06_compat_find_all_index_eq_go.

(* FindAllStringIndex: through regexp2.FindAllStringIndex (prefilter candidate, byte mapper = off) *)
Theorem C06_compat_find_all_string_index_eq_go :
  forall len attempt off M width end_ num_subexp,
    hyps len attempt off M width end_ num_subexp ->
  forall cand n, cand_ok len attempt cand ->
    compat_find_all_string_index false len attempt (dflt_fuel len) (dflt_fuel len) cand off n
    = Go.find_all_index M width end_ num_subexp (Go.dflt_fuel end_) n.
Proof.
  intros len attempt off M width end_ num_subexp (H1 & H2 & H3 & H4 & H5 & H6 & H7 & H8 & H9 & H10) cand n Hc.
  eapply compat_find_all_string_index_eq; eassumption.
Qed.
Print Assumptions C06_compat_find_all_string_index_eq_go.

(* the single-match methods: Find(String)SubmatchIndex and Find(String)Index, nil on no match *)
Theorem C06_compat_find_eq_go :
  forall len attempt off M width end_ num_subexp,
    hyps len attempt off M width end_ num_subexp ->
  forall cand, cand_ok len attempt cand ->
    compat_find_string_submatch_index false len attempt off (dflt_fuel len) cand = Ok (Go.find_submatch_index M num_subexp) /\
    compat_find_string_index false len attempt off (dflt_fuel len) cand = Ok (Go.find_index M).
Proof.
  intros len attempt off M width end_ num_subexp (H1 & H2 & H3 & H4 & H5 & H6 & H7 & H8 & H9 & H10) cand Hc.
  split; [eapply compat_find_submatch_eq|eapply compat_find_index_eq]; eassumption.
Qed.
Print Assumptions C06_compat_find_eq_go.

(* compat_shapes: matchIndexes yields one pair per group; (−1,−1) exactly for a group without a
   capture, the byte offsets of its last capture otherwise (never −1 since offsets are >= 0) *)
Theorem C06_compat_shapes :
  forall off, (forall i, 0 <= off i) ->
  forall m,
    length (match_indexes off m) = (2 * length (m_groups m))%nat /\
    forall k g, nth_error (m_groups m) k = Some g ->
      let a := nth (2 * k) (match_indexes off m) 0 in
      let b := nth (2 * k + 1) (match_indexes off m) 0 in
      match g with
      | None => a = -1 /\ b = -1
      | Some (i, l) => a = off i /\ b = off (i + l) /\ a <> -1
      end.
Proof. exact match_indexes_shape. Qed.
Print Assumptions C06_compat_shapes.

(* Summary, honestly named: the adapter agrees with Go UP TO the single-match oracle.  The four
   equalities above for every n; what is missing for the full C06 statement is a proof of [bridge]
   for Go's engine (sampled, see header; refuted on the real engines for \b next to non-ASCII word
   characters — witness \b on "é\xffa": adapter [[0 0] [2 2] [3 3] [4 4]], Go [[3 3] [4 4]] — which
   the model cannot express because neither engine is modelled here). *)
Theorem C06_adapter_eq_go_partial :
  forall len attempt off M width end_ num_subexp,
    hyps len attempt off M width end_ num_subexp ->
  forall cand n, cand_ok len attempt cand ->
    compat_find_all_string_submatch_index false len attempt off (dflt_fuel len) (dflt_fuel len) cand n
      = Go.find_all_submatch_index M width end_ num_subexp (Go.dflt_fuel end_) n /\
    compat_find_all_index false len attempt off (dflt_fuel len) (dflt_fuel len) n
      = Go.find_all_index M width end_ num_subexp (Go.dflt_fuel end_) n /\
    compat_find_all_string_index false len attempt (dflt_fuel len) (dflt_fuel len) cand off n
      = Go.find_all_index M width end_ num_subexp (Go.dflt_fuel end_) n.
Proof.
  intros len attempt off M width end_ num_subexp H cand n Hc. split; [|split].
  - apply C06_compat_find_all_eq_go; assumption.
  - apply C06_compat_find_all_index_eq_go; assumption.
  - apply C06_compat_find_all_string_index_eq_go; assumption.
Qed.
Print Assumptions C06_adapter_eq_go_partial.

(* ---------------- non-vacuity ---------------- *)
(* a* on "bé" + one invalid byte + "a"... kept small: text "aé" (runes a, é; bytes 0,1,3), pattern a*
   as the matcher ex6; M is defined FROM the matcher by the bridge equation at rune boundaries. *)
Definition ex6_attempt (_ p : Z) : option mt :=
  if p =? 0 then Some (MkM 0 1 1 [Some (0, 1)]) else
  if (p =? 1) || (p =? 2) then Some (MkM p 0 p [Some (p, 0)]) else None.
Definition ex6_off (i : Z) : Z := if i <=? 0 then i else if i =? 1 then 1 else i + 1.   (* 0,1,3 *)
Definition ex6_width (pos : Z) : Z := if pos =? 0 then 1 else if pos =? 1 then 2 else 0.
Definition ex6_M (pos : Z) : option (list Z) :=
  if pos =? 0 then Some [0; 1] else if pos =? 1 then Some [1; 1] else if pos =? 3 then Some [3; 3] else None.

Example C06_witness_hyps : hyps 2 ex6_attempt ex6_off ex6_M ex6_width 3 0 /\ cand_ok 2 ex6_attempt (Some 0).
Proof.
  assert (forall p, 0 <= p <= 2 -> p = 0 \/ p = 1 \/ p = 2) as Hc by (intros; lia).
  split; [unfold hyps; refine (conj _ (conj _ (conj _ (conj _ (conj _ (conj _ (conj _ (conj _ (conj _ _)))))))))|].
  - lia.
  - intros ts p m Hp H. destruct (Hc p Hp) as [->|[->| ->]]; vm_compute in H; inversion H; subst; vm_compute; intuition discriminate.
  - intros ts ts' p. reflexivity.
  - intros ts p m Hp H. destruct (Hc p Hp) as [->|[->| ->]]; vm_compute in H; inversion H; subst; (split; [eexists; reflexivity | reflexivity]).
  - reflexivity.
  - intros i j Hi Hij Hj. assert ((i = 0 /\ j = 1) \/ (i = 0 /\ j = 2) \/ (i = 1 /\ j = 2)) as [[-> ->]|[[-> ->]|[-> ->]]] by lia; vm_compute; reflexivity.
  - reflexivity.
  - intros i Hi. assert (i = 0 \/ i = 1) as [->| ->] by lia; reflexivity.
  - vm_compute. discriminate.
  - intros i Hi. destruct (Hc i Hi) as [->|[->| ->]]; vm_compute; reflexivity.
  - vm_compute. split; [split; discriminate | reflexivity].
Qed.

Example C06_witness_values :
  compat_find_all_string_submatch_index false 2 ex6_attempt ex6_off (dflt_fuel 2) (dflt_fuel 2) (Some 0) (-1)
    = Ok (Some [[0; 1]; [3; 3]]) /\
  Go.find_all_submatch_index ex6_M ex6_width 3 0 (Go.dflt_fuel 3) (-1) = Ok (Some [[0; 1]; [3; 3]]) /\
  Go.find_all_submatch_index ex6_M ex6_width 3 0 (Go.dflt_fuel 3) 1 = Ok (Some [[0; 1]]) /\
  Go.find_all_submatch_index ex6_M ex6_width 3 0 (Go.dflt_fuel 3) 0 = Ok None /\
  compat_find_all_index false 2 ex6_attempt ex6_off (dflt_fuel 2) (dflt_fuel 2) 5 = Ok (Some [(0, 1); (3, 3)]).
Proof. vm_compute. repeat split. Qed.

(* C16 — character-class membership is exact set algebra.
   This file only states the property theorems; proofs are in Proofs/CharClass*.v.

   Vocabulary (Proofs/CharClassRanges.v, Proofs/CharClassProofs.v, Proofs/CharClassElab.v):
     mem rs ch          plain membership of ch in a list of ranges (no ordering assumed)
     plain_in c ch      set algebra on the representation of a class:
                        (negate XOR (ch in some range OR some category accepts ch)) AND NOT (ch in the subtracted class)
     canonical c        at every subtraction level the ranges are sorted, disjoint, non-adjacent, non-empty
     bitmaps_ok c       every ASCII bitmap present is the one prepareASCIIBitmap computes
     wf_ranges rs       every range satisfies 0 <= first <= last <= 0x10FFFF
     valid_rune ch      0 <= ch <= 0x10FFFF
     sem o s / denote   the set algebra a bracket expression s means under options o
     elab s o           the CharSet the parser builds for s (scanCharSet + the node's case conversion).
                        Since /repo commit dd13520 scanCharSet folds case (addLowercase, addCaseEquivalences)
                        BEFORE it restores the negate flag and canonicalizes; the model follows that order
                        (scan_char_set takes fuel and returns res).  elab_old is the order before the fix.
   cat_in (unicode.Is per category name, IsSpace, IsWordChar), simple_fold, to_lower are universally
   quantified oracles. *)
From Verif Require Import Base.Prelude Model.CharClass Model.FoldD
  Proofs.CharClassRanges Proofs.CharClassProofs Proofs.CharClassOverlap Proofs.CharClassElab
  Proofs.CharClassFold Proofs.CharClassCi Proofs.CharClassCi2 Proofs.CharClassCi3 Proofs.CharClassCi4 Proofs.CharClassCi5 Proofs.CharClassCi6 Gen.CharClassGen Proofs.CharClassGenCheck.

(* ------------------------------------------------------------------------------------------------
   lookup_paths_agree: on a canonical class every lookup path is plain membership, for EVERY rune
   (also negative ones and ones above U+10FFFF): CharIn (ASCII bitmap fast path when there is one,
   including the subtracted class's own bitmap), charInSlow, CharIn after prepareASCIIBitmap, the
   bitmap bit itself, the <=4-range linear scan with early exit and the binary search. *)
Theorem C16_lookup_paths_agree :
  forall (cat_in : Z -> Z -> bool) (c : cls) (ch : Z),
    canonical c -> bitmaps_ok cat_in c ->
    char_in cat_in c ch = plain_in cat_in c ch /\
    char_in_slow cat_in c ch = plain_in cat_in c ch /\
    char_in cat_in (prepare_ascii_bitmap cat_in c) ch = plain_in cat_in c ch /\
    (match ascii c with
     | Some bm => 0 <= ch < 128 -> bitmap_test bm ch = plain_in cat_in c ch
     | None => True
     end) /\
    linear_scan (ranges c) ch = mem (ranges c) ch /\
    binary_scan (ranges c) ch = mem (ranges c) ch.
Proof. exact lookup_paths_agree. Qed.
Print Assumptions C16_lookup_paths_agree.

(* the binary search never runs out of the fuel the model gives it *)
Theorem C16_bsearch_fuel_stable :
  forall p rs ch fuel, sorted_from p rs -> (length rs <= fuel)%nat ->
    bsearch fuel rs ch 0 (zlen rs) = bsearch (length rs) rs ch 0 (zlen rs).
Proof. exact bsearch_fuel_stable. Qed.
Print Assumptions C16_bsearch_fuel_stable.

(* ------------------------------------------------------------------------------------------------
   canonicalize_preserves.  Full statement: canonicalize never changes what a class matches, for
   arbitrary (unsorted, overlapping, abutting) well-formed range lists, whatever categories, negation
   and subtraction the class has. *)
Definition C16_canonicalize_preserves_full : Prop :=
  forall (cat_in : Z -> Z -> bool) (c : cls) (ch : Z),
    wf_ranges (ranges c) -> plain_in cat_in (canonicalize cat_in c) ch = plain_in cat_in c ch.

(* Refuted for runes outside 0..0x10FFFF (reachable through []rune inputs): the negated normal forms
   at charclass.go:863-922 and makeAnything are equivalences on valid runes only.
   Witness [\x00-\x60b-\x{10FFFF}] and rune 0x110000 (known finding rune_out_of_range). *)
Theorem C16_canonicalize_preserves_refuted : ~ C16_canonicalize_preserves_full.
Proof.
  intros H. specialize (H (fun _ _ => false) (ranges_cls [(0, 96); (98, 1114111)]) 1114112).
  assert (W : wf_ranges (ranges (ranges_cls [(0, 96); (98, 1114111)]))) by (cbn [ranges ranges_cls]; solve_wf).
  specialize (H W). vm_compute in H. discriminate.
Qed.
Print Assumptions C16_canonicalize_preserves_refuted.

(* Partial: every valid rune.  Covers the merge loop and the three special normal forms (single
   negated gap, "everything", "all but one character with categories"). *)
Theorem C16_canonicalize_preserves_partial :
  forall (cat_in : Z -> Z -> bool) (c : cls) (ch : Z),
    wf_ranges (ranges c) -> valid_rune ch ->
    plain_in cat_in (canonicalize cat_in c) ch = plain_in cat_in c ch.
Proof. exact canonicalize_plain_in. Qed.
Print Assumptions C16_canonicalize_preserves_partial.

(* canonical_sorted: the output ranges are sorted, disjoint, non-adjacent, non-empty and still
   inside [0, 0x10FFFF]; subtraction and bitmap are untouched. *)
Theorem C16_canonical_sorted :
  forall (cat_in : Z -> Z -> bool) (c : cls),
    wf_ranges (ranges c) ->
    canonical_ranges (ranges (canonicalize cat_in c)) /\ wf_ranges (ranges (canonicalize cat_in c)) /\
    sub (canonicalize cat_in c) = sub c /\ ascii (canonicalize cat_in c) = ascii c.
Proof.
  intros cat_in c H. destruct (canonicalize_canonical_ranges cat_in c H) as [A B].
  destruct (canonicalize_sub cat_in c) as [C D]. auto.
Qed.
Print Assumptions C16_canonical_sorted.

(* ------------------------------------------------------------------------------------------------
   the add* mutators are unions (valid runes; any_inv: the anything flag is only set together with
   the range [0, 0x10FFFF], which every producer in charclass.go guarantees). *)
Theorem C16_add_range_union :
  forall (cat_in : Z -> Z -> bool) (c : cls) (lo hi ch : Z),
    neg c = false -> wf_ranges (ranges c) -> 0 <= lo -> lo <= hi -> hi <= max_rune -> valid_rune ch ->
    plain_in cat_in (add_range cat_in c lo hi) ch =
    (body cat_in c ch || ((lo <=? ch) && (ch <=? hi))) && negb (sub_in cat_in c ch).
Proof. exact add_range_union. Qed.
Print Assumptions C16_add_range_union.

Theorem C16_add_set_union :
  forall (cat_in : Z -> Z -> bool) (c s : cls) (ch : Z),
    neg c = false -> any_inv c -> any_inv s -> wf_ranges (ranges c) -> wf_ranges (ranges s) -> valid_rune ch ->
    plain_in cat_in (add_set cat_in c s) ch =
    (body cat_in c ch || body cat_in s ch) && negb (sub_in cat_in c ch).
Proof. exact add_set_union. Qed.
Print Assumptions C16_add_set_union.

Theorem C16_add_categories_union :
  forall (cat_in : Z -> Z -> bool) (c : cls) (l : list (bool * Z)) (ch : Z),
    neg c = false -> any_inv c -> valid_rune ch ->
    plain_in cat_in (add_categories c l) ch =
    (body cat_in c ch || cats_in cat_in l ch) && negb (sub_in cat_in c ch).
Proof. exact add_categories_union. Qed.
Print Assumptions C16_add_categories_union.

(* "X and not-X => anything" *)
Theorem C16_add_categories_clash :
  forall (cat_in : Z -> Z -> bool) (c : cls) (ng : bool) (name ch : Z),
    neg c = false -> sub c = None -> any_inv c -> valid_rune ch -> In (ng, name) (cats c) ->
    plain_in cat_in (add_categories c [(negb ng, name)]) ch = true.
Proof. exact add_categories_clash. Qed.
Print Assumptions C16_add_categories_clash.

(* ------------------------------------------------------------------------------------------------
   singleton_reduction (tree.go reduceSet): a Set node rewritten to One / Notone matches the same
   runes as the class did, for every rune. *)
Theorem C16_singleton_reduction :
  forall (cat_in : Z -> Z -> bool) (c : cls) (r : reduced),
    bitmaps_ok cat_in c -> reduce_set c = Ok r ->
    forall ch, reduced_in cat_in r ch = char_in cat_in c ch.
Proof. exact reduce_set_sound. Qed.
Print Assumptions C16_singleton_reduction.

(* ------------------------------------------------------------------------------------------------
   may_overlap_sound: MayOverlap = false means no rune at all is in both classes.  The only facts
   about Unicode used (space_facts, behind knownDistinctSets; checked against the running Go toolchain
   on all code points by leg c16-class-0): white space and the ECMAScript \s characters are neither
   decimal digits nor word characters. *)
Theorem C16_may_overlap_sound :
  forall (cat_in : Z -> Z -> bool) (a b : cls),
    space_facts cat_in ->
    canonical a -> canonical b -> bitmaps_ok cat_in a -> bitmaps_ok cat_in b ->
    may_overlap cat_in a b = false ->
    forall ch, ~ (char_in cat_in a ch = true /\ char_in cat_in b ch = true).
Proof. exact may_overlap_sound_plain. Qed.
Print Assumptions C16_may_overlap_sound.

(* ------------------------------------------------------------------------------------------------
   char_in_denote.  Full statement: for every bracket expression (characters, ranges, \d\s\w\D\S\W,
   \p{..}/\P{..}, POSIX names, negation, nested subtraction), every option set and EVERY rune, CharIn
   on the class the parser builds = set algebra on the expression. *)
Definition C16_char_in_denote_full : Prop :=
  forall (cat_in : Z -> Z -> bool) (simple_fold to_lower : Z -> Z) (fuel : nat) (s : csyn) (o : opts) (c : cls) (ch : Z),
    wf_syn s -> elab cat_in simple_fold to_lower fuel s o = Ok c ->
    char_in cat_in c ch = denote cat_in simple_fold fuel (sem o s) ch.

(* Refuted twice on the faithful model (both listed in known_findings.txt):
   (1) rune_out_of_range: [\x00-\x60b-\x{10FFFF}] accepts the invalid rune 0x110000;
   (2) ci_negated_case_category: (?i)[\P{Lu}] accepts 'A' (addCategory widens a negated cased-letter
       category to the UNION of three negated categories = everything). *)
Theorem C16_char_in_denote_refuted : ~ C16_char_in_denote_full.
Proof.
  intros H.
  specialize (H (fun _ _ => false) (fun x => x) (fun x => x) 8%nat
                (CSyn false [IRange 0 96; IRange 98 1114111] None) (Opts false false false)).
  specialize (H (Cls [(97, 97)] [] None true false None) 1114112).
  assert (W : wf_syn (CSyn false [IRange 0 96; IRange 98 1114111] None)).
  { cbn [wf_syn]. split; [|exact I]. repeat (apply Forall_cons; [unfold wf_item, max_rune; lia|]). apply Forall_nil. }
  specialize (H W eq_refl). vm_compute in H. discriminate.
Qed.
Print Assumptions C16_char_in_denote_refuted.

Theorem C16_char_in_denote_refuted_ci_negated_case_category :
  exists (cat_in : Z -> Z -> bool) (simple_fold to_lower : Z -> Z) (s : csyn) (c : cls),
    let o := Opts true false false in
    wf_syn s /\ elab cat_in simple_fold to_lower 8 s o = Ok c /\
    char_in cat_in c 65 = true /\ denote cat_in simple_fold 8 (sem o s) 65 = false.
Proof.
  (* Lu = A-Z, Ll = a-z, fold swaps them *)
  exists (fun name ch => if name =? cat_Lu then (65 <=? ch) && (ch <=? 90)
                         else if name =? cat_Ll then (97 <=? ch) && (ch <=? 122) else false).
  exists (fun x => if (65 <=? x) && (x <=? 90) then x + 32 else if (97 <=? x) && (x <=? 122) then x - 32 else x).
  exists (fun x => if (65 <=? x) && (x <=? 90) then x + 32 else x).
  exists (CSyn false [IProp true cat_Lu] None).
  eexists. cbn zeta. split; [cbn [wf_syn]; split; [apply Forall_cons; [exact I|apply Forall_nil]|exact I]|].
  split; [vm_compute; reflexivity|]. split; vm_compute; reflexivity.
Qed.
Print Assumptions C16_char_in_denote_refuted_ci_negated_case_category.

(* Partial (1), proved in full generality for the case-sensitive option sets (none, ECMAScript, RE2
   and their shorthand/POSIX tables) and every valid rune.  Partial (2) below covers IgnoreCase.
   What is missing for the full statement is exactly what the refutations above show (invalid runes,
   negated cased-letter categories under IgnoreCase) plus, under IgnoreCase, members and runes outside
   the generated table (where lcTable / ToLower and SimpleFold disagree, e.g. U+0130, U+00D7, U+1E9E). *)
Theorem C16_char_in_denote_partial :
  forall (cat_in : Z -> Z -> bool) (simple_fold to_lower : Z -> Z) (fuel : nat) (s : csyn) (o : opts) (c : cls) (ch : Z),
    o_ci o = false -> wf_syn s -> valid_rune ch ->
    elab cat_in simple_fold to_lower fuel s o = Ok c ->
    char_in cat_in c ch = denote cat_in simple_fold fuel (sem o s) ch.
Proof. intros. eapply char_in_denote_cs; eauto. Qed.
Print Assumptions C16_char_in_denote_partial.

(* Partial (2), IgnoreCase (alone or with ECMAScript / RE2): for oracles that agree with the generated
   table on dom_t and whose SimpleFold orbits outside the table stay outside it (outside_ok; both checked
   against the running toolchain on every code point by leg c16-class-0), every bracket expression in
   C16's IgnoreCase domain ci_syn_ok_ext, nested subtraction included, and every rune z of the table:
   CharIn on the class the parser builds = set algebra with the code-point members folded over their
   SimpleFold orbits (CFold).
   C16's IgnoreCase domain (ci_syn_ok_ext = ci_syn_okx True, Proofs/CharClassCi4.v), per bracket level:
     - a range or single member [a, b] whose runes all lie in good_dom (all of ASCII, all plain
       upper/lower pairs of Latin-1, Greek, Cyrillic: C16_bad_points; so in particular ranges with
       ASCII endpoints), OR
     - a complement-shaped range [a, b] with a <= U+0080 and b >= U+10000 ("everything from a on":
       [b-\x{10FFFF}], [\x01-\x{10FFFF}], [\x00-\x{10FFFE}], and with a good range [\x00-\x60b-\x{10FFFF}]),
       provided some range of the same level contains 'i' or 'I' (always so when a <= 'i'; the range
       contains U+0130, which lcTable lowers to 'i' although the two are not in one SimpleFold orbit);
       these are the classes canonicalize rewrites into a negated normal form AFTER case folding;
     - positive ASCII-table shorthands / POSIX names, any category but no NEGATED cased-letter category.
   STATEMENT CHANGE (domain extension after /repo fix dd13520): the domain grew from ci_syn_ok to
   ci_syn_ok_ext (ci_syn_ok implies it: ci_syn_ok_ext_of) and the oracle hypothesis outside_ok was added,
   which the complement-shaped ranges need.  The previous statement is kept verbatim as
   C16_char_in_denote_partial_ignorecase_table below. *)
Theorem C16_char_in_denote_partial_ignorecase :
  forall (cat_in : Z -> Z -> bool) (simple_fold to_lower : Z -> Z),
    (forall x, In x dom_t -> simple_fold x = fold_t x /\ to_lower x = lower_t x) ->
    outside_ok simple_fold ->
    forall (o : opts) (s : csyn) (c : cls) (z : Z),
      o_ci o = true -> wf_syn s -> ci_syn_ok_ext o s -> In z dom_t ->
      elab cat_in simple_fold to_lower orbit_fuel s o = Ok c ->
      char_in cat_in c z = denote cat_in simple_fold orbit_fuel (sem o s) z.
Proof. intros cat_in sf tl Hag Hout o s c z Hci. apply char_in_denote_ci_ext; auto. Qed.
Print Assumptions C16_char_in_denote_partial_ignorecase.

(* the statement before the domain extension (members in good_dom only; nothing assumed about SimpleFold
   outside the table) - still a theorem, for the fixed order of scanCharSet *)
Theorem C16_char_in_denote_partial_ignorecase_table :
  forall (cat_in : Z -> Z -> bool) (simple_fold to_lower : Z -> Z),
    (forall x, In x dom_t -> simple_fold x = fold_t x /\ to_lower x = lower_t x) ->
    forall (o : opts) (s : csyn) (c : cls) (z : Z),
      o_ci o = true -> wf_syn s -> ci_syn_ok o s -> In z dom_t ->
      elab cat_in simple_fold to_lower orbit_fuel s o = Ok c ->
      char_in cat_in c z = denote cat_in simple_fold orbit_fuel (sem o s) z.
Proof. intros cat_in sf tl Hag o s c z Hci. apply char_in_denote_ci; auto. Qed.
Print Assumptions C16_char_in_denote_partial_ignorecase_table.

(* The order of scanCharSet BEFORE /repo fix dd13520 (canonicalize the finished class, then fold case:
   elab_old) refutes the same statement: [\x00-\x60b-\x{10FFFF}] names 'A', canonicalize rewrote it to
   [^a], folding the EXCLUDED 'a' gave [^Aa], and the class rejected 'A' (and 'a').  The witness lies in
   the extended domain only - C16's former IgnoreCase domain had no complement-shaped ranges, which is
   why the defect was invisible to it. *)
Theorem C16_char_in_denote_old_order_refuted :
  ~ (forall (cat_in : Z -> Z -> bool) (simple_fold to_lower : Z -> Z),
       (forall x, In x dom_t -> simple_fold x = fold_t x /\ to_lower x = lower_t x) ->
       outside_ok simple_fold ->
       forall (o : opts) (s : csyn) (c : cls) (z : Z),
         o_ci o = true -> wf_syn s -> ci_syn_ok_ext o s -> In z dom_t ->
         elab_old cat_in simple_fold to_lower orbit_fuel s o = Ok c ->
         char_in cat_in c z = denote cat_in simple_fold orbit_fuel (sem o s) z).
Proof.
  intros H.
  set (s := CSyn false [IRange 0 96; IRange 98 1114111] None).
  specialize (H (fun _ _ => false) fold_t lower_t (fun x _ => conj eq_refl eq_refl) outside_ok_fold_t
                (Opts true false false) s (Cls [(65, 65); (97, 97)] [] None true false None) 65 eq_refl).
  assert (W : wf_syn s).
  { cbn [wf_syn s]. split; [|exact I]. repeat (apply Forall_cons; [unfold wf_item, max_rune; lia|]). apply Forall_nil. }
  assert (K : ci_syn_ok_ext (Opts true false false) s).
  { unfold ci_syn_ok_ext. cbn [ci_syn_okx s]. split; [|exact I].
    apply Forall_cons; [cbn [ci_item_okx]; left; intros x Hx; apply ascii_good; lia|].
    apply Forall_cons; [|apply Forall_nil]. cbn [ci_item_okx]. right.
    split; [exact I|]. split; [lia|]. split; [lia|]. exists 0, 96. split; [left; reflexivity|lia]. }
  assert (D : In 65 dom_t) by (apply zmem_In; vm_compute; reflexivity).
  specialize (H W K D). assert (E : elab_old (fun _ _ : Z => false) fold_t lower_t orbit_fuel s (Opts true false false) =
                                      Ok (Cls [(65, 65); (97, 97)] [] None true false None)) by (vm_compute; reflexivity).
  specialize (H E). clear E D K W. vm_compute in H. discriminate H.
Qed.
Print Assumptions C16_char_in_denote_old_order_refuted.

(* ... and the class the parser builds is canonical at every level (so C16_lookup_paths_agree
   applies to it, also after PrepareCharSetASCIIBitmaps). *)
Theorem C16_elab_canonical :
  forall (cat_in : Z -> Z -> bool) (simple_fold to_lower : Z -> Z) (fuel : nat) (s : csyn) (o : opts) (c : cls),
    o_ci o = false -> wf_syn s ->
    elab cat_in simple_fold to_lower fuel s o = Ok c ->
    canonical c /\ bitmaps_ok cat_in c /\ bitmaps_ok cat_in (prepare_ascii_bitmap cat_in c).
Proof.
  intros cat_in sf tl fuel s o c Hci Hw He.
  destruct (elab_canonical_cs cat_in sf tl fuel o s c Hci Hw He) as [A B].
  pose proof (no_bitmaps_ok cat_in c B) as C. repeat split; auto. apply prepare_bitmaps_ok. exact C.
Qed.
Print Assumptions C16_elab_canonical.

(* the same under IgnoreCase, on C16's IgnoreCase domain: whichever normal form canonicalize picks
   after case folding, and after the tree pass expanded the finished class once more *)
Theorem C16_elab_canonical_ignorecase :
  forall (cat_in : Z -> Z -> bool) (simple_fold to_lower : Z -> Z),
    (forall x, In x dom_t -> simple_fold x = fold_t x /\ to_lower x = lower_t x) ->
    outside_ok simple_fold ->
    forall (o : opts) (s : csyn) (c : cls),
      o_ci o = true -> wf_syn s -> ci_syn_ok_ext o s ->
      elab cat_in simple_fold to_lower orbit_fuel s o = Ok c ->
      canonical c /\ bitmaps_ok cat_in c /\ bitmaps_ok cat_in (prepare_ascii_bitmap cat_in c).
Proof.
  intros cat_in sf tl Hag Hout o s c Hci Hw Hok He.
  destruct (elab_canonical_ci_ext cat_in sf tl Hag Hout o Hci s c Hw Hok He) as [A B].
  pose proof (no_bitmaps_ok cat_in c B) as C. repeat split; auto. apply prepare_bitmaps_ok. exact C.
Qed.
Print Assumptions C16_elab_canonical_ignorecase.

(* the generated table itself, extended by the identity, is an oracle with orbits that stay outside *)
Theorem C16_table_oracle_outside_ok : outside_ok fold_t.
Proof. exact outside_ok_fold_t. Qed.
Print Assumptions C16_table_oracle_outside_ok.

(* ------------------------------------------------------------------------------------------------
   case_equiv_closed (IgnoreCase), CLOSED statement over the finite generated table Model/FoldD.v
   (fold_t / lower_t = unicode.SimpleFold / unicode.ToLower of the Go toolchain on dom_t: U+0000-U+024F,
   the plain upper/lower pairs of ASCII, Latin-1, Greek, Cyrillic, the ECMAScript \s characters,
   closed under both functions: 1 3xx runes).  Bound: [a, b] is any range with ASCII endpoints, or any
   single member of dom_t other than U+0130; ch is any rune of dom_t.
   The class IgnoreCase builds from [a-b] (addLowercase, then addCaseEquivalences) contains ch exactly
   when some member of ch's SimpleFold orbit lies in [a, b], and it is closed under SimpleFold. *)
Theorem C16_case_equiv_closed :
  forall a b ch,
    (0 <= a <= b /\ b < 128) \/ (a = b /\ In a dom_t /\ a <> 304) -> In ch dom_t ->
    exists c, ci_class a b = Ok c /\ neg c = false /\ cats c = [] /\
              mem (ranges c) ch = existsb (fun x => (a <=? x) && (x <=? b)) (orbit fold_t orbit_fuel ch) /\
              (mem (ranges c) ch = true -> mem (ranges c) (fold_t ch) = true).
Proof. exact case_equiv_closed_range. Qed.
Print Assumptions C16_case_equiv_closed.

(* case_equiv_closed, GENERAL form (proved, not computed): for oracles that agree with the table on
   dom_t (leg c16-class-0 checks that the table is what the running toolchain computes) and ANY class
   - any number of unsorted, overlapping single members and ranges, any categories, either negate flag -
   whose code-point members lie in good_dom, addLowercase followed by addCaseEquivalences yields a
   canonical class with the same categories and negate flag whose range part contains a rune z of the
   table exactly when some member of z's SimpleFold orbit was a member before: the closure of the
   members under the orbit relation, nothing more and nothing less.
   good_dom is dom_t without the three runes of C16_bad_points (on which ToLower or the lcTable entry
   leaves the SimpleFold orbit). *)
Theorem C16_case_equiv_closed_general :
  forall (cat_in : Z -> Z -> bool) (simple_fold to_lower : Z -> Z),
    (forall x, In x dom_t -> simple_fold x = fold_t x /\ to_lower x = lower_t x) ->
    forall c,
      anything c = false -> sub c = None -> wf_ranges (ranges c) ->
      (forall x, mem (ranges c) x = true -> In x good_dom) ->
      exists c',
        add_case_equivalences cat_in simple_fold orbit_fuel (add_lowercase cat_in to_lower c) = Ok c' /\
        neg c' = neg c /\ cats c' = cats c /\ sub c' = None /\ anything c' = false /\ ascii c' = ascii c /\
        canonical_ranges (ranges c') /\ wf_ranges (ranges c') /\
        forall z, In z dom_t ->
          mem (ranges c') z = existsb (fun x => mem (ranges c) x) (orbit simple_fold orbit_fuel z).
Proof. exact ci_closure. Qed.
Print Assumptions C16_case_equiv_closed_general.

(* the runes of the table outside good_dom: U+00D7 (lcTable maps it to U+00F7), U+0130 (ToLower is 'i'),
   U+1E9E (lcTable maps it to U+1E9F) - all outside C16's IgnoreCase domain; 961 of the 964 table
   runes are good, among them all of ASCII and all of pair_dom *)
Theorem C16_bad_points :
  bad_pts = [215; 304; 7838] /\
  forallb (fun x => zmem x good_dom) (ascii_dom ++ pair_dom) = true.
Proof. exact bad_points_ok. Qed.
Print Assumptions C16_bad_points.

(* the table is closed under SimpleFold and ToLower, every orbit in it is a cycle of at most four
   runes, and the letters of pair_dom really are plain pairs *)
Theorem C16_fold_table_ok : table_closed_ok = true /\ pair_dom_ok = true.
Proof. split; [exact table_closed|exact pair_dom_pairs]. Qed.
Print Assumptions C16_fold_table_ok.

(* observation outside C16's IgnoreCase domain: (?i)[İ] does not contain U+0130 itself *)
Theorem C16_dotted_I_lost :
  exists c, ci_class 304 304 = Ok c /\ mem (ranges c) 304 = false /\ mem (ranges c) 105 = true.
Proof. exact dotted_I_lost. Qed.
Print Assumptions C16_dotted_I_lost.

(* ------------------------------------------------------------------------------------------------
   Non-vacuity witnesses. *)
(* [^a-z0-9_-[m-p]] in ECMAScript mode: the parser's class, canonical, and membership of a few runes *)
Example C16_witness_elab :
  let cat := fun (_ _ : Z) => false in
  let s := CSyn true [IRange 97 122; IDigit false; IRange 95 95] (Some (CSyn false [IRange 109 112] None)) in
  let o := Opts false true false in
  exists c, elab cat (fun x => x) (fun x => x) 8 s o = Ok c /\
            c = Cls [(48, 57); (95, 95); (97, 122)] [] (Some (Cls [(109, 112)] [] None false false None)) true false None /\
            wf_syn s /\ canonical c /\
            map (char_in cat c) [33; 53; 95; 110; 1114111] = [true; false; false; false; true] /\
            map (denote cat (fun x => x) 8 (sem o s)) [33; 53; 95; 110; 1114111] = [true; false; false; false; true].
Proof.
  cbn zeta. eexists. split; [vm_compute; reflexivity|]. split; [reflexivity|].
  split; [cbn [wf_syn]; split; [repeat (apply Forall_cons; [unfold wf_item, max_rune; try exact I; lia|]); apply Forall_nil|split; [repeat (apply Forall_cons; [unfold wf_item, max_rune; lia|]); apply Forall_nil|exact I]]|].
  split; [cbn; repeat split; lia|]. split; vm_compute; reflexivity.
Qed.

(* (?i)[a-z-[b]] with the table as oracle: the hypotheses of C16_char_in_denote_partial_ignorecase hold,
   the class is [A-Za-z\u017F\u212A-[Bb]], and 'B', 'b' are out while 'K', 'k', U+212A are in *)
Example C16_witness_ignorecase :
  let cat := fun (_ _ : Z) => false in
  let s := CSyn false [IRange 97 122] (Some (CSyn false [IRange 98 98] None)) in
  let o := Opts true false false in
  wf_syn s /\ ci_syn_ok o s /\
  exists c, elab cat fold_t lower_t orbit_fuel s o = Ok c /\
            c = Cls [(65, 90); (97, 122); (383, 383); (8490, 8490)] []
                    (Some (Cls [(66, 66); (98, 98)] [] None false false None)) false false None /\
            map (char_in cat c) [66; 98; 75; 107; 8490; 383; 33] = [false; false; true; true; true; true; false] /\
            map (denote cat fold_t orbit_fuel (sem o s)) [66; 98; 75; 107; 8490; 383; 33] = [false; false; true; true; true; true; false].
Proof.
  cbn zeta. split; [cbn [wf_syn]; split; [repeat (apply Forall_cons; [unfold wf_item, max_rune; lia|]); apply Forall_nil|split; [repeat (apply Forall_cons; [unfold wf_item, max_rune; lia|]); apply Forall_nil|exact I]]|].
  split.
  { cbn [ci_syn_ok]. split; [apply Forall_cons; [|apply Forall_nil]|split; [apply Forall_cons; [|apply Forall_nil]|exact I]];
      cbn [ci_item_ok]; intros x Hx; apply ascii_good; lia. }
  eexists. split; [vm_compute; reflexivity|]. split; [reflexivity|]. split; vm_compute; reflexivity.
Qed.

(* Evaluates [elab .. s o = Ok _] under IgnoreCase for a bracket expression without subtraction whose members,
   lowered to [c0], end in a range up to U+10FFFF: only the runes of the table contribute to the enumeration of
   case equivalences over that range (CharClassCi.equivalences_of_range_table); the rest is computed. *)
Ltac ci_elab_eval c0 :=
  unfold elab; cbn [scan_char_set o_ci bind];
  match goal with |- context [add_lowercase ?a ?b ?c] =>
    replace (add_lowercase a b c) with c0 by (vm_compute; reflexivity) end;
  cbn [add_case_equivalences equivalences_of_ranges bind];
  match goal with |- context [equivalences_of_range _ _ ?lo (Z.to_nat (1114111 - ?lo + 1))] =>
    rewrite (equivalences_of_range_table orbit_fuel lo ltac:(discriminate) ltac:(lia) ltac:(vm_compute; reflexivity)) end;
  vm_compute; reflexivity.

(* complement-shaped ranges under IgnoreCase, with the table as oracle: the hypotheses of
   C16_char_in_denote_partial_ignorecase hold;
   (?i)[\x00-\x60b-\x{10FFFF}] names 'A', so it contains 'a': the class is everything (before fix dd13520
   it was [^Aa], see C16_char_in_denote_old_order_refuted);
   (?i)[\x00-\x5a\x5c-\x{10FFFF}] leaves out '[' only: canonicalize flips AFTER folding to [^\x5b] *)
Example C16_witness_ignorecase_complement :
  let cat := fun (_ _ : Z) => false in
  let o := Opts true false false in
  let s1 := CSyn false [IRange 0 96; IRange 98 1114111] None in
  let s2 := CSyn false [IRange 0 90; IRange 92 1114111] None in
  wf_syn s1 /\ ci_syn_ok_ext o s1 /\ wf_syn s2 /\ ci_syn_ok_ext o s2 /\ outside_ok fold_t /\
  elab cat fold_t lower_t orbit_fuel s1 o = Ok (Cls [(0, 1114111)] [] None false true None) /\
  map (denote cat fold_t orbit_fuel (sem o s1)) [65; 97; 98; 8490] = [true; true; true; true] /\
  elab cat fold_t lower_t orbit_fuel s2 o = Ok (Cls [(91, 91)] [] None true false None) /\
  map (char_in cat (Cls [(91, 91)] [] None true false None)) [90; 91; 92; 107; 8490] = [true; false; true; true; true] /\
  map (denote cat fold_t orbit_fuel (sem o s2)) [90; 91; 92; 107; 8490] = [true; false; true; true; true].
Proof.
  cbn zeta.
  assert (W : forall a, 0 <= a -> a <= 126 ->
                wf_syn (CSyn false [IRange 0 a; IRange (a + 2) 1114111] None) /\
                ci_syn_ok_ext (Opts true false false) (CSyn false [IRange 0 a; IRange (a + 2) 1114111] None)).
  { intros a H0 H1. split.
    - cbn [wf_syn]. split; [|exact I]. repeat (apply Forall_cons; [unfold wf_item, max_rune; lia|]). apply Forall_nil.
    - unfold ci_syn_ok_ext. cbn [ci_syn_okx]. split; [|exact I].
      apply Forall_cons; [cbn [ci_item_okx]; left; intros x Hx; apply ascii_good; lia|].
      apply Forall_cons; [|apply Forall_nil]. cbn [ci_item_okx]. right.
      split; [exact I|]. split; [lia|]. split; [lia|].
      destruct (Z.le_gt_cases 73 a) as [G|G].
      + exists 0, a. split; [left; reflexivity|lia].
      + exists (a + 2), 1114111. split; [right; left; reflexivity|lia]. }
  destruct (W 96 ltac:(lia) ltac:(lia)) as [W1 K1].
  destruct (W 90 ltac:(lia) ltac:(lia)) as [W2 K2].
  split; [exact W1|]. split; [exact K1|]. split; [exact W2|]. split; [exact K2|].
  split; [exact outside_ok_fold_t|].
  split; [ci_elab_eval (Cls [(0, 1114111)] [] None true false None)|]. split; [vm_compute; reflexivity|].
  split; [ci_elab_eval (Cls [(0, 90); (92, 1114111)] [] None true false None)|]. split; vm_compute; reflexivity.
Qed.

(* unsorted, overlapping, abutting ranges: canonicalize merges them; six ranges go through the binary search *)
Example C16_witness_canonicalize :
  let cat := fun (_ _ : Z) => false in
  let c := ranges_cls [(100, 120); (10, 20); (21, 30); (15, 40); (300, 300); (50, 50); (52, 52); (54, 54); (56, 56); (58, 58)] in
  ranges (canonicalize cat c) = [(10, 40); (50, 50); (52, 52); (54, 54); (56, 56); (58, 58); (100, 120); (300, 300)] /\
  canonical (canonicalize cat c) /\
  map (char_in cat (canonicalize cat c)) [9; 10; 40; 41; 53; 54; 300] = [false; true; true; false; false; true; true].
Proof. cbn zeta. split; [vm_compute; reflexivity|]. split; [vm_compute; repeat split; easy|vm_compute; reflexivity]. Qed.

(* the three normal forms *)
Example C16_witness_normal_forms :
  let cat := fun (name ch : Z) => (name =? 5) && (48 <=? ch) && (ch <=? 57) in
  canonicalize cat (ranges_cls [(98, 1114111); (0, 96)]) = Cls [(97, 97)] [] None true false None /\
  canonicalize cat (ranges_cls [(0, 50); (51, 1114111)]) = Cls [(0, 1114111)] [] None false true None /\
  canonicalize cat (Cls [(0, 52); (54, 1114111)] [(false, 5)] None false false None) = Cls [(0, 1114111)] [] None false true None /\
  canonicalize cat (Cls [(0, 96); (98, 1114111)] [(false, 5)] None false false None) = Cls [(97, 97)] [] None true false None.
Proof. cbn zeta. repeat split; vm_compute; reflexivity. Qed.

(* MayOverlap answers false for [a-f] / [x-z] and for \s / \d, true for [a-f] / [e-k] *)
Example C16_witness_may_overlap :
  let cat := fun (_ _ : Z) => false in
  may_overlap cat (ranges_cls [(97, 102)]) (ranges_cls [(120, 122)]) = false /\
  may_overlap cat space_class digit_class = false /\
  may_overlap cat (ranges_cls [(97, 102)]) (ranges_cls [(101, 107)]) = true.
Proof. cbn zeta. repeat split; vm_compute; reflexivity. Qed.

(* IgnoreCase on the table: [k] contains k, K and U+212A KELVIN SIGN; [a-z] contains U+017F *)
Example C16_witness_case :
  (exists c, ci_class 107 107 = Ok c /\ ranges c = [(75, 75); (107, 107); (8490, 8490)]) /\
  (exists c, ci_class 97 122 = Ok c /\ ranges c = [(65, 90); (97, 122); (383, 383); (8490, 8490)]).
Proof. split; eexists; split; vm_compute; reflexivity. Qed.

(* The tables the model carries as data (lcTable with its four operation codes, the boundary lists
   behind the ECMAScript / RE2 shorthand classes) are the tables of /repo/syntax/charclass.go as the
   translator reads them on every run (coq/Gen/CharClassGen.v). *)
Theorem C16_tables_are_source_tables :
  lc_table = G_lcTable /\
  (G_LowercaseSet = 0 /\ G_LowercaseAdd = 1 /\ G_LowercaseBor = 2 /\ G_LowercaseBad = 3) /\
  ecma_space_ranges = ccg_pairs G_ecmaSpace /\ ecma_word_ranges = ccg_pairs G_ecmaWord /\
  ecma_digit_ranges = ccg_pairs G_ecmaDigit /\ re2_space_ranges = ccg_pairs G_re2Space.
Proof. exact ccg_all. Qed.
Print Assumptions C16_tables_are_source_tables.

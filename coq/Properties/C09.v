(* C09 — Replace and Split are the fold of the match sequence.
   The lemmas behind the theorems are in Proofs/ReplaceProofs.v and Proofs/ReplaceParserProofs.v.  The model (Model/Replace.v) follows /repo INCLUDING the three C09
   fixes (right-to-left rule order, count = 0, right-to-left Split); what the code did before
   the fixes is recorded at the end as C09_unfixed_*_refuted.

   Common hypotheses (named in every statement):
     wf_matches rtl text ms    the match sequence handed to the drivers is in bounds, ordered in scan
                               direction and non-overlapping (what C07/C08 establish about the engine;
                               checked on every real sequence by legs c09-replace / c09-split);
     env_ok env n              the Regexp's capture maps fit matches with n slots (C17);
     start_ok tw startAt       startAt <= len(input) and, if >= 0, on a rune boundary. *)
From Verif Require Import Base.Prelude Gen.ReplaceGen Model.Escape Model.Replace
     Proofs.ReplaceProofs Proofs.ReplaceParserProofs.

Section Oracles.
Variable is_word_char : Z -> bool.       (* syntax.IsWordChar, arbitrary *)
Variable is_ecma_start : Z -> bool.      (* syntax.IsECMAIdentifierStartChar, arbitrary *)
Variable is_ecma_char : Z -> bool.       (* syntax.IsECMAIdentifierChar, arbitrary *)

Notation new_replacer_data := (new_replacer_data is_word_char is_ecma_start is_ecma_char).
Notation replace_string := (replace_string is_word_char is_ecma_start is_ecma_char).
Notation rep_spec := (rep_spec is_word_char is_ecma_start is_ecma_char).
Notation get_replacer_data := (get_replacer_data is_word_char is_ecma_start is_ecma_char).

(* Replace(input, replacement, startAt, count), left-to-right pattern: for EVERY replacement string
   the parser accepts, every well-formed match sequence, every count >= -1 and valid startAt, the
   result is the input with the first count matches replaced by the expansion of the replacement
   and everything else kept. *)
Theorem C09_replace_ltr_fold :
  forall env n rep d tw startAt count ms,
    env_ok env n -> -1 <= count -> start_ok tw startAt ->
    wf_matches false (runes_of tw) ms -> Forall (fun m => group_count m = n) ms ->
    new_replacer_data env rep = Ok d ->
    exists toks, toks_of d = Some toks /\
      replace_string env false rep tw startAt count ms = Ok (replace_spec false ms toks count (runes_of tw)).
Proof. intros. eapply replace_string_fold; eassumption. Qed.

(* The same for a RightToLeft pattern (matches arrive from the end of the text; the pieces of a
   multi-rule replacement come out in rule order, the output in text order). *)
Theorem C09_replace_rtl_fold :
  forall env n rep d tw startAt count ms,
    env_ok env n -> -1 <= count -> start_ok tw startAt ->
    wf_matches true (runes_of tw) ms -> Forall (fun m => group_count m = n) ms ->
    new_replacer_data env rep = Ok d ->
    exists toks, toks_of d = Some toks /\
      replace_string env true rep tw startAt count ms = Ok (replace_spec true ms toks count (runes_of tw)).
Proof. intros. eapply replace_string_fold; eassumption. Qed.

(* A replacement string the parser rejects makes Replace return that error, whatever the rest. *)
Theorem C09_replace_parse_error :
  forall env rtl rep c tw startAt count ms,
    new_replacer_data env rep = Err c -> replace_string env rtl rep tw startAt count ms = Err c.
Proof. intros. apply replace_string_error. assumption. Qed.

(* ReplaceFunc, both directions, ANY evaluator: the same fold with the evaluator's strings. *)
Theorem C09_replace_func_fold :
  forall rtl f tw startAt count ms,
    -1 <= count -> start_ok tw startAt -> wf_matches rtl (runes_of tw) ms ->
    replace rtl (ByEval f) tw startAt count ms = Ok (replace_spec_f rtl ms f count (runes_of tw)).
Proof.
  intros rtl f tw startAt count ms Hc (H1 & H2) Hwf. apply replace_func_fold; try assumption.
  apply check_start_ok; assumption.
Qed.

(* ReplaceFunc with an evaluator that computes the expansion of a replacement = Replace with it. *)
Theorem C09_replace_func_eq_replace :
  forall rtl d toks n f tw startAt count ms,
    -1 <= count -> start_ok tw startAt ->
    wf_matches rtl (runes_of tw) ms -> Forall (fun m => group_count m = n) ms ->
    data_ok d n -> toks_of d = Some toks ->
    (forall m, In m ms -> f m = expand toks m (runes_of tw)) ->
    replace rtl (ByEval f) tw startAt count ms = replace rtl (ByData d) tw startAt count ms.
Proof.
  intros rtl d toks n f tw startAt count ms Hc (H1 & H2). intros.
  eapply replace_func_eq_replace; eauto. apply check_start_ok; assumption.
Qed.

(* Replacing with "$&" is the identity, both directions, every count and valid startAt. *)
Theorem C09_replace_amp_identity :
  forall env n rtl tw startAt count ms,
    env_ok env n -> -1 <= count -> start_ok tw startAt ->
    wf_matches rtl (runes_of tw) ms -> Forall group0_ok ms ->
    replace_string env rtl [36; 38] tw startAt count ms = Ok (runes_of tw).
Proof. intros. eapply replace_string_amp; eassumption. Qed.

(* count and startAt: count < -1 and bad startAt give the documented errors (in this order),
   count = 0 returns the input unchanged, no match returns the input unchanged. *)
Theorem C09_replace_count_startat :
  forall rtl r tw startAt count ms,
    (count < -1 -> replace rtl r tw startAt count ms = Err E_CountTooSmall) /\
    (count = 0 -> replace rtl r tw startAt count ms = Ok (runes_of tw)) /\
    (-1 <= count -> count <> 0 -> byte_len tw < startAt ->
       replace rtl r tw startAt count ms = Err E_StartTooLarge) /\
    (-1 <= count -> count <> 0 -> 0 <= startAt -> startAt <= byte_len tw -> ~ is_boundary tw startAt ->
       replace rtl r tw startAt count ms = Err E_StartNotBoundary) /\
    (-1 <= count -> startAt <= byte_len tw -> (0 <= startAt -> is_boundary tw startAt) -> ms = [] ->
       replace rtl r tw startAt count ms = Ok (runes_of tw)).
Proof. exact replace_count_startat. Qed.

(* Expansion of one match: replacementImpl (and replacementImplRTL, whose pieces are emitted
   reversed by the caller) computes [expand]; [expand] reads $n / ${name} as the last capture of the
   slot the number maps to, $+ as the last slot, $` $' $_ as prefix / suffix / whole input. *)
Theorem C09_expand_refs :
  forall d toks text m,
    wf_match (zlen text) m -> data_ok d (group_count m) -> toks_of d = Some toks ->
    (forall buf, replacement_impl d text m buf = Ok (buf ++ expand toks m text)) /\
    (forall al, exists pieces, replacement_impl_rtl d text m al = Ok (al ++ pieces) /\
                               concat (rev pieces) = expand toks m text).
Proof.
  intros d toks text m Hwf Hd Ht. split.
  - intros buf. apply replacement_impl_ok; assumption.
  - intros al. exists (rev (map (tok_text m text) toks)). split.
    + apply replacement_impl_rtl_ok; assumption.
    + rewrite rev_involutive. reflexivity.
Qed.

Theorem C09_expand_meaning :
  forall m text,
    (forall s, expand [TLit s] m text = s) /\
    (forall k caps i l, znth (m_groups m) k = Some caps -> last_opt caps = Some (i, l) ->
                        expand [TGroup k] m text = zslice text i (i + l)) /\
    (forall k caps, znth (m_groups m) k = Some caps -> caps = [] -> expand [TGroup k] m text = []) /\
    (m_groups m <> [] -> expand [TLast] m text = expand [TGroup (group_count m - 1)] m text) /\
    expand [TLeft] m text = firstn (Z.to_nat (m_index m)) text /\
    expand [TRight] m text = skipn (Z.to_nat (m_index m + m_length m)) text /\
    expand [TWhole] m text = text /\
    (forall a b, expand (a ++ b) m text = expand a m text ++ expand b m text).
Proof.
  intros m text. unfold expand. cbn [map concat tok_text].
  repeat split; intros; try (rewrite app_nil_r; reflexivity).
  - rewrite H. unfold cap_text. rewrite H0. apply app_nil_r.
  - rewrite H. subst caps. reflexivity.
  - unfold group_count. rewrite znth_last by assumption. reflexivity.
  - rewrite map_app, concat_app. reflexivity.
Qed.

(* The replacement-string parser against the declarative $-grammar (Model/Replace.v, rep_spec):
   every accepted replacement is a parse according to the grammar — $$, $& $` $' $+ $_, $n with
   the longest-number rule (all digits; in ECMAScript mode the longest digit prefix that names a
   group), ${n}, ${name}; every other '$' is literal — and its rule list reads back as the
   compiled items.  In ECMAScript mode this includes "${" followed by a name that cannot be
   scanned (a backslash that starts no \u escape: "${n\", "${\x}"): since /repo 273146b that '$'
   is a literal '$' like every other unrecognised form (no form of the grammar has a backslash in
   the name, so RS_literal applies).  PARTIAL: in ECMAScript mode replacements containing "\u"
   (no_u_escape: a backslash immediately followed by 'u', the escapes inside ${name}) are
   modelled and exercised by leg c09-parse but not described by the grammar. *)
Theorem C09_replacement_parser_spec_partial :
  forall env n rep d,
    env_ok env n -> new_replacer_data env rep = Ok d ->
    (use_e env = true -> no_u_escape rep) ->
    exists items, rep_spec env rep items /\ toks_of d = Some (compile_items env items []).
Proof.
  intros env n rep d Henv Hd Hbs.
  destruct (new_replacer_data_spec _ _ _ env n Henv rep d Hd) as (_ & toks & Ht & Hg).
  destruct (Hg Hbs) as (items & Hr & ->). exists items. split; assumption.
Qed.

(* Full (every mode, every replacement): accepted replacements only refer to existing literal
   strings and to capture slots of the Regexp's matches. *)
Theorem C09_replacer_data_ok :
  forall env n rep d,
    env_ok env n -> new_replacer_data env rep = Ok d ->
    data_ok d n /\ exists toks, toks_of d = Some toks.
Proof.
  intros env n rep d Henv Hd.
  destruct (new_replacer_data_spec _ _ _ env n Henv rep d Hd) as (Hok & toks & Ht & _).
  split; [exact Hok|]. exists toks. exact Ht.
Qed.

(* The explicit panics of replacerdata.go are unreachable (the replacement parser only builds
   One/Multi/Ref children under a Concatenate node), no index fault occurs in the parser, and the
   model's fuel suffices: for EVERY environment and string the result is data or a parse error. *)
Theorem C09_replacer_data_no_panic :
  forall env rep, match new_replacer_data env rep with
                  | Ok _ | Err _ => True
                  | Crash _ | Fuel => False
                  end.
Proof.
  intros env rep. pose proof (new_replacer_data_clean is_word_char is_ecma_start is_ecma_char env rep) as H.
  destruct (new_replacer_data env rep); try exact I; exact H.
Qed.

(* getReplacerData returns the parse of its argument for every coherent cache state and keeps the
   cache coherent (LRU with eviction). *)
Theorem C09_cache_transparent :
  forall env should_cache max_size rep c,
    cache_coherent is_word_char is_ecma_start is_ecma_char env c ->
    fst (get_replacer_data env should_cache max_size rep c) = new_replacer_data env rep /\
    cache_coherent is_word_char is_ecma_start is_ecma_char env (snd (get_replacer_data env should_cache max_size rep c)).
Proof. exact (fun env sc ms rep c H => get_replacer_data_transparent is_word_char is_ecma_start is_ecma_char env sc ms rep c H). Qed.

(* The grammar is unambiguous: a replacement string has at most one parse, so together with
   C09_replacement_parser_spec_partial the grammar DETERMINES the rule list of every accepted
   replacement. *)
Theorem C09_replacement_grammar_unambiguous :
  forall env s i1 i2, rep_spec env s i1 -> rep_spec env s i2 -> i1 = i2.
Proof. exact (rep_spec_functional is_word_char is_ecma_start is_ecma_char). Qed.

(* The only error the parser reports, in every mode: "capture group number out of range" (a digit
   run above MaxInt32 after $ or ${).  Since /repo 273146b a malformed ECMAScript ${name} (invalid
   name, bad \u or \u{...} escape: ErrInvalidECMAGroupName, ErrTooFewHex, ErrInvalidHex,
   ErrMissingBrace raised inside scanCapname) is no error any more: scanDollar swallows it and
   copies the '$' literally. *)
Theorem C09_parser_error_codes :
  forall env rep c,
    new_replacer_data env rep = Err c ->
    c = E_CapOutOfRange.
Proof.
  intros env rep c H. pose proof (new_replacer_data_clean is_word_char is_ecma_start is_ecma_char env rep) as Hc.
  rewrite H in Hc. exact Hc.
Qed.

End Oracles.
(* the theorems of the section, now quantified over the three oracles *)
Print Assumptions C09_replace_ltr_fold.
Print Assumptions C09_replace_rtl_fold.
Print Assumptions C09_replace_parse_error.
Print Assumptions C09_replace_func_fold.
Print Assumptions C09_replace_func_eq_replace.
Print Assumptions C09_replace_amp_identity.
Print Assumptions C09_replace_count_startat.
Print Assumptions C09_expand_refs.
Print Assumptions C09_expand_meaning.
Print Assumptions C09_replacement_parser_spec_partial.
Print Assumptions C09_replacer_data_ok.
Print Assumptions C09_replacer_data_no_panic.
Print Assumptions C09_cache_transparent.
Print Assumptions C09_replacement_grammar_unambiguous.
Print Assumptions C09_parser_error_codes.

(* Split, both directions: equals the specification fold (text between successive matches
   interleaved with the groups 1..n of each match; right-to-left = the same walk from the end,
   reversed as a whole, as .NET does). *)
Theorem C09_split_spec_eq :
  forall rtl tw count ms,
    -1 <= count -> wf_matches rtl (runes_of tw) ms ->
    split rtl tw count ms = Ok (split_spec rtl ms count (runes_of tw)).
Proof. exact split_spec_eq. Qed.
Print Assumptions C09_split_spec_eq.

(* The pieces at positions 0, k+1, 2(k+1), … (k = number of groups) interleaved with the texts of the
   processed matches (in text order) rebuild the input. *)
Theorem C09_split_rejoin :
  forall rtl ms count text k,
    count <> 0 -> wf_matches rtl text ms -> Forall (fun m => length (m_groups m) = S k) ms ->
    interleave (every_kth k (split_spec rtl ms count text))
               (map (matched_text text) (text_order rtl (split_processed count ms))) = text.
Proof. exact split_rejoin. Qed.
Print Assumptions C09_split_rejoin.

(* Split's count: < -1 is an error, 0 gives no pieces, 1 gives the input, -1 processes every match. *)
Theorem C09_split_count :
  forall rtl tw ms,
    (forall count, count < -1 -> split rtl tw count ms = Err E_CountTooSmall) /\
    split rtl tw 0 ms = Ok [] /\
    split rtl tw 1 ms = Ok [runes_of tw] /\
    (zlen ms <= maxint -> split_processed (-1) ms = ms).
Proof.
  intros rtl tw ms. repeat split.
  - intros count H. apply split_count_too_small. exact H.
  - apply split_processed_all.
Qed.
Print Assumptions C09_split_count.

(* replace.go and syntax/replacerdata.go declare the special rule numbers twice: they agree. *)
Theorem C09_special_rule_numbers_agree :
  r_replaceSpecials = s_replaceSpecials /\ r_replaceLeftPortion = s_replaceLeftPortion /\
  r_replaceRightPortion = s_replaceRightPortion /\ r_replaceLastGroup = s_replaceLastGroup /\
  r_replaceWholeString = s_replaceWholeString.
Proof. exact consts_agree. Qed.
Print Assumptions C09_special_rule_numbers_agree.

(* ---------------------------------------------------------------------------------------------
   What the code did BEFORE the three fixes (docs/patches/C09-replace-split.patch; /repo commits
   "RTL Replace rule order", "count==0 returns input", "RTL Split"): the pre-fix loops, kept in the
   model as *_unfixed, violate the statements above on these witnesses. *)


(* witnesses (Proofs/ReplaceParserProofs.v): w_a1b2 = "a1b2"; w_rtl_ms = the matches of \d RightToLeft on
   it, [1@3; 1@1]; w_angle = the rules of "<$&>".
   `\d` RightToLeft, "<$&>" on "a1b2": the unfixed driver gives "a>1<b>2<", the fold "a<1>b<2>" *)
Theorem C09_unfixed_replace_rtl_refuted :
  replace_rtl_unfixed w_angle w_a1b2 (-1) w_rtl_ms = Ok [97; 62; 49; 60; 98; 62; 50; 60] /\
  replace_spec true w_rtl_ms [TLit [60]; TGroup 0; TLit [62]] (-1) (runes_of w_a1b2)
    = [97; 60; 49; 62; 98; 60; 50; 62] /\
  replace true (ByData w_angle) w_a1b2 (-1) (-1) w_rtl_ms = Ok [97; 60; 49; 62; 98; 60; 50; 62].
Proof. vm_compute. repeat split; reflexivity. Qed.
Print Assumptions C09_unfixed_replace_rtl_refuted.

(* Split on a RightToLeft pattern with two matches: the unfixed loop slices [4:1] — a panic *)
Theorem C09_unfixed_split_rtl_refuted :
  split_unfixed w_a1b2 (-1) w_rtl_ms = Crash C_slice /\
  split true w_a1b2 (-1) w_rtl_ms = Ok [[97]; [98]; []].
Proof. vm_compute. split; reflexivity. Qed.
Print Assumptions C09_unfixed_split_rtl_refuted.

(* count = 0 returned "" instead of the input *)
Theorem C09_unfixed_replace_count0_refuted :
  replace_count0_unfixed = Ok [] /\
  replace false (ByData w_angle) w_a1b2 (-1) 0 [] = Ok (runes_of w_a1b2) /\ runes_of w_a1b2 <> [].
Proof. vm_compute. repeat split; try reflexivity. discriminate. Qed.
Print Assumptions C09_unfixed_replace_count0_refuted.

(* ---------------------------------------------------------------------------------------------
   Non-vacuity witnesses (vm_compute on the executable model). *)

Definition ex_word (r : Z) : bool :=
  (48 <=? r) && (r <=? 57) || (65 <=? r) && (r <=? 90) || (97 <=? r) && (r <=? 122) || (r =? 95).
(* pattern (a)(b)? : dense numbering, 3 slots *)
Definition ex_env : penv := mkEnv 0 None 3 None.
(* "xaby", one match "ab" at 1 with groups a@1, b@2 *)
Definition ex_tw : list (Z * Z) := [(120, 1); (97, 1); (98, 1); (121, 1)].
Definition ex_ms : list mtch := [mkM 1 2 [[(1, 2)]; [(1, 1)]; [(2, 1)]]].

(* "[$1|$2|$3|${1}|${2|$1a|$10|$+|$_|$`|$'|$$|$]" -> "x[a|b|$3|a|${2|aa|$10|b|xaby|x|y|$|$]y" (as the real code) *)
Example C09_witness_replace :
  let rep := [91; 36; 49; 124; 36; 50; 124; 36; 51; 124; 36; 123; 49; 125; 124; 36; 123; 50; 124; 36; 49; 97; 124;
              36; 49; 48; 124; 36; 43; 124; 36; 95; 124; 36; 96; 124; 36; 39; 124; 36; 36; 124; 36; 93] in
  replace_string ex_word ex_word ex_word ex_env false rep ex_tw (-1) (-1) ex_ms
  = Ok [120; 91; 97; 124; 98; 124; 36; 51; 124; 97; 124; 36; 123; 50; 124; 97; 97; 124; 36; 49; 48; 124; 98; 124;
        120; 97; 98; 121; 124; 120; 124; 121; 124; 36; 124; 36; 93; 121].
Proof. vm_compute. reflexivity. Qed.

(* the hypotheses of the fold theorems hold for this witness *)
Example C09_witness_hyps :
  env_ok ex_env 3 /\ wf_matches false (runes_of ex_tw) ex_ms /\ Forall (fun m => group_count m = 3) ex_ms /\
  Forall group0_ok ex_ms /\ start_ok ex_tw (-1) /\ start_ok ex_tw 2.
Proof.
  repeat split; try (cbn; lia); try (repeat constructor; cbn; lia).
  - repeat constructor; cbn; try lia; try discriminate; repeat constructor; cbn; lia.
  - constructor; [|constructor]. eexists _, _. split; reflexivity.
  - intros _. exists 2%nat. split; [cbn; lia|reflexivity].
Qed.

(* $10 with 3 slots: literal in .NET mode, group 1 followed by '0' in ECMAScript mode; with 11 slots group 10 *)
Example C09_witness_ambiguous :
  new_replacer_data ex_word ex_word ex_word ex_env [36; 49; 48] = Ok (mkRD [[36; 49; 48]] [0]) /\
  new_replacer_data ex_word ex_word ex_word (mkEnv 256 None 3 None) [36; 49; 48] = Ok (mkRD [[48]] [-6; 0]) /\
  new_replacer_data ex_word ex_word ex_word (mkEnv 0 None 11 None) [36; 49; 48] = Ok (mkRD [] [-15]) /\
  new_replacer_data ex_word ex_word ex_word ex_env [36; 57; 57; 57; 57; 57; 57; 57; 57; 57; 57; 57] = Err E_CapOutOfRange.
Proof. vm_compute. repeat split; reflexivity. Qed.

(* Split: (\d)(x)? on "a1xb2c" -> [a 1 x b 2 "" c]; RightToLeft (.NET layout) [a "" 2 b x 1 c] *)
Example C09_witness_split :
  let tw := [(97, 1); (49, 1); (120, 1); (98, 1); (50, 1); (99, 1)] in
  let m1 := mkM 1 2 [[(1, 2)]; [(1, 1)]; [(2, 1)]] in
  let m2 := mkM 4 1 [[(4, 1)]; [(4, 1)]; []] in
  split false tw (-1) [m1; m2] = Ok [[97]; [49]; [120]; [98]; [50]; []; [99]] /\
  split true tw (-1) [m2; m1] = Ok [[97]; [120]; [49]; [98]; []; [50]; [99]] /\
  wf_matches false (runes_of tw) [m1; m2] /\ wf_matches true (runes_of tw) [m2; m1].
Proof.
  cbv zeta. split; [vm_compute; reflexivity|]. split; [vm_compute; reflexivity|].
  split; (split; [repeat constructor; cbn; try lia; try discriminate|cbn; lia]).
Qed.

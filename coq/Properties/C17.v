(* C17 — group numbers and names form one consistent map.
   The statements; they are put together from Proofs/GM*.v and Proofs/GroupMapProofs.v, over Model/GroupMap.v.

   The model follows /repo's working tree, which carries small fixes found with this property
   (see known_findings.txt / the evidence notes):
     - Match.populateOtherGroups named Groups()[i] by GroupNameFromNumber(i): wrong when numbers are sparse;
     - Match.GroupByNumber(n) used n as a slot index when n is not a group number (sparse numbers);
     - GroupNumberFromName("") = 0 and overflow on long digit strings when there is no name table;
     - parser.scanGroupOpen left ignoreNextParen set after a condition that is not a plain "(":
       "(?(?=a)(a)|c)(d)" numbered (d) as 1 and left slot 2 orphaned (pre-scan and main pass disagreed);
     - 2b27550: under MaintainCaptureOrder/RE2 the main pass read "(?<2>" as group NUMBER 2 although the
       pre-scan had filed it as the NAME "2"; now both passes file the digits as a name.

   [parse f o ts] = (t, mks, its): the table the capture pre-scan builds, the pre-scan's decision per
   token, and the node the main pass creates per token.  The theorems are for EVERY token list [ts]
   satisfying [ts_ok_unguarded lim ts]:
     lexical  a TNamed name does not start with a digit (the scanner reads such a name as a number); the
              number of a TNumbered token is not negative (it is read off a digit string);
     size     explicit numbers < lim, and lim and the pattern length stay away from 2^31-1, where
              noteCaptureSlot saturates captop (parser.go:209-215).
   Modelling limit: [TNumbered n] stands for the canonical decimal spelling of n.  Since /repo 5afce6b a
   spelling with a leading zero ("(?<02>") is rejected under MaintainCaptureOrder; it is outside the token
   language (the printer of the harness never spells a number with a leading zero).

   Two statements — those about the NAME of an unnamed group — need in addition the
     guard    under MaintainCaptureOrder/RE2 (not ECMAScript, where "(?<2>" is an error) no explicit numbers
   ([ts_ok lim mco ecma ts]).  This is the known finding [mco_digit_names]: "(?<2>a)(b)" makes "2" the name of
   group 1 while the unnamed group 2 is also called "2".  They are named _partial, and C17_*_refuted shows that
   they are false without the guard: C17_table_well_formed_partial (the strong [wf_tree]), hence
   C17_maps_consistent when fed with it (the name <-> number round trips).  Everything else is unguarded; the
   other _partial names are kept as corollaries of the unguarded theorems. *)
From Verif Require Import Base.Prelude Model.GroupMap Proofs.GMBase Proofs.GroupMapProofs.

(* ---------- the table Parse hands on is well formed (everything below rests on it) ---------- *)
(* unguarded: the numbers are well formed ([wf_caps]: increasing, 0 first, dense or listed in Capnumlist),
   Caplist has one entry per group, and that entry is a key of Capnames which holds the group's number — or
   it is the group's numeral while that numeral is (also) the name of another group ([names_entry_weak]) *)
Theorem C17_table_well_formed : forall lim f o ts t mks its,
  ts_ok_unguarded lim ts -> parse f o ts = Ok (t, mks, its) ->
  wf_weak (mode_ecma o) t.
Proof.
  intros lim f o ts t mks its Hok H. destruct (parse_inv _ _ _ _ _ _ H) as [Hp _].
  apply (prescan_wf_weak lim _ _ o ts t mks (mode_ecma_mco f o) Hok Hp).
Qed.
Print Assumptions C17_table_well_formed.

(* with the guard: every entry of Caplist is a key of Capnames holding exactly that group's number *)
Theorem C17_table_well_formed_partial : forall lim f o ts t mks its,
  ts_ok lim (mode_mco f o) (mode_ecma o) ts -> parse f o ts = Ok (t, mks, its) ->
  wf_tree (mode_ecma o) t.
Proof.
  intros lim f o ts t mks its Hok H. destruct (parse_inv _ _ _ _ _ _ H) as [Hp _].
  apply (prescan_wf lim _ _ o ts t mks (mode_ecma_mco f o) Hok Hp).
Qed.
Print Assumptions C17_table_well_formed_partial.

(* the three notions *)
Theorem C17_wf_implications : forall ecma t,
  (wf_tree ecma t -> wf_weak ecma t) /\ (wf_weak ecma t -> wf_caps t).
Proof. intros ecma t. split; [apply wf_tree_weak|apply ww_caps]. Qed.
Print Assumptions C17_wf_implications.

(* ---------- numbering_rule ---------- *)
(* default mode: unnamed groups are 1..u in order of their "("; an explicitly numbered group is
   filed under its number; the distinct names, in order of first appearance, get the successive
   numbers from u+1 on that are not explicit numbers; nothing else is a group number. *)
Theorem C17_numbering_rule_default : forall lim o ts t mks,
  ts_ok_unguarded lim ts ->
  prescan false false o ts = Ok (t, mks) ->
  let u := Z.of_nat (length (autos mks)) in
  autos mks = map (fun i => 1 + Z.of_nat i) (seq 0 (length (autos mks)))
  /\ exists ks,
       chain (0 :: autos mks ++ pnums mks) (u + 1) ks
       /\ (forall k, In k (t_caps t) <-> k = 0 \/ In k (autos mks) \/ In k (pnums mks) \/ In k ks)
       /\ match t_capnames t with
          | Some m => Forall2 (fun s k => aget s m = Some k) (new_names [] (pnames mks)) ks
          | None => new_names [] (pnames mks) = []
          end.
Proof. exact numbering_default. Qed.
Print Assumptions C17_numbering_rule_default.

(* MaintainCaptureOrder / ECMAScript / RE2: pure pattern order — every capturing "(" and every
   name not seen before gets the next number; a repeated name keeps its (single) entry.  "(?<2>" counts
   as the name "2" (its mark is PName "2"): unguarded. *)
Theorem C17_numbering_rule_ordered : forall lim ecma o ts t mks,
  ts_ok_unguarded lim ts ->
  prescan true ecma o ts = Ok (t, mks) ->
  mco_rule (fun s => match t_capnames t with Some m => aget s m | None => None end) 1 [] mks.
Proof. exact numbering_ordered. Qed.
Print Assumptions C17_numbering_rule_ordered.

Corollary C17_numbering_rule_ordered_partial : forall lim ecma o ts t mks,
  ts_ok lim true ecma ts ->
  prescan true ecma o ts = Ok (t, mks) ->
  mco_rule (fun s => match t_capnames t with Some m => aget s m | None => None end) 1 [] mks.
Proof. intros lim ecma o ts t mks H. apply (numbering_ordered lim), (ts_ok_weaken _ _ _ _ H). Qed.
Print Assumptions C17_numbering_rule_ordered_partial.

(* ---------- prescan_agrees_with_parse ---------- *)
(* token by token: the main pass creates a capture node exactly where the pre-scan reserved a
   number, and with that number (also across (?n)/(?x) switches, x-mode comments, conditionals, and —
   since /repo 2b27550 — explicit numbers under MaintainCaptureOrder/RE2): unguarded *)
Theorem C17_prescan_agrees_with_parse : forall lim f o ts t mks its,
  ts_ok_unguarded lim ts -> parse f o ts = Ok (t, mks, its) ->
  Forall2 (agrees t) mks its.
Proof.
  intros lim f o ts t mks its Hok H. destruct (parse_inv _ _ _ _ _ _ H) as [Hp Hm].
  destruct (main_pass_inv _ _ _ _ _ _ Hm) as [st [Hr _]].
  apply (prescan_agrees lim _ _ o ts t mks st its (mode_ecma_mco f o) Hok Hp Hr).
Qed.
Print Assumptions C17_prescan_agrees_with_parse.

Corollary C17_prescan_agrees_with_parse_partial : forall lim f o ts t mks its,
  ts_ok lim (mode_mco f o) (mode_ecma o) ts -> parse f o ts = Ok (t, mks, its) ->
  Forall2 (agrees t) mks its.
Proof. intros lim f o ts t mks its H. apply (C17_prescan_agrees_with_parse lim), (ts_ok_weaken _ _ _ _ H). Qed.
Print Assumptions C17_prescan_agrees_with_parse_partial.

(* ---------- dense_map_bijective (writer remap + Regexp.caps) ---------- *)
(* needs the numbers only ([wf_caps], which C17_table_well_formed gives without the guard) *)
Theorem C17_dense_map_bijective : forall t, wf_caps t ->
  let r := compile_maps t in
  (forall k i, group_by_number r k = Some i -> In k (t_caps t) /\ 0 <= i < r_capsize r)
  /\ (forall k, In k (t_caps t) -> exists i, group_by_number r k = Some i)
  /\ (forall i, 0 <= i < r_capsize r -> exists k, In k (t_caps t) /\ group_by_number r k = Some i)
  /\ (forall k1 k2 i1 i2, group_by_number r k1 = Some i1 -> group_by_number r k2 = Some i2 -> k1 < k2 -> i1 < i2)
  /\ get_group_numbers r = Ok (t_caps t).
Proof. exact dense_map_bijective. Qed.
Print Assumptions C17_dense_map_bijective.

(* ---------- maps_consistent ---------- *)
(* GetGroupNames[i] names GetGroupNumbers[i]; number -> name -> number and name -> number -> name are
   identities (ECMAScript's unnamed groups have the empty name, as documented); GroupByName is
   GroupByNumber of the looked-up number; Groups()[i] is slot i and carries GetGroupNames[i].
   Needs the strong [wf_tree], i.e. the guard (C17_table_well_formed_partial): the third, fourth and sixth
   conjunct are false for "(?<2>a)(b)" under MaintainCaptureOrder (C17_name_number_roundtrip_refuted). *)
Theorem C17_maps_consistent : forall ecma t, wf_tree ecma t ->
  let r := compile_maps t in
  let nums := t_caps t in
  let names := get_group_names r in
  length names = length nums
  /\ (forall i k, nth_error nums i = Some k -> group_name_from_number r k = nth i names [])
  /\ (forall k, In k nums -> let s := group_name_from_number r k in
                              (ecma = true /\ s = []) \/ (s <> [] /\ group_number_from_name r s = k))
  /\ (forall s, In s names -> s <> [] ->
        In (group_number_from_name r s) nums /\ group_name_from_number r (group_number_from_name r s) = s)
  /\ (forall s, group_by_name r s =
                if group_number_from_name r s <? 0 then None else group_by_number r (group_number_from_name r s))
  /\ (forall i k s, nth_error nums i = Some k -> nth_error names i = Some s -> s <> [] ->
        group_by_name r s = Some (Z.of_nat i) /\ group_by_number r k = Some (Z.of_nat i))
  /\ groups_names ecma r = names
  /\ (ecma = false -> forall s, In s names -> s <> []).
Proof. exact maps_consistent. Qed.
Print Assumptions C17_maps_consistent.

(* what is left of it without the guard (weak well-formedness + C17_names_point_to_groups): the lists
   have one length, GroupNameFromNumber reads the list, Groups() carries the list, names are not empty, and
   the name listed for group k is known to GroupNumberFromName and leads to a group — to k itself, unless
   the name is the numeral of k *)
Theorem C17_maps_consistent_unguarded : forall ecma t, wf_weak ecma t -> vals_ok t ->
  let r := compile_maps t in
  let nums := t_caps t in
  let names := get_group_names r in
  length names = length nums
  /\ (forall i k, nth_error nums i = Some k -> group_name_from_number r k = nth i names [])
  /\ (forall i k s, nth_error nums i = Some k -> nth_error names i = Some s ->
        (ecma = true /\ s = [])
        \/ (s <> [] /\ In (group_number_from_name r s) nums
                    /\ (group_number_from_name r s = k \/ s = itoa k)))
  /\ (forall s, group_by_name r s =
                if group_number_from_name r s <? 0 then None else group_by_number r (group_number_from_name r s))
  /\ groups_names ecma r = names
  /\ (ecma = false -> forall s, In s names -> s <> []).
Proof. exact maps_consistent_weak. Qed.
Print Assumptions C17_maps_consistent_unguarded.

(* ---------- refs_use_same_map ---------- *)
(* every number held by Capnames is a group number (unguarded: also the number a digit name holds) ... *)
Theorem C17_names_point_to_groups : forall lim f o ts t mks its,
  ts_ok_unguarded lim ts -> parse f o ts = Ok (t, mks, its) -> vals_ok t.
Proof.
  intros lim f o ts t mks its Hok H. destruct (parse_inv _ _ _ _ _ _ H) as [Hp _].
  exact (prescan_vals lim _ _ o ts t mks (mode_ecma_mco f o) Hok Hp).
Qed.
Print Assumptions C17_names_point_to_groups.

Corollary C17_names_point_to_groups_partial : forall lim f o ts t mks its,
  ts_ok lim (mode_mco f o) (mode_ecma o) ts -> parse f o ts = Ok (t, mks, its) -> vals_ok t.
Proof. intros lim f o ts t mks its H. apply (C17_names_point_to_groups lim), (ts_ok_weaken _ _ _ _ H). Qed.
Print Assumptions C17_names_point_to_groups_partial.

(* ... so "$n"/"${n}", "${name}" and the slot a node with number k is compiled to (mapCapnum: groups,
   "\n", "\k<name>", "(?(n)") all go through the one number -> slot map.  Needs the numbers only. *)
Theorem C17_refs_use_same_map : forall t, wf_caps t -> vals_ok t ->
  let r := compile_maps t in
  (forall n, dollar_num r n = group_by_number r n)
  /\ (forall s, dollar_name r s = match r_capnames r with Some _ => group_by_name r s | None => None end)
  /\ (forall k i, group_by_number r k = Some i -> map_capnum r k = i).
Proof. exact refs_use_same_map. Qed.
Print Assumptions C17_refs_use_same_map.

(* ---------- the former refutation: proved instead ---------- *)

(* (?<2>a)(b)(?<n>c) *)
Definition c17_wit : list gtok := [TNumbered 2; TLit 0; TClose; TOpen; TLit 1; TClose; TNamed [110]; TLit 2; TClose].

Definition C17_prescan_agrees_full : Prop := forall lim f o ts t mks its,
  ts_ok_unguarded lim ts -> parse f o ts = Ok (t, mks, its) -> Forall2 (agrees t) mks its.

(* refuted until /repo 2b27550 (C17_prescan_agrees_refuted, witness c17_wit); now it holds *)
Theorem C17_prescan_agrees_full_holds : C17_prescan_agrees_full.
Proof. exact C17_prescan_agrees_with_parse. Qed.
Print Assumptions C17_prescan_agrees_full_holds.

(* ---------- what is still false without the guard: MaintainCaptureOrder with a digit name ---------- *)

Definition C17_name_number_roundtrip_full : Prop := forall lim f o ts t mks its,
  ts_ok_unguarded lim ts -> parse f o ts = Ok (t, mks, its) ->
  forall k, In k (t_caps t) ->
    let r := compile_maps t in let s := group_name_from_number r k in
    (mode_ecma o = true /\ s = []) \/ (s <> [] /\ group_number_from_name r s = k).

Definition C17_table_well_formed_full : Prop := forall lim f o ts t mks its,
  ts_ok_unguarded lim ts -> parse f o ts = Ok (t, mks, its) -> wf_tree (mode_ecma o) t.

Lemma c17_wit_ok : ts_ok_unguarded 100 c17_wit.
Proof.
  unfold ts_ok_unguarded, c17_wit. split; [|split; [|split]].
  - repeat (apply Forall_cons; [cbn; try exact I; try reflexivity; lia|]); apply Forall_nil.
  - repeat (apply Forall_cons; [cbn; try exact I; try reflexivity; lia|]); apply Forall_nil.
  - unfold maxint32. lia.
  - cbn. unfold maxint32. lia.
Qed.

Definition c17_wit_res := Eval vm_compute in parse true 0 c17_wit.
Lemma c17_wit_parse : parse true 0 c17_wit = c17_wit_res.
Proof. vm_compute. reflexivity. Qed.

(* on the old counter-example the two passes agree: "(?<2>" is the NAME "2" (slot 1) in both *)
Example C17_prescan_agrees_on_old_witness :
  match c17_wit_res with Ok (t, mks, its) => Forall2 (agrees t) mks its | _ => False end.
Proof.
  vm_compute. repeat (constructor; try (eexists; split; [reflexivity|]; eexists; split; reflexivity)).
Qed.

(* GetGroupNames is still [0 2 2 n]: number 2 is called "2", but the name "2" means number 1 *)
Theorem C17_name_number_roundtrip_refuted : ~ C17_name_number_roundtrip_full.
Proof.
  intros H. pose proof (H 100 true 0 c17_wit _ _ _ c17_wit_ok c17_wit_parse 2) as F.
  assert (Hin : In 2 [0; 1; 2; 3]) by (cbn; auto).
  specialize (F Hin). vm_compute in F. destruct F as [[E _]|[_ E]]; discriminate.
Qed.
Print Assumptions C17_name_number_roundtrip_refuted.

(* hence the strong well-formedness needs the guard too *)
Theorem C17_table_well_formed_refuted : ~ C17_table_well_formed_full.
Proof.
  intros H. apply C17_name_number_roundtrip_refuted.
  intros lim f o ts t mks its Hok Hp k Hk.
  destruct (maps_consistent _ _ (H lim f o ts t mks its Hok Hp)) as [_ [_ [H3 _]]]. now apply H3.
Qed.
Print Assumptions C17_table_well_formed_refuted.

(* the weak statement on the witness: the entry of the unnamed group 2 is its numeral "2", a key of
   Capnames that holds 1 *)
Example C17_witness_weak_entry :
  match c17_wit_res with
  | Ok (t, _, _) => get_group_names (compile_maps t) = [[48]; [50]; [50]; [110]]
                    /\ group_number_from_name (compile_maps t) [50] = 1
                    /\ group_name_from_number (compile_maps t) 2 = [50]
  | _ => False
  end.
Proof. vm_compute. repeat split; reflexivity. Qed.

(* ---------- non-vacuity ---------- *)

(* (a)(?<n>b)(?<5>c): sparse numbers, a name, the dense remap, every lookup *)
Example C17_witness_sparse :
  let ts := [TOpen; TLit 0; TClose; TNamed [110]; TLit 1; TClose; TNumbered 5; TLit 2; TClose] in
  ts_ok 100 false false ts
  /\ exists t mks its, parse false 0 ts = Ok (t, mks, its)
     /\ t_caps t = [0; 1; 2; 5]
     /\ mks = [PAuto 1; PNone; PNone; PName [110]; PNone; PNone; PNum 5; PNone; PNone]
     /\ its = [ICapture 1; INone; IClose; ICapture 2; INone; IClose; ICapture 5; INone; IClose]
     /\ get_group_names (compile_maps t) = [[48]; [49]; [110]; [53]]
     /\ get_group_numbers (compile_maps t) = Ok [0; 1; 2; 5]
     /\ map (group_by_number (compile_maps t)) [0; 1; 2; 3; 4; 5; 6] = [Some 0; Some 1; Some 2; None; None; Some 3; None]
     /\ group_by_name (compile_maps t) [110] = Some 2
     /\ groups_names false (compile_maps t) = [[48]; [49]; [110]; [53]]
     /\ dollar_num (compile_maps t) 5 = Some 3 /\ dollar_name (compile_maps t) [110] = Some 2.
Proof.
  cbn zeta. split.
  - unfold ts_ok. split; [|split; [|split; [|split]]].
    + repeat (apply Forall_cons; [cbn; try exact I; try reflexivity; lia|]); apply Forall_nil.
    + repeat (apply Forall_cons; [cbn; try exact I; try reflexivity; lia|]); apply Forall_nil.
    + discriminate.
    + unfold maxint32. lia.
    + cbn. unfold maxint32. lia.
  - eexists _, _, _. split; [vm_compute; reflexivity|]. vm_compute. repeat split; reflexivity.
Qed.

(* MaintainCaptureOrder: (?n)(a)(?<x>b)(?-n)(c)(?<x>d) -> x is 1, (c) is 2, the second x reuses 1 *)
Example C17_witness_ordered :
  let ts := [TOptSet [OBit 4]; TOpen; TLit 0; TClose; TNamed [120]; TLit 1; TClose; TOptSet [OMinus; OBit 4];
             TOpen; TLit 2; TClose; TNamed [120]; TLit 3; TClose] in
  ts_ok 100 true false ts
  /\ exists t mks its, parse true 0 ts = Ok (t, mks, its)
     /\ its = [INone; IGroup; INone; IClose; ICapture 1; INone; IClose; INone; ICapture 2; INone; IClose; ICapture 1; INone; IClose]
     /\ get_group_names (compile_maps t) = [[48]; [120]; [50]].
Proof.
  cbn zeta. split.
  - unfold ts_ok. split; [|split; [|split; [|split]]].
    + repeat (apply Forall_cons; [cbn; try exact I; try reflexivity; lia|]); apply Forall_nil.
    + repeat (apply Forall_cons; [cbn; try exact I; try reflexivity; lia|]); apply Forall_nil.
    + intros _ _. repeat (apply Forall_cons; [cbn; try exact I; try reflexivity; lia|]); apply Forall_nil.
    + unfold maxint32. lia.
    + cbn. unfold maxint32. lia.
  - eexists _, _, _. split; [vm_compute; reflexivity|]. vm_compute. split; reflexivity.
Qed.

(* the conditional whose condition is a lookahead: after the fix the pre-scan and the main pass agree *)
Example C17_witness_conditional :
  (* (?(?=a)(a)|c)(d) *)
  let ts := [TCondHead; TGroup GAheadPos; TLit 0; TClose; TOpen; TLit 0; TClose; TLit 1000; TLit 2; TClose; TOpen; TLit 3; TClose] in
  exists t mks its, parse false 0 ts = Ok (t, mks, its)
    /\ its = [IGroup; IGroup; INone; IClose; ICapture 1; INone; IClose; INone; INone; IClose; ICapture 2; INone; IClose]
    /\ mks = [PNone; PNone; PNone; PNone; PAuto 1; PNone; PNone; PNone; PNone; PNone; PAuto 2; PNone; PNone].
Proof. cbn zeta. eexists _, _, _. split; [vm_compute; reflexivity|]. split; reflexivity. Qed.

(* MaintainCaptureOrder with explicit numbers, satisfying the unguarded hypotheses:
   (?<2>a)(b)(?<2>c)(?<n>d) -> "2" is 1, (b) is 2, the second "2" reuses 1, n is 3 *)
Example C17_witness_ordered_digits :
  let ts := [TNumbered 2; TLit 0; TClose; TOpen; TLit 1; TClose; TNumbered 2; TLit 2; TClose; TNamed [110]; TLit 3; TClose] in
  ts_ok_unguarded 100 ts
  /\ exists t mks its, parse true 0 ts = Ok (t, mks, its)
     /\ mks = [PName [50]; PNone; PNone; PAuto 2; PNone; PNone; PName [50]; PNone; PNone; PName [110]; PNone; PNone]
     /\ its = [ICapture 1; INone; IClose; ICapture 2; INone; IClose; ICapture 1; INone; IClose; ICapture 3; INone; IClose]
     /\ t_caps t = [0; 1; 2; 3].
Proof.
  cbn zeta. split.
  - unfold ts_ok_unguarded. split; [|split; [|split]].
    + repeat (apply Forall_cons; [cbn; try exact I; try reflexivity; lia|]); apply Forall_nil.
    + repeat (apply Forall_cons; [cbn; try exact I; try reflexivity; lia|]); apply Forall_nil.
    + unfold maxint32. lia.
    + cbn. unfold maxint32. lia.
  - eexists _, _, _. split; [vm_compute; reflexivity|]. vm_compute. repeat split; reflexivity.
Qed.

(* MaintainCaptureOrder used to reject (a)(?<n>b)(?<5>c) (second half of the old finding); since /repo 2b27550 it
   is accepted, "5" being the name of the third group *)
Example C17_witness_mco_accepts :
  exists t mks, parse true 0 [TOpen; TLit 0; TClose; TNamed [110]; TLit 1; TClose; TNumbered 5; TLit 2; TClose]
    = Ok (t, mks, [ICapture 1; INone; IClose; ICapture 2; INone; IClose; ICapture 3; INone; IClose]).
Proof. eexists _, _. vm_compute. reflexivity. Qed.

(* C05, proofs part 3: what a raw parser node (Model/Parser.rnode) MEANS: its tree for the reference semantics
   (Model/Tree.node, Model/Spec.v).  [tr] reads a node the way Model/Tree.build decodes the harness export of a
   tree; sets become set ids through an arbitrary numbering [sid], which the environment must interpret as
   class membership (env_ok, in FinalOptLeaf.v).  [fo_wf]: the shape facts every parsed tree satisfies and the
   proofs use (arities, loop counts, set nodes carry a set, literals are not case-insensitive). *)
From Verif Require Import Base.Prelude Base.Wire Model.Tree Model.Spec Model.ParseLit Model.CharClass Model.Parser
  Model.FinalOpt Proofs.SpecBoundsProofs Proofs.CharClassRanges Proofs.CharClassProofs Proofs.CharClassElab.
From Coq Require Import ZifyBool.

Section Link.
Variable sid : cls -> Z.

Definition tr_set (st : option cls) : Z := match st with Some c => sid c | None => 0 end.

Fixpoint tr (x : rnode) : node :=
  match x with
  | RN t o ch m n str st kids =>
    let ks := map tr kids in
    let k0 := nth 0 ks NNothing in
    let k1 := nth 1 ks NNothing in
    match lk_of t with
    | Some (k, l) => NCharLoop k l o (match k with CSet => tr_set st | _ => ch end) m n
    | None =>
      if t =? 9 then NChar COne o ch else if t =? 10 then NChar CNotone o ch else if t =? 11 then NChar CSet o (tr_set st)
      else if t =? 12 then NMulti o str else if t =? 13 then NRef o m
      else if t =? 22 then NNothing else if t =? 23 then NEmpty else if t =? 46 then NBump
      else if t =? 25 then NConcat o ks else if t =? 24 then NAlternate o ks
      else if t =? 26 then NLoop false o m n k0 else if t =? 27 then NLoop true o m n k0
      else if t =? 28 then NCapture o m n k0 else if t =? 29 then NGroup k0
      else if t =? 30 then NPosLook o k0 else if t =? 31 then NNegLook o k0 else if t =? 32 then NAtomic k0
      else if t =? 33 then NBackRefCond o m k0 (match ks with [_; b] => Some b | _ => None end)
      else if t =? 34 then NExprCond o k0 k1 (match ks with [_; _; c] => Some c | _ => None end)
      else match anchor_of_code t with Some a => NAnchor a | None => NNothing end
    end
  end.

(* [tr] looks at the children of a node through their trees only: the tree of a node from the trees of its children *)
Definition tr_node (x : rnode) (ks : list node) : node :=
  let t := n_t x in let o := n_o x in
  let k0 := nth 0 ks NNothing in
  let k1 := nth 1 ks NNothing in
  match lk_of t with
  | Some (k, l) => NCharLoop k l o (match k with CSet => tr_set (n_set x) | _ => n_ch x end) (n_m x) (n_n x)
  | None =>
    if t =? 9 then NChar COne o (n_ch x) else if t =? 10 then NChar CNotone o (n_ch x) else if t =? 11 then NChar CSet o (tr_set (n_set x))
    else if t =? 12 then NMulti o (n_str x) else if t =? 13 then NRef o (n_m x)
    else if t =? 22 then NNothing else if t =? 23 then NEmpty else if t =? 46 then NBump
    else if t =? 25 then NConcat o ks else if t =? 24 then NAlternate o ks
    else if t =? 26 then NLoop false o (n_m x) (n_n x) k0 else if t =? 27 then NLoop true o (n_m x) (n_n x) k0
    else if t =? 28 then NCapture o (n_m x) (n_n x) k0 else if t =? 29 then NGroup k0
    else if t =? 30 then NPosLook o k0 else if t =? 31 then NNegLook o k0 else if t =? 32 then NAtomic k0
    else if t =? 33 then NBackRefCond o (n_m x) k0 (match ks with [_; b] => Some b | _ => None end)
    else if t =? 34 then NExprCond o k0 k1 (match ks with [_; _; c] => Some c | _ => None end)
    else match anchor_of_code t with Some a => NAnchor a | None => NNothing end
  end.

Lemma tr_unfold x : tr x = tr_node x (map tr (n_kids x)).
Proof. destruct x. reflexivity. Qed.
Lemma tr_set_kids x ks : tr (set_kids x ks) = tr_node x (map tr ks).
Proof. destruct x. reflexivity. Qed.

(* the kinds of node [tr_node] tells apart, each with the tree it builds from ANY list of children: a leaf does not
   look at them, a node with one child takes the first (Nothing if there is none), the conditionals their two or three *)
Definition plain_leaf (t : node) : Prop :=
  match t with NChar _ _ _ | NMulti _ _ | NRef _ _ | NNothing | NEmpty | NBump | NAnchor _ => True | _ => False end.
Inductive node_form (x : rnode) : (list node -> node) -> Prop :=
| NF_charloop k l : lk_of (n_t x) = Some (k, l) ->
    node_form x (fun _ => NCharLoop k l (n_o x) (match k with CSet => tr_set (n_set x) | _ => n_ch x end) (n_m x) (n_n x))
| NF_leaf t : plain_leaf t -> node_form x (fun _ => t)
| NF_concat : n_t x = T_Concatenate -> node_form x (NConcat (n_o x))
| NF_alt : n_t x = T_Alternate -> node_form x (NAlternate (n_o x))
| NF_loop : n_t x = T_Loop -> node_form x (fun ks => NLoop false (n_o x) (n_m x) (n_n x) (nth 0 ks NNothing))
| NF_lazyloop : n_t x = T_Lazyloop -> node_form x (fun ks => NLoop true (n_o x) (n_m x) (n_n x) (nth 0 ks NNothing))
| NF_capture : n_t x = T_Capture -> node_form x (fun ks => NCapture (n_o x) (n_m x) (n_n x) (nth 0 ks NNothing))
| NF_group : n_t x = T_Group -> node_form x (fun ks => NGroup (nth 0 ks NNothing))
| NF_poslook : n_t x = T_PosLook -> node_form x (fun ks => NPosLook (n_o x) (nth 0 ks NNothing))
| NF_neglook : n_t x = T_NegLook -> node_form x (fun ks => NNegLook (n_o x) (nth 0 ks NNothing))
| NF_atomic : n_t x = T_Atomic -> node_form x (fun ks => NAtomic (nth 0 ks NNothing))
| NF_backref_cond : n_t x = T_BackRefCond ->
    node_form x (fun ks => NBackRefCond (n_o x) (n_m x) (nth 0 ks NNothing) (match ks with [_; b] => Some b | _ => None end))
| NF_expr_cond : n_t x = T_ExprCond ->
    node_form x (fun ks => NExprCond (n_o x) (nth 0 ks NNothing) (nth 1 ks NNothing) (match ks with [_; _; c] => Some c | _ => None end)).

Lemma tr_node_form x : exists F, node_form x F /\ forall ks, tr_node x ks = F ks.
Proof.
  unfold tr_node. cbv zeta. destruct (lk_of (n_t x)) as [[k l]|] eqn:Elk; [eexists; split; [exact (NF_charloop x k l Elk) | reflexivity]|].
  (* the leaves *)
  destruct (n_t x =? 9); [eexists; split; [apply NF_leaf | reflexivity]; exact I|].
  destruct (n_t x =? 10); [eexists; split; [apply NF_leaf | reflexivity]; exact I|].
  destruct (n_t x =? 11); [eexists; split; [apply NF_leaf | reflexivity]; exact I|].
  destruct (n_t x =? 12); [eexists; split; [apply NF_leaf | reflexivity]; exact I|].
  destruct (n_t x =? 13); [eexists; split; [apply NF_leaf | reflexivity]; exact I|].
  destruct (n_t x =? 22); [eexists; split; [apply NF_leaf | reflexivity]; exact I|].
  destruct (n_t x =? 23); [eexists; split; [apply NF_leaf | reflexivity]; exact I|].
  destruct (n_t x =? 46); [eexists; split; [apply NF_leaf | reflexivity]; exact I|].
  (* the nodes with children *)
  destruct (Z.eqb_spec (n_t x) 25) as [E|_]; [eexists; split; [exact (NF_concat x E) | reflexivity]|].
  destruct (Z.eqb_spec (n_t x) 24) as [E|_]; [eexists; split; [exact (NF_alt x E) | reflexivity]|].
  destruct (Z.eqb_spec (n_t x) 26) as [E|_]; [eexists; split; [exact (NF_loop x E) | reflexivity]|].
  destruct (Z.eqb_spec (n_t x) 27) as [E|_]; [eexists; split; [exact (NF_lazyloop x E) | reflexivity]|].
  destruct (Z.eqb_spec (n_t x) 28) as [E|_]; [eexists; split; [exact (NF_capture x E) | reflexivity]|].
  destruct (Z.eqb_spec (n_t x) 29) as [E|_]; [eexists; split; [exact (NF_group x E) | reflexivity]|].
  destruct (Z.eqb_spec (n_t x) 30) as [E|_]; [eexists; split; [exact (NF_poslook x E) | reflexivity]|].
  destruct (Z.eqb_spec (n_t x) 31) as [E|_]; [eexists; split; [exact (NF_neglook x E) | reflexivity]|].
  destruct (Z.eqb_spec (n_t x) 32) as [E|_]; [eexists; split; [exact (NF_atomic x E) | reflexivity]|].
  destruct (Z.eqb_spec (n_t x) 33) as [E|_]; [eexists; split; [exact (NF_backref_cond x E) | reflexivity]|].
  destruct (Z.eqb_spec (n_t x) 34) as [E|_]; [eexists; split; [exact (NF_expr_cond x E) | reflexivity]|].
  (* an anchor, or a type the reference semantics does not know *)
  eexists. split; [apply NF_leaf | reflexivity]. destruct (anchor_of_code (n_t x)); exact I.
Qed.

Lemma tr_node_concat x ks : n_t x = T_Concatenate -> tr_node x ks = NConcat (n_o x) ks.
Proof. intros H. unfold tr_node. rewrite H. reflexivity. Qed.
Lemma tr_node_alt x ks : n_t x = T_Alternate -> tr_node x ks = NAlternate (n_o x) ks.
Proof. intros H. unfold tr_node. rewrite H. reflexivity. Qed.
Lemma tr_node_loop x a : n_t x = T_Loop -> tr_node x [a] = NLoop false (n_o x) (n_m x) (n_n x) a.
Proof. intros H. unfold tr_node. rewrite H. reflexivity. Qed.
Lemma tr_node_lazyloop x a : n_t x = T_Lazyloop -> tr_node x [a] = NLoop true (n_o x) (n_m x) (n_n x) a.
Proof. intros H. unfold tr_node. rewrite H. reflexivity. Qed.
Lemma tr_node_capture x a : n_t x = T_Capture -> tr_node x [a] = NCapture (n_o x) (n_m x) (n_n x) a.
Proof. intros H. unfold tr_node. rewrite H. reflexivity. Qed.
Lemma tr_node_poslook x a : n_t x = T_PosLook -> tr_node x [a] = NPosLook (n_o x) a.
Proof. intros H. unfold tr_node. rewrite H. reflexivity. Qed.
Lemma tr_node_neglook x a : n_t x = T_NegLook -> tr_node x [a] = NNegLook (n_o x) a.
Proof. intros H. unfold tr_node. rewrite H. reflexivity. Qed.
Lemma tr_node_atomic x a : n_t x = T_Atomic -> tr_node x [a] = NAtomic a.
Proof. intros H. unfold tr_node. rewrite H. reflexivity. Qed.
Lemma tr_node_backref_cond x a b : n_t x = T_BackRefCond -> tr_node x [a; b] = NBackRefCond (n_o x) (n_m x) a (Some b).
Proof. intros H. unfold tr_node. rewrite H. reflexivity. Qed.
Lemma tr_node_expr_cond x a b c : n_t x = T_ExprCond -> tr_node x [a; b; c] = NExprCond (n_o x) a b (Some c).
Proof. intros H. unfold tr_node. rewrite H. reflexivity. Qed.

Lemma tr_concat x : n_t x = T_Concatenate -> tr x = NConcat (n_o x) (map tr (n_kids x)).
Proof. intros H. rewrite tr_unfold. apply tr_node_concat, H. Qed.
Lemma tr_alt x : n_t x = T_Alternate -> tr x = NAlternate (n_o x) (map tr (n_kids x)).
Proof. intros H. rewrite tr_unfold. apply tr_node_alt, H. Qed.
Lemma tr_loop x k : n_t x = T_Loop -> n_kids x = [k] -> tr x = NLoop false (n_o x) (n_m x) (n_n x) (tr k).
Proof. intros H Hk. rewrite tr_unfold, Hk. apply tr_node_loop, H. Qed.
Lemma tr_lazyloop x k : n_t x = T_Lazyloop -> n_kids x = [k] -> tr x = NLoop true (n_o x) (n_m x) (n_n x) (tr k).
Proof. intros H Hk. rewrite tr_unfold, Hk. apply tr_node_lazyloop, H. Qed.
Lemma tr_capture x k : n_t x = T_Capture -> n_kids x = [k] -> tr x = NCapture (n_o x) (n_m x) (n_n x) (tr k).
Proof. intros H Hk. rewrite tr_unfold, Hk. apply tr_node_capture, H. Qed.
Lemma tr_poslook x k : n_t x = T_PosLook -> n_kids x = [k] -> tr x = NPosLook (n_o x) (tr k).
Proof. intros H Hk. rewrite tr_unfold, Hk. apply tr_node_poslook, H. Qed.
Lemma tr_atomic x k : n_t x = T_Atomic -> n_kids x = [k] -> tr x = NAtomic (tr k).
Proof. intros H Hk. rewrite tr_unfold, Hk. apply tr_node_atomic, H. Qed.
Lemma tr_expr_cond x a b c : n_t x = T_ExprCond -> n_kids x = [a; b; c] ->
  tr x = NExprCond (n_o x) (tr a) (tr b) (Some (tr c)).
Proof. intros H Hk. rewrite tr_unfold, Hk. apply tr_node_expr_cond, H. Qed.

Lemma tr_charloop x k l : lk_of (n_t x) = Some (k, l) ->
  tr x = NCharLoop k l (n_o x) (match k with CSet => tr_set (n_set x) | _ => n_ch x end) (n_m x) (n_n x).
Proof. intros H. rewrite tr_unfold. unfold tr_node. rewrite H. reflexivity. Qed.

Lemma tr_empty x : n_t x = T_Empty -> tr x = NEmpty.
Proof. intros H. rewrite tr_unfold. unfold tr_node. rewrite H. reflexivity. Qed.
Lemma tr_nothing x : n_t x = T_Nothing -> tr x = NNothing.
Proof. intros H. rewrite tr_unfold. unfold tr_node. rewrite H. reflexivity. Qed.

(* ---- the shape facts.  (Analysis2Cls.a2_sorted_b proves the statement of sorted_fromb_ok for the same test under the
   name that model gives it.) *)
Lemma sorted_fromb_ok prev rs : sorted_fromb prev rs = true -> sorted_from prev rs.
Proof.
  revert prev. induction rs as [|[a b] t IH]; intros prev H; cbn in *; [exact I|].
  apply andb_prop in H. destruct H as [H H3]. apply andb_prop in H. destruct H as [H1 H2].
  split; [lia|]. split; [lia|]. apply IH. exact H3.
Qed.
Lemma cls_canonicalb_ok c : cls_canonicalb c = true -> canonical c.
Proof.
  induction c as [rs cs ng an asc | rs cs s ng an asc IH] using cls_induction; cbn [cls_canonicalb canonical]; intros H.
  - rewrite andb_true_r in H. split; [|exact I]. destruct rs as [|[a b] t]; cbn in *; [exact I|].
    apply andb_prop in H. destruct H as [H1 H2]. split; [lia|]. apply sorted_fromb_ok. exact H2.
  - apply andb_prop in H. destruct H as [H H'']. split; [|apply IH; exact H''].
    destruct rs as [|[a b] t]; cbn in *; [exact I|].
    apply andb_prop in H. destruct H as [H1 H2]. split; [lia|]. apply sorted_fromb_ok. exact H2.
Qed.
Lemma cls_no_bitmap_ok c : cls_no_bitmap c = true -> no_bitmaps c.
Proof.
  induction c as [rs cs ng an asc | rs cs s ng an asc IH] using cls_induction; cbn [cls_no_bitmap no_bitmaps]; intros H.
  - destruct asc; [discriminate|]. split; [reflexivity|exact I].
  - destruct asc; [discriminate|]. split; [reflexivity|apply IH; exact H].
Qed.

Lemma fo_wf_unfold x :
  fo_wf x =
  (fo_arity_ok (n_t x) (length (n_kids x)) &&
   (if is_set_family (n_t x) then match n_set x with Some c => cls_okb c | None => false end else true) &&
   (match lk_of (n_t x) with Some _ => (0 <=? n_m x) && (n_m x <=? n_n x) && (n_m x <? INF) | None => true end) &&
   (if (n_t x =? 26) || (n_t x =? 27) then (0 <=? n_m x) && (n_m x <=? n_n x) && (n_m x <? INF) else true) &&
   (if n_t x =? 12 then negb (fo_is_nil (n_str x)) && negb (useI (n_o x)) else true) &&
   (if (n_t x =? 13) || (n_t x =? 28) then true else negb (useI (n_o x))) &&
   forallb fo_wf (n_kids x)).
Proof. destruct x. reflexivity. Qed.

Lemma fo_wf_kids x : fo_wf x = true -> forallb fo_wf (n_kids x) = true.
Proof. rewrite fo_wf_unfold. intros H. repeat (apply andb_prop in H; destruct H as [H ?]). assumption. Qed.
Lemma fo_wf_kid x k : fo_wf x = true -> In k (n_kids x) -> fo_wf k = true.
Proof. intros H Hk. apply fo_wf_kids in H. rewrite forallb_forall in H. apply H. exact Hk. Qed.
Lemma fo_wf_arity x : fo_wf x = true -> fo_arity_ok (n_t x) (length (n_kids x)) = true.
Proof. rewrite fo_wf_unfold. intros H. repeat (apply andb_prop in H; destruct H as [H ?]). assumption. Qed.

Lemma wf_flags x : fo_wf x = true ->
  fo_arity_ok (n_t x) (length (n_kids x)) = true /\
  (is_set_family (n_t x) = true -> exists c, n_set x = Some c /\ cls_okb c = true) /\
  (forall kl, lk_of (n_t x) = Some kl -> 0 <= n_m x <= n_n x /\ n_m x < INF) /\
  (n_t x = T_Loop \/ n_t x = T_Lazyloop -> 0 <= n_m x <= n_n x /\ n_m x < INF) /\
  (n_t x = T_Multi -> n_str x <> []) /\
  (n_t x <> T_Ref -> n_t x <> T_Capture -> useI (n_o x) = false) /\
  forallb fo_wf (n_kids x) = true.
Proof.
  rewrite fo_wf_unfold. intros H.
  repeat (apply andb_prop in H; let H' := fresh "W" in destruct H as [H H']).
  split; [exact H|]. split.
  { intros Es. rewrite Es in W4. destruct (n_set x) as [c|]; [exists c; split; [reflexivity|exact W4] | discriminate]. }
  split. { intros kl Hkl. rewrite Hkl in W3. clear -W3. lia. }
  split. { intros Ht. replace ((n_t x =? 26) || (n_t x =? 27)) with true in W2 by (destruct Ht as [-> | ->]; reflexivity). clear -W2. lia. }
  split. { intros Ht. rewrite Ht in W1. cbn in W1. destruct (n_str x); discriminate. }
  split. { intros H13 H28. replace ((n_t x =? 13) || (n_t x =? 28)) with false in W0 by (clear -H13 H28; unfold T_Ref, T_Capture in *; lia).
           destruct (useI (n_o x)); [discriminate|reflexivity]. }
  exact W.
Qed.

Lemma kids_one x : fo_wf x = true -> fo_arity_ok (n_t x) 1 = true -> exists k, n_kids x = [k].
Proof.
  intros Hwf H1. apply fo_wf_arity in Hwf. unfold fo_arity_ok in *.
  destruct (fo_is_leaf_t (n_t x)); [discriminate|].
  destruct ((n_t x =? 26) || (n_t x =? 27) || (n_t x =? 28) || (n_t x =? 30) || (n_t x =? 31) || (n_t x =? 32)).
  - destruct (n_kids x) as [|k [|? ?]]; try discriminate. exists k. reflexivity.
  - destruct (n_t x =? 33); [discriminate|]. destruct (n_t x =? 34); [discriminate|].
    rewrite andb_false_r in H1. discriminate.
Qed.
Lemma kids_two x : fo_wf x = true -> n_t x = T_BackRefCond -> exists a b, n_kids x = [a; b].
Proof.
  intros Hwf Ht. apply fo_wf_arity in Hwf. rewrite Ht in Hwf.
  destruct (n_kids x) as [|a [|b [|? ?]]]; try discriminate. exists a, b. reflexivity.
Qed.
Lemma kids_three x : fo_wf x = true -> n_t x = T_ExprCond -> exists a b c, n_kids x = [a; b; c].
Proof.
  intros Hwf Ht. apply fo_wf_arity in Hwf. rewrite Ht in Hwf.
  destruct (n_kids x) as [|a [|b [|c [|? ?]]]]; try discriminate. exists a, b, c. reflexivity.
Qed.

Lemma wf_shape x : fo_wf x = true ->
  n_kids x = [] \/ n_t x = T_Concatenate \/ n_t x = T_Alternate \/
  (exists k, n_kids x = [k] /\ fo_arity_ok (n_t x) 1 = true) \/
  (exists a b, n_kids x = [a; b] /\ n_t x = T_BackRefCond) \/ (exists a b c, n_kids x = [a; b; c] /\ n_t x = T_ExprCond).
Proof.
  intros Hwf. destruct (fo_arity_ok (n_t x) 1) eqn:E1.
  { destruct (kids_one x Hwf E1) as [k Ek]. right; right; right; left. exists k. split; [exact Ek|reflexivity]. }
  destruct (Z.eqb_spec (n_t x) T_BackRefCond) as [E|N33].
  { destruct (kids_two x Hwf E) as (a & b & Ek). right; right; right; right; left. exists a, b. split; assumption. }
  destruct (Z.eqb_spec (n_t x) T_ExprCond) as [E|N34].
  { destruct (kids_three x Hwf E) as (a & b & c & Ek). right; right; right; right; right. exists a, b, c. split; assumption. }
  apply fo_wf_arity in Hwf. unfold fo_arity_ok in *. destruct (fo_is_leaf_t (n_t x)).
  { left. destruct (n_kids x); [reflexivity|discriminate]. }
  destruct ((n_t x =? 26) || (n_t x =? 27) || (n_t x =? 28) || (n_t x =? 30) || (n_t x =? 31) || (n_t x =? 32)); [discriminate|].
  destruct (n_t x =? 33) eqn:E33; [apply Z.eqb_eq in E33; contradiction|].
  destruct (n_t x =? 34) eqn:E34; [apply Z.eqb_eq in E34; contradiction|].
  apply andb_prop in Hwf. destruct Hwf as [Hwf _]. apply orb_prop in Hwf. right.
  destruct Hwf as [E|E]; apply Z.eqb_eq in E; [right; left | left]; exact E.
Qed.
Lemma unary_cases t : fo_arity_ok t 1 = true ->
  t = T_Loop \/ t = T_Lazyloop \/ t = T_Capture \/ t = T_PosLook \/ t = T_NegLook \/ t = T_Atomic.
Proof.
  unfold fo_arity_ok. destruct (fo_is_leaf_t t); [discriminate|].
  destruct ((t =? 26) || (t =? 27) || (t =? 28) || (t =? 30) || (t =? 31) || (t =? 32)) eqn:E.
  - intros _. unfold T_Loop, T_Lazyloop, T_Capture, T_PosLook, T_NegLook, T_Atomic. lia.
  - destruct (t =? 33); [discriminate|]. destruct (t =? 34); [discriminate|]. rewrite andb_false_r. discriminate.
Qed.

Lemma set_kids_fields x ks : n_t (set_kids x ks) = n_t x /\ n_o (set_kids x ks) = n_o x /\ n_ch (set_kids x ks) = n_ch x /\
  n_m (set_kids x ks) = n_m x /\ n_n (set_kids x ks) = n_n x /\ n_str (set_kids x ks) = n_str x /\
  n_set (set_kids x ks) = n_set x /\ n_kids (set_kids x ks) = ks.
Proof. destruct x; repeat split; reflexivity. Qed.

(* induction with the hypothesis on every child (as ParserTree.rnode_ind', which lives with the proofs about the parser) *)
Lemma rnode_ind' (P : rnode -> Prop) :
  (forall t o ch m n str st kids, Forall P kids -> P (RN t o ch m n str st kids)) -> forall x, P x.
Proof.
  intros H. fix IH 1. intros [t o ch m n str st kids]. apply H.
  induction kids as [|k kids IHk]; constructor; [apply IH | exact IHk].
Qed.

(* single-character loops of a well-formed tree have a non-negative minimum: states stay inside the text *)
Lemma fo_wf_lmo : forall x, fo_wf x = true -> loops_min_ok (tr x).
Proof.
  induction x as [t o ch m n str st kids IHk] using rnode_ind'. intros Hwf.
  set (x := RN t o ch m n str st kids) in *.
  assert (Hk : Forall loops_min_ok (map tr (n_kids x))).
  { pose proof (fo_wf_kids x Hwf) as Hks. cbn [n_kids x] in *. rewrite forallb_forall in Hks.
    rewrite Forall_forall in *. intros k' Hin. apply in_map_iff in Hin. destruct Hin as (k & <- & Hin). apply IHk; [exact Hin | apply Hks; exact Hin]. }
  rewrite tr_unfold. revert Hk. generalize (map tr (n_kids x)). intros ks Hk.
  assert (Hl : sb_all_list sb_min_ok ks) by (induction Hk as [|k l Hk0 _ IHl]; cbn; [exact I | split; [exact Hk0 | exact IHl]]).
  assert (Hnth : forall i, loops_min_ok (nth i ks NNothing)).
  { intros i. destruct (nth_in_or_default i ks NNothing) as [Hin | ->]; [|cbn; tauto]. rewrite Forall_forall in Hk. exact (Hk _ Hin). }
  destruct (tr_node_form x) as (F & HF & ->).
  destruct HF as [k l Elk|t0 Ht0| | | | | | | | | | |]; unfold loops_min_ok; cbn [sb_all sb_min_ok];
    try (split; [exact I|]); try exact Hl; try exact (Hnth 0%nat).
  - (* a single-character loop: its minimum *) split; [|exact I]. rewrite fo_wf_unfold, Elk in Hwf. lia.
  - destruct t0; try contradiction; cbn; tauto.
  - (* BackRefCond *) split; [exact (Hnth 0%nat)|]. destruct ks as [|a [|b [|c r]]]; try exact I. exact (Hnth 1%nat).
  - (* ExprCond *) split; [exact (Hnth 0%nat)|]. split; [exact (Hnth 1%nat)|]. destruct ks as [|a [|b [|c [|d r]]]]; try exact I. exact (Hnth 2%nat).
Qed.

End Link.

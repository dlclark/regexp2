(* Proofs for C09, part 2: the replacement-string parser and NewReplacerData. *)
From Verif Require Import Base.Prelude Gen.ReplaceGen Model.Escape Model.Replace Proofs.ReplaceProofs.
From Verif Require Import Proofs.ListFacts.
From Coq Require Import ZifyBool.

(* neither a Go run-time fault nor the model's own fuel running out, and the only error is
   ErrCaptureGroupOutOfRange *)
Definition clean {A} (r : res A) : Prop :=
  match r with Ok _ => True | Err c => c = E_CapOutOfRange | Crash _ | Fuel => False end.

Definition shrinks {A} (p : list Z) (r : res (A * list Z)) : Prop :=
  match r with Ok (_, p') => (length p' <= length p)%nat | Err _ => True | Crash _ | Fuel => False end.

Lemma shrinks_le {A} (p q : list Z) (r : res (A * list Z)) :
  (length p <= length q)%nat -> shrinks p r -> shrinks q r.
Proof. intros H. destruct r as [[a p']| | |]; cbn [shrinks]; [lia|tauto|tauto|tauto]. Qed.

Lemma shrinks_cons {A} (c : Z) (p : list Z) (r : res (A * list Z)) : shrinks p r -> shrinks (c :: p) r.
Proof. apply shrinks_le. cbn [length]. lia. Qed.

Lemma shrinks_bind {A B} (p q : list Z) (r : res (A * list Z)) (k : A * list Z -> res (B * list Z)) :
  shrinks q r -> (forall a q', (length q' <= length q)%nat -> shrinks p (k (a, q'))) -> shrinks p (bind r k).
Proof. destruct r as [[a q']| | |]; cbn [shrinks bind]; intros H Hk; [apply Hk; exact H|exact I|exact H|exact H]. Qed.

(** * The hexadecimal scanners of \u escapes                                                    *)

Lemma scan_hex_loop_shrinks (c : nat) (i : Z) (p : list Z) : shrinks p (scan_hex_loop c i p).
Proof.
  revert i p. induction c as [|c IH]; intros i p; cbn [scan_hex_loop]; [apply le_n|].
  destruct p as [|ch p]; [exact I|]. destruct (hex_digit ch <? 0); [exact I|]. apply shrinks_cons, IH.
Qed.

Lemma scan_hex_shrinks (c : nat) (p : list Z) : shrinks p (scan_hex c p).
Proof. unfold scan_hex. destruct (Nat.leb c (length p)); [apply scan_hex_loop_shrinks|exact I]. Qed.

Lemma scan_hex_brace_shrinks (i : Z) (has : bool) (p : list Z) : shrinks p (scan_hex_brace i has p).
Proof.
  revert i has. induction p as [|ch p IH]; intros i has; cbn [scan_hex_brace]; [exact I|].
  destruct (ch =? 125).
  - destruct has; [|exact I]. cbn [shrinks length]. lia.
  - destruct (hex_digit ch <? 0); [exact I|]. destruct (1114111 <? i * 16 + hex_digit ch); [exact I|].
    apply shrinks_cons, IH.
Qed.

Fixpoint span_digits (p : list Z) : list Z * list Z :=
  match p with
  | [] => ([], [])
  | c :: p' => if is_digit c then let '(a, b) := span_digits p' in (c :: a, b) else ([], p)
  end.

Lemma span_digits_spec (p : list Z) :
  let '(a, b) := span_digits p in p = a ++ b /\ digits a /\ no_digit_head b.
Proof.
  induction p as [|c p IH]; cbn [span_digits].
  - split; [reflexivity|]. split; [constructor|exact I].
  - destruct (is_digit c) eqn:E.
    + destruct (span_digits p) as [a b]. destruct IH as (H1 & H2 & H3).
      split; [cbn [app]; congruence|]. split; [constructor; assumption|exact H3].
    + split; [reflexivity|]. split; [constructor|exact E].
Qed.

Lemma digit_split_unique (ds rest : list Z) :
  digits ds -> no_digit_head rest -> span_digits (ds ++ rest) = (ds, rest).
Proof.
  intros Hd Hr. induction Hd as [|c ds Hc Hd IH]; cbn [app span_digits].
  - destruct rest as [|c rest]; [reflexivity|]. cbn [no_digit_head] in Hr. cbn [span_digits]. rewrite Hr. reflexivity.
  - rewrite Hc, IH. reflexivity.
Qed.

Lemma span_digits_of_app (ds r : list Z) (c : Z) (q : list Z) :
  digits ds -> no_digit_head r -> c :: q = ds ++ r -> span_digits (c :: q) = (ds, r).
Proof. intros Hd Hr ->. apply digit_split_unique; assumption. Qed.

Lemma span_digits_hd (c : Z) (q a b : list Z) : is_digit c = true -> span_digits (c :: q) = (a, b) -> a <> [].
Proof. cbn [span_digits]. intros ->. destruct (span_digits q). intros H; inversion H; subst. discriminate. Qed.

Lemma dval_go_app (acc : Z) (a b : list Z) : dval_go acc (a ++ b) = dval_go (dval_go acc a) b.
Proof. revert acc. induction a as [|c a IH]; intros acc; cbn [app dval_go]; [reflexivity|apply IH]. Qed.

Lemma dval_go_nonneg (acc : Z) (ds : list Z) : 0 <= acc -> digits ds -> 0 <= dval_go acc ds.
Proof.
  revert acc. induction ds as [|c ds IH]; intros acc Ha Hd; cbn [dval_go]; [exact Ha|].
  inversion Hd; subst. apply IH; [|assumption]. unfold is_digit in *. lia.
Qed.

Lemma scan_decimal_go_cases (i : Z) (p : list Z) :
  scan_decimal_go i p = Ok (dval_go i (fst (span_digits p)), snd (span_digits p)) \/
  scan_decimal_go i p = Err E_CapOutOfRange.
Proof.
  revert i. induction p as [|ch p IH]; intros i; cbn [scan_decimal_go span_digits]; [left; reflexivity|].
  unfold is_digit. destruct ((ch - 48 <? 0) || (9 <? ch - 48)) eqn:E.
  - destruct ((48 <=? ch) && (ch <=? 57)) eqn:E2; [lia|]. left. reflexivity.
  - destruct ((48 <=? ch) && (ch <=? 57)) eqn:E2; [|lia].
    destruct ((rg_maxValueDiv10 <? i) || (i =? rg_maxValueDiv10) && (rg_maxValueMod10 <? ch - 48)); [right; reflexivity|].
    specialize (IH (i * 10 + (ch - 48))). destruct (span_digits p) as [a b]. exact IH.
Qed.

Lemma app_head {A} (ds rest : list A) (c : A) (q : list A) :
  ds <> [] -> ds ++ rest = c :: q -> exists ds', ds = c :: ds' /\ ds' ++ rest = q.
Proof. destruct ds as [|d ds]; [contradiction|]. cbn [app]. intros _ H. inversion H; subst. eauto. Qed.

Lemma special_capnum_cases (c : Z) :
  special_capnum c <> 1 -> is_digit c = false /\ c <> 36 /\ c <> 123.
Proof.
  unfold special_capnum, is_digit, s_replaceLeftPortion, s_replaceRightPortion, s_replaceLastGroup, s_replaceWholeString.
  destruct (c =? 38) eqn:E1; [lia|]. destruct (c =? 96) eqn:E2; [lia|]. destruct (c =? 39) eqn:E3; [lia|].
  destruct (c =? 43) eqn:E4; [lia|]. destruct (c =? 95) eqn:E5; [lia|]. intros H; contradiction.
Qed.

Lemma digits_prefix (more1 rest' more tail : list Z) :
  digits more1 -> digits more -> no_digit_head tail -> more ++ tail = more1 ++ rest' ->
  exists x, more = more1 ++ x.
Proof.
  revert more. induction more1 as [|c more1 IH]; intros more H1 H2 H3 He; [exists more; reflexivity|].
  inversion H1; subst. destruct more as [|d more].
  - cbn [app] in He. subst tail. cbn [no_digit_head] in H3. congruence.
  - cbn [app] in He. inversion He; subst. inversion H2; subst.
    destruct (IH more) as (x & ->); try assumption. exists x. reflexivity.
Qed.

Lemma digits_app (a b : list Z) : digits (a ++ b) <-> digits a /\ digits b.
Proof. unfold digits. apply Forall_app. Qed.

(** * The ECMAScript longest-valid-prefix loop                                                   *)

Section Ecma.
Variable env : penv.

(* pre = digits consumed so far (non-empty), tail = text after them *)
Definition best_inv (pre tail : list Z) (best : option (Z * list Z)) : Prop :=
  match best with
  | None => forall ds more, pre = ds ++ more -> ds <> [] -> is_capture_slot env (dval ds) = false
  | Some (c, r) =>
      exists ds more, pre = ds ++ more /\ ds <> [] /\ c = dval ds /\ is_capture_slot env c = true /\
                      r = more ++ tail /\
                      forall ds' more', pre = ds' ++ more' -> (length ds < length ds')%nat ->
                                        is_capture_slot env (dval ds') = false
  end.

Lemma snoc_split {A} (pre ds more : list A) (c : A) :
  pre ++ [c] = ds ++ more -> (more = [] /\ ds = pre ++ [c]) \/ exists more0, more = more0 ++ [c] /\ pre = ds ++ more0.
Proof.
  intros H. assert (more = [] \/ exists more0 x, more = more0 ++ [x]) as [->|(more0 & x & ->)].
  { destruct more as [|y more]; [left; reflexivity|right].
    destruct (@exists_last _ (y :: more)) as (l' & a & E); [discriminate|]. eauto. }
  - left. rewrite app_nil_r in H. auto.
  - right. exists more0. rewrite app_assoc in H. apply app_inj_tail in H as (H1 & H2). subst. auto.
Qed.

Lemma ecma_digits_inv (p : list Z) :
  forall (pre : list Z) (n : Z) (best : option (Z * list Z)) (res : option (Z * list Z)),
    pre <> [] -> digits pre -> n = dval pre -> best_inv pre p best ->
    ecma_digits env n best p = Ok res ->
    let '(run, tail) := span_digits p in best_inv (pre ++ run) tail res.
Proof.
  induction p as [|ch p IH]; intros pre n best res Hne Hd Hn Hb H; cbn [ecma_digits span_digits] in *.
  - inversion H; subst. rewrite app_nil_r. exact Hb.
  - destruct (is_digit ch) eqn:Ed; cbn [negb] in H.
    2:{ inversion H; subst. rewrite app_nil_r. exact Hb. }
    destruct ((rg_maxValueDiv10 <? n) || (n =? rg_maxValueDiv10) && (rg_maxValueMod10 <? ch - 48)); [discriminate|].
    specialize (IH (pre ++ [ch]) (n * 10 + (ch - 48))
                   (if is_capture_slot env (n * 10 + (ch - 48)) then Some (n * 10 + (ch - 48), p) else best) res).
    destruct (span_digits p) as [run tail]. rewrite <- app_assoc in IH. cbn [app] in IH.
    apply IH; clear IH; try assumption.
    + destruct pre; discriminate.
    + apply digits_app. split; [exact Hd|]. constructor; [exact Ed|constructor].
    + subst n. unfold dval. rewrite dval_go_app. reflexivity.
    + assert (n * 10 + (ch - 48) = dval (pre ++ [ch])) as Hv by (subst n; unfold dval; rewrite dval_go_app; reflexivity).
      destruct (is_capture_slot env (n * 10 + (ch - 48))) eqn:Es.
      * exists (pre ++ [ch]), []. rewrite app_nil_r. repeat split; try assumption.
        -- destruct pre; discriminate.
        -- intros ds' more' He Hl. apply (f_equal (@length Z)) in He. rewrite !app_length in *. lia.
      * destruct best as [[c r]|].
        -- destruct Hb as (ds & more & Hp & Hds & Hc & Hsl & Hr & Hlong).
           exists ds, (more ++ [ch]). repeat split; try assumption.
           ++ subst pre. rewrite app_assoc. reflexivity.
           ++ subst r. rewrite <- app_assoc. reflexivity.
           ++ intros ds' more' He Hl. apply snoc_split in He as [(-> & ->)|(more0 & -> & Hp')].
              ** rewrite <- Hv. exact Es.
              ** eapply Hlong; eauto.
        -- intros ds more He Hds. apply snoc_split in He as [(-> & ->)|(more0 & -> & Hp')].
           ++ rewrite <- Hv. exact Es.
           ++ eapply Hb; eauto.
Qed.


(* the loop as scanDollar starts it, after the first digit *)
Lemma ecma_digits_first (ch : Z) (p : list Z) (res : option (Z * list Z)) :
  is_digit ch = true ->
  ecma_digits env (ch - 48) (if is_capture_slot env (ch - 48) then Some (ch - 48, p) else None) p = Ok res ->
  let '(run, tail) := span_digits p in best_inv (ch :: run) tail res.
Proof.
  intros Ed E. apply (ecma_digits_inv p [ch]) in E; [exact E|discriminate|constructor; [exact Ed|constructor]|reflexivity|].
  destruct (is_capture_slot env (ch - 48)) eqn:Es.
  - exists [ch], []. repeat split; auto; try discriminate.
    intros ds' more' He Hl. apply (f_equal (@length Z)) in He. rewrite app_length in He. cbn [length] in *. lia.
  - intros ds more He Hne. destruct ds as [|d ds]; [contradiction|]. cbn [app] in He. inversion He; subst.
    destruct ds; [exact Es|discriminate].
Qed.

Lemma best_inv_some (pre tail : list Z) (c : Z) (r : list Z) :
  best_inv pre tail (Some (c, r)) -> is_capture_slot env c = true /\ (length r < length pre + length tail)%nat.
Proof.
  intros (ds & more & -> & Hne & _ & Hs & -> & _). split; [exact Hs|].
  rewrite !app_length. destruct ds; [contradiction|cbn [length]; lia].
Qed.

Lemma ecma_digits_clean (n : Z) (best : option (Z * list Z)) (p : list Z) : clean (ecma_digits env n best p).
Proof.
  revert n best. induction p as [|ch p IH]; intros n best; cbn [ecma_digits]; [exact I|].
  destruct (negb (is_digit ch)); [exact I|].
  destruct ((rg_maxValueDiv10 <? n) || (n =? rg_maxValueDiv10) && (rg_maxValueMod10 <? ch - 48)); [reflexivity|apply IH].
Qed.

End Ecma.


Section Names.
Variable is_word_char : Z -> bool.
Variable is_ecma_start : Z -> bool.
Variable is_ecma_char : Z -> bool.
Variable env : penv.

Lemma scan_word_spec (p a b : list Z) :
  scan_word is_word_char p = (a, b) ->
  p = a ++ b /\ Forall (fun c => is_word_char c = true) a /\
  (b = [] \/ exists c b', b = c :: b' /\ is_word_char c = false).
Proof.
  revert a b. induction p as [|ch p IH]; intros a b H; cbn [scan_word] in H.
  - inversion H; subst. split; [reflexivity|]. split; [constructor|left; reflexivity].
  - destruct (is_word_char ch) eqn:E.
    + destruct (scan_word is_word_char p) as [a' b']. inversion H; subst.
      destruct (IH _ _ eq_refl) as (H1 & H2 & H3).
      split; [cbn [app]; congruence|]. split; [constructor; assumption|exact H3].
    + inversion H; subst. split; [reflexivity|]. split; [constructor|right; eauto].
Qed.

Lemma scan_word_unique (name rest : list Z) (c : Z) :
  Forall (fun x => is_word_char x = true) name -> is_word_char c = false ->
  scan_word is_word_char (name ++ c :: rest) = (name, c :: rest).
Proof.
  intros HF Hc. induction HF as [|x name Hx HF IH]; cbn [app scan_word].
  - rewrite Hc. reflexivity.
  - rewrite Hx, IH. reflexivity.
Qed.

Fixpoint span_ecma (first : bool) (p : list Z) : list Z * list Z :=
  match p with
  | [] => ([], [])
  | ch :: p' => if negb (ch =? 92) && (if first then is_ecma_start ch else is_ecma_char ch)
                then let '(a, b) := span_ecma false p' in (ch :: a, b)
                else ([], p)
  end.

Lemma no_u_escape_app (a b : list Z) : no_u_escape (a ++ b) -> no_u_escape b.
Proof. intros H pre post E. apply (H (a ++ pre) post). rewrite E, app_assoc. reflexivity. Qed.

Lemma scan_ecma_capname_go_nou (fuel : nat) (index : Z) (acc p : list Z) :
  (length p < fuel)%nat -> 0 <= index -> no_u_escape p ->
  scan_ecma_capname_go is_ecma_start is_ecma_char env fuel index acc p =
  match snd (span_ecma (index =? 0) p) with
  | c :: _ => if c =? 92 then Err E_InvalidECMAName
              else Ok (acc ++ fst (span_ecma (index =? 0) p), snd (span_ecma (index =? 0) p))
  | [] => Ok (acc ++ fst (span_ecma (index =? 0) p), snd (span_ecma (index =? 0) p))
  end.
Proof.
  revert index acc p. induction fuel as [|f IH]; intros index acc p Hf Hi Hn; [lia|].
  cbn [scan_ecma_capname_go]. destruct p as [|ch p1]; cbn [span_ecma fst snd].
  - rewrite app_nil_r. reflexivity.
  - destruct (ch =? 92) eqn:E92; cbn [negb andb fst snd].
    + rewrite E92. destruct p1 as [|u p2]; [reflexivity|].
      destruct (u =? 117) eqn:Eu; [|reflexivity].
      exfalso. apply (Hn [] p2). cbn [app]. f_equal; [lia|f_equal; lia].
    + assert (no_u_escape p1) as Hn1 by (apply (no_u_escape_app [ch]); exact Hn).
      destruct (if index =? 0 then is_ecma_start ch else is_ecma_char ch) eqn:Ev; cbn [negb].
      * rewrite IH; [|cbn [length] in Hf; lia|lia|exact Hn1].
        replace (index + 1 =? 0) with false by lia.
        destruct (span_ecma false p1) as [a b]. cbn [fst snd]. rewrite <- app_assoc. reflexivity.
      * cbn [fst snd]. rewrite E92, app_nil_r. reflexivity.
Qed.

Lemma span_ecma_false_spec (p a b : list Z) :
  span_ecma false p = (a, b) ->
  p = a ++ b /\ Forall (fun c => is_ecma_char c = true) a /\ ~ In 92 a /\
  (b = [] \/ exists c b', b = c :: b' /\ (c = 92 \/ is_ecma_char c = false)).
Proof.
  revert a b. induction p as [|ch p IH]; intros a b H; cbn [span_ecma] in H.
  - inversion H; subst. split; [reflexivity|]. split; [constructor|]. split; [intros []|left; reflexivity].
  - destruct (ch =? 92) eqn:E92; cbn [negb andb] in H.
    + inversion H; subst. split; [reflexivity|]. split; [constructor|]. split; [intros []|].
      right. exists ch, p. split; [reflexivity|left; lia].
    + destruct (is_ecma_char ch) eqn:E.
      * destruct (span_ecma false p) as [a' b']. inversion H; subst.
        destruct (IH _ _ eq_refl) as (H1 & H2 & H3 & H4).
        split; [cbn [app]; congruence|]. split; [constructor; assumption|]. split; [|exact H4].
        intros [Hc|Hc]; [lia|contradiction].
      * inversion H; subst. split; [reflexivity|]. split; [constructor|]. split; [intros []|].
        right. exists ch, p. split; [reflexivity|right; exact E].
Qed.

Lemma span_ecma_false_unique (cs rest : list Z) (c : Z) :
  Forall (fun x => is_ecma_char x = true) cs -> ~ In 92 cs -> is_ecma_char c = false ->
  span_ecma false (cs ++ c :: rest) = (cs, c :: rest).
Proof.
  intros HF Hn Hc. induction HF as [|x cs Hx HF IH]; cbn [app span_ecma].
  - rewrite Hc, andb_false_r. reflexivity.
  - replace (x =? 92) with false by (symmetry; apply Z.eqb_neq; intros ->; apply Hn; left; reflexivity).
    cbn [negb andb]. rewrite Hx, IH; [reflexivity|]. intros Hi. apply Hn. right. exact Hi.
Qed.

Lemma scan_ecma_capname_go_shrinks (fuel : nat) (index : Z) (acc p : list Z) :
  (length p < fuel)%nat -> shrinks p (scan_ecma_capname_go is_ecma_start is_ecma_char env fuel index acc p).
Proof.
  revert index acc p. induction fuel as [|f IH]; intros index acc p Hf; [lia|]. cbn [scan_ecma_capname_go].
  destruct p as [|ch p1]; [apply le_n|]. cbn [length] in Hf.
  destruct (ch =? 92).
  - destruct p1 as [|u p2]; [exact I|]. destruct (negb (u =? 117)); [exact I|]. cbn [length] in Hf.
    apply (shrinks_bind _ p2).
    + destruct p2 as [|b p2']; [apply scan_hex_shrinks|]. destruct (b =? 123); [|apply scan_hex_shrinks].
      destruct (use_u env); [apply shrinks_cons, scan_hex_brace_shrinks|exact I].
    + intros c p3 Hl. destruct (negb (if index =? 0 then is_ecma_start c else is_ecma_char c)); [exact I|].
      eapply shrinks_le; [|apply IH; lia]. cbn [length]. lia.
  - destruct (negb (if index =? 0 then is_ecma_start ch else is_ecma_char ch)); [apply le_n|].
    apply shrinks_cons, IH. lia.
Qed.

Lemma scan_capname_shrinks (p : list Z) : shrinks p (scan_capname is_word_char is_ecma_start is_ecma_char env p).
Proof.
  unfold scan_capname. destruct (use_e env).
  - apply (shrinks_bind _ p); [apply scan_ecma_capname_go_shrinks; lia|]. intros a q' H. exact H.
  - destruct (scan_word is_word_char p) as [a b] eqn:E. apply scan_word_spec in E as (-> & _).
    cbn [shrinks]. rewrite app_length. lia.
Qed.

End Names.

(** * What scanDollar and scanReplacement can return                                            *)

Section ParserFacts.
Variable is_word_char : Z -> bool.
Variable is_ecma_start : Z -> bool.
Variable is_ecma_char : Z -> bool.
Variable env : penv.

Notation scan_dollar := (scan_dollar is_word_char is_ecma_start is_ecma_char env).
Notation scan_capname := (scan_capname is_word_char is_ecma_start is_ecma_char env).
Notation scan_replacement_go := (scan_replacement_go is_word_char is_ecma_start is_ecma_char env).
Notation new_replacer_data := (new_replacer_data is_word_char is_ecma_start is_ecma_char env).

(* the references scanDollar builds: an existing group number, an existing group name, or $& $` $' $+ $_ *)
Definition dollar_ref (m : Z) : Prop :=
  (0 <= m /\ is_capture_slot env m = true) \/
  (exists name, is_capture_name env name = true /\ m = capture_slot_from_name env name) \/
  (exists ch, special_capnum ch <> 1 /\ m = special_capnum ch).

(* scanDollar on p returns a '$' (for "$$", or the literal '$' of an unrecognised form) or such a reference,
   with a rest no longer than p; its only error is ErrCaptureGroupOutOfRange *)
Inductive dollar_out (p : list Z) : res (rnode * list Z) -> Prop :=
| DO_one rest : (length rest <= length p)%nat -> dollar_out p (Ok (mk_one 36, rest))
| DO_ref m rest : dollar_ref m -> (length rest <= length p)%nat -> dollar_out p (Ok (mk_ref m, rest))
| DO_err : dollar_out p (Err E_CapOutOfRange).

Lemma dollar_out_bind {A} (p : list Z) (r : res A) (k : A -> res (rnode * list Z)) :
  clean r -> (forall a, r = Ok a -> dollar_out p (k a)) -> dollar_out p (bind r k).
Proof.
  destruct r; cbn [clean bind]; intros Hc Hk; [apply Hk; reflexivity|subst; apply DO_err|contradiction|contradiction].
Qed.

Lemma scan_dollar_out (p : list Z) : dollar_out p (scan_dollar p).
Proof.
  unfold Replace.scan_dollar. destruct p as [|ch0 p0]; [apply DO_one, le_n|].
  assert (dollar_out (ch0 :: p0) (Ok (mk_one 36, ch0 :: p0))) as Hlit by apply DO_one, le_n.
  set (angled := (ch0 =? 123) && (1 <? zlen (ch0 :: p0))).
  (* rightChar(0) exists: "${" is only recognised with something behind it *)
  assert (exists ch q1, (if angled then p0 else ch0 :: p0) = ch :: q1 /\ (length q1 < length (ch0 :: p0))%nat)
    as (ch & q1 & -> & Hq).
  { subst angled. destruct ((ch0 =? 123) && (1 <? zlen (ch0 :: p0))) eqn:Ea.
    - destruct p0 as [|ch q1]; [apply andb_prop in Ea as (_ & Ea); discriminate Ea|].
      exists ch, q1. split; [reflexivity|cbn [length]; lia].
    - exists ch0, p0. split; [reflexivity|cbn [length]; lia]. }
  destruct (is_digit ch) eqn:Ed.
  - destruct (negb angled && use_e env).
    + (* ECMAScript $n *)
      apply dollar_out_bind; [apply ecma_digits_clean|]. intros [[capnum rest]|] E; [|exact Hlit].
      destruct (0 <=? capnum) eqn:E0; [|exact Hlit].
      apply ecma_digits_first in E; [|exact Ed]. pose proof (span_digits_spec q1) as Hsp.
      destruct (span_digits q1) as [run tail]. destruct Hsp as (Hq1 & _). apply best_inv_some in E as (Hs & Hl).
      apply DO_ref; [left; split; [lia|exact Hs]|].
      clear - Hq Hl Hq1. subst q1. rewrite app_length in Hq. cbn [length] in *. lia.
    + (* $n and ${n} *)
      unfold scan_decimal. pose proof (scan_decimal_go_cases 0 (ch :: q1)) as Hd.
      pose proof (span_digits_spec (ch :: q1)) as Hsp. destruct (span_digits (ch :: q1)) as [a b].
      destruct Hsp as (Hp & Ha & _). cbn [fst snd] in Hd. destruct Hd as [-> | ->]; cbn [bind]; [|apply DO_err].
      fold (dval a).
      assert (forall q, (length q <= length b)%nat ->
                dollar_out (ch0 :: p0) (if is_capture_slot env (dval a) then Ok (mk_ref (dval a), q)
                                        else Ok (mk_one 36, ch0 :: p0))) as Hk.
      { intros q Hl. destruct (is_capture_slot env (dval a)) eqn:Es; [|exact Hlit].
        apply DO_ref; [left; split; [apply dval_go_nonneg; [lia|exact Ha]|exact Es]|].
        clear - Hq Hl Hp. apply (f_equal (@length Z)) in Hp. rewrite app_length in Hp. cbn [length] in *. lia. }
      destruct (negb angled); cbn [andb]; [apply Hk, le_n|].
      destruct b as [|c q3]; [exact Hlit|].
      destruct (c =? 125); cbn [andb]; [apply Hk; cbn [length]; lia|exact Hlit].
  - destruct (angled && is_group_name_start is_word_char is_ecma_start env ch).
    + (* ${name} *)
      pose proof (scan_capname_shrinks is_word_char is_ecma_start is_ecma_char env (ch :: q1)) as Hs.
      destruct (scan_capname (ch :: q1)) as [[name q2]| | |]; cbn [shrinks] in Hs; try contradiction; [|exact Hlit].
      destruct q2 as [|c q3]; [exact Hlit|]. destruct (c =? 125); cbn [andb]; [|exact Hlit].
      destruct (is_capture_name env name) eqn:En; [|exact Hlit].
      apply DO_ref; [right; left; eauto|]. clear - Hq Hs. cbn [length] in *. lia.
    + destruct (negb angled); [|exact Hlit]. destruct (ch =? 36); [apply DO_one; lia|].
      destruct (negb (special_capnum ch =? 1)) eqn:Es; [|exact Hlit].
      apply DO_ref; [right; right; exists ch; split; [lia|reflexivity]|lia].
Qed.

Lemma span_dollar_spec (p run rest : list Z) :
  span_dollar p = (run, rest) ->
  p = run ++ rest /\ ~ In 36 run /\ (rest = [] \/ exists after, rest = 36 :: after).
Proof.
  revert run rest. induction p as [|ch p IH]; intros run rest H; cbn [span_dollar] in H.
  - inversion H; subst. repeat split; auto.
  - destruct (ch =? 36) eqn:E.
    + inversion H; subst. assert (ch = 36) as -> by lia. repeat split; auto. right. eexists; reflexivity.
    + destruct (span_dollar p) as [a b]. inversion H; subst. destruct (IH _ _ eq_refl) as (H1 & H2 & H3).
      repeat split; [cbn [app]; congruence| |exact H3].
      intros [Hc|Hc]; [lia|contradiction].
Qed.

(* the children scanReplacement gives its Concatenate node *)
Inductive parsed_node : rnode -> Prop :=
| PN_one c : parsed_node (mk_one c)
| PN_multi s : parsed_node (mk_multi s)
| PN_ref m : dollar_ref m -> parsed_node (mk_ref m).

Definition rep_out (r : res (list rnode)) : Prop :=
  match r with
  | Ok nodes => Forall parsed_node nodes
  | Err c => c = E_CapOutOfRange
  | Crash _ | Fuel => False
  end.

Lemma scan_replacement_go_out (fuel : nat) (p : list Z) :
  (length p < fuel)%nat -> rep_out (scan_replacement_go fuel p).
Proof.
  revert p. induction fuel as [|f IH]; intros p Hf; [lia|]. cbn [Replace.scan_replacement_go].
  destruct p as [|c p']; [constructor|].
  destruct (span_dollar (c :: p')) as [run rest] eqn:Es.
  destruct (span_dollar_spec _ _ _ Es) as (Hp & _ & _).
  assert (Forall parsed_node (add_to_concatenate run)) as Hrun.
  { destruct run as [|x [|y run]]; repeat constructor. }
  destruct rest as [|d after]; [exact Hrun|].
  assert (length after < f)%nat as Hlen.
  { clear - Hp Hf. apply (f_equal (@length Z)) in Hp. rewrite app_length in Hp. cbn [length] in *. lia. }
  pose proof (scan_dollar_out after) as Ho.
  destruct (scan_dollar after) as [[n rest']|e| |]; cbn [bind]; [|inversion Ho; reflexivity|inversion Ho|inversion Ho].
  assert (parsed_node n /\ (length rest' <= length after)%nat) as (Hn & Hl).
  { inversion Ho; subst; split; try assumption; constructor; assumption. }
  assert (rep_out (scan_replacement_go f rest')) as Hmore by (apply IH; lia).
  destruct (scan_replacement_go f rest') as [more|e| |]; cbn [bind rep_out] in *; try exact Hmore.
  apply Forall_app. split; [exact Hrun|]. constructor; assumption.
Qed.

Lemma build_rules_total (children : list rnode) (sb : list Z) (strings : list (list Z)) (rules : list Z) :
  Forall parsed_node children -> exists d, build_rules env children sb strings rules = Ok d.
Proof.
  intros HF. revert sb strings rules. induction HF as [|c rest Hc _ IH]; intros sb strings rules; cbn [build_rules].
  - destruct (flush sb strings rules). eauto.
  - destruct Hc; cbn; try apply IH. destruct (flush sb strings rules). apply IH.
Qed.

(* replacer_data_no_panic and parser_error_codes: NewReplacerData never reaches one of its panics (the
   replacement parser only builds One/Multi/Ref children), the model's fuel is sufficient, and the only
   error is ErrCaptureGroupOutOfRange: the errors of the ECMAScript name scanner are swallowed by scanDollar *)
Lemma new_replacer_data_clean (rep : list Z) : clean (new_replacer_data rep).
Proof.
  unfold Replace.new_replacer_data, scan_replacement.
  pose proof (scan_replacement_go_out (S (length rep)) rep (Nat.lt_succ_diag_r _)) as Ho.
  destruct (scan_replacement_go (S (length rep)) rep) as [children|e| |]; cbn [bind rep_out clean] in *; try exact Ho.
  rewrite Z.eqb_refl. cbn [negb]. destruct (build_rules_total children [] [] [] Ho) as (d & ->). exact I.
Qed.

End ParserFacts.

(** * NewReplacerData: rules = compiled items, and they fit the matches of the Regexp           *)

Definition items_of_node (nd : rnode) : list item :=
  if n_t nd =? rg_NtMulti then map ILit (n_str nd)
  else if n_t nd =? rg_NtOne then [ILit (n_ch nd)]
  else [IRef (n_m nd)].
Definition items_of_nodes (l : list rnode) : list item := flat_map items_of_node l.

Definition group_num_ok (env : penv) (m : Z) : Prop :=
  match pe_caps env with
  | None => m < pe_capsize env
  | Some l => zlist_assoc m l <> None
  end.
Definition ref_ok (env : penv) (m : Z) : Prop := (-4 <= m /\ m < 0) \/ (0 <= m /\ group_num_ok env m).
Definition node_wf (env : penv) (nd : rnode) : Prop :=
  n_t nd = rg_NtOne \/ n_t nd = rg_NtMulti \/ (n_t nd = rg_NtRef /\ ref_ok env (n_m nd)).

Lemma zlist_assoc_In {B} (k : Z) (l : list (Z * B)) (v : B) : zlist_assoc k l = Some v -> In (k, v) l.
Proof.
  induction l as [|[k' v'] l IH]; cbn [zlist_assoc]; [discriminate|].
  destruct (k =? k') eqn:E; [|intros H; right; apply IH; exact H].
  intros H; inversion H; subst. left. f_equal. lia.
Qed.

Lemma name_assoc_In {B} (k : list Z) (l : list (list Z * B)) (v : B) : name_assoc k l = Some v -> In (k, v) l.
Proof.
  induction l as [|[k' v'] l IH]; cbn [name_assoc]; [discriminate|].
  destruct (zlist_eqb k k') eqn:E; [|intros H; right; apply IH; exact H].
  intros H; inversion H; subst. left. f_equal. symmetry. apply zlist_eqb_eq. exact E.
Qed.

Lemma compile_items_lits (env : penv) (s : list Z) (rest : list item) (sb : list Z) :
  compile_items env (map ILit s ++ rest) sb = compile_items env rest (sb ++ s).
Proof.
  revert sb. induction s as [|c s IH]; intros sb; cbn [map app compile_items].
  - rewrite app_nil_r. reflexivity.
  - rewrite IH. rewrite <- app_assoc. reflexivity.
Qed.

Lemma tok_of_rule_mono (strings more : list (list Z)) (r : Z) (t : rtok) :
  tok_of_rule strings r = Some t -> tok_of_rule (strings ++ more) r = Some t.
Proof.
  unfold tok_of_rule. destruct (0 <=? r) eqn:E; [|auto].
  destruct (znth strings r) eqn:N; [|discriminate]. intros H.
  assert (r < zlen strings) as Hlt.
  { unfold znth in N. destruct (r <? 0); [discriminate|].
    assert (nth_error strings (Z.to_nat r) <> None) as Hn by congruence.
    apply nth_error_Some in Hn. unfold zlen. lia. }
  rewrite znth_app_l by exact Hlt. rewrite N. exact H.
Qed.

Lemma toks_of_rules_mono (strings more : list (list Z)) (rules : list Z) (toks : list rtok) :
  toks_of_rules strings rules = Some toks -> toks_of_rules (strings ++ more) rules = Some toks.
Proof.
  revert toks. induction rules as [|r rules IH]; intros toks H; [exact H|].
  cbn [toks_of_rules] in *. destruct (tok_of_rule strings r) eqn:Er; [|discriminate].
  destruct (toks_of_rules strings rules) eqn:E; [|discriminate].
  rewrite (tok_of_rule_mono _ more _ _ Er). rewrite (IH _ eq_refl). exact H.
Qed.

Lemma rule_ok_mono (a b n r : Z) : a <= b -> rule_ok a n r -> rule_ok b n r.
Proof. intros H (H1 & H2). split; [intros; specialize (H1 ltac:(assumption)); lia|exact H2]. Qed.

Lemma flush_spec (sb : list Z) (strings : list (list Z)) (rules : list Z) (toks0 : list rtok) (n : Z) :
  toks_of_rules strings rules = Some toks0 -> Forall (rule_ok (zlen strings) n) rules ->
  let '(s, r) := flush sb strings rules in
  toks_of_rules s r = Some (toks0 ++ (if nonempty sb then [TLit sb] else [])) /\
  Forall (rule_ok (zlen s) n) r /\ zlen strings <= zlen s.
Proof.
  intros Ht Hr. unfold flush. destruct (nonempty sb).
  - repeat split.
    + apply toks_of_rules_app; [apply toks_of_rules_mono; exact Ht|].
      cbn [toks_of_rules]. unfold tok_of_rule. pose proof (zlen_nonneg strings).
      destruct (0 <=? zlen strings) eqn:E; [|lia]. rewrite znth_app_r0. reflexivity.
    + apply Forall_app. split.
      * eapply Forall_impl; [|exact Hr]. intros r. apply rule_ok_mono. rewrite zlen_app. change (zlen [sb]) with 1. lia.
      * constructor; [|constructor]. split; [intros _; rewrite zlen_app; change (zlen [sb]) with 1; lia|].
        pose proof (zlen_nonneg strings). lia.
    + rewrite zlen_app. change (zlen [sb]) with 1. lia.
  - rewrite app_nil_r. repeat split; try assumption. lia.
Qed.

Section BuildRules.
Variable env : penv.
Variable n : Z.
Hypothesis Henv : env_ok env n.

Lemma slot_of_ok (m : Z) :
  ref_ok env m -> -4 <= slot_of env m /\ slot_of env m < n /\ (m < 0 -> slot_of env m = m).
Proof.
  destruct Henv as (Hn & Hcaps & _). unfold slot_of, caps_nonempty, caps_lookup, ref_ok, group_num_ok.
  intros [(H1 & H2)|(H1 & H2)].
  - destruct (0 <=? m) eqn:E; [lia|]. rewrite andb_false_r. repeat split; lia.
  - destruct (pe_caps env) as [l|].
    + destruct Hcaps as (HF & H0). destruct l as [|kv l]; [discriminate|].
      destruct (0 <=? m) eqn:E; [|lia]. cbn [andb].
      destruct (zlist_assoc m (kv :: l)) as [v|] eqn:Ea; [|contradiction].
      apply zlist_assoc_In in Ea. rewrite Forall_forall in HF. specialize (HF _ Ea). cbn [snd] in HF.
      repeat split; lia.
    + cbn [andb]. repeat split; lia.
Qed.

Lemma tok_of_rule_ref (strings : list (list Z)) (slot : Z) :
  -4 <= slot -> tok_of_rule strings (-5 - slot) = Some (ref_tok slot).
Proof.
  intros H. unfold tok_of_rule, ref_tok.
  destruct (0 <=? -5 - slot) eqn:E0; [lia|].
  destruct (slot =? -1) eqn:E1.
  { assert (slot = -1) as -> by lia. reflexivity. }
  destruct (slot =? -2) eqn:E2.
  { assert (slot = -2) as -> by lia. reflexivity. }
  destruct (slot =? -3) eqn:E3.
  { assert (slot = -3) as -> by lia. reflexivity. }
  destruct (slot =? -4) eqn:E4.
  { assert (slot = -4) as -> by lia. reflexivity. }
  destruct (-5 - slot =? -1) eqn:F1; [lia|]. destruct (-5 - slot =? -2) eqn:F2; [lia|].
  destruct (-5 - slot =? -3) eqn:F3; [lia|]. destruct (-5 - slot =? -4) eqn:F4; [lia|].
  f_equal. f_equal. lia.
Qed.

Lemma build_rules_spec (children : list rnode) :
  forall (sb : list Z) (strings : list (list Z)) (rules : list Z) (toks0 : list rtok),
    Forall (node_wf env) children ->
    toks_of_rules strings rules = Some toks0 -> Forall (rule_ok (zlen strings) n) rules ->
    exists d, build_rules env children sb strings rules = Ok d /\
              toks_of d = Some (toks0 ++ compile_items env (items_of_nodes children) sb) /\
              data_ok d n.
Proof.
  induction children as [|c rest IH]; intros sb strings rules toks0 HF Ht Hr; cbn [build_rules].
  - pose proof (flush_spec sb strings rules toks0 n Ht Hr) as Hfl.
    destruct (flush sb strings rules) as [s r]. destruct Hfl as (H1 & H2 & _).
    exists (mkRD s r). split; [reflexivity|]. split; [exact H1|exact H2].
  - inversion HF as [|? ? Hc HF']; subst. unfold items_of_nodes. cbn [flat_map]. fold (items_of_nodes rest).
    unfold items_of_node.
    destruct (n_t c =? rg_NtMulti) eqn:E1.
    { rewrite compile_items_lits. apply IH; assumption. }
    destruct (n_t c =? rg_NtOne) eqn:E2.
    { cbn [app compile_items]. apply IH; assumption. }
    destruct Hc as [Hc|[Hc|(Hc & Hok)]]; [lia|lia|].
    destruct (n_t c =? rg_NtRef) eqn:E3; [|lia].
    pose proof (flush_spec sb strings rules toks0 n Ht Hr) as Hfl.
    destruct (flush sb strings rules) as [s r]. destruct Hfl as (H1 & H2 & H3).
    fold (slot_of env (n_m c)). destruct (slot_of_ok _ Hok) as (Hs1 & Hs2 & Hs3).
    unfold s_replaceSpecials. change (- (4) - 1 - slot_of env (n_m c)) with (-4 - 1 - slot_of env (n_m c)).
    replace (-4 - 1 - slot_of env (n_m c)) with (-5 - slot_of env (n_m c)) by lia.
    destruct (IH [] s (r ++ [-5 - slot_of env (n_m c)])
                 ((toks0 ++ (if nonempty sb then [TLit sb] else [])) ++ [ref_tok (slot_of env (n_m c))]) HF')
      as (d & Hd1 & Hd2 & Hd3).
    + apply toks_of_rules_app; [exact H1|]. cbn [toks_of_rules]. rewrite tok_of_rule_ref by lia. reflexivity.
    + apply Forall_app. split; [exact H2|]. constructor; [|constructor]. split; lia.
    + exists d. split; [exact Hd1|]. split; [|exact Hd3]. rewrite Hd2. cbn [app compile_items].
      rewrite <- !app_assoc. reflexivity.
Qed.

End BuildRules.

(** * Parsed references always name existing groups                                              *)

Section NodeWf.
Variable env : penv.
Variable n : Z.
Hypothesis Henv : env_ok env n.

Lemma slot_group_num_ok (c : Z) : is_capture_slot env c = true -> group_num_ok env c.
Proof.
  unfold is_capture_slot, group_num_ok. destruct (pe_caps env) as [l|].
  - destruct (zlist_assoc c l); [intros _; discriminate|discriminate].
  - intros H. lia.
Qed.

Lemma group_zero_ok : group_num_ok env 0.
Proof.
  destruct Henv as (Hn & Hcaps & _). unfold group_num_ok. destruct (pe_caps env) as [l|].
  - destruct Hcaps as (_ & ->). discriminate.
  - lia.
Qed.

Lemma name_ref_ok (name : list Z) :
  is_capture_name env name = true -> ref_ok env (capture_slot_from_name env name).
Proof.
  destruct Henv as (Hn & Hcaps & Hnames). unfold is_capture_name, capture_slot_from_name.
  destruct (pe_capnames env) as [l|]; [|discriminate].
  destruct (name_assoc name l) as [v|] eqn:Ea; [|discriminate]. intros _.
  apply name_assoc_In in Ea. rewrite Forall_forall in Hnames. specialize (Hnames _ Ea). cbn [snd] in Hnames.
  destruct Hnames as (H0 & H1). right. split; [exact H0|]. unfold group_num_ok.
  destruct (pe_caps env); [exact H1|]. lia.
Qed.

Lemma special_ref_ok (ch : Z) : special_capnum ch <> 1 -> ref_ok env (special_capnum ch).
Proof.
  unfold special_capnum, s_replaceLeftPortion, s_replaceRightPortion, s_replaceLastGroup, s_replaceWholeString.
  destruct (ch =? 38). { intros _. right. split; [lia|apply group_zero_ok]. }
  destruct (ch =? 96). { intros _. left. lia. }
  destruct (ch =? 39). { intros _. left. lia. }
  destruct (ch =? 43). { intros _. left. lia. }
  destruct (ch =? 95). { intros _. left. lia. }
  intros H; contradiction.
Qed.

Lemma parsed_node_wf (nd : rnode) : parsed_node env nd -> node_wf env nd.
Proof.
  intros [c|s|m [(H0 & Hs)|[(name & Hn & ->)|(ch & Hc & ->)]]]; [left; reflexivity|right; left; reflexivity| | |];
    right; right; (split; [reflexivity|]).
  - right. split; [exact H0|apply slot_group_num_ok; exact Hs].
  - apply name_ref_ok. exact Hn.
  - apply special_ref_ok. exact Hc.
Qed.

End NodeWf.


(** * scanDollar recognises exactly the forms of the grammar, and the grammar is unambiguous     *)

Section DollarSound.
Variable is_word_char : Z -> bool.
Variable is_ecma_start : Z -> bool.
Variable is_ecma_char : Z -> bool.
Variable env : penv.

Notation dollar_form := (dollar_form is_word_char is_ecma_start is_ecma_char env).
Notation scan_dollar := (Replace.scan_dollar is_word_char is_ecma_start is_ecma_char env).

Lemma digits_hd (ds rest : list Z) (c : Z) (q : list Z) :
  ds <> [] -> digits ds -> ds ++ rest = c :: q -> is_digit c = true.
Proof.
  intros Hne Hd He. destruct (app_head _ _ _ _ Hne He) as (ds' & -> & _). inversion Hd; subst. assumption.
Qed.

(* inversion by the class of the first character *)
Lemma form_inv_digit (c : Z) (q : list Z) (it : item) (r : list Z) :
  is_digit c = true -> dollar_form (c :: q) it r ->
  exists ds, ds <> [] /\ digits ds /\ c :: q = ds ++ r /\ it = IRef (dval ds) /\
             is_capture_slot env (dval ds) = true /\
             ((use_e env = false /\ no_digit_head r) \/
              (use_e env = true /\
               forall more rest', more <> [] -> digits more -> r = more ++ rest' ->
                                  is_capture_slot env (dval (ds ++ more)) = false)).
Proof.
  intros Hd H. inversion H; subst.
  - discriminate.
  - match goal with H : special_capnum _ <> 1 |- _ => destruct (special_capnum_cases _ H) as (Hx & _) end. congruence.
  - exists ds. repeat split; auto.
  - exists ds. repeat split; auto.
  - discriminate.
  - discriminate.
  - discriminate.
Qed.

Lemma form_inv_brace (q : list Z) (it : item) (r : list Z) :
  dollar_form (123 :: q) it r ->
  (exists ds, ds <> [] /\ digits ds /\ q = ds ++ 125 :: r /\ it = IRef (dval ds) /\ is_capture_slot env (dval ds) = true) \/
  (exists name, use_e env = false /\ name <> [] /\ Forall (fun c => is_word_char c = true) name /\
                is_digit (hd 0 name) = false /\ is_word_char 125 = false /\ is_capture_name env name = true /\
                q = name ++ 125 :: r /\ it = IRef (capture_slot_from_name env name)) \/
  (exists c cs, use_e env = true /\ is_digit c = false /\ is_ecma_start c = true /\
                Forall (fun x => is_ecma_char x = true) cs /\ ~ In 92 (c :: cs) /\ is_ecma_char 125 = false /\
                is_capture_name env (map write_rune (c :: cs)) = true /\
                q = (c :: cs) ++ 125 :: r /\ it = IRef (capture_slot_from_name env (map write_rune (c :: cs)))).
Proof.
  intros H. inversion H; subst.
  - match goal with H : special_capnum _ <> 1 |- _ => destruct (special_capnum_cases _ H) as (_ & _ & Hx) end. congruence.
  - exfalso. assert (is_digit 123 = true) as Hx by (eapply digits_hd; eauto). discriminate.
  - exfalso. assert (is_digit 123 = true) as Hx by (eapply digits_hd; eauto). discriminate.
  - left. exists ds. repeat split; auto.
  - right; left. exists name. repeat split; auto.
  - right; right. exists c, cs. repeat split; auto.
Qed.

Lemma form_inv_other (c : Z) (q : list Z) (it : item) (r : list Z) :
  is_digit c = false -> c <> 123 -> dollar_form (c :: q) it r ->
  r = q /\ ((c = 36 /\ it = ILit 36) \/ (special_capnum c <> 1 /\ it = IRef (special_capnum c))).
Proof.
  intros Hd Hb H. inversion H; subst.
  - split; [reflexivity|left; split; reflexivity].
  - split; [reflexivity|right; split; [assumption|reflexivity]].
  - exfalso. assert (is_digit c = true) as Hx by (eapply digits_hd; eauto). congruence.
  - exfalso. assert (is_digit c = true) as Hx by (eapply digits_hd; eauto). congruence.
  - congruence.
  - congruence.
  - congruence.
Qed.

Lemma no_form_nil (it : item) (r : list Z) : ~ dollar_form [] it r.
Proof.
  intros H. remember (@nil Z) as p eqn:Ep. destruct H; try discriminate;
    (destruct ds; [contradiction|discriminate]).
Qed.

Lemma no_form_brace_nil (it : item) (r : list Z) : ~ dollar_form [123] it r.
Proof.
  intros H. apply form_inv_brace in H
    as [(ds & _ & _ & H & _)|[(nm & _ & _ & _ & _ & _ & _ & H & _)|(c & cs & _ & _ & _ & _ & _ & _ & _ & H & _)]];
    symmetry in H; apply app_eq_nil in H as (_ & H); discriminate.
Qed.

(* ${ followed by a character that cannot start a name *)
Lemma no_form_brace (ch : Z) (q1 : list Z) (it : item) (r : list Z) :
  is_digit ch = false ->
  (if use_e env then is_ecma_start ch = false \/ ch = 92 else is_word_char ch = false) ->
  ~ dollar_form (123 :: ch :: q1) it r.
Proof.
  intros Ed Hns Hf. apply form_inv_brace in Hf
    as [(ds & H1 & H2 & H3 & _)|[(nm & H1 & H2 & H3 & _ & _ & _ & H7 & _)|(c & cs & H1 & _ & H3 & _ & H5 & _ & _ & H8 & _)]].
  - assert (is_digit ch = true) by (eapply digits_hd; eauto). congruence.
  - rewrite H1 in Hns. destruct nm as [|x nm]; [contradiction|]. cbn [app] in H7. inversion H7; subst.
    inversion H3; subst. congruence.
  - rewrite H1 in Hns. cbn [app] in H8. inversion H8; subst. destruct Hns as [Hns| ->]; [congruence|].
    apply H5. left. reflexivity.
Qed.

Lemma form_brace_num (ch : Z) (q1 a b : list Z) (it : item) (r : list Z) :
  is_digit ch = true -> span_digits (ch :: q1) = (a, b) ->
  dollar_form (123 :: ch :: q1) it r <->
  b = 125 :: r /\ is_capture_slot env (dval a) = true /\ it = IRef (dval a).
Proof.
  intros Ed Esp. pose proof (span_digits_spec (ch :: q1)) as Hsp. rewrite Esp in Hsp. destruct Hsp as (Hp & Hda & _).
  split.
  - intros Hf. apply form_inv_brace in Hf
      as [(ds & _ & H2 & H3 & H4 & H5)|[(nm & _ & H2 & _ & H4 & _ & _ & H7 & _)|(c & cs & _ & H2 & _ & _ & _ & _ & _ & H8 & _)]].
    + rewrite (span_digits_of_app ds (125 :: r) ch q1 H2 eq_refl H3) in Esp. inversion Esp; subst. auto.
    + exfalso. destruct nm as [|x nm]; [contradiction|]. cbn [app hd] in *. inversion H7; subst. congruence.
    + exfalso. cbn [app] in H8. inversion H8; subst. congruence.
  - intros (-> & Hs & ->). rewrite Hp. apply DF_bnum; try assumption. eapply span_digits_hd; eassumption.
Qed.

(* ${name}, .NET names *)
Lemma form_brace_word (ch : Z) (q1 name b : list Z) (it : item) (r : list Z) :
  use_e env = false -> is_digit ch = false -> is_word_char ch = true ->
  scan_word is_word_char (ch :: q1) = (name, b) ->
  dollar_form (123 :: ch :: q1) it r <->
  b = 125 :: r /\ is_capture_name env name = true /\ it = IRef (capture_slot_from_name env name).
Proof.
  intros Ee Ed Ew Esw. destruct (scan_word_spec _ _ _ _ Esw) as (Hq & Hw & Hb).
  split.
  - intros Hf. apply form_inv_brace in Hf
      as [(ds & H1 & H2 & H3 & _)|[(nm & _ & _ & H3 & _ & H5 & H6 & H7 & H8)|(c & cs & H1 & _)]].
    + assert (is_digit ch = true) by (eapply digits_hd; eauto). congruence.
    + rewrite H7, (scan_word_unique _ _ _ _ H3 H5) in Esw. inversion Esw; subst. auto.
    + congruence.
  - intros (-> & Hn & ->). rewrite Hq.
    assert (exists name', name = ch :: name') as (name' & ->).
    { cbn [scan_word] in Esw. rewrite Ew in Esw. destruct (scan_word is_word_char q1). inversion Esw; subst. eauto. }
    apply DF_bname; try assumption; try discriminate; try exact Ed.
    destruct Hb as [Hb|(c' & b' & Hb & Hc')]; [discriminate|]. inversion Hb; subst. exact Hc'.
Qed.

(* ${name}, ECMAScript names without \u escapes *)
Lemma form_brace_ecma (ch : Z) (q1 cs b : list Z) (it : item) (r : list Z) :
  use_e env = true -> is_digit ch = false -> is_ecma_start ch = true -> ch <> 92 ->
  span_ecma is_ecma_start is_ecma_char false q1 = (cs, b) ->
  dollar_form (123 :: ch :: q1) it r <->
  b = 125 :: r /\ is_capture_name env (map write_rune (ch :: cs)) = true /\
  it = IRef (capture_slot_from_name env (map write_rune (ch :: cs))).
Proof.
  intros Ee Ed Est E92 Esp. destruct (span_ecma_false_spec _ _ _ _ _ Esp) as (Hq & Hcs & Hn92 & Hb).
  split.
  - intros Hf. apply form_inv_brace in Hf
      as [(ds & H1 & H2 & H3 & _)|[(nm & H1 & _)|(c & cs' & _ & _ & _ & H4 & H5 & H6 & H7 & H8 & H9)]].
    + assert (is_digit ch = true) by (eapply digits_hd; eauto). congruence.
    + congruence.
    + cbn [app] in H8. injection H8 as H8a H8b. subst c. rewrite H8b in Esp.
      rewrite (span_ecma_false_unique _ _ _ _ _ H4) in Esp; [|intros Hi; apply H5; right; exact Hi|exact H6].
      inversion Esp; subst. auto.
  - intros (-> & Hn & ->). rewrite Hq. change (123 :: ch :: cs ++ 125 :: r) with (123 :: (ch :: cs) ++ 125 :: r).
    apply DF_bname_ecma; try assumption.
    + intros [Hc|Hc]; [congruence|apply Hn92; exact Hc].
    + destruct Hb as [Hb|(c' & b' & Hb & [Hc'|Hc'])]; [discriminate| |]; inversion Hb; subst; [discriminate|exact Hc'].
Qed.

(* $n: all the digits *)
Lemma form_num (ch0 : Z) (p0 a b : list Z) (it : item) (r : list Z) :
  use_e env = false -> is_digit ch0 = true -> span_digits (ch0 :: p0) = (a, b) ->
  dollar_form (ch0 :: p0) it r <-> r = b /\ is_capture_slot env (dval a) = true /\ it = IRef (dval a).
Proof.
  intros Ee Ed Esp. pose proof (span_digits_spec (ch0 :: p0)) as Hsp. rewrite Esp in Hsp. destruct Hsp as (Hp & Hda & Hnb).
  split.
  - intros Hf. apply form_inv_digit in Hf as (ds & H1 & H2 & H3 & H4 & H5 & [(_ & H7)|(H6 & _)]); [| |exact Ed]; [|congruence].
    rewrite (span_digits_of_app ds r ch0 p0 H2 H7 H3) in Esp. inversion Esp; subst. auto.
  - intros (-> & Hs & ->). rewrite Hp. apply DF_num; try assumption. eapply span_digits_hd; eassumption.
Qed.

(* ECMAScript $n: what the longest-valid-prefix loop has found *)
Lemma form_num_ecma (ch0 : Z) (p0 run tail : list Z) (res : option (Z * list Z)) :
  use_e env = true -> is_digit ch0 = true -> span_digits p0 = (run, tail) -> best_inv env (ch0 :: run) tail res ->
  match res with
  | Some (c, r) => 0 <= c /\ dollar_form (ch0 :: p0) (IRef c) r
  | None => forall it r, ~ dollar_form (ch0 :: p0) it r
  end.
Proof.
  intros Ee Ed Esp E. pose proof (span_digits_spec p0) as Hsp. rewrite Esp in Hsp. destruct Hsp as (Hp0 & Hdrun & Hntail).
  assert (digits (ch0 :: run)) as Hdall by (constructor; assumption).
  destruct res as [[c r]|].
  - destruct E as (ds & more & Hpre & Hne & Hc & Hs & Hr & Hlong).
    rewrite Hpre in Hdall. apply digits_app in Hdall as (Hdds & Hdmore).
    split; [subst c; apply dval_go_nonneg; [lia|exact Hdds]|].
    assert (ch0 :: p0 = ds ++ r) as -> by (rewrite Hp0, Hr, app_assoc, <- Hpre; reflexivity).
    subst c. apply DF_num_ecma; try assumption.
    intros more1 rest1 Hm1 Hdm1 Hr1. rewrite Hr in Hr1.
    destruct (digits_prefix more1 rest1 more tail Hdm1 Hdmore Hntail Hr1) as (x & Hx).
    apply (Hlong (ds ++ more1) x); [rewrite Hpre, Hx, app_assoc; reflexivity|].
    rewrite app_length. destruct more1; [contradiction|cbn [length]; lia].
  - intros it r Hf. apply form_inv_digit in Hf as (ds & H1 & H2 & H3 & _ & H5 & _); [|exact Ed].
    assert ((ch0 :: run) ++ tail = ds ++ r) as He by (rewrite <- H3, Hp0; reflexivity).
    destruct (digits_prefix ds r (ch0 :: run) tail H2 Hdall Hntail He) as (x & Hx).
    rewrite (E ds x Hx H1) in H5. discriminate.
Qed.

(* what scanDollar may return on p: a node that reads as the form p starts with and the text after that
   form, or, if p starts with no form, the literal '$' with p left whole *)
Definition dollar_sound (p : list Z) (nd : rnode) (rest : list Z) : Prop :=
  (exists it, dollar_form p it rest /\ items_of_node nd = [it]) \/
  ((forall it r, ~ dollar_form p it r) /\ nd = mk_one 36 /\ rest = p).

Lemma sound_ref (p : list Z) (m : Z) (rest : list Z) : dollar_form p (IRef m) rest -> dollar_sound p (mk_ref m) rest.
Proof. intros H. left. exists (IRef m). split; [exact H|reflexivity]. Qed.

Lemma sound_literal (p : list Z) : (forall it r, ~ dollar_form p it r) -> dollar_sound p (mk_one 36) p.
Proof. intros H. right. auto. Qed.

(* the common ending of the three "${" scanners: the body b read so far must be closed by '}' and name a group *)
Lemma sound_closed (p b : list Z) (ok : bool) (m : Z) (nd : rnode) (rest : list Z) :
  (forall it r, dollar_form p it r <-> b = 125 :: r /\ ok = true /\ it = IRef m) ->
  match b with
  | c :: q3 => if (c =? 125) && ok then Ok (mk_ref m, q3) else Ok (mk_one 36, p)
  | [] => Ok (mk_one 36, p)
  end = Ok (nd, rest) -> dollar_sound p nd rest.
Proof.
  intros Hiff. destruct b as [|c q3].
  - intros H; inversion H; subst. apply sound_literal. intros it r Hf. apply Hiff in Hf as (Hx & _). discriminate.
  - destruct ((c =? 125) && ok) eqn:Ec; intros H; inversion H; subst.
    + apply andb_prop in Ec as (Hc & Hok). apply Z.eqb_eq in Hc. subst c. apply sound_ref, Hiff. auto.
    + apply sound_literal. intros it r Hf. apply Hiff in Hf as (Hx & -> & _). inversion Hx; subst.
      rewrite Z.eqb_refl in Ec. discriminate.
Qed.

Lemma scan_dollar_sound (p : list Z) (nd : rnode) (rest : list Z) :
  (use_e env = true -> no_u_escape p) ->
  scan_dollar p = Ok (nd, rest) -> dollar_sound p nd rest.
Proof.
  intros Hbs. unfold Replace.scan_dollar. destruct p as [|ch0 p0].
  { intros H; inversion H; subst. apply sound_literal, no_form_nil. }
  destruct ((ch0 =? 123) && (1 <? zlen (ch0 :: p0))) eqn:Ea.
  - (* "${" with something behind it *)
    apply andb_prop in Ea as (E123 & Ea). apply Z.eqb_eq in E123. subst ch0.
    destruct p0 as [|ch q1]; [discriminate Ea|].
    destruct (is_digit ch) eqn:Ed; cbn [negb andb].
    + unfold scan_decimal. pose proof (scan_decimal_go_cases 0 (ch :: q1)) as Hd.
      destruct (span_digits (ch :: q1)) as [a b] eqn:Esp. cbn [fst snd] in Hd.
      destruct Hd as [-> | ->]; [|discriminate]. cbn [bind]. fold (dval a).
      destruct b as [|c q3]; exact (sound_closed _ _ _ _ _ _ (fun it r => form_brace_num _ _ _ _ it r Ed Esp)).
    + destruct (is_group_name_start is_word_char is_ecma_start env ch) eqn:Eg; unfold is_group_name_start in Eg.
      2:{ intros H; inversion H; subst. apply sound_literal. intros it r. apply no_form_brace; [exact Ed|].
          destruct (use_e env); [left; apply orb_false_elim in Eg as (Eg & _)|]; exact Eg. }
      unfold Replace.scan_capname. destruct (use_e env) eqn:Ee.
      * assert (no_u_escape (ch :: q1)) as Hn by (apply (no_u_escape_app [123]); exact (Hbs eq_refl)).
        rewrite scan_ecma_capname_go_nou by (try lia; try exact Hn). cbn [Z.eqb span_ecma].
        destruct (ch =? 92) eqn:E92; cbn [negb andb fst snd].
        { (* ${\ : the name scanner fails at once *)
          rewrite E92. cbn [bind]. intros H; inversion H; subst. apply sound_literal. intros it r.
          apply no_form_brace; [exact Ed|]. rewrite Ee. right. lia. }
        rewrite orb_false_r in Eg. rewrite Eg.
        destruct (span_ecma is_ecma_start is_ecma_char false q1) as [cs b] eqn:Esp. cbn [fst snd app].
        pose proof (fun it r => form_brace_ecma ch q1 cs b it r Ee Ed Eg ltac:(lia) Esp) as Hiff.
        destruct b as [|c q3]; [exact (sound_closed _ _ _ _ _ _ Hiff)|].
        destruct (c =? 92) eqn:Ec92; cbn [bind]; [|exact (sound_closed _ _ _ _ _ _ Hiff)].
        (* the name runs into a backslash that starts no \u escape *)
        intros H; inversion H; subst. apply sound_literal. intros it r Hf. apply Hiff in Hf as (Hx & _).
        inversion Hx; subst. discriminate.
      * cbn [bind]. destruct (scan_word is_word_char (ch :: q1)) as [name b] eqn:Esw.
        exact (sound_closed _ _ _ _ _ _ (fun it r => form_brace_word ch q1 name b it r Ee Ed Eg Esw)).
  - assert (ch0 = 123 -> p0 = []) as H123.
    { intros ->. destruct p0; [reflexivity|]. exfalso. rewrite Z.eqb_refl, !zlen_cons in Ea.
      pose proof (zlen_nonneg p0). lia. }
    destruct (is_digit ch0) eqn:Ed; cbn [negb andb].
    + destruct (use_e env) eqn:Ee.
      * destruct (ecma_digits env (ch0 - 48) (if is_capture_slot env (ch0 - 48) then Some (ch0 - 48, p0) else None) p0)
          as [res| | |] eqn:E; try discriminate. cbn [bind].
        apply ecma_digits_first in E; [|exact Ed]. destruct (span_digits p0) as [run tail] eqn:Esp.
        pose proof (form_num_ecma ch0 p0 run tail res Ee Ed Esp E) as Hf.
        destruct res as [[capnum rest']|].
        -- destruct Hf as (H0 & Hf). destruct (0 <=? capnum) eqn:E0; [|lia].
           intros H; inversion H; subst. apply sound_ref. exact Hf.
        -- intros H; inversion H; subst. apply sound_literal. exact Hf.
      * unfold scan_decimal. pose proof (scan_decimal_go_cases 0 (ch0 :: p0)) as Hd.
        destruct (span_digits (ch0 :: p0)) as [a b] eqn:Esp. cbn [fst snd] in Hd.
        destruct Hd as [-> | ->]; [|discriminate]. cbn [bind andb]. fold (dval a).
        pose proof (fun it r => form_num ch0 p0 a b it r Ee Ed Esp) as Hiff.
        destruct (is_capture_slot env (dval a)) eqn:Es; intros H; inversion H; subst.
        -- apply sound_ref, Hiff. auto.
        -- apply sound_literal. intros it r Hf. apply Hiff in Hf as (_ & Hs & _). congruence.
    + (* a single character after the $ *)
      destruct (ch0 =? 36) eqn:E36.
      * apply Z.eqb_eq in E36. subst ch0. intros H; inversion H; subst.
        left. exists (ILit 36). split; [apply DF_dollar|reflexivity].
      * destruct (negb (special_capnum ch0 =? 1)) eqn:Esp; intros H; inversion H; subst.
        -- apply sound_ref, DF_special. lia.
        -- apply sound_literal. intros it r Hf. destruct (Z.eq_dec ch0 123) as [->|E123].
           ++ rewrite (H123 eq_refl) in Hf. eapply no_form_brace_nil; exact Hf.
           ++ apply form_inv_other in Hf as (_ & [(Hx & _)|(Hx & _)]); try assumption; lia.
Qed.

Lemma app_eq_app_cases {A} (a b c d : list A) :
  a ++ b = c ++ d -> (exists x, c = a ++ x /\ b = x ++ d) \/ (exists x, a = c ++ x /\ d = x ++ b).
Proof.
  revert c. induction a as [|y a IH]; intros c H.
  - left. exists c. split; [reflexivity|exact H].
  - destruct c as [|z c].
    + right. exists (y :: a). split; [reflexivity|symmetry; exact H].
    + cbn [app] in H. inversion H; subst. destruct (IH c H2) as [(x & -> & ->)|(x & -> & ->)].
      * left. exists x. split; reflexivity.
      * right. exists x. split; reflexivity.
Qed.

(* an ECMAScript $n takes the longest digit prefix that names a group: a longer one names none *)
Lemma longest_prefix (ds x r r' : list Z) :
  (forall more rest', more <> [] -> digits more -> r = more ++ rest' ->
                      is_capture_slot env (dval (ds ++ more)) = false) ->
  digits (ds ++ x) -> is_capture_slot env (dval (ds ++ x)) = true -> r = x ++ r' -> x = [].
Proof.
  intros Hlong Hd Hs Hr. destruct x as [|y x]; [reflexivity|]. exfalso. apply digits_app in Hd as (_ & Hx).
  rewrite (Hlong (y :: x) r') in Hs; [discriminate|discriminate|exact Hx|exact Hr].
Qed.

Lemma dollar_form_functional (p : list Z) (it it' : item) (r r' : list Z) :
  dollar_form p it r -> dollar_form p it' r' -> it = it' /\ r = r'.
Proof.
  intros H1 H2. destruct p as [|c q]; [exfalso; eapply no_form_nil; exact H1|].
  (* a "${" form is determined by the body the scanner reads *)
  assert (forall b ok m, (forall it r, dollar_form (c :: q) it r <-> b = 125 :: r /\ ok = true /\ it = IRef m) ->
                         it = it' /\ r = r') as Hclosed.
  { intros b ok m Hiff. apply Hiff in H1 as (-> & _ & ->). apply Hiff in H2 as (Hb & _ & ->). inversion Hb. auto. }
  destruct (is_digit c) eqn:Ed.
  - destruct (use_e env) eqn:Ee.
    + apply form_inv_digit in H1 as (ds & A1 & A2 & A3 & -> & A5 & [(Ae & _)|(_ & A6)]); [congruence| |exact Ed].
      apply form_inv_digit in H2 as (ds' & B1 & B2 & B3 & -> & B5 & [(Be & _)|(_ & B6)]); [congruence| |exact Ed].
      assert (ds = ds' /\ r = r') as (<- & <-); [|auto].
      rewrite A3 in B3. destruct (app_eq_app_cases _ _ _ _ B3) as [(x & -> & ->)|(x & -> & ->)].
      * rewrite (longest_prefix ds x _ r' A6 B2 B5 eq_refl), app_nil_r. auto.
      * rewrite (longest_prefix ds' x _ r B6 A2 A5 eq_refl), app_nil_r. auto.
    + destruct (span_digits (c :: q)) as [a b] eqn:Esp.
      apply (form_num c q a b it r Ee Ed Esp) in H1 as (-> & _ & ->).
      apply (form_num c q a b it' r' Ee Ed Esp) in H2 as (-> & _ & ->). auto.
  - destruct (Z.eq_dec c 123) as [->|Hc].
    + destruct q as [|ch q1]; [exfalso; eapply no_form_brace_nil; exact H1|].
      destruct (is_digit ch) eqn:Edc.
      { destruct (span_digits (ch :: q1)) as [a b] eqn:Esp.
        exact (Hclosed _ _ _ (fun it r => form_brace_num ch q1 a b it r Edc Esp)). }
      assert ((if use_e env then is_ecma_start ch = false \/ ch = 92 else is_word_char ch = false) -> it = it' /\ r = r')
        as Hnone by (intros Hns; exfalso; exact (no_form_brace ch q1 it r Edc Hns H1)).
      destruct (use_e env) eqn:Ee.
      * destruct (is_ecma_start ch) eqn:Est; [|apply Hnone; left; reflexivity].
        destruct (Z.eq_dec ch 92) as [E92|E92]; [apply Hnone; right; exact E92|].
        destruct (span_ecma is_ecma_start is_ecma_char false q1) as [cs b] eqn:Esp.
        exact (Hclosed _ _ _ (fun it r => form_brace_ecma ch q1 cs b it r Ee Edc Est E92 Esp)).
      * destruct (is_word_char ch) eqn:Ew; [|apply Hnone; reflexivity].
        destruct (scan_word is_word_char (ch :: q1)) as [name b] eqn:Esw.
        exact (Hclosed _ _ _ (fun it r => form_brace_word ch q1 name b it r Ee Edc Ew Esw)).
    + apply form_inv_other in H1 as (-> & A); try assumption. apply form_inv_other in H2 as (-> & B); try assumption.
      split; [|reflexivity].
      destruct A as [(-> & ->)|(A1 & ->)]; destruct B as [(B0 & ->)|(B1 & ->)]; try reflexivity.
      * exfalso. apply B1. reflexivity.
      * exfalso. subst c. apply A1. reflexivity.
Qed.

Notation rep_spec := (rep_spec is_word_char is_ecma_start is_ecma_char env).

Lemma rep_spec_functional (s : list Z) (i1 i2 : list item) :
  rep_spec s i1 -> rep_spec s i2 -> i1 = i2.
Proof.
  intros H1. revert i2. induction H1 as [|c s its Hc H1 IH|s it rest its Hf H1 IH|s its Hno H1 IH]; intros i2 H2.
  - inversion H2; subst. reflexivity.
  - inversion H2; subst; try congruence. f_equal. apply IH. assumption.
  - inversion H2; subst; try congruence.
    + match goal with Hf' : dollar_form s ?it' ?rest' |- _ =>
        destruct (dollar_form_functional _ _ _ _ _ Hf Hf') as (<- & <-) end.
      f_equal. apply IH. assumption.
    + exfalso. match goal with Hn : forall it rest, ~ dollar_form s it rest |- _ => eapply Hn; exact Hf end.
  - inversion H2; subst; try congruence.
    + exfalso. eapply Hno. eassumption.
    + f_equal. apply IH. assumption.
Qed.

End DollarSound.


(** * scanReplacement = the grammar                                                              *)

Section RepSound.
Variable is_word_char : Z -> bool.
Variable is_ecma_start : Z -> bool.
Variable is_ecma_char : Z -> bool.
Variable env : penv.

Notation rep_spec := (rep_spec is_word_char is_ecma_start is_ecma_char env).
Notation scan_replacement_go := (Replace.scan_replacement_go is_word_char is_ecma_start is_ecma_char env).

Lemma items_of_add_to_concatenate (run : list Z) :
  items_of_nodes (add_to_concatenate run) = map ILit run.
Proof.
  destruct run as [|c [|c' run]]; [reflexivity|reflexivity|].
  unfold items_of_nodes. cbn [add_to_concatenate flat_map]. rewrite app_nil_r. reflexivity.
Qed.

Lemma items_of_nodes_app (a b : list rnode) : items_of_nodes (a ++ b) = items_of_nodes a ++ items_of_nodes b.
Proof. unfold items_of_nodes. apply flat_map_app. Qed.

Lemma rep_spec_run (run s : list Z) (its : list item) :
  ~ In 36 run -> rep_spec s its -> rep_spec (run ++ s) (map ILit run ++ its).
Proof.
  induction run as [|c run IH]; intros Hn Hs; [exact Hs|]. cbn [app map].
  apply RS_char; [intros ->; apply Hn; left; reflexivity|].
  apply IH; [intros Hc; apply Hn; right; exact Hc|exact Hs].
Qed.

Lemma dollar_form_suffix (p : list Z) (it : item) (rest : list Z) :
  dollar_form is_word_char is_ecma_start is_ecma_char env p it rest -> exists pre, p = pre ++ rest.
Proof.
  intros H. destruct H.
  - exists [36]. reflexivity.
  - exists [c]. reflexivity.
  - exists ds. reflexivity.
  - exists ds. reflexivity.
  - exists (123 :: ds ++ [125]). cbn [app]. rewrite <- app_assoc. reflexivity.
  - exists (123 :: name ++ [125]). cbn [app]. rewrite <- app_assoc. reflexivity.
  - exists (123 :: (c :: cs) ++ [125]). cbn [app]. rewrite <- app_assoc. reflexivity.
Qed.

Lemma scan_replacement_go_sound (fuel : nat) (p : list Z) (nodes : list rnode) :
  (use_e env = true -> no_u_escape p) ->
  scan_replacement_go fuel p = Ok nodes -> rep_spec p (items_of_nodes nodes).
Proof.
  revert p nodes. induction fuel as [|f IH]; intros p nodes Hbs H; [discriminate|]. cbn [Replace.scan_replacement_go] in H.
  destruct p as [|c p']; [inversion H; subst; apply RS_nil|].
  destruct (span_dollar (c :: p')) as [run rest] eqn:Es.
  destruct (span_dollar_spec _ _ _ Es) as (Hp & Hrun & Hr).
  destruct rest as [|d after].
  - inversion H; subst. rewrite items_of_add_to_concatenate. rewrite Hp.
    rewrite <- (app_nil_r (map ILit run)). apply rep_spec_run; [exact Hrun|apply RS_nil].
  - destruct Hr as [Hr|(after' & Hr)]; [discriminate|]. inversion Hr; subst d after'.
    destruct (scan_dollar is_word_char is_ecma_start is_ecma_char env after) as [[nd rest']| | |] eqn:E; try discriminate.
    cbn [bind] in H.
    destruct (scan_replacement_go f rest') as [more| | |] eqn:E2; try discriminate. cbn [bind] in H.
    inversion H; subst nodes. rewrite items_of_nodes_app, items_of_add_to_concatenate. rewrite Hp.
    assert (use_e env = true -> no_u_escape after) as Hbs1.
    { intros He. apply (no_u_escape_app (run ++ [36])). rewrite <- app_assoc. cbn [app]. rewrite <- Hp. exact (Hbs He). }
    apply rep_spec_run; [exact Hrun|].
    unfold items_of_nodes. cbn [flat_map]. fold (items_of_nodes more).
    apply scan_dollar_sound in E; [|exact Hbs1].
    destruct E as [(it & Hf & Hit)|(Hno & -> & ->)].
    + rewrite Hit. cbn [app]. eapply RS_form; [exact Hf|]. apply IH; [|exact E2].
      intros He. destruct (dollar_form_suffix _ _ _ Hf) as (pre & Hpre).
      apply (no_u_escape_app pre). rewrite <- Hpre. exact (Hbs1 He).
    + cbn [items_of_node mk_one n_t n_ch Z.eqb app]. change (rg_NtOne =? rg_NtMulti) with false.
      change (rg_NtOne =? rg_NtOne) with true. cbn [app].
      apply RS_literal; [exact Hno|]. apply IH; [exact Hbs1|exact E2].
Qed.

End RepSound.

(** * NewReplacerData: the summary                                                              *)

Section Summary.
Variable is_word_char : Z -> bool.
Variable is_ecma_start : Z -> bool.
Variable is_ecma_char : Z -> bool.
Variable env : penv.
Variable n : Z.
Hypothesis Henv : env_ok env n.

Notation new_replacer_data := (Replace.new_replacer_data is_word_char is_ecma_start is_ecma_char env).
Notation rep_spec := (rep_spec is_word_char is_ecma_start is_ecma_char env).

(* Every accepted replacement yields rules that only name existing strings and slots; read back as
   tokens they are the compiled items of a parse according to the grammar. *)
Lemma new_replacer_data_spec (rep : list Z) (d : rdata) :
  new_replacer_data rep = Ok d ->
  data_ok d n /\
  exists toks, toks_of d = Some toks /\
    ((use_e env = true -> no_u_escape rep) ->
     exists items, rep_spec rep items /\ toks = compile_items env items []).
Proof.
  unfold Replace.new_replacer_data, scan_replacement.
  pose proof (scan_replacement_go_out is_word_char is_ecma_start is_ecma_char env _ rep (Nat.lt_succ_diag_r _)) as Ho.
  destruct (scan_replacement_go is_word_char is_ecma_start is_ecma_char env (S (length rep)) rep) as [children| | |] eqn:E;
    try discriminate.
  cbn [bind rep_out] in *. rewrite Z.eqb_refl. cbn [negb]. intros H.
  destruct (build_rules_spec env n Henv children [] [] [] []) as (d' & Hd1 & Hd2 & Hd3).
  - eapply Forall_impl; [|exact Ho]. apply (parsed_node_wf env n Henv).
  - reflexivity.
  - constructor.
  - rewrite Hd1 in H. inversion H; subst d'. split; [exact Hd3|].
    eexists. split; [exact Hd2|]. intros Hbs. exists (items_of_nodes children). split; [|reflexivity].
    eapply scan_replacement_go_sound; [exact Hbs|exact E].
Qed.

End Summary.


(* "$&" compiles to the single rule -5 (group 0) under every capture numbering *)
Lemma parse_amp (is_word_char is_ecma_start is_ecma_char : Z -> bool) (env : penv) (n : Z) :
  env_ok env n ->
  Replace.new_replacer_data is_word_char is_ecma_start is_ecma_char env [36; 38] = Ok amp_data.
Proof.
  intros (Hn & Hcaps & _). unfold Replace.new_replacer_data, scan_replacement.
  cbn [length scan_replacement_go span_dollar Z.eqb Pos.eqb add_to_concatenate].
  cbn. unfold caps_nonempty, caps_lookup.
  destruct (pe_caps env) as [l|].
  - destruct Hcaps as (_ & H0). destruct l as [|kv l]; [discriminate|]. rewrite H0. reflexivity.
  - reflexivity.
Qed.

(** * The replacement cache is transparent                                                      *)

Section Cache.
Variable is_word_char : Z -> bool.
Variable is_ecma_start : Z -> bool.
Variable is_ecma_char : Z -> bool.
Variable env : penv.

Notation new_replacer_data := (Replace.new_replacer_data is_word_char is_ecma_start is_ecma_char env).
Notation get_replacer_data := (Replace.get_replacer_data is_word_char is_ecma_start is_ecma_char env).

(* every cached entry is the parse of its key *)
Definition cache_coherent (c : cache) : Prop :=
  Forall (fun kd => new_replacer_data (fst kd) = Ok (snd kd)) c.

Lemma cache_remove_coherent (key : list Z) (c : cache) : cache_coherent c -> cache_coherent (cache_remove key c).
Proof.
  unfold cache_coherent. induction c as [|[k d] c IH]; intros H; [constructor|].
  inversion H; subst. cbn [cache_remove]. destruct (zlist_eqb key k); [assumption|].
  constructor; [assumption|apply IH; assumption].
Qed.

Lemma removelast_coherent (c : cache) : cache_coherent c -> cache_coherent (removelast c).
Proof.
  unfold cache_coherent. induction c as [|kd c IH]; intros H; [constructor|].
  inversion H; subst. cbn [removelast]. destruct c; [constructor|].
  constructor; [assumption|apply IH; assumption].
Qed.

Lemma cache_lookup_coherent (key : list Z) (c : cache) (d : rdata) :
  cache_coherent c -> name_assoc key c = Some d -> new_replacer_data key = Ok d.
Proof.
  intros Hc Ha. apply name_assoc_In in Ha. unfold cache_coherent in Hc. rewrite Forall_forall in Hc.
  apply (Hc _ Ha).
Qed.

Lemma get_replacer_data_transparent (should_cache : bool) (max_size : Z) (rep : list Z) (c : cache) :
  cache_coherent c ->
  fst (get_replacer_data should_cache max_size rep c) = new_replacer_data rep /\
  cache_coherent (snd (get_replacer_data should_cache max_size rep c)).
Proof.
  intros Hc. unfold Replace.get_replacer_data.
  destruct should_cache.
  - unfold cache_get. destruct (name_assoc rep c) as [d|] eqn:Ea.
    + pose proof (cache_lookup_coherent _ _ _ Hc Ea) as Hd. cbn [fst snd]. split; [symmetry; exact Hd|].
      constructor; [exact Hd|apply cache_remove_coherent; exact Hc].
    + destruct (new_replacer_data rep) as [d| | |] eqn:En; cbn [fst snd]; try (split; [reflexivity|exact Hc]).
      split; [reflexivity|]. unfold cache_add. rewrite Ea.
      assert (cache_coherent ((rep, d) :: c)) as Hc' by (constructor; [exact En|exact Hc]).
      destruct ((0 <? max_size) && (max_size <? zlen ((rep, d) :: c))); [apply removelast_coherent|]; exact Hc'.
  - destruct (new_replacer_data rep) as [d| | |]; cbn [fst snd]; split; try reflexivity; exact Hc.
Qed.

End Cache.

(** * End to end: Replace(input, replacement, startAt, count)                                   *)

Definition start_ok (tw : list (Z * Z)) (startAt : Z) : Prop :=
  startAt <= byte_len tw /\ (0 <= startAt -> is_boundary tw startAt).

Section EndToEnd.
Variable is_word_char : Z -> bool.
Variable is_ecma_start : Z -> bool.
Variable is_ecma_char : Z -> bool.
Variable env : penv.
Variable n : Z.
Hypothesis Henv : env_ok env n.

Notation new_replacer_data := (Replace.new_replacer_data is_word_char is_ecma_start is_ecma_char env).
Notation replace_string := (Replace.replace_string is_word_char is_ecma_start is_ecma_char env).

Lemma replace_string_fold (rtl : bool) (rep : list Z) (d : rdata) (tw : list (Z * Z)) (startAt count : Z) (ms : list mtch) :
  -1 <= count -> start_ok tw startAt ->
  wf_matches rtl (runes_of tw) ms -> Forall (fun m => group_count m = n) ms ->
  new_replacer_data rep = Ok d ->
  exists toks, toks_of d = Some toks /\
               replace_string rtl rep tw startAt count ms = Ok (replace_spec rtl ms toks count (runes_of tw)).
Proof.
  intros Hc (Hs1 & Hs2) Hwf Hn Hd.
  destruct (new_replacer_data_spec _ _ _ env n Henv rep d Hd) as (Hok & toks & Ht & _).
  exists toks. split; [exact Ht|]. unfold Replace.replace_string. rewrite Hd. cbn [bind].
  apply replace_data_fold; try assumption; [apply check_start_ok; assumption|eapply data_ok_each; eassumption].
Qed.

Lemma replace_string_error (rtl : bool) (rep : list Z) (c : Z) (tw : list (Z * Z)) (startAt count : Z) (ms : list mtch) :
  new_replacer_data rep = Err c -> replace_string rtl rep tw startAt count ms = Err c.
Proof. intros H. unfold Replace.replace_string. rewrite H. reflexivity. Qed.

Lemma replace_string_amp (rtl : bool) (tw : list (Z * Z)) (startAt count : Z) (ms : list mtch) :
  -1 <= count -> start_ok tw startAt ->
  wf_matches rtl (runes_of tw) ms -> Forall group0_ok ms ->
  replace_string rtl [36; 38] tw startAt count ms = Ok (runes_of tw).
Proof.
  intros Hc (Hs1 & Hs2) Hwf Hg. unfold Replace.replace_string.
  rewrite (parse_amp _ _ _ env n Henv). cbn [bind].
  apply replace_amp_identity; try assumption. apply check_start_ok; assumption.
Qed.

End EndToEnd.

(* the pre-fix loops on the defect witnesses *)
Definition w_a1b2 : list (Z * Z) := [(97, 1); (49, 1); (98, 1); (50, 1)].          (* "a1b2" *)
Definition w_rtl_ms : list mtch := [mkM 3 1 [[(3, 1)]]; mkM 1 1 [[(1, 1)]]].       (* \d, RightToLeft *)
Definition w_angle : rdata := mkRD [[60]; [62]] [0; -5; 1].                         (* "<$&>" *)


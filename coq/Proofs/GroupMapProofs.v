(* [parse] (Model/GroupMap.v) taken apart into its two passes, and the lookups packaged, over GMBase /
   GMLookups / GMPrescan / GMAgree / GMRule; Properties/C17.v and C18.v state the results. *)
From Verif Require Import Base.Prelude Model.GroupMap Proofs.GMBase Proofs.OptionsProofs.
From Verif Require Export Proofs.GMLookups Proofs.GMPrescan Proofs.GMAgree Proofs.GMRule.

(* the mode [parse] derives from its arguments (parser.go:162) *)
Definition mode_ecma (o : Z) : bool := has o opt_e.
Definition mode_mco (mco_flag : bool) (o : Z) : bool := mco_flag || has o opt_e || has o opt_re2.

Lemma mode_ecma_mco : forall f o, mode_ecma o = true -> mode_mco f o = true.
Proof. intros f o H. unfold mode_mco, mode_ecma in *. rewrite H. now destruct f. Qed.

Lemma parse_inv : forall f o ts t mks its,
  parse f o ts = Ok (t, mks, its) ->
  prescan (mode_mco f o) (mode_ecma o) o ts = Ok (t, mks)
  /\ main_pass (mode_mco f o) (mode_ecma o) t o ts = Ok its.
Proof.
  intros f o ts t mks its H. unfold parse in H. cbv zeta in H.
  change (has o opt_e) with (mode_ecma o) in H.
  change (f || mode_ecma o || has o opt_re2) with (mode_mco f o) in H.
  destruct (prescan (mode_mco f o) (mode_ecma o) o ts) as [[t' mks']| | |]; try discriminate. cbn [bind] in H.
  destruct (main_pass (mode_mco f o) (mode_ecma o) t' o ts) as [its'| | |] eqn:E; try discriminate. cbn [bind] in H.
  injection H as <- <- <-. auto.
Qed.

Lemma main_pass_inv : forall mco ecma t o ts its, main_pass mco ecma t o ts = Ok its ->
  exists st, mrun mco ecma t (m_init o) ts = Ok (st, its) /\ m_gstack st = [].
Proof.
  intros mco ecma t o ts its H. unfold main_pass in H.
  destruct (mrun mco ecma t (m_init o) ts) as [[st its']| | |]; try discriminate. cbn [bind] in H.
  destruct (m_gstack st) eqn:E; [|discriminate]. injection H as <-. eauto.
Qed.

(* ---------- C18 on parse: a leading "(?cs)" ---------- *)

Lemma leading_same_parse : forall mco cs o ts,
  cs <> [] ->
  has (scan_options false cs o) opt_e = has o opt_e ->
  has (scan_options false cs o) opt_re2 = has o opt_re2 ->
  parse mco o (TOptSet cs :: ts) =
  match parse mco (scan_options false cs o) ts with
  | Ok (t, mks, its) => Ok (t, PNone :: mks, INone :: its)
  | Err c => Err c
  | Crash w => Crash w
  | Fuel => Fuel
  end.
Proof.
  intros mco cs o ts Hne He Hr. unfold parse. rewrite He, Hr.
  set (ecma := has o opt_e). set (m := mco || ecma || has o opt_re2). set (o2 := scan_options false cs o).
  assert (Hp : prun m ecma (p_init o) (TOptSet cs :: ts) =
               match prun m ecma (p_init o2) ts with
               | Ok (st, mks) => Ok (st, PNone :: mks) | Err c => Err c | Crash w => Crash w | Fuel => Fuel end).
  { cbn [prun]. unfold pstep at 1. cbn. fold o2. change (mkP (mkO o2 [] false) false c_init) with (p_init o2).
    destruct (prun m ecma (p_init o2) ts) as [[st mks]| | |]; reflexivity. }
  assert (Hm : forall t, mrun m ecma t (m_init o) (TOptSet cs :: ts) =
               match mrun m ecma t (m_init o2) ts with
               | Ok (st, its) => Ok (st, INone :: its) | Err c => Err c | Crash w => Crash w | Fuel => Fuel end).
  { intros t. cbn [mrun]. unfold mstep at 1. destruct cs as [|c0 cs']; [contradiction|]. cbn. fold o2.
    change (mkM (mkO o2 [] false) false [] false 1) with (m_init o2).
    destruct (mrun m ecma t (m_init o2) ts) as [[st its]| | |]; reflexivity. }
  unfold prescan. rewrite Hp.
  destruct (prun m ecma (p_init o2) ts) as [[st mks]| | |]; try reflexivity. cbn [bind].
  destruct (if m then assign_ordered ecma (p_c st) else assign_default (p_c st)) as [t| | |]; try reflexivity. cbn [bind].
  unfold main_pass. rewrite Hm.
  destruct (mrun m ecma t (m_init o2) ts) as [[st' its]| | |]; try reflexivity. cbn [bind].
  destruct (m_gstack st'); reflexivity.
Qed.

(* ---------- C17: the lookups, packaged ---------- *)

(* number -> slot is a monotone bijection from the group numbers onto [0, capsize) *)
Theorem dense_map_bijective : forall t, wf_caps t ->
  let r := compile_maps t in
  (forall k i, group_by_number r k = Some i -> In k (t_caps t) /\ 0 <= i < r_capsize r)
  /\ (forall k, In k (t_caps t) -> exists i, group_by_number r k = Some i)
  /\ (forall i, 0 <= i < r_capsize r -> exists k, In k (t_caps t) /\ group_by_number r k = Some i)
  /\ (forall k1 k2 i1 i2, group_by_number r k1 = Some i1 -> group_by_number r k2 = Some i2 -> k1 < k2 -> i1 < i2)
  /\ get_group_numbers r = Ok (t_caps t).
Proof.
  intros t WF r.
  assert (Hin : forall k i, group_by_number r k = Some i -> In k (t_caps t)).
  { intros k i H. destruct (in_dec Z.eq_dec k (t_caps t)) as [Hi|Hn]; [assumption|].
    unfold r in H. rewrite (group_by_number_absent t WF k Hn) in H. discriminate. }
  split; [|split; [|split; [|split]]].
  - intros k i H. split; [eauto|]. eapply group_by_number_range; eauto.
  - intros k Hk. destruct (In_nth_error _ _ Hk) as [i Hi]. eexists. apply (group_by_number_spec t WF i k Hi).
  - intros i Hi. unfold r in Hi. rewrite (capsize_len t WF) in Hi. unfold zlen in Hi.
    destruct (nth_error (t_caps t) (Z.to_nat i)) as [k|] eqn:E; [|apply nth_error_None in E; lia].
    exists k. split; [eapply nth_error_In; eauto|].
    unfold r. rewrite (group_by_number_spec t WF _ k E). f_equal. lia.
  - intros k1 k2 i1 i2 H1 H2 Hlt.
    destruct (In_nth_error _ _ (Hin _ _ H1)) as [j1 Hj1]. destruct (In_nth_error _ _ (Hin _ _ H2)) as [j2 Hj2].
    unfold r in H1, H2.
    rewrite (group_by_number_spec t WF j1 k1 Hj1) in H1. rewrite (group_by_number_spec t WF j2 k2 Hj2) in H2.
    injection H1 as <-. injection H2 as <-.
    destruct (Nat.lt_ge_cases j1 j2) as [Hj|Hj]; [lia|]. exfalso.
    destruct (Nat.eq_dec j1 j2) as [->|Hne]; [rewrite Hj1 in Hj2; injection Hj2 as ->; lia|].
    pose proof (ssorted_nth_lt (t_caps t) j2 j1 k2 k1 (wc_sorted _ WF) Hj2 Hj1 ltac:(lia)). lia.
  - apply (get_group_numbers_spec t WF).
Qed.

(* all lookups designate the same group *)
Theorem maps_consistent : forall ecma t, wf_tree ecma t ->
  let r := compile_maps t in
  let nums := t_caps t in
  let names := get_group_names r in
  length names = length nums
  /\ (forall i k, nth_error nums i = Some k -> group_name_from_number r k = nth i names [])
  /\ (forall k, In k nums -> let s := group_name_from_number r k in
                              (ecma = true /\ s = []) \/ (s <> [] /\ group_number_from_name r s = k))
  /\ (forall s, In s names -> s <> [] ->
        In (group_number_from_name r s) nums /\ group_name_from_number r (group_number_from_name r s) = s)
  /\ (forall s, group_by_name r s =
                if group_number_from_name r s <? 0 then None else group_by_number r (group_number_from_name r s))
  /\ (forall i k s, nth_error nums i = Some k -> nth_error names i = Some s -> s <> [] ->
        group_by_name r s = Some (Z.of_nat i) /\ group_by_number r k = Some (Z.of_nat i))
  /\ groups_names ecma r = names
  /\ (ecma = false -> forall s, In s names -> s <> []).
Proof.
  intros ecma t WF r nums names.
  pose proof (wf_tree_caps ecma t WF) as WC.
  pose proof (wf_weak_shape ecma t (wf_tree_weak ecma t WF)) as WS.
  split; [apply (names_length ecma t WC WS)|].
  split; [apply (name_from_number_spec ecma t WC WS)|].
  split; [apply (number_name_number ecma t WF)|].
  split; [apply (name_number_name ecma t WF)|].
  split; [apply (group_by_name_spec t)|].
  split; [apply (group_by_name_listed ecma t WF)|].
  split; [apply (groups_names_spec ecma t WC WS)|].
  apply (names_nonempty ecma t WS).
Qed.

(* the part of [maps_consistent] that needs no guard (weak well-formedness): everything except the
   name <-> number round trips and GroupByName of a listed name; of those only this remains: the name
   listed for a group is a name GroupNumberFromName knows, and it leads to a group — to THIS group,
   unless the name is this group's numeral (an unnamed group) which is also the name of another group *)
Theorem maps_consistent_weak : forall ecma t, wf_weak ecma t -> vals_ok t ->
  let r := compile_maps t in
  let nums := t_caps t in
  let names := get_group_names r in
  length names = length nums
  /\ (forall i k, nth_error nums i = Some k -> group_name_from_number r k = nth i names [])
  /\ (forall i k s, nth_error nums i = Some k -> nth_error names i = Some s ->
        (ecma = true /\ s = [])
        \/ (s <> [] /\ In (group_number_from_name r s) nums
                    /\ (group_number_from_name r s = k \/ s = itoa k)))
  /\ (forall s, group_by_name r s =
                if group_number_from_name r s <? 0 then None else group_by_number r (group_number_from_name r s))
  /\ groups_names ecma r = names
  /\ (ecma = false -> forall s, In s names -> s <> []).
Proof.
  intros ecma t WW HV r nums names.
  pose proof (ww_caps _ _ WW) as WC.
  pose proof (wf_weak_shape ecma t WW) as WS.
  split; [apply (names_length ecma t WC WS)|].
  split; [apply (name_from_number_spec ecma t WC WS)|].
  split.
  { intros i k s Hk Hs. unfold names, get_group_names in Hs. unfold group_number_from_name.
    destruct (r_names t) as [Hm Hl]. fold r in Hm, Hl. rewrite Hm. rewrite Hl in Hs.
    pose proof (ww_names _ _ WW) as W. unfold vals_ok in HV.
    destruct (t_caplist t) as [l|] eqn:El; destruct (t_capnames t) as [m|] eqn:Em; try contradiction.
    - destruct W as [F _].
      pose proof (Forall2_nth _ _ _ _ _ _ F Hs Hk) as Hent.
      destruct Hent as [He|[Hne [v [Hv Hor]]]]; [now left|right].
      split; [assumption|]. rewrite Hv. split; [eapply HV; eauto|assumption].
    - right. destruct W as [Hnone _].
      destruct (maps_shape t WC) as [[_ [Hc [Hsz Hz]]]|[Hsome _]]; [|congruence]. fold r in Hc, Hsz.
      assert (Hi : (i < length nums)%nat) by (apply nth_error_Some; congruence).
      unfold nums in *. rewrite Hz in Hk, Hi. rewrite zrange_length in Hi. rewrite zrange_nth in Hk by assumption. injection Hk as <-.
      rewrite nth_error_map in Hs. rewrite Hsz in Hs. rewrite zrange_nth in Hs by assumption. cbn in Hs. injection Hs as <-.
      assert (Hne : itoa (Z.of_nat i) <> []) by (apply itoa_nonempty; lia).
      split; [assumption|].
      assert (Hpd : parse_decimal (r_capsize r) (itoa (Z.of_nat i)) 0 = Z.of_nat i) by (rewrite Hsz; apply parse_decimal_itoa; lia).
      destruct (itoa (Z.of_nat i)) eqn:E; [contradiction|]. rewrite Hpd.
      split; [rewrite Hz; apply zrange_In; lia|now left]. }
  split; [apply (group_by_name_spec t)|].
  split; [apply (groups_names_spec ecma t WC WS)|].
  apply (names_nonempty ecma t WS).
Qed.


(* references: "$n" / "${n}" and "${name}" in a replacement, and the nodes the main pass creates
   for groups, "\n", "\k<name>", "(?(n)..." — all go through the same number -> slot map *)
Theorem refs_use_same_map : forall t, wf_caps t -> vals_ok t ->
  let r := compile_maps t in
  (forall n, dollar_num r n = group_by_number r n)
  /\ (forall s, dollar_name r s = match r_capnames r with Some _ => group_by_name r s | None => None end)
  /\ (forall k i, group_by_number r k = Some i -> map_capnum r k = i).
Proof.
  intros t WF HV r.
  assert (Hnn : forall k, In k (t_caps t) -> 0 <= k) by (apply (caps_nonneg t WF)).
  destruct (r_names t) as [Hrn _]. fold r in Hrn.
  assert (Hnum : forall n, dollar_num r n = group_by_number r n).
  { intros n. unfold dollar_num, is_slot_re, to_slot, group_by_number.
    destruct (maps_shape t WF) as [[_ [Hc [Hs Hz]]]|[_ [Hc Hs]]]; fold r in Hc, Hs; rewrite Hc.
    - rewrite Hs. destruct (0 <=? n) eqn:E1; destruct (n <? t_captop t) eqn:E2; cbn [andb];
        destruct (t_captop t <=? n) eqn:E3; destruct (n <? 0) eqn:E4; cbn [orb]; try reflexivity;
        apply Z.leb_le in E3 || apply Z.leb_gt in E3; apply Z.ltb_lt in E4 || apply Z.ltb_ge in E4;
        apply Z.leb_le in E1 || apply Z.leb_gt in E1; apply Z.ltb_lt in E2 || apply Z.ltb_ge in E2; lia.
    - set (m := combine (t_caps t) (zrange (zlen (t_caps t)))) in *.
      destruct (zget n m) as [v|] eqn:Eg; [|reflexivity].
      assert (Hin : In n (t_caps t)) by (eapply zget_combine_some_in; exact Eg).
      specialize (Hnn n Hin).
      destruct (In_nth_error _ _ Hin) as [i Hi].
      pose proof (group_by_number_spec t WF i n Hi) as Hb. fold r in Hb.
      unfold group_by_number in Hb. rewrite Hc, Eg in Hb.
      destruct ((r_capsize r <=? v) || (v <? 0)) eqn:Ec; [discriminate|].
      destruct m as [|p m']; [discriminate Eg|].
      destruct (0 <=? n) eqn:E1; [|apply Z.leb_gt in E1; lia].
      reflexivity. }
  split; [exact Hnum|]. split.
  - intros s. unfold dollar_name. rewrite Hrn. unfold vals_ok in HV.
    destruct (t_capnames t) as [m|] eqn:Em; [|reflexivity].
    unfold group_by_name, group_number_from_name. rewrite Hrn.
    destruct (aget s m) as [k|] eqn:Eg; [|reflexivity].
    specialize (HV s k Eg). specialize (Hnn k HV).
    destruct (k <? 0) eqn:E; [apply Z.ltb_lt in E; lia|].
    rewrite <- Hnum. unfold dollar_num.
    destruct (In_nth_error _ _ HV) as [i Hi].
    pose proof (group_by_number_spec t WF i k Hi) as Hb. fold r in Hb. rewrite <- Hnum in Hb.
    unfold dollar_num in Hb. destruct (is_slot_re r k); [reflexivity|discriminate Hb].
  - intros k i H. unfold map_capnum.
    assert (Hin : In k (t_caps t)).
    { destruct (in_dec Z.eq_dec k (t_caps t)) as [Hi|Hn]; [assumption|].
      unfold r in H. rewrite (group_by_number_absent t WF k Hn) in H. discriminate. }
    specialize (Hnn k Hin). destruct (k =? -1) eqn:E; [apply Z.eqb_eq in E; lia|].
    unfold group_by_number in H.
    destruct (r_caps r) as [m|].
    + destruct (zget k m) as [v|]; [|discriminate].
      destruct ((r_capsize r <=? v) || (v <? 0)); [discriminate|]. now injection H as ->.
    + destruct ((r_capsize r <=? k) || (k <? 0)); [discriminate|]. now injection H as ->.
Qed.

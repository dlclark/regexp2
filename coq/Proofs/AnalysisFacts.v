(* C04, part 4: the leading-positive-lookahead wrapper (optimizations.go:344-361), the published record
   [Analysis.facts] as a whole, and the legacy facts getAnchors / getPrefix. *)
From Coq Require Import ZifyBool.
From Verif Require Import Base.Prelude Base.Utf8 Model.Tree Model.Spec Model.Analysis
     Proofs.SpecProofs Proofs.MaskProofs Proofs.AnalysisReach Proofs.AnalysisProofs Proofs.AnalysisPrefix.

Section Facts.
Variable e : env.

(* findLeadingPositiveLookahead: the lookahead it returns is evaluated at the attempt position *)

Definition look_found (t : node) : Prop :=
  forall c, fst (lead_pos_look t) = Some c ->
  forall s y, Reach e t s y -> caps_nonneg (caps s) ->
  exists s1 y1, pos s1 = pos s /\ caps_nonneg (caps s1) /\ Reach e c s1 y1.

Definition look_keep (t : node) : Prop :=
  snd (lead_pos_look t) = true ->
  fst (lead_pos_look t) = None /\ forall s y, Reach e t s y -> pos y = pos s.

Lemma an_look_first_seq : forall l,
  Forall (fun t => look_found t /\ look_keep t) l ->
  (forall c, fst (look_first (map lead_pos_look l)) = Some c ->
   forall s y, ReachSeq e l s y -> caps_nonneg (caps s) ->
   exists s1 y1, pos s1 = pos s /\ caps_nonneg (caps s1) /\ Reach e c s1 y1) /\
  (snd (look_first (map lead_pos_look l)) = true ->
   fst (look_first (map lead_pos_look l)) = None /\ forall s y, ReachSeq e l s y -> pos y = pos s).
Proof.
  induction 1 as [|x l [Hfx Hkx] Hl [IHf IHk]]; cbn [map look_first].
  - split; [intros c Hc; discriminate Hc|]. intros _. split; [reflexivity|].
    intros s y Hr. apply an_reachseq_nil_inv in Hr. subst. reflexivity.
  - unfold look_found, look_keep in Hfx, Hkx.
    destruct (lead_pos_look x) as [la keep] eqn:Ex. cbn [fst snd] in *.
    destruct la as [c0|].
    + split; [|intros Hd; discriminate Hd].
      intros c Hc s y Hr Hcn. cbn [fst] in Hc. apply an_reachseq_cons_inv in Hr. destruct Hr as [s1 [Hx _]].
      exact (Hfx c Hc s s1 Hx Hcn).
    + destruct keep; [|split; [intros c Hc; discriminate Hc|intros Hd; discriminate Hd]].
      destruct (Hkx eq_refl) as [_ Hzw].
      split.
      * intros c Hc s y Hr Hcn. apply an_reachseq_cons_inv in Hr. destruct Hr as [s1 [Hx Hrest]].
        pose proof (an_reach_caps e _ _ _ Hx Hcn) as Hcn1.
        destruct (IHf c Hc s1 y Hrest Hcn1) as [s2 [y2 [Hp [Hc2 Hr2]]]].
        exists s2, y2. split; [rewrite Hp; apply Hzw; exact Hx|]. split; assumption.
      * intros Hk. destruct (IHk Hk) as [Hnone Hz]. split; [exact Hnone|].
        intros s y Hr. apply an_reachseq_cons_inv in Hr. destruct Hr as [s1 [Hx Hrest]].
        rewrite (Hz _ _ Hrest). apply Hzw. exact Hx.
Qed.

Lemma an_lead_pos_look_all : forall t, look_found t /\ look_keep t.
Proof.
  induction t using node_ind'; unfold look_found, look_keep; cbn [lead_pos_look fst snd];
    try (split; [intros c0 Hc; discriminate Hc|intros Hd; discriminate Hd]).
  - (* NAnchor *)
    split; [intros c0 Hc; discriminate Hc|]. intros _. split; [reflexivity|].
    intros s0 y Hr. apply an_reach_anchor_inv in Hr. destruct Hr as [-> _]. reflexivity.
  - (* NEmpty *)
    split; [intros c0 Hc; discriminate Hc|]. intros _. split; [reflexivity|].
    intros s0 y Hr. inversion Hr; subst. reflexivity.
  - (* NConcat *)
    destruct (is_rtl o); [split; [intros c0 Hc; discriminate Hc|intros Hd; discriminate Hd]|].
    destruct (an_look_first_seq l H) as [Hf Hk]. split.
    + intros c0 Hc s0 y Hr Hcn. apply an_reach_concat_inv in Hr. exact (Hf c0 Hc s0 y Hr Hcn).
    + intros Hd. destruct (Hk Hd) as [Hnone Hz]. split; [exact Hnone|].
      intros s0 y Hr. apply an_reach_concat_inv in Hr. exact (Hz _ _ Hr).
  - (* NLoop *)
    destruct IHt as [Hf _]. unfold look_found in Hf.
    destruct (is_rtl o); [split; [intros c0 Hc; discriminate Hc|intros Hd; discriminate Hd]|].
    destruct (m <? 1) eqn:Em; [split; [intros c0 Hc; discriminate Hc|intros Hd; discriminate Hd]|].
    cbn [fst snd]. split; [|intros Hd; discriminate Hd].
    intros c0 Hc s0 y Hr Hcn. destruct (an_reach_loop_inv e _ _ _ _ _ _ _ Hr ltac:(lia)) as [s1 [Hr1 _]].
    exact (Hf c0 Hc s0 s1 Hr1 Hcn).
  - (* NCapture *)
    destruct IHt as [Hf Hk]. unfold look_found, look_keep in Hf, Hk.
    destruct (is_rtl o); [split; [intros c0 Hc; discriminate Hc|intros Hd; discriminate Hd]|].
    split.
    + intros c0 Hc s0 y Hr Hcn. apply an_reach_capture_inv in Hr. destruct Hr as [s1 [Hr1 _]].
      exact (Hf c0 Hc s0 s1 Hr1 Hcn).
    + intros Hd. destruct (Hk Hd) as [Hnone Hz]. split; [exact Hnone|].
      intros s0 y Hr. apply an_reach_capture_inv in Hr. destruct Hr as [s1 [Hr1 Hp]].
      rewrite Hp. apply Hz. exact Hr1.
  - (* NPosLook *)
    destruct (is_rtl o); [split; [intros c0 Hc; discriminate Hc|intros Hd; discriminate Hd]|].
    cbn [fst snd]. split; [|intros Hd; discriminate Hd].
    intros c0 Hc s0 y Hr Hcn. injection Hc as <-.
    apply an_reach_poslook_inv in Hr. destruct Hr as [s1 [Hr1 _]].
    exists s0, s1. split; [reflexivity|]. split; assumption.
  - (* NNegLook *)
    destruct (is_rtl o); [split; [intros c0 Hc; discriminate Hc|intros Hd; discriminate Hd]|].
    cbn [fst snd]. split; [intros c0 Hc; discriminate Hc|]. intros _. split; [reflexivity|].
    intros s0 y Hr. inversion Hr; subst. reflexivity.
  - (* NAtomic *)
    destruct IHt as [Hf Hk]. unfold look_found, look_keep in Hf, Hk. split.
    + intros c0 Hc s0 y Hr Hcn. apply an_reach_atomic_inv in Hr. exact (Hf c0 Hc s0 y Hr Hcn).
    + intros Hd. destruct (Hk Hd) as [Hnone Hz]. split; [exact Hnone|].
      intros s0 y Hr. apply an_reach_atomic_inv in Hr. exact (Hz _ _ Hr).
Qed.

(* the lookahead found at the head of the pattern matches at the attempt position *)
Lemma an_attempt_look fuel root p s' c :
  fst (lead_pos_look root) = Some c -> attempt e fuel root p = Ok (Some s') ->
  exists s1 y1, pos s1 = p /\ caps_nonneg (caps s1) /\ Reach e c s1 y1.
Proof.
  intros Hc Ha. pose proof (attempt_reach e _ _ _ _ Ha) as Hr.
  destruct (proj1 (an_lead_pos_look_all root) c Hc _ _ Hr an_caps_nonneg_nil) as [s1 [y1 [Hp [Hcn Hr1]]]].
  exists s1, y1. split; [exact Hp|]. split; assumption.
Qed.

Lemma an_anchor_of_code_code a : anchor_of_code (anchor_code a) = Some a.
Proof. destruct a; reflexivity. Qed.

Lemma an_oanchor_code_inv la a : anchor_of_code (oanchor_code la) = Some a -> la = Some a.
Proof.
  destruct la as [x|]; cbn [oanchor_code]; [rewrite an_anchor_of_code_code; exact (fun H => H)|].
  intros H. discriminate H.
Qed.

(* the record facts_for_node builds, whichever rung of its ladder it stops at *)
Lemma an_ffn_view rtl partial t :
  let f := facts_for_node rtl partial t in
  f_min f = min_len t /\
  (f_max f = -1 \/ f_max f = max_len t) /\
  f_lead f = oanchor_code (match lead_anchor true t with
                           | Some ABol => if rtl then None else lead_anchor true t
                           | _ => lead_anchor true t
                           end) /\
  (f_trail f = 0 \/ partial = false /\ f_trail f = oanchor_code (lead_anchor false t)) /\
  (f_prefix f = [] \/ f_prefix f = find_prefix t).
Proof.
  unfold facts_for_node. cbv zeta.
  set (ta := if negb rtl && negb partial then oanchor_code (lead_anchor false t) else 0).
  assert (Hta : ta = 0 \/ partial = false /\ ta = oanchor_code (lead_anchor false t)).
  { subst ta. destruct rtl, partial; cbn [negb andb]; auto. }
  destruct (negb (_ =? 0)); [cbn [f_min f_max f_lead f_trail f_prefix]; auto 6|].
  destruct ((ta =? 21) || (ta =? 20)); cbn [andb].
  - destruct (min_len t =? max_len t); [|destruct (1 <? zlen (find_prefix t))];
      cbn [f_min f_max f_lead f_trail f_prefix]; auto 6.
  - destruct (1 <? zlen (find_prefix t)); cbn [f_min f_max f_lead f_trail f_prefix]; auto 6.
Qed.

Lemma an_ffn_min rtl partial t : f_min (facts_for_node rtl partial t) = min_len t.
Proof. apply an_ffn_view. Qed.

Lemma an_ffn_max rtl partial t :
  f_max (facts_for_node rtl partial t) = -1 \/ f_max (facts_for_node rtl partial t) = max_len t.
Proof. apply an_ffn_view. Qed.

Lemma an_ffn_lead rtl partial t a :
  anchor_of_code (f_lead (facts_for_node rtl partial t)) = Some a -> lead_anchor true t = Some a.
Proof.
  destruct (an_ffn_view rtl partial t) as (_ & _ & -> & _). intros H. apply an_oanchor_code_inv in H.
  destruct (lead_anchor true t) as [[]|]; try exact H. destruct rtl; [discriminate H|exact H].
Qed.

Lemma an_ffn_trail rtl partial t a :
  anchor_of_code (f_trail (facts_for_node rtl partial t)) = Some a -> lead_anchor false t = Some a.
Proof.
  destruct (an_ffn_view rtl partial t) as (_ & _ & _ & [->|[_ ->]] & _); intros H; [discriminate H|].
  exact (an_oanchor_code_inv _ _ H).
Qed.

Lemma an_ffn_trail_partial rtl t : anchor_of_code (f_trail (facts_for_node rtl true t)) = None.
Proof. destruct (an_ffn_view rtl true t) as (_ & _ & _ & [->|[H _]] & _); [reflexivity|discriminate H]. Qed.

Lemma an_ffn_prefix rtl partial t :
  f_prefix (facts_for_node rtl partial t) = [] \/ f_prefix (facts_for_node rtl partial t) = find_prefix t.
Proof. apply an_ffn_view. Qed.

Definition bytes_from (p : Z) : list Z := encode_string (skipn (Z.to_nat p) (txt e)).

(* what the scan loop and the candidate finders assume of the record, at an attempt at p ending in s' *)
Definition facts_hold (rtl : bool) (p : Z) (s' : st) (f : facts_t) : Prop :=
  f_min f <= (if rtl then p else tlen e - p) /\
  (0 <= f_max f -> Z.abs (pos s' - p) <= f_max f) /\
  (forall a, anchor_of_code (f_lead f) = Some a -> anchor_ok e a p = true) /\
  (forall a, anchor_of_code (f_trail f) = Some a -> anchor_ok e a (pos s') = true) /\
  (rtl = false -> an_prefix (f_prefix f) (bytes_from p)).

Lemma an_bytes_from_slice p q : an_prefix (encode_string (slice e p q)) (bytes_from p).
Proof. unfold bytes_from. apply an_encode_string_prefix. apply an_slice_prefix_from. Qed.

Lemma an_ffn_hold rtl partial t s y :
  Reach e t s y -> shape_ok rtl t = true -> no_ci_lit t = true -> inb e s -> caps_nonneg (caps s) ->
  facts_hold rtl (pos s) y (facts_for_node rtl partial t).
Proof.
  intros Hr Hs Hn Hb Hcn.
  destruct (proj1 (an_shape_all e rtl) _ _ _ Hr Hs Hb Hcn) as [Hy [H0 [Hmin Hmax]]].
  unfold inb in Hb, Hy. unfold facts_hold. rewrite an_ffn_min.
  split; [unfold disp in *; destruct rtl; lia|].
  split.
  { destruct (an_ffn_max rtl partial t) as [->| ->]; [lia|]. intros Hm. specialize (Hmax Hm).
    unfold disp in *. destruct rtl; lia. }
  split.
  { intros a Ha. apply an_ffn_lead in Ha. exact (an_lead_anchor_reach e true _ _ Ha _ _ Hr). }
  split.
  { intros a Ha. apply an_ffn_trail in Ha. exact (an_lead_anchor_reach e false _ _ Ha _ _ Hr). }
  intros ->. destruct (an_ffn_prefix false partial t) as [->| ->]; [apply an_prefix_nil|].
  destruct (an_prefix_reach e _ _ _ Hr Hs Hn Hb Hcn) as [Hpre _].
  eapply an_prefix_trans; [exact Hpre|]. apply an_bytes_from_slice.
Qed.

Theorem an_facts_sound rtl later_useful fuel root p s' :
  shape_ok rtl root = true -> no_ci_lit root = true -> look_ok root = true -> 0 <= p <= tlen e ->
  attempt e fuel root p = Ok (Some s') ->
  facts_hold rtl p s' (facts rtl later_useful root).
Proof.
  intros Hs Hn Hlk Hp Ha. pose proof (attempt_reach e _ _ _ _ Ha) as Hr.
  pose proof (an_ffn_hold rtl false root _ _ Hr Hs Hn Hp an_caps_nonneg_nil) as Hf. cbn [pos] in Hf.
  unfold facts.
  destruct (negb rtl && negb (if f_mode (facts_for_node rtl false root) =? MODE_LATER
                              then later_useful || (f_lead (facts_for_node rtl false root) =? 14) else true)) eqn:Ew;
    [|exact Hf].
  unfold look_ok in Hlk.
  destruct (fst (lead_pos_look root)) as [c|] eqn:Ec; [|exact Hf].
  apply andb_true_iff in Hlk. destruct Hlk as [Hsc Hnc].
  assert (Hrtl : rtl = false) by (destruct rtl; [discriminate Ew|reflexivity]). subst rtl.
  destruct (an_attempt_look fuel root p s' c Ec Ha) as [s1 [y1 [Hp1 [Hcn1 Hr1]]]].
  assert (Hb1 : inb e s1) by (unfold inb; rewrite Hp1; exact Hp).
  pose proof (an_ffn_hold false true c _ _ Hr1 Hsc Hnc Hb1 Hcn1) as Hg. rewrite Hp1 in Hg.
  destruct Hf as [Hf1 [Hf2 [Hf3 [Hf4 Hf5]]]]. destruct Hg as [Hg1 [Hg2 [Hg3 [Hg4 Hg5]]]].
  unfold facts_hold. cbn [f_min f_max f_lead f_trail f_prefix].
  split; [lia|]. split; [exact Hf2|]. split; [exact Hg3|]. split; [|exact Hg5].
  intros a Hta. rewrite an_ffn_trail_partial in Hta. discriminate Hta.
Qed.

End Facts.

(* the legacy facts: Code.Anchors (getAnchors) and the Boyer-Moore prefix (getPrefix)          *)

Section Legacy.
Variable e : env.

Lemma an_anchor_bit_inj a b :
  anchor_findable a = true -> anchor_findable b = true -> anchor_bit a = anchor_bit b -> a = b.
Proof. destruct a, b; cbn; intros Ha Hb H; try reflexivity; try discriminate Ha; try discriminate Hb; lia. Qed.

Lemma an_anchor_bit_nz a : anchor_findable a = true -> anchor_bit a <> 0.
Proof. destruct a; cbn; intros H; try discriminate H; lia. Qed.

Lemma an_zw_skip t s y :
  match t with NEmpty | NPosLook _ _ | NNegLook _ _ => True | _ => False end -> Reach e t s y -> pos y = pos s.
Proof. destruct t; intros Hk Hr; try destruct Hk; inversion Hr; subst; reflexivity. Qed.

Definition ga_ok (t : node) : Prop :=
  match get_anchors_walk t with
  | WSkip => forall s y, Reach e t s y -> pos y = pos s
  | WDone z => forall a, anchor_findable a = true -> z = anchor_bit a ->
               forall s y, Reach e t s y -> anchor_ok e a (pos s) = true
  end.

Lemma an_ga_seq : forall l, Forall ga_ok l -> forall a, anchor_findable a = true ->
  first_done (map get_anchors_walk l) 0 = anchor_bit a ->
  forall s y, ReachSeq e l s y -> anchor_ok e a (pos s) = true.
Proof.
  induction 1 as [|x l Hx Hl IH]; intros a Hfa Hfd s y Hr; cbn [map first_done] in Hfd.
  - exfalso. apply (an_anchor_bit_nz a Hfa). symmetry. exact Hfd.
  - apply an_reachseq_cons_inv in Hr. destruct Hr as [s1 [Hr1 Hrest]].
    unfold ga_ok in Hx. destruct (get_anchors_walk x) as [z|].
    + exact (Hx a Hfa Hfd s s1 Hr1).
    + rewrite <- (Hx s s1 Hr1). exact (IH a Hfa Hfd s1 y Hrest).
Qed.

Lemma an_ga_all : forall t, ga_ok t.
Proof.
  induction t using node_ind'; unfold ga_ok; cbn [get_anchors_walk];
    try (intros a0 Hfa Hz; exfalso; apply (an_anchor_bit_nz a0 Hfa); symmetry; exact Hz);
    try (intros s0 y Hr; inversion Hr; subst; reflexivity).
  - (* NAnchor *)
    destruct (anchor_findable a) eqn:Ea.
    + intros a0 Hfa Hz s0 y Hr. apply an_anchor_bit_inj in Hz; [|assumption|assumption]. subst a0.
      apply an_reach_anchor_inv in Hr. destruct Hr as [_ Hok]. exact Hok.
    + intros a0 Hfa Hz. exfalso. apply (an_anchor_bit_nz a0 Hfa). symmetry. exact Hz.
  - (* NConcat *)
    destruct l as [|x l].
    + intros s0 y Hr. apply an_reach_concat_inv in Hr. apply an_reachseq_nil_inv in Hr. subst. reflexivity.
    + intros a0 Hfa Hz s0 y Hr. apply an_reach_concat_inv in Hr.
      exact (an_ga_seq (x :: l) H a0 Hfa Hz s0 y Hr).
  - (* NCapture *)
    intros a0 Hfa Hz s0 y Hr. apply an_reach_capture_inv in Hr. destruct Hr as [s1 [Hr1 _]].
    unfold ga_ok in IHt. destruct (get_anchors_walk t) as [z|].
    + exact (IHt a0 Hfa Hz s0 s1 Hr1).
    + exfalso. apply (an_anchor_bit_nz a0 Hfa). symmetry. exact Hz.
  - (* NAtomic *)
    intros a0 Hfa Hz s0 y Hr. apply an_reach_atomic_inv in Hr.
    unfold ga_ok in IHt. destruct (get_anchors_walk t) as [z|].
    + exact (IHt a0 Hfa Hz s0 y Hr).
    + exfalso. apply (an_anchor_bit_nz a0 Hfa). symmetry. exact Hz.
Qed.

Theorem an_get_anchors_sound fuel root p s' a :
  anchor_findable a = true -> get_anchors root = anchor_bit a ->
  attempt e fuel root p = Ok (Some s') -> anchor_ok e a p = true.
Proof.
  intros Hfa Hg Ha. pose proof (attempt_reach e _ _ _ _ Ha) as Hr.
  pose proof (an_ga_all root) as Hok. unfold ga_ok, get_anchors in *.
  destruct (get_anchors_walk root) as [z|].
  - exact (Hok a Hfa Hg _ _ Hr).
  - exfalso. apply (an_anchor_bit_nz a Hfa). symmetry. exact Hg.
Qed.

Definition txt_from (p : Z) : list Z := skipn (Z.to_nat p) (txt e).

Definition gp_ok (t : node) : Prop :=
  match get_prefix_walk t with
  | WSkip => forall s y, Reach e t s y -> pos y = pos s
  | WDone None => True
  | WDone (Some (str, ci)) =>
      ci = false -> shape_ok false t = true ->
      forall s y, Reach e t s y -> inb e s -> caps_nonneg (caps s) -> an_prefix str (txt_from (pos s))
  end.

Lemma an_gp_seq : forall l, Forall gp_ok l -> forallb (shape_ok false) l = true ->
  forall str, first_done (map get_prefix_walk l) None = Some (str, false) ->
  forall s y, ReachSeq e l s y -> inb e s -> caps_nonneg (caps s) -> an_prefix str (txt_from (pos s)).
Proof.
  induction 1 as [|x l Hx Hl IH]; intros Hs str Hfd s y Hr Hb Hcn; cbn [map first_done] in Hfd; [discriminate Hfd|].
  cbn [forallb] in Hs. apply andb_true_iff in Hs. destruct Hs as [Hsx Hsl].
  apply an_reachseq_cons_inv in Hr. destruct Hr as [s1 [Hr1 Hrest]].
  unfold gp_ok in Hx. destruct (get_prefix_walk x) as [z|].
  - subst z. exact (Hx eq_refl Hsx s s1 Hr1 Hb Hcn).
  - pose proof (Hx s s1 Hr1) as Hp. rewrite <- Hp.
    apply (IH Hsl str Hfd s1 y Hrest); [unfold inb in *; rewrite Hp; exact Hb|].
    exact (an_reach_caps e _ _ _ Hr1 Hcn).
Qed.

Lemma an_repeat_prefix (c : Z) i j : (i <= j)%nat -> an_prefix (repeat c i) (repeat c j).
Proof.
  intros Hij. replace j with (i + (j - i))%nat by lia. rewrite repeat_app.
  exists (repeat c (j - i)). reflexivity.
Qed.

Lemma an_gp_all : forall t, gp_ok t.
Proof.
  induction t using node_ind'; unfold gp_ok; cbn [get_prefix_walk]; try exact I;
    try (intros s0 y Hr; inversion Hr; subst; reflexivity).
  - (* NChar *)
    destruct k; try exact I.
    intros Hci Hs s0 y Hr Hb Hcn. cbn [shape_ok] in Hs. apply eqb_prop in Hs.
    apply an_reach_char_inv in Hr. destruct Hr as [_ Hr]. apply andb_true_iff in Hr. destruct Hr as [Hav Hch].
    unfold avail, next_char in *. rewrite Hs in *. cbn [char_test] in Hch.
    unfold inb in Hb. assert (Hc : char_at e (pos s0) = c) by lia. rewrite <- Hc.
    rewrite <- (an_slice_one e (pos s0)) by lia. apply an_slice_prefix_from.
  - (* NCharLoop *)
    destruct k; try exact I. destruct l; try exact I.
    + destruct (0 <? m) eqn:Em; [|exact I].
      intros Hci Hs s0 y Hr Hb Hcn. cbn [shape_ok] in Hs.
      apply andb_true_iff in Hs. destruct Hs as [Hs _]. apply andb_true_iff in Hs. destruct Hs as [Hs _].
      apply eqb_prop in Hs. apply an_reach_charloop_inv in Hr.
      apply an_charloop_in in Hr. destruct Hr as [j [maxn [_ [Hj _]]]].
      unfold inb in Hb.
      pose proof (an_run_slice e c o Hs maxn (pos s0) j ltac:(lia) ltac:(lia)) as Hsl.
      apply (an_prefix_trans _ (repeat c (Z.to_nat j))); [|rewrite <- Hsl; apply an_slice_prefix_from].
      apply an_repeat_prefix. unfold MAX_PREFIX_SIZE. destruct (50 <? m) eqn:E50; lia.
    + destruct (0 <? m) eqn:Em; [|exact I].
      intros Hci Hs s0 y Hr Hb Hcn. cbn [shape_ok] in Hs.
      apply andb_true_iff in Hs. destruct Hs as [Hs _]. apply andb_true_iff in Hs. destruct Hs as [Hs _].
      apply eqb_prop in Hs. apply an_reach_charloop_inv in Hr.
      apply an_charloop_in in Hr. destruct Hr as [j [maxn [_ [Hj _]]]].
      unfold inb in Hb.
      pose proof (an_run_slice e c o Hs maxn (pos s0) j ltac:(lia) ltac:(lia)) as Hsl.
      apply (an_prefix_trans _ (repeat c (Z.to_nat j))); [|rewrite <- Hsl; apply an_slice_prefix_from].
      apply an_repeat_prefix. unfold MAX_PREFIX_SIZE. destruct (50 <? m) eqn:E50; lia.
  - (* NMulti *)
    intros Hci Hs s0 y Hr Hb Hcn. cbn [shape_ok] in Hs. apply eqb_prop in Hs.
    apply an_reach_multi_inv in Hr. apply an_multi_in in Hr. destruct Hr as [_ [Hav Hm]].
    unfold avail in Hav. rewrite Hs, Hci in *. unfold inb in Hb.
    rewrite <- (an_str_match_slice e s (pos s0)) at 1 by (try assumption; lia).
    apply an_slice_prefix_from.
  - (* NAnchor *)
    destruct (anchor_findable a); [|exact I].
    intros s0 y Hr. apply an_reach_anchor_inv in Hr. destruct Hr as [-> _]. reflexivity.
  - (* NConcat *)
    destruct l as [|x l].
    + intros s0 y Hr. apply an_reach_concat_inv in Hr. apply an_reachseq_nil_inv in Hr. subst. reflexivity.
    + destruct (first_done (map get_prefix_walk (x :: l)) None) as [[str ci]|] eqn:Efd; [|exact I].
      intros Hci Hs s0 y Hr Hb Hcn. subst ci. cbn [shape_ok] in Hs. apply an_reach_concat_inv in Hr.
      exact (an_gp_seq (x :: l) H Hs str Efd s0 y Hr Hb Hcn).
  - (* NCapture *)
    unfold gp_ok in IHt. destruct (get_prefix_walk t) as [[[str ci]|]|]; try exact I.
    intros Hci Hs s0 y Hr Hb Hcn. cbn [shape_ok] in Hs.
    apply an_reach_capture_inv in Hr. destruct Hr as [s1 [Hr1 _]].
    exact (IHt Hci Hs s0 s1 Hr1 Hb Hcn).
  - (* NAtomic *)
    unfold gp_ok in IHt. destruct (get_prefix_walk t) as [[[str ci]|]|]; try exact I.
    intros Hci Hs s0 y Hr Hb Hcn. cbn [shape_ok] in Hs.
    apply an_reach_atomic_inv in Hr. exact (IHt Hci Hs s0 y Hr Hb Hcn).
Qed.

Lemma an_bm_prefix_inv t str ci :
  bm_prefix t = Some (str, ci) ->
  exists s0 k, get_prefix_walk t = WDone (Some (s0, ci)) /\ str = firstn k s0.
Proof.
  unfold bm_prefix, bm_prefix_dir. cbv zeta. remember (Z.to_nat MAX_PREFIX_SIZE) as k eqn:Ek. clear Ek.
  destruct (get_prefix_walk t) as [[[s0 ci0]|]|]; try (intros H; discriminate H).
  destruct s0 as [|c0 s0]; [intros H; discriminate H|].
  destruct (existsb (fun c => 65535 <? c) (firstn k (c0 :: s0))); [intros H; discriminate H|].
  intros H. injection H as <- <-. exists (c0 :: s0), k. split; reflexivity.
Qed.

(* left-to-right pattern, case-sensitive prefix: the text at the attempt position starts with it *)
Theorem an_bm_prefix_sound fuel root p s' str :
  bm_prefix root = Some (str, false) -> shape_ok false root = true -> 0 <= p <= tlen e ->
  attempt e fuel root p = Ok (Some s') -> an_prefix str (txt_from p).
Proof.
  intros Hbm Hs Hp Ha. pose proof (attempt_reach e _ _ _ _ Ha) as Hr.
  destruct (an_bm_prefix_inv _ _ _ Hbm) as [s0 [k [Hw ->]]].
  pose proof (an_gp_all root) as Hok. unfold gp_ok in Hok. rewrite Hw in Hok.
  eapply an_prefix_trans; [apply an_prefix_firstn|].
  exact (Hok eq_refl Hs _ _ Hr Hp an_caps_nonneg_nil).
Qed.

End Legacy.

(* More per-opcode lemmas for [ustep] (VM.step with unbounded stacks), obtained by symbolic
   evaluation of VM.step, continuing Proofs/VMUOps.v; then the "root-slot" lifting:
   every state of compile_correct is a family of states indexed by the OLDEST word of the
   backtracking stack (the slot UpdateBumpalong overwrites), [rsteps] is reachability between
   such families, and every opcode lemma is restated for families. *)
From Verif Require Import Base.Prelude Model.Tree Model.Spec Model.VM Model.Writer Gen.RunnerGen
  Proofs.VMU Proofs.VMUOps.
From Coq Require Import Relations ZifyBool.

Section Ops2.
Variable e : env.
Variable p : program.
Hypothesis tc_nonneg : 0 <= trackcount p.

Notation ustep := (VMU.ustep e p).
Notation mk := VMU.mk.

Lemma text_at_ok i : 0 <= i < tlen e -> text_at e i = Some (char_at e i).
Proof. intros H. unfold text_at. replace ((0 <=? i) && (i <? tlen e)) with true by lia. reflexivity. Qed.

Lemma ustep_anchor an pc0 t np T S C M w2 w3 :
  code_at p pc0 = Some (anchor_code an) -> code_at p (pc0 + 1) = Some w2 ->
  code_at p (Z.abs np) = Some w3 -> 0 <= t <= tlen e ->
  ustep (mk pc0 0 t (np :: T) S C M) =
  Ok (Next (if anchor_ok e an t then mk (pc0 + 1) 0 t (np :: T) S C M else bk np t T S C M)).
Proof.
  intros H0 H2 H3 Ht.
  destruct an; start H0; cbn -[brk advance text_at tlen is_boundary].
  - (* Bol *)
    unfold anchor_ok. destruct (0 <? t) eqn:E.
    + rewrite text_at_ok by lia. replace (t <=? 0) with false by lia. cbn [orb].
      destruct (char_at e (t - 1) =? 10); cbn [negb].
      * adv (pc0 + 1) H2. fin.
      * fail_to H3; fin.
    + replace (t <=? 0) with true by lia. cbn [orb]. adv (pc0 + 1) H2. fin.
  - (* Eol *)
    unfold anchor_ok. destruct (0 <? tlen e - t) eqn:E.
    + rewrite text_at_ok by lia. replace (tlen e <=? t) with false by lia. cbn [orb].
      destruct (char_at e t =? 10); cbn [negb].
      * adv (pc0 + 1) H2. fin.
      * fail_to H3; fin.
    + replace (tlen e <=? t) with true by lia. cbn [orb]. adv (pc0 + 1) H2. fin.
  - (* Boundary *)
    unfold anchor_ok, vm_boundary. destruct (is_boundary e (is_word e) t).
    + adv (pc0 + 1) H2. fin.
    + fail_to H3; fin.
  - unfold anchor_ok, vm_boundary. destruct (is_boundary e (is_word e) t); cbn [negb].
    + fail_to H3; fin.
    + adv (pc0 + 1) H2. fin.
  - (* Beginning *)
    unfold anchor_ok. destruct (0 <? t) eqn:E.
    + replace (t <=? 0) with false by lia. fail_to H3; fin.
    + replace (t <=? 0) with true by lia. adv (pc0 + 1) H2. fin.
  - (* Start *)
    unfold anchor_ok. destruct (t =? tstart e); cbn [negb].
    + adv (pc0 + 1) H2. fin.
    + fail_to H3; fin.
  - (* EndZ *)
    unfold anchor_ok. destruct (1 <? tlen e - t) eqn:E1.
    + fail_to H3; fin.
    + destruct (endz_strict e).
      * destruct (0 <? tlen e - t) eqn:E2.
        -- replace (tlen e - t <=? 0) with false by lia. fail_to H3; fin.
        -- replace (tlen e - t <=? 0) with true by lia. adv (pc0 + 1) H2. fin.
      * destruct (tlen e - t =? 1) eqn:E2.
        -- rewrite text_at_ok by lia. cbn [andb]. destruct (char_at e t =? 10); cbn [negb].
           ++ adv (pc0 + 1) H2. fin.
           ++ fail_to H3; fin.
        -- cbn [andb negb]. adv (pc0 + 1) H2. fin.
  - (* End *)
    unfold anchor_ok. destruct (0 <? tlen e - t) eqn:E.
    + replace (tlen e <=? t) with false by lia. fail_to H3; fin.
    + replace (tlen e <=? t) with true by lia. adv (pc0 + 1) H2. fin.
  - unfold anchor_ok, vm_boundary. destruct (is_boundary e (is_eword e) t).
    + adv (pc0 + 1) H2. fin.
    + fail_to H3; fin.
  - unfold anchor_ok, vm_boundary. destruct (is_boundary e (is_eword e) t); cbn [negb].
    + fail_to H3; fin.
    + adv (pc0 + 1) H2. fin.
Qed.

(* ---------- UpdateBumpalong: may overwrite the oldest word of the backtracking stack ---------- *)
Lemma ustep_bump pc0 t T r S C M w2 :
  code_at p pc0 = Some UpdateBumpalong -> code_at p (pc0 + 1) = Some w2 ->
  ustep (mk pc0 0 t (T ++ [r]) S C M) = Ok (Next (mk (pc0 + 1) 0 t (T ++ [if r <? t then t else r]) S C M)).
Proof.
  intros H0 H2. start H0. change (Z.land UpdateBumpalong 63) with 46.
  cbn -[rev advance zlen]. rewrite rev_app_distr. cbn [rev app].
  destruct (_ =? _); destruct (r <? t); try (rewrite rev_involutive); adv (pc0 + 1) H2; fin.
Qed.

(* ================= the root slot =================
   [mkr ... T ...] is the family of states whose backtracking stack is T followed by one more
   (oldest) word r.  No opcode except UpdateBumpalong looks at that word. *)

Notation usteps := (VMU.usteps e p).

Definition mkr (pc0 m t : Z) (T S C : list Z) (M : list (list Z)) : Z -> vm :=
  fun r => mk pc0 m t (T ++ [r]) S C M.
Definition bkr (np t : Z) (T S C : list Z) (M : list (list Z)) : Z -> vm :=
  mkr (Z.abs np) (if np <? 0 then Back2Bit else BackBit) t T S C M.

Definition rsteps (f g : Z -> vm) : Prop := forall r, exists r', usteps (f r) (g r').

Lemma rsteps_refl f : rsteps f f.
Proof. intros r. exists r. apply usteps_refl. Qed.
Lemma rsteps_trans f g h : rsteps f g -> rsteps g h -> rsteps f h.
Proof.
  intros H1 H2 r. destruct (H1 r) as [r1 Hr1]. destruct (H2 r1) as [r2 Hr2]. exists r2.
  eapply usteps_trans; eassumption.
Qed.
Lemma rsteps_one f g : (forall r, VMU.ustep e p (f r) = Ok (Next (g r))) -> rsteps f g.
Proof. intros H r. exists r. apply usteps_one. apply H. Qed.
Lemma rsteps_one_ex f g : (forall r, exists r', VMU.ustep e p (f r) = Ok (Next (g r'))) -> rsteps f g.
Proof. intros H r. destruct (H r) as [r' Hr]. exists r'. apply usteps_one. exact Hr. Qed.
Lemma rsteps_step f g h : rsteps f g -> rsteps g h -> rsteps f h.
Proof. apply rsteps_trans. Qed.

Lemma code_at_nonneg a w : code_at p a = Some w -> 0 <= a.
Proof. unfold code_at, znth. destruct (a <? 0) eqn:E; [discriminate|lia]. Qed.

Lemma bkr_pos a t T S C M : 0 <= a -> bkr a t T S C M = mkr a BackBit t T S C M.
Proof. intros H. unfold bkr. replace (a <? 0) with false by lia. replace (Z.abs a) with a by lia. reflexivity. Qed.
Lemma bkr_neg a t T S C M : 0 < a -> bkr (- a) t T S C M = mkr a Back2Bit t T S C M.
Proof. intros H. unfold bkr. replace (- a <? 0) with true by lia. replace (Z.abs (- a)) with a by lia. reflexivity. Qed.

(* an opcode lemma about [ustep] on mk-states, restated for root-slot families *)
Ltac lift L := intros; apply rsteps_one; intro r; unfold bkr, mkr; cbn [app]; eapply L; eassumption.

Lemma rs_lazybranch pc0 t T S C M L w2 :
  code_at p pc0 = Some Lazybranch -> code_at p (pc0 + 1) = Some L -> code_at p (pc0 + 2) = Some w2 ->
  rsteps (mkr pc0 0 t T S C M) (mkr (pc0 + 2) 0 t (pc0 :: t :: T) S C M).
Proof. lift ustep_lazybranch. Qed.

Lemma rs_lazybranch_back pc0 t x T S C M L w2 :
  code_at p pc0 = Some Lazybranch -> code_at p (pc0 + 1) = Some L -> code_at p L = Some w2 ->
  rsteps (mkr pc0 BackBit t (x :: T) S C M) (mkr L 0 x T S C M).
Proof. lift ustep_lazybranch_back. Qed.

Lemma rs_goto pc0 t T S C M L w2 :
  code_at p pc0 = Some Goto -> code_at p (pc0 + 1) = Some L -> code_at p L = Some w2 ->
  rsteps (mkr pc0 0 t T S C M) (mkr L 0 t T S C M).
Proof. lift ustep_goto. Qed.

Lemma rs_setmark pc0 t T S C M w2 :
  code_at p pc0 = Some Setmark -> code_at p (pc0 + 1) = Some w2 ->
  rsteps (mkr pc0 0 t T S C M) (mkr (pc0 + 1) 0 t (pc0 :: T) (t :: S) C M).
Proof. lift ustep_setmark. Qed.

Lemma rs_nullmark pc0 t T S C M w2 :
  code_at p pc0 = Some Nullmark -> code_at p (pc0 + 1) = Some w2 ->
  rsteps (mkr pc0 0 t T S C M) (mkr (pc0 + 1) 0 t (pc0 :: T) (-1 :: S) C M).
Proof. lift ustep_nullmark. Qed.

Lemma rs_mark_back pc0 w t np T x S C M w3 :
  code_at p pc0 = Some w -> (w = Setmark \/ w = Nullmark) -> code_at p (Z.abs np) = Some w3 ->
  rsteps (mkr pc0 BackBit t (np :: T) (x :: S) C M) (bkr np t T S C M).
Proof. lift ustep_mark_back. Qed.

Lemma rs_nothing pc0 t np T S C M w3 :
  code_at p pc0 = Some Nothing -> code_at p (Z.abs np) = Some w3 ->
  rsteps (mkr pc0 0 t (np :: T) S C M) (bkr np t T S C M).
Proof. lift ustep_nothing. Qed.

Lemma rs_anchor an pc0 t np T S C M w2 w3 :
  code_at p pc0 = Some (anchor_code an) -> code_at p (pc0 + 1) = Some w2 ->
  code_at p (Z.abs np) = Some w3 -> 0 <= t <= tlen e ->
  rsteps (mkr pc0 0 t (np :: T) S C M)
         (if anchor_ok e an t then mkr (pc0 + 1) 0 t (np :: T) S C M else bkr np t T S C M).
Proof.
  intros. apply rsteps_one. intro r. unfold bkr, mkr. cbn [app].
  erewrite ustep_anchor by eassumption. destruct (anchor_ok e an t); reflexivity.
Qed.

Lemma rs_char_ok k o c pc0 t T S C M w2 :
  code_at p pc0 = Some (char_op k + bits_of o) -> code_at p (pc0 + 1) = Some c ->
  code_at p (pc0 + 2) = Some w2 -> 0 <= t <= tlen e ->
  (0 <? avail e o t) && char_test e k c (next_char e o t) = true ->
  rsteps (mkr pc0 0 t T S C M) (mkr (pc0 + 2) 0 (t + dir o) T S C M).
Proof.
  intros H0 H1 H2 Ht Hok. apply rsteps_one. intro r. unfold bkr, mkr. cbn [app].
  set (w := char_op k + bits_of o) in *.
  assert (Hw : Z.land w 63 = char_op k) by apply cp_land_bits, char_op_range.
  assert (Hr : rtl_of w = is_rtl o) by apply rtl_of_bits, char_op_range.
  clearbody w. apply andb_prop in Hok. destruct Hok as [Ha Hc].
  unfold avail, next_char in *. unfold dir.
  start H0. rewrite Hw.
  destruct k; cbn -[opnd fwdchars fwdnext brk advance]; opn (pc0 + 1) H1; cbn [bind];
    unfold fwdchars, fwdnext; rewrite Hr; cbn [tp repad VMU.mk];
    destruct (is_rtl o).
  all: try (replace (t <? 1) with false by lia; replace ((1 <=? t) && (t <=? tlen e)) with true by lia).
  all: try (replace (tlen e - t <? 1) with false by lia; replace ((0 <=? t) && (t <? tlen e)) with true by lia).
  all: cbn [char_test] in Hc; rewrite Hc; adv (pc0 + 2) H2; fin.
Qed.

Lemma rs_char_fail k o c pc0 t np T S C M w3 :
  code_at p pc0 = Some (char_op k + bits_of o) -> code_at p (pc0 + 1) = Some c ->
  code_at p (Z.abs np) = Some w3 -> 0 <= t <= tlen e ->
  (0 <? avail e o t) && char_test e k c (next_char e o t) = false ->
  rsteps (mkr pc0 0 t (np :: T) S C M) (bkr np (if 0 <? avail e o t then t + dir o else t) T S C M).
Proof.
  intros H0 H1 H3 Ht Hok. apply rsteps_one. intro r. unfold bkr, mkr. cbn [app].
  set (w := char_op k + bits_of o) in *.
  assert (Hw : Z.land w 63 = char_op k) by apply cp_land_bits, char_op_range.
  assert (Hr : rtl_of w = is_rtl o) by apply rtl_of_bits, char_op_range.
  clearbody w.
  unfold avail, next_char, dir in *.
  start H0. rewrite Hw.
  destruct k; cbn -[opnd fwdchars fwdnext brk advance]; opn (pc0 + 1) H1; cbn [bind];
    unfold fwdchars, fwdnext; rewrite Hr; cbn [tp repad VMU.mk];
    destruct (is_rtl o).
  all: cbn [char_test] in Hok.
  all: match goal with
       | |- context [ ?x <? 1 ] => destruct (x <? 1) eqn:E1
       end.
  all: try (replace (0 <? t) with false by lia).
  all: try (replace (0 <? tlen e - t) with false by lia).
  all: try (fail_to H3; fin).
  all: try (replace ((1 <=? t) && (t <=? tlen e)) with true by lia).
  all: try (replace ((0 <=? t) && (t <? tlen e)) with true by lia).
  all: try (replace (0 <? t) with true in * by lia).
  all: try (replace (0 <? tlen e - t) with true in * by lia).
  all: cbn [andb] in Hok; rewrite Hok; fail_to H3; fin.
Qed.

Lemma rs_capturemark pc0 t x T S C M g arr w2 :
  code_at p pc0 = Some Capturemark -> code_at p (pc0 + 1) = Some g -> code_at p (pc0 + 2) = Some (-1) ->
  code_at p (pc0 + 3) = Some w2 -> znth M g = Some arr ->
  rsteps (mkr pc0 0 t T (x :: S) C M)
         (mkr (pc0 + 3) 0 t (pc0 :: x :: T) S (g :: C) (mc_set g (arr ++ [Z.min x t; Z.abs (t - x)]) M)).
Proof.
  intros H0 H1 H2 H3 Hg. apply rsteps_one. intro r. unfold bkr, mkr. cbn [app]. start H0. change (Z.land Capturemark 63) with 32.
  cbn -[opnd do_capture tpush advance vm_is_matched].
  opn (pc0 + 1) H1. cbn [bind]. opn (pc0 + 2) H2. cbn -[opnd do_capture tpush advance vm_is_matched].
  unfold do_capture, add_match, mc_get. cbn [mcaps set_stack repad VMU.mk tp]. rewrite Hg.
  destruct (t <? x) eqn:E; cbn [bind]; tpu; adv (pc0 + 3) H3; fin.
  - replace (Z.min x t) with t by lia. replace (Z.abs (t - x)) with (x - t) by lia. reflexivity.
  - replace (Z.min x t) with x by lia. replace (Z.abs (t - x)) with (t - x) by lia. reflexivity.
Qed.

Lemma rs_capturemark_back pc0 t x np T S g C M M1 w3 :
  code_at p pc0 = Some Capturemark -> code_at p (pc0 + 1) = Some g -> code_at p (pc0 + 2) = Some (-1) ->
  code_at p (Z.abs np) = Some w3 -> remove_match g M = Some M1 ->
  rsteps (mkr pc0 BackBit t (x :: np :: T) S (g :: C) M) (bkr np t T (x :: S) C M1).
Proof.
  intros H0 H1 H2 H3 Hg. apply rsteps_one. intro r. unfold bkr, mkr. cbn [app]. start H0. change (Z.land Capturemark 63) with 32.
  cbn -[opnd uncapture spush brk].
  opn (pc0 + 1) H1. cbn [bind]. opn (pc0 + 2) H2. cbn [bind]. spu.
  unfold uncapture. cbn [crawl mcaps set_stack set_track repad VMU.mk]. rewrite Hg. cbn [bind].
  replace (negb (g =? -1) && negb (-1 =? -1)) with false by (rewrite andb_comm; reflexivity).
  cbn [bind]. fail_to H3; fin.
Qed.

Lemma rs_bump pc0 t T S C M w2 :
  code_at p pc0 = Some UpdateBumpalong -> code_at p (pc0 + 1) = Some w2 ->
  rsteps (mkr pc0 0 t T S C M) (mkr (pc0 + 1) 0 t T S C M).
Proof.
  intros H0 H2. apply rsteps_one_ex. intro r. exists (if r <? t then t else r). unfold mkr.
  eapply ustep_bump; eassumption.
Qed.

End Ops2.

(* the same for the files that follow *)
Ltac lift L := intros; apply rsteps_one; intro r; unfold bkr, mkr; cbn [app]; eapply L; eassumption.

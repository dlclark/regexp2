(* char_in_denote under IgnoreCase (CharClassCi4, Ci5, Ci6): what the parser builds for a bracket expression
   whose code-point members lie in the good part of the finite table denotes the set algebra of the
   expression (members folded over their SimpleFold orbits), on every rune of the table.
   This file: which bracket expressions are admitted (ci_syn_ok, ci_syn_okx), and what the fold over the
   members builds while the set is marked negated, code points and categories tracked separately
   (tracked_items). *)
From Coq Require Import FMapPositive ZifyBool.
From Verif Require Import Base.Prelude Model.CharClass Model.FoldD
  Proofs.CharClassRanges Proofs.CharClassProofs Proofs.CharClassElab
  Proofs.CharClassFold Proofs.CharClassCi Proofs.CharClassCi2 Proofs.CharClassCi3.

(* the runes of a range, for closed checks *)
Definition range_pts (r : Z * Z) : list Z :=
  map (fun i => fst r + Z.of_nat i) (seq 0 (Z.to_nat (snd r - fst r + 1))).

Lemma mem_range_pts rs x : mem rs x = true -> In x (flat_map range_pts rs).
Proof.
  intros H. apply mem_true_iff in H. destruct H as [[a b] [Hr Hx]]. cbn [fst snd] in Hx.
  apply in_flat_map. exists (a, b). split; [exact Hr|]. unfold range_pts; cbn [fst snd].
  apply in_map_iff. exists (Z.to_nat (x - a)). split; [lia|]. apply in_seq. lia.
Qed.

Definition table_good (rs : list (Z * Z)) : Prop := forall x, mem rs x = true -> In x good_dom.

Lemma table_good_check rs : forallb in_good (flat_map range_pts rs) = true -> table_good rs.
Proof.
  intros H x Hx. rewrite forallb_forall in H. apply zmem_In. rewrite zmem_good_dom. apply H. apply mem_range_pts. exact Hx.
Qed.

Lemma good_ecma_digit : table_good ecma_digit_ranges.
Proof. apply table_good_check. vm_compute. reflexivity. Qed.
Lemma good_ecma_word : table_good ecma_word_ranges.
Proof. apply table_good_check. vm_compute. reflexivity. Qed.
Lemma good_ecma_space : table_good ecma_space_ranges.
Proof. apply table_good_check. vm_compute. reflexivity. Qed.
Lemma good_re2_space : table_good re2_space_ranges.
Proof. apply table_good_check. vm_compute. reflexivity. Qed.
Lemma good_posix k : 0 <= k <= 13 -> table_good (posix_ranges k).
Proof.
  intros H.
  assert (Hk : k = 0 \/ k = 1 \/ k = 2 \/ k = 3 \/ k = 4 \/ k = 5 \/ k = 6 \/ k = 7 \/ k = 8 \/ k = 9 \/
               k = 10 \/ k = 11 \/ k = 12 \/ k = 13) by lia.
  repeat (destruct Hk as [->|Hk]); try subst k; apply table_good_check; vm_compute; reflexivity.
Qed.

(* what C16 allows under IgnoreCase: members of the good table part; the ASCII-table shorthands and
   POSIX names only positive (a negated one is a range up to U+10FFFF); no negated cased-letter category *)
Definition ci_item_ok (o : opts) (it : item) : Prop :=
  match it with
  | IRange a b => forall x, a <= x <= b -> In x good_dom
  | IDigit ng | ISpace ng | IWord ng => (o_ecma o || o_re2 o) = true -> ng = false
  | IProp ng name => (ng && is_case_cat name) = false
  | IPosix ng _ => ng = false
  end.
Fixpoint ci_syn_ok (o : opts) (s : csyn) : Prop :=
  match s with
  | CSyn _ items sb => Forall (ci_item_ok o) items /\ match sb with Some s' => ci_syn_ok o s' | None => True end
  end.

Lemma ci_item_guard o it : ci_item_ok o it -> item_guard o it.
Proof. destruct it; cbn; auto. intros H. rewrite <- andb_assoc. rewrite H. apply andb_false_r. Qed.

(* ---- the extended IgnoreCase domain: complement-shaped ranges.
   A range [a, b] with a <= U+0080 and b >= U+10000 ("everything from a on", e.g. [b-\x{10FFFF}],
   [\x01-\x{10FFFF}], [\x00-\x{10FFFE}]) is admitted when the flag B holds and the same bracket level
   names 'i' or 'I' by some range (always the case when a <= 'i'): the range contains U+0130, whose
   lcTable image is 'i' although U+0130 and 'i' are not in one SimpleFold orbit. *)
Definition names_i (items : list item) : Prop :=
  exists a b, In (IRange a b) items /\ (a <= 73 <= b \/ a <= 105 <= b).

Definition ci_item_okx (B : Prop) (o : opts) (items : list item) (it : item) : Prop :=
  match it with
  | IRange a b => (forall x, a <= x <= b -> In x good_dom) \/ (B /\ a <= 128 /\ 65536 <= b /\ names_i items)
  | _ => ci_item_ok o it
  end.
Fixpoint ci_syn_okx (B : Prop) (o : opts) (s : csyn) : Prop :=
  match s with
  | CSyn _ items sb => Forall (ci_item_okx B o items) items /\ match sb with Some s' => ci_syn_okx B o s' | None => True end
  end.

Lemma ci_syn_ok_x B o s : ci_syn_ok o s -> ci_syn_okx B o s.
Proof.
  induction s as [ng items | ng items s' IH] using csyn_induction; cbn; intros [H1 H2]; (split; [|auto]);
    apply Forall_forall; intros it Hit; rewrite Forall_forall in H1; specialize (H1 it Hit);
    destruct it; cbn in *; auto.
Qed.

(* what the member-by-member lemmas below need: everything but the condition on ranges *)
Definition ci_item_nr (o : opts) (it : item) : Prop :=
  match it with IRange _ _ => True | _ => ci_item_ok o it end.

Lemma ci_item_okx_nr B o items it : ci_item_okx B o items it -> ci_item_nr o it.
Proof. destruct it; cbn; auto. Qed.

Lemma ci_item_nr_guard o it : ci_item_nr o it -> item_guard o it.
Proof. destruct it; cbn; auto. intros H. rewrite <- andb_assoc. rewrite H. apply andb_false_r. Qed.

Section CiSyntax.
  Variable cat_in : Z -> Z -> bool.
  Variable simple_fold to_lower : Z -> Z.
  Hypothesis agree : forall x, In x dom_t -> simple_fold x = fold_t x /\ to_lower x = lower_t x.
  Variable o : opts.
  Hypothesis Hci : o_ci o = true.

  Notation den := (denote cat_in simple_fold orbit_fuel).
  Notation litd := (lit_den cat_in simple_fold orbit_fuel o).
  Notation catd := (cat_den cat_in simple_fold orbit_fuel o).

  (* ---------------------------------------------------------------- the mutators while neg = true *)
  (* ranges and categories tracked separately: L = code-point members so far, K = category members *)
  Definition tracked (c : cls) (L K : Z -> bool) : Prop :=
    (anything c = false -> (forall ch, mem (ranges c) ch = L ch) /\ (forall ch, cats_in cat_in (cats c) ch = K ch)) /\
    (anything c = true -> forall ch, K ch = true).

  Lemma tracked_add_range c L K lo hi :
    neg c = true -> wf_ranges (ranges c) -> 0 <= lo -> lo <= hi -> hi <= max_rune -> tracked c L K ->
    tracked (add_range cat_in c lo hi) (fun ch => L ch || ((lo <=? ch) && (ch <=? hi))) K.
  Proof.
    intros Hn Hw H0 H1 H2 [F1 F2]. unfold add_range. rewrite canon_neg by exact Hn.
    cbn [ranges set_ranges]. unfold tracked, set_ranges; cbn [anything ranges cats]. split.
    - intros Ha. destruct (F1 Ha) as [G1 G2]. split; [|exact G2].
      intros ch. rewrite merged_mem by (apply wf_ranges_app; [exact Hw|apply wf_single; auto]).
      rewrite mem_app, G1. unfold mem, in_range; cbn [existsb fst snd]. rewrite orb_false_r. reflexivity.
    - exact F2.
  Qed.

  Lemma tracked_add_ranges c L K rs :
    neg c = true -> wf_ranges (ranges c) -> wf_ranges rs -> tracked c L K ->
    tracked (add_ranges cat_in c rs) (fun ch => L ch || mem rs ch) K.
  Proof.
    intros Hn Hw Hr [F1 F2]. unfold add_ranges. destruct (anything c) eqn:Ea.
    - split; [intros H; congruence|intros _; exact (F2 eq_refl)].
    - rewrite canon_neg by exact Hn. unfold tracked, set_ranges; cbn [anything ranges cats]. split.
      + intros _. destruct (F1 eq_refl) as [G1 G2]. split; [|exact G2].
        intros ch. rewrite merged_mem by (apply wf_ranges_app; auto). rewrite mem_app, G1. reflexivity.
      + intros H. congruence.
  Qed.

  Lemma loop_tracked l : forall c, anything c = false ->
    let c' := add_categories_loop c l in
    (anything c' = false /\ ranges c' = ranges c /\
     forall ch, cats_in cat_in (cats c') ch = cats_in cat_in (cats c) ch || cats_in cat_in l ch) \/
    (anything c' = true /\ forall ch, cats_in cat_in (cats c) ch || cats_in cat_in l ch = true).
  Proof.
    induction l as [|[ng name] t IH]; intros c Ha; cbn [add_categories_loop]; cbn zeta.
    - left. split; [exact Ha|]. split; [reflexivity|]. intros ch. unfold cats_in at 3; cbn. rewrite orb_false_r. reflexivity.
    - destruct (find_cat name (cats c)) as [ng2|] eqn:Ef.
      + apply (find_cat_some cat_in) in Ef. destruct (Bool.eqb ng ng2) eqn:Eb.
        * apply Bool.eqb_prop in Eb. subst ng2.
          assert (Hdup : forall ch, cats_in cat_in (cats c) ch || cats_in cat_in ((ng, name) :: t) ch =
                                    cats_in cat_in (cats c) ch || cats_in cat_in t ch).
          { intros ch. rewrite (cats_in_cons cat_in). destruct (cat_accepts cat_in (ng, name) ch) eqn:E; [|reflexivity].
            rewrite (cats_in_In cat_in _ _ ch Ef E). reflexivity. }
          destruct (IH c Ha) as [(A & B & C)|(A & C)]; cbn zeta in *.
          -- left. split; [exact A|]. split; [exact B|]. intros ch. rewrite C, Hdup. reflexivity.
          -- right. split; [exact A|]. intros ch. rewrite Hdup. apply C.
        * right. split; [reflexivity|]. intros ch. rewrite (cats_in_cons cat_in).
          destruct (cat_accepts cat_in (ng, name) ch) eqn:E; [cbn [orb]; rewrite orb_true_r; reflexivity|].
          rewrite (cats_in_In cat_in (ng2, name) _ ch Ef); [reflexivity|].
          unfold cat_accepts in *; cbn [fst snd] in *. destruct ng, ng2, (cat_in name ch); cbn in *; congruence.
      + destruct (IH (set_cats c (cats c ++ [(ng, name)])) Ha) as [(A & B & C)|(A & C)]; cbn zeta in *;
          cbn [cats ranges set_cats] in *.
        * left. split; [exact A|]. split; [exact B|]. intros ch. rewrite C. rewrite (cats_in_app cat_in).
          rewrite !(cats_in_cons cat_in). change (cats_in cat_in [] ch) with false.
          destruct (cats_in cat_in (cats c) ch), (cat_accepts cat_in (ng, name) ch), (cats_in cat_in t ch); reflexivity.
        * right. split; [exact A|]. intros ch. specialize (C ch). rewrite (cats_in_app cat_in) in C.
          rewrite !(cats_in_cons cat_in) in *. change (cats_in cat_in [] ch) with false in C.
          destruct (cats_in cat_in (cats c) ch), (cat_accepts cat_in (ng, name) ch), (cats_in cat_in t ch); cbn in *; congruence.
  Qed.

  Lemma tracked_add_categories c L K l : tracked c L K ->
    tracked (add_categories c l) L (fun ch => K ch || cats_in cat_in l ch).
  Proof.
    intros [F1 F2]. unfold add_categories. destruct (anything c) eqn:Ea.
    - split; [intros H; congruence|]. intros _ ch. rewrite (F2 eq_refl ch). reflexivity.
    - destruct (F1 eq_refl) as [G1 G2].
      destruct (loop_tracked l c Ea) as [(A & B & C)|(A & C)]; cbn zeta in *.
      + split; [|intros H; congruence]. intros _. split; [intros ch; rewrite B; apply G1|].
        intros ch. rewrite C, G2. reflexivity.
      + split; [intros H; congruence|]. intros _ ch. rewrite <- G2. apply C.
  Qed.

  Lemma tracked_ext c L K L' K' : (forall ch, L ch = L' ch) -> (forall ch, K ch = K' ch) -> tracked c L K -> tracked c L' K'.
  Proof.
    intros HL HK [F1 F2]. split.
    - intros Ha. destruct (F1 Ha) as [G1 G2]. split; intros ch; [rewrite <- HL; apply G1|rewrite <- HK; apply G2].
    - intros Ha ch. rewrite <- HK. apply F2. exact Ha.
  Qed.

  Lemma tracked_item c L K it :
    scan_inv c -> tracked c L K -> wf_item it -> ci_item_nr o it ->
    tracked (elab_item cat_in o c it) (fun ch => L ch || litd it ch) (fun ch => K ch || catd it ch).
  Proof.
    intros (I1 & I2 & I3 & I4 & I5 & I6) Hf Hwf Hok.
    destruct it as [a b|ng|ng|ng|ng name|ng k]; cbn [elab_item]; unfold lit_den, cat_den; cbn [item_lit_exp item_cat_exp].
    - cbn in Hwf. destruct Hwf as (W1 & W2 & W3).
      eapply tracked_ext; only 3: (apply (tracked_add_range c L K a b); auto).
      + intros ch. cbn. rewrite !orb_false_r. reflexivity.
      + intros ch. cbn. rewrite orb_false_r. reflexivity.
    - unfold add_digit. cbn in Hok. destruct (o_ecma o || o_re2 o) eqn:E.
      + rewrite (Hok eq_refl). eapply tracked_ext; only 3: (apply (tracked_add_ranges c L K ecma_digit_ranges); auto; apply wf_ecma_digit).
        * intros ch. cbv beta. cbn [existsb]. rewrite den_neg_if. cbn [denote]. rewrite xorb_false_l. unfold mem, in_range, ecma_digit_ranges; cbn [existsb fst snd].
          rewrite !orb_false_r. reflexivity.
        * intros ch. cbn. rewrite orb_false_r. reflexivity.
      + eapply tracked_ext; only 3: (apply (tracked_add_categories c L K [(ng, cat_Nd)]); auto).
        * intros ch. cbn. rewrite orb_false_r. reflexivity.
        * intros ch. cbv beta. rewrite cats_in_single. cbn. rewrite orb_false_r. reflexivity.
    - unfold add_space. cbn in Hok. destruct (o_ecma o) eqn:Ee.
      + cbn [orb] in Hok. rewrite (Hok eq_refl). cbn [orb].
        eapply tracked_ext; only 3: (apply (tracked_add_ranges c L K ecma_space_ranges); auto; apply wf_ecma_space).
        * intros ch. cbv beta. cbn [existsb]. rewrite den_neg_if, den_ranges_exp. rewrite xorb_false_l. rewrite orb_false_r. reflexivity.
        * intros ch. cbn. rewrite orb_false_r. reflexivity.
      + cbn [orb] in *. destruct (o_re2 o) eqn:Er.
        * rewrite (Hok eq_refl).
          eapply tracked_ext; only 3: (apply (tracked_add_ranges c L K re2_space_ranges); auto; apply wf_re2_space).
          -- intros ch. cbv beta. cbn [existsb]. rewrite den_neg_if, den_ranges_exp. rewrite xorb_false_l. rewrite orb_false_r. reflexivity.
          -- intros ch. cbn. rewrite orb_false_r. reflexivity.
        * eapply tracked_ext; only 3: (apply (tracked_add_categories c L K [(ng, cat_space)]); auto).
          -- intros ch. cbn. rewrite orb_false_r. reflexivity.
          -- intros ch. cbv beta. rewrite cats_in_single. cbn. rewrite orb_false_r. reflexivity.
    - unfold add_word. cbn in Hok. destruct (o_ecma o || o_re2 o) eqn:E.
      + rewrite (Hok eq_refl). eapply tracked_ext; only 3: (apply (tracked_add_ranges c L K ecma_word_ranges); auto; apply wf_ecma_word).
        * intros ch. cbv beta. cbn [existsb]. rewrite den_neg_if, den_ranges_exp. rewrite xorb_false_l. rewrite orb_false_r. reflexivity.
        * intros ch. cbn. rewrite orb_false_r. reflexivity.
      + eapply tracked_ext; only 3: (apply (tracked_add_categories c L K [(ng, cat_word)]); auto).
        * intros ch. cbn. rewrite orb_false_r. reflexivity.
        * intros ch. cbv beta. rewrite cats_in_single. cbn. rewrite orb_false_r. reflexivity.
    - cbn in Hok. unfold add_category. rewrite Hci. cbn [andb].
      destruct (is_case_cat name) eqn:Ec.
      + assert (ng = false) by (destruct ng; [discriminate|reflexivity]). subst ng.
        pose proof (tracked_add_categories c L K [(false, cat_Ll); (false, cat_Lu); (false, cat_Lt)] Hf) as F1.
        pose proof (tracked_add_categories _ _ _ [(false, name)] F1) as F2.
        eapply tracked_ext; only 3: (exact F2).
        * intros ch. cbn. rewrite orb_false_r. reflexivity.
        * intros ch. cbv beta. rewrite cats_in_single. cbn [existsb]. rewrite den_neg_if. cbn [denote existsb xorb].
          unfold cats_in, cat_accepts; cbn [existsb fst snd xorb]. unfold is_case_cat in Ec.
          assert (Hname : name = cat_Ll \/ name = cat_Lu \/ name = cat_Lt) by lia.
          destruct Hname as [ -> | [ -> | -> ] ];
            destruct (cat_in cat_Ll ch), (cat_in cat_Lu ch), (cat_in cat_Lt ch), (K ch); reflexivity.
      + eapply tracked_ext; only 3: (apply (tracked_add_categories c L K [(ng, name)]); auto).
        * intros ch. cbn. rewrite orb_false_r. reflexivity.
        * intros ch. cbv beta. rewrite cats_in_single. cbn. rewrite orb_false_r. reflexivity.
    - cbn in Hwf, Hok. subst ng. destruct (posix_ordered k Hwf) as (Po & Pw & Pn).
      unfold add_named_ascii. destruct (k =? 5) eqn:E5.
      + assert (k = 5) by lia. subst k. unfold add_digit.
        eapply tracked_ext; only 3: (apply (tracked_add_ranges c L K ecma_digit_ranges); auto; apply wf_ecma_digit).
        * intros ch. cbv beta. cbn [existsb]. rewrite den_neg_if, den_ranges_exp. rewrite xorb_false_l. rewrite orb_false_r. reflexivity.
        * intros ch. cbn. rewrite orb_false_r. reflexivity.
      + destruct (k =? 12) eqn:E12.
        * assert (k = 12) by lia. subst k. unfold add_word.
          eapply tracked_ext; only 3: (apply (tracked_add_ranges c L K ecma_word_ranges); auto; apply wf_ecma_word).
          -- intros ch. cbv beta. cbn [existsb]. rewrite den_neg_if, den_ranges_exp. rewrite xorb_false_l. rewrite orb_false_r. reflexivity.
          -- intros ch. cbn. rewrite orb_false_r. reflexivity.
        * destruct (posix_ranges k) as [|r t] eqn:Ep; [congruence|]. rewrite <- Ep in *.
          eapply tracked_ext; only 3: (apply (tracked_add_ranges c L K (posix_ranges k)); auto).
          -- intros ch. cbv beta. cbn [existsb]. rewrite den_neg_if, den_ranges_exp. rewrite xorb_false_l. rewrite orb_false_r. reflexivity.
          -- intros ch. cbn. rewrite orb_false_r. reflexivity.
  Qed.

  Lemma tracked_items items : forall c L K,
    scan_inv c -> tracked c L K -> Forall wf_item items -> Forall (ci_item_nr o) items ->
    tracked (fold_left (elab_item cat_in o) items c)
         (fun ch => L ch || existsb (fun it => litd it ch) items)
         (fun ch => K ch || existsb (fun it => catd it ch) items).
  Proof.
    induction items as [|it t IH]; intros c L K Hinv Hf Hw Hok.
    - cbn. eapply tracked_ext; [| |exact Hf]; intros ch; rewrite orb_false_r; reflexivity.
    - inversion Hw as [|? ? W1 W2]; subst. inversion Hok as [|? ? G1 G2]; subst.
      destruct (item_step cat_in simple_fold orbit_fuel o c it Hinv W1 (ci_item_nr_guard o it G1)) as [S1 _].
      pose proof (tracked_item c L K it Hinv Hf W1 G1) as F1.
      specialize (IH _ _ _ S1 F1 W2 G2). cbn [fold_left].
      eapply tracked_ext; [| |exact IH]; intros ch; cbn [existsb]; rewrite orb_assoc; reflexivity.
  Qed.

End CiSyntax.

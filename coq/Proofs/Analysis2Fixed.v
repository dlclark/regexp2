(* C04, part 7: soundness of findFixedDistanceSets (Analysis2.raw_fixed / fixed_distance_raw):
   at every successful attempt at p of a left-to-right pattern, for every published (set, distance d)
   the character at p + d exists and belongs to the set. *)
From Coq Require Import ZifyBool.
From Verif Require Import Base.Prelude Model.Tree Model.Spec Model.CharClass Model.Analysis Model.Analysis2
     Proofs.SpecProofs Proofs.CharClassRanges Proofs.CharClassProofs Proofs.MaskProofs
     Proofs.AnalysisReach Proofs.AnalysisProofs Proofs.AnalysisPrefix Proofs.Analysis2Cls Proofs.Analysis2Ffcc.

From Verif Require Import Proofs.ListFacts.
Definition rf_ok {A B} (p : bool * A * B) : bool := fst (fst p).
Definition rf_res {A B} (p : bool * A * B) : A := snd (fst p).
Definition rf_dist {A B} (p : bool * A * B) : B := snd p.

(* ---- the map `combined` ---- *)
Fixpoint clook (k : Z) (cm : list (Z * cls * Z)) : option (cls * Z) :=
  match cm with
  | [] => None
  | (k', s, c) :: cm' => if k =? k' then Some (s, c) else clook k cm'
  end.
Definition ckeys (cm : list (Z * cls * Z)) : list Z := map (fun en => fst (fst en)) cm.

Lemma if_elim {A} (P : A -> Prop) (b : bool) x y : (b = true -> P x) -> (b = false -> P y) -> P (if b then x else y).
Proof. destruct b; auto. Qed.

Lemma nodup_app (l1 l2 : list Z) :
  NoDup l1 -> NoDup l2 -> (forall d, In d l1 -> In d l2 -> False) -> NoDup (l1 ++ l2).
Proof.
  induction l1 as [|a l1 IH]; intros H1 H2 Hd; cbn [app]; [exact H2|].
  inversion H1; subst. constructor.
  - intros Hin. apply in_app_or in Hin. destruct Hin as [Hin|Hin]; [contradiction|].
    apply (Hd a); [left; reflexivity|exact Hin].
  - apply IH; [assumption|assumption|]. intros d Hi1 Hi2. apply (Hd d); [right; exact Hi1|exact Hi2].
Qed.

Lemma clook_in cm : NoDup (ckeys cm) -> forall k s c, In (k, s, c) cm -> clook k cm = Some (s, c).
Proof.
  induction cm as [|[[k' s'] c'] cm IH]; intros Hnd k s c Hin; [destruct Hin|].
  cbn [ckeys map fst] in Hnd. inversion Hnd as [|? ? Hni Hnd']; subst. cbn [clook].
  destruct Hin as [Heq|Hin].
  - injection Heq as -> -> ->. rewrite Z.eqb_refl. reflexivity.
  - destruct (k =? k') eqn:E.
    + exfalso. assert (k = k') by lia. subst k'. apply Hni.
      apply (in_map (fun en => fst (fst en))) in Hin. exact Hin.
    + apply IH; assumption.
Qed.

Lemma clook_some_in cm : forall k s c, clook k cm = Some (s, c) -> In (k, s, c) cm.
Proof.
  induction cm as [|[[k' s'] c'] cm IH]; intros k s c H; cbn [clook] in H; [discriminate H|].
  destruct (k =? k') eqn:E.
  - injection H as -> ->. assert (k = k') by lia. subst k'. left. reflexivity.
  - right. apply IH. exact H.
Qed.

Lemma clook_none_keys cm k : clook k cm = None -> ~ In k (ckeys cm).
Proof.
  induction cm as [|[[k' s'] c'] cm IH]; cbn [clook ckeys map fst]; [intros _ []|].
  destruct (k =? k') eqn:E; [discriminate|]. intros H [Heq|Hin]; [lia|]. apply IH; assumption.
Qed.

(* first entry of a result list at distance k *)
Fixpoint lfind (k : Z) (loc : list (cls * Z)) : option cls :=
  match loc with
  | [] => None
  | (s, d) :: loc' => if k =? d then Some s else lfind k loc'
  end.

Lemma lfind_some k loc s : lfind k loc = Some s -> In (s, k) loc.
Proof.
  induction loc as [|[s' d] loc IH]; cbn [lfind]; [discriminate|].
  destruct (k =? d) eqn:E.
  - intros H. injection H as ->. assert (k = d) by lia. subst d. left. reflexivity.
  - intros H. right. apply IH. exact H.
Qed.

Lemma lfind_none k loc : lfind k loc = None -> ~ In k (map snd loc).
Proof.
  induction loc as [|[s' d] loc IH]; cbn [lfind map snd]; [intros _ []|].
  destruct (k =? d) eqn:E; [discriminate|]. intros H [Heq|Hin]; [lia|]. apply IH; assumption.
Qed.

Lemma lfind_in_nodup loc : NoDup (map snd loc) -> forall s k, In (s, k) loc -> lfind k loc = Some s.
Proof.
  induction loc as [|[s' d] loc IH]; intros Hnd s k Hin; [destruct Hin|].
  cbn [map snd] in Hnd. inversion Hnd as [|? ? Hni Hnd']; subst. cbn [lfind].
  destruct Hin as [Heq|Hin].
  - injection Heq as -> ->. rewrite Z.eqb_refl. reflexivity.
  - destruct (k =? d) eqn:E.
    + exfalso. assert (k = d) by lia. subst d. apply Hni. apply (in_map snd) in Hin. exact Hin.
    + apply IH; assumption.
Qed.


Section Loops.
Variable cat_in : Z -> Z -> bool.
Variable sets : list cls.
(* the `thorough` flag of findFixedDistanceSets: whether alternations are looked into *)
Variable th : bool.
Notation RF := (raw_fixed cat_in sets th).

Fixpoint rf_cat (l : list node) (res : list (cls * Z)) (dist : Z) : bool * list (cls * Z) * Z :=
  match l with
  | [] => (true, res, dist)
  | x :: l' => let '(ok, res', dist') := RF x res dist in
               if ok then rf_cat l' res' dist' else (false, res', dist')
  end.

Definition comb_fold (loc : list (cls * Z)) (cm : list (Z * cls * Z)) : list (Z * cls * Z) :=
  fold_left (fun cm sd => comb_add cat_in cm (snd sd) (fst sd)) loc cm.

Fixpoint rf_alt (l : list node) (allsame : bool) (same : Z) (cm : list (Z * cls * Z))
  : option (bool * Z * list (Z * cls * Z)) :=
  match l with
  | [] => Some (allsame, same, cm)
  | x :: l' =>
      let '(ok, loc, ld) := if allsame then RF x [] 0 else (false, [], 0) in
      let allsame1 := allsame && ok in
      match loc with
      | [] => None
      | _ =>
          let '(allsame2, same2) :=
            if allsame1 then (if same =? -1 then (true, ld) else if same =? ld then (true, same) else (false, same))
            else (false, same) in
          rf_alt l' allsame2 same2 (comb_fold loc cm)
      end
  end.

Lemma rf_concat_eq o l res dist :
  RF (NConcat o l) res dist = if is_rtl o then (false, res, dist) else rf_cat l res dist.
Proof. reflexivity. Qed.

Lemma rf_alternate_eq o l res dist :
  RF (NAlternate o l) res dist =
  if is_rtl o then (false, res, dist)
  else if th then
    match rf_alt l true (-1) [] with
    | None => (false, res, dist)
    | Some (allsame, same, cm) =>
        let '(res', allsame') := comb_publish cm (zlen l) dist res allsame in
        if allsame' then (true, res', dist + same) else (false, res', dist)
    end
  else (false, res, dist).
Proof. reflexivity. Qed.

Lemma rf_cat_cons x l res dist :
  rf_cat (x :: l) res dist =
  let p := RF x res dist in if rf_ok p then rf_cat l (rf_res p) (rf_dist p) else (false, rf_res p, rf_dist p).
Proof. cbn [rf_cat]. destruct (RF x res dist) as [[ok r] d]. reflexivity. Qed.

Definition merge1 (o : option (cls * Z)) (s : cls) : option (cls * Z) :=
  match o with
  | None => Some (cls_copy s, 1)
  | Some (s', c') => if is_mergeable s' && is_mergeable s then Some (add_set cat_in s' s, c' + 1) else Some (s', c')
  end.

Lemma clook_comb_add cm d s k :
  clook k (comb_add cat_in cm d s) = if k =? d then merge1 (clook d cm) s else clook k cm.
Proof.
  induction cm as [|[[k' s'] c'] cm IH]; cbn [comb_add clook merge1].
  - destruct (k =? d); reflexivity.
  - destruct (d =? k') eqn:E.
    + assert (d = k') by lia. subst k'. unfold merge1.
      destruct (is_mergeable s' && is_mergeable s); cbn [clook]; destruct (k =? d); reflexivity.
    + cbn [clook]. destruct (k =? k') eqn:E2.
      * destruct (k =? d) eqn:E3; [lia|reflexivity].
      * exact IH.
Qed.

Lemma ckeys_comb_add cm d s :
  ckeys (comb_add cat_in cm d s) = if existsb (Z.eqb d) (ckeys cm) then ckeys cm else ckeys cm ++ [d].
Proof.
  induction cm as [|[[k' s'] c'] cm IH]; cbn [comb_add ckeys map existsb fst]; [reflexivity|].
  destruct (d =? k') eqn:E; cbn [orb].
  - destruct (is_mergeable s' && is_mergeable s); reflexivity.
  - cbn [map fst]. fold (ckeys cm). fold (ckeys (comb_add cat_in cm d s)). rewrite IH.
    destruct (existsb (Z.eqb d) (ckeys cm)); reflexivity.
Qed.

Lemma ckeys_comb_add_nodup cm d s : NoDup (ckeys cm) -> NoDup (ckeys (comb_add cat_in cm d s)).
Proof.
  intros H. rewrite ckeys_comb_add. destruct (existsb (Z.eqb d) (ckeys cm)) eqn:E; [exact H|].
  apply NoDup_app_singleton; [exact H|]. intros Hin.
  assert (existsb (Z.eqb d) (ckeys cm) = true); [|congruence].
  apply existsb_exists. exists d. split; [exact Hin|apply Z.eqb_refl].
Qed.

Lemma clook_fold loc : forall cm, NoDup (map snd loc) -> forall k,
  clook k (comb_fold loc cm) = match lfind k loc with Some s => merge1 (clook k cm) s | None => clook k cm end.
Proof.
  unfold comb_fold. induction loc as [|[s d] loc IH]; intros cm Hnd k; cbn [fold_left lfind fst snd]; [reflexivity|].
  cbn [map snd] in Hnd. inversion Hnd as [|? ? Hni Hnd']; subst.
  rewrite IH by exact Hnd'. rewrite clook_comb_add.
  destruct (k =? d) eqn:E.
  - assert (k = d) by lia. subst d.
    destruct (lfind k loc) eqn:El; [|reflexivity].
    exfalso. apply Hni. apply lfind_some in El. apply (in_map snd) in El. exact El.
  - reflexivity.
Qed.

Lemma ckeys_fold_nodup loc : forall cm, NoDup (ckeys cm) -> NoDup (ckeys (comb_fold loc cm)).
Proof.
  unfold comb_fold. induction loc as [|[s d] loc IH]; intros cm H; cbn [fold_left]; [exact H|].
  apply IH. apply ckeys_comb_add_nodup. exact H.
Qed.

End Loops.

(* syntactic facts: new entries are appended, have distinct distances inside [dist, dist')      *)

Lemma comb_publish_spec n dist : forall cm res allsame, NoDup (ckeys cm) ->
  exists new, fst (comb_publish cm n dist res allsame) = res ++ new /\
    NoDup (map snd new) /\
    (forall S d, In (S, d) new -> exists k, d = k + dist /\ In (k, S, n) cm) /\
    (snd (comb_publish cm n dist res allsame) = true -> allsame = true).
Proof.
  induction cm as [|[[k S] c] cm IH]; intros res allsame Hnd; cbn [comb_publish].
  - exists []. rewrite app_nil_r. cbn [fst snd map]. split; [reflexivity|]. split; [constructor|]. split; [intros ? ? []|auto].
  - cbn [ckeys map fst] in Hnd. inversion Hnd as [|? ? Hni Hnd']; subst.
    destruct (MAX_FIXED_RESULTS <=? zlen res).
    + exists []. rewrite app_nil_r. cbn [fst snd map]. split; [reflexivity|]. split; [constructor|].
      split; [intros ? ? []|discriminate].
    + destruct (IH (if c =? n then res ++ [(S, k + dist)] else res) allsame Hnd') as [new [E [Hn [Hall Has]]]].
      destruct (c =? n) eqn:Ec.
      * exists ((S, k + dist) :: new). rewrite E. rewrite <- app_assoc. split; [reflexivity|].
        split.
        { cbn [map snd]. constructor; [|exact Hn]. intros Hin. apply in_map_iff in Hin.
          destruct Hin as [[S' d'] [Hd' Hin]]. cbn [snd] in Hd'. subst d'.
          destruct (Hall _ _ Hin) as [k' [Hk' Hin']]. assert (k' = k) by lia. subst k'.
          apply Hni. apply (in_map (fun en => fst (fst en))) in Hin'. exact Hin'. }
        split; [|exact Has].
        intros S' d' [Heq|Hin].
        { injection Heq as <- <-. exists k. split; [reflexivity|]. left. assert (c = n) by lia. subst c. reflexivity. }
        destruct (Hall _ _ Hin) as [k' [Hk' Hin']]. exists k'. split; [exact Hk'|right; exact Hin'].
      * exists new. split; [exact E|]. split; [exact Hn|]. split; [|exact Has].
        intros S' d' Hin. destruct (Hall _ _ Hin) as [k' [Hk' Hin']]. exists k'. split; [exact Hk'|right; exact Hin'].
Qed.

Lemma rf_push_spec S : forall k dist,
  NoDup (map snd (rf_push S k dist)) /\
  forall S' d, In (S', d) (rf_push S k dist) -> S' = S /\ dist <= d < dist + Z.of_nat k.
Proof.
  induction k as [|k IH]; intros dist; cbn [rf_push map snd].
  - split; [constructor|intros ? ? []].
  - destruct (IH (dist + 1)) as [Hn Hall]. split.
    + constructor; [|exact Hn]. intros Hin. apply in_map_iff in Hin. destruct Hin as [[S' d'] [Hd' Hin]].
      cbn [snd] in Hd'. subst d'. destruct (Hall _ _ Hin). lia.
    + intros S' d [Heq|Hin]; [injection Heq as <- <-; split; [reflexivity|lia]|].
      destruct (Hall _ _ Hin). split; [assumption|lia].
Qed.


Section Syn.
Variable cat_in : Z -> Z -> bool.
Variable sets : list cls.
Variable th : bool.
Hypothesis Hgood : sets_good cat_in sets.
Notation RF := (raw_fixed cat_in sets th).
Notation gcls := (gcls cat_in).
Notation acc_ok := (acc_ok cat_in).
Notation cmem := (cmem cat_in).

Definition sub_mem (a b : cls) : Prop := forall z, valid_rune z -> cmem a z = true -> cmem b z = true.

Definition locof (x : node) : list (cls * Z) := rf_res (RF x [] 0).
Definition okof (x : node) : bool := rf_ok (RF x [] 0).
Definition ldof (x : node) : Z := rf_dist (RF x [] 0).

Definition syn_shape (p : bool * list (cls * Z) * Z) (res : list (cls * Z)) (dist : Z) : Prop :=
  exists new, rf_res p = res ++ new /\ NoDup (map snd new) /\
    (forall S d, In (S, d) new -> gcls S /\ dist <= d /\ (rf_ok p = true -> d < rf_dist p)) /\
    (rf_ok p = true -> dist <= rf_dist p).

Definition syn_at (x : node) : Prop := forall res dist, 0 <= dist -> syn_shape (RF x res dist) res dist.

Lemma syn_loc x : syn_at x ->
  NoDup (map snd (locof x)) /\
  (forall S d, In (S, d) (locof x) -> gcls S /\ 0 <= d /\ (okof x = true -> d < ldof x)) /\
  (okof x = true -> 0 <= ldof x).
Proof.
  intros H. destruct (H [] 0 ltac:(lia)) as [new [E [Hnd [Hall Hd]]]]. cbn [app] in E.
  unfold locof, okof, ldof. rewrite E. auto.
Qed.

(* the counts of `combined` after the children in [done] *)
Definition cinv (done : list node) (cm : list (Z * cls * Z)) : Prop :=
  NoDup (ckeys cm) /\
  forall k S c, clook k cm = Some (S, c) ->
    acc_ok S /\ c <= zlen done /\ (exists x, In x done /\ In k (map snd (locof x))) /\
    (c = zlen done -> forall x, In x done -> exists Sx, In (Sx, k) (locof x) /\ sub_mem Sx S).

Lemma sub_mem_refl a : sub_mem a a.
Proof. intros z _ H. exact H. Qed.
Lemma sub_mem_trans a b c : sub_mem a b -> sub_mem b c -> sub_mem a c.
Proof. intros H1 H2 z Hz H. apply H2; [exact Hz|]. apply H1; assumption. Qed.

Lemma cinv_step done cm x :
  cinv done cm -> NoDup (map snd (locof x)) -> (forall S d, In (S, d) (locof x) -> gcls S) ->
  cinv (done ++ [x]) (comb_fold cat_in (locof x) cm).
Proof.
  intros [Hnd Hall] Hndx Hgx. split; [apply ckeys_fold_nodup; exact Hnd|].
  intros k S c Hl. rewrite clook_fold in Hl by exact Hndx. rewrite zlen_snoc.
  assert (Hzl : 0 <= zlen done) by (unfold zlen; lia).
  destruct (lfind k (locof x)) as [Sx|] eqn:Ef.
  - pose proof (lfind_some _ _ _ Ef) as Hin. pose proof (Hgx _ _ Hin) as Hg.
    assert (Hwit : exists x0, In x0 (done ++ [x]) /\ In k (map snd (locof x0))).
    { exists x. split; [apply in_or_app; right; left; reflexivity|]. apply (in_map snd) in Hin. exact Hin. }
    destruct (clook k cm) as [[S0 c0]|] eqn:Ec; cbn [merge1] in Hl.
    + destruct (Hall k S0 c0 Ec) as (A0 & Hc0 & _ & Hfull).
      destruct (is_mergeable S0 && is_mergeable Sx) eqn:Em.
      * injection Hl as <- <-. apply andb_true_iff in Em. destruct Em as [E1 E2].
        destruct (a2_add_set cat_in S0 Sx A0 E1 Hg E2) as [A1 B1].
        split; [exact A1|]. split; [lia|]. split; [exact Hwit|].
        intros Hc x0 Hx0. assert (Hc0' : c0 = zlen done) by lia.
        apply in_app_or in Hx0. destruct Hx0 as [Hx0|[<-|[]]].
        -- destruct (Hfull Hc0' x0 Hx0) as [Sy [Hy1 Hy2]]. exists Sy. split; [exact Hy1|].
           intros z Hz Hm. rewrite B1 by exact Hz. rewrite (Hy2 z Hz Hm). reflexivity.
        -- exists Sx. split; [exact Hin|]. intros z Hz Hm. rewrite B1 by exact Hz. rewrite Hm. apply orb_true_r.
      * injection Hl as <- <-. split; [exact A0|]. split; [lia|]. split; [exact Hwit|]. intros Hc. lia.
    + injection Hl as <- <-. split; [apply a2_copy_acc; exact Hg|]. split; [lia|]. split; [exact Hwit|].
      intros Hc x0 Hx0. assert (Hd0 : zlen done = 0) by lia.
      assert (done = []) by (destruct done; [reflexivity|unfold zlen in Hd0; cbn [length] in Hd0; lia]). subst done.
      cbn [app] in Hx0. destruct Hx0 as [<-|[]]. exists Sx. split; [exact Hin|].
      intros z Hz Hm. rewrite a2_copy_mem by exact Hg. exact Hm.
  - destruct (Hall k S c Hl) as (A0 & Hc0 & [x0 [Hx0 Hk0]] & _).
    split; [exact A0|]. split; [lia|]. split; [exists x0; split; [apply in_or_app; left; exact Hx0|exact Hk0]|].
    intros Hc. lia.
Qed.

(* allSameSize / sameDistance after the children in [done] *)
Definition jinv (done : list node) (allsame : bool) (same : Z) : Prop :=
  (done = [] -> same = -1) /\
  (done <> [] -> allsame = true -> 0 <= same /\ forall x, In x done -> okof x = true /\ ldof x = same).

Lemma rf_alt_inv : forall l done allsame same cm as' same' cm',
  Forall syn_at l -> cinv done cm -> jinv done allsame same ->
  rf_alt cat_in sets th l allsame same cm = Some (as', same', cm') ->
  cinv (done ++ l) cm' /\ jinv (done ++ l) as' same'.
Proof.
  induction l as [|x l IH]; intros done allsame same cm as' same' cm' Hsyn Hc Hj H; cbn [rf_alt] in H.
  - injection H as <- <- <-. rewrite app_nil_r. split; assumption.
  - inversion Hsyn as [|? ? Hx Hl]; subst.
    destruct (syn_loc x Hx) as (Hnd & Hall & Hld).
    destruct allsame; [|discriminate H].
    unfold locof, okof, ldof in *. destruct (RF x [] 0) as [[ok loc] ld] eqn:ER. cbn [rf_ok rf_res rf_dist fst snd] in *.
    destruct loc as [|e0 loc0] eqn:Eloc; [discriminate H|]. rewrite <- Eloc in *. clear Eloc e0 loc0.
    cbn [andb] in H.
    assert (Hstep : cinv (done ++ [x]) (comb_fold cat_in loc cm)).
    { pose proof (cinv_step done cm x Hc) as Hs. unfold locof in Hs. rewrite ER in Hs. cbn [rf_res fst snd] in Hs.
      apply Hs; [exact Hnd|]. intros S d Hin. apply (Hall S d Hin). }
    replace (done ++ x :: l) with ((done ++ [x]) ++ l) by (rewrite <- app_assoc; reflexivity).
    assert (Hne : done ++ [x] <> []) by (destruct done; discriminate).
    assert (Hokx : okof x = ok /\ ldof x = ld) by (unfold okof, ldof; rewrite ER; split; reflexivity).
    destruct ok.
    + destruct (same =? -1) eqn:E1.
      * eapply IH; [exact Hl|exact Hstep| |exact H].
        split; [intros Hx0; congruence|]. intros _ _. split; [apply Hld; reflexivity|].
        destruct Hj as [Hj1 Hj2]. destruct done as [|d0 done'].
        -- cbn [app]. intros x0 [<-|[]]. exact Hokx.
        -- exfalso. destruct (Hj2 ltac:(discriminate) eq_refl) as [H0 _]. lia.
      * destruct (same =? ld) eqn:E2.
        -- eapply IH; [exact Hl|exact Hstep| |exact H].
           split; [intros Hx0; congruence|]. intros _ _.
           destruct Hj as [Hj1 Hj2]. destruct done as [|d0 done']; [specialize (Hj1 eq_refl); lia|].
           destruct (Hj2 ltac:(discriminate) eq_refl) as [H0 Hall0]. split; [exact H0|].
           intros x0 Hx0. apply in_app_or in Hx0. destruct Hx0 as [Hx0|[<-|[]]]; [apply Hall0; exact Hx0|].
           destruct Hokx as [-> ->]. split; [reflexivity|lia].
        -- eapply IH; [exact Hl|exact Hstep| |exact H].
           split; [intros Hx0; congruence|]. intros _ Hf. discriminate Hf.
    + eapply IH; [exact Hl|exact Hstep| |exact H].
      split; [intros Hx0; congruence|]. intros _ Hf. discriminate Hf.
Qed.

Lemma rf_alt_start l allsame same cm :
  Forall syn_at l -> rf_alt cat_in sets th l true (-1) [] = Some (allsame, same, cm) -> cinv l cm /\ jinv l allsame same.
Proof.
  intros Hsyn EA. apply (rf_alt_inv l [] true (-1) [] allsame same cm Hsyn); [| |exact EA].
  - split; [constructor|]. intros k S c Hk. discriminate Hk.
  - split; [reflexivity|]. intros Hx. congruence.
Qed.

Lemma rf_multi_spec : forall str have dist,
  let p := rf_multi cat_in str have dist in
  dist <= snd p /\ (snd (fst p) = true -> snd p = dist + zlen str) /\ NoDup (map snd (fst (fst p))) /\
  forall S d, In (S, d) (fst (fst p)) ->
    dist <= d < snd p /\ d - dist < zlen str /\ S = add_char cat_in empty_cls (nth (Z.to_nat (d - dist)) str 0).
Proof.
  induction str as [|c str IH]; intros have dist; cbn [rf_multi].
  - cbn [fst snd map]. split; [lia|]. split; [intros _; unfold zlen; cbn; lia|]. split; [constructor|intros ? ? []].
  - destruct (have <? MAX_FIXED_RESULTS).
    + specialize (IH (have + 1) (dist + 1)). cbv zeta in IH.
      destruct (rf_multi cat_in str (have + 1) (dist + 1)) as [[l ok] d'] eqn:ER. cbn [fst snd] in *.
      destruct IH as (H1 & H2 & H3 & H4).
      assert (Hz : zlen (c :: str) = 1 + zlen str) by (unfold zlen; cbn [length]; lia).
      split; [lia|]. split; [intros Hok; rewrite (H2 Hok), Hz; lia|]. split.
      * cbn [map snd]. constructor; [|exact H3]. intros Hin. apply in_map_iff in Hin.
        destruct Hin as [[S' d0] [Hd0 Hin]]. cbn [snd] in Hd0. subst d0. destruct (H4 _ _ Hin) as [? _]. lia.
      * intros S d [Heq|Hin].
        -- injection Heq as <- <-. split; [lia|]. split; [unfold zlen; cbn [length]; lia|].
           replace (dist - dist) with 0 by lia. reflexivity.
        -- destruct (H4 _ _ Hin) as (A & B & C). split; [lia|]. split; [lia|].
           replace (Z.to_nat (d - dist)) with (Datatypes.S (Z.to_nat (d - (dist + 1)))) by lia. exact C.
    + cbn [fst snd map]. split; [lia|]. split; [discriminate|]. split; [constructor|intros ? ? []].
Qed.

Lemma one_cls_good c : rune_ok c = true -> gcls (add_char cat_in empty_cls c).
Proof.
  intros Hc. destruct (a2_add_char cat_in empty_cls c (a2_empty_acc cat_in) eq_refl (a2_rune_ok cat_in c Hc)) as [[A _] _].
  exact A.
Qed.

Lemma one_cls_mem c x : rune_ok c = true -> valid_rune x -> cmem (add_char cat_in empty_cls c) x = (x =? c).
Proof.
  intros Hc Hx. destruct (a2_add_char cat_in empty_cls c (a2_empty_acc cat_in) eq_refl (a2_rune_ok cat_in c Hc)) as [_ B].
  rewrite B by exact Hx. reflexivity.
Qed.

Lemma acc_gcls S : acc_ok S -> gcls S.
Proof. intros [H _]. exact H. Qed.

Lemma syn_nothing x : (forall res dist, rf_res (RF x res dist) = res /\ (rf_ok (RF x res dist) = true -> dist <= rf_dist (RF x res dist))) -> syn_at x.
Proof.
  intros H res dist Hd. destruct (H res dist) as [E1 E2]. exists []. rewrite app_nil_r.
  split; [exact E1|]. split; [constructor|]. split; [intros ? ? []|exact E2].
Qed.


Lemma syn_none res dist (b : bool) (d' : Z) : (b = true -> dist <= d') -> syn_shape (b, res, d') res dist.
Proof.
  intros H. exists []. rewrite app_nil_r. cbn [rf_ok rf_res rf_dist fst snd map].
  split; [reflexivity|]. split; [constructor|]. split; [intros ? ? []|exact H].
Qed.

Lemma syn_one res dist S (b : bool) : gcls S -> syn_shape (b, res ++ [(S, dist)], dist + 1) res dist.
Proof.
  intros Hg. exists [(S, dist)]. cbn [rf_ok rf_res rf_dist fst snd map].
  split; [reflexivity|]. split; [constructor; [intros []|constructor]|].
  split; [|intros _; lia]. intros S' d [Heq|[]]. injection Heq as <- <-. split; [exact Hg|]. split; intros; lia.
Qed.

Lemma syn_push res dist S k (b : bool) : gcls S -> 0 <= k ->
  syn_shape (b, res ++ rf_push S (Z.to_nat k) dist, dist + k) res dist.
Proof.
  intros Hg Hk. exists (rf_push S (Z.to_nat k) dist). cbn [rf_ok rf_res rf_dist fst snd].
  destruct (rf_push_spec S (Z.to_nat k) dist) as [Hn Hall].
  split; [reflexivity|]. split; [exact Hn|]. split; [|intros _; lia].
  intros S' d Hin. destruct (Hall _ _ Hin) as [-> Hd]. split; [exact Hg|]. split; intros; lia.
Qed.

Lemma syn_forget p res dist : syn_shape p res dist -> syn_shape (false, rf_res p, rf_dist p) res dist.
Proof.
  intros [new [E [Hn [Hall Hd]]]]. exists new. cbn [rf_ok rf_res rf_dist fst snd].
  split; [exact E|]. split; [exact Hn|]. split; [|discriminate].
  intros S d Hin. destruct (Hall _ _ Hin) as (A & B & _). split; [exact A|]. split; [exact B|discriminate].
Qed.

Lemma syn_seq p1 p2 res dist :
  syn_shape p1 res dist -> (rf_ok p1 = true -> syn_shape p2 (rf_res p1) (rf_dist p1)) ->
  syn_shape (if rf_ok p1 then p2 else (false, rf_res p1, rf_dist p1)) res dist.
Proof.
  intros H1 H2. destruct (rf_ok p1) eqn:E1; [|apply syn_forget; exact H1].
  destruct H1 as [n1 [Ea [Hn1 [Hall1 Hd1]]]]. destruct (H2 eq_refl) as [n2 [Eb [Hn2 [Hall2 Hd2]]]].
  specialize (Hd1 E1). exists (n1 ++ n2). split; [rewrite Eb, Ea, app_assoc; reflexivity|].
  split.
  - rewrite map_app. apply nodup_app; [exact Hn1|exact Hn2|].
    intros d Hi1 Hi2. apply in_map_iff in Hi1. destruct Hi1 as [[S1 d1] [<- Hi1]].
    apply in_map_iff in Hi2. destruct Hi2 as [[S2 d2] [Hd Hi2]]. cbn [snd] in *. subst d2.
    destruct (Hall1 _ _ Hi1) as (_ & _ & C1). destruct (Hall2 _ _ Hi2) as (_ & B2 & _). specialize (C1 E1). lia.
  - split.
    + intros S d Hin. apply in_app_or in Hin. destruct Hin as [Hin|Hin].
      * destruct (Hall1 _ _ Hin) as (A & B & C). split; [exact A|]. split; [exact B|].
        intros Hok. specialize (C E1). specialize (Hd2 Hok). lia.
      * destruct (Hall2 _ _ Hin) as (A & B & C). split; [exact A|]. split; [lia|exact C].
    + intros Hok. specialize (Hd2 Hok). lia.
Qed.

Lemma rf_iters_nonneg want have : 0 <= rf_iters want have.
Proof. unfold rf_iters. lia. Qed.

Definition syn_ok (t : node) : Prop := shape_ok false t = true -> lits_ok t = true -> syn_at t.

Lemma syn_cat : forall l, Forall syn_ok l -> forallb (shape_ok false) l = true -> forallb lits_ok l = true ->
  forall res dist, 0 <= dist -> syn_shape (rf_cat cat_in sets th l res dist) res dist.
Proof.
  induction l as [|x l IH]; intros Hf Hs Hl res dist Hd.
  - cbn [rf_cat]. apply syn_none. intros _. lia.
  - rewrite rf_cat_cons. cbv zeta. cbn [forallb] in Hs, Hl.
    apply andb_true_iff in Hs. destruct Hs as [Hsx Hsl]. apply andb_true_iff in Hl. destruct Hl as [Hlx Hll].
    inversion Hf as [|? ? Px Pl]; subst.
    apply syn_seq; [apply (Px Hsx Hlx); exact Hd|].
    intros Hok. destruct (Px Hsx Hlx res dist Hd) as [_ [_ [_ [_ Hdd]]]]. apply IH; auto. specialize (Hdd Hok). lia.
Qed.

Lemma syn_all : forall t, syn_ok t.
Proof.
  induction t using node_ind'; unfold syn_ok; intros Hs Hl res dist Hd.
  - (* NChar *)
    cbn [shape_ok] in Hs. apply eqb_prop in Hs. destruct k; cbn [raw_fixed lits_ok] in *; rewrite Hs.
    + destruct (zlen res <? MAX_FIXED_RESULTS); [apply syn_one; apply one_cls_good; exact Hl|apply syn_none; discriminate].
    + apply syn_none. intros _. lia.
    + destruct (zlen res <? MAX_FIXED_RESULTS); [apply syn_one; apply Hgood|apply syn_none; discriminate].
  - (* NCharLoop *)
    cbn [shape_ok] in Hs. apply andb_true_iff in Hs. destruct Hs as [Hs Hmn].
    apply andb_true_iff in Hs. destruct Hs as [Hs Hm0]. apply eqb_prop in Hs.
    destruct k; cbn [raw_fixed lits_ok] in *; rewrite Hs.
    + destruct (0 <? m); [|apply syn_none; discriminate].
      apply syn_push; [apply one_cls_good; exact Hl|apply rf_iters_nonneg].
    + destruct (m =? n); [|apply syn_none; discriminate]. apply syn_none. intros _. lia.
    + destruct (0 <? m); [|apply syn_none; discriminate].
      apply syn_push; [apply Hgood|apply rf_iters_nonneg].
  - (* NMulti *)
    cbn [shape_ok raw_fixed lits_ok] in *. apply eqb_prop in Hs. rewrite Hs.
    pose proof (rf_multi_spec s (zlen res) dist) as Hm. cbv zeta in Hm.
    destruct (rf_multi cat_in s (zlen res) dist) as [[l ok] d'] eqn:ER. cbn [fst snd] in Hm.
    destruct Hm as (H1 & H2 & H3 & H4).
    exists l. cbn [rf_ok rf_res rf_dist fst snd]. split; [reflexivity|]. split; [exact H3|]. split; [|intros _; exact H1].
    intros S d Hin. destruct (H4 _ _ Hin) as (A & B & C). split; [|split; intros; lia].
    subst S. apply one_cls_good. destruct s as [|c0 s0]; [discriminate Hl|]. rewrite forallb_forall in Hl.
    apply Hl. apply nth_In. unfold zlen in B. lia.
  - (* NRef *) cbn [raw_fixed]. apply syn_none. discriminate.
  - (* NAnchor *) cbn [raw_fixed]. apply syn_none. intros _. lia.
  - (* NNothing *) cbn [raw_fixed]. apply syn_none. discriminate.
  - (* NEmpty *) cbn [raw_fixed]. apply syn_none. intros _. lia.
  - (* NBump *) cbn [raw_fixed]. apply syn_none. intros _. lia.
  - (* NConcat *)
    rewrite rf_concat_eq. destruct (is_rtl o); [apply syn_none; discriminate|].
    cbn [shape_ok lits_ok] in *. apply syn_cat; assumption.
  - (* NAlternate *)
    rewrite rf_alternate_eq. destruct (is_rtl o); [apply syn_none; discriminate|].
    apply (if_elim (fun p => syn_shape p res dist)); intros Eth; [|apply syn_none; discriminate].
    pose proof (an_alt_forallb false l Hs) as Hfa. cbn [lits_ok] in Hl.
    assert (Hne : l <> []) by (destruct l; [discriminate Hs|discriminate]).
    assert (Hsyn : Forall syn_at l).
    { rewrite Forall_forall in *. intros x Hx. rewrite forallb_forall in Hfa, Hl. apply H; auto. }
    destruct (rf_alt cat_in sets th l true (-1) []) as [[[allsame same] cm]|] eqn:EA; [|apply syn_none; discriminate].
    destruct (rf_alt_start l allsame same cm Hsyn EA) as [[Hnd Hcm] [_ Hj]].
    destruct (comb_publish_spec (zlen l) dist cm res allsame Hnd) as [new [E [Hn [Hall Has]]]].
    destruct (comb_publish cm (zlen l) dist res allsame) as [res' as'] eqn:EP. cbn [fst snd] in *.
    assert (Hbase : forall S d, In (S, d) new -> gcls S /\ dist <= d /\ (as' = true -> d < dist + same)).
    { intros S d Hin. destruct (Hall _ _ Hin) as [k [-> Hink]].
      pose proof (clook_in cm Hnd _ _ _ Hink) as Hlk. destruct (Hcm _ _ _ Hlk) as (A & _ & [x [Hx Hkx]] & _).
      assert (Hsx : syn_at x) by (rewrite Forall_forall in Hsyn; apply Hsyn; exact Hx).
      destruct (syn_loc x Hsx) as (_ & Hlx & _).
      apply in_map_iff in Hkx. destruct Hkx as [[Sx kx] [Hkk Hinx]]. cbn [snd] in Hkk. subst kx.
      destruct (Hlx _ _ Hinx) as (_ & Hk0 & Hklt).
      split; [apply acc_gcls; exact A|]. split; [lia|].
      intros Ha. destruct (Hj Hne (Has Ha)) as [_ Hallx]. destruct (Hallx x Hx) as [Hox Hdx].
      specialize (Hklt Hox). lia. }
    destruct as'.
    + exists new. cbn [rf_ok rf_res rf_dist fst snd]. split; [exact E|]. split; [exact Hn|]. split.
      * intros S d Hin. destruct (Hbase _ _ Hin) as (A & B & C). split; [exact A|]. split; [exact B|]. intros _. apply C. reflexivity.
      * intros _. destruct (Hj Hne (Has eq_refl)) as [H0 _]. lia.
    + exists new. cbn [rf_ok rf_res rf_dist fst snd]. split; [exact E|]. split; [exact Hn|]. split; [|discriminate].
      intros S d Hin. destruct (Hbase _ _ Hin) as (A & B & C). split; [exact A|]. split; [exact B|discriminate].
  - (* NLoop *)
    cbn [raw_fixed shape_ok lits_ok] in *. apply andb_true_iff in Hs. destruct Hs as [Hmn Hsr].
    destruct (is_rtl o); [apply syn_none; discriminate|].
    destruct (0 <? m); [|apply syn_none; discriminate].
    pose proof (syn_forget _ _ _ (IHt Hsr Hl res dist Hd)) as Hf.
    destruct (raw_fixed cat_in sets th t res dist) as [[ok r] d']. exact Hf.
  - (* NCapture *)
    cbn [raw_fixed shape_ok lits_ok] in *. destruct (is_rtl o); [apply syn_none; discriminate|]. apply IHt; assumption.
  - (* NGroup *) cbn [raw_fixed shape_ok lits_ok] in *. apply IHt; assumption.
  - (* NPosLook *) cbn [raw_fixed]. destruct (is_rtl o); apply syn_none; [discriminate|intros _; lia].
  - (* NNegLook *) cbn [raw_fixed]. destruct (is_rtl o); apply syn_none; [discriminate|intros _; lia].
  - (* NAtomic *) cbn [raw_fixed shape_ok lits_ok] in *. apply IHt; assumption.
  - (* NBackRefCond *) cbn [raw_fixed]. apply syn_none. discriminate.
  - (* NExprCond *) cbn [raw_fixed]. apply syn_none. discriminate.
Qed.

(* soundness against the reference semantics                                                   *)

Variable e : env.
Hypothesis Hagree : forall id x, set_in e id x = cmem (set_cls sets id) x.
Hypothesis Hvalid : forall i, valid_rune (char_at e i).
(* the input is shorter than MaxInt32 runes: a loop {m,} with m = MaxInt32 cannot match *)
Hypothesis Hshort : tlen e < INF.

Definition sem_shape (p : bool * list (cls * Z) * Z) (res : list (cls * Z)) (dist : Z) (s y : st) : Prop :=
  forall new, rf_res p = res ++ new ->
    (forall S d, In (S, d) new ->
       pos s + (d - dist) < pos y /\ cmem S (char_at e (pos s + (d - dist))) = true) /\
    (rf_ok p = true -> pos y = pos s + (rf_dist p - dist)).

Definition GT (t : node) (s y : st) : Prop :=
  forall res dist, 0 <= dist -> sem_shape (RF t res dist) res dist s y.

Definition GS (l : list node) (s y : st) : Prop :=
  forall res dist, 0 <= dist -> sem_shape (rf_cat cat_in sets th l res dist) res dist s y.

Lemma sem_none res dist (b : bool) d' s y :
  (b = true -> pos y = pos s + (d' - dist)) -> sem_shape (b, res, d') res dist s y.
Proof.
  intros H new E. cbn [rf_ok rf_res rf_dist fst snd] in *.
  assert (new = []) by (apply (app_inv_head res); rewrite app_nil_r; symmetry; exact E). subst new.
  split; [intros ? ? []|exact H].
Qed.

Lemma sem_forget p res dist s y : sem_shape p res dist s y -> sem_shape (false, rf_res p, rf_dist p) res dist s y.
Proof.
  intros H new E. cbn [rf_ok rf_res rf_dist fst snd] in *. destruct (H new E) as [A _]. split; [exact A|discriminate].
Qed.

Lemma sem_weaken p res dist s y y' : pos y <= pos y' -> sem_shape p res dist s y ->
  sem_shape (false, rf_res p, rf_dist p) res dist s y'.
Proof.
  intros Hle H new E. cbn [rf_ok rf_res rf_dist fst snd] in *. destruct (H new E) as [A _].
  split; [|discriminate]. intros S d Hin. destruct (A S d Hin). split; [lia|assumption].
Qed.

Lemma sem_seq p1 p2 res dist s s1 y :
  syn_shape p1 res dist -> pos s <= pos s1 -> pos s1 <= pos y ->
  sem_shape p1 res dist s s1 ->
  (rf_ok p1 = true -> syn_shape p2 (rf_res p1) (rf_dist p1) /\ sem_shape p2 (rf_res p1) (rf_dist p1) s1 y) ->
  sem_shape (if rf_ok p1 then p2 else (false, rf_res p1, rf_dist p1)) res dist s y.
Proof.
  intros [n1 [Ea [_ [_ Hd1]]]] H01 H1y H1 H2.
  destruct (rf_ok p1) eqn:E1.
  - destruct (H2 eq_refl) as [[n2 [Eb _]] H2s]. intros new E. rewrite Eb, Ea, <- app_assoc in E.
    apply app_inv_head in E. subst new.
    destruct (H1 n1 Ea) as [A1 B1]. destruct (H2s n2 Eb) as [A2 B2]. specialize (B1 E1).
    split.
    + intros S d Hin. apply in_app_or in Hin. destruct Hin as [Hin|Hin].
      * destruct (A1 S d Hin). split; [lia|assumption].
      * destruct (A2 S d Hin) as [X Y]. replace (pos s + (d - dist)) with (pos s1 + (d - rf_dist p1)) by lia.
        split; assumption.
    + intros Hok. rewrite (B2 Hok). lia.
  - apply (sem_weaken p1 res dist s s1 y H1y H1).
Qed.

Lemma fixed_all :
  (forall t s y, Run e false lit_tree t s y -> GT t s y) /\
  (forall l s y, RunSeq e false lit_tree l s y -> GS l s y) /\
  (forall r limit s count y, RunIter e false lit_tree r limit s count y -> True).
Proof.
  apply Run_mutind.
  - (* W_char *)
    intros k o c s [Hs Ho] _ Hc res dist Hd. apply lit_tree_inv in Ho. destruct Ho as [_ Hl].
    cbn [shape_ok] in Hs. apply eqb_prop in Hs.
    apply andb_true_iff in Hc. destruct Hc as [Hav Hch].
    unfold next_char, dir in *. rewrite Hs in *. cbn [pos with_pos].
    destruct k; cbn [raw_fixed lits_ok char_test] in *; rewrite Hs.
    + destruct (zlen res <? MAX_FIXED_RESULTS); [|apply sem_none; discriminate].
      intros new E. cbn [rf_ok rf_res rf_dist fst snd] in *. apply app_inv_head in E. subst new.
      split; [|intros _; cbn [pos with_pos]; lia].
      intros S d [Heq|[]]. injection Heq as <- <-. replace (pos s + (dist - dist)) with (pos s) by lia.
      cbn [pos with_pos]. split; [lia|]. rewrite one_cls_mem by (try exact Hl; apply Hvalid). exact Hch.
    + apply sem_none. intros _. cbn [pos with_pos]. lia.
    + destruct (zlen res <? MAX_FIXED_RESULTS); [|apply sem_none; discriminate].
      intros new E. cbn [rf_ok rf_res rf_dist fst snd] in *. apply app_inv_head in E. subst new.
      split; [|intros _; cbn [pos with_pos]; lia].
      intros S d [Heq|[]]. injection Heq as <- <-. replace (pos s + (dist - dist)) with (pos s) by lia.
      cbn [pos with_pos]. split; [lia|]. rewrite <- Hagree. exact Hch.
  - (* W_charloop *)
    intros k l o c m n s y [Hs Ho] Hb Hin res dist Hd. apply lit_tree_inv in Ho. destruct Ho as [_ Hl].
    cbn [shape_ok] in Hs. apply andb_true_iff in Hs. destruct Hs as [Hs Hmn].
    apply andb_true_iff in Hs. destruct Hs as [Hs Hm0]. apply eqb_prop in Hs.
    apply an_charloop_in in Hin. destruct Hin as [j [maxn [Hy [Hj [Hav0 Hjn]]]]]. subst y.
    assert (Hjav : j <= Z.max 0 (tlen e - pos s)) by (unfold avail in Hav0; rewrite Hs in Hav0; exact Hav0).
    unfold dir in *. rewrite Hs in *. cbn [pos with_pos].
    assert (Hpy : pos s + 1 * j = pos s + j) by lia. rewrite Hpy.
    destruct k; cbn [raw_fixed lits_ok] in *; rewrite Hs.
    + destruct (0 <? m) eqn:Em; [|apply sem_none; discriminate].
      set (kk := rf_iters (Z.min MAX_LOOP_EXPANSION m) (zlen res)).
      assert (Hkk : 0 <= kk <= Z.min MAX_LOOP_EXPANSION m) by (subst kk; unfold rf_iters, MAX_LOOP_EXPANSION, MAX_FIXED_RESULTS; lia).
      intros new E. cbn [rf_ok rf_res rf_dist fst snd] in *. apply app_inv_head in E. subst new.
      destruct (rf_push_spec (add_char cat_in empty_cls c) (Z.to_nat kk) dist) as [_ Hall].
      split.
      * intros S d Hin. destruct (Hall _ _ Hin) as [-> Hdd]. cbn [pos with_pos]. split; [lia|].
        rewrite one_cls_mem by (try exact Hl; apply Hvalid).
        apply (an_run_len_nth e COne c o Hs maxn (pos s) (d - dist)). lia.
      * intros Hok. apply andb_true_iff in Hok. destruct Hok as [H1 H2]. cbn [pos with_pos].
        assert (Hn2 : n <> INF) by (unfold MAX_LOOP_EXPANSION, INF in *; lia). specialize (Hjn Hn2). lia.
    + destruct (m =? n) eqn:Emn; [|apply sem_none; discriminate].
      apply sem_none. intros _. cbn [pos with_pos].
      destruct (Z.eq_dec n INF) as [Hinf|Hn2]; [|specialize (Hjn Hn2); lia].
      exfalso. unfold inb in Hb. lia.
    + destruct (0 <? m) eqn:Em; [|apply sem_none; discriminate].
      set (kk := rf_iters (Z.min MAX_LOOP_EXPANSION m) (zlen res)).
      assert (Hkk : 0 <= kk <= Z.min MAX_LOOP_EXPANSION m) by (subst kk; unfold rf_iters, MAX_LOOP_EXPANSION, MAX_FIXED_RESULTS; lia).
      intros new E. cbn [rf_ok rf_res rf_dist fst snd] in *. apply app_inv_head in E. subst new.
      destruct (rf_push_spec (set_cls sets c) (Z.to_nat kk) dist) as [_ Hall].
      split.
      * intros S d Hin. destruct (Hall _ _ Hin) as [-> Hdd]. cbn [pos with_pos]. split; [lia|].
        rewrite <- Hagree.
        apply (an_run_len_nth e CSet c o Hs maxn (pos s) (d - dist)). lia.
      * intros Hok. apply andb_true_iff in Hok. destruct Hok as [H1 H2]. cbn [pos with_pos].
        assert (Hn2 : n <> INF) by (unfold MAX_LOOP_EXPANSION, INF in *; lia). specialize (Hjn Hn2). lia.
  - (* W_multi *)
    intros o str s y [Hs Ho] _ Hin res dist Hd. apply lit_tree_inv in Ho. destruct Ho as [Hn Hl].
    cbn [shape_ok no_ci_lit lits_ok raw_fixed] in *.
    apply eqb_prop in Hs. apply negb_true_iff in Hn. rewrite Hs.
    apply an_multi_in in Hin. destruct Hin as [-> [Hav Hm]]. rewrite Hn, Hs in Hm. unfold dir. rewrite Hs.
    pose proof (rf_multi_spec str (zlen res) dist) as Hsp. cbv zeta in Hsp.
    destruct (rf_multi cat_in str (zlen res) dist) as [[l ok] d'] eqn:ER. cbn [fst snd] in Hsp.
    destruct Hsp as (H1 & H2 & H3 & H4).
    intros new E. cbn [rf_ok rf_res rf_dist fst snd] in *. apply app_inv_head in E. subst new.
    cbn [pos with_pos]. split; [|intros Hok; rewrite (H2 Hok); lia].
    intros S d Hin. destruct (H4 _ _ Hin) as (A & B & C). split; [lia|]. subst S.
    assert (Hi : (Z.to_nat (d - dist) < length str)%nat) by (unfold zlen in B; lia).
    pose proof (an_str_match_nth e str (pos s) (Z.to_nat (d - dist)) Hm Hi) as Hnth.
    replace (pos s + Z.of_nat (Z.to_nat (d - dist))) with (pos s + (d - dist)) in Hnth by lia.
    assert (Hr : rune_ok (nth (Z.to_nat (d - dist)) str 0) = true).
    { destruct str as [|c0 s0]; [discriminate Hl|]. rewrite forallb_forall in Hl. apply Hl. apply nth_In. exact Hi. }
    rewrite one_cls_mem by (try exact Hr; apply Hvalid). rewrite Hnth. apply Z.eqb_refl.
  - (* W_ref *) intros o g s y _ res dist _. cbn [raw_fixed]. apply sem_none. discriminate.
  - (* W_anchor *) intros a s _ res dist _. cbn [raw_fixed]. apply sem_none. intros _. lia.
  - (* W_empty *) intros s res dist _. cbn [raw_fixed]. apply sem_none. intros _. lia.
  - (* W_bump *) intros s res dist _. cbn [raw_fixed]. apply sem_none. intros _. lia.
  - (* W_concat *)
    intros o l s y _ IH res dist Hd. rewrite rf_concat_eq.
    destruct (is_rtl o); [apply sem_none; discriminate|]. apply IH; assumption.
  - (* W_alt *)
    intros o l x s y [Hfa Hol] Hin _ IH _ res dist Hd. rewrite rf_alternate_eq.
    apply lit_trees_inv in Hol. destruct Hol as [_ Hl].
    destruct (is_rtl o); [apply sem_none; discriminate|].
    apply (if_elim (fun p => sem_shape p res dist s y)); intros Eth; [|apply sem_none; discriminate].
    assert (Hne : l <> []) by (destruct l; [destruct Hin|discriminate]).
    assert (Hsyn : Forall syn_at l).
    { rewrite Forall_forall. intros x0 Hx0. rewrite forallb_forall in Hfa, Hl. apply syn_all; auto. }
    destruct (rf_alt cat_in sets th l true (-1) []) as [[[allsame same] cm]|] eqn:EA; [|apply sem_none; discriminate].
    destruct (rf_alt_start l allsame same cm Hsyn EA) as [[Hnd Hcm] [_ Hj]].
    destruct (comb_publish_spec (zlen l) dist cm res allsame Hnd) as [new0 [E0 [_ [Hall Has]]]].
    destruct (comb_publish cm (zlen l) dist res allsame) as [res' as'] eqn:EP. cbn [fst snd] in *.
    (* what the branch taken says *)
    specialize (IH [] 0 ltac:(lia) (locof x) eq_refl). destruct IH as [IA IB].
    assert (Hbase : forall S d, In (S, d) new0 ->
              pos s + (d - dist) < pos y /\ cmem S (char_at e (pos s + (d - dist))) = true).
    { intros S d Hind. destruct (Hall _ _ Hind) as [k [-> Hink]].
      pose proof (clook_in cm Hnd _ _ _ Hink) as Hlk. destruct (Hcm _ _ _ Hlk) as (_ & _ & _ & Hfull).
      destruct (Hfull eq_refl x Hin) as [Sx [Hsx1 Hsx2]].
      destruct (IA _ _ Hsx1) as [P1 P2]. replace (k + dist - dist) with (k - 0) by lia.
      split; [exact P1|]. apply Hsx2; [apply Hvalid|exact P2]. }
    assert (Hpos : as' = true -> pos y = pos s + same).
    { intros Ha. destruct (Hj Hne (Has Ha)) as [_ Hallx]. destruct (Hallx x Hin) as [Hox Hdx].
      unfold okof, ldof in *. rewrite (IB Hox), Hdx. lia. }
    destruct as'; intros new E; cbn [rf_ok rf_res rf_dist fst snd] in *; rewrite E0 in E; apply app_inv_head in E; subst new.
    + split; [exact Hbase|]. intros _. rewrite (Hpos eq_refl). lia.
    + split; [exact Hbase|discriminate].
  - (* W_loop0 *)
    intros lazy o n r s y _ _ _ res dist Hd. cbn [raw_fixed].
    destruct (is_rtl o); apply sem_none; discriminate.
  - (* W_loop1 *)
    intros lazy o m n r s s1 y _ _ _ IH1 _ _ _ _ Hf2 res dist Hd. cbn [raw_fixed].
    destruct (is_rtl o); [apply sem_none; discriminate|].
    destruct (0 <? m); [|apply sem_none; discriminate].
    pose proof (sem_weaken _ res dist s s1 y ltac:(unfold disp in Hf2; lia) (IH1 res dist Hd)) as Hw.
    destruct (raw_fixed cat_in sets th r res dist) as [[ok rr] d']. exact Hw.
  - (* W_capture *)
    intros o g u r s s1 y _ IH Hy res dist Hd. cbn [raw_fixed].
    destruct (is_rtl o); [apply sem_none; discriminate|]. unfold sem_shape. rewrite Hy. exact (IH res dist Hd).
  - (* W_group *) intros r s y _ IH. exact IH.
  - (* W_poslook *)
    intros o r s y Hy res dist _. cbn [raw_fixed]. destruct (is_rtl o); apply sem_none; [discriminate|]. intros _. lia.
  - (* W_neglook *)
    intros o r s res dist _. cbn [raw_fixed]. destruct (is_rtl o); apply sem_none; [discriminate|]. intros _. lia.
  - (* W_atomic *) intros r s y _ IH. exact IH.
  - (* W_brc *) intros; intros res dist ?; cbn [raw_fixed]; apply sem_none; discriminate.
  - (* W_ec *) intros; intros res dist ?; cbn [raw_fixed]; apply sem_none; discriminate.
  - (* WS_nil *)
    intros s res dist _. cbn [rf_cat]. apply sem_none. intros _. lia.
  - (* WS_cons *)
    intros x l s s1 y [Hsx Hox] [Hsl Hol] _ IH1 _ IH2 _ Hf1 Hf2 res dist Hd. rewrite rf_cat_cons. cbv zeta.
    apply lit_tree_inv in Hox. destruct Hox as [_ Hlx]. apply lit_trees_inv in Hol. destruct Hol as [_ Hll].
    unfold disp in Hf1, Hf2.
    pose proof (syn_all x Hsx Hlx res dist Hd) as Hsyn1.
    apply (sem_seq _ _ res dist s s1 y Hsyn1 ltac:(lia) ltac:(lia) (IH1 res dist Hd)).
    intros Hok. destruct Hsyn1 as [_ [_ [_ [_ Hdd]]]]. specialize (Hdd Hok).
    split.
    + apply syn_cat; [|assumption|assumption|lia]. rewrite Forall_forall. intros z _. apply syn_all.
    + apply IH2. lia.
  - (* WI_stop *) intros; exact I.
  - (* WI_more *) intros; exact I.
Qed.

(* every entry tryFindRawFixedSets collects on the root holds at every successful attempt *)
Theorem a2_raw_fixed_sound fuel root p s' :
  shape_ok false root = true -> no_ci_lit root = true -> lits_ok root = true -> 0 <= p <= tlen e ->
  attempt e fuel root p = Ok (Some s') ->
  forall S d, In (S, d) (rf_res (RF root [] 0)) ->
    0 <= d /\ p + d < tlen e /\ cmem S (char_at e (p + d)) = true.
Proof.
  intros Hs Hn Hl Hp Ha S d Hin. pose proof (attempt_reach e _ _ _ _ Ha) as Hr.
  assert (Hb : inb e {| pos := p; caps := [] |}) by exact Hp.
  assert (Hw : wf false lit_tree root) by (split; [exact Hs|unfold lit_tree; rewrite Hn, Hl; reflexivity]).
  destruct (proj1 fixed_all _ _ _ (attempt_run e false lit_tree lit_tree_kids fuel root p s' Hw Hp Ha) [] 0 ltac:(lia) _ eq_refl)
    as [A _].
  destruct (A S d Hin) as [P1 P2]. cbn [pos] in *. replace (d - 0) with d in * by lia.
  destruct (an_step e false root _ _ Hr Hs Hb an_caps_nonneg_nil) as [Hy _]. unfold inb in Hy.
  destruct (syn_loc root (syn_all root Hs Hl)) as (_ & Hall & _). destruct (Hall S d Hin) as (_ & H0 & _).
  split; [exact H0|]. split; [lia|exact P2].
Qed.

(* findFixedDistanceSets (before the Chars / Range decoration, which keeps Set and Distance): at every
   successful attempt at p, the character at p + distance exists and is in the set *)
Theorem a2_fixed_distance_raw_sound fuel root p s' :
  shape_ok false root = true -> no_ci_lit root = true -> lits_ok root = true -> 0 <= p <= tlen e ->
  attempt e fuel root p = Ok (Some s') ->
  forall S d, In (S, d) (fixed_distance_raw cat_in sets th root) ->
    0 <= d /\ p + d < tlen e /\ char_in cat_in S (char_at e (p + d)) = true.
Proof.
  intros Hs Hn Hl Hp Ha S d Hin. unfold fixed_distance_raw in Hin.
  pose proof (a2_raw_fixed_sound fuel root p s' Hs Hn Hl Hp Ha) as Hraw. unfold rf_res in Hraw.
  destruct (RF root [] 0) as [[ok res] dd]. cbn [fst snd] in Hraw.
  destruct (filter (fun sd : cls * Z => negb (anything (fst sd))) res) as [|f0 fl] eqn:Ef.
  - destruct (find_first_char_class cat_in sets root) as [c|] eqn:Ec; [|destruct Hin].
    destruct (anything c); [destruct Hin|]. destruct Hin as [Heq|[]]. injection Heq as <- <-.
    destruct (a2_first_char_class_sound e cat_in sets Hgood Hagree Hvalid false fuel root p s' c Hs Hn Hl Hp Ec Ha) as [[P1 _] P2].
    replace (p + 0) with p by lia. split; [lia|]. split; [exact P1|exact P2].
  - rewrite <- Ef in Hin. apply filter_In in Hin. destruct Hin as [Hin _]. apply Hraw. exact Hin.
Qed.

Theorem a2_fixed_distance_sets_sound fuel root p s' :
  shape_ok false root = true -> no_ci_lit root = true -> lits_ok root = true -> 0 <= p <= tlen e ->
  attempt e fuel root p = Ok (Some s') ->
  forall f, In f (find_fixed_distance_sets cat_in sets th root) ->
    0 <= fs_dist f /\ p + fs_dist f < tlen e /\ char_in cat_in (fs_set f) (char_at e (p + fs_dist f)) = true.
Proof.
  intros Hs Hn Hl Hp Ha f Hin. unfold find_fixed_distance_sets in Hin. apply in_map_iff in Hin.
  destruct Hin as [[S d] [<- Hin]].
  assert (E : fs_set (fd_decorate cat_in (S, d)) = S /\ fs_dist (fd_decorate cat_in (S, d)) = d).
  { unfold fd_decorate. cbn [fst snd]. destruct (get_if_one_range S) as [[a b]|]; [destruct (1 <? b - a)|]; split; reflexivity. }
  destruct E as [-> ->]. exact (a2_fixed_distance_raw_sound fuel root p s' Hs Hn Hl Hp Ha S d Hin).
Qed.

End Syn.

(* Proofs about Model/Spec.v:
   A. the continuation-passing search [semk] computes exactly [first_some k] of the
      priority-ordered result list of [sem]  (semk_sem, attemptk_attempt, findk_find);
   B. the scan [scan_from] / [find] returns the result of the FIRST candidate position in scan
      order at which [attempt] succeeds (spec_scan_from_*, spec_find_leftmost);
   C. [sem] preserves relations between two runs (sem_rel), with the case of equal states for
      [sem] and [semk] (sem_ext, semk_ext). *)
From Verif Require Import Base.Prelude Model.Tree Model.Spec.

(* generic facts about [bind], [first_some], [or_else], [bindl]                                *)

Lemma sp_bind_ok {A B} (r : res A) (f : A -> res B) (b : B) :
  bind r f = Ok b -> exists a, r = Ok a /\ f a = Ok b.
Proof. destruct r as [a| | |]; cbn [bind]; intros H; try discriminate. exists a. split; [reflexivity|exact H]. Qed.

Lemma sp_bindr_ok {A B} (r : res (list A)) (f : A -> res (list B)) (l : list B) :
  bindr r f = Ok l -> exists la, r = Ok la /\ bindl la f = Ok l.
Proof. unfold bindr. apply sp_bind_ok. Qed.

Lemma sp_appr_ok {A} (a b : res (list A)) (l : list A) :
  appr a b = Ok l -> exists x y, a = Ok x /\ b = Ok y /\ l = x ++ y.
Proof.
  unfold appr. intros H.
  apply sp_bind_ok in H. destruct H as [x [Ha H]].
  apply sp_bind_ok in H. destruct H as [y [Hb H]].
  injection H as H. exists x, y. repeat split; [exact Ha|exact Hb|symmetry; exact H].
Qed.

Lemma sp_first_only_ok {A} (r : res (list A)) (l : list A) :
  first_only r = Ok l -> exists l0, r = Ok l0 /\ l = match l0 with [] => [] | a :: _ => [a] end.
Proof.
  unfold first_only. intros H. apply sp_bind_ok in H. destruct H as [l0 [Hr H]].
  injection H as H. exists l0. split; [exact Hr|symmetry; exact H].
Qed.

Lemma bindl_ext {A B} (l : list A) (f g : A -> res (list B)) :
  (forall a, f a = g a) -> bindl l f = bindl l g.
Proof. intros H. induction l as [|a l IH]; cbn [bindl]; [reflexivity|]. rewrite H, IH. reflexivity. Qed.

Lemma bindl_all_nil {A B} (l : list A) (k : A -> res (list B)) :
  (forall a, In a l -> k a = Ok []) -> bindl l k = Ok [].
Proof.
  induction l as [|a l IH]; intros H; simpl; [reflexivity|].
  rewrite (H a) by (left; reflexivity). simpl. rewrite IH by (intros; apply H; right; assumption). reflexivity.
Qed.

Lemma bindr_ext {A B} (r : res (list A)) (f g : A -> res (list B)) :
  (forall a, f a = g a) -> bindr r f = bindr r g.
Proof. intros H. destruct r; cbn [bindr bind]; try reflexivity. apply bindl_ext, H. Qed.

Lemma count_down_aux_in n : forall a j, In j (count_down_aux n a) <-> a - Z.of_nat n < j <= a.
Proof.
  induction n as [|n IH]; intros a j; cbn [count_down_aux In]; [lia|]. rewrite IH. lia.
Qed.

Lemma count_down_in a b j : In j (count_down a b) <-> b <= j <= a.
Proof.
  unfold count_down. destruct (Z.ltb_spec a b); [cbn [In]; lia|]. rewrite count_down_aux_in. lia.
Qed.

Lemma count_up_aux_in n : forall a j, In j (count_up_aux n a) <-> a <= j < a + Z.of_nat n.
Proof.
  induction n as [|n IH]; intros a j; cbn [count_up_aux In]; [lia|]. rewrite IH. lia.
Qed.

Lemma count_up_in a b j : In j (count_up a b) <-> a <= j <= b.
Proof.
  unfold count_up. destruct (Z.ltb_spec b a); [cbn [In]; lia|]. rewrite count_up_aux_in. lia.
Qed.

Lemma run_len_bounds e k c o n p : 0 <= run_len e k c o n p <= Z.of_nat n.
Proof.
  revert p. induction n as [|n IH]; intros p; cbn [run_len]; [lia|].
  destruct ((0 <? avail e o p) && char_test e k c (next_char e o p)); [specialize (IH (p + dir o))|]; lia.
Qed.

Lemma sp_first_some_cons (k : kont) x l :
  first_some k (x :: l) = or_else (k x) (fun _ => first_some k l).
Proof. reflexivity. Qed.

Lemma sp_first_some_single (k : kont) x : first_some k [x] = k x.
Proof. cbn [first_some]. destruct (k x) as [[y|]| | |]; reflexivity. Qed.

Lemma sp_or_else_none (a : res (option st)) : or_else a (fun _ => Ok None) = a.
Proof. unfold or_else. destruct a as [[y|]| | |]; reflexivity. Qed.

Lemma sp_or_else_ext (a : res (option st)) (b1 b2 : unit -> res (option st)) :
  b1 tt = b2 tt -> or_else a b1 = or_else a b2.
Proof. intros H. unfold or_else. destruct a as [[y|]| | |]; cbn [bind]; try reflexivity. exact H. Qed.

Lemma sp_first_some_app (k : kont) a b :
  first_some k (a ++ b) = or_else (first_some k a) (fun _ => first_some k b).
Proof.
  induction a as [|x a IH]; cbn [app first_some].
  - reflexivity.
  - unfold or_else in *. destruct (k x) as [[y|]| | |]; cbn [bind]; try reflexivity. exact IH.
Qed.

Lemma sp_first_some_k_first l :
  first_some k_first l = Ok (match l with [] => None | a :: _ => Some a end).
Proof. destruct l as [|a l]; reflexivity. Qed.

Lemma sp_first_some_map (k : kont) (g : st -> st) l :
  first_some k (map g l) = first_some (fun x => k (g x)) l.
Proof.
  induction l as [|x l IH]; cbn [map first_some]; [reflexivity|].
  rewrite IH. reflexivity.
Qed.

Lemma sp_first_some_ext (k1 k2 : kont) l :
  (forall x, In x l -> k1 x = k2 x) -> first_some k1 l = first_some k2 l.
Proof.
  induction l as [|x l IH]; intros H; cbn [first_some]; [reflexivity|].
  rewrite (H x (or_introl eq_refl)). rewrite IH; [reflexivity|].
  intros y Hy. apply H. right. exact Hy.
Qed.

(* the key step: a list-valued bind against a continuation-valued one *)
Lemma sp_first_some_bindl (k : kont) (f : st -> res (list st)) (fk : kont) :
  forall l r, bindl l f = Ok r ->
    (forall a la, In a l -> f a = Ok la -> fk a = first_some k la) ->
    first_some fk l = first_some k r.
Proof.
  induction l as [|a l IH]; intros r Hb Hf; cbn [bindl] in Hb.
  - injection Hb as Hb. subst r. reflexivity.
  - apply sp_bind_ok in Hb. destruct Hb as [x [Hx Hb]].
    apply sp_bind_ok in Hb. destruct Hb as [y [Hy Hb]].
    injection Hb as Hb. subst r.
    rewrite sp_first_some_cons, sp_first_some_app.
    rewrite (Hf a x (or_introl eq_refl) Hx).
    rewrite (IH y Hy); [reflexivity|].
    intros a' la Hin. apply Hf. right. exact Hin.
Qed.

(* [X] is "the CPS version of r": then X composed with the CPS version of g is the CPS version
   of bindr r g.  Used for Concatenate, Loop, Capture. *)
Lemma sp_bindr_first_some (r : res (list st)) (g : st -> res (list st)) (gk : kont)
      (k : kont) (la : list st) (X : kont -> res (option st)) :
  bindr r g = Ok la ->
  (forall lb, r = Ok lb -> forall k', X k' = first_some k' lb) ->
  (forall a l', g a = Ok l' -> gk a = first_some k l') ->
  X gk = first_some k la.
Proof.
  intros Hb HX Hg. apply sp_bindr_ok in Hb. destruct Hb as [lb [Hr Hb]].
  rewrite (HX lb Hr). apply (sp_first_some_bindl k g gk lb la Hb).
  intros a l' _ Ha. exact (Hg a l' Ha).
Qed.

(* A. semk = first_some over sem                                                               *)

(* the generic loop, for any pair of bodies related in the same way *)
Lemma spec_iterk_iter (body : st -> res (list st)) (bodyk : st -> kont -> res (option st)) :
  (forall s l, body s = Ok l -> forall k, bodyk s k = first_some k l) ->
  forall fuel lazy limit s mark count l,
    iter fuel body lazy limit s mark count = Ok l ->
    forall k, iterk fuel bodyk lazy limit s mark count k = first_some k l.
Proof.
  intros Hbody. induction fuel as [|f IH]; intros lazy limit s mark count l H k.
  - discriminate H.
  - cbn [iter] in H. cbn [iterk].
    (* the recursive branch, once and for all *)
    assert (Hagain : forall la,
      bindr (body s) (fun s' => iter f body lazy limit s' (pos s) (count + 1)) = Ok la ->
      bodyk s (fun s' => iterk f bodyk lazy limit s' (pos s) (count + 1) k) = first_some k la).
    { intros la Hla.
      apply (sp_bindr_first_some (body s)
               (fun s' => iter f body lazy limit s' (pos s) (count + 1))
               (fun s' => iterk f bodyk lazy limit s' (pos s) (count + 1) k) k la
               (fun k' => bodyk s k') Hla).
      - intros lb Hlb k'. exact (Hbody s lb Hlb k').
      - intros a l' Ha. exact (IH lazy limit a (pos s) (count + 1) l' Ha k). }
    destruct lazy.
    + destruct (count <? 0) eqn:Ec.
      * exact (Hagain l H).
      * apply sp_appr_ok in H. destruct H as [x [y [Hx [Hy Hl]]]].
        injection Hx as Hx. subst x l. cbn [app].
        rewrite sp_first_some_cons. apply sp_or_else_ext.
        destruct ((count <? limit) && negb (pos s =? mark)) eqn:Eg.
        -- rewrite (Hagain y Hy). reflexivity.
        -- injection Hy as Hy. subst y. reflexivity.
    + destruct ((limit <=? count) || ((pos s =? mark) && (0 <=? count))) eqn:Eg.
      * injection H as H. subst l. symmetry. apply sp_first_some_single.
      * apply sp_appr_ok in H. destruct H as [x [y [Hx [Hy Hl]]]].
        injection Hy as Hy. subst y l.
        rewrite sp_first_some_app. rewrite (Hagain x Hx).
        apply sp_or_else_ext.
        destruct (0 <=? count); [|reflexivity].
        symmetry. apply sp_first_some_single.
Qed.

Theorem semk_sem : forall e fuel t s l, sem e fuel t s = Ok l ->
  forall k, semk e fuel t s k = first_some k l.
Proof.
  intros e. induction fuel as [|f IH]; intros t s l H k.
  - discriminate H.
  - destruct t as [kd o c|kd lk o c m n|o str|o g|a| | | |o cl|o cl|lazy o m n r|o g u r|r|o r|o r|r|o g yes no|o c yes no];
      cbn [sem] in H; cbn [semk].
    + (* NChar *)
      injection H as H. subst l.
      destruct ((0 <? avail e o (pos s)) && char_test e kd c (next_char e o (pos s))).
      * symmetry. apply sp_first_some_single.
      * reflexivity.
    + injection H as H. subst l. reflexivity.
    + injection H as H. subst l. reflexivity.
    + injection H as H. subst l. reflexivity.
    + (* NAnchor *)
      injection H as H. subst l. destruct (anchor_ok e a (pos s)).
      * symmetry. apply sp_first_some_single.
      * reflexivity.
    + injection H as H. subst l. reflexivity.
    + injection H as H. subst l. symmetry. apply sp_first_some_single.
    + injection H as H. subst l. symmetry. apply sp_first_some_single.
    + (* NConcat *)
      revert s l H k. induction cl as [|x l' IHl]; intros s r H k.
      * injection H as H. subst r. symmetry. apply sp_first_some_single.
      * apply (sp_bindr_first_some _ _ _ k r (fun k' => semk e f x s k') H).
        -- intros lb Hlb k'. exact (IH x s lb Hlb k').
        -- intros a l0 Ha. exact (IHl a l0 Ha k).
    + (* NAlternate *)
      revert l H. induction cl as [|x l' IHl]; intros r H.
      * injection H as H. subst r. reflexivity.
      * apply sp_appr_ok in H. destruct H as [a [b [Ha [Hb Hr]]]]. subst r.
        rewrite sp_first_some_app. rewrite (IH x s a Ha k).
        apply sp_or_else_ext. exact (IHl b Hb).
    + (* NLoop *)
      pose proof (spec_iterk_iter (sem e f r) (semk e f r) (fun s0 l0 H0 k0 => IH r s0 l0 H0 k0)) as HI.
      destruct (m =? 0).
      * exact (HI f lazy _ s (-1) 0 l H k).
      * apply (sp_bindr_first_some _ _ _ k l (fun k' => semk e f r s k') H).
        -- intros lb Hlb k'. exact (IH r s lb Hlb k').
        -- intros a l0 Ha. exact (HI f lazy _ a (pos s) (1 - m) l0 Ha k).
    + (* NCapture *)
      destruct (u =? -1).
      * apply (sp_bindr_first_some _ _ _ k l (fun k' => semk e f r s k') H).
        -- intros lb Hlb k'. exact (IH r s lb Hlb k').
        -- intros a l0 Ha. injection Ha as Ha. subst l0. symmetry. apply sp_first_some_single.
      * apply (sp_bindr_first_some _ _ _ k l (fun k' => semk e f r s k') H).
        -- intros lb Hlb k'. exact (IH r s lb Hlb k').
        -- intros a l0 Ha. destruct (cap_get u (caps a)) as [|top rest].
           ++ injection Ha as Ha. subst l0. reflexivity.
           ++ injection Ha as Ha. subst l0. symmetry. apply sp_first_some_single.
    + (* NGroup *) exact (IH r s l H k).
    + (* NPosLook *)
      apply sp_bind_ok in H. destruct H as [l1 [H1 H]]. injection H as H. subst l.
      apply sp_first_only_ok in H1. destruct H1 as [l0 [H0 Hl1]]. subst l1.
      rewrite (IH r s l0 H0 k_first), sp_first_some_k_first. cbn [bind].
      destruct l0 as [|a l0]; cbn [map].
      * reflexivity.
      * symmetry. apply sp_first_some_single.
    + (* NNegLook *)
      apply sp_bind_ok in H. destruct H as [l0 [H0 H]]. injection H as H. subst l.
      rewrite (IH r s l0 H0 k_first), sp_first_some_k_first. cbn [bind].
      destruct l0 as [|a l0].
      * symmetry. apply sp_first_some_single.
      * reflexivity.
    + (* NAtomic *)
      apply sp_first_only_ok in H. destruct H as [l0 [H0 Hl]]. subst l.
      rewrite (IH r s l0 H0 k_first), sp_first_some_k_first. cbn [bind].
      destruct l0 as [|a l0].
      * reflexivity.
      * symmetry. apply sp_first_some_single.
    + (* NBackRefCond *)
      destruct (is_matched g (caps s)).
      * exact (IH yes s l H k).
      * destruct no as [n|].
        -- exact (IH n s l H k).
        -- injection H as H. subst l. symmetry. apply sp_first_some_single.
    + (* NExprCond *)
      apply sp_bind_ok in H. destruct H as [l1 [H1 H]].
      apply sp_first_only_ok in H1. destruct H1 as [l0 [H0 Hl1]]. subst l1.
      rewrite (IH c s l0 H0 k_first), sp_first_some_k_first. cbn [bind].
      destruct l0 as [|a l0].
      * destruct no as [n|].
        -- exact (IH n s l H k).
        -- injection H as H. subst l. symmetry. apply sp_first_some_single.
      * exact (IH yes _ l H k).
Qed.

Theorem attemptk_attempt : forall e fuel root p r,
  attempt e fuel root p = Ok r -> attemptk e fuel root p = Ok r.
Proof.
  intros e fuel root p r H. unfold attempt in H. unfold attemptk.
  apply sp_bind_ok in H. destruct H as [l [Hl H]].
  rewrite (semk_sem e fuel root _ l Hl k_first), sp_first_some_k_first. exact H.
Qed.

Lemma scank_scan : forall e fuel n root rtl p r,
  scan_from e fuel n root rtl p = Ok r -> scank_from e fuel n root rtl p = Ok r.
Proof.
  intros e fuel. induction n as [|n IH]; intros root rtl p r H.
  - exact H.
  - cbn [scan_from] in H. cbn [scank_from].
    apply sp_bind_ok in H. destruct H as [a [Ha H]].
    rewrite (attemptk_attempt e fuel root p a Ha). cbn [bind].
    destruct a as [s|]; [exact H|].
    destruct (if rtl then p <=? 0 else tlen e <=? p); [exact H|].
    apply IH. exact H.
Qed.

Theorem findk_find : forall e fuel root rtl start prevlen r,
  find e fuel root rtl start prevlen = Ok r -> findk e fuel root rtl start prevlen = Ok r.
Proof.
  intros e fuel root rtl start prevlen r H. unfold find in H. unfold findk.
  destruct ((prevlen =? 0) && (start =? (if rtl then 0 else tlen e))); [exact H|].
  apply scank_scan. exact H.
Qed.

(* B. the scan is leftmost (in scan order)                                                     *)

(* the i-th position of a scan that starts at p *)
Definition scan_pos (rtl : bool) (p i : Z) : Z := if rtl then p - i else p + i.
(* position q is at (or beyond) the far end of the text in scan direction *)
Definition scan_far (e : env) (rtl : bool) (q : Z) : bool := if rtl then q <=? 0 else tlen e <=? q.
(* the first candidate position of [find] *)
Definition first_cand (rtl : bool) (start prevlen : Z) : Z :=
  if prevlen =? 0 then (if rtl then start - 1 else start + 1) else start.

Lemma spec_scan_pos_step rtl p i :
  scan_pos rtl (if rtl then p - 1 else p + 1) (i - 1) = scan_pos rtl p i.
Proof. unfold scan_pos. destruct rtl; lia. Qed.

Lemma spec_scan_from_some e fuel root rtl : forall n p s,
  scan_from e fuel n root rtl p = Ok (Some s) ->
  exists j, 0 <= j < Z.of_nat n /\
    attempt e fuel root (scan_pos rtl p j) = Ok (Some s) /\
    forall i, 0 <= i < j ->
      attempt e fuel root (scan_pos rtl p i) = Ok None /\ scan_far e rtl (scan_pos rtl p i) = false.
Proof.
  induction n as [|n IH]; intros p s H.
  - discriminate H.
  - cbn [scan_from] in H. apply sp_bind_ok in H. destruct H as [a [Ha H]].
    assert (Hp0 : scan_pos rtl p 0 = p) by (unfold scan_pos; destruct rtl; lia).
    destruct a as [s0|].
    + injection H as H. subst s0. exists 0. split; [lia|]. split.
      * rewrite Hp0. exact Ha.
      * intros i Hi. lia.
    + change (if rtl then p <=? 0 else tlen e <=? p) with (scan_far e rtl p) in H.
      destruct (scan_far e rtl p) eqn:Efar; [discriminate H|].
      apply IH in H. destruct H as [j [Hj [Hat Hbefore]]].
      exists (j + 1). split; [lia|]. split.
      * rewrite <- spec_scan_pos_step. replace (j + 1 - 1) with j by lia. exact Hat.
      * intros i Hi. destruct (Z.eq_dec i 0) as [Ei|Ei].
        -- subst i. rewrite Hp0. split; [exact Ha|exact Efar].
        -- rewrite <- spec_scan_pos_step. apply Hbefore. lia.
Qed.

Lemma spec_scan_from_none e fuel root rtl : forall n p,
  scan_from e fuel n root rtl p = Ok None ->
  forall i, 0 <= i < Z.of_nat n ->
    (i = 0 \/ if rtl then 0 <= p - i else p + i <= tlen e) ->
    attempt e fuel root (scan_pos rtl p i) = Ok None.
Proof.
  induction n as [|n IH]; intros p H i Hi Hr.
  - lia.
  - cbn [scan_from] in H. apply sp_bind_ok in H. destruct H as [a [Ha H]].
    assert (Hp0 : scan_pos rtl p 0 = p) by (unfold scan_pos; destruct rtl; lia).
    destruct a as [s0|]; [discriminate H|].
    destruct (Z.eq_dec i 0) as [Ei|Ei].
    + subst i. rewrite Hp0. exact Ha.
    + destruct Hr as [Hr|Hr]; [contradiction|].
      destruct (if rtl then p <=? 0 else tlen e <=? p) eqn:Efar.
      * exfalso. destruct rtl; lia.
      * rewrite <- spec_scan_pos_step. apply (IH _ H); [lia|].
        right. destruct rtl; lia.
Qed.

(* converse of spec_scan_from_some: the scan does find the first successful candidate *)
Lemma spec_scan_from_complete e fuel root rtl : forall n p s j,
  0 <= j < Z.of_nat n ->
  attempt e fuel root (scan_pos rtl p j) = Ok (Some s) ->
  (forall i, 0 <= i < j ->
     attempt e fuel root (scan_pos rtl p i) = Ok None /\ scan_far e rtl (scan_pos rtl p i) = false) ->
  scan_from e fuel n root rtl p = Ok (Some s).
Proof.
  induction n as [|n IH]; intros p s j Hj Hat Hbefore.
  - lia.
  - cbn [scan_from].
    assert (Hp0 : scan_pos rtl p 0 = p) by (unfold scan_pos; destruct rtl; lia).
    destruct (Z.eq_dec j 0) as [Ej|Ej].
    + subst j. rewrite Hp0 in Hat. rewrite Hat. reflexivity.
    + destruct (Hbefore 0 ltac:(lia)) as [H0 Hf0]. rewrite Hp0 in H0, Hf0.
      rewrite H0. cbn [bind].
      change (if rtl then p <=? 0 else tlen e <=? p) with (scan_far e rtl p). rewrite Hf0.
      apply (IH _ s (j - 1)); [lia| |].
      * rewrite spec_scan_pos_step. exact Hat.
      * intros i Hi. pose proof (spec_scan_pos_step rtl p (i + 1)) as E.
        replace (i + 1 - 1) with i in E by lia. rewrite E.
        apply Hbefore. lia.
Qed.

(* [find] has no candidate at all exactly when the previous match was empty and ended at the far end *)
Lemma spec_find_no_candidate e fuel root (rtl : bool) (start prevlen : Z) :
  prevlen = 0 -> start = (if rtl then 0 else tlen e) ->
  find e fuel root rtl start prevlen = Ok None.
Proof.
  intros Hp Hs. unfold find. subst prevlen. rewrite Hs.
  rewrite !Z.eqb_refl. reflexivity.
Qed.

(* a match: it is the result of [attempt] at a candidate p, and every candidate strictly before p
   in scan order failed *)
Theorem spec_find_leftmost_some e fuel root (rtl : bool) (start prevlen : Z) s :
  find e fuel root rtl start prevlen = Ok (Some s) ->
  let p0 := first_cand rtl start prevlen in
  ~ (prevlen = 0 /\ start = (if rtl then 0 else tlen e)) /\
  exists p,
    (if rtl then p <= p0 /\ (p = p0 \/ 0 <= p) else p0 <= p /\ (p = p0 \/ p <= tlen e)) /\
    attempt e fuel root p = Ok (Some s) /\
    forall q, (if rtl then p < q <= p0 else p0 <= q < p) -> attempt e fuel root q = Ok None.
Proof.
  intros H p0. unfold find in H.
  destruct ((prevlen =? 0) && (start =? (if rtl then 0 else tlen e))) eqn:Enc; [discriminate H|].
  split.
  { intros [Hp Hs]. rewrite Hp, Hs, !Z.eqb_refl in Enc. discriminate Enc. }
  fold (first_cand rtl start prevlen) in H. fold p0 in H.
  apply spec_scan_from_some in H. destruct H as [j [Hj [Hat Hbefore]]].
  exists (scan_pos rtl p0 j). split; [|split].
  - destruct (Z.eq_dec j 0) as [Ej|Ej].
    + subst j. unfold scan_pos. destruct rtl; lia.
    + destruct (Hbefore (j - 1) ltac:(lia)) as [_ Hfar].
      unfold scan_far, scan_pos in *. destruct rtl; lia.
  - exact Hat.
  - intros q Hq.
    assert (Hq' : exists i, 0 <= i < j /\ q = scan_pos rtl p0 i).
    { unfold scan_pos in *. destruct rtl.
      - exists (p0 - q). lia.
      - exists (q - p0). lia. }
    destruct Hq' as [i [Hi Hqi]]. subst q. apply (Hbefore i Hi).
Qed.

(* no match: every candidate from the first one to the far end failed *)
Theorem spec_find_leftmost_none e fuel root (rtl : bool) (start prevlen : Z) :
  0 <= start <= tlen e ->
  find e fuel root rtl start prevlen = Ok None ->
  let p0 := first_cand rtl start prevlen in
  forall q, (if rtl then 0 <= q <= p0 else p0 <= q <= tlen e) -> attempt e fuel root q = Ok None.
Proof.
  intros Hst H p0 q Hq. unfold find in H.
  destruct ((prevlen =? 0) && (start =? (if rtl then 0 else tlen e))) eqn:Enc.
  { exfalso. apply andb_prop in Enc. destruct Enc as [E1 E2].
    unfold p0, first_cand in Hq. rewrite E1 in Hq. destruct rtl; lia. }
  fold (first_cand rtl start prevlen) in H. fold p0 in H.
  assert (Hp0 : if rtl then p0 <= tlen e else 0 <= p0).
  { unfold p0, first_cand. destruct rtl, (prevlen =? 0); lia. }
  assert (Hlen : 0 <= tlen e) by (unfold tlen, zlen; lia).
  assert (Hq' : exists i, 0 <= i < Z.of_nat (S (Z.to_nat (tlen e))) /\ q = scan_pos rtl p0 i /\
                          (if rtl then 0 <= p0 - i else p0 + i <= tlen e)).
  { unfold scan_pos. destruct rtl.
    - exists (p0 - q). lia.
    - exists (q - p0). lia. }
  destruct Hq' as [i [Hi [Hqi Hr]]]. subst q.
  apply (spec_scan_from_none e fuel root rtl _ p0 H i Hi). right. exact Hr.
Qed.

(* and conversely: the first successful candidate IS what find returns *)
Theorem spec_find_complete e fuel root (rtl : bool) (start prevlen : Z) s (p : Z) :
  0 <= start <= tlen e ->
  ~ (prevlen = 0 /\ start = (if rtl then 0 else tlen e)) ->
  let p0 := first_cand rtl start prevlen in
  (if rtl then 0 <= p <= p0 else p0 <= p <= tlen e) ->
  attempt e fuel root p = Ok (Some s) ->
  (forall q, (if rtl then p < q <= p0 else p0 <= q < p) -> attempt e fuel root q = Ok None) ->
  find e fuel root rtl start prevlen = Ok (Some s).
Proof.
  intros Hst Hnc p0 Hp Hat Hbefore. unfold find.
  destruct ((prevlen =? 0) && (start =? (if rtl then 0 else tlen e))) eqn:Enc.
  { exfalso. apply Hnc. apply andb_prop in Enc. destruct Enc as [E1 E2]. split; lia. }
  fold (first_cand rtl start prevlen). fold p0.
  assert (Hlen : 0 <= tlen e) by (unfold tlen, zlen; lia).
  assert (Hp0 : if rtl then p0 <= tlen e else 0 <= p0).
  { unfold p0, first_cand. destruct rtl, (prevlen =? 0); lia. }
  apply (spec_scan_from_complete e fuel root rtl _ p0 s (if rtl then p0 - p else p - p0)).
  - destruct rtl; lia.
  - replace (scan_pos rtl p0 (if rtl then p0 - p else p - p0)) with p
      by (unfold scan_pos; destruct rtl; lia).
    exact Hat.
  - intros i Hi. split.
    + apply Hbefore. unfold scan_pos. destruct rtl; lia.
    + unfold scan_far, scan_pos. destruct rtl; lia.
Qed.

(* fuel monotonicity of the list-valued semantics: more fuel never changes an Ok answer        *)

Lemma sp_bindl_mono {A B} (g g' : A -> res (list B)) :
  (forall a l, g a = Ok l -> g' a = Ok l) ->
  forall la l, bindl la g = Ok l -> bindl la g' = Ok l.
Proof.
  intros Hg. induction la as [|a la IH]; intros l H; cbn [bindl] in *; [exact H|].
  apply sp_bind_ok in H. destruct H as [x [Hx H]].
  apply sp_bind_ok in H. destruct H as [y [Hy H]].
  rewrite (Hg a x Hx). cbn [bind]. rewrite (IH y Hy). cbn [bind]. exact H.
Qed.

Lemma sp_bindr_mono {A B} (r r' : res (list A)) (g g' : A -> res (list B)) l :
  (forall la, r = Ok la -> r' = Ok la) ->
  (forall a l0, g a = Ok l0 -> g' a = Ok l0) ->
  bindr r g = Ok l -> bindr r' g' = Ok l.
Proof.
  intros Hr Hg H. apply sp_bindr_ok in H. destruct H as [la [Hla H]].
  unfold bindr. rewrite (Hr la Hla). cbn [bind]. exact (sp_bindl_mono g g' Hg la l H).
Qed.

Lemma sp_appr_mono {A} (a a' b b' : res (list A)) l :
  (forall x, a = Ok x -> a' = Ok x) -> (forall y, b = Ok y -> b' = Ok y) ->
  appr a b = Ok l -> appr a' b' = Ok l.
Proof.
  intros Ha Hb H. apply sp_appr_ok in H. destruct H as [x [y [Hx [Hy Hl]]]].
  unfold appr. rewrite (Ha x Hx), (Hb y Hy). cbn [bind]. subst l. reflexivity.
Qed.

Lemma sp_first_only_mono {A} (r r' : res (list A)) l :
  (forall x, r = Ok x -> r' = Ok x) -> first_only r = Ok l -> first_only r' = Ok l.
Proof.
  intros Hr H. apply sp_first_only_ok in H. destruct H as [l0 [H0 Hl]].
  unfold first_only. rewrite (Hr l0 H0). cbn [bind]. subst l. reflexivity.
Qed.

Lemma spec_iter_mono (b b' : st -> res (list st)) :
  (forall s l, b s = Ok l -> b' s = Ok l) ->
  forall f f', (f <= f')%nat ->
  forall lazy limit s mark count l,
    iter f b lazy limit s mark count = Ok l -> iter f' b' lazy limit s mark count = Ok l.
Proof.
  intros Hb. induction f as [|f IH]; intros f' Hle lazy limit s mark count l H; [discriminate H|].
  destruct f' as [|f']; [lia|]. cbn [iter] in *.
  assert (Hagain : forall la,
    bindr (b s) (fun s' => iter f b lazy limit s' (pos s) (count + 1)) = Ok la ->
    bindr (b' s) (fun s' => iter f' b' lazy limit s' (pos s) (count + 1)) = Ok la).
  { intros la. apply sp_bindr_mono; [apply Hb|].
    intros a l0. apply IH. lia. }
  destruct lazy.
  - destruct (count <? 0); [exact (Hagain l H)|].
    revert H. apply sp_appr_mono; [intros x Hx; exact Hx|].
    destruct ((count <? limit) && negb (pos s =? mark)); [exact Hagain|intros y Hy; exact Hy].
  - destruct ((limit <=? count) || ((pos s =? mark) && (0 <=? count))); [exact H|].
    revert H. apply sp_appr_mono; [exact Hagain|intros y Hy; exact Hy].
Qed.

Theorem spec_sem_fuel_mono e : forall f f', (f <= f')%nat ->
  forall t s l, sem e f t s = Ok l -> sem e f' t s = Ok l.
Proof.
  induction f as [|f IH]; intros f' Hle t s l H; [discriminate H|].
  destruct f' as [|f']; [lia|].
  assert (IH' : forall t s l, sem e f t s = Ok l -> sem e f' t s = Ok l).
  { apply IH. lia. }
  clear IH.
  destruct t as [kd o c|kd lk o c m n|o str|o g|a| | | |o cl|o cl|lazy o m n r|o g u r|r|o r|o r|r
                |o g yes no|o c yes no];
    cbn [sem] in *; try exact H.
  - (* NConcat *)
    revert s l H. induction cl as [|x l' IHl]; intros s l H; [exact H|].
    revert H. apply sp_bindr_mono; [apply IH'|exact IHl].
  - (* NAlternate *)
    revert l H. induction cl as [|x l' IHl]; intros l H; [exact H|].
    revert H. apply sp_appr_mono; [apply IH'|exact IHl].
  - (* NLoop *)
    assert (HI : forall lazy limit s mark count l,
               iter f (sem e f r) lazy limit s mark count = Ok l ->
               iter f' (sem e f' r) lazy limit s mark count = Ok l).
    { apply (spec_iter_mono (sem e f r) (sem e f' r) (IH' r)). lia. }
    destruct (m =? 0); [exact (HI _ _ _ _ _ _ H)|].
    revert H. apply sp_bindr_mono; [apply IH'|]. intros a l0. apply HI.
  - (* NCapture *)
    destruct (u =? -1); revert H; (apply sp_bindr_mono; [apply IH'|]); intros a l0 Ha; exact Ha.
  - exact (IH' _ _ _ H).
  - apply sp_bind_ok in H. destruct H as [l1 [H1 H]].
    rewrite (sp_first_only_mono _ (sem e f' r s) l1 (IH' r s) H1). exact H.
  - apply sp_bind_ok in H. destruct H as [l1 [H1 H]].
    rewrite (IH' r s l1 H1). exact H.
  - revert H. apply sp_first_only_mono. apply IH'.
  - destruct (is_matched g (caps s)); [exact (IH' _ _ _ H)|].
    destruct no as [n|]; [exact (IH' _ _ _ H)|exact H].
  - apply sp_bind_ok in H. destruct H as [l1 [H1 H]].
    rewrite (sp_first_only_mono _ (sem e f' c s) l1 (IH' c s) H1). cbn [bind].
    destruct l1 as [|s' l1].
    + destruct no as [n|]; [exact (IH' _ _ _ H)|exact H].
    + exact (IH' _ _ _ H).
Qed.

(* hence: once the list-valued semantics terminates with some fuel, the continuation-passing
   search gives the same answer with any larger fuel *)
Corollary spec_semk_fuel_indep e f f' t s l k :
  (f <= f')%nat -> sem e f t s = Ok l -> semk e f' t s k = first_some k l.
Proof.
  intros Hle H. apply semk_sem. exact (spec_sem_fuel_mono e f f' Hle t s l H).
Qed.

Corollary spec_attempt_fuel_mono e f f' root p r :
  (f <= f')%nat -> attempt e f root p = Ok r -> attempt e f' root p = Ok r.
Proof.
  intros Hle H. unfold attempt in *. apply sp_bind_ok in H. destruct H as [l [Hl H]].
  rewrite (spec_sem_fuel_mono e f f' Hle root _ l Hl). exact H.
Qed.

Corollary spec_find_fuel_mono e f f' root rtl start prevlen r :
  (f <= f')%nat -> find e f root rtl start prevlen = Ok r -> find e f' root rtl start prevlen = Ok r.
Proof.
  intros Hle. unfold find.
  destruct ((prevlen =? 0) && (start =? (if rtl then 0 else tlen e))); [intros H; exact H|].
  generalize (S (Z.to_nat (tlen e))) as n.
  generalize (if prevlen =? 0 then if rtl then start - 1 else start + 1 else start) as p.
  intros p n. revert p. induction n as [|n IH]; intros p H; [exact H|].
  cbn [scan_from] in *. apply sp_bind_ok in H. destruct H as [a [Ha H]].
  rewrite (spec_attempt_fuel_mono e f f' root p a Hle Ha). cbn [bind].
  destruct a as [s|]; [exact H|].
  destruct (if rtl then p <=? 0 else tlen e <=? p); [exact H|]. apply IH. exact H.
Qed.

(* C. [sem] preserves relations.  Two runs of [sem], over two environments and two trees of   *)
(* the same shape, from related states: if related states are treated alike by everything the *)
(* composite nodes do with a state (compare its position with a loop mark, move it back to an *)
(* earlier position, push / pop / test a capture stack) and the leaves give related results,  *)
(* then the two result lists are related element by element, and otherwise the two runs end   *)
(* the same way.  Invariance of [sem] under a change of tree, text or capture table, and      *)
(* invariants of the states it produces (the relation "equal and good"), are instances.       *)

Definition res_rel {A} (R : A -> A -> Prop) (r1 r2 : res A) : Prop :=
  match r1, r2 with
  | Ok a, Ok b => R a b
  | Err c, Err d => c = d
  | Crash c, Crash d => c = d
  | Fuel, Fuel => True
  | _, _ => False
  end.

Definition opt_rel {A} (R : A -> A -> Prop) (o1 o2 : option A) : Prop :=
  match o1, o2 with
  | Some a, Some b => R a b
  | None, None => True
  | _, _ => False
  end.

Lemma res_rel_bind {A B} (R : A -> A -> Prop) (R' : B -> B -> Prop) r1 r2 (f1 f2 : A -> res B) :
  res_rel R r1 r2 -> (forall a b, R a b -> res_rel R' (f1 a) (f2 b)) ->
  res_rel R' (bind r1 f1) (bind r2 f2).
Proof.
  intros Hr Hf. destruct r1, r2; cbn [res_rel bind] in *; try contradiction; try exact Hr.
  exact (Hf _ _ Hr).
Qed.

Lemma res_rel_bindl {A B} (R : A -> A -> Prop) (R' : B -> B -> Prop) (g1 g2 : A -> res (list B)) :
  (forall a b, R a b -> res_rel (Forall2 R') (g1 a) (g2 b)) ->
  forall l1 l2, Forall2 R l1 l2 -> res_rel (Forall2 R') (bindl l1 g1) (bindl l2 g2).
Proof.
  intros Hg l1 l2 HF. induction HF as [|a b l1 l2 Hab HF IH]; cbn [bindl].
  - constructor.
  - apply (res_rel_bind (Forall2 R')); [exact (Hg a b Hab)|]. intros x y Hxy.
    apply (res_rel_bind (Forall2 R')); [exact IH|]. intros x' y' Hxy'. exact (Forall2_app Hxy Hxy').
Qed.

Lemma res_rel_bindr {A B} (R : A -> A -> Prop) (R' : B -> B -> Prop) r1 r2 (g1 g2 : A -> res (list B)) :
  res_rel (Forall2 R) r1 r2 -> (forall a b, R a b -> res_rel (Forall2 R') (g1 a) (g2 b)) ->
  res_rel (Forall2 R') (bindr r1 g1) (bindr r2 g2).
Proof. intros Hr Hg. apply (res_rel_bind (Forall2 R)); [exact Hr|]. apply res_rel_bindl. exact Hg. Qed.

Lemma res_rel_appr {A} (R : A -> A -> Prop) a1 a2 b1 b2 :
  res_rel (Forall2 R) a1 a2 -> res_rel (Forall2 R) b1 b2 -> res_rel (Forall2 R) (appr a1 b1) (appr a2 b2).
Proof.
  intros Ha Hb. apply (res_rel_bind (Forall2 R)); [exact Ha|]. intros x y Hxy.
  apply (res_rel_bind (Forall2 R)); [exact Hb|]. intros x' y' Hxy'. exact (Forall2_app Hxy Hxy').
Qed.

Lemma res_rel_first_only {A} (R : A -> A -> Prop) r1 r2 :
  res_rel (Forall2 R) r1 r2 -> res_rel (Forall2 R) (first_only r1) (first_only r2).
Proof.
  intros Hr. apply (res_rel_bind (Forall2 R)); [exact Hr|].
  intros l1 l2 [|a b l1' l2' Hab _]; repeat constructor. exact Hab.
Qed.

Lemma res_rel_eq {A} (r1 r2 : res (list A)) : res_rel (Forall2 eq) r1 r2 -> r1 = r2.
Proof.
  destruct r1 as [l1|c|c|], r2 as [l2|d|d|]; cbn [res_rel]; try contradiction; try congruence.
  intros H. f_equal. induction H as [|a b l1 l2 Hab _ IH]; congruence.
Qed.

Lemma res_rel_refl {A} (R : A -> A -> Prop) (r : res (list A)) :
  (forall a, R a a) -> res_rel (Forall2 R) r r.
Proof.
  intros HR. destruct r as [l| | |]; cbn [res_rel]; try reflexivity.
  induction l; constructor; auto.
Qed.

Lemma bindl_unit {A B} (h : A -> B) l : bindl l (fun a => Ok [h a]) = Ok (map h l).
Proof. induction l as [|a l IH]; cbn [bindl map bind]; [reflexivity|]. rewrite IH. reflexivity. Qed.

Lemma Forall2_map_same {A B} (R : B -> B -> Prop) (f g : A -> B) l :
  (forall x, In x l -> R (f x) (g x)) -> Forall2 R (map f l) (map g l).
Proof.
  induction l as [|x l IH]; intros H; cbn [map]; constructor; [apply H; left; reflexivity|].
  apply IH. intros y Hy. apply H. right. exact Hy.
Qed.

Lemma Forall2_map {A B} (R : A -> A -> Prop) (R' : B -> B -> Prop) (f g : A -> B) l1 l2 :
  (forall a b, R a b -> R' (f a) (g b)) -> Forall2 R l1 l2 -> Forall2 R' (map f l1) (map g l2).
Proof. intros H HF. induction HF; cbn [map]; constructor; auto. Qed.

Definition is_leaf (t : node) : bool :=
  match t with
  | NChar _ _ _ | NCharLoop _ _ _ _ _ _ | NMulti _ _ | NRef _ _ | NAnchor _ | NNothing | NEmpty | NBump => true
  | _ => false
  end.

Section SemRel.
Variables e1 e2 : env.
Variable S : st -> st -> Prop.
Variable T : node -> node -> Prop.
(* the two trees may number their groups differently.  [Gr g1 g2]: pushing a capture of g1 on the
   left and of g2 on the right keeps states related; [Rd u1 u2]: related states have like capture
   stacks for u1 on the left and u2 on the right (they may be popped and tested);
   [Drop g]: pushing a capture of g on the left only keeps states related *)
Variables Gr Rd : Z -> Z -> Prop.
Variable Drop : Z -> Prop.

Notation RR := (res_rel (Forall2 S)).

(* one level of two trees of the same shape *)
Inductive sem_view : node -> node -> Prop :=
| SV_leaf t1 t2 :
    is_leaf t1 = true -> is_leaf t2 = true ->
    (forall f s1 s2, S s1 s2 -> RR (sem e1 (Datatypes.S f) t1 s1) (sem e2 (Datatypes.S f) t2 s2)) ->
    sem_view t1 t2
| SV_concat o1 o2 l1 l2 : Forall2 T l1 l2 -> sem_view (NConcat o1 l1) (NConcat o2 l2)
| SV_alternate o1 o2 l1 l2 : Forall2 T l1 l2 -> sem_view (NAlternate o1 l1) (NAlternate o2 l2)
| SV_loop lz o1 o2 m n r1 r2 : T r1 r2 -> sem_view (NLoop lz o1 m n r1) (NLoop lz o2 m n r2)
| SV_capture o1 o2 g1 g2 u1 u2 r1 r2 :
    T r1 r2 -> Gr g1 g2 -> (u1 = -1 /\ u2 = -1) \/ Rd u1 u2 ->
    sem_view (NCapture o1 g1 u1 r1) (NCapture o2 g2 u2 r2)
| SV_drop o g r1 r2 : T r1 r2 -> Drop g -> sem_view (NCapture o g (-1) r1) (NGroup r2)
| SV_group r1 r2 : T r1 r2 -> sem_view (NGroup r1) (NGroup r2)
| SV_poslook o1 o2 r1 r2 : T r1 r2 -> sem_view (NPosLook o1 r1) (NPosLook o2 r2)
| SV_neglook o1 o2 r1 r2 : T r1 r2 -> sem_view (NNegLook o1 r1) (NNegLook o2 r2)
| SV_atomic r1 r2 : T r1 r2 -> sem_view (NAtomic r1) (NAtomic r2)
| SV_backrefcond o1 o2 g1 g2 y1 y2 n1 n2 :
    Rd g1 g2 -> T y1 y2 -> opt_rel T n1 n2 -> sem_view (NBackRefCond o1 g1 y1 n1) (NBackRefCond o2 g2 y2 n2)
| SV_exprcond o1 o2 c1 c2 y1 y2 n1 n2 :
    T c1 c2 -> T y1 y2 -> opt_rel T n1 n2 -> sem_view (NExprCond o1 c1 y1 n1) (NExprCond o2 c2 y2 n2).

Hypothesis T_view : forall t1 t2, T t1 t2 -> sem_view t1 t2.

Definition mark_rel (m1 m2 : Z) : Prop := forall a b, S a b -> (pos a =? m1) = (pos b =? m2).

Hypothesis S_mark : forall s1 s2, S s1 s2 -> mark_rel (pos s1) (pos s2).
Hypothesis S_mark_none : mark_rel (-1) (-1).
Hypothesis S_with_pos : forall s1 s2 a b, S s1 s2 -> S a b -> S (with_pos a (pos s1)) (with_pos b (pos s2)).
(* -1 is "no group" on both sides: the pushed side of a pop (?<-u>...), the u of a plain capture *)
Hypothesis Gr_none : Gr (-1) (-1).
Hypothesis Rd_none : forall u1 u2, Rd u1 u2 -> (u1 =? -1) = (u2 =? -1).
Hypothesis S_push : forall g1 g2 s1 s2 a b, Gr g1 g2 -> S s1 s2 -> S a b ->
  S {| pos := pos a; caps := cap_push g1 (span (pos s1) (pos a)) (caps a) |}
    {| pos := pos b; caps := cap_push g2 (span (pos s2) (pos b)) (caps b) |}.
Hypothesis S_drop : forall g s1 a b, Drop g -> S a b ->
  S {| pos := pos a; caps := cap_push g (span (pos s1) (pos a)) (caps a) |} b.
Hypothesis S_balance : forall g1 g2 u1 u2 s1 s2 a b, Gr g1 g2 -> Rd u1 u2 -> S s1 s2 -> S a b ->
  match cap_get u1 (caps a), cap_get u2 (caps b) with
  | [], [] => True
  | top1 :: _, top2 :: _ =>
      S {| pos := pos a;
           caps := if g1 =? -1 then cap_pop u1 (caps a)
                   else cap_push g1 (balance_span (pos s1) (pos a) top1) (cap_pop u1 (caps a)) |}
        {| pos := pos b;
           caps := if g2 =? -1 then cap_pop u2 (caps b)
                   else cap_push g2 (balance_span (pos s2) (pos b) top2) (cap_pop u2 (caps b)) |}
  | _, _ => False
  end.

Lemma sem_rel_one a b : S a b -> RR (Ok [a]) (Ok [b]).
Proof. intros H. repeat constructor. exact H. Qed.

Lemma iter_rel (b1 b2 : st -> res (list st)) :
  (forall s1 s2, S s1 s2 -> RR (b1 s1) (b2 s2)) ->
  forall fuel lazy limit s1 s2 m1 m2 count, S s1 s2 -> mark_rel m1 m2 ->
    RR (iter fuel b1 lazy limit s1 m1 count) (iter fuel b2 lazy limit s2 m2 count).
Proof.
  intros Hb. induction fuel as [|f IH]; intros lazy limit s1 s2 m1 m2 count Hs Hm; [exact I|].
  cbn [iter]. rewrite <- (Hm s1 s2 Hs).
  assert (Hagain :
    RR (bindr (b1 s1) (fun s' => iter f b1 lazy limit s' (pos s1) (count + 1)))
       (bindr (b2 s2) (fun s' => iter f b2 lazy limit s' (pos s2) (count + 1)))).
  { apply (res_rel_bindr S); [exact (Hb s1 s2 Hs)|].
    intros a b Hab. apply IH; [exact Hab|exact (S_mark s1 s2 Hs)]. }
  pose proof (sem_rel_one s1 s2 Hs) as Hone.
  destruct lazy.
  - destruct (count <? 0); [exact Hagain|].
    apply res_rel_appr; [exact Hone|].
    destruct ((count <? limit) && negb (pos s1 =? m1)); [exact Hagain|constructor].
  - destruct ((limit <=? count) || ((pos s1 =? m1) && (0 <=? count))); [exact Hone|].
    apply res_rel_appr; [exact Hagain|].
    destruct (0 <=? count); [exact Hone|constructor].
Qed.

Lemma sem_rel_matched g1 g2 a b : Rd g1 g2 -> S a b -> is_matched g1 (caps a) = is_matched g2 (caps b).
Proof.
  intros Hg Hab. pose proof (S_balance _ _ g1 g2 a b a b Gr_none Hg Hab Hab) as H. unfold is_matched.
  destruct (cap_get g1 (caps a)), (cap_get g2 (caps b)); try contradiction; reflexivity.
Qed.

Theorem sem_rel : forall fuel t1 t2 s1 s2, T t1 t2 -> S s1 s2 ->
  RR (sem e1 fuel t1 s1) (sem e2 fuel t2 s2).
Proof.
  induction fuel as [|f IH]; intros t1 t2 s1 s2 Ht Hs; [exact I|].
  assert (Hopt : forall n1 n2, opt_rel T n1 n2 ->
            RR (match n1 with Some n => sem e1 f n s1 | None => Ok [s1] end)
               (match n2 with Some n => sem e2 f n s2 | None => Ok [s2] end)).
  { intros [n1|] [n2|] Hn; try contradiction; [exact (IH _ _ _ _ Hn Hs)|exact (sem_rel_one _ _ Hs)]. }
  destruct (T_view t1 t2 Ht) as [t1 t2 _ _ Hb|o1 o2 l1 l2 Hl|o1 o2 l1 l2 Hl|lz o1 o2 m n r1 r2 Hr
    |o1 o2 g1 g2 u1 u2 r1 r2 Hr Hgr Hu|o g r1 r2 Hr Hg|r1 r2 Hr|o1 o2 r1 r2 Hr|o1 o2 r1 r2 Hr|r1 r2 Hr
    |o1 o2 g1 g2 y1 y2 n1 n2 Hg Hy Hn|o1 o2 c1 c2 y1 y2 n1 n2 Hc Hy Hn]; cbn [sem].
  - exact (Hb f s1 s2 Hs).
  - clear Ht Hopt. revert s1 s2 Hs. induction Hl as [|x1 x2 l1 l2 Hx _ IHl]; intros s1 s2 Hs.
    + exact (sem_rel_one _ _ Hs).
    + apply (res_rel_bindr S); [exact (IH _ _ _ _ Hx Hs)|]. exact IHl.
  - clear Ht. induction Hl as [|x1 x2 l1 l2 Hx _ IHl]; [constructor|].
    apply res_rel_appr; [exact (IH _ _ _ _ Hx Hs)|exact IHl].
  - pose proof (iter_rel (sem e1 f r1) (sem e2 f r2) (fun a b => IH r1 r2 a b Hr) f lz) as HI.
    destruct (m =? 0); [exact (HI _ _ _ _ _ _ Hs S_mark_none)|].
    apply (res_rel_bindr S); [exact (IH _ _ _ _ Hr Hs)|].
    intros a b Hab. exact (HI _ _ _ _ _ _ Hab (S_mark _ _ Hs)).
  - assert (Eu : (u2 =? -1) = (u1 =? -1)).
    { destruct Hu as [[-> ->]|Hu]; [reflexivity|symmetry; exact (Rd_none _ _ Hu)]. }
    rewrite Eu. destruct (u1 =? -1) eqn:E1;
      (apply (res_rel_bindr S); [exact (IH _ _ _ _ Hr Hs)|]); intros a b Hab.
    + exact (sem_rel_one _ _ (S_push _ _ _ _ _ _ Hgr Hs Hab)).
    + destruct Hu as [[Hu _]|Hu]; [rewrite Hu in E1; discriminate E1|].
      pose proof (S_balance _ _ _ _ _ _ _ _ Hgr Hu Hs Hab) as H.
      destruct (cap_get u1 (caps a)), (cap_get u2 (caps b)); try contradiction; [constructor|].
      exact (sem_rel_one _ _ H).
  - pose proof (IH _ _ _ _ Hr Hs) as H. unfold bindr.
    destruct (sem e1 f r1 s1) as [la| | |], (sem e2 f r2 s2) as [lb| | |];
      cbn [bind res_rel] in *; try contradiction; try exact H.
    rewrite bindl_unit, <- (map_id lb). cbn [res_rel].
    exact (Forall2_map S S _ _ la lb (fun a b => S_drop g s1 a b Hg) H).
  - exact (IH _ _ _ _ Hr Hs).
  - apply (res_rel_bind (Forall2 S)); [exact (res_rel_first_only S _ _ (IH _ _ _ _ Hr Hs))|].
    intros la lb Hl. exact (Forall2_map S S _ _ la lb (fun a b => S_with_pos _ _ a b Hs) Hl).
  - apply (res_rel_bind (Forall2 S)); [exact (IH _ _ _ _ Hr Hs)|].
    intros la lb [|]; [exact (sem_rel_one _ _ Hs)|constructor].
  - exact (res_rel_first_only S _ _ (IH _ _ _ _ Hr Hs)).
  - rewrite <- (sem_rel_matched _ _ _ _ Hg Hs).
    destruct (is_matched g1 (caps s1)); [exact (IH _ _ _ _ Hy Hs)|exact (Hopt _ _ Hn)].
  - apply (res_rel_bind (Forall2 S)); [exact (res_rel_first_only S _ _ (IH _ _ _ _ Hc Hs))|].
    intros la lb [|a b la' lb' Hab _]; [exact (Hopt _ _ Hn)|].
    exact (IH _ _ _ _ Hy (S_with_pos _ _ _ _ Hs Hab)).
Qed.

End SemRel.

(* leaves read a state's position only, a back-reference also the stack of its group: a relation
   that fixes positions and ignores them relates their results *)
Section LeafPos.
Variables (e : env) (S : st -> st -> Prop) (s1 s2 : st).
Hypothesis Hp : pos s1 = pos s2.
Hypothesis Hw : forall p, S (with_pos s1 p) (with_pos s2 p).
Hypothesis Hs : S s1 s2.

Lemma sem_ref_pos o g1 g2 : cap_get g1 (caps s1) = cap_get g2 (caps s2) ->
  Forall2 S (sem_ref e o g1 s1) (sem_ref e o g2 s2).
Proof.
  intros Hg. unfold sem_ref. rewrite <- Hg, <- Hp.
  destruct (cap_get g1 (caps s1)) as [|[i len] rest].
  - destruct (ecma e); repeat constructor; exact Hs.
  - destruct (_ <? len); [constructor|]. destruct (ref_match_at _ _ _ _ _); repeat constructor. apply Hw.
Qed.

Lemma sem_leaf_pos t f : is_leaf t = true -> (forall o g, t <> NRef o g) ->
  res_rel (Forall2 S) (sem e (Datatypes.S f) t s1) (sem e (Datatypes.S f) t s2).
Proof.
  destruct t; intros L Hn; try discriminate L; cbn [sem res_rel].
  - rewrite <- Hp. destruct (_ && _); repeat constructor. apply Hw.
  - unfold sem_charloop. rewrite <- Hp. cbv zeta. destruct (_ <? m); [constructor|].
    destruct l; [apply Forall2_map_same; intros; apply Hw..|repeat constructor; apply Hw].
  - unfold sem_multi. rewrite <- Hp. cbv zeta. destruct (_ <? _); [constructor|].
    destruct (str_match_at _ _ _ _); repeat constructor. apply Hw.
  - destruct (Hn o g eq_refl).
  - rewrite <- Hp. destruct (anchor_ok _ _ _); repeat constructor; exact Hs.
  - constructor.
  - repeat constructor; exact Hs.
  - repeat constructor; exact Hs.
Qed.

End LeafPos.

Lemma SV_leaf_eq e1 e2 T Gr Rd Drop t1 t2 :
  is_leaf t1 = true -> is_leaf t2 = true ->
  (forall f s, sem e1 (S f) t1 s = sem e2 (S f) t2 s) -> sem_view e1 e2 eq T Gr Rd Drop t1 t2.
Proof.
  intros L1 L2 H. apply (SV_leaf _ _ _ _ _ _ _ _ _ L1 L2). intros f s1 s2 ->. rewrite H.
  apply res_rel_refl. reflexivity.
Qed.

Corollary sem_ext e1 e2 (T : node -> node -> Prop) :
  (forall t1 t2, T t1 t2 -> sem_view e1 e2 eq T eq eq (fun _ => False) t1 t2) ->
  forall fuel t1 t2 s, T t1 t2 -> sem e1 fuel t1 s = sem e2 fuel t2 s.
Proof.
  intros Hv fuel t1 t2 s Ht. apply res_rel_eq.
  apply (sem_rel e1 e2 eq T eq eq (fun _ => False) Hv); try exact Ht; try reflexivity.
  - intros s1 s2 -> a b ->. reflexivity.
  - intros a b ->. reflexivity.
  - intros s1 s2 a b -> ->. reflexivity.
  - intros u1 u2 ->. reflexivity.
  - intros g1 g2 s1 s2 a b -> -> ->. reflexivity.
  - intros g s1 a b [].
  - intros g1 g2 u1 u2 s1 s2 a b -> -> -> ->. destruct (cap_get u2 (caps b)); [exact I|reflexivity].
Qed.

Lemma or_else_ext (a1 a2 : res (option st)) (b1 b2 : unit -> res (option st)) :
  a1 = a2 -> b1 tt = b2 tt -> or_else a1 b1 = or_else a2 b2.
Proof. intros <-. apply sp_or_else_ext. Qed.

Lemma iterk_ext (b1 b2 : st -> kont -> res (option st)) :
  (forall s ka kb, (forall x, ka x = kb x) -> b1 s ka = b2 s kb) ->
  forall fuel lazy limit s mark count k1 k2, (forall x, k1 x = k2 x) ->
    iterk fuel b1 lazy limit s mark count k1 = iterk fuel b2 lazy limit s mark count k2.
Proof.
  intros Hb. induction fuel as [|f IH]; intros lazy limit s mark count k1 k2 Hk; [reflexivity|].
  cbn [iterk].
  assert (Hagain :
    b1 s (fun s' => iterk f b1 lazy limit s' (pos s) (count + 1) k1) =
    b2 s (fun s' => iterk f b2 lazy limit s' (pos s) (count + 1) k2)).
  { apply Hb. intros x. apply IH. exact Hk. }
  destruct lazy.
  - destruct (count <? 0); [exact Hagain|].
    apply or_else_ext; [apply Hk|].
    destruct ((count <? limit) && negb (pos s =? mark)); [exact Hagain|reflexivity].
  - destruct ((limit <=? count) || ((pos s =? mark) && (0 <=? count))); [apply Hk|].
    apply or_else_ext; [exact Hagain|].
    destruct (0 <=? count); [apply Hk|reflexivity].
Qed.

Lemma sem_leaf_ok e f t s : is_leaf t = true -> exists l, sem e (S f) t s = Ok l.
Proof. destruct t; intros H; try discriminate H; eexists; reflexivity. Qed.

Theorem semk_ext e1 e2 (T : node -> node -> Prop) :
  (forall t1 t2, T t1 t2 -> sem_view e1 e2 eq T eq eq (fun _ => False) t1 t2) ->
  forall fuel t1 t2 s k1 k2, T t1 t2 -> (forall x, k1 x = k2 x) ->
    semk e1 fuel t1 s k1 = semk e2 fuel t2 s k2.
Proof.
  intros Hv. induction fuel as [|f IH]; intros t1 t2 s k1 k2 Ht Hk; [reflexivity|].
  assert (Hfirst : forall r1 r2 s', T r1 r2 -> semk e1 f r1 s' k_first = semk e2 f r2 s' k_first).
  { intros r1 r2 s' Hr. exact (IH r1 r2 s' _ _ Hr (fun _ => eq_refl)). }
  assert (Hopt : forall n1 n2, opt_rel T n1 n2 ->
            match n1 with Some n => semk e1 f n s k1 | None => k1 s end =
            match n2 with Some n => semk e2 f n s k2 | None => k2 s end).
  { intros [n1|] [n2|] Hn; try contradiction; [exact (IH _ _ _ _ _ Hn Hk)|apply Hk]. }
  destruct (Hv t1 t2 Ht) as [t1 t2 L1 L2 Hb|o1 o2 l1 l2 Hl|o1 o2 l1 l2 Hl|lz o1 o2 m n r1 r2 Hr
    |o1 o2 g ? u u' r1 r2 Hr <- Hu|o g r1 r2 Hr []|r1 r2 Hr|o1 o2 r1 r2 Hr|o1 o2 r1 r2 Hr|r1 r2 Hr
    |o1 o2 g ? y1 y2 n1 n2 <- Hy Hn|o1 o2 c1 c2 y1 y2 n1 n2 Hc Hy Hn]; [|cbn [semk]..].
  - destruct (sem_leaf_ok e1 f t1 s L1) as [la Ha], (sem_leaf_ok e2 f t2 s L2) as [lb Hb'].
    pose proof (res_rel_eq _ _ (Hb f s s eq_refl)) as E. rewrite Ha, Hb' in E. injection E as <-.
    rewrite (semk_sem _ _ _ _ _ Ha), (semk_sem _ _ _ _ _ Hb'). apply sp_first_some_ext. intros x _. apply Hk.
  - clear Ht Hopt. revert s k1 k2 Hk. induction Hl as [|x1 x2 l1 l2 Hx _ IHl]; intros s k1 k2 Hk; [apply Hk|].
    apply (IH _ _ _ _ _ Hx). intros s'. apply IHl. exact Hk.
  - clear Ht. induction Hl as [|x1 x2 l1 l2 Hx _ IHl]; [reflexivity|].
    apply or_else_ext; [exact (IH _ _ _ _ _ Hx Hk)|exact IHl].
  - pose proof (iterk_ext (semk e1 f r1) (semk e2 f r2) (fun s' ka kb => IH r1 r2 s' ka kb Hr) f lz) as HI.
    destruct (m =? 0); [apply HI; exact Hk|].
    apply (IH _ _ _ _ _ Hr). intros s'. apply HI. exact Hk.
  - assert (u' = u) as -> by (destruct Hu as [[-> ->]|<-]; reflexivity).
    destruct (u =? -1); apply (IH _ _ _ _ _ Hr); intros s'; [apply Hk|].
    destruct (cap_get u (caps s')); [reflexivity|apply Hk].
  - exact (IH _ _ _ _ _ Hr Hk).
  - rewrite (Hfirst _ _ s Hr). destruct (semk e2 f r2 s k_first) as [[s'|]| | |]; cbn [bind]; try reflexivity. apply Hk.
  - rewrite (Hfirst _ _ s Hr). destruct (semk e2 f r2 s k_first) as [[s'|]| | |]; cbn [bind]; try reflexivity. apply Hk.
  - rewrite (Hfirst _ _ s Hr). destruct (semk e2 f r2 s k_first) as [[s'|]| | |]; cbn [bind]; try reflexivity. apply Hk.
  - destruct (is_matched g (caps s)); [exact (IH _ _ _ _ _ Hy Hk)|exact (Hopt _ _ Hn)].
  - rewrite (Hfirst _ _ s Hc). destruct (semk e2 f c2 s k_first) as [[s'|]| | |]; cbn [bind]; try reflexivity.
    + exact (IH _ _ _ _ _ Hy Hk).
    + exact (Hopt _ _ Hn).
Qed.

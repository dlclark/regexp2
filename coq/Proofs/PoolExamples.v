(* A concrete environment used by the non-vacuity Examples of Properties/C12.v and C11.v: a toy interpreter whose
   traces make the track grow, leave junk everywhere, match / fail / time out / hit the limit depending on the
   text, so that pooled runners, buffers and the cache really carry stale state between calls. *)
From Verif Require Import Base.Prelude Model.Pool Proofs.PoolStackProofs Proofs.PoolRunnerProofs
  Proofs.PoolStateProofs Proofs.PoolSimProofs Proofs.PoolProofs.

Definition toy_cfg (re : nat) : re_cfg :=
  {| cfg_has_quick := Nat.eqb re 0; cfg_rtl := Nat.eqb re 2; cfg_tc := fun _ => 2; cfg_capsize := 2;
     cfg_limit := if Nat.eqb re 1 then 65 else 100000;
     cfg_max_rune := 16; cfg_max_byte := 16; cfg_cache_max := 2; cfg_cache_bytes := -1;
     cfg_timeout := if Nat.eqb re 1 then 5 else max_int64; cfg_debug := false |}.

(* checks every 8 slots (4*TrackCount) down to the depth given by the first rune of the text *)
Fixpoint toy_segs (n : nat) (d : Z) : list seg :=
  match n with
  | O => []
  | S n' => {| sg_td := d; sg_tmax := d + 8; sg_sd := 0; sg_smax := 4 |} :: toy_segs n' (d + 8)
  end.

Definition toy_interp (re : nat) (v : view) : trace :=
  let t := v_text v in
  let first := hd 0 t in
  {| tr_segs := toy_segs (Z.to_nat first) 0;
     tr_term := if zlen t =? 0 then TNone
                else if nth 1 t 0 =? 99 then TTimeout
                else if v_textpos v <? zlen t
                     then TMatch {| md_index := v_textpos v; md_length := 1; md_textpos := v_textpos v + 1;
                                    md_caps := [[v_textpos v; 1]]; md_balancing := false |}
                     else TNone;
     tr_junk := {| j_track := t; j_tpos := 3; j_stack := [7; 7]; j_spos := 1; j_crawl := [5]; j_cpos := 2;
                   j_crawl_len := 64; j_matchcount := [1; 3]; j_matches := [t; t]; j_balancing := true;
                   j_textpos := 42; j_misc := [1; 2; 3; 4] |} |}.

Definition toy_env : env :=
  {| e_cfg := toy_cfg; e_interp := toy_interp; e_decode := fun s => s;
     e_rune_start := fun s a => if (0 <=? a) && (a <=? zlen s) then a else -1;
     e_ms_cand := fun re s => if zlen s =? 7 then None else Some (-1);
     e_str_start := fun re s a at_v => if zlen s <? a then Err E_START_LARGE else Ok (Some (if a <? 0 then 0 else a));
     e_fa_start := fun re s => Ok (Some 0);
     e_fa_index := fun s i => i;
     e_fa_emit := fun pe m => negb (md_length m =? 0) || negb (md_index m =? pe);
     e_fa_edge := fun m => md_textpos m;
     e_parse_repl := fun re k => if zlen k =? 0 then Err 6 else Ok k;
     e_repl_out := fun rtl d t ms => flat_map (fun m => d) ms;
     e_replf_out := fun ev rtl t ms => map md_index ms;
     e_split_out := fun t ms => map (fun m => [md_index m]) ms;
     e_blen := fun l => zlen l;
     e_bytes_grow := fun c n => n * 2;
     e_deadline := fun d => d + 1000 |}.

Lemma toy_segs_wf : forall n d, 0 <= d -> segs_wf 2 d 4 (toy_segs n d).
Proof.
  induction n as [|n IH]; intros d H; cbn [toy_segs segs_wf]; [exact I|].
  cbn [sg_td sg_tmax sg_sd sg_smax]. repeat split; try lia.
  assert (X : segs_wf 2 (d + 8) 4 (toy_segs n (d + 8))) by (apply IH; lia). exact X.
Qed.
Lemma toy_segs_wf0 : forall n, segs_wf 2 0 0 (toy_segs n 0).
Proof.
  destruct n as [|n]; cbn [toy_segs segs_wf]; [exact I|].
  cbn [sg_td sg_tmax sg_sd sg_smax]. repeat split; try lia. apply (toy_segs_wf n 8). lia.
Qed.

Lemma toy_env_wf : env_wf toy_env.
Proof.
  split; [|split].
  - intros re. repeat split; cbn; lia.
  - intros re v H. cbn in H. rewrite H. cbn [e_interp toy_env toy_interp tr_segs]. apply toy_segs_wf0.
  - intros s. cbn. lia.
Qed.

(* three Regexps (0: has a bool-only program; 1: stack limit 65 and a timeout; 2: right-to-left) sharing pools with
   classes 4/8 (runes) and 8/16 (bytes) *)
Definition toy_g0 : gstate := gstate0 3 [4; 8] [8; 16].

(* a history that recycles everything: [Some 0] always takes the most recently pooled object *)
Definition toy_history : list hstep :=
  [ HCall (OMatchString 0 [9; 1; 1]) [];                         (* track grows to 128 *)
    HCall (OMatchString 0 [1; 2]) [Some O; Some O];              (* same runner, same buffer: stale tail [1] *)
    HCall (OFindStringMatch 0 [2; 2; 2]) [Some O];               (* quick runner reused by a full-program call *)
    HCall (OMatchRunes 1 [9; 1]) [];                             (* limit 65: refused at depth 64 *)
    HCall (OMatchRunes 1 [1; 99]) [Some O];                         (* times out on the runner that hit the limit *)
    HCall (OMatchRunes 1 [3; 3]) [Some O];                       (* and then matches normally *)
    HCall (OReplace 0 [1; 1] [50] (-1) (-1)) [Some O; Some O; Some O];
    HCall (OReplace 0 [1; 1] [51] (-1) (-1)) [Some O; Some O; Some O];
    HCall (OReplace 0 [1; 1] [52] (-1) (-1)) [Some O; Some O; Some O];   (* evicts [50] *)
    HCall (OReplace 0 [1; 1] [50] (-1) (-1)) [Some O; Some O; Some O];   (* miss again, evicts [51] *)
    HCall (OReplace 0 [1; 1] [] (-1) (-1)) [];                   (* unparsable replacement *)
    HCall (OFindAllStringIndex 0 [1; 2; 3] (-1)) [Some O; Some O];
    HGc (fun i => Nat.eqb i 1);
    HCall (OFindAllRunesIndex 2 [1; 2; 3] 2) [Some O];
    HCall (OSplit 0 [1; 2] (-1)) [Some O; Some O; Some O];
    HCall (OReplaceFunc 0 [1; 2] 7 0 (-1)) [Some O; Some O; Some O];
    HCall (OFindNextMatch 0 (Some ([1; 2; 3], 1, 1))) [Some O];
    HCall (OMatchString 0 [1; 1; 1; 1; 1; 1; 1]) [] ].

Definition toy_fuel : nat := 20.

(* three goroutines, two on Regexp 0 and one on Regexp 1; toy_sched runs them in rotation, goroutine 1 twice a round *)
Definition toy_opss : list (list op) :=
  [ [OMatchString 0 [9; 1; 1]; OReplace 0 [1; 1] [50] (-1) (-1); OFindAllStringIndex 0 [1; 2; 3] (-1)];
    [OMatchString 0 [1; 2]; OFindStringMatch 0 [2; 2; 2]; OReplace 0 [1; 1] [50] (-1) (-1); OSplit 0 [1; 2] (-1)];
    [OMatchRunes 1 [9; 1]; OMatchRunes 1 [1; 99]; OMatchRunes 1 [3; 3]] ].
Fixpoint toy_sched (n : nat) : list (nat * pick) :=
  match n with
  | O => []
  | S n' => (O, Some O) :: (1%nat, Some O) :: (2%nat, None) :: (1%nat, Some 1%nat) :: toy_sched n'
  end.
Definition toy_c0 : config := {| c_g := toy_g0; c_threads := map spawn toy_opss; c_fault := false |}.

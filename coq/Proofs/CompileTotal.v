(* Totality, the missing half of compile_correct_exec_partial: the interpreter with its REAL finite stacks and no
   limit (L = -1) follows the unbounded-stack path of compile_correct_top_partial step for step -- it never faults
   (no Crash of any kind, no error) and, given interpreter fuel for the length of that path, returns.

   The bridge of Proofs/VMUBridge.v goes from a real step that succeeds to a [ustep].  Here the converse:
       tot_step :  at an instruction boundary, with the capacity invariant [tinv]
                   (free backtracking-stack slots >= cp_need(pc), backtracking-stack capacity >= 4*TrackCount,
                    grouping-stack capacity >= what initMatch allocates), if the step on the re-padded state succeeds then the
                    real step succeeds with the same result, and [tinv] holds again.
   cp_need is VMCapacityProofs.cp_need (the weight of the code from pc on): DESIGN Appendix A's capacity argument
   for the backtracking stack.  For the GROUPING stack that potential argument does not go through (a Back
   handler that re-pushes a mark and then backtracks into a frame of the same instruction is not covered by
   ensureStorage), so its bound is taken from the path: [path_ok] below.

   HYPOTHESIS that is not discharged in this file ([path_ok], a property of the UNBOUNDED path only):
     (a) every state of the path is at an instruction boundary of the program (control-flow safety in the
         sense of C13 / VMCapacityProofs.cp_boundary), and
     (b) its grouping stack is at least two words below the size initMatch allocates
         (max (8*TrackCount) 32; nesting depth of marks/counters/jumps, two words each).
   "Every pc reached has code and every pop finds its frame" does follow from compile_correct_top_partial's path (each
   of its steps is a successful ustep); (a) and (b) are facts about the SHAPE of the frames, which the
   statement of compile_correct_top_partial does not expose.  Both are decidable on a concrete run: CompileLimit.mon_steps
   checks them while running (mon_sound).  DISCHARGED for every program the writer emits:
   Proofs/CompileCfSafe.v (a verified static verifier implies path_ok) + Proofs/CompileTyEmit.v (every emitted
   program is accepted) = Proofs/CompileSafe.v compiled_path_ok. *)
From Verif Require Import Base.Prelude Model.Tree Model.Spec Model.VM Model.Writer Gen.RunnerGen
  Proofs.VMLimitProofs Proofs.VMLimitSimProofs Proofs.VMCapacityProofs Proofs.VMU Proofs.VMUBridge.
From Coq Require Import Relations ZifyBool.

Section Tot.
Variable e : env.
Variable p : program.
Hypothesis tc_nonneg : 0 <= trackcount p.
Hypothesis Hw : cp_need (codes p) 0 <= trackcount p * G_ensure_factor.
(* the real side runs with any negative limit ("no limit"); the padded side of [ustep] uses -1 *)
Variable L0 : Z.
Hypothesis HL0 : L0 < 0.

Notation need := (VMUBridge.need p).
Definition tfree (s : vm) : Z := tcap s - zlen (track s).

Definition sinit : Z := Z.max (trackcount p * G_stacksize_mul) G_stacksize_min.
Definition tinv (s : vm) : Prop :=
  cp_need (codes p) (pc s) <= tfree s /\ need <= tcap s /\ sinit <= scap s.

(* the real side succeeds whenever the padded side does, with the same result *)
Definition relT (r1 r2 : res outcome) : Prop :=
  match r2 with
  | Ok (Next b) => exists a, r1 = Ok (Next a) /\ same a b /\ tinv a
  | Ok (Done b) => exists a, r1 = Ok (Done a) /\ same a b /\ tinv a
  | _ => True
  end.

Lemma t_ensure s1 s2 : same s1 s2 -> roomy p 0 s2 ->
  zlen (track s1) <= tcap s1 -> need <= tcap s1 -> 0 <= scap s1 ->
  exists a, ensure_storage p L0 s1 = Ok a /\ ensure_storage p (-1) s2 = Ok s2 /\ same a s2 /\
            need <= tfree a /\ need <= tcap a /\ scap s1 <= scap a.
Proof using tc_nonneg HL0.
  intros HS [HT HK] Ht Hnt Hns. unfold VMUBridge.need in *.
  destruct (grow_tcap_nolimit L0 (tcap s1) (zlen (track s1)) _ HL0 (conj (zlen_nonneg _) Ht) Hnt) as (tc' & G & G1 & G2).
  pose proof (grow_scap_le (scap s1) (zlen (stack s1)) (trackcount p * G_ensure_factor) Hns) as G3.
  eexists. split; [rewrite ensure_storage_eq, G; reflexivity|]. split; [apply ensure_ok; lia|].
  split; [unfold same, with_caps in *; vm_cbn; exact HS|]. unfold tfree, with_caps. vm_cbn. lia.
Qed.

Lemma sinit_nonneg : 0 <= sinit.
Proof. unfold sinit, G_stacksize_min. lia. Qed.

Lemma t_goto s1 s2 a : same s1 s2 -> roomy p 0 s2 ->
  cp_need (codes p) (pc s1 + 1) <= tfree s1 -> need <= tcap s1 -> sinit <= scap s1 ->
  relT (cont (goto p L0 s1 a)) (cont (goto p (-1) s2 a)).
Proof.
  intros HS HR Ht Hnt Hns.
  pose proof (cp_need_nonneg (codes p) (pc s1 + 1)) as Hnn. pose proof sinit_nonneg as Hs0.
  assert (Hpc : pc s1 = pc s2) by (unfold same in HS; tauto).
  unfold cont, goto. rewrite <- Hpc.
  destruct (a <=? pc s1) eqn:Ea.
  - destruct (t_ensure s1 s2 HS HR) as (x & E1 & E2 & Hx & F1 & F3 & F4); try (unfold tfree in *; lia).
    rewrite E1, E2. cbn [bind]. destruct (code_at p a) as [w|]; cbn [bind relT]; [|exact I].
    eexists. split; [reflexivity|]. split.
    + unfold same in *. vm_cbn. tauto.
    + unfold tinv, tfree, VMUBridge.need in *. vm_cbn. pose proof (cp_need_le_total (codes p) a). repeat split; lia.
  - cbn [bind]. destruct (code_at p a) as [w|]; cbn [bind relT]; [|exact I].
    eexists. split; [reflexivity|]. split.
    + unfold same in *. vm_cbn. tauto.
    + unfold tinv, tfree, VMUBridge.need in *. vm_cbn.
      pose proof (cp_need_mono (codes p) (pc s1 + 1) a ltac:(lia)). repeat split; lia.
Qed.

Lemma t_adv s1 s2 i : same s1 s2 -> 0 <= i ->
  cp_need (codes p) (pc s1 + 1) <= tfree s1 -> need <= tcap s1 -> sinit <= scap s1 ->
  relT (cont (advance p s1 i)) (cont (advance p s2 i)).
Proof.
  intros HS Hi Ht Hnt Hns.
  assert (Hpc : pc s1 = pc s2) by (unfold same in HS; tauto).
  unfold cont, advance. rewrite <- Hpc.
  destruct (code_at p (pc s1 + i + 1)) as [w|]; cbn [bind relT]; [|exact I].
  eexists. split; [reflexivity|]. split.
  - unfold same in *. vm_cbn. tauto.
  - unfold tinv, tfree, VMUBridge.need in *. vm_cbn.
    pose proof (cp_need_mono (codes p) (pc s1 + 1) (pc s1 + i + 1) ltac:(lia)). repeat split; lia.
Qed.

Lemma t_brk s1 s2 : same s1 s2 -> roomy p 0 s2 ->
  cp_need (codes p) (pc s1) <= tfree s1 + 1 ->
  zlen (track s1) <= tcap s1 -> need <= tcap s1 -> sinit <= scap s1 ->
  relT (brk p L0 s1) (brk p (-1) s2).
Proof.
  intros HS [HT HK] Ht Hlt Hnt Hns.
  pose proof (cp_need_nonneg (codes p) (pc s1)) as Hnn. pose proof sinit_nonneg as Hs0.
  unfold tfree in Ht. revert Ht Hlt.
  unfold brk, backtrack. pose proof HS as HS0.
  unfold same in HS. destruct HS as (Hpc & Hmd & Htp & Htr & Hst & Hcr & Hmc).
  rewrite <- Htr, <- Hpc.
  destruct (track s1) as [|np t] eqn:Et; [intros; exact I|]. intros Ht Hlt.
  destruct (if np <? 0 then (- np, Back2Bit) else (np, BackBit)) as [newpos m].
  destruct (code_at p newpos) as [w|]; [|exact I].
  assert (HS1 : same (set_track s1 t) (set_track s2 t)) by (unfold same; vm_cbn; tauto).
  rewrite zlen_cons in *. pose proof (zlen_nonneg t) as Hzt.
  destruct (newpos <? pc s1) eqn:En.
  - destruct (t_ensure (set_track s1 t) (set_track s2 t) HS1) as (x & E1 & E2 & Hx & F1 & F3 & F4);
      try (unfold roomy, tfree in *; vm_cbn; rewrite <- ?Htr, ?Et, ?zlen_cons in *; lia).
    rewrite E1, E2. cbn [bind relT]. eexists. split; [reflexivity|]. split.
    + unfold same in *. vm_cbn. tauto.
    + unfold tinv, tfree, VMUBridge.need in *. vm_cbn. vm_cbn_in F4. pose proof (cp_need_le_total (codes p) newpos). repeat split; lia.
  - cbn [bind relT]. eexists. split; [reflexivity|]. split; [unfold same in *; vm_cbn; tauto|].
    unfold tinv, tfree, VMUBridge.need in *. vm_cbn.
    pose proof (cp_need_mono (codes p) (pc s1) newpos ltac:(lia)). repeat split; lia.
Qed.

(* The padded side has run the operations of the step's plan; the real side has room for what a plan pushes
   (the weight of the instruction on the backtracking stack, two words on the grouping stack), so it runs them
   with the same result, and leaves through the same exit. *)
Lemma tot_step s1 s2 w :
  cp_boundary (codes p) (pc s1) w -> tinv s1 -> zlen (stack s1) + 2 <= sinit -> same s1 s2 -> roomy p 16 s2 ->
  relT (step e p L0 s1) (step e p (-1) s2).
Proof.
  intros Hb (I1 & I3 & I4) Hroom HS [HT HK]. unfold tfree in I1.
  pose proof (cp_need_split _ _ _ Hb) as Hsplit.
  pose proof (cp_need_nonneg (codes p) (pc s1 + 1)) as Hnn.
  apply cp_boundary_word in Hb.
  destruct (step_plan2 e p s1 s2 w Hb (same_caps _ _ HS)) as (us & x & (Hkt & Hks & Hx) & Hs).
  rewrite cp_weight_pushes in Hkt.
  destruct (Hs L0 (-1)) as [-> ->]. rewrite !exec_bind.
  destruct (run_uops us s2) as [b| | |] eqn:E2; cbn [bind]; try exact I.
  pose proof HS as (_ & _ & _ & Htr & Hst & _).
  assert (HS1 : s1 = with_caps s2 (tcap s1) (scap s1)).
  { destruct s1, s2. unfold same in HS. vm_cbn_in HS. destruct HS as (-> & -> & -> & -> & -> & -> & ->). reflexivity. }
  pose proof (uops_fit us s2 b (tcap s1) (scap s1) E2) as E1. rewrite <- HS1, <- Htr, <- Hst in E1.
  specialize (E1 ltac:(lia) ltac:(lia)). rewrite E1. cbn [bind]. set (a := with_caps b (tcap s1) (scap s1)).
  assert (Hab : same a b) by (unfold a, same, with_caps; vm_cbn; repeat split).
  apply uops_sizes in E2. destruct E2 as (_ & B2 & B3 & B4 & B5).
  assert (HR : roomy p 0 b).
  { pose proof (cp_weight_range w). unfold roomy in *. lia. }
  assert (A : pc a = pc s1 /\ tcap a = tcap s1 /\ scap a = scap s1 /\ zlen (track a) <= zlen (track s1) + tpushed us).
  { apply uops_sizes in E1. unfold sizes_le in E1. tauto. }
  destruct A as (A1 & A2 & A3 & A4).
  destruct x; cbn [run_exit].
  - apply t_adv; unfold tfree; rewrite ?A1; try assumption; lia.
  - apply t_goto; unfold tfree; rewrite ?A1; try assumption; lia.
  - apply t_brk; unfold tfree; rewrite ?A1; try assumption; lia.
  - cbn [relT]. exists a. split; [reflexivity|]. split; [exact Hab|]. unfold tinv, tfree. rewrite A1. lia.
  - exact I.
Qed.

Inductive ustepsN : nat -> vm -> vm -> Prop :=
| usN_0 s : ustepsN 0 s s
| usN_S n a b c : ustep e p a = Ok (Next b) -> ustepsN n b c -> ustepsN (S n) a c.

Lemma usteps_counted a b : usteps e p a b -> exists n, ustepsN n a b.
Proof.
  intros H. apply clos_rt_rt1n in H. induction H as [a|a b c Hab _ [n IH]].
  - exists 0%nat. constructor.
  - exists (S n). econstructor; [exact Hab|exact IH].
Qed.

Lemma ustepsN_usteps n a b : ustepsN n a b -> usteps e p a b.
Proof. induction 1; [apply usteps_refl|eapply usteps_step; eassumption]. Qed.

Definition bnd (c : Z) : Prop := exists w, cp_boundary (codes p) c w.
(* the two facts about the unbounded path from [a] that are taken as hypothesis *)
Definition st_good (s : vm) : Prop := bnd (pc s) /\ zlen (stack s) + 2 <= sinit.
Definition path_ok (a : vm) : Prop := forall s, usteps e p a s -> st_good s.

Lemma path_ok_step a b : path_ok a -> ustep e p a = Ok (Next b) -> path_ok b.
Proof. intros H Hab s Hs. apply H. eapply usteps_step; eassumption. Qed.

(* a real step from a state with the invariant, along a ustep *)
Lemma tot_real_step s : tinv s -> st_good (norm s) ->
  (forall b, ustep e p (norm s) = Ok (Next b) -> exists a, step e p L0 s = Ok (Next a) /\ norm a = b /\ tinv a) /\
  (forall b, ustep e p (norm s) = Ok (Done b) -> exists a, step e p L0 s = Ok (Done a) /\ norm a = b /\ tinv a).
Proof.
  intros Hi [[w Hb] Hroom]. cbn [norm VMU.mk pc stack] in Hb, Hroom.
  pose proof (tot_step s (repad p (norm s)) w Hb Hi Hroom (same_repad p s) (roomy_repad p s)) as G.
  unfold ustep. split; intros b H.
  - destruct (step e p (-1) (repad p (norm s))) as [[b0|b0|c|w0]| | |] eqn:E; try discriminate.
    injection H as <-. cbn [relT] in G. destruct G as (a & Ea & Hs & Hia).
    exists a. split; [exact Ea|]. split; [apply same_norm; exact Hs|exact Hia].
  - destruct (step e p (-1) (repad p (norm s))) as [[b0|b0|c|w0]| | |] eqn:E; try discriminate.
    injection H as <-. cbn [relT] in G. destruct G as (a & Ea & Hs & Hia).
    exists a. split; [exact Ea|]. split; [apply same_norm; exact Hs|exact Hia].
Qed.

Lemma run_steps_total : forall n s sd sd',
  tinv s -> path_ok (norm s) -> ustepsN n (norm s) sd -> ustep e p sd = Ok (Done sd') ->
  forall k,
    ((n < k)%nat -> exists s', run_steps e p L0 k s = Ok (s', true) /\ norm s' = sd' /\ tinv s') /\
    ((k <= n)%nat -> exists s'', run_steps e p L0 k s = Ok (s'', false) /\ tinv s'' /\
                                  path_ok (norm s'') /\ ustepsN (n - k) (norm s'') sd).
Proof.
  induction n as [|n IH]; intros s sd sd' Hi Hp Hn Hd k.
  - inversion Hn; subst. split.
    + intros Hk. destruct k as [|k]; [lia|]. cbn [run_steps].
      destruct (tot_real_step s Hi (Hp _ (usteps_refl e p _))) as [_ G].
      destruct (G sd' Hd) as (a & Ea & Ha & Hia). rewrite Ea. exists a. split; [reflexivity|]. split; [exact Ha|exact Hia].
    + intros Hk. assert (k = 0%nat) by lia. subst k. cbn [run_steps]. exists s.
      split; [reflexivity|]. split; [exact Hi|]. split; [exact Hp|]. constructor.
  - inversion Hn as [|n0 a b c Hab Hbc]; subst.
    destruct (tot_real_step s Hi (Hp _ (usteps_refl e p _))) as [G _].
    destruct (G b Hab) as (a & Ea & Ha & Hia). subst b.
    pose proof (path_ok_step _ _ Hp Hab) as Hp'.
    destruct k as [|k].
    + split; [lia|]. intros _. cbn [run_steps]. exists s.
      split; [reflexivity|]. split; [exact Hi|]. split; [exact Hp|]. exact Hn.
    + cbn [run_steps]. rewrite Ea.
      destruct (IH a sd sd' Hia Hp' Hbc Hd k) as [I1 I2]. split.
      * intros Hk. apply I1. lia.
      * intros Hk. replace (S n - S k)%nat with (n - k)%nat by lia. apply I2. lia.
Qed.

Lemma run_total : forall fuel n s sd sd',
  tinv s -> path_ok (norm s) -> ustepsN n (norm s) sd -> ustep e p sd = Ok (Done sd') ->
  ((n < 1000 * fuel)%nat -> exists s', run e p L0 fuel s = Ok s' /\ norm s' = sd' /\ tinv s') /\
  ((1000 * fuel <= n)%nat -> run e p L0 fuel s = Fuel).
Proof.
  induction fuel as [|f IH]; intros n s sd sd' Hi Hp Hn Hd.
  - split; [lia|]. intros _. reflexivity.
  - cbn [run]. remember 1000%nat as K eqn:HK. (* kept folded: a unary 1000 is slow to match against *)
    destruct (run_steps_total n s sd sd' Hi Hp Hn Hd K) as [R1 R2].
    destruct (Nat.lt_ge_cases n K) as [Hlt|Hge].
    + destruct (R1 Hlt) as (s' & Es & Hs'). rewrite Es. cbn [bind snd fst]. split.
      * intros _. exists s'. split; [reflexivity|exact Hs'].
      * intros Hc. lia.
    + destruct (R2 Hge) as (s'' & Es & Hi'' & Hp'' & Hn''). rewrite Es. cbn [bind snd fst].
      destruct (IH (n - K)%nat s'' sd sd' Hi'' Hp'' Hn'' Hd) as [J1 J2]. split.
      * intros Hc. apply J1. lia.
      * intros Hc. apply J2. lia.
Qed.

(* initMatch + goTo(0) on a fresh runner: the invariant holds at the start *)
Lemma tot_start t w0 : code_at p 0 = Some w0 ->
  exists s0, goto p L0 (init_vm p L0 t) 0 = Ok s0 /\ tinv s0 /\
             norm s0 = VMU.mk 0 0 t [] [] [] (repeat [] (Z.to_nat (capsize p))).
Proof.
  intros H0. set (i0 := init_vm p L0 t).
  assert (Htc : tcap i0 = Z.max (trackcount p * 8) 64).
  { unfold i0, init_vm. cbn [tcap]. unfold G_tracksize_mul, G_tracksize_min.
    replace ((0 <=? L0) && (L0 <? Z.max (trackcount p * 8) 64)) with false by lia. reflexivity. }
  assert (Hsc : scap i0 = Z.max (trackcount p * 8) 32) by reflexivity.
  assert (Htr : track i0 = []) by reflexivity. assert (Hst : stack i0 = []) by reflexivity.
  assert (Hn : need = trackcount p * 4) by reflexivity.
  assert (E : ensure_storage p L0 i0 = Ok i0).
  { rewrite ensure_storage_eq, grow_tcap_room, grow_scap_keep, with_caps_id; [reflexivity|..];
      rewrite ?Hsc, ?Hst, ?Htc, ?Htr; change (zlen (@nil Z)) with 0; fold need; lia. }
  unfold goto. change (pc i0) with 0. change (0 <=? 0) with true. cbv iota. rewrite E. cbn [bind]. rewrite H0.
  eexists. split; [reflexivity|]. split; [|reflexivity].
  unfold tinv, tfree, sinit, G_stacksize_mul, G_stacksize_min. vm_cbn. rewrite Htc, Hsc, Htr.
  change (zlen (@nil Z)) with 0. fold need in Hw. repeat split; lia.
Qed.

(* the real interpreter, no limit: Ok with enough fuel, otherwise Fuel -- never a fault *)
Theorem exec_total t n sd sd' w0 :
  code_at p 0 = Some w0 ->
  let a0 := VMU.mk 0 0 t [] [] [] (repeat [] (Z.to_nat (capsize p))) in
  path_ok a0 -> ustepsN n a0 sd -> ustep e p sd = Ok (Done sd') ->
  forall vfuel,
    ((n < 1000 * vfuel)%nat -> exists s', exec_at e p L0 vfuel t = Ok s' /\ norm s' = sd' /\ tinv s') /\
    ((1000 * vfuel <= n)%nat -> exec_at e p L0 vfuel t = Fuel).
Proof.
  intros H0 a0 Hp Hn Hd vfuel. unfold exec_at.
  destruct (tot_start t w0 H0) as (s0 & Eg & Hi & Hs0). rewrite Eg. cbn [bind].
  fold a0 in Hs0. rewrite <- Hs0 in Hp, Hn.
  exact (run_total vfuel n s0 sd sd' Hi Hp Hn Hd).
Qed.

End Tot.

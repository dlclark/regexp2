(* C05, proofs part 8: the whole post-pass Model/FinalOpt.fo_final_optimize (lite, strict) keeps the first result
   of the root from every state inside the text; hence the search finds the same match.
   (Gate mask, lite and the strict bits: Model/FinalOpt.v, and the head of FinalOptEnd.v.  The gate-31 tree is the parse
   with every optional rewrite family switched off, mask 31: the input of the post-pass.) *)
From Verif Require Import Base.Prelude Gen.ParseLitGen Model.Tree Model.Spec Model.Rewrite Model.ParseLit Model.CharClass Model.Parser
  Model.FinalOpt
  Proofs.SpecProofs Proofs.SpecBoundsProofs Proofs.SpecTermProofs Proofs.RewriteProofs
  Proofs.FinalOptDen Proofs.FinalOptK Proofs.FinalOptLink Proofs.FinalOptLeaf Proofs.FinalOptWalk Proofs.FinalOptAtomic
  Proofs.FinalOptEnd.
From Verif Require Import Proofs.ListFacts.
From Coq Require Import ZifyBool.

Section Main.
Variable cat_in : Z -> Z -> bool.
Variables isw isew : Z -> bool.
Variable sid : cls -> Z.
Variable e : env.
Variable sets : list cls.
Hypothesis Henv : env_ok cat_in isw isew sid e sets.

Notation den := (den e).
Notation tr := (tr sid).
Notation node_ok := (node_ok sets).

(* ---- replacing the children of a node by children with the same results *)
Lemma kids_sound x ks' : node_ok x -> Forall2 (fun k k' => node_ok k' /\ rw_refines e (tr k) (tr k')) (n_kids x) ks' ->
  node_ok (set_kids x ks') /\ rw_refines e (tr x) (tr (set_kids x ks')).
Proof.
  intros Hok Hall. split.
  - apply node_ok_set_kids; [exact Hok | symmetry; exact (Forall2_length _ _ _ Hall) | exact (Forall2_Forall_r _ _ _ _ (fun _ _ => @proj1 _ _) Hall)].
  - apply kids_refines. exact (Forall2_impl _ _ _ _ (fun _ _ => @proj2 _ _) Hall).
Qed.

Section Gates.
Variable g strict : Z.
Hypothesis Hg16 : fo_gate g 16 = true.
Hypothesis Hs0 : Z.testbit strict 0 = true.
Hypothesis Hs1 : Z.testbit strict 1 = true.
Hypothesis Hs2 : Z.testbit strict 2 = true.
Hypothesis Hs3 : Z.testbit strict 3 = true.

(* ---- the second reduction of the gate-31 tree (fo_rr) keeps every result *)
Theorem rr_sound : forall f mode ptype x x',
  fo_rr cat_in isw isew f g strict true mode ptype x = Ok x' -> node_ok x ->
  node_ok x' /\ rw_refines e (tr x) (tr x').
Proof.
  induction f as [|f IH]; intros mode ptype x x' H Hok; [discriminate|].
  cbn [fo_rr] in H.
  destruct (fo_map_res (fo_rr cat_in isw isew f g strict true mode (n_t x)) (n_kids x)) as [kids'| | |] eqn:Ek; cbn [bind] in H; try discriminate.
  destruct (kids_sound x kids' Hok (map_res_rel sets _ _ _ _ (IH mode (n_t x)) (node_ok_kids sets x Hok) Ek)) as [Hok2 Hr].
  destruct (fo_heads_eqb kids' (n_kids x) && negb (fo_has_gated_branch (n_t x))).
  - injection H as <-. split; assumption.
  - destruct (proj2 (ee_red_sound cat_in isw isew sid e sets Henv g strict Hg16 Hs0 Hs1 Hs2 Hs3 (S (S f))) _ _ _ _ H Hok2) as [Hx' Hr'].
    split; [exact Hx' | eapply rw_refines_trans; [exact Hr | exact Hr']].
Qed.

(* ---- finalOptimize's passes, then the whole post-pass *)
Definition same_head (root root' : rnode) : Prop :=
  forall s, st_ok e s -> hd_list (den (tr root) s) = hd_list (den (tr root') s).

Lemma same_head_refl a : same_head a a.
Proof. intros s _. reflexivity. Qed.
Lemma same_head_trans a b c : same_head a b -> same_head b c -> same_head a c.
Proof. intros H1 H2 s Hs. rewrite (H1 s Hs). apply H2. exact Hs. Qed.
Lemma same_head_refines a b : rw_refines e (tr a) (tr b) -> same_head a b.
Proof. intros H s _. rewrite refines_den in H. rewrite H. reflexivity. Qed.
Lemma same_head_hrefines a b : rw_hrefines e (tr a) (tr b) -> same_head a b.
Proof. intros H s _. rewrite hrefines_den in H. apply H. Qed.

Theorem final_passes_sound f root root' :
  fo_final_passes cat_in isw isew f g strict true root = Ok root' -> node_ok root ->
  node_ok root' /\ same_head root root'.
Proof.
  intros H Hok. unfold fo_final_passes in H.
  destruct (useRTL (n_o root)); [injection H as <-; split; [exact Hok | apply same_head_refl]|].
  (* automatic atomic loops *)
  assert (H1 : exists r1, (if fo_gate g 1 then Ok root else fo_fa cat_in isw isew f strict root []) = Ok r1 /\
                          node_ok r1 /\ same_head root r1).
  { destruct (fo_gate g 1).
    - exists root. split; [reflexivity|]. split; [exact Hok | apply same_head_refl].
    - destruct (fo_fa cat_in isw isew f strict root []) as [r1| | |] eqn:E1; cbn [bind] in H; try discriminate.
      exists r1. split; [reflexivity|].
      destruct (fa_sound cat_in isw isew sid e sets Henv strict Hs0 Hs1 Hs2 f root [] r1 E1 Hok (Forall_nil _)) as [Hr1 HHK].
      split; [exact Hr1|]. intros s Hs. apply (HK_kid_den e _ _ (HHK (kid) (KT_kid e)) s Hs). }
  destruct H1 as (r1 & E1 & Hr1 & Hh1). rewrite E1 in H. cbn [bind] in H.
  (* ending backtracking *)
  destruct (fo_ee cat_in isw isew f g strict true false r1) as [r2| | |] eqn:E2; cbn [bind] in H; try discriminate.
  destruct (proj1 (ee_red_sound cat_in isw isew sid e sets Henv g strict Hg16 Hs0 Hs1 Hs2 Hs3 f) _ _ _ E2 Hr1) as (Hr2 & Hh2 & _).
  (* the marker *)
  destruct (n_kids r2) as [|k ks] eqn:Ek2; [discriminate|].
  destruct (fo_bump f g k true false) as [[k' mk]| | |] eqn:E3; cbn [bind] in H; try discriminate.
  injection H as <-. cbn [fst].
  assert (Hk : node_ok k) by (apply (node_ok_kid sets r2); [exact Hr2 | rewrite Ek2; left; reflexivity]).
  assert (Hks : Forall node_ok ks).
  { rewrite Forall_forall. intros r Hr. apply (node_ok_kid sets r2); [exact Hr2 | rewrite Ek2; right; exact Hr]. }
  destruct (bump_sound sid e sets f g k true false k' mk E3 Hk) as (Hk' & Hrk & _).
  split.
  - apply node_ok_set_kids; [exact Hr2 | rewrite Ek2; reflexivity | constructor; assumption].
  - eapply same_head_trans; [exact Hh1|]. eapply same_head_trans; [apply same_head_hrefines; exact Hh2|].
    apply same_head_refines. apply kids_refines. rewrite Ek2. constructor; [exact Hrk | apply Forall2_refl_refines].
Qed.

Theorem final_optimize_sound f cl root root' :
  fo_final_optimize cat_in isw isew f g strict true cl root = Ok root' -> node_ok root ->
  node_ok root' /\ same_head root root'.
Proof.
  intros H Hok. unfold fo_final_optimize in H.
  assert (H0 : exists r0, (if fo_gate g 2 && fo_gate g 8 && fo_gate g 16 then Ok root
                           else do kids' <- fo_map_res (fo_rr cat_in isw isew f g strict true (if cl then 2 else 1) (n_t root)) (n_kids root) ;
                                Ok (set_kids root kids')) = Ok r0 /\ node_ok r0 /\ rw_refines e (tr root) (tr r0)).
  { destruct (fo_gate g 2 && fo_gate g 8 && fo_gate g 16).
    - exists root. split; [reflexivity|]. split; [exact Hok | apply rw_refines_refl].
    - destruct (fo_map_res (fo_rr cat_in isw isew f g strict true (if cl then 2 else 1) (n_t root)) (n_kids root)) as [kids'| | |] eqn:Ek;
        cbn [bind] in H; try discriminate.
      exists (set_kids root kids'). split; [reflexivity|].
      exact (kids_sound root kids' Hok (map_res_rel sets _ _ _ _ (rr_sound f _ _) (node_ok_kids sets root Hok) Ek)). }
  destruct H0 as (r0 & E0 & Hr0 & Hrf). rewrite E0 in H. cbn [bind] in H.
  destruct (final_passes_sound f r0 root' H Hr0) as [Hok' Hh].
  split; [exact Hok'|]. eapply same_head_trans; [apply same_head_refines; exact Hrf | exact Hh].
Qed.

End Gates.
Definition init_st (p : Z) : st := {| pos := p; caps := [] |}.
Definition first_of (l : list st) : option st := match l with [] => None | s :: _ => Some s end.

Lemma attempt_den f root p r : attempt e f root p = Ok r -> r = first_of (den root (init_st p)).
Proof.
  unfold attempt. destruct (Spec.sem e f root {| pos := p; caps := [] |}) as [l| | |] eqn:E; cbn [bind]; try discriminate.
  intros H. injection H as <-. assert (Hl : den root (init_st p) = l) by (apply fd_evals_den; exists f; exact E).
  rewrite Hl. reflexivity.
Qed.
Lemma attempt_total root p f : (term_fuel_any root <= f)%nat -> attempt e f root p = Ok (first_of (den root (init_st p))).
Proof.
  intros Hf. unfold attempt. destruct (spec_sem_total_any e root f Hf {| pos := p; caps := [] |}) as [l Hl].
  rewrite Hl. cbn [bind]. assert (Hd : den root (init_st p) = l) by (apply fd_evals_den; exists f; exact Hl).
  rewrite Hd. reflexivity.
Qed.
Lemma first_of_hd (l l' : list st) : hd_list l = hd_list l' -> first_of l = first_of l'.
Proof. destruct l, l'; cbn; congruence. Qed.

Theorem find_same_head root root' (rtl : bool) :
  (forall p, 0 <= p <= tlen e -> hd_list (den root (init_st p)) = hd_list (den root' (init_st p))) ->
  forall f start prevlen r, 0 <= start <= tlen e ->
    find e f root rtl start prevlen = Ok r ->
    exists f', find e f' root' rtl start prevlen = Ok r.
Proof.
  intros Hh f start prevlen r Hst H. exists (term_fuel_any root').
  unfold find in *.
  destruct ((prevlen =? 0) && (start =? (if rtl then 0 else tlen e))) eqn:E0; [exact H|].
  set (p0 := if prevlen =? 0 then if rtl then start - 1 else start + 1 else start) in *.
  assert (Hp0 : 0 <= p0 <= tlen e) by (unfold p0; destruct (prevlen =? 0), rtl; cbn [andb] in E0; lia).
  clearbody p0. revert p0 Hp0 H.
  induction (S (Z.to_nat (tlen e))) as [|n IH]; intros p Hp H; cbn [scan_from] in *; [exact H|].
  destruct (attempt e f root p) as [a| | |] eqn:Ea; cbn [bind] in H; try discriminate.
  apply attempt_den in Ea. rewrite (attempt_total root' p _ (Nat.le_refl _)). cbn [bind].
  rewrite <- (first_of_hd _ _ (Hh p Hp)), <- Ea.
  destruct a as [sa|]; [exact H|].
  destruct (if rtl then p <=? 0 else tlen e <=? p) eqn:Eend; [exact H|].
  apply IH; [destruct rtl; lia | exact H].
Qed.

End Main.

(* The public lookups on a well-formed capture table (C17, second half):
   what Parse hands on ([wf_tree]) is enough for every lookup to designate the same group. *)
From Verif Require Import Base.Prelude Model.GroupMap Proofs.GMBase.
From Coq Require Import Sorting.Sorted DecimalPos Decimal.

(* ---------- the decimal parser of GroupNumberFromName reads back strconv.Itoa ---------- *)

Definition dstep (a ch : Z) : Z := a * 10 + (ch - 48).
Definition dfold (s : name) (acc : Z) : Z := fold_left dstep s acc.

Lemma dfold_mono : forall s acc, forallb is_digit s = true -> 0 <= acc -> acc <= dfold s acc.
Proof.
  induction s as [|c s IH]; intros acc Hd Ha.
  - cbn. lia.
  - cbn [forallb] in Hd. apply andb_true_iff in Hd. destruct Hd as [Hc Hd]. unfold is_digit in Hc.
    apply andb_true_iff in Hc. destruct Hc as [H1 H2]. apply Z.leb_le in H1, H2.
    change (dfold (c :: s) acc) with (dfold s (dstep acc c)).
    assert (Hge : 0 <= dstep acc c) by (unfold dstep; lia).
    specialize (IH (dstep acc c) Hd Hge). unfold dstep in *. lia.
Qed.

Lemma parse_decimal_dfold : forall s cap acc, forallb is_digit s = true -> 0 <= acc ->
  dfold s acc < cap -> parse_decimal cap s acc = dfold s acc.
Proof.
  induction s as [|c s IH]; intros cap acc Hd Ha Hlt.
  - cbn in *. destruct (0 <=? acc) eqn:E1; [|apply Z.leb_gt in E1; lia].
    destruct (acc <? cap) eqn:E2; [reflexivity|apply Z.ltb_ge in E2; lia].
  - cbn [forallb] in Hd. apply andb_true_iff in Hd. destruct Hd as [Hc Hd]. unfold is_digit in Hc.
    apply andb_true_iff in Hc. destruct Hc as [H1 H2]. apply Z.leb_le in H1, H2.
    change (dfold (c :: s) acc) with (dfold s (dstep acc c)) in *.
    cbn [parse_decimal].
    destruct (57 <? c) eqn:E1; [apply Z.ltb_lt in E1; lia|].
    destruct (c <? 48) eqn:E2; [apply Z.ltb_lt in E2; lia|]. cbn [orb].
    change (acc * 10 + (c - 48)) with (dstep acc c).
    assert (Hge : 0 <= dstep acc c) by (unfold dstep; lia).
    pose proof (dfold_mono s (dstep acc c) Hd Hge) as Hm.
    destruct (cap <=? dstep acc c) eqn:E3; [apply Z.leb_le in E3; lia|].
    apply IH; assumption.
Qed.

Lemma dfold_of_uint_acc : forall u p, dfold (uint_digits u) (Z.pos p) = Z.pos (Pos.of_uint_acc u p).
Proof.
  induction u; intros p; cbn [uint_digits Pos.of_uint_acc dfold fold_left]; try reflexivity;
    unfold dfold in *; rewrite <- IHu; f_equal; unfold dstep; lia.
Qed.

Lemma dfold_of_uint : forall u, dfold (uint_digits u) 0 = Z.of_N (Pos.of_uint u).
Proof.
  (* D0: a leading zero leaves the accumulator at 0; D1 .. D9: the first digit d turns it into d *)
  induction u; cbn [uint_digits Pos.of_uint]; try reflexivity; [exact IHu | exact (dfold_of_uint_acc u _) ..].
Qed.

Lemma dfold_itoa : forall k, 0 <= k -> dfold (itoa k) 0 = k.
Proof.
  intros k Hk. destruct k as [|p|p]; try lia; cbn [itoa]; [reflexivity|].
  rewrite dfold_of_uint, Unsigned.of_to. reflexivity.
Qed.

Lemma parse_decimal_itoa : forall cap k, 0 <= k < cap -> parse_decimal cap (itoa k) 0 = k.
Proof.
  intros cap k Hk. rewrite parse_decimal_dfold; [apply dfold_itoa; lia| | |].
  - apply itoa_nonneg_digits. lia.
  - lia.
  - rewrite dfold_itoa; lia.
Qed.

(* the entry of Caplist at a group's index names that group: it is the key under which
   Capnames holds the group's number; in ECMAScript mode unnamed groups have the empty name *)
Definition names_entry (ecma : bool) (m : nmap) (s : name) (j : Z) : Prop :=
  (ecma = true /\ s = []) \/ (s <> [] /\ aget s m = Some j).

Record wf_tree (ecma : bool) (t : ptree) : Prop := {
  wt_sorted : ssorted (t_caps t);
  wt_zero : exists r, t_caps t = 0 :: r;
  wt_dense : t_capnumlist t = None -> t_caps t = zrange (t_captop t);
  wt_sparse : forall nl, t_capnumlist t = Some nl -> nl = t_caps t /\ t_captop t <> zlen nl;
  wt_names :
    match t_caplist t, t_capnames t with
    | Some l, Some m =>
        Forall2 (names_entry ecma m) l (t_caps t)
        /\ (ecma = true -> aget [] m = None)
        /\ (exists r, l = (if ecma then [] else itoa 0) :: r)
    | None, None => t_capnumlist t = None /\ ecma = false
    | _, _ => False
    end
}.

(* the part of [wf_tree] that is about the group NUMBERS only: enough for number -> slot *)
Record wf_caps (t : ptree) : Prop := {
  wc_sorted : ssorted (t_caps t);
  wc_zero : exists r, t_caps t = 0 :: r;
  wc_dense : t_capnumlist t = None -> t_caps t = zrange (t_captop t);
  wc_sparse : forall nl, t_capnumlist t = Some nl -> nl = t_caps t /\ t_captop t <> zlen nl
}.

Lemma wf_tree_caps : forall ecma t, wf_tree ecma t -> wf_caps t.
Proof. intros ecma t [H1 H2 H3 H4 _]. constructor; assumption. Qed.

(* The weaker entry that holds without any guard: the name listed for group j is a key of Capnames;
   it holds j, OR the name is the numeral of j — an unnamed group, called by its number — while the
   same numeral is already the NAME of another group (MaintainCaptureOrder files "(?<2>" under the
   name "2": known finding mco_digit_names). *)
Definition names_entry_weak (ecma : bool) (m : nmap) (s : name) (j : Z) : Prop :=
  (ecma = true /\ s = []) \/ (s <> [] /\ exists v, aget s m = Some v /\ (v = j \/ s = itoa j)).

Lemma names_entry_weaken : forall ecma m s j, names_entry ecma m s j -> names_entry_weak ecma m s j.
Proof. intros ecma m s j [H|[H1 H2]]; [now left|right]. split; [assumption|]. exists j. auto. Qed.

Record wf_weak (ecma : bool) (t : ptree) : Prop := {
  ww_caps : wf_caps t;
  ww_names :
    match t_caplist t, t_capnames t with
    | Some l, Some m =>
        Forall2 (names_entry_weak ecma m) l (t_caps t)
        /\ (ecma = true -> aget [] m = None)
        /\ (exists r, l = (if ecma then [] else itoa 0) :: r)
    | None, None => t_capnumlist t = None /\ ecma = false
    | _, _ => False
    end
}.

Lemma wf_tree_weak : forall ecma t, wf_tree ecma t -> wf_weak ecma t.
Proof.
  intros ecma t WF. constructor; [exact (wf_tree_caps ecma t WF)|].
  pose proof (wt_names _ _ WF) as W.
  destruct (t_caplist t) as [l|]; destruct (t_capnames t) as [m|]; try contradiction; [|assumption].
  destruct W as [F [H1 H2]]. split; [|split; assumption].
  eapply Forall2_impl; [|exact F]. intros a b. apply names_entry_weaken.
Qed.

(* what the lookups by position need of the name list: its length and its head *)
Definition names_shape (ecma : bool) (t : ptree) : Prop :=
  match t_caplist t, t_capnames t with
  | Some l, Some m => length l = length (t_caps t) /\ (exists r, l = (if ecma then [] else itoa 0) :: r)
                      /\ (ecma = false -> forall s, In s l -> s <> [])
  | None, None => t_capnumlist t = None /\ ecma = false
  | _, _ => False
  end.

Lemma wf_weak_shape : forall ecma t, wf_weak ecma t -> names_shape ecma t.
Proof.
  intros ecma t [_ W]. unfold names_shape.
  destruct (t_caplist t) as [l|]; destruct (t_capnames t) as [m|]; try contradiction; [|assumption].
  destruct W as [F [_ H2]]. split; [apply (Forall2_len _ _ _ F)|]. split; [assumption|].
  intros He s Hs. clear H2. induction F as [|a b l' c' Hab F IH]; [destruct Hs|].
  destruct Hs as [<-|Hs]; [|auto]. destruct Hab as [[E _]|[Hne _]]; [congruence|assumption].
Qed.

(* ---------- number -> slot: needs the numbers only ---------- *)
Section CapsLookups.
  Variable t : ptree.
  Hypothesis WF : wf_caps t.
  Let r := compile_maps t.
  Let caps := t_caps t.

  Lemma caps_nodup : NoDup caps.
  Proof. apply ssorted_NoDup, (wc_sorted _ WF). Qed.

  Lemma caps_nonneg : forall k, In k caps -> 0 <= k.
  Proof.
    intros k Hk. destruct (wc_zero _ WF) as [rest E]. pose proof (wc_sorted _ WF) as Hs.
    unfold caps in *. rewrite E in *. inversion Hs as [|? ? _ Hf]; subst.
    destruct Hk as [<-|Hk]; [lia|]. rewrite Forall_forall in Hf. specialize (Hf _ Hk). lia.
  Qed.

  (* the two shapes of the compiled maps *)
  Lemma maps_shape :
    (t_capnumlist t = None /\ r_caps r = None /\ r_capsize r = t_captop t /\ caps = zrange (t_captop t))
    \/ (t_capnumlist t = Some caps /\ r_caps r = Some (combine caps (zrange (zlen caps))) /\ r_capsize r = zlen caps).
  Proof.
    unfold r, compile_maps, caps. destruct (t_capnumlist t) as [nl|] eqn:E.
    - right. destruct (wc_sparse _ WF nl E) as [-> Hne].
      destruct (t_captop t =? zlen (t_caps t)) eqn:E2; [apply Z.eqb_eq in E2; contradiction|].
      cbn. auto.
    - left. cbn. repeat split; auto. apply (wc_dense _ WF E).
  Qed.

  Lemma capsize_len : r_capsize r = zlen caps.
  Proof.
    destruct maps_shape as [[_ [_ [H1 H2]]]|[_ [_ H]]]; [|assumption].
    rewrite H1. unfold zlen. rewrite H2, zrange_length.
    assert (0 <= t_captop t).
    { destruct (Z_le_gt_dec 0 (t_captop t)); [assumption|]. exfalso.
      destruct (wc_zero _ WF) as [rest E]. fold caps in E. rewrite H2 in E.
      unfold zrange in E. replace (Z.to_nat (t_captop t)) with 0%nat in E by lia. discriminate. }
    lia.
  Qed.

  Lemma r_names : r_capnames r = t_capnames t /\ r_capslist r = t_caplist t.
  Proof.
    unfold r, compile_maps. destruct (t_capnumlist t) as [nl|]; [destruct (t_captop t =? zlen nl)|]; auto.
  Qed.

  (* ---- GroupByNumber: number -> slot is the position in the increasing list of numbers ---- *)
  Lemma group_by_number_spec : forall i k, nth_error caps i = Some k -> group_by_number r k = Some (Z.of_nat i).
  Proof.
    intros i k Hn. unfold group_by_number.
    assert (Hi : (i < length caps)%nat) by (apply nth_error_Some; congruence).
    destruct maps_shape as [[_ [Hc [Hs Hz]]]|[_ [Hc Hs]]]; rewrite Hc, Hs.
    - rewrite Hz in Hn. rewrite zrange_nth in Hn by (rewrite Hz, zrange_length in Hi; assumption).
      injection Hn as <-. rewrite Hz, zrange_length in Hi.
      destruct (t_captop t <=? Z.of_nat i) eqn:E1; [apply Z.leb_le in E1; lia|].
      destruct (Z.of_nat i <? 0) eqn:E2; [apply Z.ltb_lt in E2; lia|]. reflexivity.
    - rewrite (zget_combine_nth caps (zrange (zlen caps)) k i caps_nodup).
      + rewrite zrange_nth by (unfold zlen; lia).
        destruct (zlen caps <=? Z.of_nat i) eqn:E1; [apply Z.leb_le in E1; unfold zlen in E1; lia|].
        destruct (Z.of_nat i <? 0) eqn:E2; [apply Z.ltb_lt in E2; lia|]. reflexivity.
      + rewrite zrange_length. unfold zlen. lia.
      + assumption.
  Qed.

  Lemma group_by_number_absent : forall k, ~ In k caps -> group_by_number r k = None.
  Proof.
    intros k Hn. unfold group_by_number.
    destruct maps_shape as [[_ [Hc [Hs Hz]]]|[_ [Hc Hs]]]; rewrite Hc.
    - rewrite Hs. rewrite Hz in Hn. rewrite zrange_In in Hn.
      destruct (t_captop t <=? k) eqn:E1; [reflexivity|]. apply Z.leb_gt in E1.
      destruct (k <? 0) eqn:E2; [reflexivity|]. apply Z.ltb_ge in E2. lia.
    - now rewrite zget_combine_none.
  Qed.

  Lemma group_by_number_range : forall k i, group_by_number r k = Some i -> 0 <= i < r_capsize r.
  Proof.
    intros k i H. unfold group_by_number in H.
    destruct (match r_caps r with Some m => zget k m | None => Some k end) as [n|]; [|discriminate].
    destruct (r_capsize r <=? n) eqn:E1; [discriminate|]. destruct (n <? 0) eqn:E2; [discriminate|].
    cbn in H. injection H as <-. apply Z.leb_gt in E1. apply Z.ltb_ge in E2. lia.
  Qed.

  (* ---- GetGroupNumbers ---- *)
  Lemma fill_numbers_combine : forall (ks : list Z) (pre post : list Z),
    length post = length ks ->
    fill_numbers (combine ks (map (fun i => Z.of_nat (length pre + i)) (seq 0 (length ks)))) (pre ++ post) = Ok (pre ++ ks).
  Proof.
    induction ks as [|k ks IH]; intros pre post Hl.
    - destruct post; [|discriminate]. reflexivity.
    - destruct post as [|p post]; [discriminate|]. cbn in Hl. injection Hl as Hl.
      cbn [length seq map combine fill_numbers].
      replace (length pre + 0)%nat with (length pre) by lia.
      unfold zset_nth. destruct (Z.of_nat (length pre) <? 0) eqn:E; [apply Z.ltb_lt in E; lia|].
      rewrite Nat2Z.id.
      assert (Hset : set_nth (length pre) k (pre ++ p :: post) = Some (pre ++ k :: post)).
      { clear. induction pre as [|x pre IHp]; cbn; [reflexivity|]. now rewrite IHp. }
      rewrite Hset.
      rewrite <- seq_shift, map_map.
      specialize (IH (pre ++ [k]) post Hl).
      rewrite app_length in IH. cbn [length] in IH.
      rewrite <- !app_assoc in IH. cbn [app] in IH.
      erewrite map_ext; [exact IH|]. intros a. cbn. f_equal. lia.
  Qed.

  Lemma get_group_numbers_spec : get_group_numbers r = Ok caps.
  Proof.
    unfold get_group_numbers.
    destruct maps_shape as [[_ [Hc [Hs Hz]]]|[_ [Hc Hs]]]; rewrite Hc.
    - now rewrite Hs, Hz.
    - pose proof (fill_numbers_combine caps [] (repeat 0 (length caps))) as F.
      rewrite repeat_length in F. specialize (F eq_refl). cbn [app length] in F.
      unfold zrange, zlen. rewrite Nat2Z.id.
      rewrite combine_length, map_length, seq_length, Nat.min_id.
      exact F.
  Qed.

  Definition names := get_group_names r.

End CapsLookups.

(* ---------- lookups by position: need the numbers and the shape of the name list ---------- *)
Section ShapeLookups.
  Variable ecma : bool.
  Variable t : ptree.
  Hypothesis WC : wf_caps t.
  Hypothesis WS : names_shape ecma t.
  Let r := compile_maps t.
  Let caps := t_caps t.

  Lemma names_length : length (names t) = length caps.
  Proof.
    unfold names, get_group_names. destruct (r_names t) as [_ ->].
    pose proof WS as W. unfold names_shape in W.
    destruct (t_caplist t) as [l|]; destruct (t_capnames t) as [m|]; try contradiction.
    - now destruct W as [F _].
    - rewrite map_length, zrange_length, (capsize_len t WC). unfold zlen. fold caps. lia.
  Qed.

  (* the name listed at index i is the name of the number listed at index i *)
  Lemma name_from_number_spec : forall i k, nth_error caps i = Some k ->
    group_name_from_number r k = nth i (names t) [].
  Proof.
    intros i k Hn. unfold group_name_from_number, names, get_group_names. fold r.
    assert (Hi : (i < length caps)%nat) by (apply nth_error_Some; congruence).
    pose proof names_length as NL. unfold names, get_group_names in NL. fold r in NL.
    destruct (r_names t) as [_ Hl]. fold r in Hl. rewrite Hl in *.
    destruct (t_caplist t) as [l|] eqn:El.
    - assert (Hidx : match r_caps r with Some m => zget k m | None => Some k end = Some (Z.of_nat i)).
      { destruct (maps_shape t WC) as [[_ [Hc [Hs Hz]]]|[_ [Hc Hs]]]; fold r in Hc, Hs; fold caps in Hc; rewrite Hc.
        - fold caps in Hz. rewrite Hz in Hn. rewrite zrange_nth in Hn by (rewrite Hz, zrange_length in Hi; assumption). congruence.
        - rewrite (zget_combine_nth caps (zrange (zlen caps)) k i (caps_nodup t WC)); [|rewrite zrange_length; unfold zlen; lia|assumption].
          apply zrange_nth. unfold zlen. lia. }
      rewrite Hidx.
      destruct (0 <=? Z.of_nat i) eqn:E1; [|apply Z.leb_gt in E1; lia].
      destruct (Z.of_nat i <? zlen l) eqn:E2; [|apply Z.ltb_ge in E2; unfold zlen in E2; lia].
      cbn. now rewrite Nat2Z.id.
    - (* dense, no table *)
      pose proof WS as W. unfold names_shape in W. rewrite El in W. destruct (t_capnames t); [contradiction|].
      destruct W as [Hnone _].
      destruct (maps_shape t WC) as [[_ [Hc [Hs Hz]]]|[Hsome _]]; [|congruence]. fold r in Hc, Hs. fold caps in Hz.
      rewrite Hz in Hn, Hi. rewrite zrange_length in Hi. rewrite zrange_nth in Hn by assumption. injection Hn as <-.
      rewrite Hs.
      destruct (0 <=? Z.of_nat i) eqn:E1; [|apply Z.leb_gt in E1; lia].
      destruct (Z.of_nat i <? t_captop t) eqn:E2; [|apply Z.ltb_ge in E2; lia].
      cbn. rewrite (nth_indep _ [] (itoa 0)) by (rewrite map_length, zrange_length; assumption).
      rewrite map_nth. f_equal. unfold zrange. rewrite (nth_indep _ 0 (Z.of_nat 0)) by (rewrite map_length, seq_length; assumption).
      rewrite map_nth, seq_nth by assumption. reflexivity.
  Qed.

  (* Match.Groups(): element i carries the name listed at index i *)
  Lemma groups_names_spec : groups_names ecma r = names t.
  Proof.
    unfold groups_names, names, get_group_names, group_name_from_slot. fold r.
    destruct (r_names t) as [_ Hl]. fold r in Hl. rewrite Hl.
    pose proof WS as W. unfold names_shape in W.
    pose proof names_length as NL. unfold names, get_group_names in NL. fold r in NL. rewrite Hl in NL.
    destruct (t_caplist t) as [l|] eqn:El; destruct (t_capnames t) as [m|] eqn:Em; try contradiction.
    - destruct W as [_ [[rest Hhd] _]].
      unfold r. rewrite (capsize_len t WC). unfold zlen. fold caps. rewrite <- NL.
      apply nth_error_ext_eq. intros n. rewrite nth_error_map.
      destruct (Nat.lt_ge_cases n (length l)) as [Hn|Hn].
      + rewrite zrange_nth by (now rewrite Nat2Z.id). cbn [option_map].
        destruct n as [|n].
        * cbn. rewrite Hhd. reflexivity.
        * destruct (Z.of_nat (S n) =? 0) eqn:E0; [apply Z.eqb_eq in E0; lia|].
          destruct (0 <=? Z.of_nat (S n)) eqn:E1; [|apply Z.leb_gt in E1; lia].
          unfold zlen.
          destruct (Z.of_nat (S n) <? Z.of_nat (length l)) eqn:E2; [|apply Z.ltb_ge in E2; lia].
          cbn [andb]. rewrite Nat2Z.id. symmetry. now apply nth_error_nth'.
      + rewrite zrange_nth_none by (now rewrite Nat2Z.id). cbn. symmetry. now apply nth_error_None.
    - destruct W as [_ He]. subst ecma.
      apply map_ext_in. intros i Hi. destruct (i =? 0) eqn:E; [apply Z.eqb_eq in E; now subst|reflexivity].
  Qed.

  (* outside ECMAScript every group has a non-empty name *)
  Lemma names_nonempty : ecma = false -> forall s, In s (names t) -> s <> [].
  Proof.
    intros He s Hs. unfold names, get_group_names in Hs. fold r in Hs. destruct (r_names t) as [_ Hl]. fold r in Hl. rewrite Hl in Hs.
    pose proof WS as W. unfold names_shape in W.
    destruct (t_caplist t) as [l|]; destruct (t_capnames t) as [m|]; try contradiction.
    - destruct W as [_ [_ H3]]. now apply H3.
    - apply in_map_iff in Hs. destruct Hs as [i [<- Hi]]. apply zrange_In in Hi. apply itoa_nonempty. lia.
  Qed.

End ShapeLookups.

(* ---------- the name <-> number round trips: need every entry of the name list ---------- *)
Section Lookups.
  Variable ecma : bool.
  Variable t : ptree.
  Hypothesis WF : wf_tree ecma t.
  Let WC : wf_caps t := wf_tree_caps ecma t WF.
  Let WS : names_shape ecma t := wf_weak_shape ecma t (wf_tree_weak ecma t WF).
  Let r := compile_maps t.
  Let caps := t_caps t.

  Lemma number_from_name_spec : forall i k s, nth_error caps i = Some k -> nth_error (names t) i = Some s ->
    (ecma = true /\ s = []) \/ (s <> [] /\ group_number_from_name r s = k).
  Proof.
    intros i k s Hn Hs. unfold group_number_from_name. unfold names, get_group_names in Hs. fold r in Hs.
    destruct (r_names t) as [Hm Hl]. fold r in Hm, Hl. rewrite Hm. rewrite Hl in Hs.
    pose proof (wt_names _ _ WF) as W.
    destruct (t_caplist t) as [l|] eqn:El; destruct (t_capnames t) as [m|] eqn:Em; try contradiction.
    - destruct W as [F _].
      destruct (Forall2_nth _ _ _ _ _ _ F Hs Hn) as [He|[Hne Hg]]; [now left|right]. split; [assumption|]. now rewrite Hg.
    - right.
      destruct (maps_shape t WC) as [[_ [Hc [Hsz Hz]]]|[Hsome _]]; [|destruct W; congruence]. fold r in Hc, Hsz. fold caps in Hz.
      assert (Hi : (i < length caps)%nat) by (apply nth_error_Some; congruence).
      rewrite Hz in Hn, Hi. rewrite zrange_length in Hi. rewrite zrange_nth in Hn by assumption. injection Hn as <-.
      rewrite nth_error_map in Hs. rewrite Hsz in Hs. rewrite zrange_nth in Hs by assumption. cbn in Hs. injection Hs as <-.
      assert (Hne : itoa (Z.of_nat i) <> []) by (apply itoa_nonempty; lia).
      split; [assumption|].
      destruct (itoa (Z.of_nat i)) eqn:E; [contradiction|]. rewrite <- E.
      rewrite Hsz. apply parse_decimal_itoa. lia.
  Qed.

  (* number -> name -> number *)
  Lemma number_name_number : forall k, In k caps ->
    let s := group_name_from_number r k in
    (ecma = true /\ s = []) \/ (s <> [] /\ group_number_from_name r s = k).
  Proof.
    intros k Hk. cbn zeta. destruct (In_nth_error _ _ Hk) as [i Hi].
    unfold r. rewrite (name_from_number_spec ecma t WC WS i k Hi).
    assert (Hlt : (i < length (names t))%nat) by (rewrite (names_length ecma t WC WS); apply nth_error_Some; fold caps; congruence).
    apply (number_from_name_spec i k _ Hi). now apply nth_error_nth'.
  Qed.

  (* name -> number -> name, for every listed name *)
  Lemma name_number_name : forall s, In s (names t) -> s <> [] ->
    In (group_number_from_name r s) caps /\ group_name_from_number r (group_number_from_name r s) = s.
  Proof.
    intros s Hs Hne. destruct (In_nth_error _ _ Hs) as [i Hi].
    assert (Hlt : (i < length caps)%nat) by (unfold caps; rewrite <- (names_length ecma t WC WS); apply nth_error_Some; congruence).
    destruct (nth_error caps i) as [k|] eqn:Hk; [|apply nth_error_None in Hk; lia].
    destruct (number_from_name_spec i k s Hk Hi) as [[_ He]|[_ Hg]]; [contradiction|].
    rewrite Hg. split; [eapply nth_error_In; eauto|].
    unfold r. rewrite (name_from_number_spec ecma t WC WS i k Hk). now apply nth_error_nth.
  Qed.

  (* GroupByName is GroupByNumber of the looked-up number (and nil when there is no such name) *)
  Lemma group_by_name_spec : forall s,
    group_by_name r s = if group_number_from_name r s <? 0 then None else group_by_number r (group_number_from_name r s).
  Proof. reflexivity. Qed.

  Lemma group_by_name_listed : forall i k s, nth_error caps i = Some k -> nth_error (names t) i = Some s -> s <> [] ->
    group_by_name r s = Some (Z.of_nat i) /\ group_by_number r k = Some (Z.of_nat i).
  Proof.
    intros i k s Hk Hs Hne.
    destruct (number_from_name_spec i k s Hk Hs) as [[_ He]|[_ Hg]]; [contradiction|].
    pose proof (group_by_number_spec t WC i k Hk) as Hb. fold r in Hb. split; [|assumption].
    rewrite group_by_name_spec, Hg.
    pose proof (caps_nonneg t WC k (nth_error_In _ _ Hk)).
    destruct (k <? 0) eqn:E; [apply Z.ltb_lt in E; lia|assumption].
  Qed.

End Lookups.

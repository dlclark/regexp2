(* C03: the scan loop with a sound candidate finder / minimum length / bump-along shortcut returns
   exactly what the accelerator-free loop returns.  Model: Model/Scan.v. *)
From Verif Require Import Base.Prelude Model.Scan.
From Coq Require Import ZifyBool.

Section ScanSound.
Variable R : Type.
Variable n : Z.
Variable rtl : bool.
Variable min_required : Z.
Variable finder : Z -> bool * Z.
Variable exec : Z -> option R * Z.

Definition sc_in_text (p : Z) : Prop := 0 <= p <= n.
(* q is at-or-beyond p in scan order *)
Definition sc_ord (p q : Z) : Prop := if rtl then q <= p else p <= q.
(* p comes strictly before q in scan order *)
Definition sc_before (p q : Z) : Prop := if rtl then q < p else p < q.
(* number of characters ahead of p in scan direction = distance to the far end (stoppos) *)
Definition sc_ahead (p : Z) : Z := if rtl then p else n - p.
(* one run of the matcher at x does not produce a match *)
Definition sc_fails (x : Z) : Prop := fst (exec x) = None.

(* (H1) the finder is sound.  When it answers true at q, nothing before q matches.  When it answers
   false leaving Runtextpos = q, the loop behaves exactly as after a failed attempt at q (stop when
   q is the far end, else resume at q+bump): so what is needed is that nothing from p up to AND
   INCLUDING q matches.  (findFirstCharDefault leaves q = the far end when it gives up, so there
   this reads "nothing from p to the far end matches"; a finder that returns false without moving,
   e.g. runner.go:1568-1570, only needs "p itself does not match".) *)
Definition sc_H1_true : Prop :=
  forall p q, sc_in_text p -> finder p = (true, q) ->
    sc_ord p q /\ sc_in_text q /\ (forall x, sc_ord p x -> sc_before x q -> sc_fails x).
Definition sc_H1_false : Prop :=
  forall p q, sc_in_text p -> finder p = (false, q) ->
    sc_ord p q /\ sc_in_text q /\ (forall x, sc_ord p x -> sc_ord x q -> sc_fails x).
(* (H2) nothing matches with fewer than min_required characters ahead *)
Definition sc_H2 : Prop :=
  forall x, sc_in_text x -> sc_ahead x < min_required -> sc_fails x.
(* (H3) a failed run of the matcher from p leaves a position q at-or-beyond p, and nothing from p to
   q inclusive matches (q = p without the bump-along shortcut) *)
Definition sc_H3 : Prop :=
  forall p q, sc_in_text p -> exec p = (None, q) ->
    sc_ord p q /\ sc_in_text q /\ (forall x, sc_ord p x -> sc_ord x q -> sc_fails x).

Ltac sc_lia := unfold sc_in_text, sc_ord, sc_before, sc_ahead, stoppos, bump in *; destruct rtl; lia.

Let nloop := naive_loop n rtl exec.

Lemma sc_naive_loop_S : forall f p,
  nloop (S f) p =
  match fst (exec p) with
  | Some m => Ok (Some m)
  | None => if p =? stoppos n rtl then Ok None else nloop f (p + bump rtl)
  end.
Proof.
  intros f p. unfold nloop, naive_loop. cbn [scan_loop].
  unfold min_cut. change (0 <? 0) with false. cbn [andb].
  unfold naive_finder, naive_exec. destruct (exec p) as [[m|] q]; reflexivity.
Qed.

Lemma sc_naive_ok : forall fuel p,
  sc_in_text p -> (Z.to_nat (sc_ahead p) < fuel)%nat -> exists r, nloop fuel p = Ok r.
Proof.
  induction fuel as [|f IH]; intros p Hp Hf; [lia|].
  rewrite sc_naive_loop_S. destruct (fst (exec p)) as [m|]; [eauto|].
  destruct (p =? stoppos n rtl) eqn:E; [eauto|].
  apply IH; sc_lia.
Qed.

Lemma sc_naive_all_fail : forall fuel p,
  sc_in_text p -> (Z.to_nat (sc_ahead p) < fuel)%nat ->
  (forall x, sc_ord p x -> sc_in_text x -> sc_fails x) ->
  nloop fuel p = Ok None.
Proof.
  induction fuel as [|f IH]; intros p Hp Hf Hall; [lia|].
  rewrite sc_naive_loop_S.
  assert (Hx : sc_fails p) by (apply Hall; [sc_lia | exact Hp]).
  unfold sc_fails in Hx. rewrite Hx.
  destruct (p =? stoppos n rtl) eqn:E; [reflexivity|].
  apply IH; [sc_lia | sc_lia |].
  intros x Hox Hix. apply Hall; [sc_lia | exact Hix].
Qed.

Lemma sc_naive_fuel : forall fuel fuel' p,
  sc_in_text p -> (Z.to_nat (sc_ahead p) < fuel)%nat -> (Z.to_nat (sc_ahead p) < fuel')%nat ->
  nloop fuel p = nloop fuel' p.
Proof.
  induction fuel as [|f IH]; intros fuel' p Hp Hf Hf'; [lia|].
  destruct fuel' as [|f']; [lia|].
  rewrite !sc_naive_loop_S. destruct (fst (exec p)) as [m|]; [reflexivity|].
  destruct (p =? stoppos n rtl) eqn:E; [reflexivity|].
  apply IH; sc_lia.
Qed.

(* skipping failing positions *)
Lemma sc_naive_skip : forall k fuel p q,
  k = Z.to_nat (sc_ahead p - sc_ahead q) ->
  sc_in_text p -> sc_in_text q -> sc_ord p q ->
  (forall x, sc_ord p x -> sc_before x q -> sc_fails x) ->
  (Z.to_nat (sc_ahead p) < fuel)%nat ->
  nloop fuel p = nloop fuel q.
Proof.
  induction k as [|k IH]; intros fuel p q Hk Hp Hq Ho Hall Hf.
  - assert (p = q) by sc_lia. subst q. reflexivity.
  - destruct fuel as [|f]; [lia|].
    rewrite sc_naive_loop_S.
    assert (Hx : sc_fails p) by (apply Hall; sc_lia).
    unfold sc_fails in Hx. rewrite Hx.
    destruct (p =? stoppos n rtl) eqn:E; [exfalso; sc_lia|].
    rewrite (IH f (p + bump rtl) q); try sc_lia.
    + apply sc_naive_fuel; sc_lia.
    + intros x Hox Hbx. apply Hall; sc_lia.
Qed.

(* what (H1) asks of a finder's answer (found, q) at p: sc_H1_true and sc_H1_false above are
   "finder p = (true, q) -> sc_answer_ok p true q" and the same for false *)
Definition sc_answer_ok (p : Z) (found : bool) (q : Z) : Prop :=
  sc_ord p q /\ sc_in_text q /\
  forall x, sc_ord p x -> (if found then sc_before x q else sc_ord x q) -> sc_fails x.

Lemma sc_answer_give_up : forall p, sc_in_text p ->
  (forall x, sc_in_text x -> sc_ord p x -> sc_fails x) ->
  sc_answer_ok p false (stoppos n rtl).
Proof.
  intros p Hp Hall. repeat split; try sc_lia.
  intros x Hpx Hxq. apply Hall; [sc_lia | exact Hpx].
Qed.

Lemma sc_answer_jump : forall p q found, sc_ord p q -> sc_in_text q ->
  (forall x, sc_ord p x -> sc_before x q -> sc_fails x) ->
  (found = false -> sc_fails q) ->
  sc_answer_ok p found q.
Proof.
  intros p q found Hpq Hq Hall Hnot. split; [exact Hpq | split; [exact Hq|]].
  destruct found; [exact Hall|].
  intros x Hpx Hxq. assert (Hc : sc_before x q \/ x = q) by sc_lia.
  destruct Hc as [Hc| ->]; [exact (Hall x Hpx Hc) | exact (Hnot eq_refl)].
Qed.

Hypothesis H1t : sc_H1_true.
Hypothesis H1f : sc_H1_false.
Hypothesis H2 : sc_H2.
Hypothesis H3 : sc_H3.

Lemma sc_loop_eq_naive : forall fuel p fuel',
  sc_in_text p ->
  (Z.to_nat (sc_ahead p) < fuel)%nat -> (Z.to_nat (sc_ahead p) < fuel')%nat ->
  scan_loop n rtl min_required finder exec fuel p = nloop fuel' p.
Proof.
  induction fuel as [|f IH]; intros p fuel' Hp Hf Hf'; [lia|].
  (* what happens after a failure that left Runtextpos = q' *)
  assert (Hresume : forall q',
            sc_ord p q' -> sc_in_text q' ->
            (forall x, sc_ord p x -> sc_ord x q' -> sc_fails x) ->
            (if q' =? stoppos n rtl then Ok None
             else scan_loop n rtl min_required finder exec f (q' + bump rtl)) = nloop fuel' p).
  { intros q' Ho Hq Hall.
    destruct (q' =? stoppos n rtl) eqn:E.
    - symmetry. apply sc_naive_all_fail; [exact Hp | exact Hf' |].
      intros x Hox Hix. apply Hall; [exact Hox | sc_lia].
    - rewrite (IH (q' + bump rtl) fuel'); try sc_lia.
      symmetry. apply (sc_naive_skip (Z.to_nat (sc_ahead p - sc_ahead (q' + bump rtl)))); try sc_lia.
      intros x Hox Hbx. apply Hall; sc_lia. }
  cbn [scan_loop].
  destruct (min_cut n rtl min_required p) eqn:Ecut.
  { symmetry. apply sc_naive_all_fail; [exact Hp | exact Hf' |].
    intros x Hox Hix. apply H2; [exact Hix|]. unfold min_cut in Ecut. sc_lia. }
  destruct (finder p) as [found q] eqn:Efind. destruct found.
  - destruct (H1t p q Hp Efind) as (Hoq & Hq & Hskip).
    assert (Hnq : nloop fuel' p = nloop fuel' q).
    { apply (sc_naive_skip (Z.to_nat (sc_ahead p - sc_ahead q))); auto. }
    destruct (exec q) as [[m|] q'] eqn:Eexec.
    + rewrite Hnq. destruct fuel' as [|f']; [lia|].
      rewrite sc_naive_loop_S, Eexec. reflexivity.
    + destruct (H3 q q' Hq Eexec) as (Hoq' & Hq' & Hfail).
      apply Hresume; [sc_lia | exact Hq' |].
      intros x Hox Hxq'.
      assert (Hcase : sc_before x q \/ sc_ord q x) by sc_lia.
      destruct Hcase as [Hb|Hb]; [apply Hskip; assumption | apply Hfail; assumption].
  - destruct (H1f p q Hp Efind) as (Hoq & Hq & Hfail).
    apply Hresume; assumption.
Qed.

(* Fuel n+2 is never exhausted, and the accelerated loop returns what the naive loop returns. *)
Theorem sc_scan_finder_sound : forall start prevlen,
  sc_in_text start ->
  exists r, scan n rtl min_required finder exec start prevlen = Ok r
         /\ naive_scan n rtl exec start prevlen = Ok r.
Proof.
  intros start prevlen Hs.
  unfold naive_scan, scan.
  destruct (prevlen =? 0) eqn:Epl.
  - destruct (start =? stoppos n rtl) eqn:Est; [eauto|].
    assert (Hp : sc_in_text (start + bump rtl)) by sc_lia.
    assert (Hfu : (Z.to_nat (sc_ahead (start + bump rtl)) < scan_fuel n)%nat)
      by (unfold scan_fuel; sc_lia).
    destruct (sc_naive_ok (scan_fuel n) _ Hp Hfu) as [r Hr].
    exists r. split; [|exact Hr].
    rewrite (sc_loop_eq_naive (scan_fuel n) _ (scan_fuel n) Hp Hfu Hfu). exact Hr.
  - assert (Hfu : (Z.to_nat (sc_ahead start) < scan_fuel n)%nat)
      by (unfold scan_fuel; sc_lia).
    destruct (sc_naive_ok (scan_fuel n) _ Hs Hfu) as [r Hr].
    exists r. split; [|exact Hr].
    rewrite (sc_loop_eq_naive (scan_fuel n) _ (scan_fuel n) Hs Hfu Hfu). exact Hr.
Qed.

(* The naive scan returns the first successful attempt in scan order (this pins down what
   "identical to attempting at every position" means, independently of the loop). *)
Lemma sc_naive_loop_spec : forall fuel p r,
  sc_in_text p -> nloop fuel p = Ok r ->
  match r with
  | Some m => exists x, sc_ord p x /\ sc_in_text x /\ fst (exec x) = Some m
                        /\ forall y, sc_ord p y -> sc_before y x -> sc_fails y
  | None => forall x, sc_ord p x -> sc_in_text x -> sc_fails x
  end.
Proof.
  induction fuel as [|f IH]; intros p r Hp Hr; [discriminate|].
  rewrite sc_naive_loop_S in Hr.
  destruct (fst (exec p)) as [m|] eqn:Ep.
  - inversion Hr; subst r. exists p. repeat split; try sc_lia; try assumption.
  - destruct (p =? stoppos n rtl) eqn:E.
    + inversion Hr; subst r. intros x Hox Hix.
      assert (x = p) by sc_lia. subst x. exact Ep.
    + assert (Hp' : sc_in_text (p + bump rtl)) by sc_lia.
      specialize (IH _ _ Hp' Hr). destruct r as [m|].
      * destruct IH as (x & Hox & Hix & Hex & Hbef).
        exists x. repeat split; try sc_lia; try assumption.
        intros y Hy Hby.
        assert (Hc : y = p \/ sc_ord (p + bump rtl) y) by sc_lia.
        destruct Hc as [->|Hc]; [exact Ep | apply Hbef; assumption].
      * intros x Hox Hix.
        assert (Hc : x = p \/ sc_ord (p + bump rtl) x) by sc_lia.
        destruct Hc as [->|Hc]; [exact Ep | apply IH; assumption].
Qed.

End ScanSound.

(* ------------------------------------------------------------------------------------------
   findFirstCharDefault's anchor part (Model/Scan.v [ffc_default], runner.go:1382-1412) satisfies
   (H1), given the C04 facts about the generated [Anchors] bits: a successful attempt of a program
   whose Anchors has the Beginning bit happens at 0, Start: at Runtextstart, EndZ: at the end or just
   before a final newline, End: at the end; and the Boyer-Moore prefix is present at every successful
   attempt position.  The rest of the finder (reached when no anchor bit is set) is assumed sound. *)
Section AnchorSound.
Variable R : Type.
Variable text : list Z.
Variable rtl : bool.
Variable anchors : Z.
Variable ts : Z.
Variable bm : option (Z -> bool).
Variable rest : Z -> bool * Z.
Variable exec : Z -> option R * Z.

Let n := a_n text.
Let succeeds (x : Z) : Prop := fst (exec x) <> None.

Hypothesis Fbeg : abit anchors ANCH_BEGINNING = true ->
  forall x, sc_in_text n x -> succeeds x -> x = 0.
Hypothesis Fstart : abit anchors ANCH_START = true ->
  forall x, sc_in_text n x -> succeeds x -> x = ts.
Hypothesis Fendz : abit anchors ANCH_ENDZ = true ->
  forall x, sc_in_text n x -> succeeds x -> x = n \/ (x = n - 1 /\ a_char text x = 10).
Hypothesis Fend : abit anchors ANCH_END = true ->
  forall x, sc_in_text n x -> succeeds x -> x = n.
Hypothesis Fbm : forall is_match, bm = Some is_match ->
  forall x, sc_in_text n x -> succeeds x -> is_match x = true.
(* the facts about the anchor bits are implications lia cannot use: out of its way first *)
Ltac anc_lia := clear Fbeg Fstart Fendz Fend Fbm; unfold sc_in_text, sc_ord, sc_before, n in *; lia.

(* A set anchor bit confines the successes to a set P of positions: everything outside P fails. *)
Lemma sc_fails_outside : forall P : Z -> Prop,
  (forall x, sc_in_text n x -> succeeds x -> P x) ->
  forall x, sc_in_text n x -> ~ P x -> sc_fails R exec x.
Proof.
  intros P HP x Hx Hout. unfold sc_fails. destruct (fst (exec x)) eqn:Ex; [|reflexivity].
  destruct Hout. apply HP; [exact Hx|]. unfold succeeds. congruence.
Qed.

(* after the jumps the Boyer-Moore prefix test, if there is one, decides at q *)
Lemma sc_anchor_jump : forall p q found q', sc_ord rtl p q -> sc_in_text n q ->
  (forall x, sc_ord rtl p x -> sc_before rtl x q -> sc_fails R exec x) ->
  match bm with Some is_match => (is_match q, q) | None => (true, q) end = (found, q') ->
  sc_answer_ok R n rtl exec p found q'.
Proof.
  intros p q found q' Hpq Hq Hall Hf.
  assert (Hq' : q' = q) by (destruct bm; congruence). subst q'.
  apply sc_answer_jump; try assumption. intros ->.
  destruct bm as [im|] eqn:Ebm; [|discriminate].
  apply (sc_fails_outside _ (Fbm im eq_refl)); congruence.
Qed.

Lemma sc_anchor_answer : forall p found q, sc_in_text n p ->
  abit anchors (ANCH_BEGINNING + ANCH_START + ANCH_ENDZ + ANCH_END) = true ->
  ffc_default text rtl anchors ts bm rest p = (found, q) -> sc_answer_ok R n rtl exec p found q.
Proof.
  intros p found q Hp Eany. unfold ffc_default. rewrite Eany. clear Eany.
  assert (Hn : 0 <= n) by (unfold n, a_n, zlen; lia).
  pose proof sc_anchor_jump as jump. destruct rtl; cbn [negb].
  - destruct ((abit anchors ANCH_END && (p <? a_n text))
              || (abit anchors ANCH_ENDZ &&
                  ((p <? a_n text - 1) || ((p =? a_n text - 1) && negb (a_char text p =? 10))))
              || (abit anchors ANCH_START && (p <? ts))) eqn:E1.
    { intros Hf. injection Hf as <- <-. apply (sc_answer_give_up R n true); [exact Hp|].
      intros x Hx Hpx.
      apply orb_prop in E1. destruct E1 as [E1|E1]; [apply orb_prop in E1; destruct E1 as [E1|E1]|];
        apply andb_prop in E1; destruct E1 as [Hb Hc].
      - apply (sc_fails_outside _ (Fend Hb)); anc_lia.
      - apply (sc_fails_outside _ (Fendz Hb)); [exact Hx|].
        assert (Hxp : x = p -> a_char text x = a_char text p) by congruence. anc_lia.
      - apply (sc_fails_outside _ (Fstart Hb)); anc_lia. }
    clear E1. destruct (abit anchors ANCH_BEGINNING && (0 <? p)) eqn:E2.
    + apply andb_prop in E2. destruct E2 as [Hb Hc]. apply jump; try anc_lia.
      intros x Hpx Hx0. apply (sc_fails_outside _ (Fbeg Hb)); anc_lia.
    + clear E2. apply jump; anc_lia.
  - destruct ((abit anchors ANCH_BEGINNING && (0 <? p)) || (abit anchors ANCH_START && (ts <? p))) eqn:E1.
    { intros Hf. injection Hf as <- <-. apply (sc_answer_give_up R n false); [exact Hp|].
      intros x Hx Hpx.
      apply orb_prop in E1. destruct E1 as [E1|E1]; apply andb_prop in E1; destruct E1 as [Hb Hc].
      - apply (sc_fails_outside _ (Fbeg Hb)); anc_lia.
      - apply (sc_fails_outside _ (Fstart Hb)); anc_lia. }
    clear E1. destruct (abit anchors ANCH_ENDZ && (p <? a_n text - 1)) eqn:E2.
    { apply andb_prop in E2. destruct E2 as [Hb Hc]. apply jump; try anc_lia.
      intros x Hpx Hxq. apply (sc_fails_outside _ (Fendz Hb)); anc_lia. }
    clear E2. destruct (abit anchors ANCH_END && (p <? a_n text)) eqn:E3.
    + apply andb_prop in E3. destruct E3 as [Hb Hc]. apply jump; try anc_lia.
      intros x Hpx Hxq. apply (sc_fails_outside _ (Fend Hb)); anc_lia.
    + clear E3. apply jump; anc_lia.
Qed.

Hypothesis Frest_t : sc_H1_true R n rtl rest exec.
Hypothesis Frest_f : sc_H1_false R n rtl rest exec.

Theorem sc_anchor_H1 :
  sc_H1_true R n rtl (ffc_default text rtl anchors ts bm rest) exec /\
  sc_H1_false R n rtl (ffc_default text rtl anchors ts bm rest) exec.
Proof.
  split; intros p q Hp Hf;
    (destruct (abit anchors (ANCH_BEGINNING + ANCH_START + ANCH_ENDZ + ANCH_END)) eqn:Eany;
     [exact (sc_anchor_answer p _ q Hp Eany Hf) | unfold ffc_default in Hf; rewrite Eany in Hf]).
  - exact (Frest_t p q Hp Hf).
  - exact (Frest_f p q Hp Hf).
Qed.

End AnchorSound.

(* ------------------------------------------------------------------------------------------
   Boolean checkers for (H1)-(H3) on a concrete (finite) instance, with soundness: used for the
   non-vacuity Examples of Properties/C03.v (by vm_compute). *)
Section Checkers.
Variable R : Type.
Variable n : Z.
Variable rtl : bool.
Variable min_required : Z.
Variable finder : Z -> bool * Z.
Variable exec : Z -> option R * Z.

Lemma sc_range_in : forall x, sc_in_text n x -> In x (sc_range n).
Proof.
  intros x Hx. unfold sc_range, sc_in_text in *.
  replace x with (Z.of_nat (Z.to_nat x)) by lia. apply in_map. apply in_seq. lia.
Qed.

Lemma sc_fails_b_ok : forall x, sc_fails_b R exec x = true -> sc_fails R exec x.
Proof.
  intros x H. unfold sc_fails_b, sc_fails in *. destruct (fst (exec x)); [discriminate | reflexivity].
Qed.

Ltac scb_lia := unfold sc_in_text, sc_ord, sc_before, sc_in_text_b, sc_ord_b, sc_before_b in *;
                destruct rtl; lia.

Lemma sc_all_fail_incl_ok : forall p q, sc_in_text n p -> sc_in_text n q ->
  sc_all_fail_incl R n rtl exec p q = true ->
  forall x, sc_ord rtl p x -> sc_ord rtl x q -> sc_fails R exec x.
Proof.
  intros p q Hp Hq H x H1 H2. unfold sc_all_fail_incl in H. rewrite forallb_forall in H.
  assert (Hx : sc_in_text n x) by scb_lia.
  specialize (H x (sc_range_in x Hx)). apply sc_fails_b_ok.
  assert (Hc : sc_ord_b rtl p x && sc_ord_b rtl x q = true) by scb_lia.
  rewrite Hc in H. exact H.
Qed.

Lemma sc_all_fail_excl_ok : forall p q, sc_in_text n p -> sc_in_text n q ->
  sc_all_fail_excl R n rtl exec p q = true ->
  forall x, sc_ord rtl p x -> sc_before rtl x q -> sc_fails R exec x.
Proof.
  intros p q Hp Hq H x H1 H2. unfold sc_all_fail_excl in H. rewrite forallb_forall in H.
  assert (Hx : sc_in_text n x) by scb_lia.
  specialize (H x (sc_range_in x Hx)). apply sc_fails_b_ok.
  assert (Hc : sc_ord_b rtl p x && sc_before_b rtl x q = true) by scb_lia.
  rewrite Hc in H. exact H.
Qed.

Lemma sc_chk_H1_ok : sc_chk_H1 R n rtl finder exec = true ->
  sc_H1_true R n rtl finder exec /\ sc_H1_false R n rtl finder exec.
Proof.
  intros H. unfold sc_chk_H1 in H. rewrite forallb_forall in H.
  split; intros p q Hp Hf; specialize (H p (sc_range_in p Hp)); rewrite Hf in H;
    apply andb_prop in H; destruct H as [H Hall]; apply andb_prop in H; destruct H as [Ho Hq];
    assert (Hq' : sc_in_text n q) by scb_lia;
    (split; [scb_lia | split; [exact Hq'|]]).
  - apply sc_all_fail_excl_ok; assumption.
  - apply sc_all_fail_incl_ok; assumption.
Qed.

Lemma sc_chk_H2_ok : sc_chk_H2 R n rtl min_required exec = true -> sc_H2 R n rtl min_required exec.
Proof.
  intros H x Hx Ha. unfold sc_chk_H2 in H. rewrite forallb_forall in H.
  specialize (H x (sc_range_in x Hx)). apply sc_fails_b_ok.
  assert (Hc : ((if rtl then x else n - x) <? min_required) = true) by (unfold sc_ahead in Ha; destruct rtl; lia).
  rewrite Hc in H. exact H.
Qed.

Lemma sc_chk_H3_ok : sc_chk_H3 R n rtl exec = true -> sc_H3 R n rtl exec.
Proof.
  intros H p q Hp He. unfold sc_chk_H3 in H. rewrite forallb_forall in H.
  specialize (H p (sc_range_in p Hp)). rewrite He in H.
  apply andb_prop in H; destruct H as [H Hall]; apply andb_prop in H; destruct H as [Ho Hq].
  assert (Hq' : sc_in_text n q) by scb_lia.
  split; [scb_lia | split; [exact Hq'|]].
  apply sc_all_fail_incl_ok; assumption.
Qed.

End Checkers.

(* (H1, false case) in the form "nothing from p to the far end matches" - what findFirstCharDefault's
   give-up paths establish - implies the weaker form used by the theorem *)
Lemma sc_H1_false_of_far_end : forall R n rtl finder (exec : Z -> option R * Z),
  (forall p q, sc_in_text n p -> finder p = (false, q) ->
     sc_ord rtl p q /\ sc_in_text n q /\
     (forall x, sc_ord rtl p x -> sc_in_text n x -> sc_fails R exec x)) ->
  sc_H1_false R n rtl finder exec.
Proof.
  intros R n rtl finder exec H p q Hp Hf. destruct (H p q Hp Hf) as (Ho & Hq & Hall).
  split; [exact Ho | split; [exact Hq|]].
  intros x H1 H2. apply Hall; [exact H1|].
  unfold sc_in_text, sc_ord in *. destruct rtl; lia.
Qed.

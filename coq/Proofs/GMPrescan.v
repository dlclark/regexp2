(* The capture pre-scan keeps a well-formed table (first half of C17): the pre-scan loop seen as a
   sequence of steps on the capture tables ([capstep]), the invariant they keep ([gm_pinv]), then
   assignNameSlots and assignOrderedNameSlots produce a [wf_tree]. *)
From Verif Require Import Base.Prelude Model.GroupMap Proofs.GMBase Proofs.OptionsProofs Proofs.GMLookups.
From Coq Require Import Sorting.Sorted.

(* ---------- hypotheses on the token list (the lexical conventions of Model/Options.v) ---------- *)

(* a name that starts with a digit is scanned as a number, so a TNamed name never does; the number of a
   TNumbered token is read off a digit string, so it is not negative.
   Modelling limit: [TNumbered n] stands for the CANONICAL decimal spelling of n.  Since /repo 5afce6b a
   spelling with a leading zero ("(?<02>") is rejected under MaintainCaptureOrder (where the digits are a
   name, and "02" and "2" would be two names for one number); such spellings are outside the token language. *)
Definition tok_lex (t : gtok) : Prop :=
  match t with TNamed s => lexname s = true | TNumbered n => 0 <= n | _ => True end.
(* the guard of the known finding mco_digit_names: no explicit numbers.  Since /repo 2b27550 only what is
   about the NAME of an unnamed group needs it (wf_tree, the name <-> number round trips). *)
Definition tok_unnumbered (t : gtok) : Prop := match t with TNumbered _ => False | _ => True end.

(* the names the pre-scan can file: a lexical name, or — when numbers are kept in pattern order, where
   "(?<2>" opens a group NAMED "2" (parser.go:426-438) — the numeral of a positive number *)
Definition name_ok (mco : bool) (s : name) : Prop :=
  lexname s = true \/ (mco = true /\ exists n, 0 < n /\ s = itoa n).

Lemma name_ok_nonempty : forall mco s, name_ok mco s -> s <> [].
Proof.
  intros mco s [H|[_ [n [Hn ->]]]]; [now apply lexname_nonempty|apply itoa_nonempty; lia].
Qed.

Lemma name_ok_default : forall s, name_ok false s -> lexname s = true.
Proof. intros s [H|[H _]]; [assumption|discriminate]. Qed.

(* a plain "(" that captures: noteCaptureSlot(consumeAutocap()) *)
Definition auto_slot (c : cstate) : cstate :=
  note_slot (c_autocap c)
    (mkC (c_autocap c + 1) (c_caps c) (c_capcount c) (c_captop c) (c_capnames c) (c_capnamelist c)).

Definition file_name (s : name) (v : Z) (c : cstate) : cstate :=
  mkC (c_autocap c) (c_caps c) (c_capcount c) (c_captop c) (Some (aset s v (names_of c))) (c_capnamelist c ++ [s]).

(* the name a token files: "(?<s>", and where numbers are kept in pattern order also "(?<n>" *)
Definition tok_name (mco ecma : bool) (t : gtok) (s : name) : Prop :=
  t = TNamed s \/ (mco = true /\ ecma = false /\ exists n, 0 < n /\ t = TNumbered n /\ s = itoa n).

Lemma tok_name_ok : forall mco ecma t s, tok_name mco ecma t s -> tok_lex t -> name_ok mco s.
Proof. intros mco ecma t s [->|[Hm [_ [n [Hn [_ ->]]]]]] Hl; [now left|right; eauto]. Qed.

(* what one token of countCaptures does to the capture tables, with the mark it leaves *)
Inductive capstep (mco ecma : bool) (c : cstate) : gtok -> pmark -> cstate -> Prop :=
| cs_none : forall t, capstep mco ecma c t PNone c
| cs_auto : capstep mco ecma c TOpen (PAuto (c_autocap c)) (auto_slot c)
| cs_num : forall n, mco = false -> 0 < n -> capstep mco ecma c (TNumbered n) (PNum n) (note_slot n c)
| cs_known : forall t s v, tok_name mco ecma t s -> aget s (names_of c) = Some v -> capstep mco ecma c t (PName s) c
| cs_new : forall t s, tok_name mco ecma t s -> aget s (names_of c) = None ->
    capstep mco ecma c t (PName s)
      (if mco then file_name s (c_autocap c) (auto_slot c) else file_name s (-1) c).

Inductive capsteps (mco ecma : bool) : cstate -> list gtok -> list pmark -> cstate -> Prop :=
| css_nil : forall c, capsteps mco ecma c [] [] c
| css_cons : forall c t mk c1 ts mks c2,
    capstep mco ecma c t mk c1 -> capsteps mco ecma c1 ts mks c2 -> capsteps mco ecma c (t :: ts) (mk :: mks) c2.

Lemma capsteps_marks_length : forall mco ecma c ts mks c', capsteps mco ecma c ts mks c' -> length mks = length ts.
Proof. intros mco ecma c ts mks c' H. induction H; cbn; congruence. Qed.

Lemma note_name_cases : forall mco ecma s c c', note_name mco ecma s c = Ok c' ->
  (exists v, aget s (names_of c) = Some v /\ c' = c)
  \/ (aget s (names_of c) = None
      /\ c' = if mco then file_name s (c_autocap c) (auto_slot c) else file_name s (-1) c).
Proof.
  intros mco ecma s c c' H. unfold note_name in H.
  destruct (aget s (names_of c)) as [v|] eqn:Eg.
  - left. exists v. split; [reflexivity|]. destruct ecma; [discriminate|]. injection H as <-.
    unfold names_of in *. destruct c as [a cp cnt top [m|] nl]; [reflexivity|discriminate].
  - right. split; [reflexivity|]. destruct mco; injection H as <-; [|reflexivity].
    unfold file_name, auto_slot, note_slot, names_of. cbn [c_caps].
    destruct (zmem (c_autocap c) (c_caps c)); reflexivity.
Qed.

Lemma pstep_capstep : forall mco ecma st t st' mk,
  pstep mco ecma st t = Ok (st', mk) -> capstep mco ecma (p_c st) t mk (p_c st').
Proof.
  intros mco ecma st t st' mk H. unfold pstep in H.
  destruct (ostep PreScan (p_o st) t) as [o'| | |]; try discriminate. cbn [bind] in H.
  assert (Hname : forall s, tok_name mco ecma t s ->
            (do c' <- note_name mco ecma s (p_c st) ; Ok (mkP o' false c', PName s)) = Ok (st', mk) ->
            capstep mco ecma (p_c st) t mk (p_c st')).
  { intros s Ht Hn. destruct (note_name mco ecma s (p_c st)) as [c'| | |] eqn:E; try discriminate.
    injection Hn as <- <-. cbn [p_c].
    destruct (note_name_cases _ _ _ _ _ E) as [[v [Hv ->]]|[Hv ->]]; [eapply cs_known; eauto|now apply cs_new]. }
  destruct (o_skip (p_o st)); [injection H as <- <-; constructor|].
  destruct t; try (injection H as <- <-; constructor).
  - destruct (negb (has (o_opts (p_o st)) opt_n) && negb (p_ign st)); injection H as <- <-; constructor.
  - apply (Hname s); [now left|exact H].
  - destruct ecma eqn:Ee; [injection H as <- <-; constructor|].
    destruct (n <=? 0) eqn:E0; [injection H as <- <-; constructor|]. apply Z.leb_gt in E0.
    destruct (maxint32 <? n); [discriminate|].
    destruct mco eqn:Em.
    + apply (Hname (itoa n)); [right; eauto 7|exact H].
    + injection H as <- <-. now constructor.
Qed.

Lemma prun_capsteps : forall mco ecma ts st st' mks,
  prun mco ecma st ts = Ok (st', mks) -> capsteps mco ecma (p_c st) ts mks (p_c st').
Proof.
  intros mco ecma ts. induction ts as [|t ts IH]; intros st st' mks H; cbn [prun] in H.
  - injection H as <- <-. constructor.
  - destruct (pstep mco ecma st t) as [[st1 mk]| | |] eqn:E1; try discriminate. cbn [bind] in H.
    destruct (prun mco ecma st1 ts) as [[st2 mks2]| | |] eqn:E2; try discriminate. cbn [bind] in H.
    injection H as <- <-. econstructor; [apply pstep_capstep; exact E1|now apply IH].
Qed.

Lemma prescan_capsteps : forall mco ecma o ts t mks, prescan mco ecma o ts = Ok (t, mks) ->
  exists c, capsteps mco ecma c_init ts mks c
    /\ (if mco then assign_ordered ecma c else assign_default c) = Ok t.
Proof.
  intros mco ecma o ts t mks H. unfold prescan in H.
  destruct (prun mco ecma (p_init o) ts) as [[st mks']| | |] eqn:Ep; try discriminate. cbn [bind] in H.
  exists (p_c st). apply prun_capsteps in Ep.
  destruct (if mco then assign_ordered ecma (p_c st) else assign_default (p_c st)); try discriminate.
  injection H as <- <-. auto.
Qed.

Lemma note_slot_fields : forall i c,
  c_autocap (note_slot i c) = c_autocap c /\ c_capnames (note_slot i c) = c_capnames c
  /\ c_capnamelist (note_slot i c) = c_capnamelist c.
Proof. intros. unfold note_slot. destruct (zmem i (c_caps c)); auto. Qed.

Lemma note_slot_caps : forall i c k, In k (c_caps (note_slot i c)) <-> k = i \/ In k (c_caps c).
Proof.
  intros. unfold note_slot. destruct (zmem i (c_caps c)) eqn:E.
  - apply zmem_In in E. split; [tauto|]. intros [->|H]; assumption.
  - cbn. apply caps_insert_In.
Qed.

Lemma note_slot_count : forall i c,
  c_capcount (note_slot i c) = if zmem i (c_caps c) then c_capcount c else c_capcount c + 1.
Proof. intros. unfold note_slot. destruct (zmem i (c_caps c)); reflexivity. Qed.

Lemma note_slot_top : forall i c, c_captop (note_slot i c) <= Z.max (c_captop c) (i + 1).
Proof.
  intros. unfold note_slot. destruct (zmem i (c_caps c)); [lia|]. cbn.
  destruct (c_captop c <=? i); [destruct (i =? maxint32)|]; lia.
Qed.

Lemma note_slot_names : forall i c, names_of (note_slot i c) = names_of c.
Proof. intros. unfold names_of. now rewrite (proj1 (proj2 (note_slot_fields i c))). Qed.

Lemma auto_slot_fields : forall c,
  c_autocap (auto_slot c) = c_autocap c + 1 /\ c_capnames (auto_slot c) = c_capnames c
  /\ c_capnamelist (auto_slot c) = c_capnamelist c.
Proof. intros c. exact (note_slot_fields (c_autocap c) _). Qed.

Lemma auto_slot_caps : forall c k, In k (c_caps (auto_slot c)) <-> k = c_autocap c \/ In k (c_caps c).
Proof. intros c k. exact (note_slot_caps (c_autocap c) _ k). Qed.

Lemma auto_slot_names : forall c, names_of (auto_slot c) = names_of c.
Proof. intros c. exact (note_slot_names (c_autocap c) _). Qed.

Lemma capstep_namelist : forall mco ecma c t mk c', capstep mco ecma c t mk c' ->
  c_capnamelist c' = c_capnamelist c
  \/ exists s, tok_name mco ecma t s /\ aget s (names_of c) = None /\ c_capnamelist c' = c_capnamelist c ++ [s].
Proof.
  intros mco ecma c t mk c' H. destruct H as [t| |n Hm Hn|t s v Ht Hv|t s Ht Hv].
  - now left.
  - left. apply auto_slot_fields.
  - left. apply note_slot_fields.
  - now left.
  - right. exists s. split; [assumption|]. split; [assumption|].
    destruct mco; cbn [file_name c_capnamelist]; [|reflexivity].
    now rewrite (proj2 (proj2 (auto_slot_fields c))).
Qed.

Record capsinv (c : cstate) : Prop := {
  cv_sorted : ssorted (c_caps c);
  cv_zero : In 0 (c_caps c);
  cv_count : c_capcount c = zlen (c_caps c);
  cv_range : forall k, In k (c_caps c) -> 0 <= k < c_captop c;
  cv_top : In (c_captop c - 1) (c_caps c);
  cv_topsmall : c_captop c <= maxint32
}.

Lemma capsinv_ext : forall c c', c_caps c' = c_caps c -> c_capcount c' = c_capcount c -> c_captop c' = c_captop c ->
  capsinv c -> capsinv c'.
Proof. intros c c' E1 E2 E3 [Hs Hz Hc Hr Ht Hm]. constructor; rewrite ?E1, ?E2, ?E3; assumption. Qed.

Lemma note_slot_capsinv : forall i c, capsinv c -> 0 <= i < maxint32 -> capsinv (note_slot i c).
Proof.
  intros i c [Hs Hz Hc Hr Ht Hm] Hi. unfold note_slot.
  destruct (zmem i (c_caps c)) eqn:E; [constructor; assumption|].
  apply zmem_false in E.
  assert (Hne : (i =? maxint32) = false) by (apply Z.eqb_neq; lia).
  constructor; cbn [c_caps c_capcount c_captop]; rewrite ?Hne.
  - now apply caps_insert_sorted.
  - apply caps_insert_In. now right.
  - unfold zlen in *. rewrite caps_insert_length by assumption. lia.
  - intros k Hk. apply caps_insert_In in Hk.
    destruct (c_captop c <=? i) eqn:E2; [apply Z.leb_le in E2|apply Z.leb_gt in E2];
      (destruct Hk as [->|Hk]; [lia|specialize (Hr _ Hk); lia]).
  - apply caps_insert_In.
    destruct (c_captop c <=? i) eqn:E2; [left; lia|right; assumption].
  - destruct (c_captop c <=? i); lia.
Qed.

Lemma auto_slot_capsinv : forall c, capsinv c -> 0 <= c_autocap c < maxint32 -> capsinv (auto_slot c).
Proof.
  intros c Hc Ha. apply (note_slot_capsinv (c_autocap c)); [|exact Ha].
  now apply (capsinv_ext c).
Qed.

Section WithLim.
(* [lim]: a bound on the explicit group numbers.  noteCaptureSlot saturates captop at 2^31-1
   (parser.go:209-215), so the statements below are about patterns whose numbers stay away from it. *)
Variable lim : Z.
Hypothesis Hlim : lim <= maxint32.

Definition tok_small (t : gtok) : Prop := match t with TNumbered n => n < lim | _ => True end.

Record gm_pinv (mco : bool) (c : cstate) : Prop := {
  pi_caps : capsinv c;
  pi_auto : 1 <= c_autocap c;
  pi_unnamed : forall k, 0 <= k < c_autocap c -> In k (c_caps c);
  pi_keys : akeys (names_of c) = c_capnamelist c;
  pi_nodup : NoDup (c_capnamelist c);
  pi_lex : Forall (name_ok mco) (c_capnamelist c);
  pi_some : forall m, c_capnames c = Some m -> m <> [];
  pi_topb : c_captop c <= Z.max lim (c_autocap c);
  pi_mco : mco = true ->
           (forall k, In k (c_caps c) -> k < c_autocap c)
           /\ c_capcount c = c_autocap c
           /\ (forall s v, aget s (names_of c) = Some v -> 1 <= v < c_autocap c)
}.

Lemma capsinv_init : capsinv c_init.
Proof.
  constructor; cbn.
  - repeat constructor.
  - now left.
  - reflexivity.
  - intros k [<-|[]]. lia.
  - now left.
  - unfold maxint32. lia.
Qed.

Lemma gm_pinv_init : forall mco, gm_pinv mco c_init.
Proof.
  intros mco. constructor; cbn.
  - apply capsinv_init.
  - lia.
  - intros k Hk. left. lia.
  - reflexivity.
  - constructor.
  - constructor.
  - discriminate.
  - lia.
  - intros _. split; [|split].
    + intros k [<-|[]]. lia.
    + reflexivity.
    + intros s v H. discriminate.
Qed.

Lemma auto_slot_pinv : forall mco c, gm_pinv mco c -> c_autocap c < maxint32 -> gm_pinv mco (auto_slot c).
Proof.
  intros mco c [Hcaps Hauto Hun Hkeys Hnd Hlex Hsome Htopb Hmco] Hlt.
  destruct (auto_slot_fields c) as [Fa [Fn Fl]].
  constructor; rewrite ?auto_slot_names, ?Fa, ?Fn, ?Fl; try assumption.
  - apply auto_slot_capsinv; [assumption|lia].
  - lia.
  - intros k Hk. apply auto_slot_caps.
    destruct (Z.eq_dec k (c_autocap c)); [now left|right; apply Hun; lia].
  - pose proof (note_slot_top (c_autocap c)
      (mkC (c_autocap c + 1) (c_caps c) (c_capcount c) (c_captop c) (c_capnames c) (c_capnamelist c))) as T.
    fold (auto_slot c) in T. cbn [c_captop] in T. lia.
  - intros Hm. destruct (Hmco Hm) as [Hlt' [Hcnt Hslots]]. split; [|split].
    + intros k Hk. apply auto_slot_caps in Hk. destruct Hk as [->|Hk]; [lia|specialize (Hlt' _ Hk); lia].
    + unfold auto_slot. rewrite note_slot_count. cbn [c_caps c_capcount].
      destruct (zmem (c_autocap c) (c_caps c)) eqn:E; [|lia].
      apply zmem_In in E. specialize (Hlt' _ E). lia.
    + intros s v Hv. specialize (Hslots _ _ Hv). lia.
Qed.

(* "(?<n>" where the number is a number *)
Lemma explicit_slot_pinv : forall c n, gm_pinv false c -> 0 < n < lim -> gm_pinv false (note_slot n c).
Proof.
  intros c n [Hcaps Hauto Hun Hkeys Hnd Hlex Hsome Htopb Hmco] Hn.
  destruct (note_slot_fields n c) as [Fa [Fn Fl]].
  constructor; rewrite ?note_slot_names, ?Fa, ?Fn, ?Fl; try assumption.
  - apply note_slot_capsinv; [assumption|lia].
  - intros k Hk. apply note_slot_caps. right. now apply Hun.
  - pose proof (note_slot_top n c) as T. lia.
  - discriminate.
Qed.

Lemma file_name_pinv : forall mco s v c,
  gm_pinv mco c -> aget s (names_of c) = None -> name_ok mco s -> (mco = true -> 1 <= v < c_autocap c) ->
  gm_pinv mco (file_name s v c).
Proof.
  intros mco s v c [Hcaps Hauto Hun Hkeys Hnd Hlex Hsome Htopb Hmco] Hg Hs Hv.
  assert (Hnk : ~ In s (c_capnamelist c)) by (rewrite <- Hkeys; now apply aget_none_keys).
  constructor; try assumption.
  - now apply (capsinv_ext c).
  - change (akeys (aset s v (names_of c)) = c_capnamelist c ++ [s]).
    rewrite akeys_aset_new by assumption. now rewrite Hkeys.
  - now apply NoDup_app_singleton.
  - apply Forall_app. split; [assumption|]. constructor; [assumption|constructor].
  - intros m Hm E. injection Hm as <-.
    pose proof (aget_aset_same s v (names_of c)) as G. rewrite E in G. discriminate.
  - intros Hm. destruct (Hmco Hm) as [Hlt' [Hcnt Hslots]]. split; [assumption|]. split; [assumption|].
    intros s0 v0 Hv0. apply aget_aset_cases in Hv0. destruct Hv0 as [[_ ->]|Hv0]; [auto|eauto].
Qed.

Lemma capstep_inv : forall mco ecma c t mk c',
  gm_pinv mco c -> tok_lex t -> tok_small t -> c_autocap c < maxint32 ->
  capstep mco ecma c t mk c' ->
  gm_pinv mco c'
  /\ c_autocap c <= c_autocap c' <= c_autocap c + 1
  /\ (forall k, In k (c_caps c) -> In k (c_caps c'))
  /\ (forall s v, aget s (names_of c) = Some v -> aget s (names_of c') = Some v).
Proof.
  intros mco ecma c t mk c' Hinv Hlex Hsmall Hlt H.
  destruct H as [t| |n Hm Hn|t s v Ht Hv|t s Ht Hv].
  - split; [assumption|]. split; [lia|]. auto.
  - split; [now apply auto_slot_pinv|]. rewrite (proj1 (auto_slot_fields c)), auto_slot_names.
    split; [lia|]. split; [|auto]. intros k Hk. apply auto_slot_caps. now right.
  - subst mco. split; [apply explicit_slot_pinv; [assumption|cbn in Hsmall; lia]|].
    rewrite (proj1 (note_slot_fields n c)), note_slot_names.
    split; [lia|]. split; [|auto]. intros k Hk. apply note_slot_caps. now right.
  - split; [assumption|]. split; [lia|]. auto.
  - pose proof (tok_name_ok _ _ _ _ Ht Hlex) as Hok. destruct mco.
    + split.
      { apply file_name_pinv; [now apply auto_slot_pinv|now rewrite auto_slot_names|assumption|].
        intros _. rewrite (proj1 (auto_slot_fields c)). pose proof (pi_auto _ _ Hinv). lia. }
      cbn [file_name c_autocap c_caps]. rewrite (proj1 (auto_slot_fields c)).
      split; [lia|]. split; [intros k Hk; apply auto_slot_caps; now right|].
      intros s0 v0 Hv0. change (aget s0 (aset s (c_autocap c) (names_of (auto_slot c))) = Some v0).
      rewrite auto_slot_names. now apply aget_aset_new.
    + split; [apply file_name_pinv; [assumption|assumption|assumption|discriminate]|].
      cbn [file_name c_autocap c_caps]. split; [lia|]. split; [auto|].
      intros s0 v0 Hv0. now apply aget_aset_new.
Qed.

Lemma capsteps_inv : forall mco ecma c ts mks c',
  capsteps mco ecma c ts mks c' ->
  gm_pinv mco c -> Forall tok_lex ts -> Forall tok_small ts ->
  c_autocap c + Z.of_nat (length ts) < maxint32 ->
  gm_pinv mco c'
  /\ c_autocap c <= c_autocap c' <= c_autocap c + Z.of_nat (length ts)
  /\ (forall k, In k (c_caps c) -> In k (c_caps c'))
  /\ (forall s v, aget s (names_of c) = Some v -> aget s (names_of c') = Some v).
Proof.
  intros mco ecma c ts mks c' H. induction H as [c|c t mk c1 ts mks c2 H1 H IH]; intros Hinv Hlex Hsmall Hlt.
  - split; [assumption|]. cbn [length]. split; [lia|]. auto.
  - inversion Hlex as [|? ? Hl1 Hl2]; subst. inversion Hsmall as [|? ? Hs1 Hs2]; subst.
    cbn [length] in Hlt |- *.
    destruct (capstep_inv mco ecma c t mk c1 Hinv Hl1 Hs1 ltac:(lia) H1) as [P1 [P2 [P3 P4]]].
    destruct (IH P1 Hl2 Hs2 ltac:(lia)) as [Q1 [Q2 [Q3 Q4]]].
    split; [assumption|]. split; [lia|]. auto.
Qed.

Lemma capsteps_namelist_length : forall mco ecma c ts mks c', capsteps mco ecma c ts mks c' ->
  (length (c_capnamelist c') <= length (c_capnamelist c) + length ts)%nat.
Proof.
  intros mco ecma c ts mks c' H. induction H as [c|c t mk c1 ts mks c2 H1 H IH]; cbn [length]; [lia|].
  destruct (capstep_namelist _ _ _ _ _ _ H1) as [E|[s [_ [_ E]]]]; rewrite E in IH;
    [|rewrite app_length in IH; cbn [length] in IH]; lia.
Qed.

(* with the guard (no explicit numbers where the digits would be a name) every filed name is lexical *)
Lemma capsteps_lexnames : forall mco ecma c ts mks c', capsteps mco ecma c ts mks c' ->
  Forall tok_lex ts -> (mco = true -> ecma = false -> Forall tok_unnumbered ts) ->
  Forall (fun s => lexname s = true) (c_capnamelist c) ->
  Forall (fun s => lexname s = true) (c_capnamelist c').
Proof.
  intros mco ecma c ts mks c' H. induction H as [c|c t mk c1 ts mks c2 H1 H IH]; intros Hlex Hun HF; [exact HF|].
  inversion Hlex as [|? ? Hl1 Hl2]; subst.
  apply IH; [assumption|intros A B; specialize (Hun A B); now inversion Hun|].
  destruct (capstep_namelist _ _ _ _ _ _ H1) as [->|[s [Ht [_ ->]]]]; [exact HF|].
  apply Forall_app. split; [exact HF|]. constructor; [|constructor].
  destruct Ht as [->|[A [B [n [_ [-> _]]]]]]; [exact Hl1|].
  specialize (Hun A B). now inversion Hun.
Qed.

Lemma prescan_inv : forall mco ecma ts mks c, capsteps mco ecma c_init ts mks c ->
  Forall tok_lex ts -> Forall tok_small ts ->
  Z.max lim (1 + Z.of_nat (length ts)) + Z.of_nat (length ts) + 1 < maxint32 ->
  gm_pinv mco c /\ Z.max (c_autocap c) (c_captop c) + Z.of_nat (length (c_capnamelist c)) < maxint32.
Proof.
  intros mco ecma ts mks c H Hlex Hsmall Hb.
  pose proof (capsteps_namelist_length _ _ _ _ _ _ H) as Hnl. cbn [c_init c_capnamelist length] in Hnl.
  destruct (capsteps_inv _ _ _ _ _ _ H (gm_pinv_init mco) Hlex Hsmall ltac:(cbn [c_init c_autocap]; lia)) as [Hinv [Hauto _]].
  cbn [c_init c_autocap] in Hauto. split; [assumption|]. pose proof (pi_topb _ _ Hinv). lia.
Qed.

Lemma capcount_le_captop : forall c, capsinv c -> c_capcount c <= c_captop c.
Proof.
  intros c Hc. rewrite (cv_count _ Hc). unfold zlen.
  pose proof (ssorted_length_bound (c_caps c) 0 (c_captop c) (cv_sorted _ Hc) (cv_range _ Hc)).
  pose proof (cv_range _ Hc _ (cv_zero _ Hc)). lia.
Qed.

Lemma dense_caps : forall c, capsinv c -> capnumlist_of c = None -> c_caps c = zrange (c_capcount c) /\ c_capcount c = c_captop c.
Proof.
  intros c Hc H. unfold capnumlist_of in H. destruct (c_capcount c <? c_captop c) eqn:E; [discriminate|].
  apply Z.ltb_ge in E. pose proof (capcount_le_captop c Hc) as Hle.
  assert (Heq : c_capcount c = c_captop c) by lia. split; [|assumption].
  apply ssorted_dense; [apply Hc| |].
  - intros k Hk. pose proof (cv_range _ Hc _ Hk). lia.
  - rewrite (cv_count _ Hc). reflexivity.
Qed.

(* Caps, Capnumlist and Captop as both assignNameSlots and assignOrderedNameSlots leave them *)
Lemma tree_wf_caps : forall c nm l, capsinv c -> wf_caps (mkT (c_caps c) (capnumlist_of c) (c_captop c) nm l).
Proof.
  intros c nm l Hc. constructor; cbn [t_caps t_capnumlist t_captop].
  - apply Hc.
  - apply sorted_head_zero; [apply Hc|apply Hc|]. intros k Hk. pose proof (cv_range _ Hc _ Hk). lia.
  - intros E. destruct (dense_caps c Hc E) as [-> ->]. reflexivity.
  - intros nl E. unfold capnumlist_of in E. destruct (c_capcount c <? c_captop c) eqn:E2; [|discriminate].
    injection E as <-. split; [reflexivity|]. apply Z.ltb_lt in E2. rewrite (cv_count _ Hc) in E2. lia.
Qed.

Definition vals_ok (t : ptree) : Prop :=
  match t_capnames t with
  | Some m => forall s k, aget s m = Some k -> In k (t_caps t)
  | None => True
  end.


Lemma fill_ordered_vals : forall ecma js l m l2 m2, fill_ordered ecma js l m = (l2, m2) ->
  forall s v, aget s m2 = Some v -> aget s m = Some v \/ In v js.
Proof.
  intros ecma js. induction js as [|j js IH]; intros l m l2 m2 H s v Hv.
  - cbn in H. injection H as <- <-. now left.
  - destruct l as [|x l]; [cbn in H; injection H as <- <-; now left|].
    cbn [fill_ordered] in H. destruct ecma.
    + destruct (fill_ordered true js l m) as [r m'] eqn:E. injection H as <- <-.
      destruct (IH _ _ _ _ E s v Hv); [now left|right; now right].
    + set (s' := match x with [] => itoa j | _ => x end) in *.
      set (m1 := if amem s' m then m else aset s' j m) in *.
      destruct (fill_ordered false js l m1) as [r m'] eqn:E. injection H as <- <-.
      destruct (IH _ _ _ _ E s v Hv) as [H1|H1]; [|right; now right].
      subst m1. destruct (amem s' m); [now left|].
      destruct (aget_aset_cases _ _ _ _ _ H1) as [[_ ->]|H2]; [right; now left|now left].
Qed.

(* ================= assignOrderedNameSlots ================= *)

Lemma mco_dense : forall c, gm_pinv true c ->
  c_caps c = zrange (c_autocap c) /\ c_captop c = c_autocap c /\ c_capcount c = c_autocap c.
Proof.
  intros c [Hcaps Hauto Hun _ _ _ _ _ Hmco]. destruct (Hmco eq_refl) as [Hlt [Hcnt _]].
  destruct Hcaps as [Hs Hz Hc Hr Ht Hm].
  split; [|split; [|assumption]].
  - apply ssorted_dense; [assumption| |].
    + intros k Hk. specialize (Hr _ Hk). specialize (Hlt _ Hk). lia.
    + unfold zlen in Hc. lia.
  - specialize (Hlt _ Ht). specialize (Hun (c_autocap c - 1) ltac:(lia)). specialize (Hr _ Hun). lia.
Qed.

(* first loop: every name lands at the index that is its slot *)
Lemma place_names_spec : forall names m l,
  (forall s, In s names -> exists v, aget s m = Some v /\ 0 <= v < Z.of_nat (length l)) ->
  exists l', place_names names None m l = Ok l' /\ length l' = length l
    /\ forall i s', nth_error l' i = Some s' ->
         nth_error l i = Some s' \/ (In s' names /\ aget s' m = Some (Z.of_nat i)).
Proof.
  induction names as [|s names IH]; intros m l H.
  - exists l. cbn. split; [reflexivity|]. split; [reflexivity|]. auto.
  - destruct (H s (or_introl eq_refl)) as [v [Hv Hr]].
    cbn [place_names]. rewrite (aget0_some _ _ _ Hv). unfold zset_nth.
    destruct (v <? 0) eqn:E; [apply Z.ltb_lt in E; lia|].
    destruct (set_nth_some l (Z.to_nat v) s ltac:(lia)) as [l1 Hl1]. rewrite Hl1.
    destruct (set_nth_spec _ _ _ _ Hl1) as [Hlen Hnth].
    destruct (IH m l1) as [l' [Hp [Hl' Hn']]].
    { intros s0 Hs0. rewrite Hlen. apply H. now right. }
    exists l'. split; [assumption|]. split; [congruence|].
    intros i s' Hi. destruct (Hn' i s' Hi) as [Hold|[Hin Hg]].
    + rewrite Hnth in Hold. destruct (Nat.eqb i (Z.to_nat v)) eqn:Ei.
      * apply Nat.eqb_eq in Ei. injection Hold as <-. right. split; [now left|]. rewrite Hv. f_equal. lia.
      * now left.
    + right. split; [now right|assumption].
Qed.

(* second loop, outside ECMAScript *)
Lemma fill_ordered_spec : forall js l m,
  length js = length l -> (forall j, In j js -> 0 <= j) -> NoDup js ->
  (forall i s j, nth_error l i = Some s -> nth_error js i = Some j -> s = [] \/ (lexname s = true /\ aget s m = Some j)) ->
  (forall j, In j js -> aget (itoa j) m = None) ->
  exists l2 m2, fill_ordered false js l m = (l2, m2)
    /\ Forall2 (names_entry false m2) l2 js
    /\ (forall s, (forall j, In j js -> s <> itoa j) -> aget s m2 = aget s m)
    /\ (forall i j, nth_error l i = Some [] -> nth_error js i = Some j -> nth_error l2 i = Some (itoa j)).
Proof.
  induction js as [|j js IH]; intros l m Hlen Hnn Hnd Hent Hnone.
  - destruct l; [|discriminate]. exists [], m. cbn. split; [reflexivity|]. split; [constructor|].
    split; [reflexivity|]. intros i j H. destruct i; discriminate.
  - destruct l as [|s l]; [discriminate|]. cbn in Hlen. injection Hlen as Hlen.
    inversion Hnd as [|? ? Hj Hnd']; subst.
    cbn [fill_ordered].
    set (s' := match s with [] => itoa j | _ => s end).
    set (m1 := if amem s' m then m else aset s' j m).
    assert (Hj0 : 0 <= j) by (apply Hnn; now left).
    assert (Hs' : s' <> [] /\ aget s' m1 = Some j /\ (forall j', In j' js -> s' <> itoa j')
                  /\ (forall x, x <> itoa j -> aget x m1 = aget x m)).
    { destruct (Hent 0%nat s j eq_refl eq_refl) as [->|[Hlex Hg]].
      - assert (Ea : amem (itoa j) m = false) by (apply amem_false; apply Hnone; now left).
        subst s' m1. cbv beta iota. rewrite Ea.
        split; [now apply itoa_nonempty|]. split; [apply aget_aset_same|]. split.
        + intros j' Hj' E. apply itoa_inj in E; [subst; contradiction|assumption|apply Hnn; now right].
        + intros x Hx. now apply aget_aset_other.
      - assert (Es : s' = s) by (subst s'; destruct s; [discriminate|reflexivity]).
        assert (Ea : amem s m = true) by (apply amem_aget; eauto).
        subst m1. rewrite Es, Ea.
        split; [now apply lexname_nonempty|]. split; [assumption|]. split; [|reflexivity].
        intros j' Hj'. apply lexname_not_itoa; [assumption|apply Hnn; now right]. }
    destruct Hs' as [Hne [Hg1 [Hnot Hsame]]].
    destruct (IH l m1) as [l2 [m2 [Hf [HF [Hkeep Hempty]]]]]; try assumption.
    { intros j' Hj'. apply Hnn. now right. }
    { intros i s0 j0 Hi Hj0'. destruct (Hent (S i) s0 j0 Hi Hj0') as [->|[Hlex Hg]]; [now left|right].
      split; [assumption|]. rewrite Hsame; [assumption|].
      apply lexname_not_itoa; assumption. }
    { intros j' Hj'. rewrite Hsame; [apply Hnone; now right|].
      intros E. apply itoa_inj in E; [subst; contradiction|apply Hnn; now right|assumption]. }
    rewrite Hf. exists (s' :: l2), m2. split; [reflexivity|]. split.
    { constructor; [|assumption]. right. split; [assumption|]. rewrite Hkeep; assumption. }
    split.
    { intros x Hx. rewrite Hkeep by (intros j' Hj'; apply Hx; now right).
      apply Hsame. apply Hx. now left. }
    intros i j0 Hi Hj0'. destruct i as [|i]; cbn in *.
    + injection Hi as ->. injection Hj0' as ->. reflexivity.
    + now apply Hempty.
Qed.

Lemma fill_ordered_ecma : forall js l m, length js = length l -> fill_ordered true js l m = (l, m).
Proof.
  induction js as [|j js IH]; intros l m H; destruct l as [|s l]; try discriminate; [reflexivity|].
  cbn in *. injection H as H. now rewrite IH.
Qed.

Lemma repeat_nth_error : forall {A} (x : A) n i y, nth_error (repeat x n) i = Some y -> y = x.
Proof.
  intros A x n i y H. apply nth_error_In in H. now apply repeat_spec in H.
Qed.

(* the second loop only ADDS keys *)
Lemma fill_ordered_mono : forall ecma js l m l2 m2, fill_ordered ecma js l m = (l2, m2) ->
  forall s v, aget s m = Some v -> aget s m2 = Some v.
Proof.
  intros ecma js. induction js as [|j js IH]; intros l m l2 m2 H s v Hv.
  - cbn in H. now injection H as _ <-.
  - destruct l as [|x l]; [cbn in H; now injection H as _ <-|].
    cbn [fill_ordered] in H. destruct ecma.
    + destruct (fill_ordered true js l m) as [r m'] eqn:E. injection H as _ <-. eauto.
    + set (s' := match x with [] => itoa j | _ => x end) in *.
      set (m1 := if amem s' m then m else aset s' j m) in *.
      destruct (fill_ordered false js l m1) as [r m'] eqn:E. injection H as _ <-.
      apply (IH _ _ _ _ E). subst m1. destruct (amem s' m) eqn:Ea; [assumption|].
      apply aget_aset_new; [now apply amem_false|assumption].
Qed.

Lemma fill_ordered_weak : forall js l m,
  length js = length l -> (forall j, In j js -> 0 <= j) ->
  (forall i s j, nth_error l i = Some s -> nth_error js i = Some j -> s = [] \/ (s <> [] /\ aget s m = Some j)) ->
  exists l2 m2, fill_ordered false js l m = (l2, m2)
    /\ Forall2 (names_entry_weak false m2) l2 js
    /\ (forall i j, nth_error l i = Some [] -> nth_error js i = Some j -> nth_error l2 i = Some (itoa j)).
Proof.
  induction js as [|j js IH]; intros l m Hlen Hnn Hent.
  - destruct l; [|discriminate]. exists [], m. cbn. split; [reflexivity|]. split; [constructor|].
    intros i j H. destruct i; discriminate.
  - destruct l as [|s l]; [discriminate|]. cbn in Hlen. injection Hlen as Hlen.
    cbn [fill_ordered].
    set (s' := match s with [] => itoa j | _ => s end).
    set (m1 := if amem s' m then m else aset s' j m).
    assert (Hj0 : 0 <= j) by (apply Hnn; now left).
    assert (Hmono1 : forall x w, aget x m = Some w -> aget x m1 = Some w).
    { intros x w Hx. subst m1. destruct (amem s' m) eqn:Ea; [assumption|].
      rewrite aget_aset_other; [assumption|]. intros ->. apply amem_false in Ea. congruence. }
    assert (Hs' : s' <> [] /\ exists v, aget s' m1 = Some v /\ (v = j \/ s' = itoa j)).
    { destruct (Hent 0%nat s j eq_refl eq_refl) as [->|[Hne Hg]].
      - subst s' m1. cbv beta iota. split; [now apply itoa_nonempty|].
        destruct (amem (itoa j) m) eqn:Ea.
        + apply amem_aget in Ea. destruct Ea as [v Hv]. exists v. auto.
        + exists j. split; [apply aget_aset_same|now left].
      - assert (Es : s' = s) by (subst s'; destruct s; [contradiction|reflexivity]).
        rewrite Es. split; [assumption|]. exists j. split; [now apply Hmono1|now left]. }
    destruct Hs' as [Hne [v [Hv Hor]]].
    destruct (IH l m1) as [l2 [m2 [Hf [HF Hempty]]]]; try assumption.
    { intros j' Hj'. apply Hnn. now right. }
    { intros i s0 j0 Hi Hj0'. destruct (Hent (S i) s0 j0 Hi Hj0') as [->|[Hne0 Hg]]; [now left|right].
      split; [assumption|now apply Hmono1]. }
    rewrite Hf. exists (s' :: l2), m2. split; [reflexivity|]. split.
    { constructor; [|assumption]. right. split; [assumption|]. exists v.
      split; [apply (fill_ordered_mono _ _ _ _ _ _ Hf); assumption|assumption]. }
    intros i j0 Hi Hj0'. destruct i as [|i]; cbn in *.
    + injection Hi as ->. injection Hj0' as ->. reflexivity.
    + now apply Hempty.
Qed.

(* What assignOrderedNameSlots does on the tables of the pre-scan (numbers 0 .. autocap-1, dense): either
   there is no name and nothing to do, or the first loop places every name at the index that is its number
   ([l1]: the other entries are empty, among them the first) and the second loop fills the gaps. *)
Lemma assign_ordered_cases : forall ecma c t, gm_pinv true c -> assign_ordered ecma c = Ok t ->
  (forall nm l, wf_caps (mkT (c_caps c) None (c_captop c) nm l))
  /\ ((c_capnames c = None /\ ecma = false /\ t = mkT (c_caps c) None (c_captop c) None None)
      \/ exists l1 l2 m2,
           t = mkT (c_caps c) None (c_captop c) (Some m2) (Some l2)
           /\ fill_ordered ecma (c_caps c) l1 (names_of c) = (l2, m2)
           /\ length (c_caps c) = length l1
           /\ nth_error l1 0 = Some []
           /\ (forall i s j, nth_error l1 i = Some s -> nth_error (c_caps c) i = Some j ->
                 s = [] \/ (In s (c_capnamelist c) /\ aget s (names_of c) = Some j))).
Proof.
  intros ecma c t Hinv H.
  destruct (mco_dense c Hinv) as [Hcaps [Htop Hcnt]].
  pose proof Hinv as [Hci Hauto Hun Hkeys Hnd _ Hsome Htopb Hmco].
  destruct (Hmco eq_refl) as [_ [_ Hslots]].
  assert (Hnl : capnumlist_of c = None).
  { unfold capnumlist_of. rewrite Hcnt, Htop. now rewrite Z.ltb_irrefl. }
  split; [intros nm l; rewrite <- Hnl; now apply tree_wf_caps|].
  unfold assign_ordered in H. rewrite Hnl in H.
  (* both branches of the code run the two loops on [names_of c] *)
  assert (H' : (c_capnames c = None /\ ecma = false /\ Ok (mkT (c_caps c) None (c_captop c) None None) = Ok t)
    \/ (do l1 <- place_names (c_capnamelist c) None (names_of c) (repeat [] (Z.to_nat (c_capcount c))) ;
        let (l2, m2) := fill_ordered ecma (zrange (c_capcount c)) l1 (names_of c) in
        Ok (mkT (c_caps c) None (c_captop c) (Some m2) (Some l2))) = Ok t).
  { unfold names_of. destruct (c_capnames c); [now right|].
    destruct ecma; cbn [negb andb] in H; [now right|]. rewrite Hcnt, <- Htop, Z.eqb_refl in H. left. auto. }
  clear H. destruct H' as [[E1 [E2 E3]]|H]; [left; injection E3 as <-; auto|right].
  rewrite Hcnt, <- Hcaps in H.
  destruct (place_names_spec (c_capnamelist c) (names_of c) (repeat [] (Z.to_nat (c_autocap c)))) as [l1 [Hp [Hl1 Hn1]]].
  { intros s Hs. rewrite <- Hkeys in Hs.
    destruct (aget s (names_of c)) as [v|] eqn:Eg; [|apply aget_none_keys in Eg; contradiction].
    exists v. split; [reflexivity|]. specialize (Hslots _ _ Eg). rewrite repeat_length. lia. }
  rewrite Hp in H. cbn [bind] in H. rewrite repeat_length in Hl1.
  destruct (fill_ordered ecma (c_caps c) l1 (names_of c)) as [l2 m2] eqn:Ef. injection H as <-.
  exists l1, l2, m2. split; [reflexivity|]. split; [exact Ef|].
  split; [now rewrite Hcaps, zrange_length|]. split.
  - destruct (nth_error l1 0) as [s|] eqn:E0.
    + destruct (Hn1 0%nat s E0) as [Hold|[Hin Hg]]; [apply repeat_nth_error in Hold; now subst|].
      specialize (Hslots _ _ Hg). lia.
    + apply nth_error_None in E0. lia.
  - intros i s j Hi Hj. destruct (Hn1 i s Hi) as [Hold|[Hin Hg]].
    + left. now apply repeat_nth_error in Hold.
    + right. split; [assumption|]. rewrite Hcaps in Hj.
      assert (Hlt : (i < Z.to_nat (c_autocap c))%nat) by (rewrite <- Hl1; apply nth_error_Some; congruence).
      rewrite zrange_nth in Hj by assumption. congruence.
Qed.

(* ECMAScript: the second loop does nothing, unnamed groups keep the empty name *)
Lemma ordered_names_ecma : forall c l1, gm_pinv true c ->
  length (c_caps c) = length l1 -> nth_error l1 0 = Some [] ->
  (forall i s j, nth_error l1 i = Some s -> nth_error (c_caps c) i = Some j ->
     s = [] \/ (In s (c_capnamelist c) /\ aget s (names_of c) = Some j)) ->
  Forall2 (names_entry true (names_of c)) l1 (c_caps c)
  /\ (true = true -> aget [] (names_of c) = None) /\ (exists r, l1 = [] :: r).
Proof.
  intros c l1 Hinv Hlen Hfirst Hent.
  assert (Hne : forall s, In s (c_capnamelist c) -> s <> []).
  { intros s Hs. apply (name_ok_nonempty true). pose proof (pi_lex _ _ Hinv) as Hok.
    rewrite Forall_forall in Hok. now apply Hok. }
  split; [|split].
  - apply Forall2_nth_intro; [now symmetry|].
    intros i s j Hi Hj. destruct (Hent i s j Hi Hj) as [->|[Hin Hg]]; [now left|right]. auto.
  - intros _. destruct (aget [] (names_of c)) eqn:Eg; [|reflexivity].
    apply aget_some_key in Eg. rewrite (pi_keys _ _ Hinv) in Eg. now apply Hne in Eg.
  - destruct l1; [discriminate|]. cbn in Hfirst. injection Hfirst as ->. eexists; reflexivity.
Qed.

(* with lexical names only (no "(?<2>"): the table is well formed in the strong sense *)
Theorem assign_ordered_wf : forall ecma c t,
  gm_pinv true c -> Forall (fun s => lexname s = true) (c_capnamelist c) ->
  assign_ordered ecma c = Ok t -> wf_tree ecma t.
Proof.
  intros ecma c t Hinv Hlex H. rewrite Forall_forall in Hlex.
  destruct (assign_ordered_cases ecma c t Hinv H) as [Hwc [[E1 [-> ->]]|[l1 [l2 [m2 [-> [Hf [Hlen [Hfirst Hent]]]]]]]]].
  - destruct (Hwc None None). constructor; cbn; auto.
  - destruct (Hwc (Some m2) (Some l2)) as [W1 W2 W3 W4]. constructor; try assumption.
    cbn [t_caplist t_capnames t_caps]. destruct ecma.
    + rewrite fill_ordered_ecma in Hf by assumption. injection Hf as <- <-.
      now apply ordered_names_ecma.
    + pose proof (pi_caps _ _ Hinv) as Hci.
      assert (Hnn : forall j, In j (c_caps c) -> 0 <= j) by (intros j Hj; pose proof (cv_range _ Hci _ Hj); lia).
      destruct (fill_ordered_spec (c_caps c) l1 (names_of c)) as [l2' [m2' [Hf' [HF [_ Hempty]]]]]; try assumption.
      { apply ssorted_NoDup, Hci. }
      { intros i s j Hi Hj. destruct (Hent i s j Hi Hj) as [->|[Hin Hg]]; [now left|right]. auto. }
      { intros j Hj. destruct (aget (itoa j) (names_of c)) eqn:Eg; [|reflexivity].
        apply aget_some_key in Eg. rewrite (pi_keys _ _ Hinv) in Eg.
        exfalso. eapply lexname_not_itoa; [exact (Hlex _ Eg)|exact (Hnn _ Hj)|reflexivity]. }
      rewrite Hf in Hf'. injection Hf' as <- <-.
      split; [assumption|]. split; [discriminate|].
      destruct W2 as [r0 Hr0]. cbn [t_caps] in Hr0. assert (H0 : nth_error l2 0 = Some (itoa 0)).
      { apply Hempty; [assumption|]. now rewrite Hr0. }
      destruct l2; [discriminate|]. cbn in H0. injection H0 as ->. eexists; reflexivity.
Qed.

Theorem assign_ordered_weak : forall ecma c t,
  gm_pinv true c -> assign_ordered ecma c = Ok t -> wf_weak ecma t.
Proof.
  intros ecma c t Hinv H.
  destruct (assign_ordered_cases ecma c t Hinv H) as [Hwc [[E1 [-> ->]]|[l1 [l2 [m2 [-> [Hf [Hlen [Hfirst Hent]]]]]]]]].
  - constructor; [apply Hwc|]. cbn. auto.
  - constructor; [apply Hwc|]. cbn [t_caplist t_capnames t_caps]. destruct ecma.
    + rewrite fill_ordered_ecma in Hf by assumption. injection Hf as <- <-.
      destruct (ordered_names_ecma c l1 Hinv Hlen Hfirst Hent) as [F R]. split; [|exact R].
      eapply Forall2_impl; [|exact F]. intros a b. apply names_entry_weaken.
    + pose proof (pi_caps _ _ Hinv) as Hci.
      destruct (fill_ordered_weak (c_caps c) l1 (names_of c)) as [l2' [m2' [Hf' [HF Hempty]]]]; try assumption.
      { intros j Hj. pose proof (cv_range _ Hci _ Hj). lia. }
      { intros i s j Hi Hj. destruct (Hent i s j Hi Hj) as [->|[Hin Hg]]; [now left|right].
        split; [|assumption]. apply (name_ok_nonempty true). pose proof (pi_lex _ _ Hinv) as Hok.
        rewrite Forall_forall in Hok. now apply Hok. }
      rewrite Hf in Hf'. injection Hf' as <- <-.
      split; [assumption|]. split; [discriminate|].
      destruct (Hwc (Some m2) (Some l2)) as [_ [r0 Hr0] _ _]. cbn [t_caps] in Hr0.
      assert (H0 : nth_error l2 0 = Some (itoa 0)) by (apply Hempty; [assumption|now rewrite Hr0]).
      destruct l2; [discriminate|]. cbn in H0. injection H0 as ->. eexists; reflexivity.
Qed.

Lemma assign_ordered_keeps : forall ecma c t, gm_pinv true c -> assign_ordered ecma c = Ok t ->
  forall s v, aget s (names_of c) = Some v -> exists m, t_capnames t = Some m /\ aget s m = Some v.
Proof.
  intros ecma c t Hinv H s v Hv.
  destruct (assign_ordered_cases ecma c t Hinv H) as [_ [[E1 _]|[l1 [l2 [m2 [-> [Hf _]]]]]]].
  - unfold names_of in Hv. rewrite E1 in Hv. discriminate.
  - exists m2. split; [reflexivity|]. apply (fill_ordered_mono _ _ _ _ _ _ Hf _ _ Hv).
Qed.

Theorem assign_ordered_vals : forall ecma c t, gm_pinv true c -> assign_ordered ecma c = Ok t -> vals_ok t.
Proof.
  intros ecma c t Hinv H.
  destruct (assign_ordered_cases ecma c t Hinv H) as [_ [[_ [_ ->]]|[l1 [l2 [m2 [-> [Hf _]]]]]]]; [exact I|].
  intros s k Hk. cbn [t_caps].
  destruct (fill_ordered_vals _ _ _ _ _ _ Hf s k Hk) as [H1|H1]; [|assumption].
  destruct (mco_dense c Hinv) as [-> _]. destruct (pi_mco _ _ Hinv eq_refl) as [_ [_ Hslots]].
  specialize (Hslots _ _ H1). apply zrange_In. lia.
Qed.


(* ================= assignNameSlots (numbers not maintained in pattern order) ================= *)

(* the numbers handed to the names: each is the next number from [a] on that is not in [caps].
   (Not the [chain] of Proofs/IterProofs.v, which is about iterator states.) *)
Fixpoint chain (caps : list Z) (a : Z) (ks : list Z) : Prop :=
  match ks with
  | [] => True
  | k :: ks' => a <= k /\ ~ In k caps /\ (forall n, a <= n < k -> In n caps) /\ chain caps (k + 1) ks'
  end.

Lemma chain_ext : forall caps caps' ks a,
  (forall n, a <= n -> (In n caps <-> In n caps')) -> chain caps a ks -> chain caps' a ks.
Proof.
  intros caps caps' ks. induction ks as [|k ks IH]; intros a Hext H; [exact I|].
  destruct H as [H1 [H2 [H3 H4]]]. cbn. split; [assumption|]. split; [rewrite <- Hext; assumption|].
  split; [intros n Hn; apply Hext; [lia|auto]|]. apply IH; [|assumption]. intros n Hn. apply Hext. lia.
Qed.

Lemma chain_sorted : forall caps ks a, chain caps a ks -> ssorted ks /\ (forall k, In k ks -> a <= k /\ ~ In k caps).
Proof.
  intros caps ks. induction ks as [|k ks IH]; intros a H; [split; [constructor|intros k []]|].
  destruct H as [H1 [H2 [H3 H4]]]. destruct (IH _ H4) as [Hs Hb]. split.
  - constructor; [assumption|]. apply Forall_forall. intros x Hx. destruct (Hb _ Hx). lia.
  - intros x [<-|Hx]; [auto|]. destruct (Hb _ Hx). split; [lia|assumption].
Qed.

Lemma next_free_bound : forall c, capsinv c ->
  let a := next_free (S (length (c_caps c))) (c_caps c) (c_autocap c) in
  c_autocap c <= a <= Z.max (c_autocap c) (c_captop c) /\ ~ In a (c_caps c)
  /\ (forall n, c_autocap c <= n < a -> In n (c_caps c)).
Proof.
  intros c Hc a. destruct (next_free_spec (S (length (c_caps c))) (c_caps c) (c_autocap c)) as [H1 [H2 _]].
  fold a in H1, H2. pose proof (next_free_not_in (c_caps c) (c_autocap c) (cv_sorted _ Hc)) as H3. fold a in H3.
  split; [|split; assumption]. split; [assumption|].
  destruct (Z.eq_dec a (c_autocap c)) as [->|Hne]; [lia|].
  specialize (H2 (a - 1) ltac:(lia)). pose proof (cv_range _ Hc _ H2). lia.
Qed.

Lemma assign_names_spec : forall names c,
  capsinv c -> 1 <= c_autocap c -> (forall k, 0 <= k < c_autocap c -> In k (c_caps c)) ->
  NoDup names -> (forall s, In s names -> In s (akeys (names_of c))) ->
  Z.max (c_autocap c) (c_captop c) + Z.of_nat (length names) < maxint32 ->
  let c' := assign_names names c in
  capsinv c'
  /\ c_capnamelist c' = c_capnamelist c
  /\ akeys (names_of c') = akeys (names_of c)
  /\ (forall s, ~ In s names -> aget s (names_of c') = aget s (names_of c))
  /\ (names <> [] -> c_capnames c' = Some (names_of c'))
  /\ (names = [] -> c' = c)
  /\ exists ks, Forall2 (fun s k => aget s (names_of c') = Some k) names ks
        /\ chain (c_caps c) (c_autocap c) ks
        /\ (forall k, In k (c_caps c') <-> In k (c_caps c) \/ In k ks).
Proof.
  induction names as [|s names IH]; intros c Hc Hauto Hun Hnd Hkeys Hb.
  - cbn. split; [assumption|]. split; [reflexivity|]. split; [reflexivity|]. split; [reflexivity|].
    split; [congruence|]. split; [reflexivity|].
    exists []. split; [constructor|]. split; [exact I|]. intros k. split; [auto|intros [H|[]]; exact H].
  - cbn [assign_names]. cbn zeta.
    destruct (next_free_bound c Hc) as [[Ha1 Ha2] [Ha3 Ha4]].
    set (a := next_free (S (length (c_caps c))) (c_caps c) (c_autocap c)) in *.
    set (c1 := mkC a (c_caps c) (c_capcount c) (c_captop c) (Some (aset s a (names_of c))) (c_capnamelist c)).
    destruct (note_slot_fields a c1) as [Fa [Fn Fl]].
    set (c3 := mkC (a + 1) (c_caps (note_slot a c1)) (c_capcount (note_slot a c1)) (c_captop (note_slot a c1))
                   (c_capnames (note_slot a c1)) (c_capnamelist (note_slot a c1))).
    cbn [length] in Hb.
    assert (Hc1 : capsinv c1) by (destruct Hc; constructor; auto).
    assert (Hc3 : capsinv c3).
    { pose proof (note_slot_capsinv a c1 Hc1 ltac:(lia)) as X. destruct X; constructor; auto. }
    assert (Hn3 : names_of c3 = aset s a (names_of c)).
    { unfold names_of, c3. cbn [c_capnames]. rewrite Fn. reflexivity. }
    assert (Hcaps3 : forall k, In k (c_caps c3) <-> k = a \/ In k (c_caps c)).
    { intros k. unfold c3. cbn [c_caps]. rewrite note_slot_caps. reflexivity. }
    inversion Hnd as [|? ? Hs Hnd']; subst.
    assert (Hskey : aget s (names_of c) <> None).
    { intros E. apply aget_none_keys in E. apply E, Hkeys. now left. }
    destruct (IH c3) as [I1 [I2 [I3 [I4 [I5 [I6 [ks [I7 [I8 I9]]]]]]]]]; try assumption.
    { unfold c3. cbn [c_autocap]. lia. }
    { intros k Hk. unfold c3 in Hk. cbn [c_autocap] in Hk. apply Hcaps3.
      destruct (Z.eq_dec k a); [now left|right].
      destruct (Z_lt_ge_dec k (c_autocap c)); [apply Hun; lia|apply Ha4; lia]. }
    { intros s0 Hs0. rewrite Hn3, akeys_aset_old by assumption. apply Hkeys. now right. }
    { unfold c3. cbn [c_autocap c_captop]. pose proof (note_slot_top a c1) as T. unfold c1 in T at 2. cbn [c_captop] in T. lia. }
    fold c3.
    split; [assumption|].
    split; [rewrite I2; unfold c3; cbn [c_capnamelist]; now rewrite Fl|].
    split; [rewrite I3, Hn3; now apply akeys_aset_old|].
    split.
    { intros s0 Hs0. rewrite I4 by (intros X; apply Hs0; now right). rewrite Hn3.
      apply aget_aset_other. intros ->. apply Hs0. now left. }
    split.
    { intros _. destruct names as [|s1 names1].
      - rewrite (I6 eq_refl). unfold c3 at 1. cbn [c_capnames]. rewrite Fn. cbn [c1 c_capnames]. now rewrite Hn3.
      - apply I5. discriminate. }
    split; [discriminate|].
    exists (a :: ks). split; [|split].
    + constructor; [|assumption]. rewrite I4 by assumption. rewrite Hn3. apply aget_aset_same.
    + cbn [chain]. split; [assumption|]. split; [assumption|]. split; [assumption|].
      apply (chain_ext (c_caps c3)); [|exact I8]. intros n Hn. rewrite Hcaps3. split; [intros [->|X]; [lia|assumption]|now right].
    + intros k. rewrite I9, Hcaps3. cbn [In]. split; intros H; intuition.
Qed.

(* the merge loop *)
Lemma merge_spec : forall js rest ks next m,
  ssorted js -> (forall j, In j js -> 0 <= j) ->
  Forall2 (fun s k => aget s m = Some k) rest ks -> ssorted ks -> incl ks js ->
  Forall (fun s => lexname s = true) rest ->
  next = match ks with [] => -1 | k :: _ => k end ->
  exists l m', merge_names js rest next m = Ok (l, m')
    /\ Forall2 (names_entry false m') l js
    /\ (forall s, (forall j, In j js -> s <> itoa j) -> aget s m' = aget s m)
    /\ (forall j r, js = j :: r -> ~ In j ks -> exists l', l = itoa j :: l').
Proof.
  induction js as [|j js IH]; intros rest ks next m Hs Hnn HF Hks Hincl Hlex Hnext.
  - exists [], m. cbn. split; [reflexivity|]. split; [constructor|]. split; [reflexivity|]. intros; discriminate.
  - assert (Hsf : ssorted js /\ Forall (Z.lt j) js) by (inversion Hs; auto).
    destruct Hsf as [Hs' Hf].
    assert (Hj0 : 0 <= j) by (apply Hnn; now left).
    assert (Hnn' : forall x, In x js -> 0 <= x) by (intros x Hx; apply Hnn; now right).
    cbn [merge_names].
    destruct (next =? j) eqn:En.
    + (* the next name has number j *)
      apply Z.eqb_eq in En.
      destruct ks as [|k ks]; [subst next; lia|]. subst next. subst k.
      inversion HF as [|s ? rest' ? Hg HF']; subst.
      inversion Hks as [|? ? Hks' Hkf]; subst.
      inversion Hlex as [|? ? Hl Hlex']; subst.
      assert (Hincl' : incl ks js).
      { intros x Hx. destruct (Hincl x (or_intror Hx)) as [->|H]; [|assumption].
        rewrite Forall_forall in Hkf. specialize (Hkf _ Hx). lia. }
      set (next' := match rest' with [] => -1 | s' :: _ => aget0 s' m end).
      assert (Hn' : next' = match ks with [] => -1 | k :: _ => k end).
      { unfold next'. inversion HF'; subst; [reflexivity|]. now apply aget0_some. }
      destruct (IH rest' ks next' m Hs' Hnn' HF' Hks' Hincl' Hlex' Hn') as [l [m' [Hm [HF2 [Hkeep _]]]]].
      rewrite Hm. cbn [bind]. exists (s :: l), m'. split; [reflexivity|]. split.
      { constructor; [|assumption]. right. split; [now apply lexname_nonempty|].
        rewrite Hkeep; [assumption|]. intros j' Hj'. apply lexname_not_itoa; [assumption|auto]. }
      split.
      { intros x Hx. apply Hkeep. intros j' Hj'. apply Hx. now right. }
      intros j' r E Hn. injection E as <- <-. exfalso. apply Hn. now left.
    + (* number j has no name: it is called itoa j *)
      apply Z.eqb_neq in En.
      assert (Hnotin : ~ In j ks).
      { intros Hi. destruct ks as [|k ks]; [destruct Hi|]. subst next.
        inversion Hks as [|? ? _ Hkf]; subst. destruct Hi as [->|Hi]; [congruence|].
        rewrite Forall_forall in Hkf. specialize (Hkf _ Hi).
        destruct (Hincl k (or_introl eq_refl)) as [->|Hk]; [congruence|].
        rewrite Forall_forall in Hf. specialize (Hf _ Hk). lia. }
      assert (Hincl' : incl ks js).
      { intros x Hx. destruct (Hincl x Hx) as [->|H]; [contradiction|assumption]. }
      assert (HF1 : Forall2 (fun s k => aget s (aset (itoa j) j m) = Some k) rest ks).
      { clear -HF Hlex Hj0. induction HF as [|s k rest ks Hg HF IHF]; [constructor|].
        inversion Hlex; subst. constructor; [|auto].
        rewrite aget_aset_other; [assumption|]. now apply lexname_not_itoa. }
      destruct (IH rest ks next (aset (itoa j) j m) Hs' Hnn' HF1 Hks Hincl' Hlex Hnext) as [l [m' [Hm [HF2 [Hkeep _]]]]].
      rewrite Hm. cbn [bind]. exists (itoa j :: l), m'. split; [reflexivity|]. split.
      { constructor; [|assumption]. right. split; [now apply itoa_nonempty|].
        rewrite Hkeep; [apply aget_aset_same|].
        intros j' Hj' E. apply itoa_inj in E; [|assumption|auto]. subst j'.
        rewrite Forall_forall in Hf. specialize (Hf _ Hj'). lia. }
      split.
      { intros x Hx. rewrite Hkeep by (intros j' Hj'; apply Hx; now right).
        apply aget_aset_other. apply Hx. now left. }
      intros j' r E _. injection E as <- <-. eexists; reflexivity.
Qed.

Lemma merge_vals : forall js rest next m l m', merge_names js rest next m = Ok (l, m') ->
  forall s v, aget s m' = Some v -> aget s m = Some v \/ In v js.
Proof.
  induction js as [|j js IH]; intros rest next m l m' H s v Hv.
  - cbn in H. injection H as <- <-. now left.
  - cbn [merge_names] in H. destruct (next =? j).
    + destruct rest as [|x rest']; [discriminate|].
      destruct (merge_names js rest' _ m) as [[l1 m1]| | |] eqn:E; try discriminate. cbn [bind] in H.
      injection H as <- <-. destruct (IH _ _ _ _ _ E s v Hv); [now left|right; now right].
    + destruct (merge_names js rest next (aset (itoa j) j m)) as [[l1 m1]| | |] eqn:E; try discriminate. cbn [bind] in H.
      injection H as <- <-. destruct (IH _ _ _ _ _ E s v Hv) as [H1|H1]; [|right; now right].
      destruct (aget_aset_cases _ _ _ _ _ H1) as [[_ ->]|H2]; [right; now left|now left].
Qed.

Lemma Forall2_aget_in : forall (names : list name) ks m s v,
  Forall2 (fun s k => aget s m = Some k) names ks -> In s names -> aget s m = Some v -> In v ks.
Proof.
  intros names ks m s v HF. induction HF as [|x k names ks Hx HF IH]; intros Hi Hv; [destruct Hi|].
  destruct Hi as [->|Hi]; [left; congruence|right; auto].
Qed.

(* What assignNameSlots does on the tables of the pre-scan: the first loop hands the names the free numbers
   [ks] from autocap on (giving [c1]); then either there is nothing to name, or the merge loop runs over
   all the numbers, with the names in the order of their numbers. *)
Lemma assign_default_cases : forall c t,
  gm_pinv false c -> Z.max (c_autocap c) (c_captop c) + Z.of_nat (length (c_capnamelist c)) < maxint32 ->
  assign_default c = Ok t ->
  let c1 := assign_names (c_capnamelist c) c in
  capsinv c1
  /\ exists ks, Forall2 (fun s k => aget s (names_of c1) = Some k) (c_capnamelist c) ks
      /\ chain (c_caps c) (c_autocap c) ks
      /\ (forall k, In k (c_caps c1) <-> In k (c_caps c) \/ In k ks)
      /\ akeys (names_of c1) = c_capnamelist c
      /\ ((c_capnamelist c = [] /\ capnumlist_of c1 = None /\ t = mkT (c_caps c1) None (c_captop c1) None None)
          \/ exists l m',
               merge_names (c_caps c1) (c_capnamelist c) (match ks with [] => -1 | k :: _ => k end) (names_of c1)
                 = Ok (l, m')
               /\ t = mkT (c_caps c1) (capnumlist_of c1) (c_captop c1) (Some m') (Some l)).
Proof.
  intros c t Hinv Hb H c1.
  pose proof Hinv as [Hci Hauto Hun Hkeys Hnd _ Hsome _ _].
  destruct (assign_names_spec (c_capnamelist c) c Hci Hauto Hun Hnd) as [A1 [A2 [A3 [A4 [A5 [A6 [ks [A7 [A8 A9]]]]]]]]].
  { intros s Hs. now rewrite Hkeys. }
  { assumption. }
  cbn zeta in A1, A2, A3, A4, A5, A6, A7, A9. fold c1 in A1, A2, A3, A4, A5, A6, A7, A9.
  split; [exact A1|]. exists ks. split; [exact A7|]. split; [exact A8|]. split; [exact A9|].
  split; [now rewrite A3|].
  assert (Hjs : match capnumlist_of c1 with Some l => l | None => zrange (c_capcount c1) end = c_caps c1).
  { destruct (capnumlist_of c1) eqn:E; [unfold capnumlist_of in E; destruct (c_capcount c1 <? c_captop c1); congruence|].
    symmetry. apply (dense_caps c1 A1 E). }
  unfold assign_default in H. cbv zeta in H. revert H.
  destruct (c_capnames c) as [m0|] eqn:Em0; cbv iota; intros H.
  - (* there are names *)
    right. fold c1 in H.
    assert (Hne : c_capnamelist c <> []).
    { intros E. rewrite <- Hkeys in E. unfold names_of in E. rewrite Em0 in E.
      destruct m0; [exact (Hsome _ eq_refl eq_refl)|discriminate]. }
    rewrite (A5 Hne), Hjs, A2 in H.
    inversion A7 as [E1 E2|s0 k0 rest0 ks' Hg0 HF' E1 E2]; [symmetry in E1; contradiction|].
    rewrite <- E1 in H. cbn [bind] in H. rewrite (aget0_some _ _ _ Hg0) in H.
    destruct (merge_names (c_caps c1) (s0 :: rest0) k0 (names_of c1)) as [[l m']| | |] eqn:Emg; try discriminate.
    injection H as <-. eauto.
  - (* no names: the first loop has nothing to do *)
    assert (Hl : c_capnamelist c = []) by (rewrite <- Hkeys; unfold names_of; now rewrite Em0).
    assert (Ec : c1 = c) by (unfold c1; now rewrite Hl).
    rewrite Hl in A7. inversion A7; subst ks. rewrite Ec in Hjs |- *. rewrite Hl.
    assert (Hn : names_of c = []) by (unfold names_of; now rewrite Em0). rewrite Hn. rewrite Em0 in H.
    destruct (capnumlist_of c) as [nl|]; [right|left; injection H as <-; auto].
    cbn [bind] in H. rewrite Hjs in H.
    destruct (merge_names (c_caps c) [] (-1) []) as [[l m']| | |] eqn:Emg; try discriminate.
    injection H as <-. subst nl. eauto.
Qed.

Theorem assign_default_wf : forall c t,
  gm_pinv false c -> Z.max (c_autocap c) (c_captop c) + Z.of_nat (length (c_capnamelist c)) < maxint32 ->
  assign_default c = Ok t ->
  wf_tree false t
  /\ exists ks, chain (c_caps c) (c_autocap c) ks
       /\ (forall k, In k (t_caps t) <-> In k (c_caps c) \/ In k ks)
       /\ match t_capnames t with
          | Some m => Forall2 (fun s k => aget s m = Some k) (c_capnamelist c) ks
          | None => c_capnamelist c = []
          end.
Proof.
  intros c t Hinv Hb H.
  destruct (assign_default_cases c t Hinv Hb H) as [A1 [ks [A7 [A8 [A9 [A3 Hcase]]]]]].
  set (c1 := assign_names (c_capnamelist c) c) in *.
  destruct Hcase as [[Hl [Enl ->]]|[l [m' [Hm ->]]]].
  - split; [|exists ks; cbn; auto].
    pose proof (tree_wf_caps c1 None None A1) as W. rewrite Enl in W. destruct W. constructor; cbn; auto.
  - assert (Hlex : Forall (fun s => lexname s = true) (c_capnamelist c)).
    { eapply Forall_impl; [|exact (pi_lex _ _ Hinv)]. intros a Ha. now apply name_ok_default. }
    destruct (chain_sorted _ _ _ A8) as [Hkss Hksb].
    assert (Hnn : forall j, In j (c_caps c1) -> 0 <= j) by (intros j Hj; pose proof (cv_range _ A1 _ Hj); lia).
    destruct (merge_spec (c_caps c1) (c_capnamelist c) ks _ (names_of c1)
                (cv_sorted _ A1) Hnn A7 Hkss ltac:(intros k Hk; apply A9; now right) Hlex eq_refl)
      as [l2 [m2 [Hm2 [HF [Hkeep Hhead]]]]].
    rewrite Hm in Hm2. injection Hm2 as <- <-.
    split.
    + destruct (tree_wf_caps c1 (Some m') (Some l) A1) as [W1 W2 W3 W4]. constructor; try assumption.
      cbn [t_caplist t_capnames t_caps]. split; [assumption|]. split; [discriminate|].
      destruct W2 as [r0 Hr0]. cbn [t_caps] in Hr0. apply (Hhead 0 r0 Hr0).
      intros Hi. destruct (Hksb _ Hi) as [Hge _]. pose proof (pi_auto _ _ Hinv). lia.
    + exists ks. cbn [t_caps t_capnames]. split; [assumption|]. split; [exact A9|].
      eapply Forall2_impl; [|exact A7]. cbv beta. intros s k Hg. rewrite Hkeep; [assumption|].
      intros j Hj. apply lexname_not_itoa; [|auto].
      apply aget_some_key in Hg. rewrite A3 in Hg. rewrite Forall_forall in Hlex. now apply Hlex.
Qed.

Theorem assign_default_vals : forall c t,
  gm_pinv false c -> Z.max (c_autocap c) (c_captop c) + Z.of_nat (length (c_capnamelist c)) < maxint32 ->
  assign_default c = Ok t -> vals_ok t.
Proof.
  intros c t Hinv Hb H.
  destruct (assign_default_cases c t Hinv Hb H) as [A1 [ks [A7 [A8 [A9 [A3 Hcase]]]]]].
  set (c1 := assign_names (c_capnamelist c) c) in *.
  destruct Hcase as [[_ [_ ->]]|[l [m' [Hm ->]]]]; [exact I|].
  intros s k Hk. cbn [t_caps].
  destruct (merge_vals _ _ _ _ _ _ Hm s k Hk) as [H1|H1]; [|assumption].
  (* a number the first loop handed out *)
  apply A9. right. apply (Forall2_aget_in _ _ _ s k A7); [|assumption].
  rewrite <- A3. eapply aget_some_key; eauto.
Qed.

End WithLim.

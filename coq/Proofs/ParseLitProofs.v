(* Proofs about Model/ParseLit.v:
     - facts about the generated tables (category table vs Escape's metacharacters),
     - the parser fragment is total: no Fuel / Crash on any rune string,
     - parse_lit o (escape s) is the literal tree of s (and \A..\z around it).
   (What that tree matches is in Proofs/ParseLitSem.v.) *)
From Verif Require Import Base.Prelude Gen.EscapeGen Gen.ParseLitGen Model.Escape Model.ParseLit Proofs.EscapeProofs.
From Verif Require Import Proofs.ListFacts.
From Coq Require Import ZifyBool.

(* ------------------------------------------------------------------------------------------ *)
(* finite checks over the ASCII table *)

Definition pl_range (n : nat) : list Z := map Z.of_nat (seq 0 n).

Lemma pl_range_forall (f : Z -> bool) (n : nat) :
  forallb f (pl_range n) = true -> forall c, 0 <= c < Z.of_nat n -> f c = true.
Proof.
  intros H c Hc. rewrite forallb_forall in H. apply H.
  unfold pl_range. apply in_map_iff. exists (Z.to_nat c). split; [lia|].
  apply in_seq. lia.
Qed.

Lemma pl_cat_neg c : c < 0 -> pl_cat c = 0.
Proof. intros H. unfold pl_cat. replace (Z.to_nat c) with 0%nat by lia. reflexivity. Qed.

Lemma pl_bounds_ok_true : pl_bounds_ok = true.
Proof. vm_compute. reflexivity. Qed.

(* the classifiers are false below 0 (category 0) and above their bounds, which are below 128 *)
Lemma pl_class_outside c : c < 0 \/ 128 <= c ->
  is_special c = false /\ is_stopper_x c = false /\ is_quantifier c = false /\ is_space c = false.
Proof.
  intros H. unfold is_special, is_stopper_x, is_quantifier, is_space.
  destruct H as [H|H]; [rewrite (pl_cat_neg c H)|];
    unfold pl_special_min, pl_stopperx_min, pl_quant_min, pl_space_cat,
      pl_special_bound, pl_stopperx_bound, pl_quant_bound, pl_space_bound; repeat split; lia.
Qed.

(* what the proofs below need of the category table (against Escape's metacharacters), for one rune:
   special => metacharacter; x-mode stopper or space => metacharacter or TAB..CR; quantifier => special;
   an x-mode stopper that is not special is whitespace or '#' *)
Definition pl_table_chk (c : Z) : bool :=
  implb (is_special c) (zmem c meta)
  && implb (is_stopper_x c) (zmem c meta || ((9 <=? c) && (c <=? 13)))
  && implb (is_space c) (zmem c meta || ((9 <=? c) && (c <=? 13)))
  && implb (is_quantifier c) (is_special c)
  && implb (is_stopper_x c && negb (is_special c)) (is_space c || (c =? 35)).

Lemma pl_table_ok c : pl_table_chk c = true.
Proof.
  destruct (Z_lt_dec c 0) as [Hn|Hn]; [|destruct (Z_lt_dec c 128) as [Hl|Hl]].
  - unfold pl_table_chk. destruct (pl_class_outside c (or_introl Hn)) as [-> [-> [-> ->]]]. reflexivity.
  - apply (pl_range_forall pl_table_chk 128); [vm_compute; reflexivity|lia].
  - assert (Hg : 128 <= c) by lia.
    unfold pl_table_chk. destruct (pl_class_outside c (or_intror Hg)) as [-> [-> [-> ->]]]. reflexivity.
Qed.

Lemma pl_table_facts c :
  (is_special c = true -> zmem c meta = true)
  /\ (is_stopper_x c = true -> zmem c meta = true \/ 9 <= c <= 13)
  /\ (is_space c = true -> zmem c meta = true \/ 9 <= c <= 13)
  /\ (is_quantifier c = true -> is_special c = true)
  /\ (is_stopper_x c = true -> is_special c = false -> is_space c = true \/ c = 35).
Proof.
  pose proof (pl_table_ok c) as F. unfold pl_table_chk in F.
  apply andb_prop in F. destruct F as [F F5]. apply andb_prop in F. destruct F as [F F4].
  apply andb_prop in F. destruct F as [F F3]. apply andb_prop in F. destruct F as [F1 F2].
  split; [intros H; now rewrite H in F1|].
  split; [intros H; rewrite H in F2; apply orb_prop in F2; destruct F2 as [F2|F2]; [now left|right; lia]|].
  split; [intros H; rewrite H in F3; apply orb_prop in F3; destruct F3 as [F3|F3]; [now left|right; lia]|].
  split; [intros H; now rewrite H in F4|].
  intros H1 H2. rewrite H1, H2 in F5. apply orb_prop in F5. destruct F5 as [F5|F5]; [now left|right; lia].
Qed.

Lemma special_in_meta c : is_special c = true -> zmem c meta = true.
Proof. apply pl_table_facts. Qed.

Lemma stopper_x_in_meta c : is_stopper_x c = true -> zmem c meta = true \/ 9 <= c <= 13.
Proof. apply pl_table_facts. Qed.

Lemma space_in_meta c : is_space c = true -> zmem c meta = true \/ 9 <= c <= 13.
Proof. apply pl_table_facts. Qed.

Lemma quantifier_is_special c : is_quantifier c = true -> is_special c = true.
Proof. apply pl_table_facts. Qed.

(* what makes the outer loop of scanRegex advance in x-mode: a stopper that is not special is
   whitespace or '#', which scanBlank consumes *)
Lemma stopper_not_special_is_blank c :
  is_stopper_x c = true -> is_special c = false -> is_space c = true \/ c = 35.
Proof. apply pl_table_facts. Qed.

Lemma backslash_special : is_special 92 = true /\ is_stopper_x 92 = true /\ is_quantifier 92 = false /\ is_space 92 = false.
Proof. vm_compute. repeat split. Qed.

(* ------------------------------------------------------------------------------------------ *)
(* the scanners never fault and only move right *)

(* a result that is an answer or a parse error: neither out of fuel nor a crash *)
Definition fine {A} (r : res A) : Prop := match r with Ok _ | Err _ => True | _ => False end.

(* [adv r n]: if r succeeded, what is left of the pattern is at most n runes long *)
Definition adv {A} (r : res (A * list Z)) (n : nat) : Prop :=
  fine r /\ forall v rest, r = Ok (v, rest) -> (length rest <= n)%nat.

Lemma skip_digits_len p : (length (skip_digits p) <= length p)%nat.
Proof. induction p as [|c p IH]; cbn [skip_digits length]; [lia|]. destruct (is_digit c); cbn [length]; lia. Qed.

Lemma blank_x_len p : forall inc, (length (blank_x inc p) <= length p)%nat.
Proof.
  induction p as [|c p IH]; intros inc; cbn [blank_x length]; [lia|].
  destruct inc.
  - specialize (IH (negb (c =? 10))). lia.
  - destruct (is_space c); [specialize (IH false); lia|].
    destruct (c =? 35); [specialize (IH true); lia|]. cbn [length]. lia.
Qed.

Lemma scan_blank_len o p : (length (scan_blank o p) <= length p)%nat.
Proof. unfold scan_blank. destruct (useX o); [apply blank_x_len | lia]. Qed.

(* scanBlank stops in front of a rune that is neither whitespace nor '#' *)
Lemma blank_x_head p : forall inc c t, blank_x inc p = c :: t -> is_space c = false /\ c <> 35.
Proof.
  induction p as [|a p IH]; intros inc c t H; cbn [blank_x] in H; [discriminate|].
  destruct inc.
  - exact (IH _ _ _ H).
  - destruct (is_space a) eqn:Es; [exact (IH _ _ _ H)|].
    destruct (a =? 35) eqn:Eh; [exact (IH _ _ _ H)|].
    inversion H; subst. split; [exact Es | lia].
Qed.

Lemma blank_x_fix c t : is_space c = false -> c <> 35 -> blank_x false (c :: t) = c :: t.
Proof. intros H1 H2. cbn [blank_x]. rewrite H1. replace (c =? 35) with false by lia. reflexivity. Qed.

Lemma take_run_app o p : forall r rest, take_run o p = (r, rest) -> p = r ++ rest.
Proof.
  induction p as [|c p IH]; intros r rest H; cbn [take_run] in H.
  - inversion H. reflexivity.
  - destruct (is_stopper o c && (negb (c =? 123) || is_true_quantifier (c :: p))).
    + inversion H. reflexivity.
    + destruct (take_run o p) as [r' rest'] eqn:E. inversion H; subst.
      cbn [app]. f_equal. apply IH. reflexivity.
Qed.

(* the run loop stops at the end or in front of a stopper *)
Lemma take_run_stop o p : forall r c t, take_run o p = (r, c :: t) -> is_stopper o c = true.
Proof.
  induction p as [|a p IH]; intros r c t H; cbn [take_run] in H.
  - inversion H.
  - destruct (is_stopper o a && (negb (a =? 123) || is_true_quantifier (a :: p))) eqn:E.
    + inversion H; subst. apply andb_prop in E. tauto.
    + destruct (take_run o p) as [r' rest'] eqn:E2. inversion H; subst. eapply IH. reflexivity.
Qed.

Lemma adv_ok {A} (v : A) rest n : (length rest <= n)%nat -> adv (Ok (v, rest)) n.
Proof. intros H. split; [exact I|]. intros v' rest' E. injection E as _ <-. exact H. Qed.

Lemma adv_err {A} c n : adv (@Err (A * list Z) c) n.
Proof. split; [exact I|]. intros v rest E. discriminate. Qed.

Lemma adv_weaken {A} (r : res (A * list Z)) n m : adv r n -> (n <= m)%nat -> adv r m.
Proof. intros [F L] Hnm. split; [exact F|]. intros v rest H. specialize (L v rest H). lia. Qed.

(* a scanner that consumed the head of the pattern and went on with the tail *)
Lemma adv_tail {A} (r : res (A * list Z)) (c : Z) p : adv r (length p) -> adv r (length (c :: p)).
Proof. intros H. apply (adv_weaken r _ _ H). cbn [length]. lia. Qed.

Lemma scan_decimal_adv p : forall i, adv (scan_decimal i p) (length p).
Proof.
  induction p as [|c p IH]; intros i; cbn [scan_decimal]; [apply adv_ok; lia|].
  destruct ((c - 48 <? 0) || (9 <? c - 48)); [apply adv_ok; lia|].
  destruct ((214748364 <? i) || ((i =? 214748364) && (7 <? c - 48))); [apply adv_err|apply adv_tail, IH].
Qed.

Lemma pl_octal_loop_len e c : forall i p, (length (snd (pl_octal_loop e c i p)) <= length p)%nat.
Proof.
  induction c as [|c IH]; intros i p; cbn [pl_octal_loop]; [cbn; lia|].
  destruct p as [|ch p]; [cbn; lia|].
  destruct ((48 <=? ch) && (ch <=? 55)); [|cbn; lia].
  destruct ((32 <=? i) && e); [cbn; lia|].
  specialize (IH (i * 8 + (ch - 48)) p). cbn [length]. lia.
Qed.

Lemma scan_hex_loop_adv c : forall i p, adv (scan_hex_loop c i p) (length p).
Proof.
  induction c as [|c IH]; intros i p; cbn [scan_hex_loop]; [apply adv_ok; lia|].
  destruct p as [|ch p]; [apply adv_err|].
  destruct (hex_digit ch <? 0); [apply adv_err|apply adv_tail, IH].
Qed.

Lemma scan_hex_adv c p : adv (scan_hex c p) (length p).
Proof. unfold scan_hex. destruct (Nat.leb c (length p)); [apply scan_hex_loop_adv|apply adv_err]. Qed.

Lemma scan_hex_brace_adv p : forall i has, adv (scan_hex_brace i has p) (length p).
Proof.
  induction p as [|ch p IH]; intros i has; cbn [scan_hex_brace]; [apply adv_err|].
  destruct (ch =? 125); [destruct has; [apply adv_ok; cbn [length]; lia|apply adv_err]|].
  destruct (hex_digit ch <? 0); [apply adv_err|].
  destruct (1114111 <? i * 16 + hex_digit ch); [apply adv_err|apply adv_tail, IH].
Qed.

Lemma scan_control_adv p : adv (scan_control p) (length p).
Proof.
  unfold scan_control. destruct p as [|ch p]; [apply adv_err|].
  match goal with |- adv (if ?b then _ else _) _ => destruct b end;
    [apply adv_ok; cbn [length]; lia|apply adv_err].
Qed.

Section ScannersAdvance.
Variable is_word_char : Z -> bool.
Variable to_lower : Z -> Z.
Variable is_cased : Z -> bool.
Variable participates : Z -> bool.
Variable ci_single : Z -> bool.
Variable ci_set_id : Z -> Z.

Lemma pl_scan_char_escape_adv o p : p <> [] -> adv (pl_scan_char_escape is_word_char o p) (length p).
Proof.
  intros Hne. destruct p as [|ch p']; [congruence|]. unfold pl_scan_char_escape.
  (* the ECMAScript fallback keeps both properties *)
  assert (FB : forall r : res (Z * list Z), adv r (length p') ->
            adv (match r with Err c => if useE o then Ok (ch, p') else Err c | _ => r end) (length (ch :: p'))).
  { intros r H. destruct r as [[v rest]|c|w|]; try (apply adv_tail, H).
    destruct (useE o); [apply adv_ok; cbn [length]; lia|apply adv_err]. }
  destruct ((48 <=? ch) && (ch <=? 55)).
  { unfold pl_scan_octal. pose proof (pl_octal_loop_len (useE o) 3 0 (ch :: p')) as L.
    destruct (pl_octal_loop (useE o) 3 0 (ch :: p')) as [i q]. apply adv_ok. exact L. }
  destruct (ch =? 120).
  { destruct p' as [|c2 p'']; [apply FB, scan_hex_adv|].
    destruct (c2 =? 123); [|apply FB, scan_hex_adv].
    destruct (useE o); [apply adv_ok; cbn [length]; lia|apply adv_tail, adv_tail, scan_hex_brace_adv]. }
  destruct (ch =? 117).
  { destruct p' as [|c2 p'']; [apply FB, scan_hex_adv|].
    destruct ((c2 =? 123) && useE o && useU o); [|apply FB, scan_hex_adv].
    apply adv_tail, adv_tail, scan_hex_brace_adv. }
  destruct (pl_lookup ch pl_simple_escapes); [apply adv_ok; cbn [length]; lia|].
  destruct (ch =? 99); [apply FB, scan_control_adv|].
  destruct (negb (useE o) && negb (useRE2 o) && is_word_char ch); [apply adv_err|apply adv_ok; cbn [length]; lia].
Qed.

(* the same two properties for the scanners that return a [bsk] *)
Definition advb (r : res bsk) (n : nat) (scan_only : bool) : Prop :=
  fine r /\ forall e rest, r = Ok (BGot e rest) ->
            (length rest <= n)%nat /\ (scan_only = false -> e <> EsNil).

Lemma advb_weaken r n m so : advb r n so -> (n <= m)%nat -> advb r m so.
Proof. intros [F L] Hnm. split; [exact F|]. intros e rest H. destruct (L e rest H). split; [lia|assumption]. Qed.

Lemma advb_err c n so : advb (Err c) n so.
Proof. split; [exact I|]. intros e rest H. discriminate. Qed.

Lemma advb_out n so : advb (Ok BOut) n so.
Proof. split; [exact I|]. intros e rest H. discriminate. Qed.

Lemma advb_got e rest n so : (length rest <= n)%nat -> (so = false -> e <> EsNil) -> advb (Ok (BGot e rest)) n so.
Proof. intros H1 H2. split; [exact I|]. intros e' rest' E. injection E as <- <-. auto. Qed.

Lemma char_code_advb o so p : p <> [] -> advb (char_code is_word_char to_lower o so p) (length p) so.
Proof.
  intros Hne. unfold char_code. destruct (pl_scan_char_escape_adv o p Hne) as [F L].
  destruct (pl_scan_char_escape is_word_char o p) as [[c rest]|c|w|]; cbn in F; try contradiction; cbn [bind];
    [|apply advb_err].
  specialize (L c rest eq_refl). destruct so; (apply advb_got; [exact L|discriminate]).
Qed.

Lemma scan_word_len p : forall w r, scan_word is_word_char p = (w, r) -> (length r <= length p)%nat.
Proof.
  induction p as [|c p IH]; intros w r H; cbn [scan_word] in H.
  - inversion H. cbn. lia.
  - destruct (is_word_char c).
    + destruct (scan_word is_word_char p) as [w' r'] eqn:E. inversion H; subst.
      specialize (IH w' r eq_refl). cbn [length]. lia.
    + inversion H. lia.
Qed.

Lemma name_ref_advb o so k close p0 cur :
  p0 <> [] -> cur <> [] -> (length cur <= length p0)%nat ->
  advb (name_ref is_word_char to_lower o so k close p0 cur) (length p0) so.
Proof.
  intros H0 Hc Hlen. unfold name_ref. destruct cur as [|ch cur']; [congruence|].
  destruct (is_digit ch).
  - destruct (scan_decimal_adv (ch :: cur') 0) as [F L].
    destruct (scan_decimal 0 (ch :: cur')) as [[capnum r1]|c|w|]; cbn in F; try contradiction; cbn [bind];
      [|apply advb_err].
    specialize (L capnum r1 eq_refl).
    destruct r1 as [|c r2]; [apply char_code_advb; assumption|].
    destruct (c =? close); [|apply char_code_advb; assumption].
    destruct (capnum =? 0); [|apply advb_err].
    apply advb_got; [cbn [length] in *; lia|discriminate].
  - destruct (useE o); [apply advb_out|].
    destruct (scan_word is_word_char (ch :: cur')) as [name r1] eqn:Ew.
    pose proof (scan_word_len _ _ _ Ew) as Lw.
    assert (FB : advb (if k then Err E_MalformedNameRef else char_code is_word_char to_lower o so p0) (length p0) so).
    { destruct k; [apply advb_err | apply char_code_advb; assumption]. }
    destruct name as [|n0 name]; [exact FB|].
    destruct r1 as [|c r2]; [exact FB|].
    destruct (c =? close); [|exact FB].
    destruct so eqn:Eso; [|apply advb_err].
    apply advb_got; [cbn [length] in *; lia|discriminate].
Qed.

Lemma scan_basic_backslash_advb o so p : advb (scan_basic_backslash is_word_char to_lower o so p) (length p) so.
Proof.
  unfold scan_basic_backslash. destruct p as [|ch p1]; [apply advb_err|].
  destruct ((ch =? 107) && (negb (useE o) || useU o)).
  { destruct p1 as [|c2 p2]; [apply advb_err|].
    destruct (negb ((c2 =? 60) || (negb (useE o) && (c2 =? 39)))); [apply advb_err|].
    destruct p2 as [|c3 p3]; [apply advb_err|].
    apply name_ref_advb; [discriminate | discriminate | cbn [length]; lia]. }
  destruct (negb (useE o) && ((ch =? 60) || (ch =? 39)) && match p1 with [] => false | _ => true end) eqn:Ea.
  { destruct p1 as [|c2 p2]; [rewrite andb_false_r in Ea; discriminate|].
    apply name_ref_advb; [discriminate | discriminate | cbn [length]; lia]. }
  destruct ((49 <=? ch) && (ch <=? 57)); [|apply char_code_advb; discriminate].
  destruct (scan_decimal_adv (ch :: p1) 0) as [F L].
  destruct (scan_decimal 0 (ch :: p1)) as [[capnum rest]|c|w|]; cbn in F; try contradiction; cbn [bind];
    [|apply advb_err].
  specialize (L capnum rest eq_refl).
  destruct so; [apply advb_got; [exact L|discriminate]|].
  destruct ((capnum <=? 9) && negb (useE o)); [apply advb_err | apply char_code_advb; discriminate].
Qed.

Lemma scan_backslash_advb o so p : advb (scan_backslash is_word_char to_lower o so p) (length p) so.
Proof.
  unfold scan_backslash. destruct p as [|ch p1]; [apply advb_err|].
  destruct (zmem ch pl_assert_letters); [apply advb_got; [cbn [length]; lia|discriminate]|].
  destruct (zmem ch pl_class_letters); [apply advb_got; [cbn [length]; lia|discriminate]|].
  destruct ((ch =? 112) || (ch =? 80)); [|apply scan_basic_backslash_advb].
  destruct (useE o && negb (useU o)); [apply scan_basic_backslash_advb|apply advb_out].
Qed.

End ScannersAdvance.

(* ------------------------------------------------------------------------------------------ *)
(* what Escape writes, seen by the parser's escape scanner *)

(* first rune after a backslash that scanBackslash / scanBasicBackslash hand to scanCharEscape *)
Definition first_ok (c : Z) : bool :=
  negb (zmem c pl_assert_letters) && negb (zmem c pl_class_letters) &&
  negb (c =? 112) && negb (c =? 80) && negb (c =? 107) && negb (c =? 60) && negb (c =? 39) &&
  negb ((48 <=? c) && (c <=? 57)).

(* \x and \u are followed by a hex digit, not by '{' *)
Definition no_brace (body : list Z) : bool :=
  match body with
  | c :: t => if (c =? 120) || (c =? 117)
              then match t with d :: _ => negb (d =? 123) | [] => false end
              else true
  | [] => false
  end.

Definition body_ok (body : list Z) : bool :=
  match body with c :: _ => first_ok c && no_brace body && forallb (fun x => 0 <=? x) body | [] => false end.

(* obligation on the generated metacharacter string: none of them starts another escape *)
Lemma meta_first_ok : forallb (fun c => first_ok c && negb ((c =? 120) || (c =? 117)) && (0 <=? c)) meta = true.
Proof. vm_compute. reflexivity. Qed.

Lemma hex_char_facts d : 0 <= d < 16 -> hex_char d <> 123 /\ 0 <= hex_char d.
Proof. intros H. pose proof (hex_char_range d H). lia. Qed.

Lemma hex_nonneg_b d : 0 <= d < 16 -> (0 <=? hex_char d) = true.
Proof. intros H. pose proof (hex_char_facts d H). lia. Qed.
Lemma hex_ne_brace_b d : 0 <= d < 16 -> (hex_char d =? 123) = false.
Proof. intros H. pose proof (hex_char_facts d H). lia. Qed.

Section EscapeBodies.
Variable is_print : Z -> bool.
Variable is_word_char : Z -> bool.
Hypothesis meta_not_word : forall c, In c meta -> is_word_char c = false.

Definition rawrune (r : Z) : Prop := (is_print r = true /\ zmem r meta = false) \/ 65535 < r.

Lemma esc_body_ok r body : esc_body r body -> body_ok body = true.
Proof.
  clear is_print is_word_char meta_not_word. intros [Hm|c Hc|d1 d0 H1 H0 _|d3 d2 d1 d0 H3 H2 H1 H0 _].
  - pose proof meta_first_ok as Hf. rewrite forallb_forall in Hf. specialize (Hf r (proj1 (zmem_In _ _) Hm)).
    apply andb_prop in Hf. destruct Hf as [Hf H0]. apply andb_prop in Hf. destruct Hf as [Hf Hxu].
    unfold body_ok, no_brace. rewrite Hf. apply negb_true_iff in Hxu. rewrite Hxu.
    cbn [forallb andb]. rewrite H0. reflexivity.
  - cbn [In] in Hc. repeat (destruct Hc as [Hc|Hc]; [injection Hc as _ <-; reflexivity|]). destruct Hc.
  - unfold body_ok, first_ok, no_brace; cbv beta iota; cbn [forallb].
    rewrite ?hex_nonneg_b, ?hex_ne_brace_b by lia. reflexivity.
  - unfold body_ok, first_ok, no_brace; cbv beta iota; cbn [forallb].
    rewrite ?hex_nonneg_b, ?hex_ne_brace_b by lia. reflexivity.
Qed.

Lemma escape_rune_inv2 r : valid_rune r ->
  (escape_rune is_print r = [r] /\ rawrune r) \/
  (exists body, escape_rune is_print r = 92 :: body /\ body_ok body = true /\
                forall rest, scan_char_escape is_word_char (body ++ rest) = Ok (r, rest)).
Proof.
  intros Hv. destruct (escape_rune_cases is_print r Hv) as [[Hraw Hr]|[body [Hesc Hb]]].
  - left. split; [exact Hraw|]. destruct Hr as [Hr|Hr]; [left|now right].
    unfold is_raw in Hr. apply andb_prop in Hr. destruct Hr as [Hp Hm]. now apply negb_true_iff in Hm.
  - right. exists body. split; [exact Hesc|]. split; [eapply esc_body_ok; exact Hb|].
    exact (proj2 (esc_body_scan is_word_char meta_not_word r body Hb)).
Qed.

End EscapeBodies.

(* ------------------------------------------------------------------------------------------ *)
(* the option-aware escape scanner agrees with Unescape's on everything Escape writes *)

Section Bridge.
Variable is_word_char : Z -> bool.
Variable to_lower : Z -> Z.

Lemma pl_lookup_simple ch :
  pl_lookup ch pl_simple_escapes =
  if ch =? 97 then Some 7 else if ch =? 98 then Some 8 else if ch =? 101 then Some 27
  else if ch =? 102 then Some 12 else if ch =? 110 then Some 10 else if ch =? 114 then Some 13
  else if ch =? 116 then Some 9 else if ch =? 118 then Some 11 else None.
Proof. reflexivity. Qed.

Lemma pl_scan_char_escape_bridge o body rest x :
  body_ok body = true ->
  scan_char_escape is_word_char (body ++ rest) = Ok x ->
  pl_scan_char_escape is_word_char o (body ++ rest) = Ok x.
Proof.
  clear to_lower. intros Hok. destruct body as [|c t]; [discriminate|].
  unfold body_ok in Hok. apply andb_prop in Hok. destruct Hok as [Hok _].
  apply andb_prop in Hok. destruct Hok as [Hf Hb].
  assert (Hoct : (48 <=? c) && (c <=? 55) = false).
  { unfold first_ok in Hf. repeat (apply andb_prop in Hf; destruct Hf as [Hf ?]). lia. }
  cbn [app]. unfold scan_char_escape, pl_scan_char_escape. rewrite Hoct.
  unfold no_brace in Hb.
  destruct (c =? 120) eqn:Ex.
  { cbn [orb] in Hb. destruct t as [|d t']; [discriminate|]. cbn [app].
    apply negb_true_iff in Hb. rewrite Hb. unfold pl_x_digits. intros H. rewrite H. reflexivity. }
  destruct (c =? 117) eqn:Eu.
  { cbn [orb] in Hb. destruct t as [|d t']; [discriminate|]. cbn [app].
    apply negb_true_iff in Hb. rewrite Hb. cbn [andb]. unfold pl_u_digits. intros H. rewrite H. reflexivity. }
  rewrite pl_lookup_simple.
  destruct (c =? 97); [auto|]. destruct (c =? 98); [auto|]. destruct (c =? 101); [auto|].
  destruct (c =? 102); [auto|]. destruct (c =? 110); [auto|]. destruct (c =? 114); [auto|].
  destruct (c =? 116); [auto|]. destruct (c =? 118); [auto|].
  destruct (c =? 99). { intros H. rewrite H. reflexivity. }
  destruct (is_word_char c); [discriminate|]. rewrite andb_false_r. auto.
Qed.

Lemma scan_backslash_first_ok o so c p1 :
  first_ok c = true ->
  scan_backslash is_word_char to_lower o so (c :: p1) = char_code is_word_char to_lower o so (c :: p1).
Proof.
  intros Hf. unfold first_ok in Hf.
  repeat (apply andb_prop in Hf; let H := fresh "Hc" in destruct Hf as [Hf H]).
  apply negb_true_iff in Hf, Hc, Hc0, Hc1, Hc2, Hc3, Hc4, Hc5.
  unfold scan_backslash. rewrite Hf, Hc5, Hc4, Hc3. cbn [orb].
  unfold scan_basic_backslash. rewrite Hc2, Hc1, Hc0. cbn [andb orb].
  rewrite andb_false_r. cbn [andb].
  replace ((49 <=? c) && (c <=? 57)) with false by lia. reflexivity.
Qed.

Lemma scan_backslash_body o so body rest r :
  body_ok body = true ->
  (forall rest, scan_char_escape is_word_char (body ++ rest) = Ok (r, rest)) ->
  scan_backslash is_word_char to_lower o so (body ++ rest) =
  Ok (BGot (if so then EsNil else EsChar (if useI o then to_lower r else r)) rest).
Proof.
  intros Hok Hscan. pose proof (pl_scan_char_escape_bridge o body rest (r, rest) Hok (Hscan rest)) as Hb.
  destruct body as [|c t]; [discriminate|].
  unfold body_ok in Hok. apply andb_prop in Hok. destruct Hok as [Hok _].
  apply andb_prop in Hok. destruct Hok as [Hf _].
  cbn [app] in *. rewrite (scan_backslash_first_ok o so c (t ++ rest) Hf).
  unfold char_code. rewrite Hb. cbn [bind]. destruct so; reflexivity.
Qed.

End Bridge.

Definition lit_leaf (o' : Z) (x : pnode) : Prop :=
  match x with
  | PnOne o _ => o = o'
  | PnMulti o m => o = o' /\ (2 <= length m)%nat
  | _ => False
  end.
Definition leaf_str (x : pnode) : list Z := match str_of x with Some (_, s) => s | None => [] end.
Definition spelling (l : list pnode) : list Z := flat_map leaf_str l.

(* the tree of a literal: what reduceConcatenation leaves of any run of One/Multi nodes *)
Definition lit_nodes (o' : Z) (s : list Z) : list pnode :=
  match s with
  | [] => []
  | [c] => [PnOne o' c]
  | _ => [PnMulti o' s]
  end.
Definition lit_body (o' : Z) (s : list Z) : pbody :=
  match lit_nodes o' s with
  | [] => BEmpty o'
  | x :: _ => BSingle x
  end.

Lemma lit_leaf_str_nonempty o' x : lit_leaf o' x -> leaf_str x <> [].
Proof.
  destruct x; cbn; try contradiction; intros H.
  - discriminate.
  - destruct H as [_ H]. destruct s; [cbn in H; lia | discriminate].
Qed.

Lemma lit_leaf_str_of o' x : lit_leaf o' x -> str_of x = Some (o', leaf_str x).
Proof. destruct x; cbn; try contradiction; intros H; [subst; reflexivity | destruct H; subst; reflexivity]. Qed.

Lemma combine_lit o' x y : lit_leaf o' x \/ (exists t o, x = PnType t o) -> combine x y = None.
Proof. intros [H|[t [o H]]]; [destruct x; cbn in H; try contradiction; reflexivity | subst; reflexivity]. Qed.

Definition plain (o' : Z) (x : pnode) : Prop := lit_leaf o' x \/ (exists t o, x = PnType t o).

Lemma coalesce_plain o' l : forall x, plain o' x -> Forall (plain o') l -> coalesce x l = x :: l.
Proof.
  induction l as [|y l IH]; intros x Hx Hl; cbn [coalesce]; [reflexivity|].
  rewrite (combine_lit o' x y Hx). inversion Hl; subst. f_equal. apply IH; assumption.
Qed.

Lemma merge_multi o' l : Forall (lit_leaf o') l ->
  forall s0, merge_strs (Some (PnMulti o' s0)) l = [PnMulti o' (s0 ++ spelling l)].
Proof.
  induction l as [|x l IH]; intros Hl s0; cbn [merge_strs flush spelling flat_map].
  - rewrite app_nil_r. reflexivity.
  - inversion Hl as [|x' l' Hx Hl']; subst.
    rewrite (lit_leaf_str_of o' x Hx). cbn [str_of]. rewrite Z.eqb_refl.
    rewrite IH by assumption. rewrite <- app_assoc. reflexivity.
Qed.

Lemma merge_lit_pending o' x l : lit_leaf o' x -> Forall (lit_leaf o') l -> l <> [] ->
  merge_strs (Some x) l = [PnMulti o' (leaf_str x ++ spelling l)].
Proof.
  intros Hx Hl Hne. destruct l as [|y l]; [congruence|].
  inversion Hl as [|y' l' Hy Hl']; subst.
  cbn [merge_strs]. rewrite (lit_leaf_str_of o' y Hy), (lit_leaf_str_of o' x Hx). rewrite Z.eqb_refl.
  rewrite (merge_multi o' l Hl'). cbn [spelling flat_map]. rewrite <- app_assoc. reflexivity.
Qed.

Lemma two_or_more {A} (a b : list A) : a <> [] -> b <> [] -> (2 <= length (a ++ b))%nat.
Proof. destruct a; [congruence|]. destruct b; [congruence|]. intros _ _. rewrite app_length. cbn. lia. Qed.

Lemma spelling_nonempty o' l : Forall (lit_leaf o') l -> l <> [] -> spelling l <> [].
Proof.
  intros Hl Hne. destruct l as [|x l]; [congruence|]. inversion Hl; subst.
  cbn [spelling flat_map]. pose proof (lit_leaf_str_nonempty o' x H1) as Hs.
  destruct (leaf_str x); [congruence | discriminate].
Qed.

Lemma lit_nodes_long o' s : (2 <= length s)%nat -> lit_nodes o' s = [PnMulti o' s].
Proof. destruct s as [|a [|b s]]; cbn [length]; try lia. reflexivity. Qed.

(* all the literal leaves of a run collapse into the node of their spelling *)
Lemma merge_lit_run o' l : Forall (lit_leaf o') l -> l <> [] ->
  forall rest, (match rest with [] => True | y :: _ => str_of y = None end) ->
  merge_strs None (l ++ rest) = lit_nodes o' (spelling l) ++ merge_strs None rest.
Proof.
  intros Hl Hne rest Hrest. destruct l as [|x l]; [congruence|].
  inversion Hl as [|x' l' Hx Hl']; subst.
  cbn [app merge_strs]. rewrite (lit_leaf_str_of o' x Hx).
  (* generalise over the pending node *)
  assert (G : forall l pv, Forall (lit_leaf o') l -> lit_leaf o' pv ->
            merge_strs (Some pv) (l ++ rest) =
            (match l with [] => [pv] | _ => [PnMulti o' (leaf_str pv ++ spelling l)] end) ++ merge_strs None rest).
  { clear - Hrest. intros l. induction l as [|y l IH]; intros pv Hl Hpv.
    - cbn [app]. destruct rest as [|z rest]; [reflexivity|]. cbn [merge_strs]. rewrite Hrest. reflexivity.
    - inversion Hl as [|y' l' Hy Hl']; subst. cbn [app merge_strs].
      rewrite (lit_leaf_str_of o' y Hy), (lit_leaf_str_of o' pv Hpv). rewrite Z.eqb_refl.
      assert (Hm : lit_leaf o' (PnMulti o' (leaf_str pv ++ leaf_str y))).
      { split; [reflexivity|]. apply two_or_more; eapply lit_leaf_str_nonempty; eassumption. }
      rewrite (IH _ Hl' Hm). cbn [spelling flat_map leaf_str str_of].
      destruct l; [cbn [flat_map app]; rewrite app_nil_r; reflexivity|]. rewrite <- app_assoc. reflexivity. }
  rewrite (G l x Hl' Hx). f_equal.
  cbn [spelling flat_map]. destruct l as [|y l].
  - rewrite app_nil_r. destruct x; cbn in Hx; try contradiction.
    + subst. reflexivity.
    + destruct Hx as [Ho Hx]. cbn [leaf_str str_of]. rewrite lit_nodes_long by assumption. subst. reflexivity.
  - rewrite lit_nodes_long; [reflexivity|].
    apply two_or_more; [eapply lit_leaf_str_nonempty; eassumption|].
    apply (spelling_nonempty o'); [assumption | discriminate].
Qed.

(* ------------------------------------------------------------------------------------------ *)
(* scanRegex on Escape's output *)

Lemma meta_members : zmem 35 meta = true /\ zmem 123 meta = true /\ zmem 92 meta = true /\
                     zmem 40 meta = true /\ zmem 41 meta = true /\ zmem 91 meta = true /\ zmem 32 meta = true.
Proof. vm_compute. repeat split. Qed.

Section Main.
Variable is_print : Z -> bool.
Variable is_word_char : Z -> bool.
Variable to_lower : Z -> Z.
Variable is_cased : Z -> bool.
Variable participates : Z -> bool.
Variable ci_single : Z -> bool.
Variable ci_set_id : Z -> Z.
Hypothesis meta_not_word : forall c, In c meta -> is_word_char c = false.
Variable o : Z.
Hypothesis HI : useI o = false.
(* only needed under IgnorePatternWhitespace: TAB LF VT FF CR are not printable, so Escape writes
   them as \t \n \v \f \r (checked against unicode.IsPrint by leg c19-parse) *)
Hypothesis HX : useX o = true -> forall c, 9 <= c <= 13 -> is_print c = false.

Local Notation SB := (scan_backslash is_word_char to_lower).
Local Notation SBODY := (scan_body is_word_char to_lower is_cased participates ci_single ci_set_id).
Local Notation SL := (scan_loop is_word_char to_lower is_cased participates ci_single ci_set_id).
Local Notation ATC := (add_to_concat is_cased participates ci_single ci_set_id).
Local Notation MK1 := (mk_one is_cased ci_single ci_set_id).
Local Notation PRE := (prepass is_word_char to_lower).
Local Notation raw := (rawrune is_print).
Local Notation esc := (escape is_print).

Lemma raw_not_stopper_x r : raw r -> useX o = true -> is_stopper_x r = false.
Proof.
  intros [[Hp Hm]|Hbig] EX.
  - destruct (is_stopper_x r) eqn:E; [|reflexivity].
    apply stopper_x_in_meta in E. destruct E as [E|E]; [congruence|].
    rewrite (HX EX r E) in Hp. discriminate.
  - unfold is_stopper_x, pl_stopperx_bound. lia.
Qed.

Lemma raw_not_special r : raw r -> is_special r = false.
Proof.
  intros [[Hp Hm]|Hbig].
  - destruct (is_special r) eqn:E; [|reflexivity]. apply special_in_meta in E. congruence.
  - unfold is_special, pl_special_bound. lia.
Qed.

Lemma raw_not_stopper r : raw r -> is_stopper o r = false.
Proof.
  intros Hr. unfold is_stopper. case_eq (useX o); intros EX;
    [apply raw_not_stopper_x; assumption | apply raw_not_special; assumption].
Qed.

Lemma raw_not_quantifier r : raw r -> is_quantifier r = false.
Proof.
  intros Hr. destruct (is_quantifier r) eqn:E; [|reflexivity].
  apply quantifier_is_special in E. rewrite (raw_not_special r Hr) in E. discriminate.
Qed.

Lemma raw_not_chars r : raw r -> r <> 35 /\ r <> 123 /\ r <> 92 /\ is_paren r = false.
Proof.
  destruct meta_members as [M35 [M123 [M92 [M40 [M41 [M91 _]]]]]].
  intros [[Hp Hm]|Hbig]; [|clear - Hbig; unfold is_paren; lia].
  repeat split; try (intros ->; congruence).
  unfold is_paren. destruct (r =? 40) eqn:E1; [apply Z.eqb_eq in E1; subst; congruence|].
  destruct (r =? 41) eqn:E2; [apply Z.eqb_eq in E2; subst; congruence|].
  destruct (r =? 91) eqn:E3; [apply Z.eqb_eq in E3; subst; congruence|]. reflexivity.
Qed.

Lemma raw_blank_fix r t : raw r -> scan_blank o (r :: t) = r :: t.
Proof.
  intros Hr. unfold scan_blank. case_eq (useX o); intros EX; [|reflexivity].
  apply blank_x_fix; [|apply (raw_not_chars r Hr)].
  destruct (is_space r) eqn:E; [|reflexivity].
  destruct Hr as [[Hp Hm]|Hbig].
  - apply space_in_meta in E. destruct E as [E|E]; [congruence|]. rewrite (HX EX r E) in Hp. discriminate.
  - unfold is_space, pl_space_bound in E. lia.
Qed.

Lemma backslash_blank_fix t : scan_blank o (92 :: t) = 92 :: t.
Proof.
  unfold scan_blank. case_eq (useX o); intros EX0; [|reflexivity].
  apply blank_x_fix; [apply backslash_special | lia].
Qed.

(* patterns that start like Escape output: empty, a raw rune, or a backslash *)
Definition good_head (p : list Z) : Prop :=
  match p with [] => True | c :: _ => raw c \/ c = 92 end.

Lemma good_head_blank p : good_head p -> scan_blank o p = p.
Proof.
  destruct p as [|c t]; intros H.
  - unfold scan_blank. case (useX o); reflexivity.
  - destruct H as [H| ->]; [apply raw_blank_fix; assumption | apply backslash_blank_fix].
Qed.

Lemma good_head_not_quantifier p : good_head p -> is_true_quantifier p = false.
Proof.
  destruct p as [|c t]; intros H; [reflexivity|]. cbn [is_true_quantifier].
  destruct H as [H| ->].
  - destruct (raw_not_chars c H) as [_ [H123 _]]. replace (c =? 123) with false by lia. cbn [negb].
    apply raw_not_quantifier. assumption.
  - reflexivity.
Qed.

Lemma is_stopper_backslash : is_stopper o 92 = true.
Proof. unfold is_stopper. case (useX o); apply backslash_special. Qed.

Lemma take_run_raw s1 : Forall raw s1 -> forall tail,
  (tail = [] \/ exists t, tail = 92 :: t) -> take_run o (s1 ++ tail) = (s1, tail).
Proof.
  induction s1 as [|r s1 IH]; intros Hall tail Ht.
  - cbn [app]. destruct Ht as [-> | [t ->]]; [reflexivity|].
    cbn [take_run]. rewrite is_stopper_backslash. reflexivity.
  - inversion Hall as [|r' s' Hr Hall']; subst. cbn [app take_run].
    rewrite (raw_not_stopper r Hr). cbn [andb]. rewrite (IH Hall' tail Ht). reflexivity.
Qed.

Lemma atc_lit s1 : s1 <> [] -> Forall (lit_leaf (clear_I o)) (ATC o s1) /\ spelling (ATC o s1) = s1.
Proof.
  intros Hne. unfold add_to_concat, mk_one. rewrite HI. cbn [negb orb andb].
  destruct s1 as [|a [|b s1]]; [congruence| |].
  - split; [constructor; [reflexivity | constructor] | reflexivity].
  - split; [constructor; [split; [reflexivity | cbn [length]; lia] | constructor]|].
    cbn [spelling flat_map leaf_str str_of]. apply app_nil_r.
Qed.

Lemma atc_nil : ATC o [] = [].
Proof. reflexivity. Qed.

(* one round of the outer loop: a run of raw runes in front of the end or of a backslash *)
Lemma scan_body_run rec s1 tail acc : Forall raw s1 -> s1 <> [] ->
  (tail = [] \/ exists t, tail = 92 :: t) ->
  SBODY rec o (s1 ++ tail) acc = SBODY rec o tail (acc ++ ATC o s1).
Proof.
  intros Hall Hne Ht.
  assert (Hh : good_head (s1 ++ tail)).
  { destruct s1 as [|r s1]; [congruence|]. inversion Hall; subst. left. assumption. }
  unfold scan_body at 1. rewrite (good_head_blank _ Hh), (take_run_raw s1 Hall tail Ht).
  destruct (s1 ++ tail) as [|c0 t0] eqn:Eapp.
  { destruct s1; [congruence | discriminate]. }
  destruct Ht as [-> | [t ->]].
  - (* the end *)
    replace (scan_blank o []) with (@nil Z) by (unfold scan_blank; case (useX o); reflexivity).
    reflexivity.
  - rewrite backslash_blank_fix.
    destruct backslash_special as [Hsp [_ [Hq _]]]. rewrite Hsp, Hq. cbn [negb]. rewrite Z.eqb_refl.
    unfold scan_body. rewrite backslash_blank_fix.
    cbn [take_run]. rewrite is_stopper_backslash. cbn [andb negb orb Z.eqb Pos.eqb].
    rewrite backslash_blank_fix. rewrite Hsp, Hq. cbn [negb]. rewrite Z.eqb_refl.
    rewrite atc_nil, app_nil_r. reflexivity.
Qed.

(* one round at a backslash *)
Lemma scan_body_backslash rec p4 acc :
  SBODY rec o (92 :: p4) acc =
  (do r <- SB o false p4 ;
   match r with
   | BOut => Ok SOutside
   | BGot e p5 =>
       match node_of_esc is_cased ci_single ci_set_id o e with
       | None => Crash 4
       | Some n => let p6 := scan_blank o p5 in
                   if is_true_quantifier p6 then Ok SOutside else rec p6 (acc ++ [n])
       end
   end).
Proof.
  unfold scan_body. rewrite backslash_blank_fix.
  cbn [take_run]. rewrite is_stopper_backslash. cbn [andb negb orb Z.eqb Pos.eqb].
  rewrite backslash_blank_fix.
  destruct backslash_special as [Hsp [_ [Hq _]]]. rewrite Hsp, Hq. cbn [negb]. rewrite Z.eqb_refl.
  rewrite atc_nil, app_nil_r. reflexivity.
Qed.


Lemma esc_cons r s : esc (r :: s) = escape_rune is_print r ++ esc s.
Proof. reflexivity. Qed.

(* s = its leading run of raw runes, then (if anything) a rune that Escape rewrites *)
Lemma raw_prefix s : Forall valid_rune s ->
  exists s1 s2, s = s1 ++ s2 /\ Forall raw s1 /\ esc s = s1 ++ esc s2 /\ Forall valid_rune s2 /\
    (s2 = [] \/ exists r s3 body, s2 = r :: s3 /\ escape_rune is_print r = 92 :: body /\
                  body_ok body = true /\
                  (forall rest, scan_char_escape is_word_char (body ++ rest) = Ok (r, rest))).
Proof.
  induction s as [|r s IH]; intros Hv.
  - exists [], []. split; [reflexivity|]. split; [constructor|]. split; [reflexivity|]. split; [constructor|]. left; reflexivity.
  - inversion Hv as [|r' s' Hr Hs]; subst.
    destruct (escape_rune_inv2 is_print is_word_char meta_not_word r Hr) as [[Hraw Hrr] | [body [Hesc [Hok Hscan]]]].
    + destruct (IH Hs) as [s1 [s2 [E1 [Hall [E2 [Hv2 Hcase]]]]]].
      exists (r :: s1), s2. split; [cbn [app]; congruence|]. split; [constructor; assumption|].
      split; [rewrite esc_cons, Hraw, E2; reflexivity|]. split; assumption.
    + exists [], (r :: s). split; [reflexivity|]. split; [constructor|]. split; [reflexivity|].
      split; [assumption|]. right. exists r, s, body. repeat split; assumption.
Qed.

Lemma good_head_esc s tail : Forall valid_rune s -> (tail = [] \/ exists t, tail = 92 :: t) ->
  good_head (esc s ++ tail).
Proof.
  intros Hv Ht. destruct s as [|r s].
  - cbn [app]. destruct Ht as [-> | [t ->]]; [exact I | right; reflexivity].
  - inversion Hv as [|r' s' Hr Hs]; subst. rewrite esc_cons.
    destruct (escape_rune_inv2 is_print is_word_char meta_not_word r Hr) as [[Hraw Hrr] | [body [Hesc _]]].
    + rewrite Hraw. left. assumption.
    + rewrite Hesc. right. reflexivity.
Qed.

Definition tail_spec (tail : list Z) (tl : list pnode) : Prop :=
  (tail = [] \/ exists t, tail = 92 :: t) /\
  forall f acc, (length tail < f)%nat -> SL f o tail acc = Ok (SLeaves (acc ++ tl)).

Lemma scan_escape n : forall s, (length s <= n)%nat -> Forall valid_rune s ->
  forall tail tl, tail_spec tail tl ->
  forall f acc, (length (esc s ++ tail) < f)%nat ->
  exists ls, SL f o (esc s ++ tail) acc = Ok (SLeaves (acc ++ ls ++ tl)) /\
             Forall (lit_leaf (clear_I o)) ls /\ spelling ls = s.
Proof.
  induction n as [|n IH]; intros s Hlen Hv tail tl [Ht Hspec] f acc Hf.
  - destruct s; [|cbn in Hlen; lia]. cbn [escape flat_map app] in *.
    exists []. split; [apply Hspec; assumption|]. split; [constructor | reflexivity].
  - destruct (raw_prefix s Hv) as [s1 [s2 [E1 [Hall [E2 [Hv2 Hcase]]]]]].
    destruct f as [|f']; [lia|].
    destruct Hcase as [-> | [r [s3 [body [-> [Hesc [Hok Hscan]]]]]]].
    + (* the whole of s is raw *)
      rewrite app_nil_r in E1. subst s1. cbn [escape flat_map] in E2. rewrite app_nil_r in E2.
      rewrite E2 in *. destruct s as [|r0 s0].
      * cbn [app] in *. exists []. split; [apply Hspec; assumption|]. split; [constructor | reflexivity].
      * cbn [scan_loop]. rewrite (scan_body_run (SL f' o) (r0 :: s0) tail acc Hall ltac:(discriminate) Ht).
        change (SBODY (SL f' o) o tail (acc ++ ATC o (r0 :: s0))) with (SL (S f') o tail (acc ++ ATC o (r0 :: s0))).
        rewrite Hspec by (rewrite app_length in Hf; lia).
        destruct (atc_lit (r0 :: s0) ltac:(discriminate)) as [Hl Hs].
        exists (ATC o (r0 :: s0)). split; [rewrite (app_assoc acc); reflexivity|]. split; assumption.
    + (* raw run, then an escaped rune *)
      rewrite esc_cons, Hesc in E2.
      assert (Eall : esc s ++ tail = s1 ++ 92 :: (body ++ (esc s3 ++ tail))).
      { rewrite E2. rewrite <- !app_assoc. cbn [app]. reflexivity. }
      rewrite Eall in *.
      inversion Hv2 as [|r' s' Hr Hv3]; subst r' s'.
      (* the round that starts at the backslash, with whatever was accumulated *)
      assert (Step : forall acc1 pre, Forall (lit_leaf (clear_I o)) pre -> spelling pre = s1 -> acc1 = acc ++ pre ->
                exists ls, SBODY (SL f' o) o (92 :: (body ++ (esc s3 ++ tail))) acc1 = Ok (SLeaves (acc ++ ls ++ tl)) /\
                           Forall (lit_leaf (clear_I o)) ls /\ spelling ls = s).
      { intros acc1 pre Hpre Hsp ->.
        rewrite scan_body_backslash.
        rewrite (scan_backslash_body is_word_char to_lower o false body (esc s3 ++ tail) r Hok Hscan).
        cbn [bind]. rewrite HI. cbn [node_of_esc]. unfold mk_one. rewrite HI. cbn [andb].
        assert (Hg : good_head (esc s3 ++ tail)) by (apply good_head_esc; assumption).
        cbv zeta. rewrite (good_head_blank _ Hg), (good_head_not_quantifier _ Hg).
        assert (Hlen3 : (length s3 <= n)%nat).
        { rewrite E1, app_length in Hlen. cbn [length] in Hlen. lia. }
        assert (Hf3 : (length (esc s3 ++ tail) < f')%nat).
        { rewrite app_length in Hf. cbn [length] in Hf. rewrite app_length in Hf. lia. }
        destruct (IH s3 Hlen3 Hv3 tail tl (conj Ht Hspec) f' ((acc ++ pre) ++ [PnOne (clear_I o) r]) Hf3)
          as [ls3 [Hrun [Hl3 Hs3]]].
        rewrite Hrun. exists (pre ++ [PnOne (clear_I o) r] ++ ls3).
        split; [rewrite <- !app_assoc; reflexivity|].
        split.
        - apply Forall_app. split; [assumption|]. constructor; [reflexivity | assumption].
        - unfold spelling in *. rewrite flat_map_app. cbn [flat_map app leaf_str str_of].
          rewrite Hsp, Hs3, E1. reflexivity. }
      cbn [scan_loop]. destruct s1 as [|r0 s0].
      * cbn [app]. apply (Step acc []); [constructor | reflexivity | rewrite app_nil_r; reflexivity].
      * rewrite (scan_body_run (SL f' o) (r0 :: s0) _ acc Hall ltac:(discriminate) (or_intror (ex_intro _ _ eq_refl))).
        destruct (atc_lit (r0 :: s0) ltac:(discriminate)) as [Hl Hs].
        apply (Step _ (ATC o (r0 :: s0))); [assumption | assumption | reflexivity].
Qed.


(* ---- the pre-scan (countCaptures) finds nothing to do on Escape output ---- *)

Lemma prepass_escape s : Forall valid_rune s -> forall tail,
  (forall f, (length tail < f)%nat -> PRE f o tail = Ok true) ->
  forall f, (length (esc s ++ tail) < f)%nat -> PRE f o (esc s ++ tail) = Ok true.
Proof.
  induction s as [|r s IH]; intros Hv tail Htail f Hf.
  - cbn [escape flat_map app] in *. apply Htail. assumption.
  - inversion Hv as [|r' s' Hr Hs]; subst. rewrite esc_cons in *.
    destruct f as [|f']; [lia|].
    destruct (escape_rune_inv2 is_print is_word_char meta_not_word r Hr) as [[Hraw Hrr] | [body [Hesc [Hok Hscan]]]].
    + rewrite Hraw in *. cbn [app length] in *. cbn [prepass prepass_body].
      destruct (raw_not_chars r Hrr) as [H35 [_ [H92 Hpar]]].
      replace (r =? 92) with false by lia. replace (r =? 35) with false by lia. cbn [andb].
      rewrite Hpar. apply IH; [assumption | assumption | lia].
    + rewrite Hesc in *. rewrite <- app_assoc in *. cbn [app length] in *.
      cbn [prepass prepass_body]. rewrite Z.eqb_refl.
      rewrite (scan_backslash_body is_word_char to_lower o true body (esc s ++ tail) r Hok Hscan).
      destruct body as [|c t]; [discriminate|]. cbn [app].
      apply IH; [assumption | assumption |]. rewrite app_length in Hf. lia.
Qed.

Lemma prepass_nil f : (0 < f)%nat -> PRE f o [] = Ok true.
Proof. destruct f; [lia | reflexivity]. Qed.

Lemma prepass_end_anchor f : (2 < f)%nat -> PRE f o [92; 122] = Ok true.
Proof. destruct f as [|[|f]]; [lia | lia | reflexivity]. Qed.

(* ---- the concatenation reduction on literal leaves ---- *)

Lemma reduce_concat_lit ls : Forall (lit_leaf (clear_I o)) ls ->
  reduce_concat o ls = lit_body (clear_I o) (spelling ls).
Proof.
  intros Hl. destruct ls as [|x [|y l]].
  - reflexivity.
  - inversion Hl as [|x' l' Hx _]; subst. cbn [reduce_concat spelling flat_map]. rewrite app_nil_r.
    unfold lit_body. destruct x; cbn in Hx; try contradiction.
    + subst. reflexivity.
    + destruct Hx as [-> Hx]. cbn [leaf_str str_of]. rewrite lit_nodes_long by assumption. reflexivity.
  - inversion Hl as [|x' l' Hx Hl']; subst. cbn [reduce_concat].
    rewrite (coalesce_plain (clear_I o) (y :: l) x (or_introl Hx)).
    2:{ eapply Forall_impl; [|exact Hl']. intros a Ha. left. exact Ha. }
    pose proof (merge_lit_run (clear_I o) (x :: y :: l) Hl ltac:(discriminate) [] I) as Hm.
    rewrite app_nil_r in Hm. rewrite Hm. cbn [merge_strs flush]. rewrite app_nil_r.
    assert (H2 : (2 <= length (spelling (x :: y :: l)))%nat).
    { cbn [spelling flat_map]. apply two_or_more; [eapply lit_leaf_str_nonempty; eassumption|].
      apply (spelling_nonempty (clear_I o) (y :: l)); [assumption | discriminate]. }
    unfold lit_body. rewrite lit_nodes_long by assumption. reflexivity.
Qed.

(* \A ... \z around literal leaves *)
Definition anchored_body (o' : Z) (s : list Z) : pbody :=
  BConcat o' (PnType NT_Beginning o' :: lit_nodes o' s ++ [PnType NT_End o']).

Lemma reduce_concat_cons x l : l <> [] ->
  reduce_concat o (x :: l) =
  match merge_strs None (coalesce x l) with
  | [] => BEmpty (clear_I o)
  | [y] => BSingle y
  | l2 => BConcat (clear_I o) l2
  end.
Proof. destruct l; [congruence | reflexivity]. Qed.

Lemma reduce_concat_anchored ls : Forall (lit_leaf (clear_I o)) ls ->
  reduce_concat o (PnType NT_Beginning (clear_I o) :: ls ++ [PnType NT_End (clear_I o)]) =
  anchored_body (clear_I o) (spelling ls).
Proof.
  intros Hl.
  assert (Hpl : Forall (plain (clear_I o)) (ls ++ [PnType NT_End (clear_I o)])).
  { apply Forall_app. split.
    - eapply Forall_impl; [|exact Hl]. intros a Ha. left. exact Ha.
    - constructor; [right; eauto | constructor]. }
  rewrite reduce_concat_cons by (destruct ls; discriminate).
  rewrite (coalesce_plain (clear_I o) _ _ (or_intror (ex_intro _ _ (ex_intro _ _ eq_refl))) Hpl).
  cbn [merge_strs str_of flush app].
  assert (Hm : merge_strs None (ls ++ [PnType NT_End (clear_I o)]) =
               lit_nodes (clear_I o) (spelling ls) ++ [PnType NT_End (clear_I o)]).
  { destruct ls as [|x l]; [reflexivity|].
    rewrite (merge_lit_run (clear_I o) (x :: l) Hl ltac:(discriminate) [PnType NT_End (clear_I o)] eq_refl). reflexivity. }
  rewrite Hm. unfold anchored_body.
  destruct (lit_nodes (clear_I o) (spelling ls)) as [|a [|b l1]]; reflexivity.
Qed.


(* ---- the whole parser on Escape output ---- *)
Hypothesis HR : useRTL o = false.

Local Notation PARSE := (parse_lit is_word_char to_lower is_cased participates ci_single ci_set_id).

Lemma esc_nonneg s : Forall valid_rune s -> forallb (fun c => 0 <=? c) (esc s) = true.
Proof.
  induction s as [|r s IH]; intros Hv; [reflexivity|].
  inversion Hv as [|r' s' Hr Hs]; subst. rewrite esc_cons, forallb_app, (IH Hs), andb_true_r.
  destruct (escape_rune_inv2 is_print is_word_char meta_not_word r Hr) as [[Hraw Hrr] | [body [Hesc [Hok Hscan]]]].
  - rewrite Hraw. cbn [forallb]. unfold valid_rune in Hr. rewrite andb_true_r. lia.
  - rewrite Hesc. cbn [forallb]. destruct body as [|c t]; [discriminate|].
    unfold body_ok in Hok. apply andb_prop in Hok. destruct Hok as [_ Hok]. rewrite Hok. reflexivity.
Qed.

Lemma tail_spec_nil : tail_spec [] [].
Proof.
  split; [left; reflexivity|]. intros f acc Hf. destruct f; [lia|]. cbn. rewrite app_nil_r. reflexivity.
Qed.

Lemma sb_beginning so rest : SB o so (65 :: rest) = Ok (BGot (EsType NT_Beginning) rest).
Proof. reflexivity. Qed.
Lemma sb_end so rest : SB o so (122 :: rest) = Ok (BGot (EsType NT_End) rest).
Proof. reflexivity. Qed.

Lemma tail_spec_end : tail_spec [92; 122] [PnType NT_End (clear_I o)].
Proof.
  split; [right; eexists; reflexivity|]. intros f acc Hf. cbn [length] in Hf.
  destruct f as [|[|f]]; [lia | lia |]. cbn [scan_loop]. rewrite scan_body_backslash, sb_end.
  cbn [bind node_of_esc]. cbv zeta.
  replace (scan_blank o []) with (@nil Z) by (unfold scan_blank; case (useX o); reflexivity).
  reflexivity.
Qed.

Theorem escape_parses_to_literal s : Forall valid_rune s ->
  PARSE o (esc s) = Ok (PTree (PRoot o (lit_body (clear_I o) s))).
Proof.
  intros Hv. unfold parse_lit. rewrite pl_bounds_ok_true, (esc_nonneg s Hv), HR. cbn [negb].
  pose proof (prepass_escape s Hv [] (fun f Hf => prepass_nil f ltac:(cbn [length] in Hf; lia))
                (S (length (esc s)))) as Hp.
  rewrite app_nil_r in Hp. rewrite Hp by lia. cbn [bind negb].
  destruct (scan_escape (length s) s (le_n _) Hv [] [] tail_spec_nil (S (length (esc s))) [])
    as [ls [Hrun [Hl Hs]]]; [rewrite app_nil_r; lia|].
  rewrite app_nil_r in Hrun. rewrite Hrun. cbn [bind app]. rewrite app_nil_r.
  rewrite (reduce_concat_lit ls Hl), Hs. reflexivity.
Qed.

Theorem anchored_escape_parses s : Forall valid_rune s ->
  PARSE o ([92; 65] ++ esc s ++ [92; 122]) = Ok (PTree (PRoot o (anchored_body (clear_I o) s))).
Proof.
  intros Hv. unfold parse_lit. rewrite pl_bounds_ok_true. cbn [app negb].
  assert (Hnn : forallb (fun c => 0 <=? c) (92 :: 65 :: esc s ++ [92; 122]) = true).
  { cbn [forallb]. rewrite forallb_app, (esc_nonneg s Hv). reflexivity. }
  rewrite Hnn, HR. cbn [negb].
  (* pre-scan *)
  cbn [prepass]. unfold prepass_body at 1. change (92 =? 92) with true. rewrite sb_beginning. cbv iota.
  rewrite (prepass_escape s Hv [92; 122] prepass_end_anchor) by (cbn [length]; lia). cbn [bind negb].
  (* main scan *)
  cbn [scan_loop]. rewrite scan_body_backslash, sb_beginning. cbn [bind node_of_esc app]. cbv zeta.
  assert (Hg : good_head (esc s ++ [92; 122])).
  { apply good_head_esc; [assumption | right; eexists; reflexivity]. }
  rewrite (good_head_blank _ Hg), (good_head_not_quantifier _ Hg).
  destruct (scan_escape (length s) s (le_n _) Hv [92; 122] _ tail_spec_end
              (length (92 :: 65 :: esc s ++ [92; 122])) [PnType NT_Beginning (clear_I o)] ltac:(cbn [length]; lia))
    as [ls [Hrun [Hl Hs]]].
  rewrite Hrun. cbn [bind app].
  rewrite (reduce_concat_anchored ls Hl), Hs. reflexivity.
Qed.

End Main.

(* ------------------------------------------------------------------------------------------ *)
(* totality: the fragment parser neither faults nor loops on any pattern of non-negative runes *)

Lemma is_space_hash : is_space 35 = false.
Proof. vm_compute. reflexivity. Qed.

Section ParserTotal.
Variable is_word_char : Z -> bool.
Variable to_lower : Z -> Z.
Variable is_cased : Z -> bool.
Variable participates : Z -> bool.
Variable ci_single : Z -> bool.
Variable ci_set_id : Z -> Z.

Local Notation SB := (scan_backslash is_word_char to_lower).
Local Notation SBODY := (scan_body is_word_char to_lower is_cased participates ci_single ci_set_id).
Local Notation SL := (scan_loop is_word_char to_lower is_cased participates ci_single ci_set_id).
Local Notation PRE := (prepass is_word_char to_lower).
Local Notation PARSE := (parse_lit is_word_char to_lower is_cased participates ci_single ci_set_id).
Local Notation SB_ADV := (scan_backslash_advb is_word_char to_lower).

(* every round of the outer loop of scanRegex consumes at least one rune (in x-mode because a
   stopper that is not special is a blank, which scanBlank consumes): the loop cannot hang *)
Lemma scan_body_fine rec o p acc :
  (forall p' acc', (length p' < length p)%nat -> fine (rec p' acc')) ->
  fine (SBODY rec o p acc).
Proof.
  intros Hrec. unfold scan_body. destruct p as [|c0 p0]; [exact I|].
  set (p := c0 :: p0) in *.
  pose proof (scan_blank_len o p) as L1.
  destruct (take_run o (scan_blank o p)) as [run p2] eqn:Er.
  pose proof (take_run_app _ _ _ _ Er) as Eapp.
  assert (L2 : (length run + length p2 = length (scan_blank o p))%nat) by (rewrite Eapp, app_length; reflexivity).
  pose proof (scan_blank_len o p2) as L3.
  destruct (scan_blank o p2) as [|ch p4] eqn:E3; [exact I|].
  destruct (is_special ch) eqn:Esp; cbn [negb].
  - (* special *)
    destruct (ch =? 92).
    + destruct (SB_ADV o false p4) as [F L].
      destruct (SB o false p4) as [[|e p5]|c|w|]; cbn in F; try contradiction; cbn [bind]; try exact I.
      destruct (L e p5 eq_refl) as [L5 Hnil]. specialize (Hnil eq_refl).
      destruct e; cbn [node_of_esc]; try congruence;
        cbv zeta; (destruct (is_true_quantifier (scan_blank o p5)); [exact I|]);
        apply Hrec; pose proof (scan_blank_len o p5); cbn [length] in *; lia.
    + destruct ((ch =? 123) && is_quantifier ch && negb (is_true_quantifier (ch :: p4))); [|exact I].
      destruct run as [|r0 run']; [exact I|].
      apply Hrec. cbn [length] in *. lia.
  - (* ordinary character after the blanks: something was consumed *)
    apply Hrec. destruct run as [|r0 run']; [|cbn [length] in *; lia].
    exfalso. cbn [app] in Eapp. subst p2.
    unfold scan_blank in *. destruct (useX o) eqn:EX.
    + (* x-mode *)
      destruct (blank_x false p) as [|c t] eqn:Eb; [discriminate|].
      destruct (blank_x_head _ _ _ _ Eb) as [Hs Hh].
      rewrite (blank_x_fix c t Hs Hh) in E3. inversion E3; subst ch p4.
      pose proof (take_run_stop _ _ _ _ _ Er) as Hst. unfold is_stopper in Hst. rewrite EX in Hst.
      destruct (stopper_not_special_is_blank c Hst Esp) as [Hb|Hb]; congruence.
    + subst p. inversion E3; subst ch p4.
      pose proof (take_run_stop _ _ _ _ _ Er) as Hst. unfold is_stopper in Hst. rewrite EX in Hst. congruence.
Qed.

Lemma scan_loop_fine o : forall f p acc, (length p < f)%nat -> fine (SL f o p acc).
Proof.
  induction f as [|f IH]; intros p acc Hf; [lia|].
  cbn [scan_loop]. apply scan_body_fine. intros p' acc' Hp. apply IH. lia.
Qed.

Lemma prepass_body_fine rec o p :
  (forall p', (length p' < length p)%nat -> fine (rec p')) ->
  fine (prepass_body is_word_char to_lower rec o p).
Proof.
  intros Hrec. unfold prepass_body. destruct p as [|ch p']; [exact I|].
  destruct (ch =? 92).
  - destruct p' as [|c1 p1]; [exact I|].
    destruct (SB_ADV o true (c1 :: p1)) as [F L].
    destruct (SB o true (c1 :: p1)) as [[|e rest]|c|w|]; cbn in F; try contradiction; try exact I.
    destruct (L e rest eq_refl) as [L5 _]. apply Hrec. cbn [length] in *. lia.
  - destruct ((ch =? 35) && useX o) eqn:Eh.
    + apply andb_prop in Eh. destruct Eh as [Eh EX]. assert (ch = 35) by lia. subst ch.
      apply Hrec. unfold scan_blank. rewrite EX. cbn [blank_x]. rewrite is_space_hash.
      change (35 =? 35) with true. cbv iota. pose proof (blank_x_len p' true). cbn [length]. lia.
    + destruct (is_paren ch); [exact I|]. apply Hrec. cbn [length]. lia.
Qed.

Lemma prepass_fine o : forall f p, (length p < f)%nat -> fine (PRE f o p).
Proof.
  induction f as [|f IH]; intros p Hf; [lia|].
  cbn [prepass]. apply prepass_body_fine. intros p' Hp. apply IH. lia.
Qed.

Theorem parse_lit_total o p : Forall (fun c => 0 <= c) p -> fine (PARSE o p).
Proof.
  intros Hnn. unfold parse_lit. rewrite pl_bounds_ok_true. cbn [negb].
  assert (Hb : forallb (fun c => 0 <=? c) p = true).
  { rewrite forallb_forall. rewrite Forall_forall in Hnn. intros c Hc. specialize (Hnn c Hc). lia. }
  rewrite Hb. cbn [negb]. destruct (useRTL o); [exact I|].
  pose proof (prepass_fine o (S (length p)) p (Nat.lt_succ_diag_r _)) as F1.
  destruct (PRE (S (length p)) o p) as [pre|c|w|]; cbn in F1; try contradiction; cbn [bind]; [|exact I].
  destruct pre; cbn [negb]; [|exact I].
  pose proof (scan_loop_fine o (S (length p)) p [] (Nat.lt_succ_diag_r _)) as F2.
  destruct (SL (S (length p)) o p []) as [r|c|w|]; cbn in F2; try contradiction; cbn [bind]; [|exact I].
  destruct r; exact I.
Qed.

End ParserTotal.

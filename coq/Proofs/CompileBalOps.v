(* Per-opcode lemmas for the BALANCING Capturemark (second operand <> -1): transferCapture forward,
   the "group to pop is unset" failure, and the two Back variants (one or two uncaptures), by symbolic
   evaluation of VM.step; root-slot liftings. *)
From Verif Require Import Base.Prelude Model.Tree Model.Spec Model.VM Model.Writer Gen.RunnerGen
  Proofs.VMU Proofs.VMUOps Proofs.VMUOps2 Proofs.VMUOps6 Proofs.CompileBalDen.
From Coq Require Import Relations ZifyBool.

Lemma bo_do_transfer s g u x t s2 l2 M1 :
  vm_match_index u (mcaps s) = Some s2 -> vm_match_length u (mcaps s) = Some l2 ->
  balance_match u (mcaps s) = Some M1 ->
  do_transfer s g u x t =
  (let iv := balance_span x t (s2, l2) in
   if g =? -1 then Ok (set_caps s (u :: crawl s) M1)
   else match add_match g (fst iv) (snd iv) M1 with
        | None => Crash C_cap
        | Some m2 => Ok (set_caps s (g :: u :: crawl s) m2)
        end).
Proof.
  intros Hi Hl Hb. unfold do_transfer. rewrite Hi, Hl, Hb. cbv zeta. rewrite <- bd_transfer_span.
  destruct (t <? x); cbv zeta beta iota;
    repeat match goal with |- context [if ?b then (_, _) else _] => destruct b end; reflexivity.
Qed.

Section OpsBal.
Variable e : env.
Variable p : program.
Hypothesis tc_nonneg : 0 <= trackcount p.

Notation ustep := (VMU.ustep e p).
Notation mk := VMU.mk.

(* the group to pop is unset: fail, nothing popped *)
Lemma ustep_capturemark_bal_unset pc0 t np T S C M g u w3 :
  code_at p pc0 = Some Capturemark -> code_at p (pc0 + 1) = Some g -> code_at p (pc0 + 2) = Some u ->
  u <> -1 -> code_at p (Z.abs np) = Some w3 -> vm_is_matched u M = Some false ->
  ustep (mk pc0 0 t (np :: T) S C M) = Ok (Next (bk np t T S C M)).
Proof.
  intros H0 H1 H2 Hu H3 Hm. start H0. change (Z.land Capturemark 63) with 32.
  cbn -[opnd do_capture do_transfer tpush advance vm_is_matched brk].
  opn (pc0 + 1) H1. cbn [bind]. opn (pc0 + 2) H2. cbn -[opnd do_capture do_transfer tpush advance vm_is_matched brk].
  replace (u =? -1) with false by lia. rewrite Hm. cbn [bind negb].
  fail_to H3; fin.
Qed.

(* (?<g-u>...) : pop u, push g *)
Lemma ustep_capturemark_bal pc0 t x T S C M g u s2 l2 M1 M2 w2 :
  code_at p pc0 = Some Capturemark -> code_at p (pc0 + 1) = Some g -> code_at p (pc0 + 2) = Some u ->
  u <> -1 -> g <> -1 -> code_at p (pc0 + 3) = Some w2 ->
  vm_is_matched u M = Some true -> vm_match_index u M = Some s2 -> vm_match_length u M = Some l2 ->
  balance_match u M = Some M1 ->
  add_match g (fst (balance_span x t (s2, l2))) (snd (balance_span x t (s2, l2))) M1 = Some M2 ->
  ustep (mk pc0 0 t T (x :: S) C M) = Ok (Next (mk (pc0 + 3) 0 t (pc0 :: x :: T) S (g :: u :: C) M2)).
Proof.
  intros H0 H1 H2 Hu Hg H3 Hm Hi Hl Hb Ha. start H0. change (Z.land Capturemark 63) with 32.
  cbn -[opnd do_capture do_transfer tpush advance vm_is_matched].
  opn (pc0 + 1) H1. cbn [bind]. opn (pc0 + 2) H2. cbn -[opnd do_capture do_transfer tpush advance vm_is_matched].
  replace (u =? -1) with false by lia. rewrite Hm. cbn [bind negb].
  erewrite bo_do_transfer by (cbn [mcaps set_stack repad VMU.mk]; eassumption).
  cbv zeta. replace (g =? -1) with false by lia. rewrite Ha. cbn [bind].
  tpu. adv (pc0 + 3) H3. fin.
Qed.

(* (?<-u>...) : pop u only *)
Lemma ustep_capturemark_bal_pop pc0 t x T S C M u s2 l2 M1 w2 :
  code_at p pc0 = Some Capturemark -> code_at p (pc0 + 1) = Some (-1) -> code_at p (pc0 + 2) = Some u ->
  u <> -1 -> code_at p (pc0 + 3) = Some w2 ->
  vm_is_matched u M = Some true -> vm_match_index u M = Some s2 -> vm_match_length u M = Some l2 ->
  balance_match u M = Some M1 ->
  ustep (mk pc0 0 t T (x :: S) C M) = Ok (Next (mk (pc0 + 3) 0 t (pc0 :: x :: T) S (u :: C) M1)).
Proof.
  intros H0 H1 H2 Hu H3 Hm Hi Hl Hb. start H0. change (Z.land Capturemark 63) with 32.
  cbn -[opnd do_capture do_transfer tpush advance vm_is_matched].
  opn (pc0 + 1) H1. cbn [bind]. opn (pc0 + 2) H2. cbn -[opnd do_capture do_transfer tpush advance vm_is_matched].
  replace (u =? -1) with false by lia. rewrite Hm. cbn [bind negb].
  erewrite bo_do_transfer by (cbn [mcaps set_stack repad VMU.mk]; eassumption).
  cbv zeta. change (-1 =? -1) with true. cbv iota. cbn [bind].
  tpu. adv (pc0 + 3) H3. fin.
Qed.

Lemma ustep_capturemark_bal_back pc0 t x np T S g u C M2 M1 M w3 :
  code_at p pc0 = Some Capturemark -> code_at p (pc0 + 1) = Some g -> code_at p (pc0 + 2) = Some u ->
  u <> -1 -> g <> -1 -> code_at p (Z.abs np) = Some w3 ->
  remove_match g M2 = Some M1 -> remove_match u M1 = Some M ->
  ustep (mk pc0 BackBit t (x :: np :: T) S (g :: u :: C) M2) = Ok (Next (bk np t T (x :: S) C M)).
Proof.
  intros H0 H1 H2 Hu Hg H3 Hr1 Hr2. start H0. change (Z.land Capturemark 63) with 32.
  cbn -[opnd uncapture spush brk].
  opn (pc0 + 1) H1. cbn [bind]. opn (pc0 + 2) H2. cbn [bind]. spu.
  unfold uncapture at 1. cbn [crawl mcaps set_stack set_track repad VMU.mk]. rewrite Hr1. cbn [bind].
  replace (negb (g =? -1) && negb (u =? -1)) with true by lia.
  unfold uncapture. cbn [crawl mcaps set_caps]. rewrite Hr2. cbn [bind].
  fail_to H3; fin.
Qed.

Lemma ustep_capturemark_bal_pop_back pc0 t x np T S u C M1 M w3 :
  code_at p pc0 = Some Capturemark -> code_at p (pc0 + 1) = Some (-1) -> code_at p (pc0 + 2) = Some u ->
  code_at p (Z.abs np) = Some w3 -> remove_match u M1 = Some M ->
  ustep (mk pc0 BackBit t (x :: np :: T) S (u :: C) M1) = Ok (Next (bk np t T (x :: S) C M)).
Proof.
  intros H0 H1 H2 H3 Hr. start H0. change (Z.land Capturemark 63) with 32.
  cbn -[opnd uncapture spush brk].
  opn (pc0 + 1) H1. cbn [bind]. opn (pc0 + 2) H2. cbn [bind]. spu.
  unfold uncapture. cbn [crawl mcaps set_stack set_track repad VMU.mk]. rewrite Hr. cbn [bind].
  change (negb (-1 =? -1)) with false. cbn [andb bind].
  fail_to H3; fin.
Qed.

Notation rsteps := (VMUOps2.rsteps e p).

Lemma rs_capturemark_bal_unset pc0 t np T S C M g u w3 :
  code_at p pc0 = Some Capturemark -> code_at p (pc0 + 1) = Some g -> code_at p (pc0 + 2) = Some u ->
  u <> -1 -> code_at p (Z.abs np) = Some w3 -> vm_is_matched u M = Some false ->
  rsteps (mkr pc0 0 t (np :: T) S C M) (bkr np t T S C M).
Proof. lift ustep_capturemark_bal_unset. Qed.

Lemma rs_capturemark_bal pc0 t x T S C M g u s2 l2 M1 M2 w2 :
  code_at p pc0 = Some Capturemark -> code_at p (pc0 + 1) = Some g -> code_at p (pc0 + 2) = Some u ->
  u <> -1 -> g <> -1 -> code_at p (pc0 + 3) = Some w2 ->
  vm_is_matched u M = Some true -> vm_match_index u M = Some s2 -> vm_match_length u M = Some l2 ->
  balance_match u M = Some M1 ->
  add_match g (fst (balance_span x t (s2, l2))) (snd (balance_span x t (s2, l2))) M1 = Some M2 ->
  rsteps (mkr pc0 0 t T (x :: S) C M) (mkr (pc0 + 3) 0 t (pc0 :: x :: T) S (g :: u :: C) M2).
Proof. lift ustep_capturemark_bal. Qed.

Lemma rs_capturemark_bal_pop pc0 t x T S C M u s2 l2 M1 w2 :
  code_at p pc0 = Some Capturemark -> code_at p (pc0 + 1) = Some (-1) -> code_at p (pc0 + 2) = Some u ->
  u <> -1 -> code_at p (pc0 + 3) = Some w2 ->
  vm_is_matched u M = Some true -> vm_match_index u M = Some s2 -> vm_match_length u M = Some l2 ->
  balance_match u M = Some M1 ->
  rsteps (mkr pc0 0 t T (x :: S) C M) (mkr (pc0 + 3) 0 t (pc0 :: x :: T) S (u :: C) M1).
Proof. lift ustep_capturemark_bal_pop. Qed.

Lemma rs_capturemark_bal_back pc0 t x np T S g u C M2 M1 M w3 :
  code_at p pc0 = Some Capturemark -> code_at p (pc0 + 1) = Some g -> code_at p (pc0 + 2) = Some u ->
  u <> -1 -> g <> -1 -> code_at p (Z.abs np) = Some w3 ->
  remove_match g M2 = Some M1 -> remove_match u M1 = Some M ->
  rsteps (mkr pc0 BackBit t (x :: np :: T) S (g :: u :: C) M2) (bkr np t T (x :: S) C M).
Proof. lift ustep_capturemark_bal_back. Qed.

Lemma rs_capturemark_bal_pop_back pc0 t x np T S u C M1 M w3 :
  code_at p pc0 = Some Capturemark -> code_at p (pc0 + 1) = Some (-1) -> code_at p (pc0 + 2) = Some u ->
  code_at p (Z.abs np) = Some w3 -> remove_match u M1 = Some M ->
  rsteps (mkr pc0 BackBit t (x :: np :: T) S (u :: C) M1) (bkr np t T (x :: S) C M).
Proof. lift ustep_capturemark_bal_pop_back. Qed.

End OpsBal.

(* Reading the interpreter's capture arrays through [caps_rel]: isMatched / matchIndex /
   matchLength agree with the reference semantics' capture table (no balancing groups: every
   recorded length is >= 0). *)
From Verif Require Import Base.Prelude Model.Tree Model.Spec Model.VM Model.Writer
  Proofs.SpecProofs Proofs.SpecBoundsProofs Proofs.VMU Proofs.VMUOps Proofs.VMUOps2 Proofs.VMUOps6
  Proofs.CompileBase Proofs.CompileDefs.
From Coq Require Import ZifyBool.

Lemma cf_znth_last2 (x : list Z) i len :
  znth (x ++ [i; len]) (zlen (x ++ [i; len]) - 1) = Some len /\
  znth (x ++ [i; len]) (zlen (x ++ [i; len]) - 2) = Some i.
Proof.
  rewrite zlen_app. change (zlen [i; len]) with 2. pose proof (zlen_nonneg x) as Hx. unfold znth.
  replace (zlen x + 2 - 1 <? 0) with false by lia. replace (zlen x + 2 - 2 <? 0) with false by lia.
  unfold zlen in *. split.
  - rewrite nth_error_app2 by lia. replace (Z.to_nat (Z.of_nat (length x) + 2 - 1) - length x)%nat with 1%nat by lia. reflexivity.
  - rewrite nth_error_app2 by lia. replace (Z.to_nat (Z.of_nat (length x) + 2 - 2) - length x)%nat with 0%nat by lia. reflexivity.
Qed.

Section CF.
Variable e : env.
Variable p : program.

Lemma cf_matched c M g : caps_rel p c M -> 0 <= g < capsize p -> sb_caps_ok e c ->
  vm_is_matched g M = Some (is_matched g c).
Proof.
  intros [Hl Hc] Hg Hok. unfold vm_is_matched, is_matched, mc_get.
  replace (g <? 0) with false by lia. rewrite (cc_znth_nth M g []) by lia. rewrite Hc by exact Hg.
  pose proof (sb_caps_ok_get e g c Hok) as F.
  destruct (cap_get g c) as [|[i len] rest]; [reflexivity|].
  cbn [rev]. rewrite cc_flat_app. cbn [flat].
  destruct (cf_znth_last2 (flat (rev rest)) i len) as [H1 _]. rewrite H1.
  rewrite zlen_app. change (zlen [i; len]) with 2. pose proof (zlen_nonneg (flat (rev rest))).
  replace (zlen (flat (rev rest)) + 2 =? 0) with false by lia.
  inversion F as [|? ? Hiv _]; subst. destruct Hiv as (_ & Hlen & _). cbn [snd] in Hlen.
  replace (len =? -2) with false by lia. reflexivity.
Qed.

Lemma cf_index_length c M g i len rest : caps_rel p c M -> 0 <= g < capsize p -> sb_caps_ok e c ->
  cap_get g c = (i, len) :: rest ->
  vm_match_index g M = Some i /\ vm_match_length g M = Some len /\ 0 <= i /\ 0 <= len /\ i + len <= tlen e.
Proof.
  intros [Hl Hc] Hg Hok Hget. unfold vm_match_index, vm_match_length, mc_get.
  rewrite (cc_znth_nth M g []) by lia. rewrite Hc by exact Hg.
  pose proof (sb_caps_ok_get e g c Hok) as F. rewrite Hget in *.
  cbn [rev]. rewrite cc_flat_app. cbn [flat].
  destruct (cf_znth_last2 (flat (rev rest)) i len) as [H1 H2]. rewrite H1, H2.
  inversion F as [|? ? Hiv _]; subst. destruct Hiv as (Hi & Hlen & Hsum). cbn [fst snd] in *.
  replace (0 <=? i) with true by lia. replace (0 <=? len) with true by lia.
  repeat split; try reflexivity; lia.
Qed.

Lemma cc_caps_rel_init : 0 <= capsize p -> caps_rel p [] (repeat [] (Z.to_nat (capsize p))).
Proof.
  intros H. split.
  - unfold zlen. rewrite repeat_length. lia.
  - intros g Hg. cbn [cap_get rev flat]. apply nth_repeat.
Qed.

Lemma caps_rel_view : caps_view e p (caps_rel p).
Proof.
  constructor.
  - intros c M [Hl _]. exact Hl.
  - exact cc_caps_rel_init.
  - intros c M g iv H Hg _ _. apply cc_caps_rel_push; assumption.
  - exact cf_matched.
  - exact cf_index_length.
Qed.

End CF.

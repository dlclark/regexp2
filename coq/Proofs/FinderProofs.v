(* C03: the optimized candidate finders of runner.go (Model/Finder.v) satisfy hypothesis (H1) of the
   scan-loop theorem (Proofs/ScanProofs.v), each from the compile-time fact it relies on.

   Vocabulary (Section FinderSound): [exec] is one run of the matcher as in Model/Scan.v,
   [fd_succeeds exec q] = the run at q produces a match.  A FACT is a statement about the positions
   where the matcher succeeds (what the analysis publishes: "the text at q starts with P", "the text
   at q+d is in S", ...); a finder F is SOUND ([fd_sound]) when at every position p of the text it
   answers Ok (found, q) with p <= q <= n, no successful attempt in [p, q), and - when it gives up -
   no successful attempt anywhere in [p, n].  [fd_sound_H1]: a sound finder (made total by
   [fd_total]) satisfies sc_H1_true and sc_H1_false for the left-to-right scan. *)
From Verif Require Import Base.Prelude Model.Scan Model.Finder Proofs.ScanProofs.
From Verif Require Import Proofs.ListFacts.
From Coq Require Import ZifyBool.

Lemma fd_nth_cons_pos : forall (c : Z) l i, 0 < i -> nth (Z.to_nat i) (c :: l) 0 = nth (Z.to_nat (i - 1)) l 0.
Proof.
  intros c l i Hi. replace (Z.to_nat i) with (S (Z.to_nat (i - 1))) by lia. reflexivity.
Qed.

Lemma fd_zlen_skipn : forall (l : list Z) s, 0 <= s <= zlen l -> zlen (skipn (Z.to_nat s) l) = zlen l - s.
Proof. intros l s Hs. unfold zlen in *. rewrite skipn_length. lia. Qed.

Lemma fd_nth_skipn_Z : forall (l : list Z) s i, 0 <= s -> 0 <= i ->
  nth (Z.to_nat i) (skipn (Z.to_nat s) l) 0 = nth (Z.to_nat (s + i)) l 0.
Proof. intros l s i Hs Hi. rewrite nth_skipn. f_equal. lia. Qed.

Lemma fd_skipn_skipn_Z : forall (l : list Z) s i, 0 <= s -> 0 <= i ->
  skipn (Z.to_nat i) (skipn (Z.to_nat s) l) = skipn (Z.to_nat (s + i)) l.
Proof. intros l s i Hs Hi. rewrite skipn_skipn. f_equal. lia. Qed.

Lemma fd_skipn_all : forall (l : list Z), skipn (Z.to_nat (zlen l)) l = [].
Proof. intros l. unfold zlen. rewrite Nat2Z.id. apply skipn_all. Qed.

Lemma fd_zlen_firstn : forall (l : list Z) k, 0 <= k <= zlen l -> zlen (firstn (Z.to_nat k) l) = k.
Proof. intros l k Hk. unfold zlen in *. rewrite firstn_length. lia. Qed.

(* ====================================================================================
   helpers/indexof.go
   ==================================================================================== *)

Lemma fd_index_where_range : forall f l, -1 <= fd_index_where f l < zlen l.
Proof.
  intros f l. induction l as [|c l IH]; cbn [fd_index_where].
  - unfold zlen. cbn. lia.
  - rewrite zlen_cons. destruct (f c); [pose proof (zlen_nonneg l); lia|].
    destruct (fd_index_where f l <? 0) eqn:E; lia.
Qed.

Lemma fd_index_where_none : forall f l, fd_index_where f l < 0 ->
  forall i, 0 <= i < zlen l -> f (nth (Z.to_nat i) l 0) = false.
Proof.
  intros f l. induction l as [|c l IH]; intros H i Hi.
  - unfold zlen in Hi. cbn in Hi. lia.
  - cbn [fd_index_where] in H. rewrite zlen_cons in Hi.
    destruct (f c) eqn:Ec; [lia|].
    destruct (fd_index_where f l <? 0) eqn:E; [|pose proof (fd_index_where_range f l); lia].
    assert (Hc : i = 0 \/ 0 < i) by lia. destruct Hc as [->|Hc]; [exact Ec|].
    rewrite fd_nth_cons_pos by exact Hc. apply IH; lia.
Qed.

Lemma fd_index_where_some : forall f l, 0 <= fd_index_where f l ->
  f (nth (Z.to_nat (fd_index_where f l)) l 0) = true /\
  forall i, 0 <= i < fd_index_where f l -> f (nth (Z.to_nat i) l 0) = false.
Proof.
  intros f l. induction l as [|c l IH]; intros H.
  - cbn in H. lia.
  - cbn [fd_index_where] in *. destruct (f c) eqn:Ec.
    + split; [exact Ec | intros; lia].
    + destruct (fd_index_where f l <? 0) eqn:E; [lia|].
      destruct IH as [IH1 IH2]; [lia|]. split.
      * rewrite fd_nth_cons_pos by lia. replace (fd_index_where f l + 1 - 1) with (fd_index_where f l) by lia.
        exact IH1.
      * intros i Hi. assert (Hc : i = 0 \/ 0 < i) by lia. destruct Hc as [->|Hc]; [exact Ec|].
        rewrite fd_nth_cons_pos by exact Hc. apply IH2. lia.
Qed.

Lemma fd_index_where_ext : forall f g l, (forall c, f c = g c) -> fd_index_where f l = fd_index_where g l.
Proof.
  intros f g l H. induction l as [|c l IH]; [reflexivity|].
  cbn [fd_index_where]. rewrite H, IH. reflexivity.
Qed.

Lemma fd_index_where_false : forall l, fd_index_where (fun _ => false) l = -1.
Proof. induction l as [|c l IH]; [reflexivity|]. cbn [fd_index_where]. rewrite IH. reflexivity. Qed.

(* indexOfAnyRunes: whatever the arity, the first rune that is a member of [find] *)
Lemma fd_index_of_any_runes_eq : forall l find,
  fd_index_of_any_runes l find = fd_index_where (fun c => zmem c find) l.
Proof.
  intros l find. unfold fd_index_of_any_runes.
  destruct find as [|a [|b [|d [|e find]]]].
  - symmetry. apply fd_index_where_false.
  - unfold fd_index_of_any1. apply fd_index_where_ext. intros c. cbn. rewrite orb_false_r. reflexivity.
  - unfold fd_index_of_any2. apply fd_index_where_ext. intros c. cbn. rewrite orb_false_r. reflexivity.
  - unfold fd_index_of_any3. apply fd_index_where_ext. intros c. cbn. rewrite orb_false_r, orb_assoc. reflexivity.
  - reflexivity.
Qed.

Lemma fd_prefix_match_short : forall eqc find l, zlen l < zlen find -> fd_prefix_match eqc find l = false.
Proof.
  intros eqc find. induction find as [|c find IH]; intros l H.
  - pose proof (zlen_nonneg l). unfold zlen in *. cbn in *. lia.
  - destruct l as [|x l]; [reflexivity|]. cbn [fd_prefix_match]. rewrite !zlen_cons in H.
    rewrite IH by lia. apply andb_false_r.
Qed.

Lemma fd_prefix_match_true : forall eqc find l, fd_prefix_match eqc find l = true ->
  zlen find <= zlen l /\
  forall j, 0 <= j < zlen find -> eqc (nth (Z.to_nat j) l 0) (nth (Z.to_nat j) find 0) = true.
Proof.
  intros eqc find. induction find as [|c find IH]; intros l H.
  - split; [pose proof (zlen_nonneg l); unfold zlen in *; cbn; lia|].
    intros j Hj. unfold zlen in Hj. cbn in Hj. lia.
  - destruct l as [|x l]; [discriminate|]. cbn [fd_prefix_match] in H.
    apply andb_prop in H. destruct H as [H1 H2]. destruct (IH l H2) as [IHa IHb].
    rewrite !zlen_cons. split; [lia|].
    intros j Hj. assert (Hc : j = 0 \/ 0 < j) by lia. destruct Hc as [->|Hc]; [exact H1|].
    rewrite !fd_nth_cons_pos by exact Hc. apply IHb. lia.
Qed.

Lemma fd_prefix_match_intro : forall eqc find l, zlen find <= zlen l ->
  (forall j, 0 <= j < zlen find -> eqc (nth (Z.to_nat j) l 0) (nth (Z.to_nat j) find 0) = true) ->
  fd_prefix_match eqc find l = true.
Proof.
  intros eqc find. induction find as [|c find IH]; intros l Hlen H; [reflexivity|].
  destruct l as [|x l]; [rewrite zlen_cons, zlen_nil in Hlen; pose proof (zlen_nonneg find); lia|].
  cbn [fd_prefix_match]. rewrite !zlen_cons in *. apply andb_true_intro. split.
  - apply (H 0). pose proof (zlen_nonneg find). lia.
  - apply IH; [lia|]. intros j Hj. specialize (H (j + 1)).
    rewrite !fd_nth_cons_pos in H by lia. replace (j + 1 - 1) with j in H by lia. apply H. lia.
Qed.

Lemma fd_index_of_gen_range : forall eqc find l, -1 <= fd_index_of_gen eqc find l < zlen l.
Proof.
  intros eqc find l. induction l as [|c l IH]; cbn [fd_index_of_gen].
  - unfold zlen. cbn. lia.
  - rewrite zlen_cons. destruct (fd_prefix_match eqc find (c :: l)); [pose proof (zlen_nonneg l); lia|].
    destruct (fd_index_of_gen eqc find l <? 0) eqn:E; lia.
Qed.

Lemma fd_index_of_gen_none : forall eqc find l, fd_index_of_gen eqc find l < 0 ->
  forall i, 0 <= i < zlen l -> fd_prefix_match eqc find (skipn (Z.to_nat i) l) = false.
Proof.
  intros eqc find l. induction l as [|c l IH]; intros H i Hi.
  - unfold zlen in Hi. cbn in Hi. lia.
  - cbn [fd_index_of_gen] in H. rewrite zlen_cons in Hi.
    destruct (fd_prefix_match eqc find (c :: l)) eqn:Ec; [lia|].
    destruct (fd_index_of_gen eqc find l <? 0) eqn:E; [|pose proof (fd_index_of_gen_range eqc find l); lia].
    assert (Hc : i = 0 \/ 0 < i) by lia. destruct Hc as [->|Hc]; [exact Ec|].
    replace (Z.to_nat i) with (S (Z.to_nat (i - 1))) by lia. cbn [skipn]. apply IH; lia.
Qed.

Lemma fd_index_of_gen_some : forall eqc find l, 0 <= fd_index_of_gen eqc find l ->
  fd_prefix_match eqc find (skipn (Z.to_nat (fd_index_of_gen eqc find l)) l) = true /\
  forall i, 0 <= i < fd_index_of_gen eqc find l -> fd_prefix_match eqc find (skipn (Z.to_nat i) l) = false.
Proof.
  intros eqc find l. induction l as [|c l IH]; intros H.
  - cbn in H. lia.
  - cbn [fd_index_of_gen] in *. destruct (fd_prefix_match eqc find (c :: l)) eqn:Ec.
    + split; [exact Ec | intros; lia].
    + destruct (fd_index_of_gen eqc find l <? 0) eqn:E; [lia|].
      destruct IH as [IH1 IH2]; [lia|]. split.
      * replace (Z.to_nat (fd_index_of_gen eqc find l + 1)) with (S (Z.to_nat (fd_index_of_gen eqc find l))) by lia.
        exact IH1.
      * intros i Hi. assert (Hc : i = 0 \/ 0 < i) by lia. destruct Hc as [->|Hc]; [exact Ec|].
        replace (Z.to_nat i) with (S (Z.to_nat (i - 1))) by lia. cbn [skipn]. apply IH2. lia.
Qed.

(* ====================================================================================
   soundness of a finder; link to (H1)
   ==================================================================================== *)
Section FinderSound.
Variable R : Type.
Variable text : list Z.
Variable exec : Z -> option R * Z.

Local Notation n := (zlen text).

Definition fd_succeeds (q : Z) : Prop := fst (exec q) <> None.

Lemma fd_fails_dec : forall x, sc_fails R exec x \/ fd_succeeds x.
Proof. intros x. unfold sc_fails, fd_succeeds. destruct (fst (exec x)); [right; discriminate | left; reflexivity]. Qed.

Lemma fd_not_succeeds_fails : forall x, (fd_succeeds x -> False) -> sc_fails R exec x.
Proof. intros x H. destruct (fd_fails_dec x) as [F|S]; [exact F | contradiction]. Qed.

Definition fd_ok_at (p : Z) (r : res (bool * Z)) : Prop :=
  exists found q, r = Ok (found, q) /\ p <= q <= n /\
    (forall x, p <= x -> x < q -> sc_fails R exec x) /\
    (found = false -> forall x, p <= x <= n -> sc_fails R exec x).

Definition fd_sound (F : Z -> res (bool * Z)) : Prop :=
  forall p, 0 <= p <= n -> fd_ok_at p (F p).

Theorem fd_sound_H1 : forall F, fd_sound F ->
  sc_H1_true R n false (fd_total F) exec /\ sc_H1_false R n false (fd_total F) exec.
Proof.
  intros F HF. split; intros p q Hp Hf; unfold sc_in_text in Hp;
    destruct (HF p Hp) as (found & q' & Hr & Hq & Hskip & Hgive);
    unfold fd_total in Hf; rewrite Hr in Hf; inversion Hf; subst found q';
    unfold sc_ord, sc_before, sc_in_text; (split; [lia|split; [lia|]]).
  - intros x Hx1 Hx2. apply Hskip; lia.
  - intros x Hx1 Hx2. apply (Hgive eq_refl). lia.
Qed.

(* the finder that gave up at the far end, and the finder that found q *)
Lemma fd_ok_far : forall p, 0 <= p <= n ->
  (forall x, p <= x <= n -> fd_succeeds x -> False) -> fd_ok_at p (Ok (false, zlen text)).
Proof.
  intros p Hp H. exists false, (zlen text). split; [reflexivity|]. split; [lia|]. split.
  - intros x Hx1 Hx2. apply fd_not_succeeds_fails. apply H. lia.
  - intros _ x Hx. apply fd_not_succeeds_fails. apply H. exact Hx.
Qed.

Lemma fd_ok_found : forall p q, p <= q <= n ->
  (forall x, p <= x -> x < q -> fd_succeeds x -> False) -> fd_ok_at p (Ok (true, q)).
Proof.
  intros p q Hq H. exists true, q. split; [reflexivity|]. split; [exact Hq|]. split.
  - intros x Hx1 Hx2. apply fd_not_succeeds_fails. apply H; assumption.
  - discriminate.
Qed.

(* MinRequiredLength: a successful attempt needs that many runes ahead (C04_min_len_sound) *)
Definition fd_minlen_fact (minreq : Z) : Prop :=
  forall q, 0 <= q <= n -> fd_succeeds q -> minreq <= n - q.

Lemma fd_minlen_latest : forall minreq q, fd_minlen_fact minreq -> 0 <= q <= n -> fd_succeeds q ->
  q <= fd_latest_possible_start text minreq.
Proof.
  intros minreq q Hm Hq Hs. specialize (Hm q Hq Hs). unfold fd_latest_possible_start, fd_n.
  destruct (minreq <=? 0) eqn:E; lia.
Qed.

Lemma fd_latest_le_n : forall minreq, fd_latest_possible_start text minreq <= n.
Proof. intros minreq. unfold fd_latest_possible_start, fd_n. destruct (minreq <=? 0) eqn:E; lia. Qed.

(* TrailingAnchor_FixedLength_LeftToRight_End: every match starts exactly L runes before the end
   (C04_trailing_fixed_length_sound) *)
Definition fd_trailing_end_fact (L : Z) : Prop :=
  forall q, 0 <= q <= n -> fd_succeeds q -> q = n - L.

(* LeadingString: the text at a successful attempt starts with the prefix, runes compared by [eqc] *)
Definition fd_prefix_fact (eqc : Z -> Z -> bool) (P : list Z) : Prop :=
  forall q, 0 <= q <= n -> fd_succeeds q -> fd_prefix_match eqc P (skipn (Z.to_nat q) text) = true.

(* LeadingStrings: ... starts with one of the prefixes *)
Definition fd_prefixes_fact (eqc : Z -> Z -> bool) (Ps : list (list Z)) : Prop :=
  forall q, 0 <= q <= n -> fd_succeeds q ->
    exists P, In P Ps /\ fd_prefix_match eqc P (skipn (Z.to_nat q) text) = true.

(* FixedDistanceChar: the rune d positions after a successful attempt is ch *)
Definition fd_fdchar_fact (ch d : Z) : Prop :=
  forall q, 0 <= q <= n -> fd_succeeds q -> q + d < n /\ nth (Z.to_nat (q + d)) text 0 = ch.

(* FixedDistanceString: the literal stands d positions after a successful attempt *)
Definition fd_fdstring_fact (lit : list Z) (d : Z) : Prop :=
  forall q, 0 <= q <= n -> fd_succeeds q ->
    fd_prefix_match fd_eq_exact lit (skipn (Z.to_nat (q + d)) text) = true.

(* FixedDistanceSets / LeadingSet: for every published set, the rune at its distance is in it
   (membership as charInFixedDistanceSet computes it: Chars, else Range, else Set) *)
Definition fd_fds_fact (set_in : Z -> Z -> bool) (sets : list fdset) : Prop :=
  forall q, 0 <= q <= n -> fd_succeeds q -> forall s, In s sets ->
    0 <= q + fs_distance s < n /\ fd_char_in_fds set_in s (nth (Z.to_nat (q + fs_distance s)) text 0) = true.

Lemma fd_slice_from_ok : forall i, 0 <= i <= n -> fd_slice_from text i = Ok (skipn (Z.to_nat i) text).
Proof.
  intros i Hi. unfold fd_slice_from, fd_n.
  destruct ((i <? 0) || (n <? i)) eqn:E; [lia | reflexivity].
Qed.

Lemma fd_rune_at_ok : forall i, 0 <= i < n -> fd_rune_at text i = Ok (nth (Z.to_nat i) text 0).
Proof.
  intros i Hi. unfold fd_rune_at, znth. destruct (i <? 0) eqn:E; [lia|].
  destruct (nth_error text (Z.to_nat i)) as [c|] eqn:En.
  - rewrite (nth_error_nth _ _ _ En). reflexivity.
  - apply nth_error_None in En. unfold zlen in Hi. lia.
Qed.

(* ====================================================================================
   findTrailingFixedLengthEnd
   ==================================================================================== *)
Theorem fd_trailing_end_sound : forall L, 0 <= L ->
  fd_trailing_end_fact L -> fd_sound (fun p => fd_find_trailing_fixed_length_end text p L).
Proof.
  intros L HL HF p Hp. unfold fd_find_trailing_fixed_length_end, fd_far, fd_n.
  destruct ((n - L <? p) || (n - L <? 0)) eqn:E.
  - apply fd_ok_far; [exact Hp|]. intros x Hx Hs. specialize (HF x ltac:(lia) Hs). lia.
  - apply fd_ok_found; [lia|]. intros x Hx1 Hx2 Hs. specialize (HF x ltac:(lia) Hs). lia.
Qed.

(* ====================================================================================
   findLeadingStringLeftToRight
   ==================================================================================== *)
Variable lower : Z -> Z.
Variable minreq : Z.
Hypothesis Hmin : fd_minlen_fact minreq.

(* how the finder compares a rune of the text with a rune of the prefix *)
Definition fd_leading_eqc (ignore_case : bool) (P : list Z) : Z -> Z -> bool :=
  if ignore_case then (if fd_is_ascii_runes P then fd_eq_fold_ascii else fd_eq_lower lower) else fd_eq_exact.

Lemma fd_leading_index : forall (ic : bool) (P l : list Z), P <> [] ->
  @eq (res Z)
    (if ic return res Z then
       (if fd_is_ascii_runes P return res Z then fd_index_of_ic_ascii l P else fd_index_of_ic lower l P)
     else fd_index_of l P)
    (Ok (fd_index_of_gen (fd_leading_eqc ic P) P l)).
Proof.
  intros ic P l HP. unfold fd_leading_eqc, fd_index_of_ic_ascii, fd_index_of_ic, fd_index_of.
  destruct P as [|c P]; [contradiction|]. destruct ic; [destruct (fd_is_ascii_runes (c :: P))|]; reflexivity.
Qed.

Theorem fd_leading_string_sound : forall P ic,
  fd_prefix_fact (fd_leading_eqc ic P) P ->
  fd_sound (fun p => fd_find_leading_string text lower minreq p P ic).
Proof.
  intros P ic HF p Hp. unfold fd_find_leading_string.
  destruct P as [|c0 P0] eqn:EP.
  { apply fd_ok_found; [lia|]. intros x Hx1 Hx2. lia. }
  rewrite <- EP in *. assert (HP : P <> []) by (rewrite EP; discriminate).
  rewrite (fd_slice_from_ok p Hp). cbn [bind].
  rewrite (fd_leading_index ic P _ HP). cbn [bind].
  set (eqc := fd_leading_eqc ic P) in *.
  set (sl := skipn (Z.to_nat p) text).
  assert (Hlen : zlen sl = n - p) by (apply fd_zlen_skipn; exact Hp).
  pose proof (fd_index_of_gen_range eqc P sl) as Hrange.
  (* no occurrence at x means no success at x *)
  assert (Hno : forall x, p <= x <= n ->
            fd_prefix_match eqc P (skipn (Z.to_nat (x - p)) sl) = false -> fd_succeeds x -> False).
  { intros x Hx Hm Hs. specialize (HF x ltac:(lia) Hs). unfold sl in Hm.
    rewrite fd_skipn_skipn_Z in Hm by lia. replace (p + (x - p)) with x in Hm by lia. congruence. }
  assert (Hend : fd_succeeds n -> False).
  { intros Hs. pose proof (zlen_nonneg text). specialize (HF n ltac:(lia) Hs).
    rewrite fd_skipn_all in HF. rewrite EP in HF. discriminate. }
  destruct (fd_index_of_gen eqc P sl <? 0) eqn:Eoff.
  - apply fd_ok_far; [exact Hp|]. intros x Hx Hs.
    assert (Hc : x = n \/ x < n) by lia. destruct Hc as [->|Hc]; [exact (Hend Hs)|].
    apply (Hno x Hx); [|exact Hs]. apply fd_index_of_gen_none; lia.
  - destruct (fd_index_of_gen_some eqc P sl ltac:(lia)) as [Hhit Hbefore].
    set (off := fd_index_of_gen eqc P sl) in *.
    assert (Hskip : forall x, p <= x -> x < p + off -> fd_succeeds x -> False).
    { intros x Hx1 Hx2 Hs. apply (Hno x ltac:(lia)); [|exact Hs]. apply Hbefore. lia. }
    destruct (negb (fd_has_required_length_at text minreq (p + off))) eqn:Ereq.
    + apply fd_ok_far; [exact Hp|]. intros x Hx Hs.
      assert (Hc : x < p + off \/ p + off <= x) by lia. destruct Hc as [Hc|Hc]; [exact (Hskip x ltac:(lia) Hc Hs)|].
      pose proof (fd_minlen_latest minreq x Hmin ltac:(lia) Hs) as Hl.
      unfold fd_has_required_length_at in Ereq. lia.
    + apply fd_ok_found; [lia | exact Hskip].
Qed.

(* ====================================================================================
   findFixedDistanceCharLeftToRight
   ==================================================================================== *)
Lemma fd_has_req_unfold : forall start,
  fd_has_required_length_at text minreq start = (0 <=? start) && (start <=? fd_latest_possible_start text minreq).
Proof. reflexivity. Qed.

(* ---- one turn of a fixed-distance search --------------------------------------------------
   The three fixed-distance finders share a loop: from [s] on, the index function finds the next
   position j where a test [hit] holds, and j - d is the candidate start.  The fact behind each says
   that [hit] holds d positions after every successful attempt.  [fd_first_hit hit s off]: [off] is
   what the index function answers on the slice from [s]. *)
Definition fd_first_hit (hit : Z -> bool) (s off : Z) : Prop :=
  (off < 0 -> forall j, s <= j < n -> hit j = false) /\
  (0 <= off -> s + off < n /\ hit (s + off) = true /\ forall j, s <= j < s + off -> hit j = false).

Lemma fd_index_where_first_hit : forall test s, 0 <= s <= n ->
  fd_first_hit (fun j => test (nth (Z.to_nat j) text 0)) s (fd_index_where test (skipn (Z.to_nat s) text)).
Proof.
  intros test s Hs. set (sl := skipn (Z.to_nat s) text).
  assert (Hlen : zlen sl = n - s) by (apply fd_zlen_skipn; lia).
  assert (Hnth : forall j, s <= j -> nth (Z.to_nat j) text 0 = nth (Z.to_nat (j - s)) sl 0).
  { intros j Hj. unfold sl. rewrite fd_nth_skipn_Z by lia. f_equal. lia. }
  pose proof (fd_index_where_range test sl) as Hrange. split; intros Hoff.
  - intros j Hj. rewrite Hnth by lia. apply fd_index_where_none; lia.
  - destruct (fd_index_where_some test sl Hoff) as [Hhit Hbefore]. split; [lia|]. split.
    + rewrite Hnth by lia. rewrite <- Hhit. do 2 f_equal. lia.
    + intros j Hj. rewrite Hnth by lia. apply Hbefore. lia.
Qed.

Lemma fd_index_of_gen_first_hit : forall eqc lit s, 0 <= s <= n ->
  fd_first_hit (fun j => fd_prefix_match eqc lit (skipn (Z.to_nat j) text)) s
               (fd_index_of_gen eqc lit (skipn (Z.to_nat s) text)).
Proof.
  intros eqc lit s Hs. set (sl := skipn (Z.to_nat s) text).
  assert (Hlen : zlen sl = n - s) by (apply fd_zlen_skipn; lia).
  assert (Hsk : forall j, s <= j -> skipn (Z.to_nat j) text = skipn (Z.to_nat (j - s)) sl).
  { intros j Hj. unfold sl. rewrite fd_skipn_skipn_Z by lia. f_equal. lia. }
  pose proof (fd_index_of_gen_range eqc lit sl) as Hrange. split; intros Hoff.
  - intros j Hj. rewrite Hsk by lia. apply fd_index_of_gen_none; lia.
  - destruct (fd_index_of_gen_some eqc lit sl Hoff) as [Hhit Hbefore]. split; [lia|]. split.
    + rewrite Hsk by lia. rewrite <- Hhit. do 2 f_equal. lia.
    + intros j Hj. rewrite Hsk by lia. apply Hbefore. lia.
Qed.

(* the loop's invariant: no successful attempt from p on has its hit before s *)
Definition fd_clear_to (d p s : Z) : Prop :=
  forall q, p <= q <= n -> q + d < s -> fd_succeeds q -> False.

Definition fd_hit_fact (hit : Z -> bool) (d lim : Z) : Prop :=
  lim <= n /\ forall q, 0 <= q <= n -> fd_succeeds q -> q + d < lim /\ hit (q + d) = true.

Lemma fd_search_end : forall hit d lim p s, fd_hit_fact hit d lim -> 0 <= p <= n ->
  fd_clear_to d p s -> lim <= s -> fd_ok_at p (Ok (false, n)).
Proof.
  intros hit d lim p s [Hlim Hfact] Hp Hinv Hs. apply fd_ok_far; [exact Hp|]. intros x Hx Hsx.
  destruct (Hfact x ltac:(lia) Hsx) as [H1 _]. apply (Hinv x); [exact Hx | lia | exact Hsx].
Qed.

Lemma fd_search_turn : forall hit d lim p s off, fd_hit_fact hit d lim -> 0 <= p <= n ->
  fd_clear_to d p s -> fd_first_hit hit s off ->
  (off < 0 -> fd_ok_at p (Ok (false, n))) /\ (0 <= off -> fd_clear_to d p (s + off)).
Proof.
  intros hit d lim p s off HF Hp Hinv [Hnone Hsome].
  assert (Hcl : forall s', (forall j, s <= j < s' -> j < n -> hit j = false) -> fd_clear_to d p s').
  { intros s' Hno q Hq Hlt Hsq. destruct HF as [Hlim Hfact]. destruct (Hfact q ltac:(lia) Hsq) as [H1 H2].
    assert (Hc : q + d < s \/ s <= q + d) by lia. destruct Hc as [Hc|Hc]; [exact (Hinv q Hq Hc Hsq)|].
    rewrite Hno in H2 by lia. discriminate. }
  split; intros Hoff.
  - apply (fd_search_end hit d lim p n HF Hp); [|exact (proj1 HF)].
    apply Hcl. intros j Hj Hjn. apply (Hnone Hoff). lia.
  - apply Hcl. intros j Hj _. apply (Hsome Hoff). exact Hj.
Qed.

Lemma fd_search_beyond_latest : forall d p s, 0 <= p <= n ->
  fd_clear_to d p s -> fd_latest_possible_start text minreq < s - d -> fd_ok_at p (Ok (false, n)).
Proof.
  intros d p s Hp Hinv Hlate. apply fd_ok_far; [exact Hp|]. intros x Hx Hsx.
  assert (Hc : x + d < s \/ s <= x + d) by lia. destruct Hc as [Hc|Hc]; [exact (Hinv x Hx Hc Hsx)|].
  pose proof (fd_minlen_latest minreq x Hmin ltac:(lia) Hsx). lia.
Qed.

Lemma fd_search_found : forall d p s, fd_clear_to d p s -> p <= s - d <= n -> fd_ok_at p (Ok (true, s - d)).
Proof.
  intros d p s Hinv Hs. apply fd_ok_found; [exact Hs|]. intros x Hx1 Hx2 Hsx.
  apply (Hinv x); [lia | lia | exact Hsx].
Qed.

Lemma fd_fdchar_loop_ok : forall ch d, 0 <= d -> fd_fdchar_fact ch d ->
  forall fuel p s, 0 <= p <= n -> p + d <= s -> (Z.to_nat (n - s) < fuel)%nat ->
  (forall q, p <= q <= n -> q + d < s -> fd_succeeds q -> False) ->
  fd_ok_at p (fd_fdchar_loop text minreq fuel p ch d s).
Proof.
  intros ch d Hd HF. induction fuel as [|f IH]; intros p s Hp Hs Hfuel Hinv; [lia|].
  cbn [fd_fdchar_loop]. unfold fd_far, fd_n.
  assert (HF' : fd_hit_fact (fun j => nth (Z.to_nat j) text 0 =? ch) d n).
  { split; [lia|]. intros q Hq Hsq. destruct (HF q Hq Hsq) as [H1 H2]. split; [exact H1 | lia]. }
  destruct (negb (s <? n)) eqn:Es; [apply (fd_search_end _ d n p s HF' Hp Hinv); lia|].
  rewrite (fd_slice_from_ok s) by lia. cbn [bind]. unfold fd_index_of_any1. cbv zeta.
  pose proof (fd_index_where_first_hit (fun c => c =? ch) s ltac:(lia)) as Hhit.
  set (off := fd_index_where _ _) in *.
  destruct (fd_search_turn _ d n p s off HF' Hp Hinv Hhit) as [Hnone Hskip].
  destruct (off <? 0) eqn:Eoff; [apply Hnone; lia|].
  specialize (Hskip ltac:(lia)). destruct (proj2 Hhit ltac:(lia)) as (Hlt & _).
  rewrite fd_has_req_unfold. pose proof (fd_latest_le_n minreq) as Hlat.
  destruct ((p <=? s + off - d) && ((0 <=? s + off - d) && (s + off - d <=? fd_latest_possible_start text minreq))) eqn:E1;
    [apply (fd_search_found d p (s + off) Hskip); lia|].
  (* the candidate is at or after p, so the loop never comes round *)
  destruct (fd_latest_possible_start text minreq <? s + off - d) eqn:E2; [|exfalso; lia].
  apply (fd_search_beyond_latest d p (s + off) Hp Hskip); lia.
Qed.

Theorem fd_fixed_distance_char_sound : forall ch d, 0 <= d -> fd_fdchar_fact ch d ->
  fd_sound (fun p => fd_find_fixed_distance_char text minreq p ch d).
Proof.
  intros ch d Hd HF p Hp. unfold fd_find_fixed_distance_char.
  apply fd_fdchar_loop_ok; try assumption; try lia; try (unfold fd_fuel, zlen in *; lia).
Qed.

(* ====================================================================================
   findFixedDistanceStringLeftToRight
   ==================================================================================== *)
Lemma fd_prefix_match_skipn_bound : forall eqc lit i, lit <> [] -> 0 <= i ->
  fd_prefix_match eqc lit (skipn (Z.to_nat i) text) = true -> i + zlen lit <= n.
Proof.
  intros eqc lit i Hl Hi Hm.
  assert (Hc : i <= n \/ n < i) by lia. destruct Hc as [Hc|Hc].
  - destruct (fd_prefix_match_true _ _ _ Hm) as [H1 _]. rewrite fd_zlen_skipn in H1 by lia. lia.
  - rewrite skipn_all2 in Hm by (unfold zlen in Hc; lia).
    destruct lit; [contradiction | discriminate].
Qed.

Lemma fd_fdstring_loop_ok : forall lit d, lit <> [] -> 0 <= d -> fd_fdstring_fact lit d ->
  forall fuel p s, 0 <= p <= n -> p + d <= s -> (Z.to_nat (n - s) < fuel)%nat ->
  (forall q, p <= q <= n -> q + d < s -> fd_succeeds q -> False) ->
  fd_ok_at p (fd_fdstring_loop text minreq fuel p lit d s).
Proof.
  intros lit d Hlit Hd HF. induction fuel as [|f IH]; intros p s Hp Hs Hfuel Hinv; [lia|].
  cbn [fd_fdstring_loop]. unfold fd_far, fd_n.
  assert (Hl0 : 0 < zlen lit)
    by (destruct lit; [contradiction | rewrite zlen_cons; pose proof (zlen_nonneg lit); lia]).
  assert (HF' : fd_hit_fact (fun j => fd_prefix_match fd_eq_exact lit (skipn (Z.to_nat j) text)) d (n - zlen lit + 1)).
  { split; [lia|]. intros q Hq Hsq. pose proof (HF q Hq Hsq) as H1.
    pose proof (fd_prefix_match_skipn_bound _ lit (q + d) Hlit ltac:(lia) H1). split; [lia | exact H1]. }
  destruct (negb (s <=? n - zlen lit)) eqn:Es; [apply (fd_search_end _ d _ p s HF' Hp Hinv); lia|].
  rewrite (fd_slice_from_ok s) by lia. cbn [bind].
  assert (Hio : forall l, fd_index_of l lit = Ok (fd_index_of_gen fd_eq_exact lit l)).
  { intros l. unfold fd_index_of. destruct lit; [contradiction | reflexivity]. }
  rewrite Hio. cbn [bind]. cbv zeta.
  pose proof (fd_index_of_gen_first_hit fd_eq_exact lit s ltac:(lia)) as Hhit.
  set (off := fd_index_of_gen _ _ _) in *.
  destruct (fd_search_turn _ d _ p s off HF' Hp Hinv Hhit) as [Hnone Hskip].
  destruct (off <? 0) eqn:Eoff; [apply Hnone; lia|].
  specialize (Hskip ltac:(lia)). destruct (proj2 Hhit ltac:(lia)) as (Hlt & _).
  rewrite fd_has_req_unfold. pose proof (fd_latest_le_n minreq) as Hlat.
  destruct ((p <=? s + off - d) && ((0 <=? s + off - d) && (s + off - d <=? fd_latest_possible_start text minreq))) eqn:E1;
    [apply (fd_search_found d p (s + off) Hskip); lia|].
  destruct (fd_latest_possible_start text minreq <? s + off - d) eqn:E2; [|exfalso; lia].
  apply (fd_search_beyond_latest d p (s + off) Hp Hskip); lia.
Qed.

Theorem fd_fixed_distance_string_sound : forall lit d, 0 <= d -> fd_fdstring_fact lit d ->
  fd_sound (fun p => fd_find_fixed_distance_string text minreq p lit d).
Proof.
  intros lit d Hd HF p Hp. unfold fd_find_fixed_distance_string.
  destruct lit as [|c lit0] eqn:El.
  { apply fd_ok_found; [lia|]. intros x Hx1 Hx2. lia. }
  rewrite <- El in *. apply fd_fdstring_loop_ok; try assumption; try lia; try (unfold fd_fuel, zlen in *; lia).
  rewrite El. discriminate.
Qed.

(* ====================================================================================
   findFixedDistanceSetsLeftToRight (also serves LeadingSet_LeftToRight)
   ==================================================================================== *)
Variable set_in : Z -> Z -> bool.

Lemma fd_index_of_set_eq : forall l s,
  fd_index_of_set set_in l s = fd_index_where (fd_char_in_fds set_in s) l.
Proof.
  intros l s. unfold fd_index_of_set, fd_char_in_fds.
  destruct (fs_chars s) as [|c cs] eqn:Ec.
  - destruct (fs_range s) as [[first last]|] eqn:Er.
    + destruct (fs_negated s).
      * unfold fd_index_of_any_except_in_range. apply fd_index_where_ext. intros x.
        destruct ((first <=? x) && (x <=? last)) eqn:E; destruct ((last <? x) || (x <? first)) eqn:E'; cbn [negb]; try reflexivity; lia.
      * reflexivity.
    + unfold fd_index_func. reflexivity.
  - destruct (fs_negated s); cbn [negb]; reflexivity.
Qed.

Lemma fd_sets_match_at_intro : forall sets start,
  (forall s, In s sets -> 0 <= start + fs_distance s < n /\
      fd_char_in_fds set_in s (nth (Z.to_nat (start + fs_distance s)) text 0) = true) ->
  fd_sets_match_at text set_in sets start = true.
Proof.
  induction sets as [|s sets IH]; intros start H; [reflexivity|].
  cbn [fd_sets_match_at]. unfold fd_n. cbv zeta.
  destruct (H s (or_introl eq_refl)) as [H1 H2].
  destruct ((start + fs_distance s <? 0) || (n <=? start + fs_distance s)) eqn:E; [lia|].
  rewrite H2. cbn [negb]. apply IH. intros s' Hs'. apply H. right. exact Hs'.
Qed.

Lemma fd_fdsets_loop_ok : forall sets primary, In primary sets -> 0 <= fs_distance primary ->
  fd_fds_fact set_in sets ->
  forall fuel p s, 0 <= p <= n -> p + fs_distance primary <= s -> (Z.to_nat (n - s) < fuel)%nat ->
  (forall q, p <= q <= n -> q + fs_distance primary < s -> fd_succeeds q -> False) ->
  fd_ok_at p (fd_fdsets_loop text set_in minreq fuel p sets primary s).
Proof.
  intros sets primary Hin Hd HF. set (d := fs_distance primary) in *.
  induction fuel as [|f IH]; intros p s Hp Hs Hfuel Hinv; [lia|].
  cbn [fd_fdsets_loop]. unfold fd_far, fd_n.
  assert (HF' : fd_hit_fact (fun j => fd_char_in_fds set_in primary (nth (Z.to_nat j) text 0)) d n).
  { split; [lia|]. intros q Hq Hsq. destruct (HF q Hq Hsq primary Hin) as [H1 H2]. split; [lia | exact H2]. }
  destruct (negb (s <? n)) eqn:Es; [apply (fd_search_end _ d n p s HF' Hp Hinv); lia|].
  rewrite (fd_slice_from_ok s) by lia. cbn [bind]. rewrite fd_index_of_set_eq. cbv zeta. fold d.
  pose proof (fd_index_where_first_hit (fd_char_in_fds set_in primary) s ltac:(lia)) as Hhit.
  set (off := fd_index_where _ _) in *.
  destruct (fd_search_turn _ d n p s off HF' Hp Hinv Hhit) as [Hnone Hskip].
  destruct (off <? 0) eqn:Eoff; [apply Hnone; lia|].
  specialize (Hskip ltac:(lia)). destruct (proj2 Hhit ltac:(lia)) as (Hlt & _).
  pose proof (fd_latest_le_n minreq) as Hlat.
  destruct (fd_latest_possible_start text minreq <? s + off - d) eqn:E2;
    [apply (fd_search_beyond_latest d p (s + off) Hp Hskip); lia|].
  rewrite fd_has_req_unfold.
  destruct ((p <=? s + off - d) && ((0 <=? s + off - d) && (s + off - d <=? fd_latest_possible_start text minreq))
            && fd_sets_match_at text set_in sets (s + off - d)) eqn:E1;
    [apply (fd_search_found d p (s + off) Hskip); lia|].
  apply IH; [exact Hp | lia | lia |].
  (* a successful attempt at the candidate itself would have passed the test of all sets *)
  intros q Hq Hlt' Hsq.
  assert (Hc : q + d < s + off \/ q + d = s + off) by lia. destruct Hc as [Hc|Hc]; [exact (Hskip q Hq Hc Hsq)|].
  assert (Hqe : q = s + off - d) by lia.
  rewrite (fd_sets_match_at_intro sets (s + off - d)) in E1.
  - lia.
  - intros s0 Hs0. rewrite <- Hqe. exact (HF q ltac:(lia) Hsq s0 Hs0).
Qed.

Theorem fd_fixed_distance_sets_sound : forall sets primary rest id,
  sets = primary :: rest -> fs_set primary = Some id -> 0 <= fs_distance primary ->
  fd_fds_fact set_in sets ->
  fd_sound (fun p => fd_find_fixed_distance_sets text set_in minreq p sets).
Proof.
  intros sets primary rest id Hsets Hset Hd HF p Hp. unfold fd_find_fixed_distance_sets.
  rewrite Hsets, Hset. rewrite <- Hsets.
  apply fd_fdsets_loop_ok; try assumption; try lia; try (unfold fd_fuel, zlen in *; lia).
  rewrite Hsets. left. reflexivity.
Qed.

(* ====================================================================================
   findLeadingStringsLeftToRight
   ==================================================================================== *)
Definition fd_strings_eqc (ignore_case : bool) : Z -> Z -> bool :=
  if ignore_case then fd_eq_lower lower else fd_eq_exact.

(* LeadingPrefixFirstRunes covers the first rune of every prefix *)
Definition fd_first_runes_ok (Ps : list (list Z)) (firsts : list Z) : Prop :=
  forall c rest, In (c :: rest) Ps -> zmem c firsts = true.

Lemma fd_starts_with_ok : forall l P, P <> [] -> fd_starts_with l P = Ok (fd_prefix_match fd_eq_exact P l).
Proof.
  intros l P HP. unfold fd_starts_with. destruct (zlen l <? zlen P) eqn:E.
  - rewrite fd_prefix_match_short by lia. reflexivity.
  - destruct P; [contradiction | reflexivity].
Qed.

Lemma fd_starts_with_ic_eq : forall l P, fd_starts_with_ic lower l P = fd_prefix_match (fd_eq_lower lower) P l.
Proof.
  intros l P. unfold fd_starts_with_ic. destruct (zlen l <? zlen P) eqn:E; [|reflexivity].
  rewrite fd_prefix_match_short by lia. reflexivity.
Qed.

Lemma fd_any_prefix_at_ok : forall ic l Ps, Forall (fun P => P <> []) Ps ->
  exists b, fd_any_prefix_at lower ic l Ps = Ok b /\
    (b = false -> forall P, In P Ps -> fd_prefix_match (fd_strings_eqc ic) P l = false).
Proof.
  intros ic l Ps. induction Ps as [|P Ps IH]; intros Hne.
  - exists false. split; [reflexivity|]. intros _ P [].
  - inversion Hne as [|? ? HP Hne']; subst. destruct (IH Hne') as (b & Hb & Hall).
    cbn [fd_any_prefix_at]. unfold fd_strings_eqc in *. destruct ic.
    + rewrite fd_starts_with_ic_eq. destruct (fd_prefix_match (fd_eq_lower lower) P l) eqn:E.
      * exists true. split; [reflexivity | discriminate].
      * exists b. split; [exact Hb|]. intros Hf P' [<-|Hin]; [exact E | apply Hall; assumption].
    + rewrite (fd_starts_with_ok l P HP). cbn [bind]. destruct (fd_prefix_match fd_eq_exact P l) eqn:E.
      * exists true. split; [reflexivity | discriminate].
      * exists b. split; [exact Hb|]. intros Hf P' [<-|Hin]; [exact E | apply Hall; assumption].
Qed.

Lemma fd_leading_strings_slow_ok : forall ic Ps, Forall (fun P => P <> []) Ps ->
  fd_prefixes_fact (fd_strings_eqc ic) Ps ->
  forall fuel p s, 0 <= p <= s -> p <= n -> (Z.to_nat (n + 1 - s) < fuel)%nat ->
  (forall q, p <= q -> q < s -> q <= n -> fd_succeeds q -> False) ->
  fd_ok_at p (fd_leading_strings_slow text lower minreq fuel ic Ps s).
Proof.
  intros ic Ps Hne HF. induction fuel as [|f IH]; intros p s Hp Hpn Hfuel Hinv; [lia|].
  cbn [fd_leading_strings_slow]. unfold fd_far, fd_n.
  pose proof (fd_latest_le_n minreq) as Hlat.
  destruct (negb (s <=? fd_latest_possible_start text minreq)) eqn:Es.
  { apply fd_ok_far; [lia|]. intros x Hx Hsx.
    assert (Hc : x < s \/ s <= x) by lia. destruct Hc as [Hc|Hc]; [apply (Hinv x); try lia; exact Hsx|].
    pose proof (fd_minlen_latest minreq x Hmin ltac:(lia) Hsx). lia. }
  rewrite (fd_slice_from_ok s) by lia. cbn [bind].
  destruct (fd_any_prefix_at_ok ic (skipn (Z.to_nat s) text) Ps Hne) as (b & Hb & Hall).
  rewrite Hb. cbn [bind]. destruct b.
  { apply fd_ok_found; [lia|]. intros x Hx1 Hx2 Hsx. apply (Hinv x); try lia; exact Hsx. }
  apply IH; try lia.
  intros q Hq1 Hq2 Hq3 Hsq.
  assert (Hc : q < s \/ q = s) by lia. destruct Hc as [Hc|Hc]; [apply (Hinv q); try lia; exact Hsq|]. subst q.
  destruct (HF s ltac:(lia) Hsq) as (P & HPin & HPm). rewrite (Hall eq_refl P HPin) in HPm. discriminate.
Qed.

Lemma fd_any_prefix_first_at_ok : forall first rest Ps, Forall (fun P => P <> []) Ps ->
  exists b, fd_any_prefix_first_at first (first :: rest) Ps = Ok b /\
    (b = false -> forall P, In P Ps -> fd_prefix_match fd_eq_exact P (first :: rest) = false).
Proof.
  intros first rest Ps. induction Ps as [|P Ps IH]; intros Hne.
  - exists false. split; [reflexivity|]. intros _ P [].
  - inversion Hne as [|? ? HP Hne']; subst. destruct (IH Hne') as (b & Hb & Hall).
    cbn [fd_any_prefix_first_at]. destruct P as [|c P]; [contradiction|].
    destruct (c =? first) eqn:Ec.
    + rewrite (fd_starts_with_ok (first :: rest) (c :: P) HP). cbn [bind].
      destruct (fd_prefix_match fd_eq_exact (c :: P) (first :: rest)) eqn:E.
      * exists true. split; [reflexivity | discriminate].
      * exists b. split; [exact Hb|]. intros Hf P' [<-|Hin]; [exact E | apply Hall; assumption].
    + exists b. split; [exact Hb|]. intros Hf P' [<-|Hin]; [|apply Hall; assumption].
      cbn [fd_prefix_match]. unfold fd_eq_exact at 1.
      replace (first =? c) with false by lia. reflexivity.
Qed.

Lemma fd_skipn_cons_nth : forall (l : list Z) i, 0 <= i < zlen l ->
  skipn (Z.to_nat i) l = nth (Z.to_nat i) l 0 :: skipn (Z.to_nat (i + 1)) l.
Proof.
  intros l i Hi. replace (Z.to_nat (i + 1)) with (S (Z.to_nat i)) by lia.
  apply skipn_cons_nth. unfold zlen in Hi. lia.
Qed.

(* a successful attempt at x starts with a rune of the first-rune list *)
Lemma fd_success_first_rune : forall Ps firsts x, Forall (fun P => P <> []) Ps ->
  fd_first_runes_ok Ps firsts -> fd_prefixes_fact fd_eq_exact Ps ->
  0 <= x <= n -> fd_succeeds x -> x < n /\ zmem (nth (Z.to_nat x) text 0) firsts = true.
Proof.
  intros Ps firsts x Hne Hfirst HF Hx Hsx.
  destruct (HF x Hx Hsx) as (P & HPin & HPm).
  destruct P as [|c P]; [rewrite Forall_forall in Hne; exfalso; exact (Hne _ HPin eq_refl)|].
  pose proof (fd_prefix_match_skipn_bound _ (c :: P) x ltac:(discriminate) ltac:(lia) HPm) as Hb.
  rewrite zlen_cons in Hb. pose proof (zlen_nonneg P). split; [lia|].
  rewrite fd_skipn_cons_nth in HPm by lia. cbn [fd_prefix_match] in HPm.
  apply andb_prop in HPm. destruct HPm as [H1 _]. unfold fd_eq_exact in H1.
  replace (nth (Z.to_nat x) text 0) with c by lia. exact (Hfirst c P HPin).
Qed.

Lemma fd_leading_strings_fast_ok : forall Ps firsts, Forall (fun P => P <> []) Ps ->
  fd_first_runes_ok Ps firsts -> fd_prefixes_fact fd_eq_exact Ps ->
  forall fuel p s, 0 <= p <= s -> p <= n -> (Z.to_nat (n - s) < fuel)%nat ->
  (forall q, p <= q -> q < s -> q <= n -> fd_succeeds q -> False) ->
  fd_ok_at p (fd_leading_strings_fast text fuel Ps firsts (Z.min (fd_latest_possible_start text minreq) (n - 1)) s).
Proof.
  intros Ps firsts Hne Hfirst HF.
  set (latest := Z.min (fd_latest_possible_start text minreq) (n - 1)).
  pose proof (fd_latest_le_n minreq) as Hlat.
  assert (Hbeyond : forall x, 0 <= x -> latest < x <= n -> fd_succeeds x -> False).
  { intros x Hx0 Hx Hsx. destruct (fd_success_first_rune Ps firsts x Hne Hfirst HF ltac:(lia) Hsx) as [H1 _].
    pose proof (fd_minlen_latest minreq x Hmin ltac:(lia) Hsx). lia. }
  induction fuel as [|f IH]; intros p s Hp Hpn Hfuel Hinv; [lia|].
  cbn [fd_leading_strings_fast]. unfold fd_far, fd_n.
  destruct (negb (s <=? latest)) eqn:Es.
  { apply fd_ok_far; [lia|]. intros x Hx Hsx.
    assert (Hc : x < s \/ s <= x) by lia. destruct Hc as [Hc|Hc]; [apply (Hinv x); try lia; exact Hsx|].
    apply (Hbeyond x); [lia | lia | exact Hsx]. }
  assert (Hsl : fd_slice text s (latest + 1) = Ok (firstn (Z.to_nat (latest + 1 - s)) (skipn (Z.to_nat s) text))).
  { unfold fd_slice, fd_n. destruct ((s <? 0) || (latest + 1 <? s) || (n <? latest + 1)) eqn:E; [lia | reflexivity]. }
  rewrite Hsl. cbn [bind]. rewrite fd_index_of_any_runes_eq. cbv zeta.
  set (win := firstn (Z.to_nat (latest + 1 - s)) (skipn (Z.to_nat s) text)).
  set (test := fun c : Z => zmem c firsts).
  assert (Hlen : zlen win = latest + 1 - s).
  { unfold win. apply fd_zlen_firstn. rewrite fd_zlen_skipn by lia. lia. }
  assert (Hnth : forall i, 0 <= i < latest + 1 - s -> nth (Z.to_nat i) win 0 = nth (Z.to_nat (s + i)) text 0).
  { intros i Hi. unfold win. rewrite nth_firstn by lia. apply fd_nth_skipn_Z; lia. }
  pose proof (fd_index_where_range test win) as Hrange.
  destruct (fd_index_where test win <? 0) eqn:Eoff.
  { apply fd_ok_far; [lia|]. intros x Hx Hsx.
    assert (Hc : x < s \/ latest < x \/ s <= x <= latest) by lia.
    destruct Hc as [Hc|[Hc|Hc]]; [apply (Hinv x); try lia; exact Hsx | apply (Hbeyond x); [lia | lia | exact Hsx] |].
    destruct (fd_success_first_rune Ps firsts x Hne Hfirst HF ltac:(lia) Hsx) as [_ H2].
    pose proof (fd_index_where_none test win ltac:(lia) (x - s) ltac:(lia)) as H3.
    rewrite Hnth in H3 by lia. replace (s + (x - s)) with x in H3 by lia. unfold test in H3. congruence. }
  destruct (fd_index_where_some test win ltac:(lia)) as [Hhit Hbefore].
  set (off := fd_index_where test win) in *.
  assert (Hskip : forall x, p <= x -> x < s + off -> fd_succeeds x -> False).
  { intros x Hx1 Hx2 Hsx.
    assert (Hc : x < s \/ s <= x) by lia. destruct Hc as [Hc|Hc]; [apply (Hinv x); try lia; exact Hsx|].
    destruct (fd_success_first_rune Ps firsts x Hne Hfirst HF ltac:(lia) Hsx) as [_ H2].
    pose proof (Hbefore (x - s) ltac:(lia)) as H3.
    rewrite Hnth in H3 by lia. replace (s + (x - s)) with x in H3 by lia. unfold test in H3. congruence. }
  rewrite (fd_rune_at_ok (s + off)) by lia. cbn [bind].
  rewrite (fd_slice_from_ok (s + off)) by lia. cbn [bind].
  rewrite (fd_skipn_cons_nth text (s + off)) by lia.
  destruct (fd_any_prefix_first_at_ok (nth (Z.to_nat (s + off)) text 0) (skipn (Z.to_nat (s + off + 1)) text) Ps Hne)
    as (b & Hb & Hall).
  rewrite Hb. cbn [bind]. destruct b.
  { apply fd_ok_found; [lia | exact Hskip]. }
  apply IH; try lia.
  intros q Hq1 Hq2 Hq3 Hsq.
  assert (Hc : q < s + off \/ q = s + off) by lia. destruct Hc as [Hc|Hc]; [exact (Hskip q Hq1 Hc Hsq)|]. subst q.
  destruct (HF (s + off) ltac:(lia) Hsq) as (P & HPin & HPm).
  rewrite (fd_skipn_cons_nth text (s + off)) in HPm by lia.
  rewrite (Hall eq_refl P HPin) in HPm. discriminate.
Qed.

Theorem fd_leading_strings_sound : forall Ps firsts ic, Ps <> [] -> Forall (fun P => P <> []) Ps ->
  (ic = false -> fd_first_runes_ok Ps firsts) ->
  fd_prefixes_fact (fd_strings_eqc ic) Ps ->
  fd_sound (fun p => fd_find_leading_strings text lower minreq p Ps firsts ic).
Proof.
  intros Ps firsts ic HPs Hne Hfirst HF p Hp. unfold fd_find_leading_strings.
  destruct Ps as [|P0 Ps0] eqn:EPs; [contradiction|]. rewrite <- EPs in *.
  destruct (ic || match firsts with [] => true | _ :: _ => false end) eqn:Eslow.
  - apply fd_leading_strings_slow_ok; try assumption; try lia; try (unfold fd_fuel, zlen in *; lia).
  - destruct ic; [discriminate|]. unfold fd_n.
    apply fd_leading_strings_fast_ok; try assumption; try lia; try (unfold fd_fuel, zlen in *; lia).
    apply Hfirst. reflexivity.
Qed.

(* ====================================================================================
   findLiteralAfterLoopLeftToRight
   ==================================================================================== *)
Notation fd_char i := (nth (Z.to_nat i) text 0).

(* the literal published with the loop stands at k (as indexOfLiteralAfterLoop looks for it) *)
Definition fd_lal_literal_at (l : fdlal) (k : Z) : Prop :=
  match lal_string l with
  | _ :: _ => fd_prefix_match (fd_leading_eqc (lal_string_ic l) (lal_string l)) (lal_string l)
                              (skipn (Z.to_nat k) text) = true
  | [] => match lal_chars l with
          | _ :: _ => k < n /\ zmem (fd_char k) (lal_chars l) = true
          | [] => k < n /\ fd_char k = lal_char l
          end
  end.

(* LiteralAfterLoop: a successful attempt at q runs over loop-set runes up to some k where the literal stands *)
Definition fd_lal_fact (l : fdlal) (loop_set : Z) : Prop :=
  forall q, 0 <= q <= n -> fd_succeeds q ->
    exists k, q <= k <= n /\ (forall i, q <= i < k -> set_in loop_set (fd_char i) = true) /\ fd_lal_literal_at l k.

Lemma fd_lal_literal_lt : forall l k, 0 <= k -> fd_lal_literal_at l k -> k < n.
Proof.
  intros l k Hk H. unfold fd_lal_literal_at in H.
  destruct (lal_string l) as [|c str] eqn:Es.
  - destruct (lal_chars l); lia.
  - pose proof (fd_prefix_match_skipn_bound _ (c :: str) k ltac:(discriminate) Hk H) as Hb.
    rewrite zlen_cons in Hb. pose proof (zlen_nonneg str). lia.
Qed.

Lemma fd_index_of_lal_ok : forall l s, 0 <= s <= n ->
  exists r, fd_index_of_literal_after_loop text lower l s = Ok r /\
    ((r = -1 /\ forall k, s <= k <= n -> fd_lal_literal_at l k -> False) \/
     (s <= r < n /\ forall k, s <= k < r -> fd_lal_literal_at l k -> False)).
Proof.
  intros l s Hs. unfold fd_index_of_literal_after_loop, fd_lal_literal_at.
  rewrite (fd_slice_from_ok s Hs). cbn [bind].
  set (sl := skipn (Z.to_nat s) text).
  assert (Hlen : zlen sl = n - s) by (apply fd_zlen_skipn; exact Hs).
  destruct (lal_string l) as [|c0 str0] eqn:Estr.
  - (* a rune or one of a few runes *)
    assert (Hgen : forall test : Z -> bool,
              exists r, (if 0 <=? fd_index_where test sl then Ok (s + fd_index_where test sl) else Ok (-1)) = Ok r /\
                ((r = -1 /\ forall k, s <= k <= n -> (k < n /\ test (fd_char k) = true) -> False) \/
                 (s <= r < n /\ forall k, s <= k < r -> (k < n /\ test (fd_char k) = true) -> False))).
    { intros test. pose proof (fd_index_where_range test sl) as Hr.
      destruct (0 <=? fd_index_where test sl) eqn:E.
      - exists (s + fd_index_where test sl). split; [reflexivity|]. right. split; [lia|].
        intros k Hk [_ Ht]. destruct (fd_index_where_some test sl ltac:(lia)) as [_ Hb].
        specialize (Hb (k - s) ltac:(lia)). unfold sl in Hb. rewrite fd_nth_skipn_Z in Hb by lia.
        replace (s + (k - s)) with k in Hb by lia. congruence.
      - exists (-1). split; [reflexivity|]. left. split; [reflexivity|].
        intros k Hk [Hkn Ht]. pose proof (fd_index_where_none test sl ltac:(lia) (k - s) ltac:(lia)) as Hb.
        unfold sl in Hb. rewrite fd_nth_skipn_Z in Hb by lia.
        replace (s + (k - s)) with k in Hb by lia. congruence. }
    destruct (lal_chars l) as [|c1 cs] eqn:Ecs.
    + unfold fd_index_of_any1. destruct (Hgen (fun c => c =? lal_char l)) as (r & Hr & Hcases).
      exists r. split; [exact Hr|]. destruct Hcases as [[H1 H2]|[H1 H2]]; [left|right]; (split; [exact H1|]);
        intros k Hk [Hkn He]; apply (H2 k Hk); (split; [exact Hkn | lia]).
    + unfold fd_index_of_any. destruct (Hgen (fun c => zmem c (c1 :: cs))) as (r & Hr & Hcases).
      exists r. split; [exact Hr|]. exact Hcases.
  - (* a string *)
    rewrite <- Estr. assert (Hne : lal_string l <> []) by (rewrite Estr; discriminate).
    rewrite (fd_leading_index (lal_string_ic l) (lal_string l) sl Hne). cbn [bind].
    set (eqc := fd_leading_eqc (lal_string_ic l) (lal_string l)).
    pose proof (fd_index_of_gen_range eqc (lal_string l) sl) as Hr.
    destruct (0 <=? fd_index_of_gen eqc (lal_string l) sl) eqn:E.
    + exists (s + fd_index_of_gen eqc (lal_string l) sl). split; [reflexivity|]. right. split; [lia|].
      intros k Hk Hm. destruct (fd_index_of_gen_some eqc (lal_string l) sl ltac:(lia)) as [_ Hb].
      specialize (Hb (k - s) ltac:(lia)). unfold sl in Hb. rewrite fd_skipn_skipn_Z in Hb by lia.
      replace (s + (k - s)) with k in Hb by lia. congruence.
    + exists (-1). split; [reflexivity|]. left. split; [reflexivity|].
      intros k Hk Hm.
      pose proof (fd_prefix_match_skipn_bound _ (lal_string l) k Hne ltac:(lia) Hm) as Hbd.
      assert (0 < zlen (lal_string l)) by (rewrite Estr, zlen_cons; pose proof (zlen_nonneg str0); lia).
      pose proof (fd_index_of_gen_none eqc (lal_string l) sl ltac:(lia) (k - s) ltac:(lia)) as Hb.
      unfold sl in Hb. rewrite fd_skipn_skipn_Z in Hb by lia.
      replace (s + (k - s)) with k in Hb by lia. congruence.
Qed.

Lemma fd_walk_back_spec : forall (f : Z -> bool) low k start, low <= start -> (Z.to_nat (start - low) <= k)%nat ->
  let w := fd_walk_back text k f low start in
  low <= w <= start /\ (forall i, w <= i < start -> f (fd_char i) = true) /\ (w = low \/ f (fd_char (w - 1)) = false).
Proof.
  intros f low. induction k as [|k IH]; intros start Hls Hk; cbn [fd_walk_back].
  - assert (start = low) by lia. subst. cbv zeta. split; [lia|]. split; [intros i Hi; lia | left; reflexivity].
  - destruct ((low <? start) && f (fd_char (start - 1))) eqn:E.
    + apply andb_prop in E. destruct E as [E1 E2].
      destruct (IH (start - 1) ltac:(lia) ltac:(lia)) as (H1 & H2 & H3). cbv zeta in *.
      split; [lia|]. split; [|exact H3].
      intros i Hi. assert (Hc : i < start - 1 \/ i = start - 1) by lia.
      destruct Hc as [Hc|Hc]; [apply H2; lia | subst i; exact E2].
    + cbv zeta. split; [lia|]. split; [intros i Hi; lia|].
      apply andb_false_iff in E. destruct E as [E|E]; [left; lia | right; exact E].
Qed.

Lemma fd_lal_loop_ok : forall l ls, fd_lal_fact l ls ->
  forall fuel p s, 0 <= p <= s -> p <= n -> (Z.to_nat (n - s) < fuel)%nat ->
  (s = p \/ forall q, p <= q <= n -> fd_succeeds q -> False) ->
  fd_ok_at p (fd_lal_loop text set_in lower minreq fuel p l ls s).
Proof.
  intros l ls HF. induction fuel as [|f IH]; intros p s Hp Hpn Hfuel Hinv; [lia|].
  cbn [fd_lal_loop]. unfold fd_far, fd_n.
  (* every successful q >= p has its literal at some k >= q, with loop-set runes in between *)
  destruct (negb (s <? n)) eqn:Es.
  { apply fd_ok_far; [lia|]. intros x Hx Hsx. destruct Hinv as [->|Hinv]; [|exact (Hinv x Hx Hsx)].
    destruct (HF x ltac:(lia) Hsx) as (k & Hk & _ & Hlit). pose proof (fd_lal_literal_lt l k ltac:(lia) Hlit). lia. }
  destruct (fd_index_of_lal_ok l s ltac:(lia)) as (r & Hr & Hcases). rewrite Hr. cbn [bind].
  destruct Hcases as [[-> Hnone]|[Hrr Hbefore]].
  { cbn. apply fd_ok_far; [lia|]. intros x Hx Hsx. destruct Hinv as [->|Hinv]; [|exact (Hinv x Hx Hsx)].
    destruct (HF x ltac:(lia) Hsx) as (k & Hk & _ & Hlit). exact (Hnone k ltac:(lia) Hlit). }
  destruct (r <? 0) eqn:Er; [lia|]. cbv zeta.
  destruct (fd_walk_back_spec (set_in ls) p (Z.to_nat (r - p)) r ltac:(lia) ltac:(lia)) as (Hw1 & Hw2 & Hw3).
  cbv zeta in Hw1, Hw2, Hw3.
  set (start := fd_walk_back text (Z.to_nat (r - p)) (set_in ls) p r) in *.
  assert (Hskip : forall x, p <= x -> x < start -> fd_succeeds x -> False).
  { intros x Hx1 Hx2 Hsx. destruct Hinv as [->|Hinv]; [|exact (Hinv x ltac:(lia) Hsx)].
    destruct (HF x ltac:(lia) Hsx) as (k & Hk & Hrun & Hlit).
    assert (Hkr : r <= k).
    { assert (Hc : k < r \/ r <= k) by lia. destruct Hc as [Hc|Hc]; [|exact Hc].
      exfalso. exact (Hbefore k ltac:(lia) Hlit). }
    destruct Hw3 as [Hw3|Hw3]; [lia|].
    rewrite Hrun in Hw3 by lia. discriminate. }
  destruct (fd_has_required_length_at text minreq start) eqn:Ereq.
  { apply fd_ok_found; [lia | exact Hskip]. }
  apply IH; try lia. right.
  intros q Hq Hsq.
  assert (Hc : q < start \/ start <= q) by lia. destruct Hc as [Hc|Hc]; [exact (Hskip q ltac:(lia) Hc Hsq)|].
  pose proof (fd_minlen_latest minreq q Hmin ltac:(lia) Hsq). rewrite fd_has_req_unfold in Ereq. lia.
Qed.

Theorem fd_literal_after_loop_sound : forall l ls, lal_loop_set l = Some ls -> fd_lal_fact l ls ->
  fd_sound (fun p => fd_find_literal_after_loop text set_in lower minreq p (Some l)).
Proof.
  intros l ls Hls HF p Hp. unfold fd_find_literal_after_loop. rewrite Hls.
  apply fd_lal_loop_ok; try assumption; try lia; try (unfold fd_fuel, zlen in *; lia).
Qed.

(* ====================================================================================
   findRequiredLandmarkChainLeftToRight (as repaired by 573b074, 563c473, 5218d84)
   ==================================================================================== *)

(* effective upper bound of a set alternative (runner.go:1850-1853) *)
Definition fd_alt_emax (a : fdalt) : Z := if la_max a <=? 0 then la_min a else la_max a.

(* alternative a stands at c with its core ending at e: required whitespace just before, the literal or
   between MinRepeat and MaxRepeat set runes, required whitespace just after *)
Definition fd_alt_match_at (a : fdalt) (c e : Z) : Prop :=
  (la_req_before a = true ->
     0 < c /\ exists ws, la_lead_ws a = Some ws /\ set_in ws (fd_char (c - 1)) = true) /\
  ((la_literal a <> [] /\ e = c + zlen (la_literal a) /\
    fd_prefix_match fd_eq_exact (la_literal a) (skipn (Z.to_nat c) text) = true)
   \/ (la_literal a = [] /\ exists sid, la_set a = Some sid /\ 0 < la_min a /\
       la_min a <= e - c <= fd_alt_emax a /\ e <= n /\
       forall i, c <= i < e -> set_in sid (fd_char i) = true)) /\
  (la_req_after a = true ->
     e < n /\ exists ws, la_trail_ws a = Some ws /\ set_in ws (fd_char e) = true).

(* the remaining landmarks stand, in order, at or after [from] *)
Fixpoint fd_chain_rest (lms : list (list fdalt)) (from : Z) : Prop :=
  match lms with
  | [] => True
  | alts :: rest => exists a c e, In a alts /\ from <= c /\ 0 <= c /\ fd_alt_match_at a c e /\ fd_chain_rest rest e
  end.

(* RequiredLandmarkChain: a successful attempt at q runs over loop-set runes up to s, then over leading
   whitespace of an alternative a of the first landmark up to c, where a stands; the other landmarks follow *)
Definition fd_chain_fact (loop_set : Z) (first_alts : list fdalt) (rest : list (list fdalt)) : Prop :=
  forall q, 0 <= q <= n -> fd_succeeds q ->
    exists a s c e, In a first_alts /\ q <= s <= c /\
      (forall i, q <= i < s -> set_in loop_set (fd_char i) = true) /\
      (forall i, s <= i < c -> fd_opt_set_in set_in (la_lead_ws a) (fd_char i) = true) /\
      fd_alt_match_at a c e /\ fd_chain_rest rest e.

(* published data: repeat counts are not negative *)
Definition fd_alts_wf (alts : list fdalt) : Prop := forall a, In a alts -> 0 <= la_min a.

Lemma fd_alt_match_lt : forall a c e, 0 <= c -> fd_alt_match_at a c e -> c < e <= n.
Proof.
  intros a c e Hc (_ & Hcore & _). destruct Hcore as [(Hl & -> & Hm)|(Hl & sid & _ & Hmn & Hb & Hen & _)].
  - pose proof (fd_prefix_match_skipn_bound _ _ c Hl Hc Hm).
    assert (0 < zlen (la_literal a)).
    { destruct (la_literal a); [contradiction|]. rewrite zlen_cons. pose proof (zlen_nonneg l). lia. }
    lia.
  - lia.
Qed.

Lemma fd_run_fwd_spec : forall (f : Z -> bool) start end_at maxrep k e0,
  start <= e0 -> (Z.to_nat (end_at - e0) <= k)%nat ->
  let r := fd_run_fwd text k f start end_at maxrep e0 in
  e0 <= r /\ (forall i, e0 <= i < r -> f (fd_char i) = true) /\
  (end_at <= r \/ maxrep <= r - start \/ f (fd_char r) = false).
Proof.
  intros f start end_at maxrep. induction k as [|k IH]; intros e0 Hs Hk; cbn [fd_run_fwd]; cbv zeta.
  - split; [lia|]. split; [intros i Hi; lia | left; lia].
  - destruct ((e0 <? end_at) && (e0 - start <? maxrep) && f (fd_char e0)) eqn:E.
    + apply andb_prop in E. destruct E as [E E3]. apply andb_prop in E. destruct E as [E1 E2].
      destruct (IH (e0 + 1) ltac:(lia) ltac:(lia)) as (H1 & H2 & H3). cbv zeta in H1, H2, H3.
      split; [lia|]. split; [|exact H3].
      intros i Hi. assert (Hc : i = e0 \/ e0 + 1 <= i) by lia. destruct Hc as [->|Hc]; [exact E3 | apply H2; lia].
    + split; [lia|]. split; [intros i Hi; lia|].
      apply andb_false_iff in E. destruct E as [E|E]; [|right; right; exact E].
      apply andb_false_iff in E. destruct E as [E|E]; [left; lia | right; left; lia].
Qed.

Lemma fd_ws_after_true : forall (f : Z -> bool) e_max end_at k e0,
  (Z.to_nat (e_max - e0 + 1) <= k)%nat ->
  (exists x, e0 <= x <= e_max /\ x < end_at /\ f (fd_char x) = true) ->
  fd_ws_after text k f e_max end_at e0 = true.
Proof.
  intros f e_max end_at. induction k as [|k IH]; intros e0 Hk (x & Hx1 & Hx2 & Hx3); cbn [fd_ws_after]; [lia|].
  destruct ((e0 <=? e_max) && (e0 <? end_at)) eqn:E; [|lia].
  destruct (f (fd_char e0)) eqn:Ef; [reflexivity|].
  apply IH; [lia|]. exists x. assert (x <> e0) by (intros ->; congruence). split; [lia|]. split; assumption.
Qed.

(* requiredLandmarkAlternativeMatch never faults inside the text and reports the position it was asked about *)
Lemma fd_alt_before_total : forall a c, 0 <= c <= n -> exists b, fd_alt_before_bad text set_in c a = Ok b.
Proof.
  intros a c Hc. unfold fd_alt_before_bad.
  destruct (la_req_before a); [|eauto]. destruct (c =? 0) eqn:E; [eauto|].
  destruct (la_lead_ws a); [|eauto]. rewrite (fd_rune_at_ok (c - 1)) by lia. cbn [bind]. eauto.
Qed.

Lemma fd_alt_core_total : forall a c, 0 <= c <= n -> exists o, fd_alt_core text set_in c n a = Ok o.
Proof.
  intros a c Hc. unfold fd_alt_core.
  destruct (la_literal a) as [|l0 lit] eqn:El.
  - destruct (la_set a); [|eauto]. destruct (0 <? la_min a); [|eauto]. cbv zeta.
    destruct (_ <? la_min a); eauto.
  - destruct (n <? c + zlen (l0 :: lit)); [eauto|].
    rewrite (fd_slice_from_ok c Hc). cbn [bind].
    rewrite (fd_starts_with_ok _ (l0 :: lit)) by discriminate. cbn [bind].
    destruct (fd_prefix_match _ _ _); eauto.
Qed.

Lemma fd_alt_match_total : forall a c, 0 <= c <= n ->
  exists r, fd_landmark_alt_match text set_in c n a = Ok r /\ forall m, r = Some m -> lm_core_start m = c.
Proof.
  intros a c Hc. unfold fd_landmark_alt_match.
  destruct (fd_alt_before_total a c Hc) as [b ->]. cbn [bind].
  destruct b; [exists None; split; [reflexivity | discriminate]|].
  destruct (fd_alt_core_total a c Hc) as [o ->]. cbn [bind].
  destruct o as [e|]; [|exists None; split; [reflexivity | discriminate]].
  destruct (fd_alt_after_bad text set_in c n e a).
  - exists None. split; [reflexivity | discriminate].
  - cbv zeta. eexists. split; [reflexivity|]. intros m Hm. inversion Hm. reflexivity.
Qed.

(* ... and accepts an alternative that stands there *)
Lemma fd_alt_match_complete : forall a c e, 0 <= c -> fd_alt_match_at a c e ->
  exists m, fd_landmark_alt_match text set_in c n a = Ok (Some m) /\ lm_core_start m = c.
Proof.
  intros a c e Hc Hm. pose proof (fd_alt_match_lt a c e Hc Hm) as Hlt.
  destruct Hm as (Hbef & Hcore & Haft). unfold fd_landmark_alt_match.
  (* whitespace before *)
  assert (Hb : fd_alt_before_bad text set_in c a = Ok false).
  { unfold fd_alt_before_bad.
    destruct (la_req_before a); [|reflexivity]. destruct (Hbef eq_refl) as (H0 & ws & Hws & Hin).
    destruct (c =? 0) eqn:E; [lia|]. rewrite Hws. rewrite (fd_rune_at_ok (c - 1)) by lia. cbn [bind].
    rewrite Hin. reflexivity. }
  rewrite Hb. cbn [bind].
  (* the core, and the whitespace after it *)
  assert (Hc2 : exists r, fd_alt_core text set_in c n a = Ok (Some r) /\ fd_alt_after_bad text set_in c n r a = false).
  { unfold fd_alt_core, fd_alt_after_bad.
    destruct Hcore as [(Hl & He & Hpm)|(Hl & sid & Hsid & Hmn & Hb2 & Hen & Hall)].
    - (* literal *)
      destruct (la_literal a) as [|l0 lit] eqn:El; [contradiction|].
      destruct (n <? c + zlen (l0 :: lit)) eqn:E1; [lia|].
      rewrite (fd_slice_from_ok c ltac:(lia)). cbn [bind].
      rewrite (fd_starts_with_ok _ (l0 :: lit)) by discriminate. cbn [bind]. rewrite Hpm.
      eexists. split; [reflexivity|]. cbv zeta.
      destruct (la_req_after a); [|reflexivity]. destruct (Haft eq_refl) as (H0 & ws & Hws & Hin). rewrite Hws.
      rewrite fd_ws_after_true; [reflexivity | lia|]. exists e. subst e. repeat split; try lia; try exact Hin.
    - (* set *)
      rewrite Hl, Hsid. destruct (0 <? la_min a) eqn:E0; [|lia]. cbv zeta.
      fold (fd_alt_emax a).
      destruct (fd_run_fwd_spec (set_in sid) c n (fd_alt_emax a) (Z.to_nat (n - c)) c ltac:(lia) ltac:(lia)) as (R1 & R2 & R3).
      cbv zeta in R1, R2, R3. set (r := fd_run_fwd text (Z.to_nat (n - c)) (set_in sid) c n (fd_alt_emax a) c) in *.
      assert (Her : e <= r).
      { assert (Hc2 : e <= r \/ r < e) by lia. destruct Hc2 as [Hc2|Hc2]; [exact Hc2|].
        destruct R3 as [R3|[R3|R3]]; [lia | lia |]. rewrite Hall in R3 by lia. discriminate. }
      destruct (r - c <? la_min a) eqn:E1; [lia|].
      eexists. split; [reflexivity|].
      destruct (la_req_after a); [|reflexivity]. destruct (Haft eq_refl) as (H0 & ws & Hws & Hin). rewrite Hws.
      rewrite fd_ws_after_true; [reflexivity | lia|]. exists e. repeat split; try lia; try exact Hin. }
  destruct Hc2 as (r & Hr1 & Hr2). rewrite Hr1. cbn [bind]. rewrite Hr2. cbv zeta.
  eexists. split; reflexivity.
Qed.

Lemma fd_first_alt_total : forall alts i, 0 <= i <= n ->
  exists r, fd_first_alt_at text set_in i n alts = Ok r /\ forall m, r = Some m -> lm_core_start m = i.
Proof.
  induction alts as [|a alts IH]; intros i Hi; cbn [fd_first_alt_at].
  - exists None. split; [reflexivity | discriminate].
  - destruct (fd_alt_match_total a i Hi) as (r & Hr & Hcs). rewrite Hr. cbn [bind].
    destruct r as [m|]; [exists (Some m); split; [reflexivity | exact Hcs] | apply IH; exact Hi].
Qed.

Lemma fd_first_alt_complete : forall alts a i e, 0 <= i -> In a alts -> fd_alt_match_at a i e ->
  exists m, fd_first_alt_at text set_in i n alts = Ok (Some m) /\ lm_core_start m = i.
Proof.
  induction alts as [|a0 alts IH]; intros a i e Hi Hin Hm; [destruct Hin|].
  pose proof (fd_alt_match_lt a i e Hi Hm) as Hlt.
  cbn [fd_first_alt_at]. destruct (fd_alt_match_total a0 i ltac:(lia)) as (r & Hr & Hcs). rewrite Hr. cbn [bind].
  destruct r as [m|]; [exists m; split; [reflexivity | apply Hcs; reflexivity]|].
  destruct Hin as [->|Hin]; [|exact (IH a i e Hi Hin Hm)].
  destruct (fd_alt_match_complete a i e Hi Hm) as (m & Hm' & _). congruence.
Qed.

(* findNextRequiredLandmarkRunes: total; a result lies in [i, n); a landmark standing at c >= i is found at or before c *)
Lemma fd_find_next_total : forall alts k i, 0 <= i ->
  exists r, fd_find_next_landmark text set_in k i n alts = Ok r /\
            forall m, r = Some m -> i <= lm_core_start m < n.
Proof.
  intros alts. induction k as [|k IH]; intros i Hi; cbn [fd_find_next_landmark].
  - exists None. split; [reflexivity | discriminate].
  - destruct (negb (i <? n)) eqn:E; [exists None; split; [reflexivity | discriminate]|].
    destruct (fd_first_alt_total alts i ltac:(lia)) as (r & Hr & Hcs). rewrite Hr. cbn [bind].
    destruct r as [m|].
    + exists (Some m). split; [reflexivity|]. intros m' Hm'. inversion Hm'; subst m'. rewrite (Hcs m eq_refl). lia.
    + destruct (IH (i + 1) ltac:(lia)) as (r & Hr' & Hb). exists r. split; [exact Hr'|].
      intros m Hm. specialize (Hb m Hm). lia.
Qed.

Lemma fd_find_next_complete : forall alts a c e, In a alts -> 0 <= c -> fd_alt_match_at a c e ->
  forall k i, 0 <= i <= c -> (Z.to_nat (n - i) <= k)%nat ->
  exists m, fd_find_next_landmark text set_in k i n alts = Ok (Some m) /\ i <= lm_core_start m <= c.
Proof.
  intros alts a c e Hin Hc Hm. pose proof (fd_alt_match_lt a c e Hc Hm) as Hlt.
  induction k as [|k IH]; intros i Hi Hk; [lia|]. cbn [fd_find_next_landmark].
  destruct (negb (i <? n)) eqn:E; [lia|].
  destruct (fd_first_alt_total alts i ltac:(lia)) as (r & Hr & Hcs). rewrite Hr. cbn [bind].
  destruct r as [m|].
  - exists m. split; [reflexivity|]. rewrite (Hcs m eq_refl). lia.
  - assert (Hc2 : i = c \/ i < c) by lia. destruct Hc2 as [->|Hc2].
    + destruct (fd_first_alt_complete alts a c e Hc Hin Hm) as (m & Hm' & _). congruence.
    + destruct (IH (i + 1) ltac:(lia) ltac:(lia)) as (m & Hm' & Hb). exists m. split; [exact Hm' | lia].
Qed.

(* requiredLandmarkMinWidth is at most the width of any alternative that stands somewhere *)
Lemma fd_min_width_acc_le : forall alts width, fd_alts_wf alts -> -1 <= width ->
  let R := fd_min_width_acc alts width in
  -1 <= R /\ (0 <= width -> 0 <= R <= width) /\
  (forall a, In a alts -> 0 <= R <= (match la_literal a with [] => la_min a | _ => zlen (la_literal a) end)).
Proof.
  induction alts as [|a0 alts IH]; intros width Hwf Hw; cbn [fd_min_width_acc]; cbv zeta.
  - split; [lia|]. split; [lia | intros a []].
  - set (w := match la_literal a0 with [] => la_min a0 | _ :: _ => zlen (la_literal a0) end).
    assert (Hw0 : 0 <= w).
    { unfold w. destruct (la_literal a0) eqn:El; [apply Hwf; left; reflexivity | apply zlen_nonneg]. }
    assert (Hwf' : fd_alts_wf alts) by (intros a Ha; apply Hwf; right; exact Ha).
    set (nw := if (width <? 0) || (w <? width) then w else width).
    assert (Hnw : 0 <= nw <= w /\ (0 <= width -> nw <= width)) by (unfold nw; destruct ((width <? 0) || (w <? width)) eqn:E; lia).
    destruct (IH nw Hwf' ltac:(lia)) as (I1 & I2 & I3). cbv zeta in I1, I2, I3.
    split; [lia|]. split; [intros H0; specialize (I2 ltac:(lia)); lia|].
    intros a [<-|Ha]; [specialize (I2 ltac:(lia)); fold w; lia | exact (I3 a Ha)].
Qed.

Lemma fd_min_width_le : forall alts a c e, fd_alts_wf alts -> In a alts -> 0 <= c -> fd_alt_match_at a c e ->
  0 <= fd_landmark_min_width alts <= e - c.
Proof.
  intros alts a c e Hwf Hin Hc Hm. unfold fd_landmark_min_width. cbv zeta.
  destruct (fd_min_width_acc_le alts (-1) Hwf ltac:(lia)) as (_ & _ & H3). cbv zeta in H3. specialize (H3 a Hin).
  destruct (fd_min_width_acc alts (-1) <? 0) eqn:E; [lia|].
  destruct Hm as (_ & Hcore & _). destruct Hcore as [(Hl & -> & _)|(Hl & sid & _ & _ & Hb & _)].
  - destruct (la_literal a); [contradiction | lia].
  - rewrite Hl in H3. lia.
Qed.

Fixpoint fd_chain_wf (lms : list (list fdalt)) : Prop :=
  match lms with [] => True | alts :: rest => fd_alts_wf alts /\ fd_chain_wf rest end.

Lemma fd_rest_landmarks_total : forall rest ns, 0 <= ns -> exists b, fd_rest_landmarks text set_in ns rest = Ok b.
Proof.
  induction rest as [|alts rest IH]; intros ns Hns; cbn [fd_rest_landmarks]; [eauto|].
  unfold fd_next_landmark, fd_n.
  destruct (fd_find_next_total alts (Z.to_nat (n - ns)) ns Hns) as (r & Hr & Hb). rewrite Hr. cbn [bind].
  destruct r as [m|]; [|eauto]. specialize (Hb m eq_refl).
  apply IH. unfold fd_landmark_min_width. cbv zeta. destruct (_ <? 0) eqn:E; lia.
Qed.

Lemma fd_rest_landmarks_complete : forall rest from ns, fd_chain_wf rest -> fd_chain_rest rest from ->
  0 <= ns <= from -> fd_rest_landmarks text set_in ns rest = Ok true.
Proof.
  induction rest as [|alts rest IH]; intros from ns Hwf Hch Hns; cbn [fd_rest_landmarks]; [reflexivity|].
  destruct Hwf as [Hwf1 Hwf2]. destruct Hch as (a & c & e & Hin & Hfc & Hc0 & Hm & Hrest).
  unfold fd_next_landmark, fd_n.
  destruct (fd_find_next_complete alts a c e Hin Hc0 Hm (Z.to_nat (n - ns)) ns ltac:(lia) ltac:(lia)) as (m & Hr & Hb).
  rewrite Hr. cbn [bind].
  pose proof (fd_min_width_le alts a c e Hwf1 Hin Hc0 Hm).
  apply (IH e); [exact Hwf2 | exact Hrest | lia].
Qed.

Lemma fd_chain_loop_ok : forall ls first_alts rest, fd_alts_wf first_alts -> fd_chain_wf rest ->
  fd_chain_fact ls first_alts rest ->
  forall fuel p s, 0 <= p <= s -> p <= n -> (Z.to_nat (n + 1 - s) < fuel)%nat ->
  (s = p \/ forall q, p <= q <= n -> fd_succeeds q -> False) ->
  fd_ok_at p (fd_chain_loop text set_in minreq fuel p ls first_alts rest s).
Proof.
  intros ls first_alts rest Hwf1 Hwf2 HF. induction fuel as [|f IH]; intros p s Hp Hpn Hfuel Hinv; [lia|].
  cbn [fd_chain_loop]. unfold fd_far, fd_n.
  pose proof (fd_latest_le_n minreq) as Hlat.
  destruct (negb (s <=? fd_latest_possible_start text minreq)) eqn:Es.
  { apply fd_ok_far; [lia|]. intros x Hx Hsx. destruct Hinv as [->|Hinv]; [|exact (Hinv x Hx Hsx)].
    pose proof (fd_minlen_latest minreq x Hmin ltac:(lia) Hsx). lia. }
  unfold fd_next_landmark at 1. unfold fd_n.
  destruct (fd_find_next_total first_alts (Z.to_nat (n - s)) s ltac:(lia)) as (r & Hr & Hb). rewrite Hr. cbn [bind].
  destruct r as [first|].
  2:{ apply fd_ok_far; [lia|]. intros x Hx Hsx. destruct Hinv as [->|Hinv]; [|exact (Hinv x Hx Hsx)].
      destruct (HF x ltac:(lia) Hsx) as (a & s1 & c & e & Hin & Hsc & _ & _ & Hm & _).
      destruct (fd_find_next_complete first_alts a c e Hin ltac:(lia) Hm (Z.to_nat (n - p)) p ltac:(lia) ltac:(lia))
        as (m & Hm' & _). congruence. }
  specialize (Hb first eq_refl). set (F := lm_core_start first) in *.
  pose proof (fd_min_width_acc_le first_alts (-1) Hwf1 ltac:(lia)) as (_ & _ & Hmw).
  assert (Hmw0 : 0 <= fd_landmark_min_width first_alts)
    by (unfold fd_landmark_min_width; cbv zeta; destruct (_ <? 0) eqn:E; lia).
  destruct (fd_rest_landmarks_total rest (F + fd_landmark_min_width first_alts) ltac:(lia)) as (b & Hrest).
  rewrite Hrest. cbn [bind].
  (* what a successful attempt from p on looks like while s = p *)
  assert (Hwit : s = p -> forall x, p <= x <= n -> fd_succeeds x ->
            exists a s1 c, In a first_alts /\ x <= s1 <= c /\ F <= c /\
              (forall i, x <= i < s1 -> set_in ls (fd_char i) = true) /\
              (forall i, s1 <= i < c -> fd_landmark_leading_ws set_in first_alts (fd_char i) = true) /\
              fd_rest_landmarks text set_in (F + fd_landmark_min_width first_alts) rest = Ok true).
  { intros -> x Hx Hsx.
    destruct (HF x ltac:(lia) Hsx) as (a & s1 & c & e & Hin & Hsc & Hloop & Hws & Hm & Hch).
    exists a, s1, c. split; [exact Hin|]. split; [exact Hsc|].
    destruct (fd_find_next_complete first_alts a c e Hin ltac:(lia) Hm (Z.to_nat (n - p)) p ltac:(lia) ltac:(lia))
      as (m & Hm' & Hmb).
    assert (m = first) by congruence. subst m. fold F in Hmb.
    split; [lia|]. split; [exact Hloop|]. split.
    - intros i Hi. unfold fd_landmark_leading_ws. apply existsb_exists. exists a. split; [exact Hin | apply Hws; exact Hi].
    - pose proof (fd_min_width_le first_alts a c e Hwf1 Hin ltac:(lia) Hm).
      apply (fd_rest_landmarks_complete rest e); [exact Hwf2 | exact Hch | lia]. }
  destruct (negb b) eqn:Eb.
  { apply fd_ok_far; [lia|]. intros x Hx Hsx. destruct Hinv as [Hsp|Hinv]; [|exact (Hinv x Hx Hsx)].
    destruct (Hwit Hsp x Hx Hsx) as (a & s1 & c & _ & _ & _ & _ & _ & Hall). destruct b; [discriminate | congruence]. }
  cbv zeta.
  destruct (F <? p) eqn:EFp; [lia|].
  destruct (fd_walk_back_spec (fd_landmark_leading_ws set_in first_alts) p (Z.to_nat (F - p)) F ltac:(lia) ltac:(lia))
    as (W1 & W2 & W3). cbv zeta in W1, W2, W3.
  set (w1 := fd_walk_back text (Z.to_nat (F - p)) (fd_landmark_leading_ws set_in first_alts) p F) in *.
  destruct (fd_walk_back_spec (set_in ls) p (Z.to_nat (w1 - p)) w1 ltac:(lia) ltac:(lia)) as (V1 & V2 & V3).
  cbv zeta in V1, V2, V3.
  set (cand := fd_walk_back text (Z.to_nat (w1 - p)) (set_in ls) p w1) in *.
  assert (Hskip : forall x, p <= x -> x < cand -> fd_succeeds x -> False).
  { intros x Hx1 Hx2 Hsx. destruct Hinv as [Hsp|Hinv]; [|exact (Hinv x ltac:(lia) Hsx)].
    destruct (Hwit Hsp x ltac:(lia) Hsx) as (a & s1 & c & _ & Hsc & HFc & Hloop & Hws & _).
    destruct V3 as [V3|V3]; [lia|].
    (* cand - 1 is not a loop-set rune, so it lies in the whitespace span [s1, c) *)
    assert (Hs1 : s1 <= cand - 1).
    { assert (Hc2 : s1 <= cand - 1 \/ cand - 1 < s1) by lia. destruct Hc2 as [Hc2|Hc2]; [exact Hc2|].
      rewrite Hloop in V3 by lia. discriminate. }
    destruct W3 as [W3|W3]; [lia|].
    rewrite Hws in W3 by lia. discriminate. }
  destruct (fd_has_required_length_at text minreq cand) eqn:Ereq.
  { apply fd_ok_found; [lia | exact Hskip]. }
  apply IH; try lia. right.
  intros q Hq Hsq.
  assert (Hc : q < cand \/ cand <= q) by lia. destruct Hc as [Hc|Hc]; [exact (Hskip q ltac:(lia) Hc Hsq)|].
  pose proof (fd_minlen_latest minreq q Hmin ltac:(lia) Hsq). rewrite fd_has_req_unfold in Ereq. lia.
Qed.

Theorem fd_landmark_chain_sound : forall c ls first_alts rest,
  lc_loop_set c = Some ls -> lc_landmarks c = first_alts :: rest ->
  fd_alts_wf first_alts -> fd_chain_wf rest ->
  fd_chain_fact ls first_alts rest ->
  fd_sound (fun p => fd_find_landmark_chain text set_in minreq p (Some c)).
Proof.
  intros c ls first_alts rest Hls Hlm Hwf1 Hwf2 HF p Hp. unfold fd_find_landmark_chain. rewrite Hls, Hlm.
  apply fd_chain_loop_ok; try assumption; try lia; try (unfold fd_fuel, zlen in *; lia).
Qed.

End FinderSound.

(* ====================================================================================
   findFirstCharOptimized: the dispatch on FindMode
   ==================================================================================== *)
Section Dispatch.
Variable R : Type.
Variable text : list Z.
Variable exec : Z -> option R * Z.
Variable set_in : Z -> Z -> bool.
Variable lower : Z -> Z.

(* the fact (and the side conditions on the published data) that the mode of [o] relies on *)
Definition fd_mode_fact (o : fdopts) : Prop :=
  let m := fo_mode o in
  if m =? FM_TrailingAnchor_FixedLength_LeftToRight_End then
    0 <= fo_minreq o /\ fd_trailing_end_fact R text exec (fo_minreq o)
  else if m =? FM_LeadingString_LeftToRight then
    fd_prefix_fact R text exec (fd_leading_eqc lower false (fo_prefix o)) (fo_prefix o)
  else if m =? FM_LeadingString_OrdinalIgnoreCase_LeftToRight then
    fd_prefix_fact R text exec (fd_leading_eqc lower true (fo_prefix o)) (fo_prefix o)
  else if m =? FM_LeadingStrings_LeftToRight then
    fo_prefixes o <> [] /\ Forall (fun P => P <> []) (fo_prefixes o) /\
    fd_first_runes_ok (fo_prefixes o) (fo_first_runes o) /\
    fd_prefixes_fact R text exec (fd_strings_eqc lower false) (fo_prefixes o)
  else if m =? FM_LeadingStrings_OrdinalIgnoreCase_LeftToRight then
    fo_prefixes o <> [] /\ Forall (fun P => P <> []) (fo_prefixes o) /\
    fd_prefixes_fact R text exec (fd_strings_eqc lower true) (fo_prefixes o)
  else if (m =? FM_LeadingSet_LeftToRight) || (m =? FM_FixedDistanceSets_LeftToRight) then
    exists primary rest id, fo_sets o = primary :: rest /\ fs_set primary = Some id /\
      0 <= fs_distance primary /\ fd_fds_fact R text exec set_in (fo_sets o)
  else if m =? FM_FixedDistanceChar_LeftToRight then
    0 <= fo_fdl_distance o /\ fd_fdchar_fact R text exec (fo_fdl_c o) (fo_fdl_distance o)
  else if m =? FM_FixedDistanceString_LeftToRight then
    0 <= fo_fdl_distance o /\ fd_fdstring_fact R text exec (fo_fdl_s o) (fo_fdl_distance o)
  else if m =? FM_LiteralAfterLoop_LeftToRight then
    exists l ls, fo_lal o = Some l /\ lal_loop_set l = Some ls /\ fd_lal_fact R text exec lower set_in l ls
  else if m =? FM_RequiredLandmarkChain_LeftToRight then
    exists c ls first_alts rest, fo_chain o = Some c /\ lc_loop_set c = Some ls /\
      lc_landmarks c = first_alts :: rest /\ fd_alts_wf first_alts /\ fd_chain_wf rest /\
      fd_chain_fact R text exec set_in ls first_alts rest
  else True.

(* the modes findFirstCharOptimized serves *)
Definition fd_mode_handled (o : fdopts) : bool :=
  let m := fo_mode o in
  (m =? FM_TrailingAnchor_FixedLength_LeftToRight_End) || (m =? FM_LeadingString_LeftToRight)
  || (m =? FM_LeadingString_OrdinalIgnoreCase_LeftToRight) || (m =? FM_LeadingStrings_LeftToRight)
  || (m =? FM_LeadingStrings_OrdinalIgnoreCase_LeftToRight) || (m =? FM_LeadingSet_LeftToRight)
  || (m =? FM_FixedDistanceSets_LeftToRight) || (m =? FM_FixedDistanceChar_LeftToRight)
  || (m =? FM_FixedDistanceString_LeftToRight) || (m =? FM_LiteralAfterLoop_LeftToRight)
  || (m =? FM_RequiredLandmarkChain_LeftToRight).

Lemma fd_should_use_handled : forall o, fd_should_use_optimized o = true -> fd_mode_handled o = true.
Proof.
  intros o H. unfold fd_should_use_optimized, fd_mode_handled in *. cbv zeta in *.
  unfold FM_TrailingAnchor_FixedLength_LeftToRight_End, FM_LeadingString_LeftToRight,
    FM_LeadingString_OrdinalIgnoreCase_LeftToRight, FM_LeadingStrings_LeftToRight,
    FM_LeadingStrings_OrdinalIgnoreCase_LeftToRight, FM_LeadingSet_LeftToRight, FM_FixedDistanceSets_LeftToRight,
    FM_FixedDistanceChar_LeftToRight, FM_FixedDistanceString_LeftToRight, FM_LiteralAfterLoop_LeftToRight,
    FM_RequiredLandmarkChain_LeftToRight in *.
  destruct (_ || _) eqn:E in H; [lia|].
  destruct (fo_mode o =? 16) eqn:E16; [lia | discriminate].
Qed.

(* (found, Runtextpos) of findFirstCharOptimized *)
Definition fd_optimized_finder (o : fdopts) (p : Z) : res (bool * Z) :=
  do r <- fd_find_first_char_optimized text set_in lower o p ; Ok (snd (fst r), snd r).

Lemma fd_sound_ext : forall F G, (forall p, F p = G p) -> fd_sound R text exec F -> fd_sound R text exec G.
Proof. intros F G H HF p Hp. rewrite <- H. apply HF. exact Hp. Qed.

Lemma fd_handled_bind : forall (r : res (bool * Z)),
  (do x <- (do y <- r ; Ok (true, fst y, snd y)) ; Ok (snd (fst x), snd x)) = r.
Proof. intros [[f q]| | |]; reflexivity. Qed.

Theorem fd_optimized_sound : forall o,
  fd_mode_handled o = true -> fd_minlen_fact R text exec (fo_minreq o) -> fd_mode_fact o ->
  fd_sound R text exec (fd_optimized_finder o) /\
  (forall p r, fd_find_first_char_optimized text set_in lower o p = Ok r -> fst (fst r) = true).
Proof.
  intros o Hh Hmin HF. unfold fd_mode_fact, fd_mode_handled in *. cbv zeta in *.
  unfold fd_optimized_finder, fd_find_first_char_optimized. cbv zeta.
  unfold FM_NoSearch, FM_TrailingAnchor_FixedLength_LeftToRight_End, FM_LeadingString_LeftToRight,
    FM_LeadingString_OrdinalIgnoreCase_LeftToRight, FM_LeadingStrings_LeftToRight,
    FM_LeadingStrings_OrdinalIgnoreCase_LeftToRight, FM_LeadingSet_LeftToRight, FM_FixedDistanceSets_LeftToRight,
    FM_FixedDistanceChar_LeftToRight, FM_FixedDistanceString_LeftToRight, FM_LiteralAfterLoop_LeftToRight,
    FM_RequiredLandmarkChain_LeftToRight in *.
  assert (Hhandled : forall (F : Z -> res (bool * Z)), fd_sound R text exec F ->
            fd_sound R text exec (fun p => do r <- (do x <- F p ; Ok (true, fst x, snd x)) ; Ok (snd (fst r), snd r)) /\
            (forall p r, (do x <- F p ; Ok (true, fst x, snd x)) = Ok r -> fst (fst r) = true)).
  { intros F HS. split.
    - apply (fd_sound_ext F); [|exact HS]. intros p. symmetry. apply fd_handled_bind.
    - intros p r H. destruct (F p) as [[f q]| | |]; inversion H. reflexivity. }
  destruct (fo_mode o =? 0) eqn:E0; [lia|].
  destruct (fo_mode o =? 9) eqn:E9.
  { destruct HF as [H0 HF]. apply Hhandled. apply fd_trailing_end_sound; assumption. }
  destruct (fo_mode o =? 11) eqn:E11.
  { apply Hhandled. apply fd_leading_string_sound; assumption. }
  destruct (fo_mode o =? 13) eqn:E13.
  { apply Hhandled. apply fd_leading_string_sound; assumption. }
  destruct (fo_mode o =? 14) eqn:E14.
  { destruct HF as (H1 & H2 & H3 & H4). apply Hhandled. apply fd_leading_strings_sound; try assumption. intros _. exact H3. }
  destruct (fo_mode o =? 15) eqn:E15.
  { destruct HF as (H1 & H2 & H4). apply Hhandled. apply fd_leading_strings_sound; try assumption. discriminate. }
  destruct ((fo_mode o =? 16) || (fo_mode o =? 21)) eqn:E16.
  { destruct HF as (primary & rest & id & H1 & H2 & H3 & H4). apply Hhandled.
    apply (fd_fixed_distance_sets_sound R text exec (fo_minreq o) Hmin set_in (fo_sets o) primary rest id); assumption. }
  destruct (fo_mode o =? 19) eqn:E19.
  { destruct HF as [H0 HF]. apply Hhandled. apply fd_fixed_distance_char_sound; assumption. }
  destruct (fo_mode o =? 20) eqn:E20.
  { destruct HF as [H0 HF]. apply Hhandled. apply fd_fixed_distance_string_sound; assumption. }
  destruct (fo_mode o =? 22) eqn:E22.
  { destruct HF as (l & ls & H1 & H2 & H3). rewrite H1. apply Hhandled.
    apply (fd_literal_after_loop_sound R text exec lower (fo_minreq o) Hmin set_in l ls); assumption. }
  destruct (fo_mode o =? 23) eqn:E23.
  { destruct HF as (c & ls & fa & rest & H1 & H2 & H3 & H4 & H5 & H6). rewrite H1. apply Hhandled.
    apply (fd_landmark_chain_sound R text exec (fo_minreq o) Hmin set_in c ls fa rest); assumption. }
  lia.
Qed.

End Dispatch.

(* ====================================================================================
   the first-character loop of findFirstCharDefault (both directions) and the whole default finder
   ==================================================================================== *)
Section DefaultFinder.
Variable R : Type.
Variable text : list Z.
Variable exec : Z -> option R * Z.
Variable set_in : Z -> Z -> bool.
Variable lower : Z -> Z.
Variable rtl : bool.

Local Notation n := (zlen text).
Local Notation fd_char i := (nth (Z.to_nat i) text 0).

(* FcPrefix: a successful attempt has a next rune (in scan direction) that passes the test *)
Definition fd_fc_fact (test : Z -> bool) : Prop :=
  forall q, 0 <= q <= n -> fd_succeeds R exec q ->
    if rtl then 0 < q /\ test (fd_char (q - 1)) = true else q < n /\ test (fd_char q) = true.

Definition fd_fc_test (fc : fdfc) : Z -> bool :=
  match fc_singleton fc with Some ch => fun c => ch =? c | None => set_in (fc_set fc) end.

Lemma fd_fc_loop_spec : forall test i pos,
  (if rtl then pos = Z.of_nat i else pos + Z.of_nat i = n) -> 0 <= pos <= n ->
  exists found q, fd_fc_loop text rtl i test pos = Ok (found, q) /\
    (if rtl then 0 <= q <= pos /\ (forall x, q < x <= pos -> test (fd_char (x - 1)) = false) /\ (found = false -> q = 0)
     else pos <= q <= n /\ (forall x, pos <= x < q -> test (fd_char x) = false) /\ (found = false -> q = n)).
Proof.
  intros test. induction i as [|i IH]; intros pos Hi Hpos; cbn [fd_fc_loop].
  - exists false, pos. split; [reflexivity|]. destruct rtl; (split; [lia|]); (split; [intros x Hx; lia | intros _; lia]).
  - destruct rtl eqn:Ertl.
    + rewrite (fd_rune_at_ok text (pos - 1)) by lia. cbn [bind].
      destruct (test (fd_char (pos - 1))) eqn:Et.
      * exists true, pos. split; [reflexivity|]. split; [lia|]. split; [intros x Hx; lia | discriminate].
      * destruct (IH (pos - 1) ltac:(lia) ltac:(lia)) as (found & q & Hr & H1 & H2 & H3).
        exists found, q. split; [exact Hr|]. split; [lia|]. split; [|exact H3].
        intros x Hx. assert (Hc : x = pos \/ x <= pos - 1) by lia. destruct Hc as [->|Hc]; [exact Et | apply H2; lia].
    + rewrite (fd_rune_at_ok text pos) by lia. cbn [bind].
      destruct (test (fd_char pos)) eqn:Et.
      * exists true, pos. split; [reflexivity|]. split; [lia|]. split; [intros x Hx; lia | discriminate].
      * destruct (IH (pos + 1) ltac:(lia) ltac:(lia)) as (found & q & Hr & H1 & H2 & H3).
        exists found, q. split; [exact Hr|]. split; [lia|]. split; [|exact H3].
        intros x Hx. assert (Hc : x = pos \/ pos + 1 <= x) by lia. destruct Hc as [->|Hc]; [exact Et | apply H2; lia].
Qed.

Theorem fd_first_char_loop_H1 : forall fc,
  (forall f, fc = Some f -> fd_fc_fact (fd_fc_test f)) ->
  sc_H1_true R n rtl (fd_total (fd_first_char_loop text set_in rtl fc)) exec /\
  sc_H1_false R n rtl (fd_total (fd_first_char_loop text set_in rtl fc)) exec.
Proof.
  intros fc HF.
  assert (Hspec : forall p, 0 <= p <= n ->
            exists found q, fd_first_char_loop text set_in rtl fc p = Ok (found, q) /\
              sc_ord rtl p q /\ sc_in_text n q /\
              (forall x, sc_ord rtl p x -> sc_before rtl x q -> sc_fails R exec x) /\
              (found = false -> forall x, sc_ord rtl p x -> sc_in_text n x -> sc_fails R exec x)).
  { intros p Hp. unfold fd_first_char_loop. destruct fc as [f|].
    2:{ exists true, p. split; [reflexivity|]. unfold sc_ord, sc_in_text, sc_before.
        split; [destruct rtl; lia|]. split; [lia|]. split; [intros x H1 H2; destruct rtl; lia | discriminate]. }
    specialize (HF f eq_refl). unfold fd_fc_fact in HF. fold (fd_fc_test f). unfold fd_n.
    destruct (fd_fc_loop_spec (fd_fc_test f) (Z.to_nat (if rtl then p else n - p)) p) as (found & q & Hr & Hq);
      [destruct rtl; lia | exact Hp |].
    exists found, q. split; [exact Hr|]. unfold sc_ord, sc_in_text, sc_before.
    destruct rtl.
    - destruct Hq as (H1 & H2 & H3). split; [lia|]. split; [lia|]. split.
      + intros x Hx1 Hx2. apply fd_not_succeeds_fails. intros Hs.
        destruct (HF x ltac:(lia) Hs) as [Ha Hb]. rewrite H2 in Hb by lia. discriminate.
      + intros Hf x Hx1 Hx2. apply fd_not_succeeds_fails. intros Hs.
        destruct (HF x ltac:(lia) Hs) as [Ha Hb]. rewrite H2 in Hb by (specialize (H3 Hf); lia). discriminate.
    - destruct Hq as (H1 & H2 & H3). split; [lia|]. split; [lia|]. split.
      + intros x Hx1 Hx2. apply fd_not_succeeds_fails. intros Hs.
        destruct (HF x ltac:(lia) Hs) as [Ha Hb]. rewrite H2 in Hb by lia. discriminate.
      + intros Hf x Hx1 Hx2. apply fd_not_succeeds_fails. intros Hs.
        destruct (HF x ltac:(lia) Hs) as [Ha Hb]. rewrite H2 in Hb by (specialize (H3 Hf); lia). discriminate. }
  split; intros p q Hp Hfq; unfold sc_in_text in Hp; destruct (Hspec p Hp) as (found & q' & Hr & Ho & Hi & Hskip & Hgive);
    unfold fd_total in Hfq; rewrite Hr in Hfq; inversion Hfq; subst found q'; (split; [exact Ho|split; [exact Hi|]]).
  - exact Hskip.
  - intros x Hx1 Hx2. apply (Hgive eq_refl x Hx1). unfold sc_ord, sc_in_text in *. destruct rtl; lia.
Qed.

(* findFirstCharDefault below the Boyer-Moore branch (runner.go:1432-1465): the optimized finder when
   shouldUseFindFirstCharOptimized says so (left-to-right only), the first-character loop otherwise *)
Theorem fd_ffc_nobm_H1 : forall (o : option fdopts) (fc : option fdfc),
  (forall o', o = Some o' -> fd_should_use_optimized o' = true ->
     rtl = false /\ fd_minlen_fact R text exec (fo_minreq o') /\ fd_mode_fact R text exec set_in lower o') ->
  ((forall o', o = Some o' -> fd_should_use_optimized o' = false) ->
     forall f, fc = Some f -> fd_fc_fact (fd_fc_test f)) ->
  sc_H1_true R n rtl (fd_total (fd_ffc_nobm text set_in lower rtl o fc)) exec /\
  sc_H1_false R n rtl (fd_total (fd_ffc_nobm text set_in lower rtl o fc)) exec.
Proof.
  intros o fc Hopt Hfc.
  assert (Hloop : (forall o', o = Some o' -> fd_should_use_optimized o' = false) ->
            sc_H1_true R n rtl (fd_total (fd_first_char_loop text set_in rtl fc)) exec /\
            sc_H1_false R n rtl (fd_total (fd_first_char_loop text set_in rtl fc)) exec).
  { intros H. apply fd_first_char_loop_H1. exact (Hfc H). }
  destruct o as [o'|].
  2:{ apply Hloop. intros o' H. discriminate. }
  destruct (fd_should_use_optimized o') eqn:Es.
  2:{ assert (Heq : forall p, fd_total (fd_ffc_nobm text set_in lower rtl (Some o') fc) p
                              = fd_total (fd_first_char_loop text set_in rtl fc) p).
      { intros p. unfold fd_total, fd_ffc_nobm. rewrite Es. reflexivity. }
      destruct (Hloop ltac:(intros o2 H2; inversion H2; subst; exact Es)) as [L1 L2].
      split; intros p q Hp Hf; rewrite Heq in Hf; [exact (L1 p q Hp Hf) | exact (L2 p q Hp Hf)]. }
  destruct (Hopt o' eq_refl Es) as (Hrtl & Hmin & Hmf). clear Hfc Hloop Hopt. subst rtl.
  destruct (fd_optimized_sound R text exec set_in lower o' (fd_should_use_handled o' Es) Hmin Hmf) as [Hsound Hh].
  destruct (fd_sound_H1 R text exec _ Hsound) as [S1 S2].
  assert (Heq : forall p, 0 <= p <= n -> fd_total (fd_ffc_nobm text set_in lower false (Some o') fc) p
                          = fd_total (fd_optimized_finder text set_in lower o') p).
  { intros p Hp. unfold fd_total, fd_ffc_nobm, fd_optimized_finder. rewrite Es.
    destruct (Hsound p Hp) as (found & q & Hr & _). unfold fd_optimized_finder in Hr.
    destruct (fd_find_first_char_optimized text set_in lower o' p) as [[[h f] q']| | |] eqn:E; try discriminate.
    pose proof (Hh p _ E) as Hht. cbn in Hht. subst h. cbn [bind fst snd]. reflexivity. }
  split; intros p q Hp Hf; rewrite Heq in Hf by exact Hp; [exact (S1 p q Hp Hf) | exact (S2 p q Hp Hf)].
Qed.

(* all of findFirstCharDefault (runner.go:1386-1466).  The Boyer-Moore machine enters only through its
   answers [bm] / [bm_scan]; what is needed of them is stated here, and proved of the machine of
   Model/BM.v in Proofs/BMProofs.v (bmp_is_match_fact, bmp_scan_fact):
     - IsMatch holds wherever an attempt succeeds (as in C03_default_anchor_jump);
     - Scan from p returns -1 only when no attempt from p on (in scan order) succeeds, and otherwise a
       position at-or-beyond p in the text with no successful attempt before it. *)
Definition fd_bm_scan_fact (scan : Z -> Z) : Prop :=
  forall p, 0 <= p <= n ->
    (scan p = -1 /\ forall x, sc_ord rtl p x -> sc_in_text n x -> sc_fails R exec x) \/
    (scan p <> -1 /\ sc_ord rtl p (scan p) /\ sc_in_text n (scan p) /\
     forall x, sc_ord rtl p x -> sc_before rtl x (scan p) -> sc_fails R exec x).

Theorem fd_default_H1 : forall (anchors ts : Z) (bm : option (Z -> bool)) (bm_scan : option (Z -> Z))
                               (o : option fdopts) (fc : option fdfc),
  let succeeds := fun x => fst (exec x) <> None in
  (abit anchors ANCH_BEGINNING = true -> forall x, sc_in_text n x -> succeeds x -> x = 0) ->
  (abit anchors ANCH_START = true -> forall x, sc_in_text n x -> succeeds x -> x = ts) ->
  (abit anchors ANCH_ENDZ = true -> forall x, sc_in_text n x -> succeeds x ->
     x = n \/ (x = n - 1 /\ nth (Z.to_nat x) text 0 = 10)) ->
  (abit anchors ANCH_END = true -> forall x, sc_in_text n x -> succeeds x -> x = n) ->
  (forall is_match, bm = Some is_match -> forall x, sc_in_text n x -> succeeds x -> is_match x = true) ->
  (forall scan, bm_scan = Some scan -> fd_bm_scan_fact scan) ->
  (bm_scan = None ->
     sc_H1_true R n rtl (fd_total (fd_ffc_nobm text set_in lower rtl o fc)) exec /\
     sc_H1_false R n rtl (fd_total (fd_ffc_nobm text set_in lower rtl o fc)) exec) ->
  sc_H1_true R n rtl (fd_total (fd_find_first_char_default text set_in lower rtl anchors ts bm bm_scan o fc)) exec /\
  sc_H1_false R n rtl (fd_total (fd_find_first_char_default text set_in lower rtl anchors ts bm bm_scan o fc)) exec.
Proof.
  intros anchors ts bm bm_scan o fc succeeds Fbeg Fstart Fendz Fend Fbm Fscan Fnobm.
  set (below := fun p => match bm_scan with
                         | Some scan => let q := scan p in
                                        if q =? -1 then Ok (false, if rtl then 0 else fd_n text) else Ok (true, q)
                         | None => fd_ffc_nobm text set_in lower rtl o fc p
                         end).
  assert (Hbelow : sc_H1_true R n rtl (fd_total below) exec /\ sc_H1_false R n rtl (fd_total below) exec).
  { unfold below. destruct bm_scan as [scan|]; [|exact (Fnobm eq_refl)].
    specialize (Fscan scan eq_refl).
    split; intros p q Hp Hf; unfold sc_in_text in Hp; unfold fd_total in Hf; cbv zeta in Hf;
      destruct (Fscan p Hp) as [[E Hall]|(E & Ho & Hi & Hskip)].
    - rewrite E in Hf. cbn in Hf. discriminate.
    - destruct (scan p =? -1) eqn:E1; [lia|]. inversion Hf; subst q. split; [exact Ho|]. split; [exact Hi | exact Hskip].
    - rewrite E in Hf. cbn [Z.eqb] in Hf. replace (-1 =? -1) with true in Hf by reflexivity.
      inversion Hf; subst q. unfold sc_ord, sc_in_text, fd_n in *.
      split; [destruct rtl; lia|]. split; [destruct rtl; pose proof (zlen_nonneg text); lia|].
      intros x Hx1 Hx2. apply Hall; [exact Hx1 | destruct rtl; lia].
    - destruct (scan p =? -1) eqn:E1; [lia | discriminate]. }
  assert (Heq : forall p, fd_total (fd_find_first_char_default text set_in lower rtl anchors ts bm bm_scan o fc) p
                          = ffc_default text rtl anchors ts bm (fd_total below) p).
  { intros p. unfold fd_total at 1. unfold fd_find_first_char_default, ffc_default.
    destruct (abit anchors (ANCH_BEGINNING + ANCH_START + ANCH_ENDZ + ANCH_END)); [reflexivity|].
    unfold fd_total, below. destruct bm_scan as [scan|]; [|reflexivity].
    cbv zeta. destruct (scan p =? -1); reflexivity. }
  destruct Hbelow as [B1 B2].
  destruct (sc_anchor_H1 R text rtl anchors ts bm (fd_total below) exec Fbeg Fstart Fendz Fend Fbm B1 B2) as [A1 A2].
  split; intros p q Hp Hf; rewrite Heq in Hf; [exact (A1 p q Hp Hf) | exact (A2 p q Hp Hf)].
Qed.

End DefaultFinder.

(* ====================================================================================
   leadingPrefixFirstRunes (optimizations.go:593) covers the first rune of every prefix
   ==================================================================================== *)

Lemma fd_first_runes_acc_spec : forall Ps acc,
  (forall c, zmem c acc = true -> zmem c (fd_leading_prefix_first_runes_acc Ps acc) = true) /\
  (forall c rest, In (c :: rest) Ps -> zmem c (fd_leading_prefix_first_runes_acc Ps acc) = true).
Proof.
  induction Ps as [|P Ps IH]; intros acc.
  - split; [intros c H; exact H | intros c rest []].
  - cbn [fd_leading_prefix_first_runes_acc]. destruct P as [|c0 P].
    + destruct (IH acc) as [IH1 IH2]. split; [exact IH1|].
      intros c rest [Heq|Hin]; [discriminate | exact (IH2 c rest Hin)].
    + destruct (zmem c0 acc) eqn:E.
      * destruct (IH acc) as [IH1 IH2]. split; [exact IH1|].
        intros c rest [Heq|Hin]; [inversion Heq; subst; apply IH1; exact E | exact (IH2 c rest Hin)].
      * destruct (IH (acc ++ [c0])) as [IH1 IH2]. split.
        -- intros c H. apply IH1. rewrite zmem_app, H. reflexivity.
        -- intros c rest [Heq|Hin]; [|exact (IH2 c rest Hin)].
           inversion Heq; subst. apply IH1. rewrite zmem_app. cbn. rewrite Z.eqb_refl. apply orb_true_r.
Qed.

Theorem fd_leading_prefix_first_runes_ok : forall Ps,
  forall c rest, In (c :: rest) Ps -> zmem c (fd_leading_prefix_first_runes Ps) = true.
Proof. intros Ps. exact (proj2 (fd_first_runes_acc_spec Ps [])). Qed.

(* ====================================================================================
   a sound finder + the minimum-length fact + (H3): the accelerated scan is the naive scan
   ==================================================================================== *)
Theorem fd_scan_sound : forall (R : Type) (text : list Z) (exec : Z -> option R * Z) (minreq : Z)
                               (F : Z -> res (bool * Z)),
  fd_sound R text exec F ->
  fd_minlen_fact R text exec minreq ->
  sc_H3 R (zlen text) false exec ->
  forall start prevlen, 0 <= start <= zlen text ->
  exists r, scan (zlen text) false minreq (fd_total F) exec start prevlen = Ok r
         /\ naive_scan (zlen text) false exec start prevlen = Ok r.
Proof.
  intros R text exec minreq F HF Hmin H3 start prevlen Hs.
  destruct (fd_sound_H1 R text exec F HF) as [H1t H1f].
  apply sc_scan_finder_sound; try assumption.
  intros x Hx Ha. unfold sc_in_text, sc_ahead in *.
  apply fd_not_succeeds_fails. intros Hsx. specialize (Hmin x Hx Hsx). lia.
Qed.

(* ====================================================================================
   plugging facts in: pointwise forms, and the whole default finder in the scan loop
   ==================================================================================== *)

(* "the text at q starts with P" stated rune by rune *)
Lemma fd_prefix_fact_pointwise : forall (R : Type) (text : list Z) (exec : Z -> option R * Z) eqc P,
  (forall q, 0 <= q <= zlen text -> fd_succeeds R exec q ->
     q + zlen P <= zlen text /\
     forall j, 0 <= j < zlen P -> eqc (nth (Z.to_nat (q + j)) text 0) (nth (Z.to_nat j) P 0) = true) ->
  fd_prefix_fact R text exec eqc P.
Proof.
  intros R text exec eqc P H q Hq Hs. destruct (H q Hq Hs) as [Hlen Hall].
  apply fd_prefix_match_intro.
  - rewrite fd_zlen_skipn by lia. lia.
  - intros j Hj. rewrite fd_nth_skipn_Z by lia. apply Hall. exact Hj.
Qed.

(* the fixed-distance-set fact from plain Set membership, when Chars / Range abbreviate the Set exactly *)
Definition fd_fds_abbrev_ok (set_in : Z -> Z -> bool) (s : fdset) : Prop :=
  exists id, fs_set s = Some id /\ forall c, fd_char_in_fds set_in s c = set_in id c.

Lemma fd_fds_fact_of_sets : forall (R : Type) (text : list Z) (exec : Z -> option R * Z) set_in sets,
  (forall s, In s sets -> fd_fds_abbrev_ok set_in s) ->
  (forall q, 0 <= q <= zlen text -> fd_succeeds R exec q -> forall s id, In s sets -> fs_set s = Some id ->
     0 <= q + fs_distance s < zlen text /\ set_in id (nth (Z.to_nat (q + fs_distance s)) text 0) = true) ->
  fd_fds_fact R text exec set_in sets.
Proof.
  intros R text exec set_in sets Hab H q Hq Hs s Hin.
  destruct (Hab s Hin) as (id & Hid & Heq). destruct (H q Hq Hs s id Hin Hid) as [H1 H2].
  split; [exact H1|]. rewrite Heq. exact H2.
Qed.

(* the whole findFirstCharDefault in the scan loop *)
Theorem fd_default_scan_sound : forall (R : Type) (text : list Z) (exec : Z -> option R * Z)
    (set_in : Z -> Z -> bool) (lower : Z -> Z) (rtl : bool) (anchors ts : Z)
    (bm : option (Z -> bool)) (bm_scan : option (Z -> Z)) (o : option fdopts) (fc : option fdfc) (minreq : Z),
  let n := zlen text in
  let F := fd_total (fd_find_first_char_default text set_in lower rtl anchors ts bm bm_scan o fc) in
  sc_H1_true R n rtl F exec -> sc_H1_false R n rtl F exec ->
  sc_H2 R n rtl minreq exec -> sc_H3 R n rtl exec ->
  forall start prevlen, 0 <= start <= n ->
  exists r, scan n rtl minreq F exec start prevlen = Ok r /\ naive_scan n rtl exec start prevlen = Ok r.
Proof.
  intros R text exec set_in lower rtl anchors ts bm bm_scan o fc minreq n F H1t H1f H2 H3 start prevlen Hs.
  apply sc_scan_finder_sound; assumption.
Qed.

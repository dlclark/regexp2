(* compile_correct, part 1: the constructor set covered ([supported]), side conditions, the length
   of the emitted code, capture-array facts, what the simulation needs of a capture relation
   ([caps_view]) and the per-node proof obligation [ok_nodeR].
   Writer configuration: cfg0 = {| capmap := None; quick := None |} (identity slot map, full code). *)
From Verif Require Import Base.Prelude Model.Tree Model.Spec Model.VM Model.Writer Gen.RunnerGen
  Proofs.SpecProofs Proofs.SpecBoundsProofs Proofs.MaskProofs
  Proofs.VMU Proofs.VMUOps Proofs.VMUOps2 Proofs.VMUOps6 Proofs.VMUOps3 Proofs.CompileBase.
From Coq Require Import Relations ZifyBool.

Definition cfg0 : wcfg := {| capmap := None; quick := None |}.

Fixpoint supported (t : node) : bool :=
  match t with
  | NChar _ _ _ | NAnchor _ | NNothing | NEmpty | NBump => true
  | NCharLoop _ _ _ _ m n => (0 <=? m) && (m <=? n) && (n <=? INF)
  | NMulti _ _ | NRef _ _ => true
  | NConcat _ l => (fix go (l : list node) : bool := match l with [] => true | x :: l' => supported x && go l' end) l
  | NAlternate _ l =>
      match l with [] => false | _ => true end &&
      (fix go (l : list node) : bool := match l with [] => true | x :: l' => supported x && go l' end) l
  | NCapture _ g u r => (u =? -1) && supported r
  | NGroup r | NAtomic r | NPosLook _ r | NNegLook _ r => supported r
  | NLoop _ _ m n r => (0 <=? m) && (n <=? INF) && supported r
  | NBackRefCond _ _ yes no => supported yes && match no with Some x => supported x | None => true end
  | NExprCond _ c yes no => supported c && supported yes && match no with Some x => supported x | None => true end
  end.

Definition supported_list (l : list node) : bool :=
  (fix go (l : list node) : bool := match l with [] => true | x :: l' => supported x && go l' end) l.

(* every group number used is a slot of the program *)
Definition grp_ok_node (cs : Z) (t : node) : Prop :=
  match t with
  | NCapture _ g _ _ => 0 <= g < cs
  | NRef _ g => 0 <= g < cs
  | NBackRefCond _ g _ _ => 0 <= g < cs
  | _ => True
  end.
Definition groups_ok (cs : Z) (t : node) : Prop := sb_all (grp_ok_node cs) t.

Lemma emit_seq_length c l : Forall (fun t => forall a tbl, zlen (fst (emit c t a tbl)) = csize c t) l ->
  forall a tbl, zlen (fst (emit_seq c l a tbl)) = csize_seq c l.
Proof.
  induction 1 as [|x l Hx Hl IH]; intros a tbl; cbn [emit_seq csize_seq]; [reflexivity|].
  specialize (Hx a tbl). destruct (emit c x a tbl) as [cx t1]. cbn [fst] in Hx.
  specialize (IH (a + zlen cx) t1). destruct (emit_seq c l (a + zlen cx) t1) as [cr t2]. cbn [fst] in *.
  rewrite zlen_app. lia.
Qed.

Lemma emit_alt_length c lend l : Forall (fun t => forall a tbl, zlen (fst (emit c t a tbl)) = csize c t) l ->
  forall a tbl, zlen (fst (emit_alt c lend l a tbl)) = csize_alt c l.
Proof.
  induction 1 as [|x l Hx Hl IH]; intros a tbl; [reflexivity|].
  destruct l as [|y l'].
  - cbn [emit_alt csize_alt]. apply Hx.
  - rewrite wr_emit_alt_cons2, wr_csize_alt_cons2.
    specialize (Hx (a + 2) tbl). destruct (emit c x (a + 2) tbl) as [cx t1]. cbn [fst] in Hx.
    cbv zeta. specialize (IH (a + 2 + zlen cx + 2) t1).
    destruct (emit_alt c lend (y :: l') (a + 2 + zlen cx + 2) t1) as [cr t2]. cbn [fst] in *.
    rewrite !zlen_app, !zlen_cons, zlen_nil. lia.
Qed.

Lemma emit_length c : forall t a tbl, zlen (fst (emit c t a tbl)) = csize c t.
Proof.
  induction t using node_ind'; intros aa tbl.
  - reflexivity.
  - cbn [emit csize fst]. destruct (0 <? m), (m <? n); reflexivity.
  - cbn [emit csize]. destruct (string_code s tbl). reflexivity.
  - reflexivity.
  - reflexivity.
  - reflexivity.
  - reflexivity.
  - reflexivity.
  - rewrite wr_emit_concat_eq, wr_csize_concat_eq. apply emit_seq_length. assumption.
  - rewrite wr_emit_alternate_eq, wr_csize_alternate_eq. apply emit_alt_length. assumption.
  - cbn [emit csize].
    match goal with |- context [emit c t ?x tbl] => specialize (IHt x tbl); destruct (emit c t x tbl) as [cr t1] end.
    cbn [fst] in *. rewrite !zlen_app, IHt.
    destruct (counted m n), (m =? 0); rewrite ?zlen_cons, ?zlen_nil; lia.
  - cbn [emit csize]. destruct (emit_capture c g u).
    + specialize (IHt (aa + 1) tbl). destruct (emit c t (aa + 1) tbl) as [cr t1]. cbn [fst] in *.
      rewrite !zlen_app, IHt, !zlen_cons, zlen_nil. lia.
    + apply IHt.
  - cbn [emit csize]. apply IHt.
  - cbn [emit csize]. specialize (IHt (aa + 2) tbl). destruct (emit c t (aa + 2) tbl) as [cr t1]. cbn [fst] in *.
    rewrite !zlen_app, IHt, !zlen_cons, zlen_nil. lia.
  - cbn [emit csize]. specialize (IHt (aa + 3) tbl). destruct (emit c t (aa + 3) tbl) as [cr t1]. cbn [fst] in *.
    rewrite !zlen_app, IHt, !zlen_cons, zlen_nil. lia.
  - cbn [emit csize]. specialize (IHt (aa + 1) tbl). destruct (emit c t (aa + 1) tbl) as [cr t1]. cbn [fst] in *.
    rewrite !zlen_app, IHt, !zlen_cons, zlen_nil. lia.
  - cbn [emit csize]. specialize (IHt (aa + 6) tbl). destruct (emit c t (aa + 6) tbl) as [cy t1]. cbn [fst] in *.
    destruct no as [x|]; cbn [opt_all] in *.
    + match goal with |- context [emit c x ?y t1] => specialize (H y t1); destruct (emit c x y t1) as [cn t2] end.
      cbn [fst] in *. rewrite !zlen_app, IHt, H, !zlen_cons, zlen_nil. lia.
    + cbn [fst]. rewrite !zlen_app, IHt, !zlen_cons, zlen_nil. lia.
  - cbn [emit csize]. specialize (IHt1 (aa + 4) tbl). destruct (emit c t1 (aa + 4) tbl) as [cc t1']. cbn [fst] in *.
    match goal with |- context [emit c t2 ?y t1'] => specialize (IHt2 y t1'); destruct (emit c t2 y t1') as [cy t2'] end.
    cbn [fst] in *.
    destruct no as [x|]; cbn [opt_all] in *.
    + match goal with |- context [emit c x ?y t2'] => specialize (H y t2'); destruct (emit c x y t2') as [cn t3] end.
      cbn [fst] in *. rewrite !zlen_app, IHt1, IHt2, H, !zlen_cons, zlen_nil. lia.
    + cbn [fst]. rewrite !zlen_app, IHt1, IHt2, !zlen_cons, zlen_nil. lia.
Qed.

(* ---------- the string table only grows ---------- *)
Definition tbl_ext (tbl tbl' : list (list Z)) : Prop := exists ext, tbl' = tbl ++ ext.
Lemma tbl_ext_refl tbl : tbl_ext tbl tbl.
Proof. exists []. rewrite app_nil_r. reflexivity. Qed.
Lemma tbl_ext_trans a b c : tbl_ext a b -> tbl_ext b c -> tbl_ext a c.
Proof. intros [x ->] [y ->]. exists (x ++ y). rewrite app_assoc. reflexivity. Qed.

Lemma emit_seq_tbl_ext c l : Forall (fun t => forall a tbl, tbl_ext tbl (snd (emit c t a tbl))) l ->
  forall a tbl, tbl_ext tbl (snd (emit_seq c l a tbl)).
Proof.
  induction 1 as [|x l Hx Hl IH]; intros a tbl; cbn [emit_seq]; [apply tbl_ext_refl|].
  specialize (Hx a tbl). destruct (emit c x a tbl) as [cx t1]. cbn [snd] in Hx.
  specialize (IH (a + zlen cx) t1). destruct (emit_seq c l (a + zlen cx) t1) as [cr t2]. cbn [snd] in *.
  eapply tbl_ext_trans; eassumption.
Qed.

Lemma emit_alt_tbl_ext c lend l : Forall (fun t => forall a tbl, tbl_ext tbl (snd (emit c t a tbl))) l ->
  forall a tbl, tbl_ext tbl (snd (emit_alt c lend l a tbl)).
Proof.
  induction 1 as [|x l Hx Hl IH]; intros a tbl; [apply tbl_ext_refl|].
  destruct l as [|y l'].
  - cbn [emit_alt]. apply Hx.
  - rewrite wr_emit_alt_cons2.
    specialize (Hx (a + 2) tbl). destruct (emit c x (a + 2) tbl) as [cx t1]. cbn [snd] in Hx.
    cbv zeta. specialize (IH (a + 2 + zlen cx + 2) t1).
    destruct (emit_alt c lend (y :: l') (a + 2 + zlen cx + 2) t1) as [cr t2]. cbn [snd] in *.
    eapply tbl_ext_trans; eassumption.
Qed.

Lemma emit_tbl_ext c : forall t a tbl, tbl_ext tbl (snd (emit c t a tbl)).
Proof.
  induction t using node_ind'; intros aa tbl; try (cbn [emit snd]; apply tbl_ext_refl).
  - cbn [emit]. unfold string_code. destruct (str_index s tbl 0); cbn [snd].
    + apply tbl_ext_refl.
    + exists [s]. reflexivity.
  - rewrite wr_emit_concat_eq. apply emit_seq_tbl_ext. assumption.
  - rewrite wr_emit_alternate_eq. apply emit_alt_tbl_ext. assumption.
  - cbn [emit].
    match goal with |- context [emit c t ?x tbl] => specialize (IHt x tbl); destruct (emit c t x tbl) as [cr t1] end.
    exact IHt.
  - cbn [emit]. destruct (emit_capture c g u).
    + specialize (IHt (aa + 1) tbl). destruct (emit c t (aa + 1) tbl) as [cr t1]. exact IHt.
    + apply IHt.
  - cbn [emit]. apply IHt.
  - cbn [emit]. specialize (IHt (aa + 2) tbl). destruct (emit c t (aa + 2) tbl) as [cr t1]. exact IHt.
  - cbn [emit]. specialize (IHt (aa + 3) tbl). destruct (emit c t (aa + 3) tbl) as [cr t1]. exact IHt.
  - cbn [emit]. specialize (IHt (aa + 1) tbl). destruct (emit c t (aa + 1) tbl) as [cr t1]. exact IHt.
  - cbn [emit]. specialize (IHt (aa + 6) tbl). destruct (emit c t (aa + 6) tbl) as [cy t1]. cbn [snd] in *.
    destruct no as [x|]; cbn [opt_all] in *.
    + match goal with |- context [emit c x ?y t1] => specialize (H y t1); destruct (emit c x y t1) as [cn t2] end.
      cbn [snd] in *. eapply tbl_ext_trans; eassumption.
    + exact IHt.
  - cbn [emit]. specialize (IHt1 (aa + 4) tbl). destruct (emit c t1 (aa + 4) tbl) as [cc t1']. cbn [snd] in *.
    match goal with |- context [emit c t2 ?y t1'] => specialize (IHt2 y t1'); destruct (emit c t2 y t1') as [cy t2'] end.
    cbn [snd] in *.
    destruct no as [x|]; cbn [opt_all] in *.
    + match goal with |- context [emit c x ?y t2'] => specialize (H y t2'); destruct (emit c x y t2') as [cn t3] end.
      cbn [snd] in *. eapply tbl_ext_trans; [eassumption|]. eapply tbl_ext_trans; eassumption.
    + eapply tbl_ext_trans; eassumption.
Qed.

Lemma cc_list_set_length {A} (l : list A) n x : length (list_set l n x) = length l.
Proof. revert n; induction l as [|h l IH]; intros [|n]; cbn [list_set length]; try reflexivity. rewrite IH. reflexivity. Qed.
Lemma cc_nth_list_set_same {A} (l : list A) n x d : (n < length l)%nat -> nth n (list_set l n x) d = x.
Proof. revert n; induction l as [|h l IH]; intros [|n] H; cbn [list_set nth length] in *; try lia; [reflexivity|]. apply IH. lia. Qed.
Lemma cc_nth_list_set_other {A} (l : list A) n m x d : n <> m -> nth m (list_set l n x) d = nth m l d.
Proof.
  revert n m; induction l as [|h l IH]; intros [|n] [|m] H; cbn [list_set nth]; try reflexivity; try congruence.
  apply IH. congruence.
Qed.
Lemma cc_list_set_set {A} (l : list A) n x y : list_set (list_set l n x) n y = list_set l n y.
Proof. revert n; induction l as [|h l IH]; intros [|n]; cbn [list_set]; try reflexivity. rewrite IH. reflexivity. Qed.
Lemma cc_list_set_id {A} (l : list A) n d : list_set l n (nth n l d) = l.
Proof. revert n; induction l as [|h l IH]; intros [|n]; cbn [list_set nth]; try reflexivity. rewrite IH. reflexivity. Qed.

Lemma cc_znth_nth {A} (l : list A) g d : 0 <= g < zlen l -> znth l g = Some (nth (Z.to_nat g) l d).
Proof.
  intros H. unfold znth. replace (g <? 0) with false by lia. apply nth_error_nth'. unfold zlen in H. lia.
Qed.
Lemma cc_znth_some_nth {A} (l : list A) g d x : znth l g = Some x -> nth (Z.to_nat g) l d = x /\ 0 <= g < zlen l.
Proof.
  unfold znth. destruct (g <? 0) eqn:E; [discriminate|]. intros H. split.
  - apply nth_error_nth. exact H.
  - assert (Hl : (Z.to_nat g < length l)%nat) by (apply nth_error_Some; congruence). unfold zlen. lia.
Qed.

Lemma cc_flat_app a b : flat (a ++ b) = flat a ++ flat b.
Proof. induction a as [|[i n] a IH]; cbn [flat app]; [reflexivity|]. rewrite IH. reflexivity. Qed.

Lemma cc_remove_match_set M g arr x y :
  znth M g = Some arr -> remove_match g (mc_set g (arr ++ [x; y]) M) = Some M.
Proof.
  intros H. pose proof (cc_znth_some_nth M g [] arr H) as [Hn Hg].
  unfold remove_match, mc_get, mc_set.
  assert (Hl : (Z.to_nat g < length M)%nat) by (unfold zlen in Hg; lia).
  rewrite (cc_znth_nth _ g []) by (unfold zlen; rewrite cc_list_set_length; unfold zlen in Hg; lia).
  rewrite cc_nth_list_set_same by exact Hl.
  rewrite zlen_app. replace (zlen arr + zlen [x; y] <? 2) with false by (pose proof (zlen_nonneg arr); cbn; lia).
  rewrite cc_list_set_set. f_equal.
  rewrite app_length. cbn [length]. replace (length arr + 2 - 2)%nat with (length arr + 0)%nat by lia.
  rewrite firstn_app_2. cbn [firstn]. rewrite app_nil_r. rewrite <- Hn. apply cc_list_set_id.
Qed.

Lemma sb_all_conj_list (P Q : node -> Prop) l :
  Forall (fun t => sb_all P t -> sb_all Q t -> sb_all (fun t => P t /\ Q t) t) l ->
  sb_all_list P l -> sb_all_list Q l -> sb_all_list (fun t => P t /\ Q t) l.
Proof.
  induction 1 as [|x l Hx _ IH]; intros Hp Hq; [exact I|].
  destruct Hp as [Hp1 Hp2]. destruct Hq as [Hq1 Hq2]. split; [apply Hx; assumption|apply IH; assumption].
Qed.

Lemma sb_all_conj (P Q : node -> Prop) : forall t, sb_all P t -> sb_all Q t -> sb_all (fun t => P t /\ Q t) t.
Proof.
  induction t using node_ind'; cbn [sb_all]; intros [Hp Hp'] [Hq Hq']; (split; [split; assumption|]);
    try exact I; try (apply IHt; assumption); try (apply sb_all_conj_list; assumption).
  - destruct Hp' as [Hpy Hpn]. destruct Hq' as [Hqy Hqn]. split; [apply IHt; assumption|].
    destruct no as [x|]; [apply H; assumption|exact I].
  - destruct Hp' as (Hpc & Hpy & Hpn). destruct Hq' as (Hqc & Hqy & Hqn).
    split; [apply IHt1; assumption|]. split; [apply IHt2; assumption|].
    destruct no as [x|]; [apply H; assumption|exact I].
Qed.

Section CC.
Variable e : env.
Variable p : program.
Hypothesis tc_nonneg : 0 <= trackcount p.

Notation rsteps := (VMUOps2.rsteps e p).
Notation has_code := (CompileBase.has_code p).
Notation track_ok := (CompileBase.track_ok p).
Notation caps_rel := (CompileBase.caps_rel p).

Definition code_ex (a : Z) : Prop := exists w, code_at p a = Some w.

Lemma cc_code_ex_start a ws : has_code a ws -> code_ex (a + zlen ws) -> code_ex a.
Proof.
  intros H Hx. destruct ws as [|w ws].
  - rewrite zlen_nil, Z.add_0_r in Hx. exact Hx.
  - apply has_code_cons in H. destruct H as [H _]. exists w. exact H.
Qed.

Lemma cc_caps_rel_push c M g iv : caps_rel c M -> 0 <= g < capsize p ->
  caps_rel (cap_push g iv c) (mc_set g (nth (Z.to_nat g) M [] ++ [fst iv; snd iv]) M).
Proof.
  intros [Hl Hc] Hg. split.
  - unfold mc_set, zlen. rewrite cc_list_set_length. exact Hl.
  - intros g' Hg'. unfold mc_set, cap_push. destruct (Z.eq_dec g' g) as [->|Hne].
    + rewrite cc_nth_list_set_same by (unfold zlen in Hl; lia).
      rewrite sb_cap_get_set_same. cbn [rev]. rewrite cc_flat_app. rewrite Hc by exact Hg.
      destruct iv as [i n]. reflexivity.
    + rewrite cc_nth_list_set_other by lia. rewrite sb_cap_get_set_other by exact Hne. apply Hc. exact Hg'.
Qed.

(* the program's string table contains the writer's table *)
Definition tbl_ok (tbl : list (list Z)) : Prop :=
  forall i str, znth tbl i = Some str -> znth (strings p) i = Some str.

Lemma tbl_ok_ext tbl tbl' : tbl_ext tbl tbl' -> tbl_ok tbl' -> tbl_ok tbl.
Proof.
  intros [ext ->] H i str Hi. apply H. unfold znth in *. destruct (i <? 0); [discriminate|].
  rewrite nth_error_app1; [exact Hi|]. apply nth_error_Some. congruence.
Qed.

End CC.

(* ---------- results stay inside the text ---------- *)
Lemma cc_res_ok_in e f t s res q : loops_min_ok t -> sem e f t s = Ok res -> st_ok e s -> In q res -> st_ok e q.
Proof.
  intros Hs H Hst Hin. pose proof (sb_sem_in_bounds e f t s res Hs H Hst) as F.
  rewrite Forall_forall in F. apply F. exact Hin.
Qed.

Section CV.
Variable e : env.
Variable p : program.
Variable R : caps_t -> list (list Z) -> Prop.

(* All the simulation uses of a relation [R] between the reference semantics' capture table and the
   interpreter's capture arrays: the empty table, recording a capture (Capturemark without balancing),
   and the readings isMatched / matchIndex / matchLength (Ref, Testref, the final state). *)
Record caps_view : Prop := {
  cv_len : forall c M, R c M -> zlen M = capsize p;
  cv_init : 0 <= capsize p -> R [] (repeat [] (Z.to_nat (capsize p)));
  cv_push : forall c M g iv, R c M -> 0 <= g < capsize p -> 0 <= fst iv -> 0 <= snd iv ->
    R (cap_push g iv c) (mc_set g (nth (Z.to_nat g) M [] ++ [fst iv; snd iv]) M);
  cv_matched : forall c M g, R c M -> 0 <= g < capsize p -> sb_caps_ok e c ->
    vm_is_matched g M = Some (is_matched g c);
  cv_index_length : forall c M g i len rest, R c M -> 0 <= g < capsize p -> sb_caps_ok e c ->
    cap_get g c = (i, len) :: rest ->
    vm_match_index g M = Some i /\ vm_match_length g M = Some len /\ 0 <= i /\ 0 <= len /\ i + len <= tlen e
}.

(* what has to be shown for one node at one fuel level *)
Definition ok_nodeR (f : nat) (t : node) : Prop :=
  forall s res, sem e f t s = Ok res -> st_ok e s ->
  forall a tbl T S C M, has_code p a (fst (emit cfg0 t a tbl)) -> code_ex p (a + csize cfg0 t) ->
    track_ok p T -> R (caps s) M -> tbl_ok p (snd (emit cfg0 t a tbl)) ->
    leadsR e p R (a + csize cfg0 t) T S S C M (mkr a 0 (pos s) T S C M) res.

End CV.

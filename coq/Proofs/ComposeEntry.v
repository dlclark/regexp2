(* Composition D: the engine hypotheses of the C02 headline (EntryProofs.enp_string_entry_equals_rune_entry)
   discharged for the engine BUILT FROM THE REFERENCE SEMANTICS (Model/Spec.v), left-to-right.

   1. ce_no_start / ce_sem_start_indep : a tree without \G is evaluated without reading [tstart]
      (anchor_ok e AStart is the only reader), so sem / attempt / find do not depend on it.
   2. ce_search : FindRunesMatchStartingAt as Spec.find with \G bound to the start (tstart = s,
      prevlen = -1, left-to-right); ce_index : Match.RuneIndex = start of group 0.
   3. ce_in_range, ce_start_indep, ce_quick_agrees : the three abstract-engine hypotheses.
      The only residual hypothesis is termination of Spec.attempt with the supplied fuel
      (ce_terminates), needed for start independence alone.
   4. ce_has_opcode_start : Code.HasOpcode(Start) on the compiled program = "the tree contains \G",
      for every writer configuration.
   5. ce_string_entry_for_trees : the headline for trees. *)
From Verif Require Import Base.Prelude Base.Utf8 Model.Tree Model.Spec Model.VM Model.Writer Gen.CodeGen
  Model.Analysis Model.Offsets Model.Entry
  Proofs.MaskProofs Proofs.SpecProofs Proofs.SpecBoundsProofs Proofs.AnalysisProofs
  Proofs.EraseProofs Proofs.EraseLinkProofs
  Proofs.Utf8Proofs Proofs.EntryBase Proofs.EntryFilter Proofs.EntryProofs.
From Verif Require Import Proofs.ListFacts.
From Coq Require Import ZifyBool.
Ltac Zify.zify_post_hook ::= Z.div_mod_to_equations.

(* ================================================================================================
   1. trees without \G do not read the scan start
   ================================================================================================ *)

Fixpoint ce_no_start (t : node) : bool :=
  match t with
  | NAnchor AStart => false
  | NConcat _ l => forallb ce_no_start l
  | NAlternate _ l => forallb ce_no_start l
  | NLoop _ _ _ _ r => ce_no_start r
  | NCapture _ _ _ r => ce_no_start r
  | NGroup r => ce_no_start r
  | NPosLook _ r => ce_no_start r
  | NNegLook _ r => ce_no_start r
  | NAtomic r => ce_no_start r
  | NBackRefCond _ _ yes no => ce_no_start yes && match no with Some n => ce_no_start n | None => true end
  | NExprCond _ c yes no =>
      ce_no_start c && ce_no_start yes && match no with Some n => ce_no_start n | None => true end
  | _ => true
  end.

Lemma ce_no_start_concat o l : ce_no_start (NConcat o l) = forallb ce_no_start l.
Proof. reflexivity. Qed.
Lemma ce_no_start_alternate o l : ce_no_start (NAlternate o l) = forallb ce_no_start l.
Proof. reflexivity. Qed.

Definition ce_env_at (e : env) (ts : Z) : env :=
  {| txt := txt e; tstart := ts; ecma := ecma e; endz_strict := endz_strict e; set_in := set_in e;
     lower := lower e; is_word := is_word e; is_eword := is_eword e |}.

Lemma ce_run_len_at e ts k c o : forall maxn p,
  run_len (ce_env_at e ts) k c o maxn p = run_len e k c o maxn p.
Proof. induction maxn as [|m IH]; intros p; cbn [run_len]; [reflexivity|]. rewrite IH. reflexivity. Qed.

Lemma ce_sem_charloop_at e ts k l o c m n s :
  sem_charloop (ce_env_at e ts) k l o c m n s = sem_charloop e k l o c m n s.
Proof. unfold sem_charloop. rewrite ce_run_len_at. reflexivity. Qed.

Lemma ce_str_match_at_at e ts ci : forall str p,
  str_match_at (ce_env_at e ts) ci str p = str_match_at e ci str p.
Proof. induction str as [|c str IH]; intros p; cbn [str_match_at]; [reflexivity|]. rewrite IH. reflexivity. Qed.

Lemma ce_sem_multi_at e ts o str s : sem_multi (ce_env_at e ts) o str s = sem_multi e o str s.
Proof. unfold sem_multi. rewrite ce_str_match_at_at. reflexivity. Qed.

Lemma ce_ref_match_at_at e ts ci : forall len i p,
  ref_match_at (ce_env_at e ts) ci len i p = ref_match_at e ci len i p.
Proof. induction len as [|l IH]; intros i p; cbn [ref_match_at]; [reflexivity|]. rewrite IH. reflexivity. Qed.

Lemma ce_sem_ref_at e ts o g s : sem_ref (ce_env_at e ts) o g s = sem_ref e o g s.
Proof.
  unfold sem_ref. destruct (cap_get g (caps s)) as [|[i len] rest]; [reflexivity|].
  rewrite ce_ref_match_at_at. reflexivity.
Qed.

Lemma ce_view e ts t : ce_no_start t = true ->
  sem_view (ce_env_at e ts) e eq (fun a b => a = b /\ ce_no_start b = true) eq eq (fun _ => False) t t.
Proof.
  intros Hn.
  assert (Hl : forall l, forallb ce_no_start l = true -> Forall2 (fun a b => a = b /\ ce_no_start b = true) l l).
  { induction l as [|x l IHl]; cbn [forallb]; intros H; [constructor|].
    apply andb_prop in H. destruct H as [Hx H]. constructor; [split; [reflexivity|exact Hx]|exact (IHl H)]. }
  assert (Ho : forall no, match no with Some n => ce_no_start n | None => true end = true ->
                          opt_rel (fun a b => a = b /\ ce_no_start b = true) no no).
  { intros [n|] H; [split; [reflexivity|exact H]|exact I]. }
  destruct t as [kd o c|kd lk o c m n|o str|o g|a| | | |o cl|o cl|lazy o m n r|o g u r|r|o r|o r|r
                |o g yes no|o c yes no]; cbn [ce_no_start] in Hn.
  1-8: apply SV_leaf_eq; try reflexivity; intros f s; cbn [sem];
    rewrite ?ce_sem_charloop_at, ?ce_sem_multi_at, ?ce_sem_ref_at; try reflexivity.
  - destruct a; try reflexivity. discriminate Hn.
  - apply SV_concat, Hl, Hn.
  - apply SV_alternate, Hl, Hn.
  - apply SV_loop. split; [reflexivity|exact Hn].
  - apply SV_capture; [split; [reflexivity|exact Hn]|reflexivity|right; reflexivity].
  - apply SV_group. split; [reflexivity|exact Hn].
  - apply SV_poslook. split; [reflexivity|exact Hn].
  - apply SV_neglook. split; [reflexivity|exact Hn].
  - apply SV_atomic. split; [reflexivity|exact Hn].
  - apply andb_prop in Hn. destruct Hn as [Hy Hno].
    apply SV_backrefcond; [reflexivity|split; [reflexivity|exact Hy]|exact (Ho no Hno)].
  - apply andb_prop in Hn. destruct Hn as [Hn Hno]. apply andb_prop in Hn. destruct Hn as [Hc Hy].
    apply SV_exprcond; [split; [reflexivity|assumption]..|exact (Ho no Hno)].
Qed.

Theorem ce_sem_at e ts : forall fuel t s,
  ce_no_start t = true -> sem (ce_env_at e ts) fuel t s = sem e fuel t s.
Proof.
  intros fuel t s Hn. apply (sem_ext (ce_env_at e ts) e (fun a b => a = b /\ ce_no_start b = true)).
  - intros t1 t2 [-> H]. apply ce_view. exact H.
  - split; [reflexivity|exact Hn].
Qed.

Corollary ce_attempt_at e ts fuel root p :
  ce_no_start root = true -> attempt (ce_env_at e ts) fuel root p = attempt e fuel root p.
Proof. intros Hn. unfold attempt. rewrite (ce_sem_at e ts fuel root _ Hn). reflexivity. Qed.

Lemma ce_scan_from_at e ts fuel root rtl : ce_no_start root = true -> forall n p,
  scan_from (ce_env_at e ts) fuel n root rtl p = scan_from e fuel n root rtl p.
Proof.
  intros Hn. induction n as [|n IH]; intros p; [reflexivity|].
  cbn [scan_from]. rewrite (ce_attempt_at e ts fuel root p Hn).
  destruct (attempt e fuel root p) as [[s|]| | |]; cbn [bind]; try reflexivity.
  change (tlen (ce_env_at e ts)) with (tlen e).
  destruct (if rtl then p <=? 0 else tlen e <=? p); [reflexivity|]. apply IH.
Qed.

Corollary ce_find_at e ts fuel root rtl start prevlen :
  ce_no_start root = true ->
  find (ce_env_at e ts) fuel root rtl start prevlen = find e fuel root rtl start prevlen.
Proof.
  intros Hn. unfold find. change (tlen (ce_env_at e ts)) with (tlen e).
  destruct ((prevlen =? 0) && (start =? (if rtl then 0 else tlen e))); [reflexivity|].
  apply ce_scan_from_at. exact Hn.
Qed.

Definition ce_same_but_start (e e' : env) : Prop :=
  txt e' = txt e /\ ecma e' = ecma e /\ endz_strict e' = endz_strict e /\ set_in e' = set_in e /\
  lower e' = lower e /\ is_word e' = is_word e /\ is_eword e' = is_eword e.

Lemma ce_same_but_start_at e e' : ce_same_but_start e e' -> e' = ce_env_at e (tstart e').
Proof.
  intros (H1 & H2 & H3 & H4 & H5 & H6 & H7). destruct e, e'. unfold ce_env_at. cbn in *. subst. reflexivity.
Qed.

Theorem ce_sem_start_indep e e' t :
  ce_same_but_start e e' -> ce_no_start t = true ->
  forall fuel,
    (forall s, sem e' fuel t s = sem e fuel t s) /\
    (forall p, attempt e' fuel t p = attempt e fuel t p) /\
    (forall rtl start prevlen, find e' fuel t rtl start prevlen = find e fuel t rtl start prevlen).
Proof.
  intros Hs Hn fuel. rewrite (ce_same_but_start_at e e' Hs). split; [|split].
  - intros s. apply ce_sem_at. exact Hn.
  - intros p. apply ce_attempt_at. exact Hn.
  - intros rtl start prevlen. apply ce_find_at. exact Hn.
Qed.

(* ================================================================================================
   2. the engine built from the reference semantics
   ================================================================================================ *)

(* the oracles of e0 on the text r, \G at ts *)
Definition ce_env (e0 : env) (r : list Z) (ts : Z) : env :=
  {| txt := r; tstart := ts; ecma := ecma e0; endz_strict := endz_strict e0; set_in := set_in e0;
     lower := lower e0; is_word := is_word e0; is_eword := is_eword e0 |}.

(* FindRunesMatchStartingAt(r, s): fresh scan (prevlen = -1), \G = s, left-to-right; an attempt that
   runs out of fuel is "no answer" *)
Definition ce_search (e0 : env) (fuel_of : list Z -> nat) (root : node) (r : list Z) (s : Z) : option st :=
  match find (ce_env e0 r s) (fuel_of r) root false s (-1) with
  | Ok (Some m) => Some m
  | _ => None
  end.

(* Match.RuneIndex: start of the (single) capture of group 0 *)
Definition ce_index (m : st) : Z :=
  match cap_get 0 (caps m) with (i, _) :: _ => i | [] => -1 end.

(* the bool-only search runs the tree of the quick program *)
Definition ce_search_quick (e0 : env) (fuel_of : list Z -> nat) (keep : Z -> bool) (root : node)
           (r : list Z) (s : Z) : bool :=
  match find (ce_env e0 r s) (fuel_of r) (erase keep root) false s (-1) with
  | Ok (Some _) => true
  | _ => false
  end.

(* residual hypothesis: with the fuel supplied for a text, every attempt inside it terminates *)
Definition ce_terminates (e0 : env) (fuel_of : list Z -> nat) (root : node) : Prop :=
  forall r ts x, 0 <= x <= zlen r -> exists res, attempt (ce_env e0 r ts) (fuel_of r) root x = Ok res.

Lemma ce_search_some e0 fuel_of root r s m :
  ce_search e0 fuel_of root r s = Some m ->
  find (ce_env e0 r s) (fuel_of r) root false s (-1) = Ok (Some m).
Proof.
  unfold ce_search. destruct (find (ce_env e0 r s) (fuel_of r) root false s (-1)) as [[m'|]| | |];
    intros H; try discriminate H. injection H as ->. reflexivity.
Qed.

Lemma ce_find_scan e fuel root s :
  find e fuel root false s (-1) = scan_from e fuel (S (Z.to_nat (tlen e))) root false s.
Proof. reflexivity. Qed.

Lemma ce_scan_from_first e fuel root : forall n p x m,
  p <= x <= tlen e -> (Z.to_nat (x - p) < n)%nat ->
  (forall q, p <= q < x -> attempt e fuel root q = Ok None) ->
  attempt e fuel root x = Ok (Some m) ->
  scan_from e fuel n root false p = Ok (Some m).
Proof.
  induction n as [|n IH]; intros p x m Hx Hn Hnone Hat; [lia|].
  cbn [scan_from]. destruct (Z.eq_dec p x) as [->|Hne].
  - rewrite Hat. reflexivity.
  - rewrite (Hnone p) by lia. cbn [bind]. replace (tlen e <=? p) with false by lia.
    apply (IH (p + 1) x m); [lia|lia| |exact Hat]. intros q Hq. apply Hnone. lia.
Qed.

Lemma ce_scan_from_none e fuel root : forall n p,
  p <= tlen e -> (Z.to_nat (tlen e - p) < n)%nat ->
  (forall q, p <= q <= tlen e -> attempt e fuel root q = Ok None) ->
  scan_from e fuel n root false p = Ok None.
Proof.
  induction n as [|n IH]; intros p Hp Hn Hnone; [lia|].
  cbn [scan_from]. rewrite (Hnone p) by lia. cbn [bind].
  destruct (tlen e <=? p) eqn:E; [reflexivity|].
  apply IH; [lia|lia|]. intros q Hq. apply Hnone. lia.
Qed.

Lemma ce_scan_from_ok e fuel root : forall n p,
  p <= tlen e -> (forall q, p <= q <= tlen e -> exists res, attempt e fuel root q = Ok res) ->
  exists res, scan_from e fuel n root false p = Ok res.
Proof.
  induction n as [|n IH]; intros p Hp Hok; [exists None; reflexivity|].
  cbn [scan_from]. destruct (Hok p ltac:(lia)) as [res Hres]. rewrite Hres. cbn [bind].
  destruct res as [s|]; [exists (Some s); reflexivity|].
  destruct (tlen e <=? p) eqn:E; [exists None; reflexivity|].
  apply IH; [lia|]. intros q Hq. apply Hok. lia.
Qed.

(* ================================================================================================
   3. the abstract-engine hypotheses hold for it
   ================================================================================================ *)

(* a successful attempt of a well-shaped left-to-right pattern at p reports index p *)
Lemma ce_attempt_index e fuel o body p m :
  shape_ok false (NCapture o 0 (-1) body) = true -> no_group0 body -> 0 <= p <= tlen e ->
  attempt e fuel (NCapture o 0 (-1) body) p = Ok (Some m) -> ce_index m = p.
Proof.
  intros Hsh Hg0 Hp Hat.
  pose proof (an_attempt_len_sound e false fuel _ p m Hsh Hp Hat) as (_ & Hmin & _).
  pose proof (an_min_len_nonneg false _ Hsh) as Hnn. cbv iota in Hmin.
  unfold ce_index. rewrite (sb_group0_single e fuel o body p m Hg0 Hat). lia.
Qed.

Section Engine.
Variable e0 : env.
Variable fuel_of : list Z -> nat.
Variable o : Z.
Variable body : node.
Let root := NCapture o 0 (-1) body.
Hypothesis Hshape : shape_ok false root = true.
Hypothesis Hg0 : no_group0 body.

Theorem ce_in_range : enp_in_range st ce_index (ce_search e0 fuel_of root).
Proof.
  intros r s m Hs H. apply ce_search_some in H.
  pose proof (spec_find_leftmost_some _ _ _ _ _ _ _ H) as X. cbv zeta in X.
  destruct X as [_ (p & Hp & Hat & _)].
  change (first_cand false s (-1)) with s in Hp. change (tlen (ce_env e0 r s)) with (zlen r) in Hp.
  assert (Hpr : 0 <= p <= tlen (ce_env e0 r s)) by (change (tlen (ce_env e0 r s)) with (zlen r); lia).
  rewrite (ce_attempt_index _ _ o body p m Hshape Hg0 Hpr Hat). lia.
Qed.

Theorem ce_start_indep :
  ce_no_start root = true -> ce_terminates e0 fuel_of root ->
  enp_start_indep st ce_index (ce_search e0 fuel_of root).
Proof.
  intros Hns Hterm r s s' Hs Hs' Hm. unfold ce_search in *.
  (* both scans in the environment of the first *)
  change (ce_env e0 r s') with (ce_env_at (ce_env e0 r s) s').
  rewrite (ce_find_at (ce_env e0 r s) s' (fuel_of r) root false s' (-1) Hns).
  set (e := ce_env e0 r s) in *. set (fuel := fuel_of r) in *.
  assert (Hlen : tlen e = zlen r) by reflexivity.
  (* every attempt terminates, so the scan from s answers *)
  destruct (ce_scan_from_ok e fuel root (S (Z.to_nat (tlen e))) s ltac:(lia)) as [res E].
  { intros q Hq. apply (Hterm r s q). lia. }
  rewrite <- ce_find_scan in E. rewrite E in Hm |- *. destruct res as [m|].
  - (* found m: it is the attempt at p >= s', nothing before *)
    pose proof (spec_find_leftmost_some _ _ _ _ _ _ _ E) as X. cbv zeta in X.
    destruct X as [_ (p & Hp & Hat & Hbefore)].
    change (first_cand false s (-1)) with s in Hp, Hbefore.
    assert (Hpr : 0 <= p <= tlen e) by lia.
    pose proof (ce_attempt_index e fuel o body p m Hshape Hg0 Hpr Hat) as Hidx.
    specialize (Hm m eq_refl). rewrite Hidx in Hm.
    rewrite ce_find_scan.
    rewrite (ce_scan_from_first e fuel root _ s' p m); [reflexivity|lia|lia| |exact Hat].
    intros q Hq. apply Hbefore. lia.
  - (* nothing from s: nothing from s' *)
    pose proof (spec_find_leftmost_none e fuel root false s (-1) ltac:(lia) E) as X. cbv zeta in X.
    change (first_cand false s (-1)) with s in X.
    rewrite ce_find_scan. rewrite (ce_scan_from_none e fuel root _ s'); [reflexivity|lia|lia|].
    intros q Hq. apply X. lia.
Qed.

End Engine.

Lemma ce_quick_agrees_of_finds e0 fuel_of keep root :
  (forall r s,
     let r1 := find (ce_env e0 r s) (fuel_of r) root false s (-1) in
     let r2 := find (ce_env e0 r s) (fuel_of r) (erase keep root) false s (-1) in
     (forall s1, r1 = Ok (Some s1) -> exists s2, r2 = Ok (Some s2)) /\
     (forall s2, r2 = Ok (Some s2) -> exists s1, r1 = Ok (Some s1))) ->
  enp_quick_agrees st (ce_search e0 fuel_of root) (ce_search_quick e0 fuel_of keep root).
Proof.
  intros H r s. unfold ce_search, ce_search_quick. destruct (H r s) as [H12 H21]. cbv zeta in H12, H21.
  destruct (find (ce_env e0 r s) (fuel_of r) (erase keep root) false s (-1)) as [[m2|]| | |].
  { destruct (H21 m2 eq_refl) as [s1 ->]. reflexivity. }
  all: destruct (find (ce_env e0 r s) (fuel_of r) root false s (-1)) as [[m|]| | |]; try reflexivity;
    destruct (H12 m eq_refl) as [s2 Hs2]; discriminate Hs2.
Qed.

(* the quick search agrees, for any tree, whenever the erased groups are unobserved ... *)
Theorem ce_quick_agrees_of_keep e0 fuel_of keep root :
  (forall g, keep g = false -> observed g root = false) ->
  enp_quick_agrees st (ce_search e0 fuel_of root) (ce_search_quick e0 fuel_of keep root).
Proof.
  intros Hk. apply ce_quick_agrees_of_finds. intros r s.
  destruct (erase_find (ce_env e0 r s) keep (fuel_of r) root false s (-1) Hk) as (H12 & H21 & _). split.
  - intros s1 H1. destruct (H12 s1 H1) as (s2 & H2 & _). exists s2. exact H2.
  - intros s2 H2. destruct (H21 s2 H2) as (s1 & H1 & _). exists s1. exact H1.
Qed.

(* ... in particular for the quick program syntax.Write produces *)
Theorem ce_quick_agrees e0 fuel_of cm capsize root prog :
  bal_ok cm root = true ->
  (forall g, reads g root = true -> 0 <= map_capnum {| capmap := cm; quick := None |} g) ->
  write_quick cm capsize root = Some prog ->
  exists keep,
    prog = fst (write_full cm (erase keep root)) /\
    (forall g, map_capnum {| capmap := cm; quick := None |} g = 0 -> keep g = true) /\
    enp_quick_agrees st (ce_search e0 fuel_of root) (ce_search_quick e0 fuel_of keep root).
Proof.
  intros Hb Hr Hw. destruct (write_quick_sound_spelled cm capsize root prog Hb Hr Hw) as (keep & Hp & Hk0 & Hf).
  exists keep. split; [exact Hp|]. split; [exact Hk0|].
  apply ce_quick_agrees_of_finds. intros r s.
  destruct (Hf (ce_env e0 r s) (fuel_of r) false s (-1)) as (H12 & H21 & _). split.
  - intros s1 H1. destruct (H12 s1 H1) as (s2 & H2 & _). exists s2. exact H2.
  - intros s2 H2. destruct (H21 s2 H2) as (s1 & H1 & _). exists s1. exact H1.
Qed.

(* ================================================================================================
   4. HasOpcode(Start) on the compiled program  =  the tree contains \G
   ================================================================================================ *)

(* a code fragment that decodes instruction by instruction; the boolean: some instruction is Start *)
Inductive ce_frag : list Z -> bool -> Prop :=
| ce_frag_nil : ce_frag [] false
| ce_frag_ins op args rest b :
    opcode_size op = 1 + zlen args -> ce_frag rest b ->
    ce_frag (op :: args ++ rest) ((Z.land op G_Mask =? G_Start) || b).

Lemma ce_frag_app a : forall b1, ce_frag a b1 -> forall c b2, ce_frag c b2 -> ce_frag (a ++ c) (b1 || b2).
Proof.
  induction 1 as [|op args rest b Hsz Hr IH]; intros c b2 Hc; cbn [app orb].
  - exact Hc.
  - rewrite <- app_assoc. rewrite <- Bool.orb_assoc. apply ce_frag_ins; [exact Hsz|]. apply IH. exact Hc.
Qed.

Lemma ce_frag_i0 op rest k b :
  opcode_size op = 1 -> (Z.land op G_Mask =? G_Start) = k -> ce_frag rest b -> ce_frag (op :: rest) (k || b).
Proof. intros Hs <- H. apply (ce_frag_ins op [] rest); [exact Hs|exact H]. Qed.
Lemma ce_frag_i1 op a rest k b :
  opcode_size op = 2 -> (Z.land op G_Mask =? G_Start) = k -> ce_frag rest b -> ce_frag (op :: a :: rest) (k || b).
Proof. intros Hs <- H. apply (ce_frag_ins op [a] rest); [exact Hs|exact H]. Qed.
Lemma ce_frag_i2 op a a2 rest k b :
  opcode_size op = 3 -> (Z.land op G_Mask =? G_Start) = k -> ce_frag rest b ->
  ce_frag (op :: a :: a2 :: rest) (k || b).
Proof. intros Hs <- H. apply (ce_frag_ins op [a; a2] rest); [exact Hs|exact H]. Qed.

Lemma ce_land_bits base o : 0 <= base < 64 -> Z.land (base + bits_of o) 63 = base.
Proof.
  intros Hb. change 63 with (Z.ones 6). rewrite Z.land_ones by lia. change (2 ^ 6) with 64.
  unfold bits_of, RtlBit, CiBit. destruct (is_rtl o), (is_ci o); lia.
Qed.

(* Code.HasOpcode(Start) walks exactly the instruction boundaries *)
Lemma ce_frag_has_opcode code b : ce_frag code b ->
  forall fuel, (length code < fuel)%nat -> en_has_opcode fuel code G_Start = Ok b.
Proof.
  induction 1 as [|op args rest b Hsz Hr IH]; intros fuel Hf.
  - destruct fuel; [cbn [length] in Hf; lia|]. reflexivity.
  - destruct fuel as [|f]; [cbn [length] in Hf; lia|]. cbn [en_has_opcode].
    destruct (Z.land op G_Mask =? G_Start) eqn:E; [reflexivity|]. cbn [orb].
    change (zassoc (Z.land op G_Mask) opcode_size_tbl 0) with (opcode_size op). cbv zeta.
    assert (Hz : 0 <= zlen args) by (unfold zlen; lia).
    replace (opcode_size op <=? 0) with false by lia.
    assert (Hsk : skipn (Z.to_nat (opcode_size op)) (op :: args ++ rest) = rest).
    { rewrite Hsz. unfold zlen. replace (Z.to_nat (1 + Z.of_nat (length args))) with (S (length args)) by lia.
      cbn [skipn]. rewrite skipn_app, skipn_all, Nat.sub_diag. reflexivity. }
    rewrite Hsk. apply IH. cbn [length] in Hf. rewrite app_length in Hf. lia.
Qed.

Ltac ce_side :=
  unfold opcode_size, G_Mask, G_Start;
  rewrite ?ce_land_bits by (cbv; split; congruence);
  vm_compute; reflexivity.

Ltac ce_build :=
  cbn [app];
  repeat first
    [ apply ce_frag_nil
    | eassumption
    | eapply ce_frag_i2; [solve [ce_side]|solve [ce_side]|]
    | eapply ce_frag_i1; [solve [ce_side]|solve [ce_side]|]
    | eapply ce_frag_i0; [solve [ce_side]|solve [ce_side]|]
    | eapply ce_frag_app; [eassumption|] ].

(* the fragment decodes, and contains Start iff b *)
Definition ce_good (code : list Z) (b : bool) : Prop := exists b', ce_frag code b' /\ b' = b.

Ltac ce_bools :=
  subst; cbn [orb andb negb];
  repeat match goal with |- context [ce_no_start ?t] => destruct (ce_no_start t) end;
  repeat match goal with |- context [forallb ce_no_start ?l] => destruct (forallb ce_no_start l) end;
  reflexivity.

Ltac ce_finish := unfold ce_good; eexists; split; [ce_build|ce_bools].

Lemma ce_emit_good c : forall t a tbl, ce_good (fst (emit c t a tbl)) (negb (ce_no_start t)).
Proof.
  induction t as [kd o ch|kd lk o ch m n|o str|o g|an| | | |o l HF|o l HF|lazy o m n r IHr|o g u r IHr
                 |r IHr|o r IHr|o r IHr|r IHr|o g yes no IHy IHn|o cnd yes no IHc IHy IHn]
    using node_ind'; intros a tbl.
  - cbn [emit fst ce_no_start]. destruct kd; cbn [char_op]; ce_finish.
  - cbn [emit fst ce_no_start]. destruct kd, lk, (0 <? m), (m <? n); cbn [rep_op loop_op app]; ce_finish.
  - cbn [emit ce_no_start]. destruct (string_code str tbl) as [i tbl']. cbn [fst]. ce_finish.
  - cbn [emit fst ce_no_start]. ce_finish.
  - cbn [emit fst]. destruct an; cbn [anchor_code ce_no_start]; ce_finish.
  - cbn [emit fst ce_no_start]. ce_finish.
  - cbn [emit fst ce_no_start]. ce_finish.
  - cbn [emit fst ce_no_start]. ce_finish.
  - (* NConcat *)
    rewrite wr_emit_concat_eq, ce_no_start_concat. revert a tbl.
    induction HF as [|x l Hx HF IH]; intros a tbl; cbn [emit_seq forallb].
    + cbn [fst]. ce_finish.
    + destruct (Hx a tbl) as (b1 & F1 & L1). destruct (emit c x a tbl) as [cx tb1]. cbn [fst] in F1.
      destruct (IH (a + zlen cx) tb1) as (b2 & F2 & L2).
      destruct (emit_seq c l (a + zlen cx) tb1) as [cr tb2]. cbn [fst] in F2 |- *. ce_finish.
  - (* NAlternate *)
    rewrite wr_emit_alternate_eq, ce_no_start_alternate.
    generalize (a + csize c (NAlternate o l)) as lend. intros lend. revert a tbl.
    induction HF as [|x l Hx HF IH]; intros a tbl.
    + cbn [emit_alt fst forallb]. ce_finish.
    + destruct l as [|y l].
      * cbn [emit_alt forallb]. rewrite Bool.andb_true_r. apply Hx.
      * rewrite wr_emit_alt_cons2.
        destruct (Hx (a + 2) tbl) as (b1 & F1 & L1). destruct (emit c x (a + 2) tbl) as [cx tb1].
        cbn [fst] in F1. cbv zeta.
        destruct (IH (a + 2 + zlen cx + 2) tb1) as (b2 & F2 & L2).
        destruct (emit_alt c lend (y :: l) (a + 2 + zlen cx + 2) tb1) as [cr tb2]. cbn [fst] in F2 |- *.
        change (forallb ce_no_start (x :: y :: l)) with (ce_no_start x && forallb ce_no_start (y :: l)).
        ce_finish.
  - (* NLoop *)
    cbn [emit ce_no_start]. cbv zeta.
    match goal with |- context [emit c r ?x tbl] => destruct (IHr x tbl) as (b1 & F1 & L1);
                                                     destruct (emit c r x tbl) as [cr tb1] end.
    cbn [fst] in F1 |- *.
    destruct lazy, (counted m n), (m =? 0); cbn [app]; ce_finish.
  - (* NCapture *)
    cbn [emit ce_no_start]. destruct (emit_capture c g u).
    + destruct (IHr (a + 1) tbl) as (b1 & F1 & L1). destruct (emit c r (a + 1) tbl) as [cr tb1].
      cbn [fst] in F1 |- *. ce_finish.
    + apply IHr.
  - cbn [emit ce_no_start]. apply IHr.
  - (* NPosLook *)
    cbn [emit ce_no_start]. destruct (IHr (a + 2) tbl) as (b1 & F1 & L1). destruct (emit c r (a + 2) tbl) as [cr tb1].
    cbn [fst] in F1 |- *. ce_finish.
  - (* NNegLook *)
    cbn [emit ce_no_start]. destruct (IHr (a + 3) tbl) as (b1 & F1 & L1). destruct (emit c r (a + 3) tbl) as [cr tb1].
    cbn [fst] in F1 |- *. ce_finish.
  - (* NAtomic *)
    cbn [emit ce_no_start]. destruct (IHr (a + 1) tbl) as (b1 & F1 & L1). destruct (emit c r (a + 1) tbl) as [cr tb1].
    cbn [fst] in F1 |- *. ce_finish.
  - (* NBackRefCond *)
    cbn [emit ce_no_start]. destruct (IHy (a + 6) tbl) as (b1 & F1 & L1). destruct (emit c yes (a + 6) tbl) as [cy tb1].
    cbn [fst] in F1. cbv zeta.
    destruct no as [x|]; cbn [opt_all] in IHn.
    + match goal with |- context [emit c x ?p tb1] => destruct (IHn p tb1) as (b2 & F2 & L2);
                                                       destruct (emit c x p tb1) as [cn tb2] end.
      cbn [fst] in F2 |- *. ce_finish.
    + cbn [fst]. ce_finish.
  - (* NExprCond *)
    cbn [emit ce_no_start]. destruct (IHc (a + 4) tbl) as (b0 & F0 & L0). destruct (emit c cnd (a + 4) tbl) as [cc tb0].
    cbn [fst] in F0. cbv zeta.
    match goal with |- context [emit c yes ?p tb0] => destruct (IHy p tb0) as (b1 & F1 & L1);
                                                      destruct (emit c yes p tb0) as [cy tb1] end.
    cbn [fst] in F1.
    destruct no as [x|]; cbn [opt_all] in IHn.
    + match goal with |- context [emit c x ?p tb1] => destruct (IHn p tb1) as (b2 & F2 & L2);
                                                       destruct (emit c x p tb1) as [cn tb2] end.
      cbn [fst] in F2 |- *. ce_finish.
    + cbn [fst]. ce_finish.
Qed.

Theorem ce_has_opcode_start c root :
  en_has_opcode (S (length (fst (compile c root)))) (fst (compile c root)) G_Start =
  Ok (negb (ce_no_start root)).
Proof.
  unfold compile.
  destruct (ce_emit_good c root 2 []) as (b1 & F1 & L1). destruct (emit c root 2 []) as [cr tbl].
  cbn [fst] in F1 |- *.
  assert (G : ce_good ([Lazybranch; 2 + zlen cr] ++ cr ++ [Stop]) (negb (ce_no_start root))) by ce_finish.
  destruct G as (b & F & <-). apply (ce_frag_has_opcode _ _ F). lia.
Qed.

Corollary ce_no_opcode_start_no_anchor c root :
  en_has_opcode (S (length (fst (compile c root)))) (fst (compile c root)) G_Start = Ok false ->
  ce_no_start root = true.
Proof.
  rewrite ce_has_opcode_start. intros H. injection H as H. destruct (ce_no_start root); [reflexivity|discriminate H].
Qed.

(* ================================================================================================
   5. the headline for trees
   ================================================================================================ *)

Theorem ce_string_entry_for_trees
  (e0 : env) (fuel_of : list Z -> nat) (search_quick : list Z -> Z -> bool)
  (c : en_code) (flt : option en_filter) (cfg : wcfg) (o : Z) (body : node) :
  let root := NCapture o 0 (-1) body in
  let search := ce_search e0 fuel_of root in
  cd_rtl c = false ->
  cd_codes c = fst (compile cfg root) ->
  en_new_filter c = Ok flt ->
  shape_ok false root = true ->
  no_group0 body ->
  ce_terminates e0 fuel_of root ->
  enp_quick_agrees st search search_quick ->
  (forall o' f, cd_opts c = Some o' -> flt = Some f ->
     forall b q, enp_starts st ce_index search (runes_of b) q -> enp_code_fact o' (runes_of b) q) ->
  forall b : list Z,
    let r := runes_of b in
    en_find_string_match st search false flt b = en_find_runes_match st search false r /\
    (forall k, (k <= length r)%nat ->
       en_find_string_match_starting_at st search false flt b (Z.of_nat (boundary b k)) =
       en_find_runes_match_starting_at st search false r (Z.of_nat k)) /\
    (forall i, i < 0 ->
       en_find_string_match_starting_at st search false flt b i = en_find_runes_match_starting_at st search false r i) /\
    (forall i, zlen b < i -> en_find_string_match_starting_at st search false flt b i = Err ERR_START_TOO_LARGE) /\
    (forall i, 0 <= i <= zlen b -> en_is_boundary b i = false ->
       en_find_string_match_starting_at st search false flt b i = Err ERR_START_NOT_BOUNDARY) /\
    en_match_string search_quick false flt b = en_match_runes search_quick false r.
Proof.
  intros root search Hrtl Hcodes Hflt Hshape Hg0 Hterm Hq Hfacts b.
  pose proof (enp_string_entry_equals_rune_entry st ce_index search search_quick c flt Hflt
                (ce_in_range e0 fuel_of o body Hshape Hg0) Hq) as X.
  rewrite Hrtl in X. apply X.
  - rewrite Hcodes. intros Hop. apply (ce_start_indep e0 fuel_of o body Hshape Hg0); [|exact Hterm].
    apply (ce_no_opcode_start_no_anchor cfg). exact Hop.
  - exact Hfacts.
Qed.

(* ... with the bool-only search instantiated by the tree of the quick program syntax.Write built *)
Theorem ce_string_entry_for_trees_quick
  (e0 : env) (fuel_of : list Z -> nat)
  (c : en_code) (flt : option en_filter) (cfg : wcfg) (o : Z) (body : node)
  (cm : option (list (Z * Z))) (capsize : Z) (prog : list Z) :
  let root := NCapture o 0 (-1) body in
  let search := ce_search e0 fuel_of root in
  cd_rtl c = false ->
  cd_codes c = fst (compile cfg root) ->
  en_new_filter c = Ok flt ->
  shape_ok false root = true ->
  no_group0 body ->
  ce_terminates e0 fuel_of root ->
  bal_ok cm root = true ->
  (forall g, reads g root = true -> 0 <= map_capnum {| capmap := cm; quick := None |} g) ->
  write_quick cm capsize root = Some prog ->
  (forall o' f, cd_opts c = Some o' -> flt = Some f ->
     forall b q, enp_starts st ce_index search (runes_of b) q -> enp_code_fact o' (runes_of b) q) ->
  exists keep,
    prog = fst (write_full cm (erase keep root)) /\
    forall b : list Z,
      let r := runes_of b in
      let search_quick := ce_search_quick e0 fuel_of keep root in
      en_find_string_match st search false flt b = en_find_runes_match st search false r /\
      (forall k, (k <= length r)%nat ->
         en_find_string_match_starting_at st search false flt b (Z.of_nat (boundary b k)) =
         en_find_runes_match_starting_at st search false r (Z.of_nat k)) /\
      (forall i, i < 0 ->
         en_find_string_match_starting_at st search false flt b i = en_find_runes_match_starting_at st search false r i) /\
      (forall i, zlen b < i -> en_find_string_match_starting_at st search false flt b i = Err ERR_START_TOO_LARGE) /\
      (forall i, 0 <= i <= zlen b -> en_is_boundary b i = false ->
         en_find_string_match_starting_at st search false flt b i = Err ERR_START_NOT_BOUNDARY) /\
      en_match_string search_quick false flt b = en_match_runes search_quick false r.
Proof.
  intros root search Hrtl Hcodes Hflt Hshape Hg0 Hterm Hbal Hreads Hw Hfacts.
  destruct (ce_quick_agrees e0 fuel_of cm capsize root prog Hbal Hreads Hw) as (keep & Hp & _ & Hq).
  exists keep. split; [exact Hp|]. intros b.
  exact (ce_string_entry_for_trees e0 fuel_of (ce_search_quick e0 fuel_of keep root) c flt cfg o body
           Hrtl Hcodes Hflt Hshape Hg0 Hterm Hq Hfacts b).
Qed.

(* ================================================================================================
   6. non-vacuity
   ================================================================================================ *)
From Verif Require Import Proofs.EntryExamples.

Definition ce_x_env : env :=
  {| txt := []; tstart := 0; ecma := false; endz_strict := false; set_in := fun _ _ => false;
     lower := fun x => x; is_word := fun _ => false; is_eword := fun _ => false |}.
(* abc  and  \Gabc  under the root capture *)
Definition ce_x_abc_body : node := NMulti 0 [97; 98; 99].
Definition ce_x_abc : node := NCapture 0 0 (-1) ce_x_abc_body.
Definition ce_x_G_body : node := NConcat 0 [NAnchor AStart; NMulti 0 [97; 98; 99]].
Definition ce_x_G : node := NCapture 0 0 (-1) ce_x_G_body.
Definition ce_x_fuel (_ : list Z) : nat := 4%nat.
Definition ce_x_cfg : wcfg := {| capmap := None; quick := None |}.
(* the program data of abc: compiled codes, the FindOptimizations record of EntryExamples.enx_code_abc *)
Definition ce_x_code_abc : en_code :=
  {| cd_rtl := false; cd_codes := fst (compile ce_x_cfg ce_x_abc); cd_opts := cd_opts enx_code_abc |}.

Lemma ce_x_abc_terminates : ce_terminates ce_x_env ce_x_fuel ce_x_abc.
Proof.
  intros r ts x Hx. unfold attempt, ce_x_fuel, ce_x_abc, ce_x_abc_body. cbn [sem Z.eqb].
  unfold sem_multi. cbn [bindr bind].
  repeat match goal with |- context [if ?c then _ else _] => destruct c end; cbn [bindl bind app];
    eexists; reflexivity.
Qed.

Lemma ce_x_G_terminates : ce_terminates ce_x_env ce_x_fuel ce_x_G.
Proof.
  intros r ts x Hx. unfold attempt, ce_x_fuel, ce_x_G, ce_x_G_body. cbn [sem Z.eqb].
  unfold sem_multi. cbn [bindr bind].
  repeat match goal with |- context [if ?c then _ else _] => destruct c end; cbn [bindr bindl bind app];
  repeat match goal with |- context [if ?c then _ else _] => destruct c end; cbn [bindr bindl bind app];
    eexists; reflexivity.
Qed.

Lemma ce_x_G_no_group0 : no_group0 ce_x_G_body.
Proof. unfold no_group0. cbn. tauto. Qed.
Lemma ce_x_abc_no_group0 : no_group0 ce_x_abc_body.
Proof. unfold no_group0. cbn. tauto. Qed.

(* \Gabc: every hypothesis of ce_start_indep except "no \G" holds (shape, group 0, termination), the
   compiled program has a Start instruction, and start independence fails: on "xabc" nothing is found
   from 0, a match at 1 is found from 1. *)
Example ce_x_G_start_indep_fails :
  shape_ok false ce_x_G = true /\ no_group0 ce_x_G_body /\ ce_terminates ce_x_env ce_x_fuel ce_x_G /\
  ce_no_start ce_x_G = false /\
  fst (compile ce_x_cfg ce_x_G) = [23; 9; 31; 19; 12; 0; 32; 0; -1; 40] /\
  en_has_opcode (S (length (fst (compile ce_x_cfg ce_x_G)))) (fst (compile ce_x_cfg ce_x_G)) G_Start = Ok true /\
  ce_search ce_x_env ce_x_fuel ce_x_G [120; 97; 98; 99] 0 = None /\
  ce_search ce_x_env ce_x_fuel ce_x_G [120; 97; 98; 99] 1 = Some {| pos := 4; caps := [(0, [(1, 3)])] |} /\
  ~ enp_start_indep st ce_index (ce_search ce_x_env ce_x_fuel ce_x_G).
Proof.
  split; [reflexivity|]. split; [exact ce_x_G_no_group0|]. split; [exact ce_x_G_terminates|].
  split; [reflexivity|]. split; [vm_compute; reflexivity|]. split; [vm_compute; reflexivity|].
  split; [vm_compute; reflexivity|]. split; [vm_compute; reflexivity|].
  intros H. specialize (H [120; 97; 98; 99] 0 1 ltac:(lia) ltac:(cbv; congruence)).
  assert (X : forall m, ce_search ce_x_env ce_x_fuel ce_x_G [120; 97; 98; 99] 0 = Some m -> 1 <= ce_index m).
  { intros m Hm. vm_compute in Hm. discriminate Hm. }
  specialize (H X). vm_compute in H. discriminate H.
Qed.

(* abc: what a successful attempt says about the text *)
Lemma ce_x_str_match_prefix e : forall str p,
  0 <= p -> p + zlen str <= tlen e -> str_match_at e false str p = true ->
  en_has_prefix (skipn (Z.to_nat p) (txt e)) str = true.
Proof.
  induction str as [|c str IH]; intros p Hp Hlen H; [destruct (skipn (Z.to_nat p) (txt e)); reflexivity|].
  cbn [str_match_at] in H. apply andb_prop in H. destruct H as [Hc Hr].
  unfold tlen, zlen in *. cbn [length] in Hlen.
  rewrite (skipn_cons_nth (txt e) 0) by lia. cbn [en_has_prefix]. unfold char_at in Hc. rewrite Hc. cbn [andb].
  replace (S (Z.to_nat p)) with (Z.to_nat (p + 1)) by lia. apply IH; [lia|lia|exact Hr].
Qed.

Lemma ce_x_abc_attempt r ts q m : 0 <= q ->
  attempt (ce_env ce_x_env r ts) 4 ce_x_abc q = Ok (Some m) ->
  en_has_prefix (skipn (Z.to_nat q) r) enx_abc = true.
Proof.
  intros Hq H. unfold attempt, ce_x_abc, ce_x_abc_body in H. cbn [sem Z.eqb] in H.
  unfold sem_multi in H. cbn [bindr bind pos] in H.
  change (is_rtl 0) with false in H. change (is_ci 0) with false in H. unfold avail in H.
  change (is_rtl 0) with false in H. cbv iota in H.
  destruct (tlen (ce_env ce_x_env r ts) - q <? zlen [97; 98; 99]) eqn:E1; [discriminate H|].
  destruct (str_match_at (ce_env ce_x_env r ts) false [97; 98; 99] q) eqn:E2; [|discriminate H].
  apply (ce_x_str_match_prefix (ce_env ce_x_env r ts) [97; 98; 99] q Hq); [lia|exact E2].
Qed.

(* every hypothesis of ce_string_entry_for_trees holds together for the pattern abc (filter: prefix
   "abc"), including the published facts at every match start ... *)
Lemma ce_x_abc_hypotheses :
  let search := ce_search ce_x_env ce_x_fuel ce_x_abc in
  cd_rtl ce_x_code_abc = false /\
  cd_codes ce_x_code_abc = fst (compile ce_x_cfg ce_x_abc) /\
  en_new_filter ce_x_code_abc = Ok enx_flt_abc /\
  shape_ok false ce_x_abc = true /\
  no_group0 ce_x_abc_body /\
  ce_terminates ce_x_env ce_x_fuel ce_x_abc /\
  enp_quick_agrees st search (ce_search_quick ce_x_env ce_x_fuel (fun _ => true) ce_x_abc) /\
  (forall o' f, cd_opts ce_x_code_abc = Some o' -> enx_flt_abc = Some f ->
     forall b q, enp_starts st ce_index search (runes_of b) q -> enp_code_fact o' (runes_of b) q).
Proof.
  cbv zeta. split; [reflexivity|]. split; [reflexivity|]. split; [vm_compute; reflexivity|].
  split; [reflexivity|]. split; [exact ce_x_abc_no_group0|]. split; [exact ce_x_abc_terminates|].
  split; [apply ce_quick_agrees_of_keep; intros g Hg; discriminate Hg|].
  intros o' f Ho _ b q (m & Hm & Hidx). injection Ho as <-.
  apply ce_search_some in Hm.
  pose proof (spec_find_leftmost_some _ _ _ _ _ _ _ Hm) as X. cbv zeta in X.
  destruct X as [_ (p & Hp & Hat & _)].
  change (first_cand false (Z.of_nat q) (-1)) with (Z.of_nat q) in Hp.
  assert (Hlen : tlen (ce_env ce_x_env (runes_of b) (Z.of_nat q)) = zlen (runes_of b)) by reflexivity.
  assert (Hq : Z.of_nat q <= zlen (runes_of b)).
  { destruct Hp as [Hp1 [->|Hp2]].
    - unfold ce_x_fuel in Hat. pose proof (ce_x_abc_attempt (runes_of b) (Z.of_nat q) (Z.of_nat q) m ltac:(lia) Hat) as Hpre.
      apply enb_has_prefix_length in Hpre. rewrite skipn_length in Hpre. cbn [enx_abc length] in Hpre.
      unfold zlen. lia.
    - lia. }
  assert (Hpr : 0 <= p <= tlen (ce_env ce_x_env (runes_of b) (Z.of_nat q))) by lia.
  pose proof (ce_attempt_index _ _ 0 ce_x_abc_body p m eq_refl ce_x_abc_no_group0 Hpr Hat) as Hip.
  assert (Epq : p = Z.of_nat q) by lia. clear Hip. rewrite Epq in Hat.
  unfold ce_x_fuel in Hat. pose proof (ce_x_abc_attempt (runes_of b) (Z.of_nat q) (Z.of_nat q) m ltac:(lia) Hat) as Hpre.
  rewrite Nat2Z.id in Hpre.
  destruct (enx_abc_lit_fact _ _ Hpre) as [HM HL].
  unfold enp_code_fact. cbn [enx_code_abc cd_opts fo_mode fo_min fo_prefix].
  split; [exact HM|]. split; [intros _; exact HL|].
  repeat split; intros E; discriminate E.
Qed.

(* ... and on "xéabc" both entry points report the match at rune 2 (bytes 3..6) *)
Example ce_x_abc_witness :
  let b := [120; 195; 169; 97; 98; 99] in
  let search := ce_search ce_x_env ce_x_fuel ce_x_abc in
  ce_no_start ce_x_abc = true /\
  cd_codes ce_x_code_abc = [23; 8; 31; 12; 0; 32; 0; -1; 40] /\
  en_has_opcode (S (length (cd_codes ce_x_code_abc))) (cd_codes ce_x_code_abc) G_Start = Ok false /\
  en_find_string_match st search false enx_flt_abc b =
    Ok (Some {| pos := 5; caps := [(0, [(2, 3)])] |}) /\
  en_find_runes_match st search false (runes_of b) = Ok (Some {| pos := 5; caps := [(0, [(2, 3)])] |}) /\
  en_match_string (ce_search_quick ce_x_env ce_x_fuel (fun _ => true) ce_x_abc) false enx_flt_abc b = Ok true.
Proof. vm_compute. repeat split; reflexivity. Qed.

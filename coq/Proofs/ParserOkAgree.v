(* Proofs about Model/Parser.v, part 9: the capture pre-scan and the main pass agree on which parentheses capture.

   Both passes read the same text.  [Sim]: at the start of every round of scanRegex there is a state of the
   pre-scan, standing at the same place of the pattern, with the same option word up to the RightToLeft bit
   (which only the main pass changes, at lookarounds), the same option stack, the same ignoreNextParen and the
   same automatic capture number; and the pre-scan, run on from there, ends in the state whose tables the main
   pass was given.  Hence the number a plain "(" takes in the main pass is the number the pre-scan noted for
   it, a key of the capture table: the hypothesis [Hac] of Proofs/ParserOkMain.v.

   Every option word (under ECMAScript the pre-scan notes no names, so \\k is read the same way by both passes).
   Oracle tie ([HW], [HD]): a word character is none of
   ! # ' ( ) - < = > ? [ \ and the ASCII digits 1 to 9 are word characters. *)
From Coq Require Import ZifyBool.
From Verif Require Import Base.Prelude Gen.ParseLitGen Model.Escape Model.ParseLit Model.GroupMap Model.CharClass
  Model.Parser Proofs.ParseLitProofs Proofs.GMBase Proofs.ParserScan Proofs.ParserTree Proofs.ParserMain Proofs.ParserPre
  Proofs.ParserProofs Proofs.GMPrescan Proofs.ParserOkTree Proofs.ParserOkMain Proofs.ParserOkPre.

(* ---------------------------------------------------------------- option words up to RightToLeft *)
Definition oeqv (a b : Z) : Prop := Z.lor a 64 = Z.lor b 64.

Lemma oeqv_refl a : oeqv a a. Proof. reflexivity. Qed.
Lemma oeqv_sym a b : oeqv a b -> oeqv b a. Proof. unfold oeqv. congruence. Qed.
Lemma oeqv_trans a b c : oeqv a b -> oeqv b c -> oeqv a c. Proof. unfold oeqv. congruence. Qed.

Lemma oeqv_bit a b k : oeqv a b -> Z.land 64 k = 0 -> pl_bit a k = pl_bit b k.
Proof.
  intros H K. unfold pl_bit. rewrite <- (land_lor_disjoint a 64 k K), <- (land_lor_disjoint b 64 k K), H. reflexivity.
Qed.

Lemma oeqv_useX a b : oeqv a b -> useX a = useX b. Proof. intros H. apply oeqv_bit; [exact H | reflexivity]. Qed.
Lemma oeqv_useN a b : oeqv a b -> useN a = useN b. Proof. intros H. apply oeqv_bit; [exact H | reflexivity]. Qed.
Lemma oeqv_useE a b : oeqv a b -> useE a = useE b. Proof. intros H. apply oeqv_bit; [exact H | reflexivity]. Qed.
Lemma oeqv_useRE2 a b : oeqv a b -> useRE2 a = useRE2 b. Proof. intros H. apply oeqv_bit; [exact H | reflexivity]. Qed.
Lemma oeqv_useU a b : oeqv a b -> useU a = useU b. Proof. intros H. apply oeqv_bit; [exact H | reflexivity]. Qed.
Lemma oeqv_useI a b : oeqv a b -> useI a = useI b. Proof. intros H. apply oeqv_bit; [exact H | reflexivity]. Qed.

Lemma oeqv_set_rtl o : oeqv (set_rtl o) o.
Proof. unfold oeqv, set_rtl, PL_RightToLeft. rewrite <- Z.lor_assoc, Z.lor_diag. reflexivity. Qed.

Lemma oeqv_clear_rtl o : oeqv (clear_rtl o) o.
Proof.
  unfold oeqv, clear_rtl, PL_RightToLeft. apply Z.bits_inj'. intros n Hn. rewrite !Z.lor_spec, Z.ldiff_spec.
  destruct (Z.testbit o n), (Z.testbit 64 n); reflexivity.
Qed.

Lemma lor_ldiff_comm a bb : Z.land bb 64 = 0 -> Z.lor (Z.ldiff a bb) 64 = Z.ldiff (Z.lor a 64) bb.
Proof.
  intros H. apply Z.bits_inj'. intros n Hn. rewrite Z.lor_spec, !Z.ldiff_spec, Z.lor_spec.
  assert (T : Z.testbit bb n && Z.testbit 64 n = false) by (rewrite <- Z.land_spec, H; apply Z.bits_0).
  destruct (Z.testbit a n), (Z.testbit bb n), (Z.testbit 64 n); cbn in *; congruence.
Qed.

Lemma scan_options_oeqv cs : Forall (fun c => match c with OBit b => Z.land b 64 = 0 | _ => True end) cs ->
  forall off a b, oeqv a b -> oeqv (scan_options off cs a) (scan_options off cs b).
Proof.
  induction 1 as [|c cs Hc Hcs IH]; intros off a b H; cbn [scan_options]; [exact H|].
  destruct c as [| |bb]; try (apply IH; exact H).
  apply IH. unfold oeqv in *. destruct off.
  - rewrite !lor_ldiff_comm by exact Hc. rewrite H. reflexivity.
  - rewrite <- !Z.lor_assoc, (Z.lor_comm bb 64), !Z.lor_assoc, H. reflexivity.
Qed.

Lemma scan_options_text_oeqv a b p : oeqv a b ->
  oeqv (fst (scan_options_text a p)) (fst (scan_options_text b p)) /\ snd (scan_options_text a p) = snd (scan_options_text b p).
Proof.
  intros H. unfold scan_options_text. pose proof (ochars_of_disjoint 64 (or_introl eq_refl) p) as D.
  destruct (ochars_of p) as [cs r]. cbn [fst snd] in *. split; [|reflexivity]. apply scan_options_oeqv; assumption.
Qed.


(* ---------------------------------------------------------------- characters the pre-scan steps over *)
Definition ptriv (x : bool) (c : Z) : bool := negb (zmem c [92; 91; 41; 40]) && negb (x && (c =? 35)).

Lemma ptriv_inv x c : ptriv x c = true ->
  (c =? 92) = false /\ (c =? 91) = false /\ (c =? 41) = false /\ (c =? 40) = false /\ (x && (c =? 35)) = false.
Proof. unfold ptriv, zmem. cbn [existsb]. intros H. destruct x; cbn [andb] in *; repeat split; lia. Qed.

Lemma ptriv_intro x c : c <> 92 -> c <> 91 -> c <> 41 -> c <> 40 -> (x = true -> c <> 35) -> ptriv x c = true.
Proof. unfold ptriv, zmem. cbn [existsb]. intros. destruct x; [specialize (H3 eq_refl)|]; lia. Qed.

Definition tskip (x : bool) (p q : list Z) : Prop := exists seg, p = seg ++ q /\ forallb (ptriv x) seg = true.

Lemma tskip_refl x p : tskip x p p.
Proof. exists []. split; reflexivity. Qed.
Lemma tskip_trans x p q r : tskip x p q -> tskip x q r -> tskip x p r.
Proof.
  intros [s1 [E1 F1]] [s2 [E2 F2]]. exists (s1 ++ s2). split; [subst; rewrite app_assoc; reflexivity|].
  rewrite forallb_app, F1, F2. reflexivity.
Qed.
Lemma tskip_cons x c p : ptriv x c = true -> tskip x (c :: p) p.
Proof. intros H. exists [c]. split; [reflexivity | cbn; rewrite H; reflexivity]. Qed.
Lemma tskip_tl x q c : hd_is q c = true -> ptriv x c = true -> tskip x q (tl q).
Proof.
  destruct q as [|d q']; [discriminate|]. cbn [hd_is tl]. intros H T. assert (d = c) by lia. subst d. apply tskip_cons. exact T.
Qed.

Lemma digit_ptriv x c : (c - 48 <? 0) || (9 <? c - 48) = false -> ptriv x c = true.
Proof. intros H. apply ptriv_intro; lia. Qed.

Lemma scan_decimal_tskip x p : forall i v q, scan_decimal i p = Ok (v, q) -> tskip x p q.
Proof.
  induction p as [|c p IH]; intros i v q H; cbn [scan_decimal] in H; [inversion H; apply tskip_refl|].
  destruct ((c - 48 <? 0) || (9 <? c - 48)) eqn:E; [inversion H; apply tskip_refl|].
  destruct ((214748364 <? i) || ((i =? 214748364) && (7 <? c - 48))); [discriminate|].
  eapply tskip_trans; [apply tskip_cons; apply digit_ptriv; exact E | eapply IH; exact H].
Qed.

Lemma decimal_tskip x p v q : decimal p = POk (v, q) -> tskip x p q.
Proof.
  unfold decimal, of_res. destruct (scan_decimal 0 p) as [[v' q']|c|w|] eqn:E; try discriminate.
  intros H. inversion H; subst. eapply scan_decimal_tskip. exact E.
Qed.

Lemma scan_decimal_ge p : forall i v q, scan_decimal i p = Ok (v, q) -> 0 <= i -> i <= v.
Proof.
  induction p as [|c p IH]; intros i v q H Hi; cbn [scan_decimal] in H; [inversion H; lia|].
  destruct ((c - 48 <? 0) || (9 <? c - 48)) eqn:E; [inversion H; lia|].
  destruct ((214748364 <? i) || ((i =? 214748364) && (7 <? c - 48))); [discriminate|].
  specialize (IH _ _ _ H ltac:(lia)). lia.
Qed.

Lemma decimal_nonzero c2 cur' n q : (49 <=? c2) && (c2 <=? 57) = true -> decimal (c2 :: cur') = POk (n, q) -> (n =? 0) = false.
Proof.
  intros Hd H. unfold decimal, of_res in H. destruct (scan_decimal 0 (c2 :: cur')) as [[v' q'']|e|w|] eqn:E; try discriminate.
  inversion H; subst. cbn [scan_decimal] in E.
  destruct ((c2 - 48 <? 0) || (9 <? c2 - 48)) eqn:E1; [lia|].
  destruct ((214748364 <? 0) || ((0 =? 214748364) && (7 <? c2 - 48))); [discriminate|].
  apply scan_decimal_ge in E; lia.
Qed.

Section Agree.
Variable is_word_char : Z -> bool.
Variable to_lower : Z -> Z.
Variable simple_fold : Z -> Z.
Variable participates : Z -> bool.
Variable cat_in : Z -> Z -> bool.
Variable cat_name : list Z -> Z.

(* the oracle tie *)
Hypothesis HW : forall c, is_word_char c = true -> negb (zmem c [33; 35; 39; 40; 41; 45; 60; 61; 62; 63; 91; 92]) = true.
Hypothesis HD : forall c, (49 <=? c) && (c <=? 57) = true -> is_word_char c = true.

Lemma word_ptriv x c : is_word_char c = true -> ptriv x c = true.
Proof. intros H. apply HW in H. unfold zmem in H. cbn [existsb] in H. apply ptriv_intro; intros; lia. Qed.

Lemma scan_word_tskip x p : tskip x p (snd (scan_word is_word_char p)).
Proof.
  induction p as [|c p IH]; cbn [scan_word]; [apply tskip_refl|].
  destruct (is_word_char c) eqn:E; [|apply tskip_refl].
  destruct (scan_word is_word_char p) as [w r]. cbn [snd] in *.
  eapply tskip_trans; [apply tskip_cons; apply word_ptriv; exact E | exact IH].
Qed.

Local Notation prescan_open := (prescan_open is_word_char).
Local Notation prescan_step := (prescan_step is_word_char to_lower simple_fold cat_in cat_name).
Local Notation prescan_loop := (prescan_loop is_word_char to_lower simple_fold cat_in cat_name).

Variable mco : bool.
Variable cstF : cst.

(* the pre-scan, run on from (st, p), ends in the final state *)
Definition reach (st : cst) (p : list Z) : Prop := exists f, prescan_loop f mco st p = POk cstF.

Lemma reach_cons st ch p1 :
  reach st (ch :: p1) <-> exists st' q, prescan_step mco st ch p1 = POk (st', q) /\ reach st' q.
Proof.
  split.
  - intros [f H]. destruct f as [|f]; [discriminate|]. cbn [Parser.prescan_loop] in H.
    destruct (prescan_step mco st ch p1) as [[st' q]|e q| | |]; cbn [pbind] in H; try discriminate.
    exists st', q. split; [reflexivity | exists f; exact H].
  - intros [st' [q [E [f H]]]]. exists (S f). cbn [Parser.prescan_loop]. rewrite E. cbn [pbind]. exact H.
Qed.

Lemma prescan_step_ptriv st c p1 : ptriv (useX (cs_o st)) c = true -> prescan_step mco st c p1 = POk (st, p1).
Proof.
  intros H. destruct (ptriv_inv _ _ H) as [H1 [H2 [H3 [H4 H5]]]]. unfold Parser.prescan_step. rewrite H1.
  destruct (c =? 35) eqn:E35.
  - rewrite andb_true_r in H5. rewrite H5. reflexivity.
  - rewrite H2, H3, H4. reflexivity.
Qed.

Lemma reach_tskip st p q : tskip (useX (cs_o st)) p q -> (reach st p <-> reach st q).
Proof.
  intros [seg [-> F]]. induction seg as [|c seg IH]; [reflexivity|].
  cbn [forallb] in F. apply andb_prop in F. destruct F as [F1 F2]. cbn [app].
  rewrite reach_cons. rewrite <- (IH F2). split.
  - intros [st' [q' [E R]]]. rewrite (prescan_step_ptriv st c (seg ++ q) F1) in E. inversion E; subst. exact R.
  - intros R. exists st, (seg ++ q). split; [apply prescan_step_ptriv; exact F1 | exact R].
Qed.

(* scanBlank of the main pass = steps of the pre-scan (a comment is one step: the same function) *)
Lemma space_ptriv x c : is_space c = true -> ptriv x c = true.
Proof.
  intros H. apply ptriv_intro; intros; intros ->; vm_compute in H; discriminate.
Qed.

Lemma set_cs_ign_same st : cs_ign st = false -> set_cs_ign st false = st.
Proof. destruct st; cbn. intros ->. reflexivity. Qed.

Lemma blank_reach st : cs_ign st = false -> forall p q, blank (useX (cs_o st)) BNorm p = POk q -> (reach st p <-> reach st q).
Proof.
  intros Hi. induction p as [|ch p' IH]; intros q H; cbn [blank] in H; [inversion H; reflexivity|].
  destruct (useX (cs_o st) && is_space ch) eqn:E1.
  { rewrite <- (IH q H). apply reach_tskip. apply tskip_cons. apply space_ptriv. apply andb_prop in E1. tauto. }
  assert (STEP : forall stq, prescan_step mco st ch p' = POk (st, stq) -> stq = q -> (reach st (ch :: p') <-> reach st q)).
  { intros stq E -> . rewrite reach_cons. split.
    - intros [st' [q' [E' R]]]. rewrite E in E'. inversion E'; subst. exact R.
    - intros R. exists st, q. auto. }
  destruct (useX (cs_o st) && (ch =? 35)) eqn:E2.
  { apply andb_prop in E2. destruct E2 as [X E35]. apply (STEP q); [|reflexivity].
    assert (ch = 35) by lia. subst ch.
    assert (B : scan_blank_full (cs_o st) (35 :: p') = POk q).
    { unfold scan_blank_full. cbn [blank]. rewrite E1, X. cbn [andb Z.eqb Pos.eqb]. rewrite X in H. exact H. }
    unfold Parser.prescan_step. cbn [Z.eqb Pos.eqb]. rewrite X, B. reflexivity. }
  destruct ((ch =? 40) && starts_qhash p') eqn:E3.
  { apply andb_prop in E3. destruct E3 as [E40 Q]. assert (ch = 40) by lia. subst ch. apply (STEP q); [|reflexivity].
    assert (B : scan_blank_full (cs_o st) (40 :: p') = POk q).
    { unfold scan_blank_full. cbn [blank]. rewrite E1, E2. cbn [andb Z.eqb Pos.eqb]. rewrite Q. exact H. }
    unfold Parser.prescan_step. cbn [Z.eqb Pos.eqb]. unfold Parser.prescan_open. rewrite Q, B. cbn [ignore_err0 pbind].
    rewrite set_cs_ign_same by exact Hi. reflexivity. }
  inversion H; subst. reflexivity.
Qed.


(* ---------------------------------------------------------------- scanCharSet: scan-only = full, on the cursor *)
(* whenever the full scan succeeds, the scan-only scan (any items, any subtraction so far, an option word equal
   up to RightToLeft) succeeds with the same cursor *)
Definition agr (rf rs : pr (csyn * list Z)) : Prop :=
  forall syn q, rf = POk (syn, q) -> exists syn', rs = POk (syn', q).

Lemma parse_property_oeqv a b p : oeqv a b -> parse_property is_word_char cat_name a p = parse_property is_word_char cat_name b p.
Proof. intros H. unfold parse_property. rewrite (oeqv_useE _ _ H), (oeqv_useU _ _ H). reflexivity. Qed.

Lemma char_escape_oeqv a b p : oeqv a b -> char_escape is_word_char a p = char_escape is_word_char b p.
Proof.
  intros H. unfold char_escape, pl_scan_char_escape, esc_err_rest, pl_scan_octal.
  rewrite (oeqv_useE _ _ H), (oeqv_useU _ _ H), (oeqv_useRE2 _ _ H). reflexivity.
Qed.

Section ClassAgree.
Variable recF recS : cs_rec.
Variable a b : Z.
Hypothesis Hab : oeqv a b.
Hypothesis HR : forall ng q cp ir fi its sb its' sb',
  agr (recF false ng q cp ir fi its sb) (recS true ng q cp ir fi its' sb').

Lemma cs_next_agr ng q cp ir its sb its' sb' :
  agr (cs_next recF false ng q cp ir its sb) (cs_next recS true ng q cp ir its' sb').
Proof. apply HR. Qed.

Lemma cs_nested_agr q : agr (cs_nested recF false q) (cs_nested recS true q).
Proof. unfold cs_nested. destruct (caret q) as [ng2 q2]. apply HR. Qed.

(* the subtraction branch of both scanners *)
Lemma sub_branch_agr ng chprev q its its' sb' :
  agr (pdo r <- cs_nested recF false q ; cs_after_sub recF false ng chprev r its)
      (match cs_nested recS true q with
       | POk (_, q3) => cs_next recS true ng q3 chprev false its' sb'
       | PE _ q3 => cs_next recS true ng q3 chprev false its' sb'
       | PO => PO
       | PC w => PC w
       | PF => PF
       end).
Proof.
  intros syn qf H.
  destruct (cs_nested recF false q) as [[sb q3]|e q3| | |] eqn:EN; cbn [pbind] in H; try discriminate.
  destruct (cs_nested_agr q sb q3 EN) as [sb2 ES]. rewrite ES.
  unfold cs_after_sub in H.
  destruct (negb (match q3 with [] => true | _ => false end) && negb (hd_is q3 93)); [discriminate|].
  eapply cs_next_agr. exact H.
Qed.

Lemma cs_generic_agr ng chprev inrange first sub sub' ch tr q its its' :
  agr (cs_generic recF false ng chprev inrange first sub ch tr q its)
      (cs_generic recS true ng chprev inrange first sub' ch tr q its').
Proof.
  unfold cs_generic. destruct inrange.
  - destruct ((ch =? 91) && negb tr && negb first).
    + apply sub_branch_agr.
    + intros syn qf H. destruct (ch <? chprev); [discriminate|]. eapply cs_next_agr. exact H.
  - destruct (longer q 1 && hd_is q 45 && negb (nth_is 1 q 93)); [apply cs_next_agr|].
    destruct (longer q 0 && (ch =? 45) && negb tr && hd_is q 91 && negb first); [apply sub_branch_agr | apply cs_next_agr].
Qed.

Lemma cs_shorthand_agr ng chprev inrange sub sub' it q its its' :
  agr (cs_shorthand recF false a ng chprev inrange sub it q its)
      (cs_shorthand recS true b ng chprev inrange sub' it q its').
Proof.
  unfold cs_shorthand. intros syn qf H. destruct inrange.
  - destruct (negb (useE a)); [discriminate|]. eapply cs_next_agr. exact H.
  - eapply cs_next_agr. exact H.
Qed.

Lemma cs_prop_agr ng chprev inrange sub sub' c2 p2 its its' :
  agr (cs_prop is_word_char cat_name recF false a ng chprev inrange sub c2 p2 its)
      (cs_prop is_word_char cat_name recS true b ng chprev inrange sub' c2 p2 its').
Proof.
  unfold cs_prop. rewrite <- (oeqv_useE _ _ Hab), <- (oeqv_useU _ _ Hab).
  destruct (useE a && negb (useU a) && (c2 =? 80) && inrange); [intros syn qf H; discriminate|].
  destruct (useE a && negb (useU a) && (c2 =? 112)).
  - intros syn qf H. destruct inrange.
    + destruct (112 <? chprev); [discriminate|]. eapply cs_next_agr. exact H.
    + destruct (longer p2 1 && hd_is p2 45 && negb (nth_is 1 p2 93)).
      * cbv zeta in H |- *. destruct (nth 1 p2 0 <? 112); [discriminate|]. eapply cs_next_agr. exact H.
      * eapply cs_next_agr. exact H.
  - rewrite (parse_property_oeqv a b p2 Hab). intros syn qf H.
    destruct (parse_property is_word_char cat_name b p2) as [[id q]|e q| | |]; cbn [pbind] in *; try discriminate.
    destruct inrange; [discriminate|]. eapply cs_next_agr. exact H.
Qed.

Lemma cs_posix_agr ng chprev inrange first sub sub' p1 p2 its its' :
  agr (cs_posix is_word_char recF false a ng chprev inrange first sub p1 p2 its)
      (cs_posix is_word_char recS true b ng chprev inrange first sub' p1 p2 its').
Proof.
  unfold cs_posix.
  destruct (if longer p2 1 && hd_is p2 94 then (true, tl p2) else (false, p2)) as [ngp p3].
  destruct (scan_word is_word_char p3) as [nm p4]. cbn [negb andb pbind].
  rewrite <- (oeqv_useRE2 _ _ Hab).
  destruct (longer p4 1 && hd_is p4 58 && nth_is 1 p4 93); [|apply cs_generic_agr].
  destruct (useRE2 a); [|apply cs_generic_agr].
  intros syn qf H.
  match type of H with pbind ?x _ = _ => destruct x as [itsF|e q| | |] end; cbn [pbind] in H; try discriminate.
  eapply cs_next_agr. exact H.
Qed.

Lemma cs_body_agr ng chprev inrange first sub sub' p its its' :
  agr (cs_body is_word_char cat_name recF false a ng chprev inrange first sub p its)
      (cs_body is_word_char cat_name recS true b ng chprev inrange first sub' p its').
Proof.
  unfold cs_body. destruct p as [|ch p1]; [intros syn qf H; discriminate|].
  destruct (ch =? 93).
  { rewrite <- (oeqv_useE _ _ Hab). destruct (negb first || useE a).
    - intros syn qf H. inversion H; subst. eexists. reflexivity.
    - apply cs_generic_agr. }
  destruct (ch =? 92).
  { destruct p1 as [|c2 p2]; [apply cs_generic_agr|].
    destruct ((c2 =? 68) || (c2 =? 100)); [apply cs_shorthand_agr|].
    destruct ((c2 =? 83) || (c2 =? 115)); [apply cs_shorthand_agr|].
    destruct ((c2 =? 87) || (c2 =? 119)); [apply cs_shorthand_agr|].
    destruct ((c2 =? 112) || (c2 =? 80)); [apply cs_prop_agr|].
    destruct (c2 =? 45); [apply cs_next_agr|].
    rewrite (char_escape_oeqv a b (c2 :: p2) Hab). intros syn qf H.
    destruct (char_escape is_word_char b (c2 :: p2)) as [[c q]|e q| | |]; cbn [pbind] in *; try discriminate.
    eapply cs_generic_agr. exact H. }
  destruct ((ch =? 91) && hd_is p1 58 && negb inrange); [apply cs_posix_agr | apply cs_generic_agr].
Qed.

End ClassAgree.

Lemma cs_loop_agr fuel : forall a b, oeqv a b ->
  forall ng p chprev inrange first its sb its' sb',
  agr (cs_loop is_word_char cat_name fuel false a ng p chprev inrange first its sb)
      (cs_loop is_word_char cat_name fuel true b ng p chprev inrange first its' sb').
Proof.
  induction fuel as [|f IH]; intros a b Hab ng p chprev inrange first its sb its' sb'; cbn [cs_loop].
  - intros syn q H. discriminate.
  - apply (cs_body_agr (fun so' ng' q cp ir fi its0 sb0 => cs_loop is_word_char cat_name f so' a ng' q cp ir fi its0 sb0)
                       (fun so' ng' q cp ir fi its0 sb0 => cs_loop is_word_char cat_name f so' b ng' q cp ir fi its0 sb0) a b Hab).
    intros ng0 q cp ir fi its0 sb0 its0' sb0'. apply IH; assumption.
Qed.

Lemma cs_scan_agr fuel a b p syn q : oeqv a b ->
  cs_scan is_word_char cat_name fuel false a p = POk (syn, q) ->
  exists syn', cs_scan is_word_char cat_name fuel true b p = POk (syn', q).
Proof.
  intros Hab. unfold cs_scan. destruct (caret p) as [ng p0]. apply cs_loop_agr; assumption.
Qed.


(* ---------------------------------------------------------------- scanBackslash: scan-only = full, up to digits *)
(* "\18" with fewer than 18 groups: the full scan re-reads it as an octal escape and stops after "\1", the
   scan-only scan has read the whole number; the characters in between are digits *)
Definition bsagr (x : bool) (rf rs : pr (bres * list Z)) : Prop :=
  forall b0 q', rf = POk (b0, q') -> exists q, ignore_err rs = POk q /\ tskip x q' q.

Lemma octal_loop_digits e c : forall i p, exists ds, p = ds ++ snd (pl_octal_loop e c i p) /\ forallb ParseLit.is_digit ds = true.
Proof.
  induction c as [|c IH]; intros i p; cbn [pl_octal_loop]; [exists []; split; reflexivity|].
  destruct p as [|ch p']; [exists []; split; reflexivity|].
  destruct ((48 <=? ch) && (ch <=? 55)) eqn:E; [|exists []; split; reflexivity].
  destruct ((32 <=? i) && e); [exists []; split; reflexivity|].
  destruct (IH (i * 8 + (ch - 48)) p') as [ds [E1 E2]]. exists (ch :: ds). split; [cbn [app]; f_equal; exact E1|].
  cbn [forallb]. rewrite E2. unfold ParseLit.is_digit. lia.
Qed.

Lemma digits_then_decimal x ds : forall r i v q, forallb ParseLit.is_digit ds = true -> scan_decimal i (ds ++ r) = Ok (v, q) -> tskip x r q.
Proof.
  induction ds as [|d ds IH]; intros r i v q F H; [eapply scan_decimal_tskip; exact H|].
  cbn [forallb] in F. apply andb_prop in F. destruct F as [F1 F2]. cbn [app scan_decimal] in H.
  assert (D : (d - 48 <? 0) || (9 <? d - 48) = false) by (unfold ParseLit.is_digit in F1; lia). rewrite D in H.
  destruct ((214748364 <? i) || ((i =? 214748364) && (7 <? d - 48))); [discriminate|].
  eapply IH; eassumption.
Qed.

Section BsAgree.
Variable tbF tbS : captab.
Variable a b : Z.
Hypothesis Hab : oeqv a b.
(* under ECMAScript "\k" is a back-reference only when the table has names: both tables agree on that *)
Hypothesis HN : useE a = true -> ct_named tbF = ct_named tbS.
Variable x : bool.

Local Notation char_code := (char_code is_word_char to_lower simple_fold cat_in).
Local Notation name_or_num := (name_or_num is_word_char to_lower simple_fold cat_in).
Local Notation basic_backslash := (basic_backslash is_word_char to_lower simple_fold cat_in).
Local Notation scan_backslash_full := (scan_backslash_full is_word_char to_lower simple_fold cat_in cat_name).

Lemma char_code_bsagr p : bsagr x (char_code false a p) (char_code true b p).
Proof.
  unfold Parser.char_code. rewrite (char_escape_oeqv a b p Hab). intros b0 q' H.
  destruct (char_escape is_word_char b p) as [[c q]|e q| | |]; cbn [pbind] in *; try discriminate.
  destruct (mk_node_ch simple_fold cat_in T_One a (if useI a then to_lower c else c)); cbn [pbind] in H; try discriminate.
  inversion H; subst. exists q'. split; [reflexivity | apply tskip_refl].
Qed.

Lemma name_or_num_bsagr k close p0 cur : bsagr x (name_or_num false tbF a k close p0 cur) (name_or_num true tbS b k close p0 cur).
Proof.
  unfold Parser.name_or_num. destruct cur as [|ch cur']; [intros b0 q' H; discriminate|].
  destruct (ParseLit.is_digit ch).
  - destruct (decimal (ch :: cur')) as [[capnum r1]|e q| | |]; cbn [pbind]; try (intros b0 q' H; discriminate).
    destruct (hd_is r1 close); [|apply char_code_bsagr].
    intros b0 q' H. destruct (ct_slot tbF capnum); [|discriminate]. inversion H; subst.
    exists (tl r1). split; [destruct (ct_slot tbS capnum); reflexivity | apply tskip_refl].
  - rewrite <- (oeqv_useE _ _ Hab). destruct (useE a); [intros b0 q' H; discriminate|].
    destruct (scan_word is_word_char (ch :: cur')) as [nm r1].
    destruct (negb (match nm with [] => true | _ => false end) && hd_is r1 close).
    + intros b0 q' H. destruct (ct_name tbF nm); [|discriminate]. inversion H; subst.
      exists (tl r1). split; [reflexivity | apply tskip_refl].
    + destruct k; [intros b0 q' H; destruct (negb match nm with [] => true | _ => false end); discriminate | apply char_code_bsagr].
Qed.

Lemma digit_escape_digits o ch p1 c q : (49 <=? ch) && (ch <=? 57) = true ->
  char_escape is_word_char o (ch :: p1) = POk (c, q) -> exists ds, ch :: p1 = ds ++ q /\ forallb ParseLit.is_digit ds = true.
Proof.
  intros Hd H. unfold char_escape, of_res in H.
  destruct (pl_scan_char_escape is_word_char o (ch :: p1)) as [[c' q'']|e|w|] eqn:E; try discriminate. inversion H; subst. clear H.
  unfold pl_scan_char_escape in E.
  destruct ((48 <=? ch) && (ch <=? 55)) eqn:E1.
  - inversion E; subst. unfold pl_scan_octal in H0.
    destruct (octal_loop_digits (useE o) 3 0 (ch :: p1)) as [ds [D1 D2]].
    destruct (pl_octal_loop (useE o) 3 0 (ch :: p1)) as [i p']. cbn [snd] in D1. inversion H0; subst. exists ds. auto.
  - assert (C : ch = 56 \/ ch = 57) by lia.
    assert (Q : q = p1).
    { destruct C as [-> | ->]; cbn in E; destruct (negb (useE o) && negb (useRE2 o) && is_word_char _); inversion E; reflexivity. }
    subst q. exists [ch]. split; [reflexivity|]. cbn. unfold ParseLit.is_digit. lia.
Qed.

Lemma basic_backslash_bsagr p : bsagr x (basic_backslash false tbF a p) (basic_backslash true tbS b p).
Proof.
  unfold Parser.basic_backslash. destruct p as [|ch p1]; [intros b0 q' H; discriminate|].
  rewrite <- (oeqv_useE _ _ Hab), <- (oeqv_useU _ _ Hab).
  assert (KS : negb (useE a) || useU a || ct_named tbS = negb (useE a) || useU a || ct_named tbF).
  { destruct (useE a) eqn:EE; [rewrite (HN eq_refl); reflexivity | reflexivity]. }
  rewrite KS.
  destruct ((ch =? 107) && (negb (useE a) || useU a || ct_named tbF)).
  { destruct p1 as [|c2 p2]; [intros b0 q' H; discriminate|].
    destruct (negb ((c2 =? 60) || (negb (useE a) && (c2 =? 39)))); [intros b0 q' H; discriminate|].
    destruct p2 as [|c3 p3]; [intros b0 q' H; discriminate|]. apply name_or_num_bsagr. }
  destruct (negb (useE a) && ((ch =? 60) || (ch =? 39)) && longer (ch :: p1) 1); [apply name_or_num_bsagr|].
  destruct ((49 <=? ch) && (ch <=? 57)) eqn:Ed; [|apply char_code_bsagr].
  unfold decimal, of_res. destruct (scan_decimal 0 (ch :: p1)) as [[capnum q]|e|w|] eqn:SD; cbn [pbind]; try (intros b0 q' H; discriminate).
  intros b0 q' H. exists q. split; [reflexivity|].
  destruct (ct_slot tbF capnum); [inversion H; subst; apply tskip_refl|].
  destruct ((capnum <=? 9) && negb (useE a)); [discriminate|].
  unfold Parser.char_code in H.
  destruct (char_escape is_word_char a (ch :: p1)) as [[c q2]|e q2| | |] eqn:CE; cbn [pbind] in H; try discriminate.
  destruct (mk_node_ch simple_fold cat_in T_One a (if useI a then to_lower c else c)); cbn [pbind] in H; try discriminate.
  inversion H; subst. destruct (digit_escape_digits _ _ _ _ _ Ed CE) as [ds [D1 D2]].
  rewrite D1 in SD. eapply digits_then_decimal; eassumption.
Qed.

Lemma scan_backslash_full_bsagr p : bsagr x (scan_backslash_full false tbF a p) (scan_backslash_full true tbS b p).
Proof.
  unfold Parser.scan_backslash_full. destruct p as [|ch p1]; [intros b0 q' H; discriminate|].
  destruct (zmem ch pl_assert_letters).
  { intros b0 q' H. inversion H; subst. exists q'. split; [reflexivity | apply tskip_refl]. }
  destruct (zmem ch pl_class_letters).
  { intros b0 q' H. destruct (mk_node_set simple_fold cat_in T_Set a (class_of_letter a ch)); cbn [pbind] in H; try discriminate.
    inversion H; subst. exists q'. split; [reflexivity | apply tskip_refl]. }
  destruct ((ch =? 112) || (ch =? 80)); [|apply basic_backslash_bsagr].
  rewrite <- (oeqv_useE _ _ Hab), <- (oeqv_useU _ _ Hab). destruct (useE a && negb (useU a)); [apply basic_backslash_bsagr|].
  rewrite (parse_property_oeqv a b p1 Hab). intros b0 q' H.
  destruct (parse_property is_word_char cat_name b p1) as [[id q]|e q| | |]; cbn [pbind] in *; try discriminate.
  match type of H with pbind ?m _ = _ => destruct m end; cbn [pbind] in H; try discriminate.
  inversion H; subst. exists q'. split; [reflexivity | apply tskip_refl].
Qed.

End BsAgree.


(* ---------------------------------------------------------------- what only grows along the pre-scan *)
Lemma reach_mono st p : reach st p ->
  incl (c_caps (cs_c st)) (c_caps (cs_c cstF)) /\
  (forall s v, aget s (names_of (cs_c st)) = Some v -> aget s (names_of (cs_c cstF)) = Some v).
Proof.
  intros [f H].
  apply (prescan_loop_gen is_word_char to_lower simple_fold cat_in cat_name mco
           (fun c => incl (c_caps (cs_c st)) (c_caps c) /\
                     (forall s v, aget s (names_of (cs_c st)) = Some v -> aget s (names_of c) = Some v))
           ) with (fuel := f) (st := st) (p := p); [| | | split; [apply incl_refl | auto] | exact H].
  - intros c [I N]. unfold note_auto. split.
    + intros k Hk. apply note_slot_caps. right. cbn. apply I. exact Hk.
    + destruct (note_slot_fields (c_autocap c) (mkC (c_autocap c + 1) (c_caps c) (c_capcount c) (c_captop c) (c_capnames c) (c_capnamelist c))) as [_ [F2 _]].
      unfold names_of in *. rewrite F2. cbn. exact N.
  - intros _ c i [I N] _. split.
    + intros k Hk. apply note_slot_caps. right. apply I. exact Hk.
    + destruct (note_slot_fields i c) as [_ [F2 _]]. unfold names_of in *. rewrite F2. exact N.
  - intros o s c c' [I N] E. unfold note_name_pr in E.
    destruct (note_name mco (useE o) s c) as [c2| | |] eqn:NN; try discriminate. inversion E; subst c2. clear E.
    unfold note_name in NN. destruct (aget s (names_of c)) as [v0|] eqn:Eg.
    + destruct (useE o); [discriminate|]. inversion NN; subst. cbn. split; [exact I|].
      intros s0 v Hs. specialize (N s0 v Hs). unfold names_of in *. cbn. destruct (c_capnames c); [exact N | discriminate].
    + assert (NEW : forall s0 v w, aget s0 (names_of (cs_c st)) = Some v -> aget s0 (aset s w (names_of c)) = Some v).
      { intros s0 v w Hs. specialize (N s0 v Hs). rewrite aget_aset_other; [exact N|]. intros ->. congruence. }
      destruct mco; inversion NN; subst; clear NN.
      * split.
        -- intros k Hk. cbn. apply note_slot_caps. right. cbn. apply I. exact Hk.
        -- match goal with |- context [note_slot ?i ?cc] => destruct (note_slot_fields i cc) as [_ [F2 _]] end.
           unfold names_of at 2. cbn. rewrite F2. cbn. intros s0 v Hs. apply NEW. exact Hs.
      * split; [exact I|]. unfold names_of at 2. cbn. intros s0 v Hs. apply NEW. exact Hs.
Qed.

Lemma nonstopper_ptriv o c : is_stopper o c = false -> ptriv (useX o) c = true.
Proof.
  unfold is_stopper. intros H. apply ptriv_intro; [intros -> | intros -> | intros -> | intros -> | intros X ->];
    destruct (useX o); try discriminate; vm_compute in H; discriminate.
Qed.

Lemma take_run_tskip o p : forall run p1, take_run o p = (run, p1) -> tskip (useX o) p p1.
Proof.
  induction p as [|ch p' IH]; intros run p1 H; cbn [take_run] in H; [inversion H; apply tskip_refl|].
  destruct (is_stopper o ch && (negb (ch =? 123) || is_true_quantifier (ch :: p'))) eqn:E; [inversion H; apply tskip_refl|].
  destruct (take_run o p') as [r rest] eqn:Et. inversion H; subst.
  eapply tskip_trans; [apply tskip_cons | eapply IH; reflexivity].
  destruct (is_stopper o ch) eqn:Es; [|apply nonstopper_ptriv; exact Es].
  cbn [andb] in E. assert (ch = 123) by lia. subst ch. apply ptriv_intro; intros; lia.
Qed.

Definition ctl (st : mst) : Z * list Z * bool * Z := (ms_o st, ms_os st, ms_ign st, ms_autocap st).

Local Notation add_concatenate := (add_concatenate cat_in).
Local Notation add_concatenate3 := (add_concatenate3 cat_in).
Local Notation scan_quantifier := (scan_quantifier cat_in).
Local Notation after_unit := (after_unit cat_in).

Lemma unit_added_ctl st st' : unit_added st st' -> ctl st' = ctl st.
Proof. intros [c [-> _]]. reflexivity. Qed.

Lemma brace_counts_tskip x p1 mn mx q : brace_counts p1 = POk (Some (mn, mx, q)) -> tskip x p1 q.
Proof.
  unfold brace_counts. intros H.
  destruct (decimal p1) as [[mn0 q0]|e q0| | |] eqn:D; cbn [pbind] in H; try discriminate.
  pose proof (decimal_tskip x _ _ _ D) as T0.
  match type of H with pbind ?m _ = _ => destruct m as [[mx0 q2]|e q2| | |] eqn:D2 end; cbn [pbind] in H; try discriminate.
  destruct ((length q0 =? length p1)%nat || negb (hd_is q2 125)) eqn:EC; [discriminate|]. inversion H; subst.
  assert (T2 : tskip x q0 q2).
  { destruct ((length q0 <? length p1)%nat && hd_is q0 44) eqn:E1; [|inversion D2; subst; apply tskip_refl].
    assert (TC : tskip x q0 (tl q0)) by (apply tskip_tl with (c := 44); [apply andb_prop in E1; tauto | apply ptriv_intro; intros; lia]).
    destruct (is_nil (tl q0) || hd_is (tl q0) 125); [inversion D2; subst; exact TC|].
    eapply tskip_trans; [exact TC | eapply decimal_tskip; exact D2]. }
  eapply tskip_trans; [exact T0|]. eapply tskip_trans; [exact T2|].
  apply tskip_tl with (c := 125); [|apply ptriv_intro; intros; lia].
  destruct (hd_is q2 125); [reflexivity|]. rewrite orb_true_r in EC. discriminate.
Qed.

(* the cursor after a quantifier, for a pre-scan state with the same x option and no pending ignoreNextParen *)
Lemma scan_quantifier_cursor st p st' q cs : oeqv (ms_o st) (cs_o cs) -> cs_ign cs = false -> ms_unit st <> None ->
  scan_quantifier st p = POk (st', q) -> ctl st' = ctl st /\ (reach cs p <-> reach cs q).
Proof.
  intros Ho Hi Hu E. unfold Parser.scan_quantifier in E. destruct p as [|ch p1]; [discriminate|].
  pose proof (oeqv_useX _ _ Ho) as HX.
  destruct (ms_unit st) as [u|] eqn:Eu; [|congruence].
  match type of E with pbind ?m _ = _ => destruct m as [[[[mn mx] q0]|]|e q0| | |] eqn:EA end; cbn [pbind] in E; try discriminate.
  - assert (T0 : tskip (useX (cs_o cs)) (ch :: p1) q0).
    { destruct (ch =? 42) eqn:C1; [inversion EA; subst; apply tskip_cons; apply ptriv_intro; intros; lia|].
      destruct (ch =? 63) eqn:C2; [inversion EA; subst; apply tskip_cons; apply ptriv_intro; intros; lia|].
      destruct (ch =? 43) eqn:C3; [inversion EA; subst; apply tskip_cons; apply ptriv_intro; intros; lia|].
      destruct (ch =? 123) eqn:C4; [|discriminate].
      eapply tskip_trans; [apply tskip_cons; apply ptriv_intro; intros; lia | eapply brace_counts_tskip; exact EA]. }
    destruct (scan_blank_full (ms_o st) q0) as [q1|e q1| | |] eqn:EB; cbn [pbind] in E; try discriminate.
    unfold scan_blank_full in EB. rewrite HX in EB.
    destruct (if hd_is q1 63 then (true, tl q1) else (false, q1)) as [lazy q2] eqn:EL.
    destruct (mx <? mn); [discriminate|].
    destruct (add_concatenate3 st lazy mn mx) as [st1|e q3| | |] eqn:E3; cbn [pbind] in E; try discriminate.
    inversion E; subst. split; [eapply unit_added_ctl, add_concatenate3_added; exact E3|].
    rewrite (reach_tskip cs _ _ T0). rewrite (blank_reach cs Hi q0 q1 EB).
    destruct (hd_is q1 63) eqn:EH; inversion EL; subst; [|reflexivity].
    apply reach_tskip. apply tskip_tl with (c := 63); [exact EH | apply ptriv_intro; intros; lia].
  - destruct (add_concatenate st) as [st1|e q3| | |] eqn:E1; cbn [pbind] in E; try discriminate.
    inversion E; subst. split; [eapply unit_added_ctl, add_concatenate_added; exact E1 | reflexivity].
Qed.

Lemma after_unit_cursor st p st' q wq cs : oeqv (ms_o st) (cs_o cs) -> cs_ign cs = false -> ms_unit st <> None ->
  after_unit st p = POk (st', q, wq) -> ctl st' = ctl st /\ (reach cs p <-> reach cs q).
Proof.
  intros Ho Hi Hu E. unfold Parser.after_unit in E.
  destruct (scan_blank_full (ms_o st) p) as [p1|e p1| | |] eqn:EB; cbn [pbind] in E; try discriminate.
  unfold scan_blank_full in EB. rewrite (oeqv_useX _ _ Ho) in EB.
  rewrite (blank_reach cs Hi p p1 EB).
  destruct (is_nil p1 || negb (is_true_quantifier p1)).
  - destruct (add_concatenate st) as [st1|e q3| | |] eqn:E1; cbn [pbind] in E; try discriminate.
    inversion E; subst. split; [eapply unit_added_ctl, add_concatenate_added; exact E1 | reflexivity].
  - destruct (scan_quantifier st p1) as [[st1 q1]|e q3| | |] eqn:E1; cbn [pbind] in E; try discriminate.
    inversion E; subst. eapply scan_quantifier_cursor; eassumption.
Qed.

Inductive psteps : cst -> list Z -> cst -> list Z -> Prop :=
| ps_refl cs p : psteps cs p cs p
| ps_step cs ch p1 cs1 q1 cs' q : prescan_step mco cs ch p1 = POk (cs1, q1) -> psteps cs1 q1 cs' q -> psteps cs (ch :: p1) cs' q.

Lemma psteps_reach cs p cs' q : psteps cs p cs' q -> (reach cs p <-> reach cs' q).
Proof.
  induction 1 as [|cs ch p1 cs1 q1 cs' q E _ IH]; [reflexivity|].
  rewrite reach_cons, <- IH. split.
  - intros [st' [q' [E' R]]]. rewrite E in E'. inversion E'; subst. exact R.
  - intros R. exists cs1, q1. auto.
Qed.

Lemma psteps_trans cs p cs1 q1 cs2 q2 : psteps cs p cs1 q1 -> psteps cs1 q1 cs2 q2 -> psteps cs p cs2 q2.
Proof. induction 1; [auto|]. intros H2. eapply ps_step; [eassumption | auto]. Qed.

Lemma psteps_one cs ch p1 cs1 q1 : prescan_step mco cs ch p1 = POk (cs1, q1) -> psteps cs (ch :: p1) cs1 q1.
Proof. intros E. eapply ps_step; [exact E | apply ps_refl]. Qed.

Lemma psteps_tskip cs p q : tskip (useX (cs_o cs)) p q -> psteps cs p cs q.
Proof.
  intros [seg [-> F]]. induction seg as [|c seg IH]; [apply ps_refl|].
  cbn [forallb] in F. apply andb_prop in F. destruct F as [F1 F2]. cbn [app].
  eapply ps_step; [apply prescan_step_ptriv; exact F1 | apply IH; exact F2].
Qed.

(* the hypotheses are those of ParserOkPre's Section PreGen (prescan_step_gen), over a run of steps *)
Lemma psteps_inv (J : cstate -> Prop) :
  (forall c, J c -> J (note_auto c)) ->
  (mco = false -> forall c i, J c -> 0 <= i <= 2147483647 -> J (note_slot i c)) ->
  (forall o s c c', J c -> note_name_pr mco o s c = POk c' -> J c') ->
  forall cs p cs' q, psteps cs p cs' q -> J (cs_c cs) -> J (cs_c cs').
Proof.
  intros J1 J2 J3 cs p cs' q H. induction H as [|cs ch p1 cs1 q1 cs' q E _ IH]; [auto|].
  intros Hc. apply IH. eapply (prescan_step_gen is_word_char to_lower simple_fold cat_in cat_name mco J J1 J2 J3); eassumption.
Qed.

Lemma psteps_cw cs p cs' q : psteps cs p cs' q -> cw (cs_c cs) -> cw (cs_c cs').
Proof.
  apply psteps_inv; [apply note_auto_cw | intros _ c i W Hi; apply note_slot_cw; [exact W | lia] | intros o s c c'; apply note_name_pr_cw].
Qed.

Lemma psteps_cinv cs p cs' q : psteps cs p cs' q -> cinv mco (cs_c cs) -> cinv mco (cs_c cs').
Proof.
  apply psteps_inv.
  - apply note_auto_cinv.
  - intros Em c i W Hi. revert W. rewrite Em. intros W. apply note_slot_cinv_plain; [exact W | lia].
  - intros o s c c' W E. pose proof (note_name_pr_ok mco o s c W) as N. rewrite E in N. exact N.
Qed.

(* ECMAScript: no names, the numbers are 0 .. autocap-1 *)
Lemma psteps_EN cs p cs' q : psteps cs p cs' q -> Eall cs -> EN (cs_c cs) -> Eall cs' /\ EN (cs_c cs').
Proof.
  induction 1 as [|cs ch p1 cs1 q1 cs' q E _ IH]; [auto|]. intros HE HN.
  destruct (prescan_step_E is_word_char to_lower simple_fold cat_in cat_name mco cs ch p1 cs1 q1 HE HN E) as [E' N']. auto.
Qed.

Definition near (x : bool) (p q : list Z) : Prop := tskip x p q \/ tskip x q p.

Lemma reach_near cs p q : near (useX (cs_o cs)) p q -> (reach cs p <-> reach cs q).
Proof. intros [H|H]; [apply reach_tskip; exact H | symmetry; apply reach_tskip; exact H]. Qed.

Lemma near_refl x p : near x p p.
Proof. left. apply tskip_refl. Qed.


(* ---------------------------------------------------------------- "(" : scanGroupOpen against the pre-scan *)
Variable tb : GroupMap.ptree.
Hypothesis HF2 : mco = true -> forall s v, aget s (names_of (cs_c cstF)) = Some v -> ct_name (captab_main tb) s = Some v.

Lemma step40 cs p3 : prescan_step mco cs 40 p3 = prescan_open mco cs (40 :: p3) p3.
Proof. reflexivity. Qed.

Lemma step41 cs p1 o' r : cs_os cs = o' :: r -> prescan_step mco cs 41 p1 = POk (mkCS (cs_c cs) o' r (cs_ign cs), p1).
Proof. intros H. unfold Parser.prescan_step. cbn [Z.eqb Pos.eqb]. rewrite H. reflexivity. Qed.

Lemma note_auto_autocap c : c_autocap (note_auto c) = c_autocap c + 1 /\ In (c_autocap c) (c_caps (note_auto c)).
Proof.
  unfold note_auto. match goal with |- context [note_slot ?k ?cc] => destruct (note_slot_fields k cc) as [F1 _] end.
  split; [rewrite F1; reflexivity | apply note_slot_caps; left; reflexivity].
Qed.

(* the state both passes are in after the "(" *)
Definition open_post (cs : cst) (o : Z) (ign : bool) (a : Z) (p3 : list Z) (g : option rnode) (v' : gvars) (q' : list Z) : Prop :=
  exists cs' qp,
    psteps cs (40 :: p3) cs' qp /\ near (useX (cs_o cs')) qp q' /\
    oeqv (gv_o v') (cs_o cs') /\ cs_ign cs' = gv_ign v' /\ c_autocap (cs_c cs') = gv_autocap v' /\
    cs_os cs' = (match g with Some _ => cs_o cs :: cs_os cs | None => cs_os cs end) /\
    (gv_ign v' = true -> hd_is q' 40 = true /\ starts_qhash (tl q') = false) /\
    (hd_is p3 63 = false -> (useN o || ign) = false -> In a (c_caps (cs_c cs'))).

(* what noteCaptureName does to the automatic number = what consumeCaptureSlot does in the main pass *)
Lemma name_bump cs0 s c' q : cinv mco (cs_c cs0) ->
  note_name_pr mco (cs_o cs0) s (cs_c cs0) = POk c' ->
  reach (mkCS c' (cs_o cs0) (cs_os cs0) false) q ->
  c_autocap c' = consume_slot mco (match ct_name (captab_main tb) s with Some g => g | None => -1 end) (c_autocap (cs_c cs0)).
Proof.
  intros CI E R. unfold note_name_pr in E.
  destruct (note_name mco (useE (cs_o cs0)) s (cs_c cs0)) as [c2| | |] eqn:NN; try discriminate. inversion E; subst c2. clear E.
  unfold consume_slot. destruct mco eqn:Em; cbn [andb].
  2:{ unfold note_name in NN. destruct (aget s (names_of (cs_c cs0))); [destruct (useE (cs_o cs0)); [discriminate|]|]; inversion NN; reflexivity. }
  destruct (reach_mono _ _ R) as [_ MN]. cbn [cs_c] in MN.
  destruct CI as [A N M D]. destruct (D eq_refl) as [D1 [D2 [D3 D4]]].
  unfold note_name in NN. destruct (aget s (names_of (cs_c cs0))) as [v0|] eqn:Eg.
  - destruct (useE (cs_o cs0)); [discriminate|]. inversion NN; subst c'. cbn [c_autocap].
    assert (K : ct_name (captab_main tb) s = Some v0).
    { apply HF2; [reflexivity|]. apply MN. unfold names_of. cbn. unfold names_of in Eg. destruct (c_capnames (cs_c cs0)); [exact Eg | discriminate]. }
    rewrite K. specialize (D4 _ _ Eg). destruct (v0 =? c_autocap (cs_c cs0)) eqn:EV; [lia | reflexivity].
  - inversion NN; subst c'. clear NN.
    match goal with |- context [note_slot ?k ?cc] => destruct (note_slot_fields k cc) as [F1 [F2 _]] end.
    cbn [c_autocap]. rewrite F1. cbn [c_autocap].
    assert (K : ct_name (captab_main tb) s = Some (c_autocap (cs_c cs0))).
    { apply HF2; [reflexivity|]. apply MN. unfold names_of at 1. cbn [c_capnames]. rewrite F2. cbn [c_capnames]. apply aget_aset_same. }
    rewrite K, Z.eqb_refl. reflexivity.
Qed.


Section OpenSim.
Variable cs : cst.
Variable o a : Z.
Hypothesis Ho : oeqv o (cs_o cs).
Hypothesis Ha : c_autocap (cs_c cs) = a.
Hypothesis Hci : cinv mco (cs_c cs).

Local Notation st1 := (mkCS (cs_c cs) (cs_o cs) (cs_o cs :: cs_os cs) (cs_ign cs)).
Local Notation tbm := (captab_main tb).
Local Notation xx := (useX (cs_o cs)).

Lemma useE_pre_false : useE o = false -> useE (cs_o cs) = false.
Proof. intros HE. rewrite <- (oeqv_useE _ _ Ho). exact HE. Qed.

Lemma consume_minus1 : consume_slot mco (-1) a = a.
Proof.
  unfold consume_slot. destruct mco; [|reflexivity]. cbn [andb].
  destruct Hci as [A _ _ _]. rewrite Ha in A. destruct (-1 =? a) eqn:E; [lia | reflexivity].
Qed.

(* the state the pre-scan is in after filing the name s *)
Lemma named_state s c' q :
  note_name_pr mco (cs_o cs) s (cs_c cs) = POk c' ->
  reach (set_cs_ign (set_cs_c st1 c') false) q ->
  c_autocap c' = consume_slot mco (match ct_name tbm s with Some g => g | None => -1 end) a.
Proof. intros E R. rewrite <- Ha. exact (name_bump st1 s c' q Hci E R). Qed.

Definition named_post (r : pr (cst * list Z)) (v' : gvars) (q' : list Z) : Prop :=
  exists cs1 q1, r = POk (cs1, q1) /\ tskip xx q1 q' /\
    cs_o cs1 = cs_o cs /\ cs_os cs1 = cs_o cs :: cs_os cs /\ cs_ign cs1 = false /\
    gv_o v' = o /\ gv_ign v' = false /\ c_autocap (cs_c cs1) = gv_autocap v'.

(* the tail of a group name in the main pass: "-name" and the closing character (the text of Parser.group_name) *)
Definition name_tail (close capnum : Z) (proceed : bool) (q : list Z) : pr (Z * list Z) :=
  if (negb (capnum =? -1) || proceed) && hd_is q 45 then
    let q1 := tl q in
    match q1 with
    | [] => PE PE_InvalidGroupName q1
    | c3 :: _ =>
        if ParseLit.is_digit c3 then
          pdo r <- decimal q1 ;
          let '(u, q2) := r in
          if negb (ct_slot tbm u) then PE E_UndefinedBackRef q2
          else if hd_is_not q2 close then PE PE_InvalidGroupName q2
          else POk (u, q2)
        else if is_word_char c3 then
          let '(nm, q2) := scan_word is_word_char q1 in
          match ct_name tbm nm with
          | None => PE E_UndefinedNameRef q2
          | Some u => if hd_is_not q2 close then PE PE_InvalidGroupName q2 else POk (u, q2)
          end
        else PE PE_InvalidGroupName q1
    end
  else POk (-1, q).

Lemma group_name_tail close capnum proceed q uncapnum q3 :
  (close = 39 \/ close = 62) ->
  name_tail close capnum proceed q = POk (uncapnum, q3) -> hd_is q3 close = true -> tskip xx q (tl q3).
Proof.
  intros Hc H HC. unfold name_tail in H.
  assert (TC : tskip xx q3 (tl q3)).
  { apply tskip_tl with (c := close); [exact HC | destruct Hc as [-> | ->]; apply ptriv_intro; intros; lia]. }
  destruct ((negb (capnum =? -1) || proceed) && hd_is q 45) eqn:E1; [|inversion H; subst; exact TC].
  assert (T1 : tskip xx q (tl q)) by (apply tskip_tl with (c := 45); [apply andb_prop in E1; tauto | apply ptriv_intro; intros; lia]).
  cbv zeta in H. destruct (tl q) as [|c3 q1'] eqn:Eq1; [discriminate|].
  destruct (ParseLit.is_digit c3).
  - destruct (decimal (c3 :: q1')) as [[u q2]|e q2| | |] eqn:D; cbn [pbind] in H; try discriminate.
    destruct (negb (ct_slot tbm u)); [discriminate|]. destruct (hd_is_not q2 close); [discriminate|]. inversion H; subst.
    eapply tskip_trans; [exact T1|]. eapply tskip_trans; [eapply decimal_tskip; exact D | exact TC].
  - destruct (is_word_char c3); [|discriminate].
    pose proof (scan_word_tskip xx (c3 :: q1')) as W. destruct (scan_word is_word_char (c3 :: q1')) as [nm q2]. cbn [snd] in W.
    destruct (ct_name tbm nm); [|discriminate]. destruct (hd_is_not q2 close); [discriminate|]. inversion H; subst.
    eapply tskip_trans; [exact T1|]. eapply tskip_trans; [exact W | exact TC].
Qed.

Lemma note_name_pr_total ob s c : useE ob = false -> exists c', note_name_pr mco ob s c = POk c'.
Proof.
  intros H. unfold note_name_pr, note_name. rewrite H.
  destruct (aget s (names_of c)); [eexists; reflexivity|]. destruct mco; eexists; reflexivity.
Qed.

Lemma consume_nonmco k : mco = false -> consume_slot mco k a = a.
Proof. intros H. unfold consume_slot. rewrite H. reflexivity. Qed.

Lemma mco_true_or_false : mco = true \/ mco = false.
Proof. destruct mco; auto. Qed.

Lemma named_sim close cur g v' q' :
  (close = 39 \/ close = 62) ->
  Parser.group_name is_word_char tbm mco (mkGV o false a) close cur = POk (g, v', q') ->
  (forall cs1 q1, prescan_named is_word_char mco st1 cur = POk (cs1, q1) -> reach cs1 q1) ->
  named_post (prescan_named is_word_char mco st1 cur) v' q' /\ g <> None.
Proof.
  intros Hc E R. unfold Parser.group_name in E. destruct cur as [|c2 cur']; [discriminate|].
  cbn [gv_o gv_ign gv_autocap] in E. destruct (useE o) eqn:HE; [discriminate|]. pose proof (useE_pre_false HE) as HEb.
  set (cur := c2 :: cur') in *.
  (* the end of the main pass' scan, once the first part (capnum, proceed, q) is known *)
  assert (FIN : forall capnum proceed q,
    (pdo r2 <- name_tail close capnum proceed q ;
     let '(uncapnum, q3) := r2 in
     if (negb (capnum =? -1) || negb (uncapnum =? -1)) && hd_is q3 close
     then POk (Some (mk_node_mn T_Capture o capnum uncapnum), mkGV o false (consume_slot mco capnum a), tl q3)
     else PE PE_UnrecognizedGrouping (tl q3)) = POk (g, v', q') ->
    tskip xx q q' /\ gv_o v' = o /\ gv_ign v' = false /\ gv_autocap v' = consume_slot mco capnum a /\ g <> None).
  { intros capnum proceed q H.
    destruct (name_tail close capnum proceed q) as [[uncapnum q3]|e q3| | |] eqn:ER2; cbn [pbind] in H; try discriminate.
    destruct ((negb (capnum =? -1) || negb (uncapnum =? -1)) && hd_is q3 close) eqn:EC; [|discriminate].
    injection H as <- <- <-. cbn [gv_o gv_ign gv_autocap].
    split; [|repeat split; discriminate].
    eapply (group_name_tail close capnum proceed q uncapnum q3 Hc ER2). apply andb_prop in EC. tauto. }
  unfold Parser.prescan_named, cur. cbv iota. fold cur. cbn [cs_o]. rewrite HEb.
  destruct (ParseLit.is_digit c2) eqn:Edig.
  - (* digits *)
    destruct (decimal cur) as [[n q]|e q| | |] eqn:D; cbn [pbind] in E; try discriminate.
    pose proof (decimal_tskip xx _ _ _ D) as TD.
    destruct (hd_is_not q close && hd_is_not q 45); [discriminate|].
    match type of E with pbind (if ?cz then _ else _) _ = _ => destruct cz eqn:EZ end; [discriminate|]. cbn [pbind] in E.
    destruct (FIN _ _ _ E) as [T [F1 [F2 [F3 F4]]]]. split; [|exact F4].
    destruct (c2 =? 48) eqn:E48.
    + (* a leading zero: the pre-scan files nothing, the main pass gets no number *)
      cbn [negb andb]. eexists _, cur. split; [reflexivity|]. split; [eapply tskip_trans; [exact TD | exact T]|].
      cbn [set_cs_ign cs_o cs_os cs_ign cs_c]. repeat split; auto.
      rewrite F3, Ha. symmetry.
      destruct mco_true_or_false as [Em|Em]; [|apply consume_nonmco; exact Em].
      rewrite Em in EZ |- *. destruct (n =? 0) eqn:En; cbn [negb andb] in EZ |- *.
      * destruct (ct_slot tbm n); [lia | rewrite <- Em; apply consume_minus1].
      * rewrite <- Em. apply consume_minus1.
    + assert (D9 : (49 <=? c2) && (c2 <=? 57) = true) by (unfold ParseLit.is_digit in Edig; lia).
      rewrite (HD c2 D9). cbn [negb andb]. rewrite D9. cbn [pbind].
      pose proof (decimal_nonzero _ _ _ _ D9 D) as NZ.
      destruct mco_true_or_false as [Em|Em].
      * destruct (note_name_pr_total (cs_o cs) (itoa n) (cs_c cs) HEb) as [c' N].
        assert (PN : prescan_named is_word_char mco st1 cur = POk (set_cs_ign (set_cs_c st1 c') false, q)).
        { unfold Parser.prescan_named, cur. cbv iota. fold cur. cbn [cs_o]. rewrite HEb, E48, (HD c2 D9). cbn [negb andb].
          rewrite D9, D. cbn [pbind]. rewrite Em. cbn [cs_c]. rewrite <- Em, N. reflexivity. }
        rewrite Em. cbn [cs_c]. rewrite <- Em, N. cbn [pbind].
        eexists _, q. split; [reflexivity|]. split; [exact T|].
        cbn [set_cs_ign set_cs_c cs_o cs_os cs_ign cs_c]. repeat split; auto.
        rewrite F3. rewrite NZ, Em. cbn [negb andb]. rewrite <- Em.
        apply (named_state (itoa n) c' q N). apply R. exact PN.
      * rewrite Em. eexists _, q. split; [reflexivity|]. split; [exact T|].
        cbn [set_cs_ign set_cs_c cs_o cs_os cs_ign cs_c]. repeat split; auto.
        destruct (note_slot_fields n (cs_c cs)) as [G1 _]. rewrite G1, F3, Ha. symmetry. apply consume_nonmco. exact Em.
  - destruct (is_word_char c2) eqn:Ew.
    + (* a name *)
      destruct (scan_word is_word_char cur) as [nm q] eqn:SW.
      pose proof (scan_word_tskip xx cur) as TW. rewrite SW in TW. cbn [snd] in TW.
      destruct (hd_is_not q close && hd_is_not q 45); [discriminate|]. cbn [pbind] in E.
      destruct (FIN _ _ _ E) as [T [F1 [F2 [F3 F4]]]]. split; [|exact F4].
      assert (N48 : (c2 =? 48) = false) by (unfold ParseLit.is_digit in Edig; lia).
      assert (N9 : (49 <=? c2) && (c2 <=? 57) = false) by (unfold ParseLit.is_digit in Edig; lia).
      rewrite N48. cbn [negb andb]. rewrite N9.
      destruct (note_name_pr_total (cs_o cs) nm (cs_c cs) HEb) as [c' N]. cbn [cs_c]. rewrite N. cbn [pbind].
      eexists _, q. split; [reflexivity|]. split; [exact T|].
      cbn [set_cs_ign set_cs_c cs_o cs_os cs_ign cs_c]. repeat split; auto.
      rewrite F3. apply (named_state nm c' q N). apply R. unfold Parser.prescan_named, cur. cbv iota. fold cur. cbn [cs_o]. rewrite HEb, N48, Ew. cbn [negb andb].
      rewrite N9, SW. cbn [cs_c]. rewrite N. reflexivity.
    + destruct (c2 =? 45) eqn:E45; [|discriminate]. cbn [pbind] in E.
      destruct (FIN _ _ _ E) as [T [F1 [F2 [F3 F4]]]]. split; [|exact F4].
      rewrite andb_false_r. eexists _, cur. split; [reflexivity|]. split; [exact T|].
      cbn [set_cs_ign cs_o cs_os cs_ign cs_c]. repeat split; auto. rewrite F3, Ha. symmetry. apply consume_minus1.
Qed.

Lemma pyname_sim p2 g v' q' :
  Parser.group_pyname is_word_char tbm mco (mkGV o false a) p2 = POk (g, v', q') ->
  (forall cs1 q1, prescan_pyname is_word_char mco st1 (tl p2) = POk (cs1, q1) -> reach cs1 q1) ->
  longer p2 2 = true /\ hd_is p2 60 = true /\ named_post (prescan_pyname is_word_char mco st1 (tl p2)) v' q' /\ g <> None.
Proof.
  intros E R. unfold Parser.group_pyname in E. cbn [gv_o gv_ign gv_autocap] in E.
  destruct (longer p2 2) eqn:L2; [|discriminate]. cbn [negb] in E.
  destruct (hd_is p2 60) eqn:H60; [|discriminate]. cbn [negb] in E.
  destruct p2 as [|c0 [|c1 p4]]; try discriminate. cbn [nth tl] in *.
  destruct (is_word_char c1) eqn:Ew; [|discriminate]. destruct (useE o) eqn:HE; [discriminate|]. pose proof (useE_pre_false HE) as HEb.
  destruct (scan_word is_word_char (c1 :: p4)) as [nm q] eqn:SW.
  pose proof (scan_word_tskip xx (c1 :: p4)) as TW. rewrite SW in TW. cbn [snd] in TW.
  destruct (hd_is_not q 62) eqn:HN; [discriminate|].
  match type of E with (if ?c then _ else _) = _ => destruct c eqn:EC end; [|discriminate].
  injection E as <- <- <-. split; [reflexivity|]. split; [reflexivity|]. split; [|discriminate].
  assert (TQ : tskip xx q (tl q)).
  { apply tskip_tl with (c := 62); [apply andb_prop in EC; tauto | apply ptriv_intro; intros; lia]. }
  unfold Parser.prescan_pyname. rewrite Ew. cbn [cs_o]. rewrite HEb, SW. cbn [cs_c].
  destruct (note_name_pr_total (cs_o cs) nm (cs_c cs) HEb) as [c' N]. rewrite N. cbn [pbind].
  eexists _, q. split; [reflexivity|]. split; [exact TQ|].
  cbn [set_cs_ign set_cs_c cs_o cs_os cs_ign cs_c gv_o gv_ign gv_autocap]. repeat split; auto.
  apply (named_state nm c' q N). apply R. unfold Parser.prescan_pyname. rewrite Ew. cbn [cs_o]. rewrite HEb, SW. cbn [cs_c]. rewrite N. reflexivity.
Qed.

Lemma open_post_one ign p3 g v' q' cs1 q1 :
  prescan_open mco cs (40 :: p3) p3 = POk (cs1, q1) ->
  near (useX (cs_o cs1)) q1 q' ->
  oeqv (gv_o v') (cs_o cs1) -> cs_ign cs1 = gv_ign v' -> c_autocap (cs_c cs1) = gv_autocap v' ->
  cs_os cs1 = (match g with Some _ => cs_o cs :: cs_os cs | None => cs_os cs end) ->
  (gv_ign v' = true -> hd_is q' 40 = true /\ starts_qhash (tl q') = false) ->
  (hd_is p3 63 = false -> (useN o || ign) = false -> In a (c_caps (cs_c cs1))) ->
  open_post cs o ign a p3 g v' q'.
Proof.
  intros E N H1 H2 H3 H4 H5 H6. exists cs1, q1. split; [apply psteps_one; rewrite step40; exact E|].
  repeat split; auto; apply H5; assumption.
Qed.

(* "(?(" : the condition *)
Lemma cond_sim ign p2 g v' q' :
  cs_ign cs = ign ->
  Parser.group_cond is_word_char tbm (mkGV o false a) (40 :: p2) = POk (g, v', q') ->
  open_post cs o ign a (63 :: 40 :: p2) g v' q'.
Proof.
  intros Hign E.
  (* the first step of the pre-scan: "(?(" pushes the options and sets ignoreNextParen *)
  set (cs1 := mkCS (cs_c cs) (cs_o cs) (cs_o cs :: cs_os cs) true).
  assert (S1 : prescan_open mco cs (40 :: 63 :: 40 :: p2) (63 :: 40 :: p2) = POk (cs1, 40 :: p2)).
  { unfold Parser.prescan_open. cbn [starts_qhash hd_is nth_is skipn tl Z.eqb Pos.eqb andb orb].
    rewrite !andb_false_r. cbn [andb].
    replace (scan_options_text (cs_o cs) (40 :: p2)) with (cs_o cs, 40 :: p2) by reflexivity.
    cbn [hd_is Z.eqb Pos.eqb cs_c cs_o cs_os cs_ign set_cs_ign]. reflexivity. }
  unfold Parser.group_cond in E. cbn [tl gv_o gv_autocap] in E.
  (* the expression-condition outcome *)
  assert (EXPR : forall gg, starts_qhash p2 = false ->
             open_post cs o ign a (63 :: 40 :: p2) (Some gg) (mkGV o true a) (40 :: p2)).
  { intros gg Q. eapply open_post_one; [exact S1 | apply near_refl | exact Ho | reflexivity | exact Ha | reflexivity | | intros H; discriminate].
    intros _. cbn [hd_is tl]. split; [reflexivity | exact Q]. }
  match type of E with pbind ?A _ = _ => destruct A as [[[gn q1]|]|e q1| | |] eqn:EA end; cbn [pbind] in E; try discriminate.
  - (* a back-reference condition "(?(n)" / "(?(name)": the pre-scan walks through "(n)" *)
    injection E as <- <- <-.
    assert (TK : exists q, tskip xx p2 q /\ hd_is q 41 = true /\ q1 = tl q /\ p2 <> [] /\ hd_is p2 63 = false).
    { destruct p2 as [|c p2']; [discriminate|].
      destruct (ParseLit.is_digit c) eqn:Ed.
      - destruct (decimal (c :: p2')) as [[n q]|e q| | |] eqn:D; cbn [pbind] in EA; try discriminate.
        destruct (hd_is q 41) eqn:H41; [|discriminate]. destruct (ct_slot tbm n); [|discriminate]. inversion EA; subst.
        exists q. split; [eapply decimal_tskip; exact D|]. repeat split; auto; try discriminate.
        cbn [hd_is]. unfold ParseLit.is_digit in Ed. lia.
      - destruct (is_word_char c) eqn:Ew; [|discriminate]. destruct (useE o) eqn:HE; [discriminate|].
        pose proof (scan_word_tskip xx (c :: p2')) as TW. destruct (scan_word is_word_char (c :: p2')) as [nm q]. cbn [snd] in TW.
        destruct (ct_name tbm nm); [|discriminate]. destruct (hd_is q 41) eqn:H41; [|discriminate]. inversion EA; subst.
        exists q. split; [exact TW|]. repeat split; auto; try discriminate.
        cbn [hd_is]. apply HW in Ew. unfold zmem in Ew. cbn [existsb] in Ew. lia. }
    destruct TK as [q [T [H41 [-> [NE H63]]]]].
    set (cs2 := mkCS (cs_c cs) (cs_o cs) (cs_o cs :: cs_o cs :: cs_os cs) false).
    assert (S2 : prescan_open mco cs1 (40 :: p2) p2 = POk (cs2, p2)).
    { unfold Parser.prescan_open. cbn [cs_o cs_os cs_ign cs_c cs1].
      assert (Q : starts_qhash p2 = false) by (unfold starts_qhash; rewrite H63; reflexivity). rewrite Q, H63.
      rewrite andb_false_r. reflexivity. }
    set (cs3 := mkCS (cs_c cs) (cs_o cs) (cs_o cs :: cs_os cs) false).
    exists cs3, (tl q). split.
    + eapply ps_step; [rewrite step40; exact S1|]. eapply ps_step; [rewrite step40; exact S2|].
      eapply psteps_trans; [apply psteps_tskip; exact T|].
      destruct q as [|c q']; [discriminate|]. cbn [hd_is] in H41. assert (c = 41) by lia. subst c.
      apply psteps_one. cbn [tl]. exact (step41 cs2 q' (cs_o cs) (cs_o cs :: cs_os cs) eq_refl).
    + cbn [cs3 cs_o cs_os cs_ign cs_c gv_o gv_ign gv_autocap]. split; [apply near_refl|]. repeat split; auto; discriminate.
  - (* an expression condition *)
    assert (Q : starts_qhash p2 = false).
    { destruct (starts_qhash p2) eqn:Q; [|reflexivity]. exfalso.
      unfold starts_qhash in Q. apply andb_prop in Q. destruct Q as [Q1 Q2].
      destruct p2 as [|c0 [|c1 p4]]; try discriminate. cbn [hd_is nth_is skipn] in Q1, Q2.
      assert (c0 = 63) by lia. assert (c1 = 35) by lia. subst c0 c1. cbn in E. discriminate. }
    repeat match type of E with (if ?c then _ else _) = _ => destruct c end; try discriminate; injection E as <- <- <-; apply EXPR; exact Q.
Qed.

(* scanOptions reads nothing from a character that is no option letter *)
Lemma no_option_char ob ch p5 : (ch =? 45) = false -> (ch =? 43) = false -> option_from_code ch = 0 ->
  scan_options_text ob (ch :: p5) = (ob, ch :: p5).
Proof.
  intros H1 H2 H3. unfold scan_options_text. cbn [ochars_of]. rewrite H1, H2, H3. reflexivity.
Qed.

Lemma pyname_open p5 : useRE2 (cs_o cs) = true -> longer p5 2 = true -> hd_is p5 60 = true ->
  prescan_open mco cs (40 :: 63 :: 80 :: p5) (63 :: 80 :: p5) = prescan_pyname is_word_char mco st1 (tl p5).
Proof.
  intros RE L2 H60. unfold Parser.prescan_open.
  change (starts_qhash (63 :: 80 :: p5)) with false. cbv iota.
  change (hd_is (63 :: 80 :: p5) 63) with true. cbv iota. cbn [tl].
  change (hd_is (80 :: p5) 60) with false. change (hd_is (80 :: p5) 39) with false. cbn [orb]. rewrite andb_false_r.
  change (hd_is (80 :: p5) 80) with true. change (nth_is 1 (80 :: p5) 60) with (hd_is p5 60).
  cbn [cs_o]. rewrite RE, H60, !andb_true_r, andb_true_l.
  assert (L : longer (80 :: p5) 2 = true) by (unfold longer in *; cbn [length]; apply Nat.ltb_lt in L2; apply Nat.ltb_lt; lia).
  rewrite L. destruct p5; reflexivity.
Qed.

Lemma open_sim gt ign p3 g v' q' :
  cs_ign cs = ign -> reach cs (40 :: p3) -> starts_qhash p3 = false ->
  Parser.group_open is_word_char tbm mco gt (mkGV o ign a) p3 = POk (g, v', q') ->
  (hd_is p3 63 = true /\ nth_is 1 p3 41 = true /\ q' = p3 /\ g <> None) \/
  (open_post cs o ign a p3 g v' q' /\ ((is_nil p3 || negb (hd_is p3 63) || nth_is 1 p3 41) = true -> hd_is p3 63 = false)).
Proof.
  intros Hign HR Hq E. unfold Parser.group_open in E. cbn [gv_o gv_ign gv_autocap] in E.
  pose proof (oeqv_useN _ _ Ho) as HN.
  destruct (is_nil p3 || negb (hd_is p3 63) || nth_is 1 p3 41) eqn:E0.
  { destruct (hd_is p3 63) eqn:H63.
    - left. assert (N1 : nth_is 1 p3 41 = true).
      { destruct p3; [discriminate|]. cbn [is_nil negb orb] in E0. exact E0. }
      split; [reflexivity|]. split; [exact N1|]. destruct (useN o || ign); injection E as <- <- <-; split; try reflexivity; discriminate.
    - right. split; [|intros _; reflexivity].
      assert (PO : prescan_open mco cs (40 :: p3) p3 =
                   POk (if negb (useN (cs_o cs)) && negb (cs_ign cs)
                        then set_cs_ign (set_cs_c st1 (note_auto (cs_c cs))) false else set_cs_ign st1 false, p3)).
      { unfold Parser.prescan_open. rewrite Hq, H63. cbn [cs_o cs_ign]. destruct (negb (useN (cs_o cs)) && negb (cs_ign cs)); reflexivity. }
      rewrite <- HN, Hign in PO.
      destruct (useN o || ign) eqn:EN.
      + injection E as <- <- <-.
        assert (C : negb (useN o) && negb ign = false) by (destruct (useN o), ign; try discriminate; reflexivity). rewrite C in PO.
        eapply open_post_one; [exact PO | apply near_refl | exact Ho | reflexivity | exact Ha | reflexivity | intros H; discriminate | intros _ H; congruence].
      + injection E as <- <- <-.
        assert (C : negb (useN o) && negb ign = true) by (destruct (useN o), ign; try discriminate; reflexivity). rewrite C in PO.
        destruct (note_auto_autocap (cs_c cs)) as [NA1 NA2].
        eapply open_post_one; [exact PO | apply near_refl | exact Ho | | | reflexivity | | ].
        * cbn [set_cs_ign set_cs_c cs_ign gv_ign]. destruct (useN o), ign; try discriminate; reflexivity.
        * cbn [set_cs_ign set_cs_c cs_c gv_autocap]. rewrite NA1, Ha. reflexivity.
        * cbn [gv_ign]. intros H. destruct (useN o), ign; discriminate.
        * intros _ _. cbn [set_cs_ign set_cs_c cs_c]. rewrite <- Ha. exact NA2. }
  right. split; [|intros HH; rewrite HH in E0; discriminate].
  assert (H63 : hd_is p3 63 = true) by (destruct (hd_is p3 63); [reflexivity | rewrite orb_true_r in E0; discriminate]).
  destruct p3 as [|c0 p4]; [discriminate|]. cbn [hd_is] in H63. assert (c0 = 63) by lia. subst c0. cbn [tl] in E.
  destruct p4 as [|ch p5]; [discriminate|].
  assert (N41 : (ch =? 41) = false) by (cbn in E0; destruct (ch =? 41); [discriminate | reflexivity]).
  (* the pre-scan on "(?" + a character that starts neither a name nor (under RE2) "P<" : the options branch *)
  assert (OPTS : (ch =? 60) = false -> (ch =? 39) = false -> (useRE2 (cs_o cs) && (ch =? 80)) = false ->
            prescan_open mco cs (40 :: 63 :: ch :: p5) (63 :: ch :: p5) =
            (let '(o2, q) := scan_options_text (cs_o cs) (ch :: p5) in
             if hd_is q 41 then POk (mkCS (cs_c cs) o2 (cs_os cs) false, tl q)
             else if hd_is q 40 then POk (mkCS (cs_c cs) o2 (cs_o cs :: cs_os cs) true, q)
             else POk (mkCS (cs_c cs) o2 (cs_o cs :: cs_os cs) false, q))).
  { intros A1 A2 A3. unfold Parser.prescan_open. rewrite Hq. cbn [hd_is tl Z.eqb Pos.eqb]. rewrite A1, A2. cbn [orb]. rewrite andb_false_r.
    assert (PY : useRE2 (cs_o cs) && longer (ch :: p5) 2 && (ch =? 80) && nth_is 1 (ch :: p5) 60 = false).
    { destruct (useRE2 (cs_o cs)); [|reflexivity]. cbn [andb] in A3 |- *. rewrite A3. rewrite andb_false_r. reflexivity. }
    rewrite PY. destruct (scan_options_text (cs_o cs) (ch :: p5)) as [o2 q]. cbn [cs_c cs_o cs_os cs_ign set_cs_ign].
    destruct (hd_is q 41); [reflexivity|]. destruct (hd_is q 40); reflexivity. }
  (* a one-character group opener: ":" "=" "!" ">" *)
  assert (SIMPLE : forall t o', (ch =? 58) || (ch =? 61) || (ch =? 33) || (ch =? 62) = true -> oeqv o' o ->
            open_post cs o ign a (63 :: ch :: p5) (Some (mk_node t o')) (mkGV o' false a) p5).
  { intros t o' C Oo.
    assert (NO : scan_options_text (cs_o cs) (ch :: p5) = (cs_o cs, ch :: p5)).
    { apply no_option_char; try lia. unfold option_from_code.
      repeat match goal with |- context [if ?c then _ else _] => destruct c eqn:? end; try reflexivity; lia. }
    specialize (OPTS ltac:(lia) ltac:(lia) ltac:(destruct (useRE2 (cs_o cs)); [cbn; lia | reflexivity])).
    rewrite NO in OPTS. cbn [hd_is] in OPTS. rewrite N41 in OPTS.
    assert (N40 : (ch =? 40) = false) by lia. rewrite N40 in OPTS.
    eapply open_post_one; [exact OPTS | | | reflexivity | exact Ha | reflexivity | intros H; discriminate | intros H; discriminate].
    - left. apply tskip_cons. apply ptriv_intro; intros; lia.
    - cbn [cs_o gv_o]. eapply oeqv_trans; [exact Oo | exact Ho]. }
  destruct (ch =? 58) eqn:C58; [injection E as <- <- <-; apply SIMPLE; [lia | apply oeqv_refl]|].
  destruct (ch =? 61) eqn:C61; [injection E as <- <- <-; apply SIMPLE; [lia | apply oeqv_clear_rtl]|].
  destruct (ch =? 33) eqn:C33; [injection E as <- <- <-; apply SIMPLE; [lia | apply oeqv_clear_rtl]|].
  destruct (ch =? 62) eqn:C62; [injection E as <- <- <-; apply SIMPLE; [lia | apply oeqv_refl]|].
  destruct ((ch =? 39) || (ch =? 60)) eqn:CQ.
  { (* "(?<" / "(?'" *)
    destruct p5 as [|c2 p6]; [discriminate|].
    assert (NAMED : prescan_open mco cs (40 :: 63 :: ch :: c2 :: p6) (63 :: ch :: c2 :: p6) = prescan_named is_word_char mco st1 (c2 :: p6)).
    { unfold Parser.prescan_open. rewrite Hq. cbn [hd_is tl]. 
      assert (T : longer (ch :: c2 :: p6) 1 && ((ch =? 60) || (ch =? 39)) = true) by (unfold longer; cbn [length]; cbn; lia). rewrite T. reflexivity. }
    destruct ((c2 =? 61) || (c2 =? 33)) eqn:CL.
    - (* lookbehind *)
      destruct ((if ch =? 39 then 39 else 62) =? 39); [discriminate|]. injection E as <- <- <-.
      assert (PN : prescan_named is_word_char mco st1 (c2 :: p6) = POk (set_cs_ign st1 false, c2 :: p6)).
      { unfold Parser.prescan_named. cbn [cs_o]. destruct (useE (cs_o cs)).
        - assert (CC : (c2 =? 61) || (c2 =? 33) || (c2 =? 48) = true) by lia. rewrite CC. reflexivity.
        - assert (NW : is_word_char c2 = false).
          { destruct (is_word_char c2) eqn:Ew; [|reflexivity]. apply HW in Ew. unfold zmem in Ew. cbn [existsb] in Ew. lia. }
          rewrite NW, andb_false_r. reflexivity. }
      rewrite PN in NAMED.
      eapply open_post_one; [exact NAMED | | | reflexivity | exact Ha | reflexivity | intros H; discriminate | intros H; discriminate].
      + left. apply tskip_cons. apply ptriv_intro; intros; lia.
      + cbn [cs_o set_cs_ign gv_o]. eapply oeqv_trans; [apply oeqv_set_rtl | exact Ho].
    - destruct (named_sim (if ch =? 39 then 39 else 62) (c2 :: p6) g v' q') as [[cs1 [q1 [E1 [T [F1 [F2 [F3 [F4 [F5 F6]]]]]]]]] GN].
      + destruct (ch =? 39); auto.
      + exact E.
      + intros cs1 q1 E1. rewrite <- NAMED in E1. apply reach_cons in HR. destruct HR as [st' [qq [ES RR]]].
        rewrite step40, E1 in ES. inversion ES; subst. exact RR.
      + rewrite E1 in NAMED.
        eapply open_post_one; [exact NAMED | left; rewrite F1; exact T | rewrite F1, F4; exact Ho | rewrite F3, F5; reflexivity | exact F6 | | rewrite F5; intros H; discriminate | intros H; discriminate].
        destruct g; [exact F2 | congruence]. }
  destruct (ch =? 40) eqn:C40.
  { assert (ch = 40) by lia. subst ch. eapply cond_sim; [exact Hign | exact E]. }
  destruct ((ch =? 80) && useRE2 o) eqn:CP.
  { (* "(?P<" under RE2 *)
    apply andb_prop in CP. destruct CP as [C80 RE]. assert (ch = 80) by lia. subst ch.
    assert (LH : longer p5 2 = true /\ hd_is p5 60 = true).
    { pose proof E as E'. unfold Parser.group_pyname in E'. destruct (longer p5 2); [|discriminate]. destruct (hd_is p5 60); [auto | discriminate]. }
    destruct LH as [L2 H60].
    destruct (pyname_sim p5 g v' q' E) as [_ [_ [[cs1 [q1 [E1 [T [F1 [F2 [F3 [F4 [F5 F6]]]]]]]]] GN]]].
    - intros cs1 q1 E1. apply reach_cons in HR. destruct HR as [st' [qq [ES RR]]].
      rewrite step40, (pyname_open p5 ltac:(rewrite <- (oeqv_useRE2 _ _ Ho); exact RE) L2 H60), E1 in ES. inversion ES; subst. exact RR.
    - assert (PO : prescan_open mco cs (40 :: 63 :: 80 :: p5) (63 :: 80 :: p5) = POk (cs1, q1)).
      { rewrite (pyname_open p5 ltac:(rewrite <- (oeqv_useRE2 _ _ Ho); exact RE) L2 H60). exact E1. }
      eapply open_post_one; [exact PO | left; rewrite F1; exact T | rewrite F1, F4; exact Ho | rewrite F3, F5; reflexivity | exact F6 | | rewrite F5; intros H; discriminate | intros H; discriminate].
      destruct g; [exact F2 | congruence]. }
  (* inline options *)
  assert (A3 : useRE2 (cs_o cs) && (ch =? 80) = false).
  { rewrite <- (oeqv_useRE2 _ _ Ho). destruct (ch =? 80); [cbn in CP; rewrite CP; reflexivity | apply andb_false_r]. }
  specialize (OPTS ltac:(lia) ltac:(lia) A3).
  destruct (gt =? T_ExprCond) eqn:GT.
  { (* no options directly inside a conditional *)
    destruct (ch =? 41); [discriminate|]. rewrite C58 in E. discriminate. }
  destruct (scan_options_text_oeqv o (cs_o cs) (ch :: p5) Ho) as [SO1 SO2].
  destruct (scan_options_text o (ch :: p5)) as [o2 q] eqn:EO. destruct (scan_options_text (cs_o cs) (ch :: p5)) as [b2 qb] eqn:EB.
  cbn [fst snd] in SO1, SO2. subst qb.
  destruct q as [|c q1]; [discriminate|]. cbn [hd_is tl] in OPTS.
  destruct (c =? 41) eqn:D41.
  - injection E as <- <- <-.
    eapply open_post_one; [exact OPTS | apply near_refl | exact SO1 | reflexivity | exact Ha | reflexivity | intros H; discriminate | intros H; discriminate].
  - destruct (c =? 58) eqn:D58; [|discriminate]. injection E as <- <- <-.
    assert (D40 : (c =? 40) = false) by lia. rewrite D40 in OPTS.
    eapply open_post_one; [exact OPTS | | exact SO1 | reflexivity | exact Ha | reflexivity | intros H; discriminate | intros H; discriminate].
    left. apply tskip_cons. apply ptriv_intro; intros; lia.
Qed.

End OpenSim.


(* scanGroupOpen never touches the ECMAScript bit *)
Lemma group_open_useE gt v p g v' q :
  Parser.group_open is_word_char (captab_main tb) mco gt v p = POk (g, v', q) -> useE (gv_o v') = useE (gv_o v).
Proof.
  unfold Parser.group_open. intros E.
  destruct (is_nil p || negb (hd_is p 63) || nth_is 1 p 41).
  { destruct (useN (gv_o v) || gv_ign v); injection E as <- <- <-; reflexivity. }
  destruct (tl p) as [|ch p2]; [discriminate|].
  assert (CL : useE (clear_rtl (gv_o v)) = useE (gv_o v)) by (apply oeqv_useE; apply oeqv_clear_rtl).
  assert (ST : useE (set_rtl (gv_o v)) = useE (gv_o v)) by (apply oeqv_useE; apply oeqv_set_rtl).
  destruct (ch =? 58); [injection E as <- <- <-; reflexivity|].
  destruct (ch =? 61); [injection E as <- <- <-; exact CL|].
  destruct (ch =? 33); [injection E as <- <- <-; exact CL|].
  destruct (ch =? 62); [injection E as <- <- <-; reflexivity|].
  destruct ((ch =? 39) || (ch =? 60)).
  { destruct p2 as [|c2 p3]; [discriminate|].
    destruct ((c2 =? 61) || (c2 =? 33)).
    - destruct ((if ch =? 39 then 39 else 62) =? 39); [discriminate|]. injection E as <- <- <-. exact ST.
    - unfold Parser.group_name in E. cbn [gv_o gv_ign gv_autocap] in E.
      destruct (useE (gv_o v)) eqn:EE; [discriminate|].
      match type of E with pbind ?A _ = _ => destruct A as [[[capnum proceed] q0]|e q0| | |] end; cbn [pbind] in E; try discriminate.
      match type of E with pbind ?A _ = _ => destruct A as [[uncapnum q3]|e q3| | |] end; cbn [pbind] in E; try discriminate.
      match type of E with (if ?c then _ else _) = _ => destruct c end; [|discriminate]. injection E as <- <- <-. cbn [gv_o]. first [reflexivity | exact EE]. }
  destruct (ch =? 40).
  { unfold Parser.group_cond in E. cbn [gv_o gv_ign gv_autocap] in E.
    match type of E with pbind ?A _ = _ => destruct A as [[[gn q1]|]|e q1| | |] end; cbn [pbind] in E; try discriminate.
    - injection E as <- <- <-. reflexivity.
    - repeat match type of E with (if ?c then _ else _) = _ => destruct c end; try discriminate; injection E as <- <- <-; reflexivity. }
  destruct ((ch =? 80) && useRE2 (gv_o v)).
  { unfold Parser.group_pyname in E. cbn [gv_o gv_ign gv_autocap] in E.
    destruct (negb (longer p2 2)); [discriminate|]. destruct (negb (hd_is p2 60)); [discriminate|].
    destruct (is_word_char (nth 1 p2 0)); [|discriminate]. destruct (useE (gv_o v)) eqn:EE; [discriminate|].
    destruct (scan_word is_word_char (tl p2)) as [nm q0]. destruct (hd_is_not q0 62); [discriminate|].
    match type of E with (if ?c then _ else _) = _ => destruct c end; [|discriminate]. injection E as <- <- <-. cbn [gv_o]. first [reflexivity | exact EE]. }
  destruct (if gt =? T_ExprCond then (gv_o v, ch :: p2) else scan_options_text (gv_o v) (ch :: p2)) as [o2 q0] eqn:Eo.
  assert (R : useE o2 = useE (gv_o v)).
  { destruct (gt =? T_ExprCond); [inversion Eo; reflexivity|]. apply inline_options_keep_top_bits in Eo. tauto. }
  destruct q0 as [|c q1]; [discriminate|].
  destruct (c =? 41); [injection E as <- <- <-; exact R|].
  destruct (c =? 58); [|discriminate]. injection E as <- <- <-. exact R.
Qed.

Variable caps : list Z.
Hypothesis HF1 : incl (c_caps (cs_c cstF)) caps.
(* the ECMAScript bit of the option word the parse started with *)
Variable e0 : bool.
Hypothesis HF3 : e0 = true -> no_names tb = true.

Record Sim (cs : cst) (st : mst) (p : list Z) : Prop := mkSim {
  sm_o : oeqv (ms_o st) (cs_o cs);
  sm_os : Forall2 oeqv (ms_os st) (cs_os cs);
  sm_ign : cs_ign cs = ms_ign st;
  sm_auto : c_autocap (cs_c cs) = ms_autocap st;
  sm_E : useE (ms_o st) = e0;
  sm_Es : Forall (fun o => useE o = e0) (ms_os st);
  sm_cond : ms_ign st = true -> hd_is p 40 = true /\ starts_qhash (tl p) = false;
  sm_cinv : cinv mco (cs_c cs);
  sm_reach : reach cs p;
  sm_nn : e0 = true -> EN (cs_c cs) }.

Lemma Sim_Eall cs st p : Sim cs st p -> e0 = true -> Eall cs.
Proof.
  intros S He. split.
  - rewrite <- (oeqv_useE _ _ (sm_o _ _ _ S)), (sm_E _ _ _ S). exact He.
  - pose proof (sm_os _ _ _ S) as F2. pose proof (sm_Es _ _ _ S) as F1. revert F1.
    induction F2 as [|a b la lb Hab _ IH]; intros F1; [constructor|].
    inversion F1; subst. constructor; [rewrite <- (oeqv_useE _ _ Hab); congruence | apply IH; assumption].
Qed.

Lemma Sim_move cs st p st' q : Sim cs st p -> ctl st' = ctl st -> ms_ign st = false -> reach cs q -> Sim cs st' q.
Proof.
  intros [S1 S2 S3 S4 S5 S6 S7 S8 S9 S10] C I R. unfold ctl in C. injection C as C1 C2 C3 C4.
  constructor; rewrite ?C1, ?C2, ?C3, ?C4; auto.
  intros H. congruence.
Qed.

(* the head of a round: blanks, the literal run, blanks *)
Lemma round_head cs st p p0 run p1 p2 : Sim cs st p ->
  scan_blank_full (ms_o st) p = POk p0 -> take_run (ms_o st) p0 = (run, p1) -> scan_blank_full (ms_o st) p1 = POk p2 ->
  reach cs p2 /\ (ms_ign st = true -> p2 = p /\ run = []).
Proof.
  intros S E0 Er E1. pose proof (oeqv_useX _ _ (sm_o _ _ _ S)) as HX.
  destruct (ms_ign st) eqn:Ig.
  - destruct (sm_cond _ _ _ S Ig) as [H40 Q].
    unfold scan_blank_full in E0. rewrite (blank_paren _ p H40 Q) in E0. inversion E0; subst p0.
    destruct p as [|c t]; [discriminate|]. cbn [hd_is] in H40. assert (c = 40) by lia. subst c.
    rewrite take_run_paren in Er. inversion Er; subst.
    unfold scan_blank_full in E1. rewrite (blank_paren _ (40 :: t) eq_refl Q) in E1. inversion E1; subst.
    split; [exact (sm_reach _ _ _ S) | auto].
  - split; [|discriminate].
    assert (CI : cs_ign cs = false) by (rewrite (sm_ign _ _ _ S); exact Ig).
    unfold scan_blank_full in E0, E1. rewrite HX in E0, E1.
    apply (blank_reach cs CI p1 p2 E1). apply (reach_tskip cs p0 p1); [rewrite <- HX; eapply take_run_tskip; exact Er|].
    apply (blank_reach cs CI p p0 E0). exact (sm_reach _ _ _ S).
Qed.


Local Notation tbm := (captab_main tb).
Local Notation add_run := (add_run simple_fold participates cat_in).
Local Notation add_alternate := (add_alternate cat_in).
Local Notation add_group := (add_group cat_in).
Local Notation pop_group := (pop_group cat_in).
Local Notation round_open := (round_open is_word_char cat_in).
Local Notation round_close := (round_close cat_in).
Local Notation scan_round := (scan_round is_word_char to_lower simple_fold participates cat_in cat_name).
Local Notation scan_loop_full := (scan_loop_full is_word_char to_lower simple_fold participates cat_in cat_name).

Lemma sim_after cs st p st1 q st' q' wq : Sim cs st p -> ms_ign st = false -> ctl st1 = ctl st -> ms_unit st1 <> None ->
  reach cs q -> after_unit st1 q = POk (st', q', wq) -> Sim cs st' q'.
Proof.
  intros S I C U R E.
  assert (O1 : oeqv (ms_o st1) (cs_o cs)) by (unfold ctl in C; injection C as C1 _ _ _; rewrite C1; exact (sm_o _ _ _ S)).
  assert (CI : cs_ign cs = false) by (rewrite (sm_ign _ _ _ S); exact I).
  destruct (after_unit_cursor st1 q st' q' wq cs O1 CI U E) as [C' RR].
  eapply Sim_move; [exact S | rewrite C'; exact C | exact I | apply RR; exact R].
Qed.

(* ")" *)
Lemma sim_close cs st p st1 p3 st' nxt : Sim cs st p -> ms_ign st = false -> ctl st1 = ctl st -> reach cs (41 :: p3) ->
  round_close st1 p3 = POk (st', nxt) -> exists q wq cs', nxt = Some (q, wq) /\ Sim cs' st' q.
Proof.
  intros S I C R E. destruct (round_close_cases _ _ _ _ _ E) as [st2 [st3 [o1 [os1 [E2 [E3 [Eos T]]]]]]]. cbv zeta in T.
  assert (C13 : ctl st3 = ctl st).
  { destruct (add_group_cases _ _ _ E2) as [g' [a' [-> _]]]. destruct (pop_group_cases _ _ _ E3) as [g [a [c [r [_ P]]]]].
    rewrite <- C. destruct P as [[_ [_ [u [g2 [_ [_ ->]]]]]] | [_ ->]]; reflexivity. }
  unfold ctl in C13. injection C13 as K1 K2 K3 K4. rewrite Eos in K2.
  pose proof (sm_os _ _ _ S) as F2. rewrite <- K2 in F2. inversion F2 as [|? b1 ? bs Ob Obs Eq1 Eq2]; subst.
  set (cs' := mkCS (cs_c cs) b1 bs (cs_ign cs)).
  assert (R' : reach cs' p3).
  { apply reach_cons in R. destruct R as [st'' [qq [ES RR]]]. rewrite (step41 cs p3 b1 bs (eq_sym Eq2)) in ES. inversion ES; subst. exact RR. }
  set (st4 := mkMS (ms_stack st3) (ms_group st3) (ms_alt st3) (ms_concat st3) (ms_unit st3) o1 os1 (ms_ign st3) (ms_autocap st3)) in *.
  pose proof (sm_Es _ _ _ S) as FE. rewrite <- K2 in FE. inversion FE as [|? ? E1 Es']; subst.
  assert (S4 : Sim cs' st4 p3).
  { constructor; cbn [cs' st4 ms_o ms_os ms_ign ms_autocap cs_o cs_os cs_ign cs_c]; auto.
    - rewrite K3. exact (sm_ign _ _ _ S).
    - rewrite K4. exact (sm_auto _ _ _ S).
    - rewrite K3, I. discriminate.
    - exact (sm_cinv _ _ _ S).
    - exact (sm_nn _ _ _ S). }
  destruct T as [[_ [-> ->]] | [EU [q5 [wq [EA ->]]]]].
  - exists p3, false, cs'. split; [reflexivity | exact S4].
  - exists q5, wq, cs'. split; [reflexivity|].
    eapply sim_after; [exact S4 | cbn; rewrite K3; exact I | reflexivity | exact EU | exact R' | exact EA].
Qed.


Lemma in_caps cs' q k : reach cs' q -> In k (c_caps (cs_c cs')) -> zmem k caps = true.
Proof. intros R H. apply zmem_In. apply HF1. destruct (reach_mono cs' q R) as [M _]. apply M. exact H. Qed.

(* "(" *)
Lemma sim_open cs st p st1 p3 st' nxt : Sim cs st p -> ctl st1 = ctl st -> ms_unit st1 = None ->
  reach cs (40 :: p3) -> starts_qhash p3 = false ->
  round_open tbm mco st1 p3 = POk (st', nxt) ->
  (nxt = Some (p3, false) /\ hd_is p3 63 = true /\ ms_unit st' = None) \/
  (((is_nil p3 || negb (hd_is p3 63) || nth_is 1 p3 41) = true -> (useN (ms_o st) || ms_ign st) = false ->
    zmem (ms_autocap st) caps = true) /\
   exists q wq cs', nxt = Some (q, wq) /\ Sim cs' st' q).
Proof.
  intros S C U R Q E. unfold ctl in C. injection C as C1 C2 C3 C4.
  pose proof (sm_o _ _ _ S) as So. pose proof (sm_E _ _ _ S) as SE.
  unfold Parser.round_open in E. rewrite C1, C3, C4 in E.
  destruct (useRE2 (ms_o st) && negb (ms_ign st) && hd_is p3 63 && nth_is 1 p3 80 && nth_is 2 p3 61) eqn:PY.
  { (* (?P=name) under RE2: no group *)
    right. split.
    { intros HP _. exfalso. destruct p3 as [|c0 [|c1 p5]]; try (rewrite ?andb_false_r in PY; discriminate).
      cbn [hd_is nth_is skipn] in PY. cbn [is_nil hd_is nth_is skipn negb orb] in HP. lia. }
    destruct (python_backref is_word_char tbm (ms_o st) (skipn 3 p3)) as [[x q]|e q| | |] eqn:EP; cbn [pbind] in E; try discriminate.
    destruct (after_unit (set_unit st1 (Some x)) q) as [[[st5 q5] wq]|e q0| | |] eqn:EA; cbn [pbind] in E; try discriminate.
    inversion E; subst. exists q5, wq, cs. split; [reflexivity|].
    assert (I : ms_ign st = false) by (destruct (ms_ign st); [cbn [negb] in PY; rewrite andb_false_r in PY; cbn [andb] in PY; discriminate | reflexivity]).
    eapply (sim_after cs st p (set_unit st1 (Some x)) q st' q5 wq S I); [unfold ctl, set_unit; cbn [ms_o ms_os ms_ign ms_autocap]; rewrite C1, C2, C3, C4; reflexivity | unfold set_unit; cbn [ms_unit]; discriminate | | exact EA].
    (* the pre-scan: "(" pushes, "?P=name" are plain characters, ")" pops *)
    destruct p3 as [|c0 [|c1 [|c2 p6]]]; try (rewrite ?andb_false_r in PY; discriminate).
    cbn [hd_is nth_is skipn] in PY. assert (c0 = 63) by lia. assert (c1 = 80) by lia. assert (c2 = 61) by lia. subst c0 c1 c2.
    cbn [skipn] in EP. unfold Parser.python_backref in EP. destruct p6 as [|ch p7]; [discriminate|]. destruct (useE (ms_o st)); [discriminate|].
    destruct (negb (is_word_char ch)); [discriminate|].
    pose proof (scan_word_tskip (useX (cs_o cs)) (ch :: p7)) as TW. destruct (scan_word is_word_char (ch :: p7)) as [nm q0]. cbn [snd] in TW.
    destruct (negb (is_nil nm) && hd_is q0 41) eqn:EH; [|discriminate]. destruct (ct_name tbm nm); [|discriminate]. inversion EP; subst.
    set (cs1 := mkCS (cs_c cs) (cs_o cs) (cs_o cs :: cs_os cs) false).
    assert (S1 : prescan_open mco cs (40 :: 63 :: 80 :: 61 :: ch :: p7) (63 :: 80 :: 61 :: ch :: p7) = POk (cs1, 80 :: 61 :: ch :: p7)).
    { unfold Parser.prescan_open. change (starts_qhash (63 :: 80 :: 61 :: ch :: p7)) with false. cbv iota.
      change (hd_is (63 :: 80 :: 61 :: ch :: p7) 63) with true. cbv iota. cbn [tl].
      change (hd_is (80 :: 61 :: ch :: p7) 60) with false. change (hd_is (80 :: 61 :: ch :: p7) 39) with false. cbn [orb]. rewrite andb_false_r.
      change (nth_is 1 (80 :: 61 :: ch :: p7) 60) with false. rewrite andb_false_r.
      replace (scan_options_text (cs_o cs) (80 :: 61 :: ch :: p7)) with (cs_o cs, 80 :: 61 :: ch :: p7) by reflexivity.
      cbn [hd_is Z.eqb Pos.eqb cs_c cs_o cs_os cs_ign set_cs_ign]. reflexivity. }
    apply (psteps_reach cs (40 :: 63 :: 80 :: 61 :: ch :: p7) cs (tl q0)); [|exact R].
    eapply ps_step; [rewrite step40; exact S1|].
    eapply psteps_trans; [apply psteps_tskip; apply tskip_cons; apply ptriv_intro; intros; lia|].
    eapply psteps_trans; [apply psteps_tskip; apply tskip_cons; apply ptriv_intro; intros; lia|].
    eapply psteps_trans; [apply psteps_tskip; exact TW|].
    destruct q0 as [|c q0']; [rewrite andb_false_r in EH; discriminate|]. apply andb_prop in EH. destruct EH as [_ EH]. cbn [hd_is] in EH.
    assert (c = 41) by lia. subst c. cbn [tl].
    assert (CI : cs_ign cs = false) by (rewrite (sm_ign _ _ _ S); exact I).
    apply psteps_one. rewrite (step41 cs1 q0' (cs_o cs) (cs_os cs) eq_refl). cbn [cs1 cs_c cs_ign].
    clear - CI. destruct cs as [c0 o0 os0 i0]. cbn in CI |- *. subst i0. reflexivity. }
  (* scanGroupOpen *)
  destruct (Parser.group_open is_word_char tbm mco (n_t (ms_group st1)) (mkGV (ms_o st) (ms_ign st) (ms_autocap st)) p3) as [[[g v] q]|e q| | |] eqn:EG;
    cbn [pbind] in E; try discriminate.
  destruct (open_sim cs (ms_o st) (ms_autocap st) So (sm_auto _ _ _ S) (sm_cinv _ _ _ S) _ (ms_ign st) p3 g v q (sm_ign _ _ _ S) R Q EG)
    as [[D1 [D2 [D3 D4]]] | [[cs' [qp [PS [NR [P1 [P2 [P3 [P4 [P5 P6]]]]]]]]] PL]].
  - left. subst q. destruct g as [gn|]; [|congruence]. inversion E; subst. split; [reflexivity|]. split; [exact D1 | cbn; exact U].
  - right.
    assert (R' : reach cs' q) by (apply (reach_near cs' qp q NR); apply (psteps_reach _ _ _ _ PS); exact R).
    split.
    { intros HP HN. eapply in_caps; [exact R'|]. apply P6; [apply PL; exact HP | exact HN]. }
    pose proof (group_open_useE _ _ _ _ _ _ EG) as GE. cbn [gv_o] in GE.
    destruct g as [gn|]; inversion E; subst; exists q, false, cs'; (split; [reflexivity|]).
    + constructor; cbn [start_group push_group ms_o ms_os ms_ign ms_autocap]; auto.
      * rewrite P4, C2. constructor; [exact So | exact (sm_os _ _ _ S)].
      * rewrite GE. exact SE.
      * rewrite C2. constructor; [exact SE | exact (sm_Es _ _ _ S)].
      * eapply psteps_cinv; [exact PS | exact (sm_cinv _ _ _ S)].
      * intros He. exact (proj2 (psteps_EN _ _ _ _ PS (Sim_Eall _ _ _ S He) (sm_nn _ _ _ S He))).
    + constructor; cbn [ms_o ms_os ms_ign ms_autocap]; auto.
      * rewrite P4, C2. exact (sm_os _ _ _ S).
      * rewrite GE. exact SE.
      * rewrite C2. exact (sm_Es _ _ _ S).
      * eapply psteps_cinv; [exact PS | exact (sm_cinv _ _ _ S)].
      * intros He. exact (proj2 (psteps_EN _ _ _ _ PS (Sim_Eall _ _ _ S He) (sm_nn _ _ _ S He))).
Qed.

Definition hac (st : mst) (p : list Z) : Prop :=
  forall p0 run p1 p3, scan_blank_full (ms_o st) p = POk p0 -> take_run (ms_o st) p0 = (run, p1) ->
       scan_blank_full (ms_o st) p1 = POk (40 :: p3) ->
       (is_nil p3 || negb (hd_is p3 63) || nth_is 1 p3 41) = true -> (useN (ms_o st) || ms_ign st) = false ->
       zmem (ms_autocap st) caps = true.

Lemma add_run_ctl st run isq st1 : add_run st run isq = POk st1 -> ctl st1 = ctl st.
Proof.
  intros E. destruct (add_run_fields simple_fold participates cat_in st run isq st1 E) as [F1 [F2 [F3 [F4 _]]]].
  unfold ctl. rewrite F1, F2, F3, F4. reflexivity.
Qed.


Lemma sim_round cs st p wasq st' nxt :
  minv st -> ms_unit st = None -> Sim cs st p ->
  scan_round tbm mco st p wasq = POk (st', nxt) ->
  (exists q, nxt = Some (q, false) /\ hd_is q 63 = true /\ ms_unit st' = None) \/
  (hac st p /\ match nxt with Some (q, _) => exists cs', Sim cs' st' q | None => True end).
Proof.
  intros Iv Hu SM E.
  destruct (scan_round_cases is_word_char to_lower simple_fold participates cat_in cat_name _ _ _ _ _ _ _ E)
    as [p0 [run [p1 [p2 [E0 [Er [E1 C]]]]]]]. clear E.
  destruct (round_head cs st p p0 run p1 p2 SM E0 Er E1) as [R2 IGN].
  (* the hypothesis on the number of a plain "(" speaks of this round's "(" only *)
  assert (HAC0 : (forall p3, p2 <> 40 :: p3) -> hac st p).
  { intros N p0' run' p1' p3' H0 Hr H1 _ _. rewrite E0 in H0. inversion H0; subst p0'.
    rewrite Er in Hr. inversion Hr; subst. rewrite E1 in H1. inversion H1; subst. destruct (N p3' eq_refl). }
  (* with ignoreNextParen set the round starts at its "(" *)
  assert (IG40 : forall ch p3, p2 = ch :: p3 -> (ch =? 40) = false -> ms_ign st = false).
  { intros ch p3 Ep Cc. destruct (ms_ign st) eqn:H; [|reflexivity]. destruct (IGN eq_refl) as [EP _].
    destruct (sm_cond _ _ _ SM H) as [H40 _]. rewrite <- EP, Ep in H40. cbn [hd_is] in H40. lia. }
  assert (N40 : forall ch p3, p2 = ch :: p3 -> (ch =? 40) = false -> forall p3', p2 <> 40 :: p3').
  { intros ch p3 -> Cc p3' H. inversion H; subst. discriminate. }
  pose proof (sm_o _ _ _ SM) as So. pose proof (sm_E _ _ _ SM) as SE.
  destruct C as [st1 Ep Ea | ch p3 st1 Ep Esp Ea | ch p3 st1 x q st' nxt Ep C40 Ea U E | p3 st1 st' nxt Ep Ea E
                | p3 st1 st2 Ep Ea E2 | p3 st1 st' nxt Ep Ea E | ch p3 st1 st' q' wq Ep C40 Ea Eu EA];
    pose proof (add_run_ctl _ _ _ _ Ea) as C1.
  * right. split; [apply HAC0; intros p3 H; congruence | exact I].
  * right. assert (C40 : (ch =? 40) = false).
    { destruct (ch =? 40) eqn:Cc; [assert (ch = 40) by lia; subst ch; discriminate | reflexivity]. }
    split; [apply HAC0; eapply N40; eassumption|].
    exists cs. eapply Sim_move; [exact SM | exact C1 | eapply IG40; eassumption | exact R2].
  * (* a unit scanned under the current options, then its quantifier *)
    right. split; [apply HAC0; eapply N40; eassumption|]. pose proof (IG40 _ _ Ep C40) as I. subst p2.
    assert (Rq : reach cs q).
    { destruct U as [p3 syn q x ECS _ | p3 x q' EB | ch p3 x K6 _].
      - destruct (cs_scan_agr (S (length p3)) (ms_o st) (cs_o cs) p3 syn q So ECS) as [syn' ES].
        apply reach_cons in R2. destruct R2 as [st'' [qq [EST RR]]].
        unfold Parser.prescan_step in EST. cbn [Z.eqb Pos.eqb] in EST. rewrite ES in EST. cbn [ignore_err pbind] in EST. inversion EST; subst. exact RR.
      - assert (HN : useE (ms_o st) = true -> ct_named tbm = ct_named (captab_pre (cs_c cs))).
        { intros He. rewrite SE in He. destruct (sm_nn _ _ _ SM He) as [N _]. cbn [captab_main captab_pre ct_named]. rewrite N, (HF3 He). reflexivity. }
        destruct (scan_backslash_full_bsagr tbm (captab_pre (cs_c cs)) (ms_o st) (cs_o cs) So HN (useX (cs_o cs)) p3 (BNode x) q' EB) as [q [EI T]].
        apply (reach_tskip cs q' q T).
        apply reach_cons in R2. destruct R2 as [st'' [qq [EST RR]]].
        unfold Parser.prescan_step in EST. cbn [Z.eqb Pos.eqb] in EST.
        destruct p3 as [|c p4]; [cbn in EB; discriminate|]. rewrite EI in EST. cbn [pbind] in EST. inversion EST; subst. exact RR.
      - apply (reach_tskip cs (ch :: p3) p3); [apply tskip_cons; apply ptriv_intro; intros; lia | exact R2]. }
    destruct (after_unit (set_unit st1 (Some x)) q) as [[[st5 q5] wq]|e q0| | |] eqn:EA; cbn [pbind] in E; try discriminate.
    inversion E; subst. exists cs.
    eapply (sim_after cs st p (set_unit st1 (Some x)) q st' q5 wq SM I); [| unfold set_unit; cbn [ms_unit]; discriminate | exact Rq | exact EA].
    unfold ctl, set_unit. cbn [ms_o ms_os ms_ign ms_autocap]. exact C1.
  * subst p2.
    assert (NQ : ms_unit st1 = None).
    { pose proof (add_run_ok is_word_char to_lower simple_fold participates cat_in cat_name st run false (proj1 Iv) Hu) as A. rewrite Ea in A.
      destruct A as [_ [_ [A3 _]]]. destruct (ms_unit st1); [|reflexivity]. destruct (A3 ltac:(discriminate)) as [_ F]. discriminate. }
    assert (Q : starts_qhash p3 = false).
    { unfold scan_blank_full in E1. destruct (blank_head_full _ _ _ _ _ E1) as [_ [_ H3]]. cbn [Z.eqb Pos.eqb andb] in H3. exact H3. }
    destruct (sim_open cs st p st1 p3 st' nxt SM C1 NQ R2 Q E) as [[D1 [D2 D3]] | [HA [q [wq [cs' [-> SM']]]]]].
    - left. exists p3. auto.
    - right. split; [|exists cs'; exact SM'].
      intros p0' run' p1' p3' H0 Hr H1 HP HN. rewrite E0 in H0. inversion H0; subst p0'. rewrite Er in Hr. inversion Hr; subst.
      rewrite E1 in H1. inversion H1; subst. apply HA; assumption.
  * right. split; [apply HAC0; eapply N40; [exact Ep | reflexivity]|]. pose proof (IG40 _ _ Ep eq_refl) as I. subst p2.
    exists cs. eapply Sim_move; [exact SM | destruct (add_alternate_cases _ _ _ E2) as [g' [a' [-> _]]]; exact C1 | exact I|].
    apply (reach_tskip cs (124 :: p3) p3); [apply tskip_cons; apply ptriv_intro; intros; lia | exact R2].
  * right. split; [apply HAC0; eapply N40; [exact Ep | reflexivity]|]. pose proof (IG40 _ _ Ep eq_refl) as I. subst p2.
    destruct (sim_close cs st p st1 p3 st' nxt SM I C1 R2 E) as [q [wq [cs' [-> SM']]]]. exists cs'. exact SM'.
  * right. split; [apply HAC0; eapply N40; eassumption|]. pose proof (IG40 _ _ Ep C40) as I. subst p2.
    exists cs. eapply (sim_after cs st p st1 (ch :: p3) st' q' wq SM I C1); [exact Eu | exact R2 | exact EA].
Qed.

Hypothesis Hslot : forall k, ct_slot tbm k = true -> zmem k caps = true.
Hypothesis Hname : forall s g, ct_name tbm s = Some g -> zmem g caps = true.

(* after "(?)" the next round meets the quantifier "?" with nothing to repeat *)
Lemma doomed_round st q wasq st' nxt : hd_is q 63 = true -> ms_unit st = None ->
  scan_round tbm mco st q wasq = POk (st', nxt) -> False.
Proof.
  intros H63 Hu E. destruct q as [|c r]; [discriminate|]. cbn [hd_is] in H63. assert (c = 63) by lia. subst c.
  unfold Parser.scan_round in E.
  assert (B : scan_blank_full (ms_o st) (63 :: r) = POk (63 :: r)).
  { unfold scan_blank_full. cbn [blank]. change (is_space 63) with false. rewrite andb_false_r. cbn [Z.eqb Pos.eqb]. rewrite andb_false_r. reflexivity. }
  rewrite B in E. cbn [pbind] in E.
  assert (T : take_run (ms_o st) (63 :: r) = ([], 63 :: r)).
  { cbn [take_run]. assert (SS : is_stopper (ms_o st) 63 = true) by (unfold is_stopper; destruct (useX (ms_o st)); reflexivity).
    rewrite SS. reflexivity. }
  rewrite T, B in E. cbn [pbind] in E.
  change (is_special 63) with true in E. cbn [negb] in E.
  unfold Parser.add_run in E. cbn [pbind] in E. cbn [Z.eqb Pos.eqb orb] in E. rewrite Hu in E. discriminate.
Qed.

Lemma sim_loop fuel : forall st p wasq stF, minv st -> oinv (fun k => zmem k caps) st -> ms_unit st = None -> einv st -> (exists cs, Sim cs st p) ->
  scan_loop_full fuel tbm mco st p wasq = POk stF -> minv stF /\ oinv (fun k => zmem k caps) stF /\ einv stF /\ ms_ign stF = false.
Proof.
  induction fuel as [|f IH]; intros st p wasq stF Iv Ho Hu He [cs SM] E; [discriminate|].
  cbn [Parser.scan_loop_full] in E. destruct p as [|c p'].
  { inversion E; subst. split; [exact Iv|]. split; [exact Ho|]. split; [exact He|].
    destruct (ms_ign stF) eqn:IG; [|reflexivity]. destruct (sm_cond _ _ _ SM IG) as [H _]. discriminate. }
  destruct (scan_round tbm mco st (c :: p') wasq) as [[st' nxt]|e q| | |] eqn:ER; cbn [pbind] in E; try discriminate.
  pose proof (scan_round_ok is_word_char to_lower simple_fold participates cat_in cat_name tbm mco st (c :: p') wasq Iv Hu ltac:(discriminate)) as RR.
  rewrite ER in RR.
  pose proof (sm_cond _ _ _ SM) as Hi.
  destruct (scan_round_x (fun k => zmem k caps) tbm Hslot Hname is_word_char to_lower simple_fold participates cat_in cat_name mco st (c :: p') wasq st' nxt Hu He Hi ER) as [He' Hn].
  destruct (sim_round cs st (c :: p') wasq st' nxt Iv Hu SM ER) as [[q [-> [H63 U']]] | [HA NX]].
  - exfalso. destruct f as [|f']; [discriminate|]. cbn [Parser.scan_loop_full] in E.
    destruct q as [|c0 q']; [discriminate|].
    destruct (scan_round tbm mco st' (c0 :: q') false) as [[st2 nxt2]|e q2| | |] eqn:ER2; cbn [pbind] in E; try discriminate.
    exact (doomed_round st' (c0 :: q') false st2 nxt2 H63 U' ER2).
  - pose proof (scan_round_o (fun k => zmem k caps) tbm Hslot Hname is_word_char to_lower simple_fold participates cat_in cat_name mco st (c :: p') wasq st' nxt Iv Ho Hu He Hi HA ER) as Ho'.
    destruct nxt as [[q wq]|].
    + cbn [round_res] in RR. destruct RR as [R1 [R2 _]]. eapply IH; [exact R1 | exact Ho' | exact R2 | exact He' | exact NX | exact E].
    + inversion E; subst. cbn [round_res] in RR. auto.
Qed.

End Agree.

(* ---------------------------------------------------------------- syntax.Parse builds well-formed trees *)
Section Final.
Variable is_word_char : Z -> bool.
Variable to_lower : Z -> Z.
Variable simple_fold : Z -> Z.
Variable participates : Z -> bool.
Variable cat_in : Z -> Z -> bool.
Variable cat_name : list Z -> Z.
Hypothesis HW : forall c, is_word_char c = true -> negb (zmem c [33; 35; 39; 40; 41; 45; 60; 61; 62; 63; 91; 92]) = true.
Hypothesis HD : forall c, (49 <=? c) && (c <=? 57) = true -> is_word_char c = true.

Local Notation parse := (parse is_word_char to_lower simple_fold participates cat_in cat_name).

(* Every option word.  Captop below MaxInt32 (no group numbered 2^31-1, fewer than 2^31-1 groups). *)
Theorem parse_tree_wf o mco_flag p t caps captop :
  captop < maxint32 ->
  parse o mco_flag p = Ok (PR_Tree t caps captop) ->
  wf (fun k => zmem k caps) t.
Proof.
  intros HT E. unfold Parser.parse in E.
  destruct (negb pl_bounds_ok); [discriminate|].
  destruct (negb (forallb (fun c => 0 <=? c) p)); [discriminate|].
  set (mco := mco_flag || useE o || useRE2 o) in *.
  destruct (count_captures is_word_char to_lower simple_fold cat_in cat_name mco o p) as [tb|e q| | |] eqn:EC; cbn [pbind] in E; try discriminate.
  destruct (scan_regex is_word_char to_lower simple_fold participates cat_in cat_name (captab_main tb) mco o p) as [t0|e q| | |] eqn:ES;
    cbn [pbind] in E; try discriminate.
  inversion E; subst t0 caps captop. clear E.
  destruct (count_captures_table is_word_char to_lower simple_fold participates cat_in cat_name mco o p tb EC)
    as [TK [stF [EL [IN [CW NM]]]]].
  pose proof TK as [TS TZ TN TB TL TV].
  (* what the main pass reads from the table *)
  assert (Hslot : forall k, ct_slot (captab_main tb) k = true -> zmem k (t_caps tb) = true) by (intros k H; exact H).
  assert (Hname : forall s g, ct_name (captab_main tb) s = Some g -> zmem g (t_caps tb) = true).
  { intros s g H. cbn [captab_main ct_name] in H. destruct (is_name tb s) eqn:EN; [|discriminate]. inversion H; subst g.
    specialize (TV HT). unfold vals_ok in TV. unfold is_name, slot_from_name in *.
    destruct (t_capnames tb) as [m|]; [|discriminate]. apply amem_aget in EN. destruct EN as [v Ev].
    rewrite (aget0_some _ _ _ Ev). apply zmem_In. eapply TV. exact Ev. }
  assert (HF2 : mco = true -> forall s v, aget s (names_of (cs_c stF)) = Some v -> ct_name (captab_main tb) s = Some v).
  { intros Em s v Hs. destruct (NM Em s v Hs) as [m [E1 E2]]. cbn [captab_main ct_name]. unfold is_name, slot_from_name. rewrite E1.
    assert (A : amem s m = true) by (apply amem_aget; exists v; exact E2). rewrite A, (aget0_some _ _ _ E2). reflexivity. }
  unfold Parser.scan_regex in ES.
  set (st0 := mkMS [] (mk_node_mn T_Capture o 0 (-1)) (mk_node T_Alternate o) (mk_node T_Concatenate o) None o [] false 1) in *.
  destruct (scan_loop_full is_word_char to_lower simple_fold participates cat_in cat_name (S (length p)) (captab_main tb) mco st0 p false)
    as [st| | | |] eqn:ELP; cbn [pbind] in ES; try discriminate.
  assert (I0 : minv st0).
  { split; [|reflexivity]. constructor; cbn; auto; (split; [constructor | reflexivity]). }
  assert (O0 : oinv (fun k => zmem k (t_caps tb)) st0) by (apply oinv_init; apply zmem_In; exact TZ).
  assert (HF3 : useE o = true -> no_names tb = true).
  { intros He. exact (count_captures_nonames is_word_char to_lower simple_fold cat_in cat_name mco o p tb He EC). }
  assert (S0 : exists cs, Sim is_word_char to_lower simple_fold cat_in cat_name mco stF (useE o) cs st0 p).
  { exists (mkCS c_init o [] false). constructor; cbn [st0 ms_o ms_os ms_ign ms_autocap cs_o cs_os cs_ign cs_c]; auto.
    - apply oeqv_refl.
    - intros H; discriminate.
    - apply cinv_init.
    - exists (S (length p)). exact EL.
    - intros _. apply EN_init. }
  assert (E0 : einv st0) by (intros H; discriminate).
  destruct (sim_loop is_word_char to_lower simple_fold participates cat_in cat_name HW HD mco stF tb HF2 (t_caps tb) IN (useE o) HF3 Hslot Hname
              (S (length p)) st0 p false st I0 O0 eq_refl E0 S0 ELP) as [IvF [OF [EF GF]]].
  destruct (ms_stack st); [|discriminate].
  destruct (add_group cat_in st) as [st'| | | |] eqn:EG; cbn [pbind] in ES; try discriminate.
  destruct (ms_unit st') as [u|] eqn:EU; [|discriminate]. inversion ES; subst u.
  exact (scan_end_o (fun k => zmem k (t_caps tb)) (captab_main tb) Hslot Hname is_word_char to_lower simple_fold participates cat_in cat_name st st' t (proj1 IvF) OF EF GF EG EU).
Qed.

End Final.

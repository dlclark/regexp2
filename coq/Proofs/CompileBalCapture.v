(* compile_correct with balancing captures: the node NCapture o g u r with u <> -1, i.e. (?<g-u>r) and,
   for g = -1, (?<-u>r).   Code:  Setmark ; [r] ; Capturemark g u.
   For every result q of r (in priority order):
     - group u unset at q: Capturemark fails (isMatched), the reference semantics has no result for q;
     - otherwise transferCapture pops u (balanceMatch appends a marker: bd_caps_rel_balance) and, when
       g <> -1, records balance_span (mark, position, popped capture) for g (bo_do_transfer);
       backtracking into the frame undoes both (crawl g :: u) and restores the mark.
   Side conditions: 0 <= u < capsize, g = -1 or 0 <= g < capsize (groups_ok2). *)
From Verif Require Import Base.Prelude Model.Tree Model.Spec Model.VM Model.Writer Gen.RunnerGen
  Proofs.SpecProofs Proofs.SpecBoundsProofs Proofs.MaskProofs
  Proofs.VMU Proofs.VMUOps Proofs.VMUOps2 Proofs.VMUOps6 Proofs.VMUOps3 Proofs.CompileBase Proofs.CompileDefs
  Proofs.CompileStage1 Proofs.CompileBalDen Proofs.CompileBalOps Proofs.CompileBalDefs.
From Coq Require Import Relations ZifyBool.

Section CC.
Variable e : env.
Variable p : program.
Hypothesis tc_nonneg : 0 <= trackcount p.

Notation rsteps := (VMUOps2.rsteps e p).
Notation caps_rel2 := (CompileBalDen.caps_rel2 p).
Notation leadsR := (CompileBase.leadsR e p caps_rel2).
Notation has_code := (CompileBase.has_code p).
Notation track_ok := (CompileBase.track_ok p).
Notation code_ex := (CompileDefs.code_ex p).
Notation tbl_ok := (CompileDefs.tbl_ok p).
Notation ok_nodeR := (CompileDefs.ok_nodeR e p caps_rel2).

Lemma c2_sem_capture_bal f o g u r s : u <> -1 ->
  sem e (S f) (NCapture o g u r) s =
  bindr (sem e f r s) (fun s' =>
    match cap_get u (caps s') with
    | [] => Ok []
    | top :: _ =>
        Ok [{| pos := pos s';
               caps := if g =? -1 then cap_pop u (caps s')
                       else cap_push g (balance_span (pos s) (pos s') top) (cap_pop u (caps s')) |}]
    end).
Proof. intros Hu. cbn [sem]. replace (u =? -1) with false by lia. reflexivity. Qed.

Lemma c2_add_match_at M g x y : zlen M = capsize p -> 0 <= g < capsize p ->
  add_match g x y M = Some (mc_set g (nth (Z.to_nat g) M [] ++ [x; y]) M).
Proof. intros Hl Hg. unfold add_match. rewrite (bd_mc_get p M g Hl Hg). reflexivity. Qed.

Lemma c2_capturemark_bal g u s q rq m T S C M' : u <> -1 -> 0 <= u < capsize p -> (g = -1 \/ 0 <= g < capsize p) ->
  st_ok e s -> st_ok e q ->
  match cap_get u (caps q) with
  | [] => Ok []
  | top :: _ =>
      Ok [{| pos := pos q;
             caps := if g =? -1 then cap_pop u (caps q)
                     else cap_push g (balance_span (pos s) (pos q) top) (cap_pop u (caps q)) |}]
  end = Ok rq ->
  caps_rel2 (caps q) M' -> track_ok T ->
  code_at p m = Some Capturemark -> code_at p (m + 1) = Some g -> code_at p (m + 2) = Some u -> code_ex (m + 3) ->
  leadsR (m + 3) T S (pos s :: S) C M' (mkr m 0 (pos q) T (pos s :: S) C M') rq.
Proof.
  intros Hu1 Hu Hg Hst Hstq Hq Hcq Hkq Hm0 Hm1 Hm2 [wx Hwx].
  pose proof (code_at_nonneg p _ _ Hm0) as Hm.
  pose proof (bd_matched p (caps q) M' u Hcq Hu) as Hmt. unfold is_matched in Hmt.
  destruct Hkq as (np' & T3 & HT3 & w3 & Hw3).
  cbv beta in Hq. destruct (cap_get u (caps q)) as [|[s2 l2] rest] eqn:Eu.
  - (* group u unset: no result *)
    injection Hq as <-.
    eapply leadsR_fail; [exact HT3|]. rewrite HT3.
    eapply rs_capturemark_bal_unset; try exact tc_nonneg; eassumption.
  - injection Hq as <-.
    destruct Hstq as [Hpq Hcsq]. destruct Hst as [Hps _].
    destruct (bd_caps_index_length e p (caps q) M' u s2 l2 rest Hcq Hu Hcsq Eu) as (Hix & Hln & Hi2 & Hl2 & Hil2).
    destruct (bd_caps_rel_balance p (caps q) M' u (s2, l2) rest Hcq Hu Eu) as (x & y & Hbal & Hrel1).
    cbv zeta in Hbal, Hrel1.
    set (M1 := mc_set u (nth (Z.to_nat u) M' [] ++ [x; y]) M') in *.
    assert (HlM : zlen M' = capsize p) by (destruct Hcq as [HlM _]; exact HlM).
    assert (Hzu : znth M' u = Some (nth (Z.to_nat u) M' [])) by (apply cc_znth_nth; lia).
    assert (Hrm1 : remove_match u M1 = Some M') by (apply cc_remove_match_set; exact Hzu).
    assert (Htk : forall X, track_ok ([m; pos s] ++ X)).
    { intros X. cbn [app]. eapply track_ok_cons. rewrite Z.abs_eq by lia. exact Hm0. }
    destruct Hg as [Hg|Hg].
    + (* (?<-u>...) : pop only *)
       subst g. change (-1 =? -1) with true. cbv iota.
       exists [m; pos s], [u], M1. cbn [pos caps].
       split; [exact Hrel1|].
       split. { cbn [unwind]. rewrite Hrm1. reflexivity. }
       split; [apply Htk|].
       split. { cbn [app]. eapply rs_capturemark_bal_pop; try exact tc_nonneg; eassumption. }
       intros np T'' t HT. cbn [app] in HT. injection HT as <- <-.
       rewrite bkr_pos by exact Hm.
       eapply leadsR_fail; [exact HT3|].
       rewrite HT3. eapply rs_capturemark_bal_pop_back; try exact tc_nonneg; eassumption.
    + replace (g =? -1) with false by lia.
       set (iv := balance_span (pos s) (pos q) (s2, l2)).
       assert (Hiv : sb_iv_ok e iv).
       { apply sb_balance_span_ok; try assumption. repeat split; cbn [fst snd]; assumption. }
       destruct Hiv as (Hiv1 & Hiv2 & _).
       assert (HlM1 : zlen M1 = capsize p) by (destruct Hrel1 as [H1 _]; exact H1).
       set (M2 := mc_set g (nth (Z.to_nat g) M1 [] ++ [fst iv; snd iv]) M1).
       assert (Hzg : znth M1 g = Some (nth (Z.to_nat g) M1 [])) by (apply cc_znth_nth; lia).
       assert (Hrm2 : remove_match g M2 = Some M1) by (apply cc_remove_match_set; exact Hzg).
       exists [m; pos s], [g; u], M2. cbn [pos caps].
       split. { apply (bd_caps_rel_push p _ M1 g iv); assumption. }
       split. { cbn [unwind]. rewrite Hrm2, Hrm1. reflexivity. }
       split; [apply Htk|].
       split. { cbn [app]. eapply rs_capturemark_bal with (s2 := s2) (l2 := l2) (M1 := M1); try exact tc_nonneg; try eassumption; try lia.
                apply c2_add_match_at; assumption. }
       intros np T'' t HT. cbn [app] in HT. injection HT as <- <-.
       rewrite bkr_pos by exact Hm.
       eapply leadsR_fail; [exact HT3|].
       rewrite HT3. eapply rs_capturemark_bal_back; try exact tc_nonneg; try eassumption; lia.
Qed.

Lemma c2_capture_bal f o g u r : u <> -1 -> grp_ok_node2 (capsize p) (NCapture o g u r) ->
  ok_nodeR f r -> loops_min_ok r -> ok_nodeR (S f) (NCapture o g u r).
Proof.
  intros Hu1 Hug Hokr Hsr. cbn [grp_ok_node2] in Hug. replace (u =? -1) with false in Hug by lia.
  destruct Hug as [Hu Hg].
  eapply cc_capture_frame; [exact tc_nonneg|exact Hokr|exact Hsr|intros s; apply c2_sem_capture_bal; exact Hu1|].
  intros s q rq m T S C M' Hst Hstq Hq. apply c2_capturemark_bal; assumption.
Qed.

End CC.

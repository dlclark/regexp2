(* Theorems about one execute() call on a compiled program, each a composition of theorems proved elsewhere:

   cx_exec_captures_in_bounds     compile_correct2_exec_partial (the interpreter returns Spec.attempt's
   cx_exec_group0_is_match_span   answer) o SpecBoundsProofs (that answer lies inside the text; group 0 is
                                  the match span) o CompileBalDen (what a capture array denotes / what the
                                  three readers of match.go answer)
   cx_exec_never_crashes          compile_exec_total's trichotomy read as "never Crash"
   cx_spec_forward, cx_vm_forward the matcher of a compiled program satisfies IterProofs.forward, so every
   cx_iteration_*, cx_next_*      C07 theorem applies to it *)
From Verif Require Import Base.Prelude Model.Iter Proofs.IterProofs.
From Verif Require Import Model.Tree Model.Spec Model.VM Model.Writer Model.Analysis
  Proofs.SpecProofs Proofs.SpecBoundsProofs Proofs.AnalysisProofs
  Proofs.CompileBase Proofs.CompileDefs Proofs.CompileProofs
  Proofs.CompileBalDen Proofs.CompileBalBase Proofs.CompileBalDefs Proofs.CompileBal
  Proofs.CompileSafe.
From Coq Require Import ZifyBool.

(* ============================ captures of the interpreter stay inside the text ============================ *)

(* the root capture is a slot: 0 < capsize p follows from groups_ok2 *)
Lemma cx_capsize_pos cs o body : groups_ok2 cs (NCapture o 0 (-1) body) -> 0 < cs.
Proof.
  intros H. apply sb_all_here in H. cbn [grp_ok_node2] in H. change (-1 =? -1) with true in H. cbv iota in H. lia.
Qed.

(* when the interpreter returns with group 0 set, Spec.attempt succeeded and the two agree *)
Lemma cx_exec_matched_some :
  forall (e : env) (p : program), 0 <= trackcount p -> tlen e <= INF ->
  forall L fuel vfuel o body t0 r s',
  let root := NCapture o 0 (-1) body in
  codes p = fst (compile cfg0 root) -> strings p = snd (compile cfg0 root) ->
  supported2 root = true -> groups_ok2 (capsize p) root -> 0 <= t0 <= tlen e ->
  Z.of_nat fuel <= INF ->
  Spec.attempt e fuel root t0 = Ok r ->
  exec_at e p L vfuel t0 = Ok s' -> matched0 s' = true ->
  exists q, r = Some q /\ tp s' = pos q /\ caps_rel2 p (caps q) (mcaps s').
Proof.
  intros e p Htc Htl L fuel vfuel o body t0 r s' root Hcodes Hstr Hs Hg Ht0 Hf Hatt Hex Hm.
  destruct (compile_correct2_exec_partial e p Htc Htl L fuel vfuel o body t0 r s'
              Hcodes Hstr Hs Hg Ht0 Hf Hatt Hex) as (_ & _ & Hr).
  destruct r as [q|].
  - destruct Hr as (Hp & Hc & _). exists q. split; [reflexivity|]. split; assumption.
  - destruct Hr as (_ & Hm0). rewrite Hm0 in Hm. discriminate Hm.
Qed.

(* what one slot of arrays related to the captures of an in-range state denotes, and what match.go's readers
   answer on it *)
Lemma cx_slot_reads e p q M g : caps_rel2 p (caps q) M -> st_ok e q -> 0 <= g < capsize p ->
  exists ps,
    nth (Z.to_nat g) M [] = flat (rev ps) /\ Den ps (cap_get g (caps q)) /\
    (forall i len, In (i, len) (cap_get g (caps q)) -> 0 <= i /\ 0 <= len /\ i + len <= tlen e) /\
    vm_is_matched g M = Some (is_matched g (caps q)) /\
    (forall i len rest, cap_get g (caps q) = (i, len) :: rest ->
       vm_match_index g M = Some i /\ vm_match_length g M = Some len).
Proof.
  intros Hc Hok Hgr. destruct (proj2 Hc g Hgr) as (ps & Ea & Hd).
  exists ps. split; [exact Ea|]. split; [exact Hd|]. split.
  - intros i len Hin. exact (sb_st_ok_capture e q g i len Hok Hin).
  - exact (bd_caps_rel_reads e p (caps q) M g Hc Hgr (proj2 Hok)).
Qed.

Theorem cx_exec_captures_in_bounds :
  forall (e : env) (p : program), 0 <= trackcount p -> tlen e <= INF ->
  forall L fuel vfuel o body t0 r s',
  let root := NCapture o 0 (-1) body in
  codes p = fst (compile cfg0 root) -> strings p = snd (compile cfg0 root) ->
  supported2 root = true -> groups_ok2 (capsize p) root -> 0 <= t0 <= tlen e ->
  Z.of_nat fuel <= INF ->
  Spec.attempt e fuel root t0 = Ok r ->
  exec_at e p L vfuel t0 = Ok s' -> matched0 s' = true ->
  0 <= tp s' <= tlen e /\
  forall g, 0 <= g < capsize p ->
    exists ps stk,
      nth (Z.to_nat g) (mcaps s') [] = flat (rev ps) /\ Den ps stk /\
      (forall i len, In (i, len) stk -> 0 <= i /\ 0 <= len /\ i + len <= tlen e) /\
      vm_is_matched g (mcaps s') = Some (match stk with [] => false | _ => true end) /\
      (forall i len rest, stk = (i, len) :: rest ->
         vm_match_index g (mcaps s') = Some i /\ vm_match_length g (mcaps s') = Some len).
Proof.
  intros e p Htc Htl L fuel vfuel o body t0 r s' root Hcodes Hstr Hs Hg Ht0 Hf Hatt Hex Hm.
  destruct (cx_exec_matched_some e p Htc Htl L fuel vfuel o body t0 r s'
              Hcodes Hstr Hs Hg Ht0 Hf Hatt Hex Hm) as (q & -> & Hp & Hc).
  assert (Hok : st_ok e q).
  { eapply sb_attempt_in_bounds; [apply c2_supported_min_ok; exact Hs|exact Ht0|exact Hatt]. }
  split; [rewrite Hp; exact (proj1 Hok)|].
  intros g Hgr. destruct (cx_slot_reads e p q (mcaps s') g Hc Hok Hgr) as (ps & H).
  exists ps, (cap_get g (caps q)). exact H.
Qed.

Theorem cx_exec_group0_is_match_span :
  forall (e : env) (p : program), 0 <= trackcount p -> tlen e <= INF ->
  forall L fuel vfuel o body t0 r s',
  let root := NCapture o 0 (-1) body in
  codes p = fst (compile cfg0 root) -> strings p = snd (compile cfg0 root) ->
  supported2 root = true -> groups_ok2 (capsize p) root -> 0 <= t0 <= tlen e ->
  Z.of_nat fuel <= INF ->
  Spec.attempt e fuel root t0 = Ok r ->
  no_group0 body ->
  exec_at e p L vfuel t0 = Ok s' -> matched0 s' = true ->
  0 < capsize p /\
  (exists ps, nth 0 (mcaps s') [] = flat (rev ps) /\
              Den ps [(Z.min t0 (tp s'), Z.abs (tp s' - t0))]) /\
  vm_is_matched 0 (mcaps s') = Some true /\
  vm_match_index 0 (mcaps s') = Some (Z.min t0 (tp s')) /\
  vm_match_length 0 (mcaps s') = Some (Z.abs (tp s' - t0)).
Proof.
  intros e p Htc Htl L fuel vfuel o body t0 r s' root Hcodes Hstr Hs Hg Ht0 Hf Hatt Hn0 Hex Hm.
  destruct (cx_exec_matched_some e p Htc Htl L fuel vfuel o body t0 r s'
              Hcodes Hstr Hs Hg Ht0 Hf Hatt Hex Hm) as (q & -> & Hp & Hc).
  pose proof (cx_capsize_pos (capsize p) o body Hg) as Hcs.
  pose proof (sb_group0_single e fuel o body t0 q Hn0 Hatt) as H0.
  assert (Hg0 : 0 <= 0 < capsize p) by lia.
  split; [exact Hcs|].
  pose proof Hc as [Hl Hc0]. destruct (Hc0 0 Hg0) as (ps & Ea & Hd).
  change (Z.to_nat 0) with 0%nat in Ea. rewrite H0, <- Hp in Hd.
  split; [exists ps; split; [exact Ea|exact Hd]|].
  pose proof (bd_mc_get p (mcaps s') 0 Hl Hg0) as Hget. change (Z.to_nat 0) with 0%nat in Hget.
  split.
  - rewrite (bd_vm_is_matched 0 (mcaps s') _ ltac:(lia) Hget), Ea. rewrite (bd_is_matched ps _ Hd). reflexivity.
  - rewrite (bd_vm_index 0 (mcaps s') _ Hget), (bd_vm_length 0 (mcaps s') _ Hget), Ea.
    destruct (bd_index_length ps _ _ _ Hd) as (H1 & H2 & _). split; assumption.
Qed.

(* non-vacuity: the a^n b^n program of CompileBal.c2_demo (balancing groups (?<2-1>b) and (?<-2>)) on "aabb"
   meets every hypothesis; the interpreter returns with group 0 set, slot 1 carries two captures and two
   markers and denotes the EMPTY stack, slot 2 denotes one live capture *)
Example cx_demo :
  let e := cc_demo_env2 [97;97;98;98] in
  let root := NCapture 0 0 (-1) c2_demo_body in
  let p := c2_demo_prog in
  0 <= trackcount p /\ tlen e <= INF /\
  codes p = fst (compile cfg0 root) /\ strings p = snd (compile cfg0 root) /\
  supported2 root = true /\ groups_ok2 (capsize p) root /\ no_group0 c2_demo_body /\
  Z.of_nat 40 <= INF /\
  (exists q, Spec.attempt e 40 root 0 = Ok (Some q)) /\
  exists s', exec_at e p (-1) 5 0 = Ok s' /\ matched0 s' = true /\ tp s' = 4 /\
             mcaps s' = [[0; 4]; [0; 1; 1; 1; -3; -4; -1; -2]; [2; 0; 1; 2; -3; -4]] /\
             vm_is_matched 1 (mcaps s') = Some false /\
             vm_match_index 2 (mcaps s') = Some 2 /\ vm_match_length 2 (mcaps s') = Some 0.
Proof.
  cbv zeta. split; [vm_compute; congruence|]. split; [vm_compute; congruence|].
  split; [reflexivity|]. split; [reflexivity|]. split; [reflexivity|]. split.
  { cbn. repeat split; try exact I; try (left; reflexivity); try (right; split); cbv; congruence. }
  split.
  { unfold no_group0. cbn. repeat split; try exact I; discriminate. }
  split; [vm_compute; congruence|]. split; [eexists; vm_compute; reflexivity|].
  eexists. split; [vm_compute; reflexivity|]. repeat split.
Qed.

Theorem cx_exec_never_crashes :
  forall (e : env) (p : program), 0 <= trackcount p -> track_count (codes p) <= trackcount p -> tlen e <= INF ->
  forall fuel o body t0 r,
  let root := NCapture o 0 (-1) body in
  codes p = fst (compile cfg0 root) -> strings p = snd (compile cfg0 root) ->
  supported2 root = true -> groups_ok2 (capsize p) root -> 0 <= t0 <= tlen e -> Z.of_nat fuel <= INF ->
  Spec.attempt e fuel root t0 = Ok r ->
  forall L vfuel k, exec_at e p L vfuel t0 <> Crash k.
Proof.
  intros e p Htc Htk Htl fuel o body t0 r root Hcodes Hstr Hs Hg Ht0 Hf Hatt L vfuel k.
  pose proof (compile_exec_total e p Htc Htk Htl fuel o body t0 r Hcodes Hstr Hs Hg Ht0 Hf Hatt) as [n Hn].
  pose proof (Hn L vfuel) as [[[Hx _]|[[_ [s' Hx]]|[_ Hx]]] _]; cbv zeta in Hx; rewrite Hx; discriminate.
Qed.

(* ============================ the C07 matcher of a compiled program ============================ *)

(* the same text searched with \G bound to [ts] (Iter's matcher takes textstart as an argument) *)
Definition cx_env_at (e : env) (ts : Z) : env :=
  {| txt := txt e; tstart := ts; ecma := ecma e; endz_strict := endz_strict e; set_in := set_in e;
     lower := lower e; is_word := is_word e; is_eword := is_eword e |}.

Lemma cx_tlen_env_at e ts : tlen (cx_env_at e ts) = tlen e.
Proof. reflexivity. Qed.

(* reference level: one Spec.attempt, read as (group 0 index, group 0 length, textpos) *)
Definition cx_spec_matcher (e : env) (fuel : nat) (root : node) (ts p : Z) : option mt :=
  match Spec.attempt (cx_env_at e ts) fuel root p with
  | Ok (Some s) =>
      match cap_get 0 (caps s) with
      | (i, l) :: _ => Some (MkM i l (pos s) [])
      | [] => None
      end
  | _ => None
  end.

(* interpreter level: one execute() call, read through match.go's readers of slot 0 *)
Definition cx_vm_matcher (e : env) (p : program) (L : Z) (vfuel : nat) (ts t0 : Z) : option mt :=
  match exec_at (cx_env_at e ts) p L vfuel t0 with
  | Ok s' =>
      if matched0 s' then
        match vm_match_index 0 (mcaps s'), vm_match_length 0 (mcaps s') with
        | Some i, Some l => Some (MkM i l (tp s') [])
        | _, _ => None
        end
      else None
  | _ => None
  end.

(* a successful attempt of a direction-rtl tree from p, with group 0 = span p (pos q), is [shaped] *)
Lemma cx_shaped_of_attempt (e : env) (rtl : bool) fuel o body p q g :
  shape_ok rtl (NCapture o 0 (-1) body) = true -> 0 <= p <= tlen e ->
  Spec.attempt e fuel (NCapture o 0 (-1) body) p = Ok (Some q) ->
  shaped rtl (tlen e) p (MkM (Z.min p (pos q)) (Z.abs (pos q - p)) (pos q) g).
Proof.
  intros Hsh Hp Hatt.
  destruct (an_attempt_len_sound e rtl fuel _ p q Hsh Hp Hatt) as (Hq & Hmin & _).
  pose proof (an_min_len_nonneg rtl _ Hsh) as H0.
  unfold shaped. cbn [m_index m_length m_textpos]. destruct rtl; lia.
Qed.

Theorem cx_spec_forward :
  forall (e : env) (rtl : bool) fuel o body,
  let root := NCapture o 0 (-1) body in
  shape_ok rtl root = true -> no_group0 body ->
  forward rtl (tlen e) (cx_spec_matcher e fuel root).
Proof.
  intros e rtl fuel o body root Hsh Hn0 ts p m Hp Hm. unfold cx_spec_matcher in Hm.
  destruct (Spec.attempt (cx_env_at e ts) fuel root p) as [[q|]| | |] eqn:Hatt; try discriminate Hm.
  rewrite (sb_group0_single _ fuel o body p q Hn0 Hatt) in Hm. injection Hm as <-.
  rewrite <- (cx_tlen_env_at e ts). apply (cx_shaped_of_attempt (cx_env_at e ts) rtl fuel o body p q);
    [exact Hsh|rewrite cx_tlen_env_at; exact Hp|exact Hatt].
Qed.

Theorem cx_vm_forward :
  forall (e : env) (p : program) (rtl : bool), 0 <= trackcount p -> tlen e <= INF ->
  forall L vfuel o body,
  let root := NCapture o 0 (-1) body in
  codes p = fst (compile cfg0 root) -> strings p = snd (compile cfg0 root) ->
  supported2 root = true -> groups_ok2 (capsize p) root ->
  shape_ok rtl root = true -> no_group0 body ->
  (forall ts t0, 0 <= t0 <= tlen e ->
     exists fuel r, Z.of_nat fuel <= INF /\ Spec.attempt (cx_env_at e ts) fuel root t0 = Ok r) ->
  forward rtl (tlen e) (cx_vm_matcher e p L vfuel).
Proof.
  intros e p rtl Htc Htl L vfuel o body root Hcodes Hstr Hs Hg Hsh Hn0 Hterm ts t0 m Ht0 Hm.
  unfold cx_vm_matcher in Hm.
  destruct (exec_at (cx_env_at e ts) p L vfuel t0) as [s'| | |] eqn:Hex; try discriminate Hm.
  destruct (matched0 s') eqn:Hm0; [|discriminate Hm].
  destruct (Hterm ts t0 Ht0) as (fuel & r & Hf & Hatt).
  assert (Htl' : tlen (cx_env_at e ts) <= INF) by (rewrite cx_tlen_env_at; exact Htl).
  assert (Ht0' : 0 <= t0 <= tlen (cx_env_at e ts)) by (rewrite cx_tlen_env_at; exact Ht0).
  destruct (cx_exec_matched_some (cx_env_at e ts) p Htc Htl' L fuel vfuel o body t0 r s'
              Hcodes Hstr Hs Hg Ht0' Hf Hatt Hex Hm0) as (q & Hr & Hp & _).
  destruct (cx_exec_group0_is_match_span (cx_env_at e ts) p Htc Htl' L fuel vfuel o body t0 r s'
              Hcodes Hstr Hs Hg Ht0' Hf Hatt Hn0 Hex Hm0) as (_ & _ & _ & Hi & Hl).
  rewrite Hi, Hl in Hm. injection Hm as <-. subst r. rewrite Hp.
  rewrite <- (cx_tlen_env_at e ts).
  exact (cx_shaped_of_attempt (cx_env_at e ts) rtl fuel o body t0 q [] Hsh Ht0' Hatt).
Qed.

(* ---------- the C07 theorems instantiated ---------- *)
Theorem cx_iteration_for_spec_search :
  forall (e : env) (rtl : bool) fuel o body,
  let root := NCapture o 0 (-1) body in
  shape_ok rtl root = true -> no_group0 body ->
  forall start, 0 <= start <= tlen e ->
  exists ms, Iter.iteration rtl (tlen e) (cx_spec_matcher e fuel root)
               (Iter.dflt_fuel (tlen e)) (Iter.dflt_fuel (tlen e)) start = Ok ms /\
             Z.of_nat (length ms) <= tlen e + 1 /\
             Forall (wfm rtl (tlen e)) ms /\
             forall a b, consecutive ms a b -> follows rtl a b.
Proof.
  intros e rtl fuel o body root Hsh Hn0.
  exact (iteration_bound_and_order rtl (tlen e) _ (cx_spec_forward e rtl fuel o body Hsh Hn0)).
Qed.

Theorem cx_next_advances_for_spec_search :
  forall (e : env) (rtl : bool) fuel o body,
  let root := NCapture o 0 (-1) body in
  shape_ok rtl root = true -> no_group0 body ->
  forall m, wfm rtl (tlen e) m ->
  exists r, Iter.find_next_match rtl (tlen e) (cx_spec_matcher e fuel root) (Iter.dflt_fuel (tlen e)) m = Ok r /\
            forall m', r = Some m' -> wfm rtl (tlen e) m' /\ follows rtl m m'.
Proof.
  intros e rtl fuel o body root Hsh Hn0.
  exact (next_advances_stmt rtl (tlen e) _ (cx_spec_forward e rtl fuel o body Hsh Hn0)).
Qed.

Theorem cx_iteration_for_compiled_programs :
  forall (e : env) (p : program) (rtl : bool), 0 <= trackcount p -> tlen e <= INF ->
  forall L vfuel o body,
  let root := NCapture o 0 (-1) body in
  codes p = fst (compile cfg0 root) -> strings p = snd (compile cfg0 root) ->
  supported2 root = true -> groups_ok2 (capsize p) root ->
  shape_ok rtl root = true -> no_group0 body ->
  (forall ts t0, 0 <= t0 <= tlen e ->
     exists fuel r, Z.of_nat fuel <= INF /\ Spec.attempt (cx_env_at e ts) fuel root t0 = Ok r) ->
  forall start, 0 <= start <= tlen e ->
  exists ms, Iter.iteration rtl (tlen e) (cx_vm_matcher e p L vfuel)
               (Iter.dflt_fuel (tlen e)) (Iter.dflt_fuel (tlen e)) start = Ok ms /\
             Z.of_nat (length ms) <= tlen e + 1 /\
             Forall (wfm rtl (tlen e)) ms /\
             forall a b, consecutive ms a b -> follows rtl a b.
Proof.
  intros e p rtl Htc Htl L vfuel o body root Hcodes Hstr Hs Hg Hsh Hn0 Hterm.
  exact (iteration_bound_and_order rtl (tlen e) _
           (cx_vm_forward e p rtl Htc Htl L vfuel o body Hcodes Hstr Hs Hg Hsh Hn0 Hterm)).
Qed.

Theorem cx_next_advances_for_compiled_programs :
  forall (e : env) (p : program) (rtl : bool), 0 <= trackcount p -> tlen e <= INF ->
  forall L vfuel o body,
  let root := NCapture o 0 (-1) body in
  codes p = fst (compile cfg0 root) -> strings p = snd (compile cfg0 root) ->
  supported2 root = true -> groups_ok2 (capsize p) root ->
  shape_ok rtl root = true -> no_group0 body ->
  (forall ts t0, 0 <= t0 <= tlen e ->
     exists fuel r, Z.of_nat fuel <= INF /\ Spec.attempt (cx_env_at e ts) fuel root t0 = Ok r) ->
  forall m, wfm rtl (tlen e) m ->
  exists r, Iter.find_next_match rtl (tlen e) (cx_vm_matcher e p L vfuel) (Iter.dflt_fuel (tlen e)) m = Ok r /\
            forall m', r = Some m' -> wfm rtl (tlen e) m' /\ follows rtl m m'.
Proof.
  intros e p rtl Htc Htl L vfuel o body root Hcodes Hstr Hs Hg Hsh Hn0 Hterm.
  exact (next_advances_stmt rtl (tlen e) _
           (cx_vm_forward e p rtl Htc Htl L vfuel o body Hcodes Hstr Hs Hg Hsh Hn0 Hterm)).
Qed.

(* non-vacuity: the a^n b^n program on "aabb" -- hypotheses of cx_vm_forward that are decidable hold, and
   iterating the interpreter's matcher from 0 yields the single match [0,4) *)
Example cx_iter_demo :
  let e := cc_demo_env2 [97;97;98;98] in
  let root := NCapture 0 0 (-1) c2_demo_body in
  shape_ok false root = true /\ no_group0 c2_demo_body /\
  (forall ts t0, 0 <= t0 <= tlen e ->
     exists fuel r, Z.of_nat fuel <= INF /\ Spec.attempt (cx_env_at e ts) fuel root t0 = Ok r) /\
  Iter.iteration false (tlen e) (cx_vm_matcher e c2_demo_prog (-1) 5)
    (Iter.dflt_fuel (tlen e)) (Iter.dflt_fuel (tlen e)) 0 = Ok [MkM 0 4 4 []] /\
  Iter.iteration false (tlen e) (cx_spec_matcher e 40 root)
    (Iter.dflt_fuel (tlen e)) (Iter.dflt_fuel (tlen e)) 0 = Ok [MkM 0 4 4 []].
Proof.
  cbv zeta. split; [reflexivity|]. split.
  { unfold no_group0. cbn. repeat split; try exact I; discriminate. }
  split.
  { intros ts t0 Ht0. change (tlen (cc_demo_env2 [97; 97; 98; 98])) with 4 in Ht0.
    exists 40%nat.
    assert (Hc : t0 = 0 \/ t0 = 1 \/ t0 = 2 \/ t0 = 3 \/ t0 = 4) by lia.
    destruct Hc as [->|[->|[->|[->| ->]]]]; eexists; (split; [vm_compute; congruence|]); vm_compute; reflexivity. }
  split; vm_compute; reflexivity.
Qed.

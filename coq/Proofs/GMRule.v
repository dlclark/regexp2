(* The documented numbering rule (C17: numbering_rule), read off the pre-scan's marks and table. *)
From Verif Require Import Base.Prelude Model.GroupMap Proofs.GMBase Proofs.OptionsProofs Proofs.GMLookups Proofs.GMPrescan Proofs.GMAgree.
From Coq Require Import Sorting.Sorted.

Fixpoint autos (mks : list pmark) : list Z :=
  match mks with [] => [] | PAuto k :: r => k :: autos r | _ :: r => autos r end.
Fixpoint pnums (mks : list pmark) : list Z :=
  match mks with [] => [] | PNum n :: r => n :: pnums r | _ :: r => pnums r end.
Fixpoint pnames (mks : list pmark) : list name :=
  match mks with [] => [] | PName s :: r => s :: pnames r | _ :: r => pnames r end.

Definition nmem (s : name) (l : list name) : bool := existsb (zlist_eqb s) l.
Lemma nmem_In : forall s l, nmem s l = true <-> In s l.
Proof.
  intros s l. unfold nmem. rewrite existsb_exists. split.
  - intros [x [Hx E]]. apply zlist_eqb_eq in E. now subst.
  - intros H. exists s. split; [assumption|apply zlist_eqb_refl].
Qed.
Lemma nmem_false : forall s l, nmem s l = false <-> ~ In s l.
Proof.
  intros s l. split; intros H.
  - intros Hi. apply nmem_In in Hi. congruence.
  - destruct (nmem s l) eqn:E; [apply nmem_In in E; contradiction|reflexivity].
Qed.

(* the names in order of first appearance, given the ones already seen *)
Fixpoint new_names (seen : list name) (l : list name) : list name :=
  match l with
  | [] => []
  | s :: r => if nmem s seen then new_names seen r else s :: new_names (seen ++ [s]) r
  end.

(* ================= numbers not maintained in pattern order ================= *)

Lemma nmem_namelist : forall lim mco c, gm_pinv lim mco c -> forall s, nmem s (c_capnamelist c) = amem s (names_of c).
Proof.
  intros lim mco c Hinv s. rewrite <- (pi_keys _ _ _ Hinv). unfold amem.
  destruct (aget s (names_of c)) as [v|] eqn:E.
  - apply nmem_In. eapply aget_some_key; eauto.
  - apply nmem_false. now apply aget_none_keys.
Qed.

(* the loop of countCaptures, when numbers are not kept in pattern order *)
Lemma capsteps_shape_default : forall lim ecma c ts mks c',
  lim <= maxint32 -> capsteps false ecma c ts mks c' ->
  gm_pinv lim false c -> Forall tok_lex ts -> Forall (tok_small lim) ts ->
  c_autocap c + Z.of_nat (length ts) < maxint32 ->
  c_autocap c' = c_autocap c + Z.of_nat (length (autos mks))
  /\ autos mks = map (fun i => c_autocap c + Z.of_nat i) (seq 0 (length (autos mks)))
  /\ (forall k, In k (c_caps c') <-> In k (c_caps c) \/ In k (autos mks) \/ In k (pnums mks))
  /\ c_capnamelist c' = c_capnamelist c ++ new_names (c_capnamelist c) (pnames mks).
Proof.
  intros lim ecma c ts mks c' Hlim H.
  induction H as [c|c t mk c1 ts mks c2 H1 H IH]; intros Hinv Hlex Hsmall Hlt.
  - cbn. rewrite app_nil_r. repeat split; try lia; tauto.
  - inversion Hlex as [|? ? Hl1 Hl2]; subst. inversion Hsmall as [|? ? Hs1 Hs2]; subst.
    cbn [length] in Hlt.
    destruct (capstep_inv lim Hlim false ecma c t mk c1 Hinv Hl1 Hs1 ltac:(lia) H1) as [P1 [P2 _]].
    destruct (IH P1 Hl2 Hs2 ltac:(lia)) as [I1 [I2 [I3 I4]]].
    pose proof (nmem_namelist _ _ _ Hinv) as Hmem. unfold amem in Hmem.
    destruct H1 as [t| |n Hm Hn|t s v Ht Hv|t s Ht Hv]; cbn [autos pnums pnames new_names length].
    + auto.
    + destruct (auto_slot_fields c) as [Fa [_ Fl]]. rewrite Fa in I1, I2. rewrite Fl in I4.
      split; [lia|]. split; [|split; [|exact I4]].
      * cbn [seq map]. f_equal; [lia|]. rewrite I2 at 1. rewrite <- seq_shift, map_map.
        apply map_ext. intros. lia.
      * intros k. rewrite I3, auto_slot_caps. cbn [In]. intuition.
    + destruct (note_slot_fields n c) as [Fa [_ Fl]]. rewrite Fa in I1, I2. rewrite Fl in I4.
      split; [exact I1|]. split; [exact I2|]. split; [|exact I4].
      intros k. rewrite I3, note_slot_caps. cbn [In]. intuition.
    + rewrite Hmem, Hv. auto.
    + rewrite Hmem, Hv. cbn [file_name c_autocap c_caps c_capnamelist] in I1, I2, I3, I4.
      rewrite <- app_assoc in I4. auto.
Qed.

(* numbering_rule, numbers not maintained in pattern order (default mode):
   - the plain "(" that capture are numbered 1, 2, ..., u in order of their opening parenthesis;
   - an explicitly numbered group keeps its number (it is filed under that number: [pnums]);
   - the distinct names, in order of first appearance, get the successive numbers from u+1 on
     that are not explicit numbers ([chain]); a repeated name has one entry, hence one number;
   - and these are all the group numbers. *)
Theorem numbering_default : forall lim o ts t mks,
  ts_ok_unguarded lim ts ->
  prescan false false o ts = Ok (t, mks) ->
  let u := Z.of_nat (length (autos mks)) in
  autos mks = map (fun i => 1 + Z.of_nat i) (seq 0 (length (autos mks)))
  /\ exists ks,
       chain (0 :: autos mks ++ pnums mks) (u + 1) ks
       /\ (forall k, In k (t_caps t) <-> k = 0 \/ In k (autos mks) \/ In k (pnums mks) \/ In k ks)
       /\ match t_capnames t with
          | Some m => Forall2 (fun s k => aget s m = Some k) (new_names [] (pnames mks)) ks
          | None => new_names [] (pnames mks) = []
          end.
Proof.
  intros lim o ts t mks [Hlex [Hsmall [Hlim Hb]]] H. cbn zeta.
  destruct (prescan_capsteps _ _ _ _ _ _ H) as [c [Hs Ha]].
  destruct (prescan_inv lim Hlim _ _ _ _ _ Hs Hlex Hsmall Hb) as [Hinv Hsz].
  destruct (capsteps_shape_default lim false _ ts mks c Hlim Hs (gm_pinv_init lim false) Hlex Hsmall
              ltac:(cbn [c_init c_autocap]; lia)) as [S1 [S2 [S3 S4]]].
  cbn [c_init c_autocap c_caps c_capnamelist app] in S1, S2, S3, S4.
  split; [exact S2|].
  destruct (assign_default_wf lim c t Hinv Hsz Ha) as [_ [ks [K1 [K2 K3]]]].
  exists ks. split; [|split].
  - rewrite S1 in K1. replace (1 + Z.of_nat (length (autos mks))) with (Z.of_nat (length (autos mks)) + 1) in K1 by lia.
    apply (chain_ext (c_caps c)); [|exact K1].
    intros n _. rewrite S3. cbn [In]. rewrite in_app_iff. intuition.
  - intros k. rewrite K2, S3. cbn [In]. intuition.
  - rewrite S4 in K3. exact K3.
Qed.

(* ================= numbers maintained in pattern order ================= *)

(* every group that opens something new — a capturing "(" or a name not seen before — gets the
   next number; a name seen before has its one entry, hence the number it got then *)
Fixpoint mco_rule (get : name -> option Z) (a : Z) (seen : list name) (mks : list pmark) : Prop :=
  match mks with
  | [] => True
  | PAuto k :: r => k = a /\ mco_rule get (a + 1) seen r
  | PName s :: r => if nmem s seen then mco_rule get a seen r
                    else get s = Some a /\ mco_rule get (a + 1) (seen ++ [s]) r
  | PNum _ :: _ => False
  | PNone :: r => mco_rule get a seen r
  end.

Lemma capsteps_shape_mco : forall lim ecma c ts mks c' get,
  lim <= maxint32 -> capsteps true ecma c ts mks c' ->
  gm_pinv lim true c -> Forall tok_lex ts -> Forall (tok_small lim) ts ->
  c_autocap c + Z.of_nat (length ts) < maxint32 ->
  (forall s v, aget s (names_of c') = Some v -> get s = Some v) ->
  mco_rule get (c_autocap c) (c_capnamelist c) mks.
Proof.
  intros lim ecma c ts mks c' get Hlim H.
  induction H as [c|c t mk c1 ts mks c2 H1 H IH]; intros Hinv Hlex Hsmall Hlt Hget; [exact I|].
  inversion Hlex as [|? ? Hl1 Hl2]; subst. inversion Hsmall as [|? ? Hs1 Hs2]; subst.
  cbn [length] in Hlt.
  destruct (capstep_inv lim Hlim true ecma c t mk c1 Hinv Hl1 Hs1 ltac:(lia) H1) as [P1 [P2 _]].
  destruct (capsteps_inv lim Hlim true ecma _ ts mks _ H P1 Hl2 Hs2 ltac:(lia)) as [_ [_ [_ Q4]]].
  pose proof (IH P1 Hl2 Hs2 ltac:(lia) Hget) as R.
  pose proof (nmem_namelist _ _ _ Hinv) as Hmem. unfold amem in Hmem.
  destruct H1 as [t| |n Hm Hn|t s v Ht Hv|t s Ht Hv]; cbn [mco_rule].
  - exact R.
  - destruct (auto_slot_fields c) as [Fa [_ Fl]]. rewrite Fa, Fl in R. auto.
  - discriminate.
  - now rewrite Hmem, Hv.
  - rewrite Hmem, Hv. cbn [file_name c_autocap c_capnamelist] in R.
    destruct (auto_slot_fields c) as [Fa [_ Fl]]. rewrite Fa, Fl in R. split; [|exact R].
    apply Hget, Q4. apply aget_aset_same.
Qed.

(* numbering_rule with MaintainCaptureOrder (also ECMAScript, RE2): pure pattern order *)
Theorem numbering_ordered : forall lim ecma o ts t mks,
  ts_ok_unguarded lim ts ->
  prescan true ecma o ts = Ok (t, mks) ->
  mco_rule (fun s => match t_capnames t with Some m => aget s m | None => None end) 1 [] mks.
Proof.
  intros lim ecma o ts t mks [Hlex [Hsmall [Hlim Hb]]] H.
  destruct (prescan_capsteps _ _ _ _ _ _ H) as [c [Hs Ha]].
  destruct (prescan_inv lim Hlim _ _ _ _ _ Hs Hlex Hsmall Hb) as [Hinv _].
  pose proof (assign_ordered_keeps lim ecma c t Hinv Ha) as H3.
  apply (capsteps_shape_mco lim ecma _ ts mks c _ Hlim Hs (gm_pinv_init lim true) Hlex Hsmall).
  - cbn [c_init c_autocap]. lia.
  - intros s v Hv. destruct (H3 s v Hv) as [m [-> Hm]]. exact Hm.
Qed.

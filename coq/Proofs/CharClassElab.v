(* What the parser builds for a bracket expression (scan_char_set / elab) denotes exactly the set
   algebra of the expression (sem / denote).  Case-sensitive part. *)
From Verif Require Import Base.Prelude Model.CharClass Proofs.CharClassRanges Proofs.CharClassProofs.
From Coq Require Import ZifyBool.

Section CsynInd.
  Variable P : csyn -> Prop.
  Hypothesis Hnone : forall ng items, P (CSyn ng items None).
  Hypothesis Hsome : forall ng items s, P s -> P (CSyn ng items (Some s)).
  Fixpoint csyn_induction (s : csyn) : P s :=
    match s with
    | CSyn ng items sb =>
      match sb with
      | None => Hnone ng items
      | Some s' => Hsome ng items s' (csyn_induction s')
      end
    end.
End CsynInd.

(* members are inside [0, MaxRune], ranges are not reversed, POSIX names exist *)
Definition wf_item (it : item) : Prop :=
  match it with
  | IRange a b => 0 <= a /\ a <= b /\ b <= max_rune
  | IPosix _ k => 0 <= k <= 13
  | _ => True
  end.
Fixpoint wf_syn (s : csyn) : Prop :=
  match s with
  | CSyn _ items sb => Forall wf_item items /\ match sb with Some s' => wf_syn s' | None => True end
  end.

(* known finding ci_negated_case_category: under IgnoreCase, \P{Ll} \P{Lu} \P{Lt} *)
Definition item_guard (o : opts) (it : item) : Prop :=
  match it with
  | IProp ng name => (o_ci o && ng && is_case_cat name) = false
  | _ => True
  end.
Fixpoint syn_guard (o : opts) (s : csyn) : Prop :=
  match s with
  | CSyn _ items sb => Forall (item_guard o) items /\ match sb with Some s' => syn_guard o s' | None => True end
  end.

Lemma syn_guard_cs o s : o_ci o = false -> syn_guard o s.
Proof.
  intros H. induction s as [ng items | ng items s' IH] using csyn_induction; cbn; (split; [|auto]);
    apply Forall_forall; intros it _; destruct it; cbn; auto; rewrite H; reflexivity.
Qed.

Lemma existsb_flat_map {A B} (f : B -> bool) (g : A -> list B) l :
  existsb f (flat_map g l) = existsb (fun x => existsb f (g x)) l.
Proof. induction l as [|h t IH]; [reflexivity|]. cbn. rewrite existsb_app, IH. reflexivity. Qed.

Lemma existsb_map' {A B} (f : B -> bool) (g : A -> B) l :
  existsb f (map g l) = existsb (fun x => f (g x)) l.
Proof. induction l as [|h t IH]; [reflexivity|]. cbn. rewrite IH. reflexivity. Qed.

Lemma existsb_orb {A} (f g : A -> bool) l :
  existsb (fun x => f x || g x) l = existsb f l || existsb g l.
Proof.
  induction l as [|h t IH]; [reflexivity|]. cbn. rewrite IH.
  destruct (f h), (g h), (existsb f t), (existsb g t); reflexivity.
Qed.

Lemma not_ecma_digit_eq : not_ecma_digit_ranges = negative_ranges 0 ecma_digit_ranges.
Proof. reflexivity. Qed.
Lemma not_ecma_word_eq : not_ecma_word_ranges = negative_ranges 0 ecma_word_ranges.
Proof. reflexivity. Qed.
Lemma not_ecma_space_eq : not_ecma_space_ranges = negative_ranges 0 ecma_space_ranges.
Proof. reflexivity. Qed.
Lemma not_re2_space_eq : not_re2_space_ranges = negative_ranges 0 re2_space_ranges.
Proof. reflexivity. Qed.

Ltac solve_ordered := cbn; unfold max_rune; repeat split; lia.
Ltac solve_wf := repeat (constructor; [unfold wf_range, max_rune; cbn; lia|]); constructor.

Lemma ordered_ecma_digit : ordered 0 ecma_digit_ranges. Proof. solve_ordered. Qed.
Lemma ordered_ecma_word : ordered 0 ecma_word_ranges. Proof. solve_ordered. Qed.
Lemma ordered_ecma_space : ordered 0 ecma_space_ranges. Proof. solve_ordered. Qed.
Lemma ordered_re2_space : ordered 0 re2_space_ranges. Proof. solve_ordered. Qed.
Lemma wf_ecma_digit : wf_ranges ecma_digit_ranges. Proof. solve_wf. Qed.
Lemma wf_ecma_word : wf_ranges ecma_word_ranges. Proof. solve_wf. Qed.
Lemma wf_ecma_space : wf_ranges ecma_space_ranges. Proof. solve_wf. Qed.
Lemma wf_re2_space : wf_ranges re2_space_ranges. Proof. solve_wf. Qed.

Lemma posix_ordered k : 0 <= k <= 13 -> ordered 0 (posix_ranges k) /\ wf_ranges (posix_ranges k) /\ posix_ranges k <> [].
Proof.
  intros H.
  assert (Hk : k = 0 \/ k = 1 \/ k = 2 \/ k = 3 \/ k = 4 \/ k = 5 \/ k = 6 \/ k = 7 \/ k = 8 \/ k = 9 \/
               k = 10 \/ k = 11 \/ k = 12 \/ k = 13) by lia.
  repeat (destruct Hk as [->|Hk]); try subst k;
    (split; [solve_ordered|split; [solve_wf|cbn; discriminate]]).
Qed.

Section Elab.
  Variable cat_in : Z -> Z -> bool.
  Variable simple_fold : Z -> Z.
  Variable to_lower : Z -> Z.
  Variable fuel : nat.

  Notation den := (denote cat_in simple_fold fuel).

  Lemma den_ranges_exp rs ch : den (ranges_exp rs) ch = mem rs ch.
  Proof.
    unfold ranges_exp. cbn [denote]. unfold mem. rewrite existsb_map'.
    apply existsb_ext'. intros [a b]. reflexivity.
  Qed.

  Lemma den_neg_if b e ch : den (neg_if b e) ch = xorb b (den e ch).
  Proof. destruct b; cbn; [reflexivity|]. destruct (den e ch); reflexivity. Qed.

  (* the set an item contributes, code-point part and category part *)
  Definition lit_den (o : opts) (it : item) (ch : Z) : bool := existsb (fun e => den e ch) (item_lit_exp o it).
  Definition cat_den (o : opts) (it : item) (ch : Z) : bool := existsb (fun e => den e ch) (item_cat_exp o it).

  (* ---------------------------------------------------------------- while members are added: neg = true *)
  Definition scan_inv (c : cls) : Prop :=
    neg c = true /\ sub c = None /\ ascii c = None /\ wf_ranges (ranges c) /\ canonical_ranges (ranges c) /\ any_inv c.

  Lemma canonicalize_neg c : neg c = true -> neg (canonicalize cat_in c) = true.
  Proof. intros Hn. rewrite canon_neg by exact Hn. exact Hn. Qed.

  Lemma add_categories_loop_neg l : forall c, neg (add_categories_loop c l) = neg c.
  Proof. intros c. apply (add_categories_loop_shape cat_in l c). Qed.

  Lemma body_of_top c c' ch X : neg c = true -> neg c' = true ->
    top_in cat_in c' ch = xorb (neg c) X -> body cat_in c' ch = X.
  Proof.
    intros H1 H2. rewrite top_in_body. rewrite H1, H2.
    destruct (body cat_in c' ch), X; cbn; congruence.
  Qed.

  (* generic step: a mutator that satisfies mut_ok, keeps neg, and adds the set X *)
  Lemma scan_step c c' (X : Z -> bool) :
    scan_inv c -> mut_ok c c' -> neg c' = true ->
    (forall ch, valid_rune ch -> top_in cat_in c' ch = xorb (neg c) (body cat_in c ch || X ch)) ->
    scan_inv c' /\ forall ch, valid_rune ch -> body cat_in c' ch = body cat_in c ch || X ch.
  Proof.
    intros (I1 & I2 & I3 & I4 & I5 & I6) (M1 & M2 & M3 & M4 & M5) Hn Ht. split.
    - unfold scan_inv. split; [exact Hn|split; [congruence|split; [congruence|split; [exact M3|split; [exact M4|exact M5]]]]].
    - intros ch Hv. apply (body_of_top c c' ch _ I1 Hn). apply Ht. exact Hv.
  Qed.

  Lemma add_ranges_neg c rs : neg c = true -> neg (add_ranges cat_in c rs) = true.
  Proof. intros H. unfold add_ranges. destruct (anything c); [exact H|]. apply canonicalize_neg. exact H. Qed.
  Lemma add_negative_ranges_neg c rs : neg c = true -> neg (add_negative_ranges cat_in c rs) = true.
  Proof. intros H. unfold add_negative_ranges. destruct (anything c); [exact H|]. apply canonicalize_neg. exact H. Qed.
  Lemma add_categories_neg c l : neg (add_categories c l) = neg c.
  Proof. apply (add_categories_shape cat_in c l). Qed.

  Lemma add_categories_ok c l : any_inv c -> wf_ranges (ranges c) -> canonical_ranges (ranges c) ->
    canonical_ranges (ranges (add_categories c l)).
  Proof.
    intros Hi Hw Hc. unfold add_categories. destruct (anything c); [exact Hc|].
    revert c Hi Hw Hc. induction l as [|[ng name] t IH]; intros c Hi Hw Hc; cbn [add_categories_loop]; [exact Hc|].
    destruct (find_cat name (cats c)).
    - destruct (Bool.eqb ng b); [apply IH; auto|]. cbn. unfold max_rune. lia.
    - apply IH; cbn; auto.
  Qed.

  Lemma add_categories_mut_ok c l : any_inv c -> wf_ranges (ranges c) -> canonical_ranges (ranges c) ->
    mut_ok c (add_categories c l).
  Proof.
    intros Hi Hw Hc. destruct (add_categories_shape cat_in c l) as (A & B & C & D & E).
    unfold mut_ok. split; [exact A|split; [exact B|split; [exact (D Hw)|split; [apply add_categories_ok; auto|exact (E Hi)]]]].
  Qed.

  (* positive / negated table of code points *)
  Lemma table_step c rs (ng : bool) :
    scan_inv c -> wf_ranges rs -> ordered 0 rs ->
    let c' := if ng then add_negative_ranges cat_in c rs else add_ranges cat_in c rs in
    scan_inv c' /\ forall ch, valid_rune ch -> body cat_in c' ch = body cat_in c ch || xorb ng (mem rs ch).
  Proof.
    intros Hinv Hw Ho. pose proof Hinv as (I1 & I2 & I3 & I4 & I5 & I6). destruct ng; cbn zeta.
    - apply scan_step; auto.
      + apply add_negative_ranges_ok; auto.
      + apply add_negative_ranges_neg; auto.
      + intros ch Hv. rewrite add_negative_ranges_top by auto. reflexivity.
    - apply scan_step; auto.
      + apply add_ranges_ok; auto.
      + apply add_ranges_neg; auto.
      + intros ch Hv. rewrite add_ranges_top by auto. destruct (mem rs ch); reflexivity.
  Qed.

  Lemma cats_step c l :
    scan_inv c ->
    scan_inv (add_categories c l) /\
    forall ch, valid_rune ch -> body cat_in (add_categories c l) ch = body cat_in c ch || cats_in cat_in l ch.
  Proof.
    intros Hinv. pose proof Hinv as (I1 & I2 & I3 & I4 & I5 & I6).
    apply scan_step; auto.
    - apply add_categories_mut_ok; auto.
    - rewrite add_categories_neg. exact I1.
    - intros ch Hv. apply add_categories_top; auto.
  Qed.

  Lemma cats_in_single ng name ch : cats_in cat_in [(ng, name)] ch = xorb ng (cat_in name ch).
  Proof. unfold cats_in, cat_accepts; cbn. apply orb_false_r. Qed.

  Lemma item_step o c it :
    scan_inv c -> wf_item it -> item_guard o it ->
    scan_inv (elab_item cat_in o c it) /\
    forall ch, valid_rune ch ->
      body cat_in (elab_item cat_in o c it) ch = body cat_in c ch || (lit_den o it ch || cat_den o it ch).
  Proof.
    intros Hinv Hwf Hg. pose proof Hinv as (I1 & I2 & I3 & I4 & I5 & I6).
    destruct it as [a b|ng|ng|ng|ng name|ng k]; cbn [elab_item]; unfold lit_den, cat_den; cbn [item_lit_exp item_cat_exp].
    - (* IRange *)
      cbn in Hwf. destruct Hwf as (W1 & W2 & W3).
      destruct (scan_step c (add_range cat_in c a b) (fun ch => (a <=? ch) && (ch <=? b))) as [S1 S2]; auto.
      + apply add_range_ok; auto.
      + apply canonicalize_neg. exact I1.
      + intros ch Hv. apply add_range_top; auto.
      + split; [exact S1|]. intros ch Hv. rewrite S2 by auto. cbn. rewrite !orb_false_r. reflexivity.
    - (* IDigit *)
      unfold add_digit. destruct (o_ecma o || o_re2 o).
      + rewrite not_ecma_digit_eq.
        destruct (table_step c ecma_digit_ranges ng Hinv wf_ecma_digit ordered_ecma_digit) as [S1 S2].
        cbn zeta in S1, S2. unfold add_negative_ranges in *. destruct ng; (split; [exact S1|]); intros ch Hv; rewrite S2 by auto;
          cbn [existsb]; rewrite den_neg_if; cbn [denote]; unfold mem, in_range, ecma_digit_ranges; cbn [existsb fst snd]; rewrite !orb_false_r; reflexivity.
      + destruct (cats_step c [(ng, cat_Nd)] Hinv) as [S1 S2]. split; [exact S1|].
        intros ch Hv. rewrite S2 by auto. rewrite cats_in_single. cbn. rewrite !orb_false_r. reflexivity.
    - (* ISpace *)
      unfold add_space. destruct (o_ecma o) eqn:Ee.
      + rewrite not_ecma_space_eq.
        destruct (table_step c ecma_space_ranges ng Hinv wf_ecma_space ordered_ecma_space) as [S1 S2].
        cbn zeta in S1, S2. unfold add_negative_ranges in *. cbn [orb].
        destruct ng; (split; [exact S1|]); intros ch Hv; rewrite S2 by auto;
          cbn [existsb]; rewrite den_neg_if, den_ranges_exp; rewrite !orb_false_r; reflexivity.
      + destruct (o_re2 o) eqn:Er.
        * rewrite not_re2_space_eq.
          destruct (table_step c re2_space_ranges ng Hinv wf_re2_space ordered_re2_space) as [S1 S2].
          cbn zeta in S1, S2. unfold add_negative_ranges in *. cbn [orb].
          destruct ng; (split; [exact S1|]); intros ch Hv; rewrite S2 by auto;
            cbn [existsb]; rewrite den_neg_if, den_ranges_exp; rewrite !orb_false_r; reflexivity.
        * cbn [orb]. destruct (cats_step c [(ng, cat_space)] Hinv) as [S1 S2]. split; [exact S1|].
          intros ch Hv. rewrite S2 by auto. rewrite cats_in_single. cbn. rewrite !orb_false_r. reflexivity.
    - (* IWord *)
      unfold add_word. destruct (o_ecma o || o_re2 o).
      + rewrite not_ecma_word_eq.
        destruct (table_step c ecma_word_ranges ng Hinv wf_ecma_word ordered_ecma_word) as [S1 S2].
        cbn zeta in S1, S2. unfold add_negative_ranges in *.
        destruct ng; (split; [exact S1|]); intros ch Hv; rewrite S2 by auto;
          cbn [existsb]; rewrite den_neg_if, den_ranges_exp; rewrite !orb_false_r; reflexivity.
      + destruct (cats_step c [(ng, cat_word)] Hinv) as [S1 S2]. split; [exact S1|].
        intros ch Hv. rewrite S2 by auto. rewrite cats_in_single. cbn. rewrite !orb_false_r. reflexivity.
    - (* IProp *)
      cbn in Hg. unfold add_category.
      destruct (o_ci o && is_case_cat name) eqn:Ec.
      + (* IgnoreCase and a cased-letter category: not negated (guard) *)
        assert (ng = false).
        { destruct ng; [|reflexivity]. apply andb_prop in Ec. destruct Ec as [E1 E2]. rewrite E1, E2 in Hg. discriminate. }
        subst ng.
        destruct (cats_step c [(false, cat_Ll); (false, cat_Lu); (false, cat_Lt)] Hinv) as [S1 S2].
        destruct (cats_step _ [(false, name)] S1) as [T1 T2]. split; [exact T1|].
        intros ch Hv. rewrite T2, S2 by auto. rewrite cats_in_single. cbn [existsb]. rewrite den_neg_if.
        cbn [denote existsb xorb]. unfold cats_in, cat_accepts; cbn [existsb fst snd xorb].
        apply andb_prop in Ec. destruct Ec as [_ Ec]. unfold is_case_cat in Ec.
        assert (Hname : name = cat_Ll \/ name = cat_Lu \/ name = cat_Lt) by lia.
        destruct Hname as [ -> | [ -> | -> ] ];
          destruct (cat_in cat_Ll ch), (cat_in cat_Lu ch), (cat_in cat_Lt ch), (body cat_in c ch); reflexivity.
      + destruct (cats_step c [(ng, name)] Hinv) as [S1 S2]. split; [exact S1|].
        intros ch Hv. rewrite S2 by auto. rewrite cats_in_single. cbn. rewrite !orb_false_r. reflexivity.
    - (* IPosix *)
      cbn in Hwf. destruct (posix_ordered k Hwf) as (Po & Pw & Pn).
      unfold add_named_ascii.
      destruct (k =? 5) eqn:E5.
      + assert (k = 5) by lia. subst k. unfold add_digit. rewrite not_ecma_digit_eq.
        destruct (table_step c ecma_digit_ranges ng Hinv wf_ecma_digit ordered_ecma_digit) as [S1 S2].
        cbn zeta in S1, S2. unfold add_negative_ranges in *.
        destruct ng; (split; [exact S1|]); intros ch Hv; rewrite S2 by auto;
          cbn [existsb]; rewrite den_neg_if, den_ranges_exp; rewrite !orb_false_r; reflexivity.
      + destruct (k =? 12) eqn:E12.
        * assert (k = 12) by lia. subst k. unfold add_word. rewrite not_ecma_word_eq.
          destruct (table_step c ecma_word_ranges ng Hinv wf_ecma_word ordered_ecma_word) as [S1 S2].
          cbn zeta in S1, S2. unfold add_negative_ranges in *.
          destruct ng; (split; [exact S1|]); intros ch Hv; rewrite S2 by auto;
            cbn [existsb]; rewrite den_neg_if, den_ranges_exp; rewrite !orb_false_r; reflexivity.
        * destruct (posix_ranges k) as [|r t] eqn:Ep; [congruence|]. rewrite <- Ep in *.
          destruct (table_step c (posix_ranges k) ng Hinv Pw Po) as [S1 S2]. cbn zeta in S1, S2.
          destruct ng; (split; [exact S1|]); intros ch Hv; rewrite S2 by auto;
            cbn [existsb]; rewrite den_neg_if, den_ranges_exp; rewrite !orb_false_r; reflexivity.
  Qed.

  Lemma items_step o items : forall c,
    scan_inv c -> Forall wf_item items -> Forall (item_guard o) items ->
    scan_inv (fold_left (elab_item cat_in o) items c) /\
    forall ch, valid_rune ch ->
      body cat_in (fold_left (elab_item cat_in o) items c) ch =
      body cat_in c ch || (existsb (fun it => lit_den o it ch) items || existsb (fun it => cat_den o it ch) items).
  Proof.
    induction items as [|it t IH]; intros c Hinv Hw Hg.
    - cbn. split; [exact Hinv|]. intros. rewrite orb_false_r. reflexivity.
    - inversion Hw as [|? ? W1 W2]; subst. inversion Hg as [|? ? G1 G2]; subst.
      destruct (item_step o c it Hinv W1 G1) as [S1 S2].
      destruct (IH _ S1 W2 G2) as [T1 T2]. cbn [fold_left]. split; [exact T1|].
      intros ch Hv. rewrite T2, S2 by auto. cbn [existsb].
      destruct (body cat_in c ch), (lit_den o it ch), (cat_den o it ch),
        (existsb (fun it0 => lit_den o it0 ch) t), (existsb (fun it0 => cat_den o it0 ch) t); reflexivity.
  Qed.

  Lemma scan_inv_init : scan_inv (Cls [] [] None true false None).
  Proof. unfold scan_inv; cbn. repeat split; auto; [constructor|intros H; discriminate]. Qed.

  (* ---------------------------------------------------------------- the whole bracket expression, case-sensitive *)
  Fixpoint no_bitmaps (c : cls) : Prop :=
    match c with
    | Cls _ _ sb _ _ asc => asc = None /\ match sb with Some s => no_bitmaps s | None => True end
    end.

  Lemma no_bitmaps_ok c : no_bitmaps c -> bitmaps_ok cat_in c.
  Proof.
    induction c as [rs cs ng an asc | rs cs s ng an asc IH] using cls_induction; cbn; intros [-> H]; auto.
  Qed.

  (* what a finished class satisfies *)
  Definition scanned (o : opts) (s : csyn) (c : cls) : Prop :=
    canonical c /\ no_bitmaps c /\ wf_ranges (ranges c) /\ any_inv c /\
    forall ch, valid_rune ch -> plain_in cat_in c ch = den (sem o s) ch.

  Lemma canonical_intro c : canonical_ranges (ranges c) -> match sub c with Some s => canonical s | None => True end -> canonical c.
  Proof. destruct c; cbn; auto. Qed.
  Lemma no_bitmaps_intro c : ascii c = None -> match sub c with Some s => no_bitmaps s | None => True end -> no_bitmaps c.
  Proof. destruct c; cbn; auto. Qed.

  Lemma sem_unfold o ng items sb :
    sem o (CSyn ng items sb) =
    let lits := CUnion (flat_map (item_lit_exp o) items) in
    let body := CUnion ((if o_ci o then CFold lits else lits) :: flat_map (item_cat_exp o) items) in
    let e := neg_if ng body in
    match sb with Some s' => CDiff e (sem o s') | None => e end.
  Proof. reflexivity. Qed.

  Lemma scan_nonci o s : o_ci o = false -> wf_syn s -> syn_guard o s ->
    exists c, scan_char_set cat_in simple_fold to_lower fuel o s = Ok c /\ scanned o s c.
  Proof.
    intros Hci. induction s as [ng items | ng items s' IH] using csyn_induction; intros Hw Hg;
      cbn in Hw, Hg; destruct Hw as [Hw Hw']; destruct Hg as [Hg Hg'].
    - destruct (items_step o items _ scan_inv_init Hw Hg) as [(I1 & I2 & I3 & I4 & I5 & I6) T].
      cbn [scan_char_set]. rewrite Hci. cbn [bind].
      set (c := fold_left (elab_item cat_in o) items (Cls [] [] None true false None)) in *.
      eexists. split; [reflexivity|].
      assert (Hw1 : wf_ranges (ranges (set_neg c ng))) by exact I4.
      destruct (canonicalize_same_set cat_in _ Hw1) as (S1 & S2 & S3 & S4 & S5).
      cbn [sub ascii set_neg] in S1, S2.
      unfold scanned. split; [|split; [|split; [|split]]].
      + apply canonical_intro; [exact S4|]. rewrite S1, I2. exact I.
      + apply no_bitmaps_intro; [congruence|]. rewrite S1, I2. exact I.
      + exact S3.
      + apply canonicalize_any_inv; [|exact Hw1]. apply (any_inv_sem cat_in). exact I6.
      + intros ch Hv. rewrite plain_in_top. rewrite S5 by auto. unfold sub_in. rewrite S1, I2. rewrite andb_true_r.
        rewrite top_in_body. cbn [neg set_neg]. change (body cat_in (set_neg c ng) ch) with (body cat_in c ch).
        rewrite T by auto. cbn [body ranges cats mem cats_in existsb orb].
        rewrite sem_unfold. cbn zeta. rewrite Hci. rewrite den_neg_if. f_equal.
        cbn [denote existsb]. rewrite !existsb_flat_map. reflexivity.
    - specialize (IH Hw' Hg'). destruct IH as (sc & Hsc & C1 & C2 & C3 & C4 & C5).
      destruct (items_step o items _ scan_inv_init Hw Hg) as [(I1 & I2 & I3 & I4 & I5 & I6) T].
      cbn [scan_char_set]. rewrite Hci. rewrite Hsc. cbn [bind].
      set (c := fold_left (elab_item cat_in o) items (Cls [] [] None true false None)) in *.
      eexists. split; [reflexivity|].
      assert (Hw1 : wf_ranges (ranges (set_neg (add_subtraction c sc) ng))) by exact I4.
      destruct (canonicalize_same_set cat_in _ Hw1) as (S1 & S2 & S3 & S4 & S5).
      cbn [sub ascii set_neg add_subtraction set_sub] in S1, S2.
      unfold scanned. split; [|split; [|split; [|split]]].
      + apply canonical_intro; [exact S4|]. rewrite S1. exact C1.
      + apply no_bitmaps_intro; [congruence|]. rewrite S1. exact C2.
      + exact S3.
      + apply canonicalize_any_inv; [|exact Hw1]. apply (any_inv_sem cat_in). exact I6.
      + intros ch Hv. rewrite plain_in_top. rewrite S5 by auto. unfold sub_in. rewrite S1.
        rewrite top_in_body. cbn [neg set_neg add_subtraction set_sub].
        change (body cat_in (set_neg (add_subtraction c sc) ng) ch) with (body cat_in c ch).
        rewrite T by auto. cbn [body ranges cats mem cats_in existsb orb].
        rewrite C5 by auto.
        rewrite sem_unfold. cbn zeta. rewrite Hci. cbn [denote]. rewrite den_neg_if. f_equal. f_equal.
        cbn [denote existsb]. rewrite !existsb_flat_map. reflexivity.
  Qed.

  (* char_in_denote, case-sensitive modes (none / ECMAScript / RE2), valid runes *)
  Theorem char_in_denote_cs o s c ch :
    o_ci o = false -> wf_syn s -> valid_rune ch ->
    elab cat_in simple_fold to_lower fuel s o = Ok c ->
    char_in cat_in c ch = den (sem o s) ch.
  Proof.
    intros Hci Hw Hv He. pose proof (syn_guard_cs o s Hci) as Hg. unfold elab in He.
    destruct (scan_nonci o s Hci Hw Hg) as (c' & Hc' & C1 & C2 & _ & _ & C5).
    rewrite Hc' in He. cbn [bind] in He. rewrite Hci in He. injection He as <-.
    destruct (lookup_agree cat_in _ C1 (no_bitmaps_ok _ C2) ch) as [_ L]. rewrite L. apply C5. exact Hv.
  Qed.

  (* the class the parser builds is canonical at every level and carries no stale bitmap *)
  Theorem elab_canonical_cs o s c :
    o_ci o = false -> wf_syn s ->
    elab cat_in simple_fold to_lower fuel s o = Ok c -> canonical c /\ no_bitmaps c.
  Proof.
    intros Hci Hw He. unfold elab in He.
    destruct (scan_nonci o s Hci Hw (syn_guard_cs o s Hci)) as (c' & Hc' & C1 & C2 & _).
    rewrite Hc' in He. cbn [bind] in He. rewrite Hci in He. injection He as <-. auto.
  Qed.

End Elab.

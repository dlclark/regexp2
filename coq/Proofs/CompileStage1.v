(* compile_correct for leaves, anchors, single characters, Concat, Alternate, plain Capture, Group.
   Here and in the files of the other node kinds [R] is any capture relation with a [caps_view]: [caps_rel] for
   compile_correct_partial, [caps_rel2] for compile_correct2_partial. *)
From Verif Require Import Base.Prelude Model.Tree Model.Spec Model.VM Model.Writer Gen.RunnerGen
  Proofs.SpecProofs Proofs.SpecBoundsProofs Proofs.MaskProofs
  Proofs.VMU Proofs.VMUOps Proofs.VMUOps2 Proofs.VMUOps6 Proofs.VMUOps3 Proofs.CompileBase Proofs.CompileDefs.
From Coq Require Import Relations ZifyBool.

Section CC.
Variable e : env.
Variable p : program.
Hypothesis tc_nonneg : 0 <= trackcount p.
Variable R : caps_t -> list (list Z) -> Prop.
Hypothesis HR : caps_view e p R.

Notation rsteps := (VMUOps2.rsteps e p).
Notation leadsR := (CompileBase.leadsR e p R).
Notation has_code := (CompileBase.has_code p).
Notation track_ok := (CompileBase.track_ok p).

Notation code_ex := (CompileDefs.code_ex p).
Notation tbl_ok := (CompileDefs.tbl_ok p).
Notation ok_nodeR := (CompileDefs.ok_nodeR e p R).

Lemma cc_char f k o c : ok_nodeR (S f) (NChar k o c).
Proof.
  intros s res Hsem Hst a tbl T S C M Hc Hex Hk Hr Htb.
  cbn [sem] in Hsem. injection Hsem as <-.
  cbn [emit fst csize] in *.
  apply has_code_cons in Hc. destruct Hc as [H0 Hc]. apply has_code_cons in Hc. destruct Hc as [H1 _].
  destruct Hex as [w2 H2]. destruct Hst as [Hp _].
  destruct ((0 <? avail e o (pos s)) && char_test e k c (next_char e o (pos s))) eqn:E.
  - apply leadsR_leaf; [exact Hk|exact Hr|]. cbn [pos with_pos]. eapply rs_char_ok; eassumption.
  - destruct Hk as (np & T' & -> & w3 & H3). eapply leadsR_fail; [reflexivity|]. eapply rs_char_fail; eassumption.
Qed.

Lemma cc_anchor f an : ok_nodeR (S f) (NAnchor an).
Proof.
  intros s res Hsem Hst a tbl T S C M Hc Hex Hk Hr Htb.
  cbn [sem] in Hsem. injection Hsem as <-.
  cbn [emit fst csize] in *.
  apply has_code_cons in Hc. destruct Hc as [H0 _].
  destruct Hex as [w2 H2]. destruct Hst as [Hp _].
  pose proof Hk as (np & T' & -> & w3 & H3).
  assert (G : rsteps (mkr a 0 (pos s) (np :: T') S C M)
            (if anchor_ok e an (pos s) then mkr (a + 1) 0 (pos s) (np :: T') S C M else bkr np (pos s) T' S C M))
    by (eapply rs_anchor; eassumption).
  destruct (anchor_ok e an (pos s)).
  - apply leadsR_leaf; [exact Hk|exact Hr|exact G].
  - eapply leadsR_fail; [reflexivity|exact G].
Qed.

Lemma cc_nothing f : ok_nodeR (S f) NNothing.
Proof.
  intros s res Hsem Hst a tbl T S C M Hc Hex Hk Hr Htb.
  cbn [sem] in Hsem. injection Hsem as <-.
  cbn [emit fst csize] in *.
  apply has_code_cons in Hc. destruct Hc as [H0 _].
  destruct Hk as (np & T' & -> & w3 & H3). eapply leadsR_fail; [reflexivity|]. eapply rs_nothing; eassumption.
Qed.

Lemma cc_empty f : ok_nodeR (S f) NEmpty.
Proof.
  intros s res Hsem Hst a tbl T S C M Hc Hex Hk Hr Htb.
  cbn [sem] in Hsem. injection Hsem as <-.
  cbn [csize]. rewrite Z.add_0_r. apply leadsR_leaf; [exact Hk|exact Hr|apply rsteps_refl].
Qed.

Lemma cc_bump f : ok_nodeR (S f) NBump.
Proof.
  intros s res Hsem Hst a tbl T S C M Hc Hex Hk Hr Htb.
  cbn [sem] in Hsem. injection Hsem as <-.
  cbn [emit fst csize] in *.
  apply has_code_cons in Hc. destruct Hc as [H0 _]. destruct Hex as [w2 H2].
  apply leadsR_leaf; [exact Hk|exact Hr|]. eapply rs_bump; eassumption.
Qed.

Lemma cc_group f r : ok_nodeR f r -> ok_nodeR (S f) (NGroup r).
Proof. intros Hr s res Hsem. cbn [sem] in Hsem. cbn [emit csize]. apply Hr. exact Hsem. Qed.

Definition seqf (f : nat) : list node -> st -> res (list st) :=
  fix seq (l : list node) (s : st) : res (list st) :=
    match l with
    | [] => Ok [s]
    | x :: l' => bindr (sem e f x s) (seq l')
    end.

Lemma cc_concat_list f : forall l, Forall (ok_nodeR f) l -> Forall loops_min_ok l ->
  forall s res, seqf f l s = Ok res -> st_ok e s ->
  forall a tbl T S C M, has_code a (fst (emit_seq cfg0 l a tbl)) -> code_ex (a + csize_seq cfg0 l) ->
    track_ok T -> R (caps s) M -> tbl_ok (snd (emit_seq cfg0 l a tbl)) ->
    leadsR (a + csize_seq cfg0 l) T S S C M (mkr a 0 (pos s) T S C M) res.
Proof.
  induction l as [|x l IH]; intros Hol Hsl s res Hsem Hst a tbl T S C M Hc Hex Hk Hr Htb.
  - cbn [seqf] in Hsem. injection Hsem as <-. cbn [csize_seq]. rewrite Z.add_0_r.
    apply leadsR_leaf; [exact Hk|exact Hr|apply rsteps_refl].
  - inversion Hol as [|? ? Hox Hol']; subst. inversion Hsl as [|? ? Hsx Hsl']; subst.
    cbn [seqf] in Hsem. apply sp_bindr_ok in Hsem. destruct Hsem as [la [Hla Hb]].
    cbn [emit_seq] in Hc, Htb. pose proof (emit_length cfg0 x a tbl) as Lx.
    destruct (emit cfg0 x a tbl) as [cx t1] eqn:Ex. cbn [fst] in Lx. rewrite Lx in Hc, Htb.
    pose proof (emit_seq_tbl_ext cfg0 l (proj2 (Forall_forall _ _) (fun t _ => emit_tbl_ext cfg0 t)) (a + csize cfg0 x) t1) as Hext.
    destruct (emit_seq cfg0 l (a + csize cfg0 x) t1) as [cr t2] eqn:Er. cbn [fst snd] in Hc, Htb, Hext.
    apply has_code_app in Hc. destruct Hc as [Hcx Hcr]. rewrite Lx in Hcr.
    assert (Lr : zlen cr = csize_seq cfg0 l).
    { replace cr with (fst (emit_seq cfg0 l (a + csize cfg0 x) t1)) by (rewrite Er; reflexivity).
      apply emit_seq_length. apply Forall_forall. intros t _. apply emit_length. }
    cbn [csize_seq] in *. rewrite Z.add_assoc in *.
    assert (Hexx : code_ex (a + csize cfg0 x)).
    { eapply cc_code_ex_start; [exact Hcr|]. rewrite Lr. exact Hex. }
    eapply leadsR_bindl with (m := a + csize cfg0 x) (Ss1 := S) (f := seqf f l); [|exact Hb|].
    + apply (Hox s la Hla Hst a tbl T S C M); [rewrite Ex; exact Hcx|exact Hexx|exact Hk|exact Hr|].
      rewrite Ex. cbn [snd]. eapply tbl_ok_ext; eassumption.
    + intros q rq T' C' M' Hin Hq Hcq Hu Hkq.
      apply IH with (tbl := t1); try assumption.
      * eapply cc_res_ok_in; eassumption.
      * rewrite Er. exact Hcr.
      * rewrite Er. exact Htb.
Qed.

Lemma cc_concat f o l : Forall (ok_nodeR f) l -> Forall loops_min_ok l -> ok_nodeR (S f) (NConcat o l).
Proof.
  intros Hol Hsl s res Hsem Hst a tbl T S C M Hc Hex Hk Hr Htb.
  cbn [sem] in Hsem. change (seqf f l s = Ok res) in Hsem.
  rewrite wr_emit_concat_eq in Hc, Htb. rewrite wr_csize_concat_eq in *.
  eapply cc_concat_list; eassumption.
Qed.

Definition altf (f : nat) (s : st) : list node -> res (list st) :=
  fix alt (l : list node) : res (list st) :=
    match l with
    | [] => Ok []
    | x :: l' => appr (sem e f x s) (alt l')
    end.

Lemma cc_alt_list f lend : forall l, l <> [] -> Forall (ok_nodeR f) l ->
  forall s res, altf f s l = Ok res -> st_ok e s ->
  forall a tbl T S C M, has_code a (fst (emit_alt cfg0 lend l a tbl)) -> lend = a + csize_alt cfg0 l ->
    code_ex lend -> track_ok T -> R (caps s) M -> tbl_ok (snd (emit_alt cfg0 lend l a tbl)) ->
    leadsR lend T S S C M (mkr a 0 (pos s) T S C M) res.
Proof.
  induction l as [|x l IH]; intros Hne Hol s res Hsem Hst a tbl T S C M Hc Hl Hex Hk Hr Htb; [congruence|].
  inversion Hol as [|? ? Hox Hol']; subst l0 x0.
  cbn [altf] in Hsem. apply sp_appr_ok in Hsem. destruct Hsem as (rx & ry & Hrx & Hry & ->).
  destruct l as [|y l'].
  - cbn [altf] in Hry. injection Hry as <-. rewrite app_nil_r.
    cbn [emit_alt csize_alt] in *. subst lend.
    apply (Hox s rx Hrx Hst a tbl T S C M); assumption.
  - rewrite wr_emit_alt_cons2 in Hc, Htb. rewrite wr_csize_alt_cons2 in Hl.
    pose proof (emit_length cfg0 x (a + 2) tbl) as Lx.
    destruct (emit cfg0 x (a + 2) tbl) as [cx t1] eqn:Ex. cbn [fst] in Lx. cbv zeta in Hc, Htb.
    pose proof (emit_alt_tbl_ext cfg0 lend (y :: l') (proj2 (Forall_forall _ _) (fun t _ => emit_tbl_ext cfg0 t)) (a + 2 + zlen cx + 2) t1) as Hext.
    destruct (emit_alt cfg0 lend (y :: l') (a + 2 + zlen cx + 2) t1) as [cr t2] eqn:Er. cbn [fst snd] in Hc, Htb, Hext.
    rewrite Lx in *.
    apply has_code_cons in Hc. destruct Hc as [H0 Hc]. apply has_code_cons in Hc. destruct Hc as [H1 Hc].
    replace (a + 1 + 1) with (a + 2) in Hc by lia.
    apply has_code_app in Hc. destruct Hc as [Hcx Hc]. rewrite Lx in Hc.
    apply has_code_cons in Hc. destruct Hc as [Hg0 Hc]. apply has_code_cons in Hc. destruct Hc as [Hg1 Hcr].
    replace (a + 2 + csize cfg0 x + 1 + 1) with (a + 2 + csize cfg0 x + 2) in Hcr by lia.
    pose proof (code_at_nonneg p _ _ H0) as Ha.
    destruct Hex as [wl Hwl].
    eapply leadsR_pre.
    { eapply rs_lazybranch; try exact tc_nonneg; [exact H0|exact H1|].
      instantiate (1 := match cx with [] => Goto | w :: _ => w end).
      destruct cx as [|w cx']; [rewrite <- Lx, zlen_nil, Z.add_0_r in Hg0; exact Hg0|].
      apply has_code_cons in Hcx. destruct Hcx as [Hcx _]. exact Hcx. }
    eapply leadsR_app with (T1 := [a; pos s]) (Cx := []) (Sf1 := S) (M1 := M); [|reflexivity|].
    + eapply leadsR_exit_map with (m := a + 2 + csize cfg0 x).
      { intros t T0 C0 M0. eapply rs_goto; eassumption. }
      apply (Hox s rx Hrx Hst (a + 2) tbl ([a; pos s] ++ T) S C M).
      * rewrite Ex. exact Hcx.
      * exists Goto. exact Hg0.
      * cbn [app]. eapply track_ok_cons. rewrite Z.abs_eq by lia. exact H0.
      * exact Hr.
      * rewrite Ex. cbn [snd]. eapply tbl_ok_ext; eassumption.
    + intros np T' t HT. cbn [app] in HT. injection HT as <- <-.
      rewrite bkr_pos by exact Ha.
      eapply leadsR_pre.
      { eapply rs_lazybranch_back; try exact tc_nonneg; [exact H0|exact H1|].
        instantiate (1 := match cr with [] => wl | w :: _ => w end).
        destruct cr as [|w cr'].
        - assert (Lr : zlen (fst (emit_alt cfg0 lend (y :: l') (a + 2 + csize cfg0 x + 2) t1)) = csize_alt cfg0 (y :: l')).
          { apply emit_alt_length. apply Forall_forall. intros t0 _. apply emit_length. }
          rewrite Er in Lr. cbn [fst] in Lr. rewrite zlen_nil in Lr.
          replace (a + 2 + csize cfg0 x + 2) with lend by lia. exact Hwl.
        - apply has_code_cons in Hcr. destruct Hcr as [Hcr _]. exact Hcr. }
      apply IH with (tbl := t1); try assumption.
      * discriminate.
      * rewrite Er. exact Hcr.
      * lia.
      * exists wl. exact Hwl.
      * rewrite Er. exact Htb.
Qed.

Lemma cc_alternate f o l : l <> [] -> Forall (ok_nodeR f) l -> ok_nodeR (S f) (NAlternate o l).
Proof.
  intros Hne Hol s res Hsem Hst a tbl T S C M Hc Hex Hk Hr Htb.
  cbn [sem] in Hsem. change (altf f s l = Ok res) in Hsem.
  rewrite wr_emit_alternate_eq in Hc, Htb.
  eapply cc_alt_list; try eassumption. reflexivity.
Qed.

(* ---------- Capture:  Setmark ; [r] ; Capturemark g u ---------- *)
Lemma cc_map_capnum0 g : map_capnum cfg0 g = g.
Proof. unfold map_capnum. cbn [capmap cfg0]. destruct (g =? -1) eqn:E; lia. Qed.

Lemma cc_emit_capture o g u r a tbl :
  emit cfg0 (NCapture o g u r) a tbl =
  (let '(cr, t1) := emit cfg0 r (a + 1) tbl in ([Setmark] ++ cr ++ [Capturemark; g; u], t1)).
Proof. cbn [emit]. unfold emit_capture. cbn [quick cfg0]. rewrite !cc_map_capnum0. reflexivity. Qed.

(* The frame around the body, for plain and balancing captures alike.  [k s q] is what the reference
   semantics makes of a result q of the body started at s; the last hypothesis is the Capturemark
   instruction at m run on one such result, the mark [pos s] on the grouping stack. *)
Lemma cc_capture_frame f o g u r (k : st -> st -> res (list st)) :
  ok_nodeR f r -> loops_min_ok r ->
  (forall s, sem e (S f) (NCapture o g u r) s = bindr (sem e f r s) (k s)) ->
  (forall s q rq m T S C M', st_ok e s -> st_ok e q -> k s q = Ok rq -> R (caps q) M' -> track_ok T ->
     code_at p m = Some Capturemark -> code_at p (m + 1) = Some g -> code_at p (m + 2) = Some u ->
     code_ex (m + 3) ->
     leadsR (m + 3) T S (pos s :: S) C M' (mkr m 0 (pos q) T (pos s :: S) C M') rq) ->
  ok_nodeR (S f) (NCapture o g u r).
Proof.
  intros Hokr Hsr Hk Hmark s res Hsem Hst a tbl T S C M Hc Hex Hkt Hr Htb.
  rewrite Hk in Hsem. apply sp_bindr_ok in Hsem. destruct Hsem as [la [Hla Hb]].
  rewrite cc_emit_capture in Hc, Htb.
  pose proof (emit_length cfg0 r (a + 1) tbl) as Lr.
  destruct (emit cfg0 r (a + 1) tbl) as [cr t1] eqn:Er. cbn [fst snd] in Lr, Hc, Htb.
  replace (csize cfg0 (NCapture o g u r)) with (1 + csize cfg0 r + 3) in * by reflexivity.
  apply has_code_cons in Hc. destruct Hc as [H0 Hc].
  apply has_code_app in Hc. destruct Hc as [Hcr Hc]. rewrite Lr in Hc.
  apply has_code_cons in Hc. destruct Hc as [Hm0 Hc]. apply has_code_cons in Hc. destruct Hc as [Hm1 Hc].
  apply has_code_cons in Hc. destruct Hc as [Hm2 _].
  set (m := a + 1 + csize cfg0 r) in *.
  replace (a + (1 + csize cfg0 r + 3)) with (m + 3) in * by (unfold m; lia).
  pose proof (code_at_nonneg p _ _ H0) as Ha.
  replace (m + 1 + 1) with (m + 2) in Hm2 by lia.
  assert (Hex1 : code_ex (a + 1)).
  { eapply cc_code_ex_start; [exact Hcr|]. rewrite Lr. exists Capturemark. exact Hm0. }
  destruct Hex1 as [w1 Hw1].
  eapply leadsR_pre. { eapply rs_setmark; try exact tc_nonneg; eassumption. }
  rewrite <- (app_nil_r res).
  eapply leadsR_app with (T1 := [a]) (Cx := []) (Sf1 := pos s :: S) (M1 := M); [|reflexivity|].
  - cbn [app].
    eapply leadsR_bindl with (m := m) (Ss1 := pos s :: S); [|exact Hb|].
    + apply (Hokr s la Hla Hst (a + 1) tbl (a :: T) (pos s :: S) C M).
      * rewrite Er. exact Hcr.
      * exists Capturemark. exact Hm0.
      * eapply track_ok_cons. rewrite Z.abs_eq by lia. exact H0.
      * exact Hr.
      * rewrite Er. exact Htb.
    + intros q rq T' C' M' Hin Hq Hcq Hu Hkq.
      apply Hmark; try assumption. eapply cc_res_ok_in; eassumption.
  - intros np T' t HT. cbn [app] in HT. injection HT as <- <-.
    rewrite bkr_pos by exact Ha. destruct Hkt as (np' & T3 & -> & w3 & Hw3).
    eapply leadsR_fail; [reflexivity|].
    eapply rs_mark_back; try exact tc_nonneg; try eassumption. left. reflexivity.
Qed.

Lemma cc_sem_capture f o g r s :
  sem e (S f) (NCapture o g (-1) r) s =
  bindr (sem e f r s) (fun s' => Ok [{| pos := pos s'; caps := cap_push g (span (pos s) (pos s')) (caps s') |}]).
Proof. reflexivity. Qed.

Lemma cc_capturemark g s q m T S C M' : 0 <= g < capsize p -> st_ok e s -> st_ok e q -> R (caps q) M' ->
  track_ok T -> code_at p m = Some Capturemark -> code_at p (m + 1) = Some g -> code_at p (m + 2) = Some (-1) ->
  code_ex (m + 3) ->
  leadsR (m + 3) T S (pos s :: S) C M' (mkr m 0 (pos q) T (pos s :: S) C M')
    [{| pos := pos q; caps := cap_push g (span (pos s) (pos q)) (caps q) |}].
Proof.
  intros Hg Hst Hstq Hcq Hkq Hm0 Hm1 Hm2 [wx Hwx].
  pose proof (code_at_nonneg p _ _ Hm0) as Hm.
  pose proof (cv_len _ _ _ HR _ _ Hcq) as HlM.
  assert (Hzn : znth M' g = Some (nth (Z.to_nat g) M' [])) by (apply cc_znth_nth; lia).
  exists [m; pos s], [g], (mc_set g (nth (Z.to_nat g) M' [] ++ [Z.min (pos s) (pos q); Z.abs (pos q - pos s)]) M').
  cbn [pos caps].
  split. { apply (cv_push _ _ _ HR (caps q) M' g (span (pos s) (pos q)) Hcq Hg);
           destruct Hst as [Hps _]; destruct Hstq as [Hpq _]; cbn [span fst snd]; lia. }
  split. { cbn [unwind]. rewrite cc_remove_match_set by exact Hzn. reflexivity. }
  split. { cbn [app]. eapply track_ok_cons. rewrite Z.abs_eq by lia. exact Hm0. }
  split. { cbn [app]. eapply rs_capturemark; try exact tc_nonneg; eassumption. }
  intros np T'' t HT. cbn [app] in HT. injection HT as <- <-.
  rewrite bkr_pos by exact Hm.
  destruct Hkq as (np' & T3 & HT3 & w3 & Hw3).
  eapply leadsR_fail; [exact HT3|].
  rewrite HT3. eapply rs_capturemark_back; try exact tc_nonneg; try eassumption.
  apply cc_remove_match_set. exact Hzn.
Qed.

Lemma cc_capture f o g r : ok_nodeR f r -> loops_min_ok r -> 0 <= g < capsize p ->
  ok_nodeR (S f) (NCapture o g (-1) r).
Proof.
  intros Hokr Hsr Hg. eapply cc_capture_frame; [exact Hokr|exact Hsr|intros s; apply cc_sem_capture|].
  intros s q rq m T S C M' Hst Hstq Hq. injection Hq as <-. apply cc_capturemark; assumption.
Qed.

End CC.

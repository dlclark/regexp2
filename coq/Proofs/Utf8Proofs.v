(* Facts about Base/Utf8.v: totality, widths, decode/encode round trips, slicing at rune
   boundaries.  Everything holds for arbitrary [list Z] (no byte-range hypothesis needed:
   the decoder treats a non-byte as an invalid byte). *)
From Verif Require Import Base.Prelude Base.Utf8.
From Verif Require Import Proofs.ListFacts.
From Coq Require Import ZifyBool.
(* lia sees / and mod through their defining equations (in this file only: the redefinition does not reach importers) *)
Ltac Zify.zify_post_hook ::= Z.div_mod_to_equations.

Definition zsum (l : list Z) : Z := fold_right Z.add 0 l.

Lemma zsum_app a b : zsum (a ++ b) = zsum a + zsum b.
Proof. unfold zsum. induction a as [|x a IH]; cbn [fold_right app] in *; lia. Qed.

Ltac break_if :=
  match goal with
  | |- context [if ?c then _ else _] => let E := fresh "E" in destruct c eqn:E
  | H : context [if ?c then _ else _] |- _ => let E := fresh "E" in destruct c eqn:E
  end.

Definition scalar_form (r : Z) (bs : list Z) : Prop :=
  valid_rune r = true /\ rune_len r = zlen bs /\ encode r = bs.

Ltac scalar_form_tac :=
  unfold scalar_form, valid_rune, rune_len, encode, is_surrogate, max_rune; intros;
  repeat split; repeat break_if; (reflexivity || lia).

Lemma scalar_form_1 r : 0 <= r <= 127 -> scalar_form r [r].
Proof. scalar_form_tac. Qed.

Lemma scalar_form_2 r : 128 <= r <= 2047 -> scalar_form r [192 + r / 64; 128 + r mod 64].
Proof. scalar_form_tac. Qed.

Lemma scalar_form_3 r : 2048 <= r <= 65535 -> is_surrogate r = false ->
  scalar_form r [224 + r / 4096; 128 + (r / 64) mod 64; 128 + r mod 64].
Proof. scalar_form_tac. Qed.

Lemma scalar_form_4 r : 65536 <= r <= max_rune ->
  scalar_form r [240 + r / 262144; 128 + (r / 4096) mod 64; 128 + (r / 64) mod 64; 128 + r mod 64].
Proof. scalar_form_tac. Qed.

Lemma valid_rune_forms r : valid_rune r = true ->
  0 <= r <= 127 \/ 128 <= r <= 2047 \/ (2048 <= r <= 65535 /\ is_surrogate r = false) \/
  65536 <= r <= max_rune.
Proof. unfold valid_rune. destruct (is_surrogate r) eqn:S; [|unfold max_rune]; lia. Qed.

Lemma encode_invalid r : valid_rune r = false -> encode r = encode_error.
Proof.
  unfold valid_rune, encode, is_surrogate, max_rune. intros H. repeat break_if; try reflexivity; lia.
Qed.

Lemma rune_len_invalid r : valid_rune r = false -> rune_len r = -1.
Proof.
  unfold valid_rune, rune_len, is_surrogate, max_rune. intros H. repeat break_if; try reflexivity; lia.
Qed.

Lemma rune_len_valid r : valid_rune r = true -> 1 <= rune_len r <= 4.
Proof.
  unfold valid_rune, rune_len, is_surrogate, max_rune. intros H. repeat break_if; lia.
Qed.

Lemma encode_length r : zlen (encode r) = encode_len r.
Proof.
  unfold encode, encode_len, rune_len, encode_error, zlen, is_surrogate, max_rune.
  repeat break_if; cbn [length]; lia.
Qed.

Lemma encode_len_range r : 1 <= encode_len r <= 4.
Proof.
  unfold encode_len, rune_len, is_surrogate, max_rune. repeat break_if; lia.
Qed.

Lemma decode_rune_nil : decode_rune [] = (rune_error, 0%nat).
Proof. reflexivity. Qed.

Lemma decode_rune_cases b t :
  decode_rune (b :: t) = invalid1 \/
  (let (r, w) := decode_rune (b :: t) in
   valid_rune r = true /\ Z.of_nat w = rune_len r /\ firstn w (b :: t) = encode r).
Proof.
  (* a result (r, w) is right when r has a form made of the w bytes read *)
  assert (ok : forall r bs bs' u, scalar_form r bs' -> bs' = bs -> bs ++ u = b :: t ->
            valid_rune r = true /\ Z.of_nat (length bs) = rune_len r /\
            firstn (length bs) (b :: t) = encode r).
  { intros r bs ? u (V & L & E) -> <-. rewrite firstn_app, firstn_all, Nat.sub_diag, app_nil_r. auto. }
  unfold decode_rune, is_cont.
  destruct (b <? 0) eqn:E0; [left; reflexivity|].
  destruct (b <? 128) eqn:E1; [right; apply (ok b [b] _ t (scalar_form_1 b ltac:(lia))); reflexivity|].
  destruct (b <? 192) eqn:E2; [left; reflexivity|].
  destruct (b <? 224) eqn:E3.
  { destruct t as [|b1 t]; [left; reflexivity|].
    destruct ((128 <=? b1) && (b1 <=? 191)) eqn:C; [|left; reflexivity]. cbv zeta.
    set (r := (b - 192) * 64 + (b1 - 128)).
    destruct (r <? 128) eqn:Er; [left; reflexivity|]. right.
    apply (ok r [b; b1] _ t (scalar_form_2 r ltac:(lia))); [|reflexivity]. repeat f_equal; lia. }
  destruct (b <? 240) eqn:E4.
  { destruct t as [|b1 [|b2 t]]; try (left; reflexivity).
    destruct ((128 <=? b1) && (b1 <=? 191) && ((128 <=? b2) && (b2 <=? 191))) eqn:C; [|left; reflexivity].
    cbv zeta. set (r := (b - 224) * 4096 + (b1 - 128) * 64 + (b2 - 128)).
    destruct (r <? 2048) eqn:Er; [left; reflexivity|].
    destruct (is_surrogate r) eqn:Es; [left; reflexivity|]. right.
    apply (ok r [b; b1; b2] _ t (scalar_form_3 r ltac:(lia) Es)); [|reflexivity]. repeat f_equal; lia. }
  destruct (b <? 248) eqn:E5; [|left; reflexivity].
  destruct t as [|b1 [|b2 [|b3 t]]]; try (left; reflexivity).
  destruct ((128 <=? b1) && (b1 <=? 191) && ((128 <=? b2) && (b2 <=? 191)) && ((128 <=? b3) && (b3 <=? 191))) eqn:C;
    [|left; reflexivity].
  cbv zeta. set (r := (b - 240) * 262144 + (b1 - 128) * 4096 + (b2 - 128) * 64 + (b3 - 128)).
  destruct (r <? 65536) eqn:Er; [left; reflexivity|].
  destruct (max_rune <? r) eqn:Em; [left; reflexivity|]. right.
  apply (ok r [b; b1; b2; b3] _ t (scalar_form_4 r ltac:(lia))); [|reflexivity]. repeat f_equal; lia.
Qed.

Lemma decode_rune_valid_width b t r w :
  decode_rune (b :: t) = (r, w) -> (r, w) <> invalid1 ->
  valid_rune r = true /\ Z.of_nat w = rune_len r /\ firstn w (b :: t) = encode r.
Proof.
  intros H Hne. destruct (decode_rune_cases b t) as [C|C]; [congruence|].
  rewrite H in C. exact C.
Qed.

Lemma decode_rune_width b t :
  (1 <= snd (decode_rune (b :: t)) <= 4)%nat /\
  (snd (decode_rune (b :: t)) <= length (b :: t))%nat.
Proof.
  destruct (decode_rune_cases b t) as [C|C]; [rewrite C; cbn [snd invalid1 length]; lia|].
  destruct (decode_rune (b :: t)) as [r w]. destruct C as (V & L & F). cbn [snd].
  pose proof (rune_len_valid r V) as R. pose proof (encode_length r) as E.
  unfold encode_len, zlen in E. replace (rune_len r <? 0) with false in E by lia.
  rewrite <- F, firstn_length in E. lia.
Qed.

Lemma decode_rune_2 b0 b1 t : 192 <= b0 < 224 -> is_cont b1 = true ->
  let r := (b0 - 192) * 64 + (b1 - 128) in 128 <= r -> decode_rune (b0 :: b1 :: t) = (r, 2%nat).
Proof.
  intros H0 C1 r Hr. unfold decode_rune. rewrite C1. fold r. repeat break_if; try lia. reflexivity.
Qed.

Lemma decode_rune_3 b0 b1 b2 t : 224 <= b0 < 240 -> is_cont b1 = true -> is_cont b2 = true ->
  let r := (b0 - 224) * 4096 + (b1 - 128) * 64 + (b2 - 128) in 2048 <= r -> is_surrogate r = false ->
  decode_rune (b0 :: b1 :: b2 :: t) = (r, 3%nat).
Proof.
  intros H0 C1 C2 r Hr Hs. unfold decode_rune. rewrite C1, C2. fold r. rewrite Hs.
  repeat break_if; try lia. reflexivity.
Qed.

Lemma decode_rune_4 b0 b1 b2 b3 t : 240 <= b0 < 248 ->
  is_cont b1 = true -> is_cont b2 = true -> is_cont b3 = true ->
  let r := (b0 - 240) * 262144 + (b1 - 128) * 4096 + (b2 - 128) * 64 + (b3 - 128) in
  65536 <= r <= max_rune -> decode_rune (b0 :: b1 :: b2 :: b3 :: t) = (r, 4%nat).
Proof.
  intros H0 C1 C2 C3 r Hr. unfold decode_rune. rewrite C1, C2, C3. fold r.
  repeat break_if; try lia. reflexivity.
Qed.

Lemma decode_rune_encode r t :
  valid_rune r = true -> decode_rune (encode r ++ t) = (r, Z.to_nat (rune_len r)).
Proof.
  intros V. unfold is_cont.
  destruct (valid_rune_forms r V) as [H|[H|[[H S]|H]]].
  - destruct (scalar_form_1 r H) as (_ & -> & ->). cbn [app]. unfold decode_rune.
    repeat break_if; try lia. reflexivity.
  - destruct (scalar_form_2 r H) as (_ & -> & ->). cbn [app].
    rewrite decode_rune_2; unfold is_cont; try lia. f_equal. lia.
  - destruct (scalar_form_3 r H S) as (_ & -> & ->). cbn [app].
    rewrite decode_rune_3; unfold is_cont; try lia.
    + f_equal. lia.
    + rewrite <- S. f_equal. lia.
  - destruct (scalar_form_4 r H) as (_ & -> & ->). cbn [app]. unfold max_rune in H.
    rewrite decode_rune_4; unfold is_cont, max_rune; try lia. f_equal. lia.
Qed.

Lemma decode_rune_encode_error t : decode_rune (encode_error ++ t) = (rune_error, 3%nat).
Proof. reflexivity. Qed.

Lemma decode_rune_prefix r p : valid_rune r = true ->
  firstn (Z.to_nat (rune_len r)) p = encode r -> decode_rune p = (r, Z.to_nat (rune_len r)).
Proof.
  intros V F. rewrite <- (firstn_skipn (Z.to_nat (rune_len r)) p), F. apply decode_rune_encode, V.
Qed.

Lemma decode_rune_firstn p n :
  (snd (decode_rune p) <= n)%nat -> decode_rune (firstn n p) = decode_rune p.
Proof.
  destruct p as [|b0 t]; [destruct n; reflexivity|].
  destruct n as [|n]; [pose proof (decode_rune_width b0 t); lia|]. intros Hn.
  (* whichever of the two results is a scalar, its bytes stand in front of the other input too *)
  destruct (decode_rune_cases b0 t) as [C|C].
  2:{ destruct (decode_rune (b0 :: t)) as [r w]. destruct C as (V & L & F). cbn [snd] in Hn.
      replace w with (Z.to_nat (rune_len r)) in * by lia. apply decode_rune_prefix; [exact V|].
      rewrite <- F, firstn_firstn. f_equal. lia. }
  pose proof (decode_rune_width b0 (firstn n t)) as [_ Hl].
  destruct (decode_rune_cases b0 (firstn n t)) as [C'|C']; [cbn [firstn]; congruence|].
  change (b0 :: firstn n t) with (firstn (S n) (b0 :: t)) in *.
  destruct (decode_rune (firstn (S n) (b0 :: t))) as [r w]. destruct C' as (V & L & F).
  rewrite firstn_firstn in F. cbn [snd] in Hl. rewrite firstn_length in Hl.
  replace (Nat.min w (S n)) with w in F by lia.
  replace w with (Z.to_nat (rune_len r)) in * by lia. symmetry. apply decode_rune_prefix; assumption.
Qed.

(* whatever the rune, its written form reads back as (sanitize r, encode_len r) *)
Lemma decode_rune_encode_any r t :
  decode_rune (encode r ++ t) = (sanitize r, Z.to_nat (encode_len r)).
Proof.
  unfold sanitize, encode_len. destruct (valid_rune r) eqn:V.
  - rewrite decode_rune_encode by exact V. pose proof (rune_len_valid r V).
    replace (rune_len r <? 0) with false by lia. reflexivity.
  - rewrite encode_invalid, rune_len_invalid by exact V. reflexivity.
Qed.

Lemma decode_aux_skip : forall s k, decode_aux k s = decode (skipn k s).
Proof.
  induction s as [|b t IH]; intros k.
  - destruct k; reflexivity.
  - destruct k as [|k]; [reflexivity|]. cbn [decode_aux skipn]. apply IH.
Qed.

(* the loop [for i, r := range s] one step at a time *)
Lemma decode_unfold b t :
  decode (b :: t) =
  decode_rune (b :: t) :: decode (skipn (snd (decode_rune (b :: t))) (b :: t)).
Proof.
  unfold decode at 1. cbn [decode_aux]. f_equal. rewrite decode_aux_skip.
  pose proof (decode_rune_width b t) as [Hw _].
  destruct (snd (decode_rune (b :: t))) as [|w]; [lia|]. reflexivity.
Qed.

Lemma decode_unfold' s :
  s <> [] -> decode s = decode_rune s :: decode (skipn (snd (decode_rune s)) s).
Proof. destruct s as [|b t]; [congruence|]. intros _. apply decode_unfold. Qed.

Lemma decode_ind (P : list Z -> Prop) :
  P [] ->
  (forall b t, P (skipn (snd (decode_rune (b :: t))) (b :: t)) -> P (b :: t)) ->
  forall s, P s.
Proof.
  intros H0 HS s.
  remember (length s) as n eqn:Hn. revert s Hn.
  induction n as [n IH] using lt_wf_ind. intros s Hn.
  destruct s as [|b t]; [exact H0|]. apply HS.
  pose proof (decode_rune_width b t) as [Hw Hl].
  eapply IH; [|reflexivity]. rewrite skipn_length. subst n. cbn [length] in *. lia.
Qed.

(* decode_total: the widths tile the string exactly; every width is 1..4 *)
Lemma decode_total s : zsum (widths_of s) = zlen s.
Proof.
  unfold widths_of, zlen. induction s as [|b t IH] using decode_ind; [reflexivity|].
  rewrite decode_unfold. cbn [map zsum fold_right]. fold (zsum (map (fun p => Z.of_nat (snd p))
    (decode (skipn (snd (decode_rune (b :: t))) (b :: t))))).
  rewrite IH. rewrite skipn_length.
  pose proof (decode_rune_width b t) as [Hw Hl]. lia.
Qed.

Lemma decode_widths_range s : Forall (fun w => 1 <= w <= 4) (widths_of s).
Proof.
  unfold widths_of. induction s as [|b t IH] using decode_ind; [constructor|].
  rewrite decode_unfold. cbn [map]. constructor; [|exact IH].
  pose proof (decode_rune_width b t) as [Hw Hl]. cbn [snd]. lia.
Qed.

Lemma decode_length_le s : (length (decode s) <= length s)%nat.
Proof.
  induction s as [|b t IH] using decode_ind; [cbn; lia|].
  rewrite decode_unfold. cbn [length]. rewrite skipn_length in IH.
  pose proof (decode_rune_width b t) as [Hw Hl]. cbn [length] in *. lia.
Qed.

(* every element of the decoded list is the error pair or a valid scalar with its RuneLen width *)
Lemma decode_elements s :
  Forall (fun p => p = invalid1 \/ (valid_rune (fst p) = true /\ Z.of_nat (snd p) = rune_len (fst p)))
         (decode s).
Proof.
  induction s as [|b t IH] using decode_ind; [constructor|].
  rewrite decode_unfold. constructor; [|exact IH].
  destruct (decode_rune_cases b t) as [C|C]; [left; exact C|right].
  destruct (decode_rune (b :: t)) as [r w]. cbn [fst snd]. tauto.
Qed.

(* a complete encoded rune in front of anything *)
Lemma decode_encode_app r t :
  decode (encode r ++ t) = (sanitize r, Z.to_nat (encode_len r)) :: decode t.
Proof.
  pose proof (encode_length r) as HL. pose proof (encode_len_range r) as HR.
  destruct (encode r ++ t) as [|b u] eqn:E.
  - apply (f_equal (@length Z)) in E. rewrite app_length in E. unfold zlen in HL. cbn in E. lia.
  - rewrite decode_unfold. rewrite <- E. rewrite decode_rune_encode_any. cbn [snd]. f_equal.
    f_equal. unfold zlen in HL.
    replace (Z.to_nat (encode_len r)) with (length (encode r)) by lia.
    rewrite skipn_app, skipn_all, Nat.sub_diag. reflexivity.
Qed.

(* decode . encode: string([]rune) read back.  For valid scalars this is the identity on runes
   with width RuneLen; an invalid rune comes back as U+FFFD of width 3. *)
Lemma decode_encode_string rs :
  decode (encode_string rs) = map (fun r => (sanitize r, Z.to_nat (encode_len r))) rs.
Proof.
  induction rs as [|r rs IH]; [reflexivity|].
  unfold encode_string in *. cbn [flat_map map]. rewrite decode_encode_app, IH. reflexivity.
Qed.

Lemma decode_encode_valid rs :
  forallb valid_rune rs = true ->
  decode (encode_string rs) = map (fun r => (r, Z.to_nat (rune_len r))) rs.
Proof.
  intros H. rewrite decode_encode_string. apply map_ext_in. intros r Hin.
  rewrite forallb_forall in H. specialize (H r Hin).
  unfold sanitize, encode_len. rewrite H. pose proof (rune_len_valid r H).
  replace (rune_len r <? 0) with false by lia. reflexivity.
Qed.

(* encode . decode on valid UTF-8 *)
Lemma encode_decode s : valid_utf8 s = true -> encode_string (runes_of s) = s.
Proof.
  unfold valid_utf8, runes_of, encode_string.
  induction s as [|b t IH] using decode_ind; [reflexivity|].
  rewrite decode_unfold. cbn [forallb map flat_map]. intros H.
  apply andb_true_iff in H. destruct H as [Hp Hrest].
  rewrite (IH Hrest).
  destruct (decode_rune_cases b t) as [C|C].
  - rewrite C in Hp. discriminate Hp.
  - destruct (decode_rune (b :: t)) as [r w]. cbn [fst snd] in *. destruct C as (_ & _ & Hf).
    rewrite <- Hf. apply firstn_skipn.
Qed.

(* valid UTF-8, the other way round: an encoded rune string is valid *)
Lemma encode_string_valid rs : valid_utf8 (encode_string rs) = true.
Proof.
  unfold valid_utf8. rewrite decode_encode_string. rewrite forallb_forall. intros p Hin.
  apply in_map_iff in Hin. destruct Hin as (r & <- & _).
  unfold valid_pair, sanitize, encode_len. cbn [fst snd].
  destruct (valid_rune r) eqn:V.
  - pose proof (rune_len_valid r V). replace (rune_len r <? 0) with false by lia. lia.
  - rewrite (rune_len_invalid r V). reflexivity.
Qed.

(* byte position where rune number k starts = sum of the first k widths *)
Definition nsum (l : list nat) : nat := fold_right Nat.add 0%nat l.

Lemma nsum_app a b : nsum (a ++ b) = (nsum a + nsum b)%nat.
Proof. unfold nsum. induction a as [|x a IH]; cbn [fold_right app] in *; lia. Qed.

Definition boundary (s : list Z) (k : nat) : nat := nsum (firstn k (map snd (decode s))).

Lemma boundary_0 s : boundary s 0 = 0%nat.
Proof. reflexivity. Qed.

Lemma boundary_S b t k :
  boundary (b :: t) (S k) =
  (snd (decode_rune (b :: t)) + boundary (skipn (snd (decode_rune (b :: t))) (b :: t)) k)%nat.
Proof. unfold boundary. rewrite decode_unfold. reflexivity. Qed.

Lemma boundary_nil k : boundary [] k = 0%nat.
Proof. unfold boundary. destruct k; reflexivity. Qed.

Lemma boundary_le s : forall k, (boundary s k <= length s)%nat.
Proof.
  induction s as [|b t IH] using decode_ind; intros k; [rewrite boundary_nil; cbn; lia|].
  destruct k as [|k]; [rewrite boundary_0; lia|].
  rewrite boundary_S. specialize (IH k). rewrite skipn_length in IH.
  pose proof (decode_rune_width b t) as [Hw Hl]. lia.
Qed.

(* suffix from a boundary: the remaining runes *)
Lemma decode_skipn_boundary s : forall k,
  decode (skipn (boundary s k) s) = skipn k (decode s).
Proof.
  induction s as [|b t IH] using decode_ind; intros k.
  - rewrite boundary_nil. destruct k; reflexivity.
  - destruct k as [|k]; [reflexivity|].
    rewrite boundary_S. rewrite (decode_unfold b t). cbn [skipn].
    rewrite <- IH. f_equal. apply skipn_add.
Qed.

(* prefix up to a boundary: the first runes (a truncated tail never merges into them) *)
Lemma decode_firstn_boundary s : forall k,
  decode (firstn (boundary s k) s) = firstn k (decode s).
Proof.
  induction s as [|b t IH] using decode_ind; intros k.
  - rewrite boundary_nil. destruct k; reflexivity.
  - destruct k as [|k]; [reflexivity|].
    rewrite boundary_S. rewrite (decode_unfold b t). cbn [firstn].
    set (w := snd (decode_rune (b :: t))) in *.
    set (u := skipn w (b :: t)) in *.
    pose proof (decode_rune_width b t) as [Hw Hl]. fold w in Hw, Hl.
    assert (Hfirst : firstn (w + boundary u k) (b :: t) = firstn w (b :: t) ++ firstn (boundary u k) u).
    { rewrite <- (firstn_skipn w (b :: t)) at 1. fold u.
      rewrite firstn_app. rewrite firstn_length, Nat.min_l by lia.
      rewrite firstn_all2 by (rewrite firstn_length; lia).
      replace (w + boundary u k - w)%nat with (boundary u k) by lia. reflexivity. }
    assert (Hdr : decode_rune (firstn w (b :: t) ++ firstn (boundary u k) u) = decode_rune (b :: t)).
    { rewrite <- Hfirst. apply decode_rune_firstn. fold w. lia. }
    rewrite Hfirst.
    rewrite decode_unfold' by (destruct w; [lia|]; discriminate).
    rewrite Hdr. fold w. f_equal.
    rewrite skipn_app, firstn_length, Nat.min_l by lia.
    rewrite skipn_all2 by (rewrite firstn_length; lia). rewrite Nat.sub_diag. cbn [app skipn].
    apply IH.
Qed.

Lemma nsum_firstn_add (ws : list nat) : forall i l,
  nsum (firstn (i + l) ws) = (nsum (firstn i ws) + nsum (firstn l (skipn i ws)))%nat.
Proof.
  unfold nsum. induction ws as [|x ws IH]; intros i l.
  - rewrite skipn_nil, !firstn_nil. reflexivity.
  - destruct i as [|i]; [reflexivity|]. cbn [Nat.add firstn skipn fold_right]. rewrite IH. lia.
Qed.

Lemma boundary_add s i l :
  boundary s (i + l) = (boundary s i + boundary (skipn (boundary s i) s) l)%nat.
Proof.
  unfold boundary at 1 2 3. rewrite decode_skipn_boundary, <- skipn_map. apply nsum_firstn_add.
Qed.

(* the slice between two boundaries decodes to exactly the runes between them *)
Lemma decode_slice s i l :
  decode (firstn (boundary s (i + l) - boundary s i) (skipn (boundary s i) s)) =
  firstn l (skipn i (decode s)).
Proof.
  rewrite <- decode_skipn_boundary. rewrite boundary_add.
  replace (boundary s i + boundary (skipn (boundary s i) s) l - boundary s i)%nat
    with (boundary (skipn (boundary s i) s) l) by lia.
  apply decode_firstn_boundary.
Qed.

Lemma encode_nonempty c : encode c <> [].
Proof.
  intros E. pose proof (encode_length c) as H. pose proof (encode_len_range c) as R.
  rewrite E in H. unfold zlen in H. cbn in H. lia.
Qed.

(* Termination of the reference search Model/Spec.v: enough fuel always exists.

   [sem e fuel t s] spends its fuel on DEPTH only (every recursive call gets fuel-1; a loop spends one
   unit per iteration), so the fuel a tree needs is the larger of its depth and the iterations of its
   longest-running loop (plus one per level above that loop).

   A.  [tm_dir_ok d t]  every consuming node of t outside lookarounds / conditions runs in direction d
       [term_ok t]      the body of every NLoop of t (lookarounds included) is tm_dir_ok for ONE d, and
                        single-character loops have a non-negative minimum.
       Under term_ok a loop body never moves against its direction, the empty-iteration rule of
       [iter] stops the loop at the first iteration (past the minimum) that does not move, and so a
       loop runs at most  minimum + tlen + 2  iterations:
         term_fuel e t   = 1 + max over the children; at a loop, max of the body and  Z.to_nat m + tlen e + 2
         spec_sem_total  : term_ok t -> st_ok e s -> term_fuel e t <= fuel -> exists l, sem e fuel t s = Ok l
   B.  corollaries for attempt / find / attemptk / findk.
   C.  WITHOUT any side condition the search still terminates, because [iter] also counts:
       it stops when count reaches limit <= INF.  That bound ([term_fuel_any]) is of the order of 2^31
       per loop, i.e. OUTSIDE the counter range  Z.of_nat fuel <= INF  every compile theorem asks for;
       [tm_osc_needs_more_than_INF] is a tree that Analysis.shape_ok admits (the loop sits inside a
       lookaround, where shape_ok asks nothing) and whose search returns Fuel for every fuel <= INF.
       So shape_ok alone is not the right side condition; term_ok is. *)
From Verif Require Import Base.Prelude Model.Tree Model.Spec Model.Analysis
  Proofs.SpecProofs Proofs.SpecBoundsProofs Proofs.MaskProofs.
From Coq Require Import ZifyBool.

(* a test on the optional branch of a conditional (EraseProofs.opt_ball and MirrorProofs.opt_forall are this function) *)
Definition tm_opt (f : node -> bool) (no : option node) : bool :=
  match no with Some n => f n | None => true end.

(* every consuming node outside lookarounds and outside the condition of an expression conditional
   (their effect on the position is undone) runs in direction d (true = right-to-left).
   Unlike Analysis.shape_ok nothing is asked of loop counts, empty alternations, missing branches. *)
Fixpoint tm_dir_ok (d : bool) (t : node) : bool :=
  match t with
  | NChar _ o _ => Bool.eqb (is_rtl o) d
  | NCharLoop _ _ o _ _ _ => Bool.eqb (is_rtl o) d
  | NMulti o _ => Bool.eqb (is_rtl o) d
  | NRef o _ => Bool.eqb (is_rtl o) d
  | NConcat _ l => forallb (tm_dir_ok d) l
  | NAlternate _ l => forallb (tm_dir_ok d) l
  | NLoop _ _ _ _ r => tm_dir_ok d r
  | NCapture _ _ _ r => tm_dir_ok d r
  | NGroup r => tm_dir_ok d r
  | NAtomic r => tm_dir_ok d r
  | NPosLook _ _ => true
  | NNegLook _ _ => true
  | NBackRefCond _ _ yes no => tm_dir_ok d yes && tm_opt (tm_dir_ok d) no
  | NExprCond _ _ yes no => tm_dir_ok d yes && tm_opt (tm_dir_ok d) no
  | NAnchor _ | NNothing | NEmpty | NBump => true
  end.

(* every loop body, wherever it sits, is one-directional; single-character loops have 0 <= m *)
Fixpoint term_ok (t : node) : bool :=
  match t with
  | NCharLoop _ _ _ _ m _ => 0 <=? m
  | NConcat _ l => forallb term_ok l
  | NAlternate _ l => forallb term_ok l
  | NLoop _ _ _ _ r => (tm_dir_ok false r || tm_dir_ok true r) && term_ok r
  | NCapture _ _ _ r => term_ok r
  | NGroup r => term_ok r
  | NAtomic r => term_ok r
  | NPosLook _ r => term_ok r
  | NNegLook _ r => term_ok r
  | NBackRefCond _ _ yes no => term_ok yes && tm_opt term_ok no
  | NExprCond _ c yes no => term_ok c && term_ok yes && tm_opt term_ok no
  | _ => true
  end.

(* the fuel bound: [tl] = text length *)
Fixpoint term_fuel_n (tl : nat) (t : node) : nat :=
  S (match t with
     | NConcat _ l | NAlternate _ l =>
         (fix go (l : list node) : nat :=
            match l with [] => O | x :: l' => Nat.max (term_fuel_n tl x) (go l') end) l
     | NLoop _ _ m _ r => Nat.max (term_fuel_n tl r) (Z.to_nat m + tl + 2)
     | NCapture _ _ _ r | NGroup r | NPosLook _ r | NNegLook _ r | NAtomic r => term_fuel_n tl r
     | NBackRefCond _ _ y no =>
         Nat.max (term_fuel_n tl y) (match no with Some n => term_fuel_n tl n | None => O end)
     | NExprCond _ c y no =>
         Nat.max (term_fuel_n tl c)
           (Nat.max (term_fuel_n tl y) (match no with Some n => term_fuel_n tl n | None => O end))
     | _ => O
     end).

Definition term_fuel (e : env) (t : node) : nat := term_fuel_n (Z.to_nat (tlen e)) t.

Definition tm_fuel_list (tl : nat) (l : list node) : nat :=
  (fix go (l : list node) : nat :=
     match l with [] => O | x :: l' => Nat.max (term_fuel_n tl x) (go l') end) l.

Lemma tm_fuel_list_in tl : forall l x, In x l -> (term_fuel_n tl x <= tm_fuel_list tl l)%nat.
Proof.
  induction l as [|y l IH]; intros x Hin; [contradiction|].
  cbn [tm_fuel_list]. fold (tm_fuel_list tl l). destruct Hin as [->|Hin]; [lia|].
  specialize (IH x Hin). lia.
Qed.

(* the text length enters the bound additively: term_fuel e t <= (bound for the empty text) + tlen e;
   leg c01-frag reports the first summand for every exported tree *)
Lemma tm_fuel_text_additive tl : forall t, (term_fuel_n tl t <= term_fuel_n 0 t + tl)%nat.
Proof.
  induction t using node_ind'; cbn [term_fuel_n]; try lia.
  - fold (tm_fuel_list tl l). fold (tm_fuel_list 0 l).
    enough (tm_fuel_list tl l <= tm_fuel_list 0 l + tl)%nat by lia.
    induction H as [|x l Hx Hl IH]; cbn [tm_fuel_list]; [lia|].
    fold (tm_fuel_list tl l). fold (tm_fuel_list 0 l). lia.
  - fold (tm_fuel_list tl l). fold (tm_fuel_list 0 l).
    enough (tm_fuel_list tl l <= tm_fuel_list 0 l + tl)%nat by lia.
    induction H as [|x l Hx Hl IH]; cbn [tm_fuel_list]; [lia|].
    fold (tm_fuel_list tl l). fold (tm_fuel_list 0 l). lia.
  - destruct no as [n|]; cbn [opt_all] in H; lia.
  - destruct no as [n|]; cbn [opt_all] in H; lia.
Qed.

Corollary tm_fuel_in_range (e : env) t :
  Z.of_nat (term_fuel_n 0 t) + tlen e <= INF -> Z.of_nat (term_fuel e t) <= INF.
Proof.
  intros H. pose proof (tm_fuel_text_additive (Z.to_nat (tlen e)) t) as A.
  unfold term_fuel. assert (Z.of_nat (Z.to_nat (tlen e)) = tlen e) by (unfold tlen, zlen; lia). lia.
Qed.

(* Analysis.shape_ok (one direction for the whole tree) implies term_ok where no lookaround is *)

Lemma tm_forallb_impl (f g : node -> bool) l :
  Forall (fun x => f x = true -> g x = true) l -> forallb f l = true -> forallb g l = true.
Proof.
  induction 1 as [|x l Hx Hl IH]; cbn [forallb]; [reflexivity|].
  intros H. apply andb_prop in H. destruct H as [H1 H2]. rewrite (Hx H1), (IH H2). reflexivity.
Qed.

Lemma tm_shape_dir_ok (d : bool) : forall t, shape_ok d t = true -> tm_dir_ok d t = true.
Proof.
  induction t using node_ind'; cbn [shape_ok tm_dir_ok]; intros Hs; try reflexivity; try exact Hs.
  - apply andb_prop in Hs. destruct Hs as [Hs _]. apply andb_prop in Hs. destruct Hs as [Hs _]. exact Hs.
  - revert Hs. apply tm_forallb_impl. exact H.
  - destruct l as [|x l]; [discriminate Hs|]. revert Hs. apply tm_forallb_impl. exact H.
  - apply andb_prop in Hs. destruct Hs as [_ Hs]. apply IHt. exact Hs.
  - apply IHt. exact Hs.
  - apply IHt. exact Hs.
  - apply IHt. exact Hs.
  - apply andb_prop in Hs. destruct Hs as [H1 H2]. rewrite (IHt H1). cbn [andb].
    destruct no as [n|]; [|discriminate H2]. cbn [tm_opt opt_all] in *. apply H. exact H2.
  - apply andb_prop in Hs. destruct Hs as [H1 H2]. rewrite (IHt2 H1). cbn [andb].
    destruct no as [n|]; [|discriminate H2]. cbn [tm_opt opt_all] in *. apply H. exact H2.
Qed.

(* no lookaround and no expression conditional anywhere: the part of a tree on which shape_ok is silent *)
Fixpoint tm_look_free (t : node) : bool :=
  match t with
  | NConcat _ l | NAlternate _ l => forallb tm_look_free l
  | NLoop _ _ _ _ r | NCapture _ _ _ r | NGroup r | NAtomic r => tm_look_free r
  | NPosLook _ _ | NNegLook _ _ | NExprCond _ _ _ _ => false
  | NBackRefCond _ _ yes no => tm_look_free yes && tm_opt tm_look_free no
  | _ => true
  end.

Lemma tm_forallb_impl2 (f1 f2 g : node -> bool) l :
  Forall (fun x => f1 x = true -> f2 x = true -> g x = true) l ->
  forallb f1 l = true -> forallb f2 l = true -> forallb g l = true.
Proof.
  induction 1 as [|x l Hx Hl IH]; cbn [forallb]; [reflexivity|].
  intros H H'. apply andb_prop in H. destruct H as [H1 H2]. apply andb_prop in H'. destruct H' as [H1' H2'].
  rewrite (Hx H1 H1'), (IH H2 H2'). reflexivity.
Qed.

Lemma tm_shape_term_ok (d : bool) : forall t,
  shape_ok d t = true -> tm_look_free t = true -> term_ok t = true.
Proof.
  induction t using node_ind'; cbn [shape_ok tm_look_free term_ok]; intros Hs Hf; try reflexivity;
    try discriminate Hf.
  - apply andb_prop in Hs. destruct Hs as [Hs _]. apply andb_prop in Hs. destruct Hs as [_ Hs]. exact Hs.
  - revert Hs Hf. apply tm_forallb_impl2. exact H.
  - destruct l as [|x l]; [discriminate Hs|]. revert Hs Hf. apply tm_forallb_impl2. exact H.
  - apply andb_prop in Hs. destruct Hs as [_ Hs]. rewrite (IHt Hs Hf).
    pose proof (tm_shape_dir_ok d t Hs) as Hd. destruct d; rewrite Hd; cbn; rewrite ?orb_true_r; reflexivity.
  - apply IHt; assumption.
  - apply IHt; assumption.
  - apply IHt; assumption.
  - apply andb_prop in Hs. destruct Hs as [H1 H2]. apply andb_prop in Hf. destruct Hf as [F1 F2].
    rewrite (IHt H1 F1). cbn [andb].
    destruct no as [n|]; [|discriminate H2]. cbn [tm_opt opt_all] in *. apply H; assumption.
Qed.

(* term_ok contains the side condition of the bounds theorem *)
Lemma tm_term_min_ok : forall t, term_ok t = true -> loops_min_ok t.
Proof.
  unfold loops_min_ok.
  induction t using node_ind'; cbn [term_ok]; intros Hs; cbn [sb_all sb_min_ok];
    try (split; exact I); try (split; [lia|exact I]).
  - split; [exact I|]. induction H as [|x l Hx Hl IH]; [exact I|].
    cbn [forallb] in Hs. apply andb_prop in Hs. destruct Hs as [H1 H2]. split; [apply Hx; exact H1|apply IH; exact H2].
  - split; [exact I|]. induction H as [|x l Hx Hl IH]; [exact I|].
    cbn [forallb] in Hs. apply andb_prop in Hs. destruct Hs as [H1 H2]. split; [apply Hx; exact H1|apply IH; exact H2].
  - apply andb_prop in Hs. destruct Hs as [_ Hs]. split; [exact I|apply IHt; exact Hs].
  - split; [exact I|apply IHt; exact Hs].
  - split; [exact I|apply IHt; exact Hs].
  - split; [exact I|apply IHt; exact Hs].
  - split; [exact I|apply IHt; exact Hs].
  - split; [exact I|apply IHt; exact Hs].
  - apply andb_prop in Hs. destruct Hs as [H1 H2]. split; [exact I|]. split; [apply IHt; exact H1|].
    destruct no as [n|]; [|exact I]. cbn [tm_opt opt_all] in *. apply H. exact H2.
  - apply andb_prop in Hs. destruct Hs as [Hs H3]. apply andb_prop in Hs. destruct Hs as [H1 H2].
    split; [exact I|]. split; [apply IHt1; exact H1|]. split; [apply IHt2; exact H2|].
    destruct no as [n|]; [|exact I]. cbn [tm_opt opt_all] in *. apply H. exact H3.
Qed.

(* a one-directional tree never moves against its direction                                    *)

Section Dir.
Variable e : env.
Variable d : bool.

(* y is at or beyond s in direction d *)
Definition tm_adv (s y : st) : Prop := if d then pos y <= pos s else pos s <= pos y.
Definition tm_R (s y : st) : Prop := st_ok e s -> st_ok e y /\ tm_adv s y.

Lemma tm_R_refl s : tm_R s s.
Proof. intros Hs. split; [exact Hs|]. unfold tm_adv. destruct d; lia. Qed.

Lemma tm_R_trans a b c : tm_R a b -> tm_R b c -> tm_R a c.
Proof.
  intros Hab Hbc Ha. destruct (Hab Ha) as [Hb Aab]. destruct (Hbc Hb) as [Hc Abc].
  split; [exact Hc|]. unfold tm_adv in *. destruct d; lia.
Qed.

Lemma tm_R_intro s l :
  (st_ok e s -> Forall (st_ok e) l /\ Forall (tm_adv s) l) -> Forall (tm_R s) l.
Proof.
  intros H. apply Forall_forall. intros y Hy Hs. destruct (H Hs) as [F1 F2].
  rewrite Forall_forall in F1, F2. split; [apply F1|apply F2]; exact Hy.
Qed.

Lemma tm_leaf_adv f t s l :
  tm_dir_ok d t = true -> sb_min_ok t -> sb_leaf t = true -> st_ok e s ->
  sem e (S f) t s = Ok l -> Forall (tm_adv s) l.
Proof.
  intros Hd Hm Hl [Hp Hc] H.
  assert (Hself : tm_adv s s) by (unfold tm_adv; destruct d; lia).
  assert (Hone : forall x, tm_adv s x -> Forall (tm_adv s) [x]) by (intros x Hx; constructor; [exact Hx|constructor]).
  destruct t; cbn [sb_leaf] in Hl; try discriminate; cbn [sem] in H; injection H as <-; cbn [tm_dir_ok] in Hd;
    try apply eqb_prop in Hd.
  - (* NChar *)
    destruct ((0 <? avail e o (pos s)) && char_test e k c (next_char e o (pos s))); [|constructor].
    apply Hone. unfold tm_adv, dir. cbn [with_pos pos]. rewrite Hd. destruct d; lia.
  - (* NCharLoop *)
    cbn [sb_min_ok] in Hm. unfold sem_charloop.
    set (cap := if n =? INF then avail e o (pos s) else Z.min n (avail e o (pos s))).
    set (r := run_len e k c o (Z.to_nat cap) (pos s)).
    assert (Hj : forall j, m <= j -> tm_adv s (with_pos s (pos s + dir o * j))).
    { intros j Hjm. unfold tm_adv, dir. cbn [with_pos pos]. rewrite Hd. destruct d; lia. }
    destruct (r <? m) eqn:Erm; [constructor|].
    destruct l0.
    + apply Forall_forall. intros x Hx. apply in_map_iff in Hx. destruct Hx as (j & <- & Hin).
      apply count_down_in in Hin. apply Hj. lia.
    + apply Forall_forall. intros x Hx. apply in_map_iff in Hx. destruct Hx as (j & <- & Hin).
      apply count_up_in in Hin. apply Hj. lia.
    + apply Hone, Hj. lia.
  - (* NMulti *)
    unfold sem_multi. destruct (avail e o (pos s) <? zlen s0); [constructor|].
    destruct (str_match_at _ _ _ _); [|constructor].
    apply Hone. pose proof (Zle_0_nat (length s0)). unfold tm_adv, dir, zlen in *. cbn [with_pos pos].
    rewrite Hd. destruct d; lia.
  - (* NRef *)
    unfold sem_ref. pose proof (sb_caps_ok_get e g (caps s) Hc) as Fg.
    destruct (cap_get g (caps s)) as [|[i len] rest].
    + destruct (ecma e); [apply Hone; exact Hself|constructor].
    + inversion Fg as [|? ? Hiv _]; subst. unfold sb_iv_ok in Hiv. cbn [fst snd] in Hiv.
      destruct (avail e o (pos s) <? len); [constructor|].
      destruct (ref_match_at _ _ _ _ _); [|constructor].
      apply Hone. unfold tm_adv, dir. cbn [with_pos pos]. rewrite Hd. destruct d; lia.
  - destruct (anchor_ok e a (pos s)); [apply Hone; exact Hself|constructor].
  - constructor.
  - apply Hone; exact Hself.
  - apply Hone; exact Hself.
Qed.

Lemma tm_same_pos_R s y : (st_ok e s -> st_ok e y) -> pos y = pos s -> tm_R s y.
Proof. intros H Hp Hs. split; [apply H; exact Hs|]. unfold tm_adv. rewrite Hp. destruct d; lia. Qed.

Theorem tm_sem_rel : forall fuel t s l,
  tm_dir_ok d t = true -> loops_min_ok t -> sem e fuel t s = Ok l -> Forall (tm_R s) l.
Proof.
  induction fuel as [|f IH]; intros t s l Hd HP H; [discriminate H|].
  pose proof (sb_all_here sb_min_ok t HP) as Ht.
  pose proof (fun Hs => sb_sem_in_bounds e (S f) t s l HP H Hs) as Hin.
  destruct t as [kd o c|kd lk o c m n|o str|o g|a| | | |o cl|o cl|lazy o m n r|o g u r|r|o r|o r|r
                |o g yes no|o c yes no];
    try (apply tm_R_intro; intros Hs; split; [exact (Hin Hs)|exact (tm_leaf_adv f _ s l Hd Ht eq_refl Hs H)]);
    cbn [sem] in H; unfold loops_min_ok in HP; cbn [sb_all] in HP; cbn [tm_dir_ok] in Hd; clear Hin.
  - (* NConcat *)
    destruct HP as [_ HP]. clear Ht. revert s l H. induction cl as [|x cl IHl]; intros s l H.
    + injection H as <-. constructor; [apply tm_R_refl|constructor].
    + destruct HP as [Hx Hcl]. cbn [forallb] in Hd. apply andb_prop in Hd. destruct Hd as [Hdx Hdl].
      revert H. apply (sb_bindr_rel tm_R tm_R_trans).
      * intros la. apply IH; assumption.
      * intros a l'. apply IHl; assumption.
  - (* NAlternate *)
    destruct HP as [_ HP]. clear Ht. revert l H. induction cl as [|x cl IHl]; intros l H.
    + injection H as <-. constructor.
    + destruct HP as [Hx Hcl]. cbn [forallb] in Hd. apply andb_prop in Hd. destruct Hd as [Hdx Hdl].
      revert H. apply sb_appr_rel.
      * intros la. apply IH; assumption.
      * intros y. apply IHl; assumption.
  - (* NLoop *)
    destruct HP as [_ HP].
    assert (HI : forall lazy limit s mark count l,
               iter f (sem e f r) lazy limit s mark count = Ok l -> Forall (tm_R s) l).
    { apply (sb_iter_rel tm_R tm_R_refl tm_R_trans). intros s0 l0. apply IH; assumption. }
    destruct (m =? 0); [exact (HI _ _ _ _ _ _ H)|].
    revert H. apply (sb_bindr_rel tm_R tm_R_trans); [intros la; apply IH; assumption|].
    intros a l'. apply HI.
  - (* NCapture: st_ok of the results by the bounds theorem of the whole node, the position is the body's *)
    assert (HPn : loops_min_ok (NCapture o g u r)) by (unfold loops_min_ok; cbn [sb_all]; exact HP).
    destruct HP as [_ HP].
    assert (Hsem : sem e (S f) (NCapture o g u r) s = Ok l) by exact H.
    apply tm_R_intro. intros Hs. split; [exact (sb_sem_in_bounds e (S f) _ s l HPn Hsem Hs)|].
    clear Hsem HPn.
    assert (G : forall la, sem e f r s = Ok la -> Forall (tm_adv s) la).
    { intros la Hla. pose proof (IH r s la Hd HP Hla) as F. eapply Forall_impl; [|exact F].
      intros y Hy. exact (proj2 (Hy Hs)). }
    destruct (u =? -1).
    + apply sp_bindr_ok in H. destruct H as [la [Hla H]]. apply sb_bindl_singleton in H. subst l.
      pose proof (G la Hla) as F. apply Forall_forall. intros y Hy. apply in_map_iff in Hy.
      destruct Hy as (x & <- & Hx). rewrite Forall_forall in F. exact (F x Hx).
    + apply sp_bindr_ok in H. destruct H as [la [Hla H]].
      pose proof (G la Hla) as F. rewrite Forall_forall in F.
      eapply sb_bindl_forall; [|exact H]. intros x l' Hx Hl'. cbv beta in Hl'.
      destruct (cap_get u (caps x)) as [|top rest]; injection Hl' as <-; [constructor|].
      constructor; [|constructor]. exact (F x Hx).
  - (* NGroup *) destruct HP as [_ HP]. exact (IH _ _ _ Hd HP H).
  - (* NPosLook *)
    assert (HPn : loops_min_ok (NPosLook o r)) by (unfold loops_min_ok; cbn [sb_all]; exact HP).
    assert (Hsem : sem e (S f) (NPosLook o r) s = Ok l) by exact H.
    apply sp_bind_ok in H. destruct H as [l1 [H1 H]]. injection H as <-.
    apply tm_R_intro. intros Hs. split; [exact (sb_sem_in_bounds e (S f) _ s _ HPn Hsem Hs)|].
    apply Forall_forall. intros y Hy. apply in_map_iff in Hy. destruct Hy as (x & <- & _).
    unfold tm_adv. cbn [with_pos pos]. destruct d; lia.
  - (* NNegLook *)
    apply sp_bind_ok in H. destruct H as [l1 [H1 H]]. injection H as <-.
    destruct l1; constructor; [apply tm_R_refl|constructor].
  - (* NAtomic *)
    destruct HP as [_ HP]. revert H. apply sb_first_only_rel. intros x. apply IH; assumption.
  - (* NBackRefCond *)
    destruct HP as [_ [Hy Hn]]. apply andb_prop in Hd. destruct Hd as [Hdy Hdn].
    destruct (is_matched g (caps s)); [exact (IH _ _ _ Hdy Hy H)|].
    destruct no as [n|]; [exact (IH _ _ _ Hdn Hn H)|].
    injection H as <-. constructor; [apply tm_R_refl|constructor].
  - (* NExprCond *)
    destruct HP as [_ [Hc [Hy Hn]]]. apply andb_prop in Hd. destruct Hd as [Hdy Hdn].
    apply sp_bind_ok in H. destruct H as [l1 [H1 H]].
    apply sp_first_only_ok in H1. destruct H1 as (l0 & H0 & ->).
    destruct l0 as [|s' l0].
    + destruct no as [n|]; [exact (IH _ _ _ Hdn Hn H)|].
      injection H as <-. constructor; [apply tm_R_refl|constructor].
    + apply (sb_forall_trans tm_R tm_R_trans) with (a := with_pos s' (pos s)).
      * apply tm_same_pos_R; [|reflexivity]. intros Hs.
        pose proof (sb_sem_in_bounds e f c s _ Hc H0 Hs) as F. inversion F as [|? ? [_ Hc'] _]; subst.
        destruct Hs as [Hp _]. split; [exact Hp|exact Hc'].
      * exact (IH _ _ _ Hdy Hy H).
Qed.

Corollary tm_dir_mono fuel t s l :
  tm_dir_ok d t = true -> loops_min_ok t -> st_ok e s -> sem e fuel t s = Ok l ->
  Forall (fun y => st_ok e y /\ tm_adv s y) l.
Proof.
  intros Hd HP Hs H. pose proof (tm_sem_rel fuel t s l Hd HP H) as F.
  eapply Forall_impl; [|exact F]. intros y Hy. exact (Hy Hs).
Qed.

End Dir.

Lemma tm_bindl_total {A B} (f : A -> res (list B)) : forall la,
  (forall a, In a la -> exists l, f a = Ok l) -> exists l, bindl la f = Ok l.
Proof.
  induction la as [|a la IH]; intros H; cbn [bindl]; [eexists; reflexivity|].
  destruct (H a (or_introl eq_refl)) as [x Hx].
  destruct IH as [y Hy]; [intros a' Ha'; apply H; right; exact Ha'|].
  rewrite Hx, Hy. cbn [bind]. eexists; reflexivity.
Qed.

Lemma tm_bindr_total {A B} (r : res (list A)) (f : A -> res (list B)) la :
  r = Ok la -> (forall a, In a la -> exists l, f a = Ok l) -> exists l, bindr r f = Ok l.
Proof. intros -> H. unfold bindr. cbn [bind]. apply tm_bindl_total. exact H. Qed.

Lemma tm_appr_total {A} (a b : res (list A)) :
  (exists x, a = Ok x) -> (exists y, b = Ok y) -> exists l, appr a b = Ok l.
Proof. intros [x ->] [y ->]. unfold appr. cbn [bind]. eexists; reflexivity. Qed.

Lemma tm_first_only_total {A} (r : res (list A)) : (exists x, r = Ok x) -> exists l, first_only r = Ok l.
Proof. intros [x ->]. unfold first_only. cbn [bind]. eexists; reflexivity. Qed.

(* named forms of the two local fixpoints of [sem] *)
Definition tm_seq (e : env) (f : nat) : list node -> st -> res (list st) :=
  fix seq (l : list node) (s : st) : res (list st) :=
    match l with [] => Ok [s] | x :: l' => bindr (sem e f x s) (seq l') end.
Definition tm_alt (e : env) (f : nat) (s : st) : list node -> res (list st) :=
  fix alt (l : list node) : res (list st) :=
    match l with [] => Ok [] | x :: l' => appr (sem e f x s) (alt l') end.

Lemma tm_sem_concat e f o l s : sem e (S f) (NConcat o l) s = tm_seq e f l s.
Proof. reflexivity. Qed.
Lemma tm_sem_alt e f o l s : sem e (S f) (NAlternate o l) s = tm_alt e f s l.
Proof. reflexivity. Qed.
Lemma tm_sem_loop e f lazy o m n r s :
  sem e (S f) (NLoop lazy o m n r) s =
  (if m =? 0 then iter f (sem e f r) lazy (if n =? INF then INF else n - m) s (-1) 0
   else bindr (sem e f r s)
          (fun s' => iter f (sem e f r) lazy (if n =? INF then INF else n - m) s' (pos s) (1 - m))).
Proof. reflexivity. Qed.

(* A. the loop under a one-directional body                                                    *)

Section IterTotal.
Variable e : env.
Variable d : bool.
Variable body : st -> res (list st).
Hypothesis Hbody : forall s, st_ok e s -> exists l, body s = Ok l /\ Forall (fun y => st_ok e y /\ tm_adv d s y) l.

(* room left in direction d *)
Definition tm_rem (s : st) : Z := if d then pos s else tlen e - pos s.

(* past the minimum: an iteration that does not move ends the loop, one that moves uses up room *)
Lemma tm_iter_total_nonneg : forall fuel lazy limit s mark count,
  0 <= count -> st_ok e s ->
  (1 <= fuel)%nat -> (pos s <> mark -> tm_rem s + 2 <= Z.of_nat fuel) ->
  exists l, iter fuel body lazy limit s mark count = Ok l.
Proof.
  induction fuel as [|f IH]; intros lazy limit s mark count Hc Hs H1 Hf; [lia|].
  cbn [iter].
  assert (Hagain : pos s <> mark -> exists la,
    bindr (body s) (fun s' => iter f body lazy limit s' (pos s) (count + 1)) = Ok la).
  { intros Hne. specialize (Hf Hne). destruct (Hbody s Hs) as (lb & Hlb & F).
    apply (tm_bindr_total _ _ lb Hlb). intros a Ha. rewrite Forall_forall in F.
    destruct (F a Ha) as [Hoka Hadv].
    assert (Hr : 0 <= tm_rem s) by (unfold tm_rem; destruct Hs as [Hp _]; destruct d; lia).
    apply IH; [lia|exact Hoka|lia|].
    intros Hne2. unfold tm_rem, tm_adv in *. destruct d; lia. }
  destruct lazy.
  - replace (count <? 0) with false by lia.
    apply tm_appr_total; [eexists; reflexivity|].
    destruct (count <? limit); cbn [andb]; [|eexists; reflexivity].
    destruct (pos s =? mark) eqn:E; cbn [negb]; [eexists; reflexivity|]. apply Hagain. lia.
  - destruct ((limit <=? count) || ((pos s =? mark) && (0 <=? count))) eqn:E; [eexists; reflexivity|].
    apply tm_appr_total; [|eexists; reflexivity]. apply Hagain. lia.
Qed.

(* before the minimum every iteration runs, whatever it consumes *)
Lemma tm_iter_total : forall fuel lazy limit s mark count,
  st_ok e s -> Z.max 0 (- count) + tlen e + 2 <= Z.of_nat fuel ->
  exists l, iter fuel body lazy limit s mark count = Ok l.
Proof.
  induction fuel as [|f IH]; intros lazy limit s mark count Hs Hf.
  { destruct Hs as [Hp _]. lia. }
  destruct (Z_lt_le_dec count 0) as [Hneg|Hpos].
  2:{ apply tm_iter_total_nonneg; [exact Hpos|exact Hs|lia|].
      intros _. unfold tm_rem. destruct Hs as [Hp _]. destruct d; lia. }
  cbn [iter].
  assert (Hagain : exists la,
    bindr (body s) (fun s' => iter f body lazy limit s' (pos s) (count + 1)) = Ok la).
  { destruct (Hbody s Hs) as (lb & Hlb & F).
    apply (tm_bindr_total _ _ lb Hlb). intros a Ha. rewrite Forall_forall in F.
    destruct (F a Ha) as [Hoka _]. apply IH; [exact Hoka|lia]. }
  destruct lazy.
  - replace (count <? 0) with true by lia. exact Hagain.
  - destruct ((limit <=? count) || ((pos s =? mark) && (0 <=? count))); [eexists; reflexivity|].
    apply tm_appr_total; [exact Hagain|eexists; reflexivity].
Qed.

End IterTotal.

(* A. the main theorem                                                                         *)

Section Total.
Variable e : env.

Definition tm_P (t : node) : Prop :=
  term_ok t = true -> forall f, (term_fuel e t <= f)%nat -> forall s, st_ok e s ->
  exists l, sem e f t s = Ok l.

Lemma tm_tlen_nat : Z.of_nat (Z.to_nat (tlen e)) = tlen e.
Proof. unfold tlen, zlen. lia. Qed.

Lemma tm_total_all : forall t, tm_P t.
Proof.
  induction t using node_ind'; unfold tm_P; intros Hok f Hf q Hq;
    unfold term_fuel in Hf; cbn [term_fuel_n] in Hf;
    (destruct f as [|f]; [lia|]); try (cbn [sem]; eexists; reflexivity).
  - (* NConcat *)
    rewrite tm_sem_concat. cbn [term_ok] in Hok. fold (tm_fuel_list (Z.to_nat (tlen e)) l) in Hf.
    assert (Hfl : forall x, In x l -> (term_fuel e x <= f)%nat).
    { intros x Hx. pose proof (tm_fuel_list_in (Z.to_nat (tlen e)) l x Hx). unfold term_fuel. lia. }
    clear Hf. revert q Hq. induction H as [|x l Hx Hl IHl]; intros q Hq; cbn [tm_seq]; [eexists; reflexivity|].
    cbn [forallb] in Hok. apply andb_prop in Hok. destruct Hok as [Hokx Hokl].
    destruct (Hx Hokx f (Hfl x (or_introl eq_refl)) q Hq) as [la Hla].
    apply (tm_bindr_total _ _ la Hla). intros a Ha.
    pose proof (sb_sem_in_bounds e f x q la (tm_term_min_ok x Hokx) Hla Hq) as F. rewrite Forall_forall in F.
    apply IHl; [exact Hokl|intros y Hy; apply Hfl; right; exact Hy|apply F; exact Ha].
  - (* NAlternate *)
    rewrite tm_sem_alt. cbn [term_ok] in Hok. fold (tm_fuel_list (Z.to_nat (tlen e)) l) in Hf.
    assert (Hfl : forall x, In x l -> (term_fuel e x <= f)%nat).
    { intros x Hx. pose proof (tm_fuel_list_in (Z.to_nat (tlen e)) l x Hx). unfold term_fuel. lia. }
    clear Hf. induction H as [|x l Hx Hl IHl]; cbn [tm_alt]; [eexists; reflexivity|].
    cbn [forallb] in Hok. apply andb_prop in Hok. destruct Hok as [Hokx Hokl].
    apply tm_appr_total; [exact (Hx Hokx f (Hfl x (or_introl eq_refl)) q Hq)|].
    apply IHl; [exact Hokl|intros y Hy; apply Hfl; right; exact Hy].
  - (* NLoop *)
    rewrite tm_sem_loop. cbn [term_ok] in Hok. apply andb_prop in Hok. destruct Hok as [Hdir Hokr].
    assert (Hfr : (term_fuel e t <= f)%nat) by (unfold term_fuel; lia).
    assert (Hfi : Z.max 0 m + tlen e + 2 <= Z.of_nat f) by (pose proof tm_tlen_nat; lia).
    assert (Hd : exists d, tm_dir_ok d t = true).
    { destruct (tm_dir_ok false t) eqn:E; [exists false; exact E|exists true; exact Hdir]. }
    destruct Hd as [d Hd].
    assert (Hbody : forall s0, st_ok e s0 ->
              exists l0, sem e f t s0 = Ok l0 /\ Forall (fun y => st_ok e y /\ tm_adv d s0 y) l0).
    { intros s0 Hs0. destruct (IHt Hokr f Hfr s0 Hs0) as [l0 Hl0]. exists l0. split; [exact Hl0|].
      exact (tm_dir_mono e d f t s0 l0 Hd (tm_term_min_ok t Hokr) Hs0 Hl0). }
    destruct (m =? 0) eqn:Em.
    + apply (tm_iter_total e d (sem e f t) Hbody); [exact Hq|lia].
    + destruct (Hbody q Hq) as (la & Hla & F). apply (tm_bindr_total _ _ la Hla). intros a Ha.
      rewrite Forall_forall in F. destruct (F a Ha) as [Hoka _].
      apply (tm_iter_total e d (sem e f t) Hbody); [exact Hoka|lia].
  - (* NCapture *)
    cbn [sem]. cbn [term_ok] in Hok. destruct (IHt Hok f ltac:(unfold term_fuel; lia) q Hq) as [la Hla].
    destruct (u =? -1); apply (tm_bindr_total _ _ la Hla); intros a Ha; [eexists; reflexivity|].
    destruct (cap_get u (caps a)); eexists; reflexivity.
  - (* NGroup *) cbn [sem]. cbn [term_ok] in Hok. exact (IHt Hok f ltac:(unfold term_fuel; lia) q Hq).
  - (* NPosLook *)
    cbn [sem]. cbn [term_ok] in Hok. destruct (IHt Hok f ltac:(unfold term_fuel; lia) q Hq) as [la Hla].
    rewrite Hla. unfold first_only. cbn [bind]. eexists; reflexivity.
  - (* NNegLook *)
    cbn [sem]. cbn [term_ok] in Hok. destruct (IHt Hok f ltac:(unfold term_fuel; lia) q Hq) as [la Hla].
    rewrite Hla. cbn [bind]. eexists; reflexivity.
  - (* NAtomic *)
    cbn [sem]. cbn [term_ok] in Hok. apply tm_first_only_total.
    exact (IHt Hok f ltac:(unfold term_fuel; lia) q Hq).
  - (* NBackRefCond *)
    cbn [sem]. cbn [term_ok] in Hok. apply andb_prop in Hok. destruct Hok as [Hoky Hokn].
    destruct (is_matched g (caps q)); [exact (IHt Hoky f ltac:(unfold term_fuel; lia) q Hq)|].
    destruct no as [n|]; [|eexists; reflexivity]. cbn [opt_all tm_opt] in *.
    exact (H Hokn f ltac:(unfold term_fuel; lia) q Hq).
  - (* NExprCond *)
    cbn [sem]. cbn [term_ok] in Hok. apply andb_prop in Hok. destruct Hok as [Hok Hokn].
    apply andb_prop in Hok. destruct Hok as [Hokc Hoky].
    destruct (IHt1 Hokc f ltac:(unfold term_fuel; lia) q Hq) as [lc Hlc].
    rewrite Hlc. unfold first_only. cbn [bind].
    pose proof (sb_sem_in_bounds e f t1 q lc (tm_term_min_ok t1 Hokc) Hlc Hq) as F.
    destruct lc as [|q' lc].
    + destruct no as [n|]; [|eexists; reflexivity]. cbn [opt_all tm_opt] in *.
      exact (H Hokn f ltac:(unfold term_fuel; lia) q Hq).
    + apply (IHt2 Hoky f ltac:(unfold term_fuel; lia)).
      inversion F as [|? ? [_ Hc'] _]; subst. destruct Hq as [Hp _]. split; [exact Hp|exact Hc'].
Qed.

(* every tree with one-directional loop bodies, every in-range state: the list-valued reference
   semantics answers with fuel [term_fuel e t], hence with any larger fuel *)
Theorem spec_sem_total : forall t s,
  term_ok t = true -> st_ok e s ->
  forall fuel, (term_fuel e t <= fuel)%nat -> exists l, sem e fuel t s = Ok l.
Proof. intros t s Hok Hs fuel Hf. exact (tm_total_all t Hok fuel Hf s Hs). Qed.

Corollary spec_sem_total_stable : forall t s,
  term_ok t = true -> st_ok e s ->
  exists l, forall fuel, (term_fuel e t <= fuel)%nat -> sem e fuel t s = Ok l.
Proof.
  intros t s Hok Hs. destruct (spec_sem_total t s Hok Hs (term_fuel e t) (Nat.le_refl _)) as [l Hl].
  exists l. intros fuel Hf. exact (spec_sem_fuel_mono e _ _ Hf t s l Hl).
Qed.

End Total.

(* B. attempt / find and their continuation-passing versions                                   *)

Section Search.
Variable e : env.

Theorem spec_attempt_total : forall root p,
  term_ok root = true -> 0 <= p <= tlen e ->
  forall fuel, (term_fuel e root <= fuel)%nat ->
  exists r, attempt e fuel root p = Ok r /\ attemptk e fuel root p = Ok r.
Proof.
  intros root p Hok Hp fuel Hf.
  destruct (spec_sem_total e root _ Hok (sb_init_ok e p Hp) fuel Hf) as [l Hl].
  assert (Ha : attempt e fuel root p = Ok (match l with [] => None | s :: _ => Some s end)).
  { unfold attempt. rewrite Hl. reflexivity. }
  eexists. split; [exact Ha|]. apply attemptk_attempt. exact Ha.
Qed.

Lemma tm_scan_total root (rtl : bool) fuel :
  term_ok root = true -> (term_fuel e root <= fuel)%nat ->
  forall n p, 0 <= p <= tlen e -> exists r, scan_from e fuel n root rtl p = Ok r.
Proof.
  intros Hok Hf. induction n as [|n IH]; intros p Hp; cbn [scan_from]; [eexists; reflexivity|].
  destruct (spec_attempt_total root p Hok Hp fuel Hf) as (r & Hr & _). rewrite Hr. cbn [bind].
  destruct r as [s|]; [eexists; reflexivity|].
  destruct (if rtl then p <=? 0 else tlen e <=? p) eqn:E; [eexists; reflexivity|].
  apply IH. destruct rtl; lia.
Qed.

Theorem spec_find_total : forall root (rtl : bool) start prevlen,
  term_ok root = true -> 0 <= start <= tlen e ->
  forall fuel, (term_fuel e root <= fuel)%nat ->
  exists r, find e fuel root rtl start prevlen = Ok r /\ findk e fuel root rtl start prevlen = Ok r.
Proof.
  intros root rtl start prevlen Hok Hs fuel Hf.
  assert (Hfind : exists r, find e fuel root rtl start prevlen = Ok r).
  { unfold find.
    destruct ((prevlen =? 0) && (start =? (if rtl then 0 else tlen e))) eqn:E; [eexists; reflexivity|].
    apply (tm_scan_total root rtl fuel Hok Hf). destruct (prevlen =? 0), rtl; cbn [andb] in E; lia. }
  destruct Hfind as [r Hr]. exists r. split; [exact Hr|]. apply findk_find. exact Hr.
Qed.

End Search.

(* C. without any side condition: the loop also COUNTS, so it stops -- but only after          *)
(*    limit - count iterations, of the order of 2^31 when n = INF                              *)

Definition tm_loop_iters (m n : Z) : nat :=
  let limit := if n =? INF then INF else n - m in
  let c0 := if m =? 0 then 0 else 1 - m in
  Z.to_nat (Z.max 0 (limit - c0) + Z.max 0 (- c0) + 1).

Fixpoint term_fuel_any (t : node) : nat :=
  S (match t with
     | NConcat _ l | NAlternate _ l =>
         (fix go (l : list node) : nat :=
            match l with [] => O | x :: l' => Nat.max (term_fuel_any x) (go l') end) l
     | NLoop _ _ m n r => Nat.max (term_fuel_any r) (tm_loop_iters m n)
     | NCapture _ _ _ r | NGroup r | NPosLook _ r | NNegLook _ r | NAtomic r => term_fuel_any r
     | NBackRefCond _ _ y no =>
         Nat.max (term_fuel_any y) (match no with Some n => term_fuel_any n | None => O end)
     | NExprCond _ c y no =>
         Nat.max (term_fuel_any c)
           (Nat.max (term_fuel_any y) (match no with Some n => term_fuel_any n | None => O end))
     | _ => O
     end).

Definition tm_fuel_any_list (l : list node) : nat :=
  (fix go (l : list node) : nat :=
     match l with [] => O | x :: l' => Nat.max (term_fuel_any x) (go l') end) l.

Lemma tm_fuel_any_list_in : forall l x, In x l -> (term_fuel_any x <= tm_fuel_any_list l)%nat.
Proof.
  induction l as [|y l IH]; intros x Hin; [contradiction|].
  cbn [tm_fuel_any_list]. fold (tm_fuel_any_list l). destruct Hin as [->|Hin]; [lia|].
  specialize (IH x Hin). lia.
Qed.

Lemma tm_iter_count_total (body : st -> res (list st)) :
  (forall s, exists l, body s = Ok l) ->
  forall fuel lazy limit s mark count,
    Z.max 0 (limit - count) + Z.max 0 (- count) + 1 <= Z.of_nat fuel ->
    exists l, iter fuel body lazy limit s mark count = Ok l.
Proof.
  intros Hbody. induction fuel as [|f IH]; intros lazy limit s mark count Hf; [lia|].
  cbn [iter].
  assert (Hagain : count < 0 \/ count < limit -> exists la,
    bindr (body s) (fun s' => iter f body lazy limit s' (pos s) (count + 1)) = Ok la).
  { intros Hc. destruct (Hbody s) as [lb Hlb]. apply (tm_bindr_total _ _ lb Hlb). intros a _. apply IH. lia. }
  destruct lazy.
  - destruct (count <? 0) eqn:Ec; [apply Hagain; lia|].
    apply tm_appr_total; [eexists; reflexivity|].
    destruct (count <? limit) eqn:El; cbn [andb]; [|eexists; reflexivity].
    destruct (negb (pos s =? mark)); [apply Hagain; lia|eexists; reflexivity].
  - destruct ((limit <=? count) || ((pos s =? mark) && (0 <=? count))) eqn:E; [eexists; reflexivity|].
    apply tm_appr_total; [|eexists; reflexivity]. apply Hagain. lia.
Qed.

Theorem spec_sem_total_any (e : env) : forall t fuel, (term_fuel_any t <= fuel)%nat ->
  forall s, exists l, sem e fuel t s = Ok l.
Proof.
  induction t using node_ind'; intros f Hf q; cbn [term_fuel_any] in Hf;
    (destruct f as [|f]; [lia|]); try (cbn [sem]; eexists; reflexivity).
  - (* NConcat *)
    rewrite tm_sem_concat. fold (tm_fuel_any_list l) in Hf.
    assert (Hfl : forall x, In x l -> (term_fuel_any x <= f)%nat).
    { intros x Hx. pose proof (tm_fuel_any_list_in l x Hx). lia. }
    clear Hf. revert q. induction H as [|x l Hx Hl IHl]; intros q; cbn [tm_seq]; [eexists; reflexivity|].
    destruct (Hx f (Hfl x (or_introl eq_refl)) q) as [la Hla].
    apply (tm_bindr_total _ _ la Hla). intros a _. apply IHl. intros y Hy. apply Hfl. right. exact Hy.
  - (* NAlternate *)
    rewrite tm_sem_alt. fold (tm_fuel_any_list l) in Hf.
    assert (Hfl : forall x, In x l -> (term_fuel_any x <= f)%nat).
    { intros x Hx. pose proof (tm_fuel_any_list_in l x Hx). lia. }
    clear Hf. induction H as [|x l Hx Hl IHl]; cbn [tm_alt]; [eexists; reflexivity|].
    apply tm_appr_total; [exact (Hx f (Hfl x (or_introl eq_refl)) q)|].
    apply IHl. intros y Hy. apply Hfl. right. exact Hy.
  - (* NLoop *)
    rewrite tm_sem_loop.
    assert (Hbody : forall s0, exists l0, sem e f t s0 = Ok l0) by (intros s0; apply IHt; lia).
    assert (Hfi : (tm_loop_iters m n <= f)%nat) by lia. unfold tm_loop_iters in Hfi. cbv zeta in Hfi.
    destruct (m =? 0) eqn:Em.
    + apply (tm_iter_count_total _ Hbody). lia.
    + destruct (Hbody q) as [la Hla]. apply (tm_bindr_total _ _ la Hla). intros a _.
      apply (tm_iter_count_total _ Hbody). lia.
  - (* NCapture *)
    cbn [sem]. destruct (IHt f ltac:(lia) q) as [la Hla].
    destruct (u =? -1); apply (tm_bindr_total _ _ la Hla); intros a Ha; [eexists; reflexivity|].
    destruct (cap_get u (caps a)); eexists; reflexivity.
  - (* NGroup *) cbn [sem]. exact (IHt f ltac:(lia) q).
  - (* NPosLook *)
    cbn [sem]. destruct (IHt f ltac:(lia) q) as [la Hla].
    rewrite Hla. unfold first_only. cbn [bind]. eexists; reflexivity.
  - (* NNegLook *)
    cbn [sem]. destruct (IHt f ltac:(lia) q) as [la Hla]. rewrite Hla. cbn [bind]. eexists; reflexivity.
  - (* NAtomic *) cbn [sem]. apply tm_first_only_total. exact (IHt f ltac:(lia) q).
  - (* NBackRefCond *)
    cbn [sem]. destruct (is_matched g (caps q)); [exact (IHt f ltac:(lia) q)|].
    destruct no as [n|]; [|eexists; reflexivity]. cbn [opt_all] in *. exact (H f ltac:(lia) q).
  - (* NExprCond *)
    cbn [sem]. destruct (IHt1 f ltac:(lia) q) as [lc Hlc]. rewrite Hlc. unfold first_only. cbn [bind].
    destruct lc as [|s' lc].
    + destruct no as [n|]; [|eexists; reflexivity]. cbn [opt_all] in *. exact (H f ltac:(lia) q).
    + apply (IHt2 f ltac:(lia)).
Qed.

(* the unconditional search: every tree, every text, every start offset *)
Theorem spec_find_total_any (e : env) : forall root (rtl : bool) start prevlen fuel,
  (term_fuel_any root <= fuel)%nat ->
  exists r, find e fuel root rtl start prevlen = Ok r /\ findk e fuel root rtl start prevlen = Ok r.
Proof.
  intros root rtl start prevlen fuel Hf.
  assert (Hatt : forall p, exists r, attempt e fuel root p = Ok r).
  { intros p. unfold attempt. destruct (spec_sem_total_any e root fuel Hf {| pos := p; caps := [] |}) as [l Hl].
    rewrite Hl. cbn [bind]. eexists; reflexivity. }
  assert (Hscan : forall n p, exists r, scan_from e fuel n root rtl p = Ok r).
  { induction n as [|n IH]; intros p; cbn [scan_from]; [eexists; reflexivity|].
    destruct (Hatt p) as [r Hr]. rewrite Hr. cbn [bind]. destruct r as [s|]; [eexists; reflexivity|].
    destruct (if rtl then p <=? 0 else tlen e <=? p); [eexists; reflexivity|apply IH]. }
  assert (Hfind : exists r, find e fuel root rtl start prevlen = Ok r).
  { unfold find. destruct ((prevlen =? 0) && (start =? (if rtl then 0 else tlen e))); [eexists; reflexivity|].
    apply Hscan. }
  destruct Hfind as [r Hr]. exists r. split; [exact Hr|]. apply findk_find. exact Hr.
Qed.

(* why shape_ok is not enough: an oscillating loop body inside a lookaround                    *)

Definition tm_demo_env (t : list Z) : env :=
  {| txt := t; tstart := 0; ecma := false; endz_strict := false; set_in := fun _ _ => false;
     lower := fun x => x; is_word := fun _ => false; is_eword := fun _ => false |}.

(* (?(1) <right-to-left a> (?<-1>) | <left-to-right a> (?<1>) ): moves right and sets group 1 when it is
   unset, moves left and unsets it when it is set *)
Definition tm_osc_body : node :=
  NBackRefCond 0 1
    (NConcat 0 [NChar COne 64 97; NCapture 0 (-1) 1 NEmpty])
    (Some (NConcat 0 [NChar COne 0 97; NCapture 0 1 (-1) NEmpty])).
Definition tm_osc_loop : node := NLoop false 0 0 INF tm_osc_body.
Definition tm_osc_tree : node := NPosLook 0 tm_osc_loop.

Definition tm_osc_s0 : st := {| pos := 0; caps := [] |}.
Definition tm_osc_A : st := {| pos := 1; caps := [(1, [(1, 0)])] |}.
Definition tm_osc_B : st := {| pos := 0; caps := [(1, [])] |}.

(* Analysis.shape_ok accepts it in either direction (nothing is asked inside a lookaround); the loop
   body is in neither direction *)
Example tm_osc_shape :
  shape_ok false tm_osc_tree = true /\ shape_ok true tm_osc_tree = true /\
  tm_dir_ok false tm_osc_body = false /\ tm_dir_ok true tm_osc_body = false /\
  term_ok tm_osc_tree = false.
Proof. vm_compute. repeat split; reflexivity. Qed.

Lemma tm_osc_body_steps (s s' : st) :
  (forall f, (f < 4)%nat -> sem (tm_demo_env [97]) f tm_osc_body s = Fuel) ->
  sem (tm_demo_env [97]) 4 tm_osc_body s = Ok [s'] ->
  forall f, sem (tm_demo_env [97]) f tm_osc_body s = Fuel \/ sem (tm_demo_env [97]) f tm_osc_body s = Ok [s'].
Proof.
  intros Hlow H4 f. destruct (le_lt_dec 4 f) as [Hle|Hlt].
  - right. exact (spec_sem_fuel_mono _ 4 f Hle _ _ _ H4).
  - left. apply Hlow. exact Hlt.
Qed.

Ltac tm_osc_steps :=
  apply tm_osc_body_steps;
  [intros f0 Hf0; destruct f0 as [|[|[|[|f0]]]]; [vm_compute; reflexivity ..|lia]|vm_compute; reflexivity].

(* the two states alternate for ever; only the iteration counter reaching INF could stop the loop *)
Lemma tm_osc_iter (body : st -> res (list st)) :
  (body tm_osc_A = Fuel \/ body tm_osc_A = Ok [tm_osc_B]) ->
  (body tm_osc_B = Fuel \/ body tm_osc_B = Ok [tm_osc_A]) ->
  forall fi count, 0 <= count -> count + Z.of_nat fi <= INF ->
    iter fi body false INF tm_osc_A 0 count = Fuel /\ iter fi body false INF tm_osc_B 1 count = Fuel.
Proof.
  intros HA HB. induction fi as [|fi IH]; intros count Hc Hf; [split; reflexivity|].
  destruct (IH (count + 1) ltac:(lia) ltac:(lia)) as [IA IB].
  cbn [iter]. replace (INF <=? count) with false by lia. replace (0 <=? count) with true by lia.
  cbn [pos tm_osc_A tm_osc_B]. change (1 =? 0) with false. change (0 =? 1) with false. cbn [orb andb].
  split.
  - destruct HA as [->| ->]; [reflexivity|]. unfold bindr, appr. cbn [bind bindl].
    change (pos tm_osc_A) with 1 in IB. cbn [pos tm_osc_A] in IB. rewrite IB. reflexivity.
  - destruct HB as [->| ->]; [reflexivity|]. unfold bindr, appr. cbn [bind bindl].
    cbn [pos tm_osc_B] in IA. rewrite IA. reflexivity.
Qed.

Theorem tm_osc_needs_more_than_INF :
  forall fuel, Z.of_nat fuel <= INF -> sem (tm_demo_env [97]) fuel tm_osc_tree tm_osc_s0 = Fuel.
Proof.
  intros fuel Hf. destruct fuel as [|[|[|f]]]; try reflexivity.
  set (e := tm_demo_env [97]).
  assert (HA : sem e (S f) tm_osc_body tm_osc_A = Fuel \/ sem e (S f) tm_osc_body tm_osc_A = Ok [tm_osc_B])
    by tm_osc_steps.
  assert (HB : sem e (S f) tm_osc_body tm_osc_B = Fuel \/ sem e (S f) tm_osc_body tm_osc_B = Ok [tm_osc_A])
    by tm_osc_steps.
  assert (H0 : sem e (S f) tm_osc_body tm_osc_s0 = Fuel \/ sem e (S f) tm_osc_body tm_osc_s0 = Ok [tm_osc_A])
    by tm_osc_steps.
  destruct (tm_osc_iter (sem e (S f) tm_osc_body) HA HB f 1 ltac:(lia) ltac:(lia)) as [IA _].
  change (sem e (S (S (S f))) tm_osc_tree tm_osc_s0)
    with (do l <- first_only (sem e (S (S f)) tm_osc_loop tm_osc_s0) ;
          Ok (map (fun s' => with_pos s' (pos tm_osc_s0)) l)).
  unfold tm_osc_loop. rewrite tm_sem_loop. change (0 =? 0) with true. cbv iota.
  change (INF =? INF) with true. cbv iota. cbn [iter].
  change (INF <=? 0) with false. cbn [pos tm_osc_s0]. change (0 =? -1) with false. cbn [orb andb].
  destruct H0 as [->| ->]; [reflexivity|]. unfold bindr, appr, first_only. cbn [bind bindl].
  cbn [pos tm_osc_A] in IA. change (0 + 1) with 1. rewrite IA. reflexivity.
Qed.

(* ... and yet it does terminate (the counter reaches INF after 2^31 iterations): B applies *)
Corollary tm_osc_terminates_eventually :
  exists fuel l, sem (tm_demo_env [97]) fuel tm_osc_tree tm_osc_s0 = Ok l.
Proof.
  exists (term_fuel_any tm_osc_tree). exact (spec_sem_total_any _ tm_osc_tree _ (Nat.le_refl _) tm_osc_s0).
Qed.

(* non-vacuity: the bound on small trees                                                       *)

(* the pattern ( a* )* on "aab": a nullable body under an unbounded loop -- the empty-iteration rule ends it *)
Definition tm_ex_star_star : node :=
  NLoop false 0 0 INF (NCapture 0 1 (-1) (NCharLoop COne LGreedy 0 97 0 INF)).
(* (?:ab){2,3} on "ababab" *)
Definition tm_ex_counted : node := NLoop false 0 2 3 (NMulti 0 [97; 98]).
(* right-to-left lazy (?:a|b)+? inside a lookbehind, after a left-to-right prefix *)
Definition tm_ex_lookbehind : node :=
  NConcat 0 [NMulti 0 [97; 98];
             NPosLook 64 (NLoop true 64 1 INF (NAlternate 64 [NChar COne 64 97; NChar COne 64 98]))].

Example tm_ex_fuel_values :
  term_ok tm_ex_star_star = true /\ term_fuel (tm_demo_env [97; 97; 98]) tm_ex_star_star = 6%nat /\
  term_ok tm_ex_counted = true /\ term_fuel (tm_demo_env [97; 98; 97; 98; 97; 98]) tm_ex_counted = 11%nat /\
  term_ok tm_ex_lookbehind = true /\ term_fuel (tm_demo_env [97; 98]) tm_ex_lookbehind = 8%nat.
Proof. vm_compute. repeat split; reflexivity. Qed.

Example tm_ex_star_star_runs :
  let e := tm_demo_env [97; 97; 98] in
  sem e (term_fuel e tm_ex_star_star) tm_ex_star_star {| pos := 0; caps := [] |} =
    Ok [{| pos := 2; caps := [(1, [(2, 0); (0, 2)])] |};
        {| pos := 2; caps := [(1, [(0, 2)])] |};
        {| pos := 2; caps := [(1, [(2, 0); (1, 1); (0, 1)])] |};
        {| pos := 2; caps := [(1, [(1, 1); (0, 1)])] |};
        {| pos := 1; caps := [(1, [(1, 0); (0, 1)])] |};
        {| pos := 1; caps := [(1, [(0, 1)])] |};
        {| pos := 0; caps := [(1, [(0, 0)])] |};
        {| pos := 0; caps := [] |}] /\
  sem e (term_fuel e tm_ex_star_star - 3) tm_ex_star_star {| pos := 0; caps := [] |} = Fuel.
Proof. vm_compute. split; reflexivity. Qed.

Example tm_ex_counted_runs :
  let e := tm_demo_env [97; 98; 97; 98; 97; 98] in
  sem e (term_fuel e tm_ex_counted) tm_ex_counted {| pos := 0; caps := [] |} =
    Ok [{| pos := 6; caps := [] |}; {| pos := 4; caps := [] |}] /\
  attempt e (term_fuel e tm_ex_counted) tm_ex_counted 1 = Ok None.
Proof. vm_compute. split; reflexivity. Qed.

Example tm_ex_lookbehind_runs :
  let e := tm_demo_env [97; 98] in
  find e (term_fuel e tm_ex_lookbehind) tm_ex_lookbehind false 0 (-1) = Ok (Some {| pos := 2; caps := [] |}) /\
  findk e (term_fuel e tm_ex_lookbehind) tm_ex_lookbehind false 0 (-1) = Ok (Some {| pos := 2; caps := [] |}).
Proof. vm_compute. split; reflexivity. Qed.

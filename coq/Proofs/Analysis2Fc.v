(* C04, part 11: soundness of the legacy first-characters computation getFirstCharsPrefix
   (Analysis2.fc_walk / first_chars_prefix): when it returns a set, no successful attempt is empty and the
   first character read (at p left-to-right, at p-1 right-to-left) belongs to the set. *)
From Coq Require Import ZifyBool.
From Verif Require Import Base.Prelude Model.Tree Model.Spec Model.CharClass Model.Analysis Model.Analysis2
     Proofs.SpecProofs Proofs.CharClassRanges Proofs.CharClassProofs Proofs.MaskProofs
     Proofs.AnalysisReach Proofs.AnalysisProofs Proofs.AnalysisPrefix Proofs.Analysis2Cls Proofs.Analysis2Ffcc.

Section Loops.
Variable cat_in : Z -> Z -> bool.
Variable sets : list cls.
Notation FW := (fc_walk cat_in sets).

Fixpoint fc_cat (l : list node) (cum : fcrec) : res (option fcrec) :=
  if negb (fc_null cum) then Ok (Some cum)
  else match l with
       | [] => Ok (Some cum)
       | y :: l'' =>
           do f <- FW y ;
           match f with
           | None => Ok None
           | Some c => match add_fc cat_in cum c true with None => Ok None | Some cum' => fc_cat l'' cum' end
           end
       end.

Fixpoint fc_alt (l : list node) (cum : fcrec) : res (option fcrec) :=
  match l with
  | [] => Ok (Some cum)
  | y :: l'' =>
      do f <- FW y ;
      match f with
      | None => Ok None
      | Some c => match add_fc cat_in cum c false with None => Ok None | Some cum' => fc_alt l'' cum' end
      end
  end.

Lemma fc_concat_eq o x l : FW (NConcat o (x :: l)) =
  do f0 <- FW x ; match f0 with None => Ok None | Some c0 => fc_cat l c0 end.
Proof. reflexivity. Qed.

Lemma fc_alternate_eq o x l : FW (NAlternate o (x :: l)) =
  do f0 <- FW x ; match f0 with None => Ok None | Some c0 => fc_alt l c0 end.
Proof. reflexivity. Qed.

End Loops.

(* the sets built are well-formed accumulators                                                 *)

Section Good.
Variable cat_in : Z -> Z -> bool.
Variable sets : list cls.
Hypothesis Hgood : sets_good cat_in sets.
Notation FW := (fc_walk cat_in sets).
Notation acc_ok := (acc_ok cat_in).
Notation cmem := (cmem cat_in).

Definition fc_good (fc : fcrec) : Prop := acc_ok (fc_cc fc).

Lemma fc_add_range_low b : 0 <= b < max_rune - 1 ->
  add_range cat_in empty_cls 0 b = Cls [(0, b)] [] None false false None.
Proof.
  intros Hb. unfold add_range, empty_cls, set_ranges. cbn [ranges cats sub neg anything ascii app].
  unfold canonicalize. cbn [ranges].
  unfold normal_form_1. cbn [neg negb no_sub sub no_cats cats andb ranges].
  replace (0 =? 0) with true by reflexivity. replace (b =? max_rune - 1) with false by (unfold max_rune in *; lia).
  unfold normal_form_2. cbn [neg negb no_sub sub andb ranges].
  replace ((0 =? 0) && (b >=? max_rune)) with false by (unfold max_rune in *; lia).
  unfold normal_form_3. cbn [neg negb no_sub sub no_cats cats andb]. reflexivity.
Qed.

(* newRegexFc: a well-formed set that contains the character (resp. every other valid rune) *)
Lemma new_fc_ok ch nt nullable ci : rune_ok ch = true ->
  fc_good (new_fc cat_in ch nt nullable ci) /\
  forall x, valid_rune x -> (if nt then x <> ch else x = ch) -> cmem (fc_cc (new_fc cat_in ch nt nullable ci)) x = true.
Proof.
  intros Hr. pose proof (a2_rune_ok cat_in ch Hr) as Hc. unfold new_fc, fc_good. cbn [fc_cc].
  pose proof (a2_empty_acc cat_in) as He. destruct nt.
  - destruct (0 <? ch) eqn:E0.
    + destruct (ch <? MAXR) eqn:E1.
      * rewrite fc_add_range_low by (unfold MAXR, max_rune in *; lia).
        assert (Hacc : acc_ok (Cls [(0, ch - 1)] [] None false false None)).
        { rewrite <- fc_add_range_low by (unfold MAXR, max_rune in *; lia).
          apply (a2_add_range cat_in empty_cls 0 (ch - 1) He eq_refl); unfold max_rune in *; lia. }
        destruct (a2_add_range cat_in _ (ch + 1) MAXR Hacc eq_refl) as [A B]; try (unfold MAXR, max_rune in *; lia).
        split; [exact A|]. intros x Hx Hne. rewrite B by exact Hx.
        destruct (x <? ch) eqn:Ex.
        -- replace (Analysis2Cls.cmem cat_in (Cls [(0, ch - 1)] [] None false false None) x) with true; [reflexivity|].
           symmetry. unfold Analysis2Cls.cmem, char_in. cbn [ascii]. unfold char_in_slow. cbn.
           destruct Hx as [Hx0 _]. unfold in_ranges. cbn [zlen length Z.of_nat]. cbn. 
           replace (x <? 0) with false by lia. replace (x <=? ch - 1) with true by lia. reflexivity.
        -- apply orb_true_iff. right. destruct Hx as [_ Hx1]. unfold MAXR, max_rune in *. lia.
      * destruct (a2_add_range cat_in empty_cls 0 (ch - 1) He eq_refl) as [A B]; try (unfold MAXR, max_rune in *; lia).
        split; [exact A|]. intros x Hx Hne. rewrite B by exact Hx. destruct Hx. unfold MAXR, max_rune in *.
        apply orb_true_iff. right. lia.
    + assert (ch = 0) by lia. subst ch. replace (0 <? MAXR) with true by reflexivity.
      destruct (a2_add_range cat_in empty_cls (0 + 1) MAXR He eq_refl) as [A B]; try (unfold MAXR, max_rune in *; lia).
      split; [exact A|]. intros x Hx Hne. rewrite B by exact Hx. destruct Hx. unfold MAXR, max_rune in *.
      apply orb_true_iff. right. lia.
  - destruct (a2_add_range cat_in empty_cls ch ch He eq_refl) as [A B]; try lia.
    split; [exact A|]. intros x Hx ->. rewrite B by exact Hx. apply orb_true_iff. right. lia.
Qed.

Lemma null_fc_good : fc_good null_fc.
Proof. exact (a2_empty_acc cat_in). Qed.

Lemma any_class_good : acc_ok any_class.
Proof.
  split; [|reflexivity]. unfold gcls, any_class. cbn [canonical bitmaps_ok canonical_ranges sorted_from ranges].
  split; [split; [split; [unfold MAXR; lia|exact I]|exact I]|].
  split; [split; exact I|]. split; [intros _; reflexivity|].
  constructor; [|constructor]. unfold wf_range, MAXR, max_rune. cbn [fst snd]. lia.
Qed.

Lemma any_class_mem x : valid_rune x -> cmem any_class x = true.
Proof.
  intros [H0 H1]. rewrite (a2_cmem_plain cat_in any_class x (proj1 any_class_good)).
  unfold any_class, MAXR, max_rune in *. cbn. unfold in_range. cbn [fst snd]. 
  replace ((0 <=? x) && (x <=? 1114111)) with true by lia. reflexivity.
Qed.

Lemma add_fc_ok r f conc r' :
  fc_good r -> fc_good f -> add_fc cat_in r f conc = Some r' ->
  fc_good r' /\
  (forall x, valid_rune x -> cmem (fc_cc r) x = true -> cmem (fc_cc r') x = true) /\
  ((conc && negb (fc_null r) = false) ->
     (forall x, valid_rune x -> cmem (fc_cc f) x = true -> cmem (fc_cc r') x = true) /\
     fc_null r' = (if conc then (if negb (fc_null f) then false else fc_null r) else (if fc_null f then true else fc_null r))) /\
  ((conc && negb (fc_null r) = true) -> r' = r).
Proof.
  intros Hr Hf. unfold add_fc.
  destruct (negb (is_mergeable (fc_cc r)) || negb (is_mergeable (fc_cc f))) eqn:Em; [discriminate|].
  apply orb_false_iff in Em. destruct Em as [E1 E2]. apply negb_false_iff in E1. apply negb_false_iff in E2.
  destruct (conc && negb (fc_null r)) eqn:Ec.
  - intros H. injection H as <-. split; [exact Hr|]. split; [auto|]. split; [discriminate|reflexivity].
  - intros H. injection H as <-. cbn [fc_cc fc_null].
    destruct (a2_add_set cat_in (fc_cc r) (fc_cc f) Hr E1 (proj1 Hf) E2) as [A B].
    split; [exact A|]. split; [intros x Hx Hm; rewrite B by exact Hx; rewrite Hm; reflexivity|].
    split; [|discriminate]. intros _. split; [intros x Hx Hm; rewrite B by exact Hx; rewrite Hm; apply orb_true_r|reflexivity].
Qed.


Definition fc_wf (t : node) (fc : fcrec) : Prop := fc_good fc /\ (no_ci_lit t = true -> fc_ci fc = false).

Lemma fc_cat_wf : forall l cum r,
  Forall (fun t => forall fc, lits_ok t = true -> FW t = Ok (Some fc) -> fc_wf t fc) l ->
  forallb lits_ok l = true ->
  fc_good cum -> fc_cat cat_in sets l cum = Ok (Some r) ->
  fc_good r /\ (forallb no_ci_lit l = true -> fc_ci cum = false -> fc_ci r = false).
Proof.
  induction l as [|y l IH]; intros cum r Hf Hl Hg H; cbn [fc_cat] in H.
  - destruct (negb (fc_null cum)); injection H as <-; split; auto.
  - destruct (negb (fc_null cum)); [injection H as <-; split; auto|].
    apply sp_bind_ok in H. destruct H as [f [Hy H]]. destruct f as [c|]; [|discriminate H].
    destruct (add_fc cat_in cum c true) as [cum'|] eqn:Ea; [|discriminate H].
    cbn [forallb] in Hl. apply andb_true_iff in Hl. destruct Hl as [Hly Hll].
    inversion Hf as [|? ? Py Pl]; subst. destruct (Py c Hly Hy) as [Gc Cc].
    destruct (add_fc_ok cum c true cum' Hg Gc Ea) as (G' & _).
    destruct (IH cum' r Pl Hll G' H) as [Gr Cr]. split; [exact Gr|].
    intros Hn Hci. cbn [forallb] in Hn. apply andb_true_iff in Hn. destruct Hn as [Hny Hnl].
    apply Cr; [exact Hnl|]. unfold add_fc in Ea.
    destruct (negb (is_mergeable (fc_cc cum)) || negb (is_mergeable (fc_cc c))); [discriminate Ea|].
    destruct (true && negb (fc_null cum)); injection Ea as <-; [exact Hci|]. cbn [fc_ci]. rewrite Hci, (Cc Hny). reflexivity.
Qed.

Lemma fc_alt_wf : forall l cum r,
  Forall (fun t => forall fc, lits_ok t = true -> FW t = Ok (Some fc) -> fc_wf t fc) l ->
  forallb lits_ok l = true ->
  fc_good cum -> fc_alt cat_in sets l cum = Ok (Some r) ->
  fc_good r /\ (forallb no_ci_lit l = true -> fc_ci cum = false -> fc_ci r = false).
Proof.
  induction l as [|y l IH]; intros cum r Hf Hl Hg H; cbn [fc_alt] in H.
  - injection H as <-; split; auto.
  - apply sp_bind_ok in H. destruct H as [f [Hy H]]. destruct f as [c|]; [|discriminate H].
    destruct (add_fc cat_in cum c false) as [cum'|] eqn:Ea; [|discriminate H].
    cbn [forallb] in Hl. apply andb_true_iff in Hl. destruct Hl as [Hly Hll].
    inversion Hf as [|? ? Py Pl]; subst. destruct (Py c Hly Hy) as [Gc Cc].
    destruct (add_fc_ok cum c false cum' Hg Gc Ea) as (G' & _).
    destruct (IH cum' r Pl Hll G' H) as [Gr Cr]. split; [exact Gr|].
    intros Hn Hci. cbn [forallb] in Hn. apply andb_true_iff in Hn. destruct Hn as [Hny Hnl].
    apply Cr; [exact Hnl|]. unfold add_fc in Ea.
    destruct (negb (is_mergeable (fc_cc cum)) || negb (is_mergeable (fc_cc c))); [discriminate Ea|].
    cbn [andb] in Ea. injection Ea as <-. cbn [fc_ci]. rewrite Hci, (Cc Hny). reflexivity.
Qed.

Lemma fc_cond_wf yes n fy fn r :
  fc_wf yes fy -> fc_wf n fn -> add_fc cat_in fy fn false = Some r ->
  fc_good r /\ (no_ci_lit yes = true -> no_ci_lit n = true -> fc_ci r = false).
Proof.
  intros [Gy Cy] [Gn Cn] Ea. destruct (add_fc_ok fy fn false r Gy Gn Ea) as (G' & _). split; [exact G'|].
  intros H1 H2. unfold add_fc in Ea.
  destruct (negb (is_mergeable (fc_cc fy)) || negb (is_mergeable (fc_cc fn))); [discriminate Ea|].
  cbn [andb] in Ea. injection Ea as <-. cbn [fc_ci]. rewrite (Cy H1), (Cn H2). reflexivity.
Qed.

Lemma fc_walk_wf : forall t fc, lits_ok t = true -> FW t = Ok (Some fc) -> fc_wf t fc.
Proof.
  induction t using node_ind'; intros fc Hl Hw; cbn [fc_walk] in Hw.
  - (* NChar *)
    destruct k; cbn [lits_ok no_ci_lit] in *; injection Hw as <-; unfold fc_wf.
    + split; [apply new_fc_ok; exact Hl|]. cbn [new_fc fc_ci]. intros Hn. apply negb_true_iff in Hn. exact Hn.
    + split; [apply new_fc_ok; exact Hl|]. cbn [new_fc fc_ci]. intros Hn. apply negb_true_iff in Hn. exact Hn.
    + split; [apply a2_copy_acc; apply Hgood|]. cbn [fc_ci]. intros Hn. apply negb_true_iff in Hn. exact Hn.
  - (* NCharLoop *)
    destruct k; cbn [lits_ok no_ci_lit] in *; injection Hw as <-; unfold fc_wf.
    + split; [apply new_fc_ok; exact Hl|]. cbn [new_fc fc_ci]. intros Hn. apply negb_true_iff in Hn. exact Hn.
    + split; [apply new_fc_ok; exact Hl|]. cbn [new_fc fc_ci]. intros Hn. apply negb_true_iff in Hn. exact Hn.
    + split; [apply a2_copy_acc; apply Hgood|]. cbn [fc_ci]. intros Hn. apply negb_true_iff in Hn. exact Hn.
  - (* NMulti *)
    destruct s as [|c0 s0]; [discriminate Hl|]. injection Hw as <-. cbn [lits_ok no_ci_lit] in *. unfold fc_wf.
    split; [|cbn [new_fc fc_ci]; intros Hn; apply negb_true_iff in Hn; exact Hn].
    apply new_fc_ok. exact (multi_first_rune o (c0 :: s0) Hl).
  - (* NRef *) injection Hw as <-. split; [exact any_class_good|reflexivity].
  - injection Hw as <-. split; [exact null_fc_good|reflexivity].
  - injection Hw as <-. split; [exact null_fc_good|reflexivity].
  - injection Hw as <-. split; [exact null_fc_good|reflexivity].
  - injection Hw as <-. split; [exact null_fc_good|reflexivity].
  - (* NConcat *)
    destruct l as [|x l']; [discriminate Hw|]. rewrite <- (fc_concat_eq cat_in sets o x l') in Hw at 1.
    rewrite fc_concat_eq in Hw. apply sp_bind_ok in Hw. destruct Hw as [f0 [Hx Hw]]. destruct f0 as [c0|]; [|discriminate Hw].
    cbn [lits_ok forallb] in Hl. apply andb_true_iff in Hl. destruct Hl as [Hlx Hll].
    inversion H as [|? ? Px Pl]; subst. destruct (Px c0 Hlx Hx) as [G0 C0].
    destruct (fc_cat_wf l' c0 fc Pl Hll G0 Hw) as [Gr Cr]. split; [exact Gr|].
    intros Hn. cbn [no_ci_lit forallb] in Hn. apply andb_true_iff in Hn. destruct Hn as [Hnx Hnl]. auto.
  - (* NAlternate *)
    destruct l as [|x l']; [discriminate Hw|]. rewrite <- (fc_alternate_eq cat_in sets o x l') in Hw at 1.
    rewrite fc_alternate_eq in Hw. apply sp_bind_ok in Hw. destruct Hw as [f0 [Hx Hw]]. destruct f0 as [c0|]; [|discriminate Hw].
    cbn [lits_ok forallb] in Hl. apply andb_true_iff in Hl. destruct Hl as [Hlx Hll].
    inversion H as [|? ? Px Pl]; subst. destruct (Px c0 Hlx Hx) as [G0 C0].
    destruct (fc_alt_wf l' c0 fc Pl Hll G0 Hw) as [Gr Cr]. split; [exact Gr|].
    intros Hn. cbn [no_ci_lit forallb] in Hn. apply andb_true_iff in Hn. destruct Hn as [Hnx Hnl]. auto.
  - (* NLoop *)
    apply sp_bind_ok in Hw. destruct Hw as [f [Hr Hw]]. destruct f as [c|]; [|discriminate Hw]. injection Hw as <-.
    cbn [lits_ok no_ci_lit] in *. destruct (IHt c Hl Hr) as [G C]. destruct (m =? 0); split; auto.
  - (* NCapture *) cbn [lits_ok no_ci_lit] in *. exact (IHt fc Hl Hw).
  - (* NGroup *) cbn [lits_ok no_ci_lit] in *. exact (IHt fc Hl Hw).
  - injection Hw as <-. split; [exact null_fc_good|reflexivity].
  - injection Hw as <-. split; [exact null_fc_good|reflexivity].
  - (* NAtomic *) cbn [lits_ok no_ci_lit] in *. exact (IHt fc Hl Hw).
  - (* NBackRefCond *)
    apply sp_bind_ok in Hw. destruct Hw as [f0 [Hy Hw]]. cbn [lits_ok] in Hl. apply andb_true_iff in Hl. destruct Hl as [Hly Hln].
    destruct f0 as [c0|]; [|discriminate Hw]. destruct no as [n|].
    + apply sp_bind_ok in Hw. destruct Hw as [f [Hn Hw]]. destruct f as [c|]; [|discriminate Hw].
      destruct (add_fc cat_in c0 c false) as [r|] eqn:Ea; [|discriminate Hw]. injection Hw as <-.
      cbn [opt_all] in H. destruct (fc_cond_wf t n c0 c r (IHt c0 Hly Hy) (H c Hln Hn) Ea) as [G C].
      split; [exact G|]. intros Hnc. cbn [no_ci_lit] in Hnc. apply andb_true_iff in Hnc. destruct Hnc. auto.
    + injection Hw as <-. destruct (IHt c0 Hly Hy) as [G C]. split; [exact G|].
      intros Hnc. cbn [no_ci_lit] in Hnc. apply andb_true_iff in Hnc. destruct Hnc. auto.
  - (* NExprCond *)
    apply sp_bind_ok in Hw. destruct Hw as [f0 [Hy Hw]]. cbn [lits_ok] in Hl. apply andb_true_iff in Hl. destruct Hl as [Hly Hln].
    destruct f0 as [c0|]; [|discriminate Hw]. destruct no as [n|].
    + apply sp_bind_ok in Hw. destruct Hw as [f [Hn Hw]]. destruct f as [c|]; [|discriminate Hw].
      destruct (add_fc cat_in c0 c false) as [r|] eqn:Ea; [|discriminate Hw]. injection Hw as <-.
      cbn [opt_all] in H. destruct (fc_cond_wf t2 n c0 c r (IHt2 c0 Hly Hy) (H c Hln Hn) Ea) as [G C].
      split; [exact G|]. intros Hnc. cbn [no_ci_lit] in Hnc. apply andb_true_iff in Hnc. destruct Hnc as [Hnc Hnn].
      apply andb_true_iff in Hnc. destruct Hnc. auto.
    + injection Hw as <-. destruct (IHt2 c0 Hly Hy) as [G C]. split; [exact G|].
      intros Hnc. cbn [no_ci_lit] in Hnc. apply andb_true_iff in Hnc. destruct Hnc as [Hnc _].
      apply andb_true_iff in Hnc. destruct Hnc. auto.
Qed.

Definition fc_leaf (k : ckind) (c : Z) (nullable ci : bool) : fcrec :=
  match k with
  | COne => new_fc cat_in c false nullable ci
  | CNotone => new_fc cat_in c true nullable ci
  | CSet => {| fc_cc := cls_copy (set_cls sets c); fc_null := nullable; fc_ci := ci |}
  end.

Lemma fc_char_eq k o c : FW (NChar k o c) = Ok (Some (fc_leaf k c false (is_ci o))).
Proof. destruct k; reflexivity. Qed.
Lemma fc_charloop_eq k l o c m n : FW (NCharLoop k l o c m n) = Ok (Some (fc_leaf k c (m =? 0) (is_ci o))).
Proof. destruct k; reflexivity. Qed.
Lemma fc_multi_eq o s : s <> [] -> FW (NMulti o s) = Ok (Some (fc_leaf COne (multi_first o s) false (is_ci o))).
Proof. destruct s; [congruence|reflexivity]. Qed.

Lemma fc_leaf_mem k c nullable ci x : lit_ok k c = true -> valid_rune x -> leaf_test cat_in sets k c x = true ->
  cmem (fc_cc (fc_leaf k c nullable ci)) x = true.
Proof.
  intros Hl Hx Ht. destruct k; cbn [fc_leaf leaf_test lit_ok fc_cc] in *.
  - apply (new_fc_ok c false nullable ci Hl); [exact Hx|lia].
  - apply (new_fc_ok c true nullable ci Hl); [exact Hx|lia].
  - rewrite a2_copy_mem by apply Hgood. exact Ht.
Qed.

(* soundness against the reference semantics                                                   *)

Variable e : env.
Hypothesis Hagree : forall id x, set_in e id x = cmem (set_cls sets id) x.
Hypothesis Hvalid : forall i, valid_rune (char_at e i).

Definition fc_sound (d : bool) (fc : fcrec) (s y : st) : Prop :=
  fsound e d (fc_null fc = false) (fun x => cmem (fc_cc fc) x = true) s y.

Definition FcT (d : bool) (t : node) (s y : st) : Prop :=
  forall fc, FW t = Ok (Some fc) -> fc_sound d fc s y.

(* a concatenation's children from s1 on, given what has been accumulated for s .. s1; and the list as a whole *)
Definition FcS (d : bool) (l : list node) (s1 y : st) : Prop :=
  (forall s cum r, 0 <= disp d s s1 -> fc_sound d cum s s1 -> fc_good cum ->
     fc_cat cat_in sets l cum = Ok (Some r) -> fc_sound d r s y) /\
  (forall x l' c0 r, l = x :: l' -> FW x = Ok (Some c0) -> fc_cat cat_in sets l' c0 = Ok (Some r) -> fc_sound d r s1 y).

Definition FcI (d : bool) (r : node) (L : Z) (s : st) (count : Z) (y : st) : Prop :=
  forall fc, FW r = Ok (Some fc) ->
    fsound e d (fc_null fc = false /\ count < 0) (fun x => cmem (fc_cc fc) x = true) s y.

Lemma fc_sound_zero d fc s y : fc_null fc = true -> pos y = pos s -> fc_sound d fc s y.
Proof. intros Hn Hp. apply fsound_zero; [congruence|exact Hp]. Qed.

Lemma fc_leaf_sound d k c nullable ci (A : Prop) s y : lit_ok k c = true ->
  fsound e d A (fun x => char_test e k c x = true) s y -> (nullable = false -> A) ->
  fc_sound d (fc_leaf k c nullable ci) s y.
Proof.
  intros Hl Hf HA. apply (fsound_weaken e d _ _ _ _ s y Hf); [destruct k; exact HA|].
  intros Hx. apply fc_leaf_mem; [exact Hl|apply fchar_valid; exact Hvalid|].
  rewrite <- Hx. destruct k; cbn [leaf_test char_test]; auto.
Qed.

(* the alternation loop: every branch's set and nullability end up in the result *)
Lemma fc_alt_in : forall l cum r,
  forallb lits_ok l = true -> fc_good cum -> fc_alt cat_in sets l cum = Ok (Some r) ->
  (forall x, valid_rune x -> cmem (fc_cc cum) x = true -> cmem (fc_cc r) x = true) /\
  (fc_null cum = true -> fc_null r = true) /\
  forall y, In y l -> exists c, FW y = Ok (Some c) /\
    (forall x, valid_rune x -> cmem (fc_cc c) x = true -> cmem (fc_cc r) x = true) /\
    (fc_null c = true -> fc_null r = true).
Proof.
  induction l as [|y l IH]; intros cum r Hl Hg H; cbn [fc_alt] in H.
  - injection H as <-. split; [auto|]. split; [auto|intros y []].
  - apply sp_bind_ok in H. destruct H as [f [Hy H]]. destruct f as [c|]; [|discriminate H].
    destruct (add_fc cat_in cum c false) as [cum'|] eqn:Ea; [|discriminate H].
    cbn [forallb] in Hl. apply andb_true_iff in Hl. destruct Hl as [Hly Hll].
    destruct (fc_walk_wf y c Hly Hy) as [Gc _].
    destruct (add_fc_ok cum c false cum' Hg Gc Ea) as (G' & M1 & M2 & _). destruct (M2 eq_refl) as [M3 M4].
    destruct (IH cum' r Hll G' H) as (I1 & I2 & I3).
    split; [intros x Hx Hm; apply I1; [exact Hx|apply M1; assumption]|].
    split; [intros Hn; apply I2; rewrite M4, Hn; destruct (fc_null c); reflexivity|].
    intros y0 [<-|Hin]; [|exact (I3 y0 Hin)].
    exists c. split; [exact Hy|]. split; [intros x Hx Hm; apply I1; [exact Hx|apply M3; assumption]|].
    intros Hn. apply I2. rewrite M4, Hn. reflexivity.
Qed.

Lemma fc_sound_sub d fc r s y :
  fc_sound d fc s y -> (forall x, valid_rune x -> cmem (fc_cc fc) x = true -> cmem (fc_cc r) x = true) ->
  (fc_null fc = true -> fc_null r = true) -> fc_sound d r s y.
Proof.
  intros Hs Hsub Hn. apply (fsound_weaken e d _ _ _ _ s y Hs).
  - intros Hr. destruct (fc_null fc); [specialize (Hn eq_refl); congruence|reflexivity].
  - apply Hsub. apply fchar_valid. exact Hvalid.
Qed.

Lemma fc_cond_sound d cy cn r s y :
  fc_good cy -> fc_good cn -> add_fc cat_in cy cn false = Some r ->
  (fc_sound d cy s y \/ fc_sound d cn s y) -> fc_sound d r s y.
Proof.
  intros Gy Gn Ea Hs. destruct (add_fc_ok cy cn false r Gy Gn Ea) as (_ & M1 & M2 & _). destruct (M2 eq_refl) as [M3 M4].
  destruct Hs as [Hs|Hs].
  - apply (fc_sound_sub d cy r s y Hs M1). intros Hn. rewrite M4, Hn. destruct (fc_null cn); reflexivity.
  - apply (fc_sound_sub d cn r s y Hs M3). intros Hn. rewrite M4, Hn. reflexivity.
Qed.

(* a conditional: the result is what addFC makes of the two branches' *)
Lemma fc_cond_run d yes n x s y fc :
  lit_tree yes = true -> lit_tree n = true -> x = yes \/ x = n -> FcT d x s y ->
  (do f0 <- FW yes ;
   match f0 with
   | None => Ok None
   | Some cy => do f <- FW n ; match f with
                               | None => Ok None
                               | Some cn => match add_fc cat_in cy cn false with None => Ok None | Some r => Ok (Some r) end
                               end
   end) = Ok (Some fc) -> fc_sound d fc s y.
Proof.
  intros Hy Hn Hx IH Hw. apply lit_tree_inv in Hy. apply lit_tree_inv in Hn.
  apply sp_bind_ok in Hw. destruct Hw as [f0 [Hwy Hw]]. destruct f0 as [cy|]; [|discriminate Hw].
  apply sp_bind_ok in Hw. destruct Hw as [f1 [Hwn Hw]]. destruct f1 as [cn|]; [|discriminate Hw].
  destruct (add_fc cat_in cy cn false) as [r|] eqn:Ea; [|discriminate Hw]. injection Hw as <-.
  apply (fc_cond_sound d cy cn r s y (proj1 (fc_walk_wf yes cy (proj2 Hy) Hwy)) (proj1 (fc_walk_wf n cn (proj2 Hn) Hwn)) Ea).
  destruct Hx as [->| ->]; [left|right]; apply IH; assumption.
Qed.

Lemma fc_all (d : bool) :
  (forall t s y, Run e d lit_tree t s y -> FcT d t s y) /\
  (forall l s y, RunSeq e d lit_tree l s y -> FcS d l s y) /\
  (forall r L s count y, RunIter e d lit_tree r L s count y -> FcI d r L s count y).
Proof.
  apply Run_mutind.
  - (* W_char *)
    intros k o c s [Hs Ho] _ Hc fc Hw. rewrite fc_char_eq in Hw. injection Hw as <-. apply lit_tree_inv in Ho.
    apply (fc_leaf_sound d k c false _ True); [destruct k; exact (proj2 Ho)|exact (char_first e d k o c s Hs Hc)|trivial].
  - (* W_charloop *)
    intros k l o c m n s y [Hs Ho] _ Hin fc Hw. rewrite fc_charloop_eq in Hw. injection Hw as <-. apply lit_tree_inv in Ho.
    apply (fc_leaf_sound d k c _ _ (m <> 0)); [destruct k; exact (proj2 Ho)|exact (charloop_first e d k l o c m n s y Hs Hin)|lia].
  - (* W_multi *)
    intros o str s y [Hs Ho] _ Hin fc Hw. apply lit_tree_inv in Ho. destruct Ho as [Hn Hl].
    assert (Hne : str <> []) by (destruct str; [discriminate Hl|discriminate]).
    rewrite (fc_multi_eq o str Hne) in Hw. injection Hw as <-. cbn [no_ci_lit] in Hn. apply negb_true_iff in Hn.
    apply (fc_leaf_sound d COne _ false _ True); [exact (multi_first_rune o str Hl)| |trivial].
    exact (multi_first_sound e d o str s y Hs Hn Hne Hin).
  - (* W_ref *)
    intros o g s y _ fc Hw. cbn [fc_walk] in Hw. injection Hw as <-. split; [discriminate|]. intros _. cbn [fc_cc].
    apply any_class_mem. apply fchar_valid. exact Hvalid.
  - (* W_anchor *) intros a s _ fc Hw. cbn [fc_walk] in Hw. injection Hw as <-. apply fc_sound_zero; reflexivity.
  - (* W_empty *) intros s fc Hw. cbn [fc_walk] in Hw. injection Hw as <-. apply fc_sound_zero; reflexivity.
  - (* W_bump *) intros s fc Hw. cbn [fc_walk] in Hw. injection Hw as <-. apply fc_sound_zero; reflexivity.
  - (* W_concat *)
    intros o l s y _ IH fc Hw. destruct l as [|x l']; [discriminate Hw|]. rewrite fc_concat_eq in Hw.
    apply sp_bind_ok in Hw. destruct Hw as [f0 [Hx Hw]]. destruct f0 as [c0|]; [|discriminate Hw].
    exact (proj2 IH x l' c0 fc eq_refl Hx Hw).
  - (* W_alt *)
    intros o l x s y [_ Hl] Hin _ IH _ fc Hw. apply lit_trees_inv in Hl. destruct Hl as [_ Hl].
    destruct l as [|x0 l']; [destruct Hin|]. rewrite fc_alternate_eq in Hw.
    apply sp_bind_ok in Hw. destruct Hw as [f0 [Hx0 Hw]]. destruct f0 as [c0|]; [|discriminate Hw].
    cbn [forallb] in Hl. apply andb_true_iff in Hl. destruct Hl as [Hl0 Hll].
    destruct (fc_walk_wf x0 c0 Hl0 Hx0) as [G0 _].
    destruct (fc_alt_in l' c0 fc Hll G0 Hw) as (I1 & I2 & I3).
    destruct Hin as [<-|Hin].
    + apply (fc_sound_sub d c0 fc s y (IH c0 Hx0) I1 I2).
    + destruct (I3 x Hin) as [c [Hc [J1 J2]]]. apply (fc_sound_sub d c fc s y (IH c Hc) J1 J2).
  - (* W_loop0 *)
    intros lazy o n r s y _ _ IH fc Hw. cbn [fc_walk] in Hw.
    apply sp_bind_ok in Hw. destruct Hw as [f [Hfr Hw]]. destruct f as [c|]; [|discriminate Hw]. injection Hw as <-.
    apply (fsound_weaken e d _ _ _ _ s y (IH c Hfr)); [discriminate|auto].
  - (* W_loop1 *)
    intros lazy o m n r s s1 y _ Hm _ IH1 _ IH2 _ Hd1 Hd2 fc Hw. cbn [fc_walk] in Hw.
    apply sp_bind_ok in Hw. destruct Hw as [f [Hfr Hw]]. destruct f as [c|]; [|discriminate Hw].
    replace (m =? 0) with false in Hw by lia. injection Hw as <-.
    apply (fsound_seq e d _ _ _ _ s s1 y Hd1 Hd2 (IH1 c Hfr) (fun _ => IH2 c Hfr)). auto.
  - (* W_capture *)
    intros o g u r s s1 y _ IH Hp fc Hw. exact (fsound_pos e d _ _ s s s1 y eq_refl Hp (IH fc Hw)).
  - (* W_group *) intros r s y _ IH. exact IH.
  - (* W_poslook *) intros o r s y Hp fc Hw. cbn [fc_walk] in Hw. injection Hw as <-. apply fc_sound_zero; [reflexivity|exact Hp].
  - (* W_neglook *) intros o r s fc Hw. cbn [fc_walk] in Hw. injection Hw as <-. apply fc_sound_zero; reflexivity.
  - (* W_atomic *) intros r s y _ IH. exact IH.
  - (* W_brc *)
    intros o g yes n x s y [_ Hy] [_ Hn] Hx _ IH fc Hw. exact (fc_cond_run d yes n x s y fc Hy Hn Hx IH Hw).
  - (* W_ec *)
    intros o c yes n x s s0 y [_ Hy] [_ Hn] Hx Hp _ IH fc Hw. apply (fsound_pos e d _ _ s0 s y y (eq_sym Hp) eq_refl).
    exact (fc_cond_run d yes n x s0 y fc Hy Hn Hx IH Hw).
  - (* WS_nil *)
    intros s1. split.
    + intros s cum r _ Hc _ H. cbn [fc_cat] in H. destruct (negb (fc_null cum)); injection H as <-; exact Hc.
    + intros x l' c0 r Hnil. discriminate Hnil.
  - (* WS_cons *)
    intros x l s1 s2 y [_ Hx] _ _ IH1 _ [Htail _] _ Hd12 Hd2y. apply lit_tree_inv in Hx. destruct Hx as [_ Hlx].
    split.
    + intros s cum r Hd Hc Hg H. cbn [fc_cat] in H.
      destruct (fc_null cum) eqn:Enull; cbn [negb] in H.
      * apply sp_bind_ok in H. destruct H as [f [Hfx H]]. destruct f as [c|]; [|discriminate H].
        destruct (add_fc cat_in cum c true) as [cum'|] eqn:Ea; [|discriminate H].
        destruct (fc_walk_wf x c Hlx Hfx) as [Gc _].
        destruct (add_fc_ok cum c true cum' Hg Gc Ea) as (G' & M1 & M2 & _).
        destruct (M2 ltac:(rewrite Enull; reflexivity)) as [M3 M4].
        apply (Htail s cum' r); [rewrite (an_disp_trans d s s1 s2); lia| |exact G'|exact H].
        apply (fsound_seq e d (fc_null cum = false) (fc_null c = false) _ _ s s1 s2 Hd Hd12).
        -- apply (fsound_weaken e d _ _ _ _ s s1 Hc); [auto|]. apply M1. apply fchar_valid. exact Hvalid.
        -- intros _. apply (fsound_weaken e d _ _ _ _ s1 s2 (IH1 c Hfx)); [auto|]. apply M3. apply fchar_valid. exact Hvalid.
        -- intros Hn'. right. rewrite M4, Enull in Hn'. destruct (fc_null c); [discriminate Hn'|reflexivity].
      * injection H as <-. apply (fsound_ext e d _ _ _ s s1 y Enull); [rewrite (an_disp_trans d s1 s2 y); lia|exact Hc].
    + intros x' l' c0 r Hcons Hfx H. injection Hcons as <- <-.
      destruct (fc_walk_wf x c0 Hlx Hfx) as [G0 _].
      apply (Htail s1 c0 r); [exact Hd12|exact (IH1 c0 Hfx)|exact G0|exact H].
  - (* WI_stop *)
    intros r L s count HL Hc fc _. apply fsound_zero; [lia|reflexivity].
  - (* WI_more *)
    intros r L s count s1 y _ _ IH1 _ IH2 _ Hd1 Hd2 fc Hw.
    apply (fsound_seq e d _ _ _ _ s s1 y Hd1 Hd2 (IH1 fc Hw) (fun _ => IH2 fc Hw)). tauto.
Qed.

(* getFirstCharsPrefix returned (set, CaseInsensitive): every successful attempt consumes at least one character
   and the first one (at p left-to-right, at p-1 right-to-left) is in the set; on a tree without
   case-insensitive literals the flag is false and no lower-casing is involved *)
Theorem a2_first_chars_prefix_sound (to_lower : Z -> Z) (d : bool) fuel root p s' C ci :
  shape_ok d root = true -> no_ci_lit root = true -> lits_ok root = true -> 0 <= p <= tlen e ->
  first_chars_prefix cat_in to_lower sets root = Ok (Some (C, ci)) ->
  attempt e fuel root p = Ok (Some s') ->
  ci = false /\
  (if d then 0 < p /\ pos s' < p else p < tlen e /\ p < pos s') /\
  char_in cat_in C (if d then char_at e (p - 1) else char_at e p) = true.
Proof.
  intros Hs Hn Hl Hp Hf Ha.
  assert (Hw : wf d lit_tree root) by (split; [exact Hs|unfold lit_tree; rewrite Hn, Hl; reflexivity]).
  pose proof (attempt_run e d lit_tree lit_tree_kids fuel root p s' Hw Hp Ha) as Hr.
  unfold first_chars_prefix in Hf. apply sp_bind_ok in Hf. destruct Hf as [f [Hfw Hf]].
  destruct f as [fc|]; [|discriminate Hf].
  destruct (fc_null fc || is_empty_cls (fc_cc fc)) eqn:En; [discriminate Hf|].
  apply orb_false_iff in En. destruct En as [En _].
  destruct (fc_walk_wf root fc Hl Hfw) as [_ Hci]. specialize (Hci Hn). rewrite Hci in Hf. injection Hf as <- <-.
  split; [reflexivity|].
  destruct (proj1 (fc_all d) _ _ _ Hr fc Hfw) as [I1 I2].
  specialize (I1 En). specialize (I2 I1).
  destruct (an_step e d root _ _ (attempt_reach e _ _ _ _ Ha) Hs Hp an_caps_nonneg_nil) as [Hy _].
  unfold inb, disp, fchar, Analysis2Cls.cmem in *. cbn [pos] in *.
  destruct d; (split; [lia|exact I2]).
Qed.

End Good.

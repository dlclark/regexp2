(* C13's dichotomy WITHOUT a control-flow hypothesis, for every program the static frame-shape verifier accepts.

   VMCapacityProofs.cp_limit_dichotomy assumes that every state the limited engine reaches from ANY state at code
   position 0 is at an instruction boundary.  Here the scan's attempts start from FRESH states (as vm_find's do),
   the unlimited twin of every reached state satisfies the verifier's invariant (CompileCfSafe.winv, preserved by
   every successful step), hence is at an instruction boundary, and the capacity argument applies:
       typed_limit_dichotomy :  cp_need (codes p) 0 <= 4 * trackcount p  ->  tyck_auto p = true  ->
           vm_find under any limit L  is  ErrBacktrackingStackLimit,  or agrees with the unlimited vm_find in every
           outcome (result, error, crash reason, fuel exhaustion).
   No compile_correct, no fuel or termination assumption, every input. *)
From Verif Require Import Base.Prelude Model.Tree Model.Spec Model.VM Model.Writer Gen.RunnerGen
  Proofs.VMLimitProofs Proofs.VMLimitSimProofs Proofs.VMCapacityProofs Proofs.VMU Proofs.VMUBridge
  Proofs.CompileTotal Proofs.CompileLimit Proofs.CompileCfSafe.
From Coq Require Import Relations ZifyBool.

Section Typed.
Variable e : env.
Variable p : program.
Variable sh : list (Z * shape).
Hypothesis Hw : cp_need (codes p) 0 <= trackcount p * G_ensure_factor.
Hypothesis Hty : tyck p sh = true.
Variable L : Z.

Notation winv := (CompileCfSafe.winv p sh).

Lemma ty_HL : lim_le L (-1). Proof. left. lia. Qed.

Definition tprel (r1 r2 : vm * bool) : Prop :=
  simrel L (fst r1) (fst r2) /\ snd r1 = snd r2 /\ (snd r1 = false -> cp_inv p (fst r1) /\ winv (fst r2)).

Lemma ty_pc s1 s2 : simrel L s1 s2 -> pc s1 = pc s2.
Proof. intros [HE _]. unfold eqv in HE. tauto. Qed.

(* the invariant of the pair of runs: the capacity invariant on the limited side, the verifier's on its
   unlimited twin; the simulation of run, scan and find is VMCapacityProofs.inv_*_sim for it *)
Notation ty_inv := (fun a b : vm => cp_inv p a /\ winv b).

Lemma ty_step s1 s2 : simrel L s1 s2 -> ty_inv s1 s2 ->
  res_rel0 (out_rel L) (step e p L s1) (step e p (-1) s2) /\
  forall a b, step e p L s1 = Ok (Next a) -> step e p (-1) s2 = Ok (Next b) -> ty_inv a b.
Proof.
  intros HR [Hc Hi]. destruct (winv_good p sh Hty s2 Hi) as [[w Hb] _]. rewrite <- (ty_pc s1 s2 HR) in Hb.
  split; [exact (cp_step_sim e p L (-1) ty_HL s1 s2 w Hb Hc HR)|]. intros a b E1 E2. split.
  - change (cp_out_inv p (Next a)). eapply cp_step_inv; [exact Hw|exact Hb|exact Hc|exact E1].
  - eapply winv_step; [exact Hty|exact Hi|exact E2].
Qed.

Lemma ty_start c1 c2 t a b :
  goto p L (fresh p c1 t) 0 = Ok a -> goto p (-1) (fresh p c2 t) 0 = Ok b -> ty_inv a b.
Proof.
  intros E1 E2. split.
  - eapply cp_inv_goto_back; [exact Hw| |exact E1]. cbn [fresh pc]. lia.
  - assert (Hb : cont (goto p (-1) (fresh p c2 t) 0) = Ok (Next b)) by (unfold cont; rewrite E2; reflexivity).
    apply (cf_goto_inv p (-1)) in Hb. destruct Hb as (B1 & B2 & B3 & B4).
    pose proof (winv_init p sh Hty t) as Hi0.
    eapply winv_same4; [| | | |exact Hi0]; cbn [a0 VMU.mk pc mode track stack]; [symmetry; exact B1|symmetry; exact B2|
      rewrite B3; reflexivity|rewrite B4; reflexivity].
Qed.

Lemma ty_run_steps_sim k : forall s1 s2, simrel L s1 s2 -> cp_inv p s1 -> winv s2 ->
  res_rel0 tprel (run_steps e p L k s1) (run_steps e p (-1) k s2).
Proof. intros s1 s2 HR Hc Hi. exact (inv_run_steps_sim e p L (-1) ty_inv ty_step k s1 s2 HR (conj Hc Hi)). Qed.

Lemma ty_run_sim fuel : forall s1 s2, simrel L s1 s2 -> cp_inv p s1 -> winv s2 ->
  res_rel0 (simrel L) (run e p L fuel s1) (run e p (-1) fuel s2).
Proof. intros s1 s2 HR Hc Hi. exact (inv_run_sim e p L (-1) ty_inv ty_step fuel s1 s2 HR (conj Hc Hi)). Qed.

Lemma ty_goto0_sim c1 c2 t : simrel L c1 c2 ->
  res_rel0 (fun a b => simrel L a b /\ cp_inv p a /\ winv b)
           (goto p L (fresh p c1 t) 0) (goto p (-1) (fresh p c2 t) 0).
Proof. exact (inv_goto0_sim p L (-1) ty_HL ty_inv ty_start c1 c2 t). Qed.

Lemma ty_scan_sim fuel n : forall rtl c1 c2 t, simrel L c1 c2 ->
  res_rel0 (opt_rel (simrel L)) (vm_scan_from e p L fuel n rtl c1 t) (vm_scan_from e p (-1) fuel n rtl c2 t).
Proof. exact (inv_scan_sim e p L (-1) ty_HL ty_inv ty_start ty_step fuel n). Qed.

Lemma ty_find_sim fuel rtl start prevlen :
  res_rel0 (opt_rel (simrel L)) (vm_find e p L fuel rtl start prevlen) (vm_find e p (-1) fuel rtl start prevlen).
Proof. exact (inv_find_sim e p L (-1) ty_HL ty_inv ty_start ty_step fuel rtl start prevlen). Qed.

End Typed.

Theorem typed_limit_dichotomy e p L fuel rtl start prevlen :
  cp_need (codes p) 0 <= trackcount p * G_ensure_factor ->
  tyck_auto p = true ->
  let r1 := vm_find e p L fuel rtl start prevlen in
  let r2 := vm_find e p (-1) fuel rtl start prevlen in
  r1 = Err E_StackLimit \/
  match r1, r2 with
  | Ok a, Ok b => same_result a b
  | Err c, Err c' => c = c'
  | Crash w, Crash w' => w = w'
  | Fuel, Fuel => True
  | _, _ => False
  end.
Proof.
  intros Hw Hty. cbv zeta.
  destruct (ty_find_sim e p (infer p) Hw Hty L fuel rtl start prevlen) as [H|H]; [left; exact H|].
  right.
  destruct (vm_find e p L fuel rtl start prevlen), (vm_find e p (-1) fuel rtl start prevlen); try exact H.
  eapply opt_rel_weaken. exact H.
Qed.

Print Assumptions typed_limit_dichotomy.

(* for every program the writer emits the weight hypothesis is a theorem (C13_compiled_push_weight) *)
Theorem typed_limit_dichotomy_compiled c root strs cs e L fuel rtl start prevlen :
  let code := fst (compile c root) in
  let p := {| codes := code; strings := strs; trackcount := track_count code; capsize := cs |} in
  tyck_auto p = true ->
  let r1 := vm_find e p L fuel rtl start prevlen in
  let r2 := vm_find e p (-1) fuel rtl start prevlen in
  r1 = Err E_StackLimit \/
  match r1, r2 with
  | Ok a, Ok b => same_result a b
  | Err c, Err c' => c = c'
  | Crash w, Crash w' => w = w'
  | Fuel, Fuel => True
  | _, _ => False
  end.
Proof.
  cbv zeta. intros Hty. apply typed_limit_dichotomy; [|exact Hty].
  exact (cp_compiled_weight c root strs cs).
Qed.

Print Assumptions typed_limit_dichotomy_compiled.

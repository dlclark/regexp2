(* C11, ownership: every entry point returns to a pool only objects it took from a pool and still holds, each
   once (predicate [lin]); hence under every schedule no goroutine ever Puts an object it does not hold. *)
From Verif Require Import Base.Prelude Model.Pool Proofs.PoolStackProofs Proofs.PoolRunnerProofs
  Proofs.PoolStateProofs Proofs.PoolSimProofs Proofs.PoolProofs.

(* ---------- identities are never changed by local computation ---------- *)

Lemma init_match_id : forall cfg info r, r_id (init_match cfg info r) = r_id r.
Proof. intros. unfold init_match. destruct (r_crawl r); reflexivity. Qed.
Lemma start_watch_id : forall dl r, r_id (start_watch dl r) = r_id r.
Proof. intros. unfold start_watch. destruct (r_ignore r); reflexivity. Qed.

Lemma scan_id : forall cfg interp dl r a, r_id (fst (scan cfg interp dl r a)) = r_id r.
Proof.
  intros. unfold scan, tidy_match.
  set (r2 := init_match cfg (sa_info a) (scan_header cfg r a)).
  assert (H2 : r_id r2 = r_id r) by exact (init_match_id cfg (sa_info a) (scan_header cfg r a)).
  destruct (_ && _); [exact H2|].
  set (r4 := start_watch dl _).
  assert (H4 : r_id r4 = r_id r).
  { unfold r4. rewrite start_watch_id. destruct (sa_prevlen a =? 0); exact H2. }
  (* what follows only overwrites other fields of r4 *)
  clearbody r4. destruct (view_of r4 (sa_quick a)) as [v|]; [|exact H4].
  destruct (r_track r4) as [tk|]; [|exact H4]. destruct (r_stack r4) as [st|]; [|exact H4].
  destruct (run_segs _ _ _ _ _) as [[tl sl] []]; try exact H4.
  destruct (tr_term _); try exact H4. destruct (sa_quick a); exact H4.
Qed.

Fixpoint cnt (x : nat) (l : list nat) : nat :=
  match l with [] => O | y :: l' => ((if Nat.eqb x y then 1 else 0) + cnt x l')%nat end.
Definition one (x y : nat) : nat := if Nat.eqb x y then 1%nat else 0%nat.

Lemma cnt_cons : forall x y l, cnt x (y :: l) = (one x y + cnt x l)%nat.
Proof. reflexivity. Qed.
Lemma cnt_app : forall x l1 l2, cnt x (l1 ++ l2) = (cnt x l1 + cnt x l2)%nat.
Proof. induction l1; intros; cbn; [reflexivity|]. rewrite IHl1. lia. Qed.

(* replacing the i-th of the lists a flat_map concatenates; out of range nothing changes and [nth] yields d *)
Lemma cnt_flat_map_upd : forall {A} (f : A -> list nat) d x l i y, f d = [] ->
  (cnt x (flat_map f (upd_nth i y l)) + cnt x (f (nth i l d)) <= cnt x (flat_map f l) + cnt x (f y))%nat.
Proof.
  intros A f d x l i y D. revert i. induction l as [|a l IH]; intros i.
  - destruct i; cbn; rewrite D; cbn; lia.
  - destruct i; cbn [upd_nth nth flat_map]; rewrite !cnt_app; [lia|]. specialize (IH i). lia.
Qed.

Lemma cnt_remove_nth : forall {A} (f : A -> nat) x l i z,
  nth_error l i = Some z -> (cnt x (map f (remove_nth i l)) + one x (f z) = cnt x (map f l))%nat.
Proof.
  intros A f x l. induction l as [|a l IH]; intros i z H; [destruct i; discriminate|].
  destruct i; cbn in *.
  - inversion H; subst. unfold one. lia.
  - specialize (IH i z H). lia.
Qed.
Lemma cnt_take : forall {A} (f : A -> nat) x pk l z rest,
  take pk l = Some (z, rest) -> (cnt x (map f rest) + one x (f z) = cnt x (map f l))%nat.
Proof.
  intros A f x pk l z rest T. unfold take in T. destruct pk as [i|]; [|discriminate].
  destruct (nth_error l i) as [z0|] eqn:N; [|discriminate]. inversion T; subst z0 rest.
  apply cnt_remove_nth. exact N.
Qed.
Lemma cnt_remove_id : forall x y l, owns y l = true -> (cnt x (remove_id y l) + one x y = cnt x l)%nat.
Proof.
  intros x y l. induction l as [|a l IH]; intros H; [discriminate|].
  unfold owns in H. cbn in H. cbn [remove_id]. destruct (Nat.eqb_spec y a) as [->|N].
  - cbn. unfold one. lia.
  - cbn in H. specialize (IH H). cbn. lia.
Qed.

Definition runner_ids (g : gstate) : list nat := flat_map (fun rs => map r_id (rs_pool rs)) (g_res g).
Definition buf_ids (bp : bufpools) : list nat := flat_map (map b_id) (bp_pools bp).
Definition pool_ids (g : gstate) : list nat := runner_ids g ++ buf_ids (g_rune g) ++ buf_ids (g_byte g).
Definition held (ts : list thread) : list nat := flat_map t_owned ts.

(* every identity occurs at most once among the pools and the goroutines' holdings, and is older than g_next *)
Definition uniq (g : gstate) (ts : list thread) : Prop :=
  forall x, (cnt x (pool_ids g) + cnt x (held ts) <= 1)%nat /\
            ((1 <= cnt x (pool_ids g) + cnt x (held ts))%nat -> (x < g_next g)%nat).

Lemma set_rs_ids : forall g re rs x,
  (cnt x (pool_ids (set_rs g re rs)) + cnt x (map r_id (rs_pool (get_rs g re)))
   <= cnt x (pool_ids g) + cnt x (map r_id (rs_pool rs)))%nat.
Proof.
  intros g re rs x. unfold pool_ids, runner_ids, set_rs, get_rs; cbn [g_res g_rune g_byte]. rewrite !cnt_app.
  pose proof (cnt_flat_map_upd (fun rs => map r_id (rs_pool rs)) rs_empty x (g_res g) re rs eq_refl). lia.
Qed.
Lemma set_bp_ids : forall g bk idx l x,
  (cnt x (pool_ids (set_bp g bk {| bp_sizes := bp_sizes (get_bp g bk);
                                   bp_pools := upd_nth idx l (bp_pools (get_bp g bk)) |}))
   + cnt x (map b_id (nth idx (bp_pools (get_bp g bk)) []))
   <= cnt x (pool_ids g) + cnt x (map b_id l))%nat.
Proof.
  intros g bk idx l x. pose proof (cnt_flat_map_upd (map b_id) [] x (bp_pools (get_bp g bk)) idx l eq_refl) as U.
  destruct bk; unfold pool_ids, runner_ids, buf_ids, set_bp, get_bp in *; cbn [g_res g_rune g_byte bp_pools]; rewrite !cnt_app; lia.
Qed.
Lemma bump_next_ids : forall g, pool_ids (bump_next g) = pool_ids g.
Proof. reflexivity. Qed.

(* one atomic action, seen from the goroutine that performs it holding [own] before and [own1] after: no identity
   is duplicated, and at most the identity [g_next g] is created *)
Inductive ids_step (g : gstate) (own : list nat) (g1 : gstate) (own1 : list nat) : Prop :=
| ids_same : g_next g1 = g_next g ->
    (forall x, cnt x (pool_ids g1) + cnt x own1 <= cnt x (pool_ids g) + cnt x own)%nat -> ids_step g own g1 own1
| ids_fresh : g_next g1 = S (g_next g) ->
    (forall x, cnt x (pool_ids g1) + cnt x own1 <= cnt x (pool_ids g) + cnt x own + one x (g_next g))%nat ->
    ids_step g own g1 own1.

Lemma ids_refl : forall g own, ids_step g own g own.
Proof. intros. apply ids_same; [reflexivity|]. intros; lia. Qed.
(* a Put that files nothing *)
Lemma ids_drop : forall g own y, owns y own = true -> ids_step g own g (remove_id y own).
Proof. intros g own y O. apply ids_same; [reflexivity|]. intros x. pose proof (cnt_remove_id x y own O). lia. Qed.

Lemma get_runner_ids : forall g re pk own,
  ids_step g own (fst (act_get_runner g re pk)) (r_id (snd (act_get_runner g re pk)) :: own).
Proof.
  intros g re pk own. unfold act_get_runner.
  destruct (take pk (rs_pool (get_rs g re))) as [[r rest]|] eqn:T; cbn [fst snd].
  - apply ids_same; [reflexivity|]. intros x. rewrite cnt_cons.
    pose proof (set_rs_ids g re {| rs_pool := rest; rs_cache := rs_cache (get_rs g re) |} x) as S.
    pose proof (cnt_take r_id x _ _ _ _ T). cbn [rs_pool] in S. lia.
  - apply ids_fresh; [reflexivity|]. intros x. rewrite cnt_cons, bump_next_ids. cbn [r_id fresh_runner]. lia.
Qed.

Lemma put_runner_ids : forall g re r own,
  owns (r_id r) own = true -> ids_step g own (act_put_runner g re r) (remove_id (r_id r) own).
Proof.
  intros g re r own O. apply ids_same; [reflexivity|]. intros x. unfold act_put_runner.
  pose proof (set_rs_ids g re {| rs_pool := r :: rs_pool (get_rs g re); rs_cache := rs_cache (get_rs g re) |} x) as S.
  cbn [rs_pool map] in S. rewrite cnt_cons in S. pose proof (cnt_remove_id x _ _ O). lia.
Qed.

Lemma set_cache_ids : forall g re c own,
  ids_step g own (set_rs g re {| rs_pool := rs_pool (get_rs g re); rs_cache := c |}) own.
Proof.
  intros g re c own. apply ids_same; [reflexivity|]. intros x.
  pose proof (set_rs_ids g re {| rs_pool := rs_pool (get_rs g re); rs_cache := c |} x) as S. cbn [rs_pool] in S. lia.
Qed.

Lemma get_buf_ids : forall g bk n m pk own,
  let '(g1, b, pooled) := act_get_buf g bk n m pk in ids_step g own g1 (if pooled then b_id b :: own else own).
Proof.
  intros g bk n m pk own. unfold act_get_buf.
  destruct (pool_index (bp_sizes (get_bp g bk)) n m) as [idx|].
  2:{ apply ids_fresh; [reflexivity|]. intros x. rewrite bump_next_ids. lia. }
  destruct (take pk (nth idx (bp_pools (get_bp g bk)) [])) as [[b rest]|] eqn:T.
  2:{ apply ids_fresh; [reflexivity|]. intros x. rewrite cnt_cons, bump_next_ids. cbn [b_id]. lia. }
  (* the popped buffer leaves the pool, whether it is handed out or dropped *)
  assert (S : forall x, (cnt x (pool_ids (set_bp g bk {| bp_sizes := bp_sizes (get_bp g bk);
                                     bp_pools := upd_nth idx rest (bp_pools (get_bp g bk)) |}))
                         + one x (b_id b) <= cnt x (pool_ids g))%nat).
  { intros x. pose proof (set_bp_ids g bk idx rest x). pose proof (cnt_take b_id x _ _ _ _ T). lia. }
  destruct (n <=? b_cap b).
  - apply ids_same; [destruct bk; reflexivity|]. intros x. rewrite cnt_cons. specialize (S x). lia.
  - apply ids_fresh; [destruct bk; reflexivity|]. intros x. rewrite cnt_cons, bump_next_ids. cbn [b_id].
    specialize (S x). lia.
Qed.

Lemma put_buf_ids : forall g bk b own,
  owns (b_id b) own = true -> ids_step g own (act_put_buf g bk b) (remove_id (b_id b) own).
Proof.
  intros g bk b own O. unfold act_put_buf.
  destruct (pool_index (bp_sizes (get_bp g bk)) (b_cap b) (-1)) as [idx|]; [|apply ids_drop; exact O].
  destruct (b_cap b =? nth idx (bp_sizes (get_bp g bk)) 0); [|apply ids_drop; exact O].
  apply ids_same; [destruct bk; reflexivity|]. intros x.
  pose proof (set_bp_ids g bk idx (b :: nth idx (bp_pools (get_bp g bk)) []) x) as S.
  cbn [map] in S. rewrite cnt_cons in S. pose proof (cnt_remove_id x _ _ O). lia.
Qed.

Lemma held_upd : forall ts i t t1 x,
  nth_error ts i = Some t ->
  (cnt x (held (upd_nth i t1 ts)) + cnt x (t_owned t) <= cnt x (held ts) + cnt x (t_owned t1))%nat.
Proof.
  intros ts i t t1 x N. rewrite <- (nth_error_nth ts i (spawn []) N). apply cnt_flat_map_upd. reflexivity.
Qed.

Lemma uniq_fresh : forall g ts, uniq g ts -> (cnt (g_next g) (pool_ids g) + cnt (g_next g) (held ts) = 0)%nat.
Proof.
  intros g ts U. destruct (U (g_next g)) as [_ B].
  destruct (cnt (g_next g) (pool_ids g) + cnt (g_next g) (held ts))%nat eqn:Z; [reflexivity|].
  assert (g_next g < g_next g)%nat by (apply B; lia). lia.
Qed.

Lemma uniq_step : forall g ts i t g1 t1,
  uniq g ts -> nth_error ts i = Some t -> ids_step g (t_owned t) g1 (t_owned t1) -> uniq g1 (upd_nth i t1 ts).
Proof.
  intros g ts i t g1 t1 U N S x. pose proof (held_upd ts i t t1 x N) as HU. destruct (U x) as [U1 U2].
  destruct S as [NX S|NX S]; specialize (S x); rewrite NX.
  - split; [lia|]. intros. apply U2. lia.
  - pose proof (uniq_fresh g ts U) as F. unfold one in S. destruct (Nat.eqb_spec x (g_next g)) as [EQ|NE].
    + subst x. split; intros; lia.
    + split; [lia|]. intros. assert (x < g_next g)%nat by (apply U2; lia). lia.
Qed.


Lemma flat_map_repeat_nil : forall {A B} (f : A -> list B) d n, f d = [] -> flat_map f (repeat d n) = [].
Proof. intros A B f d n D. induction n; cbn; [reflexivity|]. rewrite D. exact IHn. Qed.

Lemma held_spawn : forall opss, held (map spawn opss) = [].
Proof. induction opss; cbn; auto. Qed.

Lemma uniq0 : forall nre rs bs opss, uniq (gstate0 nre rs bs) (map spawn opss).
Proof.
  intros nre rs bs opss x. rewrite held_spawn.
  unfold pool_ids, runner_ids, buf_ids, gstate0; cbn [g_res g_rune g_byte bp_pools].
  rewrite !flat_map_repeat_nil by reflexivity. cbn. split; intros; lia.
Qed.


Section Own.
Variable E : env.

Lemma do_scan_id : forall re r a r' sr, do_scan E re r a = (r', sr) -> r_id r' = r_id r.
Proof. intros re r a r' sr S. change r' with (fst (r', sr)). rewrite <- S. apply scan_id. Qed.

Lemma find_all_loop_id : forall fuel re r text s p n pe acc r' out,
  find_all_loop E fuel re r text s p n pe acc = (r', out) -> r_id r' = r_id r.
Proof.
  induction fuel as [|f IH]; intros re r text s p n pe acc r' out H; cbn [find_all_loop] in H.
  - injection H as <- _. reflexivity.
  - destruct (n =? 0); [injection H as <- _; reflexivity|].
    destruct (do_scan E re r _) as [r1 sr] eqn:D. apply do_scan_id in D. rewrite <- D.
    destruct sr as [m| | | |]; try (injection H as <- _; reflexivity).
    destruct (e_fa_emit E pe m); exact (IH _ _ _ _ _ _ _ _ _ _ H).
Qed.

Lemma replace_loop_id : forall fuel re r text m count acc r' ms st,
  replace_loop E fuel re r text m count acc = (r', ms, st) -> r_id r' = r_id r.
Proof.
  induction fuel as [|f IH]; intros re r text m count acc r' ms st H; cbn [replace_loop] in H.
  - injection H as <- _ _. reflexivity.
  - destruct (count - 1 =? 0); [injection H as <- _ _; reflexivity|].
    destruct (do_scan E re r _) as [r1 sr] eqn:D. apply do_scan_id in D. rewrite <- D.
    destruct sr as [m1| | | |]; try (injection H as <- _ _; reflexivity).
    exact (IH _ _ _ _ _ _ _ _ _ H).
Qed.

Lemma decode_into_id : forall b s b1 t, decode_into E b s = Some (b1, t) -> b_id b1 = b_id b.
Proof.
  intros b s b1 t H. unfold decode_into, write_buf in H.
  destruct (b_cap b <? zlen (e_decode E s)); [discriminate|]. inversion H; reflexivity.
Qed.
Lemma out_buffer_id : forall b out, b_id (out_buffer E b out) = b_id b.
Proof. intros. unfold out_buffer. destruct (e_blen E out <=? b_cap b); reflexivity. Qed.
Lemma switch_id : forall (c : bool) r, r_id (if c then set_code r Quick else r) = r_id r.
Proof. intros [] r; reflexivity. Qed.

(* [lin P own p]: started holding [own], p only Puts what it holds, and holds a set satisfying P when it returns *)
Inductive lin {A : Type} (P : list nat -> Prop) : list nat -> prog A -> Prop :=
| lin_ret : forall own a, P own -> lin P own (Ret a)
| lin_getr : forall own re k, (forall r, lin P (r_id r :: own) (k r)) -> lin P own (GetRunner re k)
| lin_putr : forall own re r k,
    owns (r_id r) own = true -> lin P (remove_id (r_id r) own) k -> lin P own (PutRunner re r k)
| lin_getb : forall own bk n m k,
    (forall (b : buffer) (pooled : bool), lin P (if pooled then b_id b :: own else own) (k b pooled)) ->
    lin P own (GetBuf bk n m k)
| lin_putb : forall own bk b k,
    owns (b_id b) own = true -> lin P (remove_id (b_id b) own) k -> lin P own (PutBuf bk b k)
| lin_cget : forall own re key k, (forall o, lin P own (k o)) -> lin P own (CacheGet re key k)
| lin_cadd : forall own re key d k, lin P own k -> lin P own (CacheAdd re key d k).

Lemma lin_bind : forall {A B} (P Q : list nat -> Prop) own (p : prog A) (f : A -> prog B),
  lin P own p -> (forall o a, P o -> lin Q o (f a)) -> lin Q own (pbind p f).
Proof. intros A B P Q own p f H F. induction H; cbn [pbind]; try (constructor; auto; fail). apply F; assumption. Qed.

Lemma lin_res : forall {A B} (P : list nat -> Prop) own (x : res A) (f : A -> prog (res B)),
  P own -> (forall a, lin P own (f a)) ->
  lin P own (match x with Ok a => f a | Err c => Ret (Err c) | Crash w => Ret (Crash w) | Fuel => Ret Fuel end).
Proof. intros A B P own [a|c|w|] f H F; auto using lin_ret. Qed.

Lemma owns_head : forall x l, owns x (x :: l) = true.
Proof. intros. unfold owns. cbn. rewrite Nat.eqb_refl. reflexivity. Qed.
Lemma owns_cons : forall x y l, owns x l = true -> owns x (y :: l) = true.
Proof. intros x y l H. unfold owns in *. cbn. rewrite H. apply Bool.orb_true_r. Qed.
Lemma remove_head : forall x l, remove_id x (x :: l) = l.
Proof. intros. cbn. rewrite Nat.eqb_refl. reflexivity. Qed.
(* returning x then y out of [y; x] ++ l, whether or not the two identities coincide *)
Lemma remove_two : forall x y l,
  owns x (y :: x :: l) = true /\ owns y (remove_id x (y :: x :: l)) = true /\
  remove_id y (remove_id x (y :: x :: l)) = l.
Proof.
  intros x y l. split; [apply owns_cons, owns_head|].
  cbn [remove_id]. destruct (Nat.eqb_spec x y) as [->|N].
  - split; [apply owns_head|apply remove_head].
  - rewrite Nat.eqb_refl. split; [apply owns_head|apply remove_head].
Qed.

Lemma lin_put_last : forall {A} (P : list nat -> Prop) own re r r' (a : A),
  r_id r' = r_id r -> P own -> lin P (r_id r :: own) (PutRunner re (put_reset r') (Ret a)).
Proof.
  intros A P own re r r' a IR H. apply lin_putr; rewrite put_reset_id, IR; [apply owns_head|].
  rewrite remove_head. apply lin_ret. exact H.
Qed.

(* the common tail of matchStringAt / FindAllStringIndex / replaceRunner*: putRunner, then the rune buffer *)
Lemma lin_done : forall (P : list nat -> Prop) own re r b (pooled : bool) (v : result) r' b',
  r_id r' = r_id r -> b_id b' = b_id b -> P own ->
  lin P (if pooled then b_id b :: r_id r :: own else r_id r :: own)
      (PutRunner re (put_reset r') (put_buf_if pooled RuneBuf b' (Ret v))).
Proof.
  intros P own re r b pooled v r' b' IR IB H. destruct pooled; cbn [put_buf_if]; [|apply lin_put_last; assumption].
  destruct (remove_two (r_id r) (b_id b) own) as (O1 & O2 & O3).
  apply lin_putr; rewrite put_reset_id, IR; [exact O1|].
  apply lin_putb; rewrite IB; [exact O2|]. apply lin_ret. rewrite O3. exact H.
Qed.

Definition any_own : list nat -> Prop := fun _ => True.

(* their common head: getRunner, a rune buffer, decodeString (whose fault precedes the deferred Puts) *)
Lemma lin_text_head : forall own re s (k : runner -> buffer -> bool -> list Z -> prog result),
  (forall r b b1 (pooled : bool) text, b_id b1 = b_id b ->
     lin any_own (if pooled then b_id b :: r_id r :: own else r_id r :: own) (k r b1 pooled text)) ->
  lin any_own own
    (GetRunner re (fun r => GetBuf RuneBuf (zlen s) (cfg_max_rune (e_cfg E re)) (fun b pooled =>
       match decode_into E b s with
       | None => Ret (Crash CRASH_INDEX)
       | Some (b1, text) => k r b1 pooled text
       end))).
Proof.
  intros own re s k K. apply lin_getr. intros r. apply lin_getb. intros b pooled.
  destruct (decode_into E b s) as [[b1 text]|] eqn:D; [|apply lin_ret; exact I].
  apply K. exact (decode_into_id _ _ _ _ D).
Qed.

Lemma lin_p_run : forall own re quick ts prevlen text info,
  lin (eq own) own (p_run E re quick ts prevlen text info).
Proof.
  intros. unfold p_run. apply lin_getr. intros r.
  destruct (do_scan E re _ _) as [r2 sr] eqn:D. apply do_scan_id in D. rewrite switch_id in D.
  apply lin_put_last; [exact D|reflexivity].
Qed.

Lemma lin_p_find_string : forall own re s a v, lin (eq own) own (p_find_string E re s a v).
Proof.
  intros. unfold p_find_string. destruct (e_str_start E re s a v) as [[x|]| | |]; try (apply lin_ret; reflexivity).
  apply lin_p_run.
Qed.

Lemma lin_p_match_string_at : forall own re s startAt, lin any_own own (p_match_string_at E re s startAt).
Proof.
  intros. unfold p_match_string_at. apply lin_text_head. intros r b b1 pooled text B.
  destruct (do_scan E re _ _) as [r2 sr] eqn:D. apply do_scan_id in D. rewrite switch_id in D.
  apply lin_done; [exact D|exact B|exact I].
Qed.

Lemma lin_p_find_all_string : forall own fuel re s n, lin any_own own (p_find_all_string E fuel re s n).
Proof.
  intros. unfold p_find_all_string. destruct (n =? 0); [apply lin_ret; exact I|].
  destruct (e_fa_start E re s) as [[startAt|]| | |]; try (apply lin_ret; exact I).
  apply lin_text_head. intros r b b1 pooled text B.
  destruct (find_all_loop E fuel re _ _ _ _ _ _ _) as [r2 out] eqn:L. apply find_all_loop_id in L. rewrite switch_id in L.
  apply lin_done; [exact L|exact B|exact I].
Qed.

Lemma lin_p_find_all_runes : forall own fuel re t n, lin any_own own (p_find_all_runes E fuel re t n).
Proof.
  intros. unfold p_find_all_runes. destruct (n =? 0); [apply lin_ret; exact I|].
  apply lin_getr. intros r.
  destruct (find_all_loop E fuel re _ _ _ _ _ _ _) as [r2 out] eqn:L. apply find_all_loop_id in L. rewrite switch_id in L.
  apply lin_put_last; [exact L|exact I].
Qed.

Lemma lin_p_replace_runner : forall own fuel re data s startAt count,
  lin any_own own (p_replace_runner E fuel re data s startAt count).
Proof.
  intros. unfold p_replace_runner. destruct (zlen s <? startAt); [apply lin_ret; exact I|].
  apply lin_text_head. intros r b b1 pooled text B.
  assert (DONE : forall r' (v : result), r_id r' = r_id r ->
            lin any_own (if pooled then b_id b :: r_id r :: own else r_id r :: own)
                (PutRunner re (put_reset r') (put_buf_if pooled RuneBuf b1 (Ret v)))).
  { intros r' v IR. apply lin_done; [exact IR|exact B|exact I]. }
  destruct ((0 <=? startAt) && (e_rune_start E s startAt <? 0)); [apply DONE; reflexivity|].
  destruct (do_scan E re r _) as [r1 sr] eqn:D. apply do_scan_id in D.
  destruct sr as [m| | | |]; try (apply DONE; exact D).
  apply lin_getb. intros ob opooled.
  destruct (replace_loop E fuel re r1 text m count []) as [[r2 ms] st] eqn:L. apply replace_loop_id in L.
  rewrite D in L. destruct opooled; cbn [put_buf_if]; [|apply DONE; exact L].
  apply lin_putb; rewrite out_buffer_id; [apply owns_head|]. rewrite remove_head. apply DONE. exact L.
Qed.

Lemma lin_next_loop_replf : forall fuel own re text m count acc,
  lin (eq own) own (next_loop_replf E fuel re text m count acc).
Proof.
  induction fuel as [|f IH]; intros; cbn [next_loop_replf]; [apply lin_ret; reflexivity|].
  destruct (count - 1 =? 0); [apply lin_ret; reflexivity|].
  eapply lin_bind; [apply lin_p_run|]. intros o x <-. destruct x as [[m1|]|c|w|]; auto using lin_ret.
Qed.
Lemma lin_split_loop : forall fuel own re text m count acc,
  lin (eq own) own (split_loop E fuel re text m count acc).
Proof.
  induction fuel as [|f IH]; intros; cbn [split_loop]; [apply lin_ret; reflexivity|].
  eapply lin_bind; [apply lin_p_run|]. intros o x <-. destruct x as [[m1|]|c|w|]; auto using lin_ret.
  destruct (0 <? count - 1); auto using lin_ret.
Qed.

(* FindStringMatch, then a loop of FindNextMatch, then the assembly of the output *)
Lemma lin_find_then_loop : forall {A} own re s a v (loop : mdata -> prog (res A)) (none : result) (out : A -> result),
  (forall m, lin (eq own) own (loop m)) ->
  lin any_own own
    (pbind (p_find_string E re s a v) (fun x =>
       match x with
       | Ok None => Ret none
       | Ok (Some m) =>
         pbind (loop m) (fun y =>
           match y with
           | Ok ms => Ret (out ms)
           | Err c => Ret (Err c) | Crash w => Ret (Crash w) | Fuel => Ret Fuel
           end)
       | Err c => Ret (Err c) | Crash w => Ret (Crash w) | Fuel => Ret Fuel
       end)).
Proof.
  intros A own re s a v loop none out L. eapply lin_bind; [apply lin_p_find_string|]. intros o x <-.
  destruct x as [[m|]|c|w|]; try (apply lin_ret; exact I).
  eapply lin_bind; [apply L|]. intros o y <-. destruct y as [ms|c|w|]; apply lin_ret; exact I.
Qed.

Lemma lin_p_replace_tail : forall own fuel re data ev s startAt count,
  lin any_own own (p_replace_tail E fuel re data ev s startAt count).
Proof.
  intros. unfold p_replace_tail. destruct (count <? -1); [apply lin_ret; exact I|].
  destruct (count =? 0); [apply lin_ret; exact I|].
  destruct data as [d|]; [apply lin_p_replace_runner|].
  apply lin_find_then_loop. intros m. apply lin_next_loop_replf.
Qed.

(* regexp.go:208-224 *)
Lemma lin_p_replacer_data : forall {A} own re repl (k : res rdata -> prog A),
  (forall x, lin any_own own (k x)) -> lin any_own own (p_replacer_data E re repl k).
Proof.
  intros A own re repl k K. unfold p_replacer_data. destruct (should_cache (e_cfg E re) repl); [|apply K].
  apply lin_cget. intros [d|]; [apply K|]. destruct (e_parse_repl E re repl) as [d|x|w|]; try apply K.
  apply lin_cadd, K.
Qed.

Lemma lin_p_replace : forall own fuel re s repl a c, lin any_own own (p_replace E fuel re s repl a c).
Proof.
  intros. unfold p_replace. apply lin_p_replacer_data. intros x. apply lin_res; [exact I|].
  intros d. apply lin_p_replace_tail.
Qed.

Lemma lin_p_split : forall own fuel re s count, lin any_own own (p_split E fuel re s count).
Proof.
  intros. unfold p_split. destruct (count <? -1); [apply lin_ret; exact I|].
  destruct (count =? 0); [apply lin_ret; exact I|]. destruct (count =? 1); [apply lin_ret; exact I|].
  apply lin_find_then_loop. intros m. apply lin_split_loop.
Qed.

Lemma lin_bind_ret : forall {A} own (p : prog A) (f : A -> result),
  lin (eq own) own p -> lin any_own own (pbind p (fun x => Ret (f x))).
Proof. intros A own p f H. eapply lin_bind; [exact H|]. intros; apply lin_ret; exact I. Qed.

(* every public entry point, whatever the goroutine already holds when it starts *)
Theorem entry_lin : forall own fuel o, lin any_own own (entry E fuel o).
Proof.
  intros own fuel o. destruct o; cbn [entry].
  - unfold p_match_string. destruct (e_ms_cand E re s); [apply lin_p_match_string_at|apply lin_ret; exact I].
  - apply lin_bind_ret, lin_p_run.
  - apply lin_bind_ret, lin_p_find_string.
  - apply lin_bind_ret, lin_p_find_string.
  - apply lin_bind_ret, lin_p_run.
  - apply lin_bind_ret, lin_p_run.
  - destruct prev as [[[t pos] len]|]; [apply lin_bind_ret, lin_p_run|apply lin_ret; exact I].
  - apply lin_p_find_all_string.
  - apply lin_p_find_all_runes.
  - apply lin_p_replace.
  - apply lin_p_replace_tail.
  - apply lin_p_split.
Qed.


(* ---------- no goroutine ever Puts an object it does not hold, and no identity is ever duplicated ---------- *)

Definition tlin (t : thread) : Prop :=
  match t_cur t with None => True | Some p => lin any_own (t_owned t) p end.

Lemma tstep_own : forall fuel g t pk, tlin t ->
  let '(g1, t1, bad) := tstep E fuel g t pk in
  bad = false /\ tlin t1 /\ ids_step g (t_owned t) g1 (t_owned t1).
Proof.
  intros fuel g t pk L. unfold tlin in *. unfold tstep.
  destruct (t_cur t) as [p|] eqn:TC.
  2:{ destruct (t_rest t) as [|o rest]; cbn [t_cur t_owned]; [rewrite TC|]; auto using ids_refl, entry_lin. }
  destruct p as [v|re k|re r k|bk n m k|bk b k|re key k|re key d k]; inversion L; subst.
  - cbn. auto using ids_refl.
  - pose proof (get_runner_ids g re pk (t_owned t)) as S. destruct (act_get_runner g re pk) as [g1 r]. cbn. auto.
  - match goal with X : owns _ _ = true |- _ => rewrite X; pose proof (put_runner_ids g re r _ X) end. cbn. auto.
  - pose proof (get_buf_ids g bk n m pk (t_owned t)) as S. destruct (act_get_buf g bk n m pk) as [[g1 b] pooled].
    cbn. auto.
  - match goal with X : owns _ _ = true |- _ => rewrite X; pose proof (put_buf_ids g bk b _ X) end. cbn. auto.
  - unfold act_cache_get. destruct (cache_get key (rs_cache (get_rs g re))) as [c o]. cbn. auto using set_cache_ids.
  - unfold act_cache_add. cbn. auto using set_cache_ids.
Qed.

Lemma Forall_upd_nth : forall {A} (P : A -> Prop) l i y, Forall P l -> P y -> Forall P (upd_nth i y l).
Proof.
  intros A P l. induction l as [|x l IH]; intros i y H Py; [destruct i; constructor|].
  inversion H; subst. destruct i; cbn [upd_nth]; constructor; auto.
Qed.

Lemma Forall_nth_error : forall {A} (P : A -> Prop) l i x, Forall P l -> nth_error l i = Some x -> P x.
Proof. intros A P l i x H N. eapply Forall_forall; [exact H|]. eapply nth_error_In; exact N. Qed.

Lemma spawn_lin : forall opss, Forall tlin (map spawn opss).
Proof. intros. apply Forall_forall. intros t X. apply in_map_iff in X. destruct X as (ops & <- & _). exact I. Qed.


Lemma cstep_own : forall fuel c i pk,
  c_fault c = false -> Forall tlin (c_threads c) ->
  c_fault (cstep E fuel c i pk) = false /\ Forall tlin (c_threads (cstep E fuel c i pk)) /\
  (uniq (c_g c) (c_threads c) -> uniq (c_g (cstep E fuel c i pk)) (c_threads (cstep E fuel c i pk))).
Proof.
  intros fuel c i pk F T. unfold cstep. destruct (nth_error (c_threads c) i) as [t|] eqn:N; [|auto].
  pose proof (tstep_own fuel (c_g c) t pk (Forall_nth_error _ _ _ _ T N)) as S.
  destruct (tstep E fuel (c_g c) t pk) as [[g1 t1] bad]. destruct S as (-> & L & S).
  cbn [c_fault c_g c_threads]. rewrite F. split; [reflexivity|]. split; [apply Forall_upd_nth; auto|].
  intros U. exact (uniq_step _ _ _ _ _ _ U N S).
Qed.

Lemma run_sched_own : forall fuel sched c,
  c_fault c = false -> Forall tlin (c_threads c) ->
  c_fault (run_sched E fuel c sched) = false /\
  (uniq (c_g c) (c_threads c) -> uniq (c_g (run_sched E fuel c sched)) (c_threads (run_sched E fuel c sched))).
Proof.
  induction sched as [|[i pk] s IH]; intros c F T; cbn [run_sched]; [auto|].
  destruct (cstep_own fuel c i pk F T) as (F1 & T1 & U1). destruct (IH _ F1 T1) as [F2 U2]. auto.
Qed.

Theorem no_ownership_fault : forall fuel g opss sched,
  c_fault (run_sched E fuel {| c_g := g; c_threads := map spawn opss; c_fault := false |} sched) = false.
Proof. intros fuel g opss sched. apply run_sched_own; [reflexivity|apply spawn_lin]. Qed.

Theorem ownership_invariant : forall fuel nre rsizes bsizes opss sched,
  let c := run_sched E fuel {| c_g := gstate0 nre rsizes bsizes; c_threads := map spawn opss; c_fault := false |} sched in
  c_fault c = false /\
  forall x, (cnt x (pool_ids (c_g c)) + cnt x (held (c_threads c)) <= 1)%nat.
Proof.
  intros fuel nre rsizes bsizes opss sched.
  destruct (run_sched_own fuel sched {| c_g := gstate0 nre rsizes bsizes; c_threads := map spawn opss; c_fault := false |}
              eq_refl (spawn_lin opss)) as [F U].
  split; [exact F|]. intros x. apply (U (uniq0 nre rsizes bsizes opss)).
Qed.

End Own.

(* IgnoreCase on the finite generated domain of Model/FoldD.v: closed statements, checked by
   vm_compute over the table (SimpleFold / ToLower of the Go toolchain on U+0000-U+024F, the plain
   upper/lower pairs of ASCII, Latin-1, Greek and Cyrillic, and their closure). *)
From Coq Require Import FMapPositive.
From Verif Require Import Base.Prelude Model.CharClass Model.FoldD Proofs.CharClassRanges.

From Verif Require Export Proofs.ListFacts.
Definition tkey (r : Z) : positive := Z.to_pos (r + 2).
Definition fold_map : PositiveMap.t (Z * Z) :=
  fold_left (fun m p => PositiveMap.add (tkey (fst p)) (snd p) m) fold_tbl (PositiveMap.empty (Z * Z)).

(* the table as functions; outside the table: no case (identity) *)
Definition fold_t (x : Z) : Z :=
  if x <? 0 then x else match PositiveMap.find (tkey x) fold_map with Some p => fst p | None => x end.
Definition lower_t (x : Z) : Z :=
  if x <? 0 then x else match PositiveMap.find (tkey x) fold_map with Some p => snd p | None => x end.

Definition dom_t : list Z := map fst fold_tbl.
Definition ascii_dom : list Z := map Z.of_nat (seq 0 128).

(* Membership in the table by a lookup in the map instead of a search along dom_t: the closed facts below
   ask it of every rune of the table, and coqchk evaluates them without the bytecode machine. *)
Definition in_tbl (x : Z) : bool := (0 <=? x) && PositiveMap.mem (tkey x) fold_map.

Lemma tbl_keys_nonneg : forallb (fun p => 0 <=? fst p) fold_tbl = true.
Proof. vm_compute. reflexivity. Qed.

Lemma tkey_inj x y : 0 <= x -> 0 <= y -> tkey x = tkey y -> x = y.
Proof. unfold tkey. intros Hx Hy E. apply (f_equal Z.pos) in E. rewrite !Z2Pos.id in E by lia. lia. Qed.

Lemma mem_fold_add x : 0 <= x -> forall (l : list (Z * (Z * Z))) m,
  forallb (fun p => 0 <=? fst p) l = true ->
  PositiveMap.mem (tkey x) (fold_left (fun m p => PositiveMap.add (tkey (fst p)) (snd p) m) l m) =
  PositiveMap.mem (tkey x) m || zmem x (map fst l).
Proof.
  intros Hx. induction l as [|[k v] l IH]; intros m Hl; [symmetry; apply orb_false_r|].
  cbn [forallb fst] in Hl. apply andb_prop in Hl. destruct Hl as [Hk Hl].
  cbn [fold_left map fst snd]. rewrite (IH _ Hl). unfold zmem at 2. cbn [existsb]. fold (zmem x (map fst l)).
  rewrite orb_assoc. f_equal.
  rewrite !PositiveMap.mem_find. destruct (x =? k) eqn:E.
  - apply Z.eqb_eq in E. subst k. rewrite PositiveMap.gss. symmetry. apply orb_true_r.
  - rewrite PositiveMap.gso; [symmetry; apply orb_false_r|].
    intros Ek. apply tkey_inj in Ek; [|lia|lia]. apply Z.eqb_neq in E. contradiction.
Qed.

Lemma zmem_dom_t x : zmem x dom_t = in_tbl x.
Proof.
  unfold in_tbl. destruct (0 <=? x) eqn:E.
  - unfold fold_map, dom_t.
    rewrite (mem_fold_add x ltac:(lia) _ _ tbl_keys_nonneg), PositiveMap.mem_find, PositiveMap.gempty. reflexivity.
  - pose proof tbl_keys_nonneg as H. rewrite forallb_forall in H.
    destruct (zmem x dom_t) eqn:Ez; [|reflexivity]. apply zmem_In in Ez. unfold dom_t in Ez.
    apply in_map_iff in Ez. destruct Ez as [p [<- Hp]]. specialize (H p Hp). lia.
Qed.

Lemma fold_t_outside x : ~ In x dom_t -> fold_t x = x.
Proof.
  intros Hn. unfold fold_t. destruct (x <? 0) eqn:E; [reflexivity|].
  destruct (zmem x dom_t) eqn:Ez; [apply zmem_In in Ez; contradiction|].
  rewrite zmem_dom_t in Ez. unfold in_tbl in Ez. rewrite PositiveMap.mem_find in Ez.
  destruct (PositiveMap.find (tkey x) fold_map); [lia|reflexivity].
Qed.

Lemma forallb_ext {A} (f g : A -> bool) l : (forall x, f x = g x) -> forallb f l = forallb g l.
Proof. intros H. induction l as [|h t IH]; [reflexivity|]. cbn. rewrite H, IH. reflexivity. Qed.

Definition no_cat (_ _ : Z) : bool := false.
Definition orbit_fuel : nat := 8.

(* the class IgnoreCase builds from the single range [a, b]: addLowercase, then addCaseEquivalences *)
Definition ci_class (a b : Z) : res cls :=
  add_case_equivalences no_cat fold_t orbit_fuel (add_lowercase no_cat lower_t (ranges_cls [(a, b)])).

(* ch is in the result iff some member of its SimpleFold orbit is in [a, b]; and the result is
   closed under SimpleFold.  Checked for every ch of the table.  Only needed for the members of the
   table that the general theorem (CharClassCi3.ci_closure) does not reach. *)
Definition ci_range_ok (a b : Z) : bool :=
  match ci_class a b with
  | Ok c =>
    forallb (fun ch =>
               Bool.eqb (mem (ranges c) ch) (existsb (fun x => in_range (a, b) x) (orbit fold_t orbit_fuel ch)) &&
               implb (mem (ranges c) ch) (mem (ranges c) (fold_t ch))) dom_t &&
    negb (neg c) && match cats c with [] => true | _ => false end
  | _ => false
  end.

(* (?i)[\u0130]: addLowercase REPLACES a single member by unicode.ToLower of it (U+0130 -> 'i'), and
   U+0130 has no SimpleFold partner, so the class no longer contains its own member.
   Outside the domain of C16 (U+0130 is not a plain upper/lower pair); reported as an observation. *)
Lemma dotted_I_lost :
  exists c, ci_class 304 304 = Ok c /\ mem (ranges c) 304 = false /\ mem (ranges c) 105 = true.
Proof. eexists. split; [vm_compute; reflexivity|]. split; vm_compute; reflexivity. Qed.

(* the table is closed under both functions and every orbit in it is a cycle of at most 4 runes *)
Definition table_closed_ok : bool :=
  forallb (fun x => zmem (fold_t x) dom_t && zmem (lower_t x) dom_t &&
                    match case_equivalences fold_t orbit_fuel x with
                    | Ok l => (length l <=? 3)%nat && forallb (fun y => zmem x (orbit fold_t orbit_fuel y)) l
                    | _ => false
                    end) dom_t.
Lemma table_closed : table_closed_ok = true.
Proof.
  unfold table_closed_ok. rewrite !forallb_andb.
  rewrite (forallb_ext _ _ dom_t (fun x => zmem_dom_t (fold_t x))), (forallb_ext _ _ dom_t (fun x => zmem_dom_t (lower_t x))).
  vm_compute. reflexivity.
Qed.

(* every member of pair_dom is in the table, its orbit has exactly two members and ToLower picks one of them *)
Definition pair_dom_ok : bool :=
  forallb (fun x => zmem x dom_t &&
                    match case_equivalences fold_t orbit_fuel x with
                    | Ok [y] => negb (y =? x) && ((lower_t x =? x) || (lower_t x =? y)) && (lower_t y =? lower_t x)
                    | _ => false
                    end) pair_dom.
Lemma pair_dom_pairs : pair_dom_ok = true.
Proof. unfold pair_dom_ok. rewrite forallb_andb, (forallb_ext _ _ pair_dom zmem_dom_t). vm_compute. reflexivity. Qed.

Lemma in_ascii_dom x : 0 <= x < 128 -> In x ascii_dom.
Proof.
  intros H. unfold ascii_dom. apply in_map_iff. exists (Z.to_nat x). split; [lia|].
  apply in_seq. lia.
Qed.


Lemma ci_range_ok_spec a b ch : ci_range_ok a b = true -> In ch dom_t ->
  exists c, ci_class a b = Ok c /\ neg c = false /\ cats c = [] /\
            mem (ranges c) ch = existsb (fun x => (a <=? x) && (x <=? b)) (orbit fold_t orbit_fuel ch) /\
            (mem (ranges c) ch = true -> mem (ranges c) (fold_t ch) = true).
Proof.
  intros Hok Hch. unfold ci_range_ok in Hok. destruct (ci_class a b) as [c| | |]; try discriminate.
  exists c. split; [reflexivity|].
  apply andb_prop in Hok. destruct Hok as [Hok Hc]. apply andb_prop in Hok. destruct Hok as [Hok Hn].
  rewrite forallb_forall in Hok. specialize (Hok ch Hch). apply andb_prop in Hok. destruct Hok as [H1 H2].
  split; [destruct (neg c); [discriminate|reflexivity]|].
  split; [destruct (cats c); [reflexivity|discriminate]|].
  split.
  - apply Bool.eqb_prop in H1. exact H1.
  - intros Hm. rewrite Hm in H2. exact H2.
Qed.

Strategy opaque [fold_map dom_t fold_t lower_t ci_class].

(* C13 — the backtracking stack limit: proofs over Model/VM.v.
   The capacity invariant [cap_ok]
     tcap <= limit (when a limit is set), |track| <= tcap, |stack| <= scap
   holds initially and is preserved by every interpreter step, hence by run / exec_at / scan / find. *)
From Verif Require Import Base.Prelude Model.Tree Model.Spec Model.VM Gen.RunnerGen.
From Verif Require Export Proofs.VMPlan.
From Coq Require Import ZifyBool.

Lemma vml_zlen_nil {A} : zlen (@nil A) = 0.
Proof. exact zlen_nil. Qed.

Definition cap_ok (limit : Z) (s : vm) : Prop :=
  (0 <= limit -> tcap s <= limit) /\ zlen (track s) <= tcap s /\ zlen (stack s) <= scap s.

Definition out_ok (limit : Z) (o : outcome) : Prop :=
  match o with
  | Next s | Done s => cap_ok limit s
  | _ => True
  end.

Ltac vml_lens :=
  repeat match goal with
         | |- context [zlen (skipn ?k ?l)] =>
             lazymatch goal with
             | _ : zlen (skipn k l) <= zlen l |- _ => fail
             | _ => pose proof (zlen_skipn_le k l)
             end
         end;
  repeat match goal with
         | H : rev ?l = ?x :: ?r |- context [zlen (rev (?y :: ?r))] =>
             rewrite (vml_zlen_rev_swap l x y r H)
         end;
  rewrite ?zlen_app in *; rewrite ?zlen_cons in *;
  change (zlen (@nil Z)) with 0 in *.

Ltac cap_solve :=
  unfold cap_ok in *;
  cbn [pc mode tp track tcap stack scap crawl mcaps
       set_pc set_tp set_track set_stack set_caps set_tcap set_scap] in *;
  repeat match goal with
         | H : _ /\ _ |- _ => destruct H
         end;
  vml_lens; lia.

Section Limit.
Variable e : env.
Variable p : program.
Variable limit : Z.

Lemma cap_ok_init t : 0 <= trackcount p -> cap_ok limit (init_vm p limit t).
Proof.
  intros Htc. unfold cap_ok, init_vm. vm_cbn. change (zlen (@nil Z)) with 0.
  unfold G_tracksize_mul, G_tracksize_min, G_stacksize_mul, G_stacksize_min.
  destruct ((0 <=? limit) && (limit <? Z.max (trackcount p * 8) 64)) eqn:E; lia.
Qed.

(* without the side condition on trackcount as well: the minimum sizes are positive *)
Lemma cap_ok_init_any t : cap_ok limit (init_vm p limit t).
Proof.
  unfold cap_ok, init_vm. vm_cbn. change (zlen (@nil Z)) with 0.
  unfold G_tracksize_mul, G_tracksize_min, G_stacksize_mul, G_stacksize_min.
  destruct ((0 <=? limit) && (limit <? Z.max (trackcount p * 8) 64)) eqn:E; lia.
Qed.

Lemma cap_ok_tpush s ws s' : tpush s ws = Ok s' -> cap_ok limit s -> cap_ok limit s'.
Proof.
  unfold tpush. intros H C. destruct (tcap s <? zlen (track s) + zlen ws) eqn:E; [discriminate|].
  injection H as <-. cap_solve.
Qed.

Lemma cap_ok_spush s ws s' : spush s ws = Ok s' -> cap_ok limit s -> cap_ok limit s'.
Proof.
  unfold spush. intros H C. destruct (scap s <? zlen (stack s) + zlen ws) eqn:E; [discriminate|].
  injection H as <-. cap_solve.
Qed.

Lemma cap_ok_ensure s s' : ensure_storage p limit s = Ok s' -> cap_ok limit s -> cap_ok limit s'.
Proof.
  rewrite ensure_storage_eq. intros H (C1 & C2 & C3).
  destruct (grow_tcap _ _ _ _) as [tc'|] eqn:G; [|discriminate]. injection H as <-.
  apply grow_tcap_spec in G. pose proof (zlen_nonneg (stack s)).
  pose proof (grow_scap_le (scap s) (zlen (stack s)) (trackcount p * G_ensure_factor) ltac:(lia)).
  unfold cap_ok, with_caps. vm_cbn. lia.
Qed.

Lemma cap_ok_goto s n s' : goto p limit s n = Ok s' -> cap_ok limit s -> cap_ok limit s'.
Proof.
  unfold goto. intros H C.
  destruct (n <=? pc s).
  - destruct (ensure_storage p limit s) as [s1| | |] eqn:E; cbn [bind] in H; try discriminate.
    apply cap_ok_ensure in E; [|assumption].
    destruct (code_at p n); [|discriminate]. injection H as <-. cap_solve.
  - cbn [bind] in H. destruct (code_at p n); [|discriminate]. injection H as <-. cap_solve.
Qed.

Lemma cap_ok_advance s i s' : advance p s i = Ok s' -> cap_ok limit s -> cap_ok limit s'.
Proof.
  unfold advance. intros H C. destruct (code_at p (pc s + i + 1)); [|discriminate].
  injection H as <-. cap_solve.
Qed.

Lemma cap_ok_backtrack s s' : backtrack p limit s = Ok s' -> cap_ok limit s -> cap_ok limit s'.
Proof.
  unfold backtrack. intros H C. destruct (track s) as [|np t] eqn:Et; [discriminate|].
  assert (C1 : cap_ok limit (set_track s t)) by (unfold cap_ok in C; rewrite Et in C; cap_solve).
  destruct (if np <? 0 then (- np, Back2Bit) else (np, BackBit)) as [newpos m].
  destruct (code_at p newpos); [|discriminate].
  destruct (newpos <? pc s).
  - destruct (ensure_storage p limit (set_track s t)) as [s1| | |] eqn:E; cbn [bind] in H; try discriminate.
    apply cap_ok_ensure in E; [|assumption]. injection H as <-. cap_solve.
  - cbn [bind] in H. injection H as <-. cap_solve.
Qed.

Lemma cap_ok_uop u s a : run_uop u s = Ok a -> cap_ok limit s -> cap_ok limit a.
Proof.
  intros H C.
  destruct u; try (apply uop_sizes in H; unfold sizes_le, cap_ok in *; cbn [tpushed spushed] in H; lia).
  - exact (cap_ok_tpush _ _ _ H C).
  - exact (cap_ok_spush _ _ _ H C).
Qed.

Lemma cap_ok_uops us : forall s a, run_uops us s = Ok a -> cap_ok limit s -> cap_ok limit a.
Proof.
  induction us as [|u us IH]; intros s a H C; cbn [run_uops] in H; [injection H as <-; exact C|].
  destruct (run_uop u s) as [s1| | |] eqn:E; try discriminate.
  exact (IH _ _ H (cap_ok_uop _ _ _ E C)).
Qed.

Lemma cap_ok_trackto s n s' : trackto s n = Ok s' -> cap_ok limit s -> cap_ok limit s'.
Proof. exact (cap_ok_uop (UTrackTo n) s s'). Qed.

Lemma cap_ok_set_caps s c m : cap_ok limit s -> cap_ok limit (set_caps s c m).
Proof. intros C. cap_solve. Qed.
Lemma cap_ok_set_tp s t : cap_ok limit s -> cap_ok limit (set_tp s t).
Proof. exact (cap_ok_uop (UTp t) s _ eq_refl). Qed.

Lemma cap_ok_do_capture s a x t s' : do_capture s a x t = Ok s' -> cap_ok limit s -> cap_ok limit s'.
Proof. exact (cap_ok_uop (UCapture a x t) s s'). Qed.

Lemma cap_ok_do_transfer s a b x t s' : do_transfer s a b x t = Ok s' -> cap_ok limit s -> cap_ok limit s'.
Proof. exact (cap_ok_uop (UTransfer a b x t) s s'). Qed.

(* the three ways a step ends *)
Lemma out_ok_cont_advance s i o : cont (advance p s i) = Ok o -> cap_ok limit s -> out_ok limit o.
Proof.
  unfold cont. intros H C. destruct (advance p s i) as [s1| | |] eqn:E; cbn [bind] in H; try discriminate.
  injection H as <-. cbn [out_ok]. eapply cap_ok_advance; eassumption.
Qed.
Lemma out_ok_cont_goto s a o : cont (goto p limit s a) = Ok o -> cap_ok limit s -> out_ok limit o.
Proof.
  unfold cont. intros H C. destruct (goto p limit s a) as [s1| | |] eqn:E; cbn [bind] in H; try discriminate.
  injection H as <-. cbn [out_ok]. eapply cap_ok_goto; eassumption.
Qed.
Lemma out_ok_brk s o : brk p limit s = Ok o -> cap_ok limit s -> out_ok limit o.
Proof.
  unfold brk. intros H C. destruct (backtrack p limit s) as [s1| | |] eqn:E; cbn [bind] in H; try discriminate.
  injection H as <-. cbn [out_ok]. eapply cap_ok_backtrack; eassumption.
Qed.

Lemma step_cap_ok s o : step e p limit s = Ok o -> cap_ok limit s -> out_ok limit o.
Proof.
  intros H C. destruct (code_at p (pc s)) as [w|] eqn:Hw; [|rewrite step_no_code in H by exact Hw; discriminate].
  destruct (step_plan1 e p s w Hw) as (us & x & _ & Hs). rewrite Hs, exec_bind in H.
  destruct (run_uops us s) as [a| | |] eqn:E; try discriminate. apply cap_ok_uops in E; [|exact C].
  destruct x; cbn [bind run_exit] in H.
  - exact (out_ok_cont_advance _ _ _ H E).
  - exact (out_ok_cont_goto _ _ _ H E).
  - exact (out_ok_brk _ _ H E).
  - injection H as <-. exact E.
  - discriminate.
Qed.

Lemma step_cap_ok' s s' :
  step e p limit s = Ok (Next s') \/ step e p limit s = Ok (Done s') -> cap_ok limit s -> cap_ok limit s'.
Proof. intros [H|H] C; apply (step_cap_ok _ _ H C). Qed.

Lemma run_steps_cap_ok k : forall s s' b,
  run_steps e p limit k s = Ok (s', b) -> cap_ok limit s -> cap_ok limit s'.
Proof.
  induction k as [|k IH]; intros s s' b H C; cbn [run_steps] in H.
  - injection H as <- <-. exact C.
  - destruct (step e p limit s) as [o| | |] eqn:E; try discriminate.
    pose proof (step_cap_ok _ _ E C) as Co.
    destruct o as [s1|s1|c|w]; try discriminate.
    + eapply IH; [exact H|exact Co].
    + injection H as <- <-. exact Co.
Qed.

Lemma run_cap_ok fuel : forall s s', run e p limit fuel s = Ok s' -> cap_ok limit s -> cap_ok limit s'.
Proof.
  induction fuel as [|f IH]; intros s s' H C; cbn [run] in H; [discriminate|].
  destruct (run_steps e p limit 1000 s) as [[s1 b]| | |] eqn:E; cbn [bind] in H; try discriminate.
  pose proof (run_steps_cap_ok _ _ _ _ E C) as C1. cbn [fst snd] in H.
  destruct b; [injection H as <-; exact C1|]. eapply IH; eassumption.
Qed.

Lemma exec_at_cap_ok fuel t s' : exec_at e p limit fuel t = Ok s' -> cap_ok limit s'.
Proof.
  unfold exec_at. intros H.
  destruct (goto p limit (init_vm p limit t) 0) as [s0| | |] eqn:E; cbn [bind] in H; try discriminate.
  eapply run_cap_ok; [exact H|]. eapply cap_ok_goto; [exact E|]. apply cap_ok_init_any.
Qed.

Lemma scan_cap_ok fuel n : forall rtl s t s',
  vm_scan_from e p limit fuel n rtl s t = Ok (Some s') -> cap_ok limit s -> cap_ok limit s'.
Proof.
  induction n as [|n IH]; intros rtl s t s' H C; cbn [vm_scan_from] in H; [discriminate|].
  match type of H with context [goto p limit ?x 0] => set (s0 := x) in *; assert (C0 : cap_ok limit s0) end.
  { subst s0. unfold cap_ok in *. vm_cbn. change (zlen (@nil Z)) with 0.
    pose proof (zlen_nonneg (track s)). pose proof (zlen_nonneg (stack s)). lia. }
  destruct (goto p limit s0 0) as [s1| | |] eqn:E1; cbn [bind] in H; try discriminate.
  destruct (run e p limit fuel s1) as [s2| | |] eqn:E2; cbn [bind] in H; try discriminate.
  assert (C2 : cap_ok limit s2).
  { eapply run_cap_ok; [exact E2|]. eapply cap_ok_goto; eassumption. }
  destruct (matched0 s2); [injection H as <-; exact C2|].
  destruct (if rtl then t <=? 0 else tlen e <=? t); [discriminate|].
  eapply IH; eassumption.
Qed.

Lemma find_cap_ok fuel rtl start prevlen s' :
  vm_find e p limit fuel rtl start prevlen = Ok (Some s') -> cap_ok limit s'.
Proof.
  unfold vm_find. intros H.
  destruct ((prevlen =? 0) && (start =? (if rtl then 0 else tlen e))); [discriminate|].
  eapply scan_cap_ok; [exact H|]. apply cap_ok_init_any.
Qed.

End Limit.

(* The allocated backtracking stack never exceeds the limit: at every state the interpreter goes
   through (every prefix of the step sequence), in particular in the state a match call returns. *)
Theorem vml_track_never_exceeds_limit :
  forall e p limit,
    (forall t, cap_ok limit (init_vm p limit t)) /\
    (forall s s', step e p limit s = Ok (Next s') \/ step e p limit s = Ok (Done s') ->
                  cap_ok limit s -> cap_ok limit s') /\
    (forall fuel rtl start prevlen s',
        vm_find e p limit fuel rtl start prevlen = Ok (Some s') ->
        (0 <= limit -> tcap s' <= limit) /\ zlen (track s') <= tcap s').
Proof.
  intros e p limit. split; [|split].
  - apply cap_ok_init_any.
  - apply step_cap_ok'.
  - intros fuel rtl start prevlen s' H. apply find_cap_ok in H. unfold cap_ok in H. tauto.
Qed.

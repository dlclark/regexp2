(* One case analysis of VM.step for all the proofs that have to look at every opcode.

   Whatever the opcode and the entry mode, a step first READS (the code word and its operands, the tops of the
   two stacks, the text, the captures), then runs a short straight line of state operations [uop] -- pops,
   pushes, trackto, Capture / uncapture -- and leaves through one of four exits [uexit]: advance, goTo,
   backtrack or Stop.  [step_plan] says so: the line and the exit (the "plan") are determined by the fields
   of the state other than the two capacities, and [step] with any limit and any capacities is the execution
   [exec] of that plan.  The only operations that look at a capacity are the two pushes, and the only exits
   that look at the limit are goTo and backtrack (through ensureStorage).

   What the clients need to know about a plan beyond its shape is how much it can push ([plan_ok]): at most
   [op_pushes] words on the backtracking stack (the weight VMCapacityProofs.cp_weight gives the opcode),
   at most two on the grouping stack, and nothing on the backtracking stack before a backtrack or Stop.
   For the conformance with the table generated from runner.go (Proofs/VMEffectProofs.v) the plan's effect
   -- words popped and pushed on the three stacks, exit -- is computed from it ([plan_eff]) and looked up in
   Gen.EffectGen.G_effects_x under the step's case code ([plan_conf]). *)
From Verif Require Import Base.Prelude Model.Tree Model.Spec Model.VM Gen.CodeGen Gen.RunnerGen Gen.EffectGen.
From Verif Require Export Proofs.ListFacts.
From Coq Require Import ZifyBool.

Lemma vml_zlen_rev_swap {A} (l : list A) x y r : rev l = x :: r -> zlen (rev (y :: r)) = zlen l.
Proof.
  intros H. rewrite zlen_rev, zlen_cons, <- (zlen_rev l), H, zlen_cons. reflexivity.
Qed.

(* the reduction used everywhere: record projections, setters and [bind] only *)
Ltac vm_cbn :=
  cbn [pc mode tp track tcap stack scap crawl mcaps
       set_pc set_tp set_track set_stack set_caps set_tcap set_scap bind].
Ltac vm_cbn_in H :=
  cbn [pc mode tp track tcap stack scap crawl mcaps
       set_pc set_tp set_track set_stack set_caps set_tcap set_scap bind] in H.

Inductive uop :=
| UPopT (n : nat) | UPopS (n : nat) | UTp (t : Z)
| UTpush (ws : list Z) | USpush (ws : list Z)
| UTrackTo (n : Z) | URoot (v : Z)
| UCapture (c st en : Z) | UTransfer (c u st en : Z) | UUncap | UUncapTo (f : nat) (n : Z).

Inductive uexit := XAdv (i : Z) | XGoto (a : Z) | XBrk | XDone | XCrash (why : Z).

Definition run_uop (u : uop) (s : vm) : res vm :=
  match u with
  | UPopT n => if (n <=? length (track s))%nat then Ok (set_track s (skipn n (track s))) else Crash C_track
  | UPopS n => if (n <=? length (stack s))%nat then Ok (set_stack s (skipn n (stack s))) else Crash C_stack
  | UTp t => Ok (set_tp s t)
  | UTpush ws => tpush s ws
  | USpush ws => spush s ws
  | UTrackTo n => trackto s n
  | URoot v => match rev (track s) with
               | [] => Crash C_track
               | _ :: rest => Ok (set_track s (rev (v :: rest)))
               end
  | UCapture c st en => do_capture s c st en
  | UTransfer c u st en => do_transfer s c u st en
  | UUncap => uncapture s
  | UUncapTo f n => uncapture_to f s n
  end.

Fixpoint run_uops (us : list uop) (s : vm) : res vm :=
  match us with
  | [] => Ok s
  | u :: us' => do s1 <- run_uop u s ; run_uops us' s1
  end.

Fixpoint tpushed (us : list uop) : Z :=
  match us with
  | [] => 0
  | UTpush ws :: us' => zlen ws + tpushed us'
  | _ :: us' => tpushed us'
  end.
Fixpoint spushed (us : list uop) : Z :=
  match us with
  | [] => 0
  | USpush ws :: us' => zlen ws + spushed us'
  | _ :: us' => spushed us'
  end.

Definition op_pushes (op : Z) : Z :=
  if op =? Goto then 0 else if op =? Nullmark then 1 else if zmem op opcode_backtracks_list then 4 else 0.

Definition plan_ok (k : Z) (us : list uop) (x : uexit) : Prop :=
  tpushed us <= k /\ spushed us <= 2 /\
  match x with XAdv i => 0 <= i <= 2 | XBrk | XDone => tpushed us = 0 | _ => True end.

Lemma plan_ok_intro k us x :
  (tpushed us <=? k) && (spushed us <=? 2) &&
  match x with XAdv i => (0 <=? i) && (i <=? 2) | XBrk | XDone => tpushed us =? 0 | _ => true end = true ->
  plan_ok k us x.
Proof. unfold plan_ok. destruct x; lia. Qed.

Lemma op_pushes_nonneg op : 0 <= op_pushes op.
Proof. unfold op_pushes. destruct (op =? Goto), (op =? Nullmark), (zmem op opcode_backtracks_list); lia. Qed.

Lemma plan_ok_crash op why : plan_ok (op_pushes op) [] (XCrash why).
Proof. split; [apply op_pushes_nonneg|split; [discriminate|exact I]]. Qed.


(* ---------- the effect of a plan, in the terms of the table Gen.EffectGen.G_effects_x ---------- *)
(* track words popped, pushed; stack words popped, pushed; flags (1 trackto, 2 root slot);
   capture-undo stack: fewest pushes, most pushes, pops, 1 for "popped down to a saved height".
   None where pops follow pushes: the table's tuples cannot describe such a line, and no plan has one. *)
Definition peff : Type := (Z * Z * Z * Z * Z * (Z * Z * Z * Z))%type.

Definition peff_uop (a : peff) (u : uop) : option peff :=
  let '(tp, tq, sp, sq, fl, (c1, c2, cp, cl)) := a in
  match u with
  | UPopT n => if (tq =? 0) && (fl =? 0) then Some (tp + Z.of_nat n, tq, sp, sq, fl, (c1, c2, cp, cl)) else None
  | UTpush ws => if fl =? 2 then None else Some (tp, tq + zlen ws, sp, sq, fl, (c1, c2, cp, cl))
  | UTrackTo _ => if (tq =? 0) && (fl =? 0) then Some (tp, tq, sp, sq, 1, (c1, c2, cp, cl)) else None
  | URoot _ => if (tp =? 0) && (tq =? 0) && (fl =? 0) then Some (tp, tq, sp, sq, 2, (c1, c2, cp, cl)) else None
  | UPopS n => if sq =? 0 then Some (tp, tq, sp + Z.of_nat n, sq, fl, (c1, c2, cp, cl)) else None
  | USpush ws => Some (tp, tq, sp, sq + zlen ws, fl, (c1, c2, cp, cl))
  | UTp _ => Some a
  | UCapture _ _ _ => if cl =? 0 then Some (tp, tq, sp, sq, fl, (c1 + 1, c2 + 1, cp, cl)) else None
  | UTransfer _ _ _ _ => if cl =? 0 then Some (tp, tq, sp, sq, fl, (c1 + 1, c2 + 2, cp, cl)) else None
  | UUncap => if (c1 =? 0) && (c2 =? 0) && (cl =? 0) then Some (tp, tq, sp, sq, fl, (c1, c2, cp + 1, cl)) else None
  | UUncapTo _ _ => if (c1 =? 0) && (c2 =? 0) && (cp =? 0) && (cl =? 0) then Some (tp, tq, sp, sq, fl, (c1, c2, cp, 1)) else None
  end.

Fixpoint plan_eff (a : peff) (us : list uop) : option peff :=
  match us with
  | [] => Some a
  | u :: us' => match peff_uop a u with Some a' => plan_eff a' us' | None => None end
  end.

(* the table's exit codes; every goTo of [step] goes to operand 0 *)
Definition exit_code (x : uexit) : Z :=
  match x with XAdv i => i | XGoto _ => 10 | XBrk => 20 | XDone => 30 | XCrash _ => 31 end.

(* a tuple of the table describes a line with this effect leaving by this exit *)
Definition path_covers (ex : Z) (a : peff) (pt : Z * Z * Z * Z * Z * Z * Z) : bool :=
  let '(tp, tq, sp, sq, fl, (c1, c2, cp, cl)) := a in
  let '(tpop, tpush, spop, spush, ex', fl', cw) := pt in
  (ex' =? ex) && (fl' =? fl) && ((fl =? 1) || (tpop =? tp)) && (tpush =? tq) && (spop =? sp) && (spush =? sq) &&
  (cw / 1000 =? cl) && ((cw / 100) mod 10 =? cp) &&
  (if cl =? 0 then (cw mod 10 <=? c1) && (c2 <=? (cw / 10) mod 10) else (cw mod 10 =? 0) && ((cw / 10) mod 10 =? 0)).

Definition plan_in_table (c : Z) (us : list uop) (x : uexit) : bool :=
  match x with
  | XCrash _ => true
  | _ => match plan_eff (0, 0, 0, 0, 0, (0, 0, 0, 0)) us, List.find (fun kv => c =? fst kv) G_effects_x with
         | Some a, Some kv => existsb (path_covers (exit_code x) a) (snd kv)
         | _, _ => false
         end
  end.

(* the opcodes [step] has a case for, per entry mode *)
Definition step_ops (m : Z) : list Z :=
  if m =? 0 then
    [Stop; Nothing; Goto; Testref; Lazybranch; Setmark; Nullmark; Getmark; Capturemark; Branchmark; Lazybranchmark;
     Setcount; Nullcount; Branchcount; Lazybranchcount; Setjump; Backjump; Forejump; Bol; Eol; Boundary; Nonboundary;
     ECMABoundary; NonECMABoundary; Beginning; Start; EndZ; EndOp; One; Notone; SetOp; Multi; Ref; Onerep; Notonerep;
     Setrep; Oneloop; Notoneloop; Setloop; Oneloopatomic; Notoneloopatomic; Setloopatomic; Onelazy; Notonelazy;
     Setlazy; UpdateBumpalong]
  else if m =? BackBit then
    [Lazybranch; Setmark; Nullmark; Getmark; Capturemark; Branchmark; Lazybranchmark; Setcount; Nullcount;
     Branchcount; Lazybranchcount; Setjump; Forejump; Oneloop; Notoneloop; Setloop; Onelazy; Notonelazy; Setlazy]
  else [Branchmark; Lazybranchmark; Branchcount; Lazybranchcount].

(* the source's r.operator for a model state: opcode | Back | Back2 *)
Definition case_code (op m : Z) : Z := op + (if m =? 0 then 0 else if m =? BackBit then G_Back else G_Back2).

Section Plan.
Variable e : env.
Variable p : program.

Definition run_exit (L : Z) (x : uexit) (s : vm) : res outcome :=
  match x with
  | XAdv i => cont (advance p s i)
  | XGoto a => cont (goto p L s a)
  | XBrk => brk p L s
  | XDone => Ok (Done s)
  | XCrash why => Crash why
  end.

(* [exec] nests the binds the way [step] does, so that a branch of [step] is convertible with the execution
   of its plan; the proofs use the form of [exec_bind] *)
Fixpoint exec (L : Z) (us : list uop) (x : uexit) (s : vm) : res outcome :=
  match us with
  | [] => run_exit L x s
  | u :: us' => do s1 <- run_uop u s ; exec L us' x s1
  end.

Lemma exec_bind L x us : forall s, exec L us x s = bind (run_uops us s) (run_exit L x).
Proof.
  induction us as [|u us IH]; intros s; cbn [exec run_uops bind]; [reflexivity|].
  destruct (run_uop u s); cbn [bind]; [apply IH|reflexivity..].
Qed.

Ltac plan_cbv :=
  cbv beta iota zeta delta
      [pc mode tp track tcap stack scap crawl mcaps
       set_pc set_tp set_track set_stack set_caps set_tcap set_scap].

Ltac plan_case :=
  match goal with
  | |- context [match ?x with _ => _ end] =>
      lazymatch x with
      | context [match _ with _ => _ end] => fail
      | _ => destruct x eqn:?
      end
  end.

(* how many words were popped off [l] to leave [T] *)
Ltac plan_depth l T :=
  lazymatch l with
  | T => constr:(O)
  | _ :: ?l' => let n := plan_depth l' T in constr:(S n)
  end.

(* the pure operations that lead from the state with text position t0, track tr and stack st to S *)
Ltac plan_state S t0 tr st :=
  lazymatch S with
  | Build_vm _ _ ?t ?T _ ?K _ _ _ =>
      let u1 := lazymatch T with
                | tr => constr:(@nil uop)
                | rev (?v :: _) => constr:([URoot v])
                | _ => let n := plan_depth tr T in constr:([UPopT n])
                end in
      let u2 := lazymatch K with
                | st => constr:(@nil uop)
                | _ => let n := plan_depth st K in constr:([UPopS n])
                end in
      let u3 := lazymatch t with
                | t0 => constr:(@nil uop)
                | _ => constr:([UTp t])
                end in
      constr:(u1 ++ u2 ++ u3)
  end.

(* read the plan off a branch t of [step] without matches; a continuation is read at the initial state S0 *)
Ltac plan_reify t S0 t0 tr st :=
  let next pre u k :=
    let t' := eval cbv beta iota delta
                [pc mode tp track tcap stack scap crawl mcaps
                 set_pc set_tp set_track set_stack set_caps set_tcap set_scap] in (k S0) in
    lazymatch plan_reify t' S0 t0 tr st with
    | (?us, ?x) => constr:((pre ++ u :: us, x))
    end in
  lazymatch t with
  | bind (tpush ?S ?ws) ?k => let pre := plan_state S t0 tr st in next pre (UTpush ws) k
  | bind (spush ?S ?ws) ?k => let pre := plan_state S t0 tr st in next pre (USpush ws) k
  | bind (trackto ?S ?n) ?k => let pre := plan_state S t0 tr st in next pre (UTrackTo n) k
  | bind (uncapture ?S) ?k => let pre := plan_state S t0 tr st in next pre UUncap k
  | bind (uncapture_to ?f ?S ?n) ?k => let pre := plan_state S t0 tr st in next pre (UUncapTo f n) k
  | bind (do_capture ?S ?c ?a ?b) ?k => let pre := plan_state S t0 tr st in next pre (UCapture c a b) k
  | bind (do_transfer ?S ?c ?u ?a ?b) ?k => let pre := plan_state S t0 tr st in next pre (UTransfer c u a b) k
  | cont (advance _ ?S ?i) => let pre := plan_state S t0 tr st in constr:((pre, XAdv i))
  | cont (goto _ _ ?S ?a) => let pre := plan_state S t0 tr st in constr:((pre, XGoto a))
  | brk _ _ ?S => let pre := plan_state S t0 tr st in constr:((pre, XBrk))
  | Ok (Done ?S) => let pre := plan_state S t0 tr st in constr:((pre, XDone))
  | if _ then ?a else _ => plan_reify a S0 t0 tr st   (* UpdateBumpalong's test on the capacity: equal branches *)
  | Crash ?why => constr:((@nil uop, XCrash why))
  end.

(* the opcode of a branch: the test that succeeded names it, and then the ones that failed are dropped;
   in the three "unknown opcode" branches every test has failed, and they are kept *)
Ltac plan_fix_op op :=
  try (match goal with X : _ = true |- _ => lazymatch type of X with context [op] => idtac end end;
       repeat match goal with
              | X : (op =? _) = false |- _ => clear X
              | X : (_ || _) = false |- _ => lazymatch type of X with context [op] => clear X end
              end;
       repeat match goal with
              | X : (_ || _) = true |- _ =>
                  lazymatch type of X with context [op] => apply orb_true_iff in X; destruct X as [X|X] end
              end;
       match goal with
       | X : (op =? _) = true |- _ => apply Z.eqb_eq in X; subst op
       end).

(* what the table of Gen.EffectGen can be asked about a plan of opcode op entered in mode m at position c0 *)
Definition plan_conf (c0 op m : Z) (us : list uop) (x : uexit) : Prop :=
  (match x with XCrash why => why =? C_unknown_op | _ => false end) = negb (zmem op (step_ops m)) /\
  plan_in_table (case_code op m) us x = true /\
  match x with XGoto a => code_at p (c0 + 0 + 1) = Some a | XCrash _ => us = [] | _ => True end.

Definition with_caps (s : vm) (tc sc : Z) : vm := set_scap (set_tcap s tc) sc.

Lemma step_plan s w :
  code_at p (pc s) = Some w ->
  exists us x, plan_ok (op_pushes (Z.land w 63)) us x /\ plan_conf (pc s) (Z.land w 63) (mode s) us x /\
    forall L tc sc, step e p L (with_caps s tc sc) = exec L us x (with_caps s tc sc).
Proof.
  destruct s as [pc0 md t0 tr tc0 st sc0 cr mc]. unfold with_caps. cbn [pc mode].
  intros Hw. unfold step, opnd, fwdchars. plan_cbv. rewrite Hw.
  set (op := Z.land w 63). clearbody op.
  repeat (plan_cbv; cbn [bind]; plan_case).
  all: plan_cbv; cbn [bind]; plan_fix_op op.
  (* an atomic loop never takes the pushing branch *)
  all: try match goal with
           | X : (43 <=? _) = _ |- _ => vm_compute in X; discriminate X
           | X : _ && negb true = true |- _ => apply andb_true_iff in X; destruct X as [_ X]; discriminate X
           end.
  (* every branch is now a straight line; its plan is read with the limit and the capacities set to 0, so
     that it cannot mention them *)
  all: lazymatch goal with
       | |- exists us x, _ /\ _ /\ forall L tc sc, @?T L tc sc = exec _ _ _ (@?S tc sc) =>
           let t := eval cbv beta in (T 0 0 0) in
           let S0 := eval cbv beta in (S 0 0) in
           lazymatch S0 with
           | Build_vm _ _ ?t1 ?tr1 _ ?st1 _ _ _ =>
               lazymatch plan_reify t S0 t1 tr1 st1 with
               | (?us, ?x) => let us' := eval cbv [app] in us in exists us', x
               end
           end
       end.
  all: unfold plan_conf, case_code, step_ops;
       repeat match goal with
              | X : (_ =? 0) = _ |- _ => rewrite X; clear X
              | X : (_ =? BackBit) = _ |- _ => rewrite X; clear X
              end.
  all: split; [first [apply plan_ok_intro; reflexivity | apply plan_ok_crash]
              |split; [split; [try reflexivity|split; [reflexivity|first [exact I|reflexivity|assumption]]]
                      |intros L tc sc; try reflexivity]].
  (* an opcode that has failed every test is not in [step_ops] *)
  all: try (lazymatch goal with |- _ = negb (zmem _ _) => cbv [zmem existsb] end;
            repeat match goal with X : (_ || _) = false |- _ => apply orb_false_iff in X; destruct X end;
            repeat match goal with X : (_ =? _) = false |- _ => rewrite X; clear X end; reflexivity).
  (* UpdateBumpalong: the test on the capacity has two equal branches *)
  all: cbn [exec run_uop track];
       try match goal with X : rev _ = _ :: _ |- _ => rewrite X end;
       destruct (zlen _ =? _); reflexivity.
Qed.

Lemma with_caps_id s : with_caps s (tcap s) (scap s) = s.
Proof. destruct s; reflexivity. Qed.

Lemma step_plan1 s w :
  code_at p (pc s) = Some w ->
  exists us x, plan_ok (op_pushes (Z.land w 63)) us x /\ forall L, step e p L s = exec L us x s.
Proof.
  intros Hw. destruct (step_plan s w Hw) as (us & x & Hok & _ & Hs). exists us, x. split; [exact Hok|].
  intros L. specialize (Hs L (tcap s) (scap s)). rewrite with_caps_id in Hs. exact Hs.
Qed.

Lemma step_plan2 s1 s2 w :
  code_at p (pc s1) = Some w -> s2 = with_caps s1 (tcap s2) (scap s2) ->
  exists us x, plan_ok (op_pushes (Z.land w 63)) us x /\
    forall L1 L2, step e p L1 s1 = exec L1 us x s1 /\ step e p L2 s2 = exec L2 us x s2.
Proof.
  intros Hw E. destruct (step_plan s1 w Hw) as (us & x & Hok & _ & Hs). exists us, x. split; [exact Hok|].
  intros L1 L2. pose proof (Hs L1 (tcap s1) (scap s1)) as H1. rewrite with_caps_id in H1.
  pose proof (Hs L2 (tcap s2) (scap s2)) as H2. rewrite <- E in H2. split; assumption.
Qed.

Lemma step_no_code L s : code_at p (pc s) = None -> step e p L s = Crash C_code.
Proof. intros H. unfold step. rewrite H. reflexivity. Qed.

End Plan.

(* What ensureStorage / growTrack do to the two capacities, as arithmetic: the grouping stack doubles when fewer
   than [need] slots are free; the backtracking stack doubles (at least to 1, at most to the limit) when fewer
   than [need] are free, and the call is refused when that does not make it longer or still leaves too few. *)
Definition grow_scap (sc n need : Z) : Z := if sc - n <? need then sc * 2 else sc.
Definition grow_tcap (L tc n need : Z) : option Z :=
  if tc - n <? need then
    let nl0 := if tc * 2 =? 0 then 1 else tc * 2 in
    let nl := if (0 <=? L) && (L <? nl0) then L else nl0 in
    if nl <=? tc then None else if nl - n <? need then None else Some nl
  else Some tc.

Lemma ensure_storage_eq p L s :
  ensure_storage p L s =
  match grow_tcap L (tcap s) (zlen (track s)) (trackcount p * G_ensure_factor) with
  | None => Err E_StackLimit
  | Some tc' => Ok (with_caps s tc' (grow_scap (scap s) (zlen (stack s)) (trackcount p * G_ensure_factor)))
  end.
Proof.
  destruct s as [pc0 md t0 tr tc st sc cr mc]. unfold ensure_storage, grow_tcap, grow_scap, with_caps.
  cbv zeta. vm_cbn. destruct (sc - zlen st <? _); vm_cbn; destruct (tc - zlen tr <? _); try reflexivity;
    destruct (_ <=? tc); try reflexivity; destruct (_ - zlen tr <? _); reflexivity.
Qed.

Lemma ensure_storage_ok p L s s' : ensure_storage p L s = Ok s' ->
  exists tc', grow_tcap L (tcap s) (zlen (track s)) (trackcount p * G_ensure_factor) = Some tc' /\
              s' = with_caps s tc' (grow_scap (scap s) (zlen (stack s)) (trackcount p * G_ensure_factor)).
Proof.
  rewrite ensure_storage_eq. destruct (grow_tcap _ _ _ _) as [tc'|]; [|discriminate].
  intros H. injection H as <-. exists tc'. split; reflexivity.
Qed.

Lemma grow_scap_le sc n need : 0 <= sc -> sc <= grow_scap sc n need.
Proof. unfold grow_scap. destruct (sc - n <? need); lia. Qed.

Lemma grow_scap_room sc n need : n <= sc -> need <= sc -> need <= grow_scap sc n need - n.
Proof. unfold grow_scap. destruct (sc - n <? need) eqn:E; lia. Qed.

Lemma grow_tcap_spec L tc n need tc' : grow_tcap L tc n need = Some tc' ->
  tc <= tc' /\ need <= tc' - n /\ (0 <= L -> tc <= L -> tc' <= L).
Proof.
  unfold grow_tcap. destruct (tc - n <? need) eqn:E1; [|intros H; injection H as <-; lia].
  cbv zeta. set (nl0 := if tc * 2 =? 0 then 1 else tc * 2). set (nl := if (0 <=? L) && (L <? nl0) then L else nl0).
  destruct (nl <=? tc) eqn:E4; [discriminate|]. destruct (nl - n <? need) eqn:E5; [discriminate|].
  intros H. injection H as <-. subst nl nl0.
  destruct (tc * 2 =? 0) eqn:E2; destruct ((0 <=? L) && _) eqn:E3; lia.
Qed.

Lemma grow_tcap_nolimit L tc n need : L < 0 -> 0 <= n <= tc -> need <= tc ->
  exists tc', grow_tcap L tc n need = Some tc' /\ tc <= tc' /\ need <= tc' - n.
Proof.
  intros HL Hn Hd. unfold grow_tcap. destruct (tc - n <? need) eqn:E1; [|exists tc; split; [reflexivity|lia]].
  cbv zeta. replace (tc * 2 =? 0) with false by lia. replace ((0 <=? L) && (L <? tc * 2)) with false by lia.
  replace (tc * 2 <=? tc) with false by lia. replace (tc * 2 - n <? need) with false by lia.
  exists (tc * 2). split; [reflexivity|lia].
Qed.

Lemma grow_scap_keep sc n need : need <= sc - n -> grow_scap sc n need = sc.
Proof. intros H. unfold grow_scap. replace (sc - n <? need) with false by lia. reflexivity. Qed.

Lemma grow_tcap_room L tc n need : need <= tc - n -> grow_tcap L tc n need = Some tc.
Proof. intros H. unfold grow_tcap. replace (tc - n <? need) with false by lia. reflexivity. Qed.

Lemma tpushed_nonneg us : 0 <= tpushed us.
Proof.
  induction us as [|u us IH]; cbn [tpushed]; [lia|]. destruct u; try exact IH. pose proof (zlen_nonneg ws). lia.
Qed.
Lemma spushed_nonneg us : 0 <= spushed us.
Proof.
  induction us as [|u us IH]; cbn [spushed]; [lia|]. destruct u; try exact IH. pose proof (zlen_nonneg ws). lia.
Qed.

Lemma op_pushes_le op : op_pushes op <= 4.
Proof. unfold op_pushes. destruct (op =? Goto), (op =? Nullmark), (zmem op opcode_backtracks_list); lia. Qed.

Definition res_map {A B} (f : A -> B) (r : res A) : res B :=
  match r with Ok a => Ok (f a) | Err c => Err c | Crash w => Crash w | Fuel => Fuel end.

Definition is_push (u : uop) : bool := match u with UTpush _ | USpush _ => true | _ => false end.

Lemma pushed_nonpush u us : is_push u = false -> tpushed (u :: us) = tpushed us /\ spushed (u :: us) = spushed us.
Proof. destruct u; try discriminate; split; reflexivity. Qed.

Ltac uop_cases :=
  repeat match goal with
         | |- context [match ?x with _ => _ end] =>
             lazymatch x with
             | context [match _ with _ => _ end] => fail
             | _ => destruct x eqn:?
             end
         end.

Lemma uncapture_to_caps f : forall s n tc sc,
  uncapture_to f (with_caps s tc sc) n = res_map (fun a => with_caps a tc sc) (uncapture_to f s n).
Proof.
  induction f as [|f IH]; intros s n tc sc; cbn [uncapture_to]; [reflexivity|].
  change (crawl (with_caps s tc sc)) with (crawl s). destruct (zlen (crawl s) =? n); [reflexivity|].
  unfold uncapture. change (crawl (with_caps s tc sc)) with (crawl s). change (mcaps (with_caps s tc sc)) with (mcaps s).
  destruct (crawl s) as [|c cr]; [reflexivity|]. destruct (remove_match c (mcaps s)) as [m|]; [|reflexivity].
  cbn [bind]. apply (IH (set_caps s cr m)).
Qed.

Lemma uop_caps u s tc sc : is_push u = false ->
  run_uop u (with_caps s tc sc) = res_map (fun a => with_caps a tc sc) (run_uop u s).
Proof.
  destruct u; try discriminate; intros _; cbn [run_uop]; try apply uncapture_to_caps;
    unfold trackto, do_capture, do_transfer, uncapture, with_caps; vm_cbn; uop_cases; reflexivity.
Qed.

Definition sizes_le (kt ks : Z) (s a : vm) : Prop :=
  pc a = pc s /\ tcap a = tcap s /\ scap a = scap s /\
  zlen (track a) <= zlen (track s) + kt /\ zlen (stack a) <= zlen (stack s) + ks.

Lemma uncapture_to_sizes f : forall s n a, uncapture_to f s n = Ok a -> sizes_le 0 0 s a.
Proof.
  induction f as [|f IH]; intros s n a H; cbn [uncapture_to] in H; [discriminate|].
  destruct (zlen (crawl s) =? n); [injection H as <-; unfold sizes_le; lia|].
  unfold uncapture in H. destruct (crawl s) as [|c cr]; [discriminate|].
  destruct (remove_match c (mcaps s)) as [m|]; [|discriminate]. cbn [bind] in H. exact (IH _ _ _ H).
Qed.

Lemma uop_sizes u s a : run_uop u s = Ok a -> sizes_le (tpushed [u]) (spushed [u]) s a.
Proof.
  destruct u; cbn [run_uop tpushed spushed]; intros H; try (exact (uncapture_to_sizes _ _ _ _ H));
    unfold tpush, spush, trackto, do_capture, do_transfer, uncapture in H; revert H; uop_cases;
    intros H; try discriminate; injection H as <-; unfold sizes_le; vm_cbn;
    try match goal with X : rev _ = _ |- _ => apply (f_equal (@zlen Z)) in X; rewrite zlen_rev in X end;
    rewrite ?zlen_app, ?zlen_rev, ?zlen_cons in *;
    try match goal with |- context [skipn ?k ?l] => pose proof (zlen_skipn_le k l) end;
    change (zlen (@nil Z)) with 0; lia.
Qed.

Lemma uops_sizes us : forall s a, run_uops us s = Ok a -> sizes_le (tpushed us) (spushed us) s a.
Proof.
  induction us as [|u us IH]; intros s a H; cbn [run_uops] in H.
  - injection H as <-. unfold sizes_le. cbn [tpushed spushed]. lia.
  - destruct (run_uop u s) as [s1| | |] eqn:E; try discriminate. cbn [bind] in H.
    apply uop_sizes in E. apply IH in H. unfold sizes_le in *.
    assert (tpushed (u :: us) = tpushed [u] + tpushed us /\ spushed (u :: us) = spushed [u] + spushed us) as [-> ->]
      by (destruct u; cbn [tpushed spushed]; lia).
    lia.
Qed.

Lemma uops_fit us : forall s a tc sc,
  run_uops us s = Ok a -> zlen (track s) + tpushed us <= tc -> zlen (stack s) + spushed us <= sc ->
  run_uops us (with_caps s tc sc) = Ok (with_caps a tc sc).
Proof.
  induction us as [|u us IH]; intros s a tc sc H Ht Hs; cbn [run_uops] in H |- *.
  - injection H as <-. reflexivity.
  - destruct (run_uop u s) as [s1| | |] eqn:E; try discriminate. cbn [bind] in H.
    pose proof (uop_sizes _ _ _ E) as (_ & _ & _ & Z1 & Z2).
    pose proof (tpushed_nonneg us). pose proof (spushed_nonneg us).
    assert (E' : run_uop u (with_caps s tc sc) = Ok (with_caps s1 tc sc)).
    { destruct (is_push u) eqn:P; [|rewrite uop_caps, E by exact P; reflexivity].
      destruct u; try discriminate; cbn [run_uop tpushed spushed] in *; unfold tpush, spush, with_caps in *; vm_cbn.
      - destruct (tcap s <? _); [discriminate|]. injection E as <-.
        replace (tc <? zlen (track s) + zlen ws) with false by lia. reflexivity.
      - destruct (scap s <? _); [discriminate|]. injection E as <-.
        replace (sc <? zlen (stack s) + zlen ws) with false by lia. reflexivity. }
    rewrite E'. cbn [bind]. apply IH; [exact H| |].
    + destruct u; cbn [tpushed] in *; lia.
    + destruct u; cbn [spushed] in *; lia.
Qed.

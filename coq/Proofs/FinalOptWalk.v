(* C05, proofs part 5: canBeMadeAtomic (Model/FinalOpt.fo_cbma) is sound.
   [CK c K]: K is a possible continuation of the position whose parents are the frames c (what follows it up to
   the end of the enclosing atomic scope).  If fo_cbma n sub c .. = true (strict bits 0-2 set) then
     either  every such continuation, preceded by the successor sub, is DEAD at the states where the loop n may
             have stopped early (KD),
     or      no \B was stepped over and every such continuation, preceded by sub, never fails (KT). *)
From Verif Require Import Base.Prelude Model.Tree Model.Spec Model.Rewrite Model.ParseLit Model.CharClass Model.Parser
  Model.FinalOpt
  Proofs.SpecProofs Proofs.SpecBoundsProofs Proofs.RewriteProofs
  Proofs.FinalOptDen Proofs.FinalOptK Proofs.FinalOptLink Proofs.FinalOptLeaf.
From Coq Require Import ZifyBool.

Section Walk.
Variable cat_in : Z -> Z -> bool.
Variables isw isew : Z -> bool.
Variable sid : cls -> Z.
Variable e : env.
Variable sets : list cls.
Hypothesis Henv : env_ok cat_in isw isew sid e sets.

Notation den := (den e).
Notation sok := (st_ok e).
Notation tr := (tr sid).
Notation PQ := (PQ cat_in e).
Notation sets_in := (sets_in sets).
Notation kb := (kb e).
Notation kseq := (kseq e).
Notation KD := (KD e).
Notation KT := (KT e).

Definition node_ok (x : rnode) : Prop := fo_wf x = true /\ sets_in x.
Definition ctx_ok (c : list frame) : Prop := Forall (fun fr => Forall node_ok (f_rights fr)) c.

Lemma node_ok_kid x k : node_ok x -> In k (n_kids x) -> node_ok k.
Proof. intros [H1 H2] Hin. split; [exact (fo_wf_kid x k H1 Hin) | exact (sets_in_kid sets x k H2 Hin)]. Qed.

Lemma node_ok_kids x : node_ok x -> Forall node_ok (n_kids x).
Proof. intros H. apply Forall_forall. intros k Hk. exact (node_ok_kid x k H Hk). Qed.

Lemma node_ok_okp x : node_ok x -> okp e (tr x).
Proof. intros [H _]. apply okp_lmo. apply fo_wf_lmo. exact H. Qed.

Fixpoint CK (c : list frame) (K : kont) : Prop :=
  match c with
  | [] => KT K
  | fr :: c' =>
      let t := f_t fr in
      if t =? T_Concatenate then exists K', CK c' K' /\ forall a, K a = kseq (map tr (f_rights fr)) K' a
      else if t =? T_Capture then
        exists K' g u s0, sok s0 /\ (f_bal fr = false -> u = -1) /\ CK c' K' /\ forall a, K a = kcap g u s0 K' a
      else if t =? T_Alternate then exists K', CK c' K' /\ forall a, K a = K' a
      else if (t =? T_Atomic) && negb (f_desc fr) then KT K
      else True
  end.

Definition Dc (n : rnode) (c : list frame) (x : node) : Prop := forall K, CK c K -> KD (PQ n) (kb x K).
Definition Tc (c : list frame) (x : node) : Prop := forall K, CK c K -> KT (kb x K).

Lemma s0_ok : sok {| pos := 0; caps := [] |}.
Proof. apply sb_init_ok. unfold tlen, zlen. lia. Qed.

Lemma KT_kempty_false : KT (fun _ => []) -> False.
Proof. intros H. apply (H _ s0_ok). reflexivity. Qed.

Lemma flat_map_nonempty {A B} (g : A -> list B) l x : In x l -> g x <> [] -> flat_map g l <> [].
Proof.
  induction l as [|y l IH]; intros Hin Hg; [destruct Hin|]. cbn [flat_map].
  destruct Hin as [->|Hin]; [destruct (g x); [contradiction|discriminate]|].
  intros E. apply app_eq_nil in E. destruct E as [_ E]. exact (IH Hin Hg E).
Qed.
Lemma flat_map_all_nil {A B} (g : A -> list B) l : (forall x, In x l -> g x = []) -> flat_map g l = [].
Proof.
  induction l as [|y l IH]; intros H; [reflexivity|]. cbn [flat_map]. rewrite (H y (or_introl eq_refl)).
  apply IH. intros x Hx. apply H. right. exact Hx.
Qed.

Lemma kb_kempty x a : kb x (fun _ => []) a = [].
Proof. unfold kb, FinalOptK.kb. apply flat_map_all_nil. reflexivity. Qed.

Lemma KD_ext P K K' : (forall a, K a = K' a) -> KD P K' -> KD P K.
Proof. intros H HK s Hs Hp. rewrite H. apply HK; assumption. Qed.
Lemma KT_ext K K' : (forall a, K a = K' a) -> KT K' -> KT K.
Proof. intros H HK s Hs. rewrite H. apply HK; assumption. Qed.
Lemma kb_ext x K K' a : (forall b, K b = K' b) -> kb x K a = kb x K' a.
Proof. intros H. unfold kb, FinalOptK.kb. apply flat_map_ext. exact H. Qed.

(* dead successor: dead whatever follows *)
Lemma dead_Dc n c x : dead_at cat_in e n x -> Dc n c x.
Proof. intros H K _ a Ha Hp. unfold kb, FinalOptK.kb. rewrite (H a Ha Hp). reflexivity. Qed.

Lemma kb_nonempty x K a : okp e x -> sok a -> den x a <> [] -> KT K -> kb x K a <> [].
Proof.
  intros Hok Ha Hne HK. unfold kb, FinalOptK.kb. specialize (Hok a Ha).
  destruct (den x a) as [|b l]; [contradiction|]. cbn [flat_map]. inversion Hok as [|? ? Hb _]; subst.
  specialize (HK b Hb). destruct (K b); [contradiction|discriminate].
Qed.

Lemma CK_opaque t b d rs c K : (t =? T_Concatenate) = false -> (t =? T_Capture) = false -> (t =? T_Alternate) = false ->
  (t =? T_Atomic) && negb d = false -> CK (mkF t b d rs :: c) K.
Proof. intros E1 E2 E3 E4. cbn [CK f_t f_desc]. rewrite E1, E2, E3, E4. exact I. Qed.
Lemma CK_alt_frame b d rs c K : CK c K -> CK (mkF T_Alternate b d rs :: c) K.
Proof. intros H. cbn [CK f_t]. cbn. exists K. split; [exact H|reflexivity]. Qed.
Lemma CK_concat_frame b d rs c K : CK c K -> CK (mkF T_Concatenate b d rs :: c) (kseq (map tr rs) K).
Proof. intros H. cbn [CK f_t]. cbn. exists K. split; [exact H|reflexivity]. Qed.
Lemma CK_capture_frame b d rs c K g u s0 : sok s0 -> (b = false -> u = -1) -> CK c K ->
  CK (mkF T_Capture b d rs :: c) (kcap g u s0 K).
Proof. intros Hs Hu H. cbn [CK f_t]. cbn. exists K, g, u, s0. split; [exact Hs|]. split; [exact Hu|]. split; [exact H|reflexivity]. Qed.
Lemma CK_atomic_frame b rs c : CK (mkF T_Atomic b false rs :: c) kid.
Proof. cbn [CK f_t]. cbn. apply KT_kid. Qed.

(* ---- the descent to the node guaranteed to follow (tree.go:895-905) *)
Lemma descend_cases t o m :
  (t =? T_Concatenate) || (t =? T_Capture) || (t =? T_Atomic) || (t =? T_PosLook) && negb (useRTL o)
    || ((t =? T_Loop) || (t =? T_Lazyloop)) && (0 <? m) = true ->
  t = T_Concatenate \/ t = T_Capture \/ t = T_Atomic \/ t = T_PosLook \/ (t = T_Loop \/ t = T_Lazyloop) /\ (m =? 0) = false.
Proof. clear. lia. Qed.

(* a node the descent goes through, other than a concatenation, has one child; with no result of the child it has none *)
Lemma descend_unary t o ch m nn str st k ks :
  t = T_Capture \/ t = T_Atomic \/ t = T_PosLook \/ (t = T_Loop \/ t = T_Lazyloop) /\ (m =? 0) = false ->
  fo_wf (RN t o ch m nn str st (k :: ks)) = true ->
  ks = [] /\ forall a, den (tr k) a = [] -> den (tr (RN t o ch m nn str st [k])) a = [].
Proof.
  intros Ht Hwf. apply fo_wf_arity in Hwf. cbn [n_t n_kids] in Hwf. split.
  - destruct Ht as [->|[->|[->|[[->| ->] _]]]]; destruct ks; try reflexivity; discriminate.
  - intros a H0. destruct Ht as [->|[->|[->|[[->| ->] Hm]]]].
    + rewrite (tr_capture sid _ k) by reflexivity. rewrite fd_den_capture, H0. reflexivity.
    + rewrite (tr_atomic sid _ k) by reflexivity. rewrite fd_den_atomic, H0. reflexivity.
    + rewrite (tr_poslook sid _ k) by reflexivity. rewrite fd_den_poslook, H0. reflexivity.
    + rewrite (tr_loop sid _ k) by reflexivity. rewrite fd_den_loop. cbn [n_m]. rewrite Hm, H0. reflexivity.
    + rewrite (tr_lazyloop sid _ k) by reflexivity. rewrite fd_den_loop. cbn [n_m]. rewrite Hm, H0. reflexivity.
Qed.

Lemma descend_sound n : forall sub c s ctx1,
  fo_descend sub c = (s, ctx1) -> node_ok sub -> ctx_ok c ->
  node_ok s /\ ctx_ok ctx1 /\
  (Dc n ctx1 (tr s) -> Dc n c (tr sub)) /\ (Tc ctx1 (tr s) -> Tc c (tr sub)).
Proof.
  induction sub as [t o ch m nn str st kids IHk] using rnode_ind'. intros c s ctx1 Hd Hok Hc.
  cbn [fo_descend] in Hd.
  destruct kids as [|k ks]; [injection Hd as <- <-; split; [exact Hok|]; split; [exact Hc|]; split; auto|].
  destruct ((t =? T_Concatenate) || (t =? T_Capture) || (t =? T_Atomic) || (t =? T_PosLook) && negb (useRTL o)
            || ((t =? T_Loop) || (t =? T_Lazyloop)) && (0 <? m)) eqn:Econd;
    [|injection Hd as <- <-; split; [exact Hok|]; split; [exact Hc|]; split; auto].
  pose proof (node_ok_kids _ Hok) as Hkks. cbn [n_kids] in Hkks.
  set (fr := mkF t ((t =? T_Capture) && negb (nn =? -1)) true ks) in *.
  assert (Hc' : ctx_ok (fr :: c)) by (constructor; [exact (Forall_inv_tail Hkks) | exact Hc]).
  destruct (Forall_inv IHk (fr :: c) s ctx1 Hd (Forall_inv Hkks) Hc') as (Hs & Hc1 & HD & HT).
  split; [exact Hs|]. split; [exact Hc1|].
  destruct (descend_cases t o m Econd) as [Et|Et].
  { (* Concatenate *)
    subst t.
    assert (Hkb : forall K a, kb (tr (RN T_Concatenate o ch m nn str st (k :: ks))) K a = kb (tr k) (kseq (map tr ks) K) a).
    { intros K a. rewrite tr_concat by reflexivity. cbn [n_o n_kids map]. unfold kb, FinalOptK.kb. rewrite fd_den_concat. cbn [FinalOptDen.den_seq].
      rewrite fd_flat_map_flat_map. reflexivity. }
    split.
    - intros H1 K HK. eapply KD_ext; [intros a; apply Hkb|]. apply (HD H1). apply CK_concat_frame. exact HK.
    - intros H1 K HK. eapply KT_ext; [intros a; apply Hkb|]. apply (HT H1). apply CK_concat_frame. exact HK. }
  destruct (descend_unary t o ch m nn str st k ks Et (proj1 Hok)) as [-> Hdead].
  destruct Et as [Et|Et].
  { (* Capture *)
    subst t.
    assert (Hkb : forall K a, kb (tr (RN T_Capture o ch m nn str st [k])) K a = kb (tr k) (kcap m nn a K) a).
    { intros K a. rewrite (tr_capture sid _ k) by reflexivity. unfold kb, FinalOptK.kb, kcap. rewrite fd_den_capture, fd_flat_map_flat_map. reflexivity. }
    assert (HCK : forall K a, sok a -> CK c K -> CK (fr :: c) (kcap m nn a K)).
    { intros K a Ha HK. apply CK_capture_frame; [exact Ha | clear; lia | exact HK]. }
    split.
    - intros H1 K HK a Ha Hp. rewrite Hkb. apply (HD H1 _ (HCK K a Ha HK)); assumption.
    - intros H1 K HK a Ha. rewrite Hkb. apply (HT H1 _ (HCK K a Ha HK)); assumption. }
  (* the frames the walk does not come back through: any continuation *)
  assert (HCKany : forall K1, CK (fr :: c) K1).
  { intros K1. destruct Et as [->|[->|[[->| ->] _]]]; apply CK_opaque; reflexivity. }
  split; [|intros H1; exfalso; apply KT_kempty_false; eapply KT_ext; [intros a; symmetry; apply (kb_kempty (tr k))|];
           apply (HT H1 _ (HCKany _))].
  intros H1 K HK a Ha Hp. unfold kb, FinalOptK.kb. rewrite Hdead; [reflexivity|].
  pose proof (HD H1 kid (HCKany _) a Ha Hp) as H0. unfold kb, FinalOptK.kb, kid in H0.
  rewrite flat_map_single in H0. exact H0.
Qed.

Variable strict : Z.
Hypothesis Hs0 : Z.testbit strict 0 = true.
Hypothesis Hs1 : Z.testbit strict 1 = true.
Hypothesis Hs2 : Z.testbit strict 2 = true.

(* ---- fo_cbma, one step (the two local loops of Model/FinalOpt.fo_cbma by name) *)
Definition fo_branches (g : rnode -> list rnode -> res bool) : list rnode -> res bool :=
  fix branches (ks : list rnode) : res bool :=
    match ks with
    | [] => Ok true
    | k :: ks' => do b <- g k ks' ; if b then branches ks' else Ok false
    end.

Definition fo_up (g : rnode -> list frame -> res bool) (st : Z) (seen1 : bool) : list frame -> res bool :=
  fix up (c : list frame) : res bool :=
    match c with
    | [] => Ok (negb (Z.testbit st 0 && seen1))
    | fr :: c' =>
        let pt := f_t fr in
        if pt =? T_Atomic then (if seen1 || (Z.testbit st 2 && f_desc fr) then Ok false else up c')
        else if pt =? T_Alternate then up c'
        else if pt =? T_Capture then (if Z.testbit st 1 && f_bal fr then Ok false else up c')
        else if pt =? T_Concatenate then
          match f_rights fr with
          | [] => up c'
          | nx :: rs => g nx (mkF T_Concatenate false (f_desc fr) rs :: c')
          end
        else Ok false
    end.

Lemma fo_cbma_S f n sub ctx iter al seen :
  fo_cbma cat_in isw isew (S f) strict n sub ctx iter al seen =
  let '(s, ctx1) := fo_descend sub ctx in
  if negb (n_o n =? n_o s) then Ok false
  else if useRTL (n_o n) then Ok false
  else
    let st := n_t s in
    if (st =? T_Alternate) || ((st =? T_ExprCond) && (zlen (n_kids s) =? 3)) then
      fo_branches (fun k ks' => fo_cbma cat_in isw isew f strict n k (mkF st false true ks' :: ctx1) iter false seen) (n_kids s)
    else
      do v <- fo_verdict cat_in isw isew n s al ;
      if v =? 1 then Ok true
      else if v =? 0 then Ok false
      else if negb iter then Ok false
      else
        let seen1 := seen || (st =? T_Nonboundary) || (st =? T_NonECMABoundary) in
        fo_up (fun nx c => fo_cbma cat_in isw isew f strict n nx c iter al seen1) strict seen1 ctx1.
Proof. reflexivity. Qed.

Definition cbma_spec (n sub : rnode) (c : list frame) (iter seen : bool) : Prop :=
  Dc n c (tr sub) \/ (iter = true /\ seen = false /\ Tc c (tr sub)).
Definition up_spec (n : rnode) (seen1 : bool) (c : list frame) : Prop :=
  (forall K, CK c K -> KD (PQ n) K) \/ (seen1 = false /\ forall K, CK c K -> KT K).

Lemma sok_capture_plain g s0 a : sok s0 -> sok a ->
  exists b, capture_close g (-1) s0 a = [b] /\ sok b /\ pos b = pos a.
Proof.
  intros [Hp0 Hc0] [Hpa Hca]. unfold capture_close. cbn. eexists. split; [reflexivity|]. split; [|reflexivity].
  split; cbn [pos caps]; [exact Hpa|]. apply sb_caps_ok_push; [exact Hca|]. apply sb_span_ok; assumption.
Qed.

(* what follows the child of a capture that is not a balancing one: dead, or never failing, where what follows the capture is *)
Lemma pos_pred_PQ n : pos_pred (PQ n).
Proof. intros a b H. apply (PQ_pos cat_in e n a b H). Qed.
Lemma KD_kcap P K g s0 : pos_pred P -> sok s0 -> KD P K -> KD P (kcap g (-1) s0 K).
Proof.
  intros HP Hs HD a Ha Hp. unfold kcap. destruct (sok_capture_plain g s0 a Hs Ha) as (b & -> & Hb & Hpb). cbn [flat_map].
  rewrite (HD b Hb (HP a b (eq_sym Hpb) Hp)). reflexivity.
Qed.
Lemma KT_kcap K g s0 : sok s0 -> KT K -> KT (kcap g (-1) s0 K).
Proof.
  intros Hs HT a Ha. unfold kcap. destruct (sok_capture_plain g s0 a Hs Ha) as (b & -> & Hb & Hpb). cbn [flat_map].
  specialize (HT b Hb). destruct (K b); [contradiction|discriminate].
Qed.

(* a type that passed one test fails the others *)
Lemma eqb_other t a b : (t =? a) = true -> (a =? b) = false -> (t =? b) = false.
Proof. clear. lia. Qed.

Section Fuel.
Variable f : nat.
Hypothesis IHf : forall n sub c iter al seen,
  fo_cbma cat_in isw isew f strict n sub c iter al seen = Ok true ->
  node_ok n -> node_ok sub -> ctx_ok c -> cbma_spec n sub c iter seen.

Lemma up_sound n iter al seen1 : node_ok n -> forall c, ctx_ok c ->
  fo_up (fun nx c0 => fo_cbma cat_in isw isew f strict n nx c0 iter al seen1) strict seen1 c = Ok true ->
  iter = true -> up_spec n seen1 c.
Proof.
  intros Hn. induction c as [|fr c' IH]; intros Hc H Hit.
  - cbn [fo_up] in H. rewrite Hs0 in H. cbn [andb] in H.
    right. split; [destruct seen1; [discriminate|reflexivity]|]. intros K HK. exact HK.
  - inversion Hc as [|? ? Hfr Hc']; subst. cbn [fo_up] in H.
    cbv zeta in H. unfold up_spec. cbn [CK]. cbv zeta.
    destruct (f_t fr =? T_Atomic) eqn:Ea.
    { rewrite Hs2 in H. cbn [andb] in H. destruct seen1; [discriminate|]. cbn [orb] in H.
      destruct (f_desc fr) eqn:Ed; [discriminate|].
      right. split; [reflexivity|]. intros K HK.
      rewrite (eqb_other _ _ T_Concatenate Ea eq_refl) in HK.
      rewrite (eqb_other _ _ T_Capture Ea eq_refl) in HK.
      rewrite (eqb_other _ _ T_Alternate Ea eq_refl) in HK.
      cbn [negb andb] in HK. exact HK. }
    destruct (f_t fr =? T_Alternate) eqn:Eal.
    { specialize (IH Hc' H eq_refl).
      rewrite (eqb_other _ _ T_Concatenate Eal eq_refl).
      rewrite (eqb_other _ _ T_Capture Eal eq_refl).
      destruct IH as [IH|[Hse IH]].
      - left. intros K (K' & HK' & Heq). eapply KD_ext; [exact Heq|]. apply IH. exact HK'.
      - right. split; [exact Hse|]. intros K (K' & HK' & Heq). eapply KT_ext; [exact Heq|]. apply IH. exact HK'. }
    destruct (f_t fr =? T_Capture) eqn:Ecap.
    { rewrite Hs1 in H. cbn [andb] in H. destruct (f_bal fr) eqn:Eb; [discriminate|].
      specialize (IH Hc' H eq_refl).
      rewrite (eqb_other _ _ T_Concatenate Ecap eq_refl).
      destruct IH as [IH|[Hse IH]].
      - left. intros K (K' & g & u & s0 & Hs0' & Hu & HK' & Heq). eapply KD_ext; [exact Heq|].
        rewrite (Hu eq_refl). exact (KD_kcap _ K' g s0 (pos_pred_PQ n) Hs0' (IH K' HK')).
      - right. split; [exact Hse|]. intros K (K' & g & u & s0 & Hs0' & Hu & HK' & Heq). eapply KT_ext; [exact Heq|].
        rewrite (Hu eq_refl). exact (KT_kcap K' g s0 Hs0' (IH K' HK')). }
    destruct (f_t fr =? T_Concatenate) eqn:Ecc; [|discriminate].
    destruct (f_rights fr) as [|nx rs] eqn:Er.
    + specialize (IH Hc' H eq_refl). destruct IH as [IH|[Hse IH]].
      * left. intros K (K' & HK' & Heq). eapply KD_ext; [intros a; rewrite Heq; apply kseq_nil|]. apply IH. exact HK'.
      * right. split; [exact Hse|]. intros K (K' & HK' & Heq). eapply KT_ext; [intros a; rewrite Heq; apply kseq_nil|]. apply IH. exact HK'.
    + inversion Hfr as [|? ? Hnx Hrs]; subst.
      assert (Hc2 : ctx_ok (mkF T_Concatenate false (f_desc fr) rs :: c')) by (constructor; [exact Hrs|exact Hc']).
      pose proof (IHf n nx _ _ al seen1 H Hn Hnx Hc2) as Hsp.
      assert (HCK2 : forall K', CK c' K' -> CK (mkF T_Concatenate false (f_desc fr) rs :: c') (kseq (map tr rs) K')).
      { intros K' HK'. cbn [CK f_t]. replace (T_Concatenate =? T_Concatenate) with true by reflexivity.
        exists K'. split; [exact HK'|]. intros a. reflexivity. }
      destruct Hsp as [HD|(_ & Hse & HT)].
      * left. intros K (K' & HK' & Heq). eapply KD_ext; [intros a; rewrite Heq; cbn [map]; apply kseq_cons|].
        apply HD. apply HCK2. exact HK'.
      * right. split; [exact Hse|]. intros K (K' & HK' & Heq).
        eapply KT_ext; [intros a; rewrite Heq; cbn [map]; apply kseq_cons|]. apply HT. apply HCK2. exact HK'.
Qed.

End Fuel.

Theorem cbma_sound : forall f n sub c iter al seen,
  fo_cbma cat_in isw isew f strict n sub c iter al seen = Ok true ->
  node_ok n -> node_ok sub -> ctx_ok c -> cbma_spec n sub c iter seen.
Proof.
  induction f as [|f IHf]; intros n sub c iter al seen H Hn Hsub Hc; [discriminate|].
  rewrite fo_cbma_S in H. destruct (fo_descend sub c) as [s ctx1] eqn:Ed.
  destruct (descend_sound n sub c s ctx1 Ed Hsub Hc) as (Hs & Hc1 & HD & HT).
  destruct (negb (n_o n =? n_o s)) eqn:Eo; [discriminate|].
  destruct (useRTL (n_o n)) eqn:Er; [discriminate|].
  assert (Hoeq : n_o n = n_o s) by lia.
  assert (Hltr : ltr (n_o n)) by exact Er.
  cbv zeta in H.
  assert (Hlift : cbma_spec n s ctx1 iter seen -> cbma_spec n sub c iter seen).
  { intros [H1|(Hi & Hse & H1)]; [left; apply HD; exact H1 | right; split; [exact Hi|]; split; [exact Hse|]; apply HT; exact H1]. }
  apply Hlift. clear Hlift HD HT.
  destruct ((n_t s =? T_Alternate) || (n_t s =? T_ExprCond) && (zlen (n_kids s) =? 3)) eqn:Ealt.
  - (* every branch *)
    assert (Hbr : forall ks, Forall node_ok ks ->
              fo_branches (fun k ks' => fo_cbma cat_in isw isew f strict n k (mkF (n_t s) false true ks' :: ctx1) iter false seen) ks = Ok true ->
              Forall (fun k => exists rs, cbma_spec n k (mkF (n_t s) false true rs :: ctx1) iter seen) ks).
    { induction ks as [|k ks IHks]; intros Hks Hb; [constructor|].
      inversion Hks as [|? ? Hk Hks']; subst. cbn [fo_branches] in Hb.
      destruct (fo_cbma cat_in isw isew f strict n k (mkF (n_t s) false true ks :: ctx1) iter false seen) as [b| | |] eqn:Ek;
        cbn [bind] in Hb; try discriminate.
      destruct b; [|discriminate]. constructor; [|apply IHks; assumption].
      exists ks. apply (IHf _ _ _ _ _ _ Ek Hn Hk). constructor; [exact Hks'|exact Hc1]. }
    assert (Hkids : Forall node_ok (n_kids s)).
    { rewrite Forall_forall. intros k Hk. exact (node_ok_kid s k Hs Hk). }
    specialize (Hbr _ Hkids H).
    destruct (n_t s =? T_Alternate) eqn:Ea.
    + (* Alternate *)
      assert (Etr : tr s = NAlternate (n_o s) (map tr (n_kids s))) by (apply tr_alt; unfold T_Alternate in *; lia).
      assert (Hkb : forall K a, kb (tr s) K a = flat_map (fun k => kb (tr k) K a) (n_kids s)).
      { intros K a. rewrite Etr. unfold kb, FinalOptK.kb. rewrite fd_den_alt, fd_flat_map_flat_map, flat_map_concat_map, map_map,
          <- flat_map_concat_map. reflexivity. }
      replace (n_t s) with T_Alternate in Hbr by (unfold T_Alternate in *; lia).
      assert (Hdec : forall l, Forall (fun k => exists rs, cbma_spec n k (mkF T_Alternate false true rs :: ctx1) iter seen) l ->
                     (forall k, In k l -> forall K, CK ctx1 K -> KD (PQ n) (kb (tr k) K)) \/
                     (iter = true /\ seen = false /\ exists k, In k l /\ forall K, CK ctx1 K -> KT (kb (tr k) K))).
      { clear. induction 1 as [|k ks [rs Hk] _ IHks].
        - left. intros k [].
        - destruct Hk as [HkD|(Hi & Hse & HkT)].
          + destruct IHks as [IHD|(Hi & Hse & k' & Hin & HkT)].
            * left. intros k0 [<-|Hin] K HK; [apply HkD; apply CK_alt_frame; exact HK | exact (IHD k0 Hin K HK)].
            * right. split; [exact Hi|]. split; [exact Hse|]. exists k'. split; [right; exact Hin|exact HkT].
          + right. split; [exact Hi|]. split; [exact Hse|]. exists k. split; [left; reflexivity|].
            intros K HK. apply HkT. apply CK_alt_frame. exact HK. }
      destruct (Hdec _ Hbr) as [HD|(Hi & Hse & k & Hin & HkT)].
      * left. intros K HK a Ha Hp. rewrite Hkb. apply flat_map_all_nil. intros k Hk. exact (HD k Hk K HK a Ha Hp).
      * right. split; [exact Hi|]. split; [exact Hse|]. intros K HK a Ha. rewrite Hkb.
        apply (flat_map_nonempty _ _ k Hin). exact (HkT K HK a Ha).
    + (* expression conditional with both branches *)
      assert (Et : n_t s = T_ExprCond) by (revert Ealt; clear; lia).
      destruct (kids_three s (proj1 Hs) Et) as (c0 & y0 & n0 & Ek). rewrite Ek in Hbr.
      assert (Hdead : forall k, In k [c0; y0; n0] -> forall a, sok a -> PQ n a -> den (tr k) a = []).
      { intros k Hk a Ha Hp. rewrite Forall_forall in Hbr. destruct (Hbr k Hk) as [rs [HkD|(_ & _ & HkT)]].
        - assert (HCK : CK (mkF (n_t s) false true rs :: ctx1) kid).
          { rewrite Et. apply CK_opaque; reflexivity. }
          pose proof (HkD kid HCK a Ha Hp) as H0. unfold kb, FinalOptK.kb, kid in H0. rewrite flat_map_single in H0. exact H0.
        - exfalso. apply KT_kempty_false. eapply KT_ext; [intros b; symmetry; apply (kb_kempty (tr k))|].
          apply HkT. rewrite Et. apply CK_opaque; reflexivity. }
      left. intros K HK a Ha Hp. unfold kb, FinalOptK.kb.
      rewrite (tr_expr_cond sid s c0 y0 n0 Et Ek), fd_den_expr_cond.
      rewrite (Hdead c0 (or_introl eq_refl) a Ha Hp). cbn [den_opt].
      rewrite (Hdead n0 (or_intror (or_intror (or_introl eq_refl))) a Ha Hp). reflexivity.
  - (* one successor *)
    destruct (fo_verdict cat_in isw isew n s al) as [v| | |] eqn:Ev; cbn [bind] in H; try discriminate.
    destruct (verdict_sound cat_in isw isew sid e sets Henv n s (proj1 Hn) (proj1 Hs) (proj2 Hn) (proj2 Hs) Hoeq Hltr al v Ev) as [Hv1 Hv2].
    destruct (v =? 1) eqn:E1.
    { left. apply dead_Dc. apply dead_nq_at. apply Hv1. lia. }
    destruct (v =? 0) eqn:E0; [discriminate|].
    destruct (negb iter) eqn:Ei; [discriminate|].
    assert (Hit : iter = true) by (destruct iter; [reflexivity|discriminate]).
    assert (Hv : v = 2) by (destruct (verdict_range cat_in isw isew n s al v Ev) as [->|[->| ->]]; [discriminate|reflexivity|discriminate]).
    specialize (Hv2 Hv).
    pose proof (up_sound f IHf n iter al _ Hn ctx1 Hc1 H Hit) as Hup.
    unfold skip_spec, nb_t in Hv2.
    destruct ((n_t s =? T_Nonboundary) || (n_t s =? T_NonECMABoundary)) eqn:Enb.
    + (* a \B: only a dead end helps *)
      assert (Eseen : seen || (n_t s =? T_Nonboundary) || (n_t s =? T_NonECMABoundary) = true) by (rewrite <- orb_assoc, Enb; apply orb_true_r).
      rewrite Eseen in Hup.
      destruct Hup as [HupD|[Habs _]]; [|discriminate].
      left. intros K HK a Ha Hp. unfold kb, FinalOptK.kb.
      destruct (Hv2 a Ha Hp) as [->| ->]; [|reflexivity]. cbn [flat_map]. rewrite (HupD K HK a Ha Hp). reflexivity.
    + assert (Eseen : seen || (n_t s =? T_Nonboundary) || (n_t s =? T_NonECMABoundary) = seen) by (rewrite <- orb_assoc, Enb; apply orb_false_r).
      rewrite Eseen in Hup.
      destruct Hv2 as [Hdead|[Hst Htot]]; [left; apply dead_Dc; exact Hdead|].
      destruct Hup as [HupD|[Hse HupT]].
      * left. intros K HK a Ha Hp. unfold kb, FinalOptK.kb. rewrite (Hst a Ha Hp). cbn [flat_map].
        rewrite (HupD K HK a Ha Hp). reflexivity.
      * right. split; [exact Hit|]. split; [exact Hse|]. intros K HK a Ha.
        apply kb_nonempty; [apply node_ok_okp; exact Hs | exact Ha | apply Htot | apply HupT; exact HK].
Qed.

(* ---- without iterateNullableSubsequent (FindLastExpressionInLoopForAutoAtomic's question, the lazy loops):
   true means the successor has no result wherever the next character passes the loop's test, from ANY state *)
Notation NQ := (NQ cat_in e).

Lemma descend_dead n : forall sub c s ctx1, fo_descend sub c = (s, ctx1) -> node_ok sub ->
  node_ok s /\ ((forall a, NQ n a -> den (tr s) a = []) -> forall a, NQ n a -> den (tr sub) a = []).
Proof.
  induction sub as [t o ch m nn str st kids IHk] using rnode_ind'. intros c s ctx1 Hd Hok.
  cbn [fo_descend] in Hd.
  destruct kids as [|k ks]; [injection Hd as <- <-; split; [exact Hok|auto]|].
  destruct ((t =? T_Concatenate) || (t =? T_Capture) || (t =? T_Atomic) || (t =? T_PosLook) && negb (useRTL o)
            || ((t =? T_Loop) || (t =? T_Lazyloop)) && (0 <? m)) eqn:Econd;
    [|injection Hd as <- <-; split; [exact Hok|auto]].
  pose proof (node_ok_kids _ Hok) as Hkks. cbn [n_kids] in Hkks.
  destruct (Forall_inv IHk _ s ctx1 Hd (Forall_inv Hkks)) as (Hs & HD).
  split; [exact Hs|]. intros Hdead a Ha. specialize (HD Hdead a Ha).
  destruct (descend_cases t o m Econd) as [Et|Et].
  - subst t. rewrite tr_concat by reflexivity. cbn [n_o n_kids map]. rewrite fd_den_concat. cbn [FinalOptDen.den_seq]. rewrite HD. reflexivity.
  - destruct (descend_unary t o ch m nn str st k ks Et (proj1 Hok)) as [-> Hun]. apply Hun. exact HD.
Qed.

Theorem cbma_noiter_dead : forall f n sub c al seen,
  fo_cbma cat_in isw isew f strict n sub c false al seen = Ok true -> node_ok n -> node_ok sub ->
  forall a, NQ n a -> den (tr sub) a = [].
Proof.
  induction f as [|f IHf]; intros n sub c al seen H Hn Hsub; [discriminate|].
  rewrite fo_cbma_S in H. destruct (fo_descend sub c) as [s ctx1] eqn:Ed.
  destruct (descend_dead n sub c s ctx1 Ed Hsub) as (Hs & HD).
  destruct (negb (n_o n =? n_o s)) eqn:Eo; [discriminate|].
  destruct (useRTL (n_o n)) eqn:Er; [discriminate|].
  assert (Hoeq : n_o n = n_o s) by (clear -Eo; lia).
  assert (Hltr : ltr (n_o n)) by exact Er.
  cbv zeta in H. apply HD. clear HD.
  destruct ((n_t s =? T_Alternate) || (n_t s =? T_ExprCond) && (zlen (n_kids s) =? 3)) eqn:Ealt.
  - assert (Hbr : forall ks, Forall node_ok ks ->
              fo_branches (fun k ks' => fo_cbma cat_in isw isew f strict n k (mkF (n_t s) false true ks' :: ctx1) false false seen) ks = Ok true ->
              forall k, In k ks -> forall a, NQ n a -> den (tr k) a = []).
    { induction ks as [|k ks IHks]; intros Hks Hb k0 Hin; [destruct Hin|].
      inversion Hks as [|? ? Hk Hks']; subst. cbn [fo_branches] in Hb.
      destruct (fo_cbma cat_in isw isew f strict n k (mkF (n_t s) false true ks :: ctx1) false false seen) as [b| | |] eqn:Ek;
        cbn [bind] in Hb; try discriminate.
      destruct b; [|discriminate]. destruct Hin as [<-|Hin]; [exact (IHf _ _ _ _ _ Ek Hn Hk) | exact (IHks Hks' Hb k0 Hin)]. }
    assert (Hkids : Forall node_ok (n_kids s)).
    { rewrite Forall_forall. intros k Hk. exact (node_ok_kid s k Hs Hk). }
    specialize (Hbr _ Hkids H). intros a Ha.
    destruct (n_t s =? T_Alternate) eqn:Ea.
    + rewrite (tr_alt sid s (proj1 (Z.eqb_eq _ _) Ea)), fd_den_alt, flat_map_concat_map, map_map, <- flat_map_concat_map.
      apply flat_map_all_nil. intros k Hk. exact (Hbr k Hk a Ha).
    + assert (Et : n_t s = T_ExprCond) by (revert Ealt; clear; lia).
      destruct (kids_three s (proj1 Hs) Et) as (c0 & y0 & n0 & Ek). rewrite Ek in Hbr.
      rewrite (tr_expr_cond sid s c0 y0 n0 Et Ek), fd_den_expr_cond.
      rewrite (Hbr c0 (or_introl eq_refl) a Ha). cbn [den_opt].
      exact (Hbr n0 (or_intror (or_intror (or_introl eq_refl))) a Ha).
  - destruct (fo_verdict cat_in isw isew n s al) as [v| | |] eqn:Ev; cbn [bind] in H; try discriminate.
    destruct (verdict_sound cat_in isw isew sid e sets Henv n s (proj1 Hn) (proj1 Hs) (proj2 Hn) (proj2 Hs) Hoeq Hltr al v Ev) as [Hv1 _].
    destruct (v =? 1) eqn:E1; [apply Hv1, Z.eqb_eq, E1|].
    destruct (v =? 0) eqn:E0; [discriminate|]. cbn [negb] in H. discriminate.
Qed.

End Walk.

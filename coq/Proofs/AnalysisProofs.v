(* C04, part 2.  What the leaves of Spec.sem produce (an_charloop_in, an_multi_in, an_ref_in, [starts]);
   soundness of the length analyses (ComputeMinLength / computeMaxLength) against the reference
   semantics, by induction on [Reach] (an_shape_all); [Run], the runs of a well-formed tree, whose
   induction principle the prefix analyses use (reach_run turns a Reach derivation into one); the
   leading and trailing anchors (an_lead_anchor_reach). *)
From Coq Require Import ZifyBool.
From Verif Require Import Base.Prelude Model.Tree Model.Spec Model.Analysis
     Proofs.SpecProofs Proofs.SpecBoundsProofs Proofs.MaskProofs Proofs.AnalysisReach.

From Verif Require Import Proofs.ListFacts.
(* lia and nia also know Z.div and Z.modulo; the setting reaches every file that imports this one *)
Ltac Zify.zify_post_hook ::= Z.div_mod_to_equations.

(* captures never have a negative length                                                       *)

Definition caps_nonneg (c : caps_t) : Prop := forall g i len, In (i, len) (cap_get g c) -> 0 <= len.

Lemma an_caps_nonneg_nil : caps_nonneg [].
Proof. intros g i len H. destruct H. Qed.

Lemma an_caps_nonneg_push g iv c : caps_nonneg c -> 0 <= snd iv -> caps_nonneg (cap_push g iv c).
Proof.
  intros Hc Hiv g' i len H. unfold cap_push in H. destruct (Z.eq_dec g' g) as [->|Hne].
  - rewrite sb_cap_get_set_same in H. destruct H as [H|H]; [subst iv; exact Hiv|eapply Hc; exact H].
  - rewrite sb_cap_get_set_other in H by exact Hne. eapply Hc. exact H.
Qed.

Lemma an_caps_nonneg_pop g c : caps_nonneg c -> caps_nonneg (cap_pop g c).
Proof.
  intros Hc g' i len H. unfold cap_pop in H. destruct (Z.eq_dec g' g) as [->|Hne].
  - rewrite sb_cap_get_set_same in H. apply (Hc g i len).
    destruct (cap_get g c); [destruct H|right; exact H].
  - rewrite sb_cap_get_set_other in H by exact Hne. eapply Hc. exact H.
Qed.

Lemma an_span_nonneg a b : 0 <= snd (span a b).
Proof. unfold span. cbn [snd]. lia. Qed.

Lemma an_balance_span_nonneg a b u : 0 <= snd u -> 0 <= snd (balance_span a b u).
Proof.
  intros Hu. unfold balance_span, span.
  destruct (fst u + snd u <=? Z.min a b) eqn:E1; cbn [snd]; [lia|].
  destruct (Z.min a b + Z.abs (b - a) <=? fst u) eqn:E2; cbn [snd]; lia.
Qed.

(* what the leaves of Spec.sem produce                                                         *)

Section Leaves.
Variable e : env.

Lemma an_charloop_in k l o c m n s y :
  In y (sem_charloop e k l o c m n s) ->
  exists j maxn, y = with_pos s (pos s + dir o * j) /\ m <= j <= run_len e k c o maxn (pos s) /\
                 j <= Z.max 0 (avail e o (pos s)) /\ (n <> INF -> j <= Z.max 0 n).
Proof.
  unfold sem_charloop.
  set (cap := if n =? INF then avail e o (pos s) else Z.min n (avail e o (pos s))).
  set (r := run_len e k c o (Z.to_nat cap) (pos s)).
  pose proof (run_len_bounds e k c o (Z.to_nat cap) (pos s)) as Hr. fold r in Hr.
  assert (Hcap1 : Z.of_nat (Z.to_nat cap) <= Z.max 0 (avail e o (pos s))).
  { subst cap. destruct (n =? INF); lia. }
  assert (Hcap2 : n <> INF -> Z.of_nat (Z.to_nat cap) <= Z.max 0 n).
  { intros Hn. subst cap. destruct (n =? INF) eqn:E; lia. }
  destruct (r <? m) eqn:Erm; [intros []|]. intros H.
  assert (Hj : exists j, y = with_pos s (pos s + dir o * j) /\ m <= j <= r).
  { destruct l.
    - apply in_map_iff in H. destruct H as [j [<- Hj]]. exists j. split; [reflexivity|].
      apply count_down_in in Hj. lia.
    - apply in_map_iff in H. destruct H as [j [<- Hj]]. exists j. split; [reflexivity|].
      apply count_up_in in Hj. lia.
    - destruct H as [<-|[]]. exists r. split; [reflexivity|]. lia. }
  destruct Hj as [j [-> Hj]]. exists j, (Z.to_nat cap). split; [reflexivity|].
  split; [exact Hj|]. split; [lia|]. intros Hn. specialize (Hcap2 Hn). lia.
Qed.

Lemma an_multi_in o str s y :
  In y (sem_multi e o str s) ->
  y = with_pos s (pos s + dir o * zlen str) /\ zlen str <= avail e o (pos s) /\
  str_match_at e (is_ci o) str (if is_rtl o then pos s - zlen str else pos s) = true.
Proof.
  unfold sem_multi. destruct (avail e o (pos s) <? zlen str) eqn:E; [intros []|].
  destruct (str_match_at e (is_ci o) str (if is_rtl o then pos s - zlen str else pos s)) eqn:E2; [|intros []].
  intros [<-|[]]. split; [reflexivity|]. split; [lia|reflexivity].
Qed.

Lemma an_str_match_nth : forall str p i, str_match_at e false str p = true -> (i < length str)%nat ->
  nth i str 0 = char_at e (p + Z.of_nat i).
Proof.
  induction str as [|c str IH]; intros p i Hm Hi; cbn [length] in Hi; [lia|].
  cbn [str_match_at] in Hm. apply andb_true_iff in Hm. destruct Hm as [Hc Hr].
  destruct i as [|i]; cbn [nth].
  - replace (p + Z.of_nat 0) with p by lia. lia.
  - rewrite (IH (p + 1) i Hr) by lia. f_equal. lia.
Qed.

Lemma an_run_len_nth k c o : is_rtl o = false -> forall maxn p i,
  0 <= i < run_len e k c o maxn p -> char_test e k c (char_at e (p + i)) = true /\ p + i < tlen e.
Proof.
  intros Ho. induction maxn as [|m IH]; intros p i Hi; cbn [run_len] in Hi; [lia|].
  unfold avail, next_char, dir in Hi. rewrite Ho in Hi.
  destruct ((0 <? tlen e - p) && char_test e k c (char_at e p)) eqn:E; [|lia].
  apply andb_true_iff in E. destruct E as [Hav Hc].
  destruct (Z.eq_dec i 0) as [->|Hn]; [replace (p + 0) with p by lia; split; [exact Hc|lia]|].
  replace (p + i) with (p + 1 + (i - 1)) by lia. apply IH. lia.
Qed.

Lemma an_ref_in o g s y :
  In y (sem_ref e o g s) ->
  y = s \/ exists i len rest, cap_get g (caps s) = (i, len) :: rest /\ len <= avail e o (pos s) /\
                              y = with_pos s (pos s + dir o * len).
Proof.
  unfold sem_ref. destruct (cap_get g (caps s)) as [|[i len] rest] eqn:Eg.
  - destruct (ecma e); [intros [<-|[]]; left; reflexivity|intros []].
  - destruct (avail e o (pos s) <? len) eqn:E; [intros []|].
    destruct (ref_match_at e (is_ci o) (Z.to_nat len) i (if is_rtl o then pos s - len else pos s)); [|intros []].
    intros [<-|[]]. right. exists i, len, rest. split; [reflexivity|]. split; [lia|reflexivity].
Qed.

(* the text at p starts with P, rune by rune up to the relation R; Analysis2Lal.ci_ok is [starts ci_match]
   and Analysis2Prefixes.pw_ok is [starts pm], written out *)
Definition starts (R : Z -> Z -> bool) (P : list Z) (p : Z) : Prop :=
  forall i, 0 <= i < zlen P -> p + i < tlen e /\ R (nth (Z.to_nat i) P 0) (char_at e (p + i)) = true.

Lemma starts_nil R p : starts R [] p.
Proof. intros i Hi. unfold zlen in Hi. cbn [length] in Hi. lia. Qed.

Lemma starts_app R a b p : starts R a p -> starts R b (p + zlen a) -> starts R (a ++ b) p.
Proof.
  unfold starts, zlen. intros Ha Hb i Hi. rewrite app_length in Hi.
  destruct (Z_lt_ge_dec i (Z.of_nat (length a))) as [Hl|Hl].
  - rewrite app_nth1 by lia. apply Ha. lia.
  - rewrite app_nth2 by lia. specialize (Hb (i - Z.of_nat (length a)) ltac:(lia)).
    replace (p + Z.of_nat (length a) + (i - Z.of_nat (length a))) with (p + i) in Hb by lia.
    replace (Z.to_nat i - length a)%nat with (Z.to_nat (i - Z.of_nat (length a))) by lia. exact Hb.
Qed.

Lemma starts_repeat R c : forall k p,
  (forall i, 0 <= i < Z.of_nat k -> p + i < tlen e /\ R c (char_at e (p + i)) = true) -> starts R (repeat c k) p.
Proof.
  intros k p H i Hi. unfold zlen in Hi. rewrite repeat_length in Hi.
  assert (Hn : nth (Z.to_nat i) (repeat c k) 0 = c).
  { apply (repeat_spec k c). apply nth_In. rewrite repeat_length. lia. }
  rewrite Hn. apply H. lia.
Qed.

End Leaves.

(* Reach keeps capture lengths non-negative (every tree, every direction)                      *)

Section CapsInv.
Variable e : env.

Lemma an_reach_caps_all :
  (forall t s y, Reach e t s y -> caps_nonneg (caps s) -> caps_nonneg (caps y)) /\
  (forall l s y, ReachSeq e l s y -> caps_nonneg (caps s) -> caps_nonneg (caps y)) /\
  (forall r limit s count y, ReachIter e r limit s count y -> caps_nonneg (caps s) -> caps_nonneg (caps y)).
Proof.
  apply Reach_mutind; intros; try assumption; auto.
  - (* charloop *) apply an_charloop_in in H. destruct H as [j [maxn [-> _]]]. assumption.
  - (* multi *) apply an_multi_in in H. destruct H as [-> _]. assumption.
  - (* ref *) apply an_ref_in in H. destruct H as [->|[i [len [rest [_ [_ ->]]]]]]; assumption.
  - (* capture *) cbn [caps]. apply an_caps_nonneg_push; [auto|apply an_span_nonneg].
  - (* balance *)
    cbn [caps]. specialize (H1 H3).
    destruct (g =? -1).
    + apply an_caps_nonneg_pop. exact H1.
    + apply an_caps_nonneg_push; [apply an_caps_nonneg_pop; exact H1|].
      apply an_balance_span_nonneg. destruct top as [i len]. cbn [snd].
      apply (H1 u i len). rewrite H2. left; reflexivity.
Qed.

Lemma an_reach_caps t s y : Reach e t s y -> caps_nonneg (caps s) -> caps_nonneg (caps y).
Proof. apply an_reach_caps_all. Qed.

End CapsInv.

(* the saturating arithmetic of tree.go:1414-1470                                              *)

Fixpoint an_sum (l : list Z) : Z := match l with [] => 0 | x :: l' => x + an_sum l' end.

Lemma an_add_min_bounds x y : 0 <= x -> 0 <= y -> 0 <= add_min_length x y <= x + y.
Proof.
  intros Hx Hy. unfold add_min_length, MAX_MIN_LENGTH.
  destruct ((2147483646 <=? x) || (2147483646 <=? y) || (2147483646 - y <? x)) eqn:E; lia.
Qed.

Lemma an_fold_add_min ms : Forall (fun c => 0 <= c) ms ->
  forall a, 0 <= a -> 0 <= fold_left add_min_length ms a <= a + an_sum ms.
Proof.
  induction 1 as [|c ms Hc Hms IH]; intros a Ha; cbn [fold_left an_sum]; [lia|].
  pose proof (an_add_min_bounds a c Ha Hc) as Hb.
  specialize (IH (add_min_length a c) (proj1 Hb)). lia.
Qed.

Lemma an_mul_min_bounds m c : 0 <= m -> 0 <= c -> 0 <= multiply_min_length m c <= m * c.
Proof.
  intros Hm Hc. unfold multiply_min_length, MAX_MIN_LENGTH.
  destruct ((m =? 0) || (c =? 0)) eqn:E0; [nia|].
  assert (Hq : Z.quot 2147483646 c = 2147483646 / c) by (apply Z.quot_div_nonneg; lia).
  rewrite Hq.
  destruct ((2147483646 <=? m) || (2147483646 <=? c) || (2147483646 / c <? m)) eqn:E; [|nia].
  split; [lia|].
  assert (Hc1 : 1 <= c) by lia. assert (Hm1 : 1 <= m) by lia.
  destruct (2147483646 <=? m) eqn:E1; [nia|].
  destruct (2147483646 <=? c) eqn:E2; [nia|].
  assert (Hlt : 2147483646 / c < m) by lia.
  pose proof (Z.div_mod 2147483646 c ltac:(lia)) as Hdm.
  pose proof (Z.mod_pos_bound 2147483646 c ltac:(lia)) as Hmod.
  nia.
Qed.

Lemma an_add_max_ok x y : 0 <= add_max_length x y -> 0 <= x /\ 0 <= y /\ add_max_length x y = x + y.
Proof.
  unfold add_max_length, INF.
  destruct ((x <? 0) || (y <? 0) || (2147483647 <=? x) || (2147483647 <=? y) || (2147483647 - 1 - y <? x)) eqn:E; lia.
Qed.

Lemma an_mul_max_ok n c : 0 <= multiply_max_length n c -> 0 <= n /\ 0 <= c /\ multiply_max_length n c = n * c.
Proof.
  unfold multiply_max_length, INF.
  destruct ((n <? 0) || (c <? 0)) eqn:E0; [lia|].
  destruct ((n =? 0) || (c =? 0)) eqn:E1; [nia|].
  destruct ((2147483647 <=? n) || (2147483647 <=? c) || (Z.quot (2147483647 - 1) c <? n)) eqn:E2; lia.
Qed.

Lemma an_concat_max_neg ms : forall a, a < 0 -> fold_left concat_max_step ms a < 0.
Proof.
  induction ms as [|c ms IH]; intros a Ha; cbn [fold_left]; [exact Ha|].
  apply IH. unfold concat_max_step. destruct ((a <? 0) || (c <? 0)) eqn:E; lia.
Qed.

Lemma an_concat_max_ok ms : forall a, 0 <= a -> 0 <= fold_left concat_max_step ms a ->
  Forall (fun c => 0 <= c) ms /\ fold_left concat_max_step ms a = a + an_sum ms.
Proof.
  induction ms as [|c ms IH]; intros a Ha H; cbn [fold_left an_sum] in *.
  - split; [constructor|lia].
  - destruct (Z_lt_ge_dec (concat_max_step a c) 0) as [Hneg|Hpos].
    + pose proof (an_concat_max_neg ms _ Hneg). lia.
    + assert (Hs : 0 <= c /\ concat_max_step a c = a + c).
      { revert Hpos. unfold concat_max_step. destruct ((a <? 0) || (c <? 0)) eqn:E; [lia|].
        intros Hp. pose proof (an_add_max_ok a c ltac:(lia)). lia. }
      destruct Hs as [Hc Hs]. destruct (IH (concat_max_step a c) ltac:(lia) H) as [Hall Heq].
      split; [constructor; assumption|]. lia.
Qed.

Lemma an_alt_min_decr cs : forall a, fold_left alt_min_step cs a <= a.
Proof.
  induction cs as [|c cs IH]; intros a; cbn [fold_left]; [lia|].
  specialize (IH (alt_min_step a c)). unfold alt_min_step in *.
  destruct (0 <? a); [destruct (c <? a) eqn:E|]; lia.
Qed.

Lemma an_alt_min_fold cs : forall c0 c, In c (c0 :: cs) -> fold_left alt_min_step cs c0 <= Z.max 0 c.
Proof.
  induction cs as [|c1 cs IH]; intros c0 c Hin.
  - destruct Hin as [<-|[]]. cbn [fold_left]. lia.
  - cbn [fold_left]. destruct Hin as [<-|[<-|Hin]].
    + pose proof (an_alt_min_decr cs (alt_min_step c0 c1)). unfold alt_min_step in *.
      destruct (0 <? c0); [destruct (c1 <? c0) eqn:E|]; lia.
    + pose proof (an_alt_min_decr cs (alt_min_step c0 c1)). unfold alt_min_step in *.
      destruct (0 <? c0) eqn:E0; [destruct (c1 <? c0) eqn:E|]; lia.
    + apply IH. right; exact Hin.
Qed.

Lemma an_alt_min_nonneg cs : forall c0, 0 <= c0 -> Forall (fun c => 0 <= c) cs -> 0 <= fold_left alt_min_step cs c0.
Proof.
  induction cs as [|c cs IH]; intros c0 H0 Hall; cbn [fold_left]; [exact H0|].
  inversion Hall; subst. apply IH; [|assumption].
  unfold alt_min_step. destruct (0 <? c0); [destruct (c <? c0)|]; lia.
Qed.

Lemma an_alt_max_neg cs : forall a, a < 0 -> fold_left alt_max_step cs a < 0.
Proof.
  induction cs as [|c cs IH]; intros a Ha; cbn [fold_left]; [exact Ha|].
  apply IH. unfold alt_max_step. destruct ((a <? 0) || (c <? 0)) eqn:E; lia.
Qed.

Lemma an_alt_max_fold cs : forall a, 0 <= fold_left alt_max_step cs a ->
  0 <= a <= fold_left alt_max_step cs a /\ forall c, In c cs -> 0 <= c <= fold_left alt_max_step cs a.
Proof.
  induction cs as [|c1 cs IH]; intros a H; cbn [fold_left] in *.
  - split; [lia|]. intros c [].
  - destruct (Z_lt_ge_dec (alt_max_step a c1) 0) as [Hneg|Hpos].
    + pose proof (an_alt_max_neg cs _ Hneg). lia.
    + destruct (IH _ H) as [Ha Hcs].
      assert (Hs : 0 <= a /\ 0 <= c1 /\ alt_max_step a c1 = Z.max a c1).
      { revert Hpos. unfold alt_max_step. destruct ((a <? 0) || (c1 <? 0)) eqn:E; lia. }
      split; [lia|]. intros c [<-|Hin]; [lia|]. apply Hcs. exact Hin.
Qed.

(* min_len is never negative on a well-shaped tree                                             *)

Lemma an_forall_map_nonneg (d : bool) (f : node -> Z) l :
  Forall (fun x => shape_ok d x = true -> 0 <= f x) l -> forallb (shape_ok d) l = true ->
  Forall (fun c => 0 <= c) (map f l).
Proof.
  induction 1 as [|x l Hx Hl IH]; intros Hs; cbn [map]; [constructor|].
  cbn [forallb] in Hs. apply andb_true_iff in Hs. destruct Hs as [Hs1 Hs2].
  constructor; [apply Hx; exact Hs1|apply IH; exact Hs2].
Qed.

Lemma an_alt_forallb (d : bool) l : shape_ok d (NAlternate 0 l) = true -> forallb (shape_ok d) l = true.
Proof. cbn [shape_ok]. destruct l; [discriminate|auto]. Qed.

Lemma an_min_len_nonneg (d : bool) : forall t, shape_ok d t = true -> 0 <= min_len t.
Proof.
  induction t using node_ind'; cbn [min_len]; intros Hs; try lia; try (apply IHt; exact Hs).
  - (* NCharLoop *) cbn [shape_ok] in Hs. lia.
  - (* NMulti *) unfold zlen. lia.
  - (* NConcat *)
    cbn [shape_ok] in Hs. pose proof (an_forall_map_nonneg d min_len l H Hs) as Hall.
    apply (an_fold_add_min _ Hall 0). lia.
  - (* NAlternate *)
    pose proof (an_forall_map_nonneg d min_len l H (an_alt_forallb d l Hs)) as Hall.
    destruct (map min_len l) as [|c0 cs]; [lia|]. inversion Hall; subst.
    apply an_alt_min_nonneg; assumption.
  - (* NLoop *)
    cbn [shape_ok] in Hs. apply andb_true_iff in Hs. destruct Hs as [Hmn Hr].
    apply an_mul_min_bounds; [lia|]. apply IHt. exact Hr.
  - (* NBackRefCond *)
    cbn [shape_ok] in Hs. destruct no as [n|]; [|lia]. cbn [opt_all] in H.
    apply andb_true_iff in Hs. destruct Hs as [Hy Hn]. specialize (IHt Hy). specialize (H Hn).
    destruct (min_len t <? min_len n); lia.
  - (* NExprCond *)
    cbn [shape_ok] in Hs. destruct no as [n|]; [|lia]. cbn [opt_all] in H.
    apply andb_true_iff in Hs. destruct Hs as [Hy Hn]. specialize (IHt2 Hy). specialize (H Hn).
    destruct (min_len t2 <? min_len n); lia.
Qed.

(* the master lemma: every result of a well-shaped node lies min_len .. max_len characters     *)
(* further in the node's direction, and stays inside the text                                  *)

Section Shape.
Variable e : env.

Definition inb (s : st) : Prop := 0 <= pos s <= tlen e.
(* characters consumed in direction d (true = right-to-left) between states s and y *)
Definition disp (d : bool) (s y : st) : Z := if d then pos s - pos y else pos y - pos s.

Lemma an_disp_trans d s s1 y : disp d s y = disp d s s1 + disp d s1 y.
Proof. unfold disp. destruct d; lia. Qed.

Lemma an_disp_refl d s : disp d s s = 0.
Proof. unfold disp. destruct d; lia. Qed.

Definition PT (d : bool) (t : node) (s y : st) : Prop :=
  shape_ok d t = true -> inb s -> caps_nonneg (caps s) ->
  inb y /\ 0 <= disp d s y /\ min_len t <= disp d s y /\ (0 <= max_len t -> disp d s y <= max_len t).

Definition PS (d : bool) (l : list node) (s y : st) : Prop :=
  forallb (shape_ok d) l = true -> inb s -> caps_nonneg (caps s) ->
  inb y /\ 0 <= disp d s y /\ an_sum (map min_len l) <= disp d s y /\
  (Forall (fun c => 0 <= c) (map max_len l) -> disp d s y <= an_sum (map max_len l)).

Definition PI (d : bool) (r : node) (limit : Z) (s : st) (count : Z) (y : st) : Prop :=
  shape_ok d r = true -> 0 <= limit -> inb s -> caps_nonneg (caps s) ->
  inb y /\ 0 <= disp d s y /\ (count < 0 -> (- count) * min_len r <= disp d s y) /\
  (0 <= max_len r -> count <= limit -> disp d s y <= (limit - count) * max_len r).

Ltac an_dir Hs :=
  apply eqb_prop in Hs; unfold inb, disp, avail, dir in *; rewrite ?Hs in *.

Lemma an_shape_all (d : bool) :
  (forall t s y, Reach e t s y -> PT d t s y) /\
  (forall l s y, ReachSeq e l s y -> PS d l s y) /\
  (forall r limit s count y, ReachIter e r limit s count y -> PI d r limit s count y).
Proof.
  apply Reach_mutind.
  - (* R_char *)
    intros k o c s Hc Hs Hb Hcn. cbn [shape_ok min_len max_len] in *.
    apply andb_true_iff in Hc. destruct Hc as [Hav _].
    an_dir Hs. cbn [pos with_pos]. destruct d; lia.
  - (* R_charloop *)
    intros k l o c m n s y Hin Hs Hb Hcn. cbn [shape_ok min_len max_len] in *.
    apply an_charloop_in in Hin. destruct Hin as [j [maxn [-> [[Hmj _] [Hja Hjn]]]]].
    apply andb_true_iff in Hs. destruct Hs as [Hs Hmn]. apply andb_true_iff in Hs. destruct Hs as [Hs Hm0].
    an_dir Hs. cbn [pos with_pos].
    destruct (n =? INF) eqn:En.
    + destruct d; lia.
    + assert (Hn : n <> INF) by lia. specialize (Hjn Hn). destruct d; lia.
  - (* R_multi *)
    intros o str s y Hin Hs Hb Hcn. cbn [shape_ok min_len max_len] in *.
    apply an_multi_in in Hin. destruct Hin as [-> [Hav _]].
    assert (Hz : 0 <= zlen str) by (unfold zlen; lia).
    an_dir Hs. cbn [pos with_pos]. destruct d; lia.
  - (* R_ref *)
    intros o g s y Hin Hs Hb Hcn. cbn [shape_ok min_len max_len] in *.
    apply an_ref_in in Hin. destruct Hin as [->|[i [len [rest [Hg [Hav ->]]]]]].
    + rewrite an_disp_refl. split; [exact Hb|]. lia.
    + assert (Hl : 0 <= len) by (apply (Hcn g i len); rewrite Hg; left; reflexivity).
      an_dir Hs. cbn [pos with_pos]. destruct d; lia.
  - (* R_anchor *)
    intros a s _ Hs Hb Hcn. cbn [min_len max_len]. rewrite an_disp_refl. split; [exact Hb|]. lia.
  - (* R_empty *)
    intros s Hs Hb Hcn. cbn [min_len max_len]. rewrite an_disp_refl. split; [exact Hb|]. lia.
  - (* R_bump *)
    intros s Hs Hb Hcn. cbn [min_len max_len]. rewrite an_disp_refl. split; [exact Hb|]. lia.
  - (* R_concat *)
    intros o l s y _ IH Hs Hb Hcn. cbn [shape_ok min_len max_len] in *.
    destruct (IH Hs Hb Hcn) as [Hy [H0 [Hmin Hmax]]].
    split; [exact Hy|]. split; [exact H0|].
    assert (Hall : Forall (fun c => 0 <= c) (map min_len l)).
    { apply (an_forall_map_nonneg d); [|exact Hs]. apply Forall_forall. intros x _. apply an_min_len_nonneg. }
    pose proof (an_fold_add_min _ Hall 0 ltac:(lia)) as Hf.
    split; [lia|]. intros Hm.
    destruct (an_concat_max_ok _ 0 ltac:(lia) Hm) as [Hallm Heq]. specialize (Hmax Hallm). lia.
  - (* R_alt *)
    intros o l x s y Hin _ IH Hs Hb Hcn.
    pose proof (an_alt_forallb d l Hs) as Hfa.
    assert (Hx : shape_ok d x = true) by (rewrite forallb_forall in Hfa; apply Hfa; exact Hin).
    destruct (IH Hx Hb Hcn) as [Hy [H0 [Hmin Hmax]]].
    split; [exact Hy|]. split; [exact H0|]. cbn [min_len max_len].
    split.
    + assert (Hi : In (min_len x) (map min_len l)) by (apply in_map; exact Hin).
      destruct (map min_len l) as [|c0 cs]; [destruct Hi|].
      pose proof (an_alt_min_fold cs c0 _ Hi). lia.
    + assert (Hi : In (max_len x) (map max_len l)) by (apply in_map; exact Hin).
      destruct (map max_len l) as [|c0 cs]; [destruct Hi|]. intros Hm.
      destruct (an_alt_max_fold cs _ Hm) as [Ha Hcs].
      destruct Hi as [Hi|Hi].
      * destruct (c0 <? 0) eqn:Ec0; [lia|]. rewrite <- Hi in *. lia.
      * specialize (Hcs _ Hi). lia.
  - (* R_loop0 *)
    intros lazy o m n r s y Hm0 _ IH Hs Hb Hcn. subst m. cbn [shape_ok min_len max_len] in *.
    apply andb_true_iff in Hs. destruct Hs as [Hmn Hr].
    assert (Hlim : 0 <= loop_limit 0 n) by (unfold loop_limit, INF; destruct (n =? 2147483647); lia).
    destruct (IH Hr Hlim Hb Hcn) as [Hy [H0 [_ Hmax]]].
    split; [exact Hy|]. split; [exact H0|]. split.
    { unfold multiply_min_length. cbn. lia. }
    destruct (n =? INF) eqn:En; [lia|].
    destruct (0 <=? max_len r) eqn:Ec; [|lia]. intros Hm.
    destruct (an_mul_max_ok _ _ Hm) as [Hn0 [Hc0 Heq]].
    unfold loop_limit in Hmax. rewrite En in Hmax. specialize (Hmax ltac:(lia) ltac:(lia)). lia.
  - (* R_loop1 *)
    intros lazy o m n r s s1 y Hm0 Hr1 IH1 _ IH2 Hs Hb Hcn. cbn [shape_ok min_len max_len] in *.
    apply andb_true_iff in Hs. destruct Hs as [Hmn Hr].
    assert (Hlim : 0 <= loop_limit m n) by (unfold loop_limit, INF; destruct (n =? 2147483647); lia).
    destruct (IH1 Hr Hb Hcn) as [Hy1 [H01 [Hmin1 Hmax1]]].
    pose proof (an_reach_caps e _ _ _ Hr1 Hcn) as Hcn1.
    destruct (IH2 Hr Hlim Hy1 Hcn1) as [Hy [H0 [Hmin2 Hmax2]]].
    rewrite (an_disp_trans d s s1 y).
    pose proof (an_min_len_nonneg d r Hr) as Hc0.
    split; [exact Hy|]. split; [lia|]. split.
    { pose proof (an_mul_min_bounds m (min_len r) ltac:(lia) Hc0) as Hb2.
      destruct (Z.eq_dec m 1) as [->|Hm1]; [lia|].
      specialize (Hmin2 ltac:(lia)). nia. }
    destruct (n =? INF) eqn:En; [lia|].
    destruct (0 <=? max_len r) eqn:Ec; [|lia]. intros Hm.
    destruct (an_mul_max_ok _ _ Hm) as [Hn0 [Hcm Heq]].
    unfold loop_limit in Hmax2. rewrite En in Hmax2.
    specialize (Hmax1 ltac:(lia)). specialize (Hmax2 ltac:(lia) ltac:(lia)). nia.
  - (* R_capture *)
    intros o g r s s1 _ IH Hs Hb Hcn. cbn [shape_ok min_len max_len] in *.
    destruct (IH Hs Hb Hcn) as [Hy [H0 [Hmin Hmax]]].
    unfold inb, disp in *. cbn [pos]. auto.
  - (* R_balance *)
    intros o g u r s s1 top rest _ _ IH _ Hs Hb Hcn. cbn [shape_ok min_len max_len] in *.
    destruct (IH Hs Hb Hcn) as [Hy [H0 [Hmin Hmax]]].
    unfold inb, disp in *. cbn [pos]. auto.
  - (* R_group *)
    intros r s y _ IH Hs Hb Hcn. cbn [shape_ok min_len max_len] in *.
    destruct (IH Hs Hb Hcn) as [Hy [H0 [Hmin Hmax]]].
    split; [exact Hy|]. split; [exact H0|]. split; [exact Hmin|]. lia.
  - (* R_poslook *)
    intros o r s s1 _ _ Hs Hb Hcn. cbn [min_len max_len].
    unfold inb, disp in *. cbn [pos with_pos]. destruct d; lia.
  - (* R_neglook *)
    intros o r s Hs Hb Hcn. cbn [min_len max_len]. rewrite an_disp_refl. split; [exact Hb|]. lia.
  - (* R_atomic *)
    intros r s y _ IH Hs Hb Hcn. cbn [shape_ok min_len max_len] in *. apply IH; assumption.
  - (* R_brc_yes *)
    intros o g yes no s y _ _ IH Hs Hb Hcn. cbn [shape_ok min_len max_len] in *.
    apply andb_true_iff in Hs. destruct Hs as [Hyes Hno].
    destruct no as [n|]; [|discriminate Hno].
    destruct (IH Hyes Hb Hcn) as [Hy [H0 [Hmin Hmax]]].
    split; [exact Hy|]. split; [exact H0|]. split.
    + destruct (min_len yes <? min_len n) eqn:E; lia.
    + destruct (max_len yes <? 0) eqn:E1; [lia|]. destruct (max_len n <? 0) eqn:E2; lia.
  - (* R_brc_no *)
    intros o g yes n s y _ _ IH Hs Hb Hcn. cbn [shape_ok min_len max_len] in *.
    apply andb_true_iff in Hs. destruct Hs as [Hyes Hno].
    destruct (IH Hno Hb Hcn) as [Hy [H0 [Hmin Hmax]]].
    split; [exact Hy|]. split; [exact H0|]. split.
    + destruct (min_len yes <? min_len n) eqn:E; lia.
    + destruct (max_len yes <? 0) eqn:E1; [lia|]. destruct (max_len n <? 0) eqn:E2; lia.
  - (* R_brc_none *)
    intros o g yes s _ Hs Hb Hcn. cbn [shape_ok] in Hs.
    apply andb_true_iff in Hs. destruct Hs as [_ Hno]. discriminate Hno.
  - (* R_ec_yes *)
    intros o c yes no s s1 y Hrc _ _ IH Hs Hb Hcn. cbn [shape_ok min_len max_len] in *.
    apply andb_true_iff in Hs. destruct Hs as [Hyes Hno].
    destruct no as [n|]; [|discriminate Hno].
    pose proof (an_reach_caps e _ _ _ Hrc Hcn) as Hcn1.
    assert (Hb1 : inb (with_pos s1 (pos s))) by exact Hb.
    destruct (IH Hyes Hb1 Hcn1) as [Hy [H0 [Hmin Hmax]]].
    assert (Hd : disp d (with_pos s1 (pos s)) y = disp d s y) by reflexivity.
    rewrite Hd in *.
    split; [exact Hy|]. split; [exact H0|]. split.
    + destruct (min_len yes <? min_len n) eqn:E; lia.
    + destruct (max_len yes <? 0) eqn:E1; [lia|]. destruct (max_len n <? 0) eqn:E2; lia.
  - (* R_ec_no *)
    intros o c yes n s y _ IH Hs Hb Hcn. cbn [shape_ok min_len max_len] in *.
    apply andb_true_iff in Hs. destruct Hs as [Hyes Hno].
    destruct (IH Hno Hb Hcn) as [Hy [H0 [Hmin Hmax]]].
    split; [exact Hy|]. split; [exact H0|]. split.
    + destruct (min_len yes <? min_len n) eqn:E; lia.
    + destruct (max_len yes <? 0) eqn:E1; [lia|]. destruct (max_len n <? 0) eqn:E2; lia.
  - (* R_ec_none *)
    intros o c yes s Hs Hb Hcn. cbn [shape_ok] in Hs.
    apply andb_true_iff in Hs. destruct Hs as [_ Hno]. discriminate Hno.
  - (* RS_nil *)
    intros s _ Hb Hcn. cbn [map an_sum]. rewrite an_disp_refl. split; [exact Hb|]. lia.
  - (* RS_cons *)
    intros x l s s1 y Hr1 IH1 _ IH2 Hs Hb Hcn. cbn [forallb] in Hs.
    apply andb_true_iff in Hs. destruct Hs as [Hx Hl].
    destruct (IH1 Hx Hb Hcn) as [Hy1 [H01 [Hmin1 Hmax1]]].
    pose proof (an_reach_caps e _ _ _ Hr1 Hcn) as Hcn1.
    destruct (IH2 Hl Hy1 Hcn1) as [Hy [H0 [Hmin2 Hmax2]]].
    rewrite (an_disp_trans d s s1 y). cbn [map an_sum].
    split; [exact Hy|]. split; [lia|]. split; [lia|].
    intros Hall. inversion Hall; subst. specialize (Hmax1 ltac:(assumption)). specialize (Hmax2 ltac:(assumption)). lia.
  - (* RI_stop *)
    intros r limit s count Hc Hr Hlim Hb Hcn. rewrite an_disp_refl.
    split; [exact Hb|]. split; [lia|]. split; [lia|]. intros Hm Hcl. nia.
  - (* RI_more *)
    intros r limit s count s1 y Hc Hr1 IH1 _ IH2 Hr Hlim Hb Hcn.
    destruct (IH1 Hr Hb Hcn) as [Hy1 [H01 [Hmin1 Hmax1]]].
    pose proof (an_reach_caps e _ _ _ Hr1 Hcn) as Hcn1.
    destruct (IH2 Hr Hlim Hy1 Hcn1) as [Hy [H0 [Hmin2 Hmax2]]].
    rewrite (an_disp_trans d s s1 y).
    split; [exact Hy|]. split; [lia|]. split.
    + intros Hneg. destruct (Z.eq_dec count (-1)) as [->|Hne]; [lia|].
      specialize (Hmin2 ltac:(lia)). nia.
    + intros Hm Hcl. specialize (Hmax1 Hm). specialize (Hmax2 Hm ltac:(lia)). nia.
Qed.

Lemma an_loop_limit_nonneg m n : 0 <= m <= n -> 0 <= loop_limit m n.
Proof. unfold loop_limit, INF. destruct (n =? 2147483647); lia. Qed.

Lemma an_step d t s y : Reach e t s y -> shape_ok d t = true -> inb s -> caps_nonneg (caps s) ->
  inb y /\ 0 <= disp d s y /\ caps_nonneg (caps y).
Proof.
  intros Hr Hs Hb Hcn. destruct (proj1 (an_shape_all d) _ _ _ Hr Hs Hb Hcn) as [Hy [H0 _]].
  split; [exact Hy|]. split; [exact H0|]. exact (an_reach_caps e _ _ _ Hr Hcn).
Qed.

Lemma an_step_seq d l s y : ReachSeq e l s y -> forallb (shape_ok d) l = true -> inb s -> caps_nonneg (caps s) ->
  inb y /\ 0 <= disp d s y.
Proof.
  intros Hr Hs Hb Hcn. destruct (proj1 (proj2 (an_shape_all d)) _ _ _ Hr Hs Hb Hcn) as [Hy [H0 _]]. tauto.
Qed.

Lemma an_step_iter d r limit s count y : ReachIter e r limit s count y -> shape_ok d r = true -> 0 <= limit ->
  inb s -> caps_nonneg (caps s) -> inb y /\ 0 <= disp d s y.
Proof.
  intros Hr Hs Hl Hb Hcn. destruct (proj2 (proj2 (an_shape_all d)) _ _ _ _ _ Hr Hs Hl Hb Hcn) as [Hy [H0 _]]. tauto.
Qed.

End Shape.

(* the children whose results make up the results of the node: the body of a lookaround and the
   condition of an expression conditional are not among them *)
Definition kids (t : node) : list node :=
  match t with
  | NConcat _ l | NAlternate _ l => l
  | NLoop _ _ _ _ r | NCapture _ _ _ r | NGroup r | NAtomic r => [r]
  | NBackRefCond _ _ yes no | NExprCond _ _ yes no => yes :: match no with Some n => [n] | None => [] end
  | _ => []
  end.

Lemma an_kids_andb (f g : node -> bool) :
  (forall t, f t = true -> forallb f (kids t) = true) -> (forall t, g t = true -> forallb g (kids t) = true) ->
  forall t, f t && g t = true -> forallb (fun x => f x && g x) (kids t) = true.
Proof.
  intros Hf Hg t H. apply andb_true_iff in H. destruct H as [H1 H2].
  rewrite forallb_andb, (Hf t H1), (Hg t H2). reflexivity.
Qed.

Lemma an_no_ci_kids t : no_ci_lit t = true -> forallb no_ci_lit (kids t) = true.
Proof.
  destruct t as [| | | | | | | | | | | | | | | |o g yes [n|]|o c yes [n|]]; cbn [kids no_ci_lit forallb]; intros H;
    rewrite ?andb_true_r in *; try exact H; try reflexivity.
  - apply andb_true_iff in H. destruct H as [H ->]. apply andb_true_iff in H. destruct H as [_ ->]. reflexivity.
  - apply andb_true_iff in H. tauto.
Qed.

(* [Run t s y]: Reach, for a tree that satisfies [shape_ok d] and a second predicate [ok] that children
   inherit, from a state inside the text whose captures have non-negative lengths.  What these
   hypotheses say at each node (the children are well-formed, every step moves in direction d) is
   part of the derivation, so that an induction on Run does not thread them.  The cases shape_ok
   excludes (a conditional without else branch) are absent; both branches of a conditional come
   under one constructor, and so do the two kinds of capture. *)
Section Run.
Variables (e : env) (d : bool) (ok : node -> bool).
Hypothesis ok_kids : forall t, ok t = true -> forallb ok (kids t) = true.

Definition wf (t : node) : Prop := shape_ok d t = true /\ ok t = true.
Definition wfs (l : list node) : Prop := forallb (shape_ok d) l = true /\ forallb ok l = true.

Inductive Run : node -> st -> st -> Prop :=
| W_char k o c s : wf (NChar k o c) -> inb e s ->
    (0 <? avail e o (pos s)) && char_test e k c (next_char e o (pos s)) = true ->
    Run (NChar k o c) s (with_pos s (pos s + dir o))
| W_charloop k l o c m n s y : wf (NCharLoop k l o c m n) -> inb e s ->
    In y (sem_charloop e k l o c m n s) -> Run (NCharLoop k l o c m n) s y
| W_multi o str s y : wf (NMulti o str) -> inb e s -> In y (sem_multi e o str s) -> Run (NMulti o str) s y
| W_ref o g s y : In y (sem_ref e o g s) -> Run (NRef o g) s y
| W_anchor a s : anchor_ok e a (pos s) = true -> Run (NAnchor a) s s
| W_empty s : Run NEmpty s s
| W_bump s : Run NBump s s
| W_concat o l s y : RunSeq l s y -> Run (NConcat o l) s y
| W_alt o l x s y : wfs l -> In x l -> Run x s y -> 0 <= disp d s y -> Run (NAlternate o l) s y
| W_loop0 lazy o n r s y : wf r -> RunIter r (loop_limit 0 n) s 0 y -> Run (NLoop lazy o 0 n r) s y
| W_loop1 lazy o m n r s s1 y :
    wf r -> 0 < m <= n -> Run r s s1 -> RunIter r (loop_limit m n) s1 (1 - m) y ->
    inb e s -> 0 <= disp d s s1 -> 0 <= disp d s1 y -> Run (NLoop lazy o m n r) s y
| W_capture o g u r s s1 y : Run r s s1 -> pos y = pos s1 -> Run (NCapture o g u r) s y
| W_group r s y : Run r s y -> Run (NGroup r) s y
| W_poslook o r s y : pos y = pos s -> Run (NPosLook o r) s y
| W_neglook o r s : Run (NNegLook o r) s s
| W_atomic r s y : Run r s y -> Run (NAtomic r) s y
| W_brc o g yes n x s y :
    wf yes -> wf n -> x = yes \/ x = n -> Run x s y -> Run (NBackRefCond o g yes (Some n)) s y
| W_ec o c yes n x s s0 y :
    wf yes -> wf n -> x = yes \/ x = n -> pos s0 = pos s -> Run x s0 y -> Run (NExprCond o c yes (Some n)) s y
with RunSeq : list node -> st -> st -> Prop :=
| WS_nil s : RunSeq [] s s
| WS_cons x l s s1 y :
    wf x -> wfs l -> Run x s s1 -> RunSeq l s1 y -> inb e s -> 0 <= disp d s s1 -> 0 <= disp d s1 y ->
    RunSeq (x :: l) s y
with RunIter : node -> Z -> st -> Z -> st -> Prop :=
| WI_stop r limit s count : 0 <= limit -> (0 <= count \/ limit <= count) -> RunIter r limit s count s
| WI_more r limit s count s1 y :
    (count < 0 \/ count < limit) -> Run r s s1 -> RunIter r limit s1 (count + 1) y ->
    inb e s -> 0 <= disp d s s1 -> 0 <= disp d s1 y -> RunIter r limit s count y.

Scheme Run_mind := Minimality for Run Sort Prop
  with RunSeq_mind := Minimality for RunSeq Sort Prop
  with RunIter_mind := Minimality for RunIter Sort Prop.
Combined Scheme Run_mutind from Run_mind, RunSeq_mind, RunIter_mind.

Lemma an_wfs_in l x : wfs l -> In x l -> wf x.
Proof. intros [Hs Ho] Hin. rewrite forallb_forall in Hs, Ho. split; auto. Qed.

Lemma an_wf_kid t r : ok t = true -> kids t = [r] -> shape_ok d r = true -> wf r.
Proof.
  intros Ho Hk Hs. split; [exact Hs|]. pose proof (ok_kids t Ho) as H. rewrite Hk in H.
  cbn [forallb] in H. apply andb_true_iff in H. tauto.
Qed.

Lemma an_wf_cond t yes no :
  ok t = true -> kids t = yes :: match no with Some n => [n] | None => [] end ->
  shape_ok d yes && match no with Some n => shape_ok d n | None => false end = true ->
  exists n, no = Some n /\ wf yes /\ wf n.
Proof.
  intros Ho Hk Hs. pose proof (ok_kids t Ho) as H. rewrite Hk in H.
  apply andb_true_iff in Hs. destruct Hs as [Hsy Hsn]. destruct no as [n|]; [|discriminate Hsn].
  cbn [forallb] in H. apply andb_true_iff in H. destruct H as [Hy H]. apply andb_true_iff in H.
  exists n. unfold wf. tauto.
Qed.

Lemma reach_run :
  (forall t s y, Reach e t s y -> wf t -> inb e s -> caps_nonneg (caps s) -> Run t s y) /\
  (forall l s y, ReachSeq e l s y -> wfs l -> inb e s -> caps_nonneg (caps s) -> RunSeq l s y) /\
  (forall r limit s count y, ReachIter e r limit s count y ->
     wf r -> 0 <= limit -> inb e s -> caps_nonneg (caps s) -> RunIter r limit s count y).
Proof.
  apply Reach_mutind.
  - intros k o c s Hc Hw Hb _. apply W_char; assumption.
  - intros k l o c m n s y Hin Hw Hb _. apply W_charloop; assumption.
  - intros o str s y Hin Hw Hb _. apply W_multi; assumption.
  - intros o g s y Hin _ _ _. apply W_ref. exact Hin.
  - intros a s Ha _ _ _. apply W_anchor. exact Ha.
  - intros. apply W_empty.
  - intros. apply W_bump.
  - intros o l s y _ IH [Hs Ho] Hb Hcn. apply W_concat. apply IH; [split; [exact Hs|exact (ok_kids _ Ho)]|exact Hb|exact Hcn].
  - intros o l x s y Hin Hr IH [Hs Ho] Hb Hcn.
    assert (Hl : wfs l) by (split; [exact (an_alt_forallb d l Hs)|exact (ok_kids _ Ho)]).
    pose proof (an_wfs_in l x Hl Hin) as Hx.
    apply (W_alt o l x); [exact Hl|exact Hin|apply IH; assumption|].
    apply (an_step e d x s y Hr (proj1 Hx) Hb Hcn).
  - intros lazy o m n r s y -> _ IH [Hs Ho] Hb Hcn. cbn [shape_ok] in Hs.
    apply andb_true_iff in Hs. destruct Hs as [Hmn Hsr].
    pose proof (an_wf_kid _ r Ho eq_refl Hsr) as Hr.
    apply W_loop0; [exact Hr|]. apply IH; [exact Hr|apply an_loop_limit_nonneg; lia|exact Hb|exact Hcn].
  - intros lazy o m n r s s1 y Hm Hr1 IH1 Hr2 IH2 [Hs Ho] Hb Hcn. cbn [shape_ok] in Hs.
    apply andb_true_iff in Hs. destruct Hs as [Hmn Hsr].
    pose proof (an_wf_kid _ r Ho eq_refl Hsr) as Hr.
    assert (Hlim : 0 <= loop_limit m n) by (apply an_loop_limit_nonneg; lia).
    destruct (an_step e d r s s1 Hr1 Hsr Hb Hcn) as [Hb1 [Hd1 Hcn1]].
    apply (W_loop1 lazy o m n r s s1); [exact Hr|lia|apply IH1; assumption|apply IH2; assumption|exact Hb|exact Hd1|].
    apply (an_step_iter e d r _ s1 _ y Hr2 Hsr Hlim Hb1 Hcn1).
  - intros o g r s s1 _ IH [Hs Ho] Hb Hcn. apply (W_capture o g (-1) r s s1); [|reflexivity].
    apply IH; [|exact Hb|exact Hcn]. exact (an_wf_kid _ r Ho eq_refl Hs).
  - intros o g u r s s1 top rest _ _ IH _ [Hs Ho] Hb Hcn. apply (W_capture o g u r s s1); [|reflexivity].
    apply IH; [|exact Hb|exact Hcn]. exact (an_wf_kid _ r Ho eq_refl Hs).
  - intros r s y _ IH [Hs Ho] Hb Hcn. apply W_group.
    apply IH; [|exact Hb|exact Hcn]. exact (an_wf_kid _ r Ho eq_refl Hs).
  - intros. apply W_poslook. reflexivity.
  - intros. apply W_neglook.
  - intros r s y _ IH [Hs Ho] Hb Hcn. apply W_atomic.
    apply IH; [|exact Hb|exact Hcn]. exact (an_wf_kid _ r Ho eq_refl Hs).
  - intros o g yes no s y _ _ IH [Hs Ho] Hb Hcn.
    destruct (an_wf_cond _ yes no Ho eq_refl Hs) as [n [-> [Hy Hn]]].
    apply (W_brc o g yes n yes); [exact Hy|exact Hn|left; reflexivity|apply IH; assumption].
  - intros o g yes n s y _ _ IH [Hs Ho] Hb Hcn.
    destruct (an_wf_cond _ yes (Some n) Ho eq_refl Hs) as [n' [E [Hy Hn]]]. injection E as <-.
    apply (W_brc o g yes n n); [exact Hy|exact Hn|right; reflexivity|apply IH; assumption].
  - intros o g yes s _ [Hs Ho]. destruct (an_wf_cond _ yes None Ho eq_refl Hs) as [n [E _]]. discriminate E.
  - intros o c yes no s s1 y Hrc _ _ IH [Hs Ho] Hb Hcn.
    destruct (an_wf_cond _ yes no Ho eq_refl Hs) as [n [-> [Hy Hn]]].
    apply (W_ec o c yes n yes s (with_pos s1 (pos s))); [exact Hy|exact Hn|left; reflexivity|reflexivity|].
    apply IH; [exact Hy|exact Hb|exact (an_reach_caps e _ _ _ Hrc Hcn)].
  - intros o c yes n s y _ IH [Hs Ho] Hb Hcn.
    destruct (an_wf_cond _ yes (Some n) Ho eq_refl Hs) as [n' [E [Hy Hn]]]. injection E as <-.
    apply (W_ec o c yes n n s s); [exact Hy|exact Hn|right; reflexivity|reflexivity|apply IH; assumption].
  - intros o c yes s [Hs Ho]. destruct (an_wf_cond _ yes None Ho eq_refl Hs) as [n [E _]]. discriminate E.
  - intros. apply WS_nil.
  - intros x l s s1 y Hr1 IH1 Hr2 IH2 [Hs Ho] Hb Hcn. cbn [forallb] in Hs, Ho.
    apply andb_true_iff in Hs. destruct Hs as [Hsx Hsl]. apply andb_true_iff in Ho. destruct Ho as [Hox Hol].
    destruct (an_step e d x s s1 Hr1 Hsx Hb Hcn) as [Hb1 [Hd1 Hcn1]].
    apply (WS_cons x l s s1); [split; assumption|split; assumption|apply IH1; [split|..]; assumption
                              |apply IH2; [split|..]; assumption|exact Hb|exact Hd1|].
    apply (an_step_seq e d l s1 y Hr2 Hsl Hb1 Hcn1).
  - intros r limit s count Hc _ Hlim _ _. apply WI_stop; assumption.
  - intros r limit s count s1 y Hc Hr1 IH1 Hr2 IH2 Hw Hlim Hb Hcn.
    destruct (an_step e d r s s1 Hr1 (proj1 Hw) Hb Hcn) as [Hb1 [Hd1 Hcn1]].
    apply (WI_more r limit s count s1); [exact Hc|apply IH1; assumption|apply IH2; assumption|exact Hb|exact Hd1|].
    apply (an_step_iter e d r _ s1 _ y Hr2 (proj1 Hw) Hlim Hb1 Hcn1).
Qed.

Lemma attempt_run fuel root p s' :
  wf root -> 0 <= p <= tlen e -> attempt e fuel root p = Ok (Some s') -> Run root {| pos := p; caps := [] |} s'.
Proof.
  intros Hw Hp Ha. exact (proj1 reach_run _ _ _ (attempt_reach e _ _ _ _ Ha) Hw Hp an_caps_nonneg_nil).
Qed.

End Run.

(* length facts, stated on Spec.sem and Spec.attempt                                           *)

Section LengthSound.
Variable e : env.

Theorem an_len_sound (d : bool) fuel t s l y :
  shape_ok d t = true -> 0 <= pos s <= tlen e -> caps_nonneg (caps s) ->
  sem e fuel t s = Ok l -> In y l ->
  0 <= pos y <= tlen e /\ min_len t <= disp d s y /\ (0 <= max_len t -> disp d s y <= max_len t).
Proof.
  intros Hs Hb Hcn Hsem Hy.
  pose proof (sem_reach e _ _ _ _ _ Hsem Hy) as Hr.
  destruct (proj1 (an_shape_all e d) _ _ _ Hr Hs Hb Hcn) as [Hyb [_ [Hmin Hmax]]].
  split; [exact Hyb|]. split; assumption.
Qed.

Theorem an_attempt_len_sound (d : bool) fuel root p s' :
  shape_ok d root = true -> 0 <= p <= tlen e ->
  attempt e fuel root p = Ok (Some s') ->
  0 <= pos s' <= tlen e /\
  min_len root <= (if d then p - pos s' else pos s' - p) /\
  (0 <= max_len root -> (if d then p - pos s' else pos s' - p) <= max_len root).
Proof.
  intros Hs Hb Ha. pose proof (attempt_reach e _ _ _ _ Ha) as Hr.
  destruct (proj1 (an_shape_all e d) _ _ _ Hr Hs Hb an_caps_nonneg_nil) as [Hyb [_ [Hmin Hmax]]].
  split; [exact Hyb|]. split; assumption.
Qed.

End LengthSound.

Lemma an_anchor_eqb_eq a b : anchor_eqb a b = true -> a = b.
Proof. destruct a, b; cbn; intros H; try reflexivity; discriminate H. Qed.

Lemma an_pick_first_split {A} (sk : node -> bool) (f : node -> A) : forall l r,
  pick_first (map (fun x => (sk x, f x)) l) = Some r ->
  exists pre x post, l = pre ++ x :: post /\ forallb sk pre = true /\ sk x = false /\ r = f x.
Proof.
  induction l as [|x l IH]; intros r H; cbn [map pick_first] in H; [discriminate H|].
  destruct (sk x) eqn:Ex.
  - destruct (IH _ H) as [pre [x0 [post [-> [Hp [Hx Hr]]]]]].
    exists (x :: pre), x0, post. cbn [forallb app]. rewrite Ex, Hp. auto.
  - injection H as <-. exists [], x, l. auto.
Qed.

Section Anchors.
Variable e : env.

Lemma an_reachseq_app : forall a b s y, ReachSeq e (a ++ b) s y -> exists s1, ReachSeq e a s s1 /\ ReachSeq e b s1 y.
Proof.
  induction a as [|x a IH]; intros b s y H; cbn [app] in H.
  - exists s. split; [apply RS_nil|exact H].
  - apply an_reachseq_cons_inv in H. destruct H as [s1 [Hx Hrest]].
    destruct (IH _ _ _ Hrest) as [s2 [Ha Hb]].
    exists s2. split; [eapply RS_cons; eassumption|exact Hb].
Qed.

Lemma an_skip_zw x s y : skip_in_concat x = true -> Reach e x s y -> pos y = pos s.
Proof.
  intros Hk Hr. destruct x; cbn [skip_in_concat] in Hk; try discriminate Hk; inversion Hr; subst; reflexivity.
Qed.

Lemma an_skips_zw : forall l s y, forallb skip_in_concat l = true -> ReachSeq e l s y -> pos y = pos s.
Proof.
  induction l as [|x l IH]; intros s y Hk H.
  - apply an_reachseq_nil_inv in H. subst. reflexivity.
  - apply an_reachseq_cons_inv in H. destruct H as [s1 [Hx Hrest]].
    cbn [forallb] in Hk. apply andb_true_iff in Hk. destruct Hk as [Hkx Hl].
    rewrite (IH _ _ Hl Hrest). eapply an_skip_zw; eassumption.
Qed.

(* leading = true: the anchor holds where the node starts; leading = false: where it ends *)
Lemma an_lead_anchor_reach (leading : bool) : forall t a,
  lead_anchor leading t = Some a ->
  forall sa sy, Reach e t sa sy -> anchor_ok e a (pos (if leading then sa else sy)) = true.
Proof.
  induction t using node_ind'; intros an Hla sa sy Hr; cbn [lead_anchor] in Hla; try discriminate Hla.
  - (* NAnchor *)
    destruct (anchor_findable a); [|discriminate Hla]. injection Hla as ->.
    apply an_reach_anchor_inv in Hr. destruct Hr as [-> Hok]. destruct leading; exact Hok.
  - (* NConcat *)
    apply an_reach_concat_inv in Hr.
    destruct leading.
    + destruct (pick_first (map (fun x => (skip_in_concat x, lead_anchor true x)) l)) as [r|] eqn:Ep; [|discriminate Hla].
      subst r. destruct (an_pick_first_split _ _ _ _ Ep) as [pre [x [post [-> [Hpre [Hx Hax]]]]]].
      destruct (an_reachseq_app _ _ _ _ Hr) as [s1 [Hs1 Hrest]].
      apply an_reachseq_cons_inv in Hrest. destruct Hrest as [s2 [Hx2 Hpost]].
      rewrite <- (an_skips_zw _ _ _ Hpre Hs1).
      rewrite Forall_forall in H. exact (H x (in_elt x pre post) an (eq_sym Hax) s1 s2 Hx2).
    + rewrite <- map_rev in Hla.
      destruct (pick_first (map (fun x => (skip_in_concat x, lead_anchor false x)) (rev l))) as [r|] eqn:Ep; [|discriminate Hla].
      subst r. destruct (an_pick_first_split _ _ _ _ Ep) as [pre [x [post [Hl [Hpre [Hx Hax]]]]]].
      assert (Hl' : l = rev post ++ x :: rev pre).
      { rewrite <- (rev_involutive l), Hl, rev_app_distr. cbn [rev]. rewrite <- app_assoc. reflexivity. }
      subst l. destruct (an_reachseq_app _ _ _ _ Hr) as [s1 [Hs1 Hrest]].
      apply an_reachseq_cons_inv in Hrest. destruct Hrest as [s2 [Hx2 Hpost]].
      assert (Hpre' : forallb skip_in_concat (rev pre) = true).
      { rewrite forallb_forall in *. intros z Hz. apply Hpre. apply in_rev. exact Hz. }
      rewrite (an_skips_zw _ _ _ Hpre' Hpost).
      rewrite Forall_forall in H. exact (H x (in_elt x (rev post) (rev pre)) an (eq_sym Hax) s1 s2 Hx2).
  - (* NAlternate *)
    apply an_reach_alt_inv in Hr. destruct Hr as [x [Hin Hx]].
    assert (Hall : forall z, In z l -> lead_anchor leading z = Some an).
    { intros z Hz. apply (in_map (lead_anchor leading)) in Hz.
      destruct (map (lead_anchor leading) l) as [|a0 rest]; [destruct Hz|].
      destruct a0 as [a0|]; [|discriminate Hla].
      destruct (forallb (fun b => oanchor_eqb b (Some a0)) rest) eqn:Ef; [|discriminate Hla].
      injection Hla as ->. destruct Hz as [<-|Hz]; [reflexivity|].
      rewrite forallb_forall in Ef. specialize (Ef _ Hz).
      destruct (lead_anchor leading z) as [az|]; [|discriminate Ef].
      cbn [oanchor_eqb] in Ef. apply an_anchor_eqb_eq in Ef. subst az. reflexivity. }
    rewrite Forall_forall in H. exact (H x Hin an (Hall x Hin) sa sy Hx).
  - (* NCapture *)
    apply an_reach_capture_inv in Hr. destruct Hr as [s1 [Hr1 Hpos]].
    specialize (IHt _ Hla _ _ Hr1). destruct leading; [exact IHt|]. rewrite Hpos. exact IHt.
  - (* NAtomic *)
    apply an_reach_atomic_inv in Hr. exact (IHt _ Hla _ _ Hr).
Qed.

Theorem an_attempt_lead_anchor fuel root p s' a :
  lead_anchor true root = Some a -> attempt e fuel root p = Ok (Some s') -> anchor_ok e a p = true.
Proof.
  intros Hla Ha. pose proof (attempt_reach e _ _ _ _ Ha) as Hr.
  exact (an_lead_anchor_reach true _ _ Hla _ _ Hr).
Qed.

Theorem an_attempt_trail_anchor fuel root p s' a :
  lead_anchor false root = Some a -> attempt e fuel root p = Ok (Some s') -> anchor_ok e a (pos s') = true.
Proof.
  intros Hla Ha. pose proof (attempt_reach e _ _ _ _ Ha) as Hr.
  exact (an_lead_anchor_reach false _ _ Hla _ _ Hr).
Qed.

End Anchors.

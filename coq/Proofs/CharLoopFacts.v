(* Facts about Spec.run_len / sem_charloop and the interpreter's character loops
   (VM.rep_chars, VM.loop_chars), used by the NCharLoop case of compile_correct. *)
From Verif Require Import Base.Prelude Model.Tree Model.Spec Model.VM Model.Writer
  Proofs.SpecBoundsProofs.
From Coq Require Import ZifyBool.

Section CL.
Variable e : env.
Variable k : ckind.
Variable c : Z.
Variable o : Z.

Notation rl := (run_len e k c o).
Notation A := (avail e o).
Notation d := (dir o).
Definition clf_good (p : Z) : bool := (0 <? avail e o p) && char_test e k c (next_char e o p).

Lemma clf_dir_cases : (is_rtl o = true /\ d = -1) \/ (is_rtl o = false /\ d = 1).
Proof. unfold dir. destruct (is_rtl o); [left|right]; split; reflexivity. Qed.

Lemma clf_avail_shift p i : 0 <= p <= tlen e -> 0 <= i <= A p ->
  A (p + d * i) = A p - i /\ 0 <= p + d * i <= tlen e.
Proof.
  intros Hp Hi. unfold avail, dir in *. destruct (is_rtl o); lia.
Qed.

Lemma clf_avail_nonneg p : 0 <= p <= tlen e -> 0 <= A p.
Proof. intros Hp. unfold avail. destruct (is_rtl o); lia. Qed.

Lemma clf_rl_unfold N p : rl (S N) p = if clf_good p then 1 + rl N (p + d) else 0.
Proof. reflexivity. Qed.

Lemma clf_rl_bounds N p : 0 <= rl N p <= Z.of_nat N.
Proof. apply sb_run_len_bounds. Qed.

Lemma clf_rl_le_avail : forall N p, 0 <= p <= tlen e -> rl N p <= A p.
Proof.
  induction N as [|N IH]; intros p Hp.
  - cbn [run_len]. apply clf_avail_nonneg. exact Hp.
  - rewrite clf_rl_unfold. unfold clf_good. destruct (0 <? A p) eqn:Ea; cbn [andb].
    + destruct (char_test e k c (next_char e o p)); [|lia].
      destruct (clf_avail_shift p 1 Hp ltac:(lia)) as [H1 H2]. rewrite Z.mul_1_r in *.
      specialize (IH (p + d) H2). lia.
    + pose proof (clf_avail_nonneg p Hp). lia.
Qed.

Lemma clf_rl_add : forall a b p,
  rl (a + b) p = if rl a p =? Z.of_nat a then Z.of_nat a + rl b (p + d * Z.of_nat a) else rl a p.
Proof.
  induction a as [|a IH]; intros b p.
  - cbn [Nat.add run_len]. change (Z.of_nat 0) with 0. rewrite Z.mul_0_r, Z.add_0_r. reflexivity.
  - change (S a + b)%nat with (S (a + b)). rewrite !clf_rl_unfold. destruct (clf_good p).
    + rewrite IH. pose proof (clf_rl_bounds a (p + d)).
      destruct (rl a (p + d) =? Z.of_nat a) eqn:E.
      * replace (1 + rl a (p + d) =? Z.of_nat (S a)) with true by lia.
        replace (p + d * Z.of_nat (S a)) with (p + d + d * Z.of_nat a) by lia. lia.
      * replace (1 + rl a (p + d) =? Z.of_nat (S a)) with false by lia. reflexivity.
    + replace (0 =? Z.of_nat (S a)) with false by lia. reflexivity.
Qed.

Lemma clf_rl_zero_avail N p : A p <= 0 -> rl N p = 0.
Proof.
  intros H. destruct N; [reflexivity|]. rewrite clf_rl_unfold. unfold clf_good.
  replace (0 <? A p) with false by lia. reflexivity.
Qed.

(* a budget beyond the available characters changes nothing *)
Lemma clf_rl_stable N p : 0 <= p <= tlen e -> A p <= Z.of_nat N -> rl N p = rl (Z.to_nat (A p)) p.
Proof.
  intros Hp HN. pose proof (clf_avail_nonneg p Hp) as Ha.
  replace N with (Z.to_nat (A p) + (N - Z.to_nat (A p)))%nat at 1 by lia.
  rewrite clf_rl_add. destruct (rl (Z.to_nat (A p)) p =? Z.of_nat (Z.to_nat (A p))) eqn:E; [|reflexivity].
  rewrite clf_rl_zero_avail.
  - lia.
  - destruct (clf_avail_shift p (A p) Hp ltac:(lia)) as [H1 _]. rewrite Z2Nat.id by lia. lia.
Qed.

Lemma clf_rl_good : forall N p i, 0 <= i < rl N p -> clf_good (p + d * i) = true.
Proof.
  induction N as [|N IH]; intros p i Hi.
  - cbn [run_len] in Hi. lia.
  - rewrite clf_rl_unfold in Hi. destruct (clf_good p) eqn:G; [|lia].
    destruct (Z.eq_dec i 0) as [->|Hne].
    + rewrite Z.mul_0_r, Z.add_0_r. exact G.
    + replace (p + d * i) with (p + d + d * (i - 1)) by lia. apply IH. lia.
Qed.

Lemma clf_rl_bad : forall N p, rl N p < Z.of_nat N -> clf_good (p + d * rl N p) = false.
Proof.
  induction N as [|N IH]; intros p Hlt.
  - cbn [run_len] in Hlt. lia.
  - rewrite clf_rl_unfold in *. destruct (clf_good p) eqn:G.
    + replace (p + d * (1 + rl N (p + d))) with (p + d + d * rl N (p + d)) by lia. apply IH. lia.
    + rewrite Z.mul_0_r, Z.add_0_r. exact G.
Qed.

Variable w : Z.
Hypothesis Hw : rtl_of w = is_rtl o.

Lemma clf_fwdnext p : 0 <= p <= tlen e -> 0 < A p -> fwdnext e w p = Some (next_char e o p, p + d).
Proof.
  intros Hp Ha. unfold fwdnext, next_char, avail, dir in *. rewrite Hw. destruct (is_rtl o).
  - replace ((1 <=? p) && (p <=? tlen e)) with true by lia. reflexivity.
  - replace ((0 <=? p) && (p <? tlen e)) with true by lia. reflexivity.
Qed.

Lemma clf_rep_chars : forall N p, 0 <= p <= tlen e -> Z.of_nat N <= A p ->
  rep_chars e w (char_test e k c) N p =
  Some (if rl N p =? Z.of_nat N then Some (p + d * Z.of_nat N) else None).
Proof.
  induction N as [|N IH]; intros p Hp HN.
  - cbn [rep_chars run_len]. change (Z.of_nat 0) with 0. rewrite Z.mul_0_r, Z.add_0_r. reflexivity.
  - cbn [rep_chars]. rewrite clf_fwdnext by lia. rewrite clf_rl_unfold. unfold clf_good.
    replace (0 <? A p) with true by lia. cbn [andb].
    destruct (char_test e k c (next_char e o p)).
    + destruct (clf_avail_shift p 1 Hp ltac:(lia)) as [H1 H2]. rewrite Z.mul_1_r in *.
      rewrite IH by lia. pose proof (clf_rl_bounds N (p + d)).
      destruct (rl N (p + d) =? Z.of_nat N) eqn:E.
      * replace (1 + rl N (p + d) =? Z.of_nat (S N)) with true by lia.
        replace (p + d + d * Z.of_nat N) with (p + d * Z.of_nat (S N)) by lia. reflexivity.
      * replace (1 + rl N (p + d) =? Z.of_nat (S N)) with false by lia. reflexivity.
    + replace (0 =? Z.of_nat (S N)) with false by lia. reflexivity.
Qed.

Lemma clf_loop_chars : forall N p, 0 <= p <= tlen e -> Z.of_nat N <= A p ->
  loop_chars e w (char_test e k c) N p = Some (Z.of_nat N - rl N p, p + d * rl N p).
Proof.
  induction N as [|N IH]; intros p Hp HN.
  - cbn [loop_chars run_len]. rewrite Z.mul_0_r, Z.add_0_r. reflexivity.
  - cbn [loop_chars]. rewrite clf_fwdnext by lia. rewrite clf_rl_unfold. unfold clf_good.
    replace (0 <? A p) with true by lia. cbn [andb].
    destruct (char_test e k c (next_char e o p)).
    + destruct (clf_avail_shift p 1 Hp ltac:(lia)) as [H1 H2]. rewrite Z.mul_1_r in *.
      rewrite IH by lia. f_equal. f_equal; lia.
    + rewrite Z.mul_0_r, Z.add_0_r, Z.sub_0_r. reflexivity.
Qed.

End CL.

(* ---------- sem_charloop = (exactly m characters) then (up to n - m more, with backtracking) ---------- *)
Definition loop_res (e : env) (k : ckind) (l : lkind) (o c : Z) (s1 : st) (c0 : Z) : list st :=
  let p1 := pos s1 in
  let j := run_len e k c o (Z.to_nat (Z.min c0 (avail e o p1))) p1 in
  let mk := fun i => with_pos s1 (p1 + dir o * i) in
  match l with
  | LGreedy => map mk (count_down j 0)
  | LLazy => map mk (count_up 0 j)
  | LAtomic => [mk j]
  end.

Lemma clf_count_down_aux_shift {B} (f : Z -> B) m : forall n a,
  map f (count_down_aux n (m + a)) = map (fun i => f (m + i)) (count_down_aux n a).
Proof.
  induction n as [|n IH]; intros a; cbn [count_down_aux map]; [reflexivity|].
  f_equal. replace (m + a - 1) with (m + (a - 1)) by lia. apply IH.
Qed.
Lemma clf_count_up_aux_shift {B} (f : Z -> B) m : forall n a,
  map f (count_up_aux n (m + a)) = map (fun i => f (m + i)) (count_up_aux n a).
Proof.
  induction n as [|n IH]; intros a; cbn [count_up_aux map]; [reflexivity|].
  f_equal. replace (m + a + 1) with (m + (a + 1)) by lia. apply IH.
Qed.

Lemma clf_charloop_split e k l o c m n s :
  0 <= m <= n -> n <= INF -> 0 <= pos s <= tlen e -> tlen e <= INF ->
  sem_charloop e k l o c m n s =
  if (m <=? avail e o (pos s)) && (run_len e k c o (Z.to_nat m) (pos s) =? m)
  then (if m <? n then loop_res e k l o c (with_pos s (pos s + dir o * m)) (if n =? INF then INF else n - m)
        else [with_pos s (pos s + dir o * m)])
  else [].
Proof.
  intros Hm Hn Hp Ht. unfold sem_charloop. cbv zeta.
  set (p := pos s) in *. pose proof (clf_avail_nonneg e o p Hp) as HA0.
  assert (HAt : avail e o p <= tlen e) by (unfold avail; destruct (is_rtl o); lia).
  set (Av := avail e o p) in *.
  assert (Hcap : (if n =? INF then Av else Z.min n Av) = Z.min n Av) by (destruct (n =? INF) eqn:E; lia).
  rewrite Hcap. set (cap := Z.min n Av).
  destruct (m <=? Av) eqn:EmA; cbn [andb].
  2:{ pose proof (clf_rl_bounds e k c o (Z.to_nat cap) p).
      replace (run_len e k c o (Z.to_nat cap) p <? m) with true by lia. reflexivity. }
  assert (Hcm : m <= cap) by lia.
  replace (Z.to_nat cap) with (Z.to_nat m + Z.to_nat (cap - m))%nat by lia.
  rewrite clf_rl_add. rewrite !Z2Nat.id by lia.
  pose proof (clf_rl_bounds e k c o (Z.to_nat m) p) as Hb.
  destruct (run_len e k c o (Z.to_nat m) p =? m) eqn:Erm.
  2:{ replace (run_len e k c o (Z.to_nat m) p <? m) with true by lia. reflexivity. }
  set (p1 := p + dir o * m).
  pose proof (clf_rl_bounds e k c o (Z.to_nat (cap - m)) p1) as Hb1.
  set (j := run_len e k c o (Z.to_nat (cap - m)) p1) in *.
  replace (m + j <? m) with false by lia.
  destruct (clf_avail_shift e o p m Hp ltac:(lia)) as [HA1 Hp1]. fold Av p1 in HA1, Hp1.
  destruct (m <? n) eqn:Emn.
  - unfold loop_res. cbv zeta. cbn [pos with_pos].
    replace (Z.min (if n =? INF then INF else n - m) (avail e o p1)) with (cap - m)
      by (rewrite HA1; unfold cap; destruct (n =? INF) eqn:E; lia).
    fold j.
    destruct l.
    + unfold count_down. replace (m + j <? m) with false by lia. replace (j <? 0) with false by lia.
      replace (m + j - m + 1) with (j - 0 + 1) by lia.
      rewrite clf_count_down_aux_shift. apply map_ext. intros i. unfold with_pos. cbn [caps]. f_equal. unfold p1. lia.
    + unfold count_up. replace (m + j <? m) with false by lia. replace (j <? 0) with false by lia.
      replace (m + j - m + 1) with (j - 0 + 1) by lia.
      rewrite <- (Z.add_0_r m) at 1. rewrite clf_count_up_aux_shift. apply map_ext. intros i. unfold with_pos. cbn [caps]. f_equal. unfold p1. lia.
    + unfold with_pos. cbn [caps]. f_equal. f_equal. unfold p1. lia.
  - assert (Hj : j = 0).
    { unfold j. replace (cap - m) with 0 by lia. reflexivity. }
    rewrite Hj, Z.add_0_r.
    destruct l.
    + unfold count_down. replace (m <? m) with false by lia. replace (m - m + 1) with 1 by lia. reflexivity.
    + unfold count_up. replace (m <? m) with false by lia. replace (m - m + 1) with 1 by lia. reflexivity.
    + reflexivity.
Qed.

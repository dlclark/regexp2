(* The pre-scan produces a well-formed table, and the main pass numbers every group as the
   pre-scan reserved it (C17: prescan_agrees_with_parse, numbering_rule). *)
From Verif Require Import Base.Prelude Model.GroupMap Proofs.GMBase Proofs.OptionsProofs Proofs.GMLookups Proofs.GMPrescan.
From Coq Require Import Sorting.Sorted.

(* ---------- the hypotheses on a token list, bundled ----------
   lexical: a TNamed name does not start with a digit (the scanner reads such a name as a number), an
            explicit number is not negative (it is read off a digit string; canonical spelling, see tok_lex);
   small:   explicit numbers stay below [lim], and [lim] and the pattern length stay away from 2^31-1,
            where noteCaptureSlot saturates.
   These two make [ts_ok_unguarded].  [ts_ok] adds the
   guard:   with MaintainCaptureOrder (outside ECMAScript, where "(?<2>" is an error) no explicit
            numbers — the known finding mco_digit_names.  Since /repo 2b27550 only the statements about
            the NAME of an unnamed group need it (wf_tree's name list, hence the name <-> number round trips). *)
Definition ts_ok_unguarded (lim : Z) (ts : list gtok) : Prop :=
  Forall tok_lex ts /\ Forall (tok_small lim) ts /\ lim <= maxint32
  /\ Z.max lim (1 + Z.of_nat (length ts)) + Z.of_nat (length ts) + 1 < maxint32.

Definition ts_ok (lim : Z) (mco ecma : bool) (ts : list gtok) : Prop :=
  Forall tok_lex ts /\ Forall (tok_small lim) ts
  /\ (mco = true -> ecma = false -> Forall tok_unnumbered ts)
  /\ lim <= maxint32
  /\ Z.max lim (1 + Z.of_nat (length ts)) + Z.of_nat (length ts) + 1 < maxint32.

Lemma ts_ok_weaken : forall lim mco ecma ts, ts_ok lim mco ecma ts -> ts_ok_unguarded lim ts.
Proof. intros lim mco ecma ts [H1 [H2 [_ [H3 H4]]]]. repeat split; assumption. Qed.

(* ---------- countCaptures yields a well-formed table ---------- *)

Theorem prescan_wf : forall lim mco ecma o ts t mks,
  (ecma = true -> mco = true) -> ts_ok lim mco ecma ts ->
  prescan mco ecma o ts = Ok (t, mks) -> wf_tree ecma t /\ length mks = length ts.
Proof.
  intros lim mco ecma o ts t mks Hem [Hlex [Hsmall [Hun [Hlim Hb]]]] H.
  destruct (prescan_capsteps _ _ _ _ _ _ H) as [c [Hs Ha]].
  destruct (prescan_inv lim Hlim _ _ _ _ _ Hs Hlex Hsmall Hb) as [Hinv Hsz].
  split; [|exact (capsteps_marks_length _ _ _ _ _ _ Hs)].
  destruct mco.
  - apply (assign_ordered_wf lim ecma c t Hinv); [|exact Ha].
    apply (capsteps_lexnames _ _ _ _ _ _ Hs Hlex Hun). constructor.
  - assert (ecma = false) by (destruct ecma; [specialize (Hem eq_refl); discriminate|reflexivity]). subst ecma.
    apply (assign_default_wf lim c t Hinv Hsz Ha).
Qed.

(* without the guard: the numbers are well formed, every group has its entry in the name list, and that
   entry is a key of Capnames ([wf_weak]: it need not lead back to the group when it is a numeral) *)
Theorem prescan_wf_weak : forall lim mco ecma o ts t mks,
  (ecma = true -> mco = true) -> ts_ok_unguarded lim ts ->
  prescan mco ecma o ts = Ok (t, mks) -> wf_weak ecma t /\ length mks = length ts.
Proof.
  intros lim mco ecma o ts t mks Hem [Hlex [Hsmall [Hlim Hb]]] H.
  destruct (prescan_capsteps _ _ _ _ _ _ H) as [c [Hs Ha]].
  destruct (prescan_inv lim Hlim _ _ _ _ _ Hs Hlex Hsmall Hb) as [Hinv Hsz].
  split; [|exact (capsteps_marks_length _ _ _ _ _ _ Hs)].
  destruct mco.
  - apply (assign_ordered_weak lim ecma c t Hinv Ha).
  - assert (ecma = false) by (destruct ecma; [specialize (Hem eq_refl); discriminate|reflexivity]). subst ecma.
    apply wf_tree_weak. apply (assign_default_wf lim c t Hinv Hsz Ha).
Qed.

(* ================= the main pass agrees with the pre-scan ================= *)

(* what the pre-scan decided for a token vs. the node the main pass creates for it *)
Definition agrees (t : ptree) (mk : pmark) (it : item) : Prop :=
  match mk with
  | PAuto k => it = ICapture k
  | PNum n => it = ICapture n
  | PName s => exists k, it = ICapture k /\ exists m, t_capnames t = Some m /\ aget s m = Some k
  | PNone => match it with ICapture _ => False | _ => True end
  end.

(* the part of the two parser states that must coincide *)
Definition gm_sim (ps : pstate) (ms : mstate) : Prop :=
  m_o ms = p_o ps /\ m_ign ms = p_ign ps /\ m_autocap ms = c_autocap (p_c ps).

Lemma ostep_noop : forall p st t, o_skip st = false ->
  match t with TLit _ | TBackNum _ _ | TBackName _ | TComment | TNewline => True | _ => False end ->
  ostep p st t = Ok st.
Proof. intros p st t Hk Ht. unfold ostep. rewrite Hk. destruct t; try contradiction; reflexivity. Qed.

Lemma is_name_get : forall t s, is_name t s = true ->
  exists m, t_capnames t = Some m /\ aget s m = Some (slot_from_name t s).
Proof.
  intros t s H. unfold is_name, slot_from_name in *. destruct (t_capnames t) as [m|]; [|discriminate].
  exists m. split; [reflexivity|]. apply amem_aget in H. destruct H as [v Hv]. now rewrite (aget0_some _ _ _ Hv).
Qed.

(* a group filed under a NAME: "(?<s>", and under MaintainCaptureOrder also "(?<2>" with s = "2" *)
Lemma sim_named : forall lim mco ecma t s c c' a,
  a = c_autocap c -> gm_pinv lim mco c ->
  note_name mco ecma s c = Ok c' ->
  is_name t s = true ->
  (mco = true -> forall v, aget s (names_of c') = Some v -> exists m, t_capnames t = Some m /\ aget s m = Some v) ->
  forall o' cur gs,
  gm_sim (mkP o' false c') (mkM o' false (cur :: gs) false (consume_slot mco (slot_from_name t s) a))
  /\ agrees t (PName s) (ICapture (slot_from_name t s)).
Proof.
  intros lim mco ecma t s c c' a Sa Hinv En Hn Hfin o' cur gs.
  destruct (is_name_get t s Hn) as [m [Hm1 Hm2]].
  split; [|cbn; eauto].
  repeat split; cbn [m_o m_ign m_autocap p_o p_ign p_c]; auto.
  (* under MaintainCaptureOrder the slot is consumed exactly when the name is new *)
  assert (Hslot : mco = true -> forall v, aget s (names_of c') = Some v -> slot_from_name t s = v).
  { intros Hmco v Hv. destruct (Hfin Hmco v Hv) as [m2 [Hm3 Hm4]]. congruence. }
  unfold consume_slot. rewrite Sa.
  destruct (note_name_cases _ _ _ _ _ En) as [[v [Hv ->]]|[Hv ->]]; (destruct mco; cbn [andb]; [|reflexivity]).
  - rewrite (Hslot eq_refl v Hv).
    destruct (pi_mco _ _ _ Hinv eq_refl) as [_ [_ Hslots]]. specialize (Hslots _ _ Hv).
    destruct (v =? c_autocap c) eqn:E; [apply Z.eqb_eq in E; lia|reflexivity].
  - rewrite (Hslot eq_refl (c_autocap c) (aget_aset_same _ _ _)), Z.eqb_refl.
    symmetry. apply auto_slot_fields.
Qed.

(* A token for which the main pass only steps its options and creates no capture keeps [gm_sim]: the
   pre-scan steps the same options ([o'], by ostep_pre_of_main), both passes leave the same ignoreNextParen
   flag, and neither moves the counter.  The group stack of the main pass is free. *)
Lemma plain_keeps_sim : forall t {o o' tok c ign cur gs it0 ms' it},
  (forall o2, ostep MainPass o tok = Ok o2 -> o2 = o') ->
  (do o2 <- ostep MainPass o tok ; Ok (mkM o2 cur gs ign (c_autocap c), it0)) = Ok (ms', it) ->
  match it0 with ICapture _ => False | _ => True end ->
  gm_sim (mkP o' ign c) ms' /\ agrees t PNone it.
Proof.
  intros t o o' tok c ign cur gs it0 ms' it Hmo Hm Hit.
  destruct (ostep MainPass o tok) as [o2| | |] eqn:Eo; try discriminate. cbn [bind] in Hm.
  injection Hm as <- <-. rewrite (Hmo o2 eq_refl). split; [repeat split|exact Hit].
Qed.

Lemma sim_step : forall lim mco ecma t ps ms tok ps' mk ms' it,
  gm_sim ps ms -> gm_pinv lim mco (p_c ps) -> tok_lex tok ->
  (forall k, is_slot t k = true -> 0 <= k) ->
  (mco = true -> forall s v, aget s (names_of (p_c ps')) = Some v -> exists m, t_capnames t = Some m /\ aget s m = Some v) ->
  pstep mco ecma ps tok = Ok (ps', mk) ->
  mstep mco ecma t ms tok = Ok (ms', it) ->
  gm_sim ps' ms' /\ agrees t mk it.
Proof.
  intros lim mco ecma t ps ms tok ps' mk ms' it [So [Si Sa]] Hinv Hlex Hneg Hfin Hp Hm.
  unfold pstep in Hp. unfold mstep in Hm. cbv zeta in Hm. rewrite So, Si, Sa in Hm.
  destruct (ostep_prescan_ok (p_o ps) tok) as [o' Ho]. rewrite Ho in Hp. cbn [bind] in Hp.
  assert (Hmo : forall o2, ostep MainPass (p_o ps) tok = Ok o2 -> o2 = o').
  { intros o2 Eo. apply ostep_pre_of_main in Eo. congruence. }
  destruct (o_skip (p_o ps)) eqn:Hskip.
  { (* inside an x-mode comment *) injection Hp as <- <-. exact (plain_keeps_sim t Hmo Hm I). }
  destruct tok.
  - (* TLit *) injection Hp as <- <-. exact (plain_keeps_sim t Hmo Hm I).
  - (* TOpen *)
    destruct (ostep MainPass (p_o ps) TOpen) as [o2| | |] eqn:Eo; try discriminate. cbn [bind] in Hm.
    rewrite (Hmo _ eq_refl) in Hm.
    destruct (has (o_opts (p_o ps)) opt_n); cbn [negb andb orb] in *.
    + injection Hp as <- <-. injection Hm as <- <-. split; [|exact I]. repeat split; cbn; auto.
    + destruct (p_ign ps); cbn [negb] in *.
      * injection Hp as <- <-. injection Hm as <- <-. split; [|exact I]. repeat split; cbn; auto.
      * injection Hp as <- <-. injection Hm as <- <-.
        split; [|reflexivity]. repeat split; cbn [m_o m_ign m_autocap p_o p_ign p_c gopen]; auto.
        symmetry. exact (proj1 (auto_slot_fields (p_c ps))).
  - (* TNamed *)
    destruct (note_name mco ecma s (p_c ps)) as [c'| | |] eqn:En; try discriminate. cbn [bind] in Hp.
    injection Hp as <- <-.
    destruct (p_ign ps) eqn:Ei; [discriminate|].
    destruct (ostep MainPass (p_o ps) (TNamed s)) as [o2| | |] eqn:Eo; try discriminate. cbn [bind] in Hm.
    rewrite (Hmo _ eq_refl) in Hm.
    destruct (is_name t s) eqn:Hn; [|discriminate]. injection Hm as <- <-.
    apply (sim_named lim mco ecma t s (p_c ps) c' _ eq_refl Hinv En Hn (fun Hmco => Hfin Hmco s)).
  - (* TNumbered *)
    destruct (p_ign ps) eqn:Ei; [discriminate|].
    destruct ecma; [discriminate|].
    destruct (ostep MainPass (p_o ps) (TNumbered n)) as [o2| | |] eqn:Eo; try discriminate. cbn [bind] in Hm.
    rewrite (Hmo _ eq_refl) in Hm. cbn in Hlex.
    destruct (n =? 0) eqn:E0.
    { (* "(?<0>": rejected *)
      destruct mco; cbn [andb negb] in Hm; [destruct (is_slot t n)|destruct (is_slot t n)]; discriminate. }
    apply Z.eqb_neq in E0. destruct (n <=? 0) eqn:E1; [apply Z.leb_le in E1; lia|].
    destruct (maxint32 <? n); [discriminate|].
    destruct mco; cbn [andb negb] in Hm.
    + (* numbers kept in pattern order: the digits are a NAME, in both passes *)
      destruct (note_name true false (itoa n) (p_c ps)) as [c'| | |] eqn:En; try discriminate. cbn [bind] in Hp.
      injection Hp as <- <-.
      destruct (is_name t (itoa n)) eqn:Hn; [|discriminate]. injection Hm as <- <-.
      apply (sim_named lim true false t (itoa n) (p_c ps) c' _ eq_refl Hinv En Hn (fun Hmco => Hfin Hmco (itoa n))).
    + destruct (is_slot t n) eqn:Hs; [|discriminate]. injection Hm as <- <-. injection Hp as <- <-.
      split; [|reflexivity]. repeat split; cbn [m_o m_ign m_autocap p_o p_ign p_c gopen consume_slot andb]; auto.
      now rewrite (proj1 (note_slot_fields n (p_c ps))).
  - (* TGroup *) injection Hp as <- <-. exact (plain_keeps_sim t Hmo Hm I).
  - (* TOptGroup *)
    injection Hp as <- <-.
    destruct cs as [|c0 cs]; [|destruct (m_cur ms); [discriminate|]]; exact (plain_keeps_sim t Hmo Hm I).
  - (* TOptSet *)
    injection Hp as <- <-. destruct cs as [|c0 cs]; [discriminate|]. destruct (m_cur ms); [discriminate|].
    exact (plain_keeps_sim t Hmo Hm I).
  - (* TClose *)
    injection Hp as <- <-. destruct (m_gstack ms) as [|g gs]; [discriminate|]. exact (plain_keeps_sim t Hmo Hm I).
  - (* TCondHead *) injection Hp as <- <-. exact (plain_keeps_sim t Hmo Hm I).
  - (* TCondNum *) injection Hp as <- <-. destruct (is_slot t n); [|discriminate]. exact (plain_keeps_sim t Hmo Hm I).
  - (* TCondName *) injection Hp as <- <-. destruct (is_name t s); exact (plain_keeps_sim t Hmo Hm I).
  - (* TBackNum *)
    injection Hp as <- <-.
    rewrite (ostep_noop PreScan (p_o ps) (TBackNum angled n) Hskip I) in Ho. injection Ho as <-.
    assert (Hms : ms' = ms /\ match it with ICapture _ => False | _ => True end).
    { destruct (ecma && angled && no_names t); [injection Hm as <- <-; auto|].
      destruct (is_slot t n); [injection Hm as <- <-; auto|].
      destruct angled; [discriminate|].
      destruct ((n <=? 9) && negb ecma); [discriminate|]. injection Hm as <- <-; auto. }
    destruct Hms as [-> Hit]. split; [|exact Hit]. repeat split; cbn; auto.
  - (* TBackName *)
    injection Hp as <- <-.
    rewrite (ostep_noop PreScan (p_o ps) (TBackName s) Hskip I) in Ho. injection Ho as <-.
    assert (Hms : ms' = ms /\ match it with ICapture _ => False | _ => True end).
    { destruct (ecma && no_names t); [injection Hm as <- <-; auto|].
      destruct (is_name t s); [injection Hm as <- <-; auto|discriminate]. }
    destruct Hms as [-> Hit]. split; [|exact Hit]. repeat split; cbn; auto.
  - (* TComment *)
    injection Hp as <- <-. destruct (p_ign ps) eqn:Ei; [discriminate|]. exact (plain_keeps_sim t Hmo Hm I).
  - (* THash *) injection Hp as <- <-. exact (plain_keeps_sim t Hmo Hm I).
  - (* TNewline *) injection Hp as <- <-. exact (plain_keeps_sim t Hmo Hm I).
Qed.

Lemma sim_run : forall lim mco ecma t ts ps ms ps' mks ms' its,
  lim <= maxint32 -> gm_sim ps ms -> gm_pinv lim mco (p_c ps) ->
  Forall tok_lex ts -> Forall (tok_small lim) ts ->
  c_autocap (p_c ps) + Z.of_nat (length ts) < maxint32 ->
  (forall k, is_slot t k = true -> 0 <= k) ->
  (mco = true -> forall s v, aget s (names_of (p_c ps')) = Some v -> exists m, t_capnames t = Some m /\ aget s m = Some v) ->
  prun mco ecma ps ts = Ok (ps', mks) ->
  mrun mco ecma t ms ts = Ok (ms', its) ->
  Forall2 (agrees t) mks its /\ gm_sim ps' ms'.
Proof.
  intros lim mco ecma t ts. induction ts as [|tok ts IH];
    intros ps ms ps' mks ms' its Hlim Hsim Hinv Hlex Hsmall Hlt Hneg Hfin Hp Hm.
  - cbn in Hp, Hm. injection Hp as <- <-. injection Hm as <- <-. split; [constructor|assumption].
  - cbn [prun] in Hp. cbn [mrun] in Hm.
    destruct (pstep mco ecma ps tok) as [[ps1 mk]| | |] eqn:E1; try discriminate. cbn [bind] in Hp.
    destruct (prun mco ecma ps1 ts) as [[ps2 mks2]| | |] eqn:E2; try discriminate. cbn [bind] in Hp.
    injection Hp as <- <-.
    destruct (mstep mco ecma t ms tok) as [[ms1 it]| | |] eqn:F1; try discriminate. cbn [bind] in Hm.
    destruct (mrun mco ecma t ms1 ts) as [[ms2 its2]| | |] eqn:F2; try discriminate. cbn [bind] in Hm.
    injection Hm as <- <-.
    inversion Hlex as [|? ? Hl1 Hl2]; subst. inversion Hsmall as [|? ? Hs1 Hs2]; subst.
    cbn [length] in Hlt.
    destruct (capstep_inv lim Hlim mco ecma _ tok mk _ Hinv Hl1 Hs1 ltac:(lia) (pstep_capstep _ _ _ _ _ _ E1)) as [P1 [P2 _]].
    destruct (capsteps_inv lim Hlim mco ecma _ ts mks2 _ (prun_capsteps _ _ _ _ _ _ E2) P1 Hl2 Hs2 ltac:(lia)) as [_ [_ [_ Q4]]].
    destruct (sim_step lim mco ecma t ps ms tok ps1 mk ms1 it Hsim Hinv Hl1 Hneg) as [S1 A1]; try assumption.
    { intros Hmco s v Hv. apply (Hfin Hmco). now apply Q4. }
    destruct (IH ps1 ms1 ps2 mks2 ms2 its2 Hlim S1 P1 Hl2 Hs2 ltac:(lia) Hneg Hfin E2 F2) as [A2 S2].
    split; [constructor; assumption|assumption].
Qed.

(* prescan_agrees_with_parse: token by token, the main pass captures exactly where the pre-scan
   reserved a number, and with that number *)
Theorem prescan_agrees : forall lim mco ecma o ts t mks ms its,
  (ecma = true -> mco = true) -> ts_ok_unguarded lim ts ->
  prescan mco ecma o ts = Ok (t, mks) ->
  mrun mco ecma t (m_init o) ts = Ok (ms, its) ->
  Forall2 (agrees t) mks its.
Proof.
  intros lim mco ecma o ts t mks ms its Hem Hok Hpre Hm.
  destruct (prescan_wf_weak lim mco ecma o ts t mks Hem Hok Hpre) as [[WF _] _].
  destruct Hok as [Hlex [Hsmall [Hlim Hb]]].
  unfold prescan in Hpre.
  destruct (prun mco ecma (p_init o) ts) as [[st mks']| | |] eqn:Ep; try discriminate. cbn [bind] in Hpre.
  destruct (prescan_inv lim Hlim _ _ _ _ _ (prun_capsteps _ _ _ _ _ _ Ep) Hlex Hsmall Hb) as [Hinv _].
  destruct (if mco then assign_ordered ecma (p_c st) else assign_default (p_c st)) as [t'| | |] eqn:Ea;
    try discriminate.
  cbn [bind] in Hpre. injection Hpre as <- <-.
  apply (sim_run lim mco ecma t' ts (p_init o) (m_init o) st mks' ms its Hlim); try assumption.
  - repeat split.
  - apply gm_pinv_init.
  - cbn [p_init p_c c_init c_autocap]. lia.
  - intros k Hk. unfold is_slot in Hk. apply zmem_In in Hk. eapply caps_nonneg; eauto.
  - intros ->. apply (assign_ordered_keeps lim ecma (p_c st) t' Hinv Ea).
Qed.

(* every number held by Capnames is a group number *)
Theorem prescan_vals : forall lim mco ecma o ts t mks,
  (ecma = true -> mco = true) -> ts_ok_unguarded lim ts ->
  prescan mco ecma o ts = Ok (t, mks) -> vals_ok t.
Proof.
  intros lim mco ecma o ts t mks Hem [Hlex [Hsmall [Hlim Hb]]] H.
  destruct (prescan_capsteps _ _ _ _ _ _ H) as [c [Hs Ha]].
  destruct (prescan_inv lim Hlim _ _ _ _ _ Hs Hlex Hsmall Hb) as [Hinv Hsz].
  destruct mco.
  - apply (assign_ordered_vals lim ecma c t Hinv Ha).
  - apply (assign_default_vals lim c t Hinv Hsz Ha).
Qed.

(* compile_correct for the general loop NLoop, all four code shapes
   (Branchmark / Lazybranchmark when n = INF and m <= 1; Branchcount / Lazybranchcount otherwise).
   The iteration invariant [iter_ok_at] is stated at the loop's test instruction, with the grouping
   stack holding the mark (and count); its failure state has the same stack frame (mark/count as
   they were when the test was entered), which the prelude's Back entry then pops. *)
From Verif Require Import Base.Prelude Model.Tree Model.Spec Model.VM Model.Writer Gen.RunnerGen
  Proofs.SpecProofs Proofs.SpecBoundsProofs Proofs.MaskProofs
  Proofs.VMU Proofs.VMUOps Proofs.VMUOps2 Proofs.VMUOps6 Proofs.VMUOps3 Proofs.CompileBase Proofs.CompileDefs.
From Coq Require Import Relations ZifyBool.

Section CC.
Variable e : env.
Variable p : program.
Hypothesis tc_nonneg : 0 <= trackcount p.
Variable R : caps_t -> list (list Z) -> Prop.

Notation rsteps := (VMUOps2.rsteps e p).
Notation leadsR := (CompileBase.leadsR e p R).
Notation has_code := (CompileBase.has_code p).
Notation track_ok := (CompileBase.track_ok p).

Notation code_ex := (CompileDefs.code_ex p).
Notation tbl_ok := (CompileDefs.tbl_ok p).
Notation ok_nodeR := (CompileDefs.ok_nodeR e p R).

(* the grouping-stack frame of a loop: [mark] or [count; mark] *)
Definition loop_frame (cntd : bool) (mark count : Z) : list Z := if cntd then [count; mark] else [mark].
(* ... and what is left there when the iteration fails: Lazybranchmark replaces a null mark (-1)
   by the text position *)
Definition loop_frame_fail (cntd lazy : bool) (mark count t : Z) : list Z :=
  if cntd then [count; mark] else [if lazy && (mark =? -1) then t else mark].

Lemma loop_frame_fail_eq cntd lazy mark count t : 0 <= mark -> loop_frame_fail cntd lazy mark count t = loop_frame cntd mark count.
Proof. intros H. unfold loop_frame_fail, loop_frame. replace (mark =? -1) with false by lia. rewrite andb_false_r. reflexivity. Qed.

Section Shape.
Variable f : nat.
Variable r : node.
Variable lazy : bool.
Variable limit : Z.
Variable cntd : bool.
Variables lbody ltest exit : Z.
Variable tbl : list (list Z).
Hypothesis Hr_ok : ok_nodeR f r.
Hypothesis Hsr : loops_min_ok r.
Hypothesis Hcb : has_code lbody (fst (emit cfg0 r lbody tbl)).
Hypothesis Htb : tbl_ok (snd (emit cfg0 r lbody tbl)).
Hypothesis Hlt : ltest = lbody + csize cfg0 r.
Hypothesis Hext : code_ex ltest.

(* The uncounted shapes (Branchmark / Lazybranchmark) keep no count on the grouping stack.  The writer uses
   them only for n = INF and m <= 1; the reference semantics still counts, one per iteration, so its count
   must stay below the limit for as long as the fuel lasts: limit = INF and count + fuel <= INF; and no
   minimum is pending: 0 <= count. *)
Definition iter_side (count : Z) (fi : nat) : Prop :=
  cntd = false -> 0 <= count /\ count + Z.of_nat fi <= INF /\ limit = INF.

Definition iter_ok_at (fi : nat) : Prop :=
  forall s mark count res, iter fi (sem e f r) lazy limit s mark count = Ok res -> st_ok e s ->
    iter_side count fi ->
    forall T S C M, track_ok T -> R (caps s) M ->
      leadsR exit T S (loop_frame_fail cntd lazy mark count (pos s) ++ S) C M
             (mkr ltest 0 (pos s) T (loop_frame cntd mark count ++ S) C M) res.

(* run the body once more, then iterate on each of its results *)
Lemma cc_again fi : iter_ok_at fi ->
  forall s c' ra,
    bindr (sem e f r s) (fun s' => iter fi (sem e f r) lazy limit s' (pos s) c') = Ok ra ->
    st_ok e s -> iter_side c' fi ->
    forall T S C M, track_ok T -> R (caps s) M ->
      leadsR exit T S (loop_frame cntd (pos s) c' ++ S) C M
             (mkr lbody 0 (pos s) T (loop_frame cntd (pos s) c' ++ S) C M) ra.
Proof.
  intros IH s c' ra Hra Hst Hside T S C M Hk Hr.
  apply sp_bindr_ok in Hra. destruct Hra as [la [Hla Hb]].
  eapply leadsR_bindl with (m := ltest) (Ss1 := loop_frame cntd (pos s) c' ++ S); [|exact Hb|].
  - rewrite Hlt. apply (Hr_ok s la Hla Hst lbody tbl T (loop_frame cntd (pos s) c' ++ S) C M); try assumption.
    rewrite <- Hlt. exact Hext.
  - intros q rq T' C' M' Hin Hq Hcq Hu Hkq.
    assert (Hstq : st_ok e q) by (eapply cc_res_ok_in; eassumption).
    pose proof (IH q (pos s) c' rq Hq Hstq Hside (T' ++ T) S (C' ++ C) M' Hkq Hcq) as G.
    rewrite loop_frame_fail_eq in G by (destruct Hst as [Hp _]; lia). exact G.
Qed.

End Shape.

(* ---------- greedy, uncounted: Branchmark ---------- *)
Lemma cc_iter_bm f r lbody ltest tbl :
  ok_nodeR f r -> loops_min_ok r -> has_code lbody (fst (emit cfg0 r lbody tbl)) ->
  tbl_ok (snd (emit cfg0 r lbody tbl)) ->
  ltest = lbody + csize cfg0 r ->
  code_at p ltest = Some Branchmark -> code_at p (ltest + 1) = Some lbody -> code_ex (ltest + 2) ->
  0 < ltest -> code_ex lbody ->
  forall fi, iter_ok_at f r false INF false ltest (ltest + 2) fi.
Proof.
  intros Hr_ok Hsr Hcb Htb Hlt H0 H1 [w2 H2] Hpos [wb Hwb].
  induction fi as [|fi IH]; intros s mark count res Hit Hst Hside T S C M Hk Hr; [discriminate Hit|].
  destruct (Hside eq_refl) as (Hc0 & Hcf & _).
  cbn [iter] in Hit. cbn [loop_frame loop_frame_fail app andb].
  replace (INF <=? count) with false in Hit by lia. replace (0 <=? count) with true in Hit by lia.
  cbn [orb] in Hit. rewrite andb_true_r in Hit.
  assert (Htail : leadsR (ltest + 2) T S (mark :: S) C M
                         (mkr (ltest + 2) 0 (pos s) (- ltest :: mark :: T) S C M) [s]).
  { apply leadsR_one with (F := [- ltest; mark]).
    - cbn [app]. eapply track_ok_cons. rewrite Z.abs_opp, Z.abs_eq by lia. exact H0.
    - exact Hr.
    - intros np T'' t HT. cbn [app] in HT. injection HT as <- <-.
      destruct Hk as (np' & T3 & -> & w3 & Hw3). exists np', T3, t. split; [reflexivity|].
      rewrite bkr_neg by exact Hpos. eapply rs_branchmark_back2; try exact tc_nonneg; eassumption.
    - apply rsteps_refl. }
  destruct (pos s =? mark) eqn:Em.
  - injection Hit as <-. apply Z.eqb_eq in Em. eapply leadsR_pre; [|exact Htail]. rewrite <- Em.
    eapply rs_branchmark_empty; try exact tc_nonneg; eassumption.
  - apply sp_appr_ok in Hit. destruct Hit as (ra & y & Hra & Hy & ->). injection Hy as <-.
    eapply leadsR_pre. { eapply rs_branchmark_loop; try exact tc_nonneg; try eassumption. lia. }
    eapply leadsR_app with (T1 := [ltest; pos s; mark]) (Cx := []) (Sf1 := pos s :: S) (M1 := M); [|reflexivity|].
    + apply (cc_again f r false INF false lbody ltest (ltest + 2) tbl Hr_ok Hsr Hcb Htb Hlt (ex_intro _ _ H0) fi IH
               s (count + 1) ra Hra Hst).
      * intros _. repeat split; lia.
      * cbn [app]. eapply track_ok_cons. rewrite Z.abs_eq by lia. exact H0.
      * exact Hr.
    + intros np T' t HT. cbn [app] in HT. injection HT as <- <-.
      rewrite bkr_pos by lia. eapply leadsR_pre; [|exact Htail].
      eapply rs_branchmark_back; try exact tc_nonneg; eassumption.
Qed.

(* ---------- lazy, uncounted: Lazybranchmark ---------- *)
Lemma cc_iter_lbm f r lbody ltest tbl :
  ok_nodeR f r -> loops_min_ok r -> has_code lbody (fst (emit cfg0 r lbody tbl)) ->
  tbl_ok (snd (emit cfg0 r lbody tbl)) ->
  ltest = lbody + csize cfg0 r ->
  code_at p ltest = Some Lazybranchmark -> code_at p (ltest + 1) = Some lbody -> code_ex (ltest + 2) ->
  0 < ltest -> code_ex lbody ->
  forall fi, iter_ok_at f r true INF false ltest (ltest + 2) fi.
Proof.
  intros Hr_ok Hsr Hcb Htb Hlt H0 H1 [w2 H2] Hpos [wb Hwb].
  induction fi as [|fi IH]; intros s mark count res Hit Hst Hside T S C M Hk Hr; [discriminate Hit|].
  destruct (Hside eq_refl) as (Hc0 & Hcf & _).
  cbn [iter] in Hit. cbn [loop_frame loop_frame_fail app andb].
  replace (count <? 0) with false in Hit by lia. replace (count <? INF) with true in Hit by lia.
  cbn [andb] in Hit.
  apply sp_appr_ok in Hit. destruct Hit as (x & ra & Hx & Hra & ->). injection Hx as <-. cbn [app].
  pose proof Hk as (np' & T3 & HT3 & w3 & Hw3).
  destruct Hst as [Hp Hcs]. assert (Hst : st_ok e s) by (split; assumption).
  destruct (pos s =? mark) eqn:Em; cbn [negb] in Hra.
  - injection Hra as <-. apply Z.eqb_eq in Em.
    replace (mark =? -1) with false by lia.
    apply leadsR_one with (F := [- ltest; 0; mark]).
    + cbn [app]. eapply track_ok_cons. rewrite Z.abs_opp, Z.abs_eq by lia. exact H0.
    + exact Hr.
    + intros np T'' t HT. cbn [app] in HT. injection HT as <- <-.
      exists np', T3, t. split; [exact HT3|]. rewrite HT3.
      rewrite bkr_neg by exact Hpos. eapply rs_lazybranchmark_back2_keep; try exact tc_nonneg; eassumption.
    + rewrite <- Em. eapply rs_lazybranchmark_empty; try exact tc_nonneg; eassumption.
  - set (mark' := if mark =? -1 then pos s else mark).
    exists [ltest; pos s; mark'], [], M. cbn [app unwind].
    split; [exact Hr|]. split; [reflexivity|].
    split. { eapply track_ok_cons. rewrite Z.abs_eq by lia. exact H0. }
    split. { eapply rs_lazybranchmark_fwd; try exact tc_nonneg; try eassumption. lia. }
    intros np T'' t HT. injection HT as <- <-. rewrite bkr_pos by lia.
    eapply leadsR_pre. { eapply rs_lazybranchmark_back; try exact tc_nonneg; eassumption. }
    rewrite <- (app_nil_r ra).
    eapply leadsR_app with (T1 := [- ltest; 1; mark']) (Cx := []) (Sf1 := pos s :: S) (M1 := M); [|reflexivity|].
    + apply (cc_again f r true INF false lbody ltest (ltest + 2) tbl Hr_ok Hsr Hcb Htb Hlt (ex_intro _ _ H0) fi IH
               s (count + 1) ra Hra Hst).
      * intros _. repeat split; lia.
      * cbn [app]. eapply track_ok_cons. rewrite Z.abs_opp, Z.abs_eq by lia. exact H0.
      * exact Hr.
    + intros np T' t0 HT. cbn [app] in HT. injection HT as <- <-.
      rewrite bkr_neg by exact Hpos. eapply leadsR_fail; [exact HT3|]. rewrite HT3.
      eapply rs_lazybranchmark_back2_pop; try exact tc_nonneg; eassumption.
Qed.

(* ---------- greedy, counted: Branchcount ---------- *)
Lemma cc_iter_bc f r limit lbody ltest tbl :
  ok_nodeR f r -> loops_min_ok r -> has_code lbody (fst (emit cfg0 r lbody tbl)) ->
  tbl_ok (snd (emit cfg0 r lbody tbl)) ->
  ltest = lbody + csize cfg0 r ->
  code_at p ltest = Some Branchcount -> code_at p (ltest + 1) = Some lbody -> code_at p (ltest + 2) = Some limit ->
  code_ex (ltest + 3) -> 0 < ltest -> code_ex lbody ->
  forall fi, iter_ok_at f r false limit true ltest (ltest + 3) fi.
Proof.
  intros Hr_ok Hsr Hcb Htb Hlt H0 H1 H2 [w3 H3] Hpos [wb Hwb].
  induction fi as [|fi IH]; intros s mark count res Hit Hst Hside T S C M Hk Hr; [discriminate Hit|].
  cbn [iter] in Hit. cbn [loop_frame loop_frame_fail app].
  pose proof Hk as (np' & T3 & HT3 & w4 & Hw4).
  assert (Htail : leadsR (ltest + 3) T S (count :: mark :: S) C M
                         (mkr (ltest + 3) 0 (pos s) (- ltest :: count :: mark :: T) S C M) [s]).
  { apply leadsR_one with (F := [- ltest; count; mark]).
    - cbn [app]. eapply track_ok_cons. rewrite Z.abs_opp, Z.abs_eq by lia. exact H0.
    - exact Hr.
    - intros np T'' t HT. cbn [app] in HT. injection HT as <- <-.
      exists np', T3, t. split; [exact HT3|]. rewrite HT3.
      rewrite bkr_neg by exact Hpos. eapply rs_branchcount_back2; try exact tc_nonneg; eassumption.
    - apply rsteps_refl. }
  destruct ((limit <=? count) || ((pos s =? mark) && (0 <=? count))) eqn:Ec.
  - injection Hit as <-. eapply leadsR_pre; [|exact Htail].
    eapply rs_branchcount_exit; try exact tc_nonneg; eassumption.
  - apply sp_appr_ok in Hit. destruct Hit as (ra & y & Hra & Hy & ->). injection Hy as <-.
    eapply leadsR_pre. { eapply rs_branchcount_loop; try exact tc_nonneg; eassumption. }
    eapply leadsR_app with (T1 := [ltest; mark]) (Cx := []) (Sf1 := count + 1 :: pos s :: S) (M1 := M); [|reflexivity|].
    + apply (cc_again f r false limit true lbody ltest (ltest + 3) tbl Hr_ok Hsr Hcb Htb Hlt (ex_intro _ _ H0) fi IH
               s (count + 1) ra Hra Hst).
      * intros Hx. discriminate Hx.
      * cbn [app]. eapply track_ok_cons. rewrite Z.abs_eq by lia. exact H0.
      * exact Hr.
    + intros np T' t HT. cbn [app] in HT. injection HT as <- <-.
      rewrite bkr_pos by lia. destruct (0 <=? count) eqn:E0.
      * eapply leadsR_pre; [|exact Htail].
        replace count with (count + 1 - 1) at 2 by lia.
        eapply rs_branchcount_back_pos; try exact tc_nonneg; try eassumption. lia.
      * eapply leadsR_fail; [exact HT3|]. rewrite HT3.
        replace count with (count + 1 - 1) at 2 by lia.
        eapply rs_branchcount_back_neg; try exact tc_nonneg; try eassumption. lia.
Qed.

(* ---------- lazy, counted: Lazybranchcount ---------- *)
Lemma cc_iter_lbc f r limit lbody ltest tbl :
  ok_nodeR f r -> loops_min_ok r -> has_code lbody (fst (emit cfg0 r lbody tbl)) ->
  tbl_ok (snd (emit cfg0 r lbody tbl)) ->
  ltest = lbody + csize cfg0 r ->
  code_at p ltest = Some Lazybranchcount -> code_at p (ltest + 1) = Some lbody -> code_at p (ltest + 2) = Some limit ->
  code_ex (ltest + 3) -> 0 < ltest -> code_ex lbody ->
  forall fi, iter_ok_at f r true limit true ltest (ltest + 3) fi.
Proof.
  intros Hr_ok Hsr Hcb Htb Hlt H0 H1 H2 [w3 H3] Hpos [wb Hwb].
  induction fi as [|fi IH]; intros s mark count res Hit Hst Hside T S C M Hk Hr; [discriminate Hit|].
  cbn [iter] in Hit. cbn [loop_frame loop_frame_fail app].
  pose proof Hk as (np' & T3 & HT3 & w4 & Hw4).
  (* the body-then-iterate part, entered with frame [-ltest; mark] *)
  assert (Hagain : forall ra,
    bindr (sem e f r s) (fun s' => iter fi (sem e f r) true limit s' (pos s) (count + 1)) = Ok ra ->
    leadsR (ltest + 3) T S (count :: mark :: S) C M
           (mkr lbody 0 (pos s) (- ltest :: mark :: T) (count + 1 :: pos s :: S) C M) ra).
  { intros ra Hra. rewrite <- (app_nil_r ra).
    eapply leadsR_app with (T1 := [- ltest; mark]) (Cx := []) (Sf1 := count + 1 :: pos s :: S) (M1 := M); [|reflexivity|].
    + apply (cc_again f r true limit true lbody ltest (ltest + 3) tbl Hr_ok Hsr Hcb Htb Hlt (ex_intro _ _ H0) fi IH
               s (count + 1) ra Hra Hst).
      * intros Hx. discriminate Hx.
      * cbn [app]. eapply track_ok_cons. rewrite Z.abs_opp, Z.abs_eq by lia. exact H0.
      * exact Hr.
    + intros np T' t HT. cbn [app] in HT. injection HT as <- <-.
      rewrite bkr_neg by exact Hpos. eapply leadsR_fail; [exact HT3|]. rewrite HT3.
      replace count with (count + 1 - 1) at 2 by lia.
      eapply rs_lazybranchcount_back2; try exact tc_nonneg; eassumption. }
  destruct (count <? 0) eqn:Ec.
  - eapply leadsR_pre; [|apply Hagain; exact Hit].
    eapply rs_lazybranchcount_loop; try exact tc_nonneg; try eassumption. lia.
  - apply sp_appr_ok in Hit. destruct Hit as (x & ra & Hx & Hra & ->). injection Hx as <-. cbn [app].
    exists [ltest; pos s; count; mark], [], M. cbn [app unwind].
    split; [exact Hr|]. split; [reflexivity|].
    split. { eapply track_ok_cons. rewrite Z.abs_eq by lia. exact H0. }
    split. { eapply rs_lazybranchcount_exit; try exact tc_nonneg; try eassumption. lia. }
    intros np T'' t HT. injection HT as <- <-. rewrite bkr_pos by lia.
    destruct ((count <? limit) && negb (pos s =? mark)) eqn:E2.
    + eapply leadsR_pre; [|apply Hagain; exact Hra].
      eapply rs_lazybranchcount_back_again; try exact tc_nonneg; eassumption.
    + injection Hra as <-. eapply leadsR_fail; [exact HT3|]. rewrite HT3.
      eapply rs_lazybranchcount_back_fail; try exact tc_nonneg; eassumption.
Qed.

(* ---------- assembling the loop: prelude, (Goto), body, test ---------- *)
(* The prelude's forward steps go to the test when m = 0 (Nullmark or Nullcount, then Goto) and to the body
   otherwise (Setmark or Setcount), leaving the frame a on the track and the loop frame on the grouping stack;
   the prelude's Back entry pops the loop frame. *)
Lemma cc_loop_core f r lazy limit cntd m a lbody ltest exit tbl :
  ok_nodeR f r -> loops_min_ok r -> has_code lbody (fst (emit cfg0 r lbody tbl)) ->
  tbl_ok (snd (emit cfg0 r lbody tbl)) ->
  ltest = lbody + csize cfg0 r -> code_ex ltest -> code_at p a <> None ->
  (forall fi, iter_ok_at f r lazy limit cntd ltest exit fi) ->
  iter_side limit cntd (if m =? 0 then 0 else 1 - m) f ->
  (m = 0 -> forall t T S C M, rsteps (mkr a 0 t T S C M) (mkr ltest 0 t (a :: T) (loop_frame cntd (-1) 0 ++ S) C M)) ->
  (m <> 0 -> forall t T S C M, rsteps (mkr a 0 t T S C M) (mkr lbody 0 t (a :: T) (loop_frame cntd t (1 - m) ++ S) C M)) ->
  (forall t np T' mk ct tt S C M w3, code_at p (Z.abs np) = Some w3 ->
     rsteps (mkr a BackBit t (np :: T') (loop_frame_fail cntd lazy mk ct tt ++ S) C M) (bkr np t T' S C M)) ->
  forall s res,
    (if m =? 0 then iter f (sem e f r) lazy limit s (-1) 0
     else bindr (sem e f r s) (fun s' => iter f (sem e f r) lazy limit s' (pos s) (1 - m))) = Ok res ->
    st_ok e s ->
    forall T S C M, track_ok T -> R (caps s) M ->
      leadsR exit T S S C M (mkr a 0 (pos s) T S C M) res.
Proof.
  intros Hr_ok Hsr Hcb Htb Hlt Hext Ha Hiter Hside Hpre0 Hpre1 Hback s res Hsem Hst T S C M Hk Hr.
  assert (Ha0 : 0 <= a).
  { destruct (code_at p a) as [w|] eqn:E; [|congruence]. eapply code_at_nonneg. exact E. }
  assert (Hka : track_ok (a :: T)).
  { destruct (code_at p a) as [w|] eqn:E; [|congruence]. eapply track_ok_cons. rewrite Z.abs_eq by lia. exact E. }
  pose proof Hk as (np' & T3 & HT3 & w3 & Hw3).
  rewrite <- (app_nil_r res).
  destruct (m =? 0) eqn:Em.
  - apply Z.eqb_eq in Em. eapply leadsR_pre; [apply Hpre0; exact Em|].
    eapply leadsR_app with (T1 := [a]) (Cx := []) (Sf1 := loop_frame_fail cntd lazy (-1) 0 (pos s) ++ S) (M1 := M); [|reflexivity|].
    + apply (Hiter f s (-1) 0 res Hsem Hst Hside ([a] ++ T) S C M Hka Hr).
    + intros np T' t HT. cbn [app] in HT. injection HT as <- <-. rewrite bkr_pos by exact Ha0.
      eapply leadsR_fail; [exact HT3|]. rewrite HT3. eapply Hback. exact Hw3.
  - apply Z.eqb_neq in Em. eapply leadsR_pre; [apply Hpre1; exact Em|].
    eapply leadsR_app with (T1 := [a]) (Cx := []) (Sf1 := loop_frame cntd (pos s) (1 - m) ++ S) (M1 := M); [|reflexivity|].
    + apply (cc_again f r lazy limit cntd lbody ltest exit tbl Hr_ok Hsr Hcb Htb Hlt Hext f (Hiter f)
               s (1 - m) res Hsem Hst Hside ([a] ++ T) S C M Hka Hr).
    + intros np T' t HT. cbn [app] in HT. injection HT as <- <-. rewrite bkr_pos by exact Ha0.
      eapply leadsR_fail; [exact HT3|]. rewrite HT3.
      rewrite <- (loop_frame_fail_eq cntd lazy (pos s) (1 - m) 0) by (destruct Hst as [Hp _]; lia).
      eapply Hback. exact Hw3.
Qed.

(* the two test instructions, greedy or lazy by the low bit of the opcode *)
Lemma cc_iter_mark f r (lazy : bool) lbody ltest tbl :
  ok_nodeR f r -> loops_min_ok r -> has_code lbody (fst (emit cfg0 r lbody tbl)) ->
  tbl_ok (snd (emit cfg0 r lbody tbl)) -> ltest = lbody + csize cfg0 r ->
  has_code ltest [Branchmark + (if lazy then 1 else 0); lbody] -> code_ex (ltest + 2) ->
  0 < ltest -> code_ex lbody ->
  forall fi, iter_ok_at f r lazy INF false ltest (ltest + 2) fi.
Proof.
  intros Hr_ok Hsr Hcb Htb Hlt Hc. apply has_code_cons in Hc. destruct Hc as [H0 Hc].
  apply has_code_cons in Hc. destruct Hc as [H1 _].
  destruct lazy; [apply (cc_iter_lbm f r lbody ltest tbl)|apply (cc_iter_bm f r lbody ltest tbl)]; assumption.
Qed.

Lemma cc_iter_count f r (lazy : bool) limit lbody ltest tbl :
  ok_nodeR f r -> loops_min_ok r -> has_code lbody (fst (emit cfg0 r lbody tbl)) ->
  tbl_ok (snd (emit cfg0 r lbody tbl)) -> ltest = lbody + csize cfg0 r ->
  has_code ltest [Branchcount + (if lazy then 1 else 0); lbody; limit] -> code_ex (ltest + 3) ->
  0 < ltest -> code_ex lbody ->
  forall fi, iter_ok_at f r lazy limit true ltest (ltest + 3) fi.
Proof.
  intros Hr_ok Hsr Hcb Htb Hlt Hc. apply has_code_cons in Hc. destruct Hc as [H0 Hc].
  apply has_code_cons in Hc. destruct Hc as [H1 Hc]. apply has_code_cons in Hc. destruct Hc as [H2 _].
  replace (ltest + 1 + 1) with (ltest + 2) in H2 by lia.
  destruct lazy; [apply (cc_iter_lbc f r limit lbody ltest tbl)|apply (cc_iter_bc f r limit lbody ltest tbl)];
    assumption.
Qed.

Lemma cc_loop_layout lazy o m n r a tbl (pre tst : list Z) :
  let lbody := a + zlen pre + (if m =? 0 then 2 else 0) in
  let ltest := lbody + csize cfg0 r in
  fst (emit cfg0 (NLoop lazy o m n r) a tbl) =
    pre ++ (if m =? 0 then [Goto; ltest] else []) ++ fst (emit cfg0 r lbody tbl) ++ tst ->
  has_code a (fst (emit cfg0 (NLoop lazy o m n r) a tbl)) ->
  has_code a pre /\
  (m = 0 -> code_at p (a + zlen pre) = Some Goto /\ code_at p (a + zlen pre + 1) = Some ltest) /\
  has_code lbody (fst (emit cfg0 r lbody tbl)) /\ has_code ltest tst.
Proof.
  intros lbody ltest -> Hc.
  apply has_code_app in Hc. destruct Hc as [Hpre Hc]. split; [exact Hpre|].
  apply has_code_app in Hc. destruct Hc as [Hg Hc].
  apply has_code_app in Hc. destruct Hc as [Hcr Ht]. rewrite emit_length in Ht.
  assert (E : a + zlen pre + zlen (if m =? 0 then [Goto; ltest] else []) = lbody).
  { unfold lbody. destruct (m =? 0); reflexivity. }
  rewrite E in Hcr, Ht. split; [|split; [exact Hcr|exact Ht]].
  intros ->. apply has_code_cons in Hg. destruct Hg as [H0 Hg]. apply has_code_cons in Hg. destruct Hg as [H1 _].
  split; assumption.
Qed.

Lemma cc_sem_loop f lazy o m n r s :
  sem e (S f) (NLoop lazy o m n r) s =
  (if m =? 0 then iter f (sem e f r) lazy (if n =? INF then INF else n - m) s (-1) 0
   else bindr (sem e f r s) (fun s' => iter f (sem e f r) lazy (if n =? INF then INF else n - m) s' (pos s) (1 - m))).
Proof. reflexivity. Qed.

Lemma cc_loop f lazy o m n r : Z.of_nat f <= INF -> ok_nodeR f r -> loops_min_ok r -> 0 <= m -> n <= INF ->
  ok_nodeR (S f) (NLoop lazy o m n r).
Proof.
  intros Hf Hr_ok Hsr Hm Hn s res Hsem Hst a tbl T S C M Hc Hex Hk Hr Htb.
  rewrite cc_sem_loop in Hsem.
  set (limit := if n =? INF then INF else n - m) in *.
  set (lz := if lazy then 1 else 0).
  remember (if counted m n then (if m =? 0 then [Nullcount; 0] else [Setcount; 1 - m])
            else (if m =? 0 then [Nullmark] else [Setmark])) as pre eqn:Epre.
  remember (a + zlen pre + (if m =? 0 then 2 else 0)) as lbody eqn:Elb.
  remember (lbody + csize cfg0 r) as ltest eqn:Elt.
  remember (if counted m n then [Branchcount + lz; lbody; limit] else [Branchmark + lz; lbody]) as tst eqn:Etst.
  assert (Eemit : emit cfg0 (NLoop lazy o m n r) a tbl =
                  (pre ++ (if m =? 0 then [Goto; ltest] else []) ++ fst (emit cfg0 r lbody tbl) ++ tst,
                   snd (emit cfg0 r lbody tbl))).
  { cbn [emit]. cbv zeta. rewrite <- Epre, <- Elb. pose proof (emit_length cfg0 r lbody tbl) as Lr.
    destruct (emit cfg0 r lbody tbl) as [cr t1]. cbn [fst snd] in Lr |- *. rewrite Lr, <- Elt.
    fold lz limit. rewrite <- Etst. reflexivity. }
  rewrite Eemit in Htb. cbn [snd] in Htb.
  assert (Eend : a + csize cfg0 (NLoop lazy o m n r) = ltest + zlen tst).
  { cbn [csize]. subst ltest lbody pre tst. destruct (counted m n), (m =? 0); unfold zlen; cbn [length]; lia. }
  rewrite Eend in Hex |- *.
  subst lbody ltest.
  destruct (cc_loop_layout lazy o m n r a tbl pre tst (f_equal fst Eemit) Hc) as (Hpre & Hgoto & Hcr & Htst).
  clear Eemit Eend Hc.
  set (lbody := a + zlen pre + (if m =? 0 then 2 else 0)) in *. set (ltest := lbody + csize cfg0 r) in *.
  assert (Ha : code_ex a).
  { subst pre. destruct (counted m n), (m =? 0); apply has_code_cons in Hpre; destruct Hpre as [H0 _]; eexists; exact H0. }
  destruct Ha as [wa Hwa]. pose proof (code_at_nonneg p _ _ Hwa) as Ha0.
  assert (Hlt0 : 0 < ltest).
  { pose proof (emit_length cfg0 r 0 []). pose proof (zlen_nonneg (fst (emit cfg0 r 0 []))). pose proof (zlen_nonneg pre).
    assert (0 < zlen pre) by (subst pre; destruct (counted m n), (m =? 0); unfold zlen; cbn [length]; lia).
    unfold ltest, lbody. destruct (m =? 0); lia. }
  assert (Hext : code_ex ltest).
  { subst tst. destruct (counted m n); apply has_code_cons in Htst; destruct Htst as [H0 _]; eexists; exact H0. }
  assert (Hexb : code_ex lbody) by (eapply cc_code_ex_start; [exact Hcr|]; rewrite emit_length; exact Hext).
  assert (Hne : code_at p a <> None) by congruence. clear wa Hwa.
  pose proof Hext as [wt Hwt].
  destruct (counted m n) eqn:Ec; destruct (m =? 0) eqn:Em; subst pre tst;
    [apply Z.eqb_eq in Em; destruct (Hgoto Em) as [Hg0 Hg1]|apply Z.eqb_neq in Em
    |apply Z.eqb_eq in Em; destruct (Hgoto Em) as [Hg0 Hg1]|apply Z.eqb_neq in Em]; clear Hgoto;
    apply has_code_cons in Hpre; destruct Hpre as [H0 Hpre].
  - (* Nullcount 0 ; Goto ltest ; body ; Branchcount *)
    apply has_code_cons in Hpre. destruct Hpre as [H1 _]. subst m. change (zlen [Nullcount; 0]) with 2 in *.
    change (zlen [Branchcount + lz; lbody; limit]) with 3 in *.
    apply (cc_loop_core f r lazy limit true 0 a lbody ltest (ltest + 3) tbl Hr_ok Hsr Hcr Htb eq_refl Hext Hne
             (cc_iter_count f r lazy limit lbody ltest tbl Hr_ok Hsr Hcr Htb eq_refl Htst Hex Hlt0 Hexb));
      try assumption.
    + intros Hx; discriminate Hx.
    + intros _ t T0 S0 C0 M0. cbn [loop_frame app].
      eapply rsteps_trans; [eapply rs_nullcount; try exact tc_nonneg; eassumption|].
      eapply rs_goto; try exact tc_nonneg; eassumption.
    + intros Hx. congruence.
    + intros t np T' mk ct tt S0 C0 M0 w3 Hw3. cbn [loop_frame_fail app].
      eapply rs_count_back; try exact tc_nonneg; try eassumption. right. reflexivity.
  - (* Setcount (1-m) ; body ; Branchcount *)
    apply has_code_cons in Hpre. destruct Hpre as [H1 _]. change (zlen [Setcount; 1 - m]) with 2 in *.
    change (zlen [Branchcount + lz; lbody; limit]) with 3 in *.
    apply (cc_loop_core f r lazy limit true m a lbody ltest (ltest + 3) tbl Hr_ok Hsr Hcr Htb eq_refl Hext Hne
             (cc_iter_count f r lazy limit lbody ltest tbl Hr_ok Hsr Hcr Htb eq_refl Htst Hex Hlt0 Hexb));
      try assumption.
    + intros Hx; discriminate Hx.
    + intros Hx. congruence.
    + intros _ t T0 S0 C0 M0. cbn [loop_frame app]. destruct Hexb as [wb Hwb].
      replace lbody with (a + 2) in Hwb |- * by (unfold lbody; lia).
      eapply rs_setcount; try exact tc_nonneg; eassumption.
    + intros t np T' mk ct tt S0 C0 M0 w3 Hw3. cbn [loop_frame_fail app].
      eapply rs_count_back; try exact tc_nonneg; try eassumption. left. reflexivity.
    + replace (m =? 0) with false by lia. exact Hsem.
  - (* Nullmark ; Goto ltest ; body ; Branchmark *)
    subst m. change (zlen [Nullmark]) with 1 in *. change (zlen [Branchmark + lz; lbody]) with 2 in *.
    unfold counted in Ec. apply orb_false_elim in Ec. destruct Ec as [En Em1].
    assert (Hlim : limit = INF) by (unfold limit; replace (n =? INF) with true by lia; reflexivity).
    rewrite Hlim in *.
    apply (cc_loop_core f r lazy INF false 0 a lbody ltest (ltest + 2) tbl Hr_ok Hsr Hcr Htb eq_refl Hext Hne
             (cc_iter_mark f r lazy lbody ltest tbl Hr_ok Hsr Hcr Htb eq_refl Htst Hex Hlt0 Hexb));
      try assumption.
    + intros _. cbn. repeat split; lia.
    + intros _ t T0 S0 C0 M0. cbn [loop_frame app].
      eapply rsteps_trans; [eapply rs_nullmark; try exact tc_nonneg; eassumption|].
      eapply rs_goto; try exact tc_nonneg; eassumption.
    + intros Hx. congruence.
    + intros t np T' mk ct tt S0 C0 M0 w3 Hw3. cbn [loop_frame_fail app].
      eapply rs_mark_back; try exact tc_nonneg; try eassumption. right. reflexivity.
  - (* Setmark ; body ; Branchmark  (m = 1) *)
    change (zlen [Setmark]) with 1 in *. change (zlen [Branchmark + lz; lbody]) with 2 in *.
    unfold counted in Ec. apply orb_false_elim in Ec. destruct Ec as [En Em1].
    assert (Hm1 : m = 1) by lia. subst m.
    assert (Hlim : limit = INF) by (unfold limit; replace (n =? INF) with true by lia; reflexivity).
    rewrite Hlim in *.
    apply (cc_loop_core f r lazy INF false 1 a lbody ltest (ltest + 2) tbl Hr_ok Hsr Hcr Htb eq_refl Hext Hne
             (cc_iter_mark f r lazy lbody ltest tbl Hr_ok Hsr Hcr Htb eq_refl Htst Hex Hlt0 Hexb));
      try assumption.
    + intros _. cbn. repeat split; lia.
    + intros Hx. discriminate Hx.
    + intros _ t T0 S0 C0 M0. cbn [loop_frame app]. destruct Hexb as [wb Hwb].
      replace lbody with (a + 1) in Hwb |- * by (unfold lbody; lia).
      eapply rs_setmark; try exact tc_nonneg; eassumption.
    + intros t np T' mk ct tt S0 C0 M0 w3 Hw3. cbn [loop_frame_fail app].
      eapply rs_mark_back; try exact tc_nonneg; try eassumption. left. reflexivity.
Qed.

End CC.

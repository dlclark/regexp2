(* C15 — right-to-left mode is the mirror image of left-to-right (reference semantics Spec.sem).

   Mirror image of everything:
     text      rev (txt e)                         position   p        |-> n - p      (n = tlen e)
     capture   (i, len) |-> (n - i - len, len)     state      mirror_st, environment mirror_env
     tree      flip : toggles the Rtl bit of every option word, swaps Beginning<->End, Bol<->Eol,
               reverses the literal of a Multi (stored in text order), keeps list order of
               concatenations (the parser already put them in evaluation order).

   PROVED (everything below is Qed, nothing pending)
     - option bits under flip_opt (flip_is_rtl, flip_is_ci), tlen / char_at of the mirrored environment
     - leaves: avail/dir/next_char, run_len, sem_charloop, str_match_at / sem_multi,
       ref_match_at / sem_ref, is_boundary / anchor_ok (all anchors except EndZ), capture stacks
     - sem_pos_in_range: sem maps in-range states to in-range states (fragment mirror_ok)
     - mirror_sem_partial: sem (mirror_env e) fuel (flip t) (mirror_st e s)
                           = map_res (map (mirror_st e)) (sem e fuel t s)      (fragment mirror_ok)
       (both from mirror_sem_rel, an instance of SpecProofs.sem_rel)
     - mirror_attempt_partial, mirror_scan_from_partial, mirror_find_partial,
       mirror_find_as_opposite_partial / mirror_rtl_is_mirrored_ltr_partial
     - involutions: flip_invol, flip_mirror_ok, mirror_env_invol, mirror_st_invol, mirror_st_ok_mirror
     - EndZ under endz_strict: mirror_sem_endz_to_end, mirror_sem_endz_strict_partial,
       mirror_find_endz_strict_partial
     - balancing groups (?<g-u>...): mirror_balance_span (the recorded interval mirrors, after the
       repair of transferCapture's "end <= start2" branch in /repo cd1c469), covered by the theorems;
       mirror_balance_example is a concrete instance
     - NOT expressible: mirror_endz_no_mirror_anchor (non-strict EndZ has no mirror anchor)
   Fragment mirror_ok excludes ONLY: non-strict EndZ, single-character loops with negative minimum.

   All lemma names are prefixed mirror_/flip_ (topic prefix). *)
From Coq Require Import ZifyBool.
From Verif Require Import Base.Prelude Model.Tree Model.Spec Proofs.SpecProofs Proofs.SpecBoundsProofs.

From Verif Require Import Proofs.ListFacts.

Definition map_res {A B} (f : A -> B) (r : res A) : res B :=
  match r with
  | Ok a => Ok (f a)
  | Err c => Err c
  | Crash w => Crash w
  | Fuel => Fuel
  end.

Definition mirror_span (n : Z) (iv : Z * Z) : Z * Z := (n - fst iv - snd iv, snd iv).
(* every capture of every group is mirrored; the order inside a group's stack is kept *)
Definition mirror_caps (n : Z) (c : caps_t) : caps_t :=
  map (fun gl => (fst gl, map (mirror_span n) (snd gl))) c.
Definition mirror_st (e : env) (s : st) : st :=
  {| pos := tlen e - pos s; caps := mirror_caps (tlen e) (caps s) |}.
Definition mirror_env (e : env) : env :=
  {| txt := rev (txt e);
     tstart := tlen e - tstart e;
     ecma := ecma e;
     endz_strict := endz_strict e;
     set_in := set_in e;
     lower := lower e;
     is_word := is_word e;
     is_eword := is_eword e |}.

Definition flip_opt (o : Z) : Z := Z.lxor o OPT_RTL.

(* EndZ has no mirror anchor among the existing ones: it is kept and excluded by [mirror_ok]
   (see mirror_endz_* below for the RE2/ECMAScript case where EndZ = End). *)
Definition flip_anchor (a : anchor) : anchor :=
  match a with
  | ABol => AEol
  | AEol => ABol
  | ABeginning => AEnd
  | AEnd => ABeginning
  | ABoundary => ABoundary
  | ANonboundary => ANonboundary
  | AECMABoundary => AECMABoundary
  | ANonECMABoundary => ANonECMABoundary
  | AStart => AStart
  | AEndZ => AEndZ
  end.

Fixpoint flip (t : node) : node :=
  match t with
  | NChar k o c => NChar k (flip_opt o) c
  | NCharLoop k l o c m n => NCharLoop k l (flip_opt o) c m n
  | NMulti o s => NMulti (flip_opt o) (rev s)
  | NRef o g => NRef (flip_opt o) g
  | NAnchor a => NAnchor (flip_anchor a)
  | NNothing => NNothing
  | NEmpty => NEmpty
  | NBump => NBump
  | NConcat o l => NConcat (flip_opt o) (map flip l)
  | NAlternate o l => NAlternate (flip_opt o) (map flip l)
  | NLoop lz o m n r => NLoop lz (flip_opt o) m n (flip r)
  | NCapture o g u r => NCapture (flip_opt o) g u (flip r)
  | NGroup r => NGroup (flip r)
  | NPosLook o r => NPosLook (flip_opt o) (flip r)
  | NNegLook o r => NNegLook (flip_opt o) (flip r)
  | NAtomic r => NAtomic (flip r)
  | NBackRefCond o g y no => NBackRefCond (flip_opt o) g (flip y) (option_map flip no)
  | NExprCond o c y no => NExprCond (flip_opt o) (flip c) (flip y) (option_map flip no)
  end.

Definition opt_forall (f : node -> bool) (o : option node) : bool :=
  match o with Some x => f x | None => true end.

(* The fragment the mirror theorem covers.  Excluded:
     - the anchor EndZ (no mirror anchor exists in the node language; covered under endz_strict);
     - single-character loops with a negative minimum (never produced by the parser; a negative
       minimum would let the loop walk out of the text).
   Everything else is covered, including balancing groups (?<g-u>...) and pure pops (?<-u>...). *)
Fixpoint mirror_ok (t : node) : bool :=
  match t with
  | NChar _ _ _ => true
  | NCharLoop _ _ _ _ m _ => 0 <=? m
  | NMulti _ _ => true
  | NRef _ _ => true
  | NAnchor a => match a with AEndZ => false | _ => true end
  | NNothing => true
  | NEmpty => true
  | NBump => true
  | NConcat _ l => forallb mirror_ok l
  | NAlternate _ l => forallb mirror_ok l
  | NLoop _ _ _ _ r => mirror_ok r
  | NCapture _ _ _ r => mirror_ok r
  | NGroup r => mirror_ok r
  | NPosLook _ r => mirror_ok r
  | NNegLook _ r => mirror_ok r
  | NAtomic r => mirror_ok r
  | NBackRefCond _ _ y no => mirror_ok y && opt_forall mirror_ok no
  | NExprCond _ c y no => mirror_ok c && mirror_ok y && opt_forall mirror_ok no
  end.

(* states the semantics works on: position inside the text, captures inside the text *)
Definition span_ok (n : Z) (iv : Z * Z) : Prop := 0 <= fst iv /\ 0 <= snd iv /\ fst iv + snd iv <= n.
Definition caps_ok (n : Z) (c : caps_t) : Prop := Forall (fun gl => Forall (span_ok n) (snd gl)) c.
Definition st_ok (e : env) (s : st) : Prop := 0 <= pos s <= tlen e /\ caps_ok (tlen e) (caps s).

Lemma mirror_land_pow2 : forall o k, 0 <= k ->
  Z.land o (2 ^ k) = if Z.testbit o k then 2 ^ k else 0.
Proof.
  intros o k Hk. apply Z.bits_inj'. intros j Hj.
  rewrite Z.land_spec, Z.pow2_bits_eqb by lia.
  destruct (Z.eqb_spec k j) as [->|Hne].
  - rewrite andb_true_r. destruct (Z.testbit o j) eqn:E.
    + now rewrite Z.pow2_bits_true.
    + now rewrite Z.bits_0.
  - rewrite andb_false_r. destruct (Z.testbit o k).
    + symmetry. apply Z.pow2_bits_false. lia.
    + now rewrite Z.bits_0.
Qed.

Lemma mirror_has_bit_pow2 : forall o k, 0 <= k -> has_bit o (2 ^ k) = Z.testbit o k.
Proof.
  intros o k Hk. unfold has_bit. rewrite mirror_land_pow2 by lia.
  assert (0 < 2 ^ k) by (apply Z.pow_pos_nonneg; lia).
  destruct (Z.testbit o k); lia.
Qed.

Lemma flip_is_rtl : forall o, is_rtl (flip_opt o) = negb (is_rtl o).
Proof.
  intros o. unfold is_rtl, flip_opt, OPT_RTL. change 64 with (2 ^ 6).
  rewrite !mirror_has_bit_pow2 by lia. rewrite Z.lxor_spec.
  rewrite Z.pow2_bits_true by lia. apply xorb_true_r.
Qed.

Lemma flip_is_ci : forall o, is_ci (flip_opt o) = is_ci o.
Proof.
  intros o. unfold is_ci, flip_opt, OPT_RTL, OPT_CI. change 1 with (2 ^ 0). change 64 with (2 ^ 6).
  rewrite !mirror_has_bit_pow2 by lia. rewrite Z.lxor_spec.
  rewrite (Z.pow2_bits_false 6 0) by lia. apply xorb_false_r.
Qed.

Lemma flip_opt_invol : forall o, flip_opt (flip_opt o) = o.
Proof.
  intros o. unfold flip_opt. rewrite Z.lxor_assoc, Z.lxor_nilpotent. apply Z.lxor_0_r.
Qed.

Lemma mirror_tlen : forall e, tlen (mirror_env e) = tlen e.
Proof. intros e. unfold tlen, zlen. cbn [txt mirror_env]. now rewrite rev_length. Qed.

Lemma mirror_char_at : forall e i, 0 <= i < tlen e ->
  char_at (mirror_env e) i = char_at e (tlen e - 1 - i).
Proof.
  intros e i Hi. unfold char_at, tlen, zlen in *. cbn [txt mirror_env].
  rewrite rev_nth by lia. f_equal. lia.
Qed.

Lemma mirror_tlen_nonneg : forall e, 0 <= tlen e.
Proof. intros e. unfold tlen, zlen. lia. Qed.

Section Leaves.
Variable e : env.
Local Notation n := (tlen e).
Local Notation e' := (mirror_env e).

Lemma mirror_avail : forall o p, avail e' (flip_opt o) (n - p) = avail e o p.
Proof.
  intros o p. unfold avail. rewrite flip_is_rtl, mirror_tlen.
  destruct (is_rtl o); cbn [negb]; lia.
Qed.

Lemma mirror_dir : forall o, dir (flip_opt o) = - dir o.
Proof. intros o. unfold dir. rewrite flip_is_rtl. destruct (is_rtl o); reflexivity. Qed.

Lemma mirror_dir_cases : forall o, dir o = 1 \/ dir o = -1.
Proof. intros o. unfold dir. destruct (is_rtl o); auto. Qed.

Lemma mirror_next_char : forall o p, 0 <= p <= n -> 0 < avail e o p ->
  next_char e' (flip_opt o) (n - p) = next_char e o p.
Proof.
  intros o p Hp Ha. unfold next_char, avail in *. rewrite flip_is_rtl.
  destruct (is_rtl o); cbn [negb].
  - rewrite mirror_char_at by lia. f_equal. lia.
  - rewrite mirror_char_at by lia. f_equal. lia.
Qed.

Lemma mirror_char_test : forall k c x, char_test e' k c x = char_test e k c x.
Proof. intros k c x. destruct k; reflexivity. Qed.

(* the single-character step, shared by NChar and run_len *)
Lemma mirror_step_test : forall k c o p, 0 <= p <= n ->
  (0 <? avail e' (flip_opt o) (n - p)) && char_test e' k c (next_char e' (flip_opt o) (n - p))
  = (0 <? avail e o p) && char_test e k c (next_char e o p).
Proof.
  intros k c o p Hp. rewrite mirror_avail.
  destruct (0 <? avail e o p) eqn:E; [|reflexivity].
  rewrite mirror_next_char by lia. now rewrite mirror_char_test.
Qed.

Lemma mirror_avail_step : forall o p, 0 <= p <= n -> 0 < avail e o p -> 0 <= p + dir o <= n.
Proof.
  intros o p Hp Ha. unfold avail, dir in *. destruct (is_rtl o); lia.
Qed.

Lemma mirror_run_len : forall k c o maxn p, 0 <= p <= n ->
  run_len e' k c (flip_opt o) maxn (n - p) = run_len e k c o maxn p.
Proof.
  intros k c o maxn. induction maxn as [|m IH]; intros p Hp; [reflexivity|].
  cbn [run_len]. rewrite mirror_step_test by lia.
  destruct ((0 <? avail e o p) && char_test e k c (next_char e o p)) eqn:E; [|reflexivity].
  rewrite mirror_dir.
  replace (n - p + - dir o) with (n - (p + dir o)) by lia.
  rewrite IH; [reflexivity|]. apply mirror_avail_step; lia.
Qed.

Lemma mirror_with_pos : forall s p, mirror_st e (with_pos s p) = with_pos (mirror_st e s) (n - p).
Proof. reflexivity. Qed.

Lemma mirror_sem_charloop : forall k l o c m mx s, 0 <= pos s <= n ->
  sem_charloop e' k l (flip_opt o) c m mx (mirror_st e s) = map (mirror_st e) (sem_charloop e k l o c m mx s).
Proof.
  intros k l o c m mx s Hp. unfold sem_charloop. cbn [pos mirror_st].
  rewrite mirror_avail, mirror_run_len by lia.
  set (cap := if mx =? INF then avail e o (pos s) else Z.min mx (avail e o (pos s))).
  set (r := run_len e k c o (Z.to_nat cap) (pos s)).
  destruct (r <? m); [reflexivity|].
  assert (Hmk : forall j, with_pos (mirror_st e s) (n - pos s + dir (flip_opt o) * j)
                          = mirror_st e (with_pos s (pos s + dir o * j))).
  { intros j. rewrite mirror_with_pos, mirror_dir. f_equal. lia. }
  destruct l; cbn [map]; rewrite ?map_map, ?Hmk; try reflexivity;
    apply map_ext; intros j; apply Hmk.
Qed.

Lemma mirror_with_pos_ok : forall s p, st_ok e s -> 0 <= p <= n -> st_ok e (with_pos s p).
Proof. intros s p [_ Hc] Hp. split; assumption. Qed.

End Leaves.

Section Leaves2.
Variable e : env.
Local Notation n := (tlen e).
Local Notation e' := (mirror_env e).

Lemma mirror_str_match_app : forall (ev : env) ci a b p,
  str_match_at ev ci (a ++ b) p = str_match_at ev ci a p && str_match_at ev ci b (p + zlen a).
Proof.
  intros ev ci a. induction a as [|c a IH]; intros b p.
  - cbn [app str_match_at andb]. unfold zlen. cbn [length]. f_equal. lia.
  - cbn [app str_match_at]. rewrite IH, andb_assoc. do 2 f_equal.
    unfold zlen. cbn [length]. lia.
Qed.

(* the literal [s] at [p, p+|s|) in the text  =  [rev s] at the mirrored interval of the reversed text *)
Lemma mirror_str_match_at : forall ci s p, 0 <= p -> p + zlen s <= n ->
  str_match_at e' ci (rev s) (n - p - zlen s) = str_match_at e ci s p.
Proof.
  intros ci s. induction s as [|c s IH]; intros p Hp Hle; [reflexivity|].
  rewrite zlen_cons in *. pose proof (zlen_nonneg s) as Hs.
  cbn [rev]. rewrite mirror_str_match_app. cbn [str_match_at]. rewrite andb_true_r.
  rewrite zlen_rev.
  replace (n - p - (1 + zlen s)) with (n - (p + 1) - zlen s) by lia.
  rewrite IH by lia. rewrite andb_comm. f_equal.
  rewrite mirror_char_at by lia.
  replace (n - 1 - (n - (p + 1) - zlen s + zlen s)) with p by lia. reflexivity.
Qed.

Lemma mirror_sem_multi : forall o str s, 0 <= pos s <= n ->
  sem_multi e' (flip_opt o) (rev str) (mirror_st e s) = map (mirror_st e) (sem_multi e o str s).
Proof.
  intros o str s Hp. unfold sem_multi. cbn [pos mirror_st].
  rewrite mirror_avail, zlen_rev, flip_is_rtl, flip_is_ci, mirror_dir.
  pose proof (zlen_nonneg str) as Hl.
  destruct (avail e o (pos s) <? zlen str) eqn:E; [reflexivity|].
  assert (Hst : str_match_at e' (is_ci o) (rev str)
                  (if negb (is_rtl o) then n - pos s - zlen str else n - pos s)
                = str_match_at e (is_ci o) str (if is_rtl o then pos s - zlen str else pos s)).
  { unfold avail in E. destruct (is_rtl o); cbn [negb].
    - replace (n - pos s) with (n - (pos s - zlen str) - zlen str) by lia.
      apply mirror_str_match_at; lia.
    - apply mirror_str_match_at; lia. }
  rewrite Hst.
  destruct (str_match_at e (is_ci o) str (if is_rtl o then pos s - zlen str else pos s)); [|reflexivity].
  cbn [map]. rewrite mirror_with_pos. do 2 f_equal. lia.
Qed.

Lemma mirror_ref_match_snoc : forall (ev : env) ci len i p,
  ref_match_at ev ci (S len) i p =
  ref_match_at ev ci len i p &&
  (if ci then lower ev (char_at ev (i + Z.of_nat len)) =? lower ev (char_at ev (p + Z.of_nat len))
   else char_at ev (i + Z.of_nat len) =? char_at ev (p + Z.of_nat len)).
Proof.
  intros ev ci len. induction len as [|len IH]; intros i p.
  - cbn [ref_match_at]. rewrite andb_true_r. cbn [andb Z.of_nat]. now rewrite !Z.add_0_r.
  - change (ref_match_at ev ci (S (S len)) i p) with
      ((if ci then lower ev (char_at ev i) =? lower ev (char_at ev p) else char_at ev i =? char_at ev p)
       && ref_match_at ev ci (S len) (i + 1) (p + 1)).
    rewrite IH. cbn [ref_match_at]. rewrite andb_assoc.
    replace (i + 1 + Z.of_nat len) with (i + Z.of_nat (S len)) by lia.
    replace (p + 1 + Z.of_nat len) with (p + Z.of_nat (S len)) by lia. reflexivity.
Qed.

Lemma mirror_ref_match_at : forall ci len i p,
  0 <= i -> i + Z.of_nat len <= n -> 0 <= p -> p + Z.of_nat len <= n ->
  ref_match_at e' ci len (n - i - Z.of_nat len) (n - p - Z.of_nat len) = ref_match_at e ci len i p.
Proof.
  intros ci len. induction len as [|len IH]; intros i p Hi Hil Hp Hpl; [reflexivity|].
  rewrite (mirror_ref_match_snoc e).
  cbn [ref_match_at].
  replace (n - i - Z.of_nat (S len) + 1) with (n - i - Z.of_nat len) by lia.
  replace (n - p - Z.of_nat (S len) + 1) with (n - p - Z.of_nat len) by lia.
  rewrite IH by lia. rewrite andb_comm. f_equal.
  rewrite !mirror_char_at by lia.
  replace (n - 1 - (n - i - Z.of_nat (S len))) with (i + Z.of_nat len) by lia.
  replace (n - 1 - (n - p - Z.of_nat (S len))) with (p + Z.of_nat len) by lia.
  reflexivity.
Qed.

Lemma mirror_cap_get : forall g c, cap_get g (mirror_caps n c) = map (mirror_span n) (cap_get g c).
Proof.
  intros g c. induction c as [|[g' l] c IH]; [reflexivity|].
  cbn [mirror_caps map cap_get fst snd]. destruct (g =? g'); [reflexivity|]. apply IH.
Qed.

Lemma mirror_cap_set : forall g l c,
  cap_set g (map (mirror_span n) l) (mirror_caps n c) = mirror_caps n (cap_set g l c).
Proof.
  intros g l c. induction c as [|[g' l'] c IH]; [reflexivity|].
  cbn [mirror_caps map cap_set fst snd]. destruct (g =? g'); [reflexivity|].
  cbn [map fst snd]. f_equal. apply IH.
Qed.

Lemma mirror_cap_push : forall g iv c,
  cap_push g (mirror_span n iv) (mirror_caps n c) = mirror_caps n (cap_push g iv c).
Proof.
  intros g iv c. unfold cap_push. rewrite mirror_cap_get, <- mirror_cap_set. reflexivity.
Qed.

Lemma mirror_cap_pop : forall g c, cap_pop g (mirror_caps n c) = mirror_caps n (cap_pop g c).
Proof.
  intros g c. unfold cap_pop. rewrite mirror_cap_get, <- mirror_cap_set. f_equal.
  destruct (cap_get g c); reflexivity.
Qed.

Lemma mirror_is_matched : forall g c, is_matched g (mirror_caps n c) = is_matched g c.
Proof. intros g c. unfold is_matched. rewrite mirror_cap_get. destruct (cap_get g c); reflexivity. Qed.

Lemma mirror_span_span : forall a b, mirror_span n (span a b) = span (n - a) (n - b).
Proof. intros a b. unfold mirror_span, span. cbn [fst snd]. f_equal; lia. Qed.

(* balancing groups: the interval recorded for (?<g-u>...) mirrors (transferCapture after the fix of
   its "end <= start2" branch: all three branches are the mirror images of one another) *)
Lemma mirror_balance_span : forall a b u, 0 <= snd u ->
  balance_span (n - a) (n - b) (mirror_span n u) = mirror_span n (balance_span a b u).
Proof.
  intros a b [s2 l2] Hl. unfold balance_span, span, mirror_span. cbn [fst snd] in *.
  destruct (s2 + l2 <=? Z.min a b) eqn:E1; destruct (Z.min a b + Z.abs (b - a) <=? s2) eqn:E2;
    destruct (n - s2 - l2 + l2 <=? Z.min (n - a) (n - b)) eqn:E3;
    destruct (Z.min (n - a) (n - b) + Z.abs (n - b - (n - a)) <=? n - s2 - l2) eqn:E4;
    cbn [fst snd]; try (f_equal; lia); exfalso; lia.
Qed.

Lemma mirror_sem_ref : forall o g s, st_ok e s ->
  sem_ref e' (flip_opt o) g (mirror_st e s) = map (mirror_st e) (sem_ref e o g s).
Proof.
  intros o g s [Hp Hc]. unfold sem_ref. cbn [pos caps mirror_st ecma mirror_env].
  rewrite mirror_cap_get. pose proof (sb_caps_ok_get e g _ Hc) as Hg.
  destruct (cap_get g (caps s)) as [|[i len] rest].
  - cbn [map]. destruct (ecma e); reflexivity.
  - cbn [map mirror_span fst snd]. inversion Hg as [|x y Hiv _]; subst.
    destruct Hiv as [Hi [Hlen Hil]]. cbn [fst snd] in *.
    rewrite mirror_avail, flip_is_rtl, flip_is_ci, mirror_dir.
    destruct (avail e o (pos s) <? len) eqn:E; [reflexivity|].
    assert (Hst : ref_match_at e' (is_ci o) (Z.to_nat len) (n - i - len)
                    (if negb (is_rtl o) then n - pos s - len else n - pos s)
                  = ref_match_at e (is_ci o) (Z.to_nat len) i (if is_rtl o then pos s - len else pos s)).
    { unfold avail in E. replace len with (Z.of_nat (Z.to_nat len)) at 2 3 by lia.
      destruct (is_rtl o); cbn [negb].
      - replace (n - pos s) with (n - (pos s - len) - Z.of_nat (Z.to_nat len)) by lia.
        apply mirror_ref_match_at; lia.
      - apply mirror_ref_match_at; lia. }
    rewrite Hst.
    destruct (ref_match_at e (is_ci o) (Z.to_nat len) i (if is_rtl o then pos s - len else pos s));
      [|reflexivity].
    cbn [map]. rewrite mirror_with_pos. do 2 f_equal. lia.
Qed.

Lemma mirror_is_boundary : forall w i, 0 <= i <= n ->
  is_boundary e' w (n - i) = is_boundary e w i.
Proof.
  intros w i Hi. unfold is_boundary. rewrite mirror_tlen. rewrite xorb_comm. f_equal.
  - destruct (0 <? i) eqn:E.
    + replace (n - i <? n) with true by lia. cbn [andb].
      rewrite mirror_char_at by lia. do 2 f_equal. lia.
    + replace (n - i <? n) with false by lia. reflexivity.
  - destruct (i <? n) eqn:E.
    + replace (0 <? n - i) with true by lia. cbn [andb].
      rewrite mirror_char_at by lia. do 2 f_equal. lia.
    + replace (0 <? n - i) with false by lia. reflexivity.
Qed.

Lemma mirror_anchor_ok : forall a p, 0 <= p <= n -> a <> AEndZ ->
  anchor_ok e' (flip_anchor a) (n - p) = anchor_ok e a p.
Proof.
  intros a p Hp Ha. destruct a; cbn [flip_anchor anchor_ok]; try congruence;
    rewrite ?mirror_tlen, ?mirror_is_boundary by lia; try reflexivity.
  - (* Bol -> Eol *)
    destruct (p <=? 0) eqn:E.
    + replace (n <=? n - p) with true by lia. reflexivity.
    + replace (n <=? n - p) with false by lia. cbn [orb].
      rewrite mirror_char_at by lia. do 2 f_equal. lia.
  - (* Eol -> Bol *)
    destruct (n <=? p) eqn:E.
    + replace (n - p <=? 0) with true by lia. reflexivity.
    + replace (n - p <=? 0) with false by lia. cbn [orb].
      rewrite mirror_char_at by lia. do 2 f_equal. lia.
  - (* Beginning -> End *) lia.
  - (* Start *) cbn [tstart mirror_env]. lia.
  - (* End -> Beginning *) lia.
Qed.

(* RE2 / ECMAScript: EndZ is End *)
Lemma mirror_endz_strict_is_end : forall p, endz_strict e = true ->
  anchor_ok e AEndZ p = anchor_ok e AEnd p.
Proof. intros p H. cbn [anchor_ok]. rewrite H. destruct (1 <? n - p) eqn:E; lia. Qed.

End Leaves2.

Definition res_all {A} (ok : A -> Prop) (r : res (list A)) : Prop :=
  match r with Ok l => Forall ok l | _ => True end.

(* ---------------------------------------------------------------------------------------------- *)
(* The semantics never leaves the text, and commutes with mirroring: one instance of             *)
(* SpecProofs.sem_rel, for the relation: the left state is inside the text and the right state   *)
(* is its mirror image                                                                           *)
(* ---------------------------------------------------------------------------------------------- *)
Section Range.
Variable e : env.
Local Notation n := (tlen e).
Local Notation e' := (mirror_env e).
Local Notation mir := (mirror_st e).
Local Notation ok := (st_ok e).
Local Notation MS := (fun s1 s2 => ok s1 /\ s2 = mir s1).
Local Notation MT := (fun t1 t2 => t2 = flip t1 /\ mirror_ok t1 = true).

Lemma mirror_leaf_rel l l' : Forall ok l -> l' = map mir l -> res_rel (Forall2 MS) (Ok l) (Ok l').
Proof. intros H ->. cbn [res_rel]. induction H; constructor; auto. Qed.

Lemma mirror_rel_spelled r1 r2 :
  res_rel (Forall2 MS) r1 r2 -> res_all ok r1 /\ r2 = map_res (map mir) r1.
Proof.
  destruct r1 as [l1| | |], r2 as [l2| | |]; cbn [res_rel res_all map_res]; try contradiction;
    try (intros ->); auto.
  induction 1 as [|a b l1 l2 [Ha ->] _ [IH1 IH2]]; [auto|].
  split; [constructor; assumption|]. injection IH2 as ->. reflexivity.
Qed.

Lemma mirror_view t : mirror_ok t = true ->
  sem_view e e' MS MT eq eq (fun _ => False) t (flip t).
Proof.
  assert (Hl : forall l, forallb mirror_ok l = true -> Forall2 MT l (map flip l)).
  { intros l H. rewrite <- (map_id l) at 1. apply Forall2_map_same. intros x Hx.
    split; [reflexivity|exact (proj1 (forallb_forall _ _) H x Hx)]. }
  assert (Ho : forall no, opt_forall mirror_ok no = true -> opt_rel MT no (option_map flip no)).
  { intros [x|] H; [split; [reflexivity|exact H]|exact I]. }
  intros Ht.
  assert (Hleaf : is_leaf t = true -> forall s l, ok s -> sem e 1 t s = Ok l -> Forall ok l).
  { intros L s l Hs H. refine (sb_leaf_ok e 0 t s l _ L H Hs).
    destruct t; try exact I. cbn [mirror_ok] in Ht. cbn [sb_min_ok]. lia. }
  destruct t; cbn [mirror_ok] in Ht; cbn [flip].
  1-8: apply SV_leaf; try reflexivity; intros f s1 ? [Hs ->]; cbn [sem];
       (apply mirror_leaf_rel; [exact (Hleaf eq_refl s1 _ Hs eq_refl)|]).
  - cbn [pos mirror_st]. rewrite mirror_step_test by apply Hs.
    destruct ((0 <? avail e o (pos s1)) && char_test e k c (next_char e o (pos s1))); [|reflexivity].
    cbn [map]. rewrite mirror_with_pos, mirror_dir. do 2 f_equal. lia.
  - apply mirror_sem_charloop. apply Hs.
  - apply mirror_sem_multi. apply Hs.
  - now apply mirror_sem_ref.
  - cbn [pos mirror_st]. rewrite mirror_anchor_ok; [|apply Hs|intros ->; discriminate].
    destruct (anchor_ok e a (pos s1)); reflexivity.
  - reflexivity.
  - reflexivity.
  - reflexivity.
  - apply SV_concat, Hl, Ht.
  - apply SV_alternate, Hl, Ht.
  - apply SV_loop. split; [reflexivity|exact Ht].
  - apply SV_capture; [split; [reflexivity|exact Ht]|reflexivity|right; reflexivity].
  - apply SV_group. split; [reflexivity|exact Ht].
  - apply SV_poslook. split; [reflexivity|exact Ht].
  - apply SV_neglook. split; [reflexivity|exact Ht].
  - apply SV_atomic. split; [reflexivity|exact Ht].
  - apply andb_prop in Ht. destruct Ht as [Hy Hn].
    apply SV_backrefcond; [reflexivity|split; [reflexivity|exact Hy]|apply Ho, Hn].
  - apply andb_prop in Ht. destruct Ht as [Hcy Hn]. apply andb_prop in Hcy. destruct Hcy as [Hc Hy].
    apply SV_exprcond; [split; [reflexivity|assumption]..|apply Ho, Hn].
Qed.

Lemma mirror_sem_rel fuel t s : mirror_ok t = true -> ok s ->
  res_rel (Forall2 MS) (sem e fuel t s) (sem e' fuel (flip t) (mir s)).
Proof.
  intros Ht Hs.
  apply (sem_rel e e' MS MT eq eq (fun _ => False));
    [| | | |reflexivity|intros u ? ->; reflexivity| | | |split; [reflexivity|exact Ht]|split; [exact Hs|reflexivity]].
  - intros t1 t2 [-> H]. exact (mirror_view t1 H).
  - intros s1 s2 [[Hp _] ->] a b [[Hq _] ->]. cbn [pos mirror_st]. lia.
  - intros a b [[Hq _] ->]. cbn [pos mirror_st]. lia.
  - intros s1 s2 a b [Hs1 ->] [Ha ->].
    split; [apply mirror_with_pos_ok; [exact Ha|apply Hs1]|reflexivity].
  - intros g ? s1 s2 a b <- [Hs1 ->] [Ha ->]. split.
    + split; cbn [pos caps]; [apply Ha|].
      apply sb_caps_ok_push; [apply Ha|]. apply sb_span_ok; [apply Hs1|apply Ha].
    + unfold mirror_st. cbn [pos caps]. f_equal. rewrite <- mirror_cap_push, mirror_span_span. reflexivity.
  - intros g s1 a b [].
  - intros g ? u ? s1 s2 a b <- <- [Hs1 ->] [Ha ->]. cbn [caps mirror_st]. rewrite mirror_cap_get.
    pose proof (sb_caps_ok_get e u _ (proj2 Ha)) as Hu.
    destruct (cap_get u (caps a)) as [|top rest]; [exact I|]. cbn [map].
    inversion Hu as [|x y Htop _]; subst. split.
    + split; cbn [pos caps]; [apply Ha|].
      destruct (g =? -1); [apply sb_caps_ok_pop, Ha|].
      apply sb_caps_ok_push; [apply sb_caps_ok_pop, Ha|].
      apply sb_balance_span_ok; [apply Hs1|apply Ha|exact Htop].
    + unfold mirror_st. cbn [pos caps]. f_equal. rewrite mirror_cap_pop.
      destruct (g =? -1); [reflexivity|].
      rewrite mirror_balance_span by apply Htop. apply mirror_cap_push.
Qed.

Theorem sem_pos_in_range : forall fuel t s, mirror_ok t = true -> ok s -> res_all ok (sem e fuel t s).
Proof. intros fuel t s Ht Hs. exact (proj1 (mirror_rel_spelled _ _ (mirror_sem_rel fuel t s Ht Hs))). Qed.

End Range.

Section Main.
Variable e : env.
Local Notation n := (tlen e).
Local Notation e' := (mirror_env e).
Local Notation mir := (mirror_st e).
Local Notation ok := (st_ok e).

Theorem mirror_sem_partial : forall fuel t s, mirror_ok t = true -> ok s ->
  sem e' fuel (flip t) (mir s) = map_res (map mir) (sem e fuel t s).
Proof. intros fuel t s Ht Hs. exact (proj2 (mirror_rel_spelled e _ _ (mirror_sem_rel e fuel t s Ht Hs))). Qed.

End Main.

Section Scan.
Variable e : env.
Local Notation n := (tlen e).
Local Notation e' := (mirror_env e).
Local Notation mir := (mirror_st e).

Lemma mirror_init_ok : forall p, 0 <= p <= n -> st_ok e {| pos := p; caps := [] |}.
Proof. intros p Hp. split; [exact Hp|constructor]. Qed.

Theorem mirror_attempt_partial : forall fuel root p, mirror_ok root = true -> 0 <= p <= n ->
  attempt e' fuel (flip root) (n - p) = map_res (option_map mir) (attempt e fuel root p).
Proof.
  intros fuel root p Hr Hp. unfold attempt.
  change {| pos := n - p; caps := [] |} with (mir {| pos := p; caps := [] |}).
  rewrite mirror_sem_partial by (try assumption; now apply mirror_init_ok).
  destruct (sem e fuel root {| pos := p; caps := [] |}) as [[|a l]| | |]; reflexivity.
Qed.

Lemma mirror_scan_from_partial : forall fuel root rtl cnt p, mirror_ok root = true -> 0 <= p <= n ->
  scan_from e' fuel cnt (flip root) (negb rtl) (n - p)
  = map_res (option_map mir) (scan_from e fuel cnt root rtl p).
Proof.
  intros fuel root rtl cnt. induction cnt as [|c IH]; intros p Hr Hp; [reflexivity|].
  cbn [scan_from]. rewrite mirror_attempt_partial by assumption.
  destruct (attempt e fuel root p) as [[s|]| | |]; cbn [map_res option_map bind]; try reflexivity.
  rewrite mirror_tlen.
  replace (if negb rtl then n - p <=? 0 else n <=? n - p) with (if rtl then p <=? 0 else n <=? p)
    by (destruct rtl; cbn [negb]; lia).
  destruct (if rtl then p <=? 0 else n <=? p) eqn:E; [reflexivity|].
  replace (if negb rtl then n - p - 1 else n - p + 1) with (n - (if rtl then p - 1 else p + 1))
    by (destruct rtl; cbn [negb]; lia).
  apply IH; [assumption|]. destruct rtl; lia.
Qed.

(* The scan in direction [rtl] from [start]  =  the scan in the opposite direction of the flipped
   tree over the reversed text from [n - start]; the match found is the mirror image. *)
Theorem mirror_find_partial : forall fuel root rtl start prevlen, mirror_ok root = true -> 0 <= start <= n ->
  find e' fuel (flip root) (negb rtl) (n - start) prevlen
  = map_res (option_map mir) (find e fuel root rtl start prevlen).
Proof.
  intros fuel root rtl start prevlen Hr Hs. unfold find. rewrite mirror_tlen.
  replace (n - start =? (if negb rtl then 0 else n)) with (start =? (if rtl then 0 else n))
    by (destruct rtl; cbn [negb]; lia).
  destruct ((prevlen =? 0) && (start =? (if rtl then 0 else n))) eqn:E; [reflexivity|].
  replace (if prevlen =? 0 then if negb rtl then n - start - 1 else n - start + 1 else n - start)
    with (n - (if prevlen =? 0 then if rtl then start - 1 else start + 1 else start))
    by (destruct (prevlen =? 0), rtl; cbn [negb]; lia).
  apply mirror_scan_from_partial; [assumption|].
  destruct (prevlen =? 0) eqn:Ep; [|lia]. destruct rtl; lia.
Qed.

End Scan.

(* ---------------------------------------------------------------------------------------------- *)
(* Mirroring is an involution, so the theorem reads in both directions                            *)
(* ---------------------------------------------------------------------------------------------- *)
Lemma flip_anchor_invol : forall a, flip_anchor (flip_anchor a) = a.
Proof. destruct a; reflexivity. Qed.

Lemma mirror_env_invol : forall e, mirror_env (mirror_env e) = e.
Proof.
  intros e. destruct e as [t ts ec ez si lo iw ie]. unfold mirror_env, tlen, zlen.
  cbn [txt tstart ecma endz_strict set_in lower is_word is_eword].
  rewrite rev_involutive, rev_length. f_equal. lia.
Qed.

Lemma mirror_span_invol : forall n iv, mirror_span n (mirror_span n iv) = iv.
Proof. intros n [i l]. unfold mirror_span. cbn [fst snd]. f_equal. lia. Qed.

Lemma mirror_caps_invol : forall n c, mirror_caps n (mirror_caps n c) = c.
Proof.
  intros n c. unfold mirror_caps. rewrite map_map. rewrite <- (map_id c) at 2.
  apply map_ext. intros [g l]. cbn [fst snd]. f_equal.
  rewrite map_map. rewrite <- (map_id l) at 2. apply map_ext. apply mirror_span_invol.
Qed.

Lemma mirror_st_invol : forall e s, mirror_st (mirror_env e) (mirror_st e s) = s.
Proof.
  intros e [p c]. unfold mirror_st. cbn [pos caps]. rewrite mirror_tlen, mirror_caps_invol.
  f_equal. lia.
Qed.

Lemma mirror_span_ok_mirror : forall n iv, span_ok n iv -> span_ok n (mirror_span n iv).
Proof. intros n [i l] H. unfold span_ok, mirror_span in *. cbn [fst snd] in *. lia. Qed.

Lemma mirror_st_ok_mirror : forall e s, st_ok e s -> st_ok (mirror_env e) (mirror_st e s).
Proof.
  intros e s [Hp Hc]. split; rewrite mirror_tlen; cbn [pos caps mirror_st]; [lia|].
  unfold caps_ok, mirror_caps in *. rewrite Forall_map. eapply Forall_impl; [|exact Hc].
  intros [g l] Hl. cbn [fst snd] in *. rewrite Forall_map. eapply Forall_impl; [|exact Hl].
  apply mirror_span_ok_mirror.
Qed.

(* [flip] is an involution on every tree; the two list cases go through the fuel-free size-free
   route: a nested induction principle for [node] is avoided by a depth bound. *)
Fixpoint mirror_depth (t : node) : nat :=
  match t with
  | NConcat _ l | NAlternate _ l => S (fold_right (fun x a => Nat.max (mirror_depth x) a) O l)
  | NLoop _ _ _ _ r | NCapture _ _ _ r | NGroup r | NPosLook _ r | NNegLook _ r | NAtomic r =>
      S (mirror_depth r)
  | NBackRefCond _ _ y no =>
      S (Nat.max (mirror_depth y) (match no with Some x => mirror_depth x | None => O end))
  | NExprCond _ c y no =>
      S (Nat.max (mirror_depth c)
           (Nat.max (mirror_depth y) (match no with Some x => mirror_depth x | None => O end)))
  | _ => O
  end.

Lemma mirror_depth_list : forall (P : node -> Prop) d l,
  (forall t, (mirror_depth t <= d)%nat -> P t) ->
  (fold_right (fun x a => Nat.max (mirror_depth x) a) O l <= d)%nat -> Forall P l.
Proof.
  intros P d l H. induction l as [|x l IH]; intros Hd; [constructor|].
  cbn [fold_right] in Hd. constructor; [apply H; lia|apply IH; lia].
Qed.

Lemma mirror_map_id_Forall : forall (f : node -> node) l, Forall (fun x => f x = x) l -> map f l = l.
Proof. intros f l H. induction H as [|x l Hx _ IH]; [reflexivity|]. cbn [map]. now rewrite Hx, IH. Qed.

Lemma flip_invol_depth : forall d t, (mirror_depth t <= d)%nat -> flip (flip t) = t.
Proof.
  induction d as [|d IH]; intros t Hd.
  - destruct t; cbn [mirror_depth] in Hd; try lia; cbn [flip];
      rewrite ?flip_opt_invol, ?rev_involutive, ?flip_anchor_invol; reflexivity.
  - destruct t; cbn [mirror_depth] in Hd; cbn [flip];
      rewrite ?flip_opt_invol, ?rev_involutive, ?flip_anchor_invol; try reflexivity.
    + f_equal. rewrite map_map. apply mirror_map_id_Forall.
      apply (mirror_depth_list _ d); [exact IH|lia].
    + f_equal. rewrite map_map. apply mirror_map_id_Forall.
      apply (mirror_depth_list _ d); [exact IH|lia].
    + rewrite IH by lia. reflexivity.
    + rewrite IH by lia. reflexivity.
    + rewrite IH by lia. reflexivity.
    + rewrite IH by lia. reflexivity.
    + rewrite IH by lia. reflexivity.
    + rewrite IH by lia. reflexivity.
    + rewrite IH by lia. destruct no as [x|]; cbn [option_map]; [rewrite IH by lia|]; reflexivity.
    + rewrite (IH t1), (IH t2) by lia.
      destruct no as [x|]; cbn [option_map]; [rewrite IH by lia|]; reflexivity.
Qed.

Theorem flip_invol : forall t, flip (flip t) = t.
Proof. intros t. apply (flip_invol_depth (mirror_depth t)). lia. Qed.

Lemma mirror_forallb_Forall : forall (f g : node -> bool) l,
  Forall (fun x => f x = g x) l -> forallb f l = forallb g l.
Proof. intros f g l H. induction H as [|x l Hx _ IH]; [reflexivity|]. cbn [forallb]. now rewrite Hx, IH. Qed.

Lemma mirror_forallb_map : forall (f : node -> bool) (g : node -> node) l,
  forallb f (map g l) = forallb (fun x => f (g x)) l.
Proof. intros f g l. induction l as [|x l IH]; [reflexivity|]. cbn [map forallb]. now rewrite IH. Qed.

Lemma flip_mirror_ok_depth : forall d t, (mirror_depth t <= d)%nat -> mirror_ok (flip t) = mirror_ok t.
Proof.
  induction d as [|d IH]; intros t Hd.
  - destruct t; cbn [mirror_depth] in Hd; try lia; cbn [flip mirror_ok]; try reflexivity.
    destruct a; reflexivity.
  - destruct t; cbn [mirror_depth] in Hd; cbn [flip mirror_ok]; try reflexivity.
    + destruct a; reflexivity.
    + rewrite mirror_forallb_map. apply mirror_forallb_Forall.
      apply (mirror_depth_list _ d); [exact IH|lia].
    + rewrite mirror_forallb_map. apply mirror_forallb_Forall.
      apply (mirror_depth_list _ d); [exact IH|lia].
    + apply IH; lia.
    + rewrite IH by lia. reflexivity.
    + apply IH; lia.
    + apply IH; lia.
    + apply IH; lia.
    + apply IH; lia.
    + rewrite IH by lia. destruct no as [x|]; cbn [option_map opt_forall]; [rewrite IH by lia|]; reflexivity.
    + rewrite (IH t1), (IH t2) by lia.
      destruct no as [x|]; cbn [option_map opt_forall]; [rewrite IH by lia|]; reflexivity.
Qed.

Theorem flip_mirror_ok : forall t, mirror_ok (flip t) = mirror_ok t.
Proof. intros t. apply (flip_mirror_ok_depth (mirror_depth t)). lia. Qed.

(* ---------------------------------------------------------------------------------------------- *)
(* Reading the theorem the other way round: a search = the mirror of the mirrored search          *)
(* ---------------------------------------------------------------------------------------------- *)
Lemma mirror_map_res_invol : forall e (r : res (option st)),
  map_res (option_map (mirror_st (mirror_env e))) (map_res (option_map (mirror_st e)) r) = r.
Proof.
  intros e r. destruct r as [[s|]| | |]; cbn [map_res option_map]; try reflexivity.
  now rewrite mirror_st_invol.
Qed.

Theorem mirror_find_as_opposite_partial : forall e fuel root rtl start prevlen,
  mirror_ok root = true -> 0 <= start <= tlen e ->
  find e fuel root rtl start prevlen
  = map_res (option_map (mirror_st (mirror_env e)))
      (find (mirror_env e) fuel (flip root) (negb rtl) (tlen e - start) prevlen).
Proof.
  intros e fuel root rtl start prevlen Hr Hs.
  rewrite mirror_find_partial by assumption. now rewrite mirror_map_res_invol.
Qed.

(* ---------------------------------------------------------------------------------------------- *)
(* EndZ under RE2 / ECMAScript (endz_strict): there \Z is \z, whose mirror is \A                   *)
(* ---------------------------------------------------------------------------------------------- *)
Definition endz_anchor (a : anchor) : anchor := match a with AEndZ => AEnd | x => x end.

Fixpoint endz_to_end (t : node) : node :=
  match t with
  | NAnchor a => NAnchor (endz_anchor a)
  | NConcat o l => NConcat o (map endz_to_end l)
  | NAlternate o l => NAlternate o (map endz_to_end l)
  | NLoop lz o m n r => NLoop lz o m n (endz_to_end r)
  | NCapture o g u r => NCapture o g u (endz_to_end r)
  | NGroup r => NGroup (endz_to_end r)
  | NPosLook o r => NPosLook o (endz_to_end r)
  | NNegLook o r => NNegLook o (endz_to_end r)
  | NAtomic r => NAtomic (endz_to_end r)
  | NBackRefCond o g y no => NBackRefCond o g (endz_to_end y) (option_map endz_to_end no)
  | NExprCond o c y no => NExprCond o (endz_to_end c) (endz_to_end y) (option_map endz_to_end no)
  | x => x
  end.

Section EndZ.
Variable e : env.
Hypothesis Hstrict : endz_strict e = true.

Lemma mirror_endz_anchor_ok : forall a p, anchor_ok e (endz_anchor a) p = anchor_ok e a p.
Proof.
  intros a p. destruct a; try reflexivity. cbn [endz_anchor]. symmetry.
  now apply mirror_endz_strict_is_end.
Qed.

Lemma mirror_sem_endz_to_end : forall fuel t s, sem e fuel (endz_to_end t) s = sem e fuel t s.
Proof.
  intros fuel t s. apply (sem_ext e e (fun a b => a = endz_to_end b)); [|reflexivity].
  clear fuel t s. intros ? t ->.
  assert (Hl : forall l, Forall2 (fun a b => a = endz_to_end b) (map endz_to_end l) l).
  { intros l. rewrite <- (map_id l) at 2. apply Forall2_map_same. reflexivity. }
  assert (Ho : forall no, opt_rel (fun a b => a = endz_to_end b) (option_map endz_to_end no) no).
  { intros [x|]; reflexivity. }
  destruct t; cbn [endz_to_end]; try (constructor; auto; fail);
    apply SV_leaf_eq; try reflexivity.
  intros f s. cbn [sem]. rewrite mirror_endz_anchor_ok. reflexivity.
Qed.

Lemma mirror_find_endz_to_end : forall fuel root rtl start prevlen,
  find e fuel (endz_to_end root) rtl start prevlen = find e fuel root rtl start prevlen.
Proof.
  intros fuel root rtl start prevlen. unfold find.
  destruct ((prevlen =? 0) && (start =? (if rtl then 0 else tlen e))); [reflexivity|].
  generalize (if prevlen =? 0 then if rtl then start - 1 else start + 1 else start).
  generalize (S (Z.to_nat (tlen e))). intros cnt.
  induction cnt as [|c IHc]; intros p; [reflexivity|].
  cbn [scan_from]. unfold attempt. rewrite mirror_sem_endz_to_end.
  destruct (sem e fuel root {| pos := p; caps := [] |}) as [[|a l]| | |]; cbn [bind]; try reflexivity.
  destruct (if rtl then p <=? 0 else tlen e <=? p); [reflexivity|]. apply IHc.
Qed.

(* mirror theorem for trees that contain EndZ, in RE2/ECMAScript mode: first read EndZ as End *)
Theorem mirror_sem_endz_strict_partial : forall fuel t s,
  mirror_ok (endz_to_end t) = true -> st_ok e s ->
  sem (mirror_env e) fuel (flip (endz_to_end t)) (mirror_st e s)
  = map_res (map (mirror_st e)) (sem e fuel t s).
Proof.
  intros fuel t s Ht Hs. rewrite mirror_sem_partial by assumption.
  now rewrite mirror_sem_endz_to_end.
Qed.

Theorem mirror_find_endz_strict_partial : forall fuel root rtl start prevlen,
  mirror_ok (endz_to_end root) = true -> 0 <= start <= tlen e ->
  find (mirror_env e) fuel (flip (endz_to_end root)) (negb rtl) (tlen e - start) prevlen
  = map_res (option_map (mirror_st e)) (find e fuel root rtl start prevlen).
Proof.
  intros fuel root rtl start prevlen Hr Hs. rewrite mirror_find_partial by assumption.
  now rewrite mirror_find_endz_to_end.
Qed.

End EndZ.

(* ---------------------------------------------------------------------------------------------- *)
(* Concrete witnesses: a balancing group with a gap; EndZ has no mirror anchor                     *)
(* ---------------------------------------------------------------------------------------------- *)
(* a small concrete environment: ASCII letters are word characters, no sets, identity lower-casing *)
Definition mirror_ex_env (t : list Z) (start : Z) (strict : bool) : env :=
  {| txt := t; tstart := start; ecma := false; endz_strict := strict;
     set_in := fun _ _ => false; lower := fun c => c;
     is_word := fun c => (97 <=? c) && (c <=? 122);
     is_eword := fun c => (97 <=? c) && (c <=? 122) |}.

(* (?<a>x)z(?<b-a>y)  (a = group 1, b = group 2), left-to-right, on "xzy" *)
Definition mirror_ex_balance : node :=
  NConcat 0 [NCapture 0 1 (-1) (NChar COne 0 120); NChar COne 0 122; NCapture 0 2 1 (NChar COne 0 121)].

(* Balancing group with a gap: left-to-right, group b gets the text BETWEEN the popped capture and the
   new one, (1,1) = "z"; the mirrored search (the right-to-left pattern (?<b-a>y)z(?<a>x) on "yzx")
   pops a capture that lies to the RIGHT of the text just matched and records the same interval
   ([balance_span]'s second branch = runner.go transferCapture "end <= start2", which before the
   repair in /repo cd1c469 recorded index 2, length -1).  Instance of mirror_sem_partial. *)
Theorem mirror_balance_example :
  let e := mirror_ex_env [120; 122; 121] 0 false in
  let s := {| pos := 0; caps := [] |} in
  mirror_ok mirror_ex_balance = true /\ st_ok e s /\
  map_res (map (mirror_st e)) (sem e 10 mirror_ex_balance s)
    = Ok [{| pos := 0; caps := [(1, []); (2, [(1, 1)])] |}] /\
  sem (mirror_env e) 10 (flip mirror_ex_balance) (mirror_st e s)
    = Ok [{| pos := 0; caps := [(1, []); (2, [(1, 1)])] |}].
Proof.
  cbv zeta. split; [reflexivity|]. split; [|split; vm_compute; reflexivity].
  split; [vm_compute; split; congruence|constructor].
Qed.

(* Without RE2/ECMAScript, no anchor of the node language is the mirror image of EndZ: whatever
   anchor a' one picks, some text and in-range position tell them apart. *)
Definition mirror_endz_witness (a' : anchor) : env * Z :=
  match a' with
  | ABol => (mirror_ex_env [97; 10; 10] 0 false, 1)
  | AEol => (mirror_ex_env [97; 98] 0 false, 2)
  | ABoundary => (mirror_ex_env [97; 98] 0 false, 0)
  | ANonboundary => (mirror_ex_env [97; 98] 0 false, 2)
  | ABeginning => (mirror_ex_env [97; 10] 0 false, 1)
  | AStart => (mirror_ex_env [97; 98] 0 false, 0)
  | AEndZ => (mirror_ex_env [97; 98] 0 false, 2)
  | AEnd => (mirror_ex_env [97; 98] 0 false, 2)
  | AECMABoundary => (mirror_ex_env [97; 98] 0 false, 0)
  | ANonECMABoundary => (mirror_ex_env [97; 98] 0 false, 2)
  end.

Theorem mirror_endz_no_mirror_anchor : forall a',
  let e := fst (mirror_endz_witness a') in let p := snd (mirror_endz_witness a') in
  endz_strict e = false /\ 0 <= p <= tlen e /\
  anchor_ok (mirror_env e) a' (tlen e - p) <> anchor_ok e AEndZ p.
Proof.
  intros a'. destruct a'; vm_compute; repeat split; congruence.
Qed.

(* ---------------------------------------------------------------------------------------------- *)
(* Concrete instances used by Properties/C15.v (non-vacuity)                                      *)
(* ---------------------------------------------------------------------------------------------- *)
(* (a+)(b|c) parsed with RightToLeft: every node carries the Rtl bit (64) and the parser has already
   reversed the concatenation, so the list is in evaluation order: (b|c) first, then a+. *)
Definition mirror_ex_rtl : node :=
  NCapture 64 0 (-1)
    (NConcat 64 [NCapture 64 2 (-1) (NAlternate 64 [NChar COne 64 98; NChar COne 64 99]);
                 NCapture 64 1 (-1) (NCharLoop COne LGreedy 64 97 1 INF)]).

(* a left-to-right mix: non-boundary, a lookbehind for x (Rtl child), a lookahead containing a capture
   of "aa", a back-reference to it, an atomic greedy loop of a, a conditional on group 1 (b, else c),
   a negative lookahead for z, and End *)
Definition mirror_ex_mixed : node :=
  NCapture 0 0 (-1)
    (NConcat 0 [NAnchor ANonboundary;
                NPosLook 64 (NChar COne 64 120);
                NPosLook 0 (NCapture 0 1 (-1) (NMulti 0 [97; 97]));
                NRef 0 1;
                NAtomic (NLoop false 0 0 INF (NChar COne 0 97));
                NBackRefCond 0 1 (NChar COne 0 98) (Some (NChar COne 0 99));
                NNegLook 0 (NChar COne 0 122);
                NAnchor AEnd]).

(* ---------------------------------------------------------------------------------------------- *)
(* Statement forms used by Properties/C15.v                                                       *)
(* ---------------------------------------------------------------------------------------------- *)
Lemma mirror_sem_pos_in_range_list : forall (e : env) (fuel : nat) (t : node) (s : st) (l : list st),
  mirror_ok t = true -> st_ok e s -> sem e fuel t s = Ok l -> Forall (st_ok e) l.
Proof.
  intros e fuel t s l Ht Hs H. pose proof (sem_pos_in_range e fuel t s Ht Hs) as R.
  rewrite H in R. exact R.
Qed.

Lemma mirror_rtl_is_mirrored_ltr_partial : forall (e : env) (fuel : nat) (root : node) (start prevlen : Z),
  mirror_ok root = true -> 0 <= start <= tlen e ->
  find e fuel root true start prevlen
  = map_res (option_map (mirror_st (mirror_env e)))
      (find (mirror_env e) fuel (flip root) false (tlen e - start) prevlen).
Proof. intros e fuel root. exact (mirror_find_as_opposite_partial e fuel root true). Qed.

Lemma mirror_involution_all :
  (forall t, flip (flip t) = t) /\ (forall t, mirror_ok (flip t) = mirror_ok t) /\
  (forall e, mirror_env (mirror_env e) = e) /\
  (forall e s, mirror_st (mirror_env e) (mirror_st e s) = s) /\
  (forall e s, st_ok e s -> st_ok (mirror_env e) (mirror_st e s)).
Proof.
  exact (conj flip_invol (conj flip_mirror_ok (conj mirror_env_invol (conj mirror_st_invol mirror_st_ok_mirror)))).
Qed.

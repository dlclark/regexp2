(* Proofs about Model/Escape.v : Unescape (Escape s) = s for every string of valid scalars. *)
From Verif Require Import Base.Prelude Gen.EscapeGen Model.Escape.
From Verif Require Import Proofs.ListFacts.
From Coq Require Import ZifyBool.
(* lia/nia see through / and mod.  The setting is not local: it reaches every file that requires this one
   (Proofs/ParseLitProofs.v, ParseLitSem.v and what builds on them). *)
Ltac Zify.zify_post_hook ::= Z.div_mod_to_equations.

Lemma hex_digit_hex_char d : 0 <= d < 16 -> hex_digit (hex_char d) = d.
Proof.
  intros H. unfold hex_digit, hex_char.
  destruct (d <? 10) eqn:E.
  - replace ((48 <=? 48 + d) && (48 + d <=? 57)) with true by lia. lia.
  - replace ((48 <=? 97 + (d - 10)) && (97 + (d - 10) <=? 57)) with false by lia.
    replace ((97 <=? 97 + (d - 10)) && (97 + (d - 10) <=? 102)) with true by lia. lia.
Qed.

Lemma hex_char_range d : 0 <= d < 16 ->
  (48 <= hex_char d <= 57) \/ (97 <= hex_char d <= 102).
Proof. intros H. unfold hex_char. destruct (d <? 10) eqn:E; lia. Qed.

Lemma to_hex_aux_acc fuel : forall n acc, to_hex_aux fuel n acc = to_hex_aux fuel n [] ++ acc.
Proof.
  induction fuel as [|f IH]; intros n acc; cbn [to_hex_aux]; [reflexivity|].
  destruct (n <? 16); [reflexivity|].
  rewrite IH. rewrite (IH (n / 16) [hex_char (n mod 16)]). rewrite <- app_assoc. reflexivity.
Qed.

Lemma to_hex_aux_step f n :
  to_hex_aux (S f) n [] =
  if n <? 16 then [hex_char n] else to_hex_aux f (n / 16) [] ++ [hex_char (n mod 16)].
Proof. cbn [to_hex_aux]. destruct (n <? 16); [reflexivity|]. apply to_hex_aux_acc. Qed.

(* scanHexUntilBrace reads back what strconv.FormatInt(n, 16) prints: a fact about the parser's "\x{...}"
   scanner.  Escape itself writes no braced form (beyond the BMP it copies the rune), so nothing below uses it. *)
Lemma scan_brace_to_hex f : forall n tail has,
  0 <= n <= 1114111 -> n < 16 ^ Z.of_nat (S f) ->
  scan_hex_brace 0 has (to_hex_aux (S f) n [] ++ tail) = scan_hex_brace n true tail.
Proof.
  induction f as [|f IH]; intros n tail has Hn Hlt; rewrite to_hex_aux_step;
    destruct (n <? 16) eqn:E.
  1,3: cbn [app scan_hex_brace];
      pose proof (hex_char_range n ltac:(lia)) as Hr;
      replace (hex_char n =? 125) with false by lia;
      rewrite hex_digit_hex_char by lia;
      replace (n <? 0) with false by lia;
      replace (0 * 16 + n) with n by lia;
      replace (1114111 <? n) with false by lia; reflexivity.
  - exfalso. change (16 ^ Z.of_nat 1) with 16 in Hlt. lia.
  - rewrite <- app_assoc. cbn [app].
    assert (Hf : n / 16 < 16 ^ Z.of_nat (S f)).
    { rewrite (Nat2Z.inj_succ (S f)), Z.pow_succ_r in Hlt by lia.
      apply Z.div_lt_upper_bound; lia. }
    rewrite IH by lia.
    cbn [scan_hex_brace].
    pose proof (hex_char_range (n mod 16) ltac:(lia)) as Hr.
    replace (hex_char (n mod 16) =? 125) with false by lia.
    rewrite hex_digit_hex_char by lia.
    replace (n mod 16 <? 0) with false by lia.
    replace (n / 16 * 16 + n mod 16) with n by lia.
    replace (1114111 <? n) with false by lia. reflexivity.
Qed.

(* the n+1 hex digits of a number, most significant first *)
Fixpoint hex_digits (n : nat) (r : Z) : list Z :=
  match n with
  | O => [hex_char (r mod 16)]
  | S n' => hex_digits n' (r / 16) ++ [hex_char (r mod 16)]
  end.

(* strconv.FormatInt(r, 16) of a number that needs exactly n+1 digits *)
Lemma to_hex_aux_digits n : forall f r, (n <= f)%nat ->
  0 <= r -> (n = O \/ 16 ^ Z.of_nat n <= r) -> r < 16 ^ Z.of_nat (S n) ->
  to_hex_aux (S f) r [] = hex_digits n r.
Proof.
  induction n as [|n IH]; intros f r Hf H0 Hlo Hhi; rewrite to_hex_aux_step; cbn [hex_digits].
  - change (16 ^ Z.of_nat 1) with 16 in Hhi. replace (r <? 16) with true by lia.
    rewrite Z.mod_small by lia. reflexivity.
  - destruct f as [|f]; [lia|]. destruct Hlo as [Hlo|Hlo]; [discriminate|].
    assert (E : forall k, 16 ^ Z.of_nat (S k) = 16 * 16 ^ Z.of_nat k).
    { intros k. rewrite Nat2Z.inj_succ, Z.pow_succ_r by lia. reflexivity. }
    assert (Hp : 0 < 16 ^ Z.of_nat n) by (apply Z.pow_pos_nonneg; lia).
    rewrite (E (S n)) in Hhi. rewrite (E n) in Hlo, Hhi.
    replace (r <? 16) with false by lia. f_equal.
    apply IH; [lia|lia|right|rewrite (E n)]; lia.
Qed.

Lemma to_hex_digits n r : (n <= 15)%nat ->
  0 <= r -> (n = O \/ 16 ^ Z.of_nat n <= r) -> r < 16 ^ Z.of_nat (S n) -> to_hex r = hex_digits n r.
Proof. apply to_hex_aux_digits. Qed.

Section Proofs.
Variable is_print : Z -> bool.
Variable is_word_char : Z -> bool.
(* the only fact about the oracles that is needed: the metacharacters are not word characters *)
Hypothesis meta_not_word : forall c, In c meta -> is_word_char c = false.

Definition is_raw (r : Z) : bool := is_print r && negb (zmem r meta).

(* None of the metacharacters collides with an escape letter or an octal digit.  This is a
   proof obligation on the *generated* [meta]: adding e.g. 'n' to it breaks the property. *)
Definition meta_char_ok (c : Z) : bool :=
  negb ((48 <=? c) && (c <=? 55)) &&
  negb (zmem c [120; 117; 97; 98; 101; 102; 110; 114; 116; 118; 99]).

Lemma meta_ok : forallb meta_char_ok meta = true.
Proof. vm_compute. reflexivity. Qed.

Lemma backslash_in_meta : zmem 92 meta = true.
Proof. vm_compute. reflexivity. Qed.

Lemma scan_meta r rest : zmem r meta = true ->
  scan_char_escape is_word_char (r :: rest) = Ok (r, rest).
Proof.
  intros Hm. pose proof (proj1 (zmem_In _ _) Hm) as Hin.
  pose proof meta_ok as Hok. rewrite forallb_forall in Hok. specialize (Hok r Hin).
  unfold meta_char_ok in Hok. apply andb_prop in Hok. destruct Hok as [H1 H2].
  unfold scan_char_escape.
  apply negb_true_iff in H1. rewrite H1.
  apply negb_true_iff in H2. cbn [zmem existsb] in H2.
  repeat (apply orb_false_elim in H2; let Ha := fresh "Ha" in destruct H2 as [Ha H2]).
  rewrite Ha, Ha0, Ha1, Ha2, Ha3, Ha4, Ha5, Ha6, Ha7, Ha8, Ha9.
  rewrite (meta_not_word r Hin). reflexivity.
Qed.

(* a code point.  (Base/Utf8.v has a boolean [valid_rune] that also excludes surrogates, and
   Proofs/CharClassProofs.v a [valid_rune] up to max_rune; here surrogates are excluded separately by [no_surrogate].) *)
Definition valid_rune (r : Z) : Prop := 0 <= r <= 1114111.

Lemma scan_hex_digits2 d1 d0 rest : 0 <= d1 < 16 -> 0 <= d0 < 16 ->
  scan_char_escape is_word_char (120 :: hex_char d1 :: hex_char d0 :: rest) = Ok (d1 * 16 + d0, rest).
Proof.
  clear is_print meta_not_word. intros H1 H0. unfold scan_char_escape. cbn -[hex_char hex_digit Z.mul Z.add].
  pose proof (hex_char_range d1 H1) as Hr.
  replace (hex_char d1 =? 123) with false by lia.
  unfold scan_hex. cbn [length Nat.leb scan_hex_loop].
  rewrite !hex_digit_hex_char by lia.
  replace (d1 <? 0) with false by lia. replace (d0 <? 0) with false by lia.
  first [reflexivity | f_equal; f_equal; lia | f_equal; lia].
Qed.

Lemma scan_hex_digits4 d3 d2 d1 d0 rest :
  0 <= d3 < 16 -> 0 <= d2 < 16 -> 0 <= d1 < 16 -> 0 <= d0 < 16 ->
  scan_char_escape is_word_char (117 :: hex_char d3 :: hex_char d2 :: hex_char d1 :: hex_char d0 :: rest)
  = Ok (((d3 * 16 + d2) * 16 + d1) * 16 + d0, rest).
Proof.
  clear is_print meta_not_word. intros H3 H2 H1 H0. unfold scan_char_escape. cbn -[hex_char hex_digit Z.mul Z.add].
  unfold scan_hex. cbn [length Nat.leb scan_hex_loop].
  rewrite !hex_digit_hex_char by lia.
  replace (d3 <? 0) with false by lia. replace (d2 <? 0) with false by lia.
  replace (d1 <? 0) with false by lia. replace (d0 <? 0) with false by lia.
  first [reflexivity | f_equal; f_equal; lia | f_equal; lia].
Qed.

(* what Escape writes after the backslash for a rune it rewrites: the rune itself (a metacharacter),
   a letter, xHH or uHHHH *)
Inductive esc_body (r : Z) : list Z -> Prop :=
| eb_meta : zmem r meta = true -> esc_body r [r]
| eb_letter : forall c, In (r, c) [(7, 97); (12, 102); (10, 110); (13, 114); (9, 116); (11, 118)] -> esc_body r [c]
| eb_x : forall d1 d0, 0 <= d1 < 16 -> 0 <= d0 < 16 -> r = d1 * 16 + d0 ->
    esc_body r [120; hex_char d1; hex_char d0]
| eb_u : forall d3 d2 d1 d0, 0 <= d3 < 16 -> 0 <= d2 < 16 -> 0 <= d1 < 16 -> 0 <= d0 < 16 ->
    r = ((d3 * 16 + d2) * 16 + d1) * 16 + d0 ->
    esc_body r [117; hex_char d3; hex_char d2; hex_char d1; hex_char d0].

(* escape.go:19-55 by cases: a rune is copied (printable and no metacharacter, or beyond the BMP), or
   becomes a backslash and one of the bodies above *)
Lemma escape_rune_cases r : valid_rune r ->
  (escape_rune is_print r = [r] /\ (is_raw r = true \/ 65535 < r)) \/
  (exists body, escape_rune is_print r = 92 :: body /\ esc_body r body).
Proof.
  clear is_word_char meta_not_word. intros Hv. unfold valid_rune in Hv. unfold escape_rune, is_raw.
  destruct (is_print r) eqn:Ep.
  - destruct (zmem r meta) eqn:Em.
    + right. exists [r]. split; [reflexivity|]. now apply eb_meta.
    + left. auto.
  - destruct (65535 <? r) eqn:Ebmp.
    { left. replace (r =? 7) with false by lia. replace (r =? 12) with false by lia.
      replace (r =? 10) with false by lia. replace (r =? 13) with false by lia.
      replace (r =? 9) with false by lia. replace (r =? 11) with false by lia.
      replace (r <? 256) with false by lia. split; [reflexivity | lia]. }
    right.
    destruct (r =? 7) eqn:E7. { assert (r = 7) by lia; subst. exists [97]. split; [reflexivity|]. apply eb_letter. cbn. tauto. }
    destruct (r =? 12) eqn:E12. { assert (r = 12) by lia; subst. exists [102]. split; [reflexivity|]. apply eb_letter. cbn. tauto. }
    destruct (r =? 10) eqn:E10. { assert (r = 10) by lia; subst. exists [110]. split; [reflexivity|]. apply eb_letter. cbn. tauto. }
    destruct (r =? 13) eqn:E13. { assert (r = 13) by lia; subst. exists [114]. split; [reflexivity|]. apply eb_letter. cbn. tauto. }
    destruct (r =? 9) eqn:E9. { assert (r = 9) by lia; subst. exists [116]. split; [reflexivity|]. apply eb_letter. cbn. tauto. }
    destruct (r =? 11) eqn:E11. { assert (r = 11) by lia; subst. exists [118]. split; [reflexivity|]. apply eb_letter. cbn. tauto. }
    destruct (r <? 256) eqn:E256.
    + destruct (r <? 16) eqn:E16.
      * rewrite (to_hex_digits 0 r) by (cbn; lia). eexists. split; [reflexivity|]. apply (eb_x r 0); lia.
      * rewrite (to_hex_digits 1 r) by (cbn; lia). eexists. split; [reflexivity|]. apply eb_x; lia.
    + destruct (r <? 4096) eqn:E4096.
      * rewrite (to_hex_digits 2 r) by (cbn; lia). eexists. split; [reflexivity|]. apply (eb_u r 0); lia.
      * rewrite (to_hex_digits 3 r) by (cbn; lia). eexists. split; [reflexivity|]. apply eb_u; lia.
Qed.

Lemma esc_body_scan r body : esc_body r body ->
  body <> [] /\ forall rest, scan_char_escape is_word_char (body ++ rest) = Ok (r, rest).
Proof.
  intros H. split; [destruct H; discriminate|]. intros rest.
  destruct H as [Hm|c Hc|d1 d0 H1 H0 ->|d3 d2 d1 d0 H3 H2 H1 H0 ->]; cbn [app].
  - now apply scan_meta.
  - cbn [In] in Hc. repeat (destruct Hc as [Hc|Hc]; [injection Hc as <- <-; reflexivity|]). destruct Hc.
  - now apply scan_hex_digits2.
  - now apply scan_hex_digits4.
Qed.

Definition no_surrogate (r : Z) : Prop := ~ (55296 <= r <= 57343).

Lemma write_rune_valid r : valid_rune r -> no_surrogate r -> write_rune r = r.
Proof.
  clear is_print is_word_char meta_not_word. unfold valid_rune, no_surrogate, write_rune. intros H1 H2.
  replace ((r <? 0) || (1114111 <? r) || ((55296 <=? r) && (r <=? 57343))) with false by lia.
  reflexivity.
Qed.

(* main induction: what Unescape sees after splitting at the first backslash *)
Lemma unescape_escape_split s :
  Forall (fun r => valid_rune r /\ no_surrogate r) s ->
  forall fuel, (length (escape is_print s) < fuel)%nat ->
  match split_backslash (escape is_print s) with
  | (pre, None) => pre = s
  | (pre, Some p) => exists rest, unescape_loop is_word_char fuel p = Ok rest /\ pre ++ rest = s
  end.
Proof.
  induction s as [|r s IH]; intros Hall fuel Hfuel.
  - reflexivity.
  - inversion Hall as [|x l [Hv Hs] Hall']; subst.
    unfold escape in *. cbn [flat_map] in *.
    destruct (escape_rune_cases r Hv) as [[Hraw Hne] | [body [Hesc Hbody]]].
    + rewrite Hraw in *. cbn [app split_backslash length] in *.
      assert (E92 : (r =? 92) = false).
      { destruct Hne as [Hne|Hne]; [|lia]. apply Z.eqb_neq. intros ->.
        unfold is_raw in Hne. rewrite backslash_in_meta, andb_false_r in Hne. discriminate. }
      rewrite E92.
      specialize (IH Hall' fuel ltac:(lia)).
      destruct (split_backslash (flat_map (escape_rune is_print) s)) as [pre [p|]].
      * destruct IH as [rest [Hrun Heq]]. exists rest. split; [exact Hrun|]. cbn [app]. f_equal. exact Heq.
      * f_equal. exact IH.
    + destruct (esc_body_scan r body Hbody) as [Hnonempty Hscan].
      rewrite Hesc in *. cbn [app split_backslash length] in *.
      exists (r :: s). split; [|reflexivity].
      destruct fuel as [|f]; [lia|]. cbn [unescape_loop].
      assert (Hlen : (length (flat_map (escape_rune is_print) s) < f)%nat).
      { pose proof (app_length body (flat_map (escape_rune is_print) s)) as Hal.
        destruct body; [congruence|]. cbn [length] in *. lia. }
      destruct (body ++ flat_map (escape_rune is_print) s) eqn:Ebody.
      { destruct body; [congruence | discriminate]. }
      rewrite <- Ebody. rewrite Hscan. cbn [bind].
      specialize (IH Hall' f Hlen).
      destruct (split_backslash (flat_map (escape_rune is_print) s)) as [pre [p|]].
      * destruct IH as [rest [Hrun Heq]]. rewrite Hrun. cbn [bind].
        rewrite write_rune_valid by assumption. rewrite Heq. reflexivity.
      * rewrite write_rune_valid by assumption. rewrite IH. reflexivity.
Qed.

Theorem unescape_escape s :
  Forall (fun r => valid_rune r /\ no_surrogate r) s ->
  unescape is_word_char (escape is_print s) = Ok s.
Proof.
  intros Hall. unfold unescape.
  pose proof (unescape_escape_split s Hall (S (length (escape is_print s))) ltac:(lia)) as H.
  destruct (split_backslash (escape is_print s)) as [pre [p|]] eqn:Es.
  - destruct H as [rest [Hrun Heq]]. rewrite Hrun. cbn [bind]. rewrite Heq. reflexivity.
  - (* no backslash at all: Escape changed nothing *)
    subst pre. f_equal.
    clear Hall. revert Es. generalize (escape is_print s) as e. intros e.
    revert s. induction e as [|c e IH]; intros s Es; cbn [split_backslash] in Es.
    + inversion Es. reflexivity.
    + destruct (c =? 92); [discriminate|].
      destruct (split_backslash e) as [a b] eqn:Ee. inversion Es; subst. f_equal. apply (IH a). reflexivity.
Qed.

End Proofs.

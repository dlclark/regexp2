(* The stack limit on programs whose unbounded run is known (C13 corollaries of compile_correct).

   Given, for a start position, the unbounded-stack path to the final Stop (compile_correct_top_partial provides it)
   and the path facts [path_ok] of Proofs/CompileTotal.v, the interpreter with its real stacks under ANY limit L
       - returns the same final state as the unlimited interpreter (every field but the allocated track length),
       - or ErrBacktrackingStackLimit (only when 0 <= L),
       - or runs out of interpreter fuel (only when 1000 * vfuel <= the length of the path);
     it never faults, and it never returns a different state.
   lim_exec      : one execute() call (VM.exec_at)
   lim_find      : the whole accelerator-free scan (VM.vm_find), stack capacities carried from attempt to attempt
   The two ingredients: CompileTotal.tot_real_step (the unlimited real interpreter follows the path) and
   VMCapacityProofs.cp_step_sim / cp_step_inv (the limited interpreter follows the unlimited one or reports the
   limit; no push overflows) -- the latter's control-flow hypothesis is discharged from [path_ok]. *)
From Verif Require Import Base.Prelude Model.Tree Model.Spec Model.VM Model.Writer Gen.RunnerGen
  Proofs.VMLimitProofs Proofs.VMLimitSimProofs Proofs.VMCapacityProofs Proofs.VMU Proofs.VMUBridge
  Proofs.CompileTotal.
From Coq Require Import Relations ZifyBool.

Section Lim.
Variable e : env.
Variable p : program.
Hypothesis tc_nonneg : 0 <= trackcount p.
Hypothesis Hw : cp_need (codes p) 0 <= trackcount p * G_ensure_factor.
Variable L : Z.

Lemma lim_HL : lim_le L (-1). Proof. left. lia. Qed.
Lemma lim_m1 : -1 < 0. Proof. lia. Qed.

(* the unbounded attempt from start state [a]: [n] steps to the state that executes Stop *)
Definition attempt_path (a : vm) (n : nat) (sd sd' : vm) : Prop :=
  path_ok e p a /\ ustepsN e p n a sd /\ ustep e p sd = Ok (Done sd').

(* limited state s1 and unlimited state s2, in step, s2 on the path with n steps to go *)
Definition good_pair (n : nat) (sd : vm) (s1 s2 : vm) : Prop :=
  simrel L s1 s2 /\ cp_inv p s1 /\ tinv p s2 /\ path_ok e p (norm s2) /\ ustepsN e p n (norm s2) sd.

Lemma lim_pc s1 s2 : simrel L s1 s2 -> pc s1 = pc s2.
Proof. intros [HE _]. unfold eqv in HE. tauto. Qed.

(* without a limit the two sides are the same machine: the limit error needs 0 <= L *)
Lemma lim_neg_same s1 s2 : L < 0 -> simrel L s1 s2 -> tinv p s2 -> tinv p s1 /\ norm s1 = norm s2.
Proof.
  intros HLn [HE HT] Hi. destruct HT as [HT|HT]; [|lia].
  unfold eqv in HE. destruct HE as (H1 & H2 & H3 & H4 & H5 & H6 & H7 & H8). split.
  - unfold tinv, tfree in *. rewrite H1, H4, H6, HT. exact Hi.
  - unfold norm. rewrite H1, H2, H3, H4, H5, H7, H8. reflexivity.
Qed.

Lemma lim_step_err s1 s2 o : simrel L s1 s2 -> tinv p s2 -> st_good p (norm s2) ->
  ustep e p (norm s2) = Ok o -> (match o with Next _ | Done _ => True | _ => False end) ->
  step e p L s1 = Err E_StackLimit -> 0 <= L.
Proof.
  intros HR Hi Hg Ho Hk E. destruct (Z.lt_ge_cases L 0) as [HLn|HLp]; [exfalso|exact HLp].
  destruct (lim_neg_same s1 s2 HLn HR Hi) as [Hi1 Hn]. rewrite <- Hn in Hg, Ho.
  destruct (tot_real_step e p tc_nonneg Hw L HLn s1 Hi1 Hg) as [G1 G2].
  destruct o as [b|b|c|w]; try contradiction.
  - destruct (G1 b Ho) as (a & Ea & _). congruence.
  - destruct (G2 b Ho) as (a & Ea & _). congruence.
Qed.

Lemma lim_step_next n sd s1 s2 b : good_pair (S n) sd s1 s2 ->
  ustep e p (norm s2) = Ok (Next b) -> ustepsN e p n b sd ->
  (step e p L s1 = Err E_StackLimit /\ 0 <= L) \/
  exists a1 a2, step e p L s1 = Ok (Next a1) /\ step e p (-1) s2 = Ok (Next a2) /\ good_pair n sd a1 a2.
Proof.
  intros (HR & Hc & Hi & Hp & _) Hb Hn.
  pose proof (Hp _ (usteps_refl e p _)) as Hg. pose proof Hg as Hg0.
  destruct (tot_real_step e p tc_nonneg Hw (-1) lim_m1 s2 Hi Hg) as [G _].
  destruct (G b Hb) as (a2 & E2 & Ha2 & Hi2).
  destruct Hg as [[w Hbd] _]. cbn [norm VMU.mk pc] in Hbd. rewrite <- (lim_pc s1 s2 HR) in Hbd.
  pose proof (cp_step_sim e p L (-1) lim_HL s1 s2 w Hbd Hc HR) as S. rewrite E2 in S.
  destruct S as [S|S]; [left; split; [exact S|]; eapply (lim_step_err s1 s2 (Next b)); try eassumption; exact I|]. right.
  destruct (step e p L s1) as [o1| | |] eqn:E1; try contradiction.
  destruct o1 as [a1|a1|c|w0]; cbn [out_rel] in S; try contradiction.
  exists a1, a2. split; [reflexivity|]. split; [exact E2|].
  split; [exact S|]. split.
  { change (cp_out_inv p (Next a1)). eapply cp_step_inv; [exact Hw|exact Hbd|exact Hc|exact E1]. }
  split; [exact Hi2|]. rewrite Ha2. split; [eapply path_ok_step; eassumption|exact Hn].
Qed.

Lemma lim_step_done sd sd' s1 s2 : good_pair 0 sd s1 s2 -> ustep e p sd = Ok (Done sd') ->
  (step e p L s1 = Err E_StackLimit /\ 0 <= L) \/
  exists a1 a2, step e p L s1 = Ok (Done a1) /\ step e p (-1) s2 = Ok (Done a2) /\
                simrel L a1 a2 /\ norm a2 = sd' /\ tinv p a2.
Proof.
  intros (HR & Hc & Hi & Hp & Hn) Hd. inversion Hn; subst.
  pose proof (Hp _ (usteps_refl e p _)) as Hg. pose proof Hg as Hg0.
  destruct (tot_real_step e p tc_nonneg Hw (-1) lim_m1 s2 Hi Hg) as [_ G].
  destruct (G sd' Hd) as (a2 & E2 & Ha2 & Hi2).
  destruct Hg as [[w Hbd] _]. cbn [norm VMU.mk pc] in Hbd. rewrite <- (lim_pc s1 s2 HR) in Hbd.
  pose proof (cp_step_sim e p L (-1) lim_HL s1 s2 w Hbd Hc HR) as S. rewrite E2 in S.
  destruct S as [S|S]; [left; split; [exact S|]; eapply (lim_step_err s1 s2 (Done sd')); try eassumption; exact I|]. right.
  destruct (step e p L s1) as [o1| | |] eqn:E1; try contradiction.
  destruct o1 as [a1|a1|c|w0]; cbn [out_rel] in S; try contradiction.
  exists a1, a2. split; [reflexivity|]. split; [exact E2|]. split; [exact S|]. split; [exact Ha2|exact Hi2].
Qed.

(* outcome of k steps of both machines *)
Definition steps_out (n : nat) (sd sd' : vm) (k : nat) (r1 r2 : res (vm * bool)) : Prop :=
  (r1 = Err E_StackLimit /\ 0 <= L) \/
  (((n < k)%nat -> exists s1' s2', r1 = Ok (s1', true) /\ r2 = Ok (s2', true) /\
                     simrel L s1' s2' /\ norm s2' = sd' /\ tinv p s2') /\
   ((k <= n)%nat -> exists s1' s2', r1 = Ok (s1', false) /\ r2 = Ok (s2', false) /\ good_pair (n - k) sd s1' s2')).

Lemma lim_run_steps : forall n sd sd' s1 s2, good_pair n sd s1 s2 -> ustep e p sd = Ok (Done sd') ->
  forall k, steps_out n sd sd' k (run_steps e p L k s1) (run_steps e p (-1) k s2).
Proof.
  induction n as [|n IH]; intros sd sd' s1 s2 Hgp Hd k.
  - destruct k as [|k].
    + right. split; [lia|]. intros _. exists s1, s2. split; [reflexivity|]. split; [reflexivity|]. exact Hgp.
    + cbn [run_steps]. destruct (lim_step_done sd sd' s1 s2 Hgp Hd) as [[E HL0]|(a1 & a2 & E1 & E2 & HR & Hn & Hi)].
      * left. rewrite E. split; [reflexivity|exact HL0].
      * right. rewrite E1, E2. split; [|lia]. intros _. exists a1, a2. split; [reflexivity|]. split; [reflexivity|]. split; [exact HR|]. split; [exact Hn|exact Hi].
  - destruct k as [|k].
    + right. split; [lia|]. intros _. exists s1, s2. split; [reflexivity|]. split; [reflexivity|]. exact Hgp.
    + cbn [run_steps]. pose proof Hgp as (_ & _ & _ & _ & Hn). inversion Hn as [|n0 a b c Hab Hbc]; subst.
      destruct (lim_step_next n sd s1 s2 b Hgp Hab Hbc) as [[E HL0]|(a1 & a2 & E1 & E2 & Hgp')].
      * left. rewrite E. split; [reflexivity|exact HL0].
      * rewrite E1, E2. destruct (IH sd sd' a1 a2 Hgp' Hd k) as [E|[I1 I2]]; [left; exact E|].
        right. split.
        -- intros Hk. apply I1. lia.
        -- intros Hk. replace (S n - S k)%nat with (n - k)%nat by lia. apply I2. lia.
Qed.

Definition run_out (n : nat) (sd' : vm) (fuel : nat) (r1 r2 : res vm) : Prop :=
  (r1 = Err E_StackLimit /\ 0 <= L) \/
  (((n < 1000 * fuel)%nat -> exists s1' s2', r1 = Ok s1' /\ r2 = Ok s2' /\
                               simrel L s1' s2' /\ norm s2' = sd' /\ tinv p s2') /\
   ((1000 * fuel <= n)%nat -> r1 = Fuel /\ r2 = Fuel)).

Lemma lim_run : forall fuel n sd sd' s1 s2, good_pair n sd s1 s2 -> ustep e p sd = Ok (Done sd') ->
  run_out n sd' fuel (run e p L fuel s1) (run e p (-1) fuel s2).
Proof.
  induction fuel as [|f IH]; intros n sd sd' s1 s2 Hgp Hd.
  - right. split; [lia|]. intros _. split; reflexivity.
  - cbn [run]. pose proof (lim_run_steps n sd sd' s1 s2 Hgp Hd 1000) as [[E HL0]|[R1 R2]].
    + left. rewrite E. split; [reflexivity|exact HL0].
    + pose proof (Nat.lt_ge_cases n 1000) as [Hlt|Hge].
      * pose proof (R1 Hlt) as (a1 & a2 & E1 & E2 & HR & Hn & Hi). rewrite E1, E2. cbn [bind fst snd].
        right. split; [|lia]. intros _. exists a1, a2. split; [reflexivity|]. split; [reflexivity|]. split; [exact HR|]. split; [exact Hn|exact Hi].
      * pose proof (R2 Hge) as (a1 & a2 & E1 & E2 & Hgp'). rewrite E1, E2. cbn [bind fst snd].
        pose proof (IH (n - 1000)%nat sd sd' a1 a2 Hgp' Hd) as [E|[J1 J2]]; [left; exact E|].
        right. split.
        -- intros Hc. apply J1. lia.
        -- intros Hc. apply J2. lia.
Qed.

(* a fresh attempt at text position t with the stack capacities of the carrier state c: what vm_scan_from
   builds for each attempt (the same record as VMCapacityProofs.attempt_start) *)
Definition fresh (c : vm) (t : Z) : vm :=
  {| pc := 0; mode := 0; tp := t; track := []; tcap := tcap c; stack := []; scap := scap c;
     crawl := []; mcaps := repeat [] (Z.to_nat (capsize p)) |}.
(* ... and its image in the unbounded machine of Proofs/VMU.v, where the attempt paths live *)
Definition a0 (t : Z) : vm := VMU.mk 0 0 t [] [] [] (repeat [] (Z.to_nat (capsize p))).

Definition carrier_ok (c : vm) : Prop := VMUBridge.need p <= tcap c /\ sinit p <= scap c.

Lemma lim_tinv_carrier s : tinv p s -> carrier_ok s.
Proof. intros (_ & H1 & H2). split; assumption. Qed.

Lemma lim_goto0 c1 c2 t w0 n sd sd' : code_at p 0 = Some w0 ->
  simrel L c1 c2 -> carrier_ok c2 -> attempt_path (a0 t) n sd sd' ->
  (goto p L (fresh c1 t) 0 = Err E_StackLimit /\ 0 <= L) \/
  exists s1 s2, goto p L (fresh c1 t) 0 = Ok s1 /\ goto p (-1) (fresh c2 t) 0 = Ok s2 /\ good_pair n sd s1 s2.
Proof.
  intros H0 HR [Hc1 Hc2] (Hp & Hn & Hd).
  assert (HRf : simrel L (fresh c1 t) (fresh c2 t)).
  { destruct HR as [HE HT]. unfold eqv in HE. unfold simrel, eqv, fresh. vm_cbn. repeat split; tauto. }
  (* the unlimited side: capacities suffice, nothing grows *)
  assert (E2 : goto p (-1) (fresh c2 t) 0 = Ok (set_pc (fresh c2 t) 0 0)).
  { assert (Een : ensure_storage p (-1) (fresh c2 t) = Ok (fresh c2 t)).
    { unfold ensure_storage.
      change (scap (fresh c2 t)) with (scap c2). change (stack (fresh c2 t)) with (@nil Z).
      change (zlen (@nil Z)) with 0.
      unfold VMUBridge.need in Hc1. pose proof (sinit_nonneg p).
      assert (Hs : trackcount p * G_ensure_factor <= scap c2).
      { unfold sinit, G_stacksize_mul, G_stacksize_min, G_ensure_factor in *. lia. }
      replace (scap c2 - 0 <? trackcount p * G_ensure_factor) with false by lia. cbv iota.
      change (tcap (fresh c2 t)) with (tcap c2). change (track (fresh c2 t)) with (@nil Z).
      change (zlen (@nil Z)) with 0.
      replace (tcap c2 - 0 <? trackcount p * G_ensure_factor) with false by lia. reflexivity. }
    unfold goto. change (pc (fresh c2 t)) with 0. change (0 <=? 0) with true. cbv iota.
    rewrite Een. cbn [bind]. rewrite H0. reflexivity. }
  pose proof (sim_goto p L (-1) lim_HL (fresh c1 t) (fresh c2 t) 0 HRf) as S. unfold cont in S. rewrite E2 in S.
  destruct (goto p L (fresh c1 t) 0) as [s1| | |] eqn:E1; cbn [bind] in S.
  - destruct S as [S|S]; [discriminate|]. cbn [out_rel] in S. right.
    exists s1, (set_pc (fresh c2 t) 0 0). split; [reflexivity|]. split; [exact E2|].
    split; [exact S|]. split.
    { eapply cp_inv_goto_back; [exact Hw| |exact E1]. cbn [fresh pc]. lia. }
    split.
    { unfold tinv, tfree. cbn [fresh set_pc pc tcap track scap]. change (zlen (@nil Z)) with 0.
      unfold VMUBridge.need in *. repeat split; lia. }
    change (norm (set_pc (fresh c2 t) 0 0)) with (a0 t). split; assumption.
  - destruct S as [S|S]; [|contradiction]. left. injection S as ->. split; [reflexivity|].
    destruct (Z.lt_ge_cases L 0) as [HLn|HLp]; [exfalso|exact HLp].
    (* no limit: the limited side is the unlimited one *)
    assert (Ht : tcap c1 = tcap c2) by (destruct HR as [_ [HT|HT]]; [exact HT|lia]).
    assert (Hsc : scap c1 = scap c2) by (destruct HR as [HE _]; unfold eqv in HE; tauto).
    revert E1. unfold goto. change (pc (fresh c1 t)) with 0. change (0 <=? 0) with true. cbv iota.
    unfold ensure_storage.
    change (scap (fresh c1 t)) with (scap c1). change (stack (fresh c1 t)) with (@nil Z).
    change (zlen (@nil Z)) with 0.
    unfold VMUBridge.need in Hc1. pose proof (sinit_nonneg p).
    assert (Hs : trackcount p * G_ensure_factor <= scap c2).
    { unfold sinit, G_stacksize_mul, G_stacksize_min, G_ensure_factor in *. lia. }
    replace (scap c1 - 0 <? trackcount p * G_ensure_factor) with false by lia. cbv iota.
    change (tcap (fresh c1 t)) with (tcap c1). change (track (fresh c1 t)) with (@nil Z).
    change (zlen (@nil Z)) with 0.
    replace (tcap c1 - 0 <? trackcount p * G_ensure_factor) with false by lia.
    cbn [bind]. rewrite H0. discriminate.
  - destruct S as [S|S]; [discriminate|contradiction].
  - destruct S as [S|S]; [discriminate|contradiction].
Qed.

Theorem lim_exec t w0 n sd sd' : code_at p 0 = Some w0 -> attempt_path (a0 t) n sd sd' ->
  forall vfuel, run_out n sd' vfuel (exec_at e p L vfuel t) (exec_at e p (-1) vfuel t).
Proof.
  intros H0 Hap vfuel. unfold exec_at.
  assert (HR : simrel L (init_vm p L t) (init_vm p (-1) t)) by (apply sim_init; exact lim_HL).
  assert (Hc : carrier_ok (init_vm p (-1) t)).
  { unfold carrier_ok, VMUBridge.need, sinit, init_vm, G_ensure_factor, G_tracksize_mul, G_tracksize_min. cbn [tcap scap].
    change ((0 <=? -1) && _) with false. cbv iota. split; lia. }
  change (goto p L (init_vm p L t) 0) with (goto p L (fresh (init_vm p L t) t) 0).
  change (goto p (-1) (init_vm p (-1) t) 0) with (goto p (-1) (fresh (init_vm p (-1) t) t) 0).
  destruct (lim_goto0 _ _ t w0 n sd sd' H0 HR Hc Hap) as [[E HL0]|(s1 & s2 & E1 & E2 & Hgp)].
  - left. rewrite E. split; [reflexivity|exact HL0].
  - rewrite E1, E2. cbn [bind]. destruct Hap as (_ & _ & Hd). apply (lim_run vfuel n sd sd' s1 s2 Hgp Hd).
Qed.

Definition all_paths : Prop := forall t, 0 <= t <= tlen e -> exists n sd sd', attempt_path (a0 t) n sd sd'.

Definition scan_out (r1 r2 : res (option vm)) : Prop :=
  (r1 = Err E_StackLimit /\ 0 <= L) \/
  match r1, r2 with
  | Ok a, Ok b => opt_rel (simrel L) a b
  | Fuel, Fuel => True
  | _, _ => False
  end.

Lemma lim_scan w0 fuel : code_at p 0 = Some w0 -> all_paths ->
  forall n rtl c1 c2 t, simrel L c1 c2 -> carrier_ok c2 -> 0 <= t <= tlen e ->
  scan_out (vm_scan_from e p L fuel n rtl c1 t) (vm_scan_from e p (-1) fuel n rtl c2 t).
Proof.
  intros H0 Hall. induction n as [|n IH]; intros rtl c1 c2 t HR Hc Ht; cbn [vm_scan_from].
  - right. exact I.
  - destruct (Hall t Ht) as (k & sd & sd' & Hap).
    change {| pc := 0; mode := 0; tp := t; track := []; tcap := tcap c1; stack := []; scap := scap c1;
              crawl := []; mcaps := repeat [] (Z.to_nat (capsize p)) |} with (fresh c1 t).
    change {| pc := 0; mode := 0; tp := t; track := []; tcap := tcap c2; stack := []; scap := scap c2;
              crawl := []; mcaps := repeat [] (Z.to_nat (capsize p)) |} with (fresh c2 t).
    destruct (lim_goto0 c1 c2 t w0 k sd sd' H0 HR Hc Hap) as [[E HL0]|(s1 & s2 & E1 & E2 & Hgp)].
    + left. rewrite E. split; [reflexivity|exact HL0].
    + rewrite E1, E2. cbn [bind]. destruct Hap as (_ & _ & Hd).
      destruct (lim_run fuel k sd sd' s1 s2 Hgp Hd) as [[E HL0]|[J1 J2]].
      * left. rewrite E. split; [reflexivity|exact HL0].
      * pose proof (Nat.lt_ge_cases k (1000 * fuel)) as [Hlt|Hge].
        -- pose proof (J1 Hlt) as (a1 & a2 & Ea1 & Ea2 & HRa & _ & Hia). rewrite Ea1, Ea2. cbn [bind].
           assert (Hm : matched0 a1 = matched0 a2).
           { unfold matched0. destruct HRa as [HE _]. unfold eqv in HE.
             replace (mcaps a2) with (mcaps a1) by tauto. reflexivity. }
           rewrite <- Hm. destruct (matched0 a1).
           ++ right. exact HRa.
           ++ destruct (if rtl then t <=? 0 else tlen e <=? t) eqn:Eend; [right; exact I|].
              apply IH; [exact HRa|apply lim_tinv_carrier; exact Hia|].
              destruct rtl; lia.
        -- pose proof (J2 Hge) as [-> ->]. right. exact I.
Qed.

Theorem lim_find w0 fuel rtl start prevlen : code_at p 0 = Some w0 -> all_paths -> 0 <= start <= tlen e ->
  scan_out (vm_find e p L fuel rtl start prevlen) (vm_find e p (-1) fuel rtl start prevlen).
Proof.
  intros H0 Hall Hs. unfold vm_find.
  destruct ((prevlen =? 0) && (start =? (if rtl then 0 else tlen e))) eqn:E; [right; exact I|].
  apply (lim_scan w0 fuel H0 Hall).
  - apply sim_init. exact lim_HL.
  - unfold carrier_ok, VMUBridge.need, sinit, init_vm, G_ensure_factor, G_tracksize_mul, G_tracksize_min. cbn [tcap scap].
    change ((0 <=? -1) && _) with false. cbv iota. split; lia.
  - destruct (prevlen =? 0); cbn [andb] in E; [|exact Hs]. destruct rtl; lia.
Qed.

End Lim.

(* ---------- a decidable monitor for [attempt_path] ----------
   [mon_steps k a] runs the unbounded-stack interpreter from [a] for at most k steps and checks, at every state,
   that the pc is an instruction boundary and the grouping stack is two words below its initial size.  It returns
   the number of steps to the final Stop.  A successful check IS the hypothesis of lim_exec / exec_total, so on a
   concrete program and input the hypothesis can be discharged by computation (and the harness leg c01-frag
   reports how often it holds on real programs). *)
Section Mon.
Variable e : env.
Variable p : program.

Definition bnd_b (c : Z) : bool := existsb (fun co => fst co =? c) (cp_dec (codes p)).
Definition st_good_b (s : vm) : bool := bnd_b (pc s) && (zlen (stack s) + 2 <=? sinit p).

Fixpoint mon_steps (k : nat) (s : vm) : option nat :=
  match k with
  | O => None
  | S k' =>
      if st_good_b s then
        match ustep e p s with
        | Ok (Next s') => match mon_steps k' s' with Some n => Some (S n) | None => None end
        | Ok (Done _) => Some O
        | _ => None
        end
      else None
  end.

Lemma bnd_b_sound c : bnd_b c = true -> bnd p c.
Proof.
  unfold bnd_b, bnd. intros H. apply existsb_exists in H. destruct H as ([c' op] & Hin & E).
  cbn [fst] in E. apply Z.eqb_eq in E. subst c'. exists op. exact Hin.
Qed.

Lemma st_good_b_sound s : st_good_b s = true -> st_good p s.
Proof.
  unfold st_good_b, st_good. intros H. apply andb_prop in H. destruct H as [H1 H2].
  split; [apply bnd_b_sound; exact H1|lia].
Qed.

Lemma mon_sound : forall k a n, mon_steps k a = Some n -> exists sd sd', attempt_path e p a n sd sd'.
Proof.
  induction k as [|k IH]; intros a n H; [discriminate|]. cbn [mon_steps] in H.
  destruct (st_good_b a) eqn:Eg; [|discriminate]. apply st_good_b_sound in Eg.
  destruct (ustep e p a) as [[a'|a'|c|w]| | |] eqn:Eu; try discriminate.
  - destruct (mon_steps k a') as [m|] eqn:Em; [|discriminate]. injection H as <-.
    destruct (IH a' m Em) as (sd & sd' & Hp & Hn & Hd). exists sd, sd'. split; [|split; [|exact Hd]].
    + intros s Hs. apply clos_rt_rt1n in Hs. inversion Hs as [|y z Hay Hyz]; subst; [exact Eg|].
      unfold ustep1 in Hay. rewrite Eu in Hay. injection Hay as <-. apply Hp. apply clos_rt1n_rt. exact Hyz.
    + econstructor; [exact Eu|exact Hn].
  - injection H as <-. exists a, a'. split; [|split; [constructor|exact Eu]].
    intros s Hs. apply clos_rt_rt1n in Hs. inversion Hs as [|y z Hay Hyz]; subst; [exact Eg|].
    unfold ustep1 in Hay. rewrite Eu in Hay. discriminate.
Qed.

End Mon.

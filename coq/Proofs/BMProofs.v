(* C03: the Boyer-Moore prefix machine (Model/BM.v = syntax/prefix.go newBmPrefix / Scan / IsMatch) never
   skips an occurrence.

   1. table invariants proved of newBmPrefix's construction:
        [bmp_pos_ok]  positive[i] is a legal shift: 1 <= |positive[i]| <= distance of i to the far end of the
                      pattern, with the sign of the scan direction, and NO shift s smaller than it is viable
                      (viable = the pattern moved by s agrees with its own matched tail and differs at i);
        [bmp_neg_ok]  the bad-character advance looked up for a rune c is the distance from the tail of the
                      pattern to the occurrence of c nearest to the tail (the whole length when c does not
                      occur), for EVERY non-negative rune, through the ASCII array or the unicode rows;
      both directions, the case-insensitive constructor included (it works on the lower-cased pattern).
   2. Scan: a returned position is an occurrence inside the window, none lies before it in scan
      direction; -1 means there is none ([bmp_scan_sound]); no fault and no fuel exhaustion on texts of
      non-negative runes ([bmp_scan_total]).  IsMatch = "an occurrence at this position".
   3. the facts findFirstCharDefault needs ([fd_bm_scan_fact], the IsMatch hypothesis of fd_default_H1). *)
From Coq Require Import ZifyBool.
From Verif Require Import Base.Prelude Model.Scan Model.Finder Model.BM Proofs.ScanProofs Proofs.FinderProofs.

From Verif Require Import Proofs.ListFacts.
Definition bm_gz (l : list Z) (i : Z) : Z := nth (Z.to_nat i) l 0.

Lemma bmp_at_Ok : forall l i x, bm_at l i = Ok x -> 0 <= i < zlen l /\ bm_gz l i = x.
Proof.
  intros l i x H. unfold bm_at, znth in H. destruct (i <? 0) eqn:E; [discriminate|].
  destruct (nth_error l (Z.to_nat i)) as [y|] eqn:En; [|discriminate]. inversion H; subst y.
  split.
  - assert (Hlt : (Z.to_nat i < length l)%nat) by (apply nth_error_Some; rewrite En; discriminate).
    unfold zlen. lia.
  - unfold bm_gz. exact (nth_error_nth l _ 0 En).
Qed.

Lemma bmp_at_in : forall l i, 0 <= i < zlen l -> bm_at l i = Ok (bm_gz l i).
Proof.
  intros l i H. unfold bm_at, znth. destruct (i <? 0) eqn:E; [lia|].
  assert (Hlt : (Z.to_nat i < length l)%nat) by (unfold zlen in H; lia).
  unfold bm_gz. rewrite (nth_error_nth' l 0 Hlt). reflexivity.
Qed.

Lemma bmp_at_not_fuel : forall l i, bm_at l i <> Fuel.
Proof. intros l i. unfold bm_at. destruct (znth l i); discriminate. Qed.

Lemma bmp_set_nat_length : forall l k v, length (bm_set_nat l k v) = length l.
Proof. induction l as [|x l IH]; intros [|k] v; cbn; auto. Qed.

Lemma bmp_set_nat_nth : forall l k v j, (k < length l)%nat ->
  nth j (bm_set_nat l k v) 0 = if Nat.eqb j k then v else nth j l 0.
Proof.
  induction l as [|x l IH]; intros k v j Hk; [cbn in Hk; lia|].
  destruct k as [|k]; destruct j as [|j]; cbn; try reflexivity.
  apply IH. cbn in Hk. lia.
Qed.

Lemma bmp_set_Ok : forall l i v l', bm_set l i v = Ok l' ->
  0 <= i < zlen l /\ zlen l' = zlen l /\
  forall k, 0 <= k -> bm_gz l' k = if k =? i then v else bm_gz l k.
Proof.
  intros l i v l' H. unfold bm_set in H. destruct ((0 <=? i) && (i <? zlen l)) eqn:E; [|discriminate].
  inversion H; subst l'. split; [lia|]. split.
  - unfold zlen. rewrite bmp_set_nat_length. reflexivity.
  - intros k Hk. unfold bm_gz. rewrite bmp_set_nat_nth by (unfold zlen in E; lia).
    destruct (Nat.eqb (Z.to_nat k) (Z.to_nat i)) eqn:E1; destruct (k =? i) eqn:E2; try reflexivity.
    + apply Nat.eqb_eq in E1. lia.
    + apply Nat.eqb_neq in E1. assert (k = i) by lia. subst. lia.
Qed.

Lemma bmp_set_in : forall l i v, 0 <= i < zlen l -> exists l', bm_set l i v = Ok l'.
Proof. intros l i v H. unfold bm_set. replace ((0 <=? i) && (i <? zlen l)) with true by lia. eauto. Qed.

Lemma bmp_repeat_nth : forall (x : Z) k j, (j < k)%nat -> nth j (repeat x k) 0 = x.
Proof. induction k as [|k IH]; intros j H; [lia|]. destruct j; cbn; [reflexivity|]. apply IH. lia. Qed.

Lemma bmp_repeat_gz : forall (x : Z) k i, 0 <= i < Z.of_nat k -> bm_gz (repeat x k) i = x.
Proof. intros x k i H. unfold bm_gz. apply bmp_repeat_nth. lia. Qed.

Section PosProofs.
Variable pat : list Z.
Local Notation M := (zlen pat).

Definition bmp_p (i : Z) : Z := bm_gz pat i.
(* k lies strictly between i and the tail end of the pattern (the end compared first), tail included *)
Definition bmp_beyond (rtl : bool) (i k : Z) : Prop := if rtl then 0 <= k < i else i < k < M.
(* moving the pattern by s (in scan direction) is compatible with "the tail beyond i matched the text and
   the text differs from the pattern at i" *)
Definition bmp_viable (rtl : bool) (i s : Z) : Prop :=
  0 <= i - s * bm_bump rtl < M /\ bmp_p (i - s * bm_bump rtl) <> bmp_p i /\
  forall k, bmp_beyond rtl i k -> bmp_p (k - s * bm_bump rtl) = bmp_p k.

Definition bmp_pos_ok (rtl : bool) (pos : list Z) : Prop :=
  zlen pos = M /\
  forall i, 0 <= i < M ->
    1 <= bm_gz pos i * bm_bump rtl <= (i - bm_bf rtl M) * bm_bump rtl /\
    forall s, 1 <= s < bm_gz pos i * bm_bump rtl -> ~ bmp_viable rtl i s.

(* what depends on the direction, laid open for [destruct rtl; lia] *)
Ltac bmp_dir := unfold bm_last, bm_bf, bm_bump, bmp_beyond in *.

Lemma bmp_pos_stop : forall pos mtch val, zlen pos = M -> 0 <= mtch < M ->
  exists pos',
    (do v <- bm_at pos mtch ; if v =? 0 then bm_set pos mtch val else Ok pos) = Ok pos' /\ zlen pos' = M /\
    forall k, 0 <= k < M -> bm_gz pos' k = if (k =? mtch) && (bm_gz pos mtch =? 0) then val else bm_gz pos k.
Proof.
  intros pos mtch val Hl Hm. rewrite bmp_at_in by lia. cbn [bind].
  destruct (bm_gz pos mtch =? 0) eqn:E.
  - destruct (bmp_set_in pos mtch val ltac:(lia)) as [pos' Hs]. exists pos'. split; [exact Hs|].
    destruct (bmp_set_Ok _ _ _ _ Hs) as (_ & Hl' & Hg). split; [lia|].
    intros k Hk. rewrite Hg by lia. rewrite andb_true_r. reflexivity.
  - exists pos. split; [reflexivity|]. split; [exact Hl|]. intros k Hk. rewrite andb_false_r. reflexivity.
Qed.

Lemma bmp_pos_match_spec : forall rtl fuel mtch scn pos S,
  1 <= S -> mtch - scn = S * bm_bump rtl -> 0 <= mtch < M ->
  (scn = bm_bf rtl M \/ 0 <= scn < M) -> zlen pos = M ->
  (forall k, bmp_beyond rtl mtch k -> bmp_p (k - S * bm_bump rtl) = bmp_p k) ->
  (Z.to_nat ((scn - bm_bf rtl M) * bm_bump rtl) < fuel)%nat ->
  exists i0 pos',
    bm_pos_match pat (bm_bf rtl M) (bm_bump rtl) fuel mtch scn pos = Ok pos' /\
    0 <= i0 < M /\ zlen pos' = M /\
    (forall k, bmp_beyond rtl i0 k -> bmp_p (k - S * bm_bump rtl) = bmp_p k) /\
    (i0 - S * bm_bump rtl = bm_bf rtl M \/
     (0 <= i0 - S * bm_bump rtl < M /\ bmp_p (i0 - S * bm_bump rtl) <> bmp_p i0)) /\
    (forall k, 0 <= k < M ->
       bm_gz pos' k = if (k =? i0) && (bm_gz pos i0 =? 0) then S * bm_bump rtl else bm_gz pos k).
Proof.
  intros rtl fuel. induction fuel as [|f IH]; intros mtch scn pos S HS Hd Hm Hs Hl Hb Hf; [lia|].
  cbn [bm_pos_match].
  destruct (scn =? bm_bf rtl M) eqn:Ebf.
  - cbn [bind].
    destruct (bmp_pos_stop pos mtch (mtch - scn) Hl Hm) as (pos' & Hr & Hl' & Hg).
    exists mtch, pos'. split; [exact Hr|]. split; [exact Hm|]. split; [exact Hl'|]. split; [exact Hb|].
    split; [left; lia|]. intros k Hk. rewrite (Hg k Hk). rewrite Hd. reflexivity.
  - assert (Hs' : 0 <= scn < M) by (destruct Hs; lia).
    rewrite (bmp_at_in pat mtch) by lia. cbn [bind]. rewrite (bmp_at_in pat scn) by lia. cbn [bind].
    destruct (bm_gz pat mtch =? bm_gz pat scn) eqn:Eab; cbn [negb].
    + (* the match goes on *)
      apply (IH (mtch - bm_bump rtl) (scn - bm_bump rtl) pos S HS).
      * lia.
      * bmp_dir. destruct rtl; lia.
      * bmp_dir. destruct rtl; lia.
      * exact Hl.
      * intros k Hk. assert (Hc : k = mtch \/ bmp_beyond rtl mtch k) by (bmp_dir; destruct rtl; lia).
        destruct Hc as [->|Hc]; [|exact (Hb k Hc)].
        replace (mtch - S * bm_bump rtl) with scn by lia. unfold bmp_p. lia.
      * bmp_dir. destruct rtl; lia.
    + destruct (bmp_pos_stop pos mtch (mtch - scn) Hl Hm) as (pos' & Hr & Hl' & Hg).
      exists mtch, pos'. split; [exact Hr|]. split; [exact Hm|]. split; [exact Hl'|]. split; [exact Hb|].
      split.
      * right. replace (mtch - S * bm_bump rtl) with scn by lia. split; [exact Hs'|]. unfold bmp_p. lia.
      * intros k Hk. rewrite (Hg k Hk). rewrite Hd. reflexivity.
Qed.

(* the compare-with-the-tail loop stops at the ONLY index for which the shift S is viable *)
Lemma bmp_viable_unique : forall rtl S i0 i, 1 <= S -> 0 <= i0 < M ->
  (forall k, bmp_beyond rtl i0 k -> bmp_p (k - S * bm_bump rtl) = bmp_p k) ->
  (i0 - S * bm_bump rtl = bm_bf rtl M \/
   (0 <= i0 - S * bm_bump rtl < M /\ bmp_p (i0 - S * bm_bump rtl) <> bmp_p i0)) ->
  0 <= i < M -> bmp_viable rtl i S -> i = i0.
Proof.
  intros rtl S i0 i HS Hi0 Hb Hstop Hi (Hv1 & Hv2 & Hv3).
  destruct (Z.eq_dec i i0) as [|Hne]; [assumption|exfalso].
  assert (Hc : bmp_beyond rtl i i0 \/ bmp_beyond rtl i0 i) by (bmp_dir; destruct rtl; lia).
  destruct Hc as [Hc|Hc].
  - specialize (Hv3 i0 Hc). destruct Hstop as [Hst|[_ Hst]]; [|contradiction].
    bmp_dir. destruct rtl; lia.
  - specialize (Hb i Hc). contradiction.
Qed.

Definition bmp_pos_inv (rtl : bool) (Sv : Z) (pos : list Z) : Prop :=
  zlen pos = M /\ bm_gz pos (bm_last rtl M) = bm_bump rtl /\
  (forall i, 0 <= i < M ->
     bm_gz pos i = 0 \/
     (1 <= bm_gz pos i * bm_bump rtl <= (i - bm_bf rtl M) * bm_bump rtl /\ bm_gz pos i * bm_bump rtl <= Sv)) /\
  (forall i s, 0 <= i < M -> 1 <= s < Sv -> bmp_viable rtl i s ->
     bm_gz pos i <> 0 /\ bm_gz pos i * bm_bump rtl <= s).

Lemma bmp_pos_outer_spec : forall rtl fuel Sv examine pos,
  1 <= M -> examine = bm_last rtl M - Sv * bm_bump rtl -> 1 <= Sv <= M ->
  bmp_pos_inv rtl Sv pos -> (Z.to_nat (M - Sv) < fuel)%nat ->
  exists pos',
    bm_pos_outer pat (bm_last rtl M) (bm_bf rtl M) (bm_bump rtl) (bmp_p (bm_last rtl M)) fuel examine pos = Ok pos' /\
    bmp_pos_inv rtl M pos'.
Proof.
  intros rtl fuel. induction fuel as [|f IH]; intros Sv examine pos HM He HSv Hinv Hf; [lia|].
  cbn [bm_pos_outer].
  destruct (examine =? bm_bf rtl M) eqn:Ebf.
  - assert (Sv = M) by (bmp_dir; destruct rtl; lia). subst Sv. exists pos. split; [reflexivity | exact Hinv].
  - assert (Hex : 0 <= examine < M) by (bmp_dir; destruct rtl; lia).
    assert (HSv' : Sv < M) by (bmp_dir; destruct rtl; lia).
    rewrite (bmp_at_in pat examine) by lia. cbn [bind]. fold (bmp_p examine).
    destruct Hinv as (Hl & Hlast & Hb & Hc).
    destruct (bmp_p examine =? bmp_p (bm_last rtl M)) eqn:Ech.
    + destruct (bmp_pos_match_spec rtl (S (length pat)) (bm_last rtl M) examine pos Sv) as (i0 & pos' & Hr & Hi0 & Hl' & Hb0 & Hstop & Hg).
      * lia.
      * lia.
      * bmp_dir. destruct rtl; lia.
      * right. exact Hex.
      * exact Hl.
      * intros k Hk. bmp_dir. destruct rtl; lia.
      * unfold zlen in *. bmp_dir. destruct rtl; lia.
      * rewrite Hr. cbn [bind]. apply (IH (Sv + 1)); [exact HM | lia | lia | | lia].
        assert (Hbb : bm_bump rtl * bm_bump rtl = 1) by (bmp_dir; destruct rtl; lia).
        split; [exact Hl'|]. split.
        { rewrite Hg by (bmp_dir; destruct rtl; lia).
          destruct ((bm_last rtl M =? i0) && (bm_gz pos i0 =? 0)) eqn:E; [|exact Hlast].
          assert (bm_last rtl M = i0) by lia. subst i0. bmp_dir. destruct rtl; lia. }
        split.
        { intros i Hi. rewrite (Hg i Hi). destruct ((i =? i0) && (bm_gz pos i0 =? 0)) eqn:E.
          - right. assert (i = i0) by lia. subst i0.
            replace (Sv * bm_bump rtl * bm_bump rtl) with Sv by nia.
            bmp_dir. destruct rtl; lia.
          - destruct (Hb i Hi) as [Hz|[H1 H2]]; [left; exact Hz | right; split; [exact H1 | lia]]. }
        { intros i s Hi Hs Hv. rewrite (Hg i Hi).
          assert (Hcase : s < Sv \/ s = Sv) by lia. destruct Hcase as [Hlt| ->].
          - destruct (Hc i s Hi ltac:(lia) Hv) as [Hnz Hle].
            destruct ((i =? i0) && (bm_gz pos i0 =? 0)) eqn:E; [|split; assumption].
            assert (i = i0) by lia. subst i0. lia.
          - assert (i = i0) by (exact (bmp_viable_unique rtl Sv i0 i ltac:(lia) Hi0 Hb0 Hstop Hi Hv)). subst i0.
            rewrite Z.eqb_refl, andb_true_l. destruct (bm_gz pos i =? 0) eqn:Ez.
            + replace (Sv * bm_bump rtl * bm_bump rtl) with Sv by nia. split; [|lia].
              bmp_dir. destruct rtl; lia.
            + destruct (Hb i Hi) as [Hz|[H1 H2]]; [lia|]. split; lia. }
    + apply (IH (Sv + 1)); [exact HM | lia | lia | | lia].
      split; [exact Hl|]. split; [exact Hlast|]. split.
      * intros i Hi. destruct (Hb i Hi) as [Hz|[H1 H2]]; [left; exact Hz | right; split; [exact H1 | lia]].
      * intros i s Hi Hs Hv. assert (Hcase : s < Sv \/ s = Sv) by lia. destruct Hcase as [Hlt| ->].
        { exact (Hc i s Hi ltac:(lia) Hv). }
        destruct (Z.eq_dec i (bm_last rtl M)) as [->|Hne].
        { rewrite Hlast. bmp_dir. destruct rtl; lia. }
        exfalso. destruct Hv as (_ & _ & Hv3).
        assert (Hbl : bmp_beyond rtl i (bm_last rtl M)) by (bmp_dir; destruct rtl; lia).
        specialize (Hv3 _ Hbl). rewrite <- He in Hv3. lia.
Qed.

Lemma bmp_pos_fix_spec : forall rtl fuel j mtch pos,
  mtch = bm_last rtl M - j * bm_bump rtl -> 1 <= j <= M -> zlen pos = M -> (Z.to_nat (M - j) < fuel)%nat ->
  exists pos',
    bm_pos_fix (bm_bf rtl M) (bm_bump rtl) fuel mtch pos = Ok pos' /\ zlen pos' = M /\
    forall i, 0 <= i < M ->
      bm_gz pos' i = if (j <=? (bm_last rtl M - i) * bm_bump rtl) && (bm_gz pos i =? 0) then bm_bump rtl else bm_gz pos i.
Proof.
  intros rtl fuel. induction fuel as [|f IH]; intros j mtch pos Hm Hj Hl Hf; [lia|].
  cbn [bm_pos_fix].
  destruct (mtch =? bm_bf rtl M) eqn:Ebf.
  - exists pos. split; [reflexivity|]. split; [exact Hl|]. intros i Hi.
    replace (j <=? (bm_last rtl M - i) * bm_bump rtl) with false by (bmp_dir; destruct rtl; lia). reflexivity.
  - assert (Hmr : 0 <= mtch < M) by (bmp_dir; destruct rtl; lia).
    assert (Hstep : exists pos1, (do v <- bm_at pos mtch ; do pos' <- (if v =? 0 then bm_set pos mtch (bm_bump rtl) else Ok pos) ;
                                  bm_pos_fix (bm_bf rtl M) (bm_bump rtl) f (mtch - bm_bump rtl) pos')
                                 = bm_pos_fix (bm_bf rtl M) (bm_bump rtl) f (mtch - bm_bump rtl) pos1 /\ zlen pos1 = M /\
                   forall k, 0 <= k < M -> bm_gz pos1 k = if (k =? mtch) && (bm_gz pos mtch =? 0) then bm_bump rtl else bm_gz pos k).
    { destruct (bmp_pos_stop pos mtch (bm_bump rtl) Hl Hmr) as (pos1 & Hr & Hl1 & Hg1).
      exists pos1. split; [|split; assumption].
      rewrite bmp_at_in in Hr |- * by lia. cbn [bind] in Hr |- *.
      destruct (bm_gz pos mtch =? 0); rewrite Hr; reflexivity. }
    destruct Hstep as (pos1 & -> & Hl1 & Hg1).
    destruct (IH (j + 1) (mtch - bm_bump rtl) pos1) as (pos' & Hr & Hl' & Hg);
      [lia | bmp_dir; destruct rtl; lia | exact Hl1 | bmp_dir; destruct rtl; lia |].
    exists pos'. split; [exact Hr|]. split; [exact Hl'|]. intros i Hi. rewrite (Hg i Hi), (Hg1 i Hi).
    destruct (i =? mtch) eqn:Ei.
    + assert (i = mtch) by lia. subst i. rewrite andb_true_l.
      replace (j <=? (bm_last rtl M - mtch) * bm_bump rtl) with true by (bmp_dir; destruct rtl; lia).
      replace (j + 1 <=? (bm_last rtl M - mtch) * bm_bump rtl) with false by (bmp_dir; destruct rtl; lia).
      rewrite andb_true_l, andb_false_l. reflexivity.
    + rewrite andb_false_l.
      replace (j + 1 <=? (bm_last rtl M - i) * bm_bump rtl) with (j <=? (bm_last rtl M - i) * bm_bump rtl)
        by (bmp_dir; destruct rtl; lia).
      reflexivity.
Qed.

Theorem bmp_positive_table_ok : forall rtl, 1 <= M ->
  exists pos, bm_positive_table pat rtl = Ok pos /\ bmp_pos_ok rtl pos.
Proof.
  intros rtl HM. unfold bm_positive_table.
  assert (Hlast : 0 <= bm_last rtl M < M) by (bmp_dir; destruct rtl; lia).
  rewrite (bmp_at_in pat _ Hlast). cbn [bind]. fold (bmp_p (bm_last rtl M)).
  assert (Hl0 : zlen (repeat 0 (length pat)) = M) by (rewrite zlen_repeat; reflexivity).
  destruct (bmp_set_in (repeat 0 (length pat)) (bm_last rtl M) (bm_bump rtl) ltac:(lia)) as [pos1 Hs1].
  rewrite Hs1. cbn [bind]. destruct (bmp_set_Ok _ _ _ _ Hs1) as (_ & Hl1 & Hg1).
  destruct (bmp_pos_outer_spec rtl (S (length pat)) 1 (bm_last rtl M - bm_bump rtl) pos1) as (pos2 & Hr2 & Hinv).
  - exact HM.
  - lia.
  - lia.
  - split; [lia|]. split; [rewrite Hg1 by lia; rewrite Z.eqb_refl; reflexivity|]. split.
    + intros i Hi. rewrite Hg1 by lia. destruct (i =? bm_last rtl M) eqn:E.
      * right. assert (i = bm_last rtl M) by lia. subst i. bmp_dir. destruct rtl; lia.
      * left. apply bmp_repeat_gz. unfold zlen in Hi. lia.
    + intros i s Hi Hs. lia.
  - unfold zlen in *. lia.
  - rewrite Hr2. cbn [bind]. destruct Hinv as (Hl2 & Hlast2 & Hb & Hc).
    destruct (bmp_pos_fix_spec rtl (S (length pat)) 1 (bm_last rtl M - bm_bump rtl) pos2) as (pos & Hr & Hl & Hg);
      [lia | lia | exact Hl2 | unfold zlen in *; lia |].
    exists pos. split; [exact Hr|]. split; [exact Hl|]. intros i Hi. rewrite (Hg i Hi).
    destruct ((1 <=? (bm_last rtl M - i) * bm_bump rtl) && (bm_gz pos2 i =? 0)) eqn:E.
    + split; [bmp_dir; destruct rtl; lia|]. intros s Hs. bmp_dir. destruct rtl; lia.
    + destruct (Hb i Hi) as [Hz|[H1 H2]].
      * assert (i = bm_last rtl M) by (bmp_dir; destruct rtl; lia). subst i. rewrite Hlast2 in Hz.
        bmp_dir. destruct rtl; lia.
      * split; [exact H1|]. intros s Hs Hv.
        assert (HsM : s < M) by (bmp_dir; destruct rtl; lia).
        destruct (Hc i s Hi ltac:(lia) Hv) as [_ Hle]. lia.
Qed.

End PosProofs.

(* an Ltac definition ends with its section: the same, for the sections below *)
Ltac bmp_dir := unfold bm_last, bm_bf, bm_bump, bmp_beyond in *.

Definition bmp_row_get (o : option (list Z)) (j d : Z) : Z :=
  match o with Some (x :: row) => bm_gz (x :: row) j | _ => d end.

Lemma bmp_row_get_some : forall r j d, 0 < zlen r -> bmp_row_get (Some r) j d = bm_gz r j.
Proof. intros [|x r] j d H; [cbn in H; lia | reflexivity]. Qed.

(* what Scan reads for the reject character c (default = the full length) *)
Definition bmp_ng_view (full : Z) (st : bmneg) (c : Z) : Z :=
  if c <? 128 then bm_gz (ng_ascii st) c
  else if (c <=? 65535) && ng_has st then bmp_row_get (ng_uni st (Z.shiftr c 8)) (Z.land c 255) full
  else full.

Definition bmp_ng_wf (st : bmneg) : Prop :=
  128 <= zlen (ng_ascii st) /\
  (forall i r, ng_uni st i = Some r -> zlen r = 256 /\ ng_has st = true) /\
  (forall r, ng_uni st 0 = Some r -> ng_ascii st = r) /\
  (ng_uni st 0 = None -> zlen (ng_ascii st) = 128).

Lemma bmp_shiftr8 : forall c, 0 <= c -> Z.shiftr c 8 = c / 256.
Proof. intros c H. rewrite Z.shiftr_div_pow2 by lia. reflexivity. Qed.
Lemma bmp_land255 : forall c, 0 <= c -> Z.land c 255 = c mod 256.
Proof. intros c H. change 255 with (Z.ones 8). rewrite Z.land_ones by lia. reflexivity. Qed.

Lemma bmp_copy_spec : forall dst src, zlen dst = 256 -> zlen src = 128 ->
  zlen (bm_copy dst src) = 256 /\
  forall k, 0 <= k < 256 -> bm_gz (bm_copy dst src) k = if k <? 128 then bm_gz src k else bm_gz dst k.
Proof.
  intros dst src Hd Hs. unfold bm_copy, zlen in *.
  assert (Hf : firstn (length dst) src = src) by (apply firstn_all2; lia). rewrite Hf.
  split.
  - rewrite app_length, skipn_length. lia.
  - intros k Hk. unfold bm_gz. destruct (k <? 128) eqn:E.
    + rewrite app_nth1 by lia. reflexivity.
    + rewrite app_nth2 by lia. rewrite nth_skipn. f_equal. lia.
Qed.

Lemma bmp_neg_step_big : forall full last st examine ch, 65535 < ch ->
  bm_neg_step full last st examine ch = Ok None.
Proof.
  intros. unfold bm_neg_step. replace (ch <? 128) with false by lia.
  replace (ch <=? 65535) with false by lia. reflexivity.
Qed.

Lemma bmp_upd_cell : forall l ch v full, 0 <= ch < zlen l ->
  exists a', (if bm_gz l ch =? full then bm_set l ch v else Ok l) = Ok a' /\ zlen a' = zlen l /\
    forall k, 0 <= k -> bm_gz a' k = if (k =? ch) && (bm_gz l ch =? full) then v else bm_gz l k.
Proof.
  intros l ch v full Hch. destruct (bm_gz l ch =? full) eqn:E.
  - destruct (bmp_set_in l ch v Hch) as [a' Hs]. exists a'. split; [exact Hs|].
    destruct (bmp_set_Ok _ _ _ _ Hs) as (_ & Hl & Hg). split; [exact Hl|].
    intros k Hk. rewrite Hg by lia. rewrite andb_true_r. reflexivity.
  - exists l. split; [reflexivity|]. split; [reflexivity|]. intros k Hk. rewrite andb_false_r. reflexivity.
Qed.

(* one step of the table loop: the advance last - examine is recorded for ch unless ch has one
   already, and every other rune reads as before *)
Definition bmp_neg_step_ok (full last : Z) (st : bmneg) (examine ch : Z) : Prop :=
  exists st', bm_neg_step full last st examine ch = Ok (Some st') /\ bmp_ng_wf st' /\
    forall c, 0 <= c ->
      bmp_ng_view full st' c = if (c =? ch) && (bmp_ng_view full st ch =? full) then last - examine
                               else bmp_ng_view full st c.

Lemma bmp_neg_step_ascii : forall full last st examine ch, bmp_ng_wf st -> 0 <= ch < 128 ->
  bmp_neg_step_ok full last st examine ch.
Proof.
  intros full last st examine ch (W1 & W2 & W3 & W4) Hch.
  unfold bmp_neg_step_ok, bm_neg_step. replace (ch <? 128) with true by lia.
  rewrite bmp_at_in by lia. cbn [bind].
  destruct (bmp_upd_cell (ng_ascii st) ch (last - examine) full ltac:(lia)) as (a' & -> & Hl & Hg). cbn [bind].
  eexists. split; [reflexivity|]. split.
  - unfold bmp_ng_wf; cbn [ng_ascii ng_has ng_uni].
    destruct (ng_uni st 0) as [r0|] eqn:E0.
    + unfold bm_upd. split; [lia|]. split; [|split].
      * intros i r. destruct (i =? 0) eqn:Ei.
        -- intros H; inversion H; subst r. destruct (W2 0 r0 E0) as [Hz Hh]. rewrite <- (W3 r0 eq_refl) in Hz.
           split; [lia | exact Hh].
        -- apply W2.
      * intros r. rewrite Z.eqb_refl. intros H; inversion H; reflexivity.
      * rewrite Z.eqb_refl. discriminate.
    + split; [lia|]. split; [exact W2|]. split; [intros r H; rewrite E0 in H; discriminate|].
      intros _. rewrite Hl. exact (W4 eq_refl).
  - intros c Hc. unfold bmp_ng_view; cbn [ng_ascii ng_has ng_uni]. replace (ch <? 128) with true by lia.
    destruct (c <? 128) eqn:Ec.
    + apply Hg. lia.
    + replace (c =? ch) with false by lia. rewrite andb_false_l.
      destruct ((c <=? 65535) && ng_has st) eqn:E2; [|reflexivity].
      destruct (ng_uni st 0) as [r0|] eqn:E0; [|reflexivity].
      unfold bm_upd. destruct (Z.shiftr c 8 =? 0) eqn:Es; [|reflexivity].
      assert (Hs0 : Z.shiftr c 8 = 0) by lia. rewrite Hs0, E0.
      destruct (W2 0 r0 E0) as [Hz _]. pose proof (W3 r0 eq_refl) as Heq.
      rewrite !bmp_row_get_some by lia. rewrite bmp_shiftr8 in Hs0 by lia. rewrite bmp_land255 by lia.
      rewrite Hg by (apply Z.mod_pos_bound; lia).
      assert (Hm : c mod 256 = c) by (apply Z.mod_small; split; [lia|]; apply Z.div_small_iff in Hs0; lia).
      rewrite Hm. replace (c =? ch) with false by lia. rewrite andb_false_l. rewrite Heq. reflexivity.
Qed.

Lemma bmp_neg_step_uni : forall full last st examine ch, bmp_ng_wf st -> 128 <= ch <= 65535 ->
  bmp_neg_step_ok full last st examine ch.
Proof.
  intros full last st examine ch (W1 & W2 & W3 & W4) Hch.
  unfold bmp_neg_step_ok, bm_neg_step. replace (ch <? 128) with false by lia. replace (ch <=? 65535) with true by lia.
  rewrite bmp_shiftr8, bmp_land255 by lia.
  set (i := ch / 256). set (j := ch mod 256).
  assert (Hi : 0 <= i <= 255) by (unfold i; pose proof (Z.div_pos ch 256); pose proof (Z.div_lt_upper_bound ch 256 256); lia).
  assert (Hj : 0 <= j < 256) by (unfold j; apply Z.mod_pos_bound; lia).
  assert (Hij : ch = 256 * i + j) by (unfold i, j; apply Z.div_mod; lia).
  (* the row (after allocation) and what negativeASCII is then *)
  assert (Hrow : exists row ascii1,
            match ng_uni st i with
            | Some r => (r, ng_ascii st)
            | None => if i =? 0 then (bm_copy (repeat full 256) (ng_ascii st), bm_copy (repeat full 256) (ng_ascii st))
                      else (repeat full 256, ng_ascii st)
            end = (row, ascii1) /\
            zlen row = 256 /\ 128 <= zlen ascii1 /\
            (forall c, 0 <= c < 128 -> bm_gz ascii1 c = bm_gz (ng_ascii st) c) /\
            (i = 0 -> ascii1 = row) /\ (i <> 0 -> ascii1 = ng_ascii st) /\
            (forall c, 128 <= c <= 65535 -> c / 256 = i -> bm_gz row (c mod 256) = bmp_ng_view full st c)).
  { assert (Hview : forall c, 128 <= c <= 65535 -> c / 256 = i ->
                      bmp_ng_view full st c = if ng_has st then bmp_row_get (ng_uni st i) (c mod 256) full else full).
    { intros c Hc Hci. unfold bmp_ng_view. replace (c <? 128) with false by lia.
      replace (c <=? 65535) with true by lia. rewrite andb_true_l.
      rewrite bmp_shiftr8, bmp_land255 by lia. rewrite Hci. reflexivity. }
    destruct (ng_uni st i) as [r|] eqn:Er.
    - destruct (W2 i r Er) as [Hz Hh]. exists r, (ng_ascii st). split; [reflexivity|]. split; [exact Hz|].
      split; [exact W1|]. split; [reflexivity|]. split.
      + intros Hi0. subst i. rewrite Hi0 in Er. exact (W3 r Er).
      + split; [reflexivity|]. intros c Hc Hci. rewrite (Hview c Hc Hci), Hh. rewrite bmp_row_get_some by lia. reflexivity.
    - destruct (i =? 0) eqn:Ei.
      + assert (Hi0 : i = 0) by lia. rewrite Hi0 in Er.
        destruct (bmp_copy_spec (repeat full 256) (ng_ascii st)) as [Hcl Hcg];
          [rewrite zlen_repeat; reflexivity | exact (W4 Er) |].
        eexists _, _. split; [reflexivity|]. split; [exact Hcl|]. split; [lia|]. split.
        * intros c Hc. rewrite Hcg by lia. replace (c <? 128) with true by lia. reflexivity.
        * split; [reflexivity|]. split; [lia|]. intros c Hc Hci. rewrite (Hview c Hc Hci).
          assert (Hc256 : 0 <= c < 256) by (rewrite Hi0 in Hci; apply Z.div_small_iff in Hci; lia).
          assert (Hm : c mod 256 = c) by (apply Z.mod_small; lia).
          rewrite Hm, Hcg by lia. replace (c <? 128) with false by lia. rewrite bmp_repeat_gz by lia.
          destruct (ng_has st); reflexivity.
      + eexists _, _. split; [reflexivity|]. split; [rewrite zlen_repeat; reflexivity|]. split; [exact W1|].
        split; [reflexivity|]. split; [lia|]. split; [reflexivity|]. intros c Hc Hci. rewrite (Hview c Hc Hci).
        rewrite bmp_repeat_gz by (pose proof (Z.mod_pos_bound c 256); lia). destruct (ng_has st); reflexivity. }
  destruct Hrow as (row & ascii1 & -> & Hz & Ha1 & Ha2 & Ha3 & Ha4 & Hrv).
  rewrite bmp_at_in by lia. cbn [bind].
  destruct (bmp_upd_cell row j (last - examine) full ltac:(lia)) as (row' & -> & Hl' & Hg'). cbn [bind].
  eexists. split; [reflexivity|]. split.
  - unfold bmp_ng_wf; cbn [ng_ascii ng_has ng_uni]. unfold bm_upd. split; [|split; [|split]].
    + destruct (i =? 0) eqn:Ei; lia.
    + intros k r. destruct (k =? i) eqn:Ek.
      * intros H; inversion H; subst r. split; [lia | reflexivity].
      * intros H. destruct (W2 k r H) as [Hzr _]. split; [exact Hzr | reflexivity].
    + intros r. destruct (0 =? i) eqn:E0.
      * intros H; inversion H; subst r. replace (i =? 0) with true by lia. reflexivity.
      * intros H. replace (i =? 0) with false by lia. rewrite Ha4 by lia. exact (W3 r H).
    + destruct (0 =? i) eqn:E0; [discriminate|]. intros H. replace (i =? 0) with false by lia.
      rewrite Ha4 by lia. exact (W4 H).
  - intros c Hc. pose proof (Hrv ch Hch eq_refl) as Hvch. fold j in Hvch. rewrite <- Hvch.
    unfold bmp_ng_view at 1; cbn [ng_ascii ng_has ng_uni].
    destruct (c <? 128) eqn:Ec.
    + replace (c =? ch) with false by lia. rewrite andb_false_l.
      unfold bmp_ng_view. rewrite Ec. destruct (i =? 0) eqn:Ei.
      * rewrite Hg' by lia. replace (c =? j) with false by lia. rewrite andb_false_l.
        rewrite <- Ha3 by lia. apply Ha2. lia.
      * apply Ha2. lia.
    + destruct (c <=? 65535) eqn:Ec2; cbn [andb].
      2:{ replace (c =? ch) with false by lia. rewrite andb_false_l. unfold bmp_ng_view. rewrite Ec, Ec2. reflexivity. }
      rewrite bmp_shiftr8, bmp_land255 by lia. unfold bm_upd.
      destruct (c / 256 =? i) eqn:Eci.
      * assert (Hci : c / 256 = i) by lia. rewrite bmp_row_get_some by lia.
        rewrite Hg' by (pose proof (Z.mod_pos_bound c 256); lia).
        assert (Hcc : c = 256 * i + c mod 256) by (rewrite <- Hci; apply Z.div_mod; lia).
        rewrite (Hrv c ltac:(lia) Hci).
        destruct (c mod 256 =? j) eqn:Ecj.
        -- replace (c =? ch) with true by lia. reflexivity.
        -- replace (c =? ch) with false by lia. reflexivity.
      * assert (Hne : c <> ch) by (intros ->; unfold i in Eci; lia).
        replace (c =? ch) with false by lia. rewrite andb_false_l.
        unfold bmp_ng_view. rewrite Ec, Ec2. rewrite andb_true_l. rewrite bmp_shiftr8, bmp_land255 by lia.
        destruct (ng_has st) eqn:Eh; [reflexivity|].
        destruct (ng_uni st (c / 256)) as [r|] eqn:Er; [|reflexivity].
        destruct (W2 _ _ Er) as [_ Hh]. congruence.
Qed.

Lemma bmp_neg_step_spec : forall full last st examine ch, bmp_ng_wf st -> 0 <= ch <= 65535 ->
  bmp_neg_step_ok full last st examine ch.
Proof.
  intros full last st examine ch W Hch. destruct (Z_lt_ge_dec ch 128).
  - apply bmp_neg_step_ascii; [exact W | lia].
  - apply bmp_neg_step_uni; [exact W | lia].
Qed.

Section NegProofs.
Variable pat : list Z.
Local Notation M := (zlen pat).

(* the advance a recorded for the rune c after the first k pattern positions (counted from the tail):
   its size A = |a| is the distance from the tail to the occurrence of c nearest to the tail, or the whole
   length *)
Definition bmp_neg_inv (rtl : bool) (k : Z) (a c : Z) : Prop :=
  (a * bm_bump rtl = M \/ 0 <= a * bm_bump rtl < k) /\
  (a * bm_bump rtl < M -> bmp_p pat (bm_last rtl M - a) = c) /\
  (forall j, 0 <= j -> j < a * bm_bump rtl -> j < k -> bmp_p pat (bm_last rtl M - j * bm_bump rtl) <> c).

Lemma bmp_neg_loop_spec : forall rtl fuel k examine st,
  let full := bm_last rtl M - bm_bf rtl M in
  examine = bm_last rtl M - k * bm_bump rtl -> 0 <= k <= M -> bmp_ng_wf st ->
  (forall c, 0 <= c -> bmp_neg_inv rtl k (bmp_ng_view full st c) c) ->
  (forall i, 0 <= i < M -> 0 <= bmp_p pat i) ->
  (Z.to_nat (M - k) < fuel)%nat ->
  exists r, bm_neg_loop pat full (bm_last rtl M) (bm_bf rtl M) (bm_bump rtl) fuel examine st = Ok r /\
    match r with
    | None => exists i, 0 <= i < M /\ 65535 < bmp_p pat i
    | Some st' => bmp_ng_wf st' /\ forall c, 0 <= c -> bmp_neg_inv rtl M (bmp_ng_view full st' c) c
    end.
Proof.
  intros rtl fuel. induction fuel as [|f IH]; intros k examine st full He Hk W Hinv Hnn Hf; [lia|].
  cbn [bm_neg_loop].
  destruct (examine =? bm_bf rtl M) eqn:Ebf.
  - assert (k = M) by (bmp_dir; destruct rtl; lia). subst k. exists (Some st). split; [reflexivity|]. split; assumption.
  - assert (Hex : 0 <= examine < M) by (bmp_dir; destruct rtl; lia).
    assert (HkM : k < M) by (bmp_dir; destruct rtl; lia).
    rewrite (bmp_at_in pat examine) by lia. cbn [bind]. fold (bmp_p pat examine).
    pose proof (Hnn examine Hex) as Hch0. set (ch := bmp_p pat examine) in *.
    destruct (Z_le_gt_dec ch 65535) as [Hle|Hgt].
    2:{ rewrite bmp_neg_step_big by lia. cbn [bind]. exists None. split; [reflexivity|]. exists examine. split; [exact Hex | fold ch; lia]. }
    destruct (bmp_neg_step_spec full (bm_last rtl M) st examine ch W ltac:(lia)) as (st' & -> & W' & Hv').
    cbn [bind]. apply (IH (k + 1)); [lia | lia | exact W' | | exact Hnn | lia].
    intros c Hc. fold full. rewrite (Hv' c Hc). destruct (Hinv c Hc) as (I1 & I2 & I3).
    assert (Hfull : full * bm_bump rtl = M) by (unfold full; bmp_dir; destruct rtl; lia).
    destruct ((c =? ch) && (bmp_ng_view full st ch =? full)) eqn:E.
    + assert (c = ch) by lia. subst c. assert (Hvf : bmp_ng_view full st ch = full) by lia.
      rewrite Hvf in I3. replace (bm_last rtl M - examine) with (k * bm_bump rtl) by lia.
      assert (Hkk : k * bm_bump rtl * bm_bump rtl = k) by (bmp_dir; destruct rtl; lia).
      unfold bmp_neg_inv. rewrite Hkk. split; [right; lia|]. split.
      * intros _. replace (bm_last rtl M - k * bm_bump rtl) with examine by lia. reflexivity.
      * intros j Hj1 Hj2 Hj3. apply I3; lia.
    + unfold bmp_neg_inv. split; [destruct I1; [left; assumption | right; lia]|]. split; [exact I2|].
      intros j Hj1 Hj2 Hj3. assert (Hcase : j < k \/ j = k) by lia. destruct Hcase as [Hlt| ->]; [apply I3; lia|].
      replace (bm_last rtl M - k * bm_bump rtl) with examine by lia. fold ch.
      intros Heq. subst c. rewrite Z.eqb_refl, andb_true_l in E.
      assert (Hne : bmp_ng_view full st ch <> full) by lia.
      destruct I1 as [I1|I1]; [|lia].
      apply Hne. clear - I1 Hfull. bmp_dir. destruct rtl; lia.
Qed.

End NegProofs.

Definition bmp_neg_ok (t : bmtab) : Prop :=
  forall c, 0 <= c ->
    exists r, bm_neg_lookup t c = Ok r /\
      bmp_neg_inv (bm_pattern t) (bm_rtl t) (zlen (bm_pattern t))
                  (match r with Some v => v | None => bm_defadv t end) c.

Definition bmp_tab_ok (t : bmtab) : Prop :=
  1 <= zlen (bm_pattern t) /\ bmp_pos_ok (bm_pattern t) (bm_rtl t) (bm_positive t) /\ bmp_neg_ok t.

Lemma bmp_lookup_view : forall t st full,
  bm_negascii t = ng_ascii st -> bm_has_uni t = ng_has st -> bm_uni t = ng_uni st -> bmp_ng_wf st ->
  forall c, 0 <= c ->
    exists r, bm_neg_lookup t c = Ok r /\ (match r with Some v => v | None => full end) = bmp_ng_view full st c.
Proof.
  intros t st full Ha Hh Hu (W1 & W2 & W3 & W4) c Hc.
  unfold bm_neg_lookup, bmp_ng_view. rewrite Ha, Hh, Hu.
  destruct (c <? 128) eqn:Ec.
  - rewrite bmp_at_in by lia. cbn [bind]. eexists. split; reflexivity.
  - destruct ((c <=? 65535) && ng_has st) eqn:E2; [|eexists; split; reflexivity].
    destruct (ng_uni st (Z.shiftr c 8)) as [r|] eqn:Er; [|eexists; split; reflexivity].
    destruct (W2 _ _ Er) as [Hz _]. destruct r as [|x row]; [cbn in Hz; lia|].
    rewrite bmp_land255 by lia. rewrite bmp_at_in by (pose proof (Z.mod_pos_bound c 256); lia).
    cbn [bind]. eexists. split; reflexivity.
Qed.

Section NewProofs.
Variable lower : Z -> Z.

Lemma bmp_fold_map : forall (ci : bool) (pattern : list Z),
  (if ci then map lower pattern else pattern) = map (bm_fold lower ci) pattern.
Proof. intros [|] pattern; unfold bm_fold; [reflexivity | symmetry; apply map_id]. Qed.

Theorem bmp_new_ok : forall pattern ci rtl, pattern <> [] ->
  (forall x, In x pattern -> 0 <= bm_fold lower ci x) ->
  exists r, bm_new lower pattern ci rtl = Ok r /\
    match r with
    | None => exists x, In x pattern /\ 65535 < bm_fold lower ci x
    | Some t => bm_pattern t = map (bm_fold lower ci) pattern /\ bm_rtl t = rtl /\ bm_ci t = ci /\ bmp_tab_ok t
    end.
Proof.
  intros pattern ci rtl Hne Hnn. unfold bm_new. rewrite bmp_fold_map.
  set (pat := map (bm_fold lower ci) pattern).
  assert (HM : 1 <= zlen pat).
  { unfold pat, zlen. rewrite map_length. destruct pattern; [contradiction | cbn; lia]. }
  assert (Hin : forall i, 0 <= i < zlen pat -> exists x, In x pattern /\ bmp_p pat i = bm_fold lower ci x).
  { intros i Hi. assert (Hi' : In (bmp_p pat i) pat) by (unfold bmp_p, bm_gz; apply nth_In; unfold zlen in Hi; lia).
    unfold pat in Hi' at 2. apply in_map_iff in Hi'. destruct Hi' as (x & Hx1 & Hx2). exists x. split; [exact Hx2 | symmetry; exact Hx1]. }
  destruct (bmp_positive_table_ok pat rtl HM) as (pos & -> & Hpos). cbn [bind].
  set (full := bm_last rtl (zlen pat) - bm_bf rtl (zlen pat)).
  set (st0 := {| ng_ascii := repeat full 128; ng_has := false; ng_uni := fun _ => None; ng_low := 127; ng_high := 0 |}).
  destruct (bmp_neg_loop_spec pat rtl (S (length pat)) 0 (bm_last rtl (zlen pat)) st0) as (r & Hr & Hspec).
  - lia.
  - lia.
  - unfold st0, bmp_ng_wf; cbn [ng_ascii ng_has ng_uni]. rewrite zlen_repeat.
    split; [lia|]. split; [intros i r H; discriminate|]. split; [intros r H; discriminate | intros _; lia].
  - intros c Hc. fold full.
    assert (Hv : bmp_ng_view full st0 c = full).
    { unfold bmp_ng_view, st0; cbn [ng_ascii ng_has ng_uni]. destruct (c <? 128) eqn:E; [apply bmp_repeat_gz; lia|].
      rewrite andb_false_r. reflexivity. }
    rewrite Hv. assert (Hfull : full * bm_bump rtl = zlen pat) by (unfold full; bmp_dir; destruct rtl; lia).
    unfold bmp_neg_inv. rewrite Hfull. split; [left; reflexivity|]. split; [lia|]. intros j H1 H2 H3. lia.
  - intros i Hi. destruct (Hin i Hi) as (x & Hx & ->). apply Hnn. exact Hx.
  - unfold zlen. lia.
  - fold full in Hr. fold st0 in Hr. rewrite Hr. cbn [bind]. destruct r as [st|].
    + eexists. split; [reflexivity|]. cbn [bm_pattern bm_rtl bm_ci bm_positive].
      split; [reflexivity|]. split; [reflexivity|]. split; [reflexivity|].
      destruct Hspec as [W Hinv]. split; [exact HM|]. split; [exact Hpos|].
      intros c Hc.
      destruct (bmp_lookup_view {| bm_pattern := pat; bm_positive := pos; bm_negascii := ng_ascii st; bm_has_uni := ng_has st;
                                   bm_uni := ng_uni st; bm_low := ng_low st; bm_high := ng_high st; bm_rtl := rtl; bm_ci := ci |}
                                st full eq_refl eq_refl eq_refl W c Hc) as (r & Hl & Hv).
      exists r. split; [exact Hl|]. cbn [bm_pattern bm_rtl].
      replace (bm_defadv _) with full by (unfold full, bm_defadv; cbn [bm_pattern bm_rtl]; bmp_dir; destruct rtl; lia).
      rewrite Hv. apply Hinv. exact Hc.
    + exists None. split; [reflexivity|]. destruct Hspec as (i & Hi & Hgt). destruct (Hin i Hi) as (x & Hx & Heq).
      exists x. split; [exact Hx | lia].
Qed.

End NewProofs.

Section ScanProofs.
Variable lower : Z -> Z.
Variable t : bmtab.
Variable text : list Z.
Local Notation pat := (bm_pattern t).
Local Notation M := (zlen (bm_pattern t)).
Local Notation N := (zlen text).

(* the text as Scan compares it *)
Definition bmp_tx (i : Z) : Z := bm_fold lower (bm_ci t) (bm_gz text i).

(* an occurrence of the pattern AT position k: it starts at k (left-to-right) / ends at k (right-to-left) *)
Definition bmp_occ_at (k : Z) : Prop :=
  forall j, 0 <= j < M ->
    0 <= (if bm_rtl t then k - M + j else k + j) < N /\
    bmp_tx (if bm_rtl t then k - M + j else k + j) = bmp_p pat j.

(* the same in Scan's coordinates: [a] is the text index under the pattern's tail (compared first) *)
Definition bmp_occ (rtl : bool) (a : Z) : Prop :=
  forall j, 0 <= j < M ->
    0 <= a + j - bm_last rtl M < N /\ bmp_tx (a + j - bm_last rtl M) = bmp_p pat j.

Definition bmp_res (rtl : bool) (a : Z) : Z := if rtl then a + M else a - (M - 1).

Lemma bmp_occ_res : forall a, bmp_occ (bm_rtl t) a <-> bmp_occ_at (bmp_res (bm_rtl t) a).
Proof.
  intros a. unfold bmp_occ, bmp_occ_at, bmp_res, bm_last. destruct (bm_rtl t).
  - split; intros H j Hj; specialize (H j Hj); replace (a + M - M + j) with (a + j - 0) in * by lia; exact H.
  - split; intros H j Hj; specialize (H j Hj); replace (a - (M - 1) + j) with (a + j - (M - 1)) in * by lia; exact H.
Qed.

(* the good-suffix-like shift never jumps over an occurrence *)
Lemma bmp_shift_good : forall rtl test i,
  bmp_pos_ok pat rtl (bm_positive t) -> 0 <= i < M ->
  (forall k, bmp_beyond pat rtl i k -> bmp_tx (test + k - bm_last rtl M) = bmp_p pat k) ->
  bmp_tx (test + i - bm_last rtl M) <> bmp_p pat i ->
  forall d, 0 <= d < bm_gz (bm_positive t) i * bm_bump rtl -> ~ bmp_occ rtl (test + d * bm_bump rtl).
Proof.
  intros rtl test i [_ Hpos] Hi Htail Hmis d Hd Hocc.
  destruct (Hpos i Hi) as [Hrange Hnv].
  destruct (Z.eq_dec d 0) as [->|Hd0].
  - destruct (Hocc i Hi) as [_ He]. apply Hmis. rewrite <- He. f_equal. lia.
  - apply (Hnv d ltac:(lia)). unfold bmp_viable.
    assert (Hj : 0 <= i - d * bm_bump rtl < M) by (bmp_dir; destruct rtl; lia).
    split; [exact Hj|]. split.
    + destruct (Hocc _ Hj) as [_ He]. intros Heq. apply Hmis. rewrite <- Heq, <- He. f_equal. lia.
    + intros k Hk. assert (Hkj : 0 <= k - d * bm_bump rtl < M) by (bmp_dir; destruct rtl; lia).
      destruct (Hocc _ Hkj) as [_ He]. rewrite <- He, <- (Htail k Hk). f_equal. lia.
Qed.

(* nor does the bad-character shift *)
Lemma bmp_shift_bad : forall rtl test i a c,
  bmp_neg_inv pat rtl M a c -> 0 <= i < M ->
  c = bmp_tx (test + i - bm_last rtl M) -> c <> bmp_p pat i ->
  forall d, 0 <= d < (i - bm_last rtl M) * bm_bump rtl + a * bm_bump rtl -> ~ bmp_occ rtl (test + d * bm_bump rtl).
Proof.
  intros rtl test i a c (I1 & I2 & I3) Hi Hc Hmis d Hd Hocc.
  destruct (Z.eq_dec d 0) as [->|Hd0].
  - destruct (Hocc i Hi) as [_ He]. apply Hmis. rewrite Hc, <- He. f_equal. lia.
  - assert (Hj : 0 <= i - d * bm_bump rtl < M) by (bmp_dir; destruct rtl; lia).
    destruct (Hocc _ Hj) as [_ He].
    apply (I3 ((bm_last rtl M - i) * bm_bump rtl + d)); [bmp_dir; destruct rtl; lia | bmp_dir; destruct rtl; lia | bmp_dir; destruct rtl; lia |].
    replace (bm_last rtl M - ((bm_last rtl M - i) * bm_bump rtl + d) * bm_bump rtl) with (i - d * bm_bump rtl)
      by (bmp_dir; destruct rtl; lia).
    rewrite Hc, <- He. f_equal. lia.
Qed.

Lemma bmp_lookup_inv : forall c lk, bmp_neg_ok t -> bm_neg_lookup t c = Ok lk ->
  0 <= c /\ bmp_neg_inv pat (bm_rtl t) M (match lk with Some v => v | None => bm_defadv t end) c.
Proof.
  intros c lk Hneg Hl.
  assert (Hc : 0 <= c).
  { unfold bm_neg_lookup in Hl. destruct (c <? 128) eqn:E; [|lia].
    destruct (bm_at (bm_negascii t) c) as [v| | |] eqn:Ea; try discriminate. apply bmp_at_Ok in Ea. lia. }
  split; [exact Hc|]. destruct (Hneg c Hc) as (r & Hr & Hinv). rewrite Hl in Hr. inversion Hr; subst r. exact Hinv.
Qed.

Lemma bmp_adv_max : forall (rtl : bool) (adv t2 : Z),
  (if rtl then (if t2 <? adv then t2 else adv) else (if adv <? t2 then t2 else adv)) * bm_bump rtl
  = Z.max (adv * bm_bump rtl) (t2 * bm_bump rtl).
Proof. intros [|] adv t2; unfold bm_bump; [destruct (t2 <? adv) eqn:E | destruct (adv <? t2) eqn:E]; lia. Qed.

Lemma bmp_scan_match_spec : forall rtl, bm_rtl t = rtl -> bmp_tab_ok t ->
  forall fuel test test2 mtch s,
  0 <= mtch < M -> test2 = test + mtch - bm_last rtl M ->
  (forall k, k = mtch \/ bmp_beyond pat rtl mtch k ->
     0 <= test + k - bm_last rtl M < N /\ bmp_tx (test + k - bm_last rtl M) = bmp_p pat k) ->
  bm_scan_match lower t text (bm_neg_lookup t) fuel test test2 mtch = Ok s ->
  match s with
  | BmRet r => bmp_occ rtl test /\ r = bmp_res rtl test
  | BmAdv test' => 1 <= (test' - test) * bm_bump rtl /\
                   forall d, 0 <= d < (test' - test) * bm_bump rtl -> ~ bmp_occ rtl (test + d * bm_bump rtl)
  end.
Proof.
  intros rtl Hr (HM & Hpos & Hneg) fuel. rewrite Hr in Hpos.
  induction fuel as [|f IH]; intros test test2 mtch s Hm Ht2 Hmat Hs; [discriminate|].
  cbn [bm_scan_match] in Hs. unfold bm_endmatch in Hs. rewrite Hr in Hs.
  destruct (mtch =? (if rtl then M - 1 else 0)) eqn:Eend.
  - inversion Hs; subst s. split.
    + intros j Hj. apply Hmat. bmp_dir. destruct rtl; lia.
    + unfold bmp_res. bmp_dir. destruct rtl; lia.
  - set (mtch' := mtch - bm_bump rtl) in *. set (test2' := test2 - bm_bump rtl) in *.
    assert (Hm' : 0 <= mtch' < M) by (unfold mtch'; bmp_dir; destruct rtl; lia).
    assert (Ht2' : test2' = test + mtch' - bm_last rtl M) by (unfold test2', mtch'; lia).
    destruct (bm_at text test2') as [c| | |] eqn:Ec; try discriminate. cbn [bind] in Hs.
    apply bmp_at_Ok in Ec. destruct Ec as [Hrange Hcv].
    rewrite (bmp_at_in pat mtch' Hm') in Hs. cbn [bind] in Hs.
    assert (Hchv : bm_fold lower (bm_ci t) c = bmp_tx test2') by (unfold bmp_tx; rewrite Hcv; reflexivity).
    rewrite Hchv in Hs. fold (bmp_p pat mtch') in Hs.
    destruct (bmp_tx test2' =? bmp_p pat mtch') eqn:Eeq; cbn [negb] in Hs.
    + (* still matching *)
      apply (IH test test2' mtch' s Hm' Ht2'); [|exact Hs].
      intros k Hk. assert (Hc : k = mtch' \/ k = mtch \/ bmp_beyond pat rtl mtch k) by (unfold mtch' in *; bmp_dir; destruct rtl; lia).
      destruct Hc as [->|Hc]; [|apply Hmat; exact Hc].
      rewrite <- Ht2'. split; [exact Hrange | lia].
    + (* reject *)
      destruct Hpos as [Hpl Hpi]. pose proof (conj Hpl Hpi) as Hpos.
      rewrite (bmp_at_in (bm_positive t) mtch') in Hs by lia. cbn [bind] in Hs.
      destruct (bm_neg_lookup t (bmp_tx test2')) as [lk| | |] eqn:El; try discriminate. cbn [bind] in Hs.
      destruct (bmp_lookup_inv _ _ Hneg El) as [Hc0 Hinv]. rewrite Hr in Hinv.
      assert (Htail : forall k, bmp_beyond pat rtl mtch' k -> bmp_tx (test + k - bm_last rtl M) = bmp_p pat k).
      { intros k Hk. apply Hmat. unfold mtch' in *. bmp_dir. destruct rtl; lia. }
      assert (Hmis : bmp_tx (test + mtch' - bm_last rtl M) <> bmp_p pat mtch') by (rewrite <- Ht2'; lia).
      pose proof (bmp_shift_good rtl test mtch' Hpos Hm' Htail Hmis) as Hgood.
      destruct (Hpi mtch' Hm') as [Hp1 _].
      destruct lk as [v|].
      * inversion Hs; subst s. clear Hs.
        replace (test + _ - test) with
          (if rtl then (if mtch' - bm_startmatch t + v <? bm_gz (bm_positive t) mtch' then mtch' - bm_startmatch t + v else bm_gz (bm_positive t) mtch')
           else (if bm_gz (bm_positive t) mtch' <? mtch' - bm_startmatch t + v then mtch' - bm_startmatch t + v else bm_gz (bm_positive t) mtch')) by lia.
        rewrite bmp_adv_max. split; [lia|]. intros d Hd.
        destruct (Z_lt_ge_dec d (bm_gz (bm_positive t) mtch' * bm_bump rtl)) as [Hlt|Hge]; [apply Hgood; lia|].
        apply (bmp_shift_bad rtl test mtch' v (bmp_tx test2') Hinv Hm'); [rewrite Ht2'; reflexivity | lia|].
        replace (bm_startmatch t) with (bm_last rtl M) in Hd by (unfold bm_startmatch, bm_last; rewrite Hr; reflexivity).
        lia.
      * inversion Hs; subst s. clear Hs. replace (test + bm_gz (bm_positive t) mtch' - test) with (bm_gz (bm_positive t) mtch') by lia.
        split; [lia|]. exact Hgood.
Qed.

(* ---- the outer loop: partial correctness ---- *)
Lemma bmp_scan_loop_spec : forall rtl, bm_rtl t = rtl -> bmp_tab_ok t ->
  forall beglimit endlimit fuel test r,
  (if rtl then test < endlimit else beglimit <= test) ->
  bm_scan_loop lower t text (bm_neg_lookup t) (bmp_p pat (bm_last rtl M)) beglimit endlimit fuel test = Ok r ->
  (r = -1 /\ forall d, 0 <= d -> beglimit <= test + d * bm_bump rtl < endlimit -> ~ bmp_occ rtl (test + d * bm_bump rtl)) \/
  (exists d, 0 <= d /\ beglimit <= test + d * bm_bump rtl < endlimit /\ bmp_occ rtl (test + d * bm_bump rtl) /\
             r = bmp_res rtl (test + d * bm_bump rtl) /\
             forall d', 0 <= d' < d -> ~ bmp_occ rtl (test + d' * bm_bump rtl)).
Proof.
  intros rtl Hr Hok beglimit endlimit fuel. pose proof Hok as (HM & Hpos & Hneg).
  induction fuel as [|f IH]; intros test r Hwin Hs; [discriminate|].
  cbn [bm_scan_loop] in Hs.
  destruct ((endlimit <=? test) || (test <? beglimit)) eqn:Eout.
  - inversion Hs; subst r. left. split; [reflexivity|]. intros d Hd Hin. exfalso. bmp_dir. destruct rtl; lia.
  - destruct (bm_at text test) as [c| | |] eqn:Ec; try discriminate. cbn [bind] in Hs.
    apply bmp_at_Ok in Ec. destruct Ec as [Hrange Hcv].
    assert (Hchv : bm_fold lower (bm_ci t) c = bmp_tx test) by (unfold bmp_tx; rewrite Hcv; reflexivity).
    rewrite Hchv in Hs.
    (* one turn either answers, or moves on by D >= 1 without passing an occurrence *)
    assert (Hturn : forall test', 1 <= (test' - test) * bm_bump rtl ->
              (forall d, 0 <= d < (test' - test) * bm_bump rtl -> ~ bmp_occ rtl (test + d * bm_bump rtl)) ->
              bm_scan_loop lower t text (bm_neg_lookup t) (bmp_p pat (bm_last rtl M)) beglimit endlimit f test' = Ok r ->
              (r = -1 /\ forall d, 0 <= d -> beglimit <= test + d * bm_bump rtl < endlimit -> ~ bmp_occ rtl (test + d * bm_bump rtl)) \/
              (exists d, 0 <= d /\ beglimit <= test + d * bm_bump rtl < endlimit /\ bmp_occ rtl (test + d * bm_bump rtl) /\
                         r = bmp_res rtl (test + d * bm_bump rtl) /\
                         forall d', 0 <= d' < d -> ~ bmp_occ rtl (test + d' * bm_bump rtl))).
    { intros test' HD Hno Hs'. set (D := (test' - test) * bm_bump rtl) in *.
      assert (Ht' : test' = test + D * bm_bump rtl) by (unfold D; bmp_dir; destruct rtl; lia).
      assert (Hwin' : if rtl then test' < endlimit else beglimit <= test') by (bmp_dir; destruct rtl; lia).
      destruct (IH test' r Hwin' Hs') as [[-> Hall]|(d & Hd & Hin & Hocc & Hres & Hbefore)].
      - left. split; [reflexivity|]. intros d Hd Hin.
        destruct (Z_lt_ge_dec d D) as [Hlt|Hge]; [apply Hno; lia|].
        replace (test + d * bm_bump rtl) with (test' + (d - D) * bm_bump rtl) in * by lia. apply Hall; [lia | exact Hin].
      - right. exists (D + d).
        replace (test + (D + d) * bm_bump rtl) with (test' + d * bm_bump rtl) by lia.
        split; [lia|]. split; [exact Hin|]. split; [exact Hocc|]. split; [exact Hres|].
        intros d' Hd'. destruct (Z_lt_ge_dec d' D) as [Hlt|Hge]; [apply Hno; lia|].
        replace (test + d' * bm_bump rtl) with (test' + (d' - D) * bm_bump rtl) by lia. apply Hbefore. lia. }
    destruct (bmp_tx test =? bmp_p pat (bm_last rtl M)) eqn:Eeq; cbn [negb] in Hs.
    + (* the tail character matches: compare the rest *)
      destruct (bm_scan_match lower t text (bm_neg_lookup t) (S (length pat)) test test (bm_startmatch t)) as [s| | |] eqn:Em; try discriminate.
      cbn [bind] in Hs.
      assert (Hsm : bm_startmatch t = bm_last rtl M) by (unfold bm_startmatch, bm_last; rewrite Hr; reflexivity).
      rewrite Hsm in Em.
      pose proof (bmp_scan_match_spec rtl Hr Hok (S (length pat)) test test (bm_last rtl M) s) as Hspec.
      specialize (Hspec ltac:(bmp_dir; destruct rtl; lia) ltac:(lia)).
      assert (Hmat : forall k, k = bm_last rtl M \/ bmp_beyond pat rtl (bm_last rtl M) k ->
                0 <= test + k - bm_last rtl M < N /\ bmp_tx (test + k - bm_last rtl M) = bmp_p pat k).
      { intros k [->|Hk]; [|exfalso; bmp_dir; destruct rtl; lia].
        replace (test + bm_last rtl M - bm_last rtl M) with test by lia. split; [exact Hrange | lia]. }
      specialize (Hspec Hmat Em). destruct s as [r0|test'].
      * inversion Hs; subst r0. destruct Hspec as [Hocc Hres]. right. exists 0.
        replace (test + 0 * bm_bump rtl) with test by lia. split; [lia|]. split; [lia|]. split; [exact Hocc|].
        split; [exact Hres|]. intros d' Hd'. lia.
      * destruct Hspec as [HD Hno]. exact (Hturn test' HD Hno Hs).
    + (* reject at the tail: bad-character advance *)
      destruct (bm_neg_lookup t (bmp_tx test)) as [lk| | |] eqn:El; try discriminate. cbn [bind] in Hs.
      destruct (bmp_lookup_inv _ _ Hneg El) as [Hc0 Hinv]. rewrite Hr in Hinv.
      set (a := match lk with Some v => v | None => bm_defadv t end) in *.
      assert (Hlast : 0 <= bm_last rtl M < M) by (bmp_dir; destruct rtl; lia).
      pose proof (bmp_shift_bad rtl test (bm_last rtl M) a (bmp_tx test) Hinv Hlast) as Hbad.
      replace (test + bm_last rtl M - bm_last rtl M) with test in Hbad by lia.
      specialize (Hbad eq_refl ltac:(lia)).
      replace ((bm_last rtl M - bm_last rtl M) * bm_bump rtl + a * bm_bump rtl) with (a * bm_bump rtl) in Hbad by lia.
      apply (Hturn (test + a)); [| replace (test + a - test) with a by lia; exact Hbad | exact Hs].
      replace (test + a - test) with a by lia.
      destruct Hinv as (I1 & I2 & I3).
      destruct (Z.eq_dec (a * bm_bump rtl) 0) as [Hz|Hnz]; [|lia].
      exfalso. assert (a = 0) by (bmp_dir; destruct rtl; lia).
      specialize (I2 ltac:(lia)). rewrite H in I2. replace (bm_last rtl M - 0) with (bm_last rtl M) in I2 by lia. lia.
Qed.

Definition bmp_fits (beglimit endlimit k : Z) : Prop :=
  if bm_rtl t then beglimit <= k - M else k + M <= endlimit.

Lemma bmp_startmatch_at : forall rtl, bm_rtl t = rtl -> 1 <= M ->
  bm_at pat (bm_startmatch t) = Ok (bmp_p pat (bm_last rtl M)).
Proof.
  intros rtl Hr HM. assert (Hsm : bm_startmatch t = bm_last rtl M) by (unfold bm_startmatch, bm_last; rewrite Hr; reflexivity).
  rewrite Hsm. apply bmp_at_in. bmp_dir. destruct rtl; lia.
Qed.

(* Scan answers the FIRST occurrence at-or-beyond index (in scan direction) inside the window, -1 if none *)
Theorem bmp_scan_sound : forall fuel index beglimit endlimit r, bmp_tab_ok t -> beglimit <= index <= endlimit ->
  bm_scan lower t text fuel index beglimit endlimit = Ok r ->
  (r = -1 /\ forall k, sc_ord (bm_rtl t) index k -> bmp_fits beglimit endlimit k -> ~ bmp_occ_at k) \/
  (sc_ord (bm_rtl t) index r /\ bmp_fits beglimit endlimit r /\ bmp_occ_at r /\
   forall k, sc_ord (bm_rtl t) index k -> sc_before (bm_rtl t) k r -> ~ bmp_occ_at k).
Proof.
  intros fuel index beglimit endlimit r Hok Hidx Hs. pose proof Hok as (HM & _ & _).
  remember (bm_rtl t) as rtl eqn:Hr. symmetry in Hr.
  unfold bm_scan, bm_scan_gen in Hs. rewrite (bmp_startmatch_at rtl Hr HM) in Hs. cbn [bind] in Hs.
  unfold bm_defadv in Hs. rewrite Hr in Hs.
  set (test0 := if rtl then index + - M else index + M - 1).
  replace (if rtl then index + (if rtl then - M else M) else index + (if rtl then - M else M) - 1) with test0 in Hs
    by (unfold test0; destruct rtl; lia).
  assert (Hwin : if rtl then test0 < endlimit else beglimit <= test0) by (unfold test0; destruct rtl; lia).
  assert (Hocc : forall a, bmp_occ rtl a <-> bmp_occ_at (bmp_res rtl a)) by (intros a; rewrite <- Hr; apply bmp_occ_res).
  destruct (bmp_scan_loop_spec rtl Hr Hok beglimit endlimit fuel test0 r Hwin Hs) as [[-> Hall]|(d & Hd & Hin & Ho & Hres & Hbefore)].
  - left. split; [reflexivity|]. intros k Hk Hfit Hoc.
    set (d := if rtl then index - k else k - index).
    apply (Hall d).
    + unfold d, sc_ord in *. destruct rtl; lia.
    + unfold d, test0, sc_ord, bmp_fits, bm_bump in *. rewrite Hr in Hfit. destruct rtl; lia.
    + apply Hocc. replace (bmp_res rtl (test0 + d * bm_bump rtl)) with k; [exact Hoc|].
      unfold bmp_res, d, test0, bm_bump. destruct rtl; lia.
  - right. assert (Hrk : r = if rtl then index - d else index + d).
    { rewrite Hres. unfold bmp_res, test0, bm_bump. destruct rtl; lia. }
    split; [unfold sc_ord; destruct rtl; lia|]. split.
    + unfold bmp_fits. rewrite Hr. unfold test0, bm_bump in Hin. destruct rtl; lia.
    + split; [rewrite Hres; apply Hocc; exact Ho|].
      intros k Hk Hkr Hoc. set (d' := if rtl then index - k else k - index).
      apply (Hbefore d').
      * unfold d', sc_ord, sc_before in *. destruct rtl; lia.
      * apply Hocc. replace (bmp_res rtl (test0 + d' * bm_bump rtl)) with k; [exact Hoc|].
        unfold bmp_res, d', test0, bm_bump. destruct rtl; lia.
Qed.

(* ---- no fault, no fuel exhaustion on non-negative runes ---- *)
Lemma bmp_lookup_total : forall c, bmp_neg_ok t -> 0 <= c -> exists lk, bm_neg_lookup t c = Ok lk.
Proof. intros c Hneg Hc. destruct (Hneg c Hc) as (r & Hr & _). eauto. Qed.

Lemma bmp_scan_match_total : forall rtl, bm_rtl t = rtl -> bmp_tab_ok t ->
  (forall i, 0 <= i < N -> 0 <= bmp_tx i) ->
  forall fuel test test2 mtch,
  0 <= mtch < M -> test2 = test + mtch - bm_last rtl M ->
  (forall k, 0 <= k < M -> 0 <= test + k - bm_last rtl M < N) ->
  (Z.to_nat ((mtch - (if rtl then M - 1 else 0)) * bm_bump rtl) < fuel)%nat ->
  exists s, bm_scan_match lower t text (bm_neg_lookup t) fuel test test2 mtch = Ok s.
Proof.
  intros rtl Hr (HM & Hpos & Hneg) Hnn fuel. rewrite Hr in Hpos.
  induction fuel as [|f IH]; intros test test2 mtch Hm Ht2 Hrg Hf; [lia|].
  cbn [bm_scan_match]. unfold bm_endmatch. rewrite Hr.
  destruct (mtch =? (if rtl then M - 1 else 0)) eqn:Eend; [eauto|].
  set (mtch' := mtch - bm_bump rtl). set (test2' := test2 - bm_bump rtl).
  assert (Hm' : 0 <= mtch' < M) by (unfold mtch'; bmp_dir; destruct rtl; lia).
  assert (Ht2' : test2' = test + mtch' - bm_last rtl M) by (unfold test2', mtch'; lia).
  assert (Hr2 : 0 <= test2' < N) by (rewrite Ht2'; apply Hrg; exact Hm').
  rewrite (bmp_at_in text test2' Hr2). cbn [bind]. rewrite (bmp_at_in pat mtch' Hm'). cbn [bind].
  fold (bmp_tx test2').
  destruct (negb (bmp_tx test2' =? bm_gz pat mtch')) eqn:Emis.
  - destruct Hpos as [Hpl _]. rewrite (bmp_at_in (bm_positive t) mtch') by lia. cbn [bind].
    destruct (bmp_lookup_total (bmp_tx test2') Hneg (Hnn _ Hr2)) as [lk ->]. cbn [bind]. destruct lk; eauto.
  - apply IH; [exact Hm' | exact Ht2' | exact Hrg |]. unfold mtch'. bmp_dir. destruct rtl; lia.
Qed.

Lemma bmp_scan_loop_total : forall rtl, bm_rtl t = rtl -> bmp_tab_ok t ->
  (forall i, 0 <= i < N -> 0 <= bmp_tx i) ->
  forall beglimit endlimit, 0 <= beglimit -> endlimit <= N ->
  forall fuel test,
  (if rtl then test < endlimit /\ test + M <= N else beglimit <= test /\ M - 1 <= test) ->
  (Z.to_nat (if rtl then test - beglimit + 1 else endlimit - test) < fuel)%nat ->
  exists r, bm_scan_loop lower t text (bm_neg_lookup t) (bmp_p pat (bm_last rtl M)) beglimit endlimit fuel test = Ok r.
Proof.
  intros rtl Hr Hok Hnn beglimit endlimit Hb He fuel. pose proof Hok as (HM & Hpos & Hneg).
  induction fuel as [|f IH]; intros test Hinv Hf; [lia|].
  cbn [bm_scan_loop].
  destruct ((endlimit <=? test) || (test <? beglimit)) eqn:Eout; [eauto|].
  assert (Hrange : 0 <= test < N) by lia.
  rewrite (bmp_at_in text test Hrange). cbn [bind]. fold (bmp_tx test).
  assert (Hnext : forall test', 1 <= (test' - test) * bm_bump rtl ->
            exists r, bm_scan_loop lower t text (bm_neg_lookup t) (bmp_p pat (bm_last rtl M)) beglimit endlimit f test' = Ok r).
  { intros test' HD. apply IH; bmp_dir; destruct rtl; lia. }
  destruct (bmp_tx test =? bmp_p pat (bm_last rtl M)) eqn:Eeq; cbn [negb].
  - assert (Hsm : bm_startmatch t = bm_last rtl M) by (unfold bm_startmatch, bm_last; rewrite Hr; reflexivity).
    rewrite Hsm.
    assert (Hlast : 0 <= bm_last rtl M < M) by (bmp_dir; destruct rtl; lia).
    assert (Hrg : forall k, 0 <= k < M -> 0 <= test + k - bm_last rtl M < N) by (intros k Hk; bmp_dir; destruct rtl; lia).
    destruct (bmp_scan_match_total rtl Hr Hok Hnn (S (length pat)) test test (bm_last rtl M) Hlast ltac:(lia) Hrg) as [s Hs].
    { unfold zlen in *. bmp_dir. destruct rtl; lia. }
    rewrite Hs. cbn [bind]. destruct s as [r0|test']; [eauto|].
    assert (Hmat : forall k, k = bm_last rtl M \/ bmp_beyond pat rtl (bm_last rtl M) k ->
              0 <= test + k - bm_last rtl M < N /\ bmp_tx (test + k - bm_last rtl M) = bmp_p pat k).
    { intros k [->|Hk]; [|exfalso; bmp_dir; destruct rtl; lia].
      replace (test + bm_last rtl M - bm_last rtl M) with test by lia. split; [exact Hrange | lia]. }
    destruct (bmp_scan_match_spec rtl Hr Hok _ test test (bm_last rtl M) _ Hlast ltac:(lia) Hmat Hs) as [HD _].
    exact (Hnext test' HD).
  - destruct (bmp_lookup_total (bmp_tx test) Hneg (Hnn _ Hrange)) as [lk Hl]. rewrite Hl. cbn [bind].
    destruct (bmp_lookup_inv _ _ Hneg Hl) as [_ (I1 & I2 & I3)]. rewrite Hr in I1, I2, I3.
    set (a := match lk with Some v => v | None => bm_defadv t end) in *.
    apply Hnext. replace (test + a - test) with a by lia.
    destruct (Z.eq_dec (a * bm_bump rtl) 0) as [Hz|Hnz]; [|lia].
    exfalso. assert (a = 0) by (bmp_dir; destruct rtl; lia).
    specialize (I2 ltac:(lia)). rewrite H in I2. replace (bm_last rtl M - 0) with (bm_last rtl M) in I2 by lia. lia.
Qed.

Theorem bmp_scan_total : forall index beglimit endlimit, bmp_tab_ok t ->
  (forall i, 0 <= i < N -> 0 <= bmp_tx i) ->
  0 <= beglimit -> endlimit <= N -> beglimit <= index <= endlimit ->
  exists r, bm_scan lower t text (S (length text)) index beglimit endlimit = Ok r.
Proof.
  intros index beglimit endlimit Hok Hnn Hb He Hidx. pose proof Hok as (HM & _ & _).
  remember (bm_rtl t) as rtl eqn:Hr. symmetry in Hr.
  unfold bm_scan, bm_scan_gen. rewrite (bmp_startmatch_at rtl Hr HM). cbn [bind].
  unfold bm_defadv. rewrite Hr.
  apply (bmp_scan_loop_total rtl Hr Hok Hnn beglimit endlimit Hb He); unfold zlen in *; destruct rtl; lia.
Qed.

Lemma bmp_gz_cons : forall x l j, 1 <= j -> bm_gz (x :: l) j = bm_gz l (j - 1).
Proof.
  intros x l j Hj. unfold bm_gz. replace (Z.to_nat j) with (S (Z.to_nat (j - 1))) by lia. reflexivity.
Qed.

Lemma bmp_match_loop_spec : forall pat' i, 0 <= i -> i + zlen pat' <= N ->
  exists b, bm_match_loop lower t text pat' i = Ok b /\
            (b = true <-> forall j, 0 <= j < zlen pat' -> bmp_tx (i + j) = bm_gz pat' j).
Proof.
  induction pat' as [|pc pat' IH]; intros i Hi Hn.
  - exists true. split; [reflexivity|]. split; [intros _ j Hj; cbn in Hj; lia | reflexivity].
  - assert (Hl : zlen (pc :: pat') = zlen pat' + 1) by (unfold zlen; cbn [length]; lia).
    pose proof (zlen_nonneg pat') as Hp0.
    cbn [bm_match_loop]. rewrite (bmp_at_in text i) by lia. cbn [bind]. fold (bmp_tx i).
    destruct (bmp_tx i =? pc) eqn:E.
    + destruct (IH (i + 1) ltac:(lia) ltac:(lia)) as (b & Hb & Hiff). exists b. split; [exact Hb|].
      rewrite Hiff. split.
      * intros H j Hj. destruct (Z.eq_dec j 0) as [->|Hj0].
        -- replace (i + 0) with i by lia. unfold bm_gz. cbn. lia.
        -- rewrite bmp_gz_cons by lia. replace (i + j) with (i + 1 + (j - 1)) by lia. apply H. lia.
      * intros H j Hj. specialize (H (j + 1) ltac:(lia)). rewrite bmp_gz_cons in H by lia.
        replace (j + 1 - 1) with j in H by lia. replace (i + 1 + j) with (i + (j + 1)) by lia. exact H.
    + exists false. split; [reflexivity|]. split; [discriminate|]. intros H. specialize (H 0 ltac:(lia)).
      replace (i + 0) with i in H by lia. unfold bm_gz in H. cbn in H. lia.
Qed.

Definition bmp_in_window (index beglimit endlimit : Z) : Prop :=
  if bm_rtl t then index <= endlimit /\ beglimit <= index - M else beglimit <= index /\ index + M <= endlimit.

Theorem bmp_is_match_spec : forall index beglimit endlimit, 0 <= beglimit -> endlimit <= N ->
  exists b, bm_is_match lower t text index beglimit endlimit = Ok b /\
            (b = true <-> bmp_in_window index beglimit endlimit /\ bmp_occ_at index).
Proof.
  intros index beglimit endlimit Hb He. unfold bm_is_match, bmp_in_window, bmp_occ_at, bm_match_pattern.
  pose proof (zlen_nonneg pat) as HM0.
  destruct (bm_rtl t) eqn:Hr; cbn [negb].
  - destruct ((endlimit <? index) || (index - beglimit <? M)) eqn:Ew.
    + exists false. split; [reflexivity|]. split; [discriminate|]. intros [Hw _]. lia.
    + replace (zlen text - (index - M) <? M) with false by lia.
      destruct (bmp_match_loop_spec pat (index - M) ltac:(lia) ltac:(lia)) as (b & Hbm & Hiff).
      exists b. split; [exact Hbm|]. rewrite Hiff. split.
      * intros H. split; [lia|]. intros j Hj. split; [lia|]. replace (index - M + j) with (index - M + j) by lia. apply H. exact Hj.
      * intros [_ H] j Hj. apply H. exact Hj.
  - destruct ((index <? beglimit) || (endlimit - index <? M)) eqn:Ew.
    + exists false. split; [reflexivity|]. split; [discriminate|]. intros [Hw _]. lia.
    + replace (zlen text - index <? M) with false by lia.
      destruct (bmp_match_loop_spec pat index ltac:(lia) ltac:(lia)) as (b & Hbm & Hiff).
      exists b. split; [exact Hbm|]. rewrite Hiff. split.
      * intros H. split; [lia|]. intros j Hj. split; [lia|]. apply H. exact Hj.
      * intros [_ H] j Hj. apply H. exact Hj.
Qed.

(* ---- what findFirstCharDefault needs of the machine (runner.go:1413, 1418) ---- *)
Section Facts.
Variable R : Type.
Variable exec : Z -> option R * Z.

(* the compile-time fact behind Code.BmPrefix: every successful attempt starts (left-to-right) / ends
   (right-to-left) with the literal *)
Definition bmp_prefix_fact : Prop :=
  forall x, 0 <= x <= N -> fst (exec x) <> None -> bmp_occ_at x.

Lemma bmp_occ_at_in_window : forall x, 1 <= M -> bmp_occ_at x -> bmp_in_window x 0 N /\ 0 <= x <= N.
Proof.
  intros x HM Ho. pose proof (Ho 0 ltac:(lia)) as [H0 _]. pose proof (Ho (M - 1) ltac:(lia)) as [H1 _].
  unfold bmp_in_window. destruct (bm_rtl t); lia.
Qed.

Theorem bmp_scan_fact : bmp_tab_ok t -> (forall i, 0 <= i < N -> 0 <= bmp_tx i) -> bmp_prefix_fact ->
  fd_bm_scan_fact R text exec (bm_rtl t) (bm_scan_fn lower t text).
Proof.
  intros Hok Hnn Hfact p Hp. pose proof Hok as (HM & _ & _).
  destruct (bmp_scan_total p 0 N Hok Hnn ltac:(lia) ltac:(lia) Hp) as [r Hr].
  unfold bm_scan_fn. rewrite Hr.
  assert (Hfail : forall x, 0 <= x <= N -> ~ bmp_occ_at x -> sc_fails R exec x).
  { intros x Hx Hno. unfold sc_fails. destruct (fst (exec x)) eqn:E; [|reflexivity].
    exfalso. apply Hno. apply Hfact; [exact Hx | rewrite E; discriminate]. }
  destruct (bmp_scan_sound _ p 0 N r Hok Hp Hr) as [[-> Hall]|(Hord & Hfit & Hocc & Hbefore)].
  - left. split; [reflexivity|]. intros x Hox Hix. apply Hfail; [exact Hix|]. intros Ho.
    apply (Hall x Hox); [|exact Ho]. destruct (bmp_occ_at_in_window x HM Ho) as [Hw _].
    unfold bmp_fits, bmp_in_window in *. destruct (bm_rtl t); lia.
  - right. destruct (bmp_occ_at_in_window r HM Hocc) as [_ Hrr]. split; [lia|]. split; [exact Hord|]. split; [exact Hrr|].
    intros x Hox Hbx. apply Hfail; [unfold sc_ord, sc_before in *; destruct (bm_rtl t); lia|].
    apply Hbefore; assumption.
Qed.

Theorem bmp_is_match_fact : 1 <= M -> bmp_prefix_fact ->
  forall x, sc_in_text N x -> fst (exec x) <> None -> bm_is_match_fn lower t text x = true.
Proof.
  intros HM Hfact x Hx Hs. unfold bm_is_match_fn.
  destruct (bmp_is_match_spec x 0 N ltac:(lia) ltac:(lia)) as (b & -> & Hiff).
  apply Hiff. pose proof (Hfact x Hx Hs) as Ho. split; [apply bmp_occ_at_in_window; assumption | exact Ho].
Qed.

End Facts.
End ScanProofs.

(* ====================================================================================
   a machine that newBmPrefix returned has sound tables - no side condition
   ==================================================================================== *)
Lemma bmp_neg_step_neg : forall full last st examine ch, ch < 0 -> bm_neg_step full last st examine ch = Crash 1.
Proof.
  intros full last st examine ch H. unfold bm_neg_step. replace (ch <? 128) with true by lia.
  unfold bm_at, znth. replace (ch <? 0) with true by lia. reflexivity.
Qed.

Lemma bmp_neg_loop_nonneg : forall pat rtl full fuel k examine st st',
  examine = bm_last rtl (zlen pat) - k * bm_bump rtl -> 0 <= k ->
  bm_neg_loop pat full (bm_last rtl (zlen pat)) (bm_bf rtl (zlen pat)) (bm_bump rtl) fuel examine st = Ok (Some st') ->
  forall j, k <= j < zlen pat -> 0 <= bmp_p pat (bm_last rtl (zlen pat) - j * bm_bump rtl).
Proof.
  intros pat rtl full fuel. induction fuel as [|f IH]; intros k examine st st' He Hk Hl j Hj; [discriminate|].
  cbn [bm_neg_loop] in Hl.
  destruct (examine =? bm_bf rtl (zlen pat)) eqn:Ebf.
  - exfalso. unfold bm_last, bm_bf, bm_bump in *. destruct rtl; lia.
  - destruct (bm_at pat examine) as [ch| | |] eqn:Ea; try discriminate. cbn [bind] in Hl.
    apply bmp_at_Ok in Ea. destruct Ea as [Hex Hch].
    destruct (Z_lt_ge_dec ch 0) as [Hneg|Hnn]; [rewrite bmp_neg_step_neg in Hl by lia; discriminate|].
    destruct (bm_neg_step full (bm_last rtl (zlen pat)) st examine ch) as [[st1|]| | |]; try discriminate.
    cbn [bind] in Hl. destruct (Z.eq_dec j k) as [->|Hne].
    + rewrite <- He. unfold bmp_p. lia.
    + apply (IH (k + 1) (examine - bm_bump rtl) st1 st'); [lia | lia | exact Hl | lia].
Qed.

Section NewSome.
Variable lower : Z -> Z.

Theorem bmp_new_Some_ok : forall pattern ci rtl t, bm_new lower pattern ci rtl = Ok (Some t) ->
  bm_pattern t = map (bm_fold lower ci) pattern /\ bm_rtl t = rtl /\ bm_ci t = ci /\ bmp_tab_ok t.
Proof.
  intros pattern ci rtl t Hn.
  assert (Hne : pattern <> []).
  { intros ->. unfold bm_new in Hn. destruct ci; cbn in Hn; destruct rtl; discriminate. }
  assert (Hnn : forall x, In x pattern -> 0 <= bm_fold lower ci x).
  { intros x Hx. pose proof Hn as Hn'. unfold bm_new in Hn'. rewrite bmp_fold_map in Hn'.
    set (pat := map (bm_fold lower ci) pattern) in *.
    destruct (bm_positive_table pat rtl) as [pos| | |]; try discriminate. cbn [bind] in Hn'.
    match type of Hn' with context [bm_neg_loop ?p ?fl ?l ?b ?bu ?fu ?ex ?s] =>
      destruct (bm_neg_loop p fl l b bu fu ex s) as [[st'|]| | |] eqn:El; try discriminate end.
    pose proof (bmp_neg_loop_nonneg pat rtl _ (S (length pat)) 0 (bm_last rtl (zlen pat)) _ st' ltac:(lia) ltac:(lia) El) as Hall.
    assert (Hin : In (bm_fold lower ci x) pat) by (unfold pat; apply in_map; exact Hx).
    apply In_nth with (d := 0) in Hin. destruct Hin as (i & Hi & Heq).
    set (jj := if rtl then Z.of_nat i else zlen pat - 1 - Z.of_nat i).
    specialize (Hall jj ltac:(unfold jj, zlen; destruct rtl; lia)).
    replace (bm_last rtl (zlen pat) - jj * bm_bump rtl) with (Z.of_nat i) in Hall
      by (unfold jj, bm_last, bm_bump; destruct rtl; lia).
    unfold bmp_p, bm_gz in Hall. rewrite Nat2Z.id in Hall. lia. }
  destruct (bmp_new_ok lower pattern ci rtl Hne Hnn) as (r & Hr & Hspec).
  rewrite Hn in Hr. inversion Hr; subst r. exact Hspec.
Qed.

End NewSome.

(* ====================================================================================
   findFirstCharDefault with the modelled machine in place of the oracles
   ==================================================================================== *)
Theorem bmp_finder_default_H1 :
  forall (R : Type) (text : list Z) (exec : Z -> option R * Z) (set_in : Z -> Z -> bool) (lower : Z -> Z)
         (anchors ts : Z) (t : bmtab) (o : option fdopts) (fc : option fdfc),
    let n := zlen text in
    let rtl := bm_rtl t in
    let succeeds := fun x => fst (exec x) <> None in
    (abit anchors ANCH_BEGINNING = true -> forall x, sc_in_text n x -> succeeds x -> x = 0) ->
    (abit anchors ANCH_START = true -> forall x, sc_in_text n x -> succeeds x -> x = ts) ->
    (abit anchors ANCH_ENDZ = true -> forall x, sc_in_text n x -> succeeds x ->
       x = n \/ (x = n - 1 /\ nth (Z.to_nat x) text 0 = 10)) ->
    (abit anchors ANCH_END = true -> forall x, sc_in_text n x -> succeeds x -> x = n) ->
    bmp_tab_ok t ->
    (forall i, 0 <= i < n -> 0 <= bmp_tx lower t text i) ->
    bmp_prefix_fact lower t text R exec ->
    sc_H1_true R n rtl (fd_total (fd_find_first_char_default text set_in lower rtl anchors ts
                          (Some (bm_is_match_fn lower t text)) (Some (bm_scan_fn lower t text)) o fc)) exec /\
    sc_H1_false R n rtl (fd_total (fd_find_first_char_default text set_in lower rtl anchors ts
                           (Some (bm_is_match_fn lower t text)) (Some (bm_scan_fn lower t text)) o fc)) exec.
Proof.
  intros R text exec set_in lower anchors ts t o fc n rtl succeeds Fbeg Fstart Fendz Fend Hok Hnn Hfact.
  apply fd_default_H1; try assumption.
  - intros im Him x Hx Hs. inversion Him; subst im. destruct Hok as (HM & _ & _).
    exact (bmp_is_match_fact lower t text R exec HM Hfact x Hx Hs).
  - intros scan Hsc. inversion Hsc; subst scan. exact (bmp_scan_fact lower t text R exec Hok Hnn Hfact).
  - intros H. discriminate.
Qed.

(* ====================================================================================
   the statements of Properties/C03.v: everything from "newBmPrefix returned this machine"
   ==================================================================================== *)
Section Statements.
Variable lower : Z -> Z.

(* the pattern occurs AT k in the text under the fold the machine uses (lower-casing both sides when
   caseInsensitive): it starts at k (left-to-right) / ends at k (right-to-left) *)
Definition bmp_occurs (pattern : list Z) (ci rtl : bool) (text : list Z) (k : Z) : Prop :=
  forall j, 0 <= j < zlen pattern ->
    let q := if rtl then k - zlen pattern + j else k + j in
    0 <= q < zlen text /\
    bm_fold lower ci (nth (Z.to_nat q) text 0) = bm_fold lower ci (nth (Z.to_nat j) pattern 0).

Lemma bmp_occ_at_occurs : forall pattern ci rtl t text k,
  bm_pattern t = map (bm_fold lower ci) pattern -> bm_rtl t = rtl -> bm_ci t = ci ->
  (bmp_occ_at lower t text k <-> bmp_occurs pattern ci rtl text k).
Proof.
  intros pattern ci rtl t text k Hp Hr Hc. unfold bmp_occ_at, bmp_occurs. rewrite Hp, Hr.
  assert (Hl : zlen (map (bm_fold lower ci) pattern) = zlen pattern) by (unfold zlen; rewrite map_length; reflexivity).
  rewrite Hl.
  assert (Hpj : forall j, 0 <= j < zlen pattern ->
            bmp_p (map (bm_fold lower ci) pattern) j = bm_fold lower ci (nth (Z.to_nat j) pattern 0)).
  { intros j Hj. unfold bmp_p, bm_gz.
    rewrite nth_indep with (d' := bm_fold lower ci 0) by (rewrite map_length; unfold zlen in Hj; lia).
    apply map_nth. }
  split; intros H j Hj; specialize (H j Hj); cbv zeta in *; unfold bmp_tx, bm_gz in *; rewrite Hc in *;
    rewrite (Hpj j Hj) in *; exact H.
Qed.

Theorem bmp_scan_sound_stmt :
  forall (pattern : list Z) (ci rtl : bool) (t : bmtab) (text : list Z) (fuel : nat) (index beglimit endlimit r : Z),
    bm_new lower pattern ci rtl = Ok (Some t) ->
    beglimit <= index <= endlimit ->
    bm_scan lower t text fuel index beglimit endlimit = Ok r ->
    let fits k := if rtl then beglimit <= k - zlen pattern else k + zlen pattern <= endlimit in
    (r = -1 /\ forall k, sc_ord rtl index k -> fits k -> ~ bmp_occurs pattern ci rtl text k) \/
    (sc_ord rtl index r /\ fits r /\ bmp_occurs pattern ci rtl text r /\
     forall k, sc_ord rtl index k -> sc_before rtl k r -> ~ bmp_occurs pattern ci rtl text k).
Proof.
  intros pattern ci rtl t text fuel index beglimit endlimit r Hnew Hidx Hs fits.
  destruct (bmp_new_Some_ok lower pattern ci rtl t Hnew) as (Hp & Hr & Hc & Hok).
  assert (Hl : zlen (bm_pattern t) = zlen pattern) by (rewrite Hp; unfold zlen; rewrite map_length; reflexivity).
  assert (Hfit : forall k, bmp_fits t beglimit endlimit k <-> fits k) by (intros k; unfold bmp_fits, fits; rewrite Hr, Hl; reflexivity).
  pose proof (fun k => bmp_occ_at_occurs pattern ci rtl t text k Hp Hr Hc) as Hoc.
  destruct (bmp_scan_sound lower t text fuel index beglimit endlimit r Hok Hidx Hs) as [[-> Hall]|(H1 & H2 & H3 & H4)];
    rewrite Hr in *.
  - left. split; [reflexivity|]. intros k Hk Hf Ho. apply (Hall k Hk); [apply Hfit; exact Hf | apply Hoc; exact Ho].
  - right. split; [exact H1|]. split; [apply Hfit; exact H2|]. split; [apply Hoc; exact H3|].
    intros k Hk Hb Ho. apply (H4 k Hk Hb). apply Hoc. exact Ho.
Qed.

Theorem bmp_scan_total_stmt :
  forall (pattern : list Z) (ci rtl : bool) (t : bmtab) (text : list Z) (index beglimit endlimit : Z),
    bm_new lower pattern ci rtl = Ok (Some t) ->
    (forall x, In x text -> 0 <= bm_fold lower ci x) ->
    0 <= beglimit -> endlimit <= zlen text -> beglimit <= index <= endlimit ->
    exists r, bm_scan lower t text (S (length text)) index beglimit endlimit = Ok r.
Proof.
  intros pattern ci rtl t text index beglimit endlimit Hnew Hnn Hb He Hidx.
  destruct (bmp_new_Some_ok lower pattern ci rtl t Hnew) as (Hp & Hr & Hc & Hok).
  apply bmp_scan_total; try assumption.
  intros i Hi. unfold bmp_tx. rewrite Hc. apply Hnn. unfold bm_gz. apply nth_In. unfold zlen in Hi. lia.
Qed.

Theorem bmp_is_match_stmt :
  forall (pattern : list Z) (ci rtl : bool) (t : bmtab) (text : list Z) (index beglimit endlimit : Z),
    bm_new lower pattern ci rtl = Ok (Some t) ->
    0 <= beglimit -> endlimit <= zlen text ->
    exists b, bm_is_match lower t text index beglimit endlimit = Ok b /\
      (b = true <->
       (if rtl then index <= endlimit /\ beglimit <= index - zlen pattern
        else beglimit <= index /\ index + zlen pattern <= endlimit) /\
       bmp_occurs pattern ci rtl text index).
Proof.
  intros pattern ci rtl t text index beglimit endlimit Hnew Hb He.
  destruct (bmp_new_Some_ok lower pattern ci rtl t Hnew) as (Hp & Hr & Hc & Hok).
  assert (Hl : zlen (bm_pattern t) = zlen pattern) by (rewrite Hp; unfold zlen; rewrite map_length; reflexivity).
  destruct (bmp_is_match_spec lower t text index beglimit endlimit Hb He) as (b & Hbm & Hiff).
  exists b. split; [exact Hbm|]. rewrite Hiff. unfold bmp_in_window. rewrite Hr, Hl.
  rewrite (bmp_occ_at_occurs pattern ci rtl t text index Hp Hr Hc). reflexivity.
Qed.

(* all of findFirstCharDefault with the modelled machine: the two Boyer-Moore hypotheses of
   fd_default_H1 are discharged; what remains is the compile-time fact "every successful attempt
   starts / ends with the literal" *)
Theorem bmp_finder_default_with_bm :
  forall (R : Type) (text : list Z) (exec : Z -> option R * Z) (set_in : Z -> Z -> bool)
         (pattern : list Z) (ci rtl : bool) (t : bmtab)
         (anchors ts : Z) (o : option fdopts) (fc : option fdfc),
    let n := zlen text in
    let succeeds := fun x => fst (exec x) <> None in
    (abit anchors ANCH_BEGINNING = true -> forall x, sc_in_text n x -> succeeds x -> x = 0) ->
    (abit anchors ANCH_START = true -> forall x, sc_in_text n x -> succeeds x -> x = ts) ->
    (abit anchors ANCH_ENDZ = true -> forall x, sc_in_text n x -> succeeds x ->
       x = n \/ (x = n - 1 /\ nth (Z.to_nat x) text 0 = 10)) ->
    (abit anchors ANCH_END = true -> forall x, sc_in_text n x -> succeeds x -> x = n) ->
    bm_new lower pattern ci rtl = Ok (Some t) ->
    (forall x, In x text -> 0 <= bm_fold lower ci x) ->
    (forall x, sc_in_text n x -> succeeds x -> bmp_occurs pattern ci rtl text x) ->
    sc_H1_true R n rtl (fd_total (fd_find_first_char_default text set_in lower rtl anchors ts
                          (Some (bm_is_match_fn lower t text)) (Some (bm_scan_fn lower t text)) o fc)) exec /\
    sc_H1_false R n rtl (fd_total (fd_find_first_char_default text set_in lower rtl anchors ts
                           (Some (bm_is_match_fn lower t text)) (Some (bm_scan_fn lower t text)) o fc)) exec.
Proof.
  intros R text exec set_in pattern ci rtl t anchors ts o fc n succeeds F1 F2 F3 F4 Hnew Hnn Hfact.
  destruct (bmp_new_Some_ok lower pattern ci rtl t Hnew) as (Hp & Hr & Hc & Hok).
  pose proof (bmp_finder_default_H1 R text exec set_in lower anchors ts t o fc) as HH. cbv zeta in HH.
  rewrite Hr in HH. apply HH; try assumption.
  - intros i Hi. unfold bmp_tx. rewrite Hc. apply Hnn. unfold bm_gz. apply nth_In. clear - Hi. unfold zlen in Hi. lia.
  - intros x Hx Hs. apply (bmp_occ_at_occurs pattern ci rtl t text x Hp Hr Hc). apply Hfact; assumption.
Qed.

End Statements.

(* Per-opcode lemmas for the general loop opcodes: Branchmark / Lazybranchmark,
   Setcount / Nullcount, Branchcount / Lazybranchcount (forward, Back and Back2 entries),
   by symbolic evaluation of VM.step, stated for the root-slot families of Proofs/VMUOps2.v. *)
From Verif Require Import Base.Prelude Model.Tree Model.Spec Model.VM Model.Writer Gen.RunnerGen
  Proofs.VMU Proofs.VMUOps Proofs.VMUOps2.
From Coq Require Import Relations ZifyBool.

Section Ops3.
Variable e : env.
Variable p : program.
Hypothesis tc_nonneg : 0 <= trackcount p.

Notation ustep := (VMU.ustep e p).
Notation mk := VMU.mk.

Notation rsteps := (VMUOps2.rsteps e p).

Lemma rs_branchmark_loop pc0 t x T S C M L w2 :
  code_at p pc0 = Some Branchmark -> code_at p (pc0 + 1) = Some L -> code_at p L = Some w2 -> t <> x ->
  rsteps (mkr pc0 0 t T (x :: S) C M) (mkr L 0 t (pc0 :: t :: x :: T) (t :: S) C M).
Proof.
  intros H0 H1 H2 Hne. apply rsteps_one. intro r. unfold bkr, mkr. cbn [app]. start H0. change (Z.land Branchmark 63) with 24. cbn -[opnd tpush spush goto advance Z.sub].
  opn (pc0 + 1) H1. cbn [bind]. replace (t - x =? 0) with false by lia. cbn [negb].
  tpu. spu. gto H2. fin.
Qed.
Lemma rs_branchmark_empty pc0 t T S C M L w2 :
  code_at p pc0 = Some Branchmark -> code_at p (pc0 + 1) = Some L -> code_at p (pc0 + 2) = Some w2 ->
  rsteps (mkr pc0 0 t T (t :: S) C M) (mkr (pc0 + 2) 0 t (- pc0 :: t :: T) S C M).
Proof.
  intros H0 H1 H2. apply rsteps_one. intro r. unfold bkr, mkr. cbn [app]. start H0. change (Z.land Branchmark 63) with 24. cbn -[opnd tpush spush goto advance Z.sub].
  opn (pc0 + 1) H1. cbn [bind]. replace (t - t =? 0) with true by lia. cbn [negb].
  tpu. adv (pc0 + 2) H2. fin.
Qed.
Lemma rs_branchmark_back pc0 t t2 t1 T y S C M w2 :
  code_at p pc0 = Some Branchmark -> code_at p (pc0 + 2) = Some w2 ->
  rsteps (mkr pc0 BackBit t (t2 :: t1 :: T) (y :: S) C M) (mkr (pc0 + 2) 0 t2 (- pc0 :: t1 :: T) S C M).
Proof.
  intros H0 H2. apply rsteps_one. intro r. unfold bkr, mkr. cbn [app]. start H0. change (Z.land Branchmark 63) with 24. cbn -[opnd tpush spush goto advance].
  tpu. adv (pc0 + 2) H2. fin.
Qed.
Lemma rs_branchmark_back2 pc0 t x np T S C M w3 :
  code_at p pc0 = Some Branchmark -> code_at p (Z.abs np) = Some w3 ->
  rsteps (mkr pc0 Back2Bit t (x :: np :: T) S C M) (bkr np t T (x :: S) C M).
Proof.
  intros H0 H3. apply rsteps_one. intro r. unfold bkr, mkr. cbn [app]. start H0. change (Z.land Branchmark 63) with 24. cbn -[opnd tpush spush goto advance brk].
  spu. fail_to H3; fin.
Qed.

Lemma rs_lazybranchmark_fwd pc0 t x T S C M L w2 :
  code_at p pc0 = Some Lazybranchmark -> code_at p (pc0 + 1) = Some L -> code_at p (pc0 + 2) = Some w2 -> t <> x ->
  rsteps (mkr pc0 0 t T (x :: S) C M) (mkr (pc0 + 2) 0 t (pc0 :: t :: (if x =? -1 then t else x) :: T) S C M).
Proof.
  intros H0 H1 H2 Hne. apply rsteps_one. intro r. unfold bkr, mkr. cbn [app]. start H0. change (Z.land Lazybranchmark 63) with 25. cbn -[opnd tpush spush goto advance].
  replace (t =? x) with false by lia. cbn [negb].
  destruct (x =? -1); cbn [negb]; tpu; adv (pc0 + 2) H2; fin.
Qed.
Lemma rs_lazybranchmark_empty pc0 t T S C M L w2 :
  code_at p pc0 = Some Lazybranchmark -> code_at p (pc0 + 1) = Some L -> code_at p (pc0 + 2) = Some w2 ->
  rsteps (mkr pc0 0 t T (t :: S) C M) (mkr (pc0 + 2) 0 t (- pc0 :: 0 :: t :: T) S C M).
Proof.
  intros H0 H1 H2. apply rsteps_one. intro r. unfold bkr, mkr. cbn [app]. start H0. change (Z.land Lazybranchmark 63) with 25. cbn -[opnd tpush spush goto advance].
  replace (t =? t) with true by lia. cbn [negb].
  tpu. adv (pc0 + 2) H2. fin.
Qed.
Lemma rs_lazybranchmark_back pc0 t t2 t1 T S C M L w2 :
  code_at p pc0 = Some Lazybranchmark -> code_at p (pc0 + 1) = Some L -> code_at p L = Some w2 ->
  rsteps (mkr pc0 BackBit t (t2 :: t1 :: T) S C M) (mkr L 0 t2 (- pc0 :: 1 :: t1 :: T) (t2 :: S) C M).
Proof.
  intros H0 H1 H2. apply rsteps_one. intro r. unfold bkr, mkr. cbn [app]. start H0. change (Z.land Lazybranchmark 63) with 25. cbn -[opnd tpush spush goto advance].
  opn (pc0 + 1) H1. cbn [bind]. tpu. spu. gto H2. fin.
Qed.
Lemma rs_lazybranchmark_back2_pop pc0 t t1 np T y S C M w3 :
  code_at p pc0 = Some Lazybranchmark -> code_at p (Z.abs np) = Some w3 ->
  rsteps (mkr pc0 Back2Bit t (1 :: t1 :: np :: T) (y :: S) C M) (bkr np t T (t1 :: S) C M).
Proof.
  intros H0 H3. apply rsteps_one. intro r. unfold bkr, mkr. cbn [app]. start H0. change (Z.land Lazybranchmark 63) with 25. cbn -[opnd tpush spush goto advance brk].
  spu. fail_to H3; fin.
Qed.
Lemma rs_lazybranchmark_back2_keep pc0 t t1 np T S C M w3 :
  code_at p pc0 = Some Lazybranchmark -> code_at p (Z.abs np) = Some w3 ->
  rsteps (mkr pc0 Back2Bit t (0 :: t1 :: np :: T) S C M) (bkr np t T (t1 :: S) C M).
Proof.
  intros H0 H3. apply rsteps_one. intro r. unfold bkr, mkr. cbn [app]. start H0. change (Z.land Lazybranchmark 63) with 25. cbn -[opnd tpush spush goto advance brk].
  spu. fail_to H3; fin.
Qed.

Lemma rs_setcount pc0 t T S C M v w2 :
  code_at p pc0 = Some Setcount -> code_at p (pc0 + 1) = Some v -> code_at p (pc0 + 2) = Some w2 ->
  rsteps (mkr pc0 0 t T S C M) (mkr (pc0 + 2) 0 t (pc0 :: T) (v :: t :: S) C M).
Proof.
  intros H0 H1 H2. apply rsteps_one. intro r. unfold bkr, mkr. cbn [app]. start H0. change (Z.land Setcount 63) with 27. cbn -[opnd tpush spush goto advance].
  opn (pc0 + 1) H1. cbn [bind]. spu. tpu. adv (pc0 + 2) H2. fin.
Qed.
Lemma rs_nullcount pc0 t T S C M v w2 :
  code_at p pc0 = Some Nullcount -> code_at p (pc0 + 1) = Some v -> code_at p (pc0 + 2) = Some w2 ->
  rsteps (mkr pc0 0 t T S C M) (mkr (pc0 + 2) 0 t (pc0 :: T) (v :: -1 :: S) C M).
Proof.
  intros H0 H1 H2. apply rsteps_one. intro r. unfold bkr, mkr. cbn [app]. start H0. change (Z.land Nullcount 63) with 26. cbn -[opnd tpush spush goto advance].
  opn (pc0 + 1) H1. cbn [bind]. spu. tpu. adv (pc0 + 2) H2. fin.
Qed.
Lemma rs_count_back pc0 w t np T x y S C M w3 :
  code_at p pc0 = Some w -> (w = Setcount \/ w = Nullcount) -> code_at p (Z.abs np) = Some w3 ->
  rsteps (mkr pc0 BackBit t (np :: T) (x :: y :: S) C M) (bkr np t T S C M).
Proof.
  intros H0 Hw H3. apply rsteps_one. intro r. unfold bkr, mkr. cbn [app]. start H0.
  destruct Hw as [-> | ->]; [change (Z.land Setcount 63) with 27 | change (Z.land Nullcount 63) with 26]; cbn -[brk];
    fail_to H3; fin.
Qed.

Lemma rs_branchcount_exit pc0 t cnt mark T S C M L lim w2 :
  code_at p pc0 = Some Branchcount -> code_at p (pc0 + 1) = Some L -> code_at p (pc0 + 2) = Some lim ->
  code_at p (pc0 + 3) = Some w2 ->
  (lim <=? cnt) || ((t =? mark) && (0 <=? cnt)) = true ->
  rsteps (mkr pc0 0 t T (cnt :: mark :: S) C M) (mkr (pc0 + 3) 0 t (- pc0 :: cnt :: mark :: T) S C M).
Proof.
  intros H0 H1 H2 H3 Hc. apply rsteps_one. intro r. unfold bkr, mkr. cbn [app]. start H0. change (Z.land Branchcount 63) with 28.
  cbn -[opnd tpush spush goto advance Z.sub Z.leb].
  opn (pc0 + 1) H1. cbn [bind]. opn (pc0 + 2) H2. cbn [bind].
  replace ((lim <=? cnt) || ((t - mark =? 0) && (0 <=? cnt))) with true by (rewrite <- Hc; f_equal; f_equal; lia).
  tpu. adv (pc0 + 3) H3. fin.
Qed.
Lemma rs_branchcount_loop pc0 t cnt mark T S C M L lim w2 :
  code_at p pc0 = Some Branchcount -> code_at p (pc0 + 1) = Some L -> code_at p (pc0 + 2) = Some lim ->
  code_at p L = Some w2 ->
  (lim <=? cnt) || ((t =? mark) && (0 <=? cnt)) = false ->
  rsteps (mkr pc0 0 t T (cnt :: mark :: S) C M) (mkr L 0 t (pc0 :: mark :: T) (cnt + 1 :: t :: S) C M).
Proof.
  intros H0 H1 H2 H3 Hc. apply rsteps_one. intro r. unfold bkr, mkr. cbn [app]. start H0. change (Z.land Branchcount 63) with 28.
  cbn -[opnd tpush spush goto advance Z.sub Z.leb].
  opn (pc0 + 1) H1. cbn [bind]. opn (pc0 + 2) H2. cbn [bind].
  replace ((lim <=? cnt) || ((t - mark =? 0) && (0 <=? cnt))) with false by (rewrite <- Hc; f_equal; f_equal; lia).
  tpu. spu. gto H3. fin.
Qed.
Lemma rs_branchcount_back_pos pc0 t t1 T cnt mark S C M w2 :
  code_at p pc0 = Some Branchcount -> code_at p (pc0 + 3) = Some w2 -> 0 < cnt ->
  rsteps (mkr pc0 BackBit t (t1 :: T) (cnt :: mark :: S) C M)
         (mkr (pc0 + 3) 0 mark (- pc0 :: cnt - 1 :: t1 :: T) S C M).
Proof.
  intros H0 H3 Hc. apply rsteps_one. intro r. unfold bkr, mkr. cbn [app]. start H0. change (Z.land Branchcount 63) with 28.
  cbn -[opnd tpush spush goto advance Z.sub Z.ltb brk].
  replace (0 <? cnt) with true by lia. tpu. adv (pc0 + 3) H3. fin.
Qed.
Lemma rs_branchcount_back_neg pc0 t t1 np T cnt mark S C M w3 :
  code_at p pc0 = Some Branchcount -> code_at p (Z.abs np) = Some w3 -> cnt <= 0 ->
  rsteps (mkr pc0 BackBit t (t1 :: np :: T) (cnt :: mark :: S) C M) (bkr np t T (cnt - 1 :: t1 :: S) C M).
Proof.
  intros H0 H3 Hc. apply rsteps_one. intro r. unfold bkr, mkr. cbn [app]. start H0. change (Z.land Branchcount 63) with 28.
  cbn -[opnd tpush spush goto advance Z.sub Z.ltb brk].
  replace (0 <? cnt) with false by lia. spu. fail_to H3; fin.
Qed.
Lemma rs_branchcount_back2 pc0 t t2 t1 np T S C M w3 :
  code_at p pc0 = Some Branchcount -> code_at p (Z.abs np) = Some w3 ->
  rsteps (mkr pc0 Back2Bit t (t2 :: t1 :: np :: T) S C M) (bkr np t T (t2 :: t1 :: S) C M).
Proof.
  intros H0 H3. apply rsteps_one. intro r. unfold bkr, mkr. cbn [app]. start H0. change (Z.land Branchcount 63) with 28.
  cbn -[opnd tpush spush goto advance Z.sub Z.ltb brk].
  spu. fail_to H3; fin.
Qed.

Lemma rs_lazybranchcount_loop pc0 t cnt mark T S C M L w2 :
  code_at p pc0 = Some Lazybranchcount -> code_at p (pc0 + 1) = Some L -> code_at p L = Some w2 -> cnt < 0 ->
  rsteps (mkr pc0 0 t T (cnt :: mark :: S) C M) (mkr L 0 t (- pc0 :: mark :: T) (cnt + 1 :: t :: S) C M).
Proof.
  intros H0 H1 H3 Hc. apply rsteps_one. intro r. unfold bkr, mkr. cbn [app]. start H0. change (Z.land Lazybranchcount 63) with 29.
  cbn -[opnd tpush spush goto advance Z.sub Z.ltb brk].
  opn (pc0 + 1) H1. cbn [bind]. replace (cnt <? 0) with true by lia. tpu. spu. gto H3. fin.
Qed.
Lemma rs_lazybranchcount_exit pc0 t cnt mark T S C M L w2 :
  code_at p pc0 = Some Lazybranchcount -> code_at p (pc0 + 1) = Some L -> code_at p (pc0 + 3) = Some w2 -> 0 <= cnt ->
  rsteps (mkr pc0 0 t T (cnt :: mark :: S) C M) (mkr (pc0 + 3) 0 t (pc0 :: t :: cnt :: mark :: T) S C M).
Proof.
  intros H0 H1 H3 Hc. apply rsteps_one. intro r. unfold bkr, mkr. cbn [app]. start H0. change (Z.land Lazybranchcount 63) with 29.
  cbn -[opnd tpush spush goto advance Z.sub Z.ltb brk].
  opn (pc0 + 1) H1. cbn [bind]. replace (cnt <? 0) with false by lia. tpu. adv (pc0 + 3) H3. fin.
Qed.
Lemma rs_lazybranchcount_back_again pc0 t t3 t2 t1 T S C M L lim w2 :
  code_at p pc0 = Some Lazybranchcount -> code_at p (pc0 + 1) = Some L -> code_at p (pc0 + 2) = Some lim ->
  code_at p L = Some w2 -> (t2 <? lim) && negb (t3 =? t1) = true ->
  rsteps (mkr pc0 BackBit t (t3 :: t2 :: t1 :: T) S C M) (mkr L 0 t3 (- pc0 :: t1 :: T) (t2 + 1 :: t3 :: S) C M).
Proof.
  intros H0 H1 H2 H3 Hc. apply rsteps_one. intro r. unfold bkr, mkr. cbn [app]. start H0. change (Z.land Lazybranchcount 63) with 29.
  cbn -[opnd tpush spush goto advance Z.sub Z.ltb brk].
  opn (pc0 + 1) H1. cbn [bind]. opn (pc0 + 2) H2. cbn [bind]. rewrite Hc. spu. tpu. gto H3. fin.
Qed.
Lemma rs_lazybranchcount_back_fail pc0 t t3 t2 t1 np T S C M L lim w3 :
  code_at p pc0 = Some Lazybranchcount -> code_at p (pc0 + 1) = Some L -> code_at p (pc0 + 2) = Some lim ->
  code_at p (Z.abs np) = Some w3 -> (t2 <? lim) && negb (t3 =? t1) = false ->
  rsteps (mkr pc0 BackBit t (t3 :: t2 :: t1 :: np :: T) S C M) (bkr np t T (t2 :: t1 :: S) C M).
Proof.
  intros H0 H1 H2 H3 Hc. apply rsteps_one. intro r. unfold bkr, mkr. cbn [app]. start H0. change (Z.land Lazybranchcount 63) with 29.
  cbn -[opnd tpush spush goto advance Z.sub Z.ltb brk].
  opn (pc0 + 1) H1. cbn [bind]. opn (pc0 + 2) H2. cbn [bind]. rewrite Hc. spu. fail_to H3; fin.
Qed.
Lemma rs_lazybranchcount_back2 pc0 t t1 np T cnt y S C M w3 :
  code_at p pc0 = Some Lazybranchcount -> code_at p (Z.abs np) = Some w3 ->
  rsteps (mkr pc0 Back2Bit t (t1 :: np :: T) (cnt :: y :: S) C M) (bkr np t T (cnt - 1 :: t1 :: S) C M).
Proof.
  intros H0 H3. apply rsteps_one. intro r. unfold bkr, mkr. cbn [app]. start H0. change (Z.land Lazybranchcount 63) with 29.
  cbn -[opnd tpush spush goto advance Z.sub Z.ltb brk].
  spu. fail_to H3; fin.
Qed.

End Ops3.

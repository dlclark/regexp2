(* Proofs about Model/Parser.v, part 6: the shape invariant [wfb] of finished nodes, strong enough for the
   hypotheses of the compile / termination theorems, and its preservation by every mandatory reducer.
   ([good], Proofs/ParserTree.v, only says that the reducers find the children, strings and sets they index
   without a test, which is what keeps them from faulting.)

   [wfb x]   every node of x has the arity its kind needs in Tree.build (leaves have no child, the one-child
             kinds exactly one, a back-reference conditional 1..2, an expression conditional 2..3), every single-character loop and every Loop / Lazyloop has
             0 <= M <= N <= MaxInt32, every Alternate has a child, and the body of every Loop / Lazyloop is
             one-directional ([dirb false] or [dirb true]);
   [dirb d x] every consuming node of x outside lookarounds and outside the condition of an expression
             conditional carries the RightToLeft bit d  (= SpecTermProofs.tm_dir_ok on the converted tree);
   [pre x]   the same as wfb for a node that has not been reduced yet (an Alternate may still be empty).

   For every reducer f of tree.go:  pre x -> f x = Ok y -> wfb y  and  dirb d x -> dirb d y.
   [good] is assumed alongside wherever a reducer has to be known to succeed. *)
From Coq Require Import ZifyBool.
From Verif Require Import Base.Prelude Gen.ParseLitGen Model.Escape Model.ParseLit Model.GroupMap Model.CharClass
  Model.Parser Proofs.ParseLitProofs Proofs.ParserScan Proofs.ParserTree Proofs.ParserMain Proofs.ParserPre
  Proofs.ParserProofs.

Definition is_charloop (t : Z) : bool := is_oneloop_family t || is_notoneloop_family t || is_setloop_family t.
Definition is_char1 (t : Z) : bool := (t =? T_One) || (t =? T_Notone) || (t =? T_Set).
Definition is_anchor_t (t : Z) : bool := ((14 <=? t) && (t <=? 21)) || (t =? 41) || (t =? 42).
Definition is_leaf0 (t : Z) : bool :=
  is_char1 t || (t =? T_Multi) || (t =? T_Ref) || (t =? T_Nothing) || (t =? T_Empty) || is_anchor_t t.
Definition is_unary1 (t : Z) : bool :=
  (t =? T_Capture) || (t =? T_Group) || (t =? T_PosLook) || (t =? T_NegLook) || (t =? T_Atomic).
Definition is_look (t : Z) : bool := (t =? T_PosLook) || (t =? T_NegLook).
Definition is_loop_t (t : Z) : bool := (t =? T_Loop) || (t =? T_Lazyloop).
Definition consuming (t : Z) : bool := is_charloop t || is_char1 t || (t =? T_Multi) || (t =? T_Ref).

Inductive kcl : Type := KCharLoop | KLeaf | KConcat | KAlt | KLoop | KUnary | KBref | KEcond | KBad.

Definition kcls (t : Z) : kcl :=
  if is_charloop t then KCharLoop
  else if is_leaf0 t then KLeaf
  else if t =? T_Concatenate then KConcat
  else if t =? T_Alternate then KAlt
  else if is_loop_t t then KLoop
  else if is_unary1 t then KUnary
  else if t =? T_BackRefCond then KBref
  else if t =? T_ExprCond then KEcond
  else KBad.

Definition bounds_ok (m n : Z) : bool := (0 <=? m) && (m <=? n) && (n <=? pp_inf).
Definition nokids (l : list rnode) : bool := match l with [] => true | _ => false end.

Fixpoint dirb (d : bool) (x : rnode) : bool :=
  let 'RN t o _ _ _ _ _ kids := x in
  if is_look t then true
  else (if consuming t then Bool.eqb (useRTL o) d else true) &&
       match kids with
       | [] => true
       | k0 :: r => (if t =? T_ExprCond then true else dirb d k0) &&
                    (fix go (l : list rnode) : bool := match l with [] => true | k :: l' => dirb d k && go l' end) r
       end.

Definition dkids (t : Z) (kids : list rnode) : list rnode := if t =? T_ExprCond then tl kids else kids.

Lemma dirb_go_forallb d l :
  (fix go (l : list rnode) : bool := match l with [] => true | k :: l' => dirb d k && go l' end) l = forallb (dirb d) l.
Proof. induction l as [|k l IH]; [reflexivity|]. cbn [forallb]. rewrite <- IH. reflexivity. Qed.

Lemma dirb_eq d t o ch m n str st kids :
  dirb d (RN t o ch m n str st kids) =
    if is_look t then true
    else (if consuming t then Bool.eqb (useRTL o) d else true) && forallb (dirb d) (dkids t kids).
Proof.
  cbn [dirb]. destruct (is_look t); [reflexivity|]. f_equal. unfold dkids.
  destruct kids as [|k0 r]; [destruct (t =? T_ExprCond); reflexivity|].
  rewrite dirb_go_forallb. destruct (t =? T_ExprCond); reflexivity.
Qed.

Definition dirl (d : bool) (l : list rnode) : Prop := forallb (dirb d) l = true.
Lemma dirl_cons d k l : dirl d (k :: l) <-> dirb d k = true /\ dirl d l.
Proof. unfold dirl. cbn [forallb]. apply andb_true_iff. Qed.
Lemma dirl_app d a b : dirl d (a ++ b) <-> dirl d a /\ dirl d b.
Proof. unfold dirl. rewrite forallb_app. apply andb_true_iff. Qed.
Lemma dirl_nil d : dirl d [].
Proof. reflexivity. Qed.
Lemma dirl_In d l x : dirl d l -> In x l -> dirb d x = true.
Proof. unfold dirl. rewrite forallb_forall. auto. Qed.
Lemma dirl_rev d l : dirl d l -> dirl d (rev l).
Proof.
  unfold dirl. rewrite !forallb_forall. intros H x Hx. apply H. apply in_rev. exact Hx.
Qed.


(* which types a kind test admits *)
Lemma is_char1_cases t : is_char1 t = true -> t = T_One \/ t = T_Notone \/ t = T_Set.
Proof. unfold is_char1. btrue. tauto. Qed.
Lemma is_look_cases t : is_look t = true -> t = T_PosLook \/ t = T_NegLook.
Proof. unfold is_look. btrue. tauto. Qed.
Lemma is_loop_t_cases t : is_loop_t t = true -> t = T_Loop \/ t = T_Lazyloop.
Proof. unfold is_loop_t. btrue. tauto. Qed.
Lemma is_set_family_cases t : is_set_family t = true -> t = T_Set \/ t = T_Setloop \/ t = T_Setlazy \/ t = T_Setloopatomic.
Proof. unfold is_set_family. btrue. tauto. Qed.

Lemma is_unary1_cases t : is_unary1 t = true ->
  t = T_Capture \/ t = T_Group \/ t = T_PosLook \/ t = T_NegLook \/ t = T_Atomic.
Proof. unfold is_unary1. btrue. tauto. Qed.
Lemma is_charloop_cases t : is_charloop t = true ->
  In t [T_Oneloop; T_Onelazy; T_Oneloopatomic; T_Notoneloop; T_Notonelazy; T_Notoneloopatomic; T_Setloop; T_Setlazy; T_Setloopatomic].
Proof.
  unfold is_charloop, is_oneloop_family, is_notoneloop_family, is_setloop_family. btrue. cbn [In].
  intros H. repeat destruct H as [H|H]; subst t; tauto.
Qed.

(* the test kcls stops at *)
Lemma kcls_spec t :
  match kcls t with
  | KCharLoop => is_charloop t = true | KLeaf => is_leaf0 t = true | KConcat => t = T_Concatenate
  | KAlt => t = T_Alternate | KLoop => is_loop_t t = true | KUnary => is_unary1 t = true
  | KBref => t = T_BackRefCond | KEcond => t = T_ExprCond | KBad => True
  end.
Proof.
  unfold kcls.
  repeat match goal with |- context [if ?b then _ else _] => destruct b eqn:? end; try apply Z.eqb_eq; auto.
Qed.

(* the greedy and the lazy single-character loops, and their atomic forms *)
Lemma to_atomic_greedy t : (t =? T_Oneloop) || (t =? T_Notoneloop) || (t =? T_Setloop) = true ->
  is_charloop t = true /\ is_charloop (t + (T_Oneloopatomic - T_Oneloop)) = true.
Proof. btrue. intros [[-> | ->] | ->]; split; reflexivity. Qed.
Lemma to_atomic_lazy t : (t =? T_Onelazy) || (t =? T_Notonelazy) || (t =? T_Setlazy) = true ->
  is_charloop t = true /\ is_charloop (t + (T_Oneloopatomic - T_Onelazy)) = true.
Proof. btrue. intros [[-> | ->] | ->]; split; reflexivity. Qed.
Lemma atomicloop_charloop t : is_atomicloop_family t = true -> is_charloop t = true.
Proof. unfold is_atomicloop_family. btrue. intros [[-> | ->] | ->]; reflexivity. Qed.
Lemma make_rep_kind t0 t : is_char1 t0 = true -> t = T_Oneloop \/ t = T_Onelazy -> is_charloop (t0 + (t - T_One)) = true.
Proof. intros C Ht. destruct (is_char1_cases t0 C) as [-> | [-> | ->]]; destruct Ht as [-> | ->]; reflexivity. Qed.

Lemma kcls_charloop t : is_charloop t = true -> kcls t = KCharLoop.
Proof. intros H. unfold kcls. rewrite H. reflexivity. Qed.

Lemma charloop_consuming t : is_charloop t = true -> consuming t = true /\ is_look t = false /\ (t =? T_ExprCond) = false.
Proof.
  intros H. apply is_charloop_cases in H. cbn [In] in H.
  repeat (destruct H as [<- | H]; [repeat split; reflexivity|]). destruct H.
Qed.

Lemma char1_facts t : is_char1 t = true ->
  kcls t = KLeaf /\ consuming t = true /\ is_look t = false /\ (t =? T_ExprCond) = false /\ (t =? T_Ref) = false.
Proof. intros H. destruct (is_char1_cases t H) as [-> | [-> | ->]]; repeat split; reflexivity. Qed.

Lemma useRTL_clear_I o : useRTL (clear_I o) = useRTL o.
Proof.
  unfold useRTL, pl_bit, clear_I. rewrite land_ldiff_disjoint; [reflexivity | reflexivity].
Qed.

Lemma dirb_retype d t o ch m n str st kids t' o' ch' m' n' str' st' :
  is_look t' = is_look t -> consuming t' = consuming t -> (t' =? T_ExprCond) = (t =? T_ExprCond) ->
  useRTL o' = useRTL o ->
  dirb d (RN t' o' ch' m' n' str' st' kids) = dirb d (RN t o ch m n str st kids).
Proof. intros H1 H2 H3 H4. rewrite !dirb_eq. unfold dkids. rewrite H1, H2, H3, H4. reflexivity. Qed.

Lemma dirb_leaf d t o ch m n str st :
  dirb d (RN t o ch m n str st []) = if is_look t then true else if consuming t then Bool.eqb (useRTL o) d else true.
Proof.
  rewrite dirb_eq. unfold dkids. destruct (is_look t); [reflexivity|].
  destruct (t =? T_ExprCond); cbn [tl forallb]; rewrite andb_true_r; reflexivity.
Qed.

Lemma dirb_nonconsuming_leaf d t o ch m n str st : consuming t = false -> dirb d (RN t o ch m n str st []) = true.
Proof. intros H. rewrite dirb_leaf, H. destruct (is_look t); reflexivity. Qed.

Lemma dirb_list_node d t o ch m n str st kids :
  t = T_Alternate \/ t = T_Concatenate -> dirb d (RN t o ch m n str st kids) = forallb (dirb d) kids.
Proof. intros [-> | ->]; rewrite dirb_eq; reflexivity. Qed.

Lemma dirb_unary d t o ch m n str st k :
  kcls t = KUnary -> is_look t = false -> dirb d (RN t o ch m n str st [k]) = dirb d k.
Proof.
  intros K L. rewrite dirb_eq, L.
  assert (C : consuming t = false /\ (t =? T_ExprCond) = false).
  { pose proof (kcls_spec t) as S. rewrite K in S.
    destruct (is_unary1_cases t S) as [-> | [-> | [-> | [-> | ->]]]]; split; reflexivity || discriminate. }
  destruct C as [C1 C2]. unfold dkids. rewrite C1, C2. cbn. rewrite andb_true_r. reflexivity.
Qed.

Ltac ifs := repeat match goal with
  | |- context [if ?b then _ else _] => destruct b eqn:?
  | H : context [if ?b then _ else _] |- _ => destruct b eqn:?
  end.
Ltac blia := unfold can_combine, add_max_length, bounds_ok, pp_inf in *; ifs; try discriminate; lia.

Lemma bounds_combine cm cn k k' : bounds_ok cm cn = true -> 0 <= k <= k' -> can_combine cm cn k k' = true ->
  bounds_ok (cm + k) (if cn =? pp_inf then cn else if k' =? pp_inf then pp_inf else cn + k') = true.
Proof. intros. blia. Qed.

Lemma bounds_combine1' nm nn : bounds_ok nm nn = true -> can_combine 1 1 nm nn = true ->
  bounds_ok (nm + 1) (if nn =? pp_inf then pp_inf else nn + 1) = true.
Proof. intros. blia. Qed.

Definition loopish (t : Z) : Prop := kcls t = KLoop \/ kcls t = KCharLoop.

Definition mulsat (c k : Z) : Z := if 0 <? c then (if (pp_inf - 1) / c <? k then pp_inf else c * k) else c.

Lemma mulsat_bounds cm cn mn mx : bounds_ok cm cn = true -> bounds_ok mn mx = true ->
  bounds_ok (mulsat cm mn) (mulsat cn mx) = true.
Proof.
  unfold bounds_ok, mulsat. intros H1 H2.
  assert (A : 0 <= cm <= cn /\ cn <= pp_inf /\ 0 <= mn <= mx /\ mx <= pp_inf) by lia. clear H1 H2.
  destruct A as [A1 [A2 [A3 A4]]]. unfold pp_inf in *.
  assert (Q : forall c, 0 < c -> c * ((2147483647 - 1) / c) <= 2147483647 - 1 /\ 2147483647 - 1 < c * ((2147483647 - 1) / c + 1)).
  { intros c Hc. split; [apply Z.mul_div_le; lia|]. pose proof (Z.mul_succ_div_gt (2147483647 - 1) c Hc). lia. }
  destruct (0 <? cm) eqn:E1; destruct (0 <? cn) eqn:E2; try lia.
  - destruct (Q cm ltac:(lia)) as [Q1 Q2]. destruct (Q cn ltac:(lia)) as [Q3 Q4].
    set (q1 := (2147483647 - 1) / cm) in *. set (q2 := (2147483647 - 1) / cn) in *.
    assert (q2 <= q1) by (subst q1 q2; apply Z.div_le_compat_l; lia).
    assert (0 <= q2) by (subst q2; apply Z.div_pos; lia).
    destruct (q1 <? mn) eqn:E3; destruct (q2 <? mx) eqn:E4; try lia.
    + assert (cm * mn <= cm * q1) by (apply Z.mul_le_mono_nonneg_l; lia). lia.
    + assert (cm * mn <= cm * q1) by (apply Z.mul_le_mono_nonneg_l; lia).
      assert (cn * mx <= cn * q2) by (apply Z.mul_le_mono_nonneg_l; lia).
      assert (cm * mn <= cn * mx) by (apply Z.mul_le_mono_nonneg; lia).
      assert (0 <= cm * mn) by (apply Z.mul_nonneg_nonneg; lia). lia.
  - destruct (Q cn ltac:(lia)) as [Q3 Q4]. set (q2 := (2147483647 - 1) / cn) in *.
    destruct (q2 <? mx) eqn:E4; [lia|].
    assert (cn * mx <= cn * q2) by (apply Z.mul_le_mono_nonneg_l; lia).
    assert (0 <= cn * mx) by (apply Z.mul_nonneg_nonneg; lia). lia.
Qed.

Lemma loop_kid_dir d t o ch m n str st k : kcls t = KLoop -> dirb d (RN t o ch m n str st [k]) = dirb d k.
Proof.
  intros K. assert (T : t = T_Loop \/ t = T_Lazyloop).
  { pose proof (kcls_spec t) as S. rewrite K in S. exact (is_loop_t_cases t S). }
  destruct T as [-> | ->]; rewrite dirb_eq; cbn; rewrite andb_true_r; reflexivity.
Qed.

Lemma dirb_bref d o ch m n str st kids : dirb d (RN T_BackRefCond o ch m n str st kids) = forallb (dirb d) kids.
Proof. rewrite dirb_eq. reflexivity. Qed.

Lemma dirb_econd d o ch m n str st kids : dirb d (RN T_ExprCond o ch m n str st kids) = forallb (dirb d) (tl kids).
Proof. rewrite dirb_eq. reflexivity. Qed.

Lemma eqb_refl_b b : Bool.eqb b b = true.
Proof. destruct b; reflexivity. Qed.

Section Caps.
(* membership in the capture table, as a predicate: [fun k => zmem k caps] for the real table, [fun _ => true] when
   only the shape is wanted *)
Variable caps : Z -> bool.

(* the group numbers of a Capture (M, and N for a balancing group), a Ref and a BackRefCond (M) are keys of the
   capture table: what the writer's mapCapnum assumes (Extract/Drv10.v nums_okb) *)
Definition gq (t m n : Z) : bool :=
  if t =? T_Capture then (if n =? -1 then caps m else caps n && ((m =? -1) || caps m))
  else caps m.

Definition knd (strict : bool) (x : rnode) : bool :=
  let 'RN t _ _ m n _ _ kids := x in
  match kcls t with
  | KCharLoop => nokids kids && bounds_ok m n
  | KLeaf => nokids kids && (negb (t =? T_Ref) || gq t m n)
  | KConcat => true
  | KAlt => negb strict || negb (nokids kids)
  | KLoop => match kids with [k] => bounds_ok m n && (dirb false k || dirb true k) | _ => false end
  | KUnary => match kids with [_] => negb (t =? T_Capture) || gq t m n | _ => false end
  | KBref => match kids with [_] | [_; _] => gq t m n | _ => false end
  | KEcond => match kids with [_; _] | [_; _; _] => true | _ => false end
  | KBad => false
  end.

Fixpoint wfb (x : rnode) : bool :=
  let 'RN t o ch m n str st kids := x in
  knd true (RN t o ch m n str st kids) &&
  (fix all (l : list rnode) : bool := match l with [] => true | k :: r => wfb k && all r end) kids.

Lemma wfb_all_forallb l :
  (fix all (l : list rnode) : bool := match l with [] => true | k :: r => wfb k && all r end) l = forallb wfb l.
Proof. induction l as [|k l IH]; [reflexivity|]. cbn [forallb]. rewrite <- IH. reflexivity. Qed.

Lemma wfb_eq t o ch m n str st kids :
  wfb (RN t o ch m n str st kids) = knd true (RN t o ch m n str st kids) && forallb wfb kids.
Proof. cbn [wfb]. rewrite wfb_all_forallb. reflexivity. Qed.

Definition wf (x : rnode) : Prop := wfb x = true.
Definition wfl (l : list rnode) : Prop := forallb wfb l = true.
(* a node whose children are finished but which has not been reduced itself *)
Definition pre (x : rnode) : Prop := knd false x = true /\ wfl (n_kids x).

Lemma wf_iff t o ch m n str st kids :
  wf (RN t o ch m n str st kids) <-> knd true (RN t o ch m n str st kids) = true /\ wfl kids.
Proof. unfold wf, wfl. rewrite wfb_eq. apply andb_true_iff. Qed.

Lemma knd_strict_weak x : knd true x = true -> knd false x = true.
Proof. destruct x as [t o ch m n str st kids]. unfold knd. destruct (kcls t); auto. Qed.

Lemma knd_weak_strict x : kcls (n_t x) <> KAlt -> knd false x = true -> knd true x = true.
Proof. destruct x as [t o ch m n str st kids]. cbn [n_t]. unfold knd. destruct (kcls t); auto; congruence. Qed.

Lemma wf_pre x : wf x -> pre x.
Proof. destruct x as [t o ch m n str st kids]. intros H. apply wf_iff in H. destruct H as [H1 H2]. split; [apply knd_strict_weak; exact H1 | exact H2]. Qed.

Lemma pre_wf x : kcls (n_t x) <> KAlt -> pre x -> wf x.
Proof.
  destruct x as [t o ch m n str st kids]. intros Hk [H1 H2]. apply wf_iff. split; [apply knd_weak_strict; assumption | exact H2].
Qed.

Lemma wf_kids x : wf x -> wfl (n_kids x).
Proof. intros H. apply wf_pre in H. exact (proj2 H). Qed.

Lemma wfl_cons k l : wfl (k :: l) <-> wf k /\ wfl l.
Proof. unfold wfl, wf. cbn [forallb]. apply andb_true_iff. Qed.
Lemma wfl_app a b : wfl (a ++ b) <-> wfl a /\ wfl b.
Proof. unfold wfl. rewrite forallb_app. apply andb_true_iff. Qed.
Lemma wfl_nil : wfl [].
Proof. reflexivity. Qed.
Lemma wfl_In l x : wfl l -> In x l -> wf x.
Proof. unfold wfl, wf. rewrite forallb_forall. auto. Qed.
Lemma wfl_rev l : wfl l -> wfl (rev l).
Proof.
  unfold wfl. rewrite !forallb_forall. intros H x Hx. apply H. apply in_rev. exact Hx.
Qed.

(* ---------------------------------------------------------------- what a wf node of a given kind looks like *)
Lemma wf_leaf t o ch m n str st : kcls t = KLeaf -> (t =? T_Ref) = false -> wf (RN t o ch m n str st []).
Proof. intros H R. apply wf_iff. split; [unfold knd; rewrite H, R; reflexivity | apply wfl_nil]. Qed.

Lemma wf_charloop t o ch m n str st : is_charloop t = true -> bounds_ok m n = true -> wf (RN t o ch m n str st []).
Proof. intros H B. apply wf_iff. split; [unfold knd; rewrite (kcls_charloop t H), B; reflexivity | apply wfl_nil]. Qed.

Lemma wf_mk_node t o : kcls t = KLeaf -> (t =? T_Ref) = false -> wf (mk_node t o).
Proof. apply wf_leaf. Qed.

Lemma wf_nokids t o ch m n str st kids :
  wf (RN t o ch m n str st kids) -> (kcls t = KLeaf \/ kcls t = KCharLoop) -> kids = [].
Proof.
  intros H K. apply wf_iff in H. destruct H as [H _]. unfold knd in H.
  destruct K as [K|K]; rewrite K in H; destruct kids; [reflexivity | discriminate | reflexivity | discriminate].
Qed.

Lemma wf_charloop_bounds t o ch m n str st kids :
  wf (RN t o ch m n str st kids) -> kcls t = KCharLoop -> bounds_ok m n = true.
Proof.
  intros H K. apply wf_iff in H. destruct H as [H _]. unfold knd in H. rewrite K in H.
  apply andb_prop in H. tauto.
Qed.

Lemma wf_loop_inv t o ch m n str st kids :
  pre (RN t o ch m n str st kids) -> kcls t = KLoop ->
  exists k, kids = [k] /\ wf k /\ bounds_ok m n = true /\ (dirb false k || dirb true k) = true.
Proof.
  intros [H W] K. unfold knd in H. rewrite K in H. cbn [n_kids] in W.
  destruct kids as [|k [|k2 r]]; try discriminate. exists k. apply andb_prop in H. destruct H as [H1 H2].
  apply wfl_cons in W. tauto.
Qed.

(* ---------------------------------------------------------------- makeRep, makeLoopAtomic *)
Lemma make_rep_wf x t m n :
  wf x -> is_char1 (n_t x) = true -> (t = T_Oneloop \/ t = T_Onelazy) -> bounds_ok m n = true ->
  wf (make_rep x t m n) /\ forall d, dirb d (make_rep x t m n) = dirb d x.
Proof.
  destruct x as [t0 o ch m0 n0 str st kids]. cbn [n_t]. intros W C Ht B.
  assert (kids = []) by (eapply wf_nokids; [exact W | left; apply char1_facts; exact C]). subst kids.
  unfold make_rep. cbn [n_t set_t set_mn].
  pose proof (make_rep_kind t0 t C Ht) as L.
  split; [apply wf_charloop; assumption|].
  intros d. destruct (char1_facts t0 C) as [_ [C1 [C2 [C3 _]]]]. destruct (charloop_consuming _ L) as [L1 [L2 L3]].
  apply dirb_retype; congruence.
Qed.

Lemma make_loop_atomic_wf x : wf x -> wf (make_loop_atomic x) /\ forall d, dirb d x = true -> dirb d (make_loop_atomic x) = true.
Proof.
  destruct x as [t o ch m n str st kids]. intros W. unfold make_loop_atomic.
  destruct ((t =? T_Oneloop) || (t =? T_Notoneloop) || (t =? T_Setloop)) eqn:E1.
  { destruct (to_atomic_greedy t E1) as [L L'].
    assert (kids = []) by (eapply wf_nokids; [exact W | right; apply kcls_charloop; exact L]). subst kids.
    pose proof (wf_charloop_bounds _ _ _ _ _ _ _ _ W (kcls_charloop _ L)) as B.
    split; [apply wf_charloop; assumption|].
    intros d Hd. destruct (charloop_consuming _ L) as [A1 [A2 A3]]. destruct (charloop_consuming _ L') as [B1 [B2 B3]].
    rewrite <- Hd. apply dirb_retype; congruence. }
  destruct ((t =? T_Onelazy) || (t =? T_Notonelazy) || (t =? T_Setlazy)) eqn:E2; [|split; [exact W | auto]].
  destruct (to_atomic_lazy t E2) as [L L'].
  assert (kids = []) by (eapply wf_nokids; [exact W | right; apply kcls_charloop; exact L]). subst kids.
  pose proof (wf_charloop_bounds _ _ _ _ _ _ _ _ W (kcls_charloop _ L)) as B.
  destruct (m =? 0).
  { split; [apply wf_leaf; reflexivity | intros d _; apply dirb_nonconsuming_leaf; reflexivity]. }
  destruct (charloop_consuming _ L) as [A1 [A2 A3]].
  destruct ((t + (T_Oneloopatomic - T_Onelazy) =? T_Oneloopatomic) && (2 <=? m) && (m <=? pp_multi_limit)) eqn:E3.
  { split; [apply wf_leaf; reflexivity|]. intros d Hd. rewrite <- Hd. apply dirb_retype; rewrite ?A1, ?A2, ?A3; reflexivity. }
  destruct (charloop_consuming _ L') as [B1 [B2 B3]].
  split; [apply wf_charloop; [exact L' | unfold bounds_ok in *; lia]|].
  intros d Hd. rewrite <- Hd. apply dirb_retype; congruence.
Qed.

(* ---------------------------------------------------------------- reduceSet *)
Lemma reduce_set_node_wf x y : wf x -> is_set_family (n_t x) = true -> reduce_set_node x = Ok y ->
  wf y /\ forall d, dirb d x = true -> dirb d y = true.
Proof.
  destruct x as [t o ch m n str st kids]. cbn [n_t]. intros W Hs E.
  pose proof (is_set_family_cases t Hs) as T.
  assert (KL : kcls t = KLeaf \/ kcls t = KCharLoop) by (destruct T as [-> | [-> | [-> | ->]]]; auto).
  assert (kids = []) by (eapply wf_nokids; eassumption). subst kids.
  assert (CO : consuming t = true /\ is_look t = false /\ (t =? T_ExprCond) = false)
    by (destruct T as [-> | [-> | [-> | ->]]]; repeat split; reflexivity).
  destruct CO as [C1 [C2 C3]].
  (* the result keeps m, n and moves inside the column of the same loop kind *)
  assert (RT : forall dt c', (dt = T_One - T_Set \/ dt = T_Notone - T_Set) ->
            wf (RN (t + dt) o c' m n str None []) /\
            forall d, dirb d (RN t o ch m n str st []) = true -> dirb d (RN (t + dt) o c' m n str None []) = true).
  { intros dt c' Hdt. split.
    - destruct T as [-> | [-> | [-> | ->]]]; destruct Hdt as [-> | ->];
        first [apply wf_leaf; reflexivity
              | apply wf_charloop; [reflexivity | eapply (wf_charloop_bounds _ _ _ _ _ _ _ _ W); reflexivity]].
    - intros d Hd. rewrite <- Hd. apply dirb_retype; try reflexivity;
        destruct T as [-> | [-> | [-> | ->]]]; destruct Hdt as [-> | ->]; reflexivity. }
  unfold reduce_set_node in E. destruct st as [s|].
  2:{ inversion E; subst. split; [apply wf_leaf; reflexivity | intros d _; apply dirb_nonconsuming_leaf; reflexivity]. }
  destruct (is_singleton s).
  { destruct (singleton_char s) as [c| | |]; cbn [bind] in E; try discriminate. inversion E; subst. apply RT. left. reflexivity. }
  destruct (is_singleton_inverse s).
  { destruct (singleton_char s) as [c| | |]; cbn [bind] in E; try discriminate. inversion E; subst. apply RT. right. reflexivity. }
  inversion E; subst. split; [exact W | auto].
Qed.

(* ---------------------------------------------------------------- replaceNodeIfUnnecessary *)
Lemma replace_if_unnecessary_wf x :
  wfl (n_kids x) -> (n_t x = T_Alternate \/ n_t x = T_Concatenate) ->
  wf (replace_if_unnecessary x) /\ forall d, dirl d (n_kids x) -> dirb d (replace_if_unnecessary x) = true.
Proof.
  destruct x as [t o ch m n str st kids]. cbn [n_kids n_t]. intros K Ht. unfold replace_if_unnecessary. cbn [n_kids n_t n_o].
  destruct kids as [|k [|k2 r]].
  - split; [apply wf_mk_node; destruct (t =? T_Alternate); reflexivity|].
    intros d _. apply dirb_nonconsuming_leaf. destruct (t =? T_Alternate); reflexivity.
  - apply wfl_cons in K. split; [tauto|]. intros d Hd. apply dirl_cons in Hd. tauto.
  - split.
    + apply wf_iff. split; [|exact K]. destruct Ht as [-> | ->]; reflexivity.
    + intros d Hd. rewrite dirb_list_node by exact Ht. exact Hd.
Qed.

(* ---------------------------------------------------------------- reduceGroup, reduceLookaround, reduceAtomic *)
Lemma unary_kid t o ch m n str st kids :
  pre (RN t o ch m n str st kids) -> kcls t = KUnary -> exists k, kids = [k] /\ wf k.
Proof.
  intros [H W] K. unfold knd in H. rewrite K in H. cbn [n_kids] in W.
  destruct kids as [|k [|k2 r]]; try discriminate. exists k. apply wfl_cons in W. tauto.
Qed.

Lemma reduce_group_wf : forall x y, wf x -> reduce_group x = Ok y ->
  wf y /\ forall d, dirb d x = true -> dirb d y = true.
Proof.
  induction x as [t o ch m n str st kids IH] using rnode_ind'. intros y W E.
  cbn [reduce_group] in E. destruct (t =? T_Group) eqn:Et; [|inversion E; subst; auto].
  assert (t = T_Group) by lia. subst t.
  destruct (unary_kid _ _ _ _ _ _ _ _ (wf_pre _ W) eq_refl) as [k [-> Wk]].
  inversion IH as [|? ? IHk _]; subst.
  destruct (IHk y Wk E) as [R1 R2]. split; [exact R1|].
  intros d Hd. apply R2. rewrite dirb_eq in Hd. cbn in Hd. rewrite andb_true_r in Hd. exact Hd.
Qed.

Lemma reduce_lookaround_wf x y : pre x -> is_look (n_t x) = true -> reduce_lookaround x = Ok y ->
  wf y /\ forall d, dirb d y = true.
Proof.
  destruct x as [t o ch m n str st kids]. cbn [n_t]. intros P L E.
  pose proof (is_look_cases t L) as T.
  assert (K : kcls t = KUnary) by (destruct T as [-> | ->]; reflexivity).
  destruct (unary_kid _ _ _ _ _ _ _ _ P K) as [k [-> Wk]].
  unfold reduce_lookaround in E. destruct (n_t k =? T_Empty).
  - inversion E; subst. split; [apply wf_leaf; destruct (t =? T_PosLook); reflexivity|].
    intros d. apply dirb_nonconsuming_leaf. destruct (t =? T_PosLook); reflexivity.
  - inversion E; subst. split; [apply pre_wf; [cbn [n_t]; congruence | exact P]|].
    intros d. rewrite dirb_eq, L. reflexivity.
Qed.

Lemma reduce_atomic_wf : forall x y, pre x -> n_t x = T_Atomic -> reduce_atomic x = Ok y ->
  wf y /\ forall d, dirb d x = true -> dirb d y = true.
Proof.
  induction x as [t o ch m n str st kids IH] using rnode_ind'. cbn [n_t]. intros y P Ht E. subst t.
  destruct (unary_kid _ _ _ _ _ _ _ _ P eq_refl) as [k [-> Wk]].
  inversion IH as [|? ? IHk _]; subst.
  assert (D : forall d, dirb d (RN T_Atomic o ch m n str st [k]) = dirb d k) by (intros; apply dirb_unary; reflexivity).
  cbn [reduce_atomic] in E.
  destruct (n_t k =? T_Atomic) eqn:E1.
  { destruct (IHk y (wf_pre _ Wk) ltac:(lia) E) as [R1 R2]. split; [exact R1|]. intros d Hd. apply R2. rewrite <- D. exact Hd. }
  destruct ((n_t k =? T_Empty) || (n_t k =? T_Nothing)).
  { inversion E; subst. split; [exact Wk | intros d Hd; rewrite <- D; exact Hd]. }
  destruct (is_atomicloop_family (n_t k)).
  { inversion E; subst. split; [exact Wk | intros d Hd; rewrite <- D; exact Hd]. }
  match type of E with (if ?b then _ else _) = _ => destruct b end.
  - inversion E; subst. destruct (make_loop_atomic_wf k Wk) as [M1 M2]. split; [exact M1|].
    intros d Hd. apply M2. rewrite <- D. exact Hd.
  - inversion E; subst. split; [apply pre_wf; [cbn [n_t]; discriminate | exact P] | auto].
Qed.

(* ---------------------------------------------------------------- reduceAlternation *)
Lemma forallb_Forall {A} (f : A -> bool) l : forallb f l = true <-> Forall (fun x => f x = true) l.
Proof. rewrite forallb_forall, Forall_forall. reflexivity. Qed.

Lemma wf_passes t : passes wf t.
Proof. intros o ch m n str st kids W. apply forallb_Forall. exact (wf_kids _ W). Qed.

Lemma dirb_passes d t : t = T_Alternate \/ t = T_Concatenate -> passes (fun x => dirb d x = true) t.
Proof. intros Ht o ch m n str st kids H. apply forallb_Forall. rewrite dirb_list_node in H by exact Ht. exact H. Qed.

(* a walk that keeps every node predicate that passes down keeps wfl and dirl *)
Lemma walk_wf (f : list rnode -> list rnode) t : t = T_Alternate \/ t = T_Concatenate ->
  (forall P, passes P t -> forall l, Forall P l -> Forall P (f l)) ->
  forall l, wfl l -> wfl (f l) /\ forall d, dirl d l -> dirl d (f l).
Proof.
  intros Ht F l W. unfold wfl, dirl in *. split; [|intros d H]; apply forallb_Forall.
  - apply (F wf (wf_passes t)), forallb_Forall, W.
  - apply (F _ (dirb_passes d t Ht)), forallb_Forall, H.
Qed.

Lemma flatten_alts_wf l : wfl l -> wfl (flatten_alts l) /\ forall d, dirl d l -> dirl d (flatten_alts l).
Proof. apply (walk_wf flatten_alts T_Alternate); [auto|]. intros P D l0. apply flat_map_all, flat_alt_all, D. Qed.

Lemma drop_redundant_wf l seen : wfl l -> wfl (drop_redundant seen l) /\ forall d, dirl d l -> dirl d (drop_redundant seen l).
Proof. apply (walk_wf (drop_redundant seen) T_Alternate); [auto|]. intros P _ l0. apply drop_redundant_all. Qed.

Lemma remove_redundant_wf x : wfl (n_kids x) -> n_t x = T_Alternate ->
  wf (remove_redundant x) /\ forall d, dirl d (n_kids x) -> dirb d (remove_redundant x) = true.
Proof.
  intros K Ht. unfold remove_redundant.
  destruct (drop_redundant_wf (n_kids x) false K) as [A1 A2].
  destruct (replace_if_unnecessary_wf (set_kids x (drop_redundant false (n_kids x)))) as [B1 B2].
  - destruct x; cbn [set_kids n_kids] in *. exact A1.
  - destruct x; cbn [set_kids n_t] in *. left. exact Ht.
  - split; [exact B1|]. intros d Hd. apply B2. destruct x; cbn [set_kids n_kids] in *. apply A2. exact Hd.
Qed.

Section AlternationOk.
Variable is_word_char : Z -> bool.
Variable to_lower : Z -> Z.
Variable simple_fold : Z -> Z.
Variable participates : Z -> bool.
Variable cat_in : Z -> Z -> bool.
Variable cat_name : list Z -> Z.

Local Notation sl_step := (sl_step cat_in).
Local Notation sl_run := (sl_run cat_in).
Local Notation SLS := (sl_step_ok is_word_char to_lower simple_fold participates cat_in cat_name).

Lemma sl_step_wf s x s' : sl_inv s -> wfl (sl_out s) -> wf x -> sl_step s x = Ok s' ->
  wfl (sl_out s') /\ forall d, dirl d (sl_out s) -> dirb d x = true -> dirl d (sl_out s').
Proof.
  intros [_ Hw] Wo Wx E. unfold Parser.sl_step in E.
  assert (KEEP : forall w c oa, wfl (sl_out (mkSL (x :: sl_out s) w c oa)) /\
            forall d, dirl d (sl_out s) -> dirb d x = true -> dirl d (sl_out (mkSL (x :: sl_out s) w c oa))).
  { intros. cbn [sl_out]. split; [apply wfl_cons; auto | intros d H1 H2; apply dirl_cons; auto]. }
  destruct ((n_t x =? T_Set) || (n_t x =? T_One)) eqn:E0.
  2:{ destruct (n_t x =? T_Nothing); inversion E; subst; [split; auto | apply KEEP]. }
  match type of E with bind ?a _ = _ => destruct a as [fresh| | |] eqn:EF end; cbn [bind] in E; try discriminate.
  destruct fresh as [cannot|]; [inversion E; subst; apply KEEP|].
  assert (W : sl_was s = true).
  { destruct (sl_was s); [reflexivity|]. cbn [negb orb] in EF.
    destruct (n_t x =? T_Set); [destruct (n_set x); discriminate | discriminate]. }
  destruct (Hw W) as [prev [out' [Eo Hp]]]. rewrite Eo in *.
  match type of E with bind ?a _ = _ => destruct a as [pc| | |] end; cbn [bind] in E; try discriminate.
  match type of E with bind ?a _ = _ => destruct a as [pc'| | |] end; cbn [bind] in E; try discriminate.
  destruct prev as [pt po pch pm pn pstr pst pk]. inversion E; subst. cbn [sl_out n_t] in *.
  apply wfl_cons in Wo. destruct Wo as [Wp Wo'].
  assert (C : is_char1 pt = true) by (destruct Hp as [-> | [-> _]]; reflexivity).
  destruct (char1_facts pt C) as [K1 [K2 [K3 [K4 K5]]]].
  assert (pk = []) by (eapply wf_nokids; [exact Wp | left; exact K1]). subst pk.
  split; [apply wfl_cons; split; [apply wf_leaf; reflexivity | exact Wo']|].
  intros d Hd _. apply dirl_cons in Hd. destruct Hd as [D1 D2]. apply dirl_cons. split; [|exact D2].
  rewrite <- D1. apply dirb_retype; rewrite ?K2, ?K3, ?K4; try reflexivity. apply useRTL_clear_I.
Qed.

Lemma sl_run_wf l : forall s s', sl_inv s -> Forall good l -> wfl (sl_out s) -> wfl l -> sl_run s l = Ok s' ->
  wfl (sl_out s') /\ forall d, dirl d (sl_out s) -> dirl d l -> dirl d (sl_out s').
Proof.
  induction l as [|x l IH]; intros s s' Is Gl Wo Wl E; cbn [Parser.sl_run] in E.
  - inversion E; subst. auto.
  - inversion Gl; subst. apply wfl_cons in Wl. destruct Wl as [Wx Wl].
    destruct (SLS s x Is) as [s1 [E1 I1]]; [assumption|]. rewrite E1 in E. cbn [bind] in E.
    destruct (sl_step_wf s x s1 Is Wo Wx E1) as [A1 A2].
    destruct (IH s1 s' I1) as [B1 B2]; try assumption.
    split; [exact B1|]. intros d D1 D2. apply dirl_cons in D2. destruct D2. apply B2; [apply A2|]; assumption.
Qed.

Lemma reduce_alternation_wf x y : Forall good (n_kids x) -> wfl (n_kids x) -> n_t x = T_Alternate ->
  reduce_alternation cat_in x = Ok y ->
  wf y /\ forall d, dirl d (n_kids x) -> dirb d y = true.
Proof.
  intros G K Ht E. unfold reduce_alternation in E.
  destruct (n_kids x) as [|k [|k2 r]] eqn:Ek.
  - inversion E; subst. split; [apply wf_mk_node; reflexivity | intros d _; apply dirb_nonconsuming_leaf; reflexivity].
  - inversion E; subst. apply wfl_cons in K. split; [tauto|]. intros d Hd. apply dirl_cons in Hd. tauto.
  - destruct (flatten_alts_wf (k :: k2 :: r) K) as [F1 F2].
    destruct (sl_run (mkSL [] false false 0) (flatten_alts (k :: k2 :: r))) as [s'| | |] eqn:Es; cbn [bind] in E; try discriminate.
    destruct (sl_run_wf _ (mkSL [] false false 0) s' ltac:(split; cbn; [constructor | discriminate]) (flatten_alts_good _ G) wfl_nil F1 Es) as [S1 S2].
    set (x1 := set_kids x (rev (sl_out s'))) in *.
    assert (K1 : wfl (n_kids x1)) by (subst x1; destruct x; cbn; apply wfl_rev; exact S1).
    assert (T1 : n_t x1 = T_Alternate) by (subst x1; destruct x; cbn in *; exact Ht).
    assert (D1 : forall d, dirl d (k :: k2 :: r) -> dirl d (n_kids x1)).
    { intros d Hd. subst x1. destruct x; cbn. apply dirl_rev. apply S2; [apply dirl_nil | apply F2; exact Hd]. }
    destruct (replace_if_unnecessary_wf x1 K1 (or_introl T1)) as [R1 R2].
    destruct (n_t (replace_if_unnecessary x1) =? T_Alternate) eqn:E2.
    + inversion E; subst.
      destruct (remove_redundant_wf (replace_if_unnecessary x1) (wf_kids _ R1) ltac:(lia)) as [Q1 Q2].
      split; [exact Q1|]. intros d Hd. apply Q2.
      specialize (R2 d (D1 d Hd)).
      destruct (replace_if_unnecessary x1) as [t' o' ch' m' n' str' st' kids']. cbn [n_t n_kids] in *.
      rewrite dirb_list_node in R2 by (left; lia). exact R2.
    + inversion E; subst. split; [exact R1|]. intros d Hd. apply R2. apply D1. exact Hd.
Qed.

End AlternationOk.

(* ---------------------------------------------------------------- reduceConcatenation *)
Definition cl_res_ok (cur nx : rnode) (r : cl_res) : Prop :=
  match r with
  | CL_merged c => wf c /\ forall d, dirb d cur = true -> dirb d nx = true -> dirb d c = true
  | CL_keep c nx' => wf c /\ wf nx' /\ forall d, dirb d cur = true -> dirb d nx = true -> dirb d c = true /\ dirb d nx' = true
  end.

Lemma loop_of_kinds it lp : loop_of it lp = true -> is_char1 it = true /\ is_charloop lp = true.
Proof. unfold loop_of, is_char1, is_charloop. btrue. tauto. Qed.

(* new counts for a loop *)
Lemma set_mn_wf x m' n' : pre x -> loopish (n_t x) -> bounds_ok m' n' = true ->
  wf (set_mn x m' n') /\ forall d, dirb d (set_mn x m' n') = dirb d x.
Proof.
  destruct x as [t o ch m n str st kids]. intros [H W] L B. cbn [n_kids n_t set_mn] in *. split.
  - apply wf_iff. split; [|exact W]. unfold knd in *.
    destruct L as [L|L]; rewrite L in *.
    + destruct kids as [|k [|k2 r]]; try discriminate. apply andb_prop in H. destruct H as [_ H]. rewrite B, H. reflexivity.
    + apply andb_prop in H. destruct H as [H _]. rewrite H, B. reflexivity.
  - intros d. apply dirb_retype; reflexivity.
Qed.

Lemma wf_loopish_bounds x : wf x -> loopish (n_t x) -> bounds_ok (n_m x) (n_n x) = true.
Proof.
  destruct x as [t o ch m n str st kids]. cbn [n_t n_m n_n]. intros W L. apply wf_iff in W. destruct W as [H _].
  unfold knd in H. destruct L as [L|L]; rewrite L in H.
  - destruct kids as [|k [|k2 r]]; try discriminate. apply andb_prop in H. tauto.
  - apply andb_prop in H. tauto.
Qed.

Lemma cl_counts_wf cur k k' : wf cur -> is_charloop (n_t cur) = true -> 0 <= k <= k' ->
  can_combine (n_m cur) (n_n cur) k k' = true ->
  wf (cl_counts cur k k') /\ forall d, dirb d (cl_counts cur k k') = dirb d cur.
Proof.
  intros W L Hk EC. pose proof (or_intror (kcls_charloop _ L) : loopish (n_t cur)) as L'.
  apply set_mn_wf; [apply wf_pre; exact W | exact L'|].
  apply bounds_combine; [apply wf_loopish_bounds; assumption | exact Hk | exact EC].
Qed.

Lemma multi_rest_wf nx k nx' : wf nx -> n_t nx = T_Multi -> multi_rest nx k = Some nx' ->
  wf nx' /\ forall d, dirb d nx' = dirb d nx.
Proof.
  destruct nx as [t o ch m n str st kids]. cbn [n_t multi_rest]. intros W -> E.
  assert (kids = []) by (eapply wf_nokids; [exact W | left; reflexivity]). subst kids.
  destruct (zlen str =? k); [discriminate|]. inversion E; subst nx'.
  destruct (zlen str - k =? 1); (split; [apply wf_leaf; reflexivity | intros d; apply dirb_retype; reflexivity]).
Qed.

Lemma cl_combine_wf cur nx r : wf cur -> wf nx -> cl_combine cur nx = Ok r -> cl_res_ok cur nx r.
Proof.
  intros Wc Wn E. pose proof (cl_combine_cases cur nx) as C. rewrite E in C.
  destruct C as [|L T EC|L EC|k L T Ek EC|L EC|T]; cbn [cl_res_ok].
  - auto.
  - destruct (cl_counts_wf cur (n_m nx) (n_n nx) Wc L) as [A1 A2]; [|exact EC|split; [exact A1 | intros d H _; rewrite A2; exact H]].
    assert (B : bounds_ok (n_m nx) (n_n nx) = true)
      by (apply wf_loopish_bounds; [exact Wn | right; rewrite T; apply kcls_charloop; exact L]).
    unfold bounds_ok in B. lia.
  - destruct (cl_counts_wf cur 1 1 Wc (proj2 (loop_of_kinds _ _ L))) as [A1 A2]; [lia | exact EC|].
    split; [exact A1 | intros d H _; rewrite A2; exact H].
  - pose proof (count_prefix_le (n_ch cur) (n_str nx)) as CP. rewrite <- Ek in CP.
    destruct (cl_counts_wf cur k k Wc (proj2 (loop_of_kinds _ _ L))) as [A1 A2]; [lia | exact EC|].
    destruct (multi_rest nx k) as [nx'|] eqn:ER; [|split; [exact A1 | intros d H _; rewrite A2; exact H]].
    destruct (multi_rest_wf nx k nx' Wn T ER) as [M1 M2].
    split; [exact A1|]. split; [exact M1|]. intros d H1 H2. rewrite A2, M2. auto.
  - destruct (loop_of_kinds _ _ L) as [C1 L1].
    destruct (char1_facts _ C1) as [K1 [K2 [K3 [K4 K5]]]]. destruct (charloop_consuming _ L1) as [L2 [L3 L4]].
    pose proof (wf_loopish_bounds nx Wn (or_intror (kcls_charloop _ L1))) as Bn.
    destruct cur as [ct co cch cm cn cstr cset ckids]. cbn [n_t set_t set_mn] in *.
    assert (ckids = []) by (eapply wf_nokids; [exact Wc | left; exact K1]). subst ckids.
    split; [apply wf_charloop; [exact L1 | apply bounds_combine1'; assumption]|].
    intros d H1 _. rewrite <- H1. apply dirb_retype; congruence.
  - destruct (make_rep_wf cur T_Oneloop 2 2 Wc) as [A1 A2]; [destruct T as [-> | ->]; reflexivity | auto | reflexivity |].
    split; [exact A1 | intros d H1 _; rewrite A2; exact H1].
Qed.

(* the previous node takes a merge: it is a One or a Multi *)
Definition st_inv2 (s : st_state) : Prop :=
  wfl (st_out s) /\
  (st_was s = true -> exists prev out', st_out s = prev :: out' /\ (n_t prev = T_One \/ n_t prev = T_Multi)).

Lemma st_step_wf s x s' : st_inv2 s -> wf x -> st_step s x = Ok s' ->
  st_inv2 s' /\ forall d, dirl d (st_out s) -> dirb d x = true -> dirl d (st_out s').
Proof.
  intros [Wo Hw] Wx E. unfold st_step in E.
  destruct ((n_t x =? T_Multi) || (n_t x =? T_One)) eqn:E0.
  2:{ destruct (n_t x =? T_Empty); inversion E; subst; [split; [split; assumption | auto]|].
      split; [split; cbn; [apply wfl_cons; auto | discriminate] | intros d H1 H2; cbn; apply dirl_cons; auto]. }
  destruct (negb (st_was s) || negb (st_opt s =? li_mask (n_o x))) eqn:E2.
  { inversion E; subst. split; [split; cbn; [apply wfl_cons; auto|] | intros d H1 H2; cbn; apply dirl_cons; auto].
    intros _. exists x, (st_out s). split; [reflexivity | lia]. }
  assert (W : st_was s = true) by (destruct (st_was s); [reflexivity | discriminate]).
  destruct (Hw W) as [prev [out' [Eo Hp]]]. rewrite Eo in *.
  destruct prev as [pt po pch pm pn pstr pset pk]. inversion E; subst. cbn [n_t st_out st_was] in *.
  apply wfl_cons in Wo. destruct Wo as [Wp Wo'].
  assert (K : kcls pt = KLeaf /\ consuming pt = true /\ is_look pt = false /\ (pt =? T_ExprCond) = false)
    by (destruct Hp as [-> | ->]; repeat split; reflexivity).
  destruct K as [K1 [K2 [K3 K4]]].
  assert (pk = []) by (eapply wf_nokids; [exact Wp | left; exact K1]). subst pk.
  split.
  - split; [apply wfl_cons; split; [apply wf_leaf; reflexivity | exact Wo']|].
    intros _. eexists _, _. split; [reflexivity | right; reflexivity].
  - intros d Hd _. apply dirl_cons in Hd. destruct Hd as [D1 D2]. apply dirl_cons. split; [|exact D2].
    rewrite <- D1. apply dirb_retype; rewrite ?K2, ?K3, ?K4; reflexivity.
Qed.

Lemma st_run_wf l : forall s s', st_inv2 s -> wfl l -> st_run s l = Ok s' ->
  st_inv2 s' /\ forall d, dirl d (st_out s) -> dirl d l -> dirl d (st_out s').
Proof.
  induction l as [|x l IH]; intros s s' Is Wl E; cbn [st_run] in E.
  - inversion E; subst. auto.
  - apply wfl_cons in Wl. destruct Wl as [Wx Wl].
    destruct (st_step s x) as [s1| | |] eqn:E1; cbn [bind] in E; try discriminate.
    destruct (st_step_wf s x s1 Is Wx E1) as [A1 A2].
    destruct (IH s1 s' A1 Wl E) as [B1 B2].
    split; [exact B1|]. intros d D1 D2. apply dirl_cons in D2. destruct D2. apply B2; [apply A2|]; assumption.
Qed.

Lemma flat_map_concat_wf rtl l : wfl l ->
  wfl (flat_map (flat_concat rtl) l) /\ forall d, dirl d l -> dirl d (flat_map (flat_concat rtl) l).
Proof. apply (walk_wf (flat_map (flat_concat rtl)) T_Concatenate); [auto|]. intros P D l0. apply flat_map_all, flat_concat_all, D. Qed.

Section ConcatenationOk.
Variable is_word_char : Z -> bool.
Variable to_lower : Z -> Z.
Variable simple_fold : Z -> Z.
Variable participates : Z -> bool.
Variable cat_in : Z -> Z -> bool.
Variable cat_name : list Z -> Z.

Lemma cl_loop_wf l : forall cur l', Forall good l -> good cur -> wf cur -> wfl l -> cl_loop cur l = Ok l' ->
  wfl l' /\ forall d, dirb d cur = true -> dirl d l -> dirl d l'.
Proof.
  induction l as [|nx l IH]; intros cur l' Gl Gc Wc Wl E; cbn [cl_loop] in E.
  - inversion E; subst. split; [apply wfl_cons; split; [exact Wc | apply wfl_nil]|].
    intros d H _. apply dirl_cons. split; [exact H | apply dirl_nil].
  - inversion Gl; subst. apply wfl_cons in Wl. destruct Wl as [Wn Wl].
    destruct (cl_combine cur nx) as [r| | |] eqn:Er; cbn [bind] in E; try discriminate.
    pose proof (cl_combine_wf cur nx r Wc Wn Er) as R.
    match goal with G1 : good nx |- _ => destruct (cl_combine_ok is_word_char to_lower simple_fold participates cat_in cat_name cur nx Gc G1) as [r' [Er' Gr]] end.
    rewrite Er in Er'. inversion Er'; subst r'.
    destruct r as [c|c nx']; cbn [cl_res_ok] in R.
    + destruct R as [R1 R2]. destruct (IH c l') as [A1 A2]; try assumption.
      split; [exact A1|]. intros d Dc Dl. apply dirl_cons in Dl. destruct Dl. apply A2; auto.
    + destruct R as [R1 [R2 R3]]. destruct Gr as [Gr1 Gr2].
      destruct (cl_loop nx' l) as [t| | |] eqn:Et; cbn [bind] in E; try discriminate. inversion E; subst.
      destruct (IH nx' t) as [A1 A2]; try assumption.
      split; [apply wfl_cons; auto|]. intros d Dc Dl. apply dirl_cons in Dl. destruct Dl as [Dn Dl].
      destruct (R3 d Dc Dn). apply dirl_cons. split; [assumption | apply A2; assumption].
Qed.

Lemma reduce_concatenation_wf x y : Forall good (n_kids x) -> wfl (n_kids x) -> n_t x = T_Concatenate ->
  reduce_concatenation x = Ok y ->
  wf y /\ forall d, dirl d (n_kids x) -> dirb d y = true.
Proof.
  intros G K Ht E. unfold reduce_concatenation in E.
  destruct (n_kids x) as [|k0 [|k1 r]] eqn:Ek.
  - inversion E; subst. split; [apply wf_mk_node; reflexivity | intros d _; apply dirb_nonconsuming_leaf; reflexivity].
  - inversion E; subst. apply wfl_cons in K. split; [tauto|]. intros d Hd. apply dirl_cons in Hd. tauto.
  - destruct (find (fun k => n_t k =? T_Nothing) (k0 :: k1 :: r)) as [kn|] eqn:Ef.
    { inversion E; subst. apply find_some in Ef. destruct Ef as [Hin _].
      split; [eapply wfl_In; eassumption | intros d Hd; eapply dirl_In; eassumption]. }
    inversion G as [|? ? G0 Gr]; subst. apply wfl_cons in K. destruct K as [W0 Wr].
    destruct (cl_loop k0 (k1 :: r)) as [l1| | |] eqn:E1; cbn [bind] in E; try discriminate.
    destruct (cl_loop_wf (k1 :: r) k0 l1 Gr G0 W0 Wr E1) as [C1 C2].
    destruct (flat_map_concat_wf (useRTL (n_o x)) l1 C1) as [F1 F2].
    destruct (st_run (mkST [] false 0) (flat_map (flat_concat (useRTL (n_o x))) l1)) as [s'| | |] eqn:E2; cbn [bind] in E; try discriminate.
    destruct (st_run_wf _ (mkST [] false 0) s' ltac:(split; cbn; [apply wfl_nil | discriminate]) F1 E2) as [[S1 _] S2].
    inversion E; subst.
    destruct (replace_if_unnecessary_wf (set_kids x (rev (st_out s')))) as [R1 R2].
    + destruct x; cbn. apply wfl_rev. exact S1.
    + destruct x; cbn in *. right. exact Ht.
    + split; [exact R1|]. intros d Hd. apply R2. destruct x; cbn. apply dirl_rev. apply dirl_cons in Hd. destruct Hd as [D0 Dr].
      apply S2; [apply dirl_nil | apply F2; apply C2; assumption].
Qed.

End ConcatenationOk.

(* ---------------------------------------------------------------- reduceRep *)
Lemma rep_descend_wf t mn mx : is_loop_t t = true -> bounds_ok mn mx = true -> forall u um un,
  pre u -> loopish (n_t u) -> bounds_ok um un = true ->
  wf (rep_descend t mn mx u um un) /\ loopish (n_t (rep_descend t mn mx u um un)) /\
  bounds_ok (n_m (rep_descend t mn mx u um un)) (n_n (rep_descend t mn mx u um un)) = true /\
  (forall d, dirb d u = true -> dirb d (rep_descend t mn mx u um un) = true).
Proof.
  intros Ht Bq. induction u as [ut uo uch um0 un0 ustr uset ukids IH] using rnode_ind'. intros um un P L B.
  cbn [n_t] in L. cbn [rep_descend].
  assert (H0 : wf (RN ut uo uch um un ustr uset ukids) /\ loopish (n_t (RN ut uo uch um un ustr uset ukids)) /\
               bounds_ok (n_m (RN ut uo uch um un ustr uset ukids)) (n_n (RN ut uo uch um un ustr uset ukids)) = true /\
               (forall d, dirb d (RN ut uo uch um0 un0 ustr uset ukids) = true -> dirb d (RN ut uo uch um un ustr uset ukids) = true)).
  { destruct (set_mn_wf (RN ut uo uch um0 un0 ustr uset ukids) um un P L B) as [A1 A2].
    split; [exact A1|]. split; [exact L|]. split; [exact B|]. intros d Hd. rewrite A2. exact Hd. }
  destruct ukids as [|child r]; [exact H0|].
  match goal with |- context [if negb ?b then _ else _] => destruct b eqn:EV end; cbn [negb]; [|exact H0].
  match goal with |- context [if ?b then _ else _] => destruct b end; [exact H0|].
  (* u has a child: it is a Loop / Lazyloop with exactly this child *)
  assert (KL : kcls ut = KLoop).
  { destruct L as [L|L]; [exact L|]. destruct P as [H _]. unfold knd in H. rewrite L in H. discriminate. }
  destruct (wf_loop_inv _ _ _ _ _ _ _ _ P KL) as [k [Ek [Wk _]]]. inversion Ek; subst k r.
  inversion IH as [|? ? IHc _]; subst.
  assert (Lc : loopish (n_t child)).
  { pose proof (is_loop_t_cases t Ht) as T.
    assert (C : n_t child = t \/ is_charloop (n_t child) = true).
    { destruct (n_t child =? t) eqn:E1; [left; lia|]. right.
      destruct (t =? T_Loop) eqn:E2.
      - destruct ((n_t child =? T_Oneloop) || (n_t child =? T_Notoneloop) || (n_t child =? T_Setloop)) eqn:E3; [exact (proj1 (to_atomic_greedy _ E3))|].
        destruct (is_atomicloop_family (n_t child)) eqn:E4; [exact (atomicloop_charloop _ E4) | discriminate].
      - rewrite ?E1, ?E2 in EV. exact (proj1 (to_atomic_lazy _ EV)). }
    destruct C as [C|C]; [left; rewrite C; destruct T as [-> | ->]; reflexivity | right; apply kcls_charloop; exact C]. }
  pose proof (wf_loopish_bounds child Wk Lc) as Bc.
  destruct (IHc (mulsat (n_m child) mn) (mulsat (n_n child) mx) (wf_pre _ Wk) Lc (mulsat_bounds _ _ _ _ Bc Bq)) as [R1 [R2 [R3 R4]]].
  unfold mulsat in *.
  split; [exact R1|]. split; [exact R2|]. split; [exact R3|].
  intros d Hd. apply R4. rewrite loop_kid_dir in Hd by exact KL. exact Hd.
Qed.

Lemma reduce_rep_wf x : pre x -> is_loop_t (n_t x) = true ->
  wf (reduce_rep x) /\ forall d, dirb d x = true -> dirb d (reduce_rep x) = true.
Proof.
  intros P Ht. destruct x as [t o ch m n str st kids]. cbn [n_t] in Ht.
  assert (KL : kcls t = KLoop) by (destruct (is_loop_t_cases t Ht) as [-> | ->]; reflexivity).
  destruct (wf_loop_inv _ _ _ _ _ _ _ _ P KL) as [k [-> [Wk [B Dk]]]].
  unfold reduce_rep.
  destruct (rep_descend_wf t m n Ht B (RN t o ch m n str st [k]) m n P (or_introl KL) B) as [U1 [U2 [U3 U4]]].
  set (u := rep_descend t m n (RN t o ch m n str st [k]) m n) in *.
  assert (GEN : wf (if m =? pp_inf then mk_node T_Nothing o
    else match n_kids u with
         | [c] => if (n_t c =? T_One) || (n_t c =? T_Notone) || (n_t c =? T_Set)
                  then make_rep c (if n_t u =? T_Lazyloop then T_Onelazy else T_Oneloop) (n_m u) (n_n u)
                  else u
         | _ => u
         end) /\
    forall d, dirb d (RN t o ch m n str st [k]) = true ->
      dirb d (if m =? pp_inf then mk_node T_Nothing o
    else match n_kids u with
         | [c] => if (n_t c =? T_One) || (n_t c =? T_Notone) || (n_t c =? T_Set)
                  then make_rep c (if n_t u =? T_Lazyloop then T_Onelazy else T_Oneloop) (n_m u) (n_n u)
                  else u
         | _ => u
         end) = true).
  { destruct (m =? pp_inf); [split; [apply wf_mk_node; reflexivity | intros d _; apply dirb_nonconsuming_leaf; reflexivity]|].
    clearbody u. destruct u as [ut uo uch um un ustr ust ukids]. cbn [n_kids n_t n_m n_n] in *.
    destruct ukids as [|c [|c2 r]]; try (split; [exact U1 | exact U4]).
    destruct ((n_t c =? T_One) || (n_t c =? T_Notone) || (n_t c =? T_Set)) eqn:E; [|split; [exact U1 | exact U4]].
    assert (Wc : wf c) by (apply wf_kids in U1; cbn in U1; apply wfl_cons in U1; tauto).
    assert (KU : kcls ut = KLoop).
    { destruct U2 as [L|L]; [exact L|]. apply wf_iff in U1. destruct U1 as [H _]. unfold knd in H. rewrite L in H. discriminate. }
    destruct (make_rep_wf c (if ut =? T_Lazyloop then T_Onelazy else T_Oneloop) um un Wc E) as [M1 M2].
    - destruct (ut =? T_Lazyloop); auto.
    - exact U3.
    - split; [exact M1|]. intros d Hd. rewrite M2. specialize (U4 d Hd). rewrite loop_kid_dir in U4 by exact KU. exact U4. }
  destruct (n_t k =? T_Empty); [|exact GEN].
  split; [exact Wk|]. intros d Hd. rewrite loop_kid_dir in Hd by exact KL. exact Hd.
Qed.

(* ---------------------------------------------------------------- reduce, addChild, makeQuantifier *)
Lemma pre_reopt t o ch m n str st kids o' :
  pre (RN t o ch m n str st kids) -> pre (RN t o' ch m n str st kids).
Proof. intros [H W]. split; [exact H | exact W]. Qed.

Lemma econd_kids t o ch m n str st kids :
  pre (RN t o ch m n str st kids) -> t = T_ExprCond ->
  exists c r, kids = c :: r /\ wf c /\ wfl r /\ (1 <= length r <= 2)%nat.
Proof.
  intros [H W] ->. unfold knd in H. cbn in H. cbn [n_kids] in W.
  destruct kids as [|c [|c2 [|c3 [|c4 r]]]]; try discriminate; exists c; eexists; (split; [reflexivity|]);
    apply wfl_cons in W; destruct W as [W1 W2]; (split; [exact W1|]); (split; [exact W2|]); cbn; lia.
Qed.

Section ReduceOk.
Variable is_word_char : Z -> bool.
Variable to_lower : Z -> Z.
Variable simple_fold : Z -> Z.
Variable participates : Z -> bool.
Variable cat_in : Z -> Z -> bool.
Variable cat_name : list Z -> Z.

Local Notation reduce := (reduce cat_in).
Local Notation add_child := (add_child cat_in).
Local Notation make_quantifier := (make_quantifier cat_in).
Local Notation RALT := (reduce_alternation_wf is_word_char to_lower simple_fold participates cat_in cat_name).
Local Notation RCAT := (reduce_concatenation_wf is_word_char to_lower simple_fold participates cat_in cat_name).
Local Notation ROK := (reduce_ok is_word_char to_lower simple_fold participates cat_in cat_name).

Lemma reduce_wf_h : forall h x y, (height x <= h)%nat -> good x -> pre x -> reduce x = Ok y ->
  wf y /\ forall d, dirb d x = true -> dirb d y = true.
Proof.
  induction h as [|h IH]; intros x y Hh G P E; [destruct x; cbn in Hh; lia|].
  destruct x as [t o ch m n str st kids]. cbn [Parser.reduce] in E.
  set (o1 := if t =? T_Ref then o else clear_I o) in *.
  assert (G1 : good (RN t o1 ch m n str st kids)) by (eapply good_retype; [exact G| | |]; auto).
  pose proof (good_kids _ G1) as K1. cbn [n_kids] in K1.
  assert (P1 : pre (RN t o1 ch m n str st kids)) by (eapply pre_reopt; exact P).
  pose proof (proj2 P1) as W1. cbn [n_kids] in W1.
  assert (D1 : forall d, dirb d (RN t o ch m n str st kids) = dirb d (RN t o1 ch m n str st kids)).
  { intros d. apply dirb_retype; try reflexivity. subst o1. destruct (t =? T_Ref); [reflexivity | symmetry; apply useRTL_clear_I]. }
  assert (FIN : forall z, (wf z /\ forall d, dirb d (RN t o1 ch m n str st kids) = true -> dirb d z = true) ->
                 wf z /\ forall d, dirb d (RN t o ch m n str st kids) = true -> dirb d z = true).
  { intros z [Z1 Z2]. split; [exact Z1|]. intros d Hd. apply Z2. rewrite <- D1. exact Hd. }
  destruct (t =? T_Alternate) eqn:E1.
  { apply FIN. destruct (RALT (RN t o1 ch m n str st kids) y K1 W1 ltac:(cbn; lia) E) as [A1 A2]. split; [exact A1|].
    intros d Hd. apply A2. cbn [n_kids]. rewrite dirb_list_node in Hd by (left; lia). exact Hd. }
  destruct (t =? T_Atomic) eqn:E2.
  { apply FIN. apply reduce_atomic_wf; [exact P1 | cbn; lia | exact E]. }
  destruct (t =? T_Concatenate) eqn:E3.
  { apply FIN. destruct (RCAT (RN t o1 ch m n str st kids) y K1 W1 ltac:(cbn; lia) E) as [A1 A2]. split; [exact A1|].
    intros d Hd. apply A2. cbn [n_kids]. rewrite dirb_list_node in Hd by (right; lia). exact Hd. }
  destruct (t =? T_Group) eqn:E4.
  { apply FIN. apply reduce_group_wf; [|exact E]. apply pre_wf; [|exact P1]. cbn [n_t]. assert (t = T_Group) by lia. subst t. discriminate. }
  destruct ((t =? T_Loop) || (t =? T_Lazyloop)) eqn:E5.
  { apply FIN. assert (Ey : y = reduce_rep (RN t o1 ch m n str st kids)) by congruence. subst y. apply reduce_rep_wf; [exact P1 | exact E5]. }
  destruct ((t =? T_PosLook) || (t =? T_NegLook)) eqn:E6.
  { apply FIN. destruct (reduce_lookaround_wf _ y P1 E6 E) as [A1 A2]. split; [exact A1 | intros d _; apply A2]. }
  destruct (is_set_family t) eqn:E7.
  { apply FIN. apply reduce_set_node_wf; [|exact E7 | exact E].
    apply pre_wf; [|exact P1]. cbn [n_t]. pose proof (is_set_family_cases t E7) as T.
    destruct T as [-> | [-> | [-> | ->]]]; discriminate. }
  destruct (t =? T_ExprCond) eqn:E8.
  { apply FIN. assert (t = T_ExprCond) by lia. subst t.
    destruct (econd_kids _ _ _ _ _ _ _ _ P1 eq_refl) as [cond [r [Ek [Wc [Wr Lr]]]]]. subst kids.
    set (kids2 := match cond :: r with [_; _] => (cond :: r) ++ [mk_node T_Empty o1] | _ => cond :: r end) in *.
    assert (K2 : exists r2, kids2 = cond :: r2 /\ wfl r2 /\ (2 <= length (cond :: r2) <= 3)%nat /\
                  forall d, dirl d r -> dirl d r2).
    { subst kids2. destruct r as [|b [|c r']].
      - cbn in Lr. lia.
      - exists [b; mk_node T_Empty o1]. cbn [app]. split; [reflexivity|]. split.
        + apply wfl_cons. split; [apply wfl_cons in Wr; tauto|]. apply wfl_cons. split; [apply wf_mk_node; reflexivity | apply wfl_nil].
        + split; [cbn; lia|]. intros d Hd. apply dirl_cons in Hd. apply dirl_cons. split; [tauto|].
          apply dirl_cons. split; [apply dirb_nonconsuming_leaf; reflexivity | apply dirl_nil].
      - exists (b :: c :: r'). split; [reflexivity|]. split; [exact Wr|]. split; [cbn in *; lia | auto]. }
    destruct K2 as [r2 [Ek2 [Wr2 [L2 Dr2]]]]. rewrite Ek2 in E. clearbody kids2. clear Ek2.
    assert (ARITY : forall c0, knd true (RN T_ExprCond o1 ch m n str st (c0 :: r2)) = true).
    { intros c0. unfold knd. cbn. destruct r2 as [|b [|c [|c4 r']]]; try reflexivity; cbn in L2; lia. }
    assert (DIR : forall c0 d, dirb d (RN T_ExprCond o1 ch m n str st (cond :: r)) = true ->
                   dirb d (RN T_ExprCond o1 ch m n str st (c0 :: r2)) = true).
    { intros c0 d Hd. rewrite dirb_econd in Hd |- *. cbn [tl] in Hd |- *. apply Dr2. exact Hd. }
    destruct cond as [ct co cch cm cn cstr cst ckids].
    destruct ((ct =? T_PosLook) && negb (useRTL co)) eqn:EC.
    - assert (ct = T_PosLook) by lia. subst ct.
      destruct (unary_kid _ _ _ _ _ _ _ _ (wf_pre _ Wc) eq_refl) as [c [-> Wcc]].
      assert (Gc : good c).
      { inversion K1 as [|? ? Hc _]; subst. apply good_kids in Hc. cbn in Hc. inversion Hc; assumption. }
      destruct (reduce c) as [c'| | |] eqn:Ec; cbn [bind] in E; try discriminate. inversion E; subst.
      destruct (IH c c') as [C1 _]; [cbn [height] in Hh |- *; lia | exact Gc | apply wf_pre; exact Wcc | exact Ec |].
      split; [|intros d Hd; cbn [tl]; apply DIR; exact Hd].
      apply wf_iff. split; [apply ARITY | apply wfl_cons; split; [exact C1 | exact Wr2]].
    - inversion E; subst. split; [|intros d Hd; apply DIR; exact Hd].
      apply wf_iff. split; [apply ARITY | apply wfl_cons; split; [exact Wc | exact Wr2]]. }
  destruct (t =? T_BackRefCond) eqn:E9.
  { apply FIN. assert (t = T_BackRefCond) by lia. subst t.
    destruct kids as [|k [|k2 r]].
    - inversion E; subst. destruct P1 as [H _]. discriminate.
    - inversion E; subst. apply wfl_cons in W1. destruct W1 as [Wk _]. split.
      + apply wf_iff. split; [destruct P1 as [H _]; cbn in H |- *; exact H|]. apply wfl_cons. split; [exact Wk|]. apply wfl_cons. split; [apply wf_mk_node; reflexivity | apply wfl_nil].
      + intros d Hd. rewrite dirb_bref in Hd |- *. cbn [forallb] in Hd |- *. unfold mk_node.
        rewrite dirb_nonconsuming_leaf by reflexivity. exact Hd.
    - inversion E; subst. split; [apply pre_wf; [discriminate | exact P1] | auto]. }
  apply FIN. inversion E; subst. split; [|auto]. apply pre_wf; [|exact P1]. cbn [n_t].
  intros KA. pose proof (kcls_spec t) as S. rewrite KA in S. rewrite S in E1. discriminate.
Qed.

Lemma reduce_wf x y : good x -> pre x -> reduce x = Ok y -> wf y /\ forall d, dirb d x = true -> dirb d y = true.
Proof. apply (reduce_wf_h (height x)). lia. Qed.

Lemma add_child_wf parent child p' : good child -> pre child -> add_child parent child = Ok p' ->
  exists r, p' = set_kids parent (n_kids parent ++ [r]) /\ wf r /\ forall d, dirb d child = true -> dirb d r = true.
Proof.
  intros G P E. unfold Parser.add_child in E. destruct (reduce child) as [r| | |] eqn:Er; cbn [bind] in E; try discriminate.
  inversion E; subst. exists r. split; [reflexivity|]. eapply reduce_wf; eassumption.
Qed.

Lemma make_quantifier_wf x lazy mn mx y d0 :
  good x -> pre x -> dirb d0 x = true -> bounds_ok mn mx = true -> make_quantifier x lazy mn mx = Ok y ->
  pre y /\ forall d, dirb d x = true -> dirb d y = true.
Proof.
  intros G P D0 B E. destruct x as [t o ch m n str st kids]. unfold Parser.make_quantifier in E.
  destruct ((mn =? 0) && (mx =? 0)).
  { inversion E; subst. split; [apply wf_pre; apply wf_mk_node; reflexivity | intros d _; apply dirb_nonconsuming_leaf; reflexivity]. }
  destruct ((mn =? 1) && (mx =? 1)); [inversion E; subst; auto|].
  destruct ((mn =? mx) && (mx <=? pp_multi_limit) && (t =? T_One)) eqn:E3.
  { assert (t = T_One) by lia. subst t. inversion E; subst.
    assert (kids = []) by (destruct P as [H _]; cbn in H; destruct kids; [reflexivity | discriminate]). subst kids.
    split; [apply wf_pre; apply wf_leaf; reflexivity|]. intros d Hd. rewrite <- Hd. apply dirb_retype; reflexivity. }
  destruct ((t =? T_One) || (t =? T_Notone) || (t =? T_Set)) eqn:E4.
  { inversion E; subst.
    assert (W : wf (RN t o ch m n str st kids)).
    { apply pre_wf; [|exact P]. cbn [n_t]. rewrite (proj1 (char1_facts t E4)). discriminate. }
    destruct (make_rep_wf (RN t o ch m n str st kids) (if lazy then T_Onelazy else T_Oneloop) mn mx W E4) as [M1 M2].
    - destruct lazy; auto.
    - exact B.
    - split; [apply wf_pre; exact M1 | intros d Hd; rewrite M2; exact Hd]. }
  destruct (add_child_wf _ _ _ G P E) as [r [-> [Wr Dr]]]. cbn [mk_node_mn set_kids n_kids app].
  split.
  - split; [|cbn [n_kids]; apply wfl_cons; split; [exact Wr | apply wfl_nil]].
    unfold knd. destruct lazy; cbn; rewrite B; cbn; specialize (Dr d0 D0); destruct d0; rewrite Dr; [apply orb_true_r | reflexivity | apply orb_true_r | reflexivity].
  - intros d Hd. destruct lazy; rewrite loop_kid_dir by reflexivity; apply Dr; exact Hd.
Qed.

End ReduceOk.

Lemma reverse_left_pre x : wfl (n_kids x) -> n_t x = T_Concatenate ->
  pre (reverse_left x) /\ forall d, dirl d (n_kids x) -> dirb d (reverse_left x) = true.
Proof.
  intros K Ht. unfold reverse_left. destruct (useRTL (n_o x) && (n_t x =? T_Concatenate)).
  - destruct x as [t o ch m n str st kids]. cbn [n_kids n_t set_kids] in *. subst t. split.
    + split; [reflexivity | cbn [n_kids]; apply wfl_rev; exact K].
    + intros d Hd. rewrite dirb_list_node by auto. apply dirl_rev. exact Hd.
  - destruct x as [t o ch m n str st kids]. cbn [n_kids n_t] in *. subst t. split.
    + split; [reflexivity | exact K].
    + intros d Hd. rewrite dirb_list_node by auto. exact Hd.
Qed.

Section Ctors.
Variable simple_fold : Z -> Z.
Variable cat_in : Z -> Z -> bool.

(* a fresh single-character node under the options o: well formed and running in o's direction *)
Definition unit_ok (o : Z) (x : rnode) : Prop := wf x /\ dirb (useRTL o) x = true.

Lemma unit_ok_leaf o t o' ch m n str st :
  kcls t = KLeaf -> (t =? T_Ref) = false -> is_look t = false -> useRTL o' = useRTL o -> unit_ok o (RN t o' ch m n str st []).
Proof.
  intros K NR L R. split; [apply wf_leaf; assumption|]. rewrite dirb_leaf, L, R. destruct (consuming t); [apply eqb_refl_b | reflexivity].
Qed.

Lemma case_conv_unit t o ch st y : is_char1 t = true ->
  case_conv simple_fold cat_in (RN t o ch 0 0 [] st []) = POk y -> unit_ok o y.
Proof.
  intros C E. destruct (char1_facts t C) as [K1 [K2 [K3 [K4 K5]]]]. unfold case_conv in E.
  destruct (negb (useI o)); [inversion E; subst; apply unit_ok_leaf; auto|].
  destruct (0 <? ch).
  - destruct (negb (simple_fold ch =? ch)); [|inversion E; subst; apply unit_ok_leaf; auto].
    destruct (case_close simple_fold cat_in (add_char cat_in empty_cls ch)); cbn [pbind] in E; try discriminate.
    inversion E; subst.
    pose proof (is_char1_cases t C) as T.
    destruct T as [-> | [-> | ->]]; cbn; apply unit_ok_leaf; try reflexivity; apply useRTL_clear_I.
  - destruct st as [s|]; [|inversion E; subst; apply unit_ok_leaf; auto].
    destruct (case_close simple_fold cat_in s); cbn [pbind] in E; try discriminate.
    inversion E; subst. apply unit_ok_leaf; auto. apply useRTL_clear_I.
Qed.

Lemma mk_node_ch_unit t o ch y : is_char1 t = true -> mk_node_ch simple_fold cat_in t o ch = POk y -> unit_ok o y.
Proof. intros C E. eapply case_conv_unit; eassumption. Qed.

Lemma mk_node_set_unit o s y : mk_node_set simple_fold cat_in T_Set o s = POk y -> unit_ok o y.
Proof. intros E. eapply (case_conv_unit T_Set); [reflexivity | exact E]. Qed.

End Ctors.

End Caps.

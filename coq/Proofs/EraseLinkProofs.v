(* C02, the link between the writer and the spec level: the in-use vector that syntax.Write
   computes from the full program (captureSlotsInUse, Model/Writer.slots_in_use) keeps every group
   whose capture stack the search reads.  Hence the quick program is the program of a tree obtained
   by erasing only unread plain captures (EraseProofs E2), and that erasure preserves matches
   (EraseProofs E1):  quick_keep_unobs, write_quick_sound. *)
From Verif Require Import Base.Prelude Model.Tree Model.Spec Model.VM Model.Writer Gen.CodeGen.
From Verif Require Import Proofs.SpecProofs Proofs.MaskProofs Proofs.EraseProofs.
From Coq Require Import ZifyBool.

(* one step of captureSlotsInUse                                                               *)

Definition smark (acc : list bool) (g : Z) : list bool :=
  if (0 <=? g) && (g <? zlen acc) then list_set acc (Z.to_nat g) true else acc.

Definition istep (op : Z) (rest : list Z) (acc : list bool) : list bool :=
  let o := Z.land op 63 in
  if (o =? Ref) || (o =? Testref) then smark acc (nth 0 rest (-1))
  else if o =? Capturemark then
    (if negb (nth 1 rest (-1) =? -1) then smark (smark acc (nth 0 rest (-1))) (nth 1 rest (-1)) else acc)
  else acc.

Definition is_special (op : Z) : bool :=
  let o := Z.land op 63 in (o =? Ref) || (o =? Testref) || (o =? Capturemark).

Lemma el_siu_step f op rest acc :
  slots_in_use_aux (S f) (op :: rest) acc =
  if opcode_size op <=? 0 then istep op rest acc
  else slots_in_use_aux f (skipn (Z.to_nat (opcode_size op)) (op :: rest)) (istep op rest acc).
Proof. reflexivity. Qed.

Lemma el_siu_nil f acc : slots_in_use_aux f [] acc = acc.
Proof. destruct f; reflexivity. Qed.

Lemma el_zlen_args1 (args : list Z) : 2 = 1 + zlen args -> exists x, args = [x].
Proof.
  unfold zlen. destruct args as [|x [|y args]]; cbn [length]; intros H; try lia. exists x. reflexivity.
Qed.
Lemma el_zlen_args2 (args : list Z) : 3 = 1 + zlen args -> exists x y, args = [x; y].
Proof.
  unfold zlen. destruct args as [|x [|y [|z args]]]; cbn [length]; intros H; try lia. exists x, y. reflexivity.
Qed.

(* the step looks only at the instruction's own operands *)
Lemma el_istep_args op args rest acc :
  opcode_size op = 1 + zlen args -> istep op (args ++ rest) acc = istep op args acc.
Proof.
  intros Hsz. unfold istep, opcode_size in *. cbv zeta.
  destruct ((Z.land op 63 =? Ref) || (Z.land op 63 =? Testref)) eqn:E1.
  - assert (Hs : zassoc (Z.land op 63) opcode_size_tbl 0 = 2).
    { apply orb_prop in E1. destruct E1 as [E|E]; apply Z.eqb_eq in E; rewrite E; reflexivity. }
    rewrite Hs in Hsz. destruct (el_zlen_args1 args Hsz) as [x Hx]. subst args. reflexivity.
  - destruct (Z.land op 63 =? Capturemark) eqn:E2; [|reflexivity].
    assert (Hs : zassoc (Z.land op 63) opcode_size_tbl 0 = 3).
    { apply Z.eqb_eq in E2. rewrite E2. reflexivity. }
    rewrite Hs in Hsz. destruct (el_zlen_args2 args Hsz) as [x [y Hx]]. subst args. reflexivity.
Qed.

Lemma el_istep_plain op args acc : is_special op = false -> istep op args acc = acc.
Proof.
  unfold is_special, istep. cbv zeta. intros H.
  apply orb_false_elim in H. destruct H as [H1 H2]. rewrite H1, H2. reflexivity.
Qed.

(* the walk over a well-formed instruction sequence, as a relation                             *)

Inductive Marks : list Z -> list bool -> list bool -> Prop :=
| M_nil acc : Marks [] acc acc
| M_cons op args rest acc acc' :
    opcode_size op = 1 + zlen args -> Marks rest (istep op args acc) acc' ->
    Marks (op :: args ++ rest) acc acc'.

Lemma el_Marks_app c1 c2 a b c : Marks c1 a b -> Marks c2 b c -> Marks (c1 ++ c2) a c.
Proof.
  intros H1 H2. induction H1 as [acc|op args rest acc acc' Hsz H1 IH]; [exact H2|].
  cbn [app]. rewrite <- app_assoc. apply M_cons; [exact Hsz|]. apply IH. exact H2.
Qed.

Lemma el_Marks_run c acc acc' : Marks c acc acc' ->
  forall fuel, (length c <= fuel)%nat -> slots_in_use_aux fuel c acc = acc'.
Proof.
  intros H. induction H as [acc|op args rest acc acc' Hsz H IH]; intros fuel Hf.
  - apply el_siu_nil.
  - destruct fuel as [|f]; [cbn [length] in Hf; lia|].
    rewrite el_siu_step. rewrite Hsz.
    assert (Hz : 0 <= zlen args) by (unfold zlen; lia).
    replace (1 + zlen args <=? 0) with false by lia.
    replace (Z.to_nat (1 + zlen args)) with (S (length args)) by (unfold zlen; lia).
    cbn [skipn]. rewrite skipn_app, skipn_all, Nat.sub_diag. cbn [app skipn].
    rewrite (el_istep_args op args rest acc Hsz). apply IH.
    cbn [length] in Hf. rewrite app_length in Hf. lia.
Qed.

(* marks only ever set bits                                                                    *)

Definition only_sets (acc acc' : list bool) : Prop :=
  length acc' = length acc /\ forall i, nth i acc false = true -> nth i acc' false = true.

Lemma el_ext_refl acc : only_sets acc acc.
Proof. split; [reflexivity|]. intros i H. exact H. Qed.

Lemma el_ext_trans a b c : only_sets a b -> only_sets b c -> only_sets a c.
Proof. intros [L1 N1] [L2 N2]. split; [congruence|]. intros i H. apply N2, N1, H. Qed.

Lemma el_list_set_length {A} (l : list A) n x : length (list_set l n x) = length l.
Proof.
  revert n. induction l as [|h t IH]; intros n; [reflexivity|].
  destruct n; cbn [list_set length]; [reflexivity|]. rewrite IH. reflexivity.
Qed.

Lemma el_list_set_keeps l n i : nth i l false = true -> nth i (list_set l n true) false = true.
Proof.
  revert n i. induction l as [|h t IH]; intros n i H; [destruct i; discriminate H|].
  destruct n; cbn [list_set].
  - destruct i; [reflexivity|exact H].
  - destruct i; [exact H|]. cbn [nth] in *. apply IH. exact H.
Qed.

Lemma el_list_set_hit l n : (n < length l)%nat -> nth n (list_set l n true) false = true.
Proof.
  revert n. induction l as [|h t IH]; intros n H; [cbn [length] in H; lia|].
  destruct n; cbn [list_set nth]; [reflexivity|]. apply IH. cbn [length] in H. lia.
Qed.

Lemma el_smark_ext acc g : only_sets acc (smark acc g).
Proof.
  unfold smark. destruct ((0 <=? g) && (g <? zlen acc)); [|apply el_ext_refl].
  split; [apply el_list_set_length|]. intros i H. apply el_list_set_keeps. exact H.
Qed.

Lemma el_smark_hit acc g : 0 <= g < zlen acc -> nth (Z.to_nat g) (smark acc g) false = true.
Proof.
  intros H. unfold smark. replace ((0 <=? g) && (g <? zlen acc)) with true by lia.
  apply el_list_set_hit. unfold zlen in H. lia.
Qed.

Lemma el_ext_zlen a b : only_sets a b -> zlen b = zlen a.
Proof. intros [L _]. unfold zlen. rewrite L. reflexivity. Qed.

(* "this code walks fine from any accumulator, and (when b) marks slot cg"                     *)

Definition GoodG (cg : Z) (c : list Z) (b : bool) : Prop :=
  forall acc, exists acc',
    Marks c acc acc' /\ only_sets acc acc' /\
    (b = true -> 0 <= cg < zlen acc -> nth (Z.to_nat cg) acc' false = true).

Section Good.
Variable cg : Z.

Lemma G_nil : GoodG cg [] false.
Proof. intros acc. exists acc. split; [constructor|]. split; [apply el_ext_refl|]. intros H. discriminate H. Qed.

Lemma G_weaken c b b' : GoodG cg c b -> (b' = true -> b = true) -> GoodG cg c b'.
Proof.
  intros H Hb acc. destruct (H acc) as [acc' [HM [He Hn]]]. exists acc'.
  split; [exact HM|]. split; [exact He|]. intros Hb'. apply Hn. apply Hb. exact Hb'.
Qed.

Lemma G_app c1 c2 b1 b2 : GoodG cg c1 b1 -> GoodG cg c2 b2 -> GoodG cg (c1 ++ c2) (b1 || b2).
Proof.
  intros H1 H2 acc. destruct (H1 acc) as [acc1 [HM1 [He1 Hn1]]].
  destruct (H2 acc1) as [acc2 [HM2 [He2 Hn2]]]. exists acc2.
  split; [exact (el_Marks_app _ _ _ _ _ HM1 HM2)|]. split; [exact (el_ext_trans _ _ _ He1 He2)|].
  intros Hb Hr. apply orb_prop in Hb. destruct Hb as [Hb|Hb].
  - apply (proj2 He2). apply Hn1; assumption.
  - apply Hn2; [exact Hb|]. rewrite (el_ext_zlen _ _ He1). exact Hr.
Qed.

Lemma G_app_l c1 c2 b : GoodG cg c1 false -> GoodG cg c2 b -> GoodG cg (c1 ++ c2) b.
Proof. intros H1 H2. exact (G_app c1 c2 false b H1 H2). Qed.

Lemma G_app_r c1 c2 b : GoodG cg c1 b -> GoodG cg c2 false -> GoodG cg (c1 ++ c2) b.
Proof. intros H1 H2. apply (G_weaken _ (b || false)); [exact (G_app c1 c2 b false H1 H2)|].
  intros Hb. rewrite Hb. reflexivity. Qed.

Lemma G_instr op args rest b :
  opcode_size op = 1 + zlen args -> is_special op = false ->
  GoodG cg rest b -> GoodG cg (op :: args ++ rest) b.
Proof.
  intros Hsz Hsp H acc. destruct (H acc) as [acc' [HM [He Hn]]]. exists acc'.
  split; [|split; [exact He|exact Hn]].
  apply M_cons; [exact Hsz|]. rewrite el_istep_plain by exact Hsp. exact HM.
Qed.

Lemma G_p1 op rest b : opcode_size op = 1 -> is_special op = false ->
  GoodG cg rest b -> GoodG cg (op :: rest) b.
Proof. intros Hsz. exact (G_instr op [] rest b Hsz). Qed.
Lemma G_p2 op x rest b : opcode_size op = 2 -> is_special op = false ->
  GoodG cg rest b -> GoodG cg (op :: x :: rest) b.
Proof. intros Hsz. exact (G_instr op [x] rest b Hsz). Qed.
Lemma G_p3 op x y rest b : opcode_size op = 3 -> is_special op = false ->
  GoodG cg rest b -> GoodG cg (op :: x :: y :: rest) b.
Proof. intros Hsz. exact (G_instr op [x; y] rest b Hsz). Qed.

(* Ref / Testref x : marks x *)
Lemma G_ref op x rest b :
  (Z.land op 63 =? Ref) || (Z.land op 63 =? Testref) = true ->
  GoodG cg rest b -> GoodG cg (op :: x :: rest) ((x =? cg) || b).
Proof.
  intros Ho H acc.
  assert (Hsz : opcode_size op = 1 + zlen [x]).
  { unfold opcode_size. apply orb_prop in Ho. destruct Ho as [E|E]; apply Z.eqb_eq in E; rewrite E; reflexivity. }
  assert (Hst : istep op [x] acc = smark acc x).
  { unfold istep. cbv zeta. rewrite Ho. reflexivity. }
  destruct (H (smark acc x)) as [acc' [HM [He Hn]]]. exists acc'.
  split; [|split].
  - apply (M_cons op [x] rest acc acc' Hsz). rewrite Hst. exact HM.
  - exact (el_ext_trans _ _ _ (el_smark_ext acc x) He).
  - intros Hb Hr. apply orb_prop in Hb. destruct Hb as [Hb|Hb].
    + apply Z.eqb_eq in Hb. subst x. apply (proj2 He). apply el_smark_hit. exact Hr.
    + apply Hn; [exact Hb|]. rewrite (el_ext_zlen _ _ (el_smark_ext acc x)). exact Hr.
Qed.

(* Capturemark x y with y <> -1 : marks x and y *)
Lemma G_capmark_bal x y rest b : y <> -1 ->
  GoodG cg rest b -> GoodG cg (Capturemark :: x :: y :: rest) ((y =? cg) || b).
Proof.
  intros Hy H acc.
  assert (Hsz : opcode_size Capturemark = 1 + zlen [x; y]) by reflexivity.
  assert (Hst : istep Capturemark [x; y] acc = smark (smark acc x) y).
  { unfold istep. cbv zeta. change (Z.land Capturemark 63) with Capturemark.
    change ((Capturemark =? Ref) || (Capturemark =? Testref)) with false.
    change (Capturemark =? Capturemark) with true. cbn [nth].
    replace (negb (y =? -1)) with true by lia. reflexivity. }
  destruct (H (smark (smark acc x) y)) as [acc' [HM [He Hn]]]. exists acc'.
  pose proof (el_ext_trans _ _ _ (el_smark_ext acc x) (el_smark_ext (smark acc x) y)) as He0.
  split; [|split].
  - apply (M_cons Capturemark [x; y] rest acc acc' Hsz). rewrite Hst. exact HM.
  - exact (el_ext_trans _ _ _ He0 He).
  - intros Hb Hr. apply orb_prop in Hb. destruct Hb as [Hb|Hb].
    + apply Z.eqb_eq in Hb. subst y. apply (proj2 He). apply el_smark_hit.
      rewrite (el_ext_zlen _ _ (el_smark_ext acc x)). exact Hr.
    + apply Hn; [exact Hb|]. rewrite (el_ext_zlen _ _ He0). exact Hr.
Qed.

(* Capturemark x (-1) : marks nothing *)
Lemma G_capmark_plain x rest b :
  GoodG cg rest b -> GoodG cg (Capturemark :: x :: -1 :: rest) b.
Proof.
  intros H acc. destruct (H acc) as [acc' [HM [He Hn]]]. exists acc'.
  split; [|split; [exact He|exact Hn]].
  apply (M_cons Capturemark [x; -1] rest acc acc'); [reflexivity|exact HM].
Qed.

End Good.

Lemma el_char_op k o :
  opcode_size (char_op k + bits_of o) = 2 /\ is_special (char_op k + bits_of o) = false.
Proof. unfold bits_of. destruct k, (is_rtl o), (is_ci o); vm_compute; split; reflexivity. Qed.

Lemma el_rep_op k o :
  opcode_size (rep_op k + bits_of o) = 3 /\ is_special (rep_op k + bits_of o) = false.
Proof. unfold bits_of. destruct k, (is_rtl o), (is_ci o); vm_compute; split; reflexivity. Qed.

Lemma el_loop_op k l o :
  opcode_size (loop_op k l + bits_of o) = 3 /\ is_special (loop_op k l + bits_of o) = false.
Proof. unfold bits_of. destruct k, l, (is_rtl o), (is_ci o); vm_compute; split; reflexivity. Qed.

Lemma el_multi_op o :
  opcode_size (Multi + bits_of o) = 2 /\ is_special (Multi + bits_of o) = false.
Proof. unfold bits_of. destruct (is_rtl o), (is_ci o); vm_compute; split; reflexivity. Qed.

Lemma el_ref_op o :
  (Z.land (Ref + bits_of o) 63 =? Ref) || (Z.land (Ref + bits_of o) 63 =? Testref) = true.
Proof. unfold bits_of. destruct (is_rtl o), (is_ci o); vm_compute; reflexivity. Qed.

Lemma el_anchor_op an :
  opcode_size (anchor_code an) = 1 /\ is_special (anchor_code an) = false.
Proof. destruct an; vm_compute; split; reflexivity. Qed.

Lemma el_map_capnum_m1 c : map_capnum c (-1) = -1.
Proof. reflexivity. Qed.

(* the code of a tree walks fine and marks the slot of every group the tree reads               *)

Section Link.
Variable cm : option (list (Z * Z)).
Variable g : Z.
Notation cf := (full_cfg cm).
Notation cg := (map_capnum (full_cfg cm) g).

(* one, two or three plain code words (an opcode that touches no capture slot, with its operands) in front *)
Ltac p1 := apply G_p1; [reflexivity|reflexivity|].
Ltac p2 := apply G_p2; [reflexivity|reflexivity|].
Ltac p3 := apply G_p3; [reflexivity|reflexivity|].

Theorem el_emit_good : forall t, bal_ok cm t = true ->
  forall a tbl, GoodG cg (fst (emit cf t a tbl)) (reads g t).
Proof.
  induction t as [kd o ch|kd lk o ch m n|o str|o g'|an| | | |o l HF|o l HF|lazy o m n r IHr|o g' u r IHr
                 |r IHr|o r IHr|o r IHr|r IHr|o g' yes no IHy IHn|o cnd yes no IHc IHy IHn]
    using node_ind'; intros Hb a tbl; cbn [reads]; cbn [bal_ok] in Hb.
  - (* NChar *)
    cbn [emit fst]. apply G_p2; [apply el_char_op|apply el_char_op|apply G_nil].
  - (* NCharLoop *)
    cbn [emit fst]. apply G_app_l.
    + destruct (0 <? m); [|apply G_nil]. apply G_p3; [apply el_rep_op|apply el_rep_op|apply G_nil].
    + destruct (m <? n); [|apply G_nil]. apply G_p3; [apply el_loop_op|apply el_loop_op|apply G_nil].
  - (* NMulti *)
    cbn [emit]. destruct (string_code str tbl) as [i tbl']. cbn [fst].
    apply G_p2; [apply el_multi_op|apply el_multi_op|apply G_nil].
  - (* NRef *)
    cbn [emit fst].
    apply (G_weaken cg _ ((map_capnum cf g' =? cg) || false)).
    + apply G_ref; [apply el_ref_op|apply G_nil].
    + intros E. apply Z.eqb_eq in E. subst g'. rewrite Z.eqb_refl. reflexivity.
  - cbn [emit fst]. apply G_p1; [apply el_anchor_op|apply el_anchor_op|apply G_nil].
  - cbn [emit fst]. p1. apply G_nil.
  - cbn [emit fst]. apply G_nil.
  - cbn [emit fst]. p1. apply G_nil.
  - (* NConcat *)
    rewrite wr_emit_concat_eq. revert a tbl.
    induction HF as [|x l Hx HF IH]; intros a tbl; [apply G_nil|].
    apply er_forallb_cons in Hb. destruct Hb as [Hbx Hbl].
    cbn [emit_seq existsb].
    pose proof (Hx Hbx a tbl) as Gx. destruct (emit cf x a tbl) as [cx t1]. cbn [fst] in Gx.
    pose proof (IH Hbl (a + zlen cx) t1) as Gl. destruct (emit_seq cf l (a + zlen cx) t1) as [cr t2].
    cbn [fst] in *. apply G_app; assumption.
  - (* NAlternate *)
    rewrite wr_emit_alternate_eq.
    generalize (a + csize cf (NAlternate o l)) as lend. intros lend. revert a tbl.
    induction HF as [|x l Hx HF IH]; intros a tbl; [apply G_nil|].
    apply er_forallb_cons in Hb. destruct Hb as [Hbx Hbl].
    destruct l as [|y l].
    + cbn [emit_alt existsb]. apply (G_weaken cg _ (reads g x)); [exact (Hx Hbx a tbl)|].
      intros E. apply orb_prop in E. destruct E as [E|E]; [exact E|discriminate E].
    + rewrite wr_emit_alt_cons2.
      pose proof (Hx Hbx (a + 2) tbl) as Gx. destruct (emit cf x (a + 2) tbl) as [cx t1]. cbn [fst] in Gx.
      cbv zeta.
      pose proof (IH Hbl (a + 2 + zlen cx + 2) t1) as Gl.
      destruct (emit_alt cf lend (y :: l) (a + 2 + zlen cx + 2) t1) as [cr t2]. cbn [fst] in *.
      change (existsb (reads g) (x :: y :: l)) with (reads g x || existsb (reads g) (y :: l)).
      cbn [app]. p2. apply G_app; [exact Gx|]. p2. exact Gl.
  - (* NLoop *)
    cbn [emit]. cbv zeta. set (lbody := a + _ + _).   (* the body starts after the loop's prologue *)
    pose proof (IHr Hb lbody tbl) as Gr. destruct (emit cf r lbody tbl) as [cr t1]. cbn [fst] in Gr.
    apply G_app_l.
    { destruct (counted m n), (m =? 0).
      - p2. apply G_nil.
      - p2. apply G_nil.
      - p1. apply G_nil.
      - p1. apply G_nil. }
    apply G_app_l.
    { destruct (m =? 0); [|apply G_nil]. p2. apply G_nil. }
    apply G_app_r; [exact Gr|].
    destruct (counted m n), lazy.
    + p3. apply G_nil.
    + p3. apply G_nil.
    + p2. apply G_nil.
    + p2. apply G_nil.
  - (* NCapture *)
    apply andb_prop in Hb. destruct Hb as [Hbu Hbr].
    cbn [emit]. rewrite er_emit_capture_full.
    pose proof (IHr Hbr (a + 1) tbl) as Gr. destruct (emit cf r (a + 1) tbl) as [cr t1]. cbn [fst] in Gr.
    cbn [app]. p1.
    destruct (u =? -1) eqn:Eu.
    + assert (u = -1) by lia. subst u. rewrite el_map_capnum_m1. cbn [negb andb orb].
      apply G_app_r; [exact Gr|]. apply G_capmark_plain. apply G_nil.
    + cbn [orb] in Hbu. cbn [negb andb].
      apply (G_weaken cg _ (reads g r || ((map_capnum cf u =? cg) || false))).
      * apply G_app; [exact Gr|]. apply G_capmark_bal; [lia|apply G_nil].
      * intros E. apply orb_prop in E. destruct E as [E|E].
        -- apply Z.eqb_eq in E. subst u. rewrite Z.eqb_refl. apply orb_true_r.
        -- rewrite E. reflexivity.
  - (* NGroup *) cbn [emit]. exact (IHr Hb a tbl).
  - (* NPosLook *)
    cbn [emit]. pose proof (IHr Hb (a + 2) tbl) as Gr. destruct (emit cf r (a + 2) tbl) as [cr t1]. cbn [fst] in Gr.
    cbn [app]. p1. p1. apply G_app_r; [exact Gr|]. p1. p1. apply G_nil.
  - (* NNegLook *)
    cbn [emit]. pose proof (IHr Hb (a + 3) tbl) as Gr. destruct (emit cf r (a + 3) tbl) as [cr t1]. cbn [fst] in Gr.
    cbn [app]. p1. p2. apply G_app_r; [exact Gr|]. p1. p1. apply G_nil.
  - (* NAtomic *)
    cbn [emit]. pose proof (IHr Hb (a + 1) tbl) as Gr. destruct (emit cf r (a + 1) tbl) as [cr t1]. cbn [fst] in Gr.
    cbn [app]. p1. apply G_app_r; [exact Gr|]. p1. apply G_nil.
  - (* NBackRefCond *)
    apply andb_prop in Hb. destruct Hb as [Hby Hbn].
    cbn [emit]. pose proof (IHy Hby (a + 6) tbl) as Gy. destruct (emit cf yes (a + 6) tbl) as [cy t1]. cbn [fst] in Gy. cbv zeta.
    assert (Gn : forall a' tb, GoodG cg (fst (match no with Some x => emit cf x a' tb | None => ([], tb) end))
                                     (opt_b (reads g) no)).
    { intros a' tb. destruct no as [x|]; cbn [opt_b opt_all opt_ball] in *; [exact (IHn Hbn a' tb)|apply G_nil]. }
    specialize (Gn (a + 6 + zlen cy + 2 + 1) t1).
    destruct (match no with Some x => emit cf x (a + 6 + zlen cy + 2 + 1) t1 | None => ([], t1) end) as [cn t2].
    cbn [fst] in *. cbn [app]. p1. p2.
    apply (G_weaken cg _ ((map_capnum cf g' =? cg) || (reads g yes || opt_b (reads g) no))).
    + apply G_ref; [reflexivity|]. p1. apply G_app; [exact Gy|]. p2. p1. exact Gn.
    + intros E. destruct (g =? g') eqn:Eg.
      * apply Z.eqb_eq in Eg. subst g'. rewrite Z.eqb_refl. reflexivity.
      * cbn [orb] in E. rewrite E. apply orb_true_r.
  - (* NExprCond *)
    apply andb_prop in Hb. destruct Hb as [Hb Hbn]. apply andb_prop in Hb. destruct Hb as [Hbc Hby].
    cbn [emit]. pose proof (IHc Hbc (a + 4) tbl) as Gc. destruct (emit cf cnd (a + 4) tbl) as [cc t1]. cbn [fst] in Gc. cbv zeta.
    pose proof (IHy Hby (a + 4 + zlen cc + 2) t1) as Gy. destruct (emit cf yes (a + 4 + zlen cc + 2) t1) as [cy t2]. cbn [fst] in Gy. cbv zeta.
    assert (Gn : forall a' tb, GoodG cg (fst (match no with Some x => emit cf x a' tb | None => ([], tb) end))
                                     (opt_b (reads g) no)).
    { intros a' tb. destruct no as [x|]; cbn [opt_b opt_all opt_ball] in *; [exact (IHn Hbn a' tb)|apply G_nil]. }
    specialize (Gn (a + 4 + zlen cc + 2 + zlen cy + 2 + 2) t2).
    destruct (match no with Some x => emit cf x (a + 4 + zlen cc + 2 + zlen cy + 2 + 2) t2 | None => ([], t2) end) as [cn t3].
    cbn [fst] in *. cbn [app]. p1. p1. p2.
    rewrite <- orb_assoc.
    apply G_app; [exact Gc|]. p1. p1. apply G_app; [exact Gy|]. p2. p1. p1. exact Gn.
Qed.

End Link.

(* the whole program, and captureSlotsInUse on it                                              *)

Lemma el_compile_good cm g root : bal_ok cm root = true ->
  GoodG (map_capnum (full_cfg cm) g) (fst (compile (full_cfg cm) root)) (reads g root).
Proof.
  intros Hb. unfold compile.
  pose proof (el_emit_good cm g root Hb 2 []) as Gr.
  destruct (emit (full_cfg cm) root 2 []) as [cr tbl]. cbn [fst] in *.
  cbn [app]. apply G_p2; [reflexivity|reflexivity|].
  apply G_app_r; [exact Gr|]. apply G_p1; [reflexivity|reflexivity|apply G_nil].
Qed.

Definition siu_init (capsize : Z) : list bool :=
  if 0 <? capsize then true :: repeat false (Z.to_nat capsize - 1) else [].

Lemma el_slots_in_use_eq code capsize : slots_in_use code capsize = slots_in_use_aux (length code) code (siu_init capsize).
Proof. reflexivity. Qed.

(* the in-use vector of the full program: same length as the initial vector, slot 0 set when
   there is one, and the slot of every read group set when it is in range *)
Lemma el_slots_in_use_spec cm root capsize : bal_ok cm root = true ->
  let q := slots_in_use (fst (write_full cm root)) capsize in
  only_sets (siu_init capsize) q /\
  forall g, reads g root = true ->
    0 <= map_capnum (full_cfg cm) g < zlen q -> nth (Z.to_nat (map_capnum (full_cfg cm) g)) q false = true.
Proof.
  intros Hb q.
  assert (Hq : forall g, exists acc',
             q = acc' /\ only_sets (siu_init capsize) acc' /\
             (reads g root = true -> 0 <= map_capnum (full_cfg cm) g < zlen (siu_init capsize) ->
              nth (Z.to_nat (map_capnum (full_cfg cm) g)) acc' false = true)).
  { intros g. destruct (el_compile_good cm g root Hb (siu_init capsize)) as [acc' [HM [He Hn]]].
    exists acc'. split; [|split; [exact He|exact Hn]].
    unfold q. rewrite el_slots_in_use_eq.
    apply (el_Marks_run _ _ _ HM). apply Nat.le_refl. }
  split.
  - destruct (Hq 0) as [acc' [E [He _]]]. rewrite E. exact He.
  - intros g Hr Hrange. destruct (Hq g) as [acc' [E [He Hn]]]. rewrite E in *.
    apply Hn; [exact Hr|]. rewrite <- (el_ext_zlen _ _ He). exact Hrange.
Qed.

(* THE LINK: with the in-use vector of the full program, the writer's keep-test erases no group
   that the search reads.  Side conditions: balancing captures are mapped (bal_ok, e.g. from
   capmap_ok) and every group the tree reads is mapped to a non-negative slot. *)
Theorem quick_keep_unobs cm capsize root :
  bal_ok cm root = true ->
  (forall g, reads g root = true -> 0 <= map_capnum (full_cfg cm) g) ->
  unobs (quick_keep cm (slots_in_use (fst (write_full cm root)) capsize)) root.
Proof.
  intros Hb Hpos g Hk.
  destruct (reads g root) eqn:Er; [exfalso|reflexivity].
  destruct (el_slots_in_use_spec cm root capsize Hb) as [_ Hn].
  set (q := slots_in_use (fst (write_full cm root)) capsize) in *.
  pose proof (Hpos g Er) as H0. specialize (Hn g Er).
  unfold quick_keep, emit_capture in Hk. cbn [quick quick_cfg] in Hk.
  rewrite el_map_capnum_m1, er_map_capnum in Hk. cbn [negb Z.eqb] in Hk.
  change (-1 =? -1) with true in Hk. cbn [negb] in Hk.
  destruct (zlen q <=? map_capnum (full_cfg cm) g) eqn:E.
  - replace (0 <=? map_capnum (full_cfg cm) g) with true in Hk by lia. discriminate Hk.
  - rewrite Hn in Hk by lia.
    replace (0 <=? map_capnum (full_cfg cm) g) with true in Hk by lia. discriminate Hk.
Qed.

(* group(s) in slot 0 — the whole match — are always kept *)
Theorem quick_keep_slot0 cm capsize root g :
  bal_ok cm root = true -> map_capnum (full_cfg cm) g = 0 ->
  quick_keep cm (slots_in_use (fst (write_full cm root)) capsize) g = true.
Proof.
  intros Hb H0.
  destruct (el_slots_in_use_spec cm root capsize Hb) as [[HL HN] _].
  set (q := slots_in_use (fst (write_full cm root)) capsize) in *.
  unfold quick_keep, emit_capture. cbn [quick quick_cfg].
  rewrite el_map_capnum_m1, er_map_capnum, H0. change (-1 =? -1) with true. cbn [negb].
  change (0 <=? 0) with true. cbn [andb Z.to_nat].
  unfold siu_init in HL, HN. destruct (0 <? capsize).
  - rewrite (HN 0%nat eq_refl). apply orb_true_r.
  - cbn [length] in HL. unfold zlen. rewrite HL. reflexivity.
Qed.

(* syntax.Write's quick program, end to end: it is the full program of a tree obtained from the
   original by erasing plain captures in such a way that the leftmost priority-ordered search
   gives the same answer — same success/failure, same final position, same capture stacks of all
   kept groups, among them every group that lives in slot 0. *)
Theorem write_quick_sound cm capsize root prog :
  bal_ok cm root = true ->
  (forall g, reads g root = true -> 0 <= map_capnum (full_cfg cm) g) ->
  write_quick cm capsize root = Some prog ->
  exists keep,
    prog = fst (write_full cm (erase keep root)) /\
    (forall g, map_capnum (full_cfg cm) g = 0 -> keep g = true) /\
    forall e fuel rtl start prevlen,
      rrel (opt_agree keep) (find e fuel root rtl start prevlen)
                            (find e fuel (erase keep root) rtl start prevlen).
Proof.
  intros Hb Hpos Hw.
  exists (quick_keep cm (slots_in_use (fst (write_full cm root)) capsize)).
  split; [|split].
  - unfold write_quick in Hw. cbv zeta in Hw.
    destruct (existsb negb _); [|discriminate Hw]. injection Hw as Hw. subst prog.
    unfold write_full.
    exact (f_equal fst (erase_compile cm _ root Hb)).
  - intros g H0. apply quick_keep_slot0; assumption.
  - intros e fuel rtl start prevlen. apply erase_find_rel.
    apply quick_keep_unobs; assumption.
Qed.

(* the same with the relation spelled out *)
Theorem write_quick_sound_spelled cm capsize root prog :
  bal_ok cm root = true ->
  (forall g, reads g root = true -> 0 <= map_capnum {| capmap := cm; quick := None |} g) ->
  write_quick cm capsize root = Some prog ->
  exists keep,
    prog = fst (write_full cm (erase keep root)) /\
    (forall g, map_capnum {| capmap := cm; quick := None |} g = 0 -> keep g = true) /\
    forall e fuel rtl start prevlen,
      let r1 := find e fuel root rtl start prevlen in
      let r2 := find e fuel (erase keep root) rtl start prevlen in
      (forall s1, r1 = Ok (Some s1) -> exists s2, r2 = Ok (Some s2) /\ agree keep s1 s2) /\
      (forall s2, r2 = Ok (Some s2) -> exists s1, r1 = Ok (Some s1) /\ agree keep s1 s2) /\
      (r1 = Ok None <-> r2 = Ok None) /\
      (r1 = Fuel <-> r2 = Fuel).
Proof.
  intros Hb Hpos Hw. destruct (write_quick_sound cm capsize root prog Hb Hpos Hw) as [keep [Hp [H0 Hrel]]].
  exists keep. split; [exact Hp|]. split; [exact H0|].
  intros e fuel rtl start prevlen r1 r2. apply er_rrel_opt_spelled. apply Hrel.
Qed.

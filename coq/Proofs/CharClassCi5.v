(* char_in_denote under IgnoreCase, continued: finished classes.
   scanCharSet folds case first and canonicalizes afterwards (fix dd13520); the finished class - which
   canonicalize may have rewritten into a negated normal form - then goes through addCaseEquivalences
   again: once per enclosing bracket level (the subtraction of a class is expanded with it) and once
   more in the tree pass.  This file shows that a finished class is stable under that:
     fin c      every level of c has well-formed canonical ranges, no bitmap, and (unless it is
                "anything") a range part that is closed under the SimpleFold orbits of the table and
                has no member outside the table unless big members are admitted (B);
     ace_fin    addCaseEquivalences maps fin classes to fin classes and changes no membership on the table;
     canon_level  canonicalize (whatever normal form it picks) preserves the level invariant. *)
From Coq Require Import FMapPositive ZifyBool.
From Verif Require Import Base.Prelude Model.CharClass Model.FoldD
  Proofs.CharClassRanges Proofs.CharClassProofs Proofs.CharClassElab
  Proofs.CharClassFold Proofs.CharClassCi Proofs.CharClassCi2 Proofs.CharClassCi3
  Proofs.CharClassCi4.

Lemma sorted_gap : forall R p r, sorted_from p R -> In r R ->
  p + 1 < fst r /\ fst r <= snd r /\ mem R (snd r + 1) = false /\ mem R (fst r - 1) = false.
Proof.
  induction R as [|[a b] t IH]; intros p r Hs Hr; [destruct Hr|].
  cbn [sorted_from] in Hs. destruct Hs as (S1 & S2 & S3).
  destruct Hr as [<-|Hr]; cbn [fst snd].
  - split; [lia|]. split; [lia|]. rewrite !mem_cons. unfold in_range; cbn [fst snd].
    rewrite (sorted_from_mem_false b t (b + 1) S3) by lia.
    rewrite (sorted_from_mem_false b t (a - 1) S3) by lia. split; lia.
  - destruct (IH b r S3 Hr) as (G1 & G2 & G3 & G4).
    split; [lia|]. split; [lia|]. rewrite !mem_cons, G3, G4. unfold in_range; cbn [fst snd]. split; lia.
Qed.

Lemma canonical_gap R r : canonical_ranges R -> In r R ->
  fst r <= snd r /\ mem R (snd r + 1) = false /\ mem R (fst r - 1) = false.
Proof.
  intros Hc Hr. destruct (canonical_sorted_from R Hc) as [p Hp].
  destruct (sorted_gap R p r Hp Hr) as (_ & G). exact G.
Qed.

Section Cases.
  Variable cat_in : Z -> Z -> bool.

  Definition flipped (rs rs' : list (Z * Z)) : Prop :=
    forall x, valid_rune x -> mem rs' x = negb (mem rs x).
  Definition full (rs' : list (Z * Z)) : Prop := forall x, valid_rune x -> mem rs' x = true.

  (* the range part after canonicalize: the same set of code points, or - only when the class reached
     up to the last two code points - its complement or everything *)
  Lemma canonicalize_ranges_cases c : wf_ranges (ranges c) ->
    (forall x, valid_rune x -> mem (ranges (canonicalize cat_in c)) x = mem (ranges c) x) \/
    (has_top (ranges c) /\
     (flipped (ranges c) (ranges (canonicalize cat_in c)) \/ full (ranges (canonicalize cat_in c)))).
  Proof.
    intros Hw. rewrite canonicalize_unfold. destruct (ranges c) as [|r t] eqn:Er; [left; intros; rewrite Er; reflexivity|].
    rewrite <- Er in *.
    set (c0 := set_ranges c (merged (ranges c))).
    assert (M0 : forall x, mem (ranges c0) x = mem (ranges c) x) by (intros x; apply merged_mem; exact Hw).
    assert (W0 : wf_ranges (ranges c0)) by (apply merged_wf; exact Hw).
    assert (Top : has_top (ranges c0) -> has_top (ranges c)).
    { intros [w [H1 H2]]. exists w. split; [exact H1|]. rewrite <- M0. exact H2. }
    destruct (nf_cases cat_in c0) as [E|H]; [rewrite E; left; intros x _; apply M0|right].
    destruct H as [_ T _|p q _ _ _ T Hm _]; (split; [apply Top, T; exact W0|]).
    - right. intros x Hx. unfold make_anything; cbn [ranges]. unfold mem, in_range, valid_rune, max_rune in *; cbn [existsb fst snd]. lia.
    - left. intros x Hx. cbn [ranges]. rewrite <- M0, (Hm x Hx), negb_involutive. apply orb_false_r.
  Qed.
End Cases.

Section Fin.
  Variable cat_in : Z -> Z -> bool.
  Variable simple_fold to_lower : Z -> Z.
  Hypothesis agree : forall x, In x dom_t -> simple_fold x = fold_t x /\ to_lower x = lower_t x.
  Variable B : Prop.
  Hypothesis Hout : B -> outside_ok simple_fold.

  Notation ace := (add_case_equivalences cat_in simple_fold orbit_fuel).

  (* membership does not distinguish the runes of one orbit of the table *)
  Definition closed_t (rs : list (Z * Z)) : Prop :=
    forall x, In x dom_t -> forall y, In y (orb x) -> mem rs y = mem rs x.
  Definition members_ok (rs : list (Z * Z)) : Prop :=
    forall x, mem rs x = true -> In x dom_t \/ B.

  Definition level_inv (rs : list (Z * Z)) (an : bool) (asc : option (Z * Z)) : Prop :=
    wf_ranges rs /\ canonical_ranges rs /\ asc = None /\ (an = true \/ (closed_t rs /\ members_ok rs)).

  Fixpoint fin (c : cls) : Prop :=
    match c with
    | Cls rs _ sb _ an asc => level_inv rs an asc /\ match sb with Some s => fin s | None => True end
    end.

  Lemma fin_intro c : level_inv (ranges c) (anything c) (ascii c) ->
    match sub c with Some s => fin s | None => True end -> fin c.
  Proof. destruct c; cbn; auto. Qed.

  Lemma fin_canonical c : fin c -> canonical c /\ no_bitmaps c.
  Proof.
    induction c as [rs cs ng an asc | rs cs s ng an asc IH] using cls_induction; cbn;
      intros [(L1 & L2 & L3 & _) Hs]; [auto|]. destruct (IH Hs). auto.
  Qed.

  Lemma has_top_B rs : members_ok rs -> has_top rs -> B.
  Proof.
    intros Hm [w [H1 H2]]. destruct (Hm w H2) as [Hd|HB]; [|exact HB].
    pose proof (dom_bounds w Hd). lia.
  Qed.

  (* canonicalize keeps the level invariant, whichever normal form it picks *)
  Lemma canon_level c :
    wf_ranges (ranges c) -> ascii c = None ->
    (anything c = true \/ (closed_t (ranges c) /\ members_ok (ranges c))) ->
    level_inv (ranges (canonicalize cat_in c)) (anything (canonicalize cat_in c)) (ascii (canonicalize cat_in c)).
  Proof.
    intros Hw Ha Hl. destruct (canonicalize_same_set cat_in c Hw) as (S1 & S2 & S3 & S4 & _).
    split; [exact S3|]. split; [exact S4|]. split; [congruence|].
    destruct Hl as [Hl|[Hc Hm]]; [left; apply canonicalize_anything; exact Hl|]. right.
    destruct (canonicalize_ranges_cases cat_in c Hw) as [Same|[Top [Flip|Full]]].
    - split.
      + intros x Hx y Hy. pose proof (dom_valid _ (orb_in_dom x y Hx Hy)) as Vy. pose proof (dom_valid x Hx) as Vx.
        rewrite (Same y Vy), (Same x Vx). apply Hc; assumption.
      + intros x Hx. pose proof (mem_valid _ x S3 Hx) as Vx. rewrite (Same x Vx) in Hx. apply Hm. exact Hx.
    - pose proof (has_top_B _ Hm Top) as HB. split; [|intros x _; right; exact HB].
      intros x Hx y Hy. pose proof (dom_valid _ (orb_in_dom x y Hx Hy)) as Vy. pose proof (dom_valid x Hx) as Vx.
      rewrite (Flip y Vy), (Flip x Vx). f_equal. apply Hc; assumption.
    - pose proof (has_top_B _ Hm Top) as HB. split; [|intros x _; right; exact HB].
      intros x Hx y Hy. pose proof (dom_valid _ (orb_in_dom x y Hx Hy)) as Vy. pose proof (dom_valid x Hx) as Vx.
      rewrite (Full y Vy), (Full x Vx). reflexivity.
  Qed.

  Definition opt_in (sb : option cls) (z : Z) : bool :=
    match sb with Some s => plain_in cat_in s z | None => false end.

  (* one level of addCaseEquivalences on a finished class *)
  Lemma ace_level rs cs sb sb' ng an asc :
    level_inv rs an asc ->
    (forall z, In z dom_t -> opt_in sb' z = opt_in sb z) ->
    match sb' with Some s => fin s | None => True end ->
    exists c',
      (if an then Ok (Cls rs cs sb' ng an asc)
       else do e <- equivalences_of_ranges simple_fold orbit_fuel rs ;
            Ok (canonicalize cat_in (Cls (rs ++ e) cs sb' ng an asc))) = Ok c' /\
      fin c' /\ forall z, In z dom_t -> plain_in cat_in c' z = plain_in cat_in (Cls rs cs sb ng an asc) z.
  Proof.
    intros (L1 & L2 & L3 & L4) Hsub Hfin. destruct an.
    - eexists. split; [reflexivity|]. split.
      + cbn [fin]. split; [|exact Hfin]. unfold level_inv. auto.
      + intros z Hz. cbn [plain_in]. specialize (Hsub z Hz). unfold opt_in in Hsub. rewrite Hsub. reflexivity.
    - destruct L4 as [L4|[Hc Hm]]; [discriminate|].
      destruct (equivalences_of_ranges_gen cat_in simple_fold to_lower agree rs) as (T & HT & HTs).
      { intros x Hx. apply (ceq_ok cat_in simple_fold to_lower agree B Hout x (mem_valid rs x L1 Hx) (Hm x Hx)). }
      rewrite HT. cbn [bind].
      set (c2 := Cls (rs ++ map (fun x : Z => (x, x)) T) cs sb' ng false asc).
      assert (InT : forall z, In z T -> valid_rune z /\ (In z dom_t \/ B) /\ (In z dom_t -> mem rs z = true)).
      { intros z Hz. apply HTs in Hz. destruct Hz as (x & Hx & Hz).
        destruct (proj2 (ceq_ok cat_in simple_fold to_lower agree B Hout x (mem_valid rs x L1 Hx) (Hm x Hx)) z Hz)
          as [Zv [(Xd & Zd & Zo)|(HB & Xn & Zn)]].
        - split; [exact Zv|]. split; [left; exact Zd|]. intros _.
          rewrite (Hc x Xd z); [exact Hx|]. rewrite orb_unfold. right. rewrite orb_unfold in Zo. exact Zo.
        - split; [exact Zv|]. split; [right; exact HB|]. intros Zd. contradiction. }
      assert (W2 : wf_ranges (ranges c2)).
      { cbn [ranges c2]. apply wf_ranges_app; [exact L1|]. unfold wf_ranges. apply Forall_forall. intros r Hr.
        apply in_map_iff in Hr. destruct Hr as [z [<- Hz]]. destruct (InT z Hz) as [Zv _]. unfold valid_rune in Zv.
        unfold wf_range; cbn [fst snd]. lia. }
      (* on the table the added equivalences are members already *)
      assert (K : forall z, In z dom_t -> mem (ranges c2) z = mem rs z).
      { intros z Hz. cbn [ranges c2]. rewrite mem_app. destruct (mem rs z) eqn:E; [reflexivity|]. cbn [orb].
        apply Bool.not_true_is_false. intros H. apply mem_singles in H. destruct (InT z H) as (_ & _ & Hin).
        rewrite (Hin Hz) in E. discriminate. }
      assert (Hc2 : closed_t (ranges c2)).
      { intros x Hx y Hy. rewrite (K y (orb_in_dom x y Hx Hy)), (K x Hx). apply Hc; assumption. }
      assert (Hm2 : members_ok (ranges c2)).
      { intros x Hx. cbn [ranges c2] in Hx. rewrite mem_app in Hx. apply orb_prop in Hx. destruct Hx as [Hx|Hx].
        - apply Hm. exact Hx.
        - apply mem_singles in Hx. apply (InT x Hx). }
      eexists. split; [reflexivity|].
      destruct (canonicalize_same_set cat_in c2 W2) as (S1 & S2 & S3 & S4 & S5).
      split.
      + apply fin_intro.
        * apply canon_level; [exact W2|exact L3|right; split; assumption].
        * rewrite S1. exact Hfin.
      + intros z Hz. rewrite plain_in_top. rewrite (S5 z (dom_valid z Hz)). unfold sub_in. rewrite S1.
        cbn [sub c2 plain_in]. unfold top_in. cbn [neg cats c2]. rewrite (K z Hz).
        specialize (Hsub z Hz). unfold opt_in in Hsub. rewrite Hsub. reflexivity.
  Qed.

  Theorem ace_fin c : fin c ->
    exists c', ace c = Ok c' /\ fin c' /\ forall z, In z dom_t -> plain_in cat_in c' z = plain_in cat_in c z.
  Proof.
    induction c as [rs cs ng an asc | rs cs s ng an asc IH] using cls_induction; cbn [fin]; intros [Hl Hs].
    - cbn [add_case_equivalences bind]. apply (ace_level rs cs None None ng an asc Hl); [reflexivity|exact I].
    - destruct (IH Hs) as (s' & Hs' & F' & P'). cbn [add_case_equivalences]. rewrite Hs'. cbn [bind].
      apply (ace_level rs cs (Some s) (Some s') ng an asc Hl); [exact P'|exact F'].
  Qed.

End Fin.

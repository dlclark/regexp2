(* C02: the bool-only entry points run a "quick" program from which unobservable captures are
   removed.
   E1 (Spec level): erasing plain captures of groups that nothing in the tree observes does not
      change the search: same result lists (same length, same positions, same captures of every
      kept group), hence the same [attempt]/[find] answers         (erase_unobserved, erase_find).
   E2 (Writer level): the quick program is exactly the full program of the erased tree
                                                                  (erase_csize, erase_emit, erase_compile). *)
From Verif Require Import Base.Prelude Model.Tree Model.Spec Model.VM Model.Writer.
From Verif Require Import Proofs.SpecProofs Proofs.MaskProofs.

Definition opt_b (f : node -> bool) (no : option node) : bool :=
  match no with Some x => f x | None => false end.

(* group g is read somewhere inside t: back-reference, back-reference conditional, or either side
   of a balancing capture *)
Fixpoint observed (g : Z) (t : node) : bool :=
  match t with
  | NRef _ g' => g =? g'
  | NConcat _ l => existsb (observed g) l
  | NAlternate _ l => existsb (observed g) l
  | NLoop _ _ _ _ r => observed g r
  | NCapture _ a u r => (negb (u =? -1) && ((g =? a) || (g =? u))) || observed g r
  | NGroup r => observed g r
  | NPosLook _ r => observed g r
  | NNegLook _ r => observed g r
  | NAtomic r => observed g r
  | NBackRefCond _ g' yes no => (g =? g') || observed g yes || opt_b (observed g) no
  | NExprCond _ c yes no => observed g c || observed g yes || opt_b (observed g) no
  | _ => false
  end.

(* what the search actually READS of a group's capture stack: the same without the "g = a" side of
   a balancing capture (which only writes a).  [reads g t = true -> observed g t = true]; the
   theorems below are proved from the weaker hypothesis on [reads] and restated for [observed]. *)
Fixpoint reads (g : Z) (t : node) : bool :=
  match t with
  | NRef _ g' => g =? g'
  | NConcat _ l => existsb (reads g) l
  | NAlternate _ l => existsb (reads g) l
  | NLoop _ _ _ _ r => reads g r
  | NCapture _ a u r => (negb (u =? -1) && (g =? u)) || reads g r
  | NGroup r => reads g r
  | NPosLook _ r => reads g r
  | NNegLook _ r => reads g r
  | NAtomic r => reads g r
  | NBackRefCond _ g' yes no => (g =? g') || reads g yes || opt_b (reads g) no
  | NExprCond _ c yes no => reads g c || reads g yes || opt_b (reads g) no
  | _ => false
  end.

(* replace every plain capture of a group that is not kept by a non-capturing group *)
Fixpoint erase (keep : Z -> bool) (t : node) : node :=
  match t with
  | NConcat o l => NConcat o (map (erase keep) l)
  | NAlternate o l => NAlternate o (map (erase keep) l)
  | NLoop lazy o m n r => NLoop lazy o m n (erase keep r)
  | NCapture o g u r =>
      if (u =? -1) && negb (keep g) then NGroup (erase keep r) else NCapture o g u (erase keep r)
  | NGroup r => NGroup (erase keep r)
  | NPosLook o r => NPosLook o (erase keep r)
  | NNegLook o r => NNegLook o (erase keep r)
  | NAtomic r => NAtomic (erase keep r)
  | NBackRefCond o g yes no => NBackRefCond o g (erase keep yes) (mask_opt_node (erase keep) no)
  | NExprCond o c yes no => NExprCond o (erase keep c) (erase keep yes) (mask_opt_node (erase keep) no)
  | _ => t
  end.

(* no erased group is read *)
Definition unobs (keep : Z -> bool) (t : node) : Prop :=
  forall g, keep g = false -> reads g t = false.

Definition caps_agree (keep : Z -> bool) (c1 c2 : caps_t) : Prop :=
  forall g, keep g = true -> cap_get g c1 = cap_get g c2.

(* two states agree: same text position, same capture stack of every kept group *)
Definition agree (keep : Z -> bool) (s1 s2 : st) : Prop :=
  pos s1 = pos s2 /\ caps_agree keep (caps s1) (caps s2).

Definition opt_agree (keep : Z -> bool) (o1 o2 : option st) : Prop :=
  match o1, o2 with
  | None, None => True
  | Some a, Some b => agree keep a b
  | _, _ => False
  end.

(* results related: same kind of outcome, related payloads *)
Definition rrel {A} (R : A -> A -> Prop) (r1 r2 : res A) : Prop :=
  match r1, r2 with
  | Ok a, Ok b => R a b
  | Err c, Err d => c = d
  | Crash c, Crash d => c = d
  | Fuel, Fuel => True
  | _, _ => False
  end.

Lemma er_cap_get_set_same g l c : cap_get g (cap_set g l c) = l.
Proof.
  induction c as [|[g' l'] c IH]; cbn [cap_set cap_get].
  - rewrite Z.eqb_refl. reflexivity.
  - destruct (g =? g') eqn:E; cbn [cap_get]; [rewrite Z.eqb_refl; reflexivity|].
    rewrite E. exact IH.
Qed.

Lemma er_cap_get_set_other g g' l c : g' <> g -> cap_get g' (cap_set g l c) = cap_get g' c.
Proof.
  intros Hne. induction c as [|[g0 l0] c IH]; cbn [cap_set cap_get].
  - replace (g' =? g) with false by lia. reflexivity.
  - destruct (g =? g0) eqn:E; cbn [cap_get].
    + replace (g' =? g) with false by lia. replace (g' =? g0) with false by lia. reflexivity.
    + destruct (g' =? g0); [reflexivity|exact IH].
Qed.

Lemma er_ca_set_both keep g l1 l2 c1 c2 :
  caps_agree keep c1 c2 -> (keep g = true -> l1 = l2) ->
  caps_agree keep (cap_set g l1 c1) (cap_set g l2 c2).
Proof.
  intros Hc Hl g' Hk. destruct (Z.eq_dec g' g) as [E|E].
  - subst g'. rewrite !er_cap_get_set_same. exact (Hl Hk).
  - rewrite !er_cap_get_set_other by exact E. exact (Hc g' Hk).
Qed.

Lemma er_ca_set_left keep g l c1 c2 :
  keep g = false -> caps_agree keep c1 c2 -> caps_agree keep (cap_set g l c1) c2.
Proof.
  intros Hg Hc g' Hk. rewrite er_cap_get_set_other; [exact (Hc g' Hk)|].
  intros E. subst g'. rewrite Hg in Hk. discriminate Hk.
Qed.

Lemma er_ca_push keep g iv c1 c2 :
  caps_agree keep c1 c2 -> caps_agree keep (cap_push g iv c1) (cap_push g iv c2).
Proof.
  intros Hc. unfold cap_push. apply er_ca_set_both; [exact Hc|].
  intros Hk. rewrite (Hc g Hk). reflexivity.
Qed.

Lemma er_ca_pop keep g c1 c2 :
  caps_agree keep c1 c2 -> caps_agree keep (cap_pop g c1) (cap_pop g c2).
Proof.
  intros Hc. unfold cap_pop. apply er_ca_set_both; [exact Hc|].
  intros Hk. rewrite (Hc g Hk). reflexivity.
Qed.

Lemma er_agree_refl keep s : agree keep s s.
Proof. split; [reflexivity|]. intros g _. reflexivity. Qed.

(* [rrel] is SpecProofs.res_rel: compositional over the result monad                            *)

Lemma er_rrel_bind {A B} (R : A -> A -> Prop) (R' : B -> B -> Prop) r1 r2 (f1 f2 : A -> res B) :
  rrel R r1 r2 -> (forall a b, R a b -> rrel R' (f1 a) (f2 b)) ->
  rrel R' (bind r1 f1) (bind r2 f2).
Proof. exact (res_rel_bind R R' r1 r2 f1 f2). Qed.

Lemma er_reads_observed g : forall t, reads g t = true -> observed g t = true.
Proof.
  induction t as [kd o ch|kd lk o ch m n|o str|o g'|an| | | |o l HF|o l HF|lazy o m n r IHr|o a u r IHr
                 |r IHr|o r IHr|o r IHr|r IHr|o g' yes no IHy IHn|o cnd yes no IHc IHy IHn]
    using node_ind'; cbn [reads observed]; intros H; try assumption; try (apply IHr; assumption).
  - apply existsb_exists in H. destruct H as [x [Hx Hr]]. apply existsb_exists. exists x.
    split; [exact Hx|]. rewrite Forall_forall in HF. exact (HF x Hx Hr).
  - apply existsb_exists in H. destruct H as [x [Hx Hr]]. apply existsb_exists. exists x.
    split; [exact Hx|]. rewrite Forall_forall in HF. exact (HF x Hx Hr).
  - apply orb_prop in H. destruct H as [H|H].
    + apply andb_prop in H. destruct H as [H1 H2]. rewrite H1, H2, orb_true_r. reflexivity.
    + rewrite (IHr H). apply orb_true_r.
  - apply orb_prop in H. destruct H as [H|H].
    + apply orb_prop in H. destruct H as [H|H]; [rewrite H; reflexivity|].
      rewrite (IHy H), orb_true_r. reflexivity.
    + destruct no as [x|]; cbn [opt_b opt_all] in *; [|discriminate H].
      rewrite (IHn H). apply orb_true_r.
  - apply orb_prop in H. destruct H as [H|H].
    + apply orb_prop in H. destruct H as [H|H]; [rewrite (IHc H); reflexivity|].
      rewrite (IHy H), orb_true_r. reflexivity.
    + destruct no as [x|]; cbn [opt_b opt_all] in *; [|discriminate H].
      rewrite (IHn H). apply orb_true_r.
Qed.

Lemma er_unobs_of_observed keep t : (forall g, keep g = false -> observed g t = false) -> unobs keep t.
Proof.
  intros H g Hk. destruct (reads g t) eqn:E; [|reflexivity].
  rewrite <- (H g Hk). symmetry. apply er_reads_observed. exact E.
Qed.

(* E1                                                                                          *)

Section E1.
Variable e : env.
Variable keep : Z -> bool.

Notation LR := (Forall2 (agree keep)).
Notation SR := (rrel (Forall2 (agree keep))).

Lemma er_unobs_sub t x : (forall g, reads g x = true -> reads g t = true) -> unobs keep t -> unobs keep x.
Proof.
  intros H Hu g Hk. destruct (reads g x) eqn:E; [|reflexivity].
  rewrite <- (Hu g Hk). symmetry. apply H, E.
Qed.

Lemma er_unobs_keep t g : unobs keep t -> reads g t = true -> keep g = true.
Proof. intros Hu H. destruct (keep g) eqn:E; [reflexivity|]. rewrite (Hu g E) in H. discriminate H. Qed.

Notation ET := (fun a b => b = erase keep a /\ unobs keep a).

Lemma er_view t : unobs keep t ->
  sem_view e e (agree keep) ET eq (fun u u' => u = u' /\ keep u = true) (fun g => keep g = false) t (erase keep t).
Proof.
  intros Hu.
  assert (sub : forall x, (forall g, reads g x = true -> reads g t = true) -> ET x (erase keep x)).
  { intros x H. split; [reflexivity|exact (er_unobs_sub t x H Hu)]. }
  assert (subl : forall l, (forall x g, In x l -> reads g x = true -> reads g t = true) ->
                           Forall2 ET l (map (erase keep) l)).
  { intros l H. rewrite <- (map_id l) at 1. apply Forall2_map_same. intros x Hx. apply sub. intros g. exact (H x g Hx). }
  assert (subo : forall no, (forall g, opt_b (reads g) no = true -> reads g t = true) ->
                            opt_rel ET no (mask_opt_node (erase keep) no)).
  { intros [n|] H; [exact (sub n H)|exact I]. }
  destruct t as [kd o c|kd lk o c m n|o str|o g|a| | | |o cl|o cl|lazy o m n r|o g u r|r|o r|o r|r
                |o g yes no|o c yes no]; cbn [erase].
  1-8: apply SV_leaf; try reflexivity; intros f s1 s2 Hag;
       pose proof (fun p => conj (eq_refl p) (proj2 Hag) : agree keep (with_pos s1 p) (with_pos s2 p)) as Hw.
  4: exact (sem_ref_pos e _ s1 s2 (proj1 Hag) Hw Hag o g g (proj2 Hag g (er_unobs_keep _ g Hu (Z.eqb_refl g)))).
  1-7: apply (sem_leaf_pos e _ s1 s2 (proj1 Hag) Hw Hag); [reflexivity|discriminate].
  - apply SV_concat, subl. intros x g Hx Hg. apply existsb_exists. exists x. split; assumption.
  - apply SV_alternate, subl. intros x g Hx Hg. apply existsb_exists. exists x. split; assumption.
  - apply SV_loop, sub. intros g Hg. exact Hg.
  - assert (Hr : ET r (erase keep r)).
    { apply sub. intros g' Hg. cbn [reads]. rewrite Hg. apply orb_true_r. }
    destruct (u =? -1) eqn:Eu; cbn [andb].
    + apply Z.eqb_eq in Eu. subst u. destruct (keep g) eqn:Ek; cbn [negb].
      * apply SV_capture; [exact Hr|reflexivity|left; split; reflexivity].
      * apply SV_drop; [exact Hr|exact Ek].
    + apply SV_capture; [exact Hr|reflexivity|right; split; [reflexivity|]]. apply (er_unobs_keep _ u Hu). cbn [reads].
      rewrite Eu, Z.eqb_refl. reflexivity.
  - apply SV_group, sub. intros g Hg. exact Hg.
  - apply SV_poslook, sub. intros g Hg. exact Hg.
  - apply SV_neglook, sub. intros g Hg. exact Hg.
  - apply SV_atomic, sub. intros g Hg. exact Hg.
  - apply SV_backrefcond; [|apply sub|apply subo]; [|intros g' Hg; cbn [reads]; rewrite Hg..].
    + split; [reflexivity|]. apply (er_unobs_keep _ g Hu). cbn [reads]. rewrite Z.eqb_refl. reflexivity.
    + rewrite orb_true_r. reflexivity.
    + apply orb_true_r.
  - apply SV_exprcond; [apply sub..|apply subo]; intros g' Hg; cbn [reads]; rewrite Hg.
    + reflexivity.
    + rewrite orb_true_r. reflexivity.
    + apply orb_true_r.
Qed.

Theorem erase_unobserved : forall fuel t s1 s2,
  unobs keep t -> agree keep s1 s2 ->
  rrel (Forall2 (agree keep)) (sem e fuel t s1) (sem e fuel (erase keep t) s2).
Proof.
  intros fuel t s1 s2 Hu.
  apply (sem_rel e e (agree keep) ET eq (fun u u' => u = u' /\ keep u = true) (fun g => keep g = false));
    [| | | |reflexivity|intros u ? [-> _]; reflexivity| | | |split; [reflexivity|exact Hu]].
  - intros t1 t2 [-> H]. exact (er_view t1 H).
  - intros a1 a2 [Hp _] a b [Hq _]. rewrite Hp, Hq. reflexivity.
  - intros a b [Hq _]. rewrite Hq. reflexivity.
  - intros a1 a2 a b [Hp _] [_ Hc]. split; [exact Hp|exact Hc].
  - intros g ? a1 a2 a b <- [Hp _] [Hq Hc]. split; cbn [pos caps]; [exact Hq|].
    rewrite <- Hp, <- Hq. apply er_ca_push, Hc.
  - intros g a1 a b Hg [Hq Hc]. split; cbn [pos caps]; [exact Hq|]. apply er_ca_set_left; assumption.
  - intros g ? u ? a1 a2 a b <- [<- Hk] [Hp _] [Hq Hc]. rewrite <- (Hc u Hk).
    destruct (cap_get u (caps a)); [exact I|]. split; cbn [pos caps]; [exact Hq|].
    rewrite <- Hp, <- Hq. destruct (g =? -1); [|apply er_ca_push]; apply er_ca_pop, Hc.
Qed.

Corollary erase_unobserved_length fuel t s1 s2 l1 l2 :
  unobs keep t -> agree keep s1 s2 ->
  sem e fuel t s1 = Ok l1 -> sem e fuel (erase keep t) s2 = Ok l2 -> length l1 = length l2.
Proof.
  intros Hun Hag H1 H2. pose proof (erase_unobserved fuel t s1 s2 Hun Hag) as H.
  rewrite H1, H2 in H. cbn [rrel] in H. clear H1 H2.
  induction H as [|a b l1 l2 _ _ IH]; cbn [length]; [reflexivity|]. rewrite IH. reflexivity.
Qed.

Lemma erase_attempt fuel root p : unobs keep root ->
  rrel (opt_agree keep) (attempt e fuel root p) (attempt e fuel (erase keep root) p).
Proof.
  intros Hun. unfold attempt.
  apply (er_rrel_bind (Forall2 (agree keep)) (opt_agree keep)).
  - apply erase_unobserved; [exact Hun|apply er_agree_refl].
  - intros l1 l2 HF. cbn [rrel]. destruct HF; cbn [opt_agree]; [exact I|assumption].
Qed.

Lemma erase_scan_from fuel root rtl : unobs keep root -> forall n p,
  rrel (opt_agree keep) (scan_from e fuel n root rtl p) (scan_from e fuel n (erase keep root) rtl p).
Proof.
  intros Hun. induction n as [|n IH]; intros p; [exact I|].
  cbn [scan_from]. apply (er_rrel_bind (opt_agree keep) (opt_agree keep)); [apply erase_attempt; exact Hun|].
  intros o1 o2 Ho. destruct o1 as [a|], o2 as [b|]; cbn [opt_agree] in Ho; try contradiction.
  - exact Ho.
  - destruct (if rtl then p <=? 0 else tlen e <=? p); [exact I|apply IH].
Qed.

Theorem erase_find_rel fuel root rtl start prevlen : unobs keep root ->
  rrel (opt_agree keep) (find e fuel root rtl start prevlen) (find e fuel (erase keep root) rtl start prevlen).
Proof.
  intros Hun. unfold find.
  destruct ((prevlen =? 0) && (start =? (if rtl then 0 else tlen e))); [exact I|].
  apply erase_scan_from. exact Hun.
Qed.

End E1.

Lemma er_rrel_opt_spelled keep (r1 r2 : res (option st)) :
  rrel (opt_agree keep) r1 r2 ->
  (forall s1, r1 = Ok (Some s1) -> exists s2, r2 = Ok (Some s2) /\ agree keep s1 s2) /\
  (forall s2, r2 = Ok (Some s2) -> exists s1, r1 = Ok (Some s1) /\ agree keep s1 s2) /\
  (r1 = Ok None <-> r2 = Ok None) /\
  (r1 = Fuel <-> r2 = Fuel).
Proof.
  intros H.
  destruct r1 as [[a|]| | |], r2 as [[b|]| | |]; cbn [rrel opt_agree] in H; try contradiction;
    repeat split; intros; try discriminate; try reflexivity.
  - match goal with Hs : Ok (Some _) = Ok (Some _) |- _ => injection Hs as Hs; subst end.
    exists b. split; [reflexivity|exact H].
  - match goal with Hs : Ok (Some _) = Ok (Some _) |- _ => injection Hs as Hs; subst end.
    exists a. split; [reflexivity|exact H].
Qed.

(* The readable corollary: with no erased group observed in the tree, [find] on the erased tree
   succeeds exactly when it does on the original, with the same final text position and the same
   capture stack for every kept group (group 0, the match span, when keep 0 = true); it fails
   exactly when the original fails; it runs out of fuel exactly when the original does. *)
Theorem erase_find e keep fuel root rtl start prevlen :
  (forall g, keep g = false -> observed g root = false) ->
  let r1 := find e fuel root rtl start prevlen in
  let r2 := find e fuel (erase keep root) rtl start prevlen in
  (forall s1, r1 = Ok (Some s1) ->
     exists s2, r2 = Ok (Some s2) /\ pos s1 = pos s2 /\
                forall g, keep g = true -> cap_get g (caps s1) = cap_get g (caps s2)) /\
  (forall s2, r2 = Ok (Some s2) ->
     exists s1, r1 = Ok (Some s1) /\ pos s1 = pos s2 /\
                forall g, keep g = true -> cap_get g (caps s1) = cap_get g (caps s2)) /\
  (r1 = Ok None <-> r2 = Ok None) /\
  (r1 = Fuel <-> r2 = Fuel).
Proof.
  intros Hun r1 r2. apply er_unobs_of_observed in Hun.
  exact (er_rrel_opt_spelled keep r1 r2 (erase_find_rel e keep fuel root rtl start prevlen Hun)).
Qed.

Theorem erase_unobserved_obs e keep fuel t s1 s2 :
  (forall g, keep g = false -> observed g t = false) -> agree keep s1 s2 ->
  rrel (Forall2 (agree keep)) (sem e fuel t s1) (sem e fuel (erase keep t) s2).
Proof. intros Hun. apply erase_unobserved. apply er_unobs_of_observed. exact Hun. Qed.

(* the same for one attempt at a given position *)
Theorem erase_attempt_spelled e keep fuel root p :
  (forall g, keep g = false -> observed g root = false) ->
  let r1 := attempt e fuel root p in
  let r2 := attempt e fuel (erase keep root) p in
  (forall s1, r1 = Ok (Some s1) -> exists s2, r2 = Ok (Some s2) /\ agree keep s1 s2) /\
  (forall s2, r2 = Ok (Some s2) -> exists s1, r1 = Ok (Some s1) /\ agree keep s1 s2) /\
  (r1 = Ok None <-> r2 = Ok None) /\
  (r1 = Fuel <-> r2 = Fuel).
Proof.
  intros Hun r1 r2. apply er_unobs_of_observed in Hun.
  exact (er_rrel_opt_spelled keep r1 r2 (erase_attempt e keep fuel root p Hun)).
Qed.

(* and for the executable continuation-passing search, whenever the reference terminates *)
Corollary erase_findk e keep fuel root rtl start prevlen s1 :
  (forall g, keep g = false -> observed g root = false) ->
  find e fuel root rtl start prevlen = Ok (Some s1) ->
  exists s2, findk e fuel (erase keep root) rtl start prevlen = Ok (Some s2) /\ agree keep s1 s2.
Proof.
  intros Hun H.
  destruct (erase_find e keep fuel root rtl start prevlen Hun) as [H1 _].
  destruct (H1 s1 H) as [s2 [H2 Hag]]. exists s2. split; [|exact Hag].
  apply findk_find. exact H2.
Qed.

(* E2: the quick program is the full program of the erased tree                                *)

Definition quick_cfg (cm : option (list (Z * Z))) (q : list bool) : wcfg := {| capmap := cm; quick := Some q |}.
Definition full_cfg (cm : option (list (Z * Z))) : wcfg := {| capmap := cm; quick := None |}.
(* the writer's decision for a plain capture of group g *)
Definition quick_keep (cm : option (list (Z * Z))) (q : list bool) (g : Z) : bool :=
  emit_capture (quick_cfg cm q) g (-1).

Definition opt_ball (f : node -> bool) (no : option node) : bool :=
  match no with Some x => f x | None => true end.

(* every balancing capture (?<g-u>...) of the tree has its u mapped to a real slot (not -1).
   The Go writer builds the map as caps[Capnumlist[i]] = i, so its values are never -1
   (er_capmap_ok_bal_ok below); without this the quick writer would drop a balancing capture
   (erase_compile_needs_bal_ok). *)
Fixpoint bal_ok (cm : option (list (Z * Z))) (t : node) : bool :=
  match t with
  | NConcat _ l => forallb (bal_ok cm) l
  | NAlternate _ l => forallb (bal_ok cm) l
  | NLoop _ _ _ _ r => bal_ok cm r
  | NCapture _ g u r => ((u =? -1) || negb (map_capnum (full_cfg cm) u =? -1)) && bal_ok cm r
  | NGroup r => bal_ok cm r
  | NPosLook _ r => bal_ok cm r
  | NNegLook _ r => bal_ok cm r
  | NAtomic r => bal_ok cm r
  | NBackRefCond _ _ yes no => bal_ok cm yes && opt_ball (bal_ok cm) no
  | NExprCond _ c yes no => bal_ok cm c && bal_ok cm yes && opt_ball (bal_ok cm) no
  | _ => true
  end.

Definition capmap_ok (cm : option (list (Z * Z))) : Prop :=
  match cm with None => True | Some m => Forall (fun kv => snd kv <> -1) m end.

Lemma er_zassoc_ne k m : Forall (fun kv : Z * Z => snd kv <> -1) m -> zassoc k m 0 <> -1.
Proof.
  induction 1 as [|[k' v] m Hv HF IH]; cbn [zassoc]; [lia|].
  destruct (k =? k'); [exact Hv|exact IH].
Qed.

Lemma er_capmap_ok_map cm u : capmap_ok cm -> u <> -1 -> map_capnum (full_cfg cm) u <> -1.
Proof.
  intros Hok Hu. unfold map_capnum. replace (u =? -1) with false by lia.
  cbn [capmap full_cfg]. destruct cm as [m|]; [apply er_zassoc_ne; exact Hok|exact Hu].
Qed.

Lemma er_capmap_ok_bal_ok cm : capmap_ok cm -> forall t, bal_ok cm t = true.
Proof.
  intros Hok.
  induction t as [kd o ch|kd lk o ch m n|o str|o g|an| | | |o l HF|o l HF|lazy o m n r IHr|o g u r IHr
                 |r IHr|o r IHr|o r IHr|r IHr|o g yes no IHy IHn|o cnd yes no IHc IHy IHn]
    using node_ind'; cbn [bal_ok]; try reflexivity; try assumption.
  - apply forallb_forall. intros x Hx. rewrite Forall_forall in HF. exact (HF x Hx).
  - apply forallb_forall. intros x Hx. rewrite Forall_forall in HF. exact (HF x Hx).
  - rewrite IHr, andb_true_r. destruct (u =? -1) eqn:Eu; [reflexivity|]. cbn [orb].
    pose proof (er_capmap_ok_map cm u Hok ltac:(lia)) as Hne.
    destruct (map_capnum (full_cfg cm) u =? -1) eqn:E; [lia|reflexivity].
  - rewrite IHy. destruct no as [x|]; cbn [opt_ball opt_all] in *; [exact IHn|reflexivity].
  - rewrite IHc, IHy. destruct no as [x|]; cbn [opt_ball opt_all] in *; [exact IHn|reflexivity].
Qed.

Lemma er_map_capnum cm q g : map_capnum (quick_cfg cm q) g = map_capnum (full_cfg cm) g.
Proof. reflexivity. Qed.

Lemma er_emit_capture_full cm g u : emit_capture (full_cfg cm) g u = true.
Proof. reflexivity. Qed.

Lemma er_emit_capture_bal cm q g u :
  (u =? -1) = false -> negb (map_capnum (full_cfg cm) u =? -1) = true ->
  emit_capture (quick_cfg cm q) g u = true.
Proof.
  intros Eu Hb.
  unfold emit_capture. cbn [quick quick_cfg]. rewrite er_map_capnum. rewrite Hb. reflexivity.
Qed.

Section E2.
Variable cm : option (list (Z * Z)).
Variable q : list bool.
Notation cq := (quick_cfg cm q).
Notation cf := (full_cfg cm).
Notation keep := (quick_keep cm q).

Lemma er_forallb_cons (f : node -> bool) x l :
  forallb f (x :: l) = true -> f x = true /\ forallb f l = true.
Proof. cbn [forallb]. intros H. apply andb_prop in H. exact H. Qed.

Theorem erase_csize : forall t, bal_ok cm t = true -> csize cq t = csize cf (erase keep t).
Proof.
  induction t as [kd o ch|kd lk o ch m n|o str|o g|an| | | |o l HF|o l HF|lazy o m n r IHr|o g u r IHr
                 |r IHr|o r IHr|o r IHr|r IHr|o g yes no IHy IHn|o cnd yes no IHc IHy IHn]
    using node_ind'; intros Hb; cbn [erase]; try reflexivity; cbn [bal_ok] in Hb.
  - (* NConcat *)
    rewrite !wr_csize_concat_eq.
    induction HF as [|x l Hx HF IH]; [reflexivity|].
    apply er_forallb_cons in Hb. destruct Hb as [Hbx Hbl].
    cbn [map csize_seq]. rewrite (Hx Hbx), (IH Hbl). reflexivity.
  - (* NAlternate *)
    rewrite !wr_csize_alternate_eq.
    induction HF as [|x l Hx HF IH]; [reflexivity|].
    apply er_forallb_cons in Hb. destruct Hb as [Hbx Hbl].
    destruct l as [|y l].
    + cbn [map csize_alt]. exact (Hx Hbx).
    + cbn [map] in IH |- *. rewrite !wr_csize_alt_cons2. rewrite (Hx Hbx), (IH Hbl). reflexivity.
  - cbn [csize]. rewrite (IHr Hb). reflexivity.
  - (* NCapture *)
    apply andb_prop in Hb. destruct Hb as [Hbu Hbr].
    destruct (u =? -1) eqn:Eu; cbn [andb].
    + assert (u = -1) by lia. subst u.
      cbn [csize]. fold (keep g).
      destruct (keep g) eqn:Ek; cbn [negb csize].
      * rewrite er_emit_capture_full. rewrite (IHr Hbr). reflexivity.
      * exact (IHr Hbr).
    + cbn [orb] in Hbu. cbn [csize]. rewrite (er_emit_capture_bal cm q g u Eu Hbu), er_emit_capture_full.
      rewrite (IHr Hbr). reflexivity.
  - cbn [csize]. exact (IHr Hb).
  - cbn [csize]. rewrite (IHr Hb). reflexivity.
  - cbn [csize]. rewrite (IHr Hb). reflexivity.
  - cbn [csize]. rewrite (IHr Hb). reflexivity.
  - apply andb_prop in Hb. destruct Hb as [Hby Hbn].
    cbn [csize]. rewrite (IHy Hby).
    destruct no as [x|]; cbn [mask_opt_node opt_all opt_ball] in *; [rewrite (IHn Hbn)|]; reflexivity.
  - apply andb_prop in Hb. destruct Hb as [Hb Hbn]. apply andb_prop in Hb. destruct Hb as [Hbc Hby].
    cbn [csize]. rewrite (IHc Hbc), (IHy Hby).
    destruct no as [x|]; cbn [mask_opt_node opt_all opt_ball] in *; [rewrite (IHn Hbn)|]; reflexivity.
Qed.

Theorem erase_emit : forall t, bal_ok cm t = true ->
  forall a tbl, emit cq t a tbl = emit cf (erase keep t) a tbl.
Proof.
  induction t as [kd o ch|kd lk o ch m n|o str|o g|an| | | |o l HF|o l HF|lazy o m n r IHr|o g u r IHr
                 |r IHr|o r IHr|o r IHr|r IHr|o g yes no IHy IHn|o cnd yes no IHc IHy IHn]
    using node_ind'; intros Hb a tbl; cbn [erase]; try reflexivity; pose proof Hb as Hb0; cbn [bal_ok] in Hb.
  - (* NConcat *)
    rewrite !wr_emit_concat_eq. clear Hb0. revert a tbl.
    induction HF as [|x l Hx HF IH]; intros a tbl; [reflexivity|].
    apply er_forallb_cons in Hb. destruct Hb as [Hbx Hbl].
    cbn [map emit_seq]. rewrite (Hx Hbx). destruct (emit cf (erase keep x) a tbl) as [cx t1].
    rewrite (IH Hbl). reflexivity.
  - (* NAlternate *)
    rewrite !wr_emit_alternate_eq.
    change (NAlternate o (map (erase keep) l)) with (erase keep (NAlternate o l)).
    rewrite <- (erase_csize (NAlternate o l) Hb0). clear Hb0.
    generalize (a + csize cq (NAlternate o l)) as lend. intros lend. revert a tbl.
    induction HF as [|x l Hx HF IH]; intros a tbl; [reflexivity|].
    apply er_forallb_cons in Hb. destruct Hb as [Hbx Hbl].
    destruct l as [|y l].
    + cbn [map emit_alt]. exact (Hx Hbx a tbl).
    + cbn [map] in IH |- *. rewrite !wr_emit_alt_cons2. rewrite (Hx Hbx).
      destruct (emit cf (erase keep x) (a + 2) tbl) as [cx t1]. cbv zeta.
      rewrite (IH Hbl). reflexivity.
  - cbn [emit]. rewrite (IHr Hb). reflexivity.
  - (* NCapture *)
    apply andb_prop in Hb. destruct Hb as [Hbu Hbr].
    destruct (u =? -1) eqn:Eu; cbn [andb].
    + assert (u = -1) by lia. subst u.
      cbn [emit]. fold (keep g).
      destruct (keep g) eqn:Ek; cbn [negb emit].
      * rewrite er_emit_capture_full. rewrite (IHr Hbr). reflexivity.
      * exact (IHr Hbr a tbl).
    + cbn [orb] in Hbu. cbn [emit]. rewrite (er_emit_capture_bal cm q g u Eu Hbu), er_emit_capture_full.
      rewrite (IHr Hbr). reflexivity.
  - cbn [emit]. exact (IHr Hb a tbl).
  - cbn [emit]. rewrite (IHr Hb). reflexivity.
  - cbn [emit]. rewrite (IHr Hb). reflexivity.
  - cbn [emit]. rewrite (IHr Hb). reflexivity.
  - apply andb_prop in Hb. destruct Hb as [Hby Hbn].
    cbn [emit]. rewrite (IHy Hby). destruct (emit cf (erase keep yes) (a + 6) tbl) as [cy t1].
    destruct no as [x|]; cbn [mask_opt_node opt_all opt_ball] in *; [rewrite (IHn Hbn)|]; reflexivity.
  - apply andb_prop in Hb. destruct Hb as [Hb Hbn]. apply andb_prop in Hb. destruct Hb as [Hbc Hby].
    cbn [emit]. rewrite (IHc Hbc). destruct (emit cf (erase keep cnd) (a + 4) tbl) as [cc t1].
    rewrite (IHy Hby). destruct (emit cf (erase keep yes) (a + 4 + zlen cc + 2) t1) as [cy t2].
    destruct no as [x|]; cbn [mask_opt_node opt_all opt_ball] in *; [rewrite (IHn Hbn)|]; reflexivity.
Qed.

Theorem erase_compile t : bal_ok cm t = true -> compile cq t = compile cf (erase keep t).
Proof. intros Hb. unfold compile. rewrite (erase_emit t Hb). reflexivity. Qed.

End E2.

(* with a slot map as the Go writer builds it (no value is -1) no side condition on the tree is left *)
Corollary erase_compile_capmap_ok cm q t :
  capmap_ok cm ->
  compile {| capmap := cm; quick := Some q |} t =
  compile {| capmap := cm; quick := None |}
          (erase (fun g => emit_capture {| capmap := cm; quick := Some q |} g (-1)) t).
Proof. intros Hok. apply (erase_compile cm q t). apply er_capmap_ok_bal_ok. exact Hok. Qed.

(* syntax.Write's quick program *)
Corollary erase_write_quick cm capsize t :
  capmap_ok cm ->
  write_quick cm capsize t =
  let inuse := slots_in_use (fst (write_full cm t)) capsize in
  if existsb negb inuse
  then Some (fst (write_full cm (erase (fun g => emit_capture {| capmap := cm; quick := Some inuse |} g (-1)) t)))
  else None.
Proof.
  intros Hok. unfold write_quick, write_full. cbv zeta.
  destruct (existsb negb _); [|reflexivity].
  rewrite (erase_compile_capmap_ok cm _ t Hok). reflexivity.
Qed.

(* the side condition is needed: a map that sends the u of a balancing capture to -1 makes the
   quick writer drop that capture, which [erase] (plain captures only) never does *)
Example erase_compile_needs_bal_ok :
  let cm := Some [(1, 0); (2, -1)] in
  let t := NCapture 0 1 2 NEmpty in
  let keep := fun g => emit_capture {| capmap := cm; quick := Some [false] |} g (-1) in
  bal_ok cm t = false /\ erase keep t = t /\
  compile {| capmap := cm; quick := Some [false] |} t = ([Lazybranch; 2; Stop], []) /\
  compile {| capmap := cm; quick := None |} (erase keep t) =
    ([Lazybranch; 6; Setmark; Capturemark; 0; -1; Stop], []).
Proof. vm_compute. repeat split; reflexivity. Qed.

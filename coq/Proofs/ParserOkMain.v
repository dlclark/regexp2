(* Proofs about Model/Parser.v, part 7: the main pass keeps the second shape invariant (Proofs/ParserOkTree.v).

   [oinv st]  every node filed so far in the group / alternation / concatenation under construction, on the
              group stack and in the pending unit is well formed ([wf]: arities, counts, one-directional loop
              bodies, group numbers in the capture table) and runs in the direction of its level:
              the RightToLeft bit of the parser's current options, which only a lookaround group changes
              (scanOptions never touches it, popOptions restores it).
   [einv st]  an expression conditional that has no child yet is waiting for its condition: ignoreNextParen is
              set, and the next round opens the condition's group (so a conditional is closed with 2..3 children);
   [rinv st]  the group at the bottom of the group stack is the Capture 0 that scanRegex starts with.
   The lemmas about one operation carry the suffix of the invariant they keep: _o (oinv), _x (einv), _r (rinv).
   Hypotheses on the capture table [tb] the main pass reads: every number it calls a slot and every number it
   returns for a name is a key of [caps]; and, per round, the number of a plain "(" is a key of caps ([Hac],
   discharged in Proofs/ParserOkAgree.v from the agreement of the pre-scan with the main pass). *)
From Coq Require Import ZifyBool.
From Verif Require Import Base.Prelude Gen.ParseLitGen Model.Escape Model.ParseLit Model.GroupMap Model.CharClass
  Model.Parser Proofs.ParseLitProofs Proofs.ParserScan Proofs.ParserTree Proofs.ParserMain Proofs.ParserPre
  Proofs.ParserProofs Proofs.ParserOkTree.

(* ---------------------------------------------------------------- scanDecimal stays below 2^31 *)
Lemma scan_decimal_le p : forall i v r, i <= 2147483647 -> scan_decimal i p = Ok (v, r) -> v <= 2147483647.
Proof.
  induction p as [|c p IH]; intros i v r Hi H; cbn [scan_decimal] in H.
  - inversion H. lia.
  - destruct ((c - 48 <? 0) || (9 <? c - 48)) eqn:E; [inversion H; lia|].
    destruct ((214748364 <? i) || ((i =? 214748364) && (7 <? c - 48))) eqn:E2; [discriminate|].
    eapply IH; [|exact H]. lia.
Qed.

Lemma decimal_range p v r : decimal p = POk (v, r) -> 0 <= v <= 2147483647.
Proof.
  intros H. split; [eapply decimal_nonneg; exact H|].
  unfold decimal, of_res in H. destruct (scan_decimal 0 p) as [[v' r']|c|w|] eqn:E; try discriminate.
  inversion H; subst. eapply scan_decimal_le; [|exact E]. lia.
Qed.

(* a round that starts at a "(" which opens no comment reads no blank and no literal run *)
Lemma blank_paren x p : hd_is p 40 = true -> starts_qhash (tl p) = false -> blank x BNorm p = POk p.
Proof.
  destruct p as [|c t]; [discriminate|]. cbn [hd_is tl]. intros H Q. assert (c = 40) by lia. subst c.
  cbn [blank]. change (is_space 40) with false. rewrite andb_false_r. cbn [Z.eqb Pos.eqb]. rewrite andb_false_r, Q. reflexivity.
Qed.

Lemma take_run_paren o t : take_run o (40 :: t) = ([], 40 :: t).
Proof.
  cbn [take_run]. assert (S : is_stopper o 40 = true) by (unfold is_stopper; destruct (useX o); reflexivity).
  rewrite S. reflexivity.
Qed.

Section OkMain.
Variable caps : Z -> bool.
Variable tb : captab.
Hypothesis Hslot : forall k, ct_slot tb k = true -> caps k = true.
Hypothesis Hname : forall s g, ct_name tb s = Some g -> caps g = true.

Variable is_word_char : Z -> bool.
Variable to_lower : Z -> Z.
Variable simple_fold : Z -> Z.
Variable participates : Z -> bool.
Variable cat_in : Z -> Z -> bool.
Variable cat_name : list Z -> Z.

Local Notation wf := (wf caps).
Local Notation wfl := (wfl caps).
Local Notation pre := (pre caps).
Local Notation unit_ok := (unit_ok caps).

Local Notation char_escape := (char_escape is_word_char).
Local Notation parse_property := (parse_property is_word_char cat_name).
Local Notation cs_scan := (cs_scan is_word_char cat_name).
Local Notation mk_node_ch := (mk_node_ch simple_fold cat_in).
Local Notation mk_node_set := (mk_node_set simple_fold cat_in).
Local Notation char_code := (char_code is_word_char to_lower simple_fold cat_in).
Local Notation name_or_num := (name_or_num is_word_char to_lower simple_fold cat_in).
Local Notation basic_backslash := (basic_backslash is_word_char to_lower simple_fold cat_in).
Local Notation scan_backslash_full := (scan_backslash_full is_word_char to_lower simple_fold cat_in cat_name).
Local Notation class_node := (class_node to_lower simple_fold cat_in).

Lemma ref_unit o g : caps g = true -> unit_ok o (mk_node_mn T_Ref o g 0).
Proof.
  intros H. split.
  - apply wf_iff. split; [|reflexivity]. unfold knd, gq. cbn. rewrite H. reflexivity.
  - unfold mk_node_mn. rewrite dirb_leaf. cbn. apply eqb_refl_b.
Qed.

Lemma anchor_unit o ch : unit_ok o (mk_node (type_from_code o ch) o).
Proof.
  unfold mk_node. apply unit_ok_leaf; try reflexivity;
    unfold type_from_code; repeat match goal with |- context [if ?b then _ else _] => destruct b end; reflexivity.
Qed.

Lemma bs_node_unit o x : bs_node simple_fold cat_in tb o x -> unit_ok o x.
Proof.
  intros [g Es | nm g En | ch | c y E | s y E].
  - apply ref_unit, Hslot, Es.
  - eapply ref_unit, Hname, En.
  - apply anchor_unit.
  - eapply (mk_node_ch_unit caps simple_fold cat_in T_One); [reflexivity | exact E].
  - eapply mk_node_set_unit. exact E.
Qed.

Lemma class_node_unit o s x : class_node o s = POk x -> unit_ok o x.
Proof.
  unfold Parser.class_node. destruct (useI o && (pp_ci_span_limit <? syn_span o s)); [discriminate|].
  destruct (scan_char_set cat_in simple_fold to_lower pp_orbit_fuel (Opts (useI o) (useE o) (useRE2 o)) s); try discriminate.
  apply mk_node_set_unit.
Qed.

Lemma simple_unit_unit o ch x : simple_unit simple_fold cat_in o ch = POk x -> unit_ok o x.
Proof.
  unfold Parser.simple_unit.
  destruct (ch =? 94).
  { intros E. inversion E; subst. unfold mk_node. apply unit_ok_leaf; try reflexivity; destruct (useM o); reflexivity. }
  destruct (ch =? 36).
  { intros E. inversion E; subst. unfold mk_node.
    apply unit_ok_leaf; try reflexivity; destruct (useM o); try reflexivity; destruct (useRE2 o || useE o); reflexivity. }
  destruct (useS o); [apply mk_node_set_unit|].
  destruct (useE o); [apply mk_node_set_unit|].
  apply mk_node_ch_unit. reflexivity.
Qed.

Lemma python_backref_unit o p x q : python_backref is_word_char tb o p = POk (x, q) -> unit_ok o x.
Proof.
  unfold Parser.python_backref. destruct p as [|ch p']; [discriminate|].
  destruct (useE o); [discriminate|].
  destruct (negb (is_word_char ch)); [discriminate|].
  destruct (scan_word is_word_char (ch :: p')) as [nm q0].
  destruct (negb (is_nil nm) && hd_is q0 41); [|discriminate].
  destruct (ct_name tb nm) as [g|] eqn:En; [|discriminate].
  intros E. inversion E; subst. apply ref_unit. eapply Hname. exact En.
Qed.

Definition kidsd (d : bool) (x : rnode) : Prop := wfl (n_kids x) /\ dirl d (n_kids x).

(* the own numbers of a group node are keys of the capture table *)
Definition gnode (g : rnode) : Prop :=
  (n_t g = T_Capture \/ n_t g = T_BackRefCond) -> gq caps (n_t g) (n_m g) (n_n g) = true.

Definition grp_inv (d : bool) (g : rnode) : Prop :=
  wfl (n_kids g) /\ gnode g /\
  match kcls (n_t g) with
  | KUnary => n_kids g = []
  | KBref => dirl d (n_kids g)
  | KEcond => dirl d (tl (n_kids g))
  | _ => False
  end.

Definition level_inv (d : bool) (g a c : rnode) : Prop := grp_inv d g /\ kidsd d a /\ kidsd d c.

(* [tG] = the type of the group opened from the top frame; [d] = the direction inside it *)
Fixpoint stack_inv (tG : Z) (d : bool) (stk : list (rnode * rnode * rnode)) (os : list Z) : Prop :=
  match stk, os with
  | [], [] => True
  | (g, a, c) :: stk', o :: os' =>
      (is_look tG = false -> useRTL o = d) /\ level_inv (useRTL o) g a c /\ stack_inv (n_t g) (useRTL o) stk' os'
  | _, _ => False
  end.

Definition unit_inv (d : bool) (u : option rnode) : Prop :=
  match u with Some x => pre x /\ dirb d x = true | None => True end.

Record oinv (st : mst) : Prop := mkOI {
  oi_lvl : level_inv (useRTL (ms_o st)) (ms_group st) (ms_alt st) (ms_concat st);
  oi_stack : stack_inv (n_t (ms_group st)) (useRTL (ms_o st)) (ms_stack st) (ms_os st);
  oi_unit : unit_inv (useRTL (ms_o st)) (ms_unit st) }.

Local Notation add_child := (add_child cat_in).
Local Notation ACW := (add_child_wf caps is_word_char to_lower simple_fold participates cat_in cat_name).
Local Notation ACO := (add_child_ok is_word_char to_lower simple_fold participates cat_in cat_name).
Local Notation MQW := (make_quantifier_wf caps is_word_char to_lower simple_fold participates cat_in cat_name).
Local Notation MQO := (make_quantifier_ok is_word_char to_lower simple_fold participates cat_in cat_name).
Local Notation add_concatenate := (add_concatenate cat_in).
Local Notation add_concatenate3 := (add_concatenate3 cat_in).
Local Notation add_ones := (add_ones simple_fold cat_in).
Local Notation add_to_concatenate := (add_to_concatenate simple_fold participates cat_in).
Local Notation add_alternate := (add_alternate cat_in).
Local Notation add_group := (add_group cat_in).
Local Notation pop_group := (pop_group cat_in).
Local Notation add_run := (add_run simple_fold participates cat_in).
Local Notation scan_quantifier := (scan_quantifier cat_in).
Local Notation after_unit := (after_unit cat_in).
Local Notation round_open := (round_open is_word_char cat_in).
Local Notation round_close := (round_close cat_in).
Local Notation simple_unit := (simple_unit simple_fold cat_in).
Local Notation scan_round := (scan_round is_word_char to_lower simple_fold participates cat_in cat_name).
Local Notation scan_loop_full := (scan_loop_full is_word_char to_lower simple_fold participates cat_in cat_name).
Local Notation scan_regex := (scan_regex is_word_char to_lower simple_fold participates cat_in cat_name).
Local Notation SRC := (scan_round_cases is_word_char to_lower simple_fold participates cat_in cat_name).

(* a reduced child joins the children of a node under construction *)
Lemma add_child_kidsd d parent child p' : kidsd d parent -> good child -> pre child -> dirb d child = true ->
  add_child parent child = Ok p' ->
  kidsd d p' /\ exists r, p' = set_kids parent (n_kids parent ++ [r]) /\ wf r /\ dirb d r = true.
Proof.
  intros [K1 K2] G P D E. destruct (ACW parent child p' G P E) as [r [-> [Wr Dr]]].
  split; [|exists r; auto]. destruct parent as [t o ch m n str st kids]. cbn [set_kids n_kids] in *.
  split; [apply wfl_app; split; [exact K1 | apply wfl_cons; split; [exact Wr | apply wfl_nil]]|].
  apply dirl_app. split; [exact K2 | apply dirl_cons; split; [apply Dr; exact D | apply dirl_nil]].
Qed.

Lemma add_concatenate_o st st' : mbody st -> oinv st -> add_concatenate st = POk st' -> oinv st'.
Proof.
  intros [Bg Ba Bc Bs Bu] [[Lg [La Lc]] Ls Lu] E. unfold Parser.add_concatenate in E.
  destruct (ms_unit st) as [u|] eqn:Eu; [|discriminate]. cbn [unit_inv] in Lu. destruct Lu as [Pu Du].
  destruct (add_child (ms_concat st) u) as [c'| | |] eqn:Ec; cbn [of_res pbind] in E; try discriminate.
  inversion E; subst. destruct (add_child_kidsd _ _ _ _ Lc Bu Pu Du Ec) as [Kc' _].
  constructor; cbn; [split; [exact Lg | split; [exact La | exact Kc']] | exact Ls | exact I].
Qed.

Lemma add_concatenate3_o st lazy mn mx st' : mbody st -> oinv st -> bounds_ok mn mx = true ->
  add_concatenate3 st lazy mn mx = POk st' -> oinv st'.
Proof.
  intros [Bg Ba Bc Bs Bu] [[Lg [La Lc]] Ls Lu] B E. unfold Parser.add_concatenate3 in E.
  destruct (ms_unit st) as [u|] eqn:Eu; [|discriminate]. cbn [unit_inv] in Lu. destruct Lu as [Pu Du].
  destruct (make_quantifier cat_in u lazy mn mx) as [q| | |] eqn:Eq; cbn [of_res pbind] in E; try discriminate.
  destruct (MQW u lazy mn mx q _ Bu Pu Du B Eq) as [Pq Dq].
  destruct (MQO u lazy mn mx Bu ltac:(unfold bounds_ok in B; lia)) as [q' [Eq' Gq]]. rewrite Eq in Eq'. inversion Eq'; subst q'.
  destruct (add_child (ms_concat st) q) as [c'| | |] eqn:Ec; cbn [of_res pbind] in E; try discriminate.
  inversion E; subst. destruct (add_child_kidsd _ _ _ _ Lc Gq Pq (Dq _ Du) Ec) as [Kc' _].
  constructor; cbn; [split; [exact Lg | split; [exact La | exact Kc']] | exact Ls | exact I].
Qed.

Lemma concat_ok_step c x c' : concat_ok c -> good x -> add_child c x = Ok c' -> concat_ok c'.
Proof.
  intros [Kc Tc] G E. destruct (ACO c x Kc G) as [c2 [E2 [K' [_ [T' _]]]]]. rewrite E in E2. inversion E2; subst.
  split; [exact K' | congruence].
Qed.

Lemma add_ones_o o d s : useRTL o = d -> forall c c', concat_ok c -> kidsd d c -> add_ones o c s = POk c' -> kidsd d c'.
Proof.
  intros Hd. induction s as [|ch s IH]; intros c c' Hc Kc E; cbn [Parser.add_ones] in E; [inversion E; subst; exact Kc|].
  destruct (Parser.mk_node_ch simple_fold cat_in T_One o ch) as [x| | | |] eqn:Ex; cbn [pbind] in E; try discriminate.
  destruct (mk_node_ch_unit caps simple_fold cat_in T_One o ch x eq_refl Ex) as [Wx Dx].
  pose proof (mk_node_ch_ok simple_fold cat_in T_One o ch ltac:(reflexivity) ltac:(tnum; lia) ltac:(reflexivity)) as Gx.
  rewrite Ex in Gx.
  destruct (add_child c x) as [c1| | |] eqn:Ec; cbn [of_res pbind] in E; try discriminate.
  destruct (add_child_kidsd d c x c1 Kc Gx (wf_pre _ _ Wx) ltac:(rewrite <- Hd; exact Dx) Ec) as [K1 _].
  eapply IH; [eapply concat_ok_step; eassumption | exact K1 | exact E].
Qed.

Lemma add_to_concatenate_o o d c s c' : useRTL o = d -> concat_ok c -> kidsd d c ->
  add_to_concatenate o c s = POk c' -> kidsd d c'.
Proof.
  intros Hd Hc Kc E. unfold Parser.add_to_concatenate in E.
  destruct s as [|ch [|ch2 s']]; [inversion E; subst; exact Kc | eapply add_ones_o; eassumption |].
  destruct (negb (useI o) || negb (existsb participates (ch :: ch2 :: s'))); [|eapply add_ones_o; eassumption].
  assert (G : good (mk_node_str T_Multi (clear_I o) (ch :: ch2 :: s'))).
  { apply good_eq. split; [|constructor]. unfold shape_ok. repeat split; intros; try discriminate; exfalso; tnum; lia. }
  assert (U : unit_ok o (mk_node_str T_Multi (clear_I o) (ch :: ch2 :: s'))).
  { unfold mk_node_str. apply unit_ok_leaf; try reflexivity. apply useRTL_clear_I. }
  destruct U as [Wx Dx].
  destruct (add_child c (mk_node_str T_Multi (clear_I o) (ch :: ch2 :: s'))) as [c1| | |] eqn:Ec; cbn [of_res] in E; try discriminate.
  injection E as <-.
  destruct (add_child_kidsd d c _ c1 Kc G (wf_pre _ _ Wx) ltac:(rewrite <- Hd; exact Dx) Ec) as [K1 _]. exact K1.
Qed.

Lemma add_run_o st run isq st' : mbody st -> oinv st -> ms_unit st = None -> add_run st run isq = POk st' -> oinv st'.
Proof.
  intros B Ho Hu E. unfold Parser.add_run in E. destruct run as [|r0 run']; [inversion E; subst; exact Ho|].
  destruct Ho as [[Lg [La Lc]] Ls Lu].
  set (run := r0 :: run') in *.
  destruct (add_to_concatenate (ms_o st) (ms_concat st) (if isq then removelast run else run)) as [c| | | |] eqn:Ea;
    cbn [pbind] in E; try discriminate.
  pose proof (add_to_concatenate_o _ _ _ _ _ eq_refl (mb_concat st B) Lc Ea) as Kc.
  destruct isq.
  - destruct (Parser.mk_node_ch simple_fold cat_in T_One (ms_o st) (last run 0)) as [u| | | |] eqn:Ex; cbn [pbind] in E; try discriminate.
    inversion E; subst.
    destruct (mk_node_ch_unit caps simple_fold cat_in T_One (ms_o st) _ u eq_refl Ex) as [Wx Dx].
    constructor; cbn; [split; [exact Lg | split; [exact La | exact Kc]] | exact Ls | split; [apply wf_pre; exact Wx | exact Dx]].
  - inversion E; subst. constructor; cbn; [split; [exact Lg | split; [exact La | exact Kc]] | exact Ls | rewrite Hu; exact I].
Qed.


Lemma cond_t_cases t : is_cond_t t = true -> t = T_ExprCond \/ t = T_BackRefCond.
Proof. unfold is_cond_t. tnum. lia. Qed.

Lemma kcls_not_cond t : is_cond_t t = false -> kcls t <> KBref /\ kcls t <> KEcond.
Proof.
  intros H. pose proof (kcls_spec t) as S. split; intros K; rewrite K in S; subst t; discriminate.
Qed.

Lemma set_kids_fields x k : n_t (set_kids x k) = n_t x /\ n_m (set_kids x k) = n_m x /\ n_n (set_kids x k) = n_n x /\ n_kids (set_kids x k) = k.
Proof. destruct x; cbn; auto. Qed.

Lemma gnode_set_kids x k : gnode x -> gnode (set_kids x k).
Proof. unfold gnode. destruct (set_kids_fields x k) as [-> [-> [-> _]]]. auto. Qed.

Local Notation CRG := (concat_rev_good is_word_char to_lower simple_fold participates cat_in cat_name).
Local Notation ALTG := (alt_good is_word_char to_lower simple_fold participates cat_in cat_name).

Lemma fresh_concat_kidsd d o : kidsd d (mk_node T_Concatenate o).
Proof. split; reflexivity. Qed.

(* a branch joins the children of a conditional group *)
Lemma cond_group_add d g r : is_cond_t (n_t g) = true -> grp_inv d g -> wf r -> dirb d r = true ->
  grp_inv d (set_kids g (n_kids g ++ [r])).
Proof.
  intros C [W [N K]] Wr Dr. destruct (set_kids_fields g (n_kids g ++ [r])) as [F1 [_ [_ F4]]].
  split; [rewrite F4; apply wfl_app; split; [exact W | apply wfl_cons; split; [exact Wr | apply wfl_nil]]|].
  split; [apply gnode_set_kids; exact N|]. rewrite F1, F4.
  destruct (cond_t_cases _ C) as [Et | Et]; rewrite Et in *; cbn in K |- *.
  - destruct (n_kids g) as [|k0 r0]; [apply dirl_nil|]. cbn [tl app] in *.
    apply dirl_app. split; [exact K | apply dirl_cons; split; [exact Dr | apply dirl_nil]].
  - apply dirl_app. split; [exact K | apply dirl_cons; split; [exact Dr | apply dirl_nil]].
Qed.

Lemma add_alternate_o st st' : mbody st -> oinv st -> add_alternate st = POk st' -> oinv st'.
Proof.
  intros [Bg Ba Bc Bs Bu] [[Lg [La Lc]] Ls Lu] E. unfold Parser.add_alternate in E.
  pose proof (CRG _ Bc) as Gc.
  destruct (reverse_left_pre caps (ms_concat st) (proj1 Lc) (proj2 Bc)) as [Pc Dc]. specialize (Dc _ (proj2 Lc)).
  destruct (is_cond_t (n_t (ms_group st))) eqn:C.
  - destruct (add_child (ms_group st) (reverse_left (ms_concat st))) as [g'| | |] eqn:Eg; cbn [of_res pbind] in E; try discriminate.
    inversion E; subst. destruct (ACW _ _ _ Gc Pc Eg) as [r [-> [Wr Dr]]].
    constructor; cbn.
    + split; [apply cond_group_add; auto | split; [exact La | apply fresh_concat_kidsd]].
    + destruct (set_kids_fields (ms_group st) (n_kids (ms_group st) ++ [r])) as [-> _]. exact Ls.
    + exact Lu.
  - destruct (add_child (ms_alt st) (reverse_left (ms_concat st))) as [a'| | |] eqn:Ea; cbn [of_res pbind] in E; try discriminate.
    inversion E; subst. destruct (add_child_kidsd _ _ _ _ La Gc Pc Dc Ea) as [Ka' _].
    constructor; cbn; [split; [exact Lg | split; [exact Ka' | apply fresh_concat_kidsd]] | exact Ls | exact Lu].
Qed.

(* addGroup: the closed group becomes the unit *)
Lemma add_group_o st st' : mbody st -> oinv st ->
  (n_t (ms_group st) = T_ExprCond -> n_kids (ms_group st) <> []) ->
  add_group st = POk st' ->
  ms_stack st' = ms_stack st /\ ms_os st' = ms_os st /\ ms_o st' = ms_o st /\
  exists g', ms_unit st' = Some g' /\ n_t g' = n_t (ms_group st) /\ pre g' /\
             (forall d', (is_look (n_t g') = false -> d' = useRTL (ms_o st)) -> dirb d' g' = true).
Proof.
  intros [Bg Ba Bc Bs Bu] [[Lg [La Lc]] Ls Lu] HK E. unfold Parser.add_group in E.
  pose proof (CRG _ Bc) as Gc.
  destruct (reverse_left_pre caps (ms_concat st) (proj1 Lc) (proj2 Bc)) as [Pc Dc]. specialize (Dc _ (proj2 Lc)).
  set (d := useRTL (ms_o st)) in *.
  destruct (is_cond_t (n_t (ms_group st))) eqn:C.
  - destruct (add_child (ms_group st) (reverse_left (ms_concat st))) as [g'| | |] eqn:Eg; cbn [of_res pbind] in E; try discriminate.
    destruct (ACW _ _ _ Gc Pc Eg) as [r [Eg' [Wr Dr]]].
    match type of E with (if ?b then _ else _) = _ => destruct b eqn:EB end; [discriminate|].
    inversion E; subst st'. cbn. repeat split; try reflexivity.
    exists g'. split; [reflexivity|].
    pose proof (cond_group_add d _ r C Lg Wr (Dr _ Dc)) as [W' [N' K']]. rewrite <- Eg' in *.
    destruct (set_kids_fields (ms_group st) (n_kids (ms_group st) ++ [r])) as [F1 [F2 [F3 F4]]]. rewrite <- Eg' in *.
    split; [exact F1|].
    destruct g' as [t o ch m n str sset kids]. cbn [n_t n_kids n_m n_n] in *.
    assert (LEN : kids <> []) by (rewrite F4; intros HH; apply app_eq_nil in HH; destruct HH; discriminate).
    destruct (cond_t_cases _ C) as [Et | Et]; rewrite Et in F1; subst t.
    + split.
      * split; [|exact W']. unfold knd. cbn. unfold zlen in EB.
        assert (L2 : (2 <= length kids)%nat).
        { rewrite F4, app_length. cbn [length]. specialize (HK Et). destruct (n_kids (ms_group st)); [congruence | cbn [length]; lia]. }
        destruct kids as [|k1 [|k2 [|k3 [|k4 l]]]]; try reflexivity; cbn [length] in EB, L2; lia.
      * intros d' Hd'. rewrite (Hd' eq_refl). rewrite dirb_econd. exact K'.
    + split.
      * split; [|exact W']. unfold knd. cbn. unfold zlen in EB.
        destruct kids as [|k1 [|k2 [|k3 l]]]; try congruence; try (apply N'; right; reflexivity). cbn [length] in EB. lia.
      * intros d' Hd'. rewrite (Hd' eq_refl). rewrite dirb_bref. exact K'.
  - destruct (add_child (ms_alt st) (reverse_left (ms_concat st))) as [a'| | |] eqn:Ea; cbn [of_res pbind] in E; try discriminate.
    destruct (add_child_kidsd _ _ _ _ La Gc Pc Dc Ea) as [[Wa' Da'] [r [Ea' _]]].
    assert (Aa : alt_ok a').
    { destruct Ba as [Ka Ta]. destruct (ACO (ms_alt st) _ Ka Gc) as [a2 [E2 [K2 [_ [T2 _]]]]]. rewrite Ea in E2. inversion E2; subst a2.
      split; [exact K2 | congruence]. }
    assert (Pa : pre a').
    { destruct a' as [t o ch m n str sset kids]. destruct Aa as [_ Ta]. cbn [n_t n_kids] in *. subst t. split; [reflexivity | exact Wa']. }
    assert (Dra : dirb d a' = true).
    { destruct a' as [t o ch m n str sset kids]. destruct Aa as [_ Ta]. cbn [n_t n_kids] in *. subst t. rewrite dirb_list_node by auto. exact Da'. }
    destruct (add_child (ms_group st) a') as [g'| | |] eqn:Eg; cbn [of_res pbind] in E; try discriminate.
    destruct (ACW _ _ _ (ALTG _ Aa) Pa Eg) as [r2 [Eg' [Wr2 Dr2]]].
    inversion E; subst st'. cbn. repeat split; try reflexivity.
    exists g'. split; [reflexivity|].
    destruct Lg as [W [N K]]. destruct (kcls_not_cond _ C) as [NB NE].
    destruct (kcls (n_t (ms_group st))) eqn:KG; try contradiction; try congruence.
    rewrite K in Eg'. cbn [app] in Eg'.
    destruct (ms_group st) as [t o ch m n str sset kids] eqn:EG. cbn [set_kids n_t n_m n_n n_kids] in *. subst g'. cbn [n_t].
    split; [reflexivity|]. split.
    + split; [|cbn [n_kids]; apply wfl_cons; split; [exact Wr2 | apply wfl_nil]].
      unfold knd. rewrite KG. destruct (t =? T_Capture) eqn:ET; [|reflexivity]. cbn [negb orb]. apply N. left. apply Z.eqb_eq. exact ET.
    + intros d' Hd'. destruct (is_look t) eqn:LK; [rewrite dirb_eq, LK; reflexivity|].
      rewrite (Hd' eq_refl). rewrite dirb_unary by assumption. apply Dr2. exact Dra.
Qed.


(* ---------------------------------------------------------------- scanGroupOpen *)
Definition gkind (t : Z) : Prop := kcls t = KUnary \/ kcls t = KBref \/ kcls t = KEcond.

Definition gopen_ok (v : gvars) (r : pr (option rnode * gvars * list Z)) : Prop :=
  match r with
  | POk (Some gn, v', _) => n_kids gn = [] /\ gnode gn /\ gkind (n_t gn) /\
                            (is_look (n_t gn) = false -> useRTL (gv_o v') = useRTL (gv_o v))
  | POk (None, v', _) => useRTL (gv_o v') = useRTL (gv_o v)
  | _ => True
  end.

Definition num_ok (k : Z) : Prop := k = -1 \/ caps k = true.

Lemma capture_gnode o m n : num_ok m -> num_ok n -> (negb (m =? -1) || negb (n =? -1)) = true ->
  gnode (mk_node_mn T_Capture o m n).
Proof.
  intros Hm Hn Hc _. unfold mk_node_mn. cbn [n_t n_m n_n]. unfold gq. cbn.
  destruct (n =? -1) eqn:En.
  - destruct Hm as [-> | Hm]; [try rewrite En in Hc; cbn in Hc; discriminate | exact Hm].
  - destruct Hn as [-> | Hn]; [discriminate|]. rewrite Hn. destruct Hm as [-> | Hm]; [reflexivity|]. rewrite Hm. apply orb_true_r.
Qed.

Local Notation group_name := (group_name is_word_char).
Local Notation group_cond := (group_cond is_word_char).
Local Notation group_pyname := (group_pyname is_word_char).
Local Notation group_open := (group_open is_word_char).

Lemma group_name_o mco v close cur : gopen_ok v (group_name tb mco v close cur).
Proof.
  unfold Parser.group_name. destruct cur as [|ch cur']; [exact I|].
  destruct (useE (gv_o v)); [exact I|].
  set (cur := ch :: cur') in *.
  match goal with |- gopen_ok _ (pbind ?a _) =>
    assert (A : match a with POk (capnum, _, _) => num_ok capnum | _ => True end) end.
  { destruct (is_digit ch).
    - destruct (decimal cur) as [[n q]|e q| | |]; cbn [pbind]; auto.
      destruct (hd_is_not q close && hd_is_not q 45); [exact I|].
      assert (NK : num_ok (if mco && negb (n =? 0) then (if ch =? 48 then -1 else match ct_name tb (itoa n) with Some g => g | None => -1 end)
                           else if ct_slot tb n then n else -1)).
      { destruct (mco && negb (n =? 0)).
        - destruct (ch =? 48); [left; reflexivity|].
          destruct (ct_name tb (itoa n)) as [g|] eqn:En; [right; eapply Hname; exact En | left; reflexivity].
        - destruct (ct_slot tb n) eqn:Es; [right; apply Hslot; exact Es | left; reflexivity]. }
      match goal with |- match (if ?b then _ else _) with _ => _ end => destruct b end; [exact I | exact NK].
    - destruct (is_word_char ch).
      + destruct (scan_word is_word_char cur) as [nm q].
        destruct (hd_is_not q close && hd_is_not q 45); [exact I|].
        destruct (ct_name tb nm) as [g|] eqn:En; [right; eapply Hname; exact En | left; reflexivity].
      + destruct (ch =? 45); [left; reflexivity | exact I]. }
  match goal with |- gopen_ok _ (pbind ?a _) => destruct a as [[[capnum proceed] q]|e q| | |] end; cbn [pbind gopen_ok]; auto.
  match goal with |- gopen_ok _ (pbind ?a _) =>
    assert (B : match a with POk (u, _) => num_ok u | _ => True end) end.
  { destruct ((negb (capnum =? -1) || proceed) && hd_is q 45); [|left; reflexivity].
    destruct (tl q) as [|c3 q1']; [exact I|].
    destruct (is_digit c3).
    - destruct (decimal (c3 :: q1')) as [[u q2]|e q2| | |]; cbn [pbind]; auto.
      destruct (ct_slot tb u) eqn:Es; cbn [negb]; [|exact I]. destruct (hd_is_not q2 close); [exact I|]. right. apply Hslot. exact Es.
    - destruct (is_word_char c3); [|exact I].
      destruct (scan_word is_word_char (c3 :: q1')) as [nm q2].
      destruct (ct_name tb nm) as [u|] eqn:En; [|exact I]. destruct (hd_is_not q2 close); [exact I|]. right. eapply Hname. exact En. }
  match goal with |- gopen_ok _ (pbind ?a _) => destruct a as [[uncapnum q3]|e q3| | |] end; cbn [pbind gopen_ok]; auto.
  destruct ((negb (capnum =? -1) || negb (uncapnum =? -1)) && hd_is q3 close) eqn:EC; [|exact I].
  cbn [gopen_ok gv_o]. split; [reflexivity|]. split; [apply capture_gnode; auto; apply andb_prop in EC; tauto|].
  split; [left; reflexivity | auto].
Qed.

Lemma group_cond_o v p1 : gopen_ok v (group_cond tb v p1).
Proof.
  unfold Parser.group_cond.
  match goal with |- gopen_ok _ (pbind ?a _) =>
    assert (A : match a with POk (Some (g, _)) => caps g = true | _ => True end) end.
  { destruct (tl p1) as [|c p2']; [exact I|].
    destruct (is_digit c).
    - destruct (decimal (c :: p2')) as [[n q]|e q| | |]; cbn [pbind]; auto.
      destruct (hd_is q 41); [|exact I]. destruct (ct_slot tb n) eqn:Es; [apply Hslot; exact Es | exact I].
    - destruct (is_word_char c); [|exact I].
      destruct (useE (gv_o v)); [exact I|].
      destruct (scan_word is_word_char (c :: p2')) as [nm q].
      destruct (ct_name tb nm) as [g|] eqn:En; [|exact I]. destruct (hd_is q 41); [eapply Hname; exact En | exact I]. }
  match goal with |- gopen_ok _ (pbind ?a _) => destruct a as [[[g q1]|]|e q| | |] end; cbn [pbind gopen_ok]; auto.
  - split; [reflexivity|]. split; [intros _; unfold mk_node_mn; cbn; exact A|]. split; [right; left; reflexivity | auto].
  - assert (G : gopen_ok v (POk (Some (mk_node T_ExprCond (gv_o v)), mkGV (gv_o v) true (gv_autocap v), p1))).
    { cbn. split; [reflexivity|]. split; [intros [H|H]; discriminate|]. split; [right; right; reflexivity | auto]. }
    repeat match goal with |- context [if ?b then _ else _] => destruct b end; try exact I; exact G.
Qed.

Lemma group_pyname_o mco v p2 : gopen_ok v (group_pyname tb mco v p2).
Proof.
  unfold Parser.group_pyname.
  destruct (negb (longer p2 2)); [exact I|].
  destruct (negb (hd_is p2 60)); [exact I|].
  destruct (is_word_char (nth 1 p2 0)); [|exact I].
  destruct (useE (gv_o v)); [exact I|].
  destruct (scan_word is_word_char (tl p2)) as [nm q].
  destruct (hd_is_not q 62); [exact I|].
  destruct (ct_name tb nm) as [g|] eqn:En.
  - destruct (negb (g =? -1) && hd_is q 62) eqn:EC; [|exact I]. cbn [gopen_ok gv_o].
    split; [reflexivity|]. split; [|split; [left; reflexivity | auto]].
    apply capture_gnode; [right; eapply Hname; exact En | left; reflexivity|]. apply andb_prop in EC. destruct EC as [EC _]. rewrite EC. reflexivity.
  - cbn. exact I.
Qed.

Lemma gopen_ok_reopt v v0 r : gv_o v0 = gv_o v -> gopen_ok v0 r -> gopen_ok v r.
Proof. intros H. unfold gopen_ok. rewrite H. auto. Qed.

Lemma group_open_o mco gt v p :
  ((is_nil p || negb (hd_is p 63) || nth_is 1 p 41) = true -> (useN (gv_o v) || gv_ign v) = false ->
   caps (gv_autocap v) = true) ->
  gopen_ok v (group_open tb mco gt v p).
Proof.
  intros Hac. unfold Parser.group_open.
  destruct (is_nil p || negb (hd_is p 63) || nth_is 1 p 41) eqn:E0.
  { destruct (useN (gv_o v) || gv_ign v) eqn:E1; cbn [gopen_ok gv_o].
    - split; [reflexivity|]. split; [intros [H|H]; discriminate|]. split; [left; reflexivity | auto].
    - split; [reflexivity|]. split; [|split; [left; reflexivity | auto]].
      intros _. unfold mk_node_mn. cbn [n_t n_m n_n]. unfold gq. cbn. exact (Hac eq_refl eq_refl). }
  destruct (tl p) as [|ch p2] eqn:E1; [exact I|].
  assert (SIMPLE : forall t o' q, gkind t -> (is_look t = false -> useRTL o' = useRTL (gv_o v)) -> (t <> T_Capture /\ t <> T_BackRefCond) ->
            gopen_ok v (POk (Some (mk_node t o'), mkGV o' false (gv_autocap v), q))).
  { intros t o' q K L [N1 N2]. unfold gopen_ok, gnode, mk_node. cbn [n_kids n_t n_m n_n gv_o]. split; [reflexivity|]. split; [intros [H|H]; congruence|]. split; [exact K | exact L]. }
  destruct (ch =? 58); [apply SIMPLE; [left; reflexivity | auto | split; discriminate]|].
  destruct (ch =? 61); [apply SIMPLE; [left; reflexivity | discriminate | split; discriminate]|].
  destruct (ch =? 33); [apply SIMPLE; [left; reflexivity | discriminate | split; discriminate]|].
  destruct (ch =? 62); [apply SIMPLE; [left; reflexivity | auto | split; discriminate]|].
  destruct ((ch =? 39) || (ch =? 60)).
  { destruct p2 as [|c2 p3]; [exact I|].
    destruct ((c2 =? 61) || (c2 =? 33)).
    - destruct ((if ch =? 39 then 39 else 62) =? 39); [exact I|].
      apply SIMPLE; destruct (c2 =? 61); try (left; reflexivity); try discriminate; split; discriminate.
    - eapply gopen_ok_reopt; [|apply group_name_o]. reflexivity. }
  destruct (ch =? 40); [eapply gopen_ok_reopt; [|apply group_cond_o]; reflexivity|].
  destruct ((ch =? 80) && useRE2 (gv_o v)); [eapply gopen_ok_reopt; [|apply group_pyname_o]; reflexivity|].
  destruct (if gt =? T_ExprCond then (gv_o v, ch :: p2) else scan_options_text (gv_o v) (ch :: p2)) as [o2 q] eqn:Eo.
  assert (R : useRTL o2 = useRTL (gv_o v)).
  { destruct (gt =? T_ExprCond); [inversion Eo; reflexivity|]. apply inline_options_keep_top_bits in Eo. tauto. }
  destruct q as [|c q1]; [exact I|].
  destruct (c =? 41); [cbn; exact R|].
  destruct (c =? 58); [|exact I]. apply SIMPLE; [left; reflexivity | auto | split; discriminate].
Qed.

Lemma brace_counts_range p1 mn mx q : brace_counts p1 = POk (Some (mn, mx, q)) ->
  0 <= mn <= 2147483647 /\ 0 <= mx <= 2147483647.
Proof.
  unfold brace_counts. intros H.
  destruct (decimal p1) as [[mn0 q0]|e q0| | |] eqn:D; cbn [pbind] in H; try discriminate.
  pose proof (decimal_range _ _ _ D) as R0.
  match type of H with pbind ?a _ = _ => destruct a as [[mx0 q2]|e q2| | |] eqn:D2 end; cbn [pbind] in H; try discriminate.
  destruct ((length q0 =? length p1)%nat || negb (hd_is q2 125)); [discriminate|]. inversion H; subst.
  split; [exact R0|].
  destruct ((length q0 <? length p1)%nat && hd_is q0 44).
  - destruct (is_nil (tl q0) || hd_is (tl q0) 125); [inversion D2; subst; unfold pp_inf; lia|].
    exact (decimal_range _ _ _ D2).
  - inversion D2; subst. exact R0.
Qed.

Local Notation AC3 := (add_concatenate3_ok is_word_char to_lower simple_fold participates cat_in cat_name).
Local Notation AC1 := (add_concatenate_ok is_word_char to_lower simple_fold participates cat_in cat_name).

Lemma scan_quantifier_o st p st' q : mbody st -> oinv st -> scan_quantifier st p = POk (st', q) -> oinv st'.
Proof.
  intros B Ho E. unfold Parser.scan_quantifier in E. destruct p as [|ch p1]; [discriminate|].
  destruct (ms_unit st) as [u|] eqn:Eu; [|inversion E; subst; exact Ho].
  match type of E with pbind ?a _ = _ => destruct a as [[[[mn mx] q0]|]|e q0| | |] eqn:EA end; cbn [pbind] in E; try discriminate.
  - assert (R : 0 <= mn <= 2147483647 /\ 0 <= mx <= 2147483647).
    { destruct (ch =? 42); [inversion EA; subst; unfold pp_inf; lia|].
      destruct (ch =? 63); [inversion EA; subst; lia|].
      destruct (ch =? 43); [inversion EA; subst; unfold pp_inf; lia|].
      destruct (ch =? 123); [eapply brace_counts_range; exact EA | discriminate]. }
    destruct (scan_blank_full (ms_o st) q0) as [q1|e q1| | |]; cbn [pbind] in E; try discriminate.
    destruct (if hd_is q1 63 then (true, tl q1) else (false, q1)) as [lazy q2].
    destruct (mx <? mn) eqn:EM; [discriminate|].
    destruct (add_concatenate3 st lazy mn mx) as [st1|e q3| | |] eqn:E3; cbn [pbind] in E; try discriminate.
    inversion E; subst. eapply add_concatenate3_o; [exact B | exact Ho | | exact E3]. unfold bounds_ok, pp_inf. lia.
  - destruct (add_concatenate st) as [st1|e q3| | |] eqn:E1; cbn [pbind] in E; try discriminate.
    inversion E; subst. eapply add_concatenate_o; eassumption.
Qed.

Lemma after_unit_o st p st' q wq : mbody st -> oinv st -> after_unit st p = POk (st', q, wq) -> oinv st'.
Proof.
  intros B Ho E. unfold Parser.after_unit in E.
  destruct (scan_blank_full (ms_o st) p) as [p1|e p1| | |]; cbn [pbind] in E; try discriminate.
  destruct (is_nil p1 || negb (is_true_quantifier p1)).
  - destruct (add_concatenate st) as [st1|e q3| | |] eqn:E1; cbn [pbind] in E; try discriminate.
    inversion E; subst. eapply add_concatenate_o; eassumption.
  - destruct (scan_quantifier st p1) as [[st1 q1]|e q3| | |] eqn:E1; cbn [pbind] in E; try discriminate.
    inversion E; subst. eapply scan_quantifier_o; eassumption.
Qed.

Lemma oinv_set_unit st x : oinv st -> unit_ok (ms_o st) x -> oinv (set_unit st (Some x)).
Proof.
  intros [L S U] [W D]. constructor; cbn; [exact L | exact S | split; [apply wf_pre; exact W | exact D]].
Qed.

Lemma unit_then_o st1 x q st' nxt : mbody st1 -> good x -> oinv st1 -> unit_ok (ms_o st1) x ->
  (pdo r <- after_unit (set_unit st1 (Some x)) q ; let '(st', q', wq) := r in POk (st', Some (q', wq))) = POk (st', nxt) ->
  oinv st'.
Proof.
  intros B G Ho U E.
  destruct (after_unit (set_unit st1 (Some x)) q) as [[[st2 q2] wq]|e q0| | |] eqn:EA; cbn [pbind] in E; try discriminate.
  inversion E; subst. eapply after_unit_o; [|apply oinv_set_unit; eassumption | exact EA].
  apply mbody_set_unit; assumption.
Qed.

Lemma round_open_o mco st1 p3 st' nxt : minv st1 -> oinv st1 -> ms_unit st1 = None ->
  ((is_nil p3 || negb (hd_is p3 63) || nth_is 1 p3 41) = true -> (useN (ms_o st1) || ms_ign st1) = false ->
   caps (ms_autocap st1) = true) ->
  round_open tb mco st1 p3 = POk (st', nxt) -> oinv st'.
Proof.
  intros [B D] Ho Hu Hac E. unfold Parser.round_open in E.
  destruct (useRE2 (ms_o st1) && negb (ms_ign st1) && hd_is p3 63 && nth_is 1 p3 80 && nth_is 2 p3 61).
  { destruct (python_backref is_word_char tb (ms_o st1) (skipn 3 p3)) as [[x q]|e q| | |] eqn:EP; cbn [pbind] in E; try discriminate.
    pose proof (python_backref_adv is_word_char to_lower simple_fold participates cat_in cat_name tb (ms_o st1) (skipn 3 p3)) as PA.
    rewrite EP in PA. destruct PA as [_ Gx].
    exact (unit_then_o st1 x q st' nxt B Gx Ho (python_backref_unit _ _ _ _ EP) E). }
  pose proof (group_open_o mco (n_t (ms_group st1)) (mkGV (ms_o st1) (ms_ign st1) (ms_autocap st1)) p3 Hac) as GO.
  destruct (Parser.group_open is_word_char tb mco (n_t (ms_group st1)) (mkGV (ms_o st1) (ms_ign st1) (ms_autocap st1)) p3) as [[[g v] q]|e q| | |];
    cbn [pbind] in E; try discriminate.
  destruct Ho as [L S U]. cbn [gopen_ok gv_o] in GO.
  destruct g as [gn|]; inversion E; subst; clear E.
  - destruct GO as [GK [GN [GT GR]]].
    constructor; cbn.
    + split; [|split; split; reflexivity].
      split; [rewrite GK; reflexivity|]. split; [exact GN|]. rewrite GK.
      destruct GT as [-> | [-> | ->]]; [reflexivity | apply dirl_nil | apply dirl_nil].
    + split; [intros LK; symmetry; apply GR; exact LK|]. split; [exact L | exact S].
    + rewrite Hu. exact I.
  - constructor; cbn; rewrite GO; [exact L | exact S | rewrite Hu; exact I].
Qed.

Lemma round_close_o st1 p3 st' nxt : minv st1 -> oinv st1 ->
  (n_t (ms_group st1) = T_ExprCond -> n_kids (ms_group st1) <> []) ->
  round_close st1 p3 = POk (st', nxt) -> oinv st'.
Proof.
  intros [B D] Ho HK E. destruct (round_close_cases _ _ _ _ _ E) as [st2 [st3 [o1 [os1 [E2 [E3 [Eo T]]]]]]]. cbv zeta in T.
  pose proof (add_group_ok is_word_char to_lower simple_fold participates cat_in cat_name st1 B) as AG. rewrite E2 in AG.
  destruct AG as [B2 [_ _]].
  destruct (add_group_o st1 st2 B Ho HK E2) as [S2 [O2 [OO2 [g' [U2 [T2 [P2 D2]]]]]]].
  destruct (pop_group_cases _ _ _ E3) as [g [a [c [stk [Es P]]]]].
  pose proof (pop_group_ok is_word_char to_lower simple_fold participates cat_in cat_name st2 B2 ltac:(rewrite Es; discriminate)) as PG.
  rewrite E3 in PG. destruct PG as [B3 _].
  destruct Ho as [L S U]. rewrite <- S2, Es in S.
  assert (Eos : ms_os st1 = o1 :: os1) by (rewrite <- O2, <- Eo; destruct P as [[_ [_ [u [g2 [_ [_ ->]]]]]] | [_ ->]]; reflexivity).
  rewrite Eos in S. cbn [stack_inv] in S. destruct S as [LK [[Lg [La Lc]] S']].
  assert (DU : dirb (useRTL o1) g' = true) by (apply D2; intros H; rewrite T2 in H; apply LK; exact H).
  assert (Gg' : good g') by (pose proof (mb_unit st2 B2) as GU; rewrite U2 in GU; exact GU).
  (* the state after popGroup and popOptions *)
  match type of T with (_ /\ _ = ?s /\ _) \/ _ => set (st4 := s) in * end.
  assert (O4 : oinv st4).
  { destruct P as [[Tg [Kg [u [g2 [Eu [Eg ->]]]]]] | [_ ->]]; constructor; cbn; try (split; [|split; [exact La | exact Lc]]); try exact S'; try exact I.
    - rewrite U2 in Eu. inversion Eu; subst u. destruct (ACW _ _ _ Gg' P2 Eg) as [r [-> [Wr _]]].
      destruct (set_kids_fields g (n_kids g ++ [r])) as [F1 [_ [_ F4]]].
      destruct Lg as [W [N K]]. split; [rewrite F4, Kg; apply wfl_cons; split; [exact Wr | apply wfl_nil]|].
      split; [apply gnode_set_kids; exact N|]. rewrite F1, F4, Tg, Kg. cbn. apply dirl_nil.
    - destruct (add_child_ot _ _ _ _ Eg) as [_ ->]. exact S'.
    - exact Lg.
    - rewrite U2. split; [exact P2 | exact DU]. }
  assert (B4 : mbody st4) by (destruct B3; constructor; cbn; auto).
  destruct T as [[_ [-> ->]] | [_ [q' [wq [EA ->]]]]]; [exact O4 | eapply after_unit_o; eassumption].
Qed.


(* ---------------------------------------------------------------- the condition of an expression conditional *)
(* scanGroupOpen sets ignoreNextParen when it opens "(?(" with an expression condition and leaves the cursor on the
   "(" of the condition; the next round opens that group, popGroup files it as the first child.  So a conditional
   never gets its branches before its condition: NtExprCond has 2..3 children when it is closed. *)
Definition einv (st : mst) : Prop :=
  n_t (ms_group st) = T_ExprCond -> n_kids (ms_group st) = [] -> ms_ign st = true.
Definition ign_ok (st : mst) (p : list Z) : Prop :=
  ms_ign st = true -> hd_is p 40 = true /\ starts_qhash (tl p) = false.

Lemma einv_keep st st' : einv st -> n_t (ms_group st') = n_t (ms_group st) ->
  (n_kids (ms_group st') = [] -> n_kids (ms_group st) = []) -> ms_ign st' = ms_ign st -> einv st'.
Proof. unfold einv. intros H T K I. rewrite T, I. auto. Qed.

(* scanGroupOpen: ignoreNextParen is set only in front of the "(" of an expression condition *)
Lemma group_open_x mco gt v p g v' q : Parser.group_open is_word_char tb mco gt v p = POk (g, v', q) ->
  (gv_ign v' = true -> hd_is q 40 = true /\ starts_qhash (tl q) = false) /\
  match g with Some gn => n_t gn = T_ExprCond -> gv_ign v' = true | None => gt <> T_ExprCond end.
Proof.
  unfold Parser.group_open. intros E.
  destruct (is_nil p || negb (hd_is p 63) || nth_is 1 p 41) eqn:E0.
  { destruct (useN (gv_o v) || gv_ign v) eqn:EN; injection E as <- <- <-; cbn [gv_ign]; (split; [|discriminate]).
    - discriminate.
    - intros H. rewrite H, orb_true_r in EN. discriminate. }
  destruct (tl p) as [|ch p2] eqn:E1; [discriminate|].
  assert (N41 : (ch =? 41) = false).
  { destruct p as [|c0 p']; [discriminate|]. cbn [tl] in E1. subst p'. cbn in E0. destruct (ch =? 41); [rewrite orb_true_r in E0; discriminate | reflexivity]. }
  destruct (ch =? 58); [injection E as <- <- <-; cbn; split; discriminate|].
  destruct (ch =? 61); [injection E as <- <- <-; cbn; split; discriminate|].
  destruct (ch =? 33); [injection E as <- <- <-; cbn; split; discriminate|].
  destruct (ch =? 62); [injection E as <- <- <-; cbn; split; discriminate|].
  destruct ((ch =? 39) || (ch =? 60)).
  { destruct p2 as [|c2 p3]; [discriminate|].
    destruct ((c2 =? 61) || (c2 =? 33)).
    - destruct ((if ch =? 39 then 39 else 62) =? 39); [discriminate|]. injection E as <- <- <-. cbn. split; [discriminate | destruct (c2 =? 61); discriminate].
    - unfold Parser.group_name in E. cbn [gv_o gv_ign gv_autocap] in E.
      destruct (useE (gv_o v)); [discriminate|].
      match type of E with pbind ?A _ = _ => destruct A as [[[capnum proceed] q0]|e q0| | |] end; cbn [pbind] in E; try discriminate.
      match type of E with pbind ?A _ = _ => destruct A as [[uncapnum q3]|e q3| | |] end; cbn [pbind] in E; try discriminate.
      match type of E with (if ?c then _ else _) = _ => destruct c end; [|discriminate]. injection E as <- <- <-. cbn. split; discriminate. }
  destruct (ch =? 40) eqn:C40.
  { assert (ch = 40) by lia. subst ch. unfold Parser.group_cond in E. cbn [gv_o gv_ign gv_autocap tl] in E.
    match type of E with pbind ?A _ = _ => destruct A as [[[gn q1]|]|e q1| | |] end; cbn [pbind] in E; try discriminate.
    - injection E as <- <- <-. cbn. split; discriminate.
    - assert (Q : starts_qhash p2 = false).
      { destruct (starts_qhash p2) eqn:Q; [|reflexivity]. exfalso.
        unfold starts_qhash in Q. apply andb_prop in Q. destruct Q as [Q1 Q2].
        destruct p2 as [|c0 [|c1 p4]]; try discriminate. cbn [hd_is nth_is skipn] in Q1, Q2.
        assert (c0 = 63) by lia. assert (c1 = 35) by lia. subst c0 c1. cbn in E. discriminate. }
      repeat match type of E with (if ?c then _ else _) = _ => destruct c end; try discriminate; injection E as <- <- <-; cbn [gv_ign hd_is tl mk_node n_t Z.eqb Pos.eqb];
        (split; [intros _; split; [reflexivity | exact Q] | reflexivity]). }
  destruct ((ch =? 80) && useRE2 (gv_o v)).
  { unfold Parser.group_pyname in E. cbn [gv_o gv_ign gv_autocap] in E.
    destruct (negb (longer p2 2)); [discriminate|]. destruct (negb (hd_is p2 60)); [discriminate|].
    destruct (is_word_char (nth 1 p2 0)); [|discriminate]. destruct (useE (gv_o v)); [discriminate|].
    destruct (scan_word is_word_char (tl p2)) as [nm q0]. destruct (hd_is_not q0 62); [discriminate|].
    match type of E with (if ?c then _ else _) = _ => destruct c end; [|discriminate]. injection E as <- <- <-. cbn. split; discriminate. }
  destruct (gt =? T_ExprCond) eqn:GT.
  - destruct (ch =? 41); [discriminate|]. destruct (ch =? 58); [|discriminate]. injection E as <- <- <-. cbn. split; discriminate.
  - destruct (scan_options_text (gv_o v) (ch :: p2)) as [o2 q0]. destruct q0 as [|c q1]; [discriminate|].
    destruct (c =? 41); [injection E as <- <- <-; cbn; split; [discriminate | lia]|].
    destruct (c =? 58); [|discriminate]. injection E as <- <- <-. cbn. split; discriminate.
Qed.

Lemma add_run_fields st run isq st1 : add_run st run isq = POk st1 ->
  ms_o st1 = ms_o st /\ ms_ign st1 = ms_ign st /\ ms_autocap st1 = ms_autocap st /\ ms_os st1 = ms_os st /\ ms_stack st1 = ms_stack st /\
  ms_group st1 = ms_group st.
Proof.
  unfold Parser.add_run. destruct run as [|r0 run']; [intros E; inversion E; subst; auto 10|].
  destruct (add_to_concatenate (ms_o st) (ms_concat st) (if isq then removelast (r0 :: run') else r0 :: run')) as [c| | | |]; cbn [pbind]; try discriminate.
  destruct isq.
  - destruct (Parser.mk_node_ch simple_fold cat_in T_One (ms_o st) (last (r0 :: run') 0)) as [u| | | |]; cbn [pbind]; try discriminate.
    intros E; inversion E; subst; cbn; auto 10.
  - intros E; inversion E; subst; cbn; auto 10.
Qed.

Local Notation ARO := (add_run_ok is_word_char to_lower simple_fold participates cat_in cat_name).

Lemma round_unit_o o ch p3 x q :
  round_unit is_word_char to_lower simple_fold cat_in cat_name tb o ch p3 x q -> good x /\ unit_ok o x.
Proof.
  intros [p3' syn q' x' _ Ex | p3' x' q' EB | ch' p3' x' _ Ex].
  - pose proof (class_node_ok to_lower simple_fold cat_in o syn) as Gx. rewrite Ex in Gx.
    split; [exact Gx | eapply class_node_unit; exact Ex].
  - pose proof (scan_backslash_full_bcls is_word_char to_lower simple_fold participates cat_in cat_name false tb o p3') as SB.
    rewrite EB in SB. destruct SB as [_ SB]. split; [exact (bs_node_good is_word_char to_lower simple_fold participates cat_in _ _ _ SB) | exact (bs_node_unit _ _ SB)].
  - pose proof (simple_unit_ok is_word_char to_lower simple_fold participates cat_in o ch') as Gx. rewrite Ex in Gx.
    split; [exact Gx | eapply simple_unit_unit; exact Ex].
Qed.

Lemma scan_round_o mco st p wasq st' nxt : minv st -> oinv st -> ms_unit st = None -> einv st -> ign_ok st p ->
  (forall p0 run p1 p3, scan_blank_full (ms_o st) p = POk p0 -> take_run (ms_o st) p0 = (run, p1) ->
       scan_blank_full (ms_o st) p1 = POk (40 :: p3) ->
       (is_nil p3 || negb (hd_is p3 63) || nth_is 1 p3 41) = true -> (useN (ms_o st) || ms_ign st) = false ->
       caps (ms_autocap st) = true) ->
  scan_round tb mco st p wasq = POk (st', nxt) -> oinv st'.
Proof.
  intros Iv Ho Hu He Hi Hac E. destruct (SRC _ _ _ _ _ _ _ E) as [p0 [run [p1 [p2 [E0 [Er [E1 C]]]]]]]. clear E.
  (* the state after the literal run *)
  assert (RUN : forall isq st1, add_run st run isq = POk st1 ->
            oinv st1 /\ mbody st1 /\ minv st1 /\ (isq = false -> ms_unit st1 = None)).
  { intros isq st1 Ea. pose proof (ARO st run isq (proj1 Iv) Hu) as A. rewrite Ea in A. destruct A as [A1 [A2 [A3 A4]]].
    split; [eapply add_run_o; [exact (proj1 Iv) | exact Ho | exact Hu | exact Ea]|]. split; [exact A1|].
    split; [eapply minv_same; [exact Iv | exact A1 | exact A2]|].
    intros Hq. destruct (ms_unit st1); [|reflexivity]. destruct (A3 ltac:(discriminate)) as [_ F]. congruence. }
  destruct C as [st1 Ep Ea | ch p3 st1 Ep Esp Ea | ch p3 st1 x q st' nxt Ep C40 Ea U E | p3 st1 st' nxt Ep Ea E
                | p3 st1 st2 Ep Ea E2 | p3 st1 st' nxt Ep Ea E | ch p3 st1 st' q' wq Ep C40 Ea _ EA];
    destruct (RUN _ _ Ea) as [O1 [A1 [I1 NQ]]]; try exact O1;
    destruct (add_run_fields _ _ _ _ Ea) as [F1 [F2 [F3 [_ [_ G6]]]]].
  * destruct (round_unit_o _ _ _ _ _ U) as [Gx Ux].
    eapply unit_then_o; [exact A1 | exact Gx | exact O1 | rewrite F1; exact Ux | exact E].
  * eapply round_open_o; [exact I1 | exact O1 | apply NQ; reflexivity | | exact E].
    rewrite F1, F2, F3. intros H1 H2. subst p2. eapply Hac; eauto.
  * eapply add_alternate_o; [exact A1 | exact O1 | exact E2].
  * eapply round_close_o; [exact I1 | exact O1 | | exact E]. subst p2. rename F2 into G2.
    rewrite G6. intros HT HK.
    assert (IG : ms_ign st = true) by (apply He; assumption).
    destruct (Hi IG) as [H40 Q]. unfold scan_blank_full in E0, E1.
    rewrite (blank_paren _ p H40 Q) in E0. inversion E0; subst p0.
    destruct p as [|c t]; [discriminate|]. cbn [hd_is] in H40. assert (c = 40) by lia. subst c.
    rewrite take_run_paren in Er. inversion Er; subst.
    rewrite (blank_paren _ (40 :: t) eq_refl Q) in E1. inversion E1.
  * eapply after_unit_o; [exact A1 | exact O1 | exact EA].
Qed.

(* the condition discipline through one round *)
Lemma ign_round st p p0 run p1 p2 : ign_ok st p -> ms_ign st = true ->
  scan_blank_full (ms_o st) p = POk p0 -> take_run (ms_o st) p0 = (run, p1) -> scan_blank_full (ms_o st) p1 = POk p2 ->
  exists t, p2 = 40 :: t /\ run = [].
Proof.
  intros Hi IG E0 Er E1. destruct (Hi IG) as [H40 Q]. unfold scan_blank_full in E0, E1.
  rewrite (blank_paren _ p H40 Q) in E0. inversion E0; subst p0.
  destruct p as [|c t]; [discriminate|]. cbn [hd_is] in H40. assert (c = 40) by lia. subst c.
  rewrite take_run_paren in Er. inversion Er; subst.
  rewrite (blank_paren _ (40 :: t) eq_refl Q) in E1. inversion E1; subst. exists t. auto.
Qed.

Lemma unit_then_x st1 x q st' nxt : einv st1 -> ms_ign st1 = false ->
  (pdo r <- after_unit (set_unit st1 (Some x)) q ; let '(st', q', wq) := r in POk (st', Some (q', wq))) = POk (st', nxt) ->
  einv st' /\ match nxt with Some (q0, _) => ign_ok st' q0 | None => ms_ign st' = false end.
Proof.
  intros He Hi E.
  destruct (after_unit (set_unit st1 (Some x)) q) as [[[st2 q2] wq]|e q0| | |] eqn:EA; cbn [pbind] in E; try discriminate.
  inversion E; subst. destruct (after_unit_added _ _ _ _ _ _ EA) as [cc [-> _]].
  split; [eapply einv_keep; [exact He | reflexivity | auto | reflexivity]|].
  intros H. cbn in H. congruence.
Qed.

Lemma round_open_x mco st1 p3 st' nxt : einv st1 ->
  round_open tb mco st1 p3 = POk (st', nxt) ->
  einv st' /\ match nxt with Some (q0, _) => ign_ok st' q0 | None => ms_ign st' = false end.
Proof.
  intros He E. unfold Parser.round_open in E.
  destruct (useRE2 (ms_o st1) && negb (ms_ign st1) && hd_is p3 63 && nth_is 1 p3 80 && nth_is 2 p3 61) eqn:PY.
  { destruct (python_backref is_word_char tb (ms_o st1) (skipn 3 p3)) as [[x q]|e q| | |]; cbn [pbind] in E; try discriminate.
    eapply unit_then_x; [exact He | | exact E].
    destruct (ms_ign st1); [cbn [negb] in PY; rewrite andb_false_r in PY; cbn [andb] in PY; discriminate | reflexivity]. }
  destruct (Parser.group_open is_word_char tb mco (n_t (ms_group st1)) (mkGV (ms_o st1) (ms_ign st1) (ms_autocap st1)) p3) as [[[g v] q]|e q| | |] eqn:EG;
    cbn [pbind] in E; try discriminate.
  destruct (group_open_x _ _ _ _ _ _ _ EG) as [X1 X2].
  destruct g as [gn|]; inversion E; subst; cbn [start_group push_group ms_group ms_ign].
  - split; [intros HT _; exact (X2 HT) | exact X1].
  - split; [intros HT _; contradiction | exact X1].
Qed.

Lemma round_close_x st1 p3 st' nxt : ms_ign st1 = false ->
  round_close st1 p3 = POk (st', nxt) ->
  einv st' /\ match nxt with Some (q0, _) => ign_ok st' q0 | None => ms_ign st' = false end.
Proof.
  intros Hi E. destruct (round_close_cases _ _ _ _ _ E) as [st2 [st3 [o1 [os1 [E2 [E3 [_ T]]]]]]]. cbv zeta in T.
  destruct (add_group_cases _ _ _ E2) as [g' [a' [-> _]]].
  destruct (pop_group_cases _ _ _ E3) as [g [a [c [r [_ P]]]]]. cbn [ms_unit ms_o ms_os ms_ign ms_autocap] in P.
  assert (F3 : ms_ign st3 = false /\ (n_t (ms_group st3) = T_ExprCond -> n_kids (ms_group st3) <> [])).
  { destruct P as [[_ [_ [u [g2 [_ [Eg ->]]]]]] | [NK ->]]; cbn [ms_ign ms_group]; (split; [exact Hi|]).
    - intros _. eapply add_child_nonempty. exact Eg.
    - exact NK. }
  destruct F3 as [I3 K3].
  match type of T with (_ /\ _ = ?s /\ _) \/ _ => set (st4 := s) in * end.
  assert (E4 : einv st4) by (intros HT HN; cbn in HT, HN; exfalso; exact (K3 HT HN)).
  destruct T as [[_ [-> ->]] | [_ [q' [wq [EA ->]]]]].
  - split; [exact E4|]. intros H. cbn in H. congruence.
  - destruct (after_unit_added _ _ _ _ _ _ EA) as [cc [-> _]].
    split; [eapply einv_keep; [exact E4 | reflexivity | auto | reflexivity]|]. intros H. cbn in H. congruence.
Qed.

Lemma scan_round_x mco st p wasq st' nxt : ms_unit st = None -> einv st -> ign_ok st p ->
  scan_round tb mco st p wasq = POk (st', nxt) ->
  einv st' /\ match nxt with Some (q0, _) => ign_ok st' q0 | None => ms_ign st' = false end.
Proof.
  intros Hu He Hi E. destruct (SRC _ _ _ _ _ _ _ E) as [p0 [run [p1 [p2 [E0 [Er [E1 C]]]]]]]. clear E.
  assert (RUN : forall isq st1, add_run st run isq = POk st1 -> einv st1 /\ ms_ign st1 = ms_ign st).
  { intros isq st1 Ea. destruct (add_run_fields _ _ _ _ Ea) as [_ [G2 [_ [_ [_ G6]]]]].
    split; [eapply einv_keep; [exact He | rewrite G6; reflexivity | rewrite G6; auto | exact G2] | exact G2]. }
  (* with ignoreNextParen set the round stands at its "(" *)
  assert (IG40 : forall ch p3, p2 = ch :: p3 -> ms_ign st = true -> ch = 40).
  { intros ch p3 -> IG. destruct (ign_round st p p0 run p1 (ch :: p3) Hi IG E0 Er E1) as [t [HH _]]. inversion HH. reflexivity. }
  assert (NI : forall ch p3 isq st1, p2 = ch :: p3 -> add_run st run isq = POk st1 -> (ch =? 40) = false -> ms_ign st1 = false).
  { intros ch p3 isq st1 Ep Ea Cc. rewrite (proj2 (RUN _ _ Ea)).
    destruct (ms_ign st) eqn:IG; [rewrite (IG40 _ _ Ep eq_refl) in Cc; discriminate | reflexivity]. }
  destruct C as [st1 Ep Ea | ch p3 st1 Ep Esp Ea | ch p3 st1 x q st' nxt Ep C40 Ea _ E | p3 st1 st' nxt Ep Ea E
                | p3 st1 st2 Ep Ea E2 | p3 st1 st' nxt Ep Ea E | ch p3 st1 st' q' wq Ep C40 Ea _ EA];
    destruct (RUN _ _ Ea) as [He1 I1].
  * split; [exact He1|]. rewrite I1. destruct (ms_ign st) eqn:IG; [|reflexivity]. subst p2.
    destruct (ign_round st p p0 run p1 [] Hi IG E0 Er E1) as [t [HH _]]. discriminate.
  * split; [exact He1|]. intros H. rewrite I1 in H. rewrite (IG40 _ _ Ep H) in Esp. discriminate.
  * eapply unit_then_x; [exact He1 | eapply NI; eassumption | exact E].
  * eapply round_open_x; [exact He1 | exact E].
  * destruct (add_alternate_cases _ _ _ E2) as [g' [a' [-> G]]].
    split; [|intros H; cbn in H; rewrite (NI _ _ _ _ Ep Ea eq_refl) in H; discriminate].
    destruct G as [-> | [k ->]]; (eapply einv_keep; [exact He1 | | | reflexivity]); cbn [ms_group]; auto.
    + apply n_t_set_kids.
    + rewrite n_kids_set_kids. intros HH. apply app_eq_nil in HH. destruct HH; discriminate.
  * eapply round_close_x; [eapply NI; [exact Ep | exact Ea | reflexivity] | exact E].
  * destruct (after_unit_added _ _ _ _ _ _ EA) as [cc [-> _]].
    split; [eapply einv_keep; [exact He1 | reflexivity | auto | reflexivity]|].
    intros H. cbn in H. rewrite (NI _ _ _ _ Ep Ea C40) in H. discriminate.
Qed.

(* the group at the bottom of the group stack is the node scanRegex started with: Capture 0 *)
Definition gsig (g : rnode) : Z * Z * Z := (n_t g, n_m g, n_n g).
Definition bottom (st : mst) : Z * Z * Z := last (map (fun f => gsig (fst (fst f))) (ms_stack st)) (gsig (ms_group st)).
Definition rinv (st : mst) : Prop := bottom st = (T_Capture, 0, -1).

Lemma last_cons {A} (x : A) l d : last (x :: l) d = last l x.
Proof. revert x d. induction l as [|y l IH]; intros x d; [reflexivity|]. cbn [last]. destruct l; [reflexivity|]. apply IH. Qed.

Lemma rinv_keep st st' : rinv st -> ms_stack st' = ms_stack st -> gsig (ms_group st') = gsig (ms_group st) -> rinv st'.
Proof. unfold rinv, bottom. intros H S G. rewrite S, G. exact H. Qed.

Lemma unit_then_r st1 x q st' nxt : rinv st1 ->
  (pdo r <- after_unit (set_unit st1 (Some x)) q ; let '(st', q', wq) := r in POk (st', Some (q', wq))) = POk (st', nxt) -> rinv st'.
Proof.
  intros Hr E.
  destruct (after_unit (set_unit st1 (Some x)) q) as [[[st2 q2] wq]|e q0| | |] eqn:EA; cbn [pbind] in E; try discriminate.
  inversion E; subst. destruct (after_unit_added _ _ _ _ _ _ EA) as [cc [-> _]].
  eapply rinv_keep; [exact Hr | reflexivity | reflexivity].
Qed.

Lemma gsig_set_kids g k : gsig (set_kids g k) = gsig g.
Proof. destruct g; reflexivity. Qed.

Lemma scan_round_r mco st p wasq st' nxt : rinv st -> scan_round tb mco st p wasq = POk (st', nxt) -> rinv st'.
Proof.
  intros Hr E. destruct (SRC _ _ _ _ _ _ _ E) as [p0 [run [p1 [p2 [_ [_ [_ C]]]]]]]. clear E.
  assert (RUN : forall isq st1, add_run st run isq = POk st1 -> rinv st1).
  { intros isq st1 Ea. destruct (add_run_fields _ _ _ _ Ea) as [_ [_ [_ [_ [G5 G6]]]]]. eapply rinv_keep; [exact Hr | exact G5 | rewrite G6; reflexivity]. }
  destruct C as [st1 _ Ea | ch p3 st1 _ _ Ea | ch p3 st1 x q st' nxt _ _ Ea _ E | p3 st1 st' nxt _ Ea E
                | p3 st1 st2 _ Ea E2 | p3 st1 st' nxt _ Ea E | ch p3 st1 st' q' wq _ _ Ea _ EA];
    try (eapply RUN; exact Ea); pose proof (RUN _ _ Ea) as R1.
  * eapply unit_then_r; eassumption.
  * unfold Parser.round_open in E.
    destruct (useRE2 (ms_o st1) && negb (ms_ign st1) && hd_is p3 63 && nth_is 1 p3 80 && nth_is 2 p3 61).
    { destruct (python_backref is_word_char tb (ms_o st1) (skipn 3 p3)) as [[x q]|e q| | |]; cbn [pbind] in E; try discriminate.
      eapply unit_then_r; eassumption. }
    destruct (Parser.group_open is_word_char tb mco (n_t (ms_group st1)) (mkGV (ms_o st1) (ms_ign st1) (ms_autocap st1)) p3) as [[[g v] q]|e q| | |];
      cbn [pbind] in E; try discriminate.
    destruct g as [gn|]; inversion E; subst; unfold rinv, bottom in *; cbn [start_group push_group ms_stack ms_group map fst] in *.
    - rewrite last_cons. exact R1.
    - exact R1.
  * destruct (add_alternate_cases _ _ _ E2) as [g' [a' [-> G]]].
    eapply rinv_keep; [exact R1 | reflexivity|]. destruct G as [-> | [k ->]]; [reflexivity | apply gsig_set_kids].
  * destruct (round_close_cases _ _ _ _ _ E) as [st2 [st3 [o1 [os1 [E2 [E3 [_ T]]]]]]]. cbv zeta in T.
    destruct (add_group_cases _ _ _ E2) as [g' [a' [-> _]]].
    destruct (pop_group_cases _ _ _ E3) as [g [a [c [r [Es P]]]]]. cbn [ms_stack ms_unit ms_o ms_os ms_ign ms_autocap] in Es, P.
    assert (R3 : rinv st3).
    { unfold rinv, bottom in R1 |- *. rewrite Es in R1. cbn [map fst] in R1. rewrite last_cons in R1.
      destruct P as [[_ [_ [u [g2 [_ [Eg ->]]]]]] | [_ ->]]; cbn [ms_stack ms_group]; [|exact R1].
      destruct (add_child_inv _ _ _ _ Eg) as [k [_ ->]]. rewrite gsig_set_kids. exact R1. }
    destruct T as [[_ [-> ->]] | [_ [q' [wq [EA ->]]]]]; [exact R3|].
    destruct (after_unit_added _ _ _ _ _ _ EA) as [cc [-> _]]. exact R3.
  * destruct (after_unit_added _ _ _ _ _ _ EA) as [cc [-> _]].
    eapply rinv_keep; [exact R1 | reflexivity | reflexivity].
Qed.

(* the unit addGroup makes has the type and numbers of the group *)
Lemma add_group_unit_sig st st' u : add_group st = POk st' -> ms_unit st' = Some u ->
  gsig u = gsig (ms_group st) /\ n_o u = n_o (ms_group st).
Proof.
  intros E Eu. destruct (add_group_cases _ _ _ E) as [g' [a' [-> [k ->]]]]. inversion Eu; subst u.
  destruct (ms_group st); split; reflexivity.
Qed.

(* the end of scanRegex: the root group is closed and becomes the tree *)
Lemma scan_end_o st st' u : mbody st -> oinv st -> einv st -> ms_ign st = false ->
  add_group st = POk st' -> ms_unit st' = Some u -> wf u.
Proof.
  intros B Ho He Hi E Eu.
  assert (HK : n_t (ms_group st) = T_ExprCond -> n_kids (ms_group st) <> []).
  { intros HT HN. specialize (He HT HN). congruence. }
  destruct (add_group_o st st' B Ho HK E) as [_ [_ [_ [g' [U' [T' [P' _]]]]]]].
  rewrite Eu in U'. inversion U'; subst g'. apply pre_wf; [|exact P']. rewrite T'.
  destruct Ho as [[[_ [_ K]] _] _ _]. destruct (kcls (n_t (ms_group st))); try contradiction; discriminate.
Qed.

Lemma oinv_init o : caps 0 = true ->
  oinv (mkMS [] (mk_node_mn T_Capture o 0 (-1)) (mk_node T_Alternate o) (mk_node T_Concatenate o) None o [] false 1).
Proof.
  intros Z0. constructor; cbn; [|exact I | exact I].
  split; [|split; split; reflexivity].
  split; [reflexivity|]. split; [|reflexivity]. intros _. cbn. unfold gq. cbn. exact Z0.
Qed.

End OkMain.

(* ---------------------------------------------------------------- the shape alone, for every option word *)
(* with the trivial membership predicate nothing is asked of the capture table: every tree syntax.Parse builds --
   ECMAScript and RE2 included, any oracle -- has the arities, counts and one-directional loop bodies of [wfb] *)
Section Shape.
Variable is_word_char : Z -> bool.
Variable to_lower : Z -> Z.
Variable simple_fold : Z -> Z.
Variable participates : Z -> bool.
Variable cat_in : Z -> Z -> bool.
Variable cat_name : list Z -> Z.

Local Notation scan_loop_full := (scan_loop_full is_word_char to_lower simple_fold participates cat_in cat_name).
Local Notation any := (fun _ : Z => true).

Lemma shape_loop tb mco fuel : forall st p wasq stF, minv st -> oinv any st -> ms_unit st = None -> einv st -> ign_ok st p ->
  scan_loop_full fuel tb mco st p wasq = POk stF -> minv stF /\ oinv any stF /\ einv stF /\ ms_ign stF = false.
Proof.
  induction fuel as [|f IH]; intros st p wasq stF Iv Ho Hu He Hi E; [discriminate|].
  cbn [Parser.scan_loop_full] in E. destruct p as [|c p'].
  { inversion E; subst. split; [exact Iv|]. split; [exact Ho|]. split; [exact He|].
    destruct (ms_ign stF) eqn:IG; [|reflexivity]. destruct (Hi IG) as [H _]. discriminate. }
  destruct (scan_round is_word_char to_lower simple_fold participates cat_in cat_name tb mco st (c :: p') wasq) as [[st' nxt]|e q| | |] eqn:ER;
    cbn [pbind] in E; try discriminate.
  pose proof (scan_round_ok is_word_char to_lower simple_fold participates cat_in cat_name tb mco st (c :: p') wasq Iv Hu ltac:(discriminate)) as RR.
  rewrite ER in RR.
  pose proof (scan_round_o any tb (fun _ _ => eq_refl) (fun _ _ _ => eq_refl) is_word_char to_lower simple_fold participates cat_in cat_name
                mco st (c :: p') wasq st' nxt Iv Ho Hu He Hi (fun _ _ _ _ _ _ _ _ _ => eq_refl) ER) as Ho'.
  destruct (scan_round_x any tb (fun _ _ => eq_refl) (fun _ _ _ => eq_refl) is_word_char to_lower simple_fold participates cat_in cat_name mco st (c :: p') wasq st' nxt Hu He Hi ER) as [He' Hn].
  destruct nxt as [[q wq]|].
  - cbn [round_res] in RR. destruct RR as [R1 [R2 _]]. eapply IH; [exact R1 | exact Ho' | exact R2 | exact He' | exact Hn | exact E].
  - inversion E; subst. cbn [round_res] in RR. auto.
Qed.

Theorem parse_tree_shape o mco_flag p t caps captop :
  parse is_word_char to_lower simple_fold participates cat_in cat_name o mco_flag p = Ok (PR_Tree t caps captop) ->
  wf any t.
Proof.
  intros E. unfold Parser.parse in E.
  destruct (negb pl_bounds_ok); [discriminate|].
  destruct (negb (forallb (fun c => 0 <=? c) p)); [discriminate|].
  set (mco := mco_flag || useE o || useRE2 o) in *.
  destruct (count_captures is_word_char to_lower simple_fold cat_in cat_name mco o p) as [tb|e q| | |]; cbn [pbind] in E; try discriminate.
  destruct (scan_regex is_word_char to_lower simple_fold participates cat_in cat_name (captab_main tb) mco o p) as [t0|e q| | |] eqn:ES;
    cbn [pbind] in E; try discriminate.
  inversion E; subst t0. clear E.
  unfold Parser.scan_regex in ES.
  set (st0 := mkMS [] (mk_node_mn T_Capture o 0 (-1)) (mk_node T_Alternate o) (mk_node T_Concatenate o) None o [] false 1) in *.
  destruct (scan_loop_full (S (length p)) (captab_main tb) mco st0 p false) as [st| | | |] eqn:ELP; cbn [pbind] in ES; try discriminate.
  assert (I0 : minv st0).
  { split; [|reflexivity]. constructor; cbn; auto; (split; [constructor | reflexivity]). }
  assert (E0 : einv st0) by (intros H; discriminate).
  assert (G0 : ign_ok st0 p) by (intros H; discriminate).
  destruct (shape_loop (captab_main tb) mco (S (length p)) st0 p false st I0 (oinv_init any o eq_refl) eq_refl E0 G0 ELP) as [IvF [OF [EF GF]]].
  destruct (ms_stack st); [|discriminate].
  destruct (add_group cat_in st) as [st'| | | |] eqn:EG; cbn [pbind] in ES; try discriminate.
  destruct (ms_unit st') as [u|] eqn:EU; [|discriminate]. inversion ES; subst u.
  exact (scan_end_o any (captab_main tb) (fun _ _ => eq_refl) (fun _ _ _ => eq_refl) is_word_char to_lower simple_fold participates cat_in cat_name
           st st' t (proj1 IvF) OF EF GF EG EU).
Qed.

Lemma root_loop tb mco fuel : forall st p wasq stF, rinv st ->
  scan_loop_full fuel tb mco st p wasq = POk stF -> rinv stF.
Proof.
  induction fuel as [|f IH]; intros st p wasq stF Hr E; [discriminate|].
  cbn [Parser.scan_loop_full] in E. destruct p as [|c p']; [inversion E; subst; exact Hr|].
  destruct (scan_round is_word_char to_lower simple_fold participates cat_in cat_name tb mco st (c :: p') wasq) as [[st' nxt]|e q| | |] eqn:ER;
    cbn [pbind] in E; try discriminate.
  pose proof (scan_round_r tb is_word_char to_lower simple_fold participates cat_in cat_name mco st (c :: p') wasq st' nxt Hr ER) as Hr'.
  destruct nxt as [[q wq]|]; [eapply IH; eassumption | inversion E; subst; exact Hr'].
Qed.

(* the root of every tree is the node scanRegex starts with: Capture 0, not balancing *)
Theorem parse_tree_root o mco_flag p t caps captop :
  parse is_word_char to_lower simple_fold participates cat_in cat_name o mco_flag p = Ok (PR_Tree t caps captop) ->
  n_t t = T_Capture /\ n_m t = 0 /\ n_n t = -1.
Proof.
  intros E. unfold Parser.parse in E.
  destruct (negb pl_bounds_ok); [discriminate|].
  destruct (negb (forallb (fun c => 0 <=? c) p)); [discriminate|].
  set (mco := mco_flag || useE o || useRE2 o) in *.
  destruct (count_captures is_word_char to_lower simple_fold cat_in cat_name mco o p) as [tb|e q| | |]; cbn [pbind] in E; try discriminate.
  destruct (scan_regex is_word_char to_lower simple_fold participates cat_in cat_name (captab_main tb) mco o p) as [t0|e q| | |] eqn:ES;
    cbn [pbind] in E; try discriminate.
  inversion E; subst t0. clear E.
  unfold Parser.scan_regex in ES.
  set (st0 := mkMS [] (mk_node_mn T_Capture o 0 (-1)) (mk_node T_Alternate o) (mk_node T_Concatenate o) None o [] false 1) in *.
  destruct (scan_loop_full (S (length p)) (captab_main tb) mco st0 p false) as [st| | | |] eqn:ELP; cbn [pbind] in ES; try discriminate.
  pose proof (root_loop (captab_main tb) mco (S (length p)) st0 p false st eq_refl ELP) as RF.
  destruct (ms_stack st) eqn:Es; [|discriminate].
  destruct (add_group cat_in st) as [st'| | | |] eqn:EG; cbn [pbind] in ES; try discriminate.
  destruct (ms_unit st') as [u|] eqn:EU; [|discriminate]. inversion ES; subst u.
  destruct (add_group_unit_sig cat_in st st' t EG EU) as [SG _].
  unfold rinv, bottom in RF. rewrite Es in RF. cbn [map last] in RF. rewrite <- SG in RF. unfold gsig in RF. inversion RF. auto.
Qed.

End Shape.

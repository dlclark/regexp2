(* C02 — the string entry points equal the rune entry points.

   Part A: what newStringPrefixFilter guarantees about the filter it builds (enf_ok) and how the
           published compile-time facts of the FindOptimizations record become the fact of that
           filter (enp_code_fact -> enf_fact).
   Part B: the glue of regexp.go around an abstract engine [search]: with a sound filter
           (EntryFilter.enf_filter_sound) and an engine that does not depend on where the scan
           started other than by skipping earlier positions (no \G: enp_start_indep), every string
           entry point returns what the rune entry point returns at the corresponding rune start. *)
From Verif Require Import Base.Prelude Base.Utf8 Gen.CodeGen Model.Offsets Model.Entry
  Proofs.Utf8Proofs Proofs.EntryBase Proofs.EntryFilter.
From Verif Require Import Proofs.ListFacts.
From Coq Require Import ZifyBool.
Ltac Zify.zify_post_hook ::= Z.div_mod_to_equations.

(* ================================================================================================
   Part A: the constructor
   ================================================================================================ *)

(* FixedDistanceSets[0] of a LeadingSet pattern, for a set that is not negated: the rune at the set's
   distance lies in Range when Range is published, else is one of Chars *)
Definition enp_set_fact (set : en_fdset) (r : list Z) (q : nat) : Prop :=
  exists c, nth_error r (q + Z.to_nat (fs_distance set)) = Some c /\
    match fs_range set with
    | Some (first, last) => first <= c <= last
    | None => In c (fs_chars set)
    end.

(* what the FindOptimizations record claims about a match starting at rune position q of r,
   mode by mode (the predicates of C04) *)
Definition enp_code_fact (o : en_opts) (r : list Z) (q : nat) : Prop :=
  enf_min_fact (fo_min o) r q /\
  (fo_mode o = MODE_LeadingString_LeftToRight -> enf_lit_fact (fo_prefix o) r q) /\
  (fo_mode o = MODE_LeadingString_OrdinalIgnoreCase_LeftToRight -> enf_ci_fact (fo_prefix o) r q) /\
  (fo_mode o = MODE_LeadingStrings_LeftToRight -> exists P, In P (fo_prefixes o) /\ enf_lit_fact P r q) /\
  (fo_mode o = MODE_LeadingStrings_OrdinalIgnoreCase_LeftToRight ->
     exists P, In P (fo_prefixes o) /\ enf_ci_fact P r q) /\
  (fo_mode o = MODE_LeadingSet_LeftToRight ->
     forall set rest, fo_sets o = set :: rest -> fs_negated set = false -> enp_set_fact set r q) /\
  (fo_mode o = MODE_FixedDistanceChar_LeftToRight ->
     nth_error r (q + Z.to_nat (fo_lit_dist o)) = Some (fo_lit_c o)) /\
  (fo_mode o = MODE_FixedDistanceString_LeftToRight ->
     enf_lit_fact (fo_lit_s o) r (q + Z.to_nat (fo_lit_dist o))) /\
  (fo_mode o = MODE_LiteralAfterLoop_LeftToRight ->
     forall l, fo_lal o = Some l -> exists j, (q <= j)%nat /\ enf_lal_at l r j).

(* the switch of newStringPrefixFilter (stringprefixfilter.go:44-70) *)
Definition enp_select (o : en_opts) : option en_filter :=
  let minreq := fo_min o in
  let m := fo_mode o in
  if m =? MODE_LeadingString_LeftToRight then en_index_prefix_filter (fo_prefix o) false minreq
  else if m =? MODE_LeadingString_OrdinalIgnoreCase_LeftToRight then en_index_prefix_filter (fo_prefix o) true minreq
  else if m =? MODE_LeadingStrings_LeftToRight then en_index_prefixes_filter (fo_prefixes o) false minreq
  else if m =? MODE_LeadingStrings_OrdinalIgnoreCase_LeftToRight then en_index_prefixes_filter (fo_prefixes o) true minreq
  else if m =? MODE_LeadingSet_LeftToRight then
    match fo_sets o with
    | [] => None
    | set :: _ =>
      match fs_range set with
      | None => if (zlen (fs_chars set) =? 0) || (5 <? zlen (fs_chars set)) then None else en_set_filter set minreq
      | Some _ => en_set_filter set minreq
      end
    end
  else if m =? MODE_FixedDistanceChar_LeftToRight then en_char_filter (fo_lit_c o) (fo_lit_dist o) minreq
  else if m =? MODE_FixedDistanceString_LeftToRight then en_string_filter (fo_lit_s o) (fo_lit_dist o) minreq
  else if m =? MODE_LiteralAfterLoop_LeftToRight then en_lit_loop_filter (fo_lal o) minreq
  else None.

(* the constructor builds a filter only for a left-to-right program without a Start (\G)
   instruction whose literals contain no U+FFFD, and then by the switch *)
Lemma enp_new_filter_inv c f :
  en_new_filter c = Ok (Some f) ->
  exists o, cd_opts c = Some o /\ cd_rtl c = false /\
            en_has_opcode (S (length (cd_codes c))) (cd_codes c) G_Start = Ok false /\
            en_literals_contain o rune_error = false /\ enp_select o = Some f.
Proof.
  unfold en_new_filter. destruct (cd_opts c) as [o|] eqn:Eo; [|discriminate].
  destruct (cd_rtl c) eqn:Er; [discriminate|].
  destruct (en_has_opcode (S (length (cd_codes c))) (cd_codes c) G_Start) as [hs| | |] eqn:Eh; cbn [bind]; try discriminate.
  destruct hs; [discriminate|].
  destruct (en_literals_contain o rune_error) eqn:Eg; [discriminate|].
  intros H. exists o. split; [reflexivity|]. split; [reflexivity|]. split; [reflexivity|]. split; [exact Eg|].
  unfold enp_select. cbv zeta in *.
  repeat match type of H with
         | (if ?c then _ else _) = _ => destruct c
         end; try discriminate H; try (injection H as H; exact H).
  destruct (fo_sets o) as [|set ?]; [discriminate H|].
  destruct (fs_range set); [injection H as H; exact H|].
  destruct ((zlen (fs_chars set) =? 0) || (5 <? zlen (fs_chars set))); [discriminate H|injection H as H; exact H].
Qed.

Lemma enp_new_filter_rtl c flt : en_new_filter c = Ok flt -> cd_rtl c = true -> flt = None.
Proof.
  unfold en_new_filter. intros H Hr. destruct (cd_opts c); [|congruence]. rewrite Hr in H. congruence.
Qed.

Record enp_guard (o : en_opts) : Prop := {
  gd_prefix : enb_no_fffd (fo_prefix o);
  gd_lit_s : enb_no_fffd (fo_lit_s o);
  gd_lit_c : fo_lit_c o <> rune_error;
  gd_prefixes : Forall enb_no_fffd (fo_prefixes o);
  gd_lal : forall l, fo_lal o = Some l -> enb_no_fffd (la_string l)
}.

Lemma enp_guard_of o : en_literals_contain o rune_error = false -> enp_guard o.
Proof.
  unfold en_literals_contain. intros H.
  repeat (apply orb_false_iff in H; let H' := fresh "G" in destruct H as [H H']).
  constructor.
  - exact H.
  - exact G3.
  - lia.
  - apply Forall_forall. intros P Hin. unfold enb_no_fffd.
    destruct (en_contains_rune P rune_error) eqn:E; [|reflexivity].
    assert (X : existsb (fun p => en_contains_rune p rune_error) (fo_prefixes o) = true).
    { apply existsb_exists. exists P. split; assumption. }
    congruence.
  - intros l Hl. rewrite Hl in G. repeat (apply orb_false_iff in G; let H' := fresh "K" in destruct G as [G H']).
    exact G.
Qed.

Lemma enp_encode_bytes_nonneg p : valid_rune p = true -> Forall (fun x => 0 <= x) (encode p).
Proof.
  intros Hv. unfold valid_rune, is_surrogate, max_rune in Hv. unfold encode, is_surrogate, max_rune.
  repeat break_if; try lia; repeat constructor; lia.
Qed.

(* bytes all below 128 + no U+FFFD (hence valid UTF-8, hence real bytes): an ASCII string *)
Lemma enp_ascii P : en_is_ascii P = true -> enb_no_fffd P -> enf_ascii P.
Proof.
  intros HA HN. destruct (enb_no_fffd_good P HN) as [HP Hg].
  assert (Hnn : Forall (fun x => 0 <= x) P).
  { rewrite HP. generalize (runes_of P) Hg. clear. intros ps Hg. unfold encode_string.
    induction Hg as [|p ps [Hv _] _ IH]; [constructor|].
    cbn [flat_map]. apply Forall_app. split; [apply enp_encode_bytes_nonneg; exact Hv|exact IH]. }
  unfold enf_ascii, en_is_ascii in *. rewrite forallb_forall in HA. rewrite Forall_forall in *.
  intros x Hin. specialize (HA x Hin). specialize (Hnn x Hin). lia.
Qed.

Lemma enp_select_ok o f :
  enp_guard o -> enp_select o = Some f ->
  enf_ok f /\ forall r q, enp_code_fact o r q -> enf_fact f r q.
Proof.
  intros G. unfold enp_select. cbv zeta.
  destruct (fo_mode o =? MODE_LeadingString_LeftToRight) eqn:E1.
  { unfold en_index_prefix_filter. destruct (fo_prefix o) eqn:EP; [discriminate|]. rewrite <- EP. cbn [andb].
    intros H. injection H as <-. split; [exact (gd_prefix o G)|].
    intros r q (HM & H11 & _). split; [exact HM|]. apply H11. lia. }
  destruct (fo_mode o =? MODE_LeadingString_OrdinalIgnoreCase_LeftToRight) eqn:E2.
  { unfold en_index_prefix_filter. destruct (fo_prefix o) eqn:EP; [discriminate|]. rewrite <- EP. cbn [andb].
    destruct (en_is_ascii (fo_prefix o)) eqn:EA; cbn [negb]; [|discriminate].
    intros H. injection H as <-. split; [exact (enp_ascii _ EA (gd_prefix o G))|].
    intros r q (HM & _ & H13 & _). split; [exact HM|]. apply H13. lia. }
  assert (Hprefixes : forall ci, (forall r q, enp_code_fact o r q -> exists P, In P (fo_prefixes o) /\ enf_str_fact ci P r q) ->
            en_index_prefixes_filter (fo_prefixes o) ci (fo_min o) = Some f ->
            enf_ok f /\ forall r q, enp_code_fact o r q -> enf_fact f r q).
  { intros ci Hfact. unfold en_index_prefixes_filter.
    destruct (fo_prefixes o) as [|P0 Ps0] eqn:EP; [discriminate|]. rewrite <- EP in *.
    pose proof (gd_prefixes o G) as GP.
    destruct (ci && negb (forallb en_is_ascii (fo_prefixes o))) eqn:EA; [discriminate|].
    assert (Hstr : Forall (enf_str_ok ci) (fo_prefixes o)).
    { rewrite Forall_forall in *. intros P Hin. unfold enf_str_ok. destruct ci; [|exact (GP P Hin)].
      cbn [andb] in EA. apply Bool.negb_false_iff in EA. rewrite forallb_forall in EA.
      exact (enp_ascii P (EA P Hin) (GP P Hin)). }
    (* the fallback closure, chosen whenever the ASCII string set is not compiled *)
    assert (Hfb : Some (FPrefixes (fo_prefixes o) ci (fo_min o)) = Some f ->
              enf_ok f /\ forall r q, enp_code_fact o r q -> enf_fact f r q).
    { intros H. injection H as <-. split; [exact Hstr|].
      intros r q HF. split; [exact (proj1 HF)|exact (Hfact r q HF)]. }
    unfold en_compile_ascii_set.
    destruct ci; [exact Hfb|].
    destruct (negb (forallb (fun p => negb (zlen p =? 0) && en_is_ascii p) (fo_prefixes o))) eqn:EN; [exact Hfb|].
    destruct (negb (en_has_shared_first (fo_prefixes o))); [exact Hfb|].
    destruct (en_first_chars (fo_prefixes o)); [exact Hfb|].
    intros H. injection H as <-. split.
    + apply Bool.negb_false_iff in EN. rewrite forallb_forall in EN. cbn [enf_ok].
      rewrite Forall_forall in *. intros P Hin. specialize (EN P Hin). apply andb_true_iff in EN. destruct EN as [EN1 EN2].
      split; [exact (enp_ascii P EN2 (GP P Hin))|]. intros ->. cbn in EN1. discriminate EN1.
    + intros r q HF. split; [exact (proj1 HF)|exact (Hfact r q HF)]. }
  destruct (fo_mode o =? MODE_LeadingStrings_LeftToRight) eqn:E3.
  { apply (Hprefixes false). intros r q (_ & _ & _ & H14 & _). apply H14. lia. }
  destruct (fo_mode o =? MODE_LeadingStrings_OrdinalIgnoreCase_LeftToRight) eqn:E4.
  { apply (Hprefixes true). intros r q (_ & _ & _ & _ & H15 & _). apply H15. lia. }
  clear Hprefixes.
  destruct (fo_mode o =? MODE_LeadingSet_LeftToRight) eqn:E5.
  { destruct (fo_sets o) as [|set rest] eqn:ES; [discriminate|].
    assert (Hset : en_set_filter set (fo_min o) = Some f ->
              enf_ok f /\ forall r q, enp_code_fact o r q -> enf_fact f r q).
    { unfold en_set_filter, en_new_scanner.
      destruct (fs_negated set) eqn:EN; cbn [orb]; [discriminate|].
      destruct (fs_distance set <? 0) eqn:ED; [discriminate|].
      destruct (fs_range set) as [[first last]|] eqn:ER.
      - destruct ((first <? 0) || (127 <? last)) eqn:EB; [discriminate|].
        intros H. injection H as <-. split; [cbn; lia|].
        intros r q (HM & _ & _ & _ & _ & H16 & _). split; [exact HM|].
        destruct (H16 ltac:(lia) set rest ES EN) as [c [Hn Hc]]. rewrite ER in Hc.
        exists c. split; [exact Hn|]. unfold enf_scanner_member. cbn. exact Hc.
      - destruct (fs_chars set) as [|c0 cs] eqn:EC; [discriminate|]. rewrite <- EC.
        destruct (forallb (fun ch => negb ((ch <? 0) || (127 <? ch))) (fs_chars set)) eqn:EF; [|discriminate].
        intros H. injection H as <-. split.
        + cbn. split; [lia|]. split; [|rewrite EC; discriminate].
          unfold enf_ascii. rewrite forallb_forall in EF. apply Forall_forall. intros x Hin. specialize (EF x Hin). lia.
        + intros r q (HM & _ & _ & _ & _ & H16 & _). split; [exact HM|].
          destruct (H16 ltac:(lia) set rest ES EN) as [c [Hn Hc]]. rewrite ER in Hc.
          exists c. split; [exact Hn|]. unfold enf_scanner_member. cbn. exact Hc. }
    destruct (fs_range set); [exact Hset|].
    destruct ((zlen (fs_chars set) =? 0) || (5 <? zlen (fs_chars set))); [discriminate|exact Hset]. }
  destruct (fo_mode o =? MODE_FixedDistanceChar_LeftToRight) eqn:E6.
  { unfold en_char_filter. destruct (fo_lit_dist o <? 0) eqn:ED; [discriminate|].
    intros H. injection H as <-. split; [cbn; split; [lia|exact (gd_lit_c o G)]|].
    intros r q (HM & _ & _ & _ & _ & _ & H19 & _). split; [exact HM|]. apply H19. lia. }
  destruct (fo_mode o =? MODE_FixedDistanceString_LeftToRight) eqn:E7.
  { unfold en_string_filter. destruct (fo_lit_s o) eqn:EL; [discriminate|]. rewrite <- EL.
    destruct ((fo_lit_dist o <? 0) || (8 <? zlen (fo_lit_s o))) eqn:ED; [discriminate|].
    intros H. injection H as <-. split; [cbn; split; [lia|split; [exact (gd_lit_s o G)|rewrite EL; discriminate]]|].
    intros r q (HM & _ & _ & _ & _ & _ & _ & H20 & _). split; [exact HM|]. apply H20. lia. }
  destruct (fo_mode o =? MODE_LiteralAfterLoop_LeftToRight) eqn:E8; [|discriminate].
  unfold en_lit_loop_filter. destruct (fo_lal o) as [l|] eqn:EL; [|discriminate].
  destruct (negb (la_loop_set l)); [discriminate|].
  destruct (la_string_ci l && ((zlen (la_string l) =? 0) || negb (en_is_ascii (la_string l)))) eqn:EC; [discriminate|].
  intros H. injection H as <-. split.
  - cbn [enf_ok]. unfold enf_str_ok. destruct (la_string_ci l) eqn:Eci; [|exact (gd_lal o G l EL)].
    cbn [andb] in EC. apply orb_false_iff in EC. destruct EC as [_ EC]. apply Bool.negb_false_iff in EC.
    exact (enp_ascii _ EC (gd_lal o G l EL)).
  - intros r q (HM & _ & _ & _ & _ & _ & _ & _ & H22). split; [exact HM|]. apply (H22 ltac:(lia) l EL).
Qed.

(* ================================================================================================
   Part B: the glue
   ================================================================================================ *)

Section EntryGlue.
Variable M : Type.
Variable m_index : M -> Z.                    (* Match.RuneIndex *)
Variable search : list Z -> Z -> option M.

(* a match found from start s begins at or after s, inside the text (C07/C08) *)
Definition enp_in_range : Prop :=
  forall r s m, 0 <= s <= zlen r -> search r s = Some m -> s <= m_index m <= zlen r.

(* the engine reads the scan start only to skip earlier positions: starting later, at or before
   the match it would have found, finds the same match; nothing found stays nothing found.
   True of a scan whose attempts do not depend on Runtextstart, i.e. of a program without \G. *)
Definition enp_start_indep : Prop :=
  forall r s s', 0 <= s <= s' -> s' <= zlen r ->
    (forall m, search r s = Some m -> s' <= m_index m) -> search r s' = search r s.

Definition enp_starts (r : list Z) (q : nat) : Prop :=
  exists m, search r (Z.of_nat q) = Some m /\ m_index m = Z.of_nat q.

Lemma enp_zlen_runes b : zlen (runes_of b) = Z.of_nat (length (decode b)).
Proof. unfold zlen. rewrite enb_runes_length. reflexivity. Qed.

(* what a filter must satisfy for the glue: the hypotheses under which it was proved sound *)
Definition enp_filter_hyp (f : en_filter) : Prop :=
  enf_ok f /\ enp_start_indep /\
  forall b q, enp_starts (runes_of b) q -> enf_fact f (runes_of b) q.

Lemma enp_found_starts r s m :
  enp_in_range -> enp_start_indep -> 0 <= s <= zlen r -> search r s = Some m ->
  enp_starts r (Z.to_nat (m_index m)) /\ s <= m_index m <= zlen r.
Proof.
  intros HR HI Hs Hm. pose proof (HR r s m Hs Hm) as Hq. split; [|exact Hq].
  exists m. rewrite Z2Nat.id by lia. split; [|reflexivity].
  rewrite (HI r s (m_index m)); [exact Hm|lia|lia|]. intros m' Hm'. assert (m' = m) by congruence. subst m'. lia.
Qed.

Lemma enp_filter_call f b k0 :
  enp_in_range -> enp_filter_hyp f -> (k0 <= length (decode b))%nat ->
  exists c ok, en_run_filter f b (Z.of_nat (boundary b k0)) = Ok (c, ok) /\
    (ok = false -> search (runes_of b) (Z.of_nat k0) = None) /\
    (ok = true -> forall k', (k0 <= k' <= length (decode b))%nat -> c = Z.of_nat (boundary b k') ->
                  search (runes_of b) (Z.of_nat k') = search (runes_of b) (Z.of_nat k0)).
Proof.
  intros HR (Hok & HI & HF) Hk0.
  destruct (enf_filter_sound f Hok b k0 Hk0) as (c & ok & Hr & HB & HC).
  exists c, ok. split; [exact Hr|].
  assert (Hs : 0 <= Z.of_nat k0 <= zlen (runes_of b)) by (rewrite enp_zlen_runes; lia).
  split.
  - intros Hk. destruct (search (runes_of b) (Z.of_nat k0)) as [m|] eqn:Em; [exfalso|reflexivity].
    destruct (enp_found_starts _ _ _ HR HI Hs Em) as [Hst Hq]. rewrite enp_zlen_runes in Hq.
    apply (HB Hk (Z.to_nat (m_index m))); [lia|]. apply HF. exact Hst.
  - intros Hk k' Hk' Hc. apply HI; [lia|rewrite enp_zlen_runes; lia|].
    intros m Em. destruct (enp_found_starts _ _ _ HR HI Hs Em) as [Hst Hq]. rewrite enp_zlen_runes in Hq.
    pose proof (HC Hk (Z.to_nat (m_index m)) ltac:(lia) (HF b _ Hst)) as Hle.
    pose proof (enb_boundary_inj_le b k' (Z.to_nat (m_index m)) ltac:(lia) ltac:(lia) ltac:(lia)). lia.
Qed.

Variable rtl : bool.
Variable flt : option en_filter.

(* right-to-left patterns ignore the filter; otherwise it must satisfy the hypotheses *)
Definition enp_flt_hyp : Prop :=
  rtl = true \/ match flt with Some f => enp_filter_hyp f | None => True end.

(* findStringPrefixCandidate from the boundary of rune k never answers Fuel/Crash: either "no candidate"
   and the engine finds nothing from k, or the byte offset of a rune k' >= k from which the engine
   finds what it finds from k *)
Lemma enp_prefix_candidate b k :
  enp_in_range -> enp_flt_hyp -> (k <= length (decode b))%nat ->
  (en_prefix_candidate rtl flt b (Z.of_nat (boundary b k)) = Ok (0, false) /\
   search (runes_of b) (Z.of_nat k) = None) \/
  (exists k', (k <= k' <= length (decode b))%nat /\
     en_prefix_candidate rtl flt b (Z.of_nat (boundary b k)) = Ok (Z.of_nat (boundary b k'), true) /\
     search (runes_of b) (Z.of_nat k') = search (runes_of b) (Z.of_nat k)).
Proof.
  intros HR HH Hk. unfold en_prefix_candidate. unfold enp_flt_hyp in HH.
  assert (Hsame : exists k', (k <= k' <= length (decode b))%nat /\
            Ok (Z.of_nat (boundary b k), true) = Ok (Z.of_nat (boundary b k'), true) /\
            search (runes_of b) (Z.of_nat k') = search (runes_of b) (Z.of_nat k)) by (exists k; split; [lia|auto]).
  destruct flt as [f|]; [|right; exact Hsame].
  destruct rtl eqn:Ertl; [right; exact Hsame|].
  destruct HH as [HH|HH]; [congruence|].
  destruct (enp_filter_call f b k HR HH Hk) as (c & ok & Hr & HB & HC). rewrite Hr. cbn [bind].
  destruct ok; cbn [negb].
  - right.
    destruct ((c <? Z.of_nat (boundary b k)) || (zlen b <? c) || negb (en_is_boundary b c)) eqn:E; [exact Hsame|].
    apply orb_false_iff in E. destruct E as [E E3]. apply orb_false_iff in E. destruct E as [E1 E2].
    apply Bool.negb_false_iff in E3. apply enb_is_boundary_iff in E3. destruct E3 as [k' [Hk' Hc]].
    assert (Hkk : (k <= k')%nat) by (apply (enb_boundary_inj_le b); lia).
    exists k'. split; [lia|]. rewrite Hc. split; [reflexivity|].
    apply (HC eq_refl k'); [lia|exact Hc].
  - left. split; [reflexivity|apply HB; reflexivity].
Qed.

Lemma enp_get_runes_and_start b k : (k <= length (decode b))%nat ->
  en_get_runes_and_start rtl b (Z.of_nat (boundary b k)) = (runes_of b, Z.of_nat k).
Proof.
  intros Hk. unfold en_get_runes_and_start. replace (Z.of_nat (boundary b k) <? 0) with false by lia.
  apply enb_runes_and_index_boundary. exact Hk.
Qed.

Lemma enp_run_at b k : (k <= length (decode b))%nat ->
  en_run M search rtl (Z.of_nat k) (runes_of b) = Ok (search (runes_of b) (Z.of_nat k)).
Proof.
  intros Hk. unfold en_run. replace (Z.of_nat k <? 0) with false by lia. rewrite enp_zlen_runes.
  replace (Z.of_nat (length (decode b)) <? Z.of_nat k) with false by lia. reflexivity.
Qed.

(* the default start: rune 0, or the end for a right-to-left pattern *)
Definition enp_default_start (b : list Z) : nat := if rtl then length (decode b) else 0%nat.

Lemma enp_run_default b :
  en_run M search rtl (-1) (runes_of b) = Ok (search (runes_of b) (Z.of_nat (enp_default_start b))).
Proof.
  unfold en_run, enp_default_start. cbn [Z.ltb Z.compare]. rewrite enp_zlen_runes.
  destruct rtl.
  - rewrite Z.ltb_irrefl. reflexivity.
  - replace (Z.of_nat (length (decode b)) <? 0) with false by lia. reflexivity.
Qed.

Lemma enp_default_boundary b :
  (if rtl then zlen b else 0) = Z.of_nat (boundary b (enp_default_start b)) /\
  (enp_default_start b <= length (decode b))%nat.
Proof.
  unfold enp_default_start. destruct rtl.
  - rewrite enb_boundary_len. unfold zlen. split; lia.
  - rewrite boundary_0. split; lia.
Qed.

(* ---- FindStringMatchStartingAt ---- *)

(* at the byte offset of rune k: what FindRunesMatchStartingAt(k) returns *)
Theorem enp_starting_at_boundary b k :
  enp_in_range -> enp_flt_hyp -> (k <= length (decode b))%nat ->
  en_find_string_match_starting_at M search rtl flt b (Z.of_nat (boundary b k)) =
  en_find_runes_match_starting_at M search rtl (runes_of b) (Z.of_nat k).
Proof.
  intros HR HH Hk. unfold en_find_string_match_starting_at, en_find_runes_match_starting_at, en_match_start.
  pose proof (boundary_le b k) as Hle.
  replace (zlen b <? Z.of_nat (boundary b k)) with false by (unfold zlen; lia).
  rewrite enb_is_boundary_at. rewrite Bool.andb_false_r.
  replace (Z.of_nat (boundary b k) <? 0) with false by lia.
  rewrite (enp_run_at b k Hk).
  destruct (enp_prefix_candidate b k HR HH Hk) as [[Hc Hs]|(k' & [Hkk' Hk'] & Hc & Hs)]; rewrite Hc; cbn [bind negb].
  - rewrite Hs. reflexivity.
  - rewrite (enp_get_runes_and_start b k' Hk'). replace (Z.of_nat k' =? -1) with false by lia.
    rewrite (enp_run_at b k' Hk'), Hs. reflexivity.
Qed.

(* a negative byte start means "from the default start", as a negative rune start does *)
Theorem enp_starting_at_negative b i :
  enp_in_range -> enp_flt_hyp -> i < 0 ->
  en_find_string_match_starting_at M search rtl flt b i =
  en_find_runes_match_starting_at M search rtl (runes_of b) i.
Proof.
  intros HR HH Hi. unfold en_find_string_match_starting_at, en_find_runes_match_starting_at, en_match_start.
  replace (zlen b <? i) with false by (pose proof (zlen_nonneg b); lia).
  replace (0 <=? i) with false by lia. cbn [andb]. replace (i <? 0) with true by lia.
  destruct (enp_default_boundary b) as [Hd Hdl]. rewrite Hd.
  assert (Hrun : en_run M search rtl i (runes_of b) = Ok (search (runes_of b) (Z.of_nat (enp_default_start b)))).
  { rewrite <- enp_run_default. unfold en_run. replace (i <? 0) with true by lia. reflexivity. }
  rewrite Hrun.
  destruct (enp_prefix_candidate b _ HR HH Hdl) as [[Hc Hs]|(k' & [Hkk' Hk'] & Hc & Hs)]; rewrite Hc; cbn [bind negb].
  - rewrite Hs. reflexivity.
  - rewrite (enp_get_runes_and_start b k' Hk'). replace (Z.of_nat k' =? -1) with false by lia.
    rewrite (enp_run_at b k' Hk'), Hs. reflexivity.
Qed.

(* errors: past the end; inside a rune *)
Theorem enp_starting_at_errors b i :
  (zlen b < i -> en_find_string_match_starting_at M search rtl flt b i = Err ERR_START_TOO_LARGE) /\
  (0 <= i <= zlen b -> en_is_boundary b i = false ->
   en_find_string_match_starting_at M search rtl flt b i = Err ERR_START_NOT_BOUNDARY).
Proof.
  unfold en_find_string_match_starting_at, en_match_start. split.
  - intros H. replace (zlen b <? i) with true by lia. reflexivity.
  - intros H Hb. replace (zlen b <? i) with false by lia. replace (0 <=? i) with true by lia. rewrite Hb. reflexivity.
Qed.

(* ---- FindStringMatch ---- *)

Theorem enp_find_string_match b :
  enp_in_range -> enp_flt_hyp ->
  en_find_string_match M search rtl flt b = en_find_runes_match M search rtl (runes_of b).
Proof.
  intros HR HH. unfold en_find_string_match, en_find_runes_match, en_match_start.
  replace (zlen b <? -1) with false by (pose proof (zlen_nonneg b); lia).
  cbn [Z.leb Z.compare andb Z.ltb].
  destruct (enp_default_boundary b) as [Hd Hdl]. rewrite Hd. rewrite enp_run_default.
  destruct (enp_prefix_candidate b _ HR HH Hdl) as [[Hc Hs]|(k' & [Hkk' Hk'] & Hc & Hs)]; rewrite Hc; cbn [bind negb].
  - rewrite Hs. reflexivity.
  - rewrite (enp_get_runes_and_start b k' Hk'). replace (Z.of_nat k' <? 0) with false by lia.
    rewrite (enp_run_at b k' Hk'), Hs. reflexivity.
Qed.

(* ---- FindAllStringIndex, up to its first scan ---- *)

(* the rune slice is the decoded input and the first scan of findAllRunesIndex starts where it finds
   what a scan from the default start finds (the rest of the iteration only depends on that match: C07) *)
Theorem enp_find_all_string_start b :
  enp_in_range -> enp_flt_hyp ->
  (en_find_all_string_start rtl flt b = Ok None /\
   search (runes_of b) (Z.of_nat (enp_default_start b)) = None) \/
  (exists k', (k' <= length (decode b))%nat /\
     en_find_all_string_start rtl flt b = Ok (Some (runes_of b, Z.of_nat k')) /\
     search (runes_of b) (Z.of_nat k') = search (runes_of b) (Z.of_nat (enp_default_start b))).
Proof.
  intros HR HH. unfold en_find_all_string_start, en_match_start.
  replace (zlen b <? -1) with false by (pose proof (zlen_nonneg b); lia).
  cbn [Z.leb Z.compare andb Z.ltb].
  destruct (enp_default_boundary b) as [Hd Hdl]. rewrite Hd.
  destruct (enp_prefix_candidate b _ HR HH Hdl) as [[Hc Hs]|(k' & [Hkk' Hk'] & Hc & Hs)]; rewrite Hc; cbn [bind negb].
  - left. split; [reflexivity|exact Hs].
  - right. exists k'. split; [exact Hk'|]. split; [|exact Hs].
    destruct (Z.of_nat (boundary b k') =? 0) eqn:E0.
    + assert (k' = 0%nat).
      { destruct k' as [|k'']; [reflexivity|]. pose proof (enb_boundary_lt b 0 (S k'') ltac:(lia) Hk') as L.
        rewrite boundary_0 in L. lia. }
      subst k'. reflexivity.
    + unfold en_decode_with_start. replace (Z.of_nat (boundary b k') <? 0) with false by lia.
      rewrite (enb_runes_and_index_boundary b k' Hk'). replace (Z.of_nat k' <? 0) with false by lia. reflexivity.
Qed.

(* ---- MatchString ---- *)

Variable search_quick : list Z -> Z -> bool.

(* the bool-only program answers "is there a match" (C02_quick_program_sound) *)
Definition enp_quick_agrees : Prop :=
  forall r s, search_quick r s = match search r s with Some _ => true | None => false end.


Lemma enp_decode_with_start b c :
  0 < c ->
  (exists k', (k' <= length (decode b))%nat /\ c = Z.of_nat (boundary b k') /\
              en_decode_with_start b c = (runes_of b, Z.of_nat k')) \/
  (en_is_boundary b c = false /\ en_decode_with_start b c = (runes_of b, -1)).
Proof.
  intros Hc. unfold en_decode_with_start. replace (c <? 0) with false by lia.
  destruct (en_is_boundary b c) eqn:E.
  - left. apply enb_is_boundary_iff in E. destruct E as [k' [Hk' ->]]. exists k'. split; [exact Hk'|].
    split; [reflexivity|]. apply enb_runes_and_index_boundary. exact Hk'.
  - right. split; [reflexivity|]. apply enb_runes_and_index_off. exact E.
Qed.

Theorem enp_match_string b :
  enp_in_range -> enp_quick_agrees -> enp_flt_hyp ->
  en_match_string search_quick rtl flt b = en_match_runes search_quick rtl (runes_of b).
Proof.
  intros HR HQ HH. unfold en_match_string, en_match_runes, en_run_quick. unfold enp_flt_hyp in HH.
  cbn [Z.ltb Z.compare]. rewrite enp_zlen_runes.
  assert (Hplain : en_match_string_at search_quick rtl b (-1) =
                   Ok (search_quick (runes_of b) (if rtl then Z.of_nat (length (decode b)) else 0))).
  { unfold en_match_string_at. cbn [Z.leb Z.compare]. rewrite enp_zlen_runes. reflexivity. }
  assert (Hrhs : (if Z.of_nat (length (decode b)) <? (if rtl then Z.of_nat (length (decode b)) else 0)
                  then Err ERR_START_TOO_LARGE
                  else Ok (search_quick (runes_of b) (if rtl then Z.of_nat (length (decode b)) else 0))) =
                 Ok (search_quick (runes_of b) (if rtl then Z.of_nat (length (decode b)) else 0))).
  { destruct rtl; [rewrite Z.ltb_irrefl; reflexivity|].
    replace (Z.of_nat (length (decode b)) <? 0) with false by lia. reflexivity. }
  rewrite Hrhs.
  destruct flt as [f|]; [|exact Hplain].
  destruct rtl eqn:Ertl; cbn [negb]; [exact Hplain|].
  destruct HH as [HH|HH]; [congruence|].
  destruct (enp_filter_call f b 0 HR HH ltac:(lia)) as (c & ok & Hr & HB & HC).
  rewrite boundary_0 in Hr. change (Z.of_nat 0) with 0 in *. rewrite Hr. cbn [bind].
  destruct ok; cbn [negb].
  - unfold en_match_string_at. destruct (c <=? 0) eqn:Ec; [reflexivity|].
    destruct (enp_decode_with_start b c ltac:(lia)) as [(k' & Hk' & Hck & Hd)|[_ Hd]]; rewrite Hd.
    + replace (Z.of_nat k' <? 0) with false by lia. rewrite !HQ.
      rewrite (HC eq_refl k' ltac:(lia) Hck). reflexivity.
    + cbn [Z.ltb Z.compare]. reflexivity.
  - rewrite HQ, (HB eq_refl). reflexivity.
Qed.

End EntryGlue.

(* ================================================================================================
   The headline: for every program data the constructor accepts
   ================================================================================================ *)

Lemma enp_flt_hyp_of_constructor
  (M : Type) (m_index : M -> Z) (search : list Z -> Z -> option M) (c : en_code) (flt : option en_filter) :
  en_new_filter c = Ok flt ->
  (en_has_opcode (S (length (cd_codes c))) (cd_codes c) G_Start = Ok false -> enp_start_indep M m_index search) ->
  (forall o f, cd_opts c = Some o -> flt = Some f ->
     forall b q, enp_starts M m_index search (runes_of b) q -> enp_code_fact o (runes_of b) q) ->
  enp_flt_hyp M m_index search (cd_rtl c) flt.
Proof.
  intros Hc HG HF. right. destruct flt as [f|]; [|exact I].
  destruct (enp_new_filter_inv c f Hc) as (o & Ho & Hr & Hs & Hg & Hsel).
  destruct (enp_select_ok o f (enp_guard_of o Hg) Hsel) as [Hok Hfact].
  split; [exact Hok|]. split; [exact (HG Hs)|].
  intros b q Hst. apply Hfact. exact (HF o f Ho eq_refl b q Hst).
Qed.

Theorem enp_string_entry_equals_rune_entry
  (M : Type) (m_index : M -> Z) (search : list Z -> Z -> option M) (search_quick : list Z -> Z -> bool)
  (c : en_code) (flt : option en_filter) :
  en_new_filter c = Ok flt ->
  enp_in_range M m_index search ->
  enp_quick_agrees M search search_quick ->
  (en_has_opcode (S (length (cd_codes c))) (cd_codes c) G_Start = Ok false -> enp_start_indep M m_index search) ->
  (forall o f, cd_opts c = Some o -> flt = Some f ->
     forall b q, enp_starts M m_index search (runes_of b) q -> enp_code_fact o (runes_of b) q) ->
  forall b : list Z,
    let rtl := cd_rtl c in
    let r := runes_of b in
    en_find_string_match M search rtl flt b = en_find_runes_match M search rtl r /\
    (forall k, (k <= length r)%nat ->
       en_find_string_match_starting_at M search rtl flt b (Z.of_nat (boundary b k)) =
       en_find_runes_match_starting_at M search rtl r (Z.of_nat k)) /\
    (forall i, i < 0 ->
       en_find_string_match_starting_at M search rtl flt b i = en_find_runes_match_starting_at M search rtl r i) /\
    (forall i, zlen b < i -> en_find_string_match_starting_at M search rtl flt b i = Err ERR_START_TOO_LARGE) /\
    (forall i, 0 <= i <= zlen b -> en_is_boundary b i = false ->
       en_find_string_match_starting_at M search rtl flt b i = Err ERR_START_NOT_BOUNDARY) /\
    en_match_string search_quick rtl flt b = en_match_runes search_quick rtl r.
Proof.
  intros Hc HR HQ HG HF b rtl r.
  pose proof (enp_flt_hyp_of_constructor M m_index search c flt Hc HG HF) as HH. fold rtl in HH.
  split; [apply (enp_find_string_match M m_index search rtl flt b HR HH)|].
  split; [intros k Hk; apply (enp_starting_at_boundary M m_index search rtl flt b k HR HH);
          unfold r in Hk; rewrite enb_runes_length in Hk; exact Hk|].
  split; [intros i Hi; apply (enp_starting_at_negative M m_index search rtl flt b i HR HH Hi)|].
  split; [intros i Hi; apply (proj1 (enp_starting_at_errors M search rtl flt b i) Hi)|].
  split; [intros i Hi Hb; apply (proj2 (enp_starting_at_errors M search rtl flt b i) Hi Hb)|].
  apply (enp_match_string M m_index search rtl flt search_quick b HR HQ HH).
Qed.

(* what newStringPrefixFilter guarantees when it builds a filter *)
Theorem enp_constructor c f :
  en_new_filter c = Ok (Some f) ->
  cd_rtl c = false /\
  en_has_opcode (S (length (cd_codes c))) (cd_codes c) G_Start = Ok false /\
  enf_ok f /\
  exists o, cd_opts c = Some o /\ forall r q, enp_code_fact o r q -> enf_fact f r q.
Proof.
  intros Hc. destruct (enp_new_filter_inv c f Hc) as (o & Ho & Hr & Hs & Hg & Hsel).
  destruct (enp_select_ok o f (enp_guard_of o Hg) Hsel) as [Hok Hfact].
  split; [exact Hr|]. split; [exact Hs|]. split; [exact Hok|]. exists o. split; [exact Ho|exact Hfact].
Qed.

(* ================================================================================================
   Where the engine hypotheses come from: a scan whose attempts do not read the scan start
   ================================================================================================ *)

(* The accelerator-free scan (runner.go:116-228 without finder; Model/Scan.naive_scan, which C03 proves
   equal to the accelerated scan): attempt the program at s, s+1, ..., len and report the first success.
   When one attempt, anchored at q, does not depend on where the scan started — the only channel is
   Runtextstart, read by the Start (\G) instruction alone — the scan satisfies enp_in_range and
   enp_start_indep.  (With \G the attempt takes the start as a further argument and the second
   property fails: EntryExamples.enx_start_indep_needed.) *)
Section ScanEngine.
Variable M : Type.
Variable m_index : M -> Z.
Variable attempt : list Z -> nat -> option M.
Hypothesis attempt_index : forall r q m, attempt r q = Some m -> m_index m = Z.of_nat q.

Fixpoint enp_scan_from (r : list Z) (fuel q : nat) : option M :=
  match fuel with
  | O => None
  | S f => match attempt r q with Some m => Some m | None => enp_scan_from r f (S q) end
  end.

Definition enp_scan (r : list Z) (s : Z) : option M :=
  enp_scan_from r (S (length r) - Z.to_nat s) (Z.to_nat s).

Lemma enp_scan_from_some r : forall fuel q m,
  enp_scan_from r fuel q = Some m ->
  exists x, (q <= x < q + fuel)%nat /\ attempt r x = Some m /\ forall y, (q <= y < x)%nat -> attempt r y = None.
Proof.
  induction fuel as [|f IH]; intros q m H; [discriminate H|].
  cbn [enp_scan_from] in H. destruct (attempt r q) as [m'|] eqn:E.
  - injection H as <-. exists q. split; [lia|]. split; [exact E|]. intros y Hy. lia.
  - destruct (IH (S q) m H) as (x & H1 & H2 & H3). exists x. split; [lia|]. split; [exact H2|].
    intros y Hy. destruct (Nat.eq_dec y q) as [->|]; [exact E|]. apply H3. lia.
Qed.

Lemma enp_scan_from_none r : forall fuel q,
  enp_scan_from r fuel q = None -> forall y, (q <= y < q + fuel)%nat -> attempt r y = None.
Proof.
  induction fuel as [|f IH]; intros q H y Hy; [lia|].
  cbn [enp_scan_from] in H. destruct (attempt r q) eqn:E; [discriminate H|].
  destruct (Nat.eq_dec y q) as [->|]; [exact E|]. apply (IH (S q) H). lia.
Qed.

Lemma enp_scan_from_first r : forall fuel q x m,
  (q <= x < q + fuel)%nat -> attempt r x = Some m -> (forall y, (q <= y < x)%nat -> attempt r y = None) ->
  enp_scan_from r fuel q = Some m.
Proof.
  induction fuel as [|f IH]; intros q x m Hx Hp Hn; [lia|].
  cbn [enp_scan_from]. destruct (Nat.eq_dec x q) as [->|Hne]; [rewrite Hp; reflexivity|].
  rewrite (Hn q ltac:(lia)). apply (IH (S q) x m); [lia|exact Hp|]. intros y Hy. apply Hn. lia.
Qed.

Lemma enp_scan_from_all_none r : forall fuel q,
  (forall y, (q <= y < q + fuel)%nat -> attempt r y = None) -> enp_scan_from r fuel q = None.
Proof.
  induction fuel as [|f IH]; intros q H; [reflexivity|].
  cbn [enp_scan_from]. rewrite (H q ltac:(lia)). apply IH. intros y Hy. apply H. lia.
Qed.

Theorem enp_scan_in_range : enp_in_range M m_index enp_scan.
Proof.
  intros r s m Hs H. unfold enp_scan in H. unfold zlen in *.
  destruct (enp_scan_from_some r _ _ _ H) as (x & H1 & H2 & _). rewrite (attempt_index r x m H2). lia.
Qed.

Theorem enp_scan_start_indep : enp_start_indep M m_index enp_scan.
Proof.
  intros r s s' Hs Hs' Hm. unfold enp_scan in *. unfold zlen in *.
  destruct (enp_scan_from r (S (length r) - Z.to_nat s) (Z.to_nat s)) as [m|] eqn:E.
  - specialize (Hm m eq_refl).
    destruct (enp_scan_from_some r _ _ _ E) as (x & H1 & H2 & H3). rewrite (attempt_index r x m H2) in Hm.
    apply (enp_scan_from_first r _ _ x m); [lia|exact H2|]. intros y Hy. apply H3. lia.
  - apply enp_scan_from_all_none. intros y Hy. apply (enp_scan_from_none r _ _ E). lia.
Qed.

End ScanEngine.

Theorem enp_scan_engine (M : Type) (m_index : M -> Z) (attempt : list Z -> nat -> option M) :
  (forall r q m, attempt r q = Some m -> m_index m = Z.of_nat q) ->
  enp_in_range M m_index (enp_scan M attempt) /\ enp_start_indep M m_index (enp_scan M attempt).
Proof.
  intros H. split; [exact (enp_scan_in_range M m_index attempt H)|exact (enp_scan_start_indep M m_index attempt H)].
Qed.

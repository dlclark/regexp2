(* C04, part 1: a big-step "reachability" reading of Spec.sem.
   [Reach e t s y] over-approximates "y is one of the results of node t from state s": it keeps, for
   every construct, how a result state is obtained from results of the sub-nodes, and drops the
   negative information (a negative lookaround or a failed condition).  [sem_reach] is the only
   induction on fuel; every soundness statement of the analyses is then an induction on [Reach]. *)
From Verif Require Import Base.Prelude Model.Tree Model.Spec Proofs.SpecProofs.

Lemma an_bindl_in {A B} (f : A -> res (list B)) : forall l r y,
  bindl l f = Ok r -> In y r -> exists x lx, In x l /\ f x = Ok lx /\ In y lx.
Proof.
  induction l as [|a l IH]; intros r y H Hy; cbn [bindl] in H.
  - injection H as <-. destruct Hy.
  - apply sp_bind_ok in H. destruct H as [x [Hx H]].
    apply sp_bind_ok in H. destruct H as [r' [Hr H]]. injection H as <-.
    apply in_app_or in Hy. destruct Hy as [Hy|Hy].
    + exists a, x. split; [left; reflexivity|]. split; assumption.
    + destruct (IH _ _ Hr Hy) as [x0 [lx [Hin [Hf Hy']]]].
      exists x0, lx. split; [right; exact Hin|]. split; assumption.
Qed.

Lemma an_bindr_in {A B} (r : res (list A)) (f : A -> res (list B)) l y :
  bindr r f = Ok l -> In y l -> exists la x lx, r = Ok la /\ In x la /\ f x = Ok lx /\ In y lx.
Proof.
  intros H Hy. apply sp_bindr_ok in H. destruct H as [la [Hr H]].
  destruct (an_bindl_in f _ _ _ H Hy) as [x [lx [Hin [Hf Hy']]]].
  exists la, x, lx. repeat split; assumption.
Qed.

Lemma an_appr_in {A} (a b : res (list A)) l y :
  appr a b = Ok l -> In y l -> (exists la, a = Ok la /\ In y la) \/ (exists lb, b = Ok lb /\ In y lb).
Proof.
  intros H Hy. apply sp_appr_ok in H. destruct H as [x [z [Ha [Hb ->]]]].
  apply in_app_or in Hy. destruct Hy as [Hy|Hy]; [left; exists x|right; exists z]; split; assumption.
Qed.

Lemma an_first_only_in {A} (r : res (list A)) l y :
  first_only r = Ok l -> In y l -> exists l0, r = Ok l0 /\ In y l0.
Proof.
  intros H Hy. apply sp_first_only_ok in H. destruct H as [l0 [Hr ->]].
  exists l0. split; [exact Hr|]. destruct l0 as [|a l0]; [destruct Hy|].
  destruct Hy as [<-|[]]. left; reflexivity.
Qed.

Section Reach.
Variable e : env.

Definition loop_limit (m n : Z) : Z := if n =? INF then INF else n - m.

Inductive Reach : node -> st -> st -> Prop :=
| R_char k o c s :
    (0 <? avail e o (pos s)) && char_test e k c (next_char e o (pos s)) = true ->
    Reach (NChar k o c) s (with_pos s (pos s + dir o))
| R_charloop k l o c m n s y : In y (sem_charloop e k l o c m n s) -> Reach (NCharLoop k l o c m n) s y
| R_multi o str s y : In y (sem_multi e o str s) -> Reach (NMulti o str) s y
| R_ref o g s y : In y (sem_ref e o g s) -> Reach (NRef o g) s y
| R_anchor a s : anchor_ok e a (pos s) = true -> Reach (NAnchor a) s s
| R_empty s : Reach NEmpty s s
| R_bump s : Reach NBump s s
| R_concat o l s y : ReachSeq l s y -> Reach (NConcat o l) s y
| R_alt o l x s y : In x l -> Reach x s y -> Reach (NAlternate o l) s y
| R_loop0 lazy o m n r s y :
    m = 0 -> ReachIter r (loop_limit m n) s 0 y -> Reach (NLoop lazy o m n r) s y
| R_loop1 lazy o m n r s s1 y :
    m <> 0 -> Reach r s s1 -> ReachIter r (loop_limit m n) s1 (1 - m) y -> Reach (NLoop lazy o m n r) s y
| R_capture o g r s s1 :
    Reach r s s1 ->
    Reach (NCapture o g (-1) r) s {| pos := pos s1; caps := cap_push g (span (pos s) (pos s1)) (caps s1) |}
| R_balance o g u r s s1 top rest :
    u <> -1 -> Reach r s s1 -> cap_get u (caps s1) = top :: rest ->
    Reach (NCapture o g u r) s
          {| pos := pos s1;
             caps := if g =? -1 then cap_pop u (caps s1)
                     else cap_push g (balance_span (pos s) (pos s1) top) (cap_pop u (caps s1)) |}
| R_group r s y : Reach r s y -> Reach (NGroup r) s y
| R_poslook o r s s1 : Reach r s s1 -> Reach (NPosLook o r) s (with_pos s1 (pos s))
| R_neglook o r s : Reach (NNegLook o r) s s
| R_atomic r s y : Reach r s y -> Reach (NAtomic r) s y
| R_brc_yes o g yes no s y :
    is_matched g (caps s) = true -> Reach yes s y -> Reach (NBackRefCond o g yes no) s y
| R_brc_no o g yes n s y :
    is_matched g (caps s) = false -> Reach n s y -> Reach (NBackRefCond o g yes (Some n)) s y
| R_brc_none o g yes s :
    is_matched g (caps s) = false -> Reach (NBackRefCond o g yes None) s s
| R_ec_yes o c yes no s s1 y :
    Reach c s s1 -> Reach yes (with_pos s1 (pos s)) y -> Reach (NExprCond o c yes no) s y
| R_ec_no o c yes n s y : Reach n s y -> Reach (NExprCond o c yes (Some n)) s y
| R_ec_none o c yes s : Reach (NExprCond o c yes None) s s
with ReachSeq : list node -> st -> st -> Prop :=
| RS_nil s : ReachSeq [] s s
| RS_cons x l s s1 y : Reach x s s1 -> ReachSeq l s1 y -> ReachSeq (x :: l) s y
with ReachIter : node -> Z -> st -> Z -> st -> Prop :=
| RI_stop r limit s count : (0 <= count \/ limit <= count) -> ReachIter r limit s count s
| RI_more r limit s count s1 y :
    (count < 0 \/ count < limit) -> Reach r s s1 -> ReachIter r limit s1 (count + 1) y ->
    ReachIter r limit s count y.

Scheme Reach_mind := Minimality for Reach Sort Prop
  with ReachSeq_mind := Minimality for ReachSeq Sort Prop
  with ReachIter_mind := Minimality for ReachIter Sort Prop.
Combined Scheme Reach_mutind from Reach_mind, ReachSeq_mind, ReachIter_mind.

(* the iteration of Spec.iter, for any body whose results are Reach-able *)
Lemma iter_reach (r : node) (body : st -> res (list st)) (lazy : bool) (limit : Z) :
  (forall s l y, body s = Ok l -> In y l -> Reach r s y) ->
  forall fuel s mark count l y,
    iter fuel body lazy limit s mark count = Ok l -> In y l -> ReachIter r limit s count y.
Proof.
  intros Hbody. induction fuel as [|f IH]; intros s mark count l y H Hy; [discriminate H|].
  cbn [iter] in H.
  assert (Hagain : forall l', bindr (body s) (fun s' => iter f body lazy limit s' (pos s) (count + 1)) = Ok l' ->
                              In y l' -> (count < 0 \/ count < limit) -> ReachIter r limit s count y).
  { intros l' H' Hy' Hc. destruct (an_bindr_in _ _ _ _ H' Hy') as [la [x [lx [Hb [Hx [Hi Hyx]]]]]].
    eapply RI_more; [exact Hc|eapply Hbody; eassumption|eapply IH; eassumption]. }
  destruct lazy.
  - destruct (count <? 0) eqn:Ec.
    + eapply Hagain; [exact H|exact Hy|left; lia].
    + destruct (an_appr_in _ _ _ _ H Hy) as [[la [Ha Hin]]|[lb [Hb Hin]]].
      * injection Ha as <-. destruct Hin as [<-|[]]. apply RI_stop. left; lia.
      * destruct ((count <? limit) && negb (pos s =? mark)) eqn:Ec2.
        -- eapply Hagain; [exact Hb|exact Hin|right; lia].
        -- injection Hb as <-. destruct Hin.
  - destruct ((limit <=? count) || ((pos s =? mark) && (0 <=? count))) eqn:Ec.
    + injection H as <-. destruct Hy as [<-|[]]. apply RI_stop. lia.
    + destruct (an_appr_in _ _ _ _ H Hy) as [[la [Ha Hin]]|[lb [Hb Hin]]].
      * eapply Hagain; [exact Ha|exact Hin|right; lia].
      * injection Hb as <-. destruct (0 <=? count) eqn:Ec2; [|destruct Hin].
        destruct Hin as [<-|[]]. apply RI_stop. left; lia.
Qed.

Theorem sem_reach : forall fuel t s l y, sem e fuel t s = Ok l -> In y l -> Reach t s y.
Proof.
  induction fuel as [|f IH]; intros t s l y H Hy; [discriminate H|].
  destruct t as [kd o c|kd lk o c m n|o str|o g|a| | | |o cl|o cl|lazy o m n r|o g u r|r|o r|o r|r
                |o g yes no|o c yes no];
    cbn [sem] in H.
  - (* NChar *)
    injection H as <-.
    destruct ((0 <? avail e o (pos s)) && char_test e kd c (next_char e o (pos s))) eqn:E; [|destruct Hy].
    destruct Hy as [<-|[]]. apply R_char. exact E.
  - injection H as <-. apply R_charloop. exact Hy.
  - injection H as <-. apply R_multi. exact Hy.
  - injection H as <-. apply R_ref. exact Hy.
  - injection H as <-. destruct (anchor_ok e a (pos s)) eqn:E; [|destruct Hy].
    destruct Hy as [<-|[]]. apply R_anchor. exact E.
  - injection H as <-. destruct Hy.
  - injection H as <-. destruct Hy as [<-|[]]. apply R_empty.
  - injection H as <-. destruct Hy as [<-|[]]. apply R_bump.
  - (* NConcat *)
    apply R_concat. revert s l H Hy.
    induction cl as [|x cl IHl]; intros s l H Hy.
    + injection H as <-. destruct Hy as [<-|[]]. apply RS_nil.
    + destruct (an_bindr_in _ _ _ _ H Hy) as [la [x1 [lx [Hb [Hx [Hi Hyx]]]]]].
      eapply RS_cons; [eapply IH; eassumption|eapply IHl; eassumption].
  - (* NAlternate *)
    revert l H Hy. induction cl as [|x cl IHl]; intros l H Hy.
    + injection H as <-. destruct Hy.
    + destruct (an_appr_in _ _ _ _ H Hy) as [[la [Ha Hin]]|[lb [Hb Hin]]].
      * eapply R_alt; [left; reflexivity|eapply IH; eassumption].
      * specialize (IHl _ Hb Hin). inversion IHl; subst.
        eapply R_alt; [right; eassumption|eassumption].
  - (* NLoop *)
    fold (loop_limit m n) in H.
    assert (Hbody : forall s l y, sem e f r s = Ok l -> In y l -> Reach r s y) by (intros; eapply IH; eassumption).
    destruct (m =? 0) eqn:Em.
    + apply R_loop0; [lia|]. eapply iter_reach; eassumption.
    + destruct (an_bindr_in _ _ _ _ H Hy) as [la [x1 [lx [Hb [Hx [Hi Hyx]]]]]].
      eapply R_loop1; [lia|eapply IH; eassumption|eapply iter_reach; eassumption].
  - (* NCapture *)
    destruct (u =? -1) eqn:Eu.
    + assert (u = -1) by lia. subst u.
      destruct (an_bindr_in _ _ _ _ H Hy) as [la [x1 [lx [Hb [Hx [Hi Hyx]]]]]].
      injection Hi as <-. destruct Hyx as [<-|[]]. apply R_capture. eapply IH; eassumption.
    + destruct (an_bindr_in _ _ _ _ H Hy) as [la [x1 [lx [Hb [Hx [Hi Hyx]]]]]].
      destruct (cap_get u (caps x1)) as [|top rest] eqn:Ecap.
      * injection Hi as <-. destruct Hyx.
      * injection Hi as <-. destruct Hyx as [<-|[]].
        eapply R_balance; [lia|eapply IH; eassumption|exact Ecap].
  - apply R_group. eapply IH; eassumption.
  - (* NPosLook *)
    apply sp_bind_ok in H. destruct H as [l0 [H0 H]]. injection H as <-.
    apply in_map_iff in Hy. destruct Hy as [s1 [<- Hs1]].
    destruct (an_first_only_in _ _ _ H0 Hs1) as [l1 [H1 Hin]].
    apply R_poslook. eapply IH; eassumption.
  - (* NNegLook *)
    apply sp_bind_ok in H. destruct H as [l0 [H0 H]]. injection H as <-.
    destruct l0; [|destruct Hy]. destruct Hy as [<-|[]]. apply R_neglook.
  - (* NAtomic *)
    destruct (an_first_only_in _ _ _ H Hy) as [l1 [H1 Hin]]. apply R_atomic. eapply IH; eassumption.
  - (* NBackRefCond *)
    destruct (is_matched g (caps s)) eqn:Eg.
    + apply R_brc_yes; [exact Eg|eapply IH; eassumption].
    + destruct no as [n|].
      * apply R_brc_no; [exact Eg|eapply IH; eassumption].
      * injection H as <-. destruct Hy as [<-|[]]. apply R_brc_none. exact Eg.
  - (* NExprCond *)
    apply sp_bind_ok in H. destruct H as [l0 [H0 H]].
    apply sp_first_only_ok in H0. destruct H0 as [l1 [H1 ->]].
    destruct l1 as [|s1 l1].
    + destruct no as [n|].
      * apply R_ec_no. eapply IH; eassumption.
      * injection H as <-. destruct Hy as [<-|[]]. apply R_ec_none.
    + eapply R_ec_yes; [eapply IH; [exact H1|left; reflexivity]|eapply IH; eassumption].
Qed.

Lemma an_reach_char_inv k o c s y : Reach (NChar k o c) s y ->
  y = with_pos s (pos s + dir o) /\ (0 <? avail e o (pos s)) && char_test e k c (next_char e o (pos s)) = true.
Proof. inversion 1; subst. split; [reflexivity|assumption]. Qed.

Lemma an_reach_charloop_inv k l o c m n s y : Reach (NCharLoop k l o c m n) s y -> In y (sem_charloop e k l o c m n s).
Proof. inversion 1; subst. assumption. Qed.

Lemma an_reach_multi_inv o str s y : Reach (NMulti o str) s y -> In y (sem_multi e o str s).
Proof. inversion 1; subst. assumption. Qed.

Lemma an_reach_anchor_inv a s y : Reach (NAnchor a) s y -> y = s /\ anchor_ok e a (pos s) = true.
Proof. inversion 1; subst. split; [reflexivity|assumption]. Qed.

Lemma an_reach_empty_inv s y : Reach NEmpty s y -> y = s.
Proof. inversion 1; subst. reflexivity. Qed.

Lemma an_reach_bump_inv s y : Reach NBump s y -> y = s.
Proof. inversion 1; subst. reflexivity. Qed.

Lemma an_reach_concat_inv o l s y : Reach (NConcat o l) s y -> ReachSeq l s y.
Proof. inversion 1; subst. assumption. Qed.

Lemma an_reach_alt_inv o l s y : Reach (NAlternate o l) s y -> exists x, In x l /\ Reach x s y.
Proof. inversion 1; subst. eexists. split; eassumption. Qed.

Lemma an_reach_loop_inv lz o m n r s y : Reach (NLoop lz o m n r) s y -> 0 < m ->
  exists s1, Reach r s s1 /\ ReachIter r (loop_limit m n) s1 (1 - m) y.
Proof. intros H Hm. inversion H; subst; [lia|]. eexists. split; eassumption. Qed.

Lemma an_reach_capture_inv o g u r s y : Reach (NCapture o g u r) s y -> exists s1, Reach r s s1 /\ pos y = pos s1.
Proof. inversion 1; subst; eexists; (split; [eassumption|reflexivity]). Qed.

Lemma an_reach_group_inv r s y : Reach (NGroup r) s y -> Reach r s y.
Proof. inversion 1; subst. assumption. Qed.

Lemma an_reach_atomic_inv r s y : Reach (NAtomic r) s y -> Reach r s y.
Proof. inversion 1; subst. assumption. Qed.

Lemma an_reach_poslook_inv o r s y : Reach (NPosLook o r) s y -> exists s1, Reach r s s1 /\ pos y = pos s.
Proof. inversion 1; subst. eexists. split; [eassumption|reflexivity]. Qed.

Lemma an_reach_neglook_inv o r s y : Reach (NNegLook o r) s y -> y = s.
Proof. inversion 1; subst. reflexivity. Qed.

Lemma an_reachseq_cons_inv x l s y : ReachSeq (x :: l) s y -> exists s1, Reach x s s1 /\ ReachSeq l s1 y.
Proof. inversion 1; subst. eexists. split; eassumption. Qed.

Lemma an_reachseq_nil_inv s y : ReachSeq [] s y -> y = s.
Proof. inversion 1; subst. reflexivity. Qed.

(* a successful attempt is a reachable result of the root from the empty-capture state *)
Lemma attempt_reach fuel root p s' :
  attempt e fuel root p = Ok (Some s') -> Reach root {| pos := p; caps := [] |} s'.
Proof.
  unfold attempt. intros H. apply sp_bind_ok in H. destruct H as [l [Hl H]].
  destruct l as [|x l]; [discriminate H|]. injection H as <-.
  eapply sem_reach; [exact Hl|left; reflexivity].
Qed.

End Reach.

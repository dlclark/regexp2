(* C04, part 10: soundness of findRequiredLandmarkChain (Analysis2.find_landmark_chain):
   every match of a left-to-right pattern starts with a run of leading-loop-set characters, after which the
   landmarks occur in order, each as [leading whitespace run] core [trailing whitespace run]. *)
From Coq Require Import ZifyBool.
From Verif Require Import Base.Prelude Model.CharClass Base.Utf8 Model.Tree Model.Spec Model.Analysis Model.Analysis2
     Proofs.SpecProofs Proofs.AnalysisReach Proofs.AnalysisProofs Proofs.AnalysisPrefix Proofs.Analysis2Lal
     Proofs.Analysis2Prefixes.

Section Chain.
Variable e : env.
Variable cat_in : Z -> Z -> bool.
Variable sets : list cls.
Hypothesis Hshort : tlen e < INF.

(* text[a..b) lies in the whitespace set (a = b when the alternative has none) *)
Definition ws_run (ws : option Z) (a b : Z) : Prop :=
  match ws with
  | Some id => a <= b /\ forall i, a <= i < b -> set_in e id (char_at e i) = true
  | None => a = b
  end.

(* the alternative occupies [s, t): leading whitespace [s, c), core [c, en), trailing whitespace [en, t) *)
Definition alt_at (a : lm_alt) (s c en t : Z) : Prop :=
  ws_run (la_lead a) s c /\ (la_req_before a = true -> s < c) /\
  match la_set a with
  | None => la_lit a <> [] /\ en = c + zlen (la_lit a) /\
            forall i, 0 <= i < zlen (la_lit a) -> char_at e (c + i) = nth (Z.to_nat i) (la_lit a) 0
  | Some id => la_lit a = [] /\ 0 < la_min a /\ la_min a <= en - c <= la_max a /\
               forall i, c <= i < en -> set_in e id (char_at e i) = true
  end /\
  ws_run (la_trail a) en t /\ (la_req_after a = true -> en < t) /\ 0 <= s /\ t <= tlen e.

(* the landmarks occur in order from position [from] on *)
Fixpoint chain_from (lms : list (list lm_alt)) (from : Z) : Prop :=
  match lms with
  | [] => True
  | alts :: rest => exists a s c en t, In a alts /\ from <= s /\ alt_at a s c en t /\ chain_from rest t
  end.

(* ... the first one starting exactly at [s] *)
Definition chain_first (lms : list (list lm_alt)) (s : Z) : Prop :=
  match lms with
  | [] => True
  | alts :: rest => exists a c en t, In a alts /\ alt_at a s c en t /\ chain_from rest t
  end.

Lemma chain_first_from lms s from : from <= s -> chain_first lms s -> chain_from lms from.
Proof.
  destruct lms as [|alts rest]; [auto|]. cbn [chain_first chain_from]. intros Hle [a [c [en [t H]]]].
  exists a, s, c, en, t. tauto.
Qed.

Lemma chain_from_weaken lms from from' : from' <= from -> chain_from lms from -> chain_from lms from'.
Proof.
  destruct lms as [|alts rest]; [auto|]. cbn [chain_from]. intros Hle [a [s [c [en [t H]]]]].
  exists a, s, c, en, t. split; [tauto|]. split; [lia|tauto].
Qed.

(* Atomic / Capture / Group wrappers *)
Lemma ch_unwrap_t : forall t sa sb, Reach e t sa sb -> exists sb', Reach e (unwrap_t t) sa sb' /\ pos sb' = pos sb.
Proof.
  induction t; intros sa sb H; cbn [unwrap_t]; try (exists sb; split; [exact H|reflexivity]).
  - destruct (an_reach_capture_inv e _ _ _ _ _ _ H) as [s1 [H1 Hp]].
    destruct (IHt _ _ H1) as [y' [H2 Hp2]]. exists y'. split; [exact H2|lia].
  - apply an_reach_group_inv in H. exact (IHt _ _ H).
  - apply an_reach_atomic_inv in H. exact (IHt _ _ H).
Qed.

Lemma ch_unwrap_t_shape d : forall t, shape_ok d t = true -> shape_ok d (unwrap_t t) = true.
Proof. induction t; cbn [unwrap_t shape_ok]; auto. Qed.
Lemma ch_unwrap_t_noci : forall t, no_ci_lit t = true -> no_ci_lit (unwrap_t t) = true.
Proof. induction t; cbn [unwrap_t no_ci_lit]; auto. Qed.
Lemma ch_unwrap_t_lits : forall t, lits_ok t = true -> lits_ok (unwrap_t t) = true.
Proof. induction t; cbn [unwrap_t lits_ok]; auto. Qed.

(* a set loop read left to right: a run of set characters *)
Lemma ch_setloop lk o id m n sa sb :
  Reach e (NCharLoop CSet lk o id m n) sa sb -> shape_ok false (NCharLoop CSet lk o id m n) = true -> inb e sa ->
  exists j, pos sb = pos sa + j /\ 0 <= m <= j /\ (n <> INF -> j <= n) /\ pos sa + j <= tlen e /\
            forall i, pos sa <= i < pos sa + j -> set_in e id (char_at e i) = true.
Proof.
  intros H Hs Hb. apply an_reach_charloop_inv in H. cbn [shape_ok] in Hs. apply andb_true_iff in Hs. destruct Hs as [Hs Hmn].
  apply andb_true_iff in Hs. destruct Hs as [Hs Hm0]. apply eqb_prop in Hs.
  apply an_charloop_in in H. destruct H as [j [maxn [Hy [Hj [Hav0 Hjn]]]]]. subst sb. unfold avail, dir in *. rewrite Hs in *. unfold inb in Hb. exists j. cbn [pos with_pos].
  split; [lia|]. split; [lia|]. split; [intros Hn; specialize (Hjn Hn); lia|]. split; [lia|].
  intros i Hi. destruct (an_run_len_nth e CSet id o Hs maxn (pos sa) (i - pos sa) ltac:(lia)) as [Hc _].
  replace (pos sa + (i - pos sa)) with i in Hc by lia. exact Hc.
Qed.

(* whitespaceLoop *)
Lemma ch_whitespace k id m sa sb :
  whitespace_loop sets k = Some (id, m) -> Reach e k sa sb -> shape_ok false k = true -> inb e sa ->
  ws_run (Some id) (pos sa) (pos sb) /\ (0 <? m = true -> pos sa < pos sb) /\ pos sb <= tlen e.
Proof.
  unfold whitespace_loop. intros Hw Hr Hs Hb.
  destruct (ch_unwrap_t k sa sb Hr) as [sb' [Hr' Hp]]. pose proof (ch_unwrap_t_shape false k Hs) as Hs'.
  destruct (unwrap_t k) as [|ck lk o c m0 n| | | | | | | | | | | | | | | |]; try discriminate Hw.
  destruct ck; try discriminate Hw.
  destruct ((n =? INF) && _); [|discriminate Hw]. injection Hw as <- <-.
  destruct (ch_setloop lk o c m0 n sa sb' Hr' Hs' Hb) as [j [Hj [Hm [_ [Hle Hrun]]]]].
  rewrite <- Hp, Hj. cbn [ws_run]. split; [split; [lia|exact Hrun]|]. split; [lia|lia].
Qed.

(* the core of a landmark alternative *)
Lemma ch_core k lit st mn mx sa sb :
  lm_core cat_in sets k = Some (lit, st, mn, mx) -> Reach e k sa sb -> shape_ok false k = true -> no_ci_lit k = true ->
  lits_ok k = true -> inb e sa ->
  pos sb <= tlen e /\
  match st with
  | None => lit <> [] /\ pos sb = pos sa + zlen lit /\
            forall i, 0 <= i < zlen lit -> char_at e (pos sa + i) = nth (Z.to_nat i) lit 0
  | Some id => lit = [] /\ 0 < mn /\ mn <= pos sb - pos sa <= mx /\
               forall i, pos sa <= i < pos sb -> set_in e id (char_at e i) = true
  end.
Proof.
  unfold lm_core. intros Hc Hr Hs Hn Hl Hb.
  destruct (ch_unwrap_t k sa sb Hr) as [sb' [Hr' Hp]]. pose proof (ch_unwrap_t_shape false k Hs) as Hs'.
  pose proof (ch_unwrap_t_noci k Hn) as Hn'. pose proof (ch_unwrap_t_lits k Hl) as Hl'. rewrite <- Hp. clear Hr Hs Hn Hl Hp.
  destruct (unwrap_t k) as [ck o c|ck lk o c m n|o str| | | | | | | | | | | | | | |]; try discriminate Hc.
  - (* NChar *)
    apply an_reach_char_inv in Hr'. destruct Hr' as [-> Hch]. cbn [shape_ok] in Hs'. apply eqb_prop in Hs'.
    apply andb_true_iff in Hch. destruct Hch as [Hav Hch]. unfold avail, next_char, dir in *. rewrite Hs' in *.
    unfold inb in Hb. cbn [pos with_pos].
    destruct ck; try discriminate Hc.
    + injection Hc as <- <- <- <-. split; [lia|]. split; [discriminate|]. split; [reflexivity|].
      intros i Hi. unfold zlen in Hi. cbn [length] in Hi. assert (i = 0) by lia. subst i.
      replace (pos sa + 0) with (pos sa) by lia. cbn [char_test nth Z.to_nat] in *. lia.
    + destruct (get_set_chars cat_in (set_cls sets c) 8); [discriminate Hc|].
      destruct (neg (set_cls sets c)); [discriminate Hc|]. injection Hc as <- <- <- <-.
      split; [lia|]. split; [reflexivity|]. split; [lia|]. split; [lia|].
      intros i Hi. assert (i = pos sa) by lia. subst i. exact Hch.
  - (* NCharLoop *)
    destruct ck; try discriminate Hc.
    destruct ((0 <? m) && negb (n =? INF)) eqn:Emn; [|discriminate Hc].
    destruct (get_set_chars cat_in (set_cls sets c) 8); [discriminate Hc|].
    destruct (neg (set_cls sets c)); [discriminate Hc|]. injection Hc as <- <- <- <-.
    destruct (ch_setloop lk o c m n sa sb' Hr' Hs' Hb) as [j [Hj [Hm [Hjn [Hle Hrun]]]]].
    rewrite Hj. split; [lia|]. split; [reflexivity|]. split; [lia|]. split; [specialize (Hjn ltac:(lia)); lia|].
    intros i Hi. apply Hrun. lia.
  - (* NMulti *)
    injection Hc as <- <- <- <-. apply an_reach_multi_inv in Hr'. apply an_multi_in in Hr'. destruct Hr' as [-> [Hav Hm]].
    cbn [shape_ok no_ci_lit] in Hs', Hn'. apply eqb_prop in Hs'. apply negb_true_iff in Hn'.
    rewrite Hn', Hs' in Hm. unfold avail, dir in *. rewrite Hs' in *. unfold inb in Hb. cbn [pos with_pos].
    split; [lia|]. split; [cbn [lits_ok] in Hl'; destruct str; [discriminate Hl'|discriminate]|].
    split; [lia|]. intros i Hi.
    symmetry. rewrite (an_str_match_nth e str (pos sa) (Z.to_nat i) Hm) by (unfold zlen in Hi; lia).
    f_equal. lia.
Qed.



(* the children an alternative is made of *)
Lemma ch_kids t sa sb :
  Reach e t sa sb -> shape_ok false t = true -> no_ci_lit t = true -> lits_ok t = true ->
  let nd := unwrap_t t in
  let kids := match nd with NConcat _ l => l | _ => [nd] end in
  exists sb', ReachSeq e kids sa sb' /\ pos sb' = pos sb /\
    forallb (shape_ok false) kids = true /\ forallb no_ci_lit kids = true /\ forallb lits_ok kids = true.
Proof.
  intros Hr Hs Hn Hl. cbv zeta. destruct (ch_unwrap_t t sa sb Hr) as [sb' [Hr' Hp]].
  pose proof (ch_unwrap_t_shape false t Hs) as Hs'. pose proof (ch_unwrap_t_noci t Hn) as Hn'.
  pose proof (ch_unwrap_t_lits t Hl) as Hl'.
  destruct (unwrap_t t) eqn:Eu;
    try (exists sb'; split; [eapply RS_cons; [exact Hr'|apply RS_nil]|]; split; [exact Hp|];
         cbn [forallb]; rewrite Hs', Hn', Hl'; auto).
  apply an_reach_concat_inv in Hr'. exists sb'. cbn [shape_ok no_ci_lit lits_ok] in *. auto.
Qed.

Lemma ch_seq_fwd l sa sb : ReachSeq e l sa sb -> forallb (shape_ok false) l = true -> inb e sa -> caps_nonneg (caps sa) ->
  inb e sb /\ pos sa <= pos sb.
Proof.
  intros Hr Hs Hb Hcn. destruct (an_step_seq e false l sa sb Hr Hs Hb Hcn) as [H1 H2]. unfold disp in H2.
  split; [exact H1|lia].
Qed.

Lemma ch_extract_alt t a sa sb :
  extract_alt cat_in sets t = Some a -> Reach e t sa sb ->
  shape_ok false t = true -> no_ci_lit t = true -> lits_ok t = true -> inb e sa -> caps_nonneg (caps sa) ->
  exists c en, alt_at a (pos sa) c en (pos sb).
Proof.
  unfold extract_alt. intros He Hr Hs Hn Hl Hb Hcn.
  destruct (ch_kids t sa sb Hr Hs Hn Hl) as [sbk [Hseq [Hpk [Hsk [Hnk Hlk]]]]]. cbv zeta in Hseq, Hsk, Hnk, Hlk.
  set (kids := match unwrap_t t with NConcat _ l => l | _ => [unwrap_t t] end) in *.
  rewrite <- Hpk. clear Hpk Hr.
  (* leading whitespace *)
  assert (Hlead : exists lead kids1 s1,
            (match kids with
             | x :: r => match whitespace_loop sets x with Some w => (Some w, r) | None => (None, kids) end
             | [] => (None, kids)
             end) = (lead, kids1) /\
            ReachSeq e kids1 s1 sbk /\ inb e s1 /\ caps_nonneg (caps s1) /\ pos sa <= pos s1 /\
            forallb (shape_ok false) kids1 = true /\ forallb no_ci_lit kids1 = true /\ forallb lits_ok kids1 = true /\
            ws_run (match lead with Some (i, _) => Some i | None => None end) (pos sa) (pos s1) /\
            (match lead with Some (_, m) => 0 <? m | None => false end = true -> pos sa < pos s1)).
  { destruct kids as [|x r] eqn:Ek.
    - exists None, [], sa.
      split; [reflexivity|]. split; [exact Hseq|]. split; [exact Hb|]. split; [exact Hcn|]. split; [lia|].
      split; [reflexivity|]. split; [reflexivity|]. split; [reflexivity|]. split; [reflexivity|discriminate].
    - destruct (whitespace_loop sets x) as [[i m]|] eqn:Ew.
      + destruct (an_reachseq_cons_inv e _ _ _ _ Hseq) as [s1 [H1 H2]].
        cbn [forallb] in Hsk, Hnk, Hlk. apply andb_true_iff in Hsk. destruct Hsk as [Hsx Hsr].
        apply andb_true_iff in Hnk. destruct Hnk as [Hnx Hnr]. apply andb_true_iff in Hlk. destruct Hlk as [Hlx Hlr].
        destruct (ch_whitespace x i m sa s1 Ew H1 Hsx Hb) as [W1 [W2 W3]].
        destruct (an_step e false x sa s1 H1 Hsx Hb Hcn) as [Hb1 [Hf1 Hcn1]]. unfold disp in Hf1.
        exists (Some (i, m)), r, s1.
        split; [reflexivity|]. split; [exact H2|]. split; [exact Hb1|].
        split; [exact Hcn1|]. split; [lia|].
        split; [exact Hsr|]. split; [exact Hnr|]. split; [exact Hlr|]. split; [exact W1|exact W2].
      + exists None, (x :: r), sa.
        split; [reflexivity|]. split; [exact Hseq|]. split; [exact Hb|]. split; [exact Hcn|]. split; [lia|].
        split; [exact Hsk|]. split; [exact Hnk|]. split; [exact Hlk|]. split; [reflexivity|discriminate]. }
  destruct Hlead as [lead [kids1 [s1 [El [Hseq1 [Hb1 [Hcn1 [Hle1 [Hsk1 [Hnk1 [Hlk1 [Hws1 Hreq1]]]]]]]]]]]].
  rewrite El in He. clear El.
  destruct kids1 as [|c kids2]; [discriminate He|].
  destruct (lm_core cat_in sets c) as [[[[lit st] mn] mx]|] eqn:Ec; [|discriminate He].
  destruct (an_reachseq_cons_inv e _ _ _ _ Hseq1) as [s2 [Hc Hseq2]].
  cbn [forallb] in Hsk1, Hnk1, Hlk1. apply andb_true_iff in Hsk1. destruct Hsk1 as [Hsc Hsk2].
  apply andb_true_iff in Hnk1. destruct Hnk1 as [Hnc Hnk2]. apply andb_true_iff in Hlk1. destruct Hlk1 as [Hlc Hlk2].
  destruct (ch_core c lit st mn mx s1 s2 Ec Hc Hsc Hnc Hlc Hb1) as [Hle2 Hcore].
  destruct (an_step e false c s1 s2 Hc Hsc Hb1 Hcn1) as [Hb2 [Hf2 Hcn2]]. unfold disp in Hf2.
  (* trailing whitespace *)
  assert (Htrail : exists trail kids3,
            (match kids2 with
             | x :: r => match whitespace_loop sets x with Some w => (Some w, r) | None => (None, kids2) end
             | [] => (None, kids2)
             end) = (trail, kids3) /\
            (kids3 = [] ->
             ws_run (match trail with Some (i, _) => Some i | None => None end) (pos s2) (pos sbk) /\
             (match trail with Some (_, m) => 0 <? m | None => false end = true -> pos s2 < pos sbk) /\
             pos sbk <= tlen e)).
  { destruct kids2 as [|x r] eqn:Ek.
    - exists None, []. split; [reflexivity|]. intros _. apply an_reachseq_nil_inv in Hseq2. subst sbk.
      cbn [ws_run]. unfold inb in Hb2. split; [reflexivity|]. split; [discriminate|lia].
    - destruct (whitespace_loop sets x) as [[i m]|] eqn:Ew.
      + exists (Some (i, m)), r. split; [reflexivity|]. intros ->.
        destruct (an_reachseq_cons_inv e _ _ _ _ Hseq2) as [s3 [H1 H2]]. apply an_reachseq_nil_inv in H2. subst s3.
        cbn [forallb] in Hsk2. apply andb_true_iff in Hsk2. destruct Hsk2 as [Hsx _].
        destruct (ch_whitespace x i m s2 sbk Ew H1 Hsx Hb2) as [W1 [W2 W3]]. auto.
      + exists None, (x :: r). split; [reflexivity|]. discriminate. }
  destruct Htrail as [trail [kids3 [Et Htr]]]. rewrite Et in He. clear Et.
  destruct kids3 as [|k3 kr]; [|discriminate He]. destruct (Htr eq_refl) as [Hws3 [Hreq3 Hle3]].
  injection He as <-. exists (pos s1), (pos s2). unfold alt_at. cbn [la_lead la_trail la_set la_lit la_min la_max la_req_before la_req_after].
  unfold inb in Hb. split; [exact Hws1|]. split; [exact Hreq1|]. split; [|split; [exact Hws3|split; [exact Hreq3|lia]]].
  destruct st as [id|].
  - destruct Hcore as (A & B & C & D). auto.
  - destruct Hcore as (A & B & C). split; [exact A|]. split; [exact B|exact C].
Qed.

Lemma ch_all_some_in (l : list node) (f : node -> option lm_alt) r x :
  all_some (map f l) = Some r -> In x l -> exists a, f x = Some a /\ In a r.
Proof.
  revert r. induction l as [|y l IH]; intros r H Hin; [destruct Hin|]. cbn [map all_some] in H.
  destruct (f y) as [a|] eqn:Ef; [|discriminate H]. destruct (all_some (map f l)) as [r'|]; [|discriminate H].
  injection H as <-. destruct Hin as [<-|Hin].
  - exists a. split; [exact Ef|left; reflexivity].
  - destruct (IH r' eq_refl Hin) as [a' [H1 H2]]. exists a'. split; [exact H1|right; exact H2].
Qed.

(* extractRequiredLandmark: the child is matched by one of the alternatives *)
Lemma ch_extract_landmark x alts sa sb :
  extract_landmark cat_in sets x = Some alts -> Reach e x sa sb ->
  shape_ok false x = true -> no_ci_lit x = true -> lits_ok x = true -> inb e sa -> caps_nonneg (caps sa) ->
  exists a c en, In a alts /\ alt_at a (pos sa) c en (pos sb).
Proof.
  unfold extract_landmark. intros He Hr Hs Hn Hl Hb Hcn.
  destruct (ch_unwrap_t x sa sb Hr) as [sb' [Hr' Hp]]. pose proof (ch_unwrap_t_shape false x Hs) as Hs'.
  pose proof (ch_unwrap_t_noci x Hn) as Hn'. pose proof (ch_unwrap_t_lits x Hl) as Hl'. rewrite <- Hp.
  destruct (unwrap_t x) as [| | | | | | | | |o l| | | | | | | |] eqn:Eu; cbv beta iota in He;
    try (destruct (extract_alt cat_in sets _) as [aa|] eqn:Ea; [|discriminate He]; injection He as <-;
         destruct (ch_extract_alt _ aa sa sb' Ea Hr' Hs' Hn' Hl' Hb Hcn) as [cc [ee HH]];
         exists aa, cc, ee; split; [left; reflexivity|exact HH]).
  (* NAlternate *)
  destruct (all_some (map (extract_alt cat_in sets) l)) as [[|a0 r]|] eqn:Eall; try discriminate He.
  injection He as <-. destruct (an_reach_alt_inv e _ _ _ _ Hr') as [b [Hin Hrb]].
  destruct (ch_all_some_in l _ _ b Eall Hin) as [a [Ea Hina]].
  pose proof (an_alt_forallb false l Hs') as Hfa. cbn [no_ci_lit lits_ok] in Hn', Hl'.
  rewrite forallb_forall in Hfa, Hn', Hl'.
  destruct (ch_extract_alt b a sa sb' Ea Hrb (Hfa b Hin) (Hn' b Hin) (Hl' b Hin) Hb Hcn) as [c [en H]].
  exists a, c, en. split; [exact Hina|exact H].
Qed.

Lemma ch_zero_width x sa sb : is_zero_width_gap x = true -> Reach e x sa sb -> pos sb = pos sa.
Proof.
  unfold is_zero_width_gap. intros Hz Hr. destruct (ch_unwrap_t x sa sb Hr) as [sb' [Hr' Hp]]. rewrite <- Hp.
  destruct (unwrap_t x); try discriminate Hz.
  - apply an_reach_anchor_inv in Hr'. destruct Hr' as [-> _]. reflexivity.
  - apply an_reach_empty_inv in Hr'. subst. reflexivity.
  - apply an_reach_bump_inv in Hr'. subst. reflexivity.
Qed.

(* the collection loop: landmarks in order; before the first one only zero-width children are skipped *)
Lemma ch_collect : forall l acc lms sa sb,
  lm_collect cat_in sets l acc = Some lms -> ReachSeq e l sa sb ->
  forallb (shape_ok false) l = true -> forallb no_ci_lit l = true -> forallb lits_ok l = true ->
  inb e sa -> caps_nonneg (caps sa) ->
  exists new, lms = acc ++ new /\
    (acc = [] -> chain_first new (pos sa)) /\ (acc <> [] -> chain_from new (pos sa)).
Proof.
  induction l as [|x l IH]; intros acc lms sa sb Hc Hr Hs Hn Hl Hb Hcn; cbn [lm_collect] in Hc.
  - injection Hc as <-. exists []. rewrite app_nil_r. split; [reflexivity|]. split; intros _; exact I.
  - destruct (an_reachseq_cons_inv e _ _ _ _ Hr) as [s1 [H1 H2]].
    cbn [forallb] in Hs, Hn, Hl. apply andb_true_iff in Hs. destruct Hs as [Hsx Hsl].
    apply andb_true_iff in Hn. destruct Hn as [Hnx Hnl]. apply andb_true_iff in Hl. destruct Hl as [Hlx Hll].
    destruct (an_step e false x sa s1 H1 Hsx Hb Hcn) as [Hb1 [Hf1 Hcn1]]. unfold disp in Hf1.
    destruct (extract_landmark cat_in sets x) as [alts|] eqn:Ex.
    + destruct (IH _ _ _ _ Hc H2 Hsl Hnl Hll Hb1 Hcn1) as [new [E [_ Hch]]].
      destruct (ch_extract_landmark x alts sa s1 Ex H1 Hsx Hnx Hlx Hb Hcn) as [a [c [en [Hin Hat]]]].
      exists (alts :: new). rewrite E, <- app_assoc. split; [reflexivity|].
      assert (Hrest : chain_from new (pos s1)) by (apply Hch; destruct acc; discriminate).
      split; intros _.
      * cbn [chain_first]. exists a, c, en, (pos s1). auto.
      * cbn [chain_from]. exists a, (pos sa), c, en, (pos s1). split; [exact Hin|]. split; [lia|]. auto.
    + destruct acc as [|a0 acc'].
      * destruct (is_zero_width_gap x) eqn:Ez; [|discriminate Hc].
        destruct (IH _ _ _ _ Hc H2 Hsl Hnl Hll Hb1 Hcn1) as [new [E [Hch _]]].
        exists new. split; [exact E|]. split; [|intros Hf; congruence].
        intros _. rewrite <- (ch_zero_width x sa s1 Ez H1). apply Hch. reflexivity.
      * destruct (IH _ _ _ _ Hc H2 Hsl Hnl Hll Hb1 Hcn1) as [new [E [_ Hch]]].
        exists new. split; [exact E|]. split; [intros Hf; discriminate Hf|].
        intros _. apply (chain_from_weaken new (pos s1)); [lia|]. apply Hch. discriminate.
Qed.

(* findRequiredLandmarkChain found (leading loop set, landmarks): every successful attempt at p reads a run
   of loop-set characters p .. s1-1, and from s1 on the landmarks occur in order, the first one starting at s1 *)
Theorem a2_landmark_chain_sound fuel root p s' loop lms :
  shape_ok false root = true -> no_ci_lit root = true -> lits_ok root = true -> 0 <= p <= tlen e ->
  find_landmark_chain cat_in sets root = Some (loop, lms) ->
  attempt e fuel root p = Ok (Some s') ->
  exists s1, p <= s1 <= tlen e /\
    (forall i, p <= i < s1 -> set_in e loop (char_at e i) = true) /\
    chain_first lms s1 /\ (2 <= length lms)%nat.
Proof.
  intros Hs Hn Hl Hp Hf Ha. pose proof (attempt_reach e _ _ _ _ Ha) as Hr.
  set (s0 := {| pos := p; caps := [] |}) in *.
  assert (Hb0 : inb e s0) by exact Hp.
  unfold find_landmark_chain in Hf.
  destruct (match root with NCapture o _ _ _ | NConcat o _ => is_rtl o | _ => false end); [discriminate Hf|].
  destruct (ch_unwrap_t root s0 s' Hr) as [y1 [Hr1 _]].
  pose proof (ch_unwrap_t_shape false root Hs) as Hs1. pose proof (ch_unwrap_t_noci root Hn) as Hn1.
  pose proof (ch_unwrap_t_lits root Hl) as Hl1.
  destruct (unwrap_t root) as [| | | | | | | |o l| | | | | | | | |] eqn:Eu; try discriminate Hf.
  destruct (zlen l <? 4); [discriminate Hf|].
  destruct l as [|first rest]; [discriminate Hf|].
  apply an_reach_concat_inv in Hr1. destruct (an_reachseq_cons_inv e _ _ _ _ Hr1) as [s1 [Hf1 Hrest]].
  cbn [shape_ok no_ci_lit lits_ok forallb] in Hs1, Hn1, Hl1.
  apply andb_true_iff in Hs1. destruct Hs1 as [Hsf Hsr]. apply andb_true_iff in Hn1. destruct Hn1 as [Hnf Hnr].
  apply andb_true_iff in Hl1. destruct Hl1 as [Hlf Hlr].
  destruct (ch_unwrap_t first s0 s1 Hf1) as [s1' [Hl1 Hp1]].
  pose proof (ch_unwrap_t_shape false first Hsf) as Hsl.
  destruct (is_set_loop_inf (unwrap_t first)) as [lp|] eqn:El; [|discriminate Hf].
  destruct (unwrap_t first) as [|k lk o' c m n| | | | | | | | | | | | | | | |] eqn:Euf; try discriminate El.
  destruct k; try discriminate El. cbn [is_set_loop_inf] in El.
  destruct (n =? INF); [|discriminate El]. injection El as ->.
  destruct (ch_setloop lk o' lp m n s0 s1' Hl1 Hsl Hb0) as [j [Hj [Hm [_ [Hle Hrun]]]]].
  destruct (lm_collect cat_in sets rest []) as [lms0|] eqn:Ec; [|discriminate Hf].
  destruct (zlen lms0 <? 2) eqn:E2; [discriminate Hf|]. injection Hf as <- <-.
  destruct (an_step e false first s0 s1 Hf1 Hsf Hb0 an_caps_nonneg_nil) as [Hb1 [Hfw Hcn1]]. unfold disp in Hfw.
  destruct (ch_collect rest [] lms0 s1 y1 Ec Hrest Hsr Hnr Hlr Hb1 Hcn1) as [new [E [Hch _]]].
  cbn [app] in E. subst new. exists (pos s1). unfold inb in Hb1. cbn [pos s0] in *.
  split; [lia|]. split; [intros i Hi; apply Hrun; lia|]. split; [apply Hch; reflexivity|].
  unfold zlen in E2. lia.
Qed.

End Chain.

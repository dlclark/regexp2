(* Per-opcode lemma for Multi (literal string, either direction, optional case folding of the
   text side), by symbolic evaluation of VM.step; root-slot lifting; and the writer's string table. *)
From Verif Require Import Base.Prelude Model.Tree Model.Spec Model.VM Model.Writer Gen.RunnerGen
  Proofs.VMU Proofs.VMUOps Proofs.VMUOps2.
From Coq Require Import Relations ZifyBool.

Section Ops5.
Variable e : env.
Variable p : program.
Hypothesis tc_nonneg : 0 <= trackcount p.

Notation ustep := (VMU.ustep e p).
Notation mk := VMU.mk.

Lemma cmp_str_spec ci : forall str p0, 0 <= p0 -> p0 + zlen str <= tlen e ->
  cmp_str e ci str p0 = Some (str_match_at e ci str p0).
Proof.
  induction str as [|c str IH]; intros p0 H0 Hl; cbn [cmp_str str_match_at]; [reflexivity|].
  rewrite zlen_cons in Hl. pose proof (zlen_nonneg str).
  rewrite text_at_ok by (clear IH; lia).
  destruct (c =? (if ci then lower e (char_at e p0) else char_at e p0)); cbn [andb]; [|reflexivity].
  apply IH; lia.
Qed.

Definition multi_cond (o : Z) (str : list Z) (t : Z) : bool :=
  if avail e o t <? zlen str then false
  else str_match_at e (is_ci o) str (if is_rtl o then t - zlen str else t).

Lemma ustep_multi_ok o i str pc0 t T S C M w2 :
  code_at p pc0 = Some (Multi + bits_of o) -> code_at p (pc0 + 1) = Some i -> code_at p (pc0 + 2) = Some w2 ->
  znth (strings p) i = Some str -> 0 <= t <= tlen e -> multi_cond o str t = true ->
  ustep (mk pc0 0 t T S C M) = Ok (Next (mk (pc0 + 2) 0 (t + dir o * zlen str) T S C M)).
Proof.
  intros H0 H1 H2 Hs Ht Hc.
  set (w := Multi + bits_of o) in *.
  assert (Hw : Z.land w 63 = Multi) by apply cp_land_bits, multi_range.
  assert (Hr : rtl_of w = is_rtl o) by apply rtl_of_bits, multi_range.
  assert (Hci : ci_of w = is_ci o) by apply ci_of_bits, multi_range.
  clearbody w. unfold multi_cond in Hc.
  start H0. rewrite Hw. cbn -[opnd fwdchars cmp_str brk advance zlen].
  opn (pc0 + 1) H1. cbn [bind]. rewrite Hs. unfold fwdchars. rewrite Hr, Hci. cbn [tp repad VMU.mk].
  pose proof (zlen_nonneg str) as Hz.
  unfold avail, dir in *. destruct (is_rtl o).
  - destruct (t <? zlen str) eqn:E; [discriminate|].
    rewrite cmp_str_spec by (clear - Ht E Hz; lia). rewrite Hc. adv (pc0 + 2) H2. fin; unfold norm, set_pc, set_tp, repad, VMU.mk; cbn [pc mode tp track stack crawl mcaps]; repeat f_equal; lia.
  - destruct (tlen e - t <? zlen str) eqn:E; [discriminate|].
    rewrite cmp_str_spec by (clear - Ht E Hz; lia). rewrite Hc. adv (pc0 + 2) H2. fin; unfold norm, set_pc, set_tp, repad, VMU.mk; cbn [pc mode tp track stack crawl mcaps]; repeat f_equal; lia.
Qed.

Lemma ustep_multi_fail o i str pc0 t np T S C M w3 :
  code_at p pc0 = Some (Multi + bits_of o) -> code_at p (pc0 + 1) = Some i -> code_at p (Z.abs np) = Some w3 ->
  znth (strings p) i = Some str -> 0 <= t <= tlen e -> multi_cond o str t = false ->
  ustep (mk pc0 0 t (np :: T) S C M) = Ok (Next (bk np t T S C M)).
Proof.
  intros H0 H1 H3 Hs Ht Hc.
  set (w := Multi + bits_of o) in *.
  assert (Hw : Z.land w 63 = Multi) by apply cp_land_bits, multi_range.
  assert (Hr : rtl_of w = is_rtl o) by apply rtl_of_bits, multi_range.
  assert (Hci : ci_of w = is_ci o) by apply ci_of_bits, multi_range.
  clearbody w. unfold multi_cond in Hc.
  start H0. rewrite Hw. cbn -[opnd fwdchars cmp_str brk advance zlen].
  opn (pc0 + 1) H1. cbn [bind]. rewrite Hs. unfold fwdchars. rewrite Hr, Hci. cbn [tp repad VMU.mk].
  pose proof (zlen_nonneg str) as Hz.
  unfold avail in *. destruct (is_rtl o).
  - destruct (t <? zlen str) eqn:E; [fail_to H3; fin|].
    rewrite cmp_str_spec by (clear - Ht E Hz; lia). rewrite Hc. fail_to H3; fin.
  - destruct (tlen e - t <? zlen str) eqn:E; [fail_to H3; fin|].
    rewrite cmp_str_spec by (clear - Ht E Hz; lia). rewrite Hc. fail_to H3; fin.
Qed.

End Ops5.

Section Root5.
Variable e : env.
Variable p : program.
Hypothesis tc_nonneg : 0 <= trackcount p.
Notation rsteps := (VMUOps2.rsteps e p).

Lemma rs_multi_ok o i str pc0 t T S C M w2 :
  code_at p pc0 = Some (Multi + bits_of o) -> code_at p (pc0 + 1) = Some i -> code_at p (pc0 + 2) = Some w2 ->
  znth (strings p) i = Some str -> 0 <= t <= tlen e -> multi_cond e o str t = true ->
  rsteps (mkr pc0 0 t T S C M) (mkr (pc0 + 2) 0 (t + dir o * zlen str) T S C M).
Proof. lift ustep_multi_ok. Qed.

Lemma rs_multi_fail o i str pc0 t np T S C M w3 :
  code_at p pc0 = Some (Multi + bits_of o) -> code_at p (pc0 + 1) = Some i -> code_at p (Z.abs np) = Some w3 ->
  znth (strings p) i = Some str -> 0 <= t <= tlen e -> multi_cond e o str t = false ->
  rsteps (mkr pc0 0 t (np :: T) S C M) (bkr np t T S C M).
Proof. lift ustep_multi_fail. Qed.

End Root5.

Lemma str_index_spec s : forall tbl k i, str_index s tbl k = Some i ->
  exists j, i = k + Z.of_nat j /\ nth_error tbl j = Some s.
Proof.
  induction tbl as [|x tbl IH]; intros k i H; cbn [str_index] in H; [discriminate|].
  destruct (zlist_eqb s x) eqn:E.
  - injection H as <-. apply zlist_eqb_eq in E. subst x. exists 0%nat. split; [lia|reflexivity].
  - apply IH in H. destruct H as [j [Hi Hj]]. exists (S j). split; [lia|exact Hj].
Qed.

Lemma string_code_spec s tbl i tbl' : string_code s tbl = (i, tbl') -> znth tbl' i = Some s.
Proof.
  unfold string_code. destruct (str_index s tbl 0) as [i0|] eqn:E; intros H; injection H as <- <-.
  - apply str_index_spec in E. destruct E as [j [-> Hj]]. unfold znth.
    replace (0 + Z.of_nat j <? 0) with false by lia. replace (Z.to_nat (0 + Z.of_nat j)) with j by lia. exact Hj.
  - unfold znth, zlen. replace (Z.of_nat (length tbl) <? 0) with false by lia.
    rewrite Nat2Z.id. rewrite nth_error_app2 by lia. rewrite Nat.sub_diag. reflexivity.
Qed.

(* compile_correct with balancing captures, framework: the invariant [leadsg2] = CompileBase.leadsg with
   the capture relation [caps_rel2] (arrays may contain balance markers, Proofs/CompileBalDen.v).
   Both are instances of CompileBase.leadsR, whose lemmas serve for either. *)
From Verif Require Import Base.Prelude Model.Tree Model.Spec Model.VM Model.Writer Gen.RunnerGen
  Proofs.SpecProofs Proofs.VMU Proofs.VMUOps Proofs.VMUOps2 Proofs.VMUOps6 Proofs.CompileBase Proofs.CompileBalDen.
From Coq Require Import Relations ZifyBool.

Section CB.
Variable e : env.
Variable p : program.
Hypothesis tc_nonneg : 0 <= trackcount p.

Notation rsteps := (VMUOps2.rsteps e p).
Notation track_ok := (CompileBase.track_ok p).
Notation caps_rel2 := (CompileBalDen.caps_rel2 p).

(* [CompileBase.leadsR] at the capture relation [caps_rel2]: leadsg2_leadsR *)
Fixpoint leadsg2 (b : Z) (T Ss Sf C : list Z) (M0 : list (list Z)) (start : Z -> vm) (res : list st) : Prop :=
  match res with
  | [] => exists np T' t, T = np :: T' /\ rsteps start (bkr np t T' Sf C M0)
  | q :: rest =>
      exists T' C' M', caps_rel2 (caps q) M' /\ unwind C' M' = Some M0 /\ track_ok (T' ++ T) /\
        rsteps start (mkr b 0 (pos q) (T' ++ T) Ss (C' ++ C) M') /\
        forall np T'' t, T' ++ T = np :: T'' ->
                         leadsg2 b T Ss Sf C M0 (bkr np t T'' Ss (C' ++ C) M') rest
  end.

Lemma leadsg2_nil_any b b' T Ss Ss' Sf C M0 s : leadsg2 b T Ss Sf C M0 s [] -> leadsg2 b' T Ss' Sf C M0 s [].
Proof. intros H. exact H. Qed.

End CB.

Lemma leadsg2_leadsR e p : leadsg2 e p = leadsR e p (caps_rel2 p).
Proof. reflexivity. Qed.

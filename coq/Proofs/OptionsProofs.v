(* Proofs about Model/Options.v: the option stack machine (C18). *)
From Verif Require Import Base.Prelude Model.Options.

(* ---------- scanOptions ---------- *)

(* a run of option letters sets, or after a '-' clears, their bits one by one *)
Lemma scan_options_bits : forall off bs o,
  scan_options off (map OBit bs) o = fold_left (if off then Z.ldiff else Z.lor) bs o.
Proof.
  intros off bs. induction bs as [|b bs IH]; intros o; cbn [map scan_options fold_left]; [reflexivity|].
  rewrite IH. now destruct off.
Qed.

Lemma scan_options_on : forall bs o, scan_options false (opt_on bs) o = union_bits bs o.
Proof. intros. apply (scan_options_bits false). Qed.

Lemma scan_options_off : forall bs o, scan_options false (opt_off bs) o = clear_bits bs o.
Proof. intros. unfold opt_off. cbn [scan_options]. apply (scan_options_bits true). Qed.

(* ---------- frames: running below a deeper stack ---------- *)

Definition o_base (base : list Z) (st : ostate) : ostate :=
  mkO (o_opts st) (o_stack st ++ base) (o_skip st).

Lemma o_base_nil : forall st, o_base [] st = st.
Proof. intros [o s k]. unfold o_base. cbn. now rewrite app_nil_r. Qed.

Lemma o_base_opts : forall base st, o_opts (o_base base st) = o_opts st.
Proof. reflexivity. Qed.

Lemma map_o_base_opts : forall base l, map o_opts (map (o_base base) l) = map o_opts l.
Proof. intros. rewrite map_map. apply map_ext. intros. reflexivity. Qed.

(* a step the main pass accepts is the same step, in either pass, under any deeper stack *)
Lemma ostep_frame : forall p base st t st',
  ostep MainPass st t = Ok st' -> ostep p (o_base base st) t = Ok (o_base base st').
Proof.
  intros p base [o s k] t st' H.
  unfold ostep in *. cbn [o_skip o_base o_opts o_stack] in *.
  destruct k.
  - destruct t; inversion H; subst; reflexivity.
  - destruct t; cbn [o_push o_set o_pop o_pop_keep o_set_skip o_opts o_stack o_skip] in *;
      try (inversion H; subst; reflexivity);
      try (destruct p; inversion H; subst; reflexivity);
      try (destruct (has o opt_x); inversion H; subst; reflexivity);
      try (destruct s as [|x s]; [discriminate|]; cbn in *; inversion H; subst; reflexivity).
Qed.

Lemma otrace_frame : forall ts p base st l st',
  otrace MainPass st ts = (l, Ok st') ->
  otrace p (o_base base st) ts = (map (o_base base) l, Ok (o_base base st')).
Proof.
  induction ts as [|t ts IH]; intros p base st l st' H; cbn [otrace] in *.
  - inversion H; subst. reflexivity.
  - destruct (ostep MainPass st t) as [st1| | |] eqn:E; try (inversion H; fail).
    + rewrite (ostep_frame p base _ _ _ E).
      destruct (otrace MainPass st1 ts) as [l1 f1] eqn:E1.
      inversion H; subst.
      rewrite (IH p base _ _ _ E1). reflexivity.
Qed.

(* both passes see the same states wherever the main pass gets to *)
Lemma passes_agree_ok : forall ts st l st',
  otrace MainPass st ts = (l, Ok st') -> otrace PreScan st ts = (l, Ok st').
Proof.
  intros ts st l st' H.
  pose proof (otrace_frame ts PreScan [] st l st' H) as F.
  rewrite !o_base_nil in F. rewrite F. f_equal.
  rewrite <- (map_id l) at 2. apply map_ext. intros. apply o_base_nil.
Qed.

Lemma ostep_pre_of_main : forall st t st', ostep MainPass st t = Ok st' -> ostep PreScan st t = Ok st'.
Proof.
  intros st t st' H. pose proof (ostep_frame PreScan [] st t st' H) as F.
  now rewrite !o_base_nil in F.
Qed.

Lemma passes_agree_prefix : forall ts st,
  firstn (length (fst (otrace MainPass st ts))) (fst (otrace PreScan st ts)) = fst (otrace MainPass st ts).
Proof.
  induction ts as [|t ts IH]; intros st; cbn [otrace]; [reflexivity|].
  (* where the main pass stops, its trace is the empty prefix *)
  destruct (ostep MainPass st t) as [st1|c|w|] eqn:E;
    [|destruct (ostep PreScan st t) as [st2| | |]; [destruct (otrace PreScan st2 ts)|..]; reflexivity ..].
  rewrite (ostep_pre_of_main _ _ _ E).
  specialize (IH st1).
  destruct (otrace MainPass st1 ts) as [l1 f1]. destruct (otrace PreScan st1 ts) as [l2 f2].
  cbn [fst length firstn] in *. now rewrite IH.
Qed.

(* the pre-scan's option machine never faults *)
Lemma ostep_prescan_ok : forall st t, exists st', ostep PreScan st t = Ok st'.
Proof.
  intros [o s k] t. unfold ostep. cbn [o_skip].
  destruct k; [destruct t; eexists; reflexivity|].
  destruct t; try (eexists; reflexivity).
  destruct s; eexists; reflexivity.
Qed.

Lemma otrace_app : forall ts1 ts2 p st l1 st1,
  otrace p st ts1 = (l1, Ok st1) ->
  otrace p st (ts1 ++ ts2) = (l1 ++ fst (otrace p st1 ts2), snd (otrace p st1 ts2)).
Proof.
  induction ts1 as [|t ts1 IH]; intros ts2 p st l1 st1 H; cbn [otrace app] in *.
  - inversion H; subst. cbn. now destruct (otrace p st1 ts2).
  - destruct (ostep p st t) as [st'| | |] eqn:E; try (inversion H; fail).
    destruct (otrace p st' ts1) as [l' f'] eqn:E'.
    inversion H; subst.
    rewrite (IH ts2 p st' l' st1 E'). reflexivity.
Qed.

(* ---------- the three spellings ---------- *)

(* "(?cs)" in front of ts: from then on exactly as if compiled with the resulting options *)
Lemma leading_setting : forall p cs o ts,
  otrace p (o_init o) (TOptSet cs :: ts) =
  (o_init o :: fst (otrace p (o_init (scan_options false cs o)) ts),
   snd (otrace p (o_init (scan_options false cs o)) ts)).
Proof.
  intros. cbn [otrace]. unfold ostep, o_init. cbn.
  now destruct (otrace p {| o_opts := scan_options false cs o; o_stack := []; o_skip := false |} ts).
Qed.

(* "(?cs:" ts ")" *)
Lemma wrapping_group : forall p cs o ts l st',
  otrace MainPass (o_init (scan_options false cs o)) ts = (l, Ok st') ->
  o_stack st' = [] -> o_skip st' = false ->
  otrace p (o_init o) (TOptGroup cs :: ts ++ [TClose]) =
  (o_init o :: map (o_base [o]) l ++ [o_base [o] st'], Ok (o_init o)).
Proof.
  intros p cs o ts l st' H Hs Hk.
  cbn [otrace]. unfold ostep at 1. cbn [o_init o_skip o_push o_set o_opts o_stack].
  pose proof (otrace_frame ts p [o] _ _ _ H) as F.
  change (o_base [o] (o_init (scan_options false cs o))) with (mkO (scan_options false cs o) [o] false) in F.
  change (o_set (scan_options false cs) (o_push (o_init o))) with (mkO (scan_options false cs o) [o] false).
  rewrite (otrace_app ts [TClose] p _ _ _ F).
  cbn [otrace]. destruct st' as [o' s' k']. cbn in Hs, Hk. subst.
  unfold ostep, o_base. cbn. destruct p; reflexivity.
Qed.

(* ---------- scoping: after the ")" of ANY group the options and the stack are what they were ---------- *)

Definition opens (t : gtok) : bool :=
  match t with
  | TOpen | TNamed _ | TNumbered _ | TGroup _ | TOptGroup _ | TCondHead | TCondNum _ | TCondName _ => true
  | _ => false
  end.

Lemma opens_step : forall p st g, o_skip st = false -> opens g = true ->
  exists o1, ostep p st g = Ok (mkO o1 (o_opts st :: o_stack st) false).
Proof.
  intros p [o s k] g Hk Hg. cbn in Hk. subst k.
  destruct g; try discriminate Hg; unfold ostep; cbn; try (eexists; reflexivity).
  - destruct p; eexists; reflexivity.
  - destruct p; eexists; reflexivity.
Qed.

Lemma scope_restores : forall p st g ts o1 l st2,
  o_skip st = false -> opens g = true ->
  ostep p st g = Ok (mkO o1 (o_opts st :: o_stack st) false) ->
  otrace MainPass (mkO o1 [] false) ts = (l, Ok st2) ->
  o_stack st2 = [] -> o_skip st2 = false ->
  snd (otrace p st (g :: ts ++ [TClose])) = Ok st.
Proof.
  intros p st g ts o1 l st2 Hk Hg Hstep Hrun Hs2 Hk2.
  cbn [otrace]. rewrite Hstep.
  pose proof (otrace_frame ts p (o_opts st :: o_stack st) _ _ _ Hrun) as F.
  change (o_base (o_opts st :: o_stack st) (mkO o1 [] false)) with (mkO o1 (o_opts st :: o_stack st) false) in F.
  rewrite (otrace_app ts [TClose] p _ _ _ F).
  destruct (otrace p (o_base (o_opts st :: o_stack st) st2) [TClose]) as [l3 f3] eqn:E3.
  cbn [snd].
  destruct st2 as [o2 s2 k2]. cbn in Hs2, Hk2. subst.
  cbn [otrace] in E3. unfold ostep, o_base in E3. cbn in E3.
  destruct st as [o s k]. cbn in Hk. subst k. cbn in E3.
  destruct p; inversion E3; reflexivity.
Qed.

(* ---------- the same, in terms of [stamps] / [ofinal] ---------- *)

Lemma stamps_leading : forall p cs o ts,
  stamps p o (TOptSet cs :: ts) = o :: stamps p (scan_options false cs o) ts
  /\ ofinal p o (TOptSet cs :: ts) = ofinal p (scan_options false cs o) ts.
Proof.
  intros. unfold stamps, ofinal. rewrite leading_setting. cbn [fst snd map o_init o_opts]. split; reflexivity.
Qed.

Lemma stamps_main_pre : forall o ts st', ofinal MainPass o ts = Ok st' ->
  stamps PreScan o ts = stamps MainPass o ts /\ ofinal PreScan o ts = Ok st'.
Proof.
  intros o ts st' H. unfold stamps, ofinal in *.
  destruct (otrace MainPass (o_init o) ts) as [l f] eqn:E. cbn [snd] in H. subst f.
  rewrite (passes_agree_ok _ _ _ _ E). split; reflexivity.
Qed.

Lemma stamps_wrapping : forall p cs o ts st',
  ofinal MainPass (scan_options false cs o) ts = Ok st' -> o_stack st' = [] -> o_skip st' = false ->
  stamps p o (TOptGroup cs :: ts ++ [TClose]) = o :: stamps p (scan_options false cs o) ts ++ [o_opts st']
  /\ ofinal p o (TOptGroup cs :: ts ++ [TClose]) = Ok (o_init o).
Proof.
  intros p cs o ts st' H Hs Hk.
  assert (Hp : stamps p (scan_options false cs o) ts = stamps MainPass (scan_options false cs o) ts).
  { destruct p; [apply (stamps_main_pre _ _ _ H)|reflexivity]. }
  rewrite Hp. unfold stamps, ofinal in *.
  destruct (otrace MainPass (o_init (scan_options false cs o)) ts) as [l f] eqn:E. cbn [snd] in H. subst f.
  rewrite (wrapping_group p cs o ts l st' E Hs Hk). cbn [fst snd map o_init o_opts].
  rewrite map_app, map_o_base_opts. split; reflexivity.
Qed.

Lemma stamps_passes : forall o ts,
  firstn (length (stamps MainPass o ts)) (stamps PreScan o ts) = stamps MainPass o ts.
Proof.
  intros. unfold stamps. rewrite map_length, firstn_map. f_equal. apply passes_agree_prefix.
Qed.

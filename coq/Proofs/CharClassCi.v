(* IgnoreCase on a class (CharClassCi, Ci2, Ci3): for ANY class whose code-point members lie in the good
   part of the finite table (Model/FoldD.v), addLowercase followed by addCaseEquivalences yields
   exactly the closure of the members under the SimpleFold orbit relation (CharClassCi3.ci_closure).  The
   oracles are arbitrary functions that agree with the table on its domain.
   This file: the closed facts about the table (rel_facts: orbits stay in the table and are symmetric and
   transitive; good_pt: ToLower and lcTable stay inside the orbit) and the shape of the ranges
   addLowercaseRange emits (lowercase_range_shape). *)
From Coq Require Import FMapPositive ZifyBool.
From Verif Require Import Base.Prelude Model.CharClass Model.FoldD
  Proofs.CharClassRanges Proofs.CharClassProofs Proofs.CharClassFold.

From Verif Require Import Proofs.ListFacts.
(* the SimpleFold orbit of x in the table.  From here to CharClassCi6 the name hides Datatypes.orb: the
   boolean "or" is written || in these files, and its lemmas (orb_true_iff ...) keep their names. *)
Definition orb (x : Z) : list Z := orbit fold_t orbit_fuel x.

Definition op_apply (op data x : Z) : Z :=
  if op =? 0 then data else if op =? 1 then x + data
  else if op =? 2 then Z.lor x 1 else if op =? 3 then x + Z.land x 1 else x.

(* a rune of the table on which ToLower and the lcTable entry covering it (if any) stay inside its orbit *)
Definition good_pt (x : Z) : bool :=
  zmem x dom_t && zmem (lower_t x) (orb x) &&
  forallb (fun e : Z * Z * Z * Z =>
             let '(lmin, lmax, op, data) := e in
             negb ((lmin <=? x) && (x <=? lmax)) || zmem (op_apply op data x) (orb x)) lc_table.

Definition good_dom : list Z := filter good_pt dom_t.

(* closed facts about the table *)
Definition rel_ok : bool :=
  forallb (fun x =>
    forallb (fun y => in_tbl y && zmem x (orb y) &&
                      forallb (fun z => zmem z (orb x)) (orb y)) (orb x) &&
    match case_equivalences fold_t orbit_fuel x with
    | Ok l => zlist_eqb (x :: l) (orb x)
    | _ => false
    end &&
    (0 <=? x) && (x <? max_rune - 1) && in_tbl (lower_t x)) dom_t.
Lemma rel_ok_true : rel_ok = true.
Proof. vm_compute. reflexivity. Qed.

Definition lc_sorted_ok : bool :=
  (fix go (l : list (Z * Z * Z * Z)) (prev : Z) : bool :=
     match l with
     | [] => true
     | (lmin, lmax, _, _) :: t => (prev <? lmin) && (lmin <=? lmax) && go t lmax
     end) lc_table (-1).
Lemma lc_sorted_true : lc_sorted_ok = true.
Proof. vm_compute. reflexivity. Qed.

(* the runes of the table that are not good: U+00D7, U+0130 and U+1E9E (CharClassCi3.bad_pts_eq) *)
Definition bad_pts : list Z := filter (fun x => negb (good_pt x)) dom_t.

Lemma rel_facts x : In x dom_t ->
  (forall y, In y (orb x) -> In y dom_t /\ In x (orb y) /\ forall z, In z (orb y) -> In z (orb x)) /\
  (exists l, case_equivalences fold_t orbit_fuel x = Ok l /\ x :: l = orb x) /\
  0 <= x < max_rune - 1 /\ In (lower_t x) dom_t.
Proof.
  intros Hx. pose proof rel_ok_true as H. unfold rel_ok in H. rewrite forallb_forall in H.
  specialize (H x Hx).
  do 4 (apply andb_prop in H; let H' := fresh "K" in destruct H as [H H']).
  split; [|split; [|split]].
  - intros y Hy. rewrite forallb_forall in H. specialize (H y Hy).
    do 2 (apply andb_prop in H; let H' := fresh "J" in destruct H as [H H']).
    split; [apply zmem_In; rewrite zmem_dom_t; exact H|]. split; [apply zmem_In; exact J0|].
    intros z Hz. rewrite forallb_forall in J. apply zmem_In. apply J. exact Hz.
  - destruct (case_equivalences fold_t orbit_fuel x) as [l| | |]; try discriminate.
    exists l. split; [reflexivity|]. apply zlist_eqb_eq. exact K2.
  - lia.
  - apply zmem_In. rewrite zmem_dom_t. exact K.
Qed.

Lemma orb_refl x : In x (orb x).
Proof. unfold orb, orbit. left. reflexivity. Qed.

Definition lc_keys : list Z := map (fun e : Z * Z * Z * Z => let '(_, lmax, _, _) := e in lmax) lc_table.

Fixpoint incr (prev : Z) (ks : list Z) : bool :=
  match ks with
  | [] => true
  | k :: t => (prev <? k) && incr k t
  end.

Fixpoint count_lt (ks : list Z) (t : Z) : nat :=
  match ks with
  | [] => O
  | k :: ks' => if k <? t then S (count_lt ks' t) else O
  end.

Lemma count_lt_length ks t : (count_lt ks t <= length ks)%nat.
Proof. induction ks as [|k ks IH]; cbn; [lia|]. destruct (k <? t); lia. Qed.

Lemma incr_above p ks : incr p ks = true -> forall i k, nth_error ks i = Some k -> p < k.
Proof.
  revert p. induction ks as [|k0 ks IH]; intros p H i k Hn; [destruct i; discriminate|].
  cbn in H. apply andb_prop in H. destruct H as [H1 H2]. destruct i; cbn in Hn.
  - injection Hn as ->. lia.
  - specialize (IH k0 H2 i k Hn). lia.
Qed.

Lemma incr_nth p ks t : incr p ks = true ->
  forall i k, nth_error ks i = Some k -> (k <? t) = (i <? count_lt ks t)%nat.
Proof.
  revert p. induction ks as [|k0 ks IH]; intros p H i k Hn; [destruct i; discriminate|].
  cbn in H. apply andb_prop in H. destruct H as [H1 H2]. cbn [count_lt].
  destruct i; cbn in Hn.
  - injection Hn as ->. destruct (k <? t); reflexivity.
  - destruct (k0 <? t) eqn:E.
    + rewrite (IH k0 H2 i k Hn). apply eq_true_iff_eq. rewrite !Nat.ltb_lt. lia.
    + pose proof (incr_above k0 ks H2 i k Hn). cbn. lia.
Qed.

(* Only the runes a fold moves contribute to an enumeration of case equivalences: over a range that holds the
   increasing list [pts] and no other rune that [f] moves, the enumeration is the one over [pts].  This keeps
   evaluated test vectors small when a range runs on to U+10FFFF (coqchk evaluates without the bytecode machine). *)
Fixpoint equivalences_of_points (f : Z -> Z) (fuel : nat) (pts : list Z) : res (list (Z * Z)) :=
  match pts with
  | [] => Ok []
  | x :: t =>
    do e <- case_equivalences f fuel x ;
    do r <- equivalences_of_points f fuel t ;
    Ok (map (fun y => (y, y)) e ++ r)
  end.

Lemma equivalences_of_range_points (f : Z -> Z) fuel : fuel <> 0%nat ->
  forall n lo pts, incr (lo - 1) pts = true -> (forall x, In x pts -> x < lo + Z.of_nat n) ->
    (forall x, lo <= x -> ~ In x pts -> f x = x) ->
    equivalences_of_range f fuel lo n = equivalences_of_points f fuel pts.
Proof.
  intros Hfuel. destruct fuel as [|fuel]; [contradiction|].
  assert (Hfix : forall x, f x = x -> case_equivalences f (S fuel) x = Ok []).
  { intros x Hx. unfold case_equivalences. cbn [fold_orbit]. rewrite Hx, Z.eqb_refl. reflexivity. }
  induction n as [|n IH]; intros lo pts Hi Hlt Hid.
  - destruct pts as [|x t]; [reflexivity|]. exfalso.
    cbn [incr] in Hi. apply andb_prop in Hi. specialize (Hlt x (or_introl eq_refl)). lia.
  - cbn [equivalences_of_range]. destruct pts as [|x t].
    + rewrite (Hfix lo) by (apply Hid; [lia|intros []]). cbn [bind].
      rewrite (IH (lo + 1) []); [reflexivity|reflexivity|intros x []|intros x Hx _; apply Hid; [lia|intros []]].
    + cbn [incr] in Hi. apply andb_prop in Hi. destruct Hi as [Hx Ht].
      destruct (Z.eq_dec x lo) as [->|Hne].
      * cbn [equivalences_of_points]. rewrite (IH (lo + 1) t); [reflexivity| |intros y Hy; specialize (Hlt y (or_intror Hy)); lia|].
        -- replace (lo + 1 - 1) with lo by lia. exact Ht.
        -- intros y Hy Hn. apply Hid; [lia|]. intros [<-|Hin]; [lia|contradiction].
      * assert (Hout : forall y, In y (x :: t) -> lo < y).
        { intros y [<-|Hy]; [lia|]. destruct (In_nth_error _ _ Hy) as [i Hi]. pose proof (incr_above x t Ht i y Hi). lia. }
        rewrite (Hfix lo) by (apply Hid; [lia|intros Hin; specialize (Hout lo Hin); lia]). cbn [bind].
        rewrite (IH (lo + 1) (x :: t)); [destruct (equivalences_of_points f (S fuel) (x :: t)); reflexivity| |intros y Hy; specialize (Hlt y Hy); lia|intros y Hy; apply Hid; lia].
        cbn [incr]. rewrite Ht. replace (lo + 1 - 1 <? x) with true by lia. reflexivity.
Qed.

Definition dom_from (lo : Z) : list Z := filter (fun x => lo <=? x) dom_t.

Lemma equivalences_of_range_table fuel lo : fuel <> 0%nat -> 0 <= lo -> incr (lo - 1) (dom_from lo) = true ->
  equivalences_of_range fold_t fuel lo (Z.to_nat (1114111 - lo + 1)) = equivalences_of_points fold_t fuel (dom_from lo).
Proof.
  intros Hfuel Hlo Hi. apply equivalences_of_range_points; [exact Hfuel|exact Hi| |].
  - intros x Hx. apply filter_In in Hx. destruct (rel_facts x (proj1 Hx)) as (_ & _ & Hb & _). unfold max_rune in Hb. lia.
  - intros x Hx Hn. apply fold_t_outside. intros Hd. apply Hn. apply filter_In. split; [exact Hd|lia].
Qed.

Lemma lc_keys_incr : incr (-1) lc_keys = true.
Proof. vm_compute. reflexivity. Qed.

Lemma znth_lc_keys i : znth lc_keys i =
  match znth lc_table i with Some (_, lmax, _, _) => Some lmax | None => None end.
Proof.
  unfold znth. destruct (i <? 0); [reflexivity|]. unfold lc_keys. rewrite nth_error_map.
  destruct (nth_error lc_table (Z.to_nat i)) as [[[[a b] c] d]|]; reflexivity.
Qed.

Lemma lc_bsearch_spec t : forall fuel i imax,
  0 <= i <= Z.of_nat (count_lt lc_keys t) -> Z.of_nat (count_lt lc_keys t) <= imax <= zlen lc_table ->
  (Z.to_nat (imax - i) <= fuel)%nat ->
  lc_bsearch fuel t i imax = Z.of_nat (count_lt lc_keys t).
Proof.
  induction fuel as [|f IH]; intros i imax Hi Hm Hf.
  - cbn [lc_bsearch]. lia.
  - cbn [lc_bsearch]. destruct (i <? imax) eqn:E; [|lia].
    assert (Hmid : i <= (i + imax) / 2 < imax) by (split; [apply Z.div_le_lower_bound|apply Z.div_lt_upper_bound]; lia).
    pose proof (znth_lc_keys ((i + imax) / 2)) as Hk.
    destruct (znth lc_table ((i + imax) / 2)) as [[[[lmin lmax] op] data]|] eqn:En.
    + unfold znth in Hk. replace ((i + imax) / 2 <? 0) with false in Hk by lia.
      pose proof (incr_nth (-1) lc_keys t lc_keys_incr _ lmax Hk) as Hc.
      destruct (lmax <? t) eqn:El.
      * symmetry in Hc. apply Nat.ltb_lt in Hc. apply IH; lia.
      * symmetry in Hc. apply Nat.ltb_ge in Hc. apply IH; lia.
    + unfold znth in En. replace ((i + imax) / 2 <? 0) with false in En by lia.
      apply nth_error_None in En. unfold zlen in Hm. lia.
Qed.

(* entries from the start index on end at or after t *)
Lemma skipn_count_lt_ge : forall (tbl : list (Z * Z * Z * Z)) p t,
  incr p (map (fun e : Z * Z * Z * Z => let '(_, lmax, _, _) := e in lmax) tbl) = true ->
  forall e, In e (skipn (count_lt (map (fun e : Z * Z * Z * Z => let '(_, lmax, _, _) := e in lmax) tbl) t) tbl) ->
            let '(_, lmax, _, _) := e in t <= lmax.
Proof.
  induction tbl as [|[[[lmin lmax] op] data] tbl IH]; intros p t Hi e He; [destruct He|].
  cbn [map incr] in Hi. apply andb_prop in Hi. destruct Hi as [H1 H2].
  cbn [map count_lt] in He. destruct (lmax <? t) eqn:E.
  - cbn [skipn] in He. apply (IH lmax t H2 e He).
  - cbn [skipn] in He. destruct He as [<-|He]; [lia|].
    (* later entries have larger lmax *)
    destruct e as [[[lmin' lmax'] op'] data'].
    apply In_nth_error in He. destruct He as [n Hn].
    assert (Hk : nth_error (map (fun e : Z * Z * Z * Z => let '(_, lmax, _, _) := e in lmax) tbl) n = Some lmax')
      by (rewrite nth_error_map, Hn; reflexivity).
    pose proof (incr_above lmax _ H2 n lmax' Hk). lia.
Qed.

Lemma in_skipn' {A} n : forall (l : list A) x, In x (skipn n l) -> In x l.
Proof.
  induction n as [|n IH]; intros l x H; [exact H|]. destruct l as [|h t]; [destruct H|].
  right. apply IH. exact H.
Qed.

Definition entry_covers (e : Z * Z * Z * Z) (x : Z) : Prop := let '(lmin, lmax, _, _) := e in lmin <= x <= lmax.
Definition entry_op (e : Z * Z * Z * Z) (x : Z) : Z := let '(_, _, op, data) := e in op_apply op data x.

(* every range lc_scan emits comes from an entry overlapping [a, b] and is the image of the overlap's endpoints *)
Lemma lc_scan_shape a b : a <= b -> forall tbl,
  (forall e, In e tbl -> let '(_, lmax, _, _) := e in a <= lmax) ->
  (forall e, In e tbl -> let '(lmin, lmax, _, _) := e in lmin <= lmax) ->
  forall p q, In (p, q) (lc_scan tbl a b) ->
    exists e mn mx, In e tbl /\ entry_covers e mn /\ entry_covers e mx /\ a <= mn /\ mn <= mx /\ mx <= b /\
                    p = entry_op e mn /\ q = entry_op e mx.
Proof.
  intros Hab tbl. induction tbl as [|[[[lmin lmax] op] data] tbl IH]; intros Hge Hle p q Hin; [destruct Hin|].
  cbn [lc_scan] in Hin.
  pose proof (Hge _ (or_introl eq_refl)) as G1. pose proof (Hle _ (or_introl eq_refl)) as G2. cbn in G1, G2.
  destruct (lmin >? b) eqn:E0; [destruct Hin|].
  set (mn := if lmin <? a then a else lmin) in *. set (mx := if lmax >? b then b else lmax) in *.
  assert (Hmn : a <= mn /\ lmin <= mn <= lmax /\ mn <= mx /\ mx <= b /\ lmin <= mx <= lmax).
  { unfold mn, mx. destruct (lmin <? a) eqn:E1, (lmax >? b) eqn:E2; lia. }
  assert (Hsh : exists p' q', (p', q') = (op_apply op data mn, op_apply op data mx) /\
                In (p, q) ((if (p' <? a) || (q' >? b) then [(p', q')] else []) ++ lc_scan tbl a b)).
  { unfold op_apply.
    destruct (op =? 0); [|destruct (op =? 1); [|destruct (op =? 2); [|destruct (op =? 3)]]];
      eexists; eexists; (split; [reflexivity|exact Hin]). }
  destruct Hsh as (p' & q' & Hpq & Hin'). clear Hin.
  apply in_app_or in Hin'. destruct Hin' as [Hin|Hin].
  - exists (lmin, lmax, op, data), mn, mx. split; [left; reflexivity|].
    destruct ((p' <? a) || (q' >? b)); [|destruct Hin].
    destruct Hin as [Hin|[]]. rewrite Hpq in Hin. injection Hin as <- <-.
    cbn [entry_covers entry_op]. repeat split; lia.
  - destruct (IH (fun e He => Hge e (or_intror He)) (fun e He => Hle e (or_intror He)) p q Hin)
      as (e & mn' & mx' & H1 & H2).
    exists e, mn', mx'. split; [right; exact H1|exact H2].
Qed.

Lemma lc_table_wf : forall e, In e lc_table -> let '(lmin, lmax, _, _) := e in lmin <= lmax.
Proof.
  assert (H : forallb (fun e : Z * Z * Z * Z => let '(lmin, lmax, _, _) := e in lmin <=? lmax) lc_table = true)
    by (vm_compute; reflexivity).
  rewrite forallb_forall in H. intros [[[lmin lmax] op] data] He. specialize (H _ He). cbn in H. lia.
Qed.

Lemma lowercase_range_shape a b p q : a <= b -> In (p, q) (lowercase_range a b) ->
  exists e mn mx, In e lc_table /\ entry_covers e mn /\ entry_covers e mx /\ a <= mn /\ mn <= mx /\ mx <= b /\
                  p = entry_op e mn /\ q = entry_op e mx.
Proof.
  unfold lowercase_range. intros Hab Hin.
  pose proof (count_lt_length lc_keys a) as Hl.
  assert (Hlen : length lc_keys = length lc_table) by (unfold lc_keys; apply map_length).
  rewrite (lc_bsearch_spec a) in Hin by (unfold zlen; lia).
  rewrite Nat2Z.id in Hin.
  destruct (lc_scan_shape a b Hab (skipn (count_lt lc_keys a) lc_table)) with (p := p) (q := q)
    as (e & mn & mx & H1 & H2); auto.
  - intros e He. apply (skipn_count_lt_ge lc_table (-1) a lc_keys_incr e He).
  - intros e He. apply lc_table_wf. eapply in_skipn'; eauto.
  - exists e, mn, mx. split; [eapply in_skipn'; eauto|exact H2].
Qed.

(* C02 — a candidate answered by a prefilter closure is the byte offset of a rune at or after the
   start (so the validation in findStringPrefixCandidate never rejects it, and the unvalidated use
   in MatchString / matchStringAt decodes it to a rune index). *)
From Verif Require Import Base.Prelude Base.Utf8 Gen.CodeGen Model.Offsets Model.Entry Proofs.Utf8Proofs
  Proofs.EntryBase Proofs.EntryFilter Proofs.EntryProofs.
From Coq Require Import ZifyBool.
Ltac Zify.zify_post_hook ::= Z.div_mod_to_equations.

Theorem enf_candidate_on_boundary f : enf_ok f ->
  forall (b : list Z) (k0 : nat) (c : Z), (k0 <= length (decode b))%nat ->
    en_run_filter f b (Z.of_nat (boundary b k0)) = Ok (c, true) -> enb_at_boundary b k0 c.
Proof.
  intros Hok b k0 c Hk0 Hr. destruct (enf_filter_spec f Hok b k0 Hk0) as (c' & ok & Hr' & _ & HC).
  rewrite Hr in Hr'. injection Hr' as <- <-. exact (proj1 (HC eq_refl)).
Qed.

(* For every program data: when newStringPrefixFilter builds a filter, every candidate that filter
   answers from the byte offset of rune k0 is the byte offset of a rune k' >= k0. *)
Theorem enf_constructor_candidates_on_boundaries c f :
  en_new_filter c = Ok (Some f) ->
  forall (b : list Z) (k0 : nat) (cand : Z), (k0 <= length (decode b))%nat ->
    en_run_filter f b (Z.of_nat (boundary b k0)) = Ok (cand, true) ->
    exists k', (k0 <= k' <= length (decode b))%nat /\ cand = Z.of_nat (boundary b k').
Proof.
  intros Hc. destruct (enp_new_filter_inv c f Hc) as (o & Ho & Hr & Hs & Hg & Hsel).
  exact (enf_candidate_on_boundary f (proj1 (enp_select_ok o f (enp_guard_of o Hg) Hsel))).
Qed.

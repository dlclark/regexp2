(* C06: the compat adapter's iteration around regexp2's search equals Go's allMatches loop around
   ANY single-match function M that the search bridges to. *)
From Verif Require Import Base.Prelude Model.Iter Proofs.IterProofs.
From Coq Require Import ZifyBool.

Section CompatProofs.
  Variable len : Z.                           (* runes *)
  Variable attempt : Z -> Z -> option mt.
  Variable off : Z -> Z.                      (* rune index -> byte offset *)
  Variable M : Z -> option (list Z).          (* Go: doExecute at byte position *)
  Variable width : Z -> Z.                    (* Go: step(pos) width *)
  Variable end_ : Z.                          (* bytes *)
  Variable num_subexp : Z.

  Hypothesis Hlen : 0 <= len.
  Hypothesis Hfw : forward false len attempt.
  Hypothesis HnoG : no_G attempt.

  (* group 0 is the match itself and there are 1+numSubexp groups *)
  Definition groups_ok (m : mt) : Prop :=
    (exists tl, m_groups m = Some (m_index m, m_length m) :: tl) /\
    Z.of_nat (length (m_groups m)) = 1 + num_subexp.
  Hypothesis Hgroups : forall ts p m, 0 <= p <= len -> attempt ts p = Some m -> groups_ok m.

  (* the byte offsets of the rune boundaries *)
  Hypothesis Hoff0 : off 0 = 0.
  Hypothesis Hoff_mono : forall i j, 0 <= i -> i < j -> j <= len -> off i < off j.
  Hypothesis Hoff_end : off len = end_.
  (* Go's step: the width of the rune starting at a boundary, 0 at the end of the text *)
  Hypothesis Hwidth : forall i, 0 <= i < len -> width (off i) = off (i + 1) - off i.
  Hypothesis Hwidth_end : width (off len) <= 0.

  Notation mi := (match_indexes off).
  (* regexp2's fresh search from rune index i *)
  Definition S (i : Z) : option mt := scan_p false len attempt i (-1).

  (* bridge: at every rune boundary, Go's single-match function is regexp2's fresh search, in bytes *)
  Definition bridge : Prop :=
    forall i, 0 <= i <= len -> M (off i) = option_map mi (S i).
  Hypothesis Hbridge : bridge.

  Notation match_chain := (match_chain false len attempt).
  Notation wfm := (wfm false len).
  Notation next_p := (next_p false len attempt).
  Notation dist := (dist false len).
  Notation first_hit := (first_hit false attempt).
  Notation edge := (fun m : mt => m_index m + m_length m).

  Lemma off_le i j : 0 <= i -> i <= j -> j <= len -> off i <= off j.
  Proof.
    intros H1 H2 H3. destruct (Z.eq_dec i j) as [->|Hne]; [lia|].
    pose proof (Hoff_mono i j). lia.
  Qed.
  Lemma off_nonneg i : 0 <= i <= len -> 0 <= off i.
  Proof. intros H. rewrite <- Hoff0. apply off_le; lia. Qed.
  Lemma off_inj i j : 0 <= i <= len -> 0 <= j <= len -> off i = off j -> i = j.
  Proof.
    intros Hi Hj He. destruct (Z.lt_trichotomy i j) as [H|[H|H]]; [|exact H|].
    - pose proof (Hoff_mono i j). lia.
    - pose proof (Hoff_mono j i). lia.
  Qed.
  Lemma len_le_end : len <= end_.
  Proof.
    rewrite <- Hoff_end.
    assert (forall k : nat, Z.of_nat k <= len -> Z.of_nat k <= off (Z.of_nat k)) as H.
    { induction k as [|k IH]; intros Hk.
      - cbn. rewrite Hoff0. lia.
      - pose proof (Hoff_mono (Z.of_nat k) (Z.of_nat (Datatypes.S k))). lia. }
    specialize (H (Z.to_nat len)). rewrite Z2Nat.id in H by lia. apply H. lia.
  Qed.

  Lemma S_unfold i : S i = first_hit (dist i) i i.
  Proof. reflexivity. Qed.

  Lemma wfm_ltr m : wfm m -> 0 <= m_index m /\ 0 <= m_length m /\ m_textpos m = m_index m + m_length m /\ m_index m + m_length m <= len.
  Proof. intros [Hr (Hl & Ht & Hd)]. unfold m_start in *. cbn in Hr, Hd. destruct Hd as [Hd1 Hd2]. repeat split; lia. Qed.

  (* a fresh search returns a match at or after i *)
  Lemma S_some i m : 0 <= i <= len -> S i = Some m -> wfm m /\ i <= m_index m /\ attempted len attempt m.
  Proof.
    intros Hi H. pose proof H as H'. unfold S in H.
    apply (scan_p_wf false len attempt Hfw) in H; [|exact Hi]. destruct H as [Hw Hd].
    split; [exact Hw|]. split.
    - change (bump false) with 1 in Hd. change (m_start false m) with (m_index m) in Hd. change (-1 =? 0) with false in Hd. cbv beta iota in Hd. lia.
    - eapply scan_p_attempted; eauto.
  Qed.

  (* leftmost coherence: searching from anywhere between i and the match found from i finds the same match *)
  Lemma S_coh_step i m : 0 <= i <= len -> S i = Some m -> i < m_index m -> S (i + 1) = Some m.
  Proof.
    intros Hi H Hlt. destruct (S_some _ _ Hi H) as (Hw & _ & _).
    destruct (wfm_ltr _ Hw) as (_ & Hl0 & _ & Hle).
    rewrite S_unfold in *.
    assert (dist i = Datatypes.S (dist (i + 1))) as Hd. { unfold IterProofs.dist. lia. }
    rewrite Hd in H. cbn [IterProofs.first_hit] in H.
    destruct (attempt i i) as [m0|] eqn:Ea.
    - inv H. pose proof (Hfw _ _ _ Hi Ea) as Hs. unfold shaped in Hs. cbn in Hs. lia.
    - unfold bump in H. cbn in H. rewrite <- H. apply first_hit_noG. exact HnoG.
  Qed.

  Lemma S_coh : forall (k : nat) i m, 0 <= i <= len -> S i = Some m -> i + Z.of_nat k <= m_index m ->
    S (i + Z.of_nat k) = Some m.
  Proof.
    induction k as [|k IH]; intros i m Hi H Hk.
    - replace (i + Z.of_nat 0) with i by lia. exact H.
    - replace (i + Z.of_nat (Datatypes.S k)) with ((i + 1) + Z.of_nat k) by lia.
      destruct (S_some _ _ Hi H) as (Hw & _ & _). destruct (wfm_ltr _ Hw) as (_ & Hl0 & _ & Hle).
      apply IH; [lia | apply S_coh_step; [exact Hi | exact H | lia] | lia].
  Qed.

  Lemma S_coh' i j m : 0 <= i <= len -> S i = Some m -> i <= j <= m_index m -> S j = Some m.
  Proof.
    intros Hi H Hj. replace j with (i + Z.of_nat (Z.to_nat (j - i))) by lia.
    apply S_coh; [exact Hi | exact H | lia].
  Qed.

  (* what FindNextMatch computes, in terms of fresh searches *)
  Lemma next_p_S m : wfm m ->
    next_p m = if m_length m =? 0
               then (if m_index m =? len then None else S (m_index m + 1))
               else S (m_index m + m_length m).
  Proof.
    intros Hw. destruct (wfm_ltr _ Hw) as (Hi & Hl & Ht & Hle).
    unfold IterProofs.next_p, scan_p, S, scan_p. cbn [stoppos bump].
    destruct (m_length m =? 0) eqn:El.
    - assert (m_textpos m = m_index m) as -> by lia.
      destruct (m_index m =? len); [reflexivity|].
      assert (-1 =? 0 = false) as -> by lia. apply first_hit_noG. exact HnoG.
    - assert (-1 =? 0 = false) as -> by lia. rewrite Ht. reflexivity.
  Qed.

  (* shape of the index list of a match *)
  Lemma mi_length m : length (mi m) = (2 * length (m_groups m))%nat.
  Proof.
    unfold match_indexes. induction (m_groups m) as [|g gs IH]; [reflexivity|].
    cbn [flat_map]. rewrite app_length, IH. destruct g as [[i l]|]; cbn; lia.
  Qed.

  Lemma mi_shape m : groups_ok m ->
    exists tl, mi m = off (m_index m) :: off (m_index m + m_length m) :: tl.
  Proof.
    intros [[tl Hg] _]. unfold match_indexes. rewrite Hg. cbn [flat_map capture_index].
    eexists. cbn [app]. f_equal. f_equal. lia.
  Qed.

  Lemma pad_mi m : groups_ok m -> Go.pad num_subexp (mi m) = mi m.
  Proof.
    intros [_ Hn]. unfold Go.pad, zlen. rewrite mi_length.
    replace (Z.to_nat ((1 + num_subexp) * 2 - Z.of_nat (2 * length (m_groups m)))) with O by lia.
    reflexivity.
  Qed.

  Definition offm (pe : Z) : Z := if pe <? 0 then -1 else off pe.

  Lemma offm_off i : 0 <= i -> offm i = off i.
  Proof. intros H. unfold offm. assert (i <? 0 = false) as -> by lia. reflexivity. Qed.

  Lemma off_eqb_offm i pe : 0 <= i <= len -> -1 <= pe <= i -> (off i =? offm pe) = (i =? pe).
  Proof.
    intros Hi Hpe. unfold offm. destruct (pe <? 0) eqn:Ep.
    - pose proof (off_nonneg i Hi). lia.
    - destruct (Z.eq_dec i pe) as [->|Hne]; [lia|].
      assert (off i <> off pe). { intros He. apply off_inj in He; lia. } lia.
  Qed.

  (* Go's step over the rune at boundary i: to the next boundary, or out of the text *)
  Definition adv (i : Z) : Z := if i =? len then end_ + 1 else off (i + 1).

  Lemma width_adv i : 0 <= i <= len ->
    (let w := width (off i) in if w >? 0 then off i + w else end_ + 1) = adv i.
  Proof.
    intros Hi. unfold adv. cbv zeta. destruct (i =? len) eqn:E.
    - assert (i = len) as -> by lia.
      assert (width (off len) >? 0 = false) as -> by (pose proof Hwidth_end; lia). reflexivity.
    - rewrite (Hwidth i) by lia. pose proof (Hoff_mono i (i + 1)).
      assert (off (i + 1) - off i >? 0 = true) as -> by lia. lia.
  Qed.

  Notation go_loop := (Go.all_matches_loop M width end_ num_subexp).

  Lemma go_stop f c p N : go_loop f (end_ + 1) c p N = Ok [].
  Proof.
    destruct f; cbn [Go.all_matches_loop];
      (assert ((c <? N) && (end_ + 1 <=? end_) = false) as -> by lia); reflexivity.
  Qed.

  (* one turn of Go's loop at a rune boundary where the search finds m *)
  Lemma go_turn f i cnt pme N m :
    0 <= i <= len -> S i = Some m -> cnt < N ->
    go_loop (Datatypes.S f) (off i) cnt pme N =
      let m0 := off (m_index m) in
      let m1 := off (m_index m + m_length m) in
      let accept := if m1 =? off i then negb (m0 =? pme) else true in
      let pos' := if m1 =? off i then adv i else m1 in
      if accept then do rest <- go_loop f pos' (cnt + 1) m1 N ; Ok (mi m :: rest)
      else go_loop f pos' cnt m1 N.
  Proof.
    intros Hi HS Hc. destruct (S_some _ _ Hi HS) as (Hw & Hge & (ts & p & Hp & Ha)).
    pose proof (Hgroups _ _ _ Hp Ha) as Hg.
    rewrite <- (width_adv i Hi). cbn [Go.all_matches_loop].
    assert (off i <= end_) as Hoe. { rewrite <- Hoff_end. apply off_le; lia. }
    assert ((cnt <? N) && (off i <=? end_) = true) as -> by lia.
    rewrite (Hbridge i Hi), HS. cbn [option_map].
    rewrite (pad_mi m Hg).
    destruct (mi_shape m Hg) as [tl Hm]. rewrite Hm.
    change (znth (off (m_index m) :: off (m_index m + m_length m) :: tl) 0) with (Some (off (m_index m))).
    change (znth (off (m_index m) :: off (m_index m + m_length m) :: tl) 1) with (Some (off (m_index m + m_length m))).
    reflexivity.
  Qed.

  Lemma chain_from_none ms : match_chain None ms -> ms = [].
  Proof. intros H. inversion H. reflexivity. Qed.

  (* the simulation: Go's loop from byte position off(i) delivers exactly what the adapter's walk
     of the FindNextMatch chain from S(i) accepts *)
  Lemma go_sim : forall ms fuel i pe cnt N,
    0 <= i <= len -> -1 <= pe <= i -> 0 <= cnt <= N ->
    match_chain (S i) ms ->
    (2 * length ms + 1 < fuel)%nat ->
    go_loop fuel (off i) cnt (offm pe) N = Ok (map mi (acc_list edge ms pe (N - cnt))).
  Proof.
    induction ms as [|m ms IH]; intros fuel i pe cnt N Hi Hpe Hcnt Hc Hf.
    - apply chain_inv_nil in Hc.
      assert (acc_list edge [] pe (N - cnt) = []) as ->. { cbn. destruct (N - cnt =? 0); reflexivity. }
      destruct fuel as [|f]; [lia|]. cbn [Go.all_matches_loop map].
      destruct ((cnt <? N) && (off i <=? end_)); [|reflexivity].
      rewrite (Hbridge i Hi), Hc. reflexivity.
    - apply chain_inv_cons in Hc. destruct Hc as (HS & Hw & Hch).
      destruct (S_some _ _ Hi HS) as (_ & Hge & _).
      destruct (wfm_ltr _ Hw) as (Hi0 & Hl0 & _ & Hle).
      rewrite (next_p_S _ Hw) in Hch. cbn [length] in Hf.
      (* after an empty match at j both sides move on by one rune, or stop at the end of the text *)
      assert (forall f c j, 0 <= j <= len -> 0 <= c <= N ->
                match_chain (if j =? len then None else S (j + 1)) ms -> (2 * length ms + 1 < f)%nat ->
                go_loop f (adv j) c (off j) N = Ok (map mi (acc_list edge ms j (N - c)))) as Hcont.
      { intros f c j Hj Hcj Hchj Hfj. unfold adv. destruct (j =? len) eqn:Ej.
        - apply chain_from_none in Hchj. subst ms. rewrite go_stop.
          cbn [IterProofs.acc_list]. destruct (N - c =? 0); reflexivity.
        - rewrite <- (offm_off j) by lia. apply IH; [lia | lia | lia | exact Hchj | exact Hfj]. }
      cbn [IterProofs.acc_list].
      destruct (N - cnt =? 0) eqn:En.
      { (* limit reached *)
        destruct fuel as [|f]; [lia|]. cbn [Go.all_matches_loop map].
        assert ((cnt <? N) && (off i <=? end_) = false) as -> by lia. reflexivity. }
      assert (cnt < N) as Hlt by lia. assert (N - cnt >? 0 = true) as -> by lia.
      destruct fuel as [|f]; [lia|].
      rewrite (go_turn f i cnt (offm pe) N m Hi HS Hlt). cbv zeta.
      set (e := m_index m + m_length m) in *.
      destruct (Z.eq_dec e i) as [Hei|Hei].
      + (* an empty match right at the search position: accepted unless the previous match ended here *)
        assert (m_index m = i) as Hmi by lia. assert (m_length m =? 0 = true) as El by lia.
        rewrite El, Hmi in Hch. unfold accept. rewrite Hei, Hmi, El, Z.eqb_refl, off_eqb_offm by lia.
        cbn [negb orb]. destruct (negb (i =? pe)) eqn:Eacc.
        * rewrite Hcont by (try exact Hch; lia). cbn [bind map].
          replace (N - (cnt + 1)) with (N - cnt - 1) by lia. reflexivity.
        * assert (pe = i) as -> by lia. apply Hcont; [lia | lia | exact Hch | lia].
      + (* the match ends beyond i: delivered *)
        assert (off e =? off i = false) as ->. { pose proof (Hoff_mono i e). lia. }
        assert (accept m pe = true) as ->.
        { unfold accept. destruct (m_length m =? 0) eqn:El; [|reflexivity].
          assert (m_index m =? pe = false) as -> by lia. reflexivity. }
        replace (N - cnt - 1) with (N - (cnt + 1)) by lia.
        enough (go_loop f (off e) (cnt + 1) (off e) N = Ok (map mi (acc_list edge ms e (N - (cnt + 1))))) as ->
          by reflexivity.
        destruct (m_length m =? 0) eqn:El.
        * (* empty: Go finds it again from its own position and rejects it *)
          assert (m_index m = e) as Hme by lia. rewrite Hme in Hch.
          destruct (cnt + 1 <? N) eqn:Ec2.
          2:{ assert (N - (cnt + 1) = 0) as -> by lia. rewrite acc_list_0.
              destruct f; cbn [Go.all_matches_loop]; rewrite Ec2; reflexivity. }
          destruct f as [|f']; [lia|].
          assert (S e = Some m) as HSe. { apply (S_coh' i e m Hi HS). lia. }
          rewrite (go_turn f' e (cnt + 1) (off e) N m) by (try exact HSe; lia). cbv zeta.
          fold e. rewrite Hme, !Z.eqb_refl. cbn [negb].
          apply Hcont; [lia | lia | exact Hch | lia].
        * pose proof (IH f e e (cnt + 1) N) as IHe. rewrite offm_off in IHe by lia.
          apply IHe; [lia | lia | lia | exact Hch | lia].
  Qed.

  (* the string entry points start from the prefilter's candidate; that this does not change the
     first match is C03's statement, taken here as a hypothesis on the candidate *)
  Definition cand_ok (cand : option Z) : Prop :=
    match cand with
    | None => S 0 = None
    | Some r => let r := if r <? 0 then 0 else r in 0 <= r <= len /\ S r = S 0
    end.

  Lemma find_string_match_ok cand : cand_ok cand ->
    find_string_match false len attempt (dflt_fuel len) cand = Ok (S 0).
  Proof.
    unfold cand_ok, find_string_match. destruct cand as [r|].
    - intros [Hr Hs]. rewrite (run_ok false len attempt) by exact Hr. unfold S in Hs. rewrite Hs. reflexivity.
    - intros H. rewrite H. reflexivity.
  Qed.

  Lemma chain_S0 : exists ms, match_chain (S 0) ms /\ (length ms <= Datatypes.S (Z.to_nat len))%nat /\
    iteration false len attempt (dflt_fuel len) (dflt_fuel len) 0 = Ok ms.
  Proof.
    destruct (iteration_ok false len attempt Hfw 0) as (ms & Hi & Hc & Hl); [lia|].
    exists ms. repeat split; assumption.
  Qed.

  Lemma chain_groups ms : match_chain (S 0) ms -> Forall groups_ok ms.
  Proof.
    intros Hc. apply (chain_attempted false len attempt) in Hc.
    - eapply Forall_impl; [|exact Hc]. intros m (ts & p & Hp & Ha). eapply Hgroups; eauto.
    - intros m Hm. eapply scan_p_attempted; [ | exact Hm]. lia.
  Qed.

  Lemma go_all_from_chain ms N : match_chain (S 0) ms -> 0 <= N ->
    (length ms <= Datatypes.S (Z.to_nat len))%nat ->
    Go.all_matches M width end_ num_subexp (Go.dflt_fuel end_) N = Ok (map mi (acc_list edge ms (-1) N)).
  Proof.
    intros Hc HN Hl. unfold Go.all_matches.
    replace 0 with (off 0) at 1 by exact Hoff0.
    change (-1) with (offm (-1)) at 1.
    rewrite (go_sim ms); [| lia | lia | lia | exact Hc |].
    - replace (N - 0) with N by lia. reflexivity.
    - pose proof len_le_end. unfold Go.dflt_fuel. lia.
  Qed.

  Lemma acc_unlimited ms pe n : n < 0 -> (length ms <= Datatypes.S (Z.to_nat len))%nat ->
    acc_list edge ms pe (end_ + 1) = acc_list edge ms pe n.
  Proof.
    intros Hn Hl. pose proof len_le_end.
    rewrite (acc_list_big edge ms pe (end_ + 1)) by lia.
    clear Hl. revert pe. induction ms as [|m ms IH]; intros pe; cbn [IterProofs.acc_list].
    - assert (n =? 0 = false) as -> by lia. reflexivity.
    - assert (n =? 0 = false) as -> by lia. assert (n >? 0 = false) as -> by lia. cbn.
      destruct (accept m pe); [f_equal|]; apply IH.
  Qed.

  (* Go's loop under the limit FindAll* passes: n < 0 means len+1, which no chain reaches *)
  Lemma go_all_limit ms n : match_chain (S 0) ms -> (length ms <= Datatypes.S (Z.to_nat len))%nat ->
    Go.all_matches M width end_ num_subexp (Go.dflt_fuel end_) (if n <? 0 then end_ + 1 else n)
    = Ok (map mi (acc_list edge ms (-1) n)).
  Proof.
    intros Hc Hl. pose proof len_le_end as Hle. destruct (n <? 0) eqn:Eneg.
    - rewrite (go_all_from_chain ms (end_ + 1) Hc) by (try lia; exact Hl).
      rewrite (acc_unlimited ms (-1) n) by (try lia; exact Hl). reflexivity.
    - apply go_all_from_chain; [exact Hc | lia | exact Hl].
  Qed.

  (* compat_find_all_eq_go, Submatch-index form (forEachStringMatch) *)
  Lemma compat_find_all_submatch_eq cand n : cand_ok cand ->
    compat_find_all_string_submatch_index false len attempt off (dflt_fuel len) (dflt_fuel len) cand n
    = Go.find_all_submatch_index M width end_ num_subexp (Go.dflt_fuel end_) n.
  Proof.
    intros Hcand. destruct chain_S0 as (ms & Hc & Hl & _).
    unfold compat_find_all_string_submatch_index, Go.find_all_submatch_index, for_each_string_match.
    rewrite (go_all_limit ms n Hc Hl). cbn [bind].
    destruct (n =? 0) eqn:En.
    - assert (n = 0) as -> by lia. rewrite acc_list_0. reflexivity.
    - rewrite (find_string_match_ok cand Hcand). cbn [bind].
      rewrite (for_each_loop_chain false len attempt ms) by (try exact Hc; unfold dflt_fuel; lia).
      reflexivity.
  Qed.

  Lemma slice_of_list_map {A B} (f : A -> B) l : slice_of_list (map f l) = option_map (map f) (slice_of_list l).
  Proof. destruct l; reflexivity. Qed.

  Lemma edge_textpos ms : Forall wfm ms -> Forall (fun m => m_textpos m = m_index m + m_length m) ms.
  Proof. intros H. eapply Forall_impl; [|exact H]. intros m Hw. destruct (wfm_ltr _ Hw) as (_ & _ & Ht & _). exact Ht. Qed.

  (* what the regexp2 find-all loop accepts, from the chain *)
  Lemma find_all_loop_S0 ms n : match_chain (S 0) ms -> (length ms <= Datatypes.S (Z.to_nat len))%nat ->
    find_all_loop false len attempt (dflt_fuel len) (dflt_fuel len) 0 (-1) (-1) n = Ok (acc_list edge ms (-1) n).
  Proof.
    intros Hc Hl.
    rewrite (find_all_loop_chain false len attempt ms) by (try exact Hc; unfold dflt_fuel; lia).
    f_equal. apply acc_list_ext. apply edge_textpos. eapply chain_wf; eauto.
  Qed.

  Lemma mi_pair m : groups_ok m -> (nth 0 (mi m) 0, nth 1 (mi m) 0) = (off (m_index m), off (m_index m + m_length m)).
  Proof. intros Hg. destruct (mi_shape m Hg) as [tl ->]. reflexivity. Qed.

  Lemma acc_list_incl e : forall ms pe n (P : mt -> Prop), Forall P ms -> Forall P (acc_list e ms pe n).
  Proof.
    induction ms as [|m ms IH]; intros pe n P H; cbn [IterProofs.acc_list].
    - destruct (n =? 0); constructor.
    - inv H. destruct (n =? 0); [constructor|]. destruct (accept m pe); [constructor; [assumption|]|]; apply IH; assumption.
  Qed.

  (* compat_find_all_eq_go, Index form through FindAllRunesIndex (FindAllIndex / FindAll) *)
  Lemma compat_find_all_index_eq n :
    compat_find_all_index false len attempt off (dflt_fuel len) (dflt_fuel len) n
    = Go.find_all_index M width end_ num_subexp (Go.dflt_fuel end_) n.
  Proof.
    destruct chain_S0 as (ms & Hc & Hl & _).
    pose proof (chain_groups ms Hc) as Hg.
    unfold compat_find_all_index, find_all_runes_index, Go.find_all_index, find_all_runes_index_from.
    rewrite (go_all_limit ms n Hc Hl). cbn [bind].
    destruct (n =? 0) eqn:En.
    - assert (n = 0) as -> by lia. rewrite acc_list_0. reflexivity.
    - rewrite (find_all_loop_S0 ms n Hc Hl). cbn [bind].
      assert (forall l, Forall groups_ok l ->
                map (fun a => (nth 0 a 0, nth 1 a 0)) (map mi l)
                = map (fun p => (off (fst p), off (snd p))) (map (fun m => (m_index m, m_index m + m_length m)) l)) as Hmap.
      { induction l as [|x l IHl]; intros Hf; [reflexivity|]. inv Hf. cbn [map]. rewrite mi_pair by assumption.
        cbn [fst snd]. f_equal. apply IHl. assumption. }
      rewrite Hmap by (apply acc_list_incl; exact Hg).
      destruct (acc_list edge ms (-1) n); reflexivity.
  Qed.

  (* compat FindAllStringIndex: regexp2.FindAllStringIndex with the byte mapper, from the prefilter candidate *)
  Lemma compat_find_all_string_index_eq cand n : cand_ok cand ->
    compat_find_all_string_index false len attempt (dflt_fuel len) (dflt_fuel len) cand off n
    = Go.find_all_index M width end_ num_subexp (Go.dflt_fuel end_) n.
  Proof.
    intros Hcand. destruct chain_S0 as (ms & Hc & Hl & _).
    pose proof (chain_groups ms Hc) as Hg.
    rewrite <- compat_find_all_index_eq.
    unfold compat_find_all_string_index, find_all_string_index, compat_find_all_index, find_all_runes_index, find_all_runes_index_from.
    destruct (n =? 0) eqn:En; [reflexivity|].
    cbn [bind]. rewrite (find_all_loop_S0 ms n Hc Hl). cbn [bind].
    assert (forall l : list mt, slice_of_list (map (fun m => (off (m_index m), off (m_index m + m_length m))) l)
            = match slice_of_list (map (fun m => (m_index m, m_index m + m_length m)) l) with
              | None => None | Some l0 => Some (map (fun p => (off (fst p), off (snd p))) l0) end) as Hsl.
    { intros l. destruct l as [|x l]; [reflexivity|]. cbn [map slice_of_list fst snd]. rewrite map_map. reflexivity. }
    unfold cand_ok in Hcand. destruct cand as [r|].
    - destruct Hcand as [Hr HS].
      rewrite (find_all_loop_chain false len attempt ms) by (try exact Hr; try (unfold dflt_fuel; lia); unfold S in HS; rewrite HS; exact Hc).
      cbn [bind]. rewrite (acc_list_ext m_textpos edge) by (apply edge_textpos; eapply chain_wf; eauto).
      apply f_equal. apply Hsl.
    - (* prefilter rejected: there is no match at all *)
      rewrite Hcand in Hc. apply chain_from_none in Hc. subst ms.
      cbn [IterProofs.acc_list]. destruct (n =? 0); reflexivity.
  Qed.

  Lemma compat_find_submatch_eq cand : cand_ok cand ->
    compat_find_string_submatch_index false len attempt off (dflt_fuel len) cand
    = Ok (Go.find_submatch_index M num_subexp).
  Proof.
    intros Hcand. unfold compat_find_string_submatch_index, Go.find_submatch_index.
    rewrite (find_string_match_ok cand Hcand). cbn [bind].
    replace (M 0) with (M (off 0)) by (rewrite Hoff0; reflexivity). rewrite (Hbridge 0) by lia.
    destruct (S 0) as [m|] eqn:E; [|reflexivity]. cbn [option_map].
    destruct (S_some 0 m) as (_ & _ & (ts & p & Hp & Ha)); [lia | exact E |].
    rewrite (pad_mi m); [reflexivity | eapply Hgroups; eauto].
  Qed.

  Lemma compat_find_index_eq cand : cand_ok cand ->
    compat_find_string_index false len attempt off (dflt_fuel len) cand
    = Ok (Go.find_index M).
  Proof.
    intros Hcand. unfold compat_find_string_index, Go.find_index.
    rewrite (find_string_match_ok cand Hcand). cbn [bind].
    replace (M 0) with (M (off 0)) by (rewrite Hoff0; reflexivity). rewrite (Hbridge 0) by lia.
    destruct (S 0) as [m|] eqn:E; [|reflexivity]. cbn [option_map].
    destruct (S_some 0 m) as (_ & _ & (ts & p & Hp & Ha)); [lia | exact E |].
    destruct (mi_shape m) as [tl Hm]; [eapply Hgroups; eauto|]. rewrite Hm. cbn [firstn capture_index].
    replace (off (m_index m) + (off (m_index m + m_length m) - off (m_index m))) with (off (m_index m + m_length m)) by lia. reflexivity.
  Qed.

End CompatProofs.

(* compat_shapes: −1 pairs exactly for groups without a capture, byte pairs otherwise *)
Section Shapes.
  Variable off : Z -> Z.
  Hypothesis Hoff_nonneg : forall i, 0 <= off i.

  Lemma match_indexes_shape m :
    length (match_indexes off m) = (2 * length (m_groups m))%nat /\
    forall k g, nth_error (m_groups m) k = Some g ->
      let a := nth (2 * k) (match_indexes off m) 0 in
      let b := nth (2 * k + 1) (match_indexes off m) 0 in
      match g with
      | None => a = -1 /\ b = -1
      | Some (i, l) => a = off i /\ b = off (i + l) /\ a <> -1
      end.
  Proof.
    unfold match_indexes. induction (m_groups m) as [|g0 gs IH].
    - split; [reflexivity|]. intros k g H. destruct k; discriminate.
    - destruct IH as [IHl IHn]. split.
      + cbn [flat_map]. rewrite app_length, IHl. destruct g0 as [[i l]|]; cbn; lia.
      + intros k g H. destruct k as [|k].
        * cbn in H. inv H. destruct g as [[i l]|]; cbn.
          -- pose proof (Hoff_nonneg i). repeat split; lia.
          -- split; reflexivity.
        * cbn [nth_error] in H. specialize (IHn k g H).
          replace (2 * Datatypes.S k)%nat with (Datatypes.S (Datatypes.S (2 * k))) by lia.
          replace (Datatypes.S (Datatypes.S (2 * k)) + 1)%nat with (Datatypes.S (Datatypes.S (2 * k + 1))) by lia.
          cbn [flat_map]. destruct g0 as [[i0 l0]|]; cbn [capture_index app nth]; exact IHn.
  Qed.
End Shapes.

(* the hypotheses of the C06 theorems, collected *)
Section Hyps.
  Variable len : Z.
  Variable attempt : Z -> Z -> option mt.
  Variable off : Z -> Z.
  Variable M : Z -> option (list Z).
  Variable width : Z -> Z.
  Variable end_ num_subexp : Z.

  Definition hyps : Prop :=
    0 <= len /\ forward false len attempt /\ no_G attempt /\
    (forall ts p m, 0 <= p <= len -> attempt ts p = Some m -> groups_ok num_subexp m) /\
    off 0 = 0 /\ (forall i j, 0 <= i -> i < j -> j <= len -> off i < off j) /\ off len = end_ /\
    (forall i, 0 <= i < len -> width (off i) = off (i + 1) - off i) /\ width (off len) <= 0 /\
    bridge len attempt off M.
End Hyps.

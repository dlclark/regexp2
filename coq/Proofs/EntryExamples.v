(* C02 — witnesses for the theorems of Proofs/EntryProofs.v.

   A concrete engine: [enx_scan p] tries rune positions from the start onwards and reports the first
   position q with p r q = true (M = Z: the match is its index).  It satisfies both engine hypotheses
   for every p.  With p = "abc stands at q" it is the engine of the pattern abc; all hypotheses of
   the headline theorem hold and the prefilter really moves the start.

   Negative witnesses: each named hypothesis is needed.
   * no \G (enp_start_indep): the engine of (?=\G)abc, which matches only AT the start, satisfies the
     leading-prefix fact "abc"; with the prefix filter the string entry point finds a match in "xabc"
     that the rune entry point does not (the defect fixed by c3c8f21, stringprefixfilter.go:33-37).
   * no U+FFFD in a literal (enf_ok): the engine of \x{fffd} satisfies the fact "the text at q starts
     with EF BF BD (re-encoded)"; an Index search for those bytes misses the invalid byte 0xff that
     decodes to U+FFFD (the defect fixed by 6372b22, stringprefixfilter.go:38-42). *)
From Verif Require Import Base.Prelude Base.Utf8 Gen.CodeGen Model.Offsets Model.Entry
  Proofs.Utf8Proofs Proofs.EntryBase Proofs.EntryFilter Proofs.EntryProofs.
From Verif Require Import Proofs.ListFacts.
From Coq Require Import ZifyBool.
Ltac Zify.zify_post_hook ::= Z.div_mod_to_equations.

Fixpoint enx_scan_from (p : list Z -> nat -> bool) (r : list Z) (fuel q : nat) : option nat :=
  match fuel with
  | O => None
  | S f => if p r q then Some q else enx_scan_from p r f (S q)
  end.

Definition enx_scan (p : list Z -> nat -> bool) (r : list Z) (s : Z) : option Z :=
  option_map Z.of_nat (enx_scan_from p r (S (length r) - Z.to_nat s) (Z.to_nat s)).

Definition enx_index (m : Z) : Z := m.

(* [enx_scan p] is the scan engine of EntryProofs whose attempt at q succeeds, with match q, when p holds *)
Definition enx_attempt (p : list Z -> nat -> bool) (r : list Z) (q : nat) : option Z :=
  if p r q then Some (Z.of_nat q) else None.

Lemma enx_attempt_index p r q m : enx_attempt p r q = Some m -> enx_index m = Z.of_nat q.
Proof. unfold enx_attempt. destruct (p r q); [|discriminate]. intros H. injection H as <-. reflexivity. Qed.

Lemma enx_scan_eq p r s : enx_scan p r s = enp_scan Z (enx_attempt p) r s.
Proof.
  unfold enx_scan, enp_scan. set (fuel := (S (length r) - Z.to_nat s)%nat). generalize fuel (Z.to_nat s).
  clear fuel. induction fuel as [|f IH]; intros q; [reflexivity|].
  cbn [enx_scan_from enp_scan_from]. unfold enx_attempt at 1. destruct (p r q); [reflexivity|apply IH].
Qed.

Lemma enx_in_range p : enp_in_range Z enx_index (enx_scan p).
Proof.
  intros r s m Hs H. rewrite enx_scan_eq in H.
  exact (enp_scan_in_range Z enx_index (enx_attempt p) (enx_attempt_index p) r s m Hs H).
Qed.

Lemma enx_start_indep p : enp_start_indep Z enx_index (enx_scan p).
Proof.
  intros r s s' Hs Hs' Hm. rewrite !enx_scan_eq.
  apply (enp_scan_start_indep Z enx_index (enx_attempt p) (enx_attempt_index p) r s s' Hs Hs').
  intros m H. apply Hm. rewrite enx_scan_eq. exact H.
Qed.

Lemma enx_starts p r q : enp_starts Z enx_index (enx_scan p) r q -> p r q = true /\ (q <= length r)%nat.
Proof.
  intros [m [H Hm]]. rewrite enx_scan_eq in H. unfold enp_scan in H. rewrite Nat2Z.id in H.
  destruct (enp_scan_from_some Z enx_index (enx_attempt p) (enx_attempt_index p) r _ _ _ H) as (x & Hx & Hat & _).
  pose proof (enx_attempt_index p r x m Hat) as Hi. assert (x = q) by lia. subst x.
  unfold enx_attempt in Hat. destruct (p r q); [split; [reflexivity|lia]|discriminate Hat].
Qed.

Definition enx_abc : list Z := [97; 98; 99].
Definition enx_p_abc (r : list Z) (q : nat) : bool := en_has_prefix (skipn q r) enx_abc.

(* Lazybranch 5; Multi 0; Stop  — a program without a Start instruction *)
Definition enx_code_abc : en_code :=
  {| cd_rtl := false; cd_codes := [23; 5; 12; 0; 40];
     cd_opts := Some {| fo_mode := MODE_LeadingString_LeftToRight; fo_min := 3; fo_prefix := enx_abc;
                        fo_prefixes := []; fo_lit_s := []; fo_lit_c := 0; fo_lit_dist := 0; fo_sets := [];
                        fo_lal := None |} |}.

Definition enx_flt_abc : option en_filter := Some (FPrefix enx_abc false 3).

Lemma enx_new_filter_abc : en_new_filter enx_code_abc = Ok enx_flt_abc.
Proof. vm_compute. reflexivity. Qed.

Lemma enx_abc_lit_fact r q : en_has_prefix (skipn q r) enx_abc = true ->
  enf_min_fact 3 r q /\ enf_lit_fact enx_abc r q.
Proof.
  intros H. pose proof (enb_has_prefix_length _ _ H) as L. rewrite skipn_length in L. cbn [enx_abc length] in L.
  split; [unfold enf_min_fact; lia|].
  apply enb_has_prefix_iff in H. destruct H as [rest H]. exists (encode_string rest). rewrite H. reflexivity.
Qed.

Lemma enx_abc_facts o f :
  cd_opts enx_code_abc = Some o -> enx_flt_abc = Some f ->
  forall b q, enp_starts Z enx_index (enx_scan enx_p_abc) (runes_of b) q -> enp_code_fact o (runes_of b) q.
Proof.
  intros Ho _ b q Hst. injection Ho as <-. destruct (enx_starts _ _ _ Hst) as [Hp _].
  destruct (enx_abc_lit_fact _ _ Hp) as [HM HL].
  unfold enp_code_fact. cbn [fo_mode fo_min fo_prefix].
  split; [exact HM|]. split; [intros _; exact HL|].
  repeat split; intros E; discriminate E.
Qed.

Definition enx_quick (p : list Z -> nat -> bool) (r : list Z) (s : Z) : bool :=
  match enx_scan p r s with Some _ => true | None => false end.

(* every hypothesis of the headline theorem holds for this engine and this program data ... *)
Lemma enx_abc_hypotheses :
  en_new_filter enx_code_abc = Ok enx_flt_abc /\
  enp_in_range Z enx_index (enx_scan enx_p_abc) /\
  enp_quick_agrees Z (enx_scan enx_p_abc) (enx_quick enx_p_abc) /\
  (en_has_opcode (S (length (cd_codes enx_code_abc))) (cd_codes enx_code_abc) G_Start = Ok false ->
   enp_start_indep Z enx_index (enx_scan enx_p_abc)) /\
  (forall o f, cd_opts enx_code_abc = Some o -> enx_flt_abc = Some f ->
     forall b q, enp_starts Z enx_index (enx_scan enx_p_abc) (runes_of b) q -> enp_code_fact o (runes_of b) q).
Proof.
  split; [exact enx_new_filter_abc|]. split; [apply enx_in_range|]. split; [intros r s; reflexivity|].
  split; [intros _; apply enx_start_indep|]. exact enx_abc_facts.
Qed.

(* ... and on "xéabc" the filter answers byte 3, the engine is started at rune 2 and finds the match
   the rune entry point finds from rune 0 *)
Lemma enx_abc_instance :
  let b := [120; 195; 169; 97; 98; 99] in
  en_run_filter (FPrefix enx_abc false 3) b 0 = Ok (3, true) /\
  en_find_string_match Z (enx_scan enx_p_abc) false enx_flt_abc b = Ok (Some 2) /\
  en_find_runes_match Z (enx_scan enx_p_abc) false (runes_of b) = Ok (Some 2) /\
  en_match_string (enx_quick enx_p_abc) false enx_flt_abc b = Ok true /\
  en_find_string_match_starting_at Z (enx_scan enx_p_abc) false enx_flt_abc b 2 = Err ERR_START_NOT_BOUNDARY /\
  en_find_string_match_starting_at Z (enx_scan enx_p_abc) false enx_flt_abc b 4 = Ok None.
Proof. vm_compute. repeat split; reflexivity. Qed.

(* ---------- \G: dropping enp_start_indep ---------- *)

(* the engine of (?=\G)abc: a match only AT the scan start *)
Definition enx_search_G (r : list Z) (s : Z) : option Z :=
  if en_has_prefix (skipn (Z.to_nat s) r) enx_abc then Some s else None.

Lemma enx_G_in_range : enp_in_range Z enx_index enx_search_G.
Proof.
  intros r s m Hs H. unfold enx_search_G in H. destruct (en_has_prefix (skipn (Z.to_nat s) r) enx_abc); [|discriminate H].
  injection H as <-. unfold enx_index. lia.
Qed.

Lemma enx_G_facts b q : enp_starts Z enx_index enx_search_G (runes_of b) q ->
  enf_fact (FPrefix enx_abc false 3) (runes_of b) q.
Proof.
  intros [m [H _]]. unfold enx_search_G in H. rewrite Nat2Z.id in H.
  destruct (en_has_prefix (skipn q (runes_of b)) enx_abc) eqn:E; [|discriminate H].
  cbn [enf_fact enf_str_fact]. apply enx_abc_lit_fact. exact E.
Qed.

Lemma enx_G_ok : enf_ok (FPrefix enx_abc false 3).
Proof. vm_compute. reflexivity. Qed.

(* all hypotheses of the glue theorem except start independence hold, and the conclusion fails on "xabc" *)
Lemma enx_start_indep_needed :
  enp_in_range Z enx_index enx_search_G /\
  enf_ok (FPrefix enx_abc false 3) /\
  (forall b q, enp_starts Z enx_index enx_search_G (runes_of b) q -> enf_fact (FPrefix enx_abc false 3) (runes_of b) q) /\
  ~ enp_start_indep Z enx_index enx_search_G /\
  let b := [120; 97; 98; 99] in
  en_find_string_match Z enx_search_G false enx_flt_abc b = Ok (Some 1) /\
  en_find_runes_match Z enx_search_G false (runes_of b) = Ok None.
Proof.
  split; [exact enx_G_in_range|]. split; [exact enx_G_ok|]. split; [exact enx_G_facts|]. split.
  - intros H. specialize (H [120; 97; 98; 99] 0 1 ltac:(lia) ltac:(vm_compute; discriminate)).
    vm_compute in H. assert (X : Some 1 = @None Z); [apply H; intros m Hm; discriminate Hm|discriminate X].
  - vm_compute. split; reflexivity.
Qed.

(* ---------- U+FFFD: dropping the constructor's guard ---------- *)

Definition enx_p_fffd (r : list Z) (q : nat) : bool :=
  match nth_error r q with Some c => c =? rune_error | None => false end.
Definition enx_fffd_bytes : list Z := [239; 191; 189].

Lemma enx_fffd_facts b q : enp_starts Z enx_index (enx_scan enx_p_fffd) (runes_of b) q ->
  enf_fact (FPrefix enx_fffd_bytes false 1) (runes_of b) q.
Proof.
  intros Hst. destruct (enx_starts _ _ _ Hst) as [Hp _]. unfold enx_p_fffd in Hp.
  destruct (nth_error (runes_of b) q) as [c|] eqn:En; [|discriminate Hp].
  assert (c = rune_error) by lia. subst c.
  cbn [enf_fact enf_str_fact]. split.
  - unfold enf_min_fact. assert (q < length (runes_of b))%nat by (apply nth_error_Some; congruence). lia.
  - unfold enf_lit_fact. rewrite (skipn_cons_nth_error _ _ _ En). exists (encode_string (skipn (S q) (runes_of b))). reflexivity.
Qed.

(* every engine hypothesis and the fact hold, the needle contains U+FFFD (enf_ok fails), and on the
   single invalid byte 0xff the string entry point misses the match the rune entry point finds *)
Lemma enx_fffd_guard_needed :
  enp_in_range Z enx_index (enx_scan enx_p_fffd) /\
  enp_start_indep Z enx_index (enx_scan enx_p_fffd) /\
  (forall b q, enp_starts Z enx_index (enx_scan enx_p_fffd) (runes_of b) q ->
               enf_fact (FPrefix enx_fffd_bytes false 1) (runes_of b) q) /\
  ~ enf_ok (FPrefix enx_fffd_bytes false 1) /\
  let b := [255] in
  en_find_string_match Z (enx_scan enx_p_fffd) false (Some (FPrefix enx_fffd_bytes false 1)) b = Ok None /\
  en_find_runes_match Z (enx_scan enx_p_fffd) false (runes_of b) = Ok (Some 0).
Proof.
  split; [apply enx_in_range|]. split; [apply enx_start_indep|]. split; [exact enx_fffd_facts|]. split.
  - vm_compute. discriminate.
  - vm_compute. split; reflexivity.
Qed.

(* the constructor refuses a program with a Start instruction, a literal with U+FFFD, and a
   right-to-left program *)
Lemma enx_constructor_declines :
  en_new_filter {| cd_rtl := false; cd_codes := [23; 6; 19; 12; 0; 40]; cd_opts := cd_opts enx_code_abc |} = Ok None /\
  en_new_filter {| cd_rtl := false; cd_codes := [23; 5; 12; 0; 40];
                   cd_opts := Some {| fo_mode := MODE_LeadingString_LeftToRight; fo_min := 2; fo_prefix := 97 :: enx_fffd_bytes;
                                      fo_prefixes := []; fo_lit_s := []; fo_lit_c := 0; fo_lit_dist := 0; fo_sets := [];
                                      fo_lal := None |} |} = Ok None /\
  en_new_filter {| cd_rtl := true; cd_codes := cd_codes enx_code_abc; cd_opts := cd_opts enx_code_abc |} = Ok None.
Proof. vm_compute. repeat split; reflexivity. Qed.

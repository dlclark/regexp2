(* compile_correct (C01, link 3): the code the writer emits for a tree, run by the interpreter,
   delivers exactly the reference semantics' priority-ordered result list.

   Writer configuration: cfg0 = {| capmap := None; quick := None |} (identity slot map, full code).

   PROVED (all closed under the global context):
     emit_length (CompileDefs)     zlen (fst (emit c t a tbl)) = csize c t, every constructor, every cfg
     emit_tbl_ext (CompileDefs)    the string table only grows
     compile_correct_partial       for every [supported] tree t, fuel <= MaxInt32 with sem e fuel t s = Ok res,
                                   start state inside the text, group numbers inside capsize, text no longer
                                   than MaxInt32, program string table containing the writer's table:
                                   from the fragment's entry (any base track T with a valid frame on top, any
                                   grouping stack S, crawl C, capture arrays M related to caps s) the machine
                                   [leadsg]-delivers exactly res, in order, at the fragment's exit, and when res
                                   is exhausted backtracks into T with S, C, M restored.
     compile_correct_top_partial   whole program  Lazybranch Lend ; [root] ; Lend: Stop  with root =
                                   NCapture o 0 (-1) body: from the initial state the machine reaches the final
                                   Stop in a state whose position and capture arrays are those of
                                   attempt e fuel root t0 (group 0 set), or, when attempt = None, with empty
                                   captures and empty stacks (group 0 unset).
     cc_demo, cc_demo2, cc_demo3   concrete instances (vm_compute), cross-checked against VM.exec_at.
     compile_correct_exec_partial  (Proofs/CompileExec.v, via Proofs/VMUBridge.v) the same for the interpreter with
                                   its real finite stacks and any stack limit L: whenever VM.exec_at returns a
                                   state, it is that final Stop state (position, captures, group 0 as above).

   THE SET [supported] (CompileDefs.supported) = every constructor of Tree.node, with these side conditions:
     NCapture _ g u r     u = -1                      (balancing groups are outside [supported]; CompileBal covers them)
     NAlternate _ l       l <> []                     (the writer emits no code for an empty alternation while
                                                       the reference semantics fails; the parser never builds one)
     NLoop _ _ m n r      0 <= m, n <= MaxInt32
     NCharLoop ... m n    0 <= m <= n <= MaxInt32     (for m > n the writer still emits X-rep m: code and
                                                       semantics differ; the parser never builds one)
   Files, by node kind: CompileStage1 (NEmpty NNothing NBump NGroup NAnchor NChar NConcat NAlternate NCapture),
   CompileLoop (NLoop: Branchmark, Lazybranchmark, Branchcount, Lazybranchcount), CharLoopFacts + CompileCharLoop
   (NCharLoop: rep + loop/lazy/loopatomic), CompileMulti (NMulti), CompileStage4 (NAtomic NPosLook NNegLook),
   CompileCond (NBackRefCond NExprCond), CompileRef (NRef) -- each for any capture relation with a
   CompileDefs.caps_view; under them VMUOps, VMUOps2..7 (one lemma per opcode, lifted to root-slot families; the
   balancing Capturemark in CompileBalOps), CompileBase (leadsg, leadsR), CompileDefs; above them CompileGen
   (induction on fuel and tree, whole program) and CapFacts (caps_rel_view: [caps_rel] is such a relation).
   The theorems below are CompileGen's at [caps_rel]. *)
From Verif Require Import Base.Prelude Model.Tree Model.Spec Model.VM Model.Writer Gen.RunnerGen
  Proofs.SpecProofs Proofs.SpecBoundsProofs Proofs.MaskProofs
  Proofs.VMU Proofs.VMUOps Proofs.VMUOps2 Proofs.VMUOps6 Proofs.VMUOps3 Proofs.CompileBase
  Proofs.CompileDefs Proofs.CapFacts Proofs.CompileBalDefs Proofs.CompileGen.
From Coq Require Import Relations ZifyBool.

(* the trees of [supported]/[groups_ok], as CompileGen sees them: no balancing capture *)
Definition plain_ok (cs : Z) (t : node) : Prop := grp_ok_node cs t /\ plain_node t.

Lemma cc_plain_ok cs t : supported t = true -> groups_ok cs t -> supported2 t = true /\ sb_all (plain_ok cs) t.
Proof.
  intros Hs Hg. destruct (c2_supported_split t Hs) as [H2 Hp]. split; [exact H2|apply sb_all_conj; assumption].
Qed.

Lemma cc_plain_grp cs t : plain_ok cs t -> grp_ok_node2 cs t.
Proof. intros [Hg Hp]. destruct t; try exact Hg. cbn [plain_node] in Hp. subst u. exact Hg. Qed.

Section CC.
Variable e : env.
Variable p : program.
Hypothesis tc_nonneg : 0 <= trackcount p.
Hypothesis Htlen : tlen e <= INF.

Notation leadsg := (CompileBase.leadsg e p).
Notation has_code := (CompileBase.has_code p).
Notation track_ok := (CompileBase.track_ok p).
Notation caps_rel := (CompileBase.caps_rel p).
Notation tbl_ok := (CompileDefs.tbl_ok p).
Notation ok_nodeR := (CompileDefs.ok_nodeR e p caps_rel).

Lemma cc_plain_bal f o g u r : u <> -1 -> plain_ok (capsize p) (NCapture o g u r) ->
  ok_nodeR f r -> loops_min_ok r -> ok_nodeR (S f) (NCapture o g u r).
Proof. intros Hu [_ Hp]. contradiction. Qed.

Theorem compile_correct_partial : forall fuel t s res,
  Z.of_nat fuel <= INF ->
  sem e fuel t s = Ok res -> supported t = true -> st_ok e s -> groups_ok (capsize p) t ->
  forall a tbl T S C M,
    has_code a (fst (emit cfg0 t a tbl)) -> (exists w, code_at p (a + csize cfg0 t) = Some w) ->
    track_ok T -> caps_rel (caps s) M -> tbl_ok (snd (emit cfg0 t a tbl)) ->
    leadsg (a + csize cfg0 t) T S S C M (mkr a 0 (pos s) T S C M) res.
Proof.
  intros fuel t s res Hf Hsem Hs Hst Hg. destruct (cc_plain_ok _ t Hs Hg) as [Hs2 Ha]. rewrite leadsg_leadsR.
  exact (cc_all_ok e p tc_nonneg Htlen caps_rel (caps_rel_view e p) _ (cc_plain_grp _) cc_plain_bal
           fuel Hf t Hs2 Ha s res Hsem Hst).
Qed.

(* ---------- the whole program: Lazybranch Lend ; root ; Lend: Stop ---------- *)
Theorem compile_correct_top_partial : forall fuel o body t0 r,
  let root := NCapture o 0 (-1) body in
  let M0 := repeat [] (Z.to_nat (capsize p)) in
  let stop := 2 + csize cfg0 root in
  codes p = fst (compile cfg0 root) -> strings p = snd (compile cfg0 root) ->
  supported root = true -> groups_ok (capsize p) root -> 0 <= t0 <= tlen e ->
  Z.of_nat fuel <= INF ->
  attempt e fuel root t0 = Ok r ->
  code_at p stop = Some Stop /\
  exists t T S C M,
    VMU.usteps e p (VMU.mk 0 0 t0 [] [] [] M0) (VMU.mk stop 0 t T S C M) /\
    VMU.ustep e p (VMU.mk stop 0 t T S C M) = Ok (Done (VMU.mk stop 0 t T S C M)) /\
    match r with
    | Some q => t = pos q /\ caps_rel (caps q) M /\ matched0 (VMU.mk stop 0 t T S C M) = true
    | None => M = M0 /\ T = [] /\ S = [] /\ C = [] /\ matched0 (VMU.mk stop 0 t T S C M) = false
    end.
Proof.
  intros fuel o body t0 r root M0 stop Hcodes Hstrings Hs Hg. destruct (cc_plain_ok _ root Hs Hg) as [Hs2 Ha].
  exact (cc_top e p tc_nonneg Htlen caps_rel (caps_rel_view e p) _ (cc_plain_grp _) cc_plain_bal
           fuel o body t0 r Hcodes Hstrings Hs2 Ha).
Qed.

End CC.

Print Assumptions compile_correct_partial.

Print Assumptions compile_correct_top_partial.

(* ---------- a concrete instance: (a|ab)(c|bcd) on "abc" ----------
   The first alternative of group 1 ("a") leads nowhere, the interpreter backtracks into it and
   takes "ab", then "c".  The corollary gives a reachable Stop state whose position and capture
   arrays are the reference result; the bounded interpreter [exec_at] computes the same state. *)
Definition cc_demo_env : env :=
  {| txt := [97; 98; 99]; tstart := 0; ecma := false; endz_strict := false;
     set_in := fun _ _ => false; lower := fun x => x; is_word := fun _ => true; is_eword := fun _ => true |}.
Definition cc_demo_body : node :=
  NConcat 0 [NCapture 0 1 (-1) (NAlternate 0 [NChar COne 0 97; NConcat 0 [NChar COne 0 97; NChar COne 0 98]]);
             NCapture 0 2 (-1) (NAlternate 0 [NChar COne 0 99;
                                              NConcat 0 [NChar COne 0 98; NChar COne 0 99; NChar COne 0 100]])].
Definition cc_demo_root : node := NCapture 0 0 (-1) cc_demo_body.
Definition cc_demo_prog : program :=
  {| codes := fst (compile cfg0 cc_demo_root); strings := snd (compile cfg0 cc_demo_root);
     trackcount := track_count (fst (compile cfg0 cc_demo_root)); capsize := 3 |}.
Definition cc_demo_result : st := {| pos := 3; caps := [(1, [(0, 2)]); (2, [(2, 1)]); (0, [(0, 3)])] |}.

Example cc_demo :
  attempt cc_demo_env 20 cc_demo_root 0 = Ok (Some cc_demo_result) /\
  (exists t T S C M,
     VMU.usteps cc_demo_env cc_demo_prog (VMU.mk 0 0 0 [] [] [] [[]; []; []]) (VMU.mk 36 0 t T S C M) /\
     VMU.ustep cc_demo_env cc_demo_prog (VMU.mk 36 0 t T S C M) = Ok (Done (VMU.mk 36 0 t T S C M)) /\
     t = 3 /\ caps_rel cc_demo_prog (caps cc_demo_result) M /\
     matched0 (VMU.mk 36 0 t T S C M) = true) /\
  (exists s', exec_at cc_demo_env cc_demo_prog (-1) 5 0 = Ok s' /\ pc s' = 36 /\ tp s' = 3 /\
              mcaps s' = [[0; 3]; [0; 2]; [2; 1]]).
Proof.
  split; [vm_compute; reflexivity|]. split.
  - assert (Htc : 0 <= trackcount cc_demo_prog) by (vm_compute; congruence).
    assert (Hg : groups_ok (capsize cc_demo_prog) cc_demo_root).
    { cbn. repeat split; try exact I; cbv; congruence. }
    assert (Hp : 0 <= 0 <= tlen cc_demo_env) by (cbv; split; congruence).
    destruct (compile_correct_top_partial cc_demo_env cc_demo_prog Htc ltac:(cbv; congruence) 20 0 cc_demo_body 0 (Some cc_demo_result)
                eq_refl eq_refl eq_refl Hg Hp ltac:(cbv; congruence) ltac:(vm_compute; reflexivity)) as [_ (t & T & S & C & M & H1 & H2 & H3 & H4 & H5)].
    exists t, T, S, C, M. exact (conj H1 (conj H2 (conj H3 (conj H4 H5)))).
  - eexists. split; [vm_compute; reflexivity|]. repeat split.
Qed.

(* ---------- two richer instances ----------
   (1)  on "abaaac": a greedy Branchmark loop around capture 1 whose body is the alternation of the
        literal string "ab" and the lazy single-character loop a{1,2}?; then a back-reference to 1,
        a positive lookahead for c, a negative lookahead for d, an atomic greedy c-loop, and a
        back-reference conditional (group 1 set: end anchor, else z).  Group 1 is captured three times.
   (2)  on "ababaa": a lazy counted loop {2,3}? around capture 1 (a set), an expression conditional,
        a right-to-left lookbehind for "ab", a greedy counted loop {2,} (Branchcount with n = INF),
        and the end anchor. *)
Definition cc_demo_env2 (t : list Z) : env :=
  {| txt := t; tstart := 0; ecma := false; endz_strict := false;
     set_in := fun _ x => (97 <=? x) && (x <=? 98); lower := fun x => x; is_word := fun _ => true; is_eword := fun _ => true |}.
Definition cc_demo_body2 : node :=
  NConcat 0 [ NLoop false 0 0 INF (NCapture 0 1 (-1) (NAlternate 0 [NMulti 0 [97;98]; NCharLoop COne LLazy 0 97 1 2]));
              NRef 0 1;
              NPosLook 0 (NChar COne 0 99);
              NNegLook 0 (NChar COne 0 100);
              NAtomic (NCharLoop COne LGreedy 0 99 0 INF);
              NBackRefCond 0 1 (NAnchor AEndZ) (Some (NChar COne 0 122)) ].
Definition cc_demo_body3 : node :=
  NConcat 0 [ NLoop true 0 2 3 (NCapture 0 1 (-1) (NChar CSet 0 0));
              NExprCond 0 (NChar COne 0 98) (NChar COne 0 98) (Some (NChar COne 0 97));
              NPosLook 64 (NConcat 64 [NChar COne 64 98; NChar COne 64 97]);
              NLoop false 0 2 INF (NChar CNotone 0 120);
              NAnchor AEnd ].
Definition cc_demo_prog_of (root : node) : program :=
  {| codes := fst (compile cfg0 root); strings := snd (compile cfg0 root);
     trackcount := track_count (fst (compile cfg0 root)); capsize := 2 |}.

Example cc_demo2 :
  let e := cc_demo_env2 [97;98;97;97;97;99] in
  let root := NCapture 0 0 (-1) cc_demo_body2 in
  let p := cc_demo_prog_of root in
  let q := {| pos := 6; caps := [(1, [(3, 1); (2, 1); (0, 2)]); (0, [(0, 6)])] |} in
  supported root = true /\
  attempt e 40 root 0 = Ok (Some q) /\
  (exists t T S C M,
     VMU.usteps e p (VMU.mk 0 0 0 [] [] [] [[]; []]) (VMU.mk 59 0 t T S C M) /\
     VMU.ustep e p (VMU.mk 59 0 t T S C M) = Ok (Done (VMU.mk 59 0 t T S C M)) /\
     t = 6 /\ caps_rel p (caps q) M) /\
  (exists s', exec_at e p (-1) 5 0 = Ok s' /\ pc s' = 59 /\ tp s' = 6 /\ mcaps s' = [[0; 6]; [0; 2; 2; 1; 3; 1]]).
Proof.
  intros e root p q. split; [reflexivity|]. split; [vm_compute; reflexivity|]. split.
  - assert (Htc : 0 <= trackcount p) by (vm_compute; congruence).
    assert (Hg : groups_ok (capsize p) root) by (cbn; repeat split; try exact I; cbv; congruence).
    assert (Hp : 0 <= 0 <= tlen e) by (cbv; split; congruence).
    destruct (compile_correct_top_partial e p Htc ltac:(cbv; congruence) 40 0 cc_demo_body2 0 (Some q)
                eq_refl eq_refl eq_refl Hg Hp ltac:(cbv; congruence) ltac:(vm_compute; reflexivity))
      as [_ (t & T & S & C & M & H1 & H2 & H3 & H4 & H5)].
    exists t, T, S, C, M. exact (conj H1 (conj H2 (conj H3 H4))).
  - eexists. split; [vm_compute; reflexivity|]. repeat split.
Qed.

Example cc_demo3 :
  let e := cc_demo_env2 [97;98;97;98;97;97] in
  let root := NCapture 0 0 (-1) cc_demo_body3 in
  let p := cc_demo_prog_of root in
  let q := {| pos := 6; caps := [(1, [(2, 1); (1, 1); (0, 1)]); (0, [(0, 6)])] |} in
  supported root = true /\
  attempt e 40 root 0 = Ok (Some q) /\
  (exists t T S C M,
     VMU.usteps e p (VMU.mk 0 0 0 [] [] [] [[]; []]) (VMU.mk 49 0 t T S C M) /\
     VMU.ustep e p (VMU.mk 49 0 t T S C M) = Ok (Done (VMU.mk 49 0 t T S C M)) /\
     t = 6 /\ caps_rel p (caps q) M) /\
  (exists s', exec_at e p (-1) 5 0 = Ok s' /\ pc s' = 49 /\ tp s' = 6 /\ mcaps s' = [[0; 6]; [0; 1; 1; 1; 2; 1]]).
Proof.
  intros e root p q. split; [reflexivity|]. split; [vm_compute; reflexivity|]. split.
  - assert (Htc : 0 <= trackcount p) by (vm_compute; congruence).
    assert (Hg : groups_ok (capsize p) root) by (cbn; repeat split; try exact I; cbv; congruence).
    assert (Hp : 0 <= 0 <= tlen e) by (cbv; split; congruence).
    destruct (compile_correct_top_partial e p Htc ltac:(cbv; congruence) 40 0 cc_demo_body3 0 (Some q)
                eq_refl eq_refl eq_refl Hg Hp ltac:(cbv; congruence) ltac:(vm_compute; reflexivity))
      as [_ (t & T & S & C & M & H1 & H2 & H3 & H4 & H5)].
    exists t, T, S, C, M. exact (conj H1 (conj H2 (conj H3 H4))).
  - eexists. split; [vm_compute; reflexivity|]. repeat split.
Qed.

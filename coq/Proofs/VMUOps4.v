(* Per-opcode lemmas for the single-character loops: X-rep, X-loop, X-loopatomic, X-lazy
   (X = One, Notone, Set; either direction), by symbolic evaluation of VM.step, in terms of
   Spec.run_len; then their root-slot liftings. *)
From Verif Require Import Base.Prelude Model.Tree Model.Spec Model.VM Model.Writer Gen.RunnerGen
  Proofs.VMU Proofs.VMUOps Proofs.VMUOps2 Proofs.CharLoopFacts.
From Coq Require Import Relations ZifyBool.

Section Ops4.
Variable e : env.
Variable p : program.
Hypothesis tc_nonneg : 0 <= trackcount p.

Notation ustep := (VMU.ustep e p).
Notation mk := VMU.mk.

Lemma bump_dir w o : rtl_of w = is_rtl o -> bump w = dir o.
Proof. intros H. unfold bump, dir. rewrite H. reflexivity. Qed.
Lemma fwdchars_avail w o s : rtl_of w = is_rtl o -> fwdchars e w s = avail e o (tp s).
Proof. intros H. unfold fwdchars, avail. rewrite H. reflexivity. Qed.

Ltac fix_rep kk cc :=
  match goal with |- context [rep_chars e ?w ?f ?N ?t] =>
    change (rep_chars e w f N t) with (rep_chars e w (char_test e kk cc) N t) end.
Ltac fix_loop kk cc :=
  match goal with |- context [loop_chars e ?w ?f ?N ?t] =>
    change (loop_chars e w f N t) with (loop_chars e w (char_test e kk cc) N t) end.

(* ---------- X-loop c c0 (greedy) and X-loopatomic ---------- *)
(* the end of the forward case of a greedy (g = true) or atomic (g = false) loop, once the opcode is
   dispatched and the operands are read *)
Lemma loop_fwd_tail (g : bool) k o c c0 w pc0 t T S C M w2 :
  rtl_of w = is_rtl o -> code_at p (pc0 + 3) = Some w2 -> 0 <= t <= tlen e -> 0 <= c0 ->
  let s := repad p (mk pc0 0 t T S C M) in
  let j := run_len e k c o (Z.to_nat (Z.min c0 (avail e o t))) t in
  unorm
    match loop_chars e w (char_test e k c) (Z.to_nat (Z.min c0 (fwdchars e w s))) t with
    | Some (i, t') =>
        do s1 <- (if (i <? Z.min c0 (fwdchars e w s)) && g
                  then tpush (set_tp s t') [pc0; t' - bump w; Z.min c0 (fwdchars e w s) - i - 1]
                  else Ok (set_tp s t')) ;
        cont (advance p s1 2)
    | None => Crash C_text
    end =
  Ok (Next (mk (pc0 + 3) 0 (t + dir o * j)
               (if (0 <? j) && g then pc0 :: t + dir o * j - dir o :: j - 1 :: T else T) S C M)).
Proof.
  intros Hr H3 Ht Hc0 s j. subst s.
  pose proof (clf_avail_nonneg e o t Ht) as HA.
  pose proof (clf_rl_bounds e k c o (Z.to_nat (Z.min c0 (avail e o t))) t) as Hb. fold j in Hb.
  rewrite (fwdchars_avail w o) by exact Hr. cbn [tp repad VMU.mk].
  rewrite (clf_loop_chars e _ c o w Hr) by lia. rewrite Z2Nat.id by lia. fold j.
  rewrite (bump_dir w o Hr).
  replace (Z.min c0 (avail e o t) - j <? Z.min c0 (avail e o t)) with (0 <? j) by lia.
  clearbody j. destruct ((0 <? j) && g); cbn [bind]; try tpu; adv (pc0 + 3) H3; fin.
  all: unfold unorm, norm, set_pc, set_track, set_tp, repad, VMU.mk; cbn [pc mode tp track stack crawl mcaps].
  all: repeat f_equal; lia.
Qed.

Lemma ustep_loop_fwd k l o c c0 pc0 t T S C M w2 :
  l <> LLazy ->
  code_at p pc0 = Some (loop_op k l + bits_of o) -> code_at p (pc0 + 1) = Some c -> code_at p (pc0 + 2) = Some c0 ->
  code_at p (pc0 + 3) = Some w2 -> 0 <= t <= tlen e -> 0 <= c0 ->
  let j := run_len e k c o (Z.to_nat (Z.min c0 (avail e o t))) t in
  ustep (mk pc0 0 t T S C M) =
  Ok (Next (mk (pc0 + 3) 0 (t + dir o * j)
               (if (0 <? j) && (match l with LGreedy => true | _ => false end)
                then pc0 :: t + dir o * j - dir o :: j - 1 :: T else T) S C M)).
Proof.
  intros Hl H0 H1 H2 H3 Ht Hc0 j.
  set (w := loop_op k l + bits_of o) in *.
  assert (Hw : Z.land w 63 = loop_op k l) by apply cp_land_bits, loop_op_range.
  assert (Hr : rtl_of w = is_rtl o) by apply rtl_of_bits, loop_op_range.
  clearbody w. start H0. rewrite Hw.
  destruct l; [|congruence|];
  destruct k; cbn -[opnd fwdchars loop_chars brk advance tpush Z.to_nat Z.min bump]; opn (pc0 + 1) H1; cbn [bind];
    opn (pc0 + 2) H2; cbn [bind].
  - exact (loop_fwd_tail true COne o c c0 w pc0 t T S C M w2 Hr H3 Ht Hc0).
  - exact (loop_fwd_tail true CNotone o c c0 w pc0 t T S C M w2 Hr H3 Ht Hc0).
  - exact (loop_fwd_tail true CSet o c c0 w pc0 t T S C M w2 Hr H3 Ht Hc0).
  - exact (loop_fwd_tail false COne o c c0 w pc0 t T S C M w2 Hr H3 Ht Hc0).
  - exact (loop_fwd_tail false CNotone o c c0 w pc0 t T S C M w2 Hr H3 Ht Hc0).
  - exact (loop_fwd_tail false CSet o c c0 w pc0 t T S C M w2 Hr H3 Ht Hc0).
Qed.

Lemma ustep_loop_back k o pc0 t0 t2 t1 T S C M w2 :
  code_at p pc0 = Some (loop_op k LGreedy + bits_of o) -> code_at p (pc0 + 3) = Some w2 ->
  ustep (mk pc0 BackBit t0 (t2 :: t1 :: T) S C M) =
  Ok (Next (mk (pc0 + 3) 0 t2 (if 0 <? t1 then pc0 :: t2 - dir o :: t1 - 1 :: T else T) S C M)).
Proof.
  intros H0 H3.
  set (w := loop_op k LGreedy + bits_of o) in *.
  assert (Hw : Z.land w 63 = loop_op k LGreedy) by apply cp_land_bits, loop_op_range.
  assert (Hr : rtl_of w = is_rtl o) by apply rtl_of_bits, loop_op_range.
  clearbody w.
  start H0. rewrite Hw.
  destruct k; cbn -[opnd brk advance tpush bump]; rewrite (bump_dir w o Hr);
    destruct (0 <? t1); cbn [bind]; try tpu; adv (pc0 + 3) H3; fin.
Qed.

(* ---------- X-lazy c c0 ---------- *)
Lemma ustep_lazy_fwd k o c c0 pc0 t T S C M w2 :
  code_at p pc0 = Some (loop_op k LLazy + bits_of o) -> code_at p (pc0 + 1) = Some c -> code_at p (pc0 + 2) = Some c0 ->
  code_at p (pc0 + 3) = Some w2 ->
  let N := Z.min c0 (avail e o t) in
  ustep (mk pc0 0 t T S C M) =
  Ok (Next (mk (pc0 + 3) 0 t (if 0 <? N then pc0 :: t :: N - 1 :: T else T) S C M)).
Proof.
  intros H0 H1 H2 H3 N.
  set (w := loop_op k LLazy + bits_of o) in *.
  assert (Hw : Z.land w 63 = loop_op k LLazy) by apply cp_land_bits, loop_op_range.
  assert (Hr : rtl_of w = is_rtl o) by apply rtl_of_bits, loop_op_range.
  clearbody w.
  start H0. rewrite Hw.
  destruct k; cbn -[opnd fwdchars brk advance tpush Z.min]; opn (pc0 + 2) H2; cbn [bind];
    rewrite (fwdchars_avail w o) by exact Hr; cbn [tp repad VMU.mk]; fold N;
    destruct (0 <? N); cbn [bind]; try tpu; adv (pc0 + 3) H3; fin.
Qed.

Lemma ustep_lazy_back_ok k o c pc0 t0 t2 t1 T S C M w2 :
  code_at p pc0 = Some (loop_op k LLazy + bits_of o) -> code_at p (pc0 + 1) = Some c ->
  code_at p (pc0 + 3) = Some w2 -> 0 <= t2 <= tlen e -> 0 < avail e o t2 ->
  char_test e k c (next_char e o t2) = true ->
  ustep (mk pc0 BackBit t0 (t2 :: t1 :: T) S C M) =
  Ok (Next (mk (pc0 + 3) 0 (t2 + dir o) (if 0 <? t1 then pc0 :: t2 + dir o :: t1 - 1 :: T else T) S C M)).
Proof.
  intros H0 H1 H3 Ht Ha Hc.
  set (w := loop_op k LLazy + bits_of o) in *.
  assert (Hw : Z.land w 63 = loop_op k LLazy) by apply cp_land_bits, loop_op_range.
  assert (Hr : rtl_of w = is_rtl o) by apply rtl_of_bits, loop_op_range.
  clearbody w.
  start H0. rewrite Hw.
  destruct k; cbn -[opnd fwdnext brk advance tpush bump]; opn (pc0 + 1) H1; cbn [bind];
    rewrite (clf_fwdnext e o w Hr) by assumption; rewrite (bump_dir w o Hr);
    cbn [char_test] in Hc; rewrite Hc;
    destruct (0 <? t1); cbn [bind]; try tpu; adv (pc0 + 3) H3; fin.
Qed.

Notation rsteps := (VMUOps2.rsteps e p).

Lemma rs_rep_ok k o c m pc0 t T S C M w2 :
  code_at p pc0 = Some (rep_op k + bits_of o) -> code_at p (pc0 + 1) = Some c -> code_at p (pc0 + 2) = Some m ->
  code_at p (pc0 + 3) = Some w2 -> 0 <= t <= tlen e -> 0 <= m ->
  (m <=? avail e o t) && (run_len e k c o (Z.to_nat m) t =? m) = true ->
  rsteps (mkr pc0 0 t T S C M) (mkr (pc0 + 3) 0 (t + dir o * m) T S C M).
Proof.
  intros H0 H1 H2 H3 Ht Hm Hok. apply rsteps_one. intro r. unfold bkr, mkr. cbn [app].
  set (w := rep_op k + bits_of o) in *.
  assert (Hw : Z.land w 63 = rep_op k) by apply cp_land_bits, rep_op_range.
  assert (Hr : rtl_of w = is_rtl o) by apply rtl_of_bits, rep_op_range.
  clearbody w. apply andb_prop in Hok. destruct Hok as [Ha Hrl].
  start H0. rewrite Hw.
  destruct k; cbn -[opnd fwdchars rep_chars brk advance Z.to_nat]; opn (pc0 + 1) H1; cbn [bind];
    opn (pc0 + 2) H2; cbn [bind]; rewrite (fwdchars_avail w o) by exact Hr; cbn [tp repad VMU.mk];
    replace (avail e o t <? m) with false by lia;
    [fix_rep COne c | fix_rep CNotone c | fix_rep CSet c];
    rewrite (clf_rep_chars e _ c o w Hr) by lia; rewrite Z2Nat.id by lia; rewrite Hrl;
    adv (pc0 + 3) H3; fin.
Qed.

Lemma rs_rep_fail k o c m pc0 t np T S C M w3 :
  code_at p pc0 = Some (rep_op k + bits_of o) -> code_at p (pc0 + 1) = Some c -> code_at p (pc0 + 2) = Some m ->
  code_at p (Z.abs np) = Some w3 -> 0 <= t <= tlen e -> 0 <= m ->
  (m <=? avail e o t) && (run_len e k c o (Z.to_nat m) t =? m) = false ->
  rsteps (mkr pc0 0 t (np :: T) S C M) (bkr np t T S C M).
Proof.
  intros H0 H1 H2 H3 Ht Hm Hok. apply rsteps_one. intro r. unfold bkr, mkr. cbn [app].
  set (w := rep_op k + bits_of o) in *.
  assert (Hw : Z.land w 63 = rep_op k) by apply cp_land_bits, rep_op_range.
  assert (Hr : rtl_of w = is_rtl o) by apply rtl_of_bits, rep_op_range.
  clearbody w.
  start H0. rewrite Hw.
  destruct k; cbn -[opnd fwdchars rep_chars brk advance Z.to_nat]; opn (pc0 + 1) H1; cbn [bind];
    opn (pc0 + 2) H2; cbn [bind]; rewrite (fwdchars_avail w o) by exact Hr; cbn [tp repad VMU.mk];
    (destruct (avail e o t <? m) eqn:Ea; [fail_to H3; fin|]);
    replace (m <=? avail e o t) with true in Hok by lia; cbn [andb] in Hok;
    [fix_rep COne c | fix_rep CNotone c | fix_rep CSet c];
    rewrite (clf_rep_chars e _ c o w Hr) by lia; rewrite Z2Nat.id by lia; rewrite Hok;
    fail_to H3; fin.
Qed.

Lemma rs_loop_fwd k l o c c0 pc0 t T S C M w2 j :
  l <> LLazy ->
  code_at p pc0 = Some (loop_op k l + bits_of o) -> code_at p (pc0 + 1) = Some c -> code_at p (pc0 + 2) = Some c0 ->
  code_at p (pc0 + 3) = Some w2 -> 0 <= t <= tlen e -> 0 <= c0 ->
  j = run_len e k c o (Z.to_nat (Z.min c0 (avail e o t))) t ->
  rsteps (mkr pc0 0 t T S C M)
         (mkr (pc0 + 3) 0 (t + dir o * j)
              (if (0 <? j) && (match l with LGreedy => true | _ => false end)
               then pc0 :: t + dir o * j - dir o :: j - 1 :: T else T) S C M).
Proof.
  intros Hl H0 H1 H2 H3 Ht Hc0 ->. apply rsteps_one. intro r. unfold mkr.
  erewrite ustep_loop_fwd by eassumption. cbv zeta.
  destruct ((0 <? _) && _); reflexivity.
Qed.

Lemma rs_loop_back k o pc0 t0 t2 t1 T S C M w2 :
  code_at p pc0 = Some (loop_op k LGreedy + bits_of o) -> code_at p (pc0 + 3) = Some w2 ->
  rsteps (mkr pc0 BackBit t0 (t2 :: t1 :: T) S C M)
         (mkr (pc0 + 3) 0 t2 (if 0 <? t1 then pc0 :: t2 - dir o :: t1 - 1 :: T else T) S C M).
Proof.
  intros H0 H3. apply rsteps_one. intro r. unfold mkr. cbn [app].
  erewrite ustep_loop_back by eassumption. destruct (0 <? t1); reflexivity.
Qed.

Lemma rs_lazy_fwd k o c c0 pc0 t T S C M w2 N :
  code_at p pc0 = Some (loop_op k LLazy + bits_of o) -> code_at p (pc0 + 1) = Some c -> code_at p (pc0 + 2) = Some c0 ->
  code_at p (pc0 + 3) = Some w2 -> N = Z.min c0 (avail e o t) ->
  rsteps (mkr pc0 0 t T S C M) (mkr (pc0 + 3) 0 t (if 0 <? N then pc0 :: t :: N - 1 :: T else T) S C M).
Proof.
  intros H0 H1 H2 H3 ->. apply rsteps_one. intro r. unfold mkr.
  erewrite ustep_lazy_fwd by eassumption. cbv zeta. destruct (0 <? _); reflexivity.
Qed.

Lemma rs_lazy_back_ok k o c pc0 t0 t2 t1 T S C M w2 :
  code_at p pc0 = Some (loop_op k LLazy + bits_of o) -> code_at p (pc0 + 1) = Some c ->
  code_at p (pc0 + 3) = Some w2 -> 0 <= t2 <= tlen e -> 0 < avail e o t2 ->
  char_test e k c (next_char e o t2) = true ->
  rsteps (mkr pc0 BackBit t0 (t2 :: t1 :: T) S C M)
         (mkr (pc0 + 3) 0 (t2 + dir o) (if 0 <? t1 then pc0 :: t2 + dir o :: t1 - 1 :: T else T) S C M).
Proof.
  intros H0 H1 H3 Ht Ha Hc. apply rsteps_one. intro r. unfold mkr. cbn [app].
  erewrite ustep_lazy_back_ok by eassumption. destruct (0 <? t1); reflexivity.
Qed.

Lemma rs_lazy_back_fail k o c pc0 t0 t2 t1 np T S C M w3 :
  code_at p pc0 = Some (loop_op k LLazy + bits_of o) -> code_at p (pc0 + 1) = Some c ->
  code_at p (Z.abs np) = Some w3 -> 0 <= t2 <= tlen e -> 0 < avail e o t2 ->
  char_test e k c (next_char e o t2) = false ->
  rsteps (mkr pc0 BackBit t0 (t2 :: t1 :: np :: T) S C M) (bkr np (t2 + dir o) T S C M).
Proof.
  intros H0 H1 H3 Ht Ha Hc. apply rsteps_one. intro r. unfold bkr, mkr. cbn [app].
  set (w := loop_op k LLazy + bits_of o) in *.
  assert (Hw : Z.land w 63 = loop_op k LLazy) by apply cp_land_bits, loop_op_range.
  assert (Hr : rtl_of w = is_rtl o) by apply rtl_of_bits, loop_op_range.
  clearbody w.
  start H0. rewrite Hw.
  destruct k; cbn -[opnd fwdnext brk advance tpush bump]; opn (pc0 + 1) H1; cbn [bind];
    rewrite (clf_fwdnext e o w Hr) by assumption;
    cbn [char_test] in Hc; rewrite Hc; fail_to H3; fin.
Qed.

End Ops4.

(* compile_correct for the QUICK program (writer with quickCaptureSlots, the program IsMatch-style entry
   points run): captures of slots that nothing reads are not emitted.

   Method: composition, no new interpreter proof.
     C02 (Proofs/EraseProofs.v)   compile {| capmap := cm; quick := Some q |} t
                                    = compile {| capmap := cm; quick := None |} (erase keep t)
                                  and the reference search on (erase keep t) agrees with the one on t in
                                  position and in every KEPT group, when no erased group is read (unobs);
     step 2 (Proofs/CompileCapmap.v) the full program of (erase keep t) under the slot map cm is correct.
   Hence: whenever the interpreter returns from the quick program it is at the final Stop, at the position of
   Spec.attempt on the ORIGINAL tree, and the slot of every kept group -- group 0 in particular -- denotes that
   group's reference capture stack; when Spec.attempt fails, group 0 is unset.

   Side conditions beyond step 2's: keep 0 = true and unobs keep root.  Both are theorems of C02 for the q that
   syntax.Write really uses (q = captureSlotsInUse of the full program): compile_correct_write_quick_exec_partial. *)
From Verif Require Import Base.Prelude Model.Tree Model.Spec Model.VM Model.Writer Gen.RunnerGen
  Proofs.SpecProofs Proofs.SpecBoundsProofs Proofs.MaskProofs Proofs.EraseProofs Proofs.EraseLinkProofs
  Proofs.VMU Proofs.VMUOps2 Proofs.CompileBase Proofs.CompileDefs Proofs.CompileProofs
  Proofs.CompileBalDen Proofs.CompileBalBase Proofs.CompileBalDefs Proofs.CompileBalCapture Proofs.CompileBal
  Proofs.CompileCapmap.
From Verif Require Import Proofs.ListFacts.
From Coq Require Import Relations ZifyBool.

(* ---------- erasing captures keeps the side conditions ---------- *)
Lemma cq_supported2_erase keep : forall t, supported2 (erase keep t) = supported2 t.
Proof.
  induction t as [kd o ch|kd lk o ch m n|o str|o g|an| | | |o l HF|o l HF|lazy o m n r IHr|o g u r IHr
                 |r IHr|o r IHr|o r IHr|r IHr|o g yes no IHy IHn|o cnd yes no IHc IHy IHn]
    using node_ind'; cbn [erase supported2]; try reflexivity; try assumption.
  - exact (c2_supported_list_map (erase keep) l HF).
  - exact (c2_supported_alt_map (erase keep) o o l HF).
  - rewrite IHr. reflexivity.
  - destruct ((u =? -1) && negb (keep g)); cbn [supported2]; exact IHr.
  - rewrite IHy. destruct no as [x|]; cbn [mask_opt_node opt_all] in *; [rewrite IHn|]; reflexivity.
  - rewrite IHc, IHy. destruct no as [x|]; cbn [mask_opt_node opt_all] in *; [rewrite IHn|]; reflexivity.
Qed.

Lemma cq_sb_all_list P (f h : node -> node) l :
  Forall (fun t => sb_all P (h t) -> sb_all P (h (f t))) l ->
  sb_all_list P (map h l) -> sb_all_list P (map h (map f l)).
Proof.
  induction 1 as [|x l Hx HF IH]; intros H; [exact I|].
  destruct H as [H1 H2]. split; [exact (Hx H1)|exact (IH H2)].
Qed.

Lemma cq_ren_ok_erase G keep : forall t, ren_ok G t -> ren_ok G (erase keep t).
Proof.
  unfold ren_ok.
  induction t as [kd o ch|kd lk o ch m n|o str|o g|an| | | |o l HF|o l HF|lazy o m n r IHr|o g u r IHr
                 |r IHr|o r IHr|o r IHr|r IHr|o g yes no IHy IHn|o cnd yes no IHc IHy IHn]
    using node_ind'; cbn [erase]; intros H; try exact H.
  - destruct H as [H0 H]. split; [exact I|]. rewrite <- (map_id (map _ l)). apply cq_sb_all_list; [exact HF|].
    rewrite map_id. exact H.
  - destruct H as [H0 H]. split; [exact I|]. rewrite <- (map_id (map _ l)). apply cq_sb_all_list; [exact HF|].
    rewrite map_id. exact H.
  - destruct H as [H0 H]. split; [exact I|]. exact (IHr H).
  - destruct H as [H0 H]. destruct ((u =? -1) && negb (keep g)).
    + split; [exact I|]. exact (IHr H).
    + split; [exact H0|]. exact (IHr H).
  - destruct H as [H0 H]. split; [exact I|]. exact (IHr H).
  - destruct H as [H0 H]. split; [exact I|]. exact (IHr H).
  - destruct H as [H0 H]. split; [exact I|]. exact (IHr H).
  - destruct H as [H0 H]. split; [exact I|]. exact (IHr H).
  - destruct H as [H0 [Hy Hn]]. split; [exact H0|]. split; [exact (IHy Hy)|].
    destruct no as [x|]; cbn [mask_opt_node opt_all] in *; [exact (IHn Hn)|exact I].
  - destruct H as [H0 [Hc [Hy Hn]]]. split; [exact I|]. split; [exact (IHc Hc)|]. split; [exact (IHy Hy)|].
    destruct no as [x|]; cbn [mask_opt_node opt_all] in *; [exact (IHn Hn)|exact I].
Qed.

Lemma cq_groups_ok_erase cs mc keep : forall t,
  groups_ok2 cs (ren_with mc t) -> groups_ok2 cs (ren_with mc (erase keep t)).
Proof.
  unfold groups_ok2.
  induction t as [kd o ch|kd lk o ch m n|o str|o g|an| | | |o l HF|o l HF|lazy o m n r IHr|o g u r IHr
                 |r IHr|o r IHr|o r IHr|r IHr|o g yes no IHy IHn|o cnd yes no IHc IHy IHn]
    using node_ind'; cbn [erase ren_with]; intros H; try exact H.
  - destruct H as [H0 H]. split; [exact I|]. exact (cq_sb_all_list _ _ _ l HF H).
  - destruct H as [H0 H]. split; [exact I|]. exact (cq_sb_all_list _ _ _ l HF H).
  - destruct H as [H0 H]. split; [exact I|]. exact (IHr H).
  - destruct H as [H0 H]. destruct ((u =? -1) && negb (keep g)); cbn [ren_with].
    + split; [exact I|]. exact (IHr H).
    + split; [exact H0|]. exact (IHr H).
  - destruct H as [H0 H]. split; [exact I|]. exact (IHr H).
  - destruct H as [H0 H]. split; [exact I|]. exact (IHr H).
  - destruct H as [H0 H]. split; [exact I|]. exact (IHr H).
  - destruct H as [H0 H]. split; [exact I|]. exact (IHr H).
  - destruct H as [H0 [Hy Hn]]. split; [exact H0|]. split; [exact (IHy Hy)|].
    destruct no as [x|]; cbn [mask_opt_node opt_all] in *; [exact (IHn Hn)|exact I].
  - destruct H as [H0 [Hc [Hy Hn]]]. split; [exact I|]. split; [exact (IHc Hc)|]. split; [exact (IHy Hy)|].
    destruct no as [x|]; cbn [mask_opt_node opt_all] in *; [exact (IHn Hn)|exact I].
Qed.

Lemma cq_capmap_ok cm : cm_good cm = true -> capmap_ok cm.
Proof.
  destruct cm as [m|]; cbn [cm_good capmap_ok]; [|intros _; exact I].
  intros H. apply andb_prop in H. destruct H as [_ Hm1].
  apply Forall_forall. intros kv Hin E. apply (in_map snd) in Hin. rewrite E in Hin.
  apply zmem_In in Hin. rewrite Hin in Hm1. discriminate.
Qed.

Section Top.
Variable e : env.
Variable p : program.
Variable cm : option (list (Z * Z)).
Variable q : list bool.
Notation cq := (quick_cfg cm q).
Notation cf := (full_cfg cm).
Notation keep := (quick_keep cm q).

(* the slot of every KEPT group denotes that group's reference capture stack *)
Definition caps_rel_quick (cp : caps_t) (M : list (list Z)) : Prop :=
  zlen M = capsize p /\
  forall g, keep g = true -> cm_G cm g -> 0 <= map_capnum cf g < capsize p ->
    exists ps, nth (Z.to_nat (map_capnum cf g)) M [] = flat (rev ps) /\ Den ps (cap_get g cp).

Theorem compile_correct_quick_exec_partial :
  0 <= trackcount p -> tlen e <= INF ->
  forall L fuel vfuel o body t0 r s',
  let root := NCapture o 0 (-1) body in
  let M0 := repeat [] (Z.to_nat (capsize p)) in
  let stop := 2 + csize cq root in
  codes p = fst (compile cq root) -> strings p = snd (compile cq root) ->
  supported2 root = true -> cm_good cm = true -> map_capnum cf 0 = 0 ->
  keep 0 = true -> unobs keep root ->
  ren_ok (cm_G cm) root -> groups_ok2 (capsize p) (ren cf root) ->
  0 <= t0 <= tlen e -> Z.of_nat fuel <= INF ->
  attempt e fuel root t0 = Ok r ->
  exec_at e p L vfuel t0 = Ok s' ->
  pc s' = stop /\ mode s' = 0 /\
  match r with
  | Some q0 => tp s' = pos q0 /\ caps_rel_quick (caps q0) (mcaps s') /\ matched0 s' = true
  | None => mcaps s' = M0 /\ matched0 s' = false
  end.
Proof.
  intros Htc Htl L fuel vfuel o body t0 r s' root M0 stop Hcodes Hstr Hs Hgood H0 Hk0 Hun Hok Hg Ht0 Hf Hatt Hex.
  pose proof (cq_capmap_ok cm Hgood) as Hcok.
  pose proof (er_capmap_ok_bal_ok cm Hcok root) as Hbal.
  assert (Her : erase keep root = NCapture o 0 (-1) (erase keep body)).
  { unfold root. cbn [erase]. rewrite Hk0. reflexivity. }
  pose proof (erase_attempt e keep fuel root t0 Hun) as Hsim. rewrite Hatt in Hsim.
  destruct (attempt e fuel (erase keep root) t0) as [r'| | |] eqn:Hatt'; cbn [rrel] in Hsim; try contradiction.
  rewrite Her in Hatt'.
  rewrite (erase_compile cm q root Hbal), Her in Hcodes, Hstr.
  assert (Hs' : supported2 (NCapture o 0 (-1) (erase keep body)) = true).
  { rewrite <- Her, cq_supported2_erase. exact Hs. }
  assert (Hok' : ren_ok (cm_G cm) (NCapture o 0 (-1) (erase keep body))).
  { rewrite <- Her. apply cq_ren_ok_erase. exact Hok. }
  assert (Hg' : groups_ok2 (capsize p) (ren cf (NCapture o 0 (-1) (erase keep body)))).
  { rewrite <- Her. unfold ren. apply cq_groups_ok_erase. exact Hg. }
  destruct (compile_correct_capmap_exec_partial e p cm Htc Htl L fuel vfuel o (erase keep body) t0 r' s'
              Hcodes Hstr Hs' Hgood H0 Hok' Hg' Ht0 Hf Hatt' Hex) as (Hpc & Hmd & Hres).
  split. { unfold stop. rewrite (erase_csize cm q root Hbal), Her. exact Hpc. }
  split; [exact Hmd|].
  destruct r as [q0|], r' as [q'|]; cbn [opt_agree] in Hsim; try contradiction.
  - destruct Hres as (Htp & Hcr & Hm0). destruct Hsim as [Hpq Hcq].
    split; [congruence|]. split; [|exact Hm0].
    destruct Hcr as [Hl Hc]. split; [exact Hl|].
    intros g Hkg HG Hslot. destruct (Hc g HG Hslot) as (ps & Ea & Hd). exists ps. split; [exact Ea|].
    rewrite (Hcq g Hkg). exact Hd.
  - exact Hres.
Qed.

End Top.

Print Assumptions compile_correct_quick_exec_partial.

(* ... for the quick program syntax.Write really produces: q = captureSlotsInUse of the full program.
   keep 0 and unobs are then theorems (EraseLinkProofs.quick_keep_slot0 / quick_keep_unobs). *)
Theorem compile_correct_write_quick_exec_partial :
  forall (e : env) (p : program) cm csz, 0 <= trackcount p -> tlen e <= INF ->
  forall L fuel vfuel o body t0 r s' prog,
  let root := NCapture o 0 (-1) body in
  let qv := slots_in_use (fst (write_full cm root)) csz in
  let M0 := repeat [] (Z.to_nat (capsize p)) in
  write_quick cm csz root = Some prog ->
  codes p = prog -> strings p = snd (compile (quick_cfg cm qv) root) ->
  supported2 root = true -> cm_good cm = true -> map_capnum (full_cfg cm) 0 = 0 ->
  (forall g, reads g root = true -> 0 <= map_capnum (full_cfg cm) g) ->
  ren_ok (cm_G cm) root -> groups_ok2 (capsize p) (ren (full_cfg cm) root) ->
  0 <= t0 <= tlen e -> Z.of_nat fuel <= INF ->
  attempt e fuel root t0 = Ok r ->
  exec_at e p L vfuel t0 = Ok s' ->
  pc s' = 2 + csize (quick_cfg cm qv) root /\ mode s' = 0 /\
  match r with
  | Some q0 => tp s' = pos q0 /\ caps_rel_quick p cm qv (caps q0) (mcaps s') /\ matched0 s' = true
  | None => mcaps s' = M0 /\ matched0 s' = false
  end.
Proof.
  intros e p cm csz Htc Htl L fuel vfuel o body t0 r s' prog root qv M0 Hw Hcodes Hstr Hs Hgood H0 Hpos Hok Hg Ht0 Hf Hatt Hex.
  pose proof (er_capmap_ok_bal_ok cm (cq_capmap_ok cm Hgood) root) as Hbal.
  assert (Hprog : prog = fst (compile (quick_cfg cm qv) root)).
  { unfold write_quick in Hw. cbv zeta in Hw. destruct (existsb negb _); [|discriminate Hw].
    injection Hw as Hw. symmetry. exact Hw. }
  apply (compile_correct_quick_exec_partial e p cm qv Htc Htl L fuel vfuel o body t0 r s'); try assumption.
  - rewrite Hcodes. exact Hprog.
  - apply (quick_keep_slot0 cm csz root 0 Hbal H0).
  - apply (quick_keep_unobs cm csz root Hbal Hpos).
Qed.

Print Assumptions compile_correct_write_quick_exec_partial.

(* ---------- a concrete instance: (a)(b)\1 on "aba" -- slot 2 is unobservable and not captured ---------- *)
Example cquick_demo :
  let root := NCapture 0 0 (-1) (NConcat 0 [NCapture 0 1 (-1) (NChar COne 0 97); NCapture 0 2 (-1) (NChar COne 0 98); NRef 0 1]) in
  let qv := slots_in_use (fst (write_full None root)) 3 in
  let e := cc_demo_env2 [97; 98; 97] in
  qv = [true; true; false] /\
  (exists prog, write_quick None 3 root = Some prog /\
     let p := {| codes := prog; strings := snd (compile (quick_cfg None qv) root);
                 trackcount := track_count prog; capsize := 3 |} in
     attempt e 20 root 0 = Ok (Some {| pos := 3; caps := [(1, [(0, 1)]); (2, [(1, 1)]); (0, [(0, 3)])] |}) /\
     exists s', exec_at e p (-1) 5 0 = Ok s' /\ tp s' = 3 /\ mcaps s' = [[0; 3]; [0; 1]; []]).
Proof.
  cbv zeta. split; [vm_compute; reflexivity|]. eexists. split; [vm_compute; reflexivity|].
  split; [vm_compute; reflexivity|]. eexists. split; [vm_compute; reflexivity|]. split; reflexivity.
Qed.

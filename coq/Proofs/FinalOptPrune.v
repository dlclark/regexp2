(* C05, proofs part 2b (used from part 6 on): "same first result, and only P-states dropped" (hpr), from EVERY state.
   Used for FindLastExpressionInLoopForAutoAtomic inside eliminateEndingBacktracking: the last child L of the body of
   a loop at the END of the pattern is made atomic; the states L no longer stops at (P: the next character passes L's
   test) are states where the body, which begins with a node disjoint from L, has no result at all; so iterating
   again from them fails and the loop loses these states only, never its first result. *)
From Verif Require Import Base.Prelude Model.Tree Model.Spec Model.Rewrite
  Proofs.SpecProofs Proofs.SpecBoundsProofs Proofs.SpecTermProofs Proofs.RewriteProofs Proofs.FinalOptDen Proofs.FinalOptK.
From Coq Require Import ZifyBool.

Definition hpr {A} (P : A -> Prop) (l l' : list A) : Prop := drops P l l' /\ hq l l'.

Lemma hpr_refl {A} (P : A -> Prop) l : hpr P l l.
Proof. split; [apply drops_refl | apply hq_refl]. Qed.

Lemma hpr_nil_iff {A} (P : A -> Prop) l l' : hpr P l l' -> (l = [] <-> l' = []).
Proof. intros [_ H]. apply hq_nil_iff. exact H. Qed.

Lemma hpr_app {A} (P : A -> Prop) a a' b b' : hpr P a a' -> hpr P b b' -> hpr P (a ++ b) (a' ++ b').
Proof. intros [H1 H2] [H3 H4]. split; [apply drops_app; assumption | apply hq_app; assumption]. Qed.

Lemma hpr_flat_map_same {A} (P : A -> Prop) (G G' : A -> list A) l :
  (forall a, hpr P (G a) (G' a)) -> hpr P (flat_map G l) (flat_map G' l).
Proof. intros H. induction l as [|a l IH]; cbn [flat_map]; [apply hpr_refl | apply hpr_app; [apply H | exact IH]]. Qed.

Lemma hpr_flat_map_single {A} (P : A -> Prop) (F : A -> list A) l l' :
  (forall a, exists b, F a = [b] /\ (P a -> P b)) -> hpr P l l' -> hpr P (flat_map F l) (flat_map F l').
Proof.
  intros HF [Hd Hh]. split.
  - apply drops_flat_map; [|exact Hd]. intros a Ha. destruct (HF a) as (b & -> & Hb). constructor; [apply Hb; exact Ha | constructor].
  - unfold hq in *. destruct l as [|x l], l' as [|x' l']; cbn in Hh; try discriminate; [reflexivity|].
    injection Hh as <-. cbn [flat_map]. destruct (HF x) as (b & -> & _). reflexivity.
Qed.

Lemma drops_Forall {A} (P : A -> Prop) l l' : drops P l l' -> Forall P l' -> Forall P l.
Proof.
  induction 1; intros HF; [constructor | |].
  - inversion HF; subst. constructor; auto.
  - constructor; auto.
Qed.

Lemma hq_app_nonempty {A} (a a' b b' : list A) : a <> [] -> hq a a' -> hq (a ++ b) (a' ++ b').
Proof. unfold hq. intros Hne H. destruct a as [|x a]; [contradiction|]. destruct a' as [|x' a']; cbn in *; [discriminate | exact H]. Qed.

Section PruneIter.
Variable P : st -> Prop.
Variables B B' : st -> list st.
Hypothesis HB : forall s, hpr P (B s) (B' s).
Hypothesis HdB' : forall q, P q -> B' q = [].
Variable lazy : bool.
Variable limit : Z.
Hypothesis Hlim : 0 <= limit.

Lemma HdB q : P q -> B q = [].
Proof. intros Hq. apply (hpr_nil_iff P _ _ (HB q)). apply HdB'. exact Hq. Qed.

(* from a P-state there is no further iteration *)
Lemma iterD_dead (X : st -> list st) q mark count : X q = [] ->
  iterD X lazy limit q mark count = if count <? 0 then [] else [q].
Proof.
  intros Hq. rewrite fd_iterD_eq. unfold iter_again. rewrite Hq. cbn [flat_map app]. destruct lazy.
  - destruct (count <? 0); [reflexivity|]. destruct ((count <? limit) && negb (pos q =? mark)); reflexivity.
  - destruct ((limit <=? count) || (pos q =? mark) && (0 <=? count)) eqn:E.
    + replace (count <? 0) with false by lia. reflexivity.
    + destruct (0 <=? count) eqn:E0; [replace (count <? 0) with false by lia | replace (count <? 0) with true by lia]; reflexivity.
Qed.

Lemma iterD_nonempty (X : st -> list st) a mark count : 0 <= count -> iterD X lazy limit a mark count <> [].
Proof.
  intros Hc. rewrite fd_iterD_eq. destruct lazy.
  - replace (count <? 0) with false by lia. discriminate.
  - destruct ((limit <=? count) || (pos a =? mark) && (0 <=? count)); [discriminate|].
    replace (0 <=? count) with true by lia. intros E. apply app_eq_nil in E. destruct E as [_ E]. discriminate.
Qed.

(* one more round: the bodies' results, each followed by the remaining iterations *)
Lemma again_hpr mk c :
  (forall s', hpr P (iterD B lazy limit s' mk c) (iterD B' lazy limit s' mk c)) ->
  forall s, hpr P (flat_map (fun s' => iterD B lazy limit s' mk c) (B s)) (flat_map (fun s' => iterD B' lazy limit s' mk c) (B' s)).
Proof.
  intros IH s. destruct (HB s) as [Hd Hh]. split.
  - clear Hh. induction Hd as [|a l l' Hd IHd|q l l' Hq Hd IHd]; cbn [flat_map]; [constructor | |].
    + apply drops_app; [apply (IH a) | exact IHd].
    + apply drops_all; [|exact IHd].
      apply (drops_Forall P _ (iterD B' lazy limit q mk c)); [apply (IH q)|].
      rewrite (iterD_dead B' q mk c (HdB' q Hq)). destruct (c <? 0); constructor; [exact Hq | constructor].
  - destruct (Z_lt_ge_dec c 0) as [Hneg|Hnn].
    + (* iterations still owed: a dropped state contributes nothing on either side *)
      clear Hh. induction Hd as [|a l l' Hd IHd|q l l' Hq Hd IHd]; cbn [flat_map]; [apply hq_refl | |].
      * apply hq_app; [apply (IH a) | exact IHd].
      * rewrite (iterD_dead B q mk c (HdB q Hq)). replace (c <? 0) with true by lia. exact IHd.
    + (* the first body result leads the way on both sides *)
      unfold hq in Hh. destruct (B s) as [|x l], (B' s) as [|x' l']; cbn in Hh; try discriminate; [apply hq_refl|].
      injection Hh as <-. cbn [flat_map]. apply hq_app_nonempty; [apply iterD_nonempty; lia | apply (IH x)].
Qed.

Lemma iter_hpr : forall n s mark count, iter_fuel limit count = n ->
  hpr P (iterD B lazy limit s mark count) (iterD B' lazy limit s mark count).
Proof.
  induction n as [n IH] using lt_wf_ind. intros s mark count Hn.
  rewrite !fd_iterD_eq.
  assert (Hag : (count < 0 \/ count < limit) -> hpr P (iter_again B lazy limit s count) (iter_again B' lazy limit s count)).
  { intros Hc. unfold iter_again. apply again_hpr. intros s'.
    apply (IH (iter_fuel limit (count + 1))); [subst n; unfold iter_fuel; lia | reflexivity]. }
  destruct lazy.
  - destruct (count <? 0) eqn:Ec; [apply Hag; lia|].
    apply (hpr_app P [s] [s]); [apply hpr_refl|].
    destruct ((count <? limit) && negb (pos s =? mark)) eqn:E2; [apply Hag; lia | apply hpr_refl].
  - destruct ((limit <=? count) || (pos s =? mark) && (0 <=? count)) eqn:E1; [apply hpr_refl|].
    apply hpr_app; [apply Hag; lia | apply hpr_refl].
Qed.

End PruneIter.

Section PruneLoop.
Variable e : env.
Notation den := (den e).

Lemma loop_limit_nonneg m n : m <= n -> 0 <= loop_limit m n.
Proof. unfold loop_limit. intros. destruct (n =? INF); [unfold INF|]; lia. Qed.

Lemma loop_hpr (P : st -> Prop) lazy o m n r r' : 0 <= loop_limit m n ->
  (forall s, hpr P (den r s) (den r' s)) -> (forall q, P q -> den r' q = []) ->
  forall s, hpr P (den (NLoop lazy o m n r) s) (den (NLoop lazy o m n r') s).
Proof.
  intros Hlim HB Hd s. rewrite !fd_den_loop. destruct (m =? 0).
  - apply (iter_hpr P _ _ HB Hd lazy _ Hlim _ _ _ _ eq_refl).
  - apply (again_hpr P _ _ HB Hd lazy _ Hlim). intros s'. apply (iter_hpr P _ _ HB Hd lazy _ Hlim _ _ _ _ eq_refl).
Qed.

End PruneLoop.

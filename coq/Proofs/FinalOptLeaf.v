(* C05, proofs part 4: what canBeMadeAtomic's comparison of a loop with ONE successor node (tree.go:939-1005,
   Model/FinalOpt.fo_verdict) means.  [PQ n a]: the state a is one at which the loop n may have stopped early:
   the next character passes the loop's test, and when the loop's minimum is positive so does the previous one.
     verdict 1 ("true")        : the successor has no result from such a state;
     verdict 2 ("look further"): the successor is a nullable loop that matches the empty string there and always
                                 matches somewhere (stay, total), or a \b that fails there (dead), or a \B (an
                                 anchor: stays or fails). *)
From Verif Require Import Base.Prelude Model.Tree Model.Spec Model.Rewrite Model.ParseLit Model.CharClass Model.Parser
  Model.FinalOpt
  Proofs.SpecProofs Proofs.SpecBoundsProofs Proofs.RewriteProofs
  Proofs.CharClassRanges Proofs.CharClassProofs Proofs.CharClassElab Proofs.CharClassOverlap
  Proofs.FinalOptDen Proofs.FinalOptK Proofs.FinalOptLink.
From Coq Require Import ZifyBool.

(* the types of the single-character nodes: One, Notone, Set and their loops *)
Definition fam (t : Z) : bool := is_one_family t || is_notone_family t || is_set_family t.
(* arithmetic on these types needs their numbers *)
Ltac fam_unfold := unfold fam, is_one_family, is_notone_family, is_set_family, is_oneloop_family, is_notoneloop_family,
  is_setloop_family, T_One, T_Oneloop, T_Onelazy, T_Oneloopatomic, T_Notone, T_Notoneloop, T_Notonelazy, T_Notoneloopatomic,
  T_Set, T_Setloop, T_Setlazy, T_Setloopatomic in *.

Section Leaf.
Variable cat_in : Z -> Z -> bool.
Variables isw isew : Z -> bool.
Variable sid : cls -> Z.
Variable e : env.
Variable sets : list cls.

(* the environment interprets the set ids of the tree as class membership, its word tests are the oracles the
   code consulted, and three facts about those oracles (syntax.IsWordChar is the "W" category, a decimal digit is
   a word character, the ECMAScript \w characters are ECMAScript word characters; white space is neither digit
   nor word character: Proofs/CharClassOverlap.space_facts) *)
Record env_ok : Prop := {
  eo_set : forall c, In c sets -> forall x, set_in e (sid c) x = char_in cat_in c x;
  eo_word : forall x, is_word e x = isw x;
  eo_eword : forall x, is_eword e x = isew x;
  eo_catword : forall x, cat_in cat_word x = isw x;
  eo_nd_word : forall x, cat_in cat_Nd x = true -> isw x = true;
  eo_ecma : forall x, mem ecma_word_ranges x = true -> isew x = true;
  eo_space : space_facts cat_in
}.
Hypothesis Henv : env_ok.

Notation den := (den e).
Notation sok := (st_ok e).
Notation tr := (tr sid).

(* every set of the tree is one the environment knows *)
Fixpoint sets_in (x : rnode) : Prop :=
  match x with
  | RN _ _ _ _ _ _ st kids =>
      match st with Some c => In c sets | None => True end /\
      (fix go (ks : list rnode) : Prop := match ks with [] => True | k :: r => sets_in k /\ go r end) kids
  end.
Lemma sets_in_here x c : sets_in x -> n_set x = Some c -> In c sets.
Proof. destruct x as [t o ch m n str st kids]. cbn. intros [H _] ->. exact H. Qed.
Lemma sets_in_kid x k : sets_in x -> In k (n_kids x) -> sets_in k.
Proof.
  destruct x as [t o ch m n str st kids]. cbn [sets_in n_kids]. intros [_ H].
  induction kids as [|k0 kids IH]; intros Hin; [destruct Hin|].
  destruct H as [H0 H1]. destruct Hin as [<-|Hin]; [exact H0 | apply IH; assumption].
Qed.

(* the single-character test of a node of the One / Notone / Set families, on the raw node *)
Definition rtest (n : rnode) (x : Z) : bool :=
  let t := n_t n in
  if is_one_family t then x =? n_ch n
  else if is_notone_family t then negb (x =? n_ch n)
  else match n_set n with Some c => char_in cat_in c x | None => false end.

Definition PQ (n : rnode) (a : st) : Prop :=
  pos a < tlen e /\ rtest n (char_at e (pos a)) = true /\
  (0 < n_m n -> 0 < pos a /\ rtest n (char_at e (pos a - 1)) = true).

(* the next character passes the loop's test: any state at all *)
Definition NQ (n : rnode) (a : st) : Prop := pos a < tlen e /\ rtest n (char_at e (pos a)) = true.

Lemma PQ_pos n a b : pos a = pos b -> PQ n a -> PQ n b.
Proof. unfold PQ. intros ->. tauto. Qed.

Definition ltr (o : Z) : Prop := is_rtl o = false.

Lemma useRTL_is_rtl o : useRTL o = is_rtl o.
Proof. reflexivity. Qed.

Lemma fam_cases t : fam t = true ->
  t = 3 \/ t = 4 \/ t = 5 \/ t = 6 \/ t = 7 \/ t = 8 \/ t = 9 \/ t = 10 \/ t = 11 \/ t = 43 \/ t = 44 \/ t = 45.
Proof.
  unfold fam, is_one_family, is_notone_family, is_set_family, T_One, T_Oneloop, T_Onelazy, T_Oneloopatomic,
    T_Notone, T_Notoneloop, T_Notonelazy, T_Notoneloopatomic, T_Set, T_Setloop, T_Setlazy, T_Setloopatomic. lia.
Qed.

Lemma fam_leaf s : fam (n_t s) = true -> fo_wf s = true -> n_kids s = [].
Proof.
  intros Hf Hwf. pose proof (fo_wf_arity s Hwf) as Ha.
  destruct (fam_cases _ Hf) as [E|[E|[E|[E|[E|[E|[E|[E|[E|[E|[E|E]]]]]]]]]]]; rewrite E in Ha;
    cbn in Ha; destruct (n_kids s); try reflexivity; discriminate.
Qed.

Lemma fam_set s : is_set_family (n_t s) = true -> fo_wf s = true -> sets_in s ->
  exists cs, n_set s = Some cs /\ In cs sets /\ cls_okb cs = true.
Proof.
  intros E Hwf Hs. rewrite fo_wf_unfold in Hwf. rewrite E in Hwf. destruct (n_set s) as [cs|] eqn:Es.
  - exists cs. split; [reflexivity|]. split; [exact (sets_in_here s cs Hs Es)|].
    repeat (apply andb_prop in Hwf; destruct Hwf as [Hwf ?]). assumption.
  - rewrite !andb_false_r in Hwf. cbn in Hwf. discriminate.
Qed.

(* the semantic test of a family node is the raw test *)
Lemma fam_kind s : fam (n_t s) = true -> fo_wf s = true -> sets_in s ->
  exists k c, (forall x, char_test e k c x = rtest s x) /\
    ((n_t s = T_One \/ n_t s = T_Notone \/ n_t s = T_Set) /\ tr s = NChar k (n_o s) c \/
     exists l, lk_of (n_t s) = Some (k, l) /\ tr s = NCharLoop k l (n_o s) c (n_m s) (n_n s)).
Proof.
  intros Hf Hwf Hs.
  pose proof (fun E => fam_set s E Hwf Hs) as Hset.
  rewrite tr_unfold. unfold tr_node. cbv zeta. unfold rtest.
  (* twelve types: the kind (One, Notone, Set: its set is one of the environment's), then single character or loop *)
  destruct (fam_cases _ Hf) as [E|[E|[E|[E|[E|[E|[E|[E|[E|[E|[E|E]]]]]]]]]]]; rewrite E in *; cbn in Hset |- *;
    first [ destruct (Hset eq_refl) as [cs [Es [Hin _]]]; rewrite Es; exists CSet, (sid cs); split; [intros x; apply (eo_set Henv cs Hin)|]
          | exists COne, (n_ch s); split; [reflexivity|]
          | exists CNotone, (n_ch s); split; [reflexivity|] ];
    first [ left; split; [tauto|reflexivity] | right; eexists; split; reflexivity ].
Qed.

Lemma ltr_avail o p : ltr o -> avail e o p = tlen e - p.
Proof. unfold ltr, avail. intros ->. reflexivity. Qed.
Lemma ltr_next o p : ltr o -> next_char e o p = char_at e p.
Proof. unfold ltr, next_char. intros ->. reflexivity. Qed.
Lemma ltr_dir o : ltr o -> dir o = 1.
Proof. unfold ltr, dir. intros ->. reflexivity. Qed.

Lemma run_len_first_fails k c o n p : char_test e k c (next_char e o p) = false -> run_len e k c o n p = 0.
Proof. intros H. destruct n; cbn [run_len]; [reflexivity|]. rewrite H, andb_false_r. reflexivity. Qed.

(* a single character, or a loop that must iterate, whose test rejects the next character *)
Lemma dead_fam s : fam (n_t s) = true -> fo_wf s = true -> sets_in s -> ltr (n_o s) ->
  ((n_t s = T_One \/ n_t s = T_Notone \/ n_t s = T_Set) \/ 0 < n_m s) ->
  forall a, rtest s (char_at e (pos a)) = false -> den (tr s) a = [].
Proof.
  intros Hf Hwf Hs Hl Hm a Hr.
  destruct (fam_kind s Hf Hwf Hs) as (k & c & Ht & [[Hsing Etr] | [l [El Etr]]]); rewrite Etr.
  - rewrite fd_den_char, (ltr_next _ _ Hl), Ht, Hr, andb_false_r. reflexivity.
  - assert (Hm' : 0 < n_m s).
    { destruct Hm as [Hs'|Hm]; [|exact Hm]. exfalso. unfold lk_of in El.
      destruct Hs' as [E|[E|E]]; rewrite E in El; cbn in El; discriminate. }
    rewrite fd_den_charloop. unfold sem_charloop.
    rewrite run_len_first_fails by (rewrite (ltr_next _ _ Hl), Ht; exact Hr).
    replace (0 <? n_m s) with true by lia. reflexivity.
Qed.

(* a nullable loop whose test rejects the next character matches the empty string there *)
Lemma stay_fam0 s kl : lk_of (n_t s) = Some kl -> fam (n_t s) = true -> fo_wf s = true -> sets_in s -> ltr (n_o s) -> n_m s = 0 ->
  forall a, rtest s (char_at e (pos a)) = false -> den (tr s) a = [a].
Proof.
  intros El0 Hf Hwf Hs Hl Hm a Hr.
  destruct (fam_kind s Hf Hwf Hs) as (k & c & Ht & [[Hsing Etr] | [l [El Etr]]]).
  - exfalso. unfold lk_of in El0. destruct Hsing as [E|[E|E]]; rewrite E in El0; cbn in El0; discriminate.
  - rewrite Etr, fd_den_charloop. unfold sem_charloop.
    rewrite run_len_first_fails by (rewrite (ltr_next _ _ Hl), Ht; exact Hr).
    rewrite Hm. change (0 <? 0) with false. cbv iota. rewrite (ltr_dir _ Hl).
    assert (Hmk : with_pos a (pos a + 1 * 0) = a) by (replace (pos a + 1 * 0) with (pos a) by lia; apply with_pos_same).
    destruct l; [change (count_down 0 0) with [0] | change (count_up 0 0) with [0] | ]; cbn [map]; rewrite Hmk; reflexivity.
Qed.

Lemma total_fam0 s kl : lk_of (n_t s) = Some kl -> fam (n_t s) = true -> fo_wf s = true -> sets_in s -> n_m s = 0 ->
  forall a, den (tr s) a <> [].
Proof.
  intros El0 Hf Hwf Hs Hm a.
  destruct (fam_kind s Hf Hwf Hs) as (k & c & Ht & [[Hsing Etr] | [l [El Etr]]]).
  - exfalso. unfold lk_of in El0. destruct Hsing as [E|[E|E]]; rewrite E in El0; cbn in El0; discriminate.
  - rewrite Etr, Hm. apply (always_matches_charloop0 e k l (n_o s) c (n_n s) a). apply fd_den_evals.
Qed.

Lemma tr_multi s : n_t s = T_Multi -> tr s = NMulti (n_o s) (n_str s).
Proof. intros H. rewrite tr_unfold. unfold tr_node. cbv zeta. rewrite H. reflexivity. Qed.

Lemma is_ci_useI o : is_ci o = useI o.
Proof. reflexivity. Qed.

Lemma dead_multi s c0 rest : n_t s = T_Multi -> fo_wf s = true -> ltr (n_o s) -> n_str s = c0 :: rest ->
  forall a, (char_at e (pos a) =? c0) = false -> den (tr s) a = [].
Proof.
  intros Ht Hwf Hl Hstr a Hc. rewrite (tr_multi s Ht), fd_den_multi. unfold sem_multi.
  destruct (avail e (n_o s) (pos a) <? zlen (n_str s)); [reflexivity|].
  unfold ltr in Hl. rewrite Hl.
  assert (Hci : is_ci (n_o s) = false).
  { rewrite fo_wf_unfold, Ht in Hwf. cbn in Hwf. rewrite is_ci_useI.
    repeat (apply andb_prop in Hwf; destruct Hwf as [Hwf ?]).
    match goal with H : negb (fo_is_nil _) && negb (useI _) = true |- _ => apply andb_prop in H; destruct H as [_ H] end.
    destruct (useI (n_o s)); [discriminate|reflexivity]. }
  rewrite Hci, Hstr. cbn [str_match_at]. replace (c0 =? char_at e (pos a)) with false by lia. reflexivity.
Qed.

Lemma tr_anchor s a : n_t s = anchor_code a -> tr s = NAnchor a.
Proof. intros H. rewrite tr_unfold. unfold tr_node. cbv zeta. rewrite H. destruct a; reflexivity. Qed.

Lemma stay_anchor a s : den (NAnchor a) s = [s] \/ den (NAnchor a) s = [].
Proof. rewrite fd_den_anchor. destruct (anchor_ok e a (pos s)); auto. Qed.

Lemma dead_end n a : NQ n a -> den (NAnchor AEnd) a = [].
Proof. intros (Hp & _). rewrite fd_den_anchor. cbn [anchor_ok]. replace (tlen e <=? pos a) with false by lia. reflexivity. Qed.

Lemma dead_eol n a : rtest n 10 = false -> NQ n a -> den (NAnchor AEol) a = [].
Proof.
  intros H10 (Hp & Ht). rewrite fd_den_anchor. cbn [anchor_ok].
  replace (tlen e <=? pos a) with false by lia.
  destruct (char_at e (pos a) =? 10) eqn:E; [|reflexivity].
  assert (char_at e (pos a) = 10) as E' by lia. rewrite E' in Ht. congruence.
Qed.

Lemma dead_endz n a : rtest n 10 = false -> NQ n a -> den (NAnchor AEndZ) a = [].
Proof.
  intros H10 (Hp & Ht). rewrite fd_den_anchor. cbn [anchor_ok].
  destruct (1 <? tlen e - pos a) eqn:E1; [reflexivity|].
  destruct (endz_strict e); [replace (tlen e - pos a <=? 0) with false by lia; reflexivity|].
  replace (tlen e - pos a =? 1) with true by lia.
  destruct (char_at e (pos a) =? 10) eqn:E; [|reflexivity].
  assert (char_at e (pos a) = 10) as E' by lia. rewrite E' in Ht. congruence.
Qed.

(* a \b between two characters the loop accepts, when every such character is a word character *)
Lemma dead_boundary n a (w : Z -> bool) an :
  (an = ABoundary /\ w = is_word e) \/ (an = AECMABoundary /\ w = is_eword e) ->
  0 < n_m n -> (forall x, rtest n x = true -> w x = true) ->
  PQ n a -> den (NAnchor an) a = [].
Proof.
  intros Han Hm Hw (Hp & Ht & Hprev). destruct (Hprev Hm) as [Hp0 Htp].
  rewrite fd_den_anchor.
  assert (Hb : is_boundary e w (pos a) = false).
  { unfold is_boundary. replace (0 <? pos a) with true by lia. replace (pos a <? tlen e) with true by lia.
    rewrite (Hw _ Ht), (Hw _ Htp). reflexivity. }
  destruct Han as [[-> ->]|[-> ->]]; cbn [anchor_ok]; rewrite Hb; reflexivity.
Qed.

(* the three kinds of single-character nodes at once *)
Definition kfam (k : ckind) (t : Z) : bool :=
  match k with COne => is_one_family t | CNotone => is_notone_family t | CSet => is_set_family t end.
Definition ktest (k : ckind) (s : rnode) (x : Z) : bool :=
  match k with
  | COne => x =? n_ch s
  | CNotone => negb (x =? n_ch s)
  | CSet => match n_set s with Some c => char_in cat_in c x | None => false end
  end.
Lemma rtest_k k s x : kfam k (n_t s) = true -> rtest s x = ktest k s x.
Proof.
  unfold rtest. destruct k; cbn [kfam ktest]; intros H.
  - rewrite H. reflexivity.
  - rewrite H. replace (is_one_family (n_t s)) with false by (revert H; clear; fam_unfold; lia). reflexivity.
  - replace (is_one_family (n_t s)) with false by (revert H; clear; fam_unfold; lia).
    replace (is_notone_family (n_t s)) with false by (revert H; clear; fam_unfold; lia). reflexivity.
Qed.
Lemma kfam_fam k t : kfam k t = true -> fam t = true.
Proof. unfold fam. destruct k; cbn [kfam]; intros ->; rewrite ?orb_true_r; reflexivity. Qed.

(* what a guard of fo_verdict says of the successor: it takes a character of kind k; it is a nullable loop of kind k *)
Definition takes (k : ckind) (s : rnode) : Prop :=
  kfam k (n_t s) = true /\ ((n_t s = T_One \/ n_t s = T_Notone \/ n_t s = T_Set) \/ 0 < n_m s).
Definition nullable (k : ckind) (s : rnode) : Prop :=
  kfam k (n_t s) = true /\ (n_t s <> T_One /\ n_t s <> T_Notone /\ n_t s <> T_Set) /\ n_m s = 0.
Definition ksingle (k : ckind) : Z := match k with COne => T_One | CNotone => T_Notone | CSet => T_Set end.
Definition kloop (k : ckind) (t : Z) : bool :=
  match k with COne => is_oneloop_family t | CNotone => is_notoneloop_family t | CSet => is_setloop_family t end.
Lemma takes_single k s : (n_t s =? ksingle k) = true -> takes k s.
Proof. clear. unfold takes. destruct k; cbn [kfam ksingle]; fam_unfold; lia. Qed.
Lemma takes_fam k s : kfam k (n_t s) && (0 <? n_m s) = true -> takes k s.
Proof. clear. unfold takes. destruct k; cbn [kfam]; lia. Qed.
Lemma takes_loop k s : kloop k (n_t s) && (0 <? n_m s) = true -> takes k s.
Proof. clear. unfold takes. destruct k; cbn [kfam kloop]; fam_unfold; lia. Qed.
Lemma nullable_loop k s : kloop k (n_t s) && (n_m s =? 0) = true -> nullable k s.
Proof. clear. unfold nullable. destruct k; cbn [kfam kloop]; fam_unfold; lia. Qed.

Lemma fo_any_true l : fo_any l = Ok true -> exists c k, In (c, k) l /\ c = true /\ k tt = Ok true.
Proof.
  induction l as [|[c k] l IH]; cbn [fo_any]; intros H; [discriminate|].
  destruct c.
  - destruct (k tt) as [b| | |] eqn:Ek; cbn [bind] in H; try discriminate.
    destruct b.
    + exists true, k. split; [left; reflexivity|]. split; [reflexivity|exact Ek].
    + destruct (IH H) as (c' & k' & Hin & Hc & Hk). exists c', k'. split; [right; exact Hin|]. split; assumption.
  - destruct (IH H) as (c' & k' & Hin & Hc & Hk). exists c', k'. split; [right; exact Hin|]. split; assumption.
Qed.

Lemma two_inv (yes skip : list (bool * (unit -> res bool))) v :
  (do y <- fo_any yes ; if y then Ok 1 else do k <- fo_any skip ; Ok (if k then 2 else 0)) = Ok v ->
  (v = 1 /\ fo_any yes = Ok true) \/ (v = 2 /\ fo_any skip = Ok true) \/ v = 0.
Proof.
  destruct (fo_any yes) as [y| | |]; cbn [bind]; try discriminate. destruct y.
  - intros H. injection H as <-. left. split; reflexivity.
  - destruct (fo_any skip) as [k| | |]; cbn [bind]; try discriminate. destruct k; intros H; injection H as <-.
    + right. left. split; reflexivity.
    + right. right. reflexivity.
Qed.

Lemma verdict_range n s al v : fo_verdict cat_in isw isew n s al = Ok v -> v = 1 \/ v = 2 \/ v = 0.
Proof.
  unfold fo_verdict. intros H.
  destruct ((n_t n =? T_Oneloop) || ((n_t n =? T_Onelazy) && al)); [apply two_inv in H; tauto|].
  destruct ((n_t n =? T_Notoneloop) || ((n_t n =? T_Notonelazy) && al)); [apply two_inv in H; tauto|].
  destruct ((n_t n =? T_Setloop) || ((n_t n =? T_Setlazy) && al)); [apply two_inv in H; tauto|].
  injection H as <-. tauto.
Qed.

Lemma fo_not_in_true st x : fo_not_in cat_in st x tt = Ok true -> exists c, st = Some c /\ char_in cat_in c x = false.
Proof.
  unfold fo_not_in, fo_char_in. destruct st as [c|]; cbn [bind]; [|discriminate].
  intros H. exists c. split; [reflexivity|]. destruct (char_in cat_in c x); [discriminate|reflexivity].
Qed.
Lemma fo_no_overlap_true a b : fo_no_overlap cat_in a b tt = Ok true ->
  exists x y, a = Some x /\ b = Some y /\ may_overlap cat_in x y = false.
Proof.
  unfold fo_no_overlap. destruct a as [x|], b as [y|]; try discriminate.
  intros H. exists x, y. split; [reflexivity|]. split; [reflexivity|]. destruct (may_overlap cat_in x y); [discriminate|reflexivity].
Qed.
Lemma fo_str0_true s (k : Z -> bool) : fo_str0 s k tt = Ok true -> exists c0 r, n_str s = c0 :: r /\ k c0 = true.
Proof. unfold fo_str0. destruct (n_str s) as [|c0 r]; [discriminate|]. intros H. exists c0, r. split; [reflexivity|congruence]. Qed.

Lemma overlap_disjoint x y : cls_okb x = true -> cls_okb y = true -> may_overlap cat_in x y = false ->
  forall ch, char_in cat_in x ch = true -> char_in cat_in y ch = false.
Proof.
  intros Hx Hy H ch H1. unfold cls_okb in *. apply andb_prop in Hx. apply andb_prop in Hy. destruct Hx as [Bx Cx], Hy as [By Cy].
  destruct (char_in cat_in y ch) eqn:E; [|reflexivity]. exfalso.
  apply (may_overlap_sound_plain cat_in x y (eo_space Henv) (cls_canonicalb_ok _ Cx) (cls_canonicalb_ok _ Cy)
           (no_bitmaps_ok cat_in _ (cls_no_bitmap_ok _ Bx)) (no_bitmaps_ok cat_in _ (cls_no_bitmap_ok _ By)) H ch).
  split; assumption.
Qed.

(* ---- what the successor does at the states where the loop may have stopped early *)
Definition dead_at (n : rnode) (x : node) : Prop := forall a, sok a -> PQ n a -> den x a = [].
Definition dead_nq (n : rnode) (x : node) : Prop := forall a, NQ n a -> den x a = [].
Lemma dead_nq_at n x : dead_nq n x -> dead_at n x.
Proof. intros H a _ (Hp & Ht & _). apply H. split; assumption. Qed.
Definition stay_at (n : rnode) (x : node) : Prop := forall a, sok a -> PQ n a -> den x a = [a] \/ den x a = [].
Definition total_at (n : rnode) (x : node) : Prop :=
  (forall a, sok a -> PQ n a -> den x a = [a]) /\ (forall a, den x a <> []).

Definition nb_t (t : Z) : bool := (t =? T_Nonboundary) || (t =? T_NonECMABoundary).
Lemma fam_not_nb t : fam t = true -> nb_t t = false.
Proof. clear. unfold nb_t, T_Nonboundary, T_NonECMABoundary. fam_unfold. lia. Qed.

Definition skip_spec (n s : rnode) : Prop :=
  if nb_t (n_t s) then stay_at n (tr s) else (dead_at n (tr s) \/ total_at n (tr s)).
Definition verdict_spec (n s : rnode) (v : Z) : Prop := (v = 1 -> dead_nq n (tr s)) /\ (v = 2 -> skip_spec n s).

Section Verdict.
Variables n s : rnode.
Hypothesis Hwfn : fo_wf n = true.
Hypothesis Hwfs : fo_wf s = true.
Hypothesis Hsn : sets_in n.
Hypothesis Hss : sets_in s.
Hypothesis Hoeq : n_o n = n_o s.
Hypothesis Hltr : ltr (n_o n).

Let Hltrs : ltr (n_o s).
Proof. rewrite <- Hoeq. exact Hltr. Qed.

(* no character passes both the loop's test and the test of a successor of kind k *)
Definition excl (k : ckind) : Prop := forall x, rtest n x = true -> ktest k s x = false.

(* ---- by class of successor.  One that takes a character, or is a nullable loop, with a test that excludes the loop's *)
Lemma dead_takes k : takes k s -> excl k -> dead_nq n (tr s).
Proof.
  intros [Hf Hm] Hex a (Hp & Ht). apply dead_fam; [exact (kfam_fam _ _ Hf) | exact Hwfs | exact Hss | exact Hltrs | exact Hm|].
  rewrite (rtest_k k s _ Hf). exact (Hex _ Ht).
Qed.
Lemma skip_nullable k : nullable k s -> excl k -> skip_spec n s.
Proof.
  intros (Hf & Hns & Hm) Hex. pose proof (kfam_fam _ _ Hf) as Hfam. unfold skip_spec. rewrite (fam_not_nb _ Hfam). right.
  assert (exists kl, lk_of (n_t s) = Some kl) as [kl Hkl].
  { destruct (fam_cases _ Hfam) as [E|[E|[E|[E|[E|[E|[E|[E|[E|[E|[E|E]]]]]]]]]]]; rewrite E; cbn; try (eexists; reflexivity);
      exfalso; clear -Hns E; unfold T_One, T_Notone, T_Set in Hns; lia. }
  split.
  - intros a _ (Hp & Ht & _). apply (stay_fam0 s kl); auto. rewrite (rtest_k k s _ Hf). exact (Hex _ Ht).
  - apply (total_fam0 s kl); auto.
Qed.
(* a successor that accepts one character only, one the loop's test rejects *)
Lemma excl_one : rtest n (n_ch s) = false -> excl COne.
Proof. intros H x Hx. cbn [ktest]. destruct (Z.eqb_spec x (n_ch s)) as [->|]; [congruence|reflexivity]. Qed.
(* a literal whose first character the loop's test rejects *)
Lemma dead_multi_first c0 r : (n_t s =? T_Multi) = true -> n_str s = c0 :: r -> rtest n c0 = false -> dead_nq n (tr s).
Proof.
  intros Ht Hstr H0 a (Hp & Hq). apply (dead_multi s c0 r); [apply Z.eqb_eq; exact Ht | exact Hwfs | exact Hltrs | exact Hstr|].
  destruct (Z.eqb_spec (char_at e (pos a)) c0) as [E|]; [rewrite E in Hq; congruence | reflexivity].
Qed.
Lemma dead_anchor_end : (n_t s =? T_End) = true -> dead_nq n (tr s).
Proof. intros H a Hq. rewrite (tr_anchor s AEnd (proj1 (Z.eqb_eq _ _) H)). exact (dead_end n a Hq). Qed.
Lemma dead_anchor_eol : (n_t s =? T_Eol) = true -> rtest n 10 = false -> dead_nq n (tr s).
Proof. intros H H10 a Hq. rewrite (tr_anchor s AEol (proj1 (Z.eqb_eq _ _) H)). exact (dead_eol n a H10 Hq). Qed.
Lemma dead_anchor_endz : (n_t s =? T_EndZ) = true -> rtest n 10 = false -> dead_nq n (tr s).
Proof. intros H H10 a Hq. rewrite (tr_anchor s AEndZ (proj1 (Z.eqb_eq _ _) H)). exact (dead_endz n a H10 Hq). Qed.
(* a word boundary ([ecma]: of the ECMAScript kind) after a loop of word characters that has iterated; a \B *)
Lemma skip_boundary (ecma : bool) :
  (n_t s =? (if ecma then T_ECMABoundary else T_Boundary)) = true -> (0 <? n_m n) = true ->
  (forall x, rtest n x = true -> (if ecma then isew else isw) x = true) -> skip_spec n s.
Proof.
  intros Ht Hm Hw. apply Z.eqb_eq in Ht. unfold skip_spec.
  replace (nb_t (n_t s)) with false by (rewrite Ht; destruct ecma; reflexivity).
  left. intros a _ Hq. destruct ecma.
  - rewrite (tr_anchor s AECMABoundary Ht). apply (dead_boundary n a (is_eword e) AECMABoundary); [tauto | lia | | exact Hq].
    intros x Hx. rewrite (eo_eword Henv). exact (Hw x Hx).
  - rewrite (tr_anchor s ABoundary Ht). apply (dead_boundary n a (is_word e) ABoundary); [tauto | lia | | exact Hq].
    intros x Hx. rewrite (eo_word Henv). exact (Hw x Hx).
Qed.
Lemma skip_nb : (n_t s =? T_Nonboundary) = true \/ (n_t s =? T_NonECMABoundary) = true -> skip_spec n s.
Proof.
  intros H. unfold skip_spec, nb_t. destruct H as [H|H]; rewrite H, ?orb_true_r; intros a _ _; apply Z.eqb_eq in H;
    [rewrite (tr_anchor s ANonboundary H) | rewrite (tr_anchor s ANonECMABoundary H)]; apply stay_anchor.
Qed.

(* ---- the table: every entry of the two lists *)
Lemma two_sound (yes skip : list (bool * (unit -> res bool))) v :
  Forall (fun en => fst en = true -> snd en tt = Ok true -> dead_nq n (tr s)) yes ->
  Forall (fun en => fst en = true -> snd en tt = Ok true -> skip_spec n s) skip ->
  (do y <- fo_any yes ; if y then Ok 1 else do k <- fo_any skip ; Ok (if k then 2 else 0)) = Ok v -> verdict_spec n s v.
Proof.
  intros Hy Hs H. apply two_inv in H. destruct H as [[-> H] | [[-> H] | -> ]]; split; intros Hv; try discriminate;
    apply fo_any_true in H; destruct H as (c & k & Hin & Hc & Hk).
  - rewrite Forall_forall in Hy. exact (Hy _ Hin Hc Hk).
  - rewrite Forall_forall in Hs. exact (Hs _ Hin Hc Hk).
Qed.

Lemma verdict_one al v :
  (n_t n =? T_Oneloop) || ((n_t n =? T_Onelazy) && al) = true ->
  fo_verdict cat_in isw isew n s al = Ok v -> verdict_spec n s v.
Proof.
  intros E1 H. unfold fo_verdict in H. rewrite E1 in H.
  assert (Hrn : forall x, rtest n x = (x =? n_ch n)) by (intros x; apply (rtest_k COne); revert E1; clear; cbn [kfam]; fam_unfold; lia).
  (* the loop's character against the three kinds of successor *)
  assert (X1 : negb (n_ch n =? n_ch s) = true -> excl COne) by (intros Ht; apply excl_one; rewrite Hrn; clear -Ht; lia).
  assert (X2 : (n_ch n =? n_ch s) = true -> excl CNotone) by (intros Ht x Hx; rewrite Hrn in Hx; cbn; clear -Ht Hx; lia).
  assert (X3 : fo_not_in cat_in (n_set s) (n_ch n) tt = Ok true -> excl CSet).
  { intros Hk x Hx. apply fo_not_in_true in Hk as (cs & Es & Hcs). rewrite Hrn in Hx. cbn. rewrite Es.
    replace x with (n_ch n) by (clear -Hx; lia). exact Hcs. }
  assert (X4 : forall w : Z -> bool, w (n_ch n) = true -> forall x, rtest n x = true -> w x = true).
  { intros w Hw x Hx. rewrite Hrn in Hx. replace x with (n_ch n) by (clear -Hx; lia). exact Hw. }
  revert H. apply two_sound; repeat constructor; cbn [fst snd]; intros Hc Hk; try (apply andb_prop in Hc as [Hc Ht]).
  - exact (dead_takes COne (takes_single COne s Hc) (X1 Ht)).
  - exact (dead_takes CNotone (takes_single CNotone s Hc) (X2 Ht)).
  - exact (dead_takes CSet (takes_single CSet s Hc) (X3 Hk)).
  - exact (dead_takes COne (takes_fam COne s Hc) (X1 Ht)).
  - exact (dead_takes CNotone (takes_fam CNotone s Hc) (X2 Ht)).
  - exact (dead_takes CSet (takes_fam CSet s (andb_true_intro (conj Hc Ht))) (X3 Hk)).
  - apply fo_str0_true in Hk as (c0 & r & Hstr & Hc0). apply (dead_multi_first c0 r Hc Hstr). rewrite Hrn. clear -Hc0; lia.
  - exact (dead_anchor_end Hc).
  - apply (dead_anchor_endz Hc). rewrite Hrn. clear -Ht; lia.
  - apply (dead_anchor_eol Hc). rewrite Hrn. clear -Ht; lia.
  - exact (skip_nullable COne (nullable_loop COne s Hc) (X1 Ht)).
  - exact (skip_nullable CNotone (nullable_loop CNotone s Hc) (X2 Ht)).
  - exact (skip_nullable CSet (nullable_loop CSet s (andb_true_intro (conj Hc Ht))) (X3 Hk)).
  - apply andb_prop in Hc as [Hc Hm]. exact (skip_boundary false Hc Hm (X4 isw Ht)).
  - apply andb_prop in Hc as [Hc _]. exact (skip_nb (or_introl Hc)).
  - apply andb_prop in Hc as [Hc Hm]. exact (skip_boundary true Hc Hm (X4 isew Ht)).
  - apply andb_prop in Hc as [Hc _]. exact (skip_nb (or_intror Hc)).
Qed.

Lemma verdict_notone al v :
  (n_t n =? T_Notoneloop) || ((n_t n =? T_Notonelazy) && al) = true ->
  fo_verdict cat_in isw isew n s al = Ok v -> verdict_spec n s v.
Proof.
  intros E2 H. unfold fo_verdict in H.
  replace ((n_t n =? T_Oneloop) || ((n_t n =? T_Onelazy) && al)) with false in H by (revert E2; clear; fam_unfold; lia).
  rewrite E2 in H.
  assert (Hrn : forall x, rtest n x = negb (x =? n_ch n)) by (intros x; apply (rtest_k CNotone); revert E2; clear; cbn [kfam]; fam_unfold; lia).
  assert (X1 : (n_ch n =? n_ch s) = true -> excl COne) by (intros Ht; apply excl_one; rewrite Hrn; clear -Ht; lia).
  revert H. apply two_sound; repeat constructor; cbn [fst snd]; intros Hc Hk; try (apply andb_prop in Hc as [Hc Ht]).
  - exact (dead_takes COne (takes_single COne s Hc) (X1 Ht)).
  - exact (dead_takes COne (takes_fam COne s Hc) (X1 Ht)).
  - apply fo_str0_true in Hk as (c0 & r & Hstr & Hc0). apply (dead_multi_first c0 r Hc Hstr). rewrite Hrn. clear -Hc0; lia.
  - exact (dead_anchor_end Hc).
  - exact (skip_nullable COne (nullable_loop COne s Hc) (X1 Ht)).
Qed.

Lemma oset_equals_some ns a : oset_equals ns (Some a) = true -> exists c, ns = Some c /\ cls_equals false c a = true.
Proof. destruct ns as [c|]; cbn; [|discriminate]. intros H. exists c. split; [reflexivity|exact H]. Qed.

Lemma okb_char_plain c x : cls_okb c = true -> char_in cat_in c x = plain_in cat_in c x.
Proof.
  intros H. unfold cls_okb in H. apply andb_prop in H. destruct H as [B C].
  exact (proj2 (lookup_agree cat_in c (cls_canonicalb_ok _ C) (no_bitmaps_ok cat_in _ (cls_no_bitmap_ok _ B)) x)).
Qed.

Lemma verdict_set al v :
  (n_t n =? T_Setloop) || ((n_t n =? T_Setlazy) && al) = true ->
  fo_verdict cat_in isw isew n s al = Ok v -> verdict_spec n s v.
Proof.
  intros E3 H. unfold fo_verdict in H.
  replace ((n_t n =? T_Oneloop) || ((n_t n =? T_Onelazy) && al)) with false in H by (revert E3; clear; fam_unfold; lia).
  replace ((n_t n =? T_Notoneloop) || ((n_t n =? T_Notonelazy) && al)) with false in H by (revert E3; clear; fam_unfold; lia).
  rewrite E3 in H. cbv zeta in H.
  assert (Hnf : kfam CSet (n_t n) = true) by (revert E3; clear; cbn; fam_unfold; lia).
  destruct (fam_set n Hnf Hwfn Hsn) as (cn & Ecn & _ & Hokn).
  assert (Hrn : forall x, rtest n x = char_in cat_in cn x) by (intros x; rewrite (rtest_k CSet n x Hnf); cbn; rewrite Ecn; reflexivity).
  rewrite Ecn in H.
  (* the loop's set against a character; against the set of a successor *)
  assert (X0 : forall c, fo_not_in cat_in (Some cn) c tt = Ok true -> rtest n c = false).
  { intros c Hk. apply fo_not_in_true in Hk as (c1 & E1 & Hn1). injection E1 as <-. rewrite Hrn. exact Hn1. }
  assert (X3 : forall a b, (a = Some cn /\ b = n_set s) \/ (a = n_set s /\ b = Some cn) -> takes CSet s \/ nullable CSet s ->
            fo_no_overlap cat_in a b tt = Ok true -> excl CSet).
  { intros a b Hab Hcl Hk x Hx. rewrite Hrn in Hx.
    destruct (fam_set s ltac:(destruct Hcl as [Hcl|Hcl]; apply Hcl) Hwfs Hss) as (cs & Es & _ & Hoks). cbn. rewrite Es in *.
    apply fo_no_overlap_true in Hk as (c1 & c2 & E1 & E2 & Hov).
    destruct Hab as [[-> ->]|[-> ->]]; injection E1 as <-; injection E2 as <-.
    - exact (overlap_disjoint cn cs Hokn Hoks Hov x Hx).
    - destruct (char_in cat_in cs x) eqn:Ecs; [|reflexivity]. rewrite (overlap_disjoint cs cn Hoks Hokn Hov x Ecs) in Hx. discriminate. }
  (* a loop over one of two classes of word characters *)
  assert (XW : forall (wo : Z -> bool) a b, oset_equals (Some cn) (Some a) || oset_equals (Some cn) (Some b) = true ->
            (forall x, plain_in cat_in a x = true -> wo x = true) -> (forall x, plain_in cat_in b x = true -> wo x = true) ->
            forall x, rtest n x = true -> wo x = true).
  { intros wo a b Heq Ha Hb x Hx. rewrite Hrn, (okb_char_plain cn x Hokn) in Hx. apply orb_prop in Heq.
    destruct Heq as [Heq|Heq]; rewrite (cls_equals_plain cat_in _ _ Heq x) in Hx; auto. }
  revert H. apply two_sound; repeat constructor; cbn [fst snd]; intros Hc Hk.
  - exact (dead_takes COne (takes_single COne s Hc) (excl_one (X0 _ Hk))).
  - pose proof (takes_single CSet s Hc) as Hcl. exact (dead_takes CSet Hcl (X3 _ _ (or_introl (conj eq_refl eq_refl)) (or_introl Hcl) Hk)).
  - exact (dead_takes COne (takes_loop COne s Hc) (excl_one (X0 _ Hk))).
  - pose proof (takes_loop CSet s Hc) as Hcl. exact (dead_takes CSet Hcl (X3 _ _ (or_introl (conj eq_refl eq_refl)) (or_introl Hcl) Hk)).
  - destruct (n_str s) as [|c0 r] eqn:Hstr; [discriminate|]. exact (dead_multi_first c0 r Hc Hstr (X0 _ Hk)).
  - exact (dead_anchor_end Hc).
  - exact (dead_anchor_endz Hc (X0 _ Hk)).
  - exact (dead_anchor_eol Hc (X0 _ Hk)).
  - exact (skip_nullable COne (nullable_loop COne s Hc) (excl_one (X0 _ Hk))).
  - pose proof (nullable_loop CSet s Hc) as Hcl. exact (skip_nullable CSet Hcl (X3 _ _ (or_intror (conj eq_refl eq_refl)) (or_intror Hcl) Hk)).
  - apply andb_prop in Hc as [Hc Heq]. apply andb_prop in Hc as [Hc Hm].
    apply (skip_boundary false Hc Hm), (XW isw _ _ Heq); intros x Hx.
    + rewrite plain_word, (eo_catword Henv) in Hx. exact Hx.
    + rewrite plain_digit in Hx. exact (eo_nd_word Henv x Hx).
  - apply andb_prop in Hc as [Hc _]. apply andb_prop in Hc as [Hc _]. exact (skip_nb (or_introl Hc)).
  - apply andb_prop in Hc as [Hc Heq]. apply andb_prop in Hc as [Hc Hm].
    apply (skip_boundary true Hc Hm), (XW isew _ _ Heq); intros x Hx.
    + unfold ecma_word_class in Hx. rewrite plain_ranges in Hx. exact (eo_ecma Henv x Hx).
    + unfold ecma_digit_class in Hx. rewrite plain_ranges in Hx. apply (eo_ecma Henv). apply ecma_digit_word. exact Hx.
  - apply andb_prop in Hc as [Hc _]. apply andb_prop in Hc as [Hc _]. exact (skip_nb (or_intror Hc)).
Qed.

Lemma verdict_sound al v : fo_verdict cat_in isw isew n s al = Ok v -> verdict_spec n s v.
Proof.
  intros H.
  destruct ((n_t n =? T_Oneloop) || ((n_t n =? T_Onelazy) && al)) eqn:E1; [exact (verdict_one al v E1 H)|].
  destruct ((n_t n =? T_Notoneloop) || ((n_t n =? T_Notonelazy) && al)) eqn:E2; [exact (verdict_notone al v E2 H)|].
  destruct ((n_t n =? T_Setloop) || ((n_t n =? T_Setlazy) && al)) eqn:E3; [exact (verdict_set al v E3 H)|].
  unfold fo_verdict in H. rewrite E1, E2, E3 in H. injection H as <-. split; intros Hv; discriminate.
Qed.

End Verdict.

End Leaf.

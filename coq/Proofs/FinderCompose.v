(* C03 x C04, first part: end-to-end soundness of the modes whose fact C04 proves for the analysis of
   Model/Analysis.v (the [facts] record: MinRequiredLength, Leading/TrailingAnchor, LeadingPrefix).
   "The analysis computes the fact  =>  the scan with the finder of that mode returns what Spec.find
   returns", on a tree, for the reference semantics (one attempt = Spec.attempt, Proofs/ScanBumpProofs.v
   [bp_exec]).  Covered: the minimum-length cut-off (both directions), the fixed-length trailing \z jump
   (TrailingAnchor_FixedLength_LeftToRight_End), the leading literal prefix (LeadingString_LeftToRight;
   under "text and prefix are well-formed UTF-8"), the anchor jumps of findFirstCharDefault from
   Code.Anchors.  The modes whose data come from Model/Analysis2.v (sets, strings, literal after loop,
   landmark chain, first-character loop) are the second part, Proofs/ComposeFinder.v, which goes through
   [fc_optimized_scan] below; the Boyer-Moore branch is Proofs/BMCompose.v.
   [shape_ok] here is Analysis.shape_ok on [node] (the side condition of C04), not the predicate of the
   same name on raw trees in Proofs/ParserTree.v. *)
From Coq Require Import ZifyBool.
From Verif Require Import Base.Prelude Base.Utf8 Model.Tree Model.Spec Model.Scan Model.Finder Model.Analysis
     Proofs.ScanProofs Proofs.ScanBumpProofs Proofs.FinderProofs Proofs.Utf8Proofs
     Proofs.AnalysisReach Proofs.AnalysisProofs Proofs.AnalysisPrefix Proofs.AnalysisFacts.

(* ---------- UTF-8: a byte prefix that is the encoding of valid runes is a rune prefix ---------- *)

Lemma fc_encode_prefix_runes : forall P t rest,
  forallb valid_rune P = true -> forallb valid_rune t = true ->
  encode_string t = encode_string P ++ rest -> exists t', t = P ++ t'.
Proof.
  induction P as [|r P IH]; intros t rest HP Ht H; [exists t; reflexivity|].
  cbn [forallb] in HP. apply andb_prop in HP. destruct HP as [Hr HP].
  unfold encode_string in H. cbn [flat_map] in H. fold (encode_string P) in H.
  destruct t as [|x t].
  - cbn in H. symmetry in H. apply app_eq_nil in H. destruct H as [H _].
    apply app_eq_nil in H. destruct H as [H _]. exfalso. exact (encode_nonempty r H).
  - cbn [forallb] in Ht. apply andb_prop in Ht. destruct Ht as [Hx Ht].
    cbn [flat_map] in H. fold (encode_string t) in H.
    assert (Hd : decode_rune (encode x ++ encode_string t) = decode_rune (encode r ++ (encode_string P ++ rest))).
    { rewrite H, <- app_assoc. reflexivity. }
    rewrite !decode_rune_encode_any in Hd. unfold sanitize in Hd. rewrite Hx, Hr in Hd.
    injection Hd as Hxr _. subst x.
    rewrite <- app_assoc in H. apply app_inv_head in H.
    destruct (IH t rest HP Ht H) as [t' ->]. exists t'. reflexivity.
Qed.

Lemma fc_prefix_match_app : forall P t', fd_prefix_match fd_eq_exact P (P ++ t') = true.
Proof.
  induction P as [|c P IH]; intros t'; [reflexivity|].
  cbn [app fd_prefix_match]. unfold fd_eq_exact at 1. rewrite Z.eqb_refl. apply IH.
Qed.

(* []rune(string(P)) = P for valid runes *)
Lemma fc_runes_of_encode : forall P, forallb valid_rune P = true -> runes_of (encode_string P) = P.
Proof.
  intros P HP. unfold runes_of. rewrite decode_encode_valid by exact HP.
  rewrite map_map. cbn [fst]. apply map_id.
Qed.

(* ---------- the matcher of the reference semantics as an [exec] ---------- *)
Section Compose.
Variable e : env.
Variable fuel : nat.
Variable root : node.
Variable bumpq : Z -> Z.

Local Notation exec := (bp_exec e fuel root bumpq).
Local Notation n := (tlen e).

Lemma fc_succeeds_attempt : forall q, fd_succeeds st exec q -> exists s', attempt e fuel root q = Ok (Some s').
Proof.
  intros q H. unfold fd_succeeds, bp_exec in H.
  destruct (attempt e fuel root q) as [[s'|]| | |]; cbn [fst] in H; try contradiction. eauto.
Qed.

(* without the bump-along shortcut a failed attempt leaves the position it started from *)
Lemma fc_H3_id : (forall p, bumpq p = p) -> forall rtl, sc_H3 st n rtl exec.
Proof.
  intros Hid rtl p q Hp He. unfold bp_exec in He.
  assert (Hq : q = p /\ fst (exec p) = None).
  { unfold bp_exec. destruct (attempt e fuel root p) as [[s'|]| | |]; inversion He; subst; rewrite ?Hid; split; reflexivity. }
  destruct Hq as [-> Hf]. unfold sc_ord, sc_in_text in *. split; [destruct rtl; lia|]. split; [exact Hp|].
  intros x H1 H2. assert (x = p) by (destruct rtl; lia). subst x. exact Hf.
Qed.

(* MinRequiredLength, both directions (C04_min_len_sound / _rtl) *)
Lemma fc_min_len_H2 : forall rtl, shape_ok rtl root = true -> sc_H2 st n rtl (min_len root) exec.
Proof.
  intros rtl Hs x Hx Ha. apply fd_not_succeeds_fails. intros Hsx.
  destruct (fc_succeeds_attempt x Hsx) as [s' Hat]. unfold sc_in_text in Hx.
  destruct (an_attempt_len_sound e rtl fuel root x s' Hs Hx Hat) as (Hb & Hmin & _).
  unfold sc_ahead in Ha. destruct rtl; lia.
Qed.

(* the published record [facts] (left-to-right) *)
Variable later_useful : bool.
Hypothesis Hshape : shape_ok false root = true.
Hypothesis Hnoci : no_ci_lit root = true.
Hypothesis Hlook : look_ok root = true.

Local Notation f := (facts false later_useful root).

Lemma fc_facts_at : forall q, 0 <= q <= n -> fd_succeeds st exec q ->
  exists s', attempt e fuel root q = Ok (Some s') /\ facts_hold e false q s' f.
Proof.
  intros q Hq Hs. destruct (fc_succeeds_attempt q Hs) as [s' Hat]. exists s'. split; [exact Hat|].
  exact (an_facts_sound e false later_useful fuel root q s' Hshape Hnoci Hlook Hq Hat).
Qed.

Lemma fc_minlen_fact : fd_minlen_fact st (txt e) exec (f_min f).
Proof.
  intros q Hq Hs. destruct (fc_facts_at q Hq Hs) as (s' & _ & Hf & _). cbv iota in Hf. exact Hf.
Qed.

(* TrailingAnchor_FixedLength_LeftToRight_End comes from the whole-pattern analysis only: the pattern
   ends in \z (NodeType End) and has min = max *)
Lemma fc_ffn_mode9 : forall rtl partial t, f_mode (facts_for_node rtl partial t) = FM_TrailingAnchor_FixedLength_LeftToRight_End ->
  partial = false /\ f_trail (facts_for_node rtl partial t) = anchor_code AEnd /\
  f_min (facts_for_node rtl partial t) = f_max (facts_for_node rtl partial t) /\
  f_min (facts_for_node rtl partial t) = min_len t.
Proof.
  intros rtl partial t. change (anchor_code AEnd) with 21.
  unfold FM_TrailingAnchor_FixedLength_LeftToRight_End, facts_for_node. cbv zeta.
  set (la := match lead_anchor true t with Some ABol => if rtl then None else lead_anchor true t | _ => lead_anchor true t end).
  destruct (negb (get_find_mode rtl la =? 0)) eqn:E0.
  { cbn [f_mode]. intros H. unfold get_find_mode in H. destruct la as [[]|]; destruct rtl; discriminate. }
  set (ta := if negb rtl && negb partial then oanchor_code (lead_anchor false t) else 0).
  destruct (((ta =? 21) || (ta =? 20)) && (min_len t =? (if (ta =? 21) || (ta =? 20) then max_len t else -1))) eqn:E1.
  - cbn [f_mode f_trail f_min f_max]. intros H.
    destruct (ta =? 21) eqn:E21; [|discriminate].
    assert (Hp : partial = false).
    { destruct partial; [|reflexivity]. unfold ta in E21. rewrite andb_false_r in E21. discriminate. }
    cbn [orb] in *. split; [exact Hp|]. split; [lia|]. split; [lia | reflexivity].
  - destruct (1 <? zlen (find_prefix t)); cbn [f_mode]; intros H; [destruct rtl; discriminate | discriminate].
Qed.

Lemma fc_facts_mode9 : f_mode f = FM_TrailingAnchor_FixedLength_LeftToRight_End -> f_trail f = anchor_code AEnd /\ f_min f = f_max f /\ f_min f = min_len root.
Proof.
  unfold facts. cbv zeta.
  destruct (negb false && negb (if f_mode (facts_for_node false false root) =? MODE_LATER
                               then later_useful || (f_lead (facts_for_node false false root) =? 14) else true)) eqn:Ew.
  - destruct (fst (lead_pos_look root)) as [c|].
    + cbn [f_mode f_trail f_min f_max]. intros H. destruct (fc_ffn_mode9 false true c H) as [Hp _]. discriminate.
    + intros H. destruct (fc_ffn_mode9 false false root H) as (_ & H1 & H2 & H3). auto.
  - intros H. destruct (fc_ffn_mode9 false false root H) as (_ & H1 & H2 & H3). auto.
Qed.

Lemma fc_trailing_end_fact : f_mode f = FM_TrailingAnchor_FixedLength_LeftToRight_End -> 0 <= f_min f /\ fd_trailing_end_fact st (txt e) exec (f_min f).
Proof.
  intros Hm. destruct (fc_facts_mode9 Hm) as (Ht & Hmm & Hml). split.
  - rewrite Hml. apply (an_min_len_nonneg false). exact Hshape.
  - intros q Hq Hs. destruct (fc_facts_at q Hq Hs) as (s' & Hat & Hmin & Hmax & _ & Htr & _). cbv iota in Hmin.
    specialize (Htr AEnd). rewrite Ht in Htr. specialize (Htr eq_refl). cbn [anchor_ok] in Htr.
    destruct (an_attempt_len_sound e false fuel root q s' Hshape Hq Hat) as (Hb & _ & _).
    assert (H0 : 0 <= f_min f) by (rewrite Hml; apply (an_min_len_nonneg false); exact Hshape).
    specialize (Hmax ltac:(lia)). fold n. lia.
Qed.

(* the FindOptimizations record as far as Analysis.facts models it *)
Definition fc_opts_of_facts (g : facts_t) : fdopts :=
  {| fo_mode := f_mode g; fo_minreq := f_min g; fo_prefix := runes_of (f_prefix g); fo_prefixes := [];
     fo_first_runes := []; fo_fdl_c := 0; fo_fdl_s := []; fo_fdl_distance := 0; fo_sets := []; fo_lal := None;
     fo_chain := None |}.

(* LeadingString_LeftToRight: the published byte prefix is the encoding of valid runes P, the text holds
   valid runes: the text at a successful attempt starts with P = []rune(LeadingPrefix) *)
Lemma fc_prefix_fact : forall P, forallb valid_rune P = true -> forallb valid_rune (txt e) = true ->
  f_prefix f = encode_string P ->
  runes_of (f_prefix f) = P /\ fd_prefix_fact st (txt e) exec fd_eq_exact P.
Proof.
  intros P HP Ht Hpre. split; [rewrite Hpre; apply fc_runes_of_encode; exact HP|].
  intros q Hq Hs. destruct (fc_facts_at q Hq Hs) as (s' & _ & _ & _ & _ & _ & Hpf).
  destruct (Hpf eq_refl) as [rest Hr]. unfold bytes_from in Hr. rewrite Hpre in Hr.
  assert (Hts : forallb valid_rune (skipn (Z.to_nat q) (txt e)) = true).
  { rewrite forallb_forall in *. intros x Hx. apply Ht. rewrite <- (firstn_skipn (Z.to_nat q) (txt e)).
    apply in_or_app. right. exact Hx. }
  destruct (fc_encode_prefix_runes P _ rest HP Hts Hr) as [t' ->]. apply fc_prefix_match_app.
Qed.

Hypothesis Hfuel : forall x, 0 <= x <= n -> exists r, attempt e fuel root x = Ok r.
Hypothesis H3 : sc_H3 st n false exec.

(* the scan with the optimized finder of the published mode = Spec.find, whatever CharIn / ToLower
   oracles the finder is given, as long as the mode's fact is stated for them *)
Lemma fc_optimized_scan : forall (set_in' : Z -> Z -> bool) (lower' : Z -> Z) (g : fdopts),
  fo_minreq g = f_min f -> fd_mode_handled g = true ->
  fd_mode_fact st (txt e) exec set_in' lower' g ->
  forall start prevlen, 0 <= start <= n ->
  exists r, find e fuel root false start prevlen = Ok r /\
            scan n false (f_min f) (fd_total (fd_optimized_finder (txt e) set_in' lower' g)) exec start prevlen = Ok r.
Proof.
  intros set_in' lower' g Hmr Hh Hmf start prevlen Hs.
  pose proof fc_minlen_fact as Hmin.
  destruct (fd_optimized_sound st (txt e) exec set_in' lower' g Hh ltac:(rewrite Hmr; exact Hmin) Hmf) as [Hsound _].
  destruct (fd_scan_sound st (txt e) exec (f_min f) _ Hsound Hmin H3 start prevlen Hs) as (r & Hr1 & Hr2).
  exists r. split; [|exact Hr1].
  rewrite (bp_find_naive_scan e fuel root false bumpq start prevlen Hfuel Hs). exact Hr2.
Qed.

Theorem fc_mode_trailing_end_sound :
  f_mode f = FM_TrailingAnchor_FixedLength_LeftToRight_End ->
  forall start prevlen, 0 <= start <= n ->
  exists r, find e fuel root false start prevlen = Ok r /\
            scan n false (f_min f) (fd_total (fd_optimized_finder (txt e) (set_in e) (lower e) (fc_opts_of_facts f)))
                 exec start prevlen = Ok r.
Proof.
  intros Hm. apply fc_optimized_scan; [reflexivity | |].
  - unfold fd_mode_handled, fc_opts_of_facts. cbn [fo_mode]. rewrite Hm. reflexivity.
  - unfold fd_mode_fact, fc_opts_of_facts. cbn [fo_mode fo_minreq]. rewrite Hm. cbn.
    exact (fc_trailing_end_fact Hm).
Qed.

Theorem fc_mode_leading_string_sound : forall P,
  f_mode f = FM_LeadingString_LeftToRight ->
  forallb valid_rune P = true -> forallb valid_rune (txt e) = true -> f_prefix f = encode_string P ->
  forall start prevlen, 0 <= start <= n ->
  exists r, find e fuel root false start prevlen = Ok r /\
            scan n false (f_min f) (fd_total (fd_optimized_finder (txt e) (set_in e) (lower e) (fc_opts_of_facts f)))
                 exec start prevlen = Ok r.
Proof.
  intros P Hm HP Ht Hpre. destruct (fc_prefix_fact P HP Ht Hpre) as [Hrunes Hfact].
  apply fc_optimized_scan; [reflexivity | |].
  - unfold fd_mode_handled, fc_opts_of_facts. cbn [fo_mode]. rewrite Hm. reflexivity.
  - unfold fd_mode_fact, fc_opts_of_facts. cbn [fo_mode fo_prefix]. rewrite Hm. cbn. rewrite Hrunes. exact Hfact.
Qed.

End Compose.

(* ---------- the minimum-length cut-off alone, and the anchor jumps of findFirstCharDefault ---------- *)
Section ComposeDefault.
Variable e : env.
Variable fuel : nat.
Variable root : node.
Variable bumpq : Z -> Z.
Variable rtl : bool.

Local Notation exec := (bp_exec e fuel root bumpq).
Local Notation n := (tlen e).

Hypothesis Hshape : shape_ok rtl root = true.
Hypothesis Hfuel : forall x, 0 <= x <= n -> exists r, attempt e fuel root x = Ok r.
Hypothesis H3 : sc_H3 st n rtl exec.

(* no candidate finder at all (NoSearch, no FcPrefix, no Boyer-Moore prefix, no anchor bit): only the
   cut-off "fewer than MinRequiredLength runes ahead" (runner.go:170-180) acts *)
Theorem fc_min_length_cut_sound : forall start prevlen, 0 <= start <= n ->
  exists r, find e fuel root rtl start prevlen = Ok r /\
            scan n rtl (min_len root)
                 (fd_total (fd_find_first_char_default (txt e) (set_in e) (lower e) rtl 0 (tstart e) None None None None))
                 exec start prevlen = Ok r.
Proof.
  intros start prevlen Hs.
  set (F := fd_total (fd_find_first_char_default (txt e) (set_in e) (lower e) rtl 0 (tstart e) None None None None)).
  assert (Hfin : forall p, F p = (true, p)).
  { intros p. reflexivity. }
  destruct (sc_scan_finder_sound st n rtl (min_len root) F exec) with (start := start) (prevlen := prevlen) as (r & Hr1 & Hr2).
  - intros p q Hp Hq. rewrite Hfin in Hq. inversion Hq; subst q. unfold sc_ord, sc_before, sc_in_text in *.
    split; [destruct rtl; lia|]. split; [exact Hp|]. intros x H1 H2. destruct rtl; lia.
  - intros p q Hp Hq. rewrite Hfin in Hq. discriminate.
  - apply fc_min_len_H2. exact Hshape.
  - exact H3.
  - exact Hs.
  - exists r. split; [|exact Hr1].
    rewrite (bp_find_naive_scan e fuel root rtl bumpq start prevlen Hfuel Hs). exact Hr2.
Qed.

(* Code.Anchors = the bit of a leading Beginning / Start / EndZ / End anchor (C04_anchors_sound): the anchor
   part of findFirstCharDefault (no Boyer-Moore prefix), whatever FindOptimizations and FcPrefix hold *)
Theorem fc_mode_anchor_sound : forall a (o : option fdopts) (fc : option fdfc),
  get_anchors root = anchor_bit a ->
  (a = ABeginning \/ a = AStart \/ a = AEndZ \/ a = AEnd) ->
  forall start prevlen, 0 <= start <= n ->
  exists r, find e fuel root rtl start prevlen = Ok r /\
            scan n rtl (min_len root)
                 (fd_total (fd_find_first_char_default (txt e) (set_in e) (lower e) rtl (get_anchors root) (tstart e) None None o fc))
                 exec start prevlen = Ok r.
Proof.
  intros a o fc Hga Ha start prevlen Hs.
  assert (Hfind : anchor_findable a = true) by (destruct Ha as [->|[->|[->| ->]]]; reflexivity).
  assert (Hok : forall x, sc_in_text n x -> fst (exec x) <> None -> anchor_ok e a x = true).
  { intros x Hx Hsx. destruct (fc_succeeds_attempt e fuel root bumpq x Hsx) as [s' Hat].
    exact (an_get_anchors_sound e fuel root x s' a Hfind Hga Hat). }
  assert (Habit : abit (get_anchors root) (ANCH_BEGINNING + ANCH_START + ANCH_ENDZ + ANCH_END) = true)
    by (rewrite Hga; destruct Ha as [->|[->|[->| ->]]]; reflexivity).
  (* with an anchor bit set the rest of the finder is never consulted *)
  set (F := fd_total (fd_find_first_char_default (txt e) (set_in e) (lower e) rtl (get_anchors root) (tstart e) None None o fc)).
  assert (Heq : forall p, F p = ffc_default (txt e) rtl (get_anchors root) (tstart e) None naive_finder p).
  { intros p. unfold F, fd_total, fd_find_first_char_default, ffc_default. rewrite Habit. reflexivity. }
  destruct (sc_anchor_H1 st (txt e) rtl (get_anchors root) (tstart e) None naive_finder exec) as [A1 A2].
  - intros Hb x Hx Hsx. specialize (Hok x Hx Hsx). rewrite Hga in Hb.
    destruct Ha as [->|[->|[->| ->]]]; try discriminate Hb. cbn [anchor_ok] in Hok. unfold sc_in_text in Hx. lia.
  - intros Hb x Hx Hsx. specialize (Hok x Hx Hsx). rewrite Hga in Hb.
    destruct Ha as [->|[->|[->| ->]]]; try discriminate Hb. cbn [anchor_ok] in Hok. lia.
  - intros Hb x Hx Hsx. specialize (Hok x Hx Hsx). rewrite Hga in Hb.
    destruct Ha as [->|[->|[->| ->]]]; try discriminate Hb. cbn [anchor_ok] in Hok. unfold sc_in_text in Hx.
    unfold a_n, a_char in *. unfold char_at, tlen in *. cbv zeta in Hok.
    destruct (1 <? zlen (txt e) - x) eqn:E1; cbv iota in Hok; [discriminate|].
    destruct (endz_strict e); cbv iota in Hok; [left; lia|].
    destruct ((zlen (txt e) - x =? 1) && negb (nth (Z.to_nat x) (txt e) 0 =? 10)) eqn:E2; [discriminate|].
    lia.
  - intros Hb x Hx Hsx. specialize (Hok x Hx Hsx). rewrite Hga in Hb.
    destruct Ha as [->|[->|[->| ->]]]; try discriminate Hb. cbn [anchor_ok] in Hok. unfold sc_in_text in Hx.
    unfold a_n in *. unfold tlen in *. lia.
  - intros im Him. discriminate.
  - intros p q Hp Hq. inversion Hq; subst q. unfold sc_ord, sc_before, sc_in_text in *.
    split; [destruct rtl; lia|]. split; [exact Hp|]. intros x H1 H2. destruct rtl; lia.
  - intros p q Hp Hq. discriminate.
  - destruct (sc_scan_finder_sound st n rtl (min_len root) F exec) with (start := start) (prevlen := prevlen) as (r & Hr1 & Hr2).
    + intros p q Hp Hq. rewrite Heq in Hq. exact (A1 p q Hp Hq).
    + intros p q Hp Hq. rewrite Heq in Hq. exact (A2 p q Hp Hq).
    + apply fc_min_len_H2. exact Hshape.
    + exact H3.
    + exact Hs.
    + exists r. split; [|exact Hr1].
      rewrite (bp_find_naive_scan e fuel root rtl bumpq start prevlen Hfuel Hs). exact Hr2.
Qed.

End ComposeDefault.

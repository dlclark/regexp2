(* compile_correct for literal strings NMulti.  The program's string table must contain the
   table the writer built ([tbl_ok], part of the per-node obligation). *)
From Verif Require Import Base.Prelude Model.Tree Model.Spec Model.VM Model.Writer Gen.RunnerGen
  Proofs.SpecProofs Proofs.SpecBoundsProofs Proofs.MaskProofs
  Proofs.VMU Proofs.VMUOps Proofs.VMUOps2 Proofs.VMUOps6 Proofs.VMUOps5 Proofs.CompileBase Proofs.CompileDefs.
From Coq Require Import Relations ZifyBool.

Section CC.
Variable e : env.
Variable p : program.
Hypothesis tc_nonneg : 0 <= trackcount p.
Variable R : caps_t -> list (list Z) -> Prop.

Notation rsteps := (VMUOps2.rsteps e p).
Notation leadsR := (CompileBase.leadsR e p R).
Notation has_code := (CompileBase.has_code p).
Notation track_ok := (CompileBase.track_ok p).
Notation code_ex := (CompileDefs.code_ex p).
Notation tbl_ok := (CompileDefs.tbl_ok p).
Notation ok_nodeR := (CompileDefs.ok_nodeR e p R).

Lemma cc_multi f o str : ok_nodeR (S f) (NMulti o str).
Proof.
  intros s res Hsem Hst a tbl T S C M Hc Hex Hk Hr Htb.
  cbn [sem] in Hsem. injection Hsem as <-.
  cbn [emit csize] in Hc, Hex, Htb |- *.
  destruct (string_code str tbl) as [i tbl'] eqn:Es. cbn [fst snd] in Hc, Htb.
  apply string_code_spec in Es. apply Htb in Es.
  apply has_code_cons in Hc. destruct Hc as [H0 Hc]. apply has_code_cons in Hc. destruct Hc as [H1 _].
  destruct Hex as [w2 H2]. destruct Hst as [Hp _].
  assert (Hres : sem_multi e o str s =
                 if multi_cond e o str (pos s) then [with_pos s (pos s + dir o * zlen str)] else []).
  { unfold sem_multi, multi_cond. cbv zeta. destruct (avail e o (pos s) <? zlen str); reflexivity. }
  rewrite Hres. destruct (multi_cond e o str (pos s)) eqn:Ec.
  - apply leadsR_leaf; [exact Hk|exact Hr|]. cbn [pos with_pos].
    eapply rs_multi_ok; try exact tc_nonneg; eassumption.
  - destruct Hk as (np & T' & -> & w3 & H3).
    eapply leadsR_fail; [reflexivity|].
    eapply rs_multi_fail; try exact tc_nonneg; eassumption.
Qed.

End CC.

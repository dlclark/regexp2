(* Proofs about Model/Parser.v, part 2: the node constructors and the mandatory reducers never fault
   on the nodes the parser hands them, and keep the shape invariant [good] that makes this so. *)
From Coq Require Import ZifyBool.
From Verif Require Import Base.Prelude Gen.ParseLitGen Model.Escape Model.ParseLit Model.GroupMap Model.CharClass
  Model.Parser Proofs.ParserScan.

Definition rnc {A} (r : res A) : Prop := match r with Crash _ => False | _ => True end.

Lemma bind_rnc {A B} (r : res A) (f : A -> res B) :
  rnc r -> (forall a, r = Ok a -> rnc (f a)) -> rnc (bind r f).
Proof. destruct r; cbn; auto. Qed.

Section CaseClosure.
Variable cat_in : Z -> Z -> bool.
Variable simple_fold : Z -> Z.
Variable to_lower : Z -> Z.

Lemma fold_orbit_rnc fuel : forall ch cur, rnc (fold_orbit simple_fold fuel ch cur).
Proof.
  induction fuel as [|f IH]; intros ch cur; cbn [fold_orbit]; [exact I|].
  destruct (simple_fold cur =? ch); [exact I|].
  apply bind_rnc; [apply IH | intros; exact I].
Qed.

Lemma equivalences_of_range_rnc fuel n : forall lo, rnc (equivalences_of_range simple_fold fuel lo n).
Proof.
  induction n as [|n IH]; intros lo; cbn [equivalences_of_range]; [exact I|].
  apply bind_rnc; [apply fold_orbit_rnc|]. intros e _.
  apply bind_rnc; [apply IH | intros; exact I].
Qed.

Lemma equivalences_of_ranges_rnc fuel rs : rnc (equivalences_of_ranges simple_fold fuel rs).
Proof.
  induction rs as [|[a b] rs IH]; cbn [equivalences_of_ranges]; [exact I|].
  apply bind_rnc; [apply equivalences_of_range_rnc|]. intros e _.
  apply bind_rnc; [apply IH | intros; exact I].
Qed.

Lemma add_case_equivalences_rnc fuel : forall c, rnc (add_case_equivalences cat_in simple_fold fuel c).
Proof.
  fix IH 1. intros [rs cs sb ng an asc]. cbn [add_case_equivalences].
  apply bind_rnc.
  - destruct sb as [s|]; [|exact I]. apply bind_rnc; [apply IH | intros; exact I].
  - intros sb' _. destruct an; [exact I|].
    apply bind_rnc; [apply equivalences_of_ranges_rnc | intros; exact I].
Qed.

Lemma scan_char_set_rnc fuel o : forall s, rnc (scan_char_set cat_in simple_fold to_lower fuel o s).
Proof.
  fix IH 1. intros [ng items sb]. cbn [scan_char_set].
  apply bind_rnc.
  - destruct sb as [s'|]; [|exact I]. apply bind_rnc; [apply IH | intros; exact I].
  - intros c _. apply bind_rnc; [|intros; exact I].
    destruct (o_ci o); [apply add_case_equivalences_rnc | exact I].
Qed.
End CaseClosure.

Definition unary_t (t : Z) : bool :=
  (t =? T_Capture) || (t =? T_Group) || (t =? T_PosLook) || (t =? T_NegLook) || (t =? T_Atomic) ||
  (t =? T_Loop) || (t =? T_Lazyloop) || (t =? T_ExprCond).

(* what the reducers index without a test: Children[0] of the one-child node kinds and of a conditional,
   Str[0] of a Multi, the Set of a set node *)
Definition shape_ok (t : Z) (str : list Z) (st : option cls) (kids : list rnode) : Prop :=
  (unary_t t = true -> kids <> []) /\ (t = T_Multi -> str <> []) /\ (is_set_family t = true -> st <> None).

Fixpoint good (x : rnode) : Prop :=
  let 'RN t _ _ _ _ str st kids := x in
  shape_ok t str st kids /\
  (fix all (l : list rnode) : Prop := match l with [] => True | k :: r => good k /\ all r end) kids.

Lemma good_all_Forall (l : list rnode) :
  (fix all (l : list rnode) : Prop := match l with [] => True | k :: r => good k /\ all r end) l <-> Forall good l.
Proof.
  induction l as [|k l IH]; [split; auto|].
  split.
  - intros [H1 H2]. constructor; [exact H1 | apply IH; exact H2].
  - intros H. inversion H; subst. split; [assumption | apply IH; assumption].
Qed.

Lemma good_eq t o ch m n str st kids :
  good (RN t o ch m n str st kids) <-> shape_ok t str st kids /\ Forall good kids.
Proof. cbn [good]. rewrite good_all_Forall. tauto. Qed.

Lemma good_kids x : good x -> Forall good (n_kids x).
Proof. destruct x. rewrite good_eq. cbn. tauto. Qed.

(* induction over nodes with the hypothesis on every child *)
Section RnodeInd.
  Variable P : rnode -> Prop.
  Hypothesis H : forall t o ch m n str st kids, Forall P kids -> P (RN t o ch m n str st kids).
  Fixpoint rnode_ind' (x : rnode) : P x :=
    match x with
    | RN t o ch m n str st kids =>
        H t o ch m n str st kids
          ((fix go (l : list rnode) : Forall P l :=
              match l with
              | [] => Forall_nil P
              | k :: r => Forall_cons k (rnode_ind' k) (go r)
              end) kids)
    end.
End RnodeInd.

(* the flattening walks of the reducers keep whatever holds of every node and passes from an Alternate
   (a Concatenate) to its children *)
Section Flatten.
Variable P : rnode -> Prop.
Definition passes (t : Z) : Prop := forall o ch m n str st kids, P (RN t o ch m n str st kids) -> Forall P kids.

Lemma flat_alt_all : passes T_Alternate -> forall x, P x -> Forall P (flat_alt x).
Proof.
  intros D. induction x as [t o ch m n str st kids IH] using rnode_ind'. intros G. cbn [flat_alt].
  destruct (t =? T_Alternate) eqn:E; [|constructor; [exact G | constructor]].
  apply Z.eqb_eq in E. subst t. apply D in G.
  induction kids as [|k r IHr]; [constructor|].
  inversion IH; subst. inversion G; subst. apply Forall_app. split; auto.
Qed.

Lemma flat_concat_all rtl : passes T_Concatenate -> forall x, P x -> Forall P (flat_concat rtl x).
Proof.
  intros D. induction x as [t o ch m n str st kids IH] using rnode_ind'. intros G. cbn [flat_concat].
  destruct (t =? T_Concatenate) eqn:E; cbn [andb]; [|constructor; [exact G | constructor]].
  destruct (Bool.eqb (useRTL o) rtl); [|constructor; [exact G | constructor]].
  apply Z.eqb_eq in E. subst t. apply D in G.
  induction kids as [|k r IHr]; [constructor|].
  inversion IH; subst. inversion G; subst. apply Forall_app. split; auto.
Qed.

Lemma flat_map_all (f : rnode -> list rnode) l : (forall x, P x -> Forall P (f x)) -> Forall P l -> Forall P (flat_map f l).
Proof. intros F H. apply Forall_flat_map. eapply Forall_impl; [exact F | exact H]. Qed.

Lemma drop_redundant_all l : forall seen, Forall P l -> Forall P (drop_redundant seen l).
Proof.
  induction l as [|x l IH]; intros seen H; cbn [drop_redundant]; [constructor|].
  inversion H; subst.
  destruct ((n_t x =? T_Nothing) || ((n_t x =? T_Empty) && seen)); [apply IH; assumption|].
  constructor; [assumption | apply IH; assumption].
Qed.
End Flatten.

Lemma good_passes t : passes good t.
Proof. intros o ch m n str st kids G. apply good_eq in G. tauto. Qed.

Ltac tnum := unfold unary_t, is_set_family, is_one_family, is_notone_family, is_setloop_family, is_oneloop_family,
  is_notoneloop_family, is_atomicloop_family, is_cond_t,
  T_Oneloop, T_Notoneloop, T_Setloop, T_Onelazy, T_Notonelazy, T_Setlazy, T_One, T_Notone, T_Set, T_Multi, T_Ref,
  T_Bol, T_Eol, T_Beginning, T_EndZ, T_End, T_Nothing, T_Empty, T_Alternate, T_Concatenate, T_Loop, T_Lazyloop,
  T_Capture, T_Group, T_PosLook, T_NegLook, T_Atomic, T_BackRefCond, T_ExprCond, T_Oneloopatomic, T_Notoneloopatomic,
  T_Setloopatomic, NT_Boundary, NT_Nonboundary, NT_Beginning, NT_Start, NT_EndZ, NT_End, NT_ECMABoundary,
  NT_NonECMABoundary in *.

(* a node whose type asks for nothing *)
Lemma good_leaf t o ch m n str st :
  unary_t t = false -> t <> T_Multi -> is_set_family t = false -> good (RN t o ch m n str st []).
Proof.
  intros H1 H2 H3. apply good_eq. split; [|constructor].
  unfold shape_ok. repeat split; intros; congruence.
Qed.

Lemma good_mk_node t o : unary_t t = false -> t <> T_Multi -> is_set_family t = false -> good (mk_node t o).
Proof. apply good_leaf. Qed.

Lemma good_set_mn x m n : good x -> good (set_mn x m n).
Proof. destruct x. cbn [set_mn]. rewrite !good_eq. tauto. Qed.
Lemma good_set_o x o : good x -> good (set_o x o).
Proof. destruct x. cbn [set_o]. rewrite !good_eq. tauto. Qed.

Lemma n_kids_set_kids x k : n_kids (set_kids x k) = k. Proof. destruct x; reflexivity. Qed.
Lemma n_t_set_kids x k : n_t (set_kids x k) = n_t x. Proof. destruct x; reflexivity. Qed.
Lemma n_o_set_kids x k : n_o (set_kids x k) = n_o x. Proof. destruct x; reflexivity. Qed.

(* the type of a node may move inside its family *)
Lemma good_retype t' t o ch m n str st kids o' ch' m' n' :
  good (RN t o ch m n str st kids) ->
  (unary_t t' = true -> unary_t t = true) -> (t' = T_Multi -> t = T_Multi) ->
  (is_set_family t' = true -> is_set_family t = true) ->
  good (RN t' o' ch' m' n' str st kids).
Proof.
  rewrite !good_eq. intros [[S1 [S2 S3]] K] H1 H2 H3. split; [|exact K].
  unfold shape_ok. repeat split; auto.
Qed.

(* ---------------------------------------------------------------- one turn of reduceConcatenationWithAdjacentLoops *)
Lemma skipn_nonempty (s : list Z) (k : Z) : 0 <= k < zlen s -> skipn (Z.to_nat k) s <> [].
Proof.
  unfold zlen. intros H E. apply (f_equal (@length Z)) in E. rewrite skipn_length in E. cbn in E. lia.
Qed.

Lemma count_prefix_le ch s : 0 <= count_prefix ch s <= zlen s.
Proof.
  unfold zlen. induction s as [|c s IH]; cbn [count_prefix length]; [lia|].
  destruct (c =? ch); lia.
Qed.

(* the item kind [it] and a single-character loop kind [lp] of the same column (One / Notone / Set) *)
Definition loop_of (it lp : Z) : bool :=
  (it =? T_One) && is_oneloop_family lp || (it =? T_Notone) && is_notoneloop_family lp ||
  (it =? T_Set) && is_setloop_family lp.

(* [cur] repeated k..k' more times *)
Definition cl_counts (cur : rnode) (k k' : Z) : rnode :=
  set_mn cur (n_m cur + k) (if n_n cur =? pp_inf then n_n cur else if k' =? pp_inf then pp_inf else n_n cur + k').

(* what is left of the string node nx once its first k characters have gone into the loop before it (1590-1603) *)
Definition multi_rest (nx : rnode) (k : Z) : option rnode :=
  let 'RN nt no nch nm nn nstr nset nkids := nx in
  if zlen nstr =? k then None
  else Some (if zlen nstr - k =? 1 then RN T_One no (last nstr 0) nm nn [] nset nkids
             else RN nt no nch nm nn (skipn (Z.to_nat k) nstr) nset nkids).

(* the outcomes of one turn of reduceConcatenationWithAdjacentLoops, by the branch of tree.go taken *)
Inductive cl_case (cur nx : rnode) : cl_res -> Prop :=
| CLC_keep : cl_case cur nx (CL_keep cur nx)
| CLC_loops :      (* 1532 *)
    is_oneloop_family (n_t cur) || is_notoneloop_family (n_t cur) || is_setloop_family (n_t cur) = true ->
    n_t nx = n_t cur -> can_combine (n_m cur) (n_n cur) (n_m nx) (n_n nx) = true ->
    cl_case cur nx (CL_merged (cl_counts cur (n_m nx) (n_n nx)))
| CLC_loop_item :  (* 1556 *)
    loop_of (n_t nx) (n_t cur) = true -> can_combine (n_m cur) (n_n cur) 1 1 = true ->
    cl_case cur nx (CL_merged (cl_counts cur 1 1))
| CLC_loop_multi k :   (* 1568 *)
    loop_of T_One (n_t cur) = true -> n_t nx = T_Multi -> k = count_prefix (n_ch cur) (n_str nx) ->
    can_combine (n_m cur) (n_n cur) k k = true ->
    cl_case cur nx (match multi_rest nx k with
                    | None => CL_merged (cl_counts cur k k)
                    | Some nx' => CL_keep (cl_counts cur k k) nx'
                    end)
| CLC_item_loop :  (* 1608 *)
    loop_of (n_t cur) (n_t nx) = true -> can_combine 1 1 (n_m nx) (n_n nx) = true ->
    cl_case cur nx (CL_merged (set_mn (set_t cur (n_t nx)) (n_m nx + 1) (if n_n nx =? pp_inf then pp_inf else n_n nx + 1)))
| CLC_items :      (* 1623 *)
    n_t cur = T_Notone \/ n_t cur = T_Set -> cl_case cur nx (CL_merged (make_rep cur T_Oneloop 2 2)).

Lemma can_combine_fin a b k k' : can_combine a b k k' = true -> (k =? pp_inf) = false.
Proof.
  unfold can_combine. destruct (k =? pp_inf); [|reflexivity].
  rewrite orb_true_r. discriminate.
Qed.

(* a boolean statement read as a proposition *)
Ltac btrue := repeat (rewrite orb_true_iff || rewrite andb_true_iff || rewrite Z.eqb_eq).

(* the five tests of cl_combine *)
Lemma cl_test_loops ct nt (e1 e2 : bool) :
  ((is_oneloop_family ct || is_notoneloop_family ct) && (nt =? ct) && e1) || (is_setloop_family ct && (ct =? nt) && e2) = true ->
  is_oneloop_family ct || is_notoneloop_family ct || is_setloop_family ct = true /\ nt = ct.
Proof. btrue. intuition congruence. Qed.

Lemma cl_test_loop_item ct nt (e1 e2 : bool) :
  (((ct =? T_Oneloop) || (ct =? T_Onelazy)) && (nt =? T_One) && e1) ||
  (((ct =? T_Notoneloop) || (ct =? T_Notonelazy)) && (nt =? T_Notone) && e1) ||
  (((ct =? T_Setloop) || (ct =? T_Setlazy)) && (nt =? T_Set) && e2) = true -> loop_of nt ct = true.
Proof. unfold loop_of, is_oneloop_family, is_notoneloop_family, is_setloop_family. btrue. intuition congruence. Qed.

Lemma cl_test_loop_multi ct nt :
  ((ct =? T_Oneloop) || (ct =? T_Onelazy)) && (nt =? T_Multi) = true -> loop_of T_One ct = true /\ nt = T_Multi.
Proof. unfold loop_of, is_oneloop_family. btrue. intuition congruence. Qed.

Lemma cl_test_item_loop ct nt (e1 e2 : bool) :
  ((ct =? T_One) && is_oneloop_family nt && e1) || ((ct =? T_Notone) && is_notoneloop_family nt && e1) ||
  ((ct =? T_Set) && is_setloop_family nt && e2) = true -> loop_of ct nt = true.
Proof. unfold loop_of. btrue. intuition congruence. Qed.

Lemma cl_test_items ct nt (e1 e2 : bool) :
  ((ct =? T_Notone) && (nt =? T_Notone) && e1) || ((ct =? T_Set) && (nt =? T_Set) && e2) = true ->
  ct = T_Notone \/ ct = T_Set.
Proof. btrue. intuition congruence. Qed.

Lemma cl_combine_cases cur nx :
  match cl_combine cur nx with
  | Ok r => cl_case cur nx r
  | Crash _ => n_t nx = T_Multi /\ n_str nx = []
  | _ => False
  end.
Proof.
  destruct cur as [ct co cch cm cn cstr cset ckids]. destruct nx as [nt no nch nm nn nstr nset nkids].
  unfold cl_combine.
  destruct (negb (co =? no)); [constructor|].
  match goal with |- context [if ?b then _ else _] => destruct b eqn:E end.
  { apply cl_test_loops in E. destruct E as [L ->].
    destruct ((0 <? nm) && is_atomicloop_family ct); [constructor|].
    destruct (can_combine cm cn nm nn) eqn:EC; [|constructor].
    exact (CLC_loops (RN ct co cch cm cn cstr cset ckids) (RN ct no nch nm nn nstr nset nkids) L eq_refl EC). }
  clear E. match goal with |- context [if ?b then _ else _] => destruct b eqn:E end.
  { apply cl_test_loop_item in E.
    destruct (can_combine cm cn 1 1) eqn:EC; [|constructor].
    exact (CLC_loop_item (RN ct co cch cm cn cstr cset ckids) (RN nt no nch nm nn nstr nset nkids) E EC). }
  clear E. match goal with |- context [if ?b then _ else _] => destruct b eqn:E end.
  { apply cl_test_loop_multi in E. destruct E as [L ->].
    destruct nstr as [|c0 nstr']; [split; reflexivity|].
    destruct ((cch =? c0) && negb (useRTL co)); [|constructor].
    destruct (can_combine cm cn (count_prefix cch (c0 :: nstr')) (count_prefix cch (c0 :: nstr'))) eqn:EC; [|constructor].
    pose proof (CLC_loop_multi (RN ct co cch cm cn cstr cset ckids) (RN T_Multi no nch nm nn (c0 :: nstr') nset nkids) _ L eq_refl eq_refl EC) as R.
    cbn [multi_rest cl_counts set_mn n_m n_n n_ch n_str] in R. rewrite (can_combine_fin _ _ _ _ EC) in R.
    destruct (zlen (c0 :: nstr') =? count_prefix cch (c0 :: nstr')); [exact R|].
    destruct (zlen (c0 :: nstr') - count_prefix cch (c0 :: nstr') =? 1); exact R. }
  clear E. match goal with |- context [if ?b then _ else _] => destruct b eqn:E end.
  { apply cl_test_item_loop in E.
    destruct (can_combine 1 1 nm nn) eqn:EC; [|constructor].
    exact (CLC_item_loop (RN ct co cch cm cn cstr cset ckids) (RN nt no nch nm nn nstr nset nkids) E EC). }
  clear E. match goal with |- context [if ?b then _ else _] => destruct b eqn:E end; [|constructor].
  apply cl_test_items in E.
  exact (CLC_items (RN ct co cch cm cn cstr cset ckids) (RN nt no nch nm nn nstr nset nkids) E).
Qed.

Lemma loop_of_shape it lp : loop_of it lp = true ->
  unary_t lp = false /\ lp <> T_Multi /\ (is_set_family lp = true -> is_set_family it = true).
Proof. unfold loop_of. intros H. tnum. lia. Qed.

Section Tree.
Variable is_word_char : Z -> bool.
Variable to_lower : Z -> Z.
Variable simple_fold : Z -> Z.
Variable participates : Z -> bool.
Variable cat_in : Z -> Z -> bool.
Variable cat_name : list Z -> Z.

Local Notation case_close := (case_close simple_fold cat_in).
Local Notation case_conv := (case_conv simple_fold cat_in).
Local Notation mk_node_ch := (mk_node_ch simple_fold cat_in).
Local Notation mk_node_set := (mk_node_set simple_fold cat_in).

Lemma case_close_safe c : match case_close c with POk _ | PO => True | _ => False end.
Proof.
  unfold Parser.case_close. destruct (pp_ci_span_limit <? cls_span c); [exact I|].
  pose proof (add_case_equivalences_rnc cat_in simple_fold pp_orbit_fuel c) as H.
  destruct (add_case_equivalences cat_in simple_fold pp_orbit_fuel c); cbn in *; auto.
Qed.

(* nodeWithCaseConversion keeps (or gives) a set to every set node and never makes a one-child kind *)
Definition leaf_like (x : rnode) : Prop :=
  unary_t (n_t x) = false /\ n_t x <> T_Multi /\ n_kids x = [] /\ (is_set_family (n_t x) = true -> n_set x <> None).

Lemma leaf_like_good x : leaf_like x -> good x.
Proof.
  destruct x as [t o ch m n str st kids]. intros [H1 [H2 [H3 H4]]]. cbn [n_t n_kids n_set] in H1, H2, H3, H4. subst kids.
  apply good_eq. split; [|constructor]. unfold shape_ok. repeat split; intros; try congruence. auto.
Qed.

Lemma case_conv_ok x : leaf_like x ->
  match case_conv x with POk y => leaf_like y | PO => True | PE _ _ | PC _ | PF => False end.
Proof.
  destruct x as [t o ch m n str st kids]. intros [H1 [H2 [H3 H4]]]. cbn in H1, H2, H3, H4. subst kids.
  unfold Parser.case_conv.
  destruct (negb (useI o)); [repeat split; auto|].
  destruct (0 <? ch).
  - destruct (negb (simple_fold ch =? ch)); [|repeat split; auto].
    pose proof (case_close_safe (add_char cat_in empty_cls ch)) as S.
    destruct (case_close (add_char cat_in empty_cls ch)); cbn [pbind] in *; try contradiction; auto.
    repeat split; cbn; try discriminate.
    + destruct ((t =? T_Oneloop) || (t =? T_Notoneloop)); [reflexivity|].
      destruct ((t =? T_Onelazy) || (t =? T_Notonelazy)); reflexivity.
    + destruct ((t =? T_Oneloop) || (t =? T_Notoneloop)); [discriminate|].
      destruct ((t =? T_Onelazy) || (t =? T_Notonelazy)); discriminate.
  - destruct st as [s|]; [|repeat split; auto].
    pose proof (case_close_safe s) as S.
    destruct (case_close s); cbn [pbind] in *; try contradiction; auto.
    repeat split; cbn; auto. discriminate.
Qed.

Lemma mk_node_ch_ok t o ch : unary_t t = false -> t <> T_Multi -> is_set_family t = false ->
  match mk_node_ch t o ch with POk y => good y | PO => True | PE _ _ | PC _ | PF => False end.
Proof.
  intros H1 H2 H3. unfold Parser.mk_node_ch.
  assert (L : leaf_like (RN t o ch 0 0 [] None [])) by (repeat split; cbn; auto; congruence).
  pose proof (case_conv_ok (RN t o ch 0 0 [] None []) L) as C.
  destruct (case_conv (RN t o ch 0 0 [] None [])); auto.
  apply leaf_like_good. exact C.
Qed.

Lemma mk_node_set_ok o s :
  match mk_node_set T_Set o s with POk y => good y | PO => True | PE _ _ | PC _ | PF => False end.
Proof.
  unfold Parser.mk_node_set.
  assert (L : leaf_like (RN T_Set o 0 0 0 [] (Some s) [])) by (repeat split; cbn; auto; discriminate).
  pose proof (case_conv_ok (RN T_Set o 0 0 0 [] (Some s) []) L) as C.
  destruct (case_conv (RN T_Set o 0 0 0 [] (Some s) [])); auto.
  apply leaf_like_good. exact C.
Qed.

Lemma make_rep_good x t m n :
  good x -> (n_t x = T_One \/ n_t x = T_Notone \/ n_t x = T_Set) -> (t = T_Oneloop \/ t = T_Onelazy) ->
  good (make_rep x t m n).
Proof.
  destruct x as [t0 o ch m0 n0 str st kids]. unfold make_rep. cbn [n_t set_t set_mn].
  intros G Ht0 Ht. eapply good_retype; [exact G| | |]; tnum; lia.
Qed.

Lemma repeat_rune_nonempty ch k : 1 <= k -> repeat_rune ch k <> [].
Proof.
  intros H. unfold repeat_rune. destruct (Z.to_nat k) eqn:E; [lia|]. cbn. discriminate.
Qed.

Lemma make_loop_atomic_good x : good x -> good (make_loop_atomic x).
Proof.
  destruct x as [t o ch m n str st kids]. intros G. unfold make_loop_atomic.
  destruct ((t =? T_Oneloop) || (t =? T_Notoneloop) || (t =? T_Setloop)) eqn:E1.
  { eapply good_retype; [exact G| | |]; tnum; lia. }
  destruct ((t =? T_Onelazy) || (t =? T_Notonelazy) || (t =? T_Setlazy)) eqn:E2; [|exact G].
  destruct (m =? 0).
  { apply good_eq in G. destruct G as [_ K]. apply good_eq. split; [|exact K].
    unfold shape_ok. repeat split; tnum; intros; try lia; discriminate. }
  destruct ((t + (T_Oneloopatomic - T_Onelazy) =? T_Oneloopatomic) && (2 <=? m) && (m <=? pp_multi_limit)) eqn:E3.
  { apply good_eq in G. destruct G as [_ K]. apply good_eq. split; [|exact K].
    unfold shape_ok. repeat split; tnum; intros; try lia. apply repeat_rune_nonempty. lia. }
  eapply good_retype; [exact G| | |]; tnum; lia.
Qed.

Lemma reduce_set_node_ok x : good x -> is_set_family (n_t x) = true ->
  exists y, reduce_set_node x = Ok y /\ good y.
Proof.
  destruct x as [t o ch m n str st kids]. cbn [n_t]. intros G Hs. unfold reduce_set_node.
  destruct st as [s|].
  2:{ eexists. split; [reflexivity|]. apply good_eq in G. destruct G as [_ K]. apply good_eq. split; [|exact K].
      unfold shape_ok. repeat split; tnum; intros; try lia; discriminate. }
  destruct (is_singleton s) eqn:E1.
  { unfold is_singleton, single_range in E1. unfold singleton_char.
    destruct (ranges s) as [|[a b] rs]; [rewrite !andb_false_r in E1; discriminate|].
    cbn [bind]. eexists. split; [reflexivity|].
    apply good_eq in G. destruct G as [_ K]. apply good_eq. split; [|exact K].
    unfold shape_ok. repeat split; tnum; intros; try lia; discriminate. }
  destruct (is_singleton_inverse s) eqn:E2.
  { unfold is_singleton_inverse, single_range in E2. unfold singleton_char.
    destruct (ranges s) as [|[a b] rs]; [rewrite !andb_false_r in E2; discriminate|].
    cbn [bind]. eexists. split; [reflexivity|].
    apply good_eq in G. destruct G as [_ K]. apply good_eq. split; [|exact K].
    unfold shape_ok. repeat split; tnum; intros; try lia; discriminate. }
  eexists. split; [reflexivity | exact G].
Qed.

Lemma replace_if_unnecessary_good x :
  Forall good (n_kids x) -> (n_t x = T_Alternate \/ n_t x = T_Concatenate) -> good (replace_if_unnecessary x).
Proof.
  destruct x as [t o ch m n str st kids]. cbn [n_kids n_t]. intros K Ht. unfold replace_if_unnecessary. cbn [n_kids n_t n_o].
  destruct kids as [|k [|k2 r]].
  - apply good_mk_node; destruct (t =? T_Alternate); tnum; lia.
  - inversion K; assumption.
  - apply good_eq. split; [|exact K]. unfold shape_ok. repeat split; tnum; intros; lia.
Qed.

Lemma reduce_group_ok : forall x, good x -> exists y, reduce_group x = Ok y /\ good y.
Proof.
  induction x as [t o ch m n str st kids IH] using rnode_ind'. intros G.
  cbn [reduce_group]. destruct (t =? T_Group) eqn:E; [|eexists; split; [reflexivity | exact G]].
  apply good_eq in G. destruct G as [[S1 _] K].
  destruct kids as [|k r]; [exfalso; apply S1; [tnum; lia | reflexivity]|].
  inversion IH; subst. inversion K; subst. auto.
Qed.

Lemma reduce_lookaround_ok x : good x -> (n_t x = T_PosLook \/ n_t x = T_NegLook) ->
  exists y, reduce_lookaround x = Ok y /\ good y.
Proof.
  destruct x as [t o ch m n str st kids]. cbn [n_t]. intros G Ht. unfold reduce_lookaround.
  pose proof G as G0. apply good_eq in G. destruct G as [[S1 _] K].
  destruct kids as [|k r]; [exfalso; apply S1; [tnum; lia | reflexivity]|].
  destruct (n_t k =? T_Empty); [|eexists; split; [reflexivity | exact G0]].
  eexists. split; [reflexivity|]. apply good_leaf; destruct (t =? T_PosLook); tnum; lia.
Qed.

Lemma reduce_atomic_ok : forall x, good x -> n_t x = T_Atomic -> exists y, reduce_atomic x = Ok y /\ good y.
Proof.
  induction x as [t o ch m n str st kids IH] using rnode_ind'. cbn [n_t]. intros G Ht.
  cbn [reduce_atomic]. pose proof G as G0. apply good_eq in G. destruct G as [[S1 _] K].
  destruct kids as [|k r]; [exfalso; apply S1; [tnum; lia | reflexivity]|].
  inversion IH; subst. inversion K; subst.
  destruct (n_t k =? T_Atomic) eqn:E1; [apply H1; [assumption | lia]|].
  destruct ((n_t k =? T_Empty) || (n_t k =? T_Nothing)); [eauto|].
  destruct (is_atomicloop_family (n_t k)); [eauto|].
  match goal with |- context [if ?b then _ else _] => destruct b end.
  - eexists. split; [reflexivity|]. apply make_loop_atomic_good. assumption.
  - eauto.
Qed.

(* ---------------------------------------------------------------- reduceAlternation *)
Lemma flatten_alts_good l : Forall good l -> Forall good (flatten_alts l).
Proof. apply flat_map_all, flat_alt_all, good_passes. Qed.

(* the previous node can take a merge whenever the flag says so *)
Definition sl_inv (s : sl_state) : Prop :=
  Forall good (sl_out s) /\
  (sl_was s = true -> exists prev out', sl_out s = prev :: out' /\
                       (n_t prev = T_One \/ (n_t prev = T_Set /\ n_set prev <> None))).

Local Notation sl_step := (sl_step cat_in).
Local Notation sl_run := (sl_run cat_in).

Lemma sl_step_ok s x : sl_inv s -> good x -> exists s', sl_step s x = Ok s' /\ sl_inv s'.
Proof.
  intros [Ho Hw] G. unfold Parser.sl_step.
  destruct ((n_t x =? T_Set) || (n_t x =? T_One)) eqn:E.
  2:{ destruct (n_t x =? T_Nothing); eexists; (split; [reflexivity|]); [split; assumption|].
      split; [cbn; constructor; assumption | cbn; discriminate]. }
  assert (Gs : n_t x = T_Set -> exists s1, n_set x = Some s1).
  { intros Ht. destruct x as [t o ch m n str st kids]. cbn [n_t n_set] in *. apply good_eq in G. destruct G as [[_ [_ S3]] _].
    destruct st; [eauto|]. exfalso. apply S3; [subst; reflexivity | reflexivity]. }
  (* keep x as a new item *)
  assert (KEEP : forall cannot oa, sl_inv (mkSL (x :: sl_out s) true cannot oa)).
  { intros cannot oa. split; cbn; [constructor; assumption|]. intros _. exists x, (sl_out s). split; [reflexivity|].
    destruct (n_t x =? T_Set) eqn:E2.
    - right. split; [lia|]. destruct (Gs ltac:(lia)) as [s1 Hs]. rewrite Hs. discriminate.
    - left. lia. }
  destruct (sl_was s) eqn:W.
  2:{ (* nothing to merge with *)
      destruct (n_t x =? T_Set) eqn:E2.
      - destruct (Gs ltac:(lia)) as [s1 Hs]. rewrite Hs. cbn [negb orb bind]. eexists. split; [reflexivity | apply KEEP].
      - cbn [negb orb bind]. eexists. split; [reflexivity | apply KEEP]. }
  destruct (Hw eq_refl) as [prev [out' [Eo Hp]]].
  (* the merge (1380-1406) *)
  assert (MERGE : exists s',
            (do pc <- (if n_t prev =? T_One then Ok (add_char cat_in empty_cls (n_ch prev))
                       else match n_set prev with Some c => Ok c | None => Crash 25 end) ;
             do pc' <- (if n_t x =? T_One then Ok (add_char cat_in pc (n_ch x))
                        else match n_set x with Some c => Ok (add_set cat_in pc c) | None => Crash 23 end) ;
             let 'RN _ po pch pm pn pstr _ pk := prev in
             Ok (mkSL (RN T_Set (clear_I po) pch pm pn pstr (Some pc') pk :: out') true (negb (is_mergeable pc')) (sl_opt s)))
            = Ok s' /\ sl_inv s').
  { assert (PC : exists pc, (if n_t prev =? T_One then Ok (add_char cat_in empty_cls (n_ch prev))
                      else match n_set prev with Some c => Ok c | None => Crash 25 end) = Ok pc).
    { destruct Hp as [Hp|[Hp1 Hp2]].
      - rewrite Hp. rewrite Z.eqb_refl. eauto.
      - destruct (n_t prev =? T_One); [eauto|]. destruct (n_set prev); [eauto | congruence]. }
    destruct PC as [pc Hpc]. rewrite Hpc. cbn [bind].
    assert (PC' : exists pc', (if n_t x =? T_One then Ok (add_char cat_in pc (n_ch x))
                       else match n_set x with Some c => Ok (add_set cat_in pc c) | None => Crash 23 end) = Ok pc').
    { destruct (n_t x =? T_One) eqn:E1; [eauto|]. destruct (Gs ltac:(lia)) as [s1 Hs]. rewrite Hs. eauto. }
    destruct PC' as [pc' Hpc']. rewrite Hpc'. cbn [bind].
    destruct prev as [pt po pch pm pn pstr pst pk]. eexists. split; [reflexivity|].
    rewrite Eo in Ho. inversion Ho as [|? ? Hg Hr]; subst.
    split; cbn.
    - constructor; [|assumption].
      apply good_eq in Hg. destruct Hg as [[S1 [S2 S3]] K].
      apply good_eq. split; [|exact K]. cbn in Hp. unfold shape_ok. repeat split; intros.
      + apply S1. tnum. lia.
      + tnum. lia.
      + discriminate.
    - intros _. eexists _, _. split; [reflexivity|]. right. cbn. split; [reflexivity | discriminate]. }
  destruct MERGE as [sm [Hm Im]].
  rewrite Eo. rewrite Eo in KEEP.
  destruct (n_t x =? T_Set) eqn:E2.
  - destruct (Gs ltac:(lia)) as [s1 Hs]. rewrite Hs in Hm |- *. cbn [negb orb].
    destruct (negb (sl_opt s =? li_mask (n_o x)) || sl_cannot s || negb (is_mergeable s1)); cbn [bind].
    + eexists. split; [reflexivity | apply KEEP].
    + exists sm. split; [exact Hm | exact Im].
  - cbn [negb orb].
    destruct (negb (sl_opt s =? li_mask (n_o x)) || sl_cannot s); cbn [bind].
    + eexists. split; [reflexivity | apply KEEP].
    + exists sm. split; [exact Hm | exact Im].
Qed.

Lemma sl_run_ok l : forall s, sl_inv s -> Forall good l -> exists s', sl_run s l = Ok s' /\ sl_inv s'.
Proof.
  induction l as [|x l IH]; intros s Hs Hl; cbn [Parser.sl_run]; [eauto|].
  inversion Hl; subst.
  destruct (sl_step_ok s x Hs) as [s1 [E1 I1]]; [assumption|]. rewrite E1. cbn [bind]. apply IH; assumption.
Qed.

Lemma remove_redundant_good x : Forall good (n_kids x) -> n_t x = T_Alternate -> good (remove_redundant x).
Proof.
  intros K Ht. unfold remove_redundant. apply replace_if_unnecessary_good.
  - destruct x; cbn [set_kids n_kids] in *. apply drop_redundant_all. exact K.
  - destruct x; cbn [set_kids n_t] in *. left. exact Ht.
Qed.

Lemma reduce_alternation_ok x : Forall good (n_kids x) -> n_t x = T_Alternate ->
  exists y, reduce_alternation cat_in x = Ok y /\ good y.
Proof.
  intros K Ht. unfold reduce_alternation.
  destruct (n_kids x) as [|k [|k2 r]] eqn:Ek.
  - eexists. split; [reflexivity|]. apply good_mk_node; tnum; lia.
  - eexists. split; [reflexivity|]. inversion K; assumption.
  - destruct (sl_run_ok (flatten_alts (k :: k2 :: r)) (mkSL [] false false 0)) as [s' [E I]].
    + split; cbn; [constructor | discriminate].
    + apply flatten_alts_good. exact K.
    + rewrite E. cbn [bind]. destruct I as [Io _].
      set (x1 := set_kids x (rev (sl_out s'))).
      assert (K1 : Forall good (n_kids x1)) by (subst x1; destruct x; cbn; apply Forall_rev; exact Io).
      assert (T1 : n_t x1 = T_Alternate) by (subst x1; destruct x; cbn in *; exact Ht).
      pose proof (replace_if_unnecessary_good x1 K1 (or_introl T1)) as G1.
      destruct (n_t (replace_if_unnecessary x1) =? T_Alternate) eqn:E2; [|eauto].
      eexists. split; [reflexivity|]. apply remove_redundant_good; [apply good_kids; exact G1 | lia].
Qed.

(* ---------------------------------------------------------------- reduceConcatenation *)
Lemma multi_rest_good nx k nx' : good nx -> n_t nx = T_Multi -> 0 <= k <= zlen (n_str nx) ->
  multi_rest nx k = Some nx' -> good nx'.
Proof.
  destruct nx as [t o ch m n str st kids]. cbn [n_t n_str multi_rest]. intros G -> Hk E.
  apply good_eq in G. destruct G as [_ K].
  destruct (zlen str =? k) eqn:El; [discriminate|]. inversion E; subst nx'.
  destruct (zlen str - k =? 1); apply good_eq; (split; [|exact K]); unfold shape_ok; repeat split; try discriminate.
  intros _. apply skipn_nonempty. lia.
Qed.

Lemma cl_combine_ok cur nx : good cur -> good nx ->
  exists r, cl_combine cur nx = Ok r /\
            match r with CL_merged c => good c | CL_keep c nx' => good c /\ good nx' end.
Proof.
  intros Gc Gn. pose proof (cl_combine_cases cur nx) as C.
  destruct (cl_combine cur nx) as [r| |w|]; try contradiction.
  2:{ destruct C as [T S]. destruct nx. apply good_eq in Gn. destruct Gn as [[_ [S2 _]] _]. contradiction (S2 T S). }
  exists r. split; [reflexivity|].
  destruct C as [|L T EC|L EC|k L T Ek EC|L EC|T].
  - split; assumption.
  - apply good_set_mn. exact Gc.
  - apply good_set_mn. exact Gc.
  - pose proof (good_set_mn cur (n_m (cl_counts cur k k)) (n_n (cl_counts cur k k)) Gc) as G1.
    pose proof (count_prefix_le (n_ch cur) (n_str nx)) as CP. rewrite <- Ek in CP.
    destruct (multi_rest nx k) as [nx'|] eqn:ER; [|apply good_set_mn; exact Gc].
    split; [apply good_set_mn; exact Gc | exact (multi_rest_good nx k nx' Gn T CP ER)].
  - apply good_set_mn. destruct (loop_of_shape _ _ L) as [L1 [L2 L3]].
    destruct cur as [ct co cch cm cn cstr cset ckids]. cbn [set_t n_t] in *.
    eapply good_retype; [exact Gc| | |]; intros; congruence || auto.
  - apply make_rep_good; [exact Gc | tauto | left; reflexivity].
Qed.

Lemma cl_loop_ok l : forall cur, good cur -> Forall good l -> exists l', cl_loop cur l = Ok l' /\ Forall good l'.
Proof.
  induction l as [|nx l IH]; intros cur Gc Gl; cbn [cl_loop].
  - eexists. split; [reflexivity|]. constructor; [exact Gc | constructor].
  - inversion Gl; subst.
    destruct (cl_combine_ok cur nx Gc) as [r [E R]]; [assumption|]. rewrite E. cbn [bind].
    destruct r as [c|c nx'].
    + apply IH; assumption.
    + destruct R as [R1 R2]. destruct (IH nx' R2) as [t [Et Gt]]; [assumption|]. rewrite Et. cbn [bind].
      eexists. split; [reflexivity|]. constructor; assumption.
Qed.

Definition st_inv (s : st_state) : Prop :=
  Forall good (st_out s) /\ (st_was s = true -> st_out s <> []).

Lemma st_step_ok s x : st_inv s -> good x -> exists s', st_step s x = Ok s' /\ st_inv s'.
Proof.
  intros [Ho Hw] G. unfold st_step.
  destruct ((n_t x =? T_Multi) || (n_t x =? T_One)) eqn:E.
  2:{ destruct (n_t x =? T_Empty); eexists; (split; [reflexivity|]); [split; assumption|].
      split; cbn; [constructor; assumption | discriminate]. }
  destruct (negb (st_was s) || negb (st_opt s =? li_mask (n_o x))) eqn:E2.
  { eexists. split; [reflexivity|]. split; cbn; [constructor; assumption | discriminate]. }
  assert (W : st_was s = true) by (destruct (st_was s); [reflexivity | discriminate]).
  destruct (st_out s) as [|prev out'] eqn:Eo; [exfalso; apply (Hw W); reflexivity|].
  destruct prev as [pt po pch pm pn pstr pset pk].
  eexists. split; [reflexivity|]. inversion Ho as [|? ? Hg Hr]; subst.
  split; cbn; [|discriminate]. constructor; [|assumption].
  apply good_eq in Hg. destruct Hg as [[S1 [S2 S3]] K]. apply good_eq. split; [|exact K].
  unfold shape_ok. repeat split; intros; try (exfalso; tnum; lia).
  assert (NE : (if n_t x =? T_One then [n_ch x] else n_str x) <> []).
  { destruct (n_t x =? T_One) eqn:E1; [discriminate|].
    destruct x as [t o ch m n str st kids]. cbn [n_t n_str] in *. apply good_eq in G. destruct G as [[_ [G2 _]] _].
    apply G2. tnum. lia. }
  destruct (Z.land (li_mask (n_o x)) PL_RightToLeft =? 0).
  - intros EE. apply app_eq_nil in EE. tauto.
  - intros EE. apply app_eq_nil in EE. tauto.
Qed.

Lemma st_run_ok l : forall s, st_inv s -> Forall good l -> exists s', st_run s l = Ok s' /\ st_inv s'.
Proof.
  induction l as [|x l IH]; intros s Hs Hl; cbn [st_run]; [eauto|].
  inversion Hl; subst.
  destruct (st_step_ok s x Hs) as [s1 [E1 I1]]; [assumption|]. rewrite E1. cbn [bind]. apply IH; assumption.
Qed.

Lemma reduce_concatenation_ok x : Forall good (n_kids x) -> n_t x = T_Concatenate ->
  exists y, reduce_concatenation x = Ok y /\ good y.
Proof.
  intros K Ht. unfold reduce_concatenation.
  destruct (n_kids x) as [|k0 [|k1 r]] eqn:Ek.
  - eexists. split; [reflexivity|]. apply good_mk_node; tnum; lia.
  - eexists. split; [reflexivity|]. inversion K; assumption.
  - destruct (find (fun k => n_t k =? T_Nothing) (k0 :: k1 :: r)) as [kn|] eqn:Ef.
    { eexists. split; [reflexivity|]. apply find_some in Ef. destruct Ef as [Hin _].
      rewrite Forall_forall in K. apply K. exact Hin. }
    inversion K; subst.
    destruct (cl_loop_ok (k1 :: r) k0) as [l1 [E1 G1]]; [assumption | assumption |]. rewrite E1. cbn [bind].
    destruct (st_run_ok (flat_map (flat_concat (useRTL (n_o x))) l1) (mkST [] false 0)) as [s' [E2 [Io _]]].
    + split; cbn; [constructor | discriminate].
    + apply flat_map_all; [apply flat_concat_all, good_passes | exact G1].
    + rewrite E2. cbn [bind]. eexists. split; [reflexivity|].
      apply replace_if_unnecessary_good.
      * destruct x; cbn. apply Forall_rev. exact Io.
      * destruct x; cbn in *. right. exact Ht.
Qed.

(* ---------------------------------------------------------------- reduceRep *)
Lemma rep_descend_good t mn mx : forall u um un, good u -> good (rep_descend t mn mx u um un).
Proof.
  induction u as [ut uo uch um0 un0 ustr uset ukids IH] using rnode_ind'. intros um un G.
  cbn [rep_descend].
  assert (H0 : good (RN ut uo uch um un ustr uset ukids)) by (eapply good_retype; [exact G| | |]; auto).
  destruct ukids as [|child r]; [exact H0|].
  match goal with |- context [if negb ?b then _ else _] => destruct b end; cbn [negb]; [|exact H0].
  match goal with |- context [if ?b then _ else _] => destruct b end; [exact H0|].
  inversion IH; subst. apply good_kids in G. cbn in G. inversion G; subst. auto.
Qed.

Lemma reduce_rep_good x : good x -> good (reduce_rep x).
Proof.
  intros G. destruct x as [t o ch m n str st kids]. unfold reduce_rep.
  set (u := rep_descend t m n (RN t o ch m n str st kids) m n).
  assert (Gu : good u) by (apply rep_descend_good; exact G).
  assert (GEN : good (if m =? pp_inf then mk_node T_Nothing o
    else match n_kids u with
         | [c] => if (n_t c =? T_One) || (n_t c =? T_Notone) || (n_t c =? T_Set)
                  then make_rep c (if n_t u =? T_Lazyloop then T_Onelazy else T_Oneloop) (n_m u) (n_n u)
                  else u
         | _ => u
         end)).
  { destruct (m =? pp_inf); [apply good_mk_node; tnum; lia|].
    pose proof (good_kids u Gu) as Ku.
    destruct (n_kids u) as [|c [|c2 r]]; try exact Gu.
    destruct ((n_t c =? T_One) || (n_t c =? T_Notone) || (n_t c =? T_Set)) eqn:E; [|exact Gu].
    inversion Ku; subst. apply make_rep_good; [assumption | lia |].
    destruct (n_t u =? T_Lazyloop); [right | left]; reflexivity. }
  destruct kids as [|k [|k2 r]]; try exact GEN.
  destruct (n_t k =? T_Empty); [|exact GEN].
  apply good_kids in G. cbn in G. inversion G; assumption.
Qed.

(* ---------------------------------------------------------------- reduce, addChild, makeQuantifier *)
Fixpoint height (x : rnode) : nat :=
  let 'RN _ _ _ _ _ _ _ kids := x in
  S ((fix mx (l : list rnode) : nat := match l with [] => O | k :: r => Nat.max (height k) (mx r) end) kids).

Lemma reduce_ok_h : forall h x, (height x <= h)%nat -> good x -> exists y, reduce cat_in x = Ok y /\ good y.
Proof.
  induction h as [|h IH]; intros x Hh G; [destruct x; cbn in Hh; lia|].
  destruct x as [t o ch m n str st kids].
  cbn [reduce].
  set (o1 := if t =? T_Ref then o else clear_I o).
  assert (G1 : good (RN t o1 ch m n str st kids)) by (eapply good_retype; [exact G| | |]; auto).
  pose proof (good_kids _ G1) as K1. cbn [n_kids] in K1.
  destruct (t =? T_Alternate) eqn:E1; [apply reduce_alternation_ok; [exact K1 | cbn; lia]|].
  destruct (t =? T_Atomic) eqn:E2; [apply reduce_atomic_ok; [exact G1 | cbn; lia]|].
  destruct (t =? T_Concatenate) eqn:E3; [apply reduce_concatenation_ok; [exact K1 | cbn; lia]|].
  destruct (t =? T_Group) eqn:E4; [apply reduce_group_ok; exact G1|].
  destruct ((t =? T_Loop) || (t =? T_Lazyloop)) eqn:E5; [eexists; split; [reflexivity | apply reduce_rep_good; exact G1]|].
  destruct ((t =? T_PosLook) || (t =? T_NegLook)) eqn:E6; [apply reduce_lookaround_ok; [exact G1 | cbn; lia]|].
  destruct (is_set_family t) eqn:E7; [apply reduce_set_node_ok; [exact G1 | exact E7]|].
  destruct (t =? T_ExprCond) eqn:E8.
  { destruct kids as [|cond r].
    { exfalso. apply good_eq in G1. destruct G1 as [[S1 _] _]. apply S1; [tnum; lia | reflexivity]. }
    destruct cond as [ct co cch cm cn cstr cst ckids].
    assert (K2 : Forall good (match RN ct co cch cm cn cstr cst ckids :: r with
                              | [_; _] => (RN ct co cch cm cn cstr cst ckids :: r) ++ [mk_node T_Empty o1]
                              | _ => RN ct co cch cm cn cstr cst ckids :: r
                              end)).
    { destruct r as [|b [|c r']]; try exact K1.
      apply Forall_app. split; [exact K1|]. constructor; [apply good_mk_node; tnum; lia | constructor]. }
    destruct ((ct =? T_PosLook) && negb (useRTL co)) eqn:EC.
    - destruct ckids as [|c cr].
      { exfalso. inversion K1 as [|? ? Hc _]; subst. apply good_eq in Hc. destruct Hc as [[C1 _] _].
        apply C1; [tnum; lia | reflexivity]. }
      assert (Gc : good c).
      { inversion K1 as [|? ? Hc _]; subst. apply good_kids in Hc. cbn in Hc. inversion Hc; assumption. }
      destruct (IH c) as [c' [Ec Gc']]; [cbn [height] in Hh |- *; lia | exact Gc |]. rewrite Ec. cbn [bind].
      eexists. split; [reflexivity|]. apply good_eq. split.
      + unfold shape_ok. repeat split; intros; try discriminate; exfalso; tnum; lia.
      + constructor; [exact Gc'|].
        destruct r as [|b [|c2 r']]; cbn [tl app] in *; inversion K2; assumption.
    - eexists. split; [reflexivity|]. apply good_eq. split; [|exact K2].
      unfold shape_ok. repeat split; intros; try (exfalso; tnum; lia).
      destruct r as [|b [|c2 r']]; discriminate. }
  destruct (t =? T_BackRefCond) eqn:E9; [|eauto].
  destruct kids as [|k [|k2 r]]; eauto.
  eexists. split; [reflexivity|]. apply good_eq. split.
  - unfold shape_ok. repeat split; intros; try discriminate; exfalso; tnum; lia.
  - constructor; [inversion K1; assumption|]. constructor; [apply good_mk_node; tnum; lia | constructor].
Qed.

Lemma reduce_ok x : good x -> exists y, reduce cat_in x = Ok y /\ good y.
Proof. apply (reduce_ok_h (height x)). lia. Qed.

Lemma add_child_ok parent child : Forall good (n_kids parent) -> good child ->
  exists p', add_child cat_in parent child = Ok p' /\ Forall good (n_kids p') /\ n_kids p' <> [] /\
             n_t p' = n_t parent /\ n_str p' = n_str parent /\ n_set p' = n_set parent /\
             (length (n_kids p') = S (length (n_kids parent))).
Proof.
  intros K G. unfold add_child. destruct (reduce_ok child G) as [r [E Gr]]. rewrite E. cbn [bind].
  eexists. split; [reflexivity|]. destruct parent as [t o ch m n str st kids]. cbn [set_kids n_kids n_t n_str n_set] in *.
  repeat split.
  - apply Forall_app. split; [exact K | constructor; [exact Gr | constructor]].
  - intros EE. apply app_eq_nil in EE. destruct EE; discriminate.
  - rewrite app_length. cbn. lia.
Qed.

Lemma make_quantifier_ok x lazy mn mx : good x -> 0 <= mn ->
  exists y, make_quantifier cat_in x lazy mn mx = Ok y /\ good y.
Proof.
  intros G Hmn. destruct x as [t o ch m n str st kids]. unfold make_quantifier.
  destruct ((mn =? 0) && (mx =? 0)) eqn:E1; [eexists; split; [reflexivity | apply good_mk_node; tnum; lia]|].
  destruct ((mn =? 1) && (mx =? 1)) eqn:E2; [eauto|].
  destruct ((mn =? mx) && (mx <=? pp_multi_limit) && (t =? T_One)) eqn:E3.
  { eexists. split; [reflexivity|]. apply good_eq in G. destruct G as [_ K]. apply good_eq. split; [|exact K].
    unfold shape_ok. repeat split; intros; try (exfalso; tnum; lia). apply repeat_rune_nonempty. lia. }
  destruct ((t =? T_One) || (t =? T_Notone) || (t =? T_Set)) eqn:E4.
  { eexists. split; [reflexivity|]. apply make_rep_good; [exact G | cbn [n_t]; lia | destruct lazy; [right | left]; reflexivity]. }
  destruct (add_child_ok (mk_node_mn (if lazy then T_Lazyloop else T_Loop) o mn mx) (RN t o ch m n str st kids)) as [p' [E [K [NE [Ht [Hs [Hst _]]]]]]].
  - cbn. constructor.
  - exact G.
  - exists p'. split; [exact E|].
    destruct p' as [pt po pch pm pn pstr pst pk]. cbn [n_kids n_t n_str n_set mk_node_mn] in *. apply good_eq. split; [|exact K].
    unfold shape_ok. repeat split; intros; try assumption.
    + exfalso. destruct lazy; tnum; lia.
    + exfalso. destruct lazy; tnum; lia.
Qed.

Lemma reverse_left_kids_good x : Forall good (n_kids x) -> Forall good (n_kids (reverse_left x)).
Proof.
  intros K. unfold reverse_left. destruct (useRTL (n_o x) && (n_t x =? T_Concatenate)); [|exact K].
  destruct x; cbn in *. apply Forall_rev. exact K.
Qed.

Lemma reverse_left_good x : Forall good (n_kids x) -> n_t x = T_Concatenate -> good (reverse_left x).
Proof.
  intros K Ht. pose proof (reverse_left_kids_good x K) as K'.
  assert (Ht' : n_t (reverse_left x) = T_Concatenate).
  { unfold reverse_left. destruct (useRTL (n_o x) && (n_t x =? T_Concatenate)); [|exact Ht]. destruct x; cbn in *; exact Ht. }
  destruct (reverse_left x) as [t o ch m n str st kids]. cbn [n_kids n_t] in *. apply good_eq. split; [|exact K'].
  unfold shape_ok. repeat split; intros; exfalso; tnum; lia.
Qed.

End Tree.

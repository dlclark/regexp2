(* C05 — the rewrite rules of syntax/tree.go as theorems about the reference semantics (Model/Spec.v).
   Relations and the modelled pieces of tree.go are in Model/Rewrite.v.
   Rule R4 (a loop made atomic because of what follows it) takes four sections: the rule itself (8), the calculus
   of continuations that fail where the loop stopped early (13), a loop that ends a nested group (15), the end of an
   atomic context (16). *)
From Verif Require Import Base.Prelude Model.Tree Model.Spec Model.Rewrite Proofs.SpecProofs.
From Verif Require Import Proofs.ListFacts.
From Coq Require Import ZifyBool.

(* 0. result lists: inversion and monotonicity ("Ok-refinement": Fuel is below everything)      *)

Definition rle {A} (r r' : res A) : Prop := forall a, r = Ok a -> r' = Ok a.

Lemma rle_refl {A} (r : res A) : rle r r.
Proof. intros a H; exact H. Qed.

Lemma rle_trans {A} (a b c : res A) : rle a b -> rle b c -> rle a c.
Proof. intros H1 H2 x Hx. auto. Qed.

Lemma rle_bindr {A B} (r r' : res (list A)) (f g : A -> res (list B)) :
  rle r r' -> (forall a, rle (f a) (g a)) -> rle (bindr r f) (bindr r' g).
Proof. intros Hr Hf l. exact (sp_bindr_mono r r' f g l Hr Hf). Qed.

Lemma first_only_ok {A} (r : res (list A)) l : first_only r = Ok l <-> exists l0, r = Ok l0 /\ l = hd_list l0.
Proof.
  unfold first_only. split.
  - intros H. apply sp_bind_ok in H as (l0 & H0 & H1). exists l0. split; [exact H0|].
    destruct l0; inversion H1; reflexivity.
  - intros (l0 & -> & ->). simpl. destruct l0; reflexivity.
Qed.

Lemma first_only_Ok {A} (l : list A) : first_only (Ok l) = Ok (hd_list l).
Proof. destruct l; reflexivity. Qed.

Lemma hd_list_idem {A} (l : list A) : hd_list (hd_list l) = hd_list l.
Proof. destruct l; reflexivity. Qed.

Lemma hd_list_app {A} (l1 l2 : list A) : hd_list (l1 ++ l2) = match l1 with [] => hd_list l2 | _ => hd_list l1 end.
Proof. destruct l1; reflexivity. Qed.

Lemma bind_ret {A} (r : res A) : bind r (fun x => Ok x) = r.
Proof. destruct r; reflexivity. Qed.

Lemma bindl_ok {A B} (l : list A) (f : A -> res (list B)) z :
  bindl l f = Ok z <-> exists zs, Forall2 (fun a x => f a = Ok x) l zs /\ z = concat zs.
Proof.
  revert z. induction l as [|a l IH]; intros z; simpl.
  - split.
    + intros H. inversion H. exists []. split; [constructor | reflexivity].
    + intros (zs & HF & ->). inversion HF. reflexivity.
  - split.
    + intros H. apply sp_bind_ok in H as (x & Hx & H). apply sp_bind_ok in H as (y & Hy & H).
      inversion H; subst. apply IH in Hy as (zs & HF & ->).
      exists (x :: zs). split; [constructor; assumption | reflexivity].
    + intros (zs & HF & ->). inversion HF as [|a' x l' zs' Hx HF']; subst.
      rewrite Hx. simpl. assert (bindl l f = Ok (concat zs')) as -> by (apply IH; eauto).
      reflexivity.
Qed.

Lemma bindl_app {A B} (l1 l2 : list A) (f : A -> res (list B)) :
  bindl (l1 ++ l2) f = appr (bindl l1 f) (bindl l2 f).
Proof.
  induction l1 as [|a l1 IH]; simpl.
  - unfold appr. simpl. symmetry. apply bind_ret.
  - destruct (f a) as [x| | |]; simpl; try reflexivity.
    rewrite IH. unfold appr. destruct (bindl l1 f) as [y| | |]; simpl; try reflexivity.
    destruct (bindl l2 f) as [w| | |]; simpl; try reflexivity.
    rewrite app_assoc. reflexivity.
Qed.

Lemma bindl_single {A B} (a : A) (k : A -> res (list B)) : bindl [a] k = k a.
Proof. simpl. destruct (k a); simpl; [rewrite app_nil_r|..]; reflexivity. Qed.

(* 1. one fuel step of [sem], and monotonicity in the fuel                                      *)

Section Step.
Variable e : env.

Definition sem_step (f : nat) (rec : node -> st -> res (list st)) (t : node) (s : st) : res (list st) :=
  match t with
  | NChar k o c =>
      Ok (if (0 <? avail e o (pos s)) && char_test e k c (next_char e o (pos s))
          then [with_pos s (pos s + dir o)] else [])
  | NCharLoop k l o c m n => Ok (sem_charloop e k l o c m n s)
  | NMulti o str => Ok (sem_multi e o str s)
  | NRef o g => Ok (sem_ref e o g s)
  | NAnchor a => Ok (if anchor_ok e a (pos s) then [s] else [])
  | NNothing => Ok []
  | NEmpty => Ok [s]
  | NBump => Ok [s]
  | NConcat _ l => seq_sem rec l s
  | NAlternate _ l => alt_sem rec s l
  | NLoop lazy _ m n r =>
      let limit := if n =? INF then INF else n - m in
      if m =? 0 then iter f (rec r) lazy limit s (-1) 0
      else bindr (rec r s) (fun s' => iter f (rec r) lazy limit s' (pos s) (1 - m))
  | NCapture _ g u r =>
      if u =? -1 then
        bindr (rec r s) (fun s' =>
          Ok [{| pos := pos s'; caps := cap_push g (span (pos s) (pos s')) (caps s') |}])
      else
        bindr (rec r s) (fun s' =>
          match cap_get u (caps s') with
          | [] => Ok []
          | top :: _ =>
              let c1 := cap_pop u (caps s') in
              Ok [{| pos := pos s';
                     caps := if g =? -1 then c1 else cap_push g (balance_span (pos s) (pos s') top) c1 |}]
          end)
  | NGroup r => rec r s
  | NPosLook _ r => do l <- first_only (rec r s) ; Ok (map (fun s' => with_pos s' (pos s)) l)
  | NNegLook _ r => do l <- rec r s ; Ok (match l with [] => [s] | _ => [] end)
  | NAtomic r => first_only (rec r s)
  | NBackRefCond _ g yes no =>
      if is_matched g (caps s) then rec yes s
      else match no with Some n => rec n s | None => Ok [s] end
  | NExprCond _ c yes no =>
      do l <- first_only (rec c s) ;
      match l with
      | s' :: _ => rec yes (with_pos s' (pos s))
      | [] => match no with Some n => rec n s | None => Ok [s] end
      end
  end.

Lemma sem_S f t s : sem e (S f) t s = sem_step f (sem e f) t s.
Proof. destruct t; reflexivity. Qed.

Lemma sem_O t s : sem e 0 t s = Fuel.
Proof. reflexivity. Qed.

Lemma rle_seq_sem rec rec' l :
  (forall t s, rle (rec t s) (rec' t s)) -> forall s, rle (seq_sem rec l s) (seq_sem rec' l s).
Proof.
  intros H. induction l as [|x l IH]; intros s; simpl; [apply rle_refl|].
  apply rle_bindr; [apply H | exact IH].
Qed.

Lemma rle_iter (body body' : st -> res (list st)) lazy limit :
  (forall s, rle (body s) (body' s)) ->
  forall f f', (f <= f')%nat -> forall s mark count,
  rle (iter f body lazy limit s mark count) (iter f' body' lazy limit s mark count).
Proof.
  intros Hb f f' Hle s mark count l.
  exact (spec_iter_mono body body' Hb f f' Hle lazy limit s mark count l).
Qed.

Theorem rw_sem_mono : forall f f' t s l, (f <= f')%nat -> sem e f t s = Ok l -> sem e f' t s = Ok l.
Proof. intros f f' t s l Hle. exact (spec_sem_fuel_mono e f f' Hle t s l). Qed.

(* the denotation is a partial function *)
Theorem rw_evals_det t s l1 l2 : rw_evals e t s l1 -> rw_evals e t s l2 -> l1 = l2.
Proof.
  intros [f1 H1] [f2 H2].
  apply (rw_sem_mono f1 (Nat.max f1 f2)) in H1; [|lia].
  apply (rw_sem_mono f2 (Nat.max f1 f2)) in H2; [|lia].
  congruence.
Qed.

End Step.

(* 2. fuel-free characterisation of [rw_evals] per constructor                                  *)

Section Evals.
Variable e : env.

Notation evals := (rw_evals e).

Lemma evals_S t s l : evals t s l <-> exists f, sem_step e f (sem e f) t s = Ok l.
Proof.
  split.
  - intros [[|f] H]; [discriminate|]. exists f. rewrite <- sem_S. exact H.
  - intros [f H]. exists (S f). rewrite sem_S. exact H.
Qed.

Lemma evals_common t (lx : list st) zs :
  Forall2 (fun a za => evals t a za) lx zs ->
  exists F, forall f, (F <= f)%nat -> Forall2 (fun a za => sem e f t a = Ok za) lx zs.
Proof.
  induction 1 as [|a za lx zs [fa Ha] _ (F & IH)].
  - exists 0%nat. intros; constructor.
  - exists (Nat.max fa F). intros f Hf. constructor.
    + apply (rw_sem_mono e fa); [lia | exact Ha].
    + apply IH. lia.
Qed.

(* leaves: the result does not depend on the fuel *)
Definition leaf_result (t : node) (s : st) : option (list st) :=
  match t with
  | NChar k o c =>
      Some (if (0 <? avail e o (pos s)) && char_test e k c (next_char e o (pos s))
            then [with_pos s (pos s + dir o)] else [])
  | NCharLoop k l o c m n => Some (sem_charloop e k l o c m n s)
  | NMulti o str => Some (sem_multi e o str s)
  | NRef o g => Some (sem_ref e o g s)
  | NAnchor a => Some (if anchor_ok e a (pos s) then [s] else [])
  | NNothing => Some []
  | NEmpty => Some [s]
  | NBump => Some [s]
  | _ => None
  end.

Lemma sem_leaf t s r f : leaf_result t s = Some r -> sem e (S f) t s = Ok r.
Proof. destruct t; simpl; intros H; inversion H; reflexivity. Qed.

Lemma evals_leaf t s r l : leaf_result t s = Some r -> (evals t s l <-> l = r).
Proof.
  intros H. split.
  - intros [[|f] Hf]; [discriminate|]. rewrite (sem_leaf _ _ _ _ H) in Hf. congruence.
  - intros ->. exists 1%nat. apply sem_leaf, H.
Qed.

Lemma evals_concat_nil o s z : evals (NConcat o []) s z <-> z = [s].
Proof.
  split.
  - intros [[|f] H]; [discriminate|]. rewrite sem_S in H. simpl in H. congruence.
  - intros ->. exists 1%nat. reflexivity.
Qed.

Lemma evals_concat_cons o x l s z :
  evals (NConcat o (x :: l)) s z <->
  exists lx zs, evals x s lx /\ Forall2 (fun a za => evals (NConcat o l) a za) lx zs /\ z = concat zs.
Proof.
  split.
  - intros [[|f] H]; [discriminate|]. rewrite sem_S in H. cbn [sem_step seq_sem] in H.
    unfold bindr in H. apply sp_bind_ok in H as (lx & Hx & H).
    apply bindl_ok in H as (zs & HF & ->).
    exists lx, zs. split; [exists f; exact Hx|]. split; [|reflexivity].
    eapply Forall2_impl; [|exact HF]. intros a za Ha. exists (S f). rewrite sem_S. exact Ha.
  - intros (lx & zs & [fx Hx] & HF & ->). apply evals_common in HF as (F & HF).
    exists (S (S (Nat.max fx F))). rewrite sem_S. cbn [sem_step seq_sem].
    rewrite (rw_sem_mono e fx (S (Nat.max fx F)) _ _ _ ltac:(lia) Hx). unfold bindr. cbn [bind].
    apply bindl_ok. exists zs. split; [|reflexivity].
    eapply Forall2_impl; [|apply (HF (S (S (Nat.max fx F)))); lia].
    intros a za Ha. cbv beta in Ha. rewrite sem_S in Ha. cbn [sem_step] in Ha.
    exact Ha.
Qed.

Lemma evals_concat_single o t s z : evals (NConcat o [t]) s z <-> evals t s z.
Proof.
  assert (Hnil : forall l zs, Forall2 (fun a za => evals (NConcat o []) a za) l zs -> concat zs = l).
  { induction 1 as [|a za l0 zs0 Ha _ IH0]; [reflexivity|]. apply evals_concat_nil in Ha. subst. simpl. congruence. }
  rewrite evals_concat_cons. split.
  - intros (lx & zs & Hx & HF & ->). rewrite (Hnil _ _ HF). exact Hx.
  - intros Hz. exists z, (map (fun a => [a]) z). split; [exact Hz|]. split.
    + clear. induction z; constructor; [apply evals_concat_nil; reflexivity | assumption].
    + clear. induction z; simpl; congruence.
Qed.

Lemma evals_alt_nil o s z : evals (NAlternate o []) s z <-> z = [].
Proof.
  split.
  - intros [[|f] H]; [discriminate|]. rewrite sem_S in H. simpl in H. congruence.
  - intros ->. exists 1%nat. reflexivity.
Qed.

Lemma evals_alt_cons o x l s z :
  evals (NAlternate o (x :: l)) s z <->
  exists lx ly, evals x s lx /\ evals (NAlternate o l) s ly /\ z = lx ++ ly.
Proof.
  split.
  - intros [[|f] H]; [discriminate|]. rewrite sem_S in H. cbn [sem_step alt_sem] in H.
    unfold appr in H. apply sp_bind_ok in H as (lx & Hx & H). apply sp_bind_ok in H as (ly & Hy & H).
    inversion H; subst. exists lx, ly. split; [exists f; exact Hx|]. split; [|reflexivity].
    exists (S f). rewrite sem_S. exact Hy.
  - intros (lx & ly & [fx Hx] & [fy Hy] & ->).
    exists (S (Nat.max fx fy)). rewrite sem_S. cbn [sem_step alt_sem].
    rewrite (rw_sem_mono e fx (Nat.max fx fy) _ _ _ ltac:(lia) Hx).
    apply (rw_sem_mono e fy (S (Nat.max fx fy))) in Hy; [|lia]. rewrite sem_S in Hy. cbn [sem_step] in Hy.
    unfold appr. cbn [bind]. rewrite Hy. reflexivity.
Qed.

Lemma evals_atomic r s z : evals (NAtomic r) s z <-> exists l, evals r s l /\ z = hd_list l.
Proof.
  split.
  - intros [[|f] H]; [discriminate|]. rewrite sem_S in H. cbn [sem_step] in H.
    apply first_only_ok in H as (l0 & H0 & ->). exists l0. split; [exists f; exact H0 | reflexivity].
  - intros (l & [f H] & ->). exists (S f). rewrite sem_S. cbn [sem_step]. rewrite H. apply first_only_Ok.
Qed.

Lemma evals_group r s z : evals (NGroup r) s z <-> evals r s z.
Proof.
  split.
  - intros [[|f] H]; [discriminate|]. rewrite sem_S in H. exists f. exact H.
  - intros [f H]. exists (S f). rewrite sem_S. exact H.
Qed.

Lemma evals_poslook o r s z :
  evals (NPosLook o r) s z <-> exists l, evals r s l /\ z = map (fun s' => with_pos s' (pos s)) (hd_list l).
Proof.
  split.
  - intros [[|f] H]; [discriminate|]. rewrite sem_S in H. cbn [sem_step] in H.
    apply sp_bind_ok in H as (l1 & H1 & H). apply first_only_ok in H1 as (l0 & H0 & ->).
    inversion H; subst. exists l0. split; [exists f; exact H0 | reflexivity].
  - intros (l & [f H] & ->). exists (S f). rewrite sem_S. cbn [sem_step]. rewrite H, first_only_Ok. reflexivity.
Qed.

Lemma evals_neglook o r s z :
  evals (NNegLook o r) s z <-> exists l, evals r s l /\ z = match hd_list l with [] => [s] | _ => [] end.
Proof.
  split.
  - intros [[|f] H]; [discriminate|]. rewrite sem_S in H. cbn [sem_step] in H.
    apply sp_bind_ok in H as (l1 & H1 & H). inversion H; subst.
    exists l1. split; [exists f; exact H1 | destruct l1; reflexivity].
  - intros (l & [f H] & ->). exists (S f). rewrite sem_S. cbn [sem_step]. rewrite H. destruct l; reflexivity.
Qed.

Definition capture_close (g u : Z) (s s' : st) : list st :=
  if u =? -1 then [{| pos := pos s'; caps := cap_push g (span (pos s) (pos s')) (caps s') |}]
  else match cap_get u (caps s') with
       | [] => []
       | top :: _ =>
           let c1 := cap_pop u (caps s') in
           [{| pos := pos s';
               caps := if g =? -1 then c1 else cap_push g (balance_span (pos s) (pos s') top) c1 |}]
       end.

Lemma bindl_pure {A B} (l : list A) (k : A -> list B) : bindl l (fun a => Ok (k a)) = Ok (flat_map k l).
Proof. induction l as [|a l IH]; simpl; [reflexivity|]. rewrite IH. reflexivity. Qed.

Lemma evals_capture o g u r s z :
  evals (NCapture o g u r) s z <-> exists l, evals r s l /\ z = flat_map (capture_close g u s) l.
Proof.
  split.
  - intros [[|f] H]; [discriminate|]. rewrite sem_S in H. cbn [sem_step] in H.
    assert (H' : bindr (sem e f r s) (fun s' => Ok (capture_close g u s s')) = Ok z).
    { unfold capture_close. destruct (u =? -1); [exact H|].
      unfold bindr in *. apply sp_bind_ok in H as (l & Hl & H). rewrite Hl. cbn [bind].
      rewrite <- H. clear. induction l as [|a l IH]; simpl; [reflexivity|]. rewrite IH.
      destruct (cap_get u (caps a)); reflexivity. }
    unfold bindr in H'. apply sp_bind_ok in H' as (l & Hl & H'). rewrite bindl_pure in H'. inversion H'; subst.
    exists l. split; [exists f; exact Hl | reflexivity].
  - intros (l & [f H] & ->). exists (S f). rewrite sem_S. cbn [sem_step]. rewrite H.
    unfold bindr, capture_close. cbn [bind]. destruct (u =? -1).
    + apply bindl_pure.
    + rewrite <- (bindl_pure l). clear. induction l as [|a l IH]; simpl; [reflexivity|]. rewrite IH.
      destruct (cap_get u (caps a)); reflexivity.
Qed.

Lemma evals_backref_cond o g y n s z :
  evals (NBackRefCond o g y n) s z <->
  (if is_matched g (caps s) then evals y s z
   else match n with Some n' => evals n' s z | None => z = [s] end).
Proof.
  split.
  - intros [[|f] H]; [discriminate|]. rewrite sem_S in H. cbn [sem_step] in H.
    destruct (is_matched g (caps s)); [exists f; exact H|].
    destruct n; [exists f; exact H | congruence].
  - intros H. destruct (is_matched g (caps s)) eqn:E.
    + destruct H as [f H]. exists (S f). rewrite sem_S. cbn [sem_step]. rewrite E. exact H.
    + destruct n as [n'|].
      * destruct H as [f H]. exists (S f). rewrite sem_S. cbn [sem_step]. rewrite E. exact H.
      * subst. exists 1%nat. rewrite sem_S. cbn [sem_step]. rewrite E. reflexivity.
Qed.

Lemma evals_expr_cond o c y n s z :
  evals (NExprCond o c y n) s z <->
  exists lc, evals c s lc /\
    match lc with
    | s' :: _ => evals y (with_pos s' (pos s)) z
    | [] => match n with Some n' => evals n' s z | None => z = [s] end
    end.
Proof.
  split.
  - intros [[|f] H]; [discriminate|]. rewrite sem_S in H. cbn [sem_step] in H.
    apply sp_bind_ok in H as (l1 & H1 & H). apply first_only_ok in H1 as (lc & Hc & ->).
    exists lc. split; [exists f; exact Hc|].
    destruct lc as [|s' lc]; cbn [hd_list] in H.
    + destruct n; [exists f; exact H | congruence].
    + exists f. exact H.
  - intros (lc & [fc Hc] & H).
    assert (Hgo : forall f, (fc <= f)%nat ->
              sem e (S f) (NExprCond o c y n) s =
              match lc with
              | s' :: _ => sem e f y (with_pos s' (pos s))
              | [] => match n with Some n' => sem e f n' s | None => Ok [s] end
              end).
    { intros f Hf. rewrite sem_S. cbn [sem_step].
      rewrite (rw_sem_mono e fc f _ _ _ Hf Hc), first_only_Ok. destruct lc; reflexivity. }
    destruct lc as [|s' lc].
    + destruct n as [n'|].
      * destruct H as [f H]. exists (S (Nat.max fc f)). rewrite Hgo by lia.
        apply (rw_sem_mono e f); [lia | exact H].
      * subst. exists (S fc). rewrite Hgo by lia. reflexivity.
    + destruct H as [f H]. exists (S (Nat.max fc f)). rewrite Hgo by lia.
      apply (rw_sem_mono e f); [lia | exact H].
Qed.

End Evals.

Ltac leaf_inv H :=
  match type of H with rw_evals ?e ?t ?s ?l => apply (proj1 (evals_leaf e t s _ l eq_refl)) in H end.
Ltac leaf_intro :=
  match goal with |- rw_evals ?e ?t ?s ?l => apply (proj2 (evals_leaf e t s _ l eq_refl)) end.

(* 3. the relations: order structure, strong implies denotational                               *)

Section Basics.
Variable e : env.

Lemma rw_refines_refl t : rw_refines e t t.
Proof. intros s l H; exact H. Qed.
Lemma rw_refines_trans a b c : rw_refines e a b -> rw_refines e b c -> rw_refines e a c.
Proof. intros H1 H2 s l H. auto. Qed.
Lemma rw_hrefines_refl t : rw_hrefines e t t.
Proof. intros s l H; exists l; split; [exact H | reflexivity]. Qed.
Lemma rw_hrefines_trans a b c : rw_hrefines e a b -> rw_hrefines e b c -> rw_hrefines e a c.
Proof.
  intros H1 H2 s l H. apply H1 in H as (l1 & H & E1). apply H2 in H as (l2 & H & E2).
  exists l2. split; [exact H | congruence].
Qed.
Lemma rw_refines_hrefines a b : rw_refines e a b -> rw_hrefines e a b.
Proof. intros H s l Hl. exists l. split; [apply H, Hl | reflexivity]. Qed.

Lemma rw_eq_refl t : rw_eq e t t.
Proof. split; apply rw_refines_refl. Qed.
Lemma rw_eq_sym a b : rw_eq e a b -> rw_eq e b a.
Proof. intros [H1 H2]; split; assumption. Qed.
Lemma rw_eq_trans a b c : rw_eq e a b -> rw_eq e b c -> rw_eq e a c.
Proof. intros [H1 H2] [H3 H4]; split; eapply rw_refines_trans; eassumption. Qed.
Lemma rw_heq_refl t : rw_heq e t t.
Proof. split; apply rw_hrefines_refl. Qed.
Lemma rw_heq_sym a b : rw_heq e a b -> rw_heq e b a.
Proof. intros [H1 H2]; split; assumption. Qed.
Lemma rw_heq_trans a b c : rw_heq e a b -> rw_heq e b c -> rw_heq e a c.
Proof. intros [H1 H2] [H3 H4]; split; eapply rw_hrefines_trans; eassumption. Qed.
Lemma rw_eq_heq a b : rw_eq e a b -> rw_heq e a b.
Proof. intros [H1 H2]; split; apply rw_refines_hrefines; assumption. Qed.

Lemma rw_eqs_refl t : rw_eqs e t t.
Proof. intros f s; reflexivity. Qed.
Lemma rw_eqs_sym a b : rw_eqs e a b -> rw_eqs e b a.
Proof. intros H f s; symmetry; apply H. Qed.
Lemma rw_eqs_trans a b c : rw_eqs e a b -> rw_eqs e b c -> rw_eqs e a c.
Proof. intros H1 H2 f s; rewrite H1; apply H2. Qed.
Lemma rw_heqs_refl t : rw_heqs e t t.
Proof. intros f s; reflexivity. Qed.
Lemma rw_heqs_sym a b : rw_heqs e a b -> rw_heqs e b a.
Proof. intros H f s; symmetry; apply H. Qed.
Lemma rw_heqs_trans a b c : rw_heqs e a b -> rw_heqs e b c -> rw_heqs e a c.
Proof. intros H1 H2 f s; rewrite H1; apply H2. Qed.
Lemma rw_eqs_heqs a b : rw_eqs e a b -> rw_heqs e a b.
Proof. intros H f s; rewrite H; reflexivity. Qed.

Lemma rw_eqs_eq a b : rw_eqs e a b -> rw_eq e a b.
Proof. intros H; split; intros s l [f Hf]; exists f; [rewrite <- H | rewrite H]; exact Hf. Qed.

Lemma rw_heqs_hrefines a b : rw_heqs e a b -> rw_hrefines e a b.
Proof.
  intros H s l [f Hf]. specialize (H f s). rewrite Hf, first_only_Ok in H. symmetry in H.
  apply first_only_ok in H as (l0 & H0 & E). exists l0. split; [exists f; exact H0 | exact E].
Qed.
Lemma rw_heqs_heq a b : rw_heqs e a b -> rw_heq e a b.
Proof. intros H; split; apply rw_heqs_hrefines; [exact H | apply rw_heqs_sym, H]. Qed.

(* whenever both trees evaluate, related trees give the same (first) result *)
Lemma rw_hrefines_agree a b s la lb :
  rw_hrefines e a b -> rw_evals e a s la -> rw_evals e b s lb -> hd_list la = hd_list lb.
Proof.
  intros H Ha Hb. apply H in Ha as (l' & Hl' & E). rewrite (rw_evals_det e _ _ _ _ Hb Hl'). exact E.
Qed.

End Basics.

(* 4. R1 — a single-character loop in atomic position (makeLoopAtomic, tree.go:710-740)          *)

Section CharLoop.
Variable e : env.

Lemma run_len_min k c o a b p :
  run_len e k c o (Nat.min a b) p = Z.min (run_len e k c o a p) (Z.of_nat b).
Proof.
  revert b p. induction a as [|a IH]; intros b p.
  - cbn [Nat.min run_len]. lia.
  - destruct b as [|b].
    + cbn [Nat.min]. pose proof (run_len_bounds e k c o (S a) p). cbn [run_len] in *. lia.
    + cbn [Nat.min run_len].
      destruct ((0 <? avail e o p) && char_test e k c (next_char e o p)); [rewrite IH|]; lia.
Qed.

Lemma count_down_head r m : m <= r -> exists tl, count_down r m = r :: tl.
Proof.
  intros H. unfold count_down. assert (r <? m = false) as -> by lia.
  destruct (Z.to_nat (r - m + 1)) as [|k] eqn:E; [lia|]. simpl. eauto.
Qed.

Lemma count_up_head m r : m <= r -> exists tl, count_up m r = m :: tl.
Proof.
  intros H. unfold count_up. assert (r <? m = false) as -> by lia.
  destruct (Z.to_nat (r - m + 1)) as [|k] eqn:E; [lia|]. simpl. eauto.
Qed.

Lemma with_pos_same (s : st) : with_pos s (pos s) = s.
Proof. destruct s; reflexivity. Qed.

Ltac leaf_fuel f s := intros f s; destruct f as [|f]; [reflexivity|]; rewrite !sem_S; cbn [sem_step].

(* R1, greedy: the first result of a greedy loop is the maximal run.  No side condition. *)
Theorem end_backtracking_charloop k o c m n :
  rw_heqs e (NCharLoop k LGreedy o c m n) (NCharLoop k LAtomic o c m n).
Proof.
  leaf_fuel f s. unfold sem_charloop. cbv zeta.
  set (r := run_len e k c o _ (pos s)). destruct (r <? m) eqn:E; [reflexivity|].
  destruct (count_down_head r m ltac:(lia)) as [tl ->]. reflexivity.
Qed.

(* R1, lazy: makeLoopAtomic turns a lazy loop into the repeater of its minimum (n := m). *)
Theorem end_backtracking_charloop_lazy k o c m n : 0 <= m <= n -> m < INF ->
  rw_heqs e (NCharLoop k LLazy o c m n) (NCharLoop k LAtomic o c m m).
Proof.
  intros Hmn Hm. leaf_fuel f s. unfold sem_charloop. cbv zeta.
  set (A := avail e o (pos s)).
  assert (m =? INF = false) as -> by lia.
  set (cap1 := if n =? INF then A else Z.min n A).
  assert (Hcap : Z.to_nat (Z.min m A) = Nat.min (Z.to_nat cap1) (Z.to_nat m)).
  { unfold cap1. destruct (n =? INF); lia. }
  rewrite Hcap, run_len_min.
  set (r := run_len e k c o (Z.to_nat cap1) (pos s)).
  pose proof (run_len_bounds e k c o (Z.to_nat cap1) (pos s)) as Hr. fold r in Hr.
  replace (Z.of_nat (Z.to_nat m)) with m by lia.
  destruct (r <? m) eqn:E.
  - assert (Z.min r m <? m = true) as -> by lia. reflexivity.
  - assert (Z.min r m <? m = false) as -> by lia.
    destruct (count_up_head m r ltac:(lia)) as [tl ->]. cbn [map first_only bind].
    replace (Z.min r m) with m by lia. reflexivity.
Qed.

(* R1, lazy with minimum 0: makeLoopAtomic produces Empty (tree.go:724-729). *)
Theorem end_backtracking_charloop_lazy0 k o c n :
  rw_heqs e (NCharLoop k LLazy o c 0 n) NEmpty.
Proof.
  leaf_fuel f s. unfold sem_charloop. cbv zeta.
  set (r := run_len e k c o _ (pos s)).
  pose proof (run_len_bounds e k c o (Z.to_nat (if n =? INF then avail e o (pos s) else Z.min n (avail e o (pos s)))) (pos s)) as Hr.
  fold r in Hr. assert (r <? 0 = false) as -> by lia.
  destruct (count_up_head 0 r ltac:(lia)) as [tl ->]. cbn [map first_only bind].
  replace (pos s + dir o * 0) with (pos s) by lia. rewrite with_pos_same. reflexivity.
Qed.

(* a One repeater {m,m} and the Multi of m copies (tree.go:730-738); under IgnoreCase a Multi
   lower-cases the text and a One does not, so the rune must be one the lower-casing leaves alone *)
Definition ci_neutral (o c : Z) : Prop := is_ci o = true -> forall x, (c =? lower e x) = (x =? c).

Lemma run_len_full k c o n p :
  run_len e k c o n p = Z.of_nat n <->
  forall i, 0 <= i < Z.of_nat n ->
    (0 <? avail e o (p + dir o * i)) && char_test e k c (next_char e o (p + dir o * i)) = true.
Proof.
  revert p. induction n as [|n IH]; intros p.
  - cbn [run_len]. split; [intros _ i Hi; lia | reflexivity].
  - cbn [run_len]. pose proof (run_len_bounds e k c o n (p + dir o)) as Hb. split.
    + intros H i Hi.
      destruct ((0 <? avail e o p) && char_test e k c (next_char e o p)) eqn:E; [|lia].
      destruct (Z.eq_dec i 0) as [->|Hne].
      * replace (p + dir o * 0) with p by lia. exact E.
      * assert (H' : run_len e k c o n (p + dir o) = Z.of_nat n) by lia.
        rewrite IH in H'. specialize (H' (i - 1) ltac:(lia)).
        replace (p + dir o + dir o * (i - 1)) with (p + dir o * i) in H' by lia. exact H'.
    + intros H. pose proof (H 0 ltac:(lia)) as H0. replace (p + dir o * 0) with p in H0 by lia.
      rewrite H0. assert (H' : run_len e k c o n (p + dir o) = Z.of_nat n).
      { apply IH. intros i Hi. specialize (H (i + 1) ltac:(lia)).
        replace (p + dir o * (i + 1)) with (p + dir o + dir o * i) in H by lia. exact H. }
      lia.
Qed.

Lemma str_match_repeat ci c n p :
  str_match_at e ci (repeat c n) p = true <->
  forall i, 0 <= i < Z.of_nat n -> (c =? (if ci then lower e (char_at e (p + i)) else char_at e (p + i))) = true.
Proof.
  revert p. induction n as [|n IH]; intros p.
  - cbn. split; [intros _ i Hi; lia | reflexivity].
  - cbn [repeat str_match_at]. rewrite andb_true_iff, IH. split.
    + intros [H0 H] i Hi. destruct (Z.eq_dec i 0) as [->|Hne].
      * replace (p + 0) with p by lia. exact H0.
      * specialize (H (i - 1) ltac:(lia)). replace (p + 1 + (i - 1)) with (p + i) in H by lia. exact H.
    + intros H. split.
      * specialize (H 0 ltac:(lia)). replace (p + 0) with p in H by lia. exact H.
      * intros i Hi. specialize (H (i + 1) ltac:(lia)). replace (p + (i + 1)) with (p + 1 + i) in H by lia. exact H.
Qed.

Theorem charloop_repeater_multi o c m : 1 <= m -> m < INF -> ci_neutral o c ->
  rw_eqs e (NCharLoop COne LAtomic o c m m) (NMulti o (repeat c (Z.to_nat m))).
Proof.
  intros Hm Hinf Hci. leaf_fuel f s. f_equal. unfold sem_charloop, sem_multi. cbv zeta.
  assert (m =? INF = false) as -> by lia. rewrite zlen_repeat.
  replace (Z.of_nat (Z.to_nat m)) with m by lia.
  set (A := avail e o (pos s)). set (p := pos s).
  destruct (A <? m) eqn:EA.
  - pose proof (run_len_bounds e COne c o (Z.to_nat (Z.min m A)) p) as Hb.
    assert (run_len e COne c o (Z.to_nat (Z.min m A)) p <? m = true) as -> by lia. reflexivity.
  - replace (Z.min m A) with m by lia.
    set (start := if is_rtl o then p - m else p).
    assert (Hiff : run_len e COne c o (Z.to_nat m) p = Z.of_nat (Z.to_nat m) <->
                   str_match_at e (is_ci o) (repeat c (Z.to_nat m)) start = true).
    { rewrite run_len_full, str_match_repeat.
      assert (Hav : forall i, 0 <= i < Z.of_nat (Z.to_nat m) -> (0 <? avail e o (p + dir o * i)) = true).
      { intros i Hi. unfold A, avail, dir in *. fold p in EA. destruct (is_rtl o); lia. }
      assert (Htest : forall x, (c =? (if is_ci o then lower e x else x)) = char_test e COne c x).
      { intros x. cbn [char_test]. destruct (is_ci o) eqn:Eci; [apply Hci; exact Eci | apply Z.eqb_sym]. }
      unfold start, next_char, dir in Hav |- *. destruct (is_rtl o).
      - split; intros H i Hi.
        + specialize (H (Z.of_nat (Z.to_nat m) - 1 - i) ltac:(lia)). rewrite Hav in H by lia. cbn [andb] in H.
          rewrite Htest. replace (p - m + i) with (p + -1 * (Z.of_nat (Z.to_nat m) - 1 - i) - 1) by lia. exact H.
        + rewrite (Hav i Hi). cbn [andb]. specialize (H (Z.of_nat (Z.to_nat m) - 1 - i) ltac:(lia)).
          rewrite Htest in H. replace (p - m + (Z.of_nat (Z.to_nat m) - 1 - i)) with (p + -1 * i - 1) in H by lia. exact H.
      - split; intros H i Hi.
        + specialize (H i Hi). rewrite (Hav i Hi) in H. cbn [andb] in H. rewrite Htest.
          replace (p + i) with (p + 1 * i) by lia. exact H.
        + rewrite (Hav i Hi). cbn [andb]. specialize (H i Hi). rewrite Htest in H.
          replace (p + 1 * i) with (p + i) by lia. exact H. }
    pose proof (run_len_bounds e COne c o (Z.to_nat m) p) as Hb.
    destruct (str_match_at e (is_ci o) (repeat c (Z.to_nat m)) start) eqn:ES.
    + assert (Hr : run_len e COne c o (Z.to_nat m) p = m) by (apply proj2 in Hiff; specialize (Hiff eq_refl); lia).
      rewrite Hr. assert (m <? m = false) as -> by lia. reflexivity.
    + assert (Hr : run_len e COne c o (Z.to_nat m) p <> Z.of_nat (Z.to_nat m)).
      { intros H. apply Hiff in H. discriminate. }
      assert (run_len e COne c o (Z.to_nat m) p <? m = true) as -> by lia. reflexivity.
Qed.

(* R1 as the code applies it: whatever makeLoopAtomic produces has the same first result *)
Theorem make_loop_atomic_heqs k l o c m n : loop_atomic_ok e k l o c m n ->
  rw_heqs e (NCharLoop k l o c m n) (make_loop_atomic (NCharLoop k l o c m n)).
Proof.
  destruct l; cbn [loop_atomic_ok make_loop_atomic].
  - intros _. apply end_backtracking_charloop.
  - intros (Hmn & Hinf & Hci). destruct (m =? 0) eqn:E0.
    + assert (m = 0) as -> by lia. apply end_backtracking_charloop_lazy0.
    + assert (Hgen : rw_heqs e (NCharLoop k LLazy o c m n) (NCharLoop k LAtomic o c m m))
        by (apply end_backtracking_charloop_lazy; assumption).
      destruct k; try exact Hgen.
      destruct ((2 <=? m) && (m <=? MULTI_VS_REPEATER_LIMIT)) eqn:E2; [|exact Hgen].
      eapply rw_heqs_trans; [exact Hgen|]. apply rw_eqs_heqs, charloop_repeater_multi; try lia.
      intros Eci. apply Hci; [reflexivity | exact Eci].
  - intros _. apply rw_heqs_refl.
Qed.

End CharLoop.

Lemma Forall2_exists {A B} (P Q : A -> B -> Prop) (R : B -> B -> Prop) l zs :
  (forall a z, P a z -> exists z', Q a z' /\ R z z') ->
  Forall2 P l zs -> exists zs', Forall2 Q l zs' /\ Forall2 R zs zs'.
Proof.
  intros H. induction 1 as [|a z l zs Hp _ (zs' & HQ & HR)].
  - exists []. split; constructor.
  - destruct (H _ _ Hp) as (z' & Hq & Hr). exists (z' :: zs'). split; constructor; assumption.
Qed.

(* 5. congruences, once for every relation on result lists                                      *)

Section Lift.
Variable e : env.
Notation evals := (rw_evals e).
Variable Q : list st -> list st -> Prop.

(* wherever [t] evaluates, [t'] does, to a Q-related result list: rw_hrefines is the case
   "equal first results", rw_prunes (read both ways) the case [drops P] *)
Definition lifts (t t' : node) : Prop := forall s l, evals t s l -> exists l', evals t' s l' /\ Q l l'.
Definition opt_lifts (n n' : option node) : Prop :=
  match n, n' with Some a, Some b => lifts a b | None, None => True | _, _ => False end.

Hypothesis Q_refl : forall l, Q l l.
Hypothesis Q_app : forall a a' b b', Q a a' -> Q b b' -> Q (a ++ b) (a' ++ b').

Lemma lifts_group t t' : lifts t t' -> lifts (NGroup t) (NGroup t').
Proof.
  intros H s z Hz. apply (proj1 (evals_group _ _ _ _)) in Hz. destruct (H _ _ Hz) as (z' & Hz' & E).
  exists z'. split; [apply (proj2 (evals_group _ _ _ _)), Hz' | exact E].
Qed.

Lemma lifts_capture o g u t t' :
  (forall s l l', Q l l' -> Q (flat_map (capture_close g u s) l) (flat_map (capture_close g u s) l')) ->
  lifts t t' -> lifts (NCapture o g u t) (NCapture o g u t').
Proof.
  intros HQ H s z Hz. apply evals_capture in Hz as (l & Hl & ->). destruct (H _ _ Hl) as (l' & Hl' & E).
  eexists. split; [apply evals_capture; exists l'; split; [exact Hl' | reflexivity] | apply HQ, E].
Qed.

Lemma lifts_concat_last o pre t t' : lifts t t' -> lifts (NConcat o (pre ++ [t])) (NConcat o (pre ++ [t'])).
Proof.
  intros H. induction pre as [|x pre IH]; intros s z Hz; cbn [app] in *.
  - apply (proj1 (evals_concat_single _ _ _ _ _)) in Hz. destruct (H _ _ Hz) as (z' & Hz' & E).
    exists z'. split; [apply (proj2 (evals_concat_single _ _ _ _ _)), Hz' | exact E].
  - apply evals_concat_cons in Hz as (lx & zs & Hx & HF & ->).
    destruct (Forall2_exists _ (fun a za => evals (NConcat o (pre ++ [t'])) a za) Q _ _
                (fun a z Hz => IH a z Hz) HF) as (zs' & HF' & HR).
    exists (concat zs'). split; [apply evals_concat_cons; eauto|].
    clear -HR Q_refl Q_app. induction HR; cbn [concat]; auto.
Qed.

Lemma lifts_alt o l l' : Forall2 lifts l l' -> lifts (NAlternate o l) (NAlternate o l').
Proof.
  induction 1 as [|x x' l l' Hx _ IH]; intros s z Hz.
  - exists z. split; [exact Hz | apply Q_refl].
  - apply evals_alt_cons in Hz as (lx & ly & Hlx & Hly & ->).
    destruct (Hx _ _ Hlx) as (lx' & Hlx' & Ex). destruct (IH _ _ Hly) as (ly' & Hly' & Ey).
    exists (lx' ++ ly'). split; [apply evals_alt_cons; eauto | apply Q_app; assumption].
Qed.

Lemma lifts_no n n' s z : opt_lifts n n' ->
  match n with Some a => evals a s z | None => z = [s] end ->
  exists z', match n' with Some b => evals b s z' | None => z' = [s] end /\ Q z z'.
Proof.
  destruct n as [a|], n' as [b|]; cbn [opt_lifts]; try contradiction; intros Hn Hz.
  - exact (Hn _ _ Hz).
  - exists z. split; [exact Hz | apply Q_refl].
Qed.

Lemma lifts_backref_cond o g y y' n n' :
  lifts y y' -> opt_lifts n n' -> lifts (NBackRefCond o g y n) (NBackRefCond o g y' n').
Proof.
  intros Hy Hn s z Hz. apply evals_backref_cond in Hz.
  assert (H : exists z', (if is_matched g (caps s) then evals y' s z'
                          else match n' with Some b => evals b s z' | None => z' = [s] end) /\ Q z z').
  { destruct (is_matched g (caps s)); [exact (Hy _ _ Hz) | exact (lifts_no _ _ _ _ Hn Hz)]. }
  destruct H as (z' & Hz' & E). exists z'. split; [apply evals_backref_cond, Hz' | exact E].
Qed.

Lemma lifts_expr_cond o c y y' n n' :
  lifts y y' -> opt_lifts n n' -> lifts (NExprCond o c y n) (NExprCond o c y' n').
Proof.
  intros Hy Hn s z Hz. apply evals_expr_cond in Hz as (lc & Hc & Hz).
  assert (H : exists z', match lc with
                         | s' :: _ => evals y' (with_pos s' (pos s)) z'
                         | [] => match n' with Some b => evals b s z' | None => z' = [s] end
                         end /\ Q z z').
  { destruct lc; [exact (lifts_no _ _ _ _ Hn Hz) | exact (Hy _ _ Hz)]. }
  destruct H as (z' & Hz' & E). exists z'. split; [apply evals_expr_cond; exists lc; auto | exact E].
Qed.

End Lift.

(* 6. R2 — what atomic positions observe; propagation of ≈ₕ along the ending-backtracking walk   *)

Section Congr.
Variable e : env.
Notation evals := (rw_evals e).
Notation "t ⊑ t'" := (rw_refines e t t') (at level 70).
Notation "t ⊑ₕ t'" := (rw_hrefines e t t') (at level 70).
Notation "t ≈ t'" := (rw_eq e t t') (at level 70).
Notation "t ≈ₕ t'" := (rw_heq e t t') (at level 70).

Lemma hd_list_nil_inv {A} (l l' : list A) : hd_list l = hd_list l' -> l = [] -> l' = [].
Proof. intros H ->. destruct l'; [reflexivity | discriminate]. Qed.

Lemma hd_list_app_congr {A} (a a' b b' : list A) :
  hd_list a = hd_list a' -> hd_list b = hd_list b' -> hd_list (a ++ b) = hd_list (a' ++ b').
Proof. intros Ha Hb. destruct a, a'; try discriminate; simpl in *; congruence. Qed.

(* --- the observers: equal FIRST results are all they see --- *)

Theorem atomic_observes_head t t' : t ⊑ₕ t' -> NAtomic t ⊑ NAtomic t'.
Proof.
  intros H s z Hz. apply evals_atomic in Hz as (l & Hl & ->).
  apply H in Hl as (l' & Hl' & E). apply evals_atomic. exists l'. split; [exact Hl' | congruence].
Qed.

Theorem poslook_observes_head o t t' : t ⊑ₕ t' -> NPosLook o t ⊑ NPosLook o t'.
Proof.
  intros H s z Hz. apply evals_poslook in Hz as (l & Hl & ->).
  apply H in Hl as (l' & Hl' & E). apply evals_poslook. exists l'. split; [exact Hl' | congruence].
Qed.

Theorem neglook_observes_head o t t' : t ⊑ₕ t' -> NNegLook o t ⊑ NNegLook o t'.
Proof.
  intros H s z Hz. apply evals_neglook in Hz as (l & Hl & ->).
  apply H in Hl as (l' & Hl' & E). apply evals_neglook. exists l'. split; [exact Hl' | rewrite E; reflexivity].
Qed.

Theorem exprcond_observes_head o c c' y n : c ⊑ₕ c' -> NExprCond o c y n ⊑ NExprCond o c' y n.
Proof.
  intros H s z Hz. apply evals_expr_cond in Hz as (lc & Hc & Hz).
  apply H in Hc as (lc' & Hc' & E). apply evals_expr_cond. exists lc'. split; [exact Hc'|].
  destruct lc as [|a lc], lc' as [|a' lc']; try discriminate; [exact Hz|].
  simpl in E. inversion E; subst. exact Hz.
Qed.

Lemma attempt_ok f root p r :
  attempt e f root p = Ok r <->
  exists l, sem e f root {| pos := p; caps := [] |} = Ok l /\ r = match l with [] => None | s :: _ => Some s end.
Proof.
  unfold attempt. split.
  - intros H. apply sp_bind_ok in H as (l & Hl & H). exists l. split; [exact Hl | congruence].
  - intros (l & -> & ->). reflexivity.
Qed.

Theorem attempt_observes_head root root' : root ⊑ₕ root' ->
  forall f p r, attempt e f root p = Ok r -> exists f', attempt e f' root' p = Ok r.
Proof.
  intros H f p r Hr. apply attempt_ok in Hr as (l & Hl & ->).
  destruct (H _ _ (ex_intro _ f Hl)) as (l' & [f' Hl'] & E). exists f'. apply attempt_ok.
  exists l'. split; [exact Hl'|]. destruct l, l'; try discriminate; [reflexivity|]. simpl in E. congruence.
Qed.

Lemma attempt_mono f f' root p r : (f <= f')%nat -> attempt e f root p = Ok r -> attempt e f' root p = Ok r.
Proof. exact (spec_attempt_fuel_mono e f f' root p r). Qed.

Lemma scan_from_observes_head root root' rtl : root ⊑ₕ root' ->
  forall n f p r, scan_from e f n root rtl p = Ok r ->
  exists f', forall f'', (f' <= f'')%nat -> scan_from e f'' n root' rtl p = Ok r.
Proof.
  intros H. induction n as [|n IH]; intros f p r Hr.
  - exists 0%nat. intros; exact Hr.
  - cbn [scan_from] in Hr. apply sp_bind_ok in Hr as (a & Ha & Hr).
    destruct (attempt_observes_head _ _ H _ _ _ Ha) as (fa & Ha').
    destruct a as [s|].
    + exists fa. intros f'' Hf. cbn [scan_from]. rewrite (attempt_mono _ _ _ _ _ Hf Ha'). exact Hr.
    + destruct (if rtl then p <=? 0 else tlen e <=? p) eqn:E.
      * exists fa. intros f'' Hf. cbn [scan_from]. rewrite (attempt_mono _ _ _ _ _ Hf Ha'). cbn [bind]. rewrite E. exact Hr.
      * apply IH in Hr as (fr & Hr). exists (Nat.max fa fr). intros f'' Hf. cbn [scan_from].
        rewrite (attempt_mono fa f'' _ _ _ ltac:(lia) Ha'). cbn [bind]. rewrite E. apply Hr. lia.
Qed.

(* the whole search (Spec.find: the scan over start positions) only observes the first result of the root *)
Theorem find_observes_head root root' rtl : root ⊑ₕ root' ->
  forall f start prevlen r, find e f root rtl start prevlen = Ok r ->
  exists f', find e f' root' rtl start prevlen = Ok r.
Proof.
  intros H f start prevlen r Hr. unfold find in *.
  destruct ((prevlen =? 0) && (start =? (if rtl then 0 else tlen e))); [exists 0%nat; exact Hr|].
  apply (scan_from_observes_head _ _ _ H) in Hr as (f' & Hr). exists f'. apply Hr. lia.
Qed.

(* --- propagation of ⊑ₕ through the positions eliminateEndingBacktracking walks --- *)

Lemma atomic_heq t : NAtomic t ≈ₕ t.
Proof.
  split; intros s z Hz.
  - apply evals_atomic in Hz as (l & Hl & ->). exists l. split; [exact Hl | apply hd_list_idem].
  - exists (hd_list z). split; [apply evals_atomic; eauto | symmetry; apply hd_list_idem].
Qed.

Lemma atomic_tail t t' : t ⊑ₕ t' -> NAtomic t ⊑ₕ NAtomic t'.
Proof. intros H. apply rw_refines_hrefines, atomic_observes_head, H. Qed.

Lemma poslook_tail o t t' : t ⊑ₕ t' -> NPosLook o t ⊑ₕ NPosLook o t'.
Proof. intros H. apply rw_refines_hrefines, poslook_observes_head, H. Qed.

Lemma neglook_tail o t t' : t ⊑ₕ t' -> NNegLook o t ⊑ₕ NNegLook o t'.
Proof. intros H. apply rw_refines_hrefines, neglook_observes_head, H. Qed.

(* the remaining positions: Section Lift at "equal first results" *)
Local Notation Qh := (fun l l' : list st => hd_list l = hd_list l').

Lemma group_tail t t' : t ⊑ₕ t' -> NGroup t ⊑ₕ NGroup t'.
Proof. exact (lifts_group e Qh t t'). Qed.

(* a PLAIN capture (u = -1) maps every result of its child to exactly one result *)
Lemma capture_tail o g t t' : t ⊑ₕ t' -> NCapture o g (-1) t ⊑ₕ NCapture o g (-1) t'.
Proof.
  apply (lifts_capture e Qh). intros s l l' E. unfold capture_close. change (-1 =? -1) with true. cbv iota.
  destruct l, l'; try discriminate E; cbn [flat_map app hd_list] in *; congruence.
Qed.

Lemma concat_last_tail o pre t t' : t ⊑ₕ t' -> NConcat o (pre ++ [t]) ⊑ₕ NConcat o (pre ++ [t']).
Proof. exact (lifts_concat_last e Qh (fun _ => eq_refl) (@hd_list_app_congr st) o pre t t'). Qed.

Lemma alt_all_tail o l l' : Forall2 (rw_hrefines e) l l' -> NAlternate o l ⊑ₕ NAlternate o l'.
Proof. exact (lifts_alt e Qh (fun _ => eq_refl) (@hd_list_app_congr st) o l l'). Qed.

Definition opt_hrefines (n n' : option node) : Prop :=
  match n, n' with
  | Some a, Some b => a ⊑ₕ b
  | None, None => True
  | _, _ => False
  end.

Lemma backref_cond_tail o g y y' n n' : y ⊑ₕ y' -> opt_hrefines n n' -> NBackRefCond o g y n ⊑ₕ NBackRefCond o g y' n'.
Proof. exact (lifts_backref_cond e Qh (fun _ => eq_refl) o g y y' n n'). Qed.

Lemma expr_cond_tail o c c' y y' n n' : c ⊑ₕ c' -> y ⊑ₕ y' -> opt_hrefines n n' ->
  NExprCond o c y n ⊑ₕ NExprCond o c' y' n'.
Proof.
  intros Hc Hy Hn. eapply rw_hrefines_trans; [apply rw_refines_hrefines, exprcond_observes_head, Hc|].
  exact (lifts_expr_cond e Qh (fun _ => eq_refl) o c' y y' n n' Hy Hn).
Qed.

End Congr.

Scheme ends_to_min := Minimality for ends_to Sort Prop
  with ends_to_list_min := Minimality for ends_to_list Sort Prop
  with ends_to_opt_min := Minimality for ends_to_opt Sort Prop.
Combined Scheme ends_to_mutind from ends_to_min, ends_to_list_min, ends_to_opt_min.

Section Ending.
Variable e : env.
Notation evals := (rw_evals e).

(* same-fuel "equal first result" on results *)
Definition hle_f {A} (r r' : res (list A)) : Prop :=
  forall l, r = Ok l -> exists l', r' = Ok l' /\ hd_list l = hd_list l'.

Lemma hle_f_refl {A} (r : res (list A)) : hle_f r r.
Proof. intros l H. exists l. split; [exact H | reflexivity]. Qed.

Lemma hle_f_bindl {A B} (l : list A) (f g : A -> res (list B)) :
  (forall a, hle_f (f a) (g a)) -> hle_f (bindl l f) (bindl l g).
Proof.
  intros H. induction l as [|a l IH]; [apply hle_f_refl|]. intros z Hz. cbn [bindl] in *.
  apply sp_bind_ok in Hz as (x & Hx & Hz). apply sp_bind_ok in Hz as (y & Hy & Hz). inversion Hz; subst.
  destruct (H a _ Hx) as (x' & Hx' & Ex). destruct (IH _ Hy) as (y' & Hy' & Ey).
  exists (x' ++ y'). rewrite Hx', Hy'. split; [reflexivity | apply hd_list_app_congr; assumption].
Qed.

Lemma hle_f_bindr {A B} (r : res (list A)) (f g : A -> res (list B)) :
  (forall a, hle_f (f a) (g a)) -> hle_f (bindr r f) (bindr r g).
Proof. intros H. destruct r; try (intros l Hl; discriminate). apply hle_f_bindl, H. Qed.

(* a lazy loop in atomic position never iterates beyond its minimum (tree.go:811-812): the first result
   is the one with exactly m iterations.  One-directional: the original may run out of fuel (or, on
   ill-formed trees, not terminate) exploring further iterations the rewritten loop does not have. *)
Lemma iter_lazy_min (body : st -> res (list st)) limit : 0 <= limit ->
  forall f s mark count, count <= 0 ->
  hle_f (iter f body true limit s mark count) (iter f body true 0 s mark count).
Proof.
  intros Hl. induction f as [|f IH]; intros s mark count Hc; [intros l H; discriminate|].
  cbn [iter]. destruct (count <? 0) eqn:E.
  - apply hle_f_bindr. intros a. apply IH. lia.
  - assert (count = 0) as -> by lia. change (0 <? 0) with false. cbn [andb].
    intros l H. unfold appr in H. cbn [bind] in H. apply sp_bind_ok in H as (y & _ & H). inversion H; subst.
    exists [s]. split; reflexivity.
Qed.

Theorem lazyloop_min_tail o m n r : 0 <= m <= n -> m < INF ->
  rw_hrefines e (NLoop true o m n r) (NLoop true o m m r).
Proof.
  intros Hmn Hinf s z [[|f] H]; [discriminate|]. rewrite sem_S in H. cbn [sem_step] in H.
  assert (Hlim : 0 <= (if n =? INF then INF else n - m)) by (destruct (n =? INF); unfold INF in *; lia).
  assert (Hgoal : hle_f (sem e (S f) (NLoop true o m n r) s) (sem e (S f) (NLoop true o m m r) s)).
  { rewrite !sem_S. cbn [sem_step]. assert (m =? INF = false) as -> by lia. replace (m - m) with 0 by lia.
    destruct (m =? 0) eqn:E0.
    - apply iter_lazy_min; [exact Hlim | lia].
    - apply hle_f_bindr. intros a. apply iter_lazy_min; [exact Hlim | lia]. }
  rewrite sem_S in Hgoal. cbn [sem_step] in Hgoal. destruct (Hgoal _ H) as (z' & Hz' & E).
  exists z'. split; [exists (S f); exact Hz' | exact E].
Qed.

(* a loop {1,1} is its body *)
Lemma evals_loop_11 lazy o r s z : evals (NLoop lazy o 1 1 r) s z <-> evals r s z.
Proof.
  assert (Hit : forall f s' mark, iter (S f) (sem e (S f) r) lazy 0 s' mark 0 = Ok [s']).
  { intros f s' mark. cbn [iter]. destruct lazy; reflexivity. }
  split.
  - intros [[|[|f]] H]; try discriminate; rewrite sem_S in H; cbn [sem_step] in H.
    + change (1 =? 0) with false in H. change (1 =? INF) with false in H. cbv iota in H. change (1 - 1) with 0 in H.
      unfold bindr in H. apply sp_bind_ok in H as (l & Hl & H). exists (S f).
      rewrite (bindl_ext _ _ (fun a => Ok [a])) in H by (intros a; apply Hit).
      rewrite bindl_pure in H. inversion H; subst. rewrite Hl. f_equal. clear. induction l; simpl; congruence.
  - intros [f H]. apply (rw_sem_mono e f (S f)) in H; [|lia]. exists (S (S f)). rewrite sem_S. cbn [sem_step].
    change (1 =? 0) with false. change (1 =? INF) with false. cbv iota. change (1 - 1) with 0.
    rewrite H. unfold bindr. cbn [bind].
    rewrite (bindl_ext _ _ (fun a => Ok [a])) by (intros a; apply Hit).
    rewrite bindl_pure. f_equal. clear. induction z; simpl; congruence.
Qed.

Lemma iter_S f (body : st -> res (list st)) lazy limit s mark count :
  iter (S f) body lazy limit s mark count =
  let again := bindr (body s) (fun s' => iter f body lazy limit s' (pos s) (count + 1)) in
  if lazy then
    if count <? 0 then again
    else appr (Ok [s]) (if (count <? limit) && negb (pos s =? mark) then again else Ok [])
  else
    if (limit <=? count) || ((pos s =? mark) && (0 <=? count)) then Ok [s]
    else appr again (Ok (if 0 <=? count then [s] else [])).
Proof. reflexivity. Qed.

Lemma iter_at_limit f (body : st -> res (list st)) lazy lim a mark x :
  0 <= lim -> iter f body lazy lim a mark lim = Ok x -> x = [a].
Proof.
  intros Hl H. destruct f as [|f]; [discriminate|]. cbn [iter] in H.
  assert (lim <? 0 = false) as E1 by lia. assert (lim <? lim = false) as E2 by lia. assert (lim <=? lim = true) as E3 by lia.
  destruct lazy; rewrite ?E1, ?E2, ?E3 in H; cbn in H; congruence.
Qed.

Lemma bindl_singletons {A} (l : list A) (K : A -> res (list A)) y :
  (forall a x, K a = Ok x -> x = [a]) -> bindl l K = Ok y -> y = l.
Proof.
  intros HK. revert y. induction l as [|a l IH]; intros y H; cbn [bindl] in H; [congruence|].
  apply sp_bind_ok in H as (x & Hx & H). apply sp_bind_ok in H as (y' & Hy' & H). inversion H; subst.
  rewrite (HK _ _ Hx), (IH _ Hy'). reflexivity.
Qed.

(* an optional group {0,1}: the body's results and "skip", in the order the flavour dictates *)
Lemma evals_loop_01 lazy o r s z :
  evals (NLoop lazy o 0 1 r) s z <->
  if pos s =? -1 then z = [s]
  else exists l, evals r s l /\ z = if lazy then s :: l else l ++ [s].
Proof.
  assert (Hit : forall f (body : st -> res (list st)) s' mark, iter (S f) body lazy 1 s' mark 1 = Ok [s']).
  { intros f body s' mark. cbn [iter]. destruct lazy; reflexivity. }
  assert (Hflat : forall l : list st, flat_map (fun a => [a]) l = l) by (induction l; simpl; congruence).
  split.
  - intros [[|[|f]] H]; try discriminate; rewrite sem_S in H; cbn [sem_step] in H;
      change (0 =? 0) with true in H; change (1 =? INF) with false in H; cbv iota in H; change (1 - 0) with 1 in H.
    + cbn [iter] in H. destruct (pos s =? -1) eqn:Ep.
      * destruct lazy; cbn in H; inversion H; reflexivity.
      * destruct lazy.
        -- change (0 <? 0) with false in H. change ((0 <? 1) && negb false) with true in H. cbv iota in H.
           unfold appr in H. cbn [bind] in H. apply sp_bind_ok in H as (y & Hy & H). inversion H; subst.
           unfold bindr in Hy. apply sp_bind_ok in Hy as (l & Hl & Hy).
           apply bindl_singletons in Hy; [|intros a x Hx; eapply (iter_at_limit _ _ _ 1); [lia | exact Hx]].
           subst y. exists l. split; [exists (S f); exact Hl | reflexivity].
        -- change ((1 <=? 0) || false && (0 <=? 0)) with false in H. change (0 <=? 0) with true in H. cbv iota in H.
           unfold appr in H. apply sp_bind_ok in H as (y & Hy & H). cbn [bind] in H. inversion H; subst.
           unfold bindr in Hy. apply sp_bind_ok in Hy as (l & Hl & Hy).
           apply bindl_singletons in Hy; [|intros a x Hx; eapply (iter_at_limit _ _ _ 1); [lia | exact Hx]].
           subst y. exists l. split; [exists (S f); exact Hl | reflexivity].
  - destruct (pos s =? -1) eqn:Ep.
    + intros ->. exists 2%nat. rewrite sem_S. cbn [sem_step]. change (0 =? 0) with true. cbv iota. cbn [iter].
      destruct lazy.
      * change (0 <? 0) with false. cbv iota. rewrite Ep. rewrite andb_false_r. reflexivity.
      * rewrite Ep. change (0 <=? 0) with true. rewrite orb_true_r. reflexivity.
    + intros (l & [f Hl] & ->). apply (rw_sem_mono e f (S f)) in Hl; [|lia].
      exists (S (S (S f))). rewrite sem_S. cbn [sem_step]. change (0 =? 0) with true. change (1 =? INF) with false. cbv iota.
      change (1 - 0) with 1. rewrite iter_S. cbv zeta. apply (rw_sem_mono e (S f) (S (S f))) in Hl; [|lia].
      destruct lazy.
      * change (0 <? 0) with false. change (0 <? 1) with true. cbv iota. rewrite Ep. cbn [andb negb].
        rewrite Hl. unfold bindr. cbn [bind].
        rewrite (bindl_ext _ _ (fun a => Ok [a])) by (intros a; apply Hit). rewrite bindl_pure, Hflat. reflexivity.
      * change (1 <=? 0) with false. rewrite Ep. cbn [orb andb]. cbv iota.
        rewrite Hl. unfold bindr. cbn [bind].
        rewrite (bindl_ext _ _ (fun a => Ok [a])) by (intros a; apply Hit). rewrite bindl_pure, Hflat. reflexivity.
Qed.

(* the body of a loop with maximum 1 is at the end when the loop is (tree.go:815-821) *)
Theorem loop_one_tail lazy o m r r' : m = 0 \/ m = 1 -> rw_hrefines e r r' ->
  rw_hrefines e (NLoop lazy o m 1 r) (NLoop lazy o m 1 r').
Proof.
  intros [-> | ->] H s z Hz.
  - apply evals_loop_01 in Hz. destruct (pos s =? -1) eqn:Ep.
    + subst z. exists [s]. split; [apply evals_loop_01; rewrite Ep; reflexivity | reflexivity].
    + destruct Hz as (l & Hl & ->). destruct (H _ _ Hl) as (l' & Hl' & E).
      exists (if lazy then s :: l' else l' ++ [s]). split; [apply evals_loop_01; rewrite Ep; eauto|].
      destruct lazy; [reflexivity | apply hd_list_app_congr; [exact E | reflexivity]].
  - apply (proj1 (evals_loop_11 _ _ _ _ _)) in Hz. destruct (H _ _ Hz) as (l' & Hl' & E).
    exists l'. split; [apply (proj2 (evals_loop_11 _ _ _ _ _)); exact Hl' | exact E].
Qed.

(* R2: every step of the ending-backtracking walk (Model/Rewrite.ends_to) preserves the first result:
   whenever the original tree evaluates, the rewritten one does and the first results are equal *)
Theorem eliminate_ending_sound_all :
  (forall t t', ends_to e t t' -> rw_hrefines e t t') /\
  (forall l l', ends_to_list e l l' -> Forall2 (rw_hrefines e) l l') /\
  (forall n n', ends_to_opt e n n' -> opt_hrefines e n n').
Proof.
  apply (ends_to_mutind e (fun t t' => rw_hrefines e t t')
           (fun l l' => Forall2 (rw_hrefines e) l l')
           (fun n n' => opt_hrefines e n n')).
  - intros t. apply rw_hrefines_refl.
  - intros k l o c m n H. apply rw_heqs_hrefines, make_loop_atomic_heqs, H.
  - intros t t' _ H. apply atomic_tail, H.
  - intros t t' _ H. eapply rw_hrefines_trans; [exact H | apply (proj2 (atomic_heq e t'))].
  - intros o t t' _ H. apply poslook_tail, H.
  - intros o t t' _ H. apply neglook_tail, H.
  - intros o g t t' _ H. apply capture_tail, H.
  - intros t t' _ H. apply group_tail, H.
  - intros o pre t t' _ H. apply concat_last_tail, H.
  - intros o l l' _ H. apply alt_all_tail, H.
  - intros o g y y' n n' _ H1 _ H2. apply backref_cond_tail; assumption.
  - intros o c c' y y' n n' _ H1 _ H2 _ H3. apply expr_cond_tail; assumption.
  - intros o m n r Hmn Hinf. apply lazyloop_min_tail; assumption.
  - intros lazy o m r r' Hm _ H. apply loop_one_tail; assumption.
  - intros a b c _ H1 _ H2. eapply rw_hrefines_trans; eassumption.
  - constructor.
  - intros t t' l l' _ H1 _ H2. constructor; assumption.
  - exact I.
  - intros t t' _ H. exact H.
Qed.

Theorem eliminate_ending_sound t t' : ends_to e t t' -> rw_hrefines e t t'.
Proof. apply eliminate_ending_sound_all. Qed.

(* consequence for the search: the match found on the rewritten tree is the one found on the original *)
Corollary eliminate_ending_find root root' rtl : ends_to e root root' ->
  forall f start prevlen r, find e f root rtl start prevlen = Ok r ->
  exists f', find e f' root' rtl start prevlen = Ok r.
Proof. intros H. apply find_observes_head, eliminate_ending_sound, H. Qed.

End Ending.

(* 7. R3 — the bump-along marker is Empty for the reference semantics                            *)

Section Bump.
Variable e : env.

Theorem bump_is_noop : rw_eqs e NBump NEmpty.
Proof. intros [|f] s; reflexivity. Qed.

Lemma seq_sem_bump rec z l1 l2 s :
  (forall s, rec z s = Ok [s]) -> seq_sem rec (l1 ++ z :: l2) s = seq_sem rec (l1 ++ l2) s.
Proof.
  intros Hb. revert s. induction l1 as [|x l1 IH]; intros s; cbn [app seq_sem].
  - rewrite Hb. unfold bindr. cbn [bind]. apply bindl_single.
  - apply bindr_ext. exact IH.
Qed.

(* as the code inserts it (index 1 of the leading concatenation: after the loop, tree.go:355-357):
   same result with the same fuel *)
Theorem bump_insert_eqs o x l1 l2 :
  rw_eqs e (NConcat o (x :: l1 ++ l2)) (NConcat o (x :: l1 ++ NBump :: l2)).
Proof.
  intros [|[|f]] s; try reflexivity. rewrite !sem_S. cbn [sem_step].
  symmetry. apply (seq_sem_bump _ NBump (x :: l1)). intros s'. reflexivity.
Qed.

(* anywhere in any concatenation *)
Theorem bump_insert_eq o l1 l2 : rw_eq e (NConcat o (l1 ++ l2)) (NConcat o (l1 ++ NBump :: l2)).
Proof.
  split; intros s z [[|f] H]; try discriminate; rewrite sem_S in H; cbn [sem_step] in H.
  - exists (S (S f)). rewrite sem_S. cbn [sem_step]. rewrite seq_sem_bump by (intros; reflexivity).
    eapply rle_seq_sem; [|exact H]. intros t0 s0 a Ha. eapply rw_sem_mono; [|exact Ha]. lia.
  - destruct f as [|f].
    + destruct l1; cbn in H; discriminate.
    + exists (S (S f)). rewrite sem_S. cbn [sem_step]. rewrite seq_sem_bump in H by (intros; reflexivity). exact H.
Qed.

End Bump.

(* 8. R4 — a greedy loop followed by something that cannot start where the loop gave back        *)
(*    (findAndMakeLoopsAtomic / canBeMadeAtomic, tree.go:375-470, 872-1027)                      *)

Section AutoAtomic.
Variable e : env.
Notation evals := (rw_evals e).

Lemma sem_charloop_unfold k l o c m n s :
  sem_charloop e k l o c m n s =
  let r := loop_run e k o c n s in
  if r <? m then [] else
  match l with
  | LGreedy => map (loop_state o s) (count_down r m)
  | LLazy => map (loop_state o s) (count_up m r)
  | LAtomic => [loop_state o s r]
  end.
Proof. reflexivity. Qed.

Lemma count_down_cons r m : m <= r -> count_down r m = r :: count_down (r - 1) m.
Proof.
  intros H. unfold count_down. assert (r <? m = false) as -> by lia.
  replace (Z.to_nat (r - m + 1)) with (S (Z.to_nat (r - 1 - m + 1))) by lia. cbn [count_down_aux].
  destruct (r - 1 <? m) eqn:E; [|reflexivity].
  replace (Z.to_nat (r - 1 - m + 1)) with 0%nat by lia. reflexivity.
Qed.

(* R4, same-fuel form, from one state [s]: the successor [x] fails outright (whatever the fuel) at
   every state where the loop stopped early *)
Lemma auto_atomic_charloop_strong_at k o o1 c m n x rest s :
  (forall f j, m <= j < loop_run e k o1 c n s -> sem e (S f) x (loop_state o1 s j) = Ok []) ->
  forall f, sem e f (NConcat o (NCharLoop k LGreedy o1 c m n :: x :: rest)) s =
            sem e f (NConcat o (NCharLoop k LAtomic o1 c m n :: x :: rest)) s.
Proof.
  intros Hx [|[|f]]; try reflexivity. rewrite !sem_S. cbn [sem_step seq_sem].
  rewrite !sem_S. cbn [sem_step]. rewrite !sem_charloop_unfold. cbv zeta.
  set (r := loop_run e k o1 c n s). destruct (r <? m) eqn:E; [reflexivity|].
  rewrite (count_down_cons r m) by lia. cbn [map]. unfold bindr at 1 3. cbn [bind bindl].
  set (K := fun s0 => bindr (sem e (S f) x s0) (seq_sem (sem e (S f)) rest)).
  rewrite (bindl_all_nil (map (loop_state o1 s) (count_down (r - 1) m)) K); [reflexivity|].
  intros a Ha. apply in_map_iff in Ha as (j & <- & Hj). apply count_down_in in Hj.
  unfold K. rewrite Hx by (fold r; lia). reflexivity.
Qed.

Theorem auto_atomic_charloop_strong k o o1 c m n x rest :
  (forall f s j, m <= j < loop_run e k o1 c n s -> sem e (S f) x (loop_state o1 s j) = Ok []) ->
  rw_eqs e (NConcat o (NCharLoop k LGreedy o1 c m n :: x :: rest))
           (NConcat o (NCharLoop k LAtomic o1 c m n :: x :: rest)).
Proof. intros Hx f s. apply auto_atomic_charloop_strong_at. intros f' j. apply Hx. Qed.

Lemma seq_fails_evals o rest s : rw_seq_fails e rest s <-> evals (NConcat o rest) s [].
Proof.
  split.
  - intros [f H]. exists (S f). rewrite sem_S. exact H.
  - intros [[|f] H]; [discriminate|]. exists f. rewrite sem_S in H. exact H.
Qed.

Lemma concat_all_nil {A} (zs : list (list A)) : Forall (fun z => z = []) zs -> concat zs = [].
Proof. induction 1; simpl; [reflexivity|]. subst. assumption. Qed.

(* ---- what is true of every state at which the loop stopped early ---- *)

Lemma run_len_char k c o n p j : 0 <= j < run_len e k c o n p ->
  (0 <? avail e o (p + dir o * j)) && char_test e k c (next_char e o (p + dir o * j)) = true.
Proof.
  revert p j. induction n as [|n IH]; intros p j Hj; cbn [run_len] in Hj; [lia|].
  destruct ((0 <? avail e o p) && char_test e k c (next_char e o p)) eqn:E; [|lia].
  destruct (Z.eq_dec j 0) as [->|Hne].
  - replace (p + dir o * 0) with p by lia. exact E.
  - specialize (IH (p + dir o) (j - 1) ltac:(lia)).
    replace (p + dir o + dir o * (j - 1)) with (p + dir o * j) in IH by lia. exact IH.
Qed.

Lemma early_next_in k o c m n s j : 0 <= m -> m <= j < loop_run e k o c n s ->
  next_in e k o c (loop_state o s j).
Proof.
  intros Hm [Hj1 Hj2]. unfold loop_run in Hj2. cbv zeta in Hj2.
  pose proof (run_len_char k c o _ (pos s) j (conj (Z.le_trans _ _ _ Hm Hj1) Hj2)) as H. apply andb_true_iff in H.
  unfold next_in, loop_state. cbn [pos with_pos]. exact H.
Qed.

(* ---- syntactic sufficient conditions (the cases of canBeMadeAtomic), each as "x fails, whatever the
   fuel, at every state whose next character passes the loop's test" ---- *)

Definition tests_disjoint (k : ckind) (c : Z) (k' : ckind) (c' : Z) : Prop :=
  forall ch, char_test e k c ch = true -> char_test e k' c' ch = false.

Lemma avail_same_dir o o' p : is_rtl o' = is_rtl o -> avail e o' p = avail e o p.
Proof. unfold avail. intros ->. reflexivity. Qed.
Lemma next_char_same_dir o o' p : is_rtl o' = is_rtl o -> next_char e o' p = next_char e o p.
Proof. unfold next_char. intros ->. reflexivity. Qed.

(* successor One / Notone / Set with a disjoint test (tree.go:919-921, 946, 960-961) *)
Lemma succ_char_fails k o c k' o' c' s f : is_rtl o' = is_rtl o -> tests_disjoint k c k' c' ->
  next_in e k o c s -> sem e (S f) (NChar k' o' c') s = Ok [].
Proof.
  intros Hd Hdis [Ha Ht]. rewrite sem_S. cbn [sem_step].
  rewrite (avail_same_dir o o'), (next_char_same_dir o o') by exact Hd.
  rewrite (Hdis _ Ht), andb_false_r. reflexivity.
Qed.

(* successor Multi whose first character fails the loop's test (tree.go:925, 948, 964); left-to-right *)
Lemma succ_multi_fails k o c o' c0 str s f : is_rtl o = false -> is_rtl o' = false ->
  (forall ch, char_test e k c ch = true -> (c0 =? (if is_ci o' then lower e ch else ch)) = false) ->
  next_in e k o c s -> sem e (S f) (NMulti o' (c0 :: str)) s = Ok [].
Proof.
  intros Ho Ho' Hdis [Ha Ht]. rewrite sem_S. cbn [sem_step]. unfold sem_multi. cbv zeta.
  destruct (avail e o' (pos s) <? zlen (c0 :: str)); [reflexivity|].
  rewrite Ho'. cbn [str_match_at]. unfold next_char in Ht. rewrite Ho in Ht.
  rewrite (Hdis _ Ht). reflexivity.
Qed.

(* successor loop (any flavour) with min >= 1 and a disjoint test (tree.go:922-924, 947, 962-963) *)
Lemma succ_charloop_fails k o c k' l' o' c' m' n' s f : is_rtl o' = is_rtl o -> tests_disjoint k c k' c' ->
  1 <= m' -> next_in e k o c s -> sem e (S f) (NCharLoop k' l' o' c' m' n') s = Ok [].
Proof.
  intros Hd Hdis Hm [Ha Ht]. rewrite sem_S. cbn [sem_step]. rewrite sem_charloop_unfold. cbv zeta.
  assert (Hr : loop_run e k' o' c' n' s = 0).
  { unfold loop_run. cbv zeta. destruct (Z.to_nat _) as [|cap]; [reflexivity|]. cbn [run_len].
    rewrite (next_char_same_dir o o') by exact Hd. rewrite (Hdis _ Ht), andb_false_r. reflexivity. }
  rewrite Hr. assert (0 <? m' = true) as -> by lia. reflexivity.
Qed.

(* successor \z (tree.go:926, 949, 965); left-to-right *)
Lemma succ_end_fails k o c s f : is_rtl o = false -> next_in e k o c s -> sem e (S f) (NAnchor AEnd) s = Ok [].
Proof.
  intros Ho [Ha _]. rewrite sem_S. cbn [sem_step anchor_ok]. unfold avail in Ha. rewrite Ho in Ha.
  assert (tlen e <=? pos s = false) as -> by lia. reflexivity.
Qed.

(* successor $ when the loop's test rejects '\n' (tree.go:928, 967); left-to-right *)
Lemma succ_eol_fails k o c s f : is_rtl o = false -> char_test e k c 10 = false ->
  next_in e k o c s -> sem e (S f) (NAnchor AEol) s = Ok [].
Proof.
  intros Ho Hnl [Ha Ht]. rewrite sem_S. cbn [sem_step anchor_ok]. unfold avail in Ha. unfold next_char in Ht.
  rewrite Ho in Ha, Ht. assert (tlen e <=? pos s = false) as -> by lia.
  destruct (char_at e (pos s) =? 10) eqn:E; [|reflexivity].
  assert (char_at e (pos s) = 10) as E' by lia. rewrite E' in Ht. congruence.
Qed.

(* successor \Z when the loop's test rejects '\n' (tree.go:927, 966); left-to-right *)
Lemma succ_endz_fails k o c s f : is_rtl o = false -> char_test e k c 10 = false ->
  next_in e k o c s -> sem e (S f) (NAnchor AEndZ) s = Ok [].
Proof.
  intros Ho Hnl [Ha Ht]. rewrite sem_S. cbn [sem_step anchor_ok]. unfold avail in Ha. unfold next_char in Ht.
  rewrite Ho in Ha, Ht. cbv zeta.
  destruct (1 <? tlen e - pos s) eqn:E1; [reflexivity|].
  destruct (endz_strict e).
  - assert (tlen e - pos s <=? 0 = false) as -> by lia. reflexivity.
  - assert (tlen e - pos s =? 1 = true) as -> by lia.
    destruct (char_at e (pos s) =? 10) eqn:E; [|reflexivity].
    assert (char_at e (pos s) = 10) as E' by lia. rewrite E' in Ht. congruence.
Qed.

(* ---- the corollaries: one per case of canBeMadeAtomic ---- *)

Ltac auto_atomic_by L :=
  intros; apply auto_atomic_charloop_strong; intros f s j Hj;
  eapply L; try eassumption; eapply early_next_in; eassumption.

Theorem auto_atomic_then_char k o o1 c m n k' o' c' rest :
  0 <= m -> is_rtl o' = is_rtl o1 -> tests_disjoint k c k' c' ->
  rw_eqs e (NConcat o (NCharLoop k LGreedy o1 c m n :: NChar k' o' c' :: rest))
           (NConcat o (NCharLoop k LAtomic o1 c m n :: NChar k' o' c' :: rest)).
Proof. auto_atomic_by succ_char_fails. Qed.

Theorem auto_atomic_then_multi k o o1 c m n o' c0 str rest :
  0 <= m -> is_rtl o1 = false -> is_rtl o' = false ->
  (forall ch, char_test e k c ch = true -> (c0 =? (if is_ci o' then lower e ch else ch)) = false) ->
  rw_eqs e (NConcat o (NCharLoop k LGreedy o1 c m n :: NMulti o' (c0 :: str) :: rest))
           (NConcat o (NCharLoop k LAtomic o1 c m n :: NMulti o' (c0 :: str) :: rest)).
Proof.
  intros Hm Ho Ho' Hd. apply auto_atomic_charloop_strong. intros f s j Hj.
  apply (succ_multi_fails k o1 c); try assumption. eapply early_next_in; eassumption.
Qed.

Theorem auto_atomic_then_charloop k o o1 c m n k' l' o' c' m' n' rest :
  0 <= m -> is_rtl o' = is_rtl o1 -> tests_disjoint k c k' c' -> 1 <= m' ->
  rw_eqs e (NConcat o (NCharLoop k LGreedy o1 c m n :: NCharLoop k' l' o' c' m' n' :: rest))
           (NConcat o (NCharLoop k LAtomic o1 c m n :: NCharLoop k' l' o' c' m' n' :: rest)).
Proof. auto_atomic_by succ_charloop_fails. Qed.

Theorem auto_atomic_then_end k o o1 c m n rest :
  0 <= m -> is_rtl o1 = false ->
  rw_eqs e (NConcat o (NCharLoop k LGreedy o1 c m n :: NAnchor AEnd :: rest))
           (NConcat o (NCharLoop k LAtomic o1 c m n :: NAnchor AEnd :: rest)).
Proof. auto_atomic_by succ_end_fails. Qed.

Theorem auto_atomic_then_eol k o o1 c m n rest :
  0 <= m -> is_rtl o1 = false -> char_test e k c 10 = false ->
  rw_eqs e (NConcat o (NCharLoop k LGreedy o1 c m n :: NAnchor AEol :: rest))
           (NConcat o (NCharLoop k LAtomic o1 c m n :: NAnchor AEol :: rest)).
Proof. auto_atomic_by succ_eol_fails. Qed.

Theorem auto_atomic_then_endz k o o1 c m n rest :
  0 <= m -> is_rtl o1 = false -> char_test e k c 10 = false ->
  rw_eqs e (NConcat o (NCharLoop k LGreedy o1 c m n :: NAnchor AEndZ :: rest))
           (NConcat o (NCharLoop k LAtomic o1 c m n :: NAnchor AEndZ :: rest)).
Proof. auto_atomic_by succ_endz_fails. Qed.

End AutoAtomic.

(* 9. full-list congruences (≈ is usable inside concatenations, alternations, groups, ...)       *)

Section Congr2.
Variable e : env.
Notation evals := (rw_evals e).

Lemma evals_concat_opts o o' l s z : evals (NConcat o l) s z <-> evals (NConcat o' l) s z.
Proof. split; intros [[|f] H]; try discriminate; exists (S f); rewrite sem_S in *; exact H. Qed.

Lemma evals_alt_opts o o' l s z : evals (NAlternate o l) s z <-> evals (NAlternate o' l) s z.
Proof. split; intros [[|f] H]; try discriminate; exists (S f); rewrite sem_S in *; exact H. Qed.

Lemma evals_alt_map {A} o (g : A -> node) bs s z :
  evals (NAlternate o (map g bs)) s z <->
  exists zs, Forall2 (fun a za => evals (g a) s za) bs zs /\ z = concat zs.
Proof.
  revert z. induction bs as [|b bs IH]; intros z; cbn [map].
  - rewrite evals_alt_nil. split.
    + intros ->. exists []. split; [constructor | reflexivity].
    + intros (zs & HF & ->). inversion HF. reflexivity.
  - rewrite evals_alt_cons. split.
    + intros (lx & ly & Hx & Hy & ->). apply IH in Hy as (zs & HF & ->).
      exists (lx :: zs). split; [constructor; assumption | reflexivity].
    + intros (zs & HF & ->). inversion HF as [|b' z0 bs' zs' H0 HF']; subst.
      exists z0, (concat zs'). split; [exact H0|]. split; [apply IH; eauto | reflexivity].
Qed.

Lemma evals_alt_all o l s z :
  evals (NAlternate o l) s z <-> exists zs, Forall2 (fun t za => evals t s za) l zs /\ z = concat zs.
Proof. rewrite <- (map_id l) at 1. apply evals_alt_map. Qed.

Lemma refines_lifts t t' : rw_refines e t t' <-> lifts e eq t t'.
Proof.
  split; [intros H s l Hl; exists l; split; [apply H, Hl | reflexivity] |].
  intros H s l Hl. destruct (H s l Hl) as (l' & Hl' & ->). exact Hl'.
Qed.

Lemma alt_congr o l l' : Forall2 (rw_refines e) l l' -> rw_refines e (NAlternate o l) (NAlternate o l').
Proof.
  intros H. apply refines_lifts, (lifts_alt e eq (@eq_refl _) (fun a a' b b' Ha Hb => f_equal2 (@app _) Ha Hb)).
  revert H. apply Forall2_impl. intros a b. apply refines_lifts.
Qed.

Lemma alt_prefix_congr o pre l l' :
  rw_refines e (NAlternate o l) (NAlternate o l') -> rw_refines e (NAlternate o (pre ++ l)) (NAlternate o (pre ++ l')).
Proof.
  intros H. induction pre as [|x pre IH]; [exact H|]. intros s z Hz. cbn [app] in *.
  apply evals_alt_cons in Hz as (lx & ly & Hx & Hy & ->). apply evals_alt_cons. exists lx, ly. auto.
Qed.

Lemma concat_prefix_congr o pre l l' :
  rw_refines e (NConcat o l) (NConcat o l') -> rw_refines e (NConcat o (pre ++ l)) (NConcat o (pre ++ l')).
Proof.
  intros H. induction pre as [|x pre IH]; [exact H|]. intros s z Hz. cbn [app] in *.
  apply evals_concat_cons in Hz as (lx & zs & Hx & HF & ->). apply evals_concat_cons. exists lx, zs.
  split; [exact Hx|]. split; [|reflexivity]. eapply Forall2_impl; [|exact HF]. intros a za Ha. apply IH, Ha.
Qed.

Lemma concat_head_congr o x x' l : rw_refines e x x' -> rw_refines e (NConcat o (x :: l)) (NConcat o (x' :: l)).
Proof.
  intros H s z Hz. apply evals_concat_cons in Hz as (lx & zs & Hx & HF & ->). apply evals_concat_cons.
  exists lx, zs. auto.
Qed.

Lemma concat_congr o l l' : Forall2 (rw_refines e) l l' -> rw_refines e (NConcat o l) (NConcat o l').
Proof.
  induction 1 as [|x x' l l' Hx _ IH]; [apply rw_refines_refl|].
  eapply rw_refines_trans; [apply concat_head_congr, Hx|].
  apply (concat_prefix_congr o [x']), IH.
Qed.

Lemma capture_congr o g u t t' : rw_refines e t t' -> rw_refines e (NCapture o g u t) (NCapture o g u t').
Proof. intros H. apply refines_lifts, lifts_capture; [intros s l l' ->; reflexivity | apply refines_lifts, H]. Qed.

Lemma group_congr t t' : rw_refines e t t' -> rw_refines e (NGroup t) (NGroup t').
Proof. intros H. apply refines_lifts, lifts_group, refines_lifts, H. Qed.

Lemma concat_singleton o t : rw_eq e (NConcat o [t]) t.
Proof. split; intros s z; apply evals_concat_single. Qed.

End Congr2.

(* 10. R5 — alternations in atomic position (reduceAtomic, tree.go:605-700)                      *)

Section AtomicAlt.
Variable e : env.
Notation evals := (rw_evals e).

Lemma evals_empty s z : evals NEmpty s z <-> z = [s].
Proof. apply evals_leaf. reflexivity. Qed.

(* branches after an Empty branch are never the first result *)
Theorem trim_after_empty o pre post :
  rw_hrefines e (NAlternate o (pre ++ NEmpty :: post)) (NAlternate o (pre ++ [NEmpty])).
Proof.
  induction pre as [|x pre IH]; intros s z Hz; cbn [app] in *.
  - apply evals_alt_cons in Hz as (lx & ly & Hx & _ & ->). apply evals_empty in Hx. subst lx.
    exists [s]. split; [|reflexivity]. apply evals_alt_cons. exists [s], [].
    split; [apply evals_empty; reflexivity|]. split; [apply evals_alt_nil; reflexivity | reflexivity].
  - apply evals_alt_cons in Hz as (lx & ly & Hx & Hy & ->). apply IH in Hy as (ly' & Hy' & E).
    exists (lx ++ ly'). split; [apply evals_alt_cons; eauto|]. apply hd_list_app_congr; [reflexivity | exact E].
Qed.

(* an alternation whose FIRST branch is Empty is Empty (tree.go:616-618) *)
Theorem trim_first_empty o post : rw_hrefines e (NAlternate o (NEmpty :: post)) NEmpty.
Proof.
  intros s z Hz. apply evals_alt_cons in Hz as (lx & ly & Hx & _ & ->). apply evals_empty in Hx. subst lx.
  exists [s]. split; [apply evals_empty; reflexivity | reflexivity].
Qed.

(* the converse direction needs the dropped branches to evaluate at all (the model's fuel could run
   out inside a branch the rewritten tree no longer has) *)
Theorem trim_after_empty_heq o pre post :
  (forall s, exists l, evals (NAlternate o post) s l) ->
  rw_heq e (NAlternate o (pre ++ NEmpty :: post)) (NAlternate o (pre ++ [NEmpty])).
Proof.
  intros Hterm. split; [apply trim_after_empty|].
  induction pre as [|x pre IH]; intros s z Hz; cbn [app] in *.
  - apply evals_alt_cons in Hz as (lx & ly & Hx & Hy & ->). apply evals_empty in Hx. subst lx.
    destruct (Hterm s) as (lp & Hp). exists ([s] ++ lp). split; [|reflexivity].
    apply evals_alt_cons. exists [s], lp. split; [apply evals_empty; reflexivity | auto].
  - apply evals_alt_cons in Hz as (lx & ly & Hx & Hy & ->). apply IH in Hy as (ly' & Hy' & E).
    exists (lx ++ ly'). split; [apply evals_alt_cons; eauto|]. apply hd_list_app_congr; [reflexivity | exact E].
Qed.

(* two branches that never both succeed from the same state *)
Definition branches_exclusive (a b : node) : Prop :=
  forall s la lb, evals a s la -> evals b s lb -> la = [] \/ lb = [].

Lemma swap_exclusive_refines o a b post : branches_exclusive a b ->
  rw_refines e (NAlternate o (a :: b :: post)) (NAlternate o (b :: a :: post)).
Proof.
  intros Hex s z Hz. apply evals_alt_cons in Hz as (la & l1 & Ha & H1 & ->).
  apply evals_alt_cons in H1 as (lb & lp & Hb & Hp & ->).
  assert (E : la ++ lb ++ lp = lb ++ la ++ lp).
  { destruct (Hex _ _ _ Ha Hb) as [-> | ->]; simpl; reflexivity. }
  rewrite E. apply evals_alt_cons. exists lb, (la ++ lp). split; [exact Hb|]. split; [|reflexivity].
  apply evals_alt_cons. eauto.
Qed.

(* swapping two adjacent exclusive branches changes NOTHING (the full result list is the same), so in
   particular it is sound in atomic position, where the code does it *)
Theorem reorder_exclusive o pre a b post : branches_exclusive a b ->
  rw_eq e (NAlternate o (pre ++ a :: b :: post)) (NAlternate o (pre ++ b :: a :: post)).
Proof.
  intros Hex. split; apply alt_prefix_congr, swap_exclusive_refines; [exact Hex|].
  intros s la lb Ha Hb. destruct (Hex _ _ _ Hb Ha); auto.
Qed.

(* first-character tests (Model/Rewrite.branch_first_test = findBranchOneOrMultiStart generalised) *)
Lemma leaf_first_test_sound t T s l : leaf_first_test e t = Some T -> evals t s l -> l <> [] ->
  (pos s <? tlen e) = true /\ T (char_at e (pos s)) = true.
Proof.
  intros HT Hl Hne. destruct t; cbn [leaf_first_test] in HT; try discriminate.
  - destruct (is_rtl o) eqn:Eo; [discriminate|]. inversion HT; subst T.
    leaf_inv Hl. subst l. unfold avail, next_char in Hne. rewrite Eo in Hne.
    destruct ((0 <? tlen e - pos s) && char_test e k c (char_at e (pos s))) eqn:E; [|contradiction].
    apply andb_true_iff in E as [E1 E2]. split; [lia | exact E2].
  - destruct s0 as [|c0 str]; [discriminate|]. destruct (is_rtl o) eqn:Eo; [discriminate|]. inversion HT; subst T.
    leaf_inv Hl. subst l. unfold sem_multi, avail in Hne. cbv zeta in Hne. rewrite Eo in Hne.
    destruct (tlen e - pos s <? zlen (c0 :: str)) eqn:E1; [contradiction|].
    cbn [str_match_at] in Hne.
    destruct (c0 =? (if is_ci o then lower e (char_at e (pos s)) else char_at e (pos s))) eqn:E2; [|contradiction].
    split; [|reflexivity]. unfold zlen in E1. cbn [length] in E1. lia.
Qed.

Lemma branch_first_test_sound t T s l : branch_first_test e t = Some T -> evals t s l -> l <> [] ->
  (pos s <? tlen e) = true /\ T (char_at e (pos s)) = true.
Proof.
  intros HT Hl Hne. destruct t as [ | | | | | | | |oc lc| | | | | | | | | ]; cbn [branch_first_test] in HT; try (eapply leaf_first_test_sound; eassumption).
  destruct lc as [|x lc]; [discriminate|].
  apply evals_concat_cons in Hl as (lx & zs & Hx & HF & ->).
  eapply leaf_first_test_sound; [exact HT | exact Hx|]. intros ->. inversion HF; subst. apply Hne. reflexivity.
Qed.

Lemma first_tests_exclusive a b Ta Tb :
  branch_first_test e a = Some Ta -> branch_first_test e b = Some Tb ->
  (forall x, Ta x = true -> Tb x = false) -> branches_exclusive a b.
Proof.
  intros Ha Hb Hdis s la lb Hla Hlb.
  destruct la as [|a0 la]; [left; reflexivity|]. destruct lb as [|b0 lb]; [right; reflexivity|]. exfalso.
  destruct (branch_first_test_sound _ _ _ _ Ha Hla ltac:(discriminate)) as [_ H1].
  destruct (branch_first_test_sound _ _ _ _ Hb Hlb ltac:(discriminate)) as [_ H2].
  rewrite (Hdis _ H1) in H2. discriminate.
Qed.

(* R5 reorder: adjacent branches whose first characters can never both match may be swapped *)
Theorem reorder_disjoint o pre a b post Ta Tb :
  branch_first_test e a = Some Ta -> branch_first_test e b = Some Tb ->
  (forall x, Ta x = true -> Tb x = false) ->
  rw_eq e (NAlternate o (pre ++ a :: b :: post)) (NAlternate o (pre ++ b :: a :: post)).
Proof. intros Ha Hb Hdis. apply reorder_exclusive. eapply first_tests_exclusive; eassumption. Qed.

(* as the code decides it: One / Multi-led branches with DIFFERENT first runes (FirstCharOfOneOrMulti),
   left-to-right, case-sensitive *)
Theorem reorder_first_char o pre a b post oa ca ob cb :
  branch_first_char a = Some (oa, ca) -> branch_first_char b = Some (ob, cb) ->
  is_rtl oa = false -> is_rtl ob = false -> is_ci oa = false -> is_ci ob = false -> ca <> cb ->
  rw_eq e (NAlternate o (pre ++ a :: b :: post)) (NAlternate o (pre ++ b :: a :: post)).
Proof.
  intros Ha Hb Ra Rb Ca Cb Hne.
  assert (Hleaf : forall t o0 c0, leaf_first_char t = Some (o0, c0) -> is_rtl o0 = false -> is_ci o0 = false ->
                    exists T, leaf_first_test e t = Some T /\ forall x, T x = true <-> x = c0).
  { intros t o0 c0 Ht Hr Hc. destruct t; cbn [leaf_first_char] in Ht; try discriminate.
    - destruct k; try discriminate. inversion Ht; subst. cbn [leaf_first_test]. rewrite Hr.
      eexists. split; [reflexivity|]. intros x. cbn [char_test]. lia.
    - destruct s as [|c1 str]; [discriminate|]. inversion Ht; subst. cbn [leaf_first_test]. rewrite Hr, Hc.
      eexists. split; [reflexivity|]. intros x. cbv beta. lia. }
  assert (Hbr : forall t o0 c0, branch_first_char t = Some (o0, c0) -> is_rtl o0 = false -> is_ci o0 = false ->
                    exists T, branch_first_test e t = Some T /\ forall x, T x = true <-> x = c0).
  { intros t o0 c0 Ht Hr Hc. destruct t as [ | | | | | | | |oc lc| | | | | | | | | ]; cbn [branch_first_char] in Ht; cbn [branch_first_test]; try (apply (Hleaf _ _ _ Ht Hr Hc)).
    destruct lc as [|x lc]; [discriminate|]. apply (Hleaf _ _ _ Ht Hr Hc). }
  destruct (Hbr _ _ _ Ha Ra Ca) as (Ta & HTa & Ea). destruct (Hbr _ _ _ Hb Rb Cb) as (Tb & HTb & Eb).
  apply (reorder_disjoint o pre a b post Ta Tb HTa HTb).
  intros x Hx. apply Ea in Hx. destruct (Tb x) eqn:E; [|reflexivity]. apply Eb in E. congruence.
Qed.

End AtomicAlt.

(* 11. R6 — factoring a common prefix out of alternation branches                                *)
(*     (extractCommonPrefixText / extractCommonPrefixOneNotoneSet, tree.go:1066-1262)            *)

Section Prefix.
Variable e : env.
Notation evals := (rw_evals e).

Definition single_result (p : node) : Prop := forall s l, evals p s l -> (length l <= 1)%nat.

Lemma evals_concat_after_single o p a s s1 z : evals p s [s1] ->
  (evals (NConcat o (p :: a)) s z <-> evals (NConcat o a) s1 z).
Proof.
  intros Hp. rewrite evals_concat_cons. split.
  - intros (lx & zs & Hx & HF & ->). rewrite (rw_evals_det e _ _ _ _ Hx Hp) in HF.
    inversion HF as [|a0 z0 l0 zs0 H0 HF0]; subst. inversion HF0; subst. cbn [concat]. rewrite app_nil_r. exact H0.
  - intros H. exists [s1], [z]. split; [exact Hp|]. split; [constructor; [exact H | constructor]|].
    cbn [concat]. rewrite app_nil_r. reflexivity.
Qed.

Lemma evals_concat_after_none o p a s z : evals p s [] ->
  (evals (NConcat o (p :: a)) s z <-> z = []).
Proof.
  intros Hp. rewrite evals_concat_cons. split.
  - intros (lx & zs & Hx & HF & ->). rewrite (rw_evals_det e _ _ _ _ Hx Hp) in HF. inversion HF. reflexivity.
  - intros ->. exists [], []. split; [exact Hp|]. split; [constructor | reflexivity].
Qed.

(* R6, n branches: Alt[p·a1, ..., p·an] ≈ p·Alt[a1, ..., an] for a single-result p.
   The options stamped on Concatenate / Alternate nodes are irrelevant to the semantics, so they are
   left arbitrary (the code gives the new nodes the options of the alternation or of the prefix). *)
Theorem alt_prefix_factor o1 o2 o3 o4 o5 p bs : bs <> [] -> single_result p ->
  rw_eq e (NAlternate o1 (map (fun a => NConcat o2 (p :: a)) bs))
          (NConcat o3 [p; NAlternate o4 (map (NConcat o5) bs)]).
Proof.
  intros Hne Hsingle. split; intros s z Hz.
  - apply evals_alt_map in Hz as (zs & HF & ->).
    assert (Hp : exists lp, evals p s lp).
    { destruct bs as [|b bs]; [contradiction|]. inversion HF as [|b' z0 bs' zs' H0 _]; subst.
      apply evals_concat_cons in H0 as (lx & _ & Hx & _). eauto. }
    destruct Hp as (lp & Hp). pose proof (Hsingle _ _ Hp) as Hlen.
    destruct lp as [|s1 [|s2 lp]]; [| |cbn in Hlen; lia].
    + assert (Hall : Forall (fun z => z = []) zs).
      { clear -HF Hp. induction HF as [|b z0 bs zs H0 _ IH]; constructor; [|exact IH].
        apply (evals_concat_after_none _ _ _ _ _ Hp) in H0. exact H0. }
      rewrite (concat_all_nil _ Hall). apply (evals_concat_after_none _ _ _ _ _ Hp). reflexivity.
    + apply (evals_concat_after_single _ _ _ _ _ _ Hp). apply (proj2 (concat_singleton e _ _)). apply evals_alt_map.
      exists zs. split; [|reflexivity]. eapply Forall2_impl; [|exact HF]. intros b z0 H0. cbv beta in *.
      apply (evals_concat_after_single _ _ _ _ _ _ Hp) in H0. eapply evals_concat_opts, H0.
  - pose proof Hz as Hz0. apply evals_concat_cons in Hz0 as (lp & _ & Hp & _).
    pose proof (Hsingle _ _ Hp) as Hlen. destruct lp as [|s1 [|s2 lp]]; [| |cbn in Hlen; lia].
    + apply (evals_concat_after_none _ _ _ _ _ Hp) in Hz. subst z. apply evals_alt_map.
      exists (map (fun _ => []) bs). split.
      * clear -Hp. induction bs; constructor; [apply (evals_concat_after_none _ _ _ _ _ Hp); reflexivity | assumption].
      * symmetry. apply concat_all_nil. clear. induction bs; constructor; auto.
    + apply (evals_concat_after_single _ _ _ _ _ _ Hp) in Hz. apply (proj1 (concat_singleton e _ _)) in Hz.
      apply evals_alt_map in Hz as (zs & HF & ->). apply evals_alt_map. exists zs. split; [|reflexivity].
      eapply Forall2_impl; [|exact HF]. intros b z0 H0. cbv beta in *.
      apply (evals_concat_after_single _ _ _ _ _ _ Hp). eapply evals_concat_opts, H0.
Qed.

Corollary alt_prefix_factor2 o p a b : single_result p ->
  rw_eq e (NAlternate o [NConcat o (p :: a); NConcat o (p :: b)])
          (NConcat o [p; NAlternate o [NConcat o a; NConcat o b]]).
Proof. intros H. apply (alt_prefix_factor o o o o o p [a; b]); [discriminate | exact H]. Qed.

(* inside a longer alternation: the run [bs] of branches sharing the prefix is replaced by one branch *)
Lemma alt_group o o' pre mid post :
  rw_eq e (NAlternate o (pre ++ mid ++ post)) (NAlternate o (pre ++ NAlternate o' mid :: post)).
Proof.
  split; apply alt_prefix_congr; intros s z Hz.
  - apply evals_alt_all in Hz as (zs & HF & ->).
    apply Forall2_app_inv_l in HF as (z1 & z2 & H1 & H2 & ->).
    rewrite concat_app. apply evals_alt_cons. exists (concat z1), (concat z2).
    split; [apply evals_alt_all; eauto|]. split; [apply evals_alt_all; eauto | reflexivity].
  - apply evals_alt_cons in Hz as (l1 & l2 & H1 & H2 & ->).
    apply evals_alt_all in H1 as (z1 & HF1 & ->). apply evals_alt_all in H2 as (z2 & HF2 & ->).
    apply evals_alt_all. exists (z1 ++ z2). split; [apply Forall2_app; assumption | symmetry; apply concat_app].
Qed.

Theorem alt_prefix_factor_in o o2 o3 o4 o5 pre p bs post : bs <> [] -> single_result p ->
  rw_eq e (NAlternate o (pre ++ map (fun a => NConcat o2 (p :: a)) bs ++ post))
          (NAlternate o (pre ++ NConcat o3 [p; NAlternate o4 (map (NConcat o5) bs)] :: post)).
Proof.
  intros Hne Hs. eapply rw_eq_trans; [apply (alt_group o o)|].
  destruct (alt_prefix_factor o o2 o3 o4 o5 p bs Hne Hs) as [H1 H2].
  split; apply alt_prefix_congr; intros s z Hz; apply evals_alt_cons in Hz as (l1 & l2 & Hl1 & Hl2 & ->);
    apply evals_alt_cons; exists l1, l2; auto.
Qed.

(* which prefixes are single-result: what the two extraction passes pull out *)
Lemma single_result_leaf p :
  (forall s r, leaf_result e p s = Some r -> (length r <= 1)%nat) ->
  (forall s, leaf_result e p s <> None) -> single_result p.
Proof.
  intros H Hn s l Hl. destruct (leaf_result e p s) as [r|] eqn:E; [|destruct (Hn s E)].
  apply (evals_leaf e _ _ _ _ E) in Hl. subst l. eapply H, E.
Qed.

Lemma single_result_char k o c : single_result (NChar k o c).
Proof.
  apply single_result_leaf; [|discriminate]. intros s r H. inversion H; subst.
  destruct (_ && _); simpl; lia.
Qed.

Lemma single_result_multi o str : single_result (NMulti o str).
Proof.
  apply single_result_leaf; [|discriminate]. intros s r H. inversion H; subst. unfold sem_multi. cbv zeta.
  destruct (_ <? _); [simpl; lia|]. destruct (str_match_at _ _ _ _); simpl; lia.
Qed.

Lemma single_result_charloop_atomic k o c m n : single_result (NCharLoop k LAtomic o c m n).
Proof.
  apply single_result_leaf; [|discriminate]. intros s r H. inversion H; subst. unfold sem_charloop. cbv zeta.
  destruct (_ <? _); simpl; lia.
Qed.

(* a fixed-count loop {m,m} of any flavour (the code requires M == N, tree.go:1207-1211) *)
Lemma single_result_charloop_fixed k l o c m : 0 <= m < INF -> single_result (NCharLoop k l o c m m).
Proof.
  intros Hm. apply single_result_leaf; [|discriminate]. intros s r H. inversion H; subst. clear H.
  rewrite sem_charloop_unfold. cbv zeta. set (r := loop_run e k o c m s).
  assert (Hr : r <= m).
  { unfold r, loop_run. cbv zeta. assert (m =? INF = false) as -> by lia.
    pose proof (run_len_bounds e k c o (Z.to_nat (Z.min m (avail e o (pos s)))) (pos s)). lia. }
  destruct (r <? m) eqn:E; [simpl; lia|]. assert (r = m) as -> by lia.
  destruct l; cbn [length map]; try lia.
  - unfold count_down. assert (m <? m = false) as -> by lia. replace (Z.to_nat (m - m + 1)) with 1%nat by lia. simpl. lia.
  - unfold count_up. assert (m <? m = false) as -> by lia. replace (Z.to_nat (m - m + 1)) with 1%nat by lia. simpl. lia.
Qed.

Lemma single_result_atomic t : single_result (NAtomic t).
Proof. intros s l Hl. apply evals_atomic in Hl as (l0 & _ & ->). destruct l0; simpl; lia. Qed.

(* splitting a literal (what processOneOrMulti leaves behind, tree.go:1295-1311); left-to-right *)
Lemma str_match_app ci u v p :
  str_match_at e ci (u ++ v) p = str_match_at e ci u p && str_match_at e ci v (p + zlen u).
Proof.
  revert p. induction u as [|c u IH]; intros p; cbn [app str_match_at].
  - unfold zlen. simpl. replace (p + 0) with p by lia. reflexivity.
  - rewrite IH. unfold zlen. cbn [length]. replace (p + 1 + Z.of_nat (length u)) with (p + Z.of_nat (S (length u))) by lia.
    rewrite andb_assoc. reflexivity.
Qed.

Theorem multi_split o o' u v : is_rtl o = false ->
  rw_eq e (NMulti o (u ++ v)) (NConcat o' [NMulti o u; NMulti o v]).
Proof.
  intros Ho.
  assert (Hm : forall str s, sem_multi e o str s =
            if tlen e - pos s <? zlen str then [] else
            if str_match_at e (is_ci o) str (pos s) then [with_pos s (pos s + zlen str)] else []).
  { intros str s. unfold sem_multi, avail, dir. cbv zeta. rewrite Ho.
    replace (pos s + 1 * zlen str) with (pos s + zlen str) by lia. reflexivity. }
  assert (Hlen : zlen (u ++ v) = zlen u + zlen v) by (unfold zlen; rewrite app_length; lia).
  assert (Hu : 0 <= zlen u) by (unfold zlen; lia). assert (Hv : 0 <= zlen v) by (unfold zlen; lia).
  assert (Hsem : forall s, evals (NConcat o' [NMulti o u; NMulti o v]) s (sem_multi e o (u ++ v) s)).
  { intros s. apply evals_concat_cons. exists (sem_multi e o u s). rewrite !Hm, Hlen, str_match_app.
    destruct (tlen e - pos s <? zlen u) eqn:E1.
    - exists []. split; [leaf_intro; rewrite Hm, E1; reflexivity|].
      split; [constructor|]. assert (tlen e - pos s <? zlen u + zlen v = true) as -> by lia. reflexivity.
    - destruct (str_match_at e (is_ci o) u (pos s)) eqn:E2.
      + eexists [_]. split; [leaf_intro; rewrite Hm, E1, E2; reflexivity|].
        split; [constructor; [apply concat_singleton; leaf_intro; reflexivity | constructor]|].
        cbn [concat]. rewrite app_nil_r, Hm. cbn [pos with_pos andb].
        replace (tlen e - (pos s + zlen u) <? zlen v) with (tlen e - pos s <? zlen u + zlen v) by lia.
        destruct (tlen e - pos s <? zlen u + zlen v); [reflexivity|].
        destruct (str_match_at e (is_ci o) v (pos s + zlen u)); [|reflexivity].
        unfold with_pos. cbn [pos caps]. rewrite Z.add_assoc. reflexivity.
      + exists []. split; [leaf_intro; rewrite Hm, E1, E2; reflexivity|].
        split; [constructor|]. cbn [andb concat]. destruct (tlen e - pos s <? zlen u + zlen v); reflexivity. }
  split; intros s z Hz.
  - leaf_inv Hz. subst z. apply Hsem.
  - rewrite (rw_evals_det e _ _ _ _ Hz (Hsem s)). leaf_intro. reflexivity.
Qed.

(* a One and the one-rune Multi (case-sensitive, or a rune the lower-casing leaves alone) *)
Theorem char_is_multi o c : ci_neutral e o c -> rw_eqs e (NChar COne o c) (NMulti o [c]).
Proof.
  intros Hci [|f] s; [reflexivity|]. rewrite !sem_S. cbn [sem_step]. f_equal. unfold sem_multi. cbv zeta.
  change (zlen [c]) with 1. cbn [str_match_at]. rewrite andb_true_r.
  replace (avail e o (pos s) <? 1) with (negb (0 <? avail e o (pos s))) by lia.
  destruct (0 <? avail e o (pos s)); cbn [negb andb]; [|reflexivity].
  assert (Hc : (c =? (if is_ci o then lower e (next_char e o (pos s)) else next_char e o (pos s))) =
               char_test e COne c (next_char e o (pos s))).
  { cbn [char_test]. destruct (is_ci o) eqn:E; [apply Hci, E | apply Z.eqb_sym]. }
  unfold next_char, dir in *. destruct (is_rtl o); rewrite Hc; replace (pos s + 1 * 1) with (pos s + 1) by lia;
    replace (pos s + -1 * 1) with (pos s + -1) by lia; reflexivity.
Qed.

End Prefix.

(* 12. the rule that is FALSE: ending-backtracking removal inside a balancing group              *)

(* concrete environments for the witnesses and the Examples of Properties/C05.v:
   text [t], sets: 0 = [ab], 1 = [bc], 2 = \w (a-z here); no case folding *)
Definition rw_ex_env (t : list Z) : env :=
  {| txt := t; tstart := 0; ecma := false; endz_strict := false;
     set_in := fun id x => if id =? 0 then (97 <=? x) && (x <=? 98)
                           else if id =? 1 then (98 <=? x) && (x <=? 99)
                           else (97 <=? x) && (x <=? 122);
     lower := fun x => x;
     is_word := fun x => (97 <=? x) && (x <=? 122);
     is_eword := fun x => (97 <=? x) && (x <=? 122) |}.
Definition rw_s0 : st := {| pos := 0; caps := [] |}.

(* (?<1-2>x|(?<2>x)) on "x": the alternation x|(?<2>x) and its atomic wrapping have the same FIRST
   result, but under the balancing capture (close fails while group 2 is empty, and the matcher
   backtracks into the alternation) the first results differ: one match vs none.
   This is why eliminateEndingBacktracking stops at a balancing capture (tree.go since 7e695b7; Model/FinalOpt.fo_ee
   returns such a node unchanged): with the rewrite applied below it, `(?<a-b>x|(?<b>x))` did not match "x". *)
Definition rw_bal_alt : node := NAlternate 0 [NChar COne 0 120; NCapture 0 2 (-1) (NChar COne 0 120)].

Theorem rw_capture_balancing_not_heq :
  exists e t t', rw_heq e t t' /\ ~ rw_hrefines e (NCapture 0 1 2 t) (NCapture 0 1 2 t').
Proof.
  exists (rw_ex_env [120]), rw_bal_alt, (NAtomic rw_bal_alt). split; [apply rw_heq_sym, atomic_heq|].
  intros H.
  assert (H1 : rw_evals (rw_ex_env [120]) (NCapture 0 1 2 rw_bal_alt) rw_s0
                 [{| pos := 1; caps := [(2, []); (1, [(0, 1)])] |}]) by (exists 5%nat; vm_compute; reflexivity).
  assert (H2 : rw_evals (rw_ex_env [120]) (NCapture 0 1 2 (NAtomic rw_bal_alt)) rw_s0 [])
    by (exists 5%nat; vm_compute; reflexivity).
  apply H in H1 as (l' & Hl' & E). rewrite (rw_evals_det _ _ _ _ _ Hl' H2) in E. discriminate.
Qed.

(* readable view of a result list for the Examples: the end positions, in priority order *)
Definition rw_positions (r : res (list st)) : list Z := match r with Ok l => map pos l | _ => [-1] end.

(* 13. R4 continued: a calculus for "the continuation fails wherever the loop stopped early"     *)
(*     mirroring canBeMadeAtomic (skip down into what is guaranteed to follow, step over          *)
(*     nullable disjoint loops and zero-width tests), lazy loops, boundary anchors                *)

Section AutoAtomic2.
Variable e : env.
Notation evals := (rw_evals e).

(* when all but one of the results of the head of a concatenation are dead ends, only that one counts *)
Lemma concat_cons_prune o x rest s l1 a l2 z :
  evals x s (l1 ++ a :: l2) ->
  (forall b, In b l1 \/ In b l2 -> evals (NConcat o rest) b []) ->
  (evals (NConcat o (x :: rest)) s z <-> evals (NConcat o rest) a z).
Proof.
  intros Hx Hdead. rewrite evals_concat_cons. split.
  - intros (lx & zs & Hx' & HF & ->). rewrite (rw_evals_det e _ _ _ _ Hx' Hx) in HF.
    apply Forall2_app_inv_l in HF as (zs1 & zs' & H1 & H2 & ->).
    inversion H2 as [|a' za l2' zs2 Ha H2']; subst.
    assert (Hnil : forall l zs0, (forall b, In b l -> evals (NConcat o rest) b []) ->
                     Forall2 (fun a0 za0 => evals (NConcat o rest) a0 za0) l zs0 -> concat zs0 = []).
    { intros l zs0 Hl HF. induction HF as [|b zb l zs0 Hb _ IH]; [reflexivity|]. cbn [concat].
      rewrite (rw_evals_det e _ _ _ _ Hb (Hl b (or_introl eq_refl))). apply IH. intros; apply Hl; right; assumption. }
    rewrite concat_app. cbn [concat]. rewrite (Hnil _ _ (fun b Hb => Hdead b (or_introl Hb)) H1).
    rewrite (Hnil _ _ (fun b Hb => Hdead b (or_intror Hb)) H2'). rewrite app_nil_r. exact Ha.
  - intros Ha. exists (l1 ++ a :: l2), (map (fun _ => []) l1 ++ z :: map (fun _ => []) l2).
    split; [exact Hx|]. split.
    + apply Forall2_app; [|constructor; [exact Ha|]].
      * clear -Hdead. induction l1 as [|b l1 IH]; constructor; [apply Hdead; left; left; reflexivity|].
        apply IH. intros b' [Hb|Hb]; apply Hdead; [left; right; assumption | right; assumption].
      * clear -Hdead. induction l2 as [|b l2 IH]; constructor; [apply Hdead; right; left; reflexivity|].
        apply IH. intros b' [Hb|Hb]; apply Hdead; [left; assumption | right; right; assumption].
    + rewrite concat_app. cbn [concat].
      assert (Hn : forall (l : list st), concat (map (fun _ => @nil st) l) = []) by (induction l; simpl; auto).
      rewrite !Hn, app_nil_r. reflexivity.
Qed.

Lemma count_up_aux_snoc n a : count_up_aux (S n) a = count_up_aux n a ++ [a + Z.of_nat n].
Proof.
  revert a. induction n as [|n IH]; intros a.
  - simpl. replace (a + 0) with a by lia. reflexivity.
  - change (count_up_aux (S (S n)) a) with (a :: count_up_aux (S n) (a + 1)). rewrite IH.
    cbn [count_up_aux app]. f_equal. f_equal. f_equal. lia.
Qed.

Lemma count_up_snoc m r : m <= r -> count_up m r = count_up m (r - 1) ++ [r].
Proof.
  intros H. unfold count_up. assert (r <? m = false) as -> by lia.
  replace (Z.to_nat (r - m + 1)) with (S (Z.to_nat (r - 1 - m + 1))) by lia. rewrite count_up_aux_snoc.
  destruct (r - 1 <? m) eqn:E.
  - replace (Z.to_nat (r - 1 - m + 1)) with 0%nat by lia. simpl. f_equal. lia.
  - f_equal. f_equal. lia.
Qed.

(* all three flavours of a loop in front of a continuation that is dead at every early stop *)
Lemma charloop_then_dead k l o o1 c m n rest s z :
  (forall j, m <= j < loop_run e k o1 c n s -> rw_seq_fails e rest (loop_state o1 s j)) ->
  (evals (NConcat o (NCharLoop k l o1 c m n :: rest)) s z <->
   if loop_run e k o1 c n s <? m then z = [] else evals (NConcat o rest) (loop_state o1 s (loop_run e k o1 c n s)) z).
Proof.
  intros Hdead. set (r := loop_run e k o1 c n s) in *.
  assert (Hx : evals (NCharLoop k l o1 c m n) s (sem_charloop e k l o1 c m n s)) by (leaf_intro; reflexivity).
  rewrite sem_charloop_unfold in Hx. cbv zeta in Hx. fold r in Hx.
  destruct (r <? m) eqn:E.
  - rewrite evals_concat_cons. split.
    + intros (lx & zs & Hx' & HF & ->). rewrite (rw_evals_det e _ _ _ _ Hx' Hx) in HF. inversion HF. reflexivity.
    + intros ->. exists [], []. split; [exact Hx|]. split; [constructor | reflexivity].
  - assert (Hd : forall j, m <= j <= r - 1 -> evals (NConcat o rest) (loop_state o1 s j) []).
    { intros j Hj. apply seq_fails_evals, Hdead. lia. }
    destruct l.
    + rewrite (count_down_cons r m) in Hx by lia. cbn [map] in Hx.
      apply (concat_cons_prune o _ rest s [] _ _ z Hx).
      intros b [[]|Hb]. apply in_map_iff in Hb as (j & <- & Hj). apply count_down_in in Hj. apply Hd. lia.
    + rewrite (count_up_snoc m r) in Hx by lia. rewrite map_app in Hx. cbn [map] in Hx.
      apply (concat_cons_prune o _ rest s _ _ [] z Hx).
      intros b [Hb|[]]. apply in_map_iff in Hb as (j & <- & Hj). apply count_up_in in Hj. apply Hd. lia.
    + apply (concat_cons_prune o _ rest s [] _ [] z Hx). intros b [[]|[]].
Qed.

(* R4, general form: the whole continuation [rest] evaluates to "no result" at every state where the
   loop stopped early; then the flavour of the loop does not matter *)
Lemma auto_atomic_flavour k l o o1 c m n rest :
  (forall s j, m <= j < loop_run e k o1 c n s -> rw_seq_fails e rest (loop_state o1 s j)) ->
  rw_eq e (NConcat o (NCharLoop k l o1 c m n :: rest))
          (NConcat o (NCharLoop k LAtomic o1 c m n :: rest)).
Proof.
  intros H. split; intros s z Hz.
  - apply (charloop_then_dead k LAtomic o o1 c m n rest s z (H s)).
    apply (charloop_then_dead k l o o1 c m n rest s z (H s)). exact Hz.
  - apply (charloop_then_dead k l o o1 c m n rest s z (H s)).
    apply (charloop_then_dead k LAtomic o o1 c m n rest s z (H s)). exact Hz.
Qed.

Theorem auto_atomic_charloop k o o1 c m n rest :
  (forall s j, m <= j < loop_run e k o1 c n s -> rw_seq_fails e rest (loop_state o1 s j)) ->
  rw_eq e (NConcat o (NCharLoop k LGreedy o1 c m n :: rest))
          (NConcat o (NCharLoop k LAtomic o1 c m n :: rest)).
Proof. apply auto_atomic_flavour. Qed.

(* R4 for LAZY loops (processNode, tree.go:438-457): a lazy loop followed by something that fails at
   every early stop is the atomic GREEDY loop — "lazy to greedy" then makeLoopAtomic *)
Theorem auto_atomic_lazy k o o1 c m n rest :
  (forall s j, m <= j < loop_run e k o1 c n s -> rw_seq_fails e rest (loop_state o1 s j)) ->
  rw_eq e (NConcat o (NCharLoop k LLazy o1 c m n :: rest))
          (NConcat o (NCharLoop k LAtomic o1 c m n :: rest)).
Proof. apply auto_atomic_flavour. Qed.

(* [x] / the continuation [rest] is dead at every state whose next character passes the test (k,c) *)
Definition fails_in (k : ckind) (o c : Z) (x : node) : Prop := forall s, next_in e k o c s -> rw_fails e x s.
Definition cont_fails_in (k : ckind) (o c : Z) (rest : list node) : Prop :=
  forall s, next_in e k o c s -> rw_seq_fails e rest s.

Theorem auto_atomic_by_cont k o o1 c m n rest : 0 <= m -> cont_fails_in k o1 c rest ->
  rw_eq e (NConcat o (NCharLoop k LGreedy o1 c m n :: rest)) (NConcat o (NCharLoop k LAtomic o1 c m n :: rest)) /\
  rw_eq e (NConcat o (NCharLoop k LLazy o1 c m n :: rest)) (NConcat o (NCharLoop k LAtomic o1 c m n :: rest)).
Proof.
  intros Hm Hc. split; [apply auto_atomic_charloop | apply auto_atomic_lazy];
    intros s j Hj; apply Hc; eapply early_next_in; eassumption.
Qed.

Lemma cont_fails_head k o c x rest : fails_in k o c x -> cont_fails_in k o c (x :: rest).
Proof.
  intros H s Hs. destruct (H s Hs) as [f Hf]. exists f. cbn [seq_sem]. rewrite Hf. reflexivity.
Qed.

(* stepping over a successor that can only match the empty string there *)
Lemma cont_fails_skip k o c x rest :
  (forall s, next_in e k o c s -> exists l, evals x s l /\ (l = [] \/ l = [s])) ->
  cont_fails_in k o c rest -> cont_fails_in k o c (x :: rest).
Proof.
  intros Hx Hr s Hs. destruct (Hx s Hs) as (l & [f Hf] & Hl). destruct Hl as [-> | ->].
  - exists f. cbn [seq_sem]. rewrite Hf. reflexivity.
  - destruct (Hr s Hs) as [f' Hf']. exists (Nat.max f f'). cbn [seq_sem].
    rewrite (rw_sem_mono e f (Nat.max f f') _ _ _ ltac:(lia) Hf). unfold bindr. cbn [bind]. rewrite bindl_single.
    eapply rle_seq_sem; [|exact Hf']. intros t s' a Ha. eapply rw_sem_mono; [|exact Ha]. lia.
Qed.

(* a leaf that fails whatever the fuel *)
Lemma fails_in_leaf k o c x : (forall s f, next_in e k o c s -> sem e (S f) x s = Ok []) -> fails_in k o c x.
Proof. intros H s Hs. exists 1%nat. apply H, Hs. Qed.

Lemma fails_in_char k o c k' o' c' : is_rtl o' = is_rtl o -> tests_disjoint e k c k' c' -> fails_in k o c (NChar k' o' c').
Proof. intros Hd Hdis. apply fails_in_leaf. intros s f Hs. eapply succ_char_fails; eassumption. Qed.

Lemma fails_in_multi k o c o' c0 str : is_rtl o = false -> is_rtl o' = false ->
  (forall ch, char_test e k c ch = true -> (c0 =? (if is_ci o' then lower e ch else ch)) = false) ->
  fails_in k o c (NMulti o' (c0 :: str)).
Proof. intros Ho Ho' Hdis. apply fails_in_leaf. intros s f Hs. apply (succ_multi_fails e k o c); assumption. Qed.

Lemma fails_in_charloop k o c k' l' o' c' m' n' : is_rtl o' = is_rtl o -> tests_disjoint e k c k' c' -> 1 <= m' ->
  fails_in k o c (NCharLoop k' l' o' c' m' n').
Proof. intros Hd Hdis Hm. apply fails_in_leaf. intros s f Hs. eapply succ_charloop_fails; eassumption. Qed.

Lemma fails_in_end k o c : is_rtl o = false -> fails_in k o c (NAnchor AEnd).
Proof. intros Ho. apply fails_in_leaf. intros s f Hs. eapply succ_end_fails; eassumption. Qed.

Lemma fails_in_eol k o c : is_rtl o = false -> char_test e k c 10 = false -> fails_in k o c (NAnchor AEol).
Proof. intros Ho Hnl. apply fails_in_leaf. intros s f Hs. eapply succ_eol_fails; eassumption. Qed.

Lemma fails_in_endz k o c : is_rtl o = false -> char_test e k c 10 = false -> fails_in k o c (NAnchor AEndZ).
Proof. intros Ho Hnl. apply fails_in_leaf. intros s f Hs. eapply succ_endz_fails; eassumption. Qed.

(* skipping down to "the closest node guaranteed to follow" (tree.go:879-890): first child of a
   concatenation, child of a capture / atomic / group / positive lookahead, body of a loop with min > 0 *)
Lemma fails_in_concat k o c o' x l : fails_in k o c x -> fails_in k o c (NConcat o' (x :: l)).
Proof.
  intros H s Hs. apply evals_concat_cons. exists [], []. split; [apply H, Hs|]. split; [constructor | reflexivity].
Qed.

Lemma fails_in_capture k o c o' g u x : fails_in k o c x -> fails_in k o c (NCapture o' g u x).
Proof. intros H s Hs. apply evals_capture. exists []. split; [apply H, Hs | reflexivity]. Qed.

Lemma fails_in_atomic k o c x : fails_in k o c x -> fails_in k o c (NAtomic x).
Proof. intros H s Hs. apply evals_atomic. exists []. split; [apply H, Hs | reflexivity]. Qed.

Lemma fails_in_group k o c x : fails_in k o c x -> fails_in k o c (NGroup x).
Proof. intros H s Hs. apply (proj2 (evals_group _ _ _ _)). apply H, Hs. Qed.

Lemma fails_in_poslook k o c o' x : fails_in k o c x -> fails_in k o c (NPosLook o' x).
Proof. intros H s Hs. apply evals_poslook. exists []. split; [apply H, Hs | reflexivity]. Qed.

Lemma fails_in_loop k o c lazy o' m' n' x : m' <> 0 -> fails_in k o c x -> fails_in k o c (NLoop lazy o' m' n' x).
Proof.
  intros Hm H s Hs. destruct (H s Hs) as [f Hf]. exists (S f). rewrite sem_S. cbn [sem_step].
  assert (m' =? 0 = false) as -> by lia. rewrite Hf. reflexivity.
Qed.

(* an alternation: every branch (tree.go:904-912) *)
Lemma fails_in_alt k o c o' l : Forall (fails_in k o c) l -> fails_in k o c (NAlternate o' l).
Proof.
  intros H s Hs. apply evals_alt_all. exists (map (fun _ => []) l). split.
  - induction H as [|x l Hx _ IH]; constructor; [apply Hx, Hs | exact IH].
  - clear. induction l; simpl; auto.
Qed.

(* an expression conditional with both branches (tree.go:904): the condition and the "no" branch *)
Lemma fails_in_expr_cond k o c o' cnd y n : fails_in k o c cnd -> fails_in k o c n ->
  fails_in k o c (NExprCond o' cnd y (Some n)).
Proof. intros Hc Hn s Hs. apply evals_expr_cond. exists []. split; [apply Hc, Hs | apply Hn, Hs]. Qed.

(* stepping over a nullable loop with a disjoint test (tree.go:933-935, 954, 971-972), any flavour *)
Lemma cont_fails_skip_charloop0 k o c k' l' o' c' n' rest : is_rtl o' = is_rtl o -> tests_disjoint e k c k' c' ->
  cont_fails_in k o c rest -> cont_fails_in k o c (NCharLoop k' l' o' c' 0 n' :: rest).
Proof.
  intros Hd Hdis. apply cont_fails_skip. intros s [Ha Ht]. exists [s]. split; [|right; reflexivity].
  leaf_intro. rewrite sem_charloop_unfold. cbv zeta.
  assert (Hr : loop_run e k' o' c' n' s = 0).
  { unfold loop_run. cbv zeta. destruct (Z.to_nat _) as [|cap]; [reflexivity|]. cbn [run_len].
    rewrite (next_char_same_dir e o o') by exact Hd. rewrite (Hdis _ Ht), andb_false_r. reflexivity. }
  rewrite Hr. change (0 <? 0) with false. cbv iota.
  assert (Hs : loop_state o' s 0 = s).
  { unfold loop_state. replace (pos s + dir o' * 0) with (pos s) by lia. destruct s; reflexivity. }
  destruct l'; [change (count_down 0 0) with [0] | change (count_up 0 0) with [0] | ]; cbn [map]; rewrite Hs; reflexivity.
Qed.

(* stepping over any zero-width test, Empty and the bump-along marker *)
Lemma cont_fails_skip_anchor k o c a rest : cont_fails_in k o c rest -> cont_fails_in k o c (NAnchor a :: rest).
Proof.
  apply cont_fails_skip. intros s _. eexists. split; [leaf_intro; reflexivity|].
  destruct (anchor_ok e a (pos s)); [right | left]; reflexivity.
Qed.

Lemma cont_fails_skip_empty k o c rest : cont_fails_in k o c rest -> cont_fails_in k o c (NEmpty :: rest).
Proof. apply cont_fails_skip. intros s _. eexists. split; [leaf_intro; reflexivity | right; reflexivity]. Qed.

Lemma cont_fails_skip_bump k o c rest : cont_fails_in k o c rest -> cont_fails_in k o c (NBump :: rest).
Proof. apply cont_fails_skip. intros s _. eexists. split; [leaf_intro; reflexivity | right; reflexivity]. Qed.

(* ---- boundary anchors (tree.go:936-939, 973-976): \b after a loop of word characters with min >= 1
   fails between two loop characters.  The states must lie inside the text (pos >= 0), which every
   state reached from a search does; hence a per-state statement. ---- *)
Theorem auto_atomic_then_boundary k o o1 c m n a w rest :
  (a = ABoundary /\ w = is_word e) \/ (a = AECMABoundary /\ w = is_eword e) ->
  1 <= m -> is_rtl o1 = false -> (forall ch, char_test e k c ch = true -> w ch = true) ->
  forall f s, 0 <= pos s ->
    sem e f (NConcat o (NCharLoop k LGreedy o1 c m n :: NAnchor a :: rest)) s =
    sem e f (NConcat o (NCharLoop k LAtomic o1 c m n :: NAnchor a :: rest)) s.
Proof.
  intros Ha Hm Ho Hw f s Hp. apply auto_atomic_charloop_strong_at. intros f' j Hj.
  unfold loop_run in Hj. cbv zeta in Hj. destruct Hj as [Hj1 Hj2].
  assert (H1 : (0 <? avail e o1 (pos s + dir o1 * j)) && char_test e k c (next_char e o1 (pos s + dir o1 * j)) = true)
    by (eapply run_len_char; split; [lia | exact Hj2]).
  assert (H0 : (0 <? avail e o1 (pos s + dir o1 * (j - 1))) && char_test e k c (next_char e o1 (pos s + dir o1 * (j - 1))) = true)
    by (eapply run_len_char; split; [lia | eapply Z.lt_trans; [|exact Hj2]; lia]).
  apply andb_true_iff in H1 as [A1 T1]. apply andb_true_iff in H0 as [A0 T0].
  unfold avail, next_char, dir in A1, T1, A0, T0. rewrite Ho in A1, T1, A0, T0.
  apply Hw in T1. apply Hw in T0.
  rewrite sem_S. cbn [sem_step]. unfold loop_state, dir. rewrite Ho. cbn [pos with_pos].
  assert (Hb : is_boundary e w (pos s + 1 * j) = false).
  { unfold is_boundary. replace (pos s + 1 * j - 1) with (pos s + 1 * (j - 1)) by lia. rewrite T0, T1.
    assert (0 <? pos s + 1 * j = true) as -> by lia. assert (pos s + 1 * j <? tlen e = true) as -> by lia. reflexivity. }
  destruct Ha as [[-> ->] | [-> ->]]; cbn [anchor_ok]; rewrite Hb; reflexivity.
Qed.

End AutoAtomic2.

(* 14. R6 in atomic position: the factored alternation is re-wrapped (tree.go:1161-1165, 1241-1245) *)

Section PrefixAtomic.
Variable e : env.

Theorem alt_prefix_factor_atomic o1 o2 o3 o4 o5 p bs : bs <> [] -> single_result e p ->
  rw_eq e (NAtomic (NAlternate o1 (map (fun a => NConcat o2 (p :: a)) bs)))
          (NAtomic (NConcat o3 [p; NAtomic (NAlternate o4 (map (NConcat o5) bs))])).
Proof.
  intros Hne Hs. destruct (alt_prefix_factor e o1 o2 o3 o4 o5 p bs Hne Hs) as [H1 H2].
  pose proof (concat_last_tail e o3 [p] _ _ (proj2 (atomic_heq e (NAlternate o4 (map (NConcat o5) bs))))) as W1.
  pose proof (concat_last_tail e o3 [p] _ _ (proj1 (atomic_heq e (NAlternate o4 (map (NConcat o5) bs))))) as W2.
  cbn [app] in W1, W2. split; apply atomic_observes_head.
  - eapply rw_hrefines_trans; [apply rw_refines_hrefines, H1 | exact W1].
  - eapply rw_hrefines_trans; [exact W2 | apply rw_refines_hrefines, H2].
Qed.

End PrefixAtomic.

(* 15. R4 for a loop that ends a nested group: pruning                                           *)

Section Prune.
Variable e : env.
Notation evals := (rw_evals e).

Lemma drops_refl {A} (P : A -> Prop) l : drops P l l.
Proof. induction l; constructor; assumption. Qed.

Lemma drops_all {A} (P : A -> Prop) x l l' : Forall P x -> drops P l l' -> drops P (x ++ l) l'.
Proof. induction 1; intros Hd; simpl; [exact Hd | apply drops_drop; auto]. Qed.

Lemma drops_app {A} (P : A -> Prop) l1 l1' l2 l2' : drops P l1 l1' -> drops P l2 l2' -> drops P (l1 ++ l2) (l1' ++ l2').
Proof. induction 1; intros H2; simpl; [exact H2 | apply drops_keep; auto | apply drops_drop; auto]. Qed.

Lemma drops_mono {A} (P Q : A -> Prop) l l' : (forall a, P a -> Q a) -> drops P l l' -> drops Q l l'.
Proof. intros H. induction 1; constructor; auto. Qed.

Lemma drops_flat_map {A} (P : A -> Prop) (k : A -> list A) l l' :
  (forall a, P a -> Forall P (k a)) -> drops P l l' -> drops P (flat_map k l) (flat_map k l').
Proof.
  intros Hk. induction 1; simpl; [constructor | apply drops_app; [apply drops_refl | assumption] |].
  apply drops_all; [apply Hk; assumption | assumption].
Qed.

Notation prunes := (rw_prunes e).

Lemma prunes_refl (P : st -> Prop) t : prunes P t t.
Proof. split; intros s l H; exists l; split; [exact H | apply drops_refl | exact H | apply drops_refl]. Qed.

Lemma prunes_mono (P Q : st -> Prop) t t' : (forall s, P s -> Q s) -> prunes P t t' -> prunes Q t t'.
Proof.
  intros HPQ [H1 H2]. split; intros s l H.
  - destruct (H1 _ _ H) as (l' & Hl' & Hd). exists l'. split; [exact Hl' | eapply drops_mono; eassumption].
  - destruct (H2 _ _ H) as (l' & Hl' & Hd). exists l'. split; [exact Hl' | eapply drops_mono; eassumption].
Qed.

(* base: a loop (greedy or lazy) and its atomic greedy form *)
Lemma prunes_loop (P : st -> Prop) k l o c m n : 0 <= m -> (forall s, next_in e k o c s -> P s) ->
  prunes P (NCharLoop k l o c m n) (NCharLoop k LAtomic o c m n).
Proof.
  intros Hm HP.
  assert (Hd : forall s, drops P (sem_charloop e k l o c m n s) (sem_charloop e k LAtomic o c m n s)).
  { intros s. rewrite !sem_charloop_unfold. cbv zeta. set (r := loop_run e k o c n s).
    destruct (r <? m) eqn:E; [constructor|].
    assert (Hearly : forall j, m <= j <= r - 1 -> P (loop_state o s j)).
    { intros j Hj. apply HP. apply (early_next_in e k o c m n s j Hm). fold r. lia. }
    destruct l.
    - rewrite (count_down_cons r m) by lia. cbn [map]. apply drops_keep.
      rewrite <- (app_nil_r (map _ _)). apply drops_all; [|constructor].
      apply Forall_forall. intros a Ha. apply in_map_iff in Ha as (j & <- & Hj). apply count_down_in in Hj. apply Hearly. lia.
    - rewrite (count_up_snoc m r) by lia. rewrite map_app. cbn [map]. apply drops_all; [|apply drops_refl].
      apply Forall_forall. intros a Ha. apply in_map_iff in Ha as (j & <- & Hj). apply count_up_in in Hj. apply Hearly. lia.
    - apply drops_refl. }
  split; intros s z Hz; leaf_inv Hz; subst z; eexists; (split; [leaf_intro; reflexivity | apply Hd]).
Qed.

(* the congruences: Section Lift at [drops P], read in both directions *)
Local Notation back P := (fun a b : list st => drops P b a).

Lemma prunes_capture (P : st -> Prop) o g u t t' : pos_pred P -> prunes P t t' -> prunes P (NCapture o g u t) (NCapture o g u t').
Proof.
  intros HP [H1 H2].
  assert (Hk : forall s a, P a -> Forall P (capture_close g u s a)).
  { intros s a Ha. unfold capture_close. destruct (u =? -1).
    - constructor; [|constructor]. eapply HP; [|exact Ha]. reflexivity.
    - destruct (cap_get u (caps a)); constructor; [|constructor]. eapply HP; [|exact Ha]. reflexivity. }
  split; [apply (lifts_capture e (drops P)) | apply (lifts_capture e (back P))]; try assumption;
    intros s l l'; apply drops_flat_map, Hk.
Qed.

Lemma prunes_group (P : st -> Prop) t t' : prunes P t t' -> prunes P (NGroup t) (NGroup t').
Proof. intros [H1 H2]. split; [exact (lifts_group e (drops P) _ _ H1) | exact (lifts_group e (back P) _ _ H2)]. Qed.

Lemma prunes_concat_last (P : st -> Prop) o pre t t' : prunes P t t' -> prunes P (NConcat o (pre ++ [t])) (NConcat o (pre ++ [t'])).
Proof.
  intros [H1 H2]. split.
  - exact (lifts_concat_last e (drops P) (drops_refl P) (drops_app P) o pre _ _ H1).
  - exact (lifts_concat_last e (back P) (drops_refl P) (fun a a' b b' => drops_app P a' a b' b) o pre _ _ H2).
Qed.

Lemma prunes_alt (P : st -> Prop) o l l' : Forall2 (prunes P) l l' -> prunes P (NAlternate o l) (NAlternate o l').
Proof.
  intros H. split.
  - apply (lifts_alt e (drops P) (drops_refl P) (drops_app P)).
    induction H as [|x x' l l' [Hx _] _ IH]; constructor; assumption.
  - apply (lifts_alt e (back P) (drops_refl P) (fun a a' b b' => drops_app P a' a b' b)).
    induction H as [|x x' l l' [_ Hx] _ IH]; constructor; assumption.
Qed.

Definition opt_prunes (P : st -> Prop) (n n' : option node) : Prop :=
  match n, n' with Some a, Some b => prunes P a b | None, None => True | _, _ => False end.

Lemma opt_prunes_lifts (P : st -> Prop) n n' : opt_prunes P n n' ->
  opt_lifts e (drops P) n n' /\ opt_lifts e (back P) n' n.
Proof. destruct n, n'; cbn [opt_prunes opt_lifts]; try tauto. intros H; exact H. Qed.

Lemma prunes_backref_cond (P : st -> Prop) o g y y' n n' : prunes P y y' -> opt_prunes P n n' ->
  prunes P (NBackRefCond o g y n) (NBackRefCond o g y' n').
Proof.
  intros [Y1 Y2] Hn. apply opt_prunes_lifts in Hn as [N1 N2]. split.
  - exact (lifts_backref_cond e (drops P) (drops_refl P) o g _ _ _ _ Y1 N1).
  - exact (lifts_backref_cond e (back P) (drops_refl P) o g _ _ _ _ Y2 N2).
Qed.

Lemma prunes_expr_cond (P : st -> Prop) o c y y' n n' : prunes P y y' -> opt_prunes P n n' ->
  prunes P (NExprCond o c y n) (NExprCond o c y' n').
Proof.
  intros [Y1 Y2] Hn. apply opt_prunes_lifts in Hn as [N1 N2]. split.
  - exact (lifts_expr_cond e (drops P) (drops_refl P) o c _ _ _ _ Y1 N1).
  - exact (lifts_expr_cond e (back P) (drops_refl P) o c _ _ _ _ Y2 N2).
Qed.

(* use: in front of a continuation that is dead at every P-state, pruning is invisible *)
Theorem prunes_then_dead (P : st -> Prop) o t t' rest : prunes P t t' -> (forall s, P s -> rw_seq_fails e rest s) ->
  rw_eq e (NConcat o (t :: rest)) (NConcat o (t' :: rest)).
Proof.
  intros [H1 H2] Hdead.
  assert (Hd : forall a, P a -> evals (NConcat o rest) a []) by (intros a Ha; apply seq_fails_evals, Hdead, Ha).
  split; intros s z Hz; apply evals_concat_cons in Hz as (lx & zs & Hx & HF & ->); apply evals_concat_cons.
  - destruct (H1 _ _ Hx) as (lx' & Hx' & D). exists lx'.
    assert (Hz : exists zs', Forall2 (fun a za => evals (NConcat o rest) a za) lx' zs' /\ concat zs = concat zs').
    { clear -D HF Hd. revert zs HF. induction D as [|a l l' D IH|a l l' Pa D IH]; intros zs HF; inversion HF as [|a' za l0 zs0 Ha HF0]; subst.
      - exists []. split; [constructor | reflexivity].
      - destruct (IH _ HF0) as (zs' & HF' & E). exists (za :: zs'). split; [constructor; assumption | simpl; congruence].
      - destruct (IH _ HF0) as (zs' & HF' & E). exists zs'. split; [exact HF'|]. simpl.
        rewrite (rw_evals_det e _ _ _ _ Ha (Hd a Pa)). exact E. }
    destruct Hz as (zs' & HF' & E). exists zs'. auto.
  - destruct (H2 _ _ Hx) as (lx' & Hx' & D). exists lx'.
    assert (Hz : exists zs', Forall2 (fun a za => evals (NConcat o rest) a za) lx' zs' /\ concat zs = concat zs').
    { clear -D HF Hd. revert zs HF. induction D as [|a l l' D IH|a l l' Pa D IH]; intros zs HF.
      - inversion HF; subst. exists []. split; [constructor | reflexivity].
      - inversion HF as [|a' za l0 zs0 Ha HF0]; subst.
        destruct (IH _ HF0) as (zs' & HF' & E). exists (za :: zs'). split; [constructor; assumption | simpl; congruence].
      - destruct (IH _ HF) as (zs' & HF' & E). exists ([] :: zs'). split; [constructor; [apply Hd, Pa | exact HF'] | exact E]. }
    destruct Hz as (zs' & HF' & E). exists zs'. auto.
Qed.

End Prune.

Scheme atomized_min := Minimality for atomized Sort Prop
  with atomized_list_min := Minimality for atomized_list Sort Prop
  with atomized_opt_min := Minimality for atomized_opt Sort Prop.
Combined Scheme atomized_mutind from atomized_min, atomized_list_min, atomized_opt_min.

Section Nested.
Variable e : env.
Variable P : st -> Prop.
Hypothesis P_pos : pos_pred P.

Theorem atomized_prunes_all :
  (forall t t', atomized e P t t' -> rw_prunes e P t t') /\
  (forall l l', atomized_list e P l l' -> Forall2 (rw_prunes e P) l l') /\
  (forall n n', atomized_opt e P n n' -> opt_prunes e P n n').
Proof.
  apply (atomized_mutind e P (fun t t' => rw_prunes e P t t') (fun l l' => Forall2 (rw_prunes e P) l l')
           (fun n n' => opt_prunes e P n n')).
  - intros t. apply prunes_refl.
  - intros k l o c m n Hm HP. apply prunes_loop; assumption.
  - intros o g u t t' _ H. apply prunes_capture; assumption.
  - intros t t' _ H. apply prunes_group, H.
  - intros o pre t t' _ H. apply prunes_concat_last, H.
  - intros o l l' _ H. apply prunes_alt, H.
  - intros o g y y' n n' _ Hy _ Hn. apply prunes_backref_cond; assumption.
  - intros o c y y' n n' _ Hy _ Hn. apply prunes_expr_cond; assumption.
  - constructor.
  - intros t t' l l' _ H _ Hl. constructor; assumption.
  - exact I.
  - intros t t' _ H. exact H.
Qed.

(* R4, nested: loops at the END of [t] (through captures, groups, last children of concatenations,
   branches of alternations and conditionals) may all be made atomic when the continuation is dead at
   every state whose next character passes one of those loops' tests *)
Theorem auto_atomic_nested o pre t t' rest :
  atomized e P t t' -> (forall s, P s -> rw_seq_fails e rest s) ->
  rw_eq e (NConcat o (pre ++ t :: rest)) (NConcat o (pre ++ t' :: rest)).
Proof.
  intros Ha Hdead. destruct (prunes_then_dead e P o t t' rest (proj1 atomized_prunes_all _ _ Ha) Hdead) as [H1 H2].
  split; apply concat_prefix_congr; assumption.
Qed.

End Nested.

(* 16. R4 at the END of an atomic context (canBeMadeAtomic's "we hit the root", tree.go:1012-1016) *)

Section AtEnd.
Variable e : env.
Notation evals := (rw_evals e).

(* In atomic position the loop may become atomic when the continuation, wherever it has a result after
   an early stop, also has one after the maximal run ("if it fails after the last loop character it fails
   after every earlier one").  One-directional: the original also has to evaluate the early stops. *)
Theorem auto_atomic_at_end k o o1 c m n rest :
  (forall s j l lr, m <= j < loop_run e k o1 c n s ->
      evals (NConcat o rest) (loop_state o1 s j) l ->
      evals (NConcat o rest) (loop_state o1 s (loop_run e k o1 c n s)) lr -> lr = [] -> l = []) ->
  rw_hrefines e (NConcat o (NCharLoop k LGreedy o1 c m n :: rest))
                (NConcat o (NCharLoop k LAtomic o1 c m n :: rest)).
Proof.
  intros Hmono s z Hz. apply evals_concat_cons in Hz as (lx & zs & Hx & HF & ->).
  leaf_inv Hx. subst lx. rewrite sem_charloop_unfold in HF. cbv zeta in HF.
  set (r := loop_run e k o1 c n s) in *.
  destruct (r <? m) eqn:E.
  - inversion HF; subst. exists []. split; [|reflexivity]. apply evals_concat_cons. exists [], [].
    split; [leaf_intro; rewrite sem_charloop_unfold; cbv zeta; fold r; rewrite E; reflexivity|]. split; [constructor | reflexivity].
  - rewrite (count_down_cons r m) in HF by lia. cbn [map] in HF. inversion HF as [|a0 z0 l0 zs0 H0 HF0]; subst.
    exists z0. split.
    + apply evals_concat_cons. exists [loop_state o1 s r], [z0].
      split; [leaf_intro; rewrite sem_charloop_unfold; cbv zeta; fold r; rewrite E; reflexivity|].
      split; [constructor; [exact H0 | constructor] | cbn [concat]; rewrite app_nil_r; reflexivity].
    + cbn [concat]. destruct z0 as [|a z0]; [|reflexivity]. cbn [app].
      assert (Hall : Forall (fun zz => zz = []) zs0).
      { clear HF. assert (Hin : forall a, In a (map (loop_state o1 s) (count_down (r - 1) m)) ->
                           exists j, m <= j < r /\ a = loop_state o1 s j).
        { intros a Ha. apply in_map_iff in Ha as (j & <- & Hj). apply count_down_in in Hj. exists j. split; [lia | reflexivity]. }
        revert Hin HF0. generalize (map (loop_state o1 s) (count_down (r - 1) m)). intros lst Hin HF0.
        induction HF0 as [|a za lst zs1 Ha _ IH]; constructor.
        - destruct (Hin a (or_introl eq_refl)) as (j & Hj & ->). eapply (Hmono s j za []); [fold r; exact Hj | exact Ha | exact H0 | reflexivity].
        - apply IH. intros a' Ha'. apply Hin. right. exact Ha'. }
      rewrite (concat_all_nil _ Hall). reflexivity.
Qed.

(* a continuation that always has a result (nullable loops, Empty, the bump-along marker): a*b*, a*b?c* ... *)
Definition always_matches (x : node) : Prop := forall s l, evals x s l -> l <> [].

Lemma always_matches_charloop0 k l o c n : always_matches (NCharLoop k l o c 0 n).
Proof.
  intros s z Hz. leaf_inv Hz. subst z. rewrite sem_charloop_unfold. cbv zeta.
  pose proof (run_len_bounds e k c o (Z.to_nat (if n =? INF then avail e o (pos s) else Z.min n (avail e o (pos s)))) (pos s)) as Hb.
  unfold loop_run. cbv zeta. set (r := run_len e k c o _ (pos s)) in *. assert (r <? 0 = false) as -> by lia.
  destruct l.
  - destruct (count_down_head r 0 ltac:(lia)) as [tl ->]. discriminate.
  - destruct (count_up_head 0 r ltac:(lia)) as [tl ->]. discriminate.
  - discriminate.
Qed.

Lemma always_matches_empty : always_matches NEmpty.
Proof. intros s z Hz. leaf_inv Hz. subst. discriminate. Qed.

Lemma always_matches_bump : always_matches NBump.
Proof. intros s z Hz. leaf_inv Hz. subst. discriminate. Qed.

Lemma always_matches_seq o rest : Forall always_matches rest -> forall s l, evals (NConcat o rest) s l -> l <> [].
Proof.
  induction 1 as [|x rest Hx _ IH]; intros s l Hl.
  - apply evals_concat_nil in Hl. subst. discriminate.
  - apply evals_concat_cons in Hl as (lx & zs & Hlx & HF & ->). pose proof (Hx _ _ Hlx) as Hne.
    destruct lx as [|a lx]; [contradiction|]. inversion HF as [|a' za l0 zs0 Ha _]; subst.
    pose proof (IH _ _ Ha) as Hza. cbn [concat]. destruct za; [contradiction | discriminate].
Qed.

Theorem auto_atomic_before_nullable_end k o o1 c m n rest : Forall always_matches rest ->
  rw_hrefines e (NConcat o (NCharLoop k LGreedy o1 c m n :: rest))
                (NConcat o (NCharLoop k LAtomic o1 c m n :: rest)).
Proof.
  intros Hall. apply auto_atomic_at_end. intros s j l lr _ _ Hlr ->. exfalso.
  exact (always_matches_seq o rest Hall _ _ Hlr eq_refl).
Qed.

End AtEnd.

(* REFUTED: "step over a \B that follows a loop of non-word characters, then reach the end of the
   expression" (tree.go:952-954, 989-991 + 1012-1016).  -+\B on "--a": the \B holds between the two '-'
   and fails after the second (a word character follows), so the first result of the greedy loop is
   position 1 and the atomic loop has none.  The engine agrees (`\W+\B` on "--a": no match with the
   rewrite, match "-" without): known finding c05-nonboundary-end. *)
Definition rw_nb_env : env := rw_ex_env [45; 45; 97].
Definition rw_nb_tree (l : lkind) : node := NConcat 0 [NCharLoop COne l 0 45 1 INF; NAnchor ANonboundary].

Theorem rw_nonboundary_at_end_refuted :
  ~ (forall e k o o1 c m n, 1 <= m -> is_rtl o1 = false ->
       (forall ch, char_test e k c ch = true -> is_word e ch = false) ->
       rw_hrefines e (NConcat o [NCharLoop k LGreedy o1 c m n; NAnchor ANonboundary])
                     (NConcat o [NCharLoop k LAtomic o1 c m n; NAnchor ANonboundary])).
Proof.
  intros H. specialize (H rw_nb_env COne 0 0 45 1 INF ltac:(lia) eq_refl).
  assert (Hw : forall ch, char_test rw_nb_env COne 45 ch = true -> is_word rw_nb_env ch = false).
  { intros ch Hc. cbn [char_test] in Hc. apply Z.eqb_eq in Hc. subst. reflexivity. }
  specialize (H Hw).
  assert (H1 : rw_evals rw_nb_env (rw_nb_tree LGreedy) rw_s0 [{| pos := 1; caps := [] |}]) by (exists 4%nat; vm_compute; reflexivity).
  assert (H2 : rw_evals rw_nb_env (rw_nb_tree LAtomic) rw_s0 []) by (exists 4%nat; vm_compute; reflexivity).
  apply H in H1 as (l' & Hl' & E). rewrite (rw_evals_det _ _ _ _ _ Hl' H2) in E. discriminate.
Qed.

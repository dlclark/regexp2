(* compile_correct for single-character loops NCharLoop (X-rep, then X-loop / X-lazy /
   X-loopatomic).  Needs tlen e <= INF (the interpreter caps an unbounded loop at MaxInt32). *)
From Verif Require Import Base.Prelude Model.Tree Model.Spec Model.VM Model.Writer Gen.RunnerGen
  Proofs.SpecProofs Proofs.SpecBoundsProofs Proofs.MaskProofs
  Proofs.VMU Proofs.VMUOps Proofs.VMUOps2 Proofs.VMUOps6 Proofs.VMUOps3 Proofs.VMUOps4 Proofs.CharLoopFacts
  Proofs.CompileBase Proofs.CompileDefs.
From Coq Require Import Relations ZifyBool.

Lemma cc_count_down_cons a b : b <= a -> count_down a b = a :: count_down (a - 1) b.
Proof.
  intros H. unfold count_down. replace (a <? b) with false by lia.
  replace (Z.to_nat (a - b + 1)) with (S (Z.to_nat (a - b))) by lia. cbn [count_down_aux].
  destruct (a - 1 <? b) eqn:E.
  - replace (Z.to_nat (a - b)) with 0%nat by lia. reflexivity.
  - replace (a - 1 - b + 1) with (a - b) by lia. reflexivity.
Qed.
Lemma cc_count_up_cons a b : a <= b -> count_up a b = a :: count_up (a + 1) b.
Proof.
  intros H. unfold count_up. replace (b <? a) with false by lia.
  replace (Z.to_nat (b - a + 1)) with (S (Z.to_nat (b - a))) by lia. cbn [count_up_aux].
  destruct (b <? a + 1) eqn:E.
  - replace (Z.to_nat (b - a)) with 0%nat by lia. reflexivity.
  - replace (b - (a + 1) + 1) with (b - a) by lia. reflexivity.
Qed.

Section CC.
Variable e : env.
Variable p : program.
Hypothesis tc_nonneg : 0 <= trackcount p.
Hypothesis Htlen : tlen e <= INF.
Variable R : caps_t -> list (list Z) -> Prop.

Notation rsteps := (VMUOps2.rsteps e p).
Notation leadsR := (CompileBase.leadsR e p R).
Notation has_code := (CompileBase.has_code p).
Notation track_ok := (CompileBase.track_ok p).

Notation code_ex := (CompileDefs.code_ex p).
Notation ok_nodeR := (CompileDefs.ok_nodeR e p R).

Section Tail.
Variables (k : ckind) (o c c0 a1 : Z) (s1 : st) (T Sk C : list Z) (M : list (list Z)).
Hypothesis Hk : track_ok T.
Hypothesis Hr : R (caps s1) M.
Hypothesis Hp1 : 0 <= pos s1 <= tlen e.
Hypothesis H1 : code_at p (a1 + 1) = Some c.
Hypothesis H2 : code_at p (a1 + 2) = Some c0.
Hypothesis Hex : code_ex (a1 + 3).
Hypothesis Hc0 : 0 <= c0.

Let mkp := fun i => with_pos s1 (pos s1 + dir o * i).

Lemma cc_greedy_tail :
  code_at p a1 = Some (loop_op k LGreedy + bits_of o) ->
  forall jn t1 T1, t1 = pos s1 + dir o * Z.of_nat jn ->
    T1 = (if 0 <? Z.of_nat jn then a1 :: t1 - dir o :: Z.of_nat jn - 1 :: T else T) ->
    leadsR (a1 + 3) T Sk Sk C M (mkr (a1 + 3) 0 t1 T1 Sk C M) (map mkp (count_down (Z.of_nat jn) 0)).
Proof.
  intros H0. destruct Hex as [w2 Hw2]. pose proof (code_at_nonneg p _ _ H0) as Ha1.
  induction jn as [|jn IH]; intros t1 T1 Ht1 HT1.
  - change (Z.of_nat 0) with 0 in *. cbn in HT1. subst T1.
    change (count_down 0 0) with [0]. cbn [map]. subst t1.
    apply leadsR_leaf; [exact Hk|exact Hr|apply rsteps_refl].
  - assert (Hz : Z.of_nat (S jn) = Z.of_nat jn + 1) by lia. rewrite Hz in *. clear Hz.
    rewrite cc_count_down_cons by lia. cbn [map].
    replace (0 <? Z.of_nat jn + 1) with true in HT1 by lia. subst T1.
    exists [a1; t1 - dir o; Z.of_nat jn + 1 - 1], [], M. cbn [app unwind].
    split; [exact Hr|]. split; [reflexivity|].
    split. { eapply track_ok_cons. rewrite Z.abs_eq by lia. exact H0. }
    split. { unfold mkp. cbn [pos with_pos]. rewrite <- Ht1. apply rsteps_refl. }
    intros np T'' t HT. injection HT as <- <-. rewrite bkr_pos by lia.
    eapply leadsR_pre. { eapply rs_loop_back; try exact tc_nonneg; eassumption. }
    replace (Z.of_nat jn + 1 - 1) with (Z.of_nat jn) by lia.
    apply IH; [lia|reflexivity].
Qed.

Lemma cc_lazy_tail :
  code_at p a1 = Some (loop_op k LLazy + bits_of o) ->
  forall N j, N = Z.min c0 (avail e o (pos s1)) -> j = run_len e k c o (Z.to_nat N) (pos s1) ->
  forall rn i t1 T1, rn = Z.to_nat (N - i) -> 0 <= i <= j ->
    t1 = pos s1 + dir o * i ->
    T1 = (if 0 <? N - i then a1 :: t1 :: N - i - 1 :: T else T) ->
    leadsR (a1 + 3) T Sk Sk C M (mkr (a1 + 3) 0 t1 T1 Sk C M) (map mkp (count_up i j)).
Proof.
  intros H0 N j HN Hj. destruct Hex as [w2 Hw2]. pose proof (code_at_nonneg p _ _ H0) as Ha1.
  pose proof (clf_avail_nonneg e o (pos s1) Hp1) as HA.
  assert (HjN : 0 <= j <= N).
  { rewrite Hj. pose proof (clf_rl_bounds e k c o (Z.to_nat N) (pos s1)). lia. }
  induction rn as [|rn IH]; intros i t1 T1 Hrn Hi Ht1 HT1.
  - assert (i = j) by lia. subst i. replace (0 <? N - j) with false in HT1 by lia. subst T1.
    rewrite cc_count_up_cons by lia. unfold count_up at 1. replace (j <? j + 1) with true by lia. cbn [map].
    apply leadsR_leaf; [exact Hk|exact Hr|]. unfold mkp. cbn [pos with_pos]. rewrite <- Ht1. apply rsteps_refl.
  - replace (0 <? N - i) with true in HT1 by lia. subst T1.
    rewrite cc_count_up_cons by lia. cbn [map].
    exists [a1; t1; N - i - 1], [], M. cbn [app unwind].
    split; [exact Hr|]. split; [reflexivity|].
    split. { eapply track_ok_cons. rewrite Z.abs_eq by lia. exact H0. }
    split. { unfold mkp. cbn [pos with_pos]. rewrite <- Ht1. apply rsteps_refl. }
    intros np T'' t HT. injection HT as <- <-. rewrite bkr_pos by lia.
    destruct (clf_avail_shift e o (pos s1) i Hp1 ltac:(lia)) as [HAi Hpi]. rewrite <- Ht1 in HAi, Hpi.
    destruct (Z.eq_dec i j) as [->|Hne].
    + (* the character after the run does not match *)
      unfold count_up. replace (j <? j + 1) with true by lia. cbn [map].
      assert (Hbad : clf_good e k c o t1 = false).
      { rewrite Ht1, Hj. apply clf_rl_bad. lia. }
      unfold clf_good in Hbad. replace (0 <? avail e o t1) with true in Hbad by lia. cbn [andb] in Hbad.
      destruct Hk as (np' & T3 & -> & w3 & Hw3).
      eapply leadsR_fail; [reflexivity|].
      eapply rs_lazy_back_fail; try exact tc_nonneg; try eassumption. lia.
    + assert (Hgood : clf_good e k c o t1 = true).
      { rewrite Ht1. apply (clf_rl_good e k c o (Z.to_nat N)). lia. }
      unfold clf_good in Hgood. replace (0 <? avail e o t1) with true in Hgood by lia. cbn [andb] in Hgood.
      eapply leadsR_pre. { eapply rs_lazy_back_ok; try exact tc_nonneg; try eassumption. lia. }
      apply IH; [lia|lia|lia|].
      replace (N - (i + 1)) with (N - i - 1) by lia. reflexivity.
Qed.

Lemma cc_loop_res l :
  code_at p a1 = Some (loop_op k l + bits_of o) ->
  leadsR (a1 + 3) T Sk Sk C M (mkr a1 0 (pos s1) T Sk C M) (loop_res e k l o c s1 c0).
Proof.
  intros H0. pose proof Hex as [w2 Hw2].
  pose proof (clf_avail_nonneg e o (pos s1) Hp1) as HA.
  unfold loop_res. cbv zeta.
  set (N := Z.min c0 (avail e o (pos s1))).
  pose proof (clf_rl_bounds e k c o (Z.to_nat N) (pos s1)) as Hb.
  set (j := run_len e k c o (Z.to_nat N) (pos s1)) in *.
  destruct l.
  - eapply leadsR_pre.
    { eapply rs_loop_fwd with (l := LGreedy) (j := j) (c := c) (c0 := c0); try exact tc_nonneg; try eassumption; [discriminate|reflexivity]. }
    rewrite andb_true_r.
    replace j with (Z.of_nat (Z.to_nat j)) by lia.
    apply cc_greedy_tail; [exact H0|reflexivity|].
    rewrite !Z2Nat.id by lia. reflexivity.
  - eapply leadsR_pre.
    { eapply rs_lazy_fwd with (N := N) (c := c) (c0 := c0); try exact tc_nonneg; try eassumption. reflexivity. }
    eapply cc_lazy_tail with (N := N) (i := 0); try reflexivity; try exact H0; try lia.
    rewrite Z.sub_0_r. reflexivity.
  - eapply leadsR_pre.
    { eapply rs_loop_fwd with (l := LAtomic) (j := j) (c := c) (c0 := c0); try exact tc_nonneg; try eassumption; [discriminate|reflexivity]. }
    rewrite andb_false_r.
    apply leadsR_leaf; [exact Hk|exact Hr|]. cbn [pos with_pos]. apply rsteps_refl.
Qed.

End Tail.

Lemma cc_charloop f k l o c m n : 0 <= m <= n -> n <= INF -> ok_nodeR (S f) (NCharLoop k l o c m n).
Proof.
  intros Hm Hn s res Hsem Hst a tbl T S C M Hc Hex Hk Hr Htb.
  cbn [sem] in Hsem. injection Hsem as <-.
  destruct Hst as [Hp Hcs].
  rewrite clf_charloop_split by assumption.
  cbn [emit fst csize] in Hc, Hex |- *.
  pose proof (clf_avail_nonneg e o (pos s) Hp) as HA.
  (* the rep part *)
  assert (Hrep : forall a1, a1 = a + (if 0 <? m then 3 else 0) -> code_ex a1 ->
     (if 0 <? m then has_code a [rep_op k + bits_of o; c; m] else True) ->
     if (m <=? avail e o (pos s)) && (run_len e k c o (Z.to_nat m) (pos s) =? m)
     then rsteps (mkr a 0 (pos s) T S C M) (mkr a1 0 (pos s + dir o * m) T S C M)
     else exists np T' t, T = np :: T' /\ rsteps (mkr a 0 (pos s) T S C M) (bkr np t T' S C M)).
  { intros a1 Ha1 [w1 Hw1] Hcr. destruct (0 <? m) eqn:E0.
    - apply has_code_cons in Hcr. destruct Hcr as [H0 Hcr]. apply has_code_cons in Hcr. destruct Hcr as [H1 Hcr].
      apply has_code_cons in Hcr. destruct Hcr as [H2 _].
      replace (a + 1 + 1) with (a + 2) in H2 by lia. subst a1.
      destruct ((m <=? avail e o (pos s)) && (run_len e k c o (Z.to_nat m) (pos s) =? m)) eqn:Ec.
      + eapply rs_rep_ok with (m := m) (c := c); try exact tc_nonneg; try eassumption. lia.
      + destruct Hk as (np & T' & -> & w3 & Hw3). exists np, T', (pos s). split; [reflexivity|].
        eapply rs_rep_fail with (m := m) (c := c); try exact tc_nonneg; try eassumption. lia.
    - assert (m = 0) by lia. subst m. change (Z.to_nat 0) with 0%nat. cbn [run_len].
      replace (0 <=? avail e o (pos s)) with true by lia. cbn [andb Z.eqb].
      rewrite Z.mul_0_r, !Z.add_0_r in *. subst a1. apply rsteps_refl. }
  set (a1 := a + (if 0 <? m then 3 else 0)) in *.
  assert (Hsplit : (if 0 <? m then has_code a [rep_op k + bits_of o; c; m] else True) /\
                   has_code a1 (if m <? n then [loop_op k l + bits_of o; c; if n =? INF then INF else n - m] else [])).
  { apply has_code_app in Hc. destruct Hc as [Hc1 Hc2]. split.
    - destruct (0 <? m); [exact Hc1|exact I].
    - unfold a1. destruct (0 <? m); [exact Hc2|]. rewrite zlen_nil in Hc2. exact Hc2. }
  destruct Hsplit as [Hc1 Hc2].
  replace (a + ((if 0 <? m then 3 else 0) + (if m <? n then 3 else 0))) with (a1 + (if m <? n then 3 else 0)) in *
    by (unfold a1; lia).
  assert (Hex1 : code_ex a1).
  { eapply cc_code_ex_start; [exact Hc2|]. destruct (m <? n); [exact Hex|]. rewrite zlen_nil. exact Hex. }
  specialize (Hrep a1 eq_refl Hex1 Hc1).
  destruct ((m <=? avail e o (pos s)) && (run_len e k c o (Z.to_nat m) (pos s) =? m)) eqn:Ec.
  2:{ destruct Hrep as (np & T' & t & HT & Hs). eapply leadsR_fail; eassumption. }
  apply andb_prop in Ec. destruct Ec as [EcA EcR].
  eapply leadsR_pre; [exact Hrep|].
  destruct (clf_avail_shift e o (pos s) m Hp ltac:(lia)) as [HA1 Hp1].
  destruct (m <? n) eqn:Emn.
  - apply has_code_cons in Hc2. destruct Hc2 as [H0 Hc2]. apply has_code_cons in Hc2. destruct Hc2 as [H1 Hc2].
    apply has_code_cons in Hc2. destruct Hc2 as [H2 _]. replace (a1 + 1 + 1) with (a1 + 2) in H2 by lia.
    apply (cc_loop_res k o c (if n =? INF then INF else n - m) a1 (with_pos s (pos s + dir o * m)) T S C M);
      try assumption.
    destruct (n =? INF) eqn:E; unfold INF in *; lia.
  - rewrite Z.add_0_r. apply leadsR_leaf; [exact Hk|exact Hr|]. cbn [pos with_pos]. apply rsteps_refl.
Qed.

End CC.

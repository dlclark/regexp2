(* Proofs about Model/Parser.v, part 8: what the capture pre-scan (countCaptures + assignNameSlots) hands to
   the main pass and to the writer.
   - a generic invariant lemma for the pre-scan loop (any property of the capture tables kept by
     noteCaptureSlot / consumeAutocap / noteCaptureName is kept by countCaptures);
   - [cw]: the key list is strictly increasing, holds 0, its length is capcount, every key is below captop
     (unless captop has hit MaxInt32), every name of the name table is in the name list;
   - the finished table: Caps sorted / has 0 / below Captop, Capnumlist = Caps when sparse, every number held by
     Capnames is a key (what isCaptureName / captureSlotFromName hand to the main pass);
   - the pre-scan only adds keys. *)
From Coq Require Import ZifyBool.
From Verif Require Import Base.Prelude Gen.ParseLitGen Model.Escape Model.ParseLit Model.GroupMap Model.CharClass
  Model.Parser Proofs.ParseLitProofs Proofs.GMBase Proofs.ParserScan Proofs.ParserTree Proofs.ParserMain Proofs.ParserPre
  Proofs.ParserProofs Proofs.GMPrescan.

Section PreGen.
Variable is_word_char : Z -> bool.
Variable to_lower : Z -> Z.
Variable simple_fold : Z -> Z.
Variable cat_in : Z -> Z -> bool.
Variable cat_name : list Z -> Z.

Local Notation prescan_named := (prescan_named is_word_char).
Local Notation prescan_pyname := (prescan_pyname is_word_char).
Local Notation prescan_open := (prescan_open is_word_char).
Local Notation prescan_step := (prescan_step is_word_char to_lower simple_fold cat_in cat_name).
Local Notation prescan_loop := (prescan_loop is_word_char to_lower simple_fold cat_in cat_name).

Variable mco : bool.
Variable J : cstate -> Prop.
Hypothesis J_auto : forall c, J c -> J (note_auto c).
Hypothesis J_slot : mco = false -> forall c i, J c -> 0 <= i <= 2147483647 -> J (note_slot i c).
Hypothesis J_name : forall o s c c', J c -> note_name_pr mco o s c = POk c' -> J c'.

Lemma prescan_named_gen st1 p3 st' q : J (cs_c st1) -> prescan_named mco st1 p3 = POk (st', q) -> J (cs_c st').
Proof.
  intros Hc E. unfold Parser.prescan_named in E. destruct p3 as [|ch2 p4]; [discriminate|].
  destruct (useE (cs_o st1)).
  { destruct ((ch2 =? 61) || (ch2 =? 33) || (ch2 =? 48)); [inversion E; subst; exact Hc | discriminate]. }
  destruct (negb (ch2 =? 48) && is_word_char ch2); [|inversion E; subst; exact Hc].
  destruct ((49 <=? ch2) && (ch2 <=? 57)).
  - destruct (decimal (ch2 :: p4)) as [[dec q0]|e q0| | |] eqn:D; cbn [pbind] in E; try discriminate.
    pose proof (decimal_nonneg _ _ _ D) as NN.
    assert (LE : dec <= 2147483647).
    { unfold decimal, of_res in D. destruct (scan_decimal 0 (ch2 :: p4)) as [[v' r']|c|w|] eqn:SD; try discriminate.
      inversion D; subst. clear D.
      assert (G : forall p i v r, i <= 2147483647 -> scan_decimal i p = Ok (v, r) -> v <= 2147483647).
      { induction p as [|c p IH]; intros i v r Hi H; cbn [scan_decimal] in H; [inversion H; lia|].
        destruct ((c - 48 <? 0) || (9 <? c - 48)) eqn:E1; [inversion H; lia|].
        destruct ((214748364 <? i) || ((i =? 214748364) && (7 <? c - 48))) eqn:E2; [discriminate|].
        eapply IH; [|exact H]. lia. }
      eapply G; [|exact SD]. lia. }
    destruct mco eqn:Em.
    + destruct (note_name_pr true (cs_o st1) (itoa dec) (cs_c st1)) as [c'| | | |] eqn:N; cbn [pbind] in E; try discriminate.
      inversion E; subst. cbn. eapply J_name; [exact Hc | exact N].
    + inversion E; subst. cbn. apply J_slot; [first [exact Em | reflexivity | assumption] | exact Hc | lia].
  - destruct (scan_word is_word_char (ch2 :: p4)) as [nm q0].
    destruct (note_name_pr mco (cs_o st1) nm (cs_c st1)) as [c'| | | |] eqn:N; cbn [pbind] in E; try discriminate.
    inversion E; subst. cbn. eapply J_name; [exact Hc | exact N].
Qed.

Lemma prescan_pyname_gen st1 p3 st' q : J (cs_c st1) -> prescan_pyname mco st1 p3 = POk (st', q) -> J (cs_c st').
Proof.
  intros Hc E. unfold Parser.prescan_pyname in E. destruct p3 as [|ch2 p4]; [discriminate|].
  destruct (is_word_char ch2); [|inversion E; subst; exact Hc].
  destruct (useE (cs_o st1)); [discriminate|].
  destruct (scan_word is_word_char (ch2 :: p4)) as [nm q0].
  destruct (note_name_pr mco (cs_o st1) nm (cs_c st1)) as [c'| | | |] eqn:N; cbn [pbind] in E; try discriminate.
  inversion E; subst. cbn. eapply J_name; [exact Hc | exact N].
Qed.

Lemma prescan_open_gen st p p1 st' q : J (cs_c st) -> prescan_open mco st p p1 = POk (st', q) -> J (cs_c st').
Proof.
  intros Hc E. unfold Parser.prescan_open in E. cbv zeta in E. cbn [cs_c cs_o cs_os cs_ign] in E.
  destruct (starts_qhash p1).
  { destruct (ignore_err0 (scan_blank_full (cs_o st) p)) as [q0|e q0| | |]; cbn [pbind] in E; try discriminate.
    inversion E; subst. exact Hc. }
  destruct (hd_is p1 63).
  2:{ destruct (negb (useN (cs_o st)) && negb (cs_ign st)); inversion E; subst; cbn; [apply J_auto; exact Hc | exact Hc]. }
  destruct (longer (tl p1) 1 && (hd_is (tl p1) 60 || hd_is (tl p1) 39)).
  { eapply prescan_named_gen; [|exact E]. exact Hc. }
  destruct (useRE2 (cs_o st) && longer (tl p1) 2 && hd_is (tl p1) 80 && nth_is 1 (tl p1) 60).
  { eapply prescan_pyname_gen; [|exact E]. exact Hc. }
  destruct (scan_options_text (cs_o st) (tl p1)) as [o2 q0].
  cbn [cs_c cs_os cs_o cs_ign] in E.
  destruct (hd_is q0 41); [inversion E; subst; exact Hc|].
  destruct (hd_is q0 40); inversion E; subst; exact Hc.
Qed.

Lemma prescan_step_gen st ch p1 st' q : J (cs_c st) -> prescan_step mco st ch p1 = POk (st', q) -> J (cs_c st').
Proof.
  intros Hc E. unfold Parser.prescan_step in E.
  destruct (ch =? 92).
  { destruct p1 as [|c p2]; [inversion E; subst; exact Hc|].
    match type of E with pbind ?a _ = _ => destruct a as [q0|e q0| | |] end; cbn [pbind] in E; try discriminate.
    inversion E; subst. exact Hc. }
  destruct (ch =? 35).
  { destruct (useX (cs_o st)); [|inversion E; subst; exact Hc].
    match type of E with pbind ?a _ = _ => destruct a as [q0|e q0| | |] end; cbn [pbind] in E; try discriminate.
    inversion E; subst. exact Hc. }
  destruct (ch =? 91).
  { match type of E with pbind ?a _ = _ => destruct a as [q0|e q0| | |] end; cbn [pbind] in E; try discriminate.
    inversion E; subst. exact Hc. }
  destruct (ch =? 41).
  { destruct (cs_os st); inversion E; subst; exact Hc. }
  destruct (ch =? 40); [eapply prescan_open_gen; [exact Hc | exact E]|].
  inversion E; subst. exact Hc.
Qed.

Lemma prescan_loop_gen fuel : forall st p st', J (cs_c st) -> prescan_loop fuel mco st p = POk st' -> J (cs_c st').
Proof.
  induction fuel as [|f IH]; intros st p st' Hc E; cbn [Parser.prescan_loop] in E; [discriminate|].
  destruct p as [|ch p1]; [inversion E; subst; exact Hc|].
  destruct (prescan_step mco st ch p1) as [[st1 q]|e q| | |] eqn:S; cbn [pbind] in E; try discriminate.
  eapply IH; [|exact E]. eapply prescan_step_gen; [exact Hc | exact S].
Qed.

End PreGen.

(* ---------------------------------------------------------------- the capture tables stay well formed *)
Record cw (c : cstate) : Prop := mkCW {
  cw_sorted : ssorted (c_caps c);
  cw_zero : In 0 (c_caps c);
  cw_count : c_capcount c = zlen (c_caps c);
  cw_range : forall k, In k (c_caps c) -> 0 <= k /\ (c_captop c < maxint32 -> k < c_captop c);
  cw_keys : forall s, aget s (names_of c) <> None -> In s (c_capnamelist c);
  cw_auto : 1 <= c_autocap c;
  cw_low : forall j, 0 <= j < c_autocap c -> In j (c_caps c) }.

Lemma cw_init : cw c_init.
Proof.
  constructor; cbn.
  - constructor; constructor.
  - left; reflexivity.
  - reflexivity.
  - intros k [<-|[]]. unfold maxint32. lia.
  - intros s H. congruence.
  - lia.
  - intros j Hj. left. lia.
Qed.

Lemma note_slot_captop i c : c_captop c <= c_captop (note_slot i c) /\
  (c_captop (note_slot i c) < maxint32 -> i < c_captop (note_slot i c) \/ zmem i (c_caps c) = true).
Proof.
  unfold note_slot. destruct (zmem i (c_caps c)) eqn:E; cbn; [split; [lia | auto]|].
  destruct (c_captop c <=? i) eqn:E1; [|split; [lia | intros; left; lia]].
  destruct (i =? maxint32) eqn:E2; split; try lia; intros; left; lia.
Qed.

Lemma note_slot_cw i c : cw c -> 0 <= i -> cw (note_slot i c).
Proof.
  intros [S Z C R K A L] Hi.
  destruct (note_slot_fields i c) as [F1 [F2 F3]].
  constructor.
  - unfold note_slot. destruct (zmem i (c_caps c)); cbn; [exact S | apply caps_insert_sorted; exact S].
  - apply note_slot_caps. right. exact Z.
  - rewrite note_slot_count. unfold note_slot. destruct (zmem i (c_caps c)) eqn:E; cbn; [exact C|].
    unfold zlen in *. rewrite caps_insert_length; [lia|]. apply zmem_false. exact E.
  - intros k Hk. apply note_slot_caps in Hk. destruct (note_slot_captop i c) as [T1 T2].
    destruct Hk as [-> | Hk].
    + split; [exact Hi|]. intros HT. destruct (T2 HT) as [H|H]; [exact H|].
      apply zmem_In in H. destruct (R _ H) as [_ R2]. specialize (R2 ltac:(lia)). lia.
    + destruct (R _ Hk) as [R1 R2]. split; [exact R1|]. intros HT. specialize (R2 ltac:(lia)). lia.
  - unfold names_of in *. rewrite F2, F3. exact K.
  - rewrite F1. exact A.
  - rewrite F1. intros j Hj. apply note_slot_caps. right. apply L. exact Hj.
Qed.

Lemma note_slot_same_tables i c c' :
  c_caps c' = c_caps c -> c_captop c' = c_captop c -> c_capcount c' = c_capcount c ->
  c_caps (note_slot i c') = c_caps (note_slot i c) /\ c_captop (note_slot i c') = c_captop (note_slot i c) /\
  c_capcount (note_slot i c') = c_capcount (note_slot i c).
Proof.
  intros H1 H2 H3. unfold note_slot. rewrite H1. destruct (zmem i (c_caps c)); cbn; rewrite ?H1, ?H2, ?H3; auto.
Qed.

(* a state with the tables of [note_slot k c] and other autocap / names *)
Lemma cw_transport c c' :
  cw c -> c_caps c' = c_caps c -> c_captop c' = c_captop c -> c_capcount c' = c_capcount c ->
  (forall s, aget s (names_of c') <> None -> In s (c_capnamelist c')) ->
  1 <= c_autocap c' -> (forall j, 0 <= j < c_autocap c' -> In j (c_caps c')) -> cw c'.
Proof.
  intros [S Z C R K A L] H1 H2 H3 K' A' L'. constructor; rewrite ?H1, ?H2, ?H3; auto. rewrite <- H1. exact L'.
Qed.

Lemma note_auto_cw c : cw c -> cw (note_auto c).
Proof.
  intros W. pose proof W as [S Z C R K A L]. unfold note_auto.
  set (k := c_autocap c).
  set (c1 := mkC (k + 1) (c_caps c) (c_capcount c) (c_captop c) (c_capnames c) (c_capnamelist c)).
  destruct (note_slot_fields k c1) as [F1 [F2 F3]].
  destruct (note_slot_same_tables k c c1 eq_refl eq_refl eq_refl) as [T1 [T2 T3]].
  assert (W2 : cw (note_slot k c)) by (apply note_slot_cw; [exact W | subst k; lia]).
  apply (cw_transport (note_slot k c)); auto.
  - unfold names_of. rewrite F2, F3. exact K.
  - rewrite F1. cbn. subst k. lia.
  - rewrite F1. cbn. intros j Hj. apply note_slot_caps. destruct (Z.eq_dec j k) as [-> | Hne]; [left; reflexivity | right; apply L; subst k; lia].
Qed.

Lemma aget_aset_nonnone x s v m : aget x (aset s v m) <> None -> x = s \/ aget x m <> None.
Proof.
  intros H. destruct (aget x (aset s v m)) as [w|] eqn:E; [|congruence].
  apply aget_aset_cases in E. destruct E as [[-> _]|E]; [left; reflexivity | right; congruence].
Qed.

Lemma note_name_cw mco ecma s c c' : cw c -> note_name mco ecma s c = Ok c' -> cw c'.
Proof.
  intros W E. pose proof W as [S Z C R K A L]. unfold note_name in E.
  destruct (aget s (names_of c)) as [v|] eqn:Eg.
  - destruct ecma; [discriminate|]. inversion E; subst. constructor; cbn; auto;
      intros s0 H; apply K; unfold names_of in *; destruct (c_capnames c); exact H.
  - destruct mco.
    + inversion E; subst; clear E.
      set (k := c_autocap c).
      set (c1 := mkC (k + 1) (c_caps c) (c_capcount c) (c_captop c) (Some (aset s k (names_of c))) (c_capnamelist c)).
      assert (W2 : cw (note_slot k c)) by (apply note_slot_cw; [exact W | subst k; lia]).
      destruct (note_slot_fields k c1) as [F1 [F2 F3]].
      destruct (note_slot_same_tables k c c1 eq_refl eq_refl eq_refl) as [T1 [T2 T3]].
      apply (cw_transport (note_slot k c)); cbn; auto.
      * unfold names_of. cbn. rewrite F2, F3. cbn. intros s0 H. apply aget_aset_nonnone in H.
        apply in_or_app. destruct H as [-> | H]; [right; left; reflexivity | left; apply K; exact H].
      * rewrite F1. cbn. subst k. lia.
      * rewrite F1. cbn. intros j Hj. apply note_slot_caps. destruct (Z.eq_dec j k) as [-> | Hne]; [left; reflexivity | right; apply L; subst k; lia].
    + inversion E; subst. constructor; cbn; auto.
      unfold names_of. cbn. intros s0 H. apply aget_aset_nonnone in H.
      apply in_or_app. destruct H as [-> | H]; [right; left; reflexivity | left; apply K; exact H].
Qed.

Lemma note_name_pr_cw mco o s c c' : cw c -> note_name_pr mco o s c = POk c' -> cw c'.
Proof.
  intros W E. unfold note_name_pr in E. destruct (note_name mco (useE o) s c) as [c2| | |] eqn:N; try discriminate.
  inversion E; subst. eapply note_name_cw; eassumption.
Qed.

(* assignNameSlots, first loop *)
Lemma assign_names_cw names : forall c, cw c -> incl names (c_capnamelist c) ->
  cw (assign_names names c) /\ incl (c_caps c) (c_caps (assign_names names c)) /\
  c_capnamelist (assign_names names c) = c_capnamelist c /\
  (forall x v, aget x (names_of (assign_names names c)) = Some v ->
     In v (c_caps (assign_names names c)) \/ (~ In x names /\ aget x (names_of c) = Some v)).
Proof.
  induction names as [|s r IH]; intros c W I; cbn [assign_names].
  - split; [exact W|]. split; [apply incl_refl|]. split; [reflexivity|]. intros x v H. right. split; [intros []| exact H].
  - lazy zeta.
    destruct (next_free_spec (S (length (c_caps c))) (c_caps c) (c_autocap c)) as [N1 [N2 _]]. cbv zeta in N1, N2.
    set (a := next_free (S (length (c_caps c))) (c_caps c) (c_autocap c)) in *.
    pose proof W as [S Z C R K A L].
    set (c1 := mkC a (c_caps c) (c_capcount c) (c_captop c) (Some (aset s a (names_of c))) (c_capnamelist c)).
    destruct (note_slot_fields a c1) as [F1 [F2 F3]].
    assert (W2 : cw (note_slot a c)) by (apply note_slot_cw; [exact W | lia]).
    set (c2 := note_slot a c1) in *.
    set (c3 := mkC (a + 1) (c_caps c2) (c_capcount c2) (c_captop c2) (c_capnames c2) (c_capnamelist c2)).
    destruct (note_slot_same_tables a c c1 eq_refl eq_refl eq_refl) as [T1 [T2 T3]].
    assert (W3 : cw c3).
    { apply (cw_transport (note_slot a c)); cbn [c3 c_caps c_captop c_capcount c_autocap c_capnames c_capnamelist]; auto.
      - unfold names_of. cbn [c3 c_capnames c_capnamelist]. rewrite F2, F3. cbn [c1 c_capnames c_capnamelist]. intros s0 H. apply aget_aset_nonnone in H.
        destruct H as [-> | H]; [apply I; left; reflexivity | apply K; exact H].
      - lia.
      - intros j Hj. apply note_slot_caps. cbn [c1 c_caps].
        destruct (Z.eq_dec j a) as [-> | Hne]; [left; reflexivity | right].
        destruct (Z_lt_le_dec j (c_autocap c)); [apply L; lia | apply N2; lia]. }
    destruct (IH c3 W3) as [R1 [R2 [R3 R4]]].
    { cbn. rewrite F3. cbn. intros x Hx. apply I. right. exact Hx. }
    split; [exact R1|]. split.
    { intros x Hx. apply R2. cbn. apply note_slot_caps. right. exact Hx. }
    split; [rewrite R3; cbn; rewrite F3; reflexivity|].
    intros x v Hx. destruct (R4 x v Hx) as [H|[H1 H2]]; [left; exact H|].
    unfold names_of in H2. cbn in H2. rewrite F2 in H2. cbn in H2.
    destruct (list_eq_dec Z.eq_dec x s) as [-> | Hne].
    + rewrite aget_aset_same in H2. inversion H2; subst v. left. apply R2. cbn. apply note_slot_caps. left. reflexivity.
    + rewrite aget_aset_other in H2 by exact Hne. right. split; [|exact H2]. intros [<- | Hin]; [congruence | contradiction].
Qed.

Record tbl_ok (tb : ptree) : Prop := mkTK {
  tk_sorted : ssorted (t_caps tb);
  tk_zero : In 0 (t_caps tb);
  tk_nonneg : forall k, In k (t_caps tb) -> 0 <= k;
  tk_below : t_captop tb < maxint32 -> forall k, In k (t_caps tb) -> k < t_captop tb;
  tk_numlist : t_capnumlist tb = if zlen (t_caps tb) <? t_captop tb then Some (t_caps tb) else None;
  tk_vals : t_captop tb < maxint32 -> vals_ok tb }.

Lemma capnumlist_cw c : cw c -> capnumlist_of c = if zlen (c_caps c) <? c_captop c then Some (c_caps c) else None.
Proof. intros W. unfold capnumlist_of. rewrite (cw_count _ W). reflexivity. Qed.

(* no gap below captop when the table counts as dense *)
Lemma cw_dense c : cw c -> c_captop c < maxint32 -> capnumlist_of c = None -> c_caps c = zrange (c_capcount c).
Proof.
  intros W HT HN. pose proof W as [S Z C R K A L]. unfold capnumlist_of in HN.
  destruct (c_capcount c <? c_captop c) eqn:E; [discriminate|].
  assert (B : forall x, In x (c_caps c) -> 0 <= x < c_captop c) by (intros x Hx; destruct (R x Hx) as [R1 R2]; specialize (R2 HT); lia).
  pose proof (ssorted_length_bound (c_caps c) 0 (c_captop c) S B) as LB.
  pose proof (B 0 Z) as B0. unfold zlen in C. assert (c_capcount c = c_captop c) by lia.
  apply ssorted_dense; [exact S | intros x Hx; rewrite H; apply B; exact Hx | lia].
Qed.

Lemma cw_table c : cw c ->
  forall nl names lst, nl = capnumlist_of c ->
  (c_captop c < maxint32 -> match names with Some m => forall s k, aget s m = Some k -> In k (c_caps c) | None => True end) ->
  tbl_ok (mkT (c_caps c) nl (c_captop c) names lst).
Proof.
  intros W nl names lst -> V. pose proof W as [S Z C R K A L].
  constructor; cbn; auto.
  - intros k Hk. apply R. exact Hk.
  - intros HT k Hk. apply R; assumption.
  - apply capnumlist_cw. exact W.
Qed.

Section Table.
Variable is_word_char : Z -> bool.
Variable to_lower : Z -> Z.
Variable simple_fold : Z -> Z.
Variable participates : Z -> bool.
Variable cat_in : Z -> Z -> bool.
Variable cat_name : list Z -> Z.

Local Notation prescan_loop := (prescan_loop is_word_char to_lower simple_fold cat_in cat_name).
Local Notation count_captures := (count_captures is_word_char to_lower simple_fold cat_in cat_name).

Lemma prescan_loop_cw mco fuel st p st' : cw (cs_c st) -> prescan_loop fuel mco st p = POk st' -> cw (cs_c st').
Proof.
  apply (prescan_loop_gen is_word_char to_lower simple_fold cat_in cat_name mco cw).
  - apply note_auto_cw.
  - intros _ c i W Hi. apply note_slot_cw; [exact W | lia].
  - intros o s c c'. apply note_name_pr_cw.
Qed.

Theorem count_captures_table mco o p tb : count_captures mco o p = POk tb ->
  tbl_ok tb /\
  exists stF, prescan_loop (S (length p)) mco (mkCS c_init o [] false) p = POk stF /\
              incl (c_caps (cs_c stF)) (t_caps tb) /\ cw (cs_c stF) /\
              (mco = true -> forall s v, aget s (names_of (cs_c stF)) = Some v ->
                 exists m, t_capnames tb = Some m /\ aget s m = Some v).
Proof.
  unfold Parser.count_captures. intros E.
  destruct (prescan_loop (S (length p)) mco (mkCS c_init o [] false) p) as [st| | | |] eqn:EL; cbn [pbind] in E; try discriminate.
  pose proof (prescan_loop_cw mco (S (length p)) (mkCS c_init o [] false) p st cw_init EL) as W.
  pose proof (prescan_loop_ok is_word_char to_lower simple_fold participates cat_in cat_name mco (S (length p)) (mkCS c_init o [] false) p (cinv_init mco) ltac:(lia)) as CI.
  rewrite EL in CI. set (c := cs_c st) in *.
  assert (GOAL : tbl_ok tb /\ incl (c_caps c) (t_caps tb) /\
                 (mco = true -> forall s v, aget s (names_of c) = Some v -> exists m, t_capnames tb = Some m /\ aget s m = Some v));
    [|destruct GOAL as [G1 [G2 G3]]; split; [exact G1 | exists st; auto]].
  destruct mco.
  - (* assignOrderedNameSlots: the key list is 0 .. autocap-1 *)
    destruct CI as [A N M D]. destruct (D eq_refl) as [D1 [D2 [D3 D4]]].
    assert (NL : capnumlist_of c = None).
    { unfold capnumlist_of. destruct (c_capcount c <? c_captop c) eqn:E1; [lia | reflexivity]. }
    assert (JS : forall v, In v (zrange (c_capcount c)) -> In v (c_caps c)).
    { intros v Hv. apply zrange_In in Hv. apply D3. lia. }
    unfold of_res, assign_ordered in E. rewrite NL in E.
    destruct (c_capnames c) as [m|] eqn:Em.
    + destruct (place_names (c_capnamelist c) None m (repeat [] (Z.to_nat (c_capcount c)))) as [l1| | |]; cbn [bind] in E; try discriminate.
      destruct (fill_ordered (useE o) (zrange (c_capcount c)) l1 m) as [l2 m2] eqn:Ef. inversion E; subst tb.
      split; [|split; [cbn; apply incl_refl|]].
      2:{ intros _ s v Hs. exists m2. split; [reflexivity|]. eapply fill_ordered_mono; [exact Ef|]. unfold names_of in Hs. rewrite Em in Hs. exact Hs. }
      apply cw_table; [exact W | symmetry; exact NL|].
      intros _ s k Hk. destruct (fill_ordered_vals _ _ _ _ _ _ Ef s k Hk) as [H1|H1]; [|apply JS; exact H1].
      apply D3. assert (H : aget s (names_of c) = Some k) by (unfold names_of; rewrite Em; exact H1). specialize (D4 _ _ H). lia.
    + destruct (negb (useE o) && (c_capcount c =? c_captop c)).
      { inversion E; subst tb. split; [|split; [cbn; apply incl_refl|]]; [apply cw_table; [exact W | symmetry; exact NL | auto]|].
        intros _ s v Hs. unfold names_of in Hs. rewrite Em in Hs. discriminate. }
      destruct (place_names (c_capnamelist c) None [] (repeat [] (Z.to_nat (c_capcount c)))) as [l1| | |]; cbn [bind] in E; try discriminate.
      destruct (fill_ordered (useE o) (zrange (c_capcount c)) l1 []) as [l2 m2] eqn:Ef. inversion E; subst tb.
      split; [|split; [cbn; apply incl_refl|]].
      2:{ intros _ s v Hs. unfold names_of in Hs. rewrite Em in Hs. discriminate. }
      apply cw_table; [exact W | symmetry; exact NL|].
      intros _ s k Hk. destruct (fill_ordered_vals _ _ _ _ _ _ Ef s k Hk) as [H1|H1]; [discriminate | apply JS; exact H1].
  - (* assignNameSlots *)
    unfold of_res, assign_default in E.
    set (c1 := match c_capnames c with Some _ => assign_names (c_capnamelist c) c | None => c end) in *.
    assert (W1 : cw c1 /\ incl (c_caps c) (c_caps c1) /\
                 (forall x v, aget x (names_of c1) = Some v -> In v (c_caps c1))).
    { subst c1. destruct (c_capnames c) as [m0|] eqn:Em0.
      - destruct (assign_names_cw (c_capnamelist c) c W (incl_refl _)) as [R1 [R2 [R3 R4]]].
        split; [exact R1|]. split; [exact R2|]. intros x v Hx. destruct (R4 x v Hx) as [H|[H1 H2]]; [exact H|].
        exfalso. apply H1. apply (cw_keys _ W). congruence.
      - split; [exact W|]. split; [apply incl_refl|]. intros x v Hx. unfold names_of in Hx. rewrite Em0 in Hx. discriminate. }
    destruct W1 as [W1 [I1 V1]].
    assert (JS : c_captop c1 < maxint32 -> forall v,
              In v (match capnumlist_of c1 with Some l => l | None => zrange (c_capcount c1) end) -> In v (c_caps c1)).
    { intros HT v Hv. destruct (capnumlist_of c1) as [l|] eqn:En.
      - unfold capnumlist_of in En. destruct (c_capcount c1 <? c_captop c1); [|discriminate]. inversion En; subst l. exact Hv.
      - rewrite (cw_dense c1 W1 HT En). exact Hv. }
    assert (FIN : forall names lst, (c_captop c1 < maxint32 -> match names with Some m => forall s k, aget s m = Some k -> In k (c_caps c1) | None => True end) ->
              tbl_ok (mkT (c_caps c1) (capnumlist_of c1) (c_captop c1) names lst) /\ incl (c_caps c) (t_caps (mkT (c_caps c1) (capnumlist_of c1) (c_captop c1) names lst)) /\
              (false = true -> forall s v, aget s (names_of c) = Some v ->
                 exists m, t_capnames (mkT (c_caps c1) (capnumlist_of c1) (c_captop c1) names lst) = Some m /\ aget s m = Some v)).
    { intros names lst V. split; [apply cw_table; auto | split; [exact I1 | intros HH; discriminate]]. }
    destruct (c_capnames c1) as [m1|] eqn:Em1.
    + assert (V1' : forall s v, aget s m1 = Some v -> In v (c_caps c1)).
      { intros s v Hv. apply (V1 s v). unfold names_of. rewrite Em1. exact Hv. }
      destruct (capnumlist_of c1) as [nl|] eqn:Enl.
      * destruct (c_capnamelist c1) as [|s0 r0]; cbn [bind] in E; [discriminate|].
        destruct (merge_names nl (s0 :: r0) (aget0 s0 m1) m1) as [[l m']| | |] eqn:Emg; cbn [bind] in E; try discriminate.
        inversion E; subst tb. apply FIN. intros HT s k Hk.
        destruct (merge_vals _ _ _ _ _ _ Emg s k Hk) as [H1|H1]; [eauto | apply (JS HT); exact H1].
      * destruct (c_capnamelist c1) as [|s0 r0]; cbn [bind] in E; [discriminate|].
        destruct (merge_names (zrange (c_capcount c1)) (s0 :: r0) (aget0 s0 m1) m1) as [[l m']| | |] eqn:Emg; cbn [bind] in E; try discriminate.
        inversion E; subst tb. apply FIN. intros HT s k Hk.
        destruct (merge_vals _ _ _ _ _ _ Emg s k Hk) as [H1|H1]; [eauto | apply (JS HT); exact H1].
    + destruct (capnumlist_of c1) as [nl|] eqn:Enl.
      * cbn [bind] in E. destruct (merge_names nl [] (-1) []) as [[l m']| | |] eqn:Emg; cbn [bind] in E; try discriminate.
        inversion E; subst tb. apply FIN. intros HT s k Hk.
        destruct (merge_vals _ _ _ _ _ _ Emg s k Hk) as [H1|H1]; [discriminate | apply (JS HT); exact H1].
      * inversion E; subst tb. apply FIN. auto.
Qed.

End Table.

(* ---------------------------------------------------------------- ECMAScript: no group names in the fragment *)
Section NoNames.
Variable is_word_char : Z -> bool.
Variable to_lower : Z -> Z.
Variable simple_fold : Z -> Z.
Variable cat_in : Z -> Z -> bool.
Variable cat_name : list Z -> Z.

Local Notation prescan_step := (prescan_step is_word_char to_lower simple_fold cat_in cat_name).
Local Notation prescan_loop := (prescan_loop is_word_char to_lower simple_fold cat_in cat_name).
Local Notation count_captures := (count_captures is_word_char to_lower simple_fold cat_in cat_name).

(* the ECMAScript bit is set in the current option word and in every stacked one *)
Definition Eall (cs : cst) : Prop := useE (cs_o cs) = true /\ Forall (fun o => useE o = true) (cs_os cs).

(* no names, and the group numbers are exactly 0 .. autocap-1 *)
Definition EN (c : cstate) : Prop :=
  c_capnames c = None /\ c_capcount c = c_autocap c /\ c_captop c <= c_autocap c /\ (forall j, In j (c_caps c) -> j < c_autocap c).

Lemma note_auto_EN c : EN c -> EN (note_auto c).
Proof.
  intros [N [C [T L]]]. unfold note_auto.
  set (k := c_autocap c).
  set (c1 := mkC (k + 1) (c_caps c) (c_capcount c) (c_captop c) (c_capnames c) (c_capnamelist c)).
  destruct (note_slot_fields k c1) as [F1 [F2 F3]].
  assert (Z : zmem k (c_caps c1) = false).
  { destruct (zmem k (c_caps c1)) eqn:E; [|reflexivity]. apply zmem_In in E. apply L in E. subst k. lia. }
  unfold EN. rewrite F1, F2. split; [exact N|].
  split; [|split].
  - unfold note_slot. rewrite Z. cbn. subst k. lia.
  - unfold note_slot. rewrite Z. cbn. fold k. destruct (c_captop c <=? k) eqn:E; [destruct (k =? maxint32); lia | lia].
  - intros j Hj. apply note_slot_caps in Hj. cbn. destruct Hj as [-> | Hj]; [lia | apply L in Hj; fold k in Hj; lia].
Qed.

Lemma prescan_step_E mco cs ch p1 cs' q : Eall cs -> EN (cs_c cs) ->
  prescan_step mco cs ch p1 = POk (cs', q) -> Eall cs' /\ EN (cs_c cs').
Proof.
  intros [E1 E2] N H. unfold Parser.prescan_step in H.
  assert (SAME : forall q0, POk (cs, q0) = POk (cs', q) -> Eall cs' /\ EN (cs_c cs')).
  { intros q0 HH. inversion HH; subst. split; [split; assumption | exact N]. }
  destruct (ch =? 92).
  { destruct p1 as [|c p2]; [eapply SAME; exact H|].
    match type of H with pbind ?a _ = _ => destruct a as [q0|e q0| | |] end; cbn [pbind] in H; try discriminate. eapply SAME; exact H. }
  destruct (ch =? 35).
  { destruct (useX (cs_o cs)); [|eapply SAME; exact H].
    match type of H with pbind ?a _ = _ => destruct a as [q0|e q0| | |] end; cbn [pbind] in H; try discriminate. eapply SAME; exact H. }
  destruct (ch =? 91).
  { match type of H with pbind ?a _ = _ => destruct a as [q0|e q0| | |] end; cbn [pbind] in H; try discriminate. eapply SAME; exact H. }
  destruct (ch =? 41).
  { destruct (cs_os cs) as [|o' r] eqn:EO; [eapply SAME; exact H|]. inversion H; subst. cbn.
    inversion E2; subst. split; [split; assumption | exact N]. }
  destruct (ch =? 40); [|eapply SAME; exact H].
  unfold Parser.prescan_open in H. cbv zeta in H. cbn [cs_c cs_o cs_os cs_ign] in H.
  assert (PUSH : Forall (fun o => useE o = true) (cs_o cs :: cs_os cs)) by (constructor; assumption).
  destruct (starts_qhash p1).
  { destruct (ignore_err0 (scan_blank_full (cs_o cs) (ch :: p1))) as [q0|e q0| | |]; cbn [pbind] in H; try discriminate.
    inversion H; subst. cbn. split; [split; assumption | exact N]. }
  destruct (hd_is p1 63).
  2:{ destruct (negb (useN (cs_o cs)) && negb (cs_ign cs)); inversion H; subst; cbn [cs_c cs_o cs_os]; (split; [split; assumption|]); [apply note_auto_EN; exact N | exact N]. }
  destruct (longer (tl p1) 1 && (hd_is (tl p1) 60 || hd_is (tl p1) 39)).
  { unfold Parser.prescan_named in H. destruct (tl (tl p1)) as [|ch2 p4]; [discriminate|]. cbn [cs_o] in H. rewrite E1 in H.
    destruct ((ch2 =? 61) || (ch2 =? 33) || (ch2 =? 48)); [|discriminate]. inversion H; subst. cbn. split; [split; assumption | exact N]. }
  destruct (useRE2 (cs_o cs) && longer (tl p1) 2 && hd_is (tl p1) 80 && nth_is 1 (tl p1) 60).
  { unfold Parser.prescan_pyname in H. destruct (skipn 2 (tl p1)) as [|ch2 p4]; [discriminate|].
    destruct (is_word_char ch2); [cbn [cs_o] in H; rewrite E1 in H; discriminate|]. inversion H; subst. cbn. split; [split; assumption | exact N]. }
  destruct (scan_options_text (cs_o cs) (tl p1)) as [o2 q0] eqn:EO.
  destruct (inline_options_keep_top_bits _ _ _ _ EO) as [_ [KE _]].
  cbn [cs_c cs_os cs_o cs_ign] in H.
  assert (E1' : useE o2 = true) by congruence.
  destruct (hd_is q0 41); [inversion H; subst; cbn [cs_c cs_o cs_os]; split; [split; assumption | exact N]|].
  destruct (hd_is q0 40); inversion H; subst; cbn [cs_c cs_o cs_os]; (split; [split; assumption | exact N]).
Qed.

Lemma prescan_loop_E mco fuel : forall cs p cs', Eall cs -> EN (cs_c cs) ->
  prescan_loop fuel mco cs p = POk cs' -> EN (cs_c cs').
Proof.
  induction fuel as [|f IH]; intros cs p cs' E N H; cbn [Parser.prescan_loop] in H; [discriminate|].
  destruct p as [|ch p1]; [inversion H; subst; exact N|].
  destruct (prescan_step mco cs ch p1) as [[st1 q]|e q| | |] eqn:S; cbn [pbind] in H; try discriminate.
  destruct (prescan_step_E mco cs ch p1 st1 q E N S) as [E' N']. eapply IH; eassumption.
Qed.

Lemma EN_init : EN c_init.
Proof. unfold EN, c_init. cbn. split; [reflexivity|]. split; [reflexivity|]. split; [lia|]. intros j [<- | []]. lia. Qed.

Lemma fill_ordered_ecma_map js : forall l m, snd (fill_ordered true js l m) = m.
Proof.
  induction js as [|j js IH]; intros l m; cbn [fill_ordered]; [reflexivity|].
  destruct l as [|s l']; [reflexivity|]. specialize (IH l' m). destruct (fill_ordered true js l' m). cbn [snd] in *. exact IH.
Qed.

Theorem count_captures_nonames mco o p tb : useE o = true ->
  count_captures mco o p = POk tb -> no_names tb = true.
Proof.
  intros HE E. unfold Parser.count_captures in E.
  destruct (prescan_loop (S (length p)) mco (mkCS c_init o [] false) p) as [st| | | |] eqn:EL; cbn [pbind] in E; try discriminate.
  pose proof (prescan_loop_E mco (S (length p)) (mkCS c_init o [] false) p st ltac:(split; [exact HE | constructor]) EN_init EL) as [N [C [T L]]].
  destruct mco.
  - unfold of_res, assign_ordered in E. rewrite N, HE in E. cbn [negb andb] in E.
    destruct (place_names (c_capnamelist (cs_c st)) (capnumlist_of (cs_c st)) [] (repeat [] (Z.to_nat (c_capcount (cs_c st))))) as [l1| | |]; cbn [bind] in E; try discriminate.
    pose proof (fill_ordered_ecma_map (match capnumlist_of (cs_c st) with Some l => l | None => zrange (c_capcount (cs_c st)) end) l1 []) as FM.
    destruct (fill_ordered true (match capnumlist_of (cs_c st) with Some l => l | None => zrange (c_capcount (cs_c st)) end) l1 []) as [l2 m2].
    cbn [snd] in FM. subst m2. inversion E; subst. reflexivity.
  - unfold of_res, assign_default in E. rewrite N in E. cbv zeta in E. rewrite N in E.
    unfold capnumlist_of in E. replace (c_capcount (cs_c st) <? c_captop (cs_c st)) with false in E by (symmetry; apply Z.ltb_ge; lia).
    inversion E; subst. reflexivity.
Qed.

End NoNames.

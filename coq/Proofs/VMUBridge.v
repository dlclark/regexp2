(* The link between the interpreter with its real, finite stack capacities (VM.step / VM.run /
   VM.exec_at, limit = -1) and the unbounded-stack view [ustep] used by compile_correct:
   every real step that succeeds is a ustep.  Hence a successful real run is a [usteps] path
   ending in a Done step, and since [ustep] is a function that path is THE path. *)
From Verif Require Import Base.Prelude Model.Tree Model.Spec Model.VM Gen.RunnerGen
  Proofs.VMLimitProofs Proofs.VMLimitSimProofs Proofs.VMU.
From Coq Require Import Relations ZifyBool.

Definition same (s1 s2 : vm) : Prop :=
  pc s1 = pc s2 /\ mode s1 = mode s2 /\ tp s1 = tp s2 /\ track s1 = track s2 /\
  stack s1 = stack s2 /\ crawl s1 = crawl s2 /\ mcaps s1 = mcaps s2.

Definition out_same (o1 o2 : outcome) : Prop :=
  match o1, o2 with
  | Next a, Next b => same a b
  | Done a, Done b => same a b
  | Fail c, Fail c' => c = c'
  | Crashed w, Crashed w' => w = w'
  | _, _ => False
  end.

(* only the successful left side matters *)
Definition relU {A} (R : A -> A -> Prop) (r1 r2 : res A) : Prop :=
  match r1 with Ok a => exists b, r2 = Ok b /\ R a b | _ => True end.

Lemma relU_bind {A B} (R : A -> A -> Prop) (Q : B -> B -> Prop) r1 r2 k1 k2 :
  relU R r1 r2 -> (forall a b, R a b -> relU Q (k1 a) (k2 b)) -> relU Q (bind r1 k1) (bind r2 k2).
Proof.
  intros H K. destruct r1 as [a| | |]; cbn [bind relU]; try exact I.
  destruct H as [b [-> Hab]]. cbn [bind]. apply K. exact Hab.
Qed.

Section Bridge.
Variable e : env.
Variable p : program.
Hypothesis tc_nonneg : 0 <= trackcount p.

Definition need : Z := trackcount p * G_ensure_factor.
Definition roomy (k : Z) (s : vm) : Prop :=
  zlen (track s) + need + k <= tcap s /\ zlen (stack s) + need + k <= scap s.

Lemma u_ensure s1 s2 : same s1 s2 -> roomy 0 s2 ->
  relU same (ensure_storage p (-1) s1) (ensure_storage p (-1) s2).
Proof.
  intros HS [HT HK]. unfold relU.
  destruct (ensure_storage p (-1) s1) as [a| | |] eqn:E1; try exact I.
  exists s2. split; [apply ensure_ok; unfold need in *; lia|].
  apply ensure_storage_ok in E1. destruct E1 as (tc' & _ & ->). unfold same, with_caps in *. vm_cbn. exact HS.
Qed.

Lemma u_goto s1 s2 a : same s1 s2 -> roomy 0 s2 ->
  relU out_same (cont (goto p (-1) s1 a)) (cont (goto p (-1) s2 a)).
Proof.
  intros HS HR. unfold cont, goto.
  assert (Hpc : pc s1 = pc s2) by (unfold same in HS; tauto). rewrite <- Hpc.
  apply relU_bind with (R := same); [|intros x y Hxy; cbn [relU]; eexists; split; [reflexivity|exact Hxy]].
  apply relU_bind with (R := same).
  - destruct (a <=? pc s1); [apply u_ensure; assumption|cbn [relU]; eexists; split; [reflexivity|exact HS]].
  - intros x y Hxy. destruct (code_at p a); cbn [relU]; [|exact I].
    eexists; split; [reflexivity|]. unfold same in *. vm_cbn. tauto.
Qed.

Lemma u_adv s1 s2 i : same s1 s2 ->
  relU out_same (cont (advance p s1 i)) (cont (advance p s2 i)).
Proof.
  intros HS. unfold cont, advance.
  assert (Hpc : pc s1 = pc s2) by (unfold same in HS; tauto). rewrite <- Hpc.
  destruct (code_at p (pc s1 + i + 1)); cbn [bind relU]; [|exact I].
  eexists; split; [reflexivity|]. cbn [out_same]. unfold same in *. vm_cbn. tauto.
Qed.

Lemma u_brk s1 s2 : same s1 s2 -> roomy 0 s2 ->
  relU out_same (brk p (-1) s1) (brk p (-1) s2).
Proof.
  intros HS [HT HK]. unfold brk.
  apply relU_bind with (R := same); [|intros x y Hxy; cbn [relU]; eexists; split; [reflexivity|exact Hxy]].
  unfold backtrack. unfold same in HS. destruct HS as (Hpc & Hmd & Htp & Htr & Hst & Hcr & Hmc).
  rewrite <- Htr, <- Hpc.
  destruct (track s1) as [|np t] eqn:Et; [exact I|].
  destruct (if np <? 0 then (- np, Back2Bit) else (np, BackBit)) as [newpos m].
  destruct (code_at p newpos); [|exact I].
  apply relU_bind with (R := same).
  - assert (HS1 : same (set_track s1 t) (set_track s2 t)) by (unfold same; vm_cbn; tauto).
    destruct (newpos <? pc s1); [|cbn [relU]; eexists; split; [reflexivity|exact HS1]].
    apply u_ensure; [exact HS1|]. unfold roomy. vm_cbn. rewrite <- Htr, zlen_cons in HT.
    pose proof (zlen_nonneg t). lia.
  - intros x y Hxy. cbn [relU]. eexists; split; [reflexivity|]. unfold same in *. vm_cbn. tauto.
Qed.

Lemma same_caps s1 s2 : same s1 s2 -> s2 = with_caps s1 (tcap s2) (scap s2).
Proof.
  destruct s1, s2. unfold same. vm_cbn. intros (-> & -> & -> & -> & -> & -> & ->). reflexivity.
Qed.

Lemma same_with_caps a tc sc : same a (with_caps a tc sc).
Proof. unfold same, with_caps. vm_cbn. repeat split. Qed.

(* the plan of the step succeeds on the left; the right has room for everything a plan can push *)
Lemma step_u s1 s2 :
  same s1 s2 -> roomy 16 s2 -> relU out_same (step e p (-1) s1) (step e p (-1) s2).
Proof.
  intros HS [HT HK]. destruct (code_at p (pc s1)) as [w|] eqn:Hw; [|rewrite step_no_code by exact Hw; exact I].
  destruct (step_plan2 e p s1 s2 w Hw (same_caps _ _ HS)) as (us & x & (Hkt & Hks & _) & Hs).
  destruct (Hs (-1) (-1)) as [-> ->]. rewrite !exec_bind.
  destruct (run_uops us s1) as [a| | |] eqn:E; cbn [bind]; try exact I.
  pose proof (op_pushes_le (Z.land w 63)) as H4.
  assert (Hn : 0 <= need) by (unfold need, G_ensure_factor; lia).
  pose proof HS as (_ & _ & _ & Htr & Hst & _). rewrite <- Htr in HT. rewrite <- Hst in HK.
  pose proof (uops_fit us s1 a (tcap s2) (scap s2) E ltac:(lia) ltac:(lia)) as F.
  rewrite <- (same_caps _ _ HS) in F. rewrite F. cbn [bind].
  apply uops_sizes in E. destruct E as (_ & _ & _ & Et & Es).
  assert (HR : roomy 0 (with_caps a (tcap s2) (scap s2))) by (unfold roomy, with_caps; vm_cbn; lia).
  pose proof (same_with_caps a (tcap s2) (scap s2)) as HS'.
  destruct x; cbn [run_exit relU].
  - apply u_adv. exact HS'.
  - apply u_goto; assumption.
  - apply u_brk; assumption.
  - eexists. split; [reflexivity|exact HS'].
  - exact I.
Qed.

Lemma same_norm a b : same a b -> norm a = norm b.
Proof.
  unfold same, norm. intros (H1 & H2 & H3 & H4 & H5 & H6 & H7). rewrite H1, H2, H3, H4, H5, H6, H7. reflexivity.
Qed.

Lemma same_repad s : same s (repad p (norm s)).
Proof. unfold same, repad, norm, VMU.mk. vm_cbn. repeat split. Qed.

Lemma roomy_repad s : roomy 16 (repad p (norm s)).
Proof. unfold roomy, repad, norm, VMU.mk, pad, need. vm_cbn. lia. Qed.

Lemma step_is_ustep s o : step e p (-1) s = Ok o ->
  match o with
  | Next s' => ustep e p (norm s) = Ok (Next (norm s'))
  | Done s' => ustep e p (norm s) = Ok (Done (norm s'))
  | _ => True
  end.
Proof.
  intros H. pose proof (step_u s (repad p (norm s)) (same_repad s) (roomy_repad s)) as G.
  rewrite H in G. cbn [relU] in G. destruct G as [o2 [E2 Ho]].
  unfold ustep. rewrite E2.
  destruct o as [a|a|c|w], o2 as [b|b|c'|w']; cbn [out_same] in Ho; try contradiction; try exact I.
  - rewrite (same_norm a b Ho). reflexivity.
  - rewrite (same_norm a b Ho). reflexivity.
Qed.

Lemma run_steps_usteps k : forall s s' b, run_steps e p (-1) k s = Ok (s', b) ->
  if b then exists sd, usteps e p (norm s) (norm sd) /\ ustep e p (norm sd) = Ok (Done (norm s'))
  else usteps e p (norm s) (norm s').
Proof.
  induction k as [|k IH]; intros s s' b H; cbn [run_steps] in H.
  - injection H as <- <-. apply usteps_refl.
  - destruct (step e p (-1) s) as [o| | |] eqn:E; try discriminate.
    pose proof (step_is_ustep s o E) as G.
    destruct o as [a|a|c|w]; try discriminate.
    + specialize (IH a s' b H). destruct b.
      * destruct IH as [sd [H1 H2]]. exists sd. split; [|exact H2].
        eapply usteps_step; [exact G|exact H1].
      * eapply usteps_step; [exact G|exact IH].
    + injection H as <- <-. exists s. split; [apply usteps_refl|exact G].
Qed.

Lemma run_usteps fuel : forall s s', run e p (-1) fuel s = Ok s' ->
  exists sd, usteps e p (norm s) (norm sd) /\ ustep e p (norm sd) = Ok (Done (norm s')).
Proof.
  induction fuel as [|f IH]; intros s s' H; cbn [run] in H; [discriminate|].
  destruct (run_steps e p (-1) 1000 s) as [[s1 b]| | |] eqn:E; try discriminate. cbn [bind fst snd] in H.
  pose proof (run_steps_usteps 1000 s s1 b E) as G. destruct b.
  - injection H as <-. exact G.
  - destruct (IH s1 s' H) as [sd [H1 H2]]. exists sd. split; [|exact H2].
    eapply usteps_trans; eassumption.
Qed.

Lemma goto_norm L s n s' : goto p L s n = Ok s' ->
  norm s' = VMU.mk n 0 (tp s) (track s) (stack s) (crawl s) (mcaps s).
Proof.
  unfold goto. intros H.
  assert (He : forall s1, ensure_storage p L s = Ok s1 -> norm s1 = norm s).
  { intros s1 H1. apply ensure_storage_ok in H1. destruct H1 as (tc' & _ & ->). reflexivity. }
  destruct (n <=? pc s).
  - destruct (ensure_storage p L s) as [s1| | |] eqn:E; try discriminate. cbn [bind] in H.
    destruct (code_at p n); [|discriminate]. injection H as <-.
    specialize (He s1 eq_refl). unfold norm, VMU.mk in *. vm_cbn. injection He as _ _ -> -> -> -> ->. reflexivity.
  - cbn [bind] in H. destruct (code_at p n); [|discriminate]. injection H as <-. reflexivity.
Qed.

Lemma exec_at_usteps fuel t s' : exec_at e p (-1) fuel t = Ok s' ->
  exists sd, usteps e p (VMU.mk 0 0 t [] [] [] (repeat [] (Z.to_nat (capsize p)))) (norm sd) /\
             ustep e p (norm sd) = Ok (Done (norm s')).
Proof.
  unfold exec_at. intros H.
  destruct (goto p (-1) (init_vm p (-1) t) 0) as [s0| | |] eqn:E; try discriminate. cbn [bind] in H.
  apply goto_norm in E. cbn [init_vm tp track stack crawl mcaps] in E.
  destruct (run_usteps fuel s0 s' H) as [sd [H1 H2]]. exists sd. rewrite <- E. split; assumption.
Qed.

(* [ustep] is a function: the path to a Done step is unique *)
Lemma usteps_done_unique a b b' c c' :
  usteps e p a b -> ustep e p b = Ok (Done b') -> usteps e p a c -> ustep e p c = Ok (Done c') ->
  b = c /\ b' = c'.
Proof.
  intros H1 Hb H2 Hc. apply clos_rt_rt1n in H1. apply clos_rt_rt1n in H2.
  revert c c' H2 Hc. induction H1 as [a|a a1 b Ha H1 IH]; intros c c' H2 Hc.
  - inversion H2; subst.
    + rewrite Hb in Hc. injection Hc as <-. split; reflexivity.
    + match goal with H : ustep1 _ _ a _ |- _ => unfold ustep1 in H; rewrite Hb in H; discriminate end.
  - inversion H2; subst.
    + unfold ustep1 in Ha. rewrite Hc in Ha. discriminate.
    + match goal with H : ustep1 _ _ a ?y |- _ =>
        unfold ustep1 in Ha, H; rewrite Ha in H; injection H as <- end.
      apply IH; assumption.
Qed.

End Bridge.

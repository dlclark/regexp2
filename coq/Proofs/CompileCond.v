(* compile_correct for the conditionals NBackRefCond (Testref) and NExprCond. *)
From Verif Require Import Base.Prelude Model.Tree Model.Spec Model.VM Model.Writer Gen.RunnerGen
  Proofs.SpecProofs Proofs.SpecBoundsProofs Proofs.MaskProofs
  Proofs.VMU Proofs.VMUOps Proofs.VMUOps2 Proofs.VMUOps6 Proofs.CompileBase Proofs.CompileDefs Proofs.CompileStage4.
From Coq Require Import Relations ZifyBool.

Section CC.
Variable e : env.
Variable p : program.
Hypothesis tc_nonneg : 0 <= trackcount p.
Variable R : caps_t -> list (list Z) -> Prop.
Hypothesis HR : caps_view e p R.

Notation rsteps := (VMUOps2.rsteps e p).
Notation leadsR := (CompileBase.leadsR e p R).
Notation has_code := (CompileBase.has_code p).
Notation track_ok := (CompileBase.track_ok p).
Notation code_ex := (CompileDefs.code_ex p).
Notation tbl_ok := (CompileDefs.tbl_ok p).
Notation ok_nodeR := (CompileDefs.ok_nodeR e p R).

Definition ok_opt (f : nat) (no : option node) : Prop :=
  match no with Some x => ok_nodeR f x | None => True end.

(* the "else" part: the optional node [no] placed at [an], entered over a Forejump frame *)
Lemma cc_else f no an pcF tbl cn t2 s res T Sk C M :
  ok_opt f no ->
  (match no with Some x => emit cfg0 x an tbl | None => ([], tbl) end) = (cn, t2) ->
  has_code an cn -> tbl_ok t2 ->
  code_ex (an + match no with Some x => csize cfg0 x | None => 0 end) ->
  (match no with Some x => sem e f x s | None => Ok [s] end) = Ok res -> st_ok e s ->
  code_at p pcF = Some Forejump -> track_ok T -> R (caps s) M ->
  leadsR (an + match no with Some x => csize cfg0 x | None => 0 end) T Sk Sk C M
         (mkr an 0 (pos s) (pcF :: zlen C :: T) Sk C M) res.
Proof.
  intros Hok En Hcn Htb Hex Hsem Hst HF Hk Hr. pose proof (code_at_nonneg p _ _ HF) as HpF.
  destruct no as [x|].
  - eapply cc_over_forejump with (pcF := pcF) (C' := []) (M' := M); try eassumption; [reflexivity|].
    cbn [app]. apply (Hok s res Hsem Hst an tbl (pcF :: zlen C :: T) Sk C M).
    + rewrite En. exact Hcn.
    + exact Hex.
    + eapply track_ok_cons. rewrite Z.abs_eq by lia. exact HF.
    + exact Hr.
    + rewrite En. exact Htb.
  - injection Hsem as <-. rewrite Z.add_0_r.
    eapply cc_forejump_result with (pcF := pcF) (C' := []) (M' := M); try eassumption; try reflexivity.
    apply rsteps_refl.
Qed.

Lemma cc_backrefcond f o g yes no :
  ok_nodeR f yes -> ok_opt f no -> 0 <= g < capsize p ->
  ok_nodeR (S f) (NBackRefCond o g yes no).
Proof.
  intros Hoky Hokn Hg s res Hsem Hst a tbl T S0 C M Hc Hex Hk Hr Htb.
  cbn [sem] in Hsem.
  cbn [emit csize] in Hc, Hex, Htb |- *.
  unfold map_capnum in Hc. cbn [capmap cfg0] in Hc. replace (g =? -1) with false in Hc by lia.
  pose proof (emit_length cfg0 yes (a + 6) tbl) as Ly.
  pose proof (emit_tbl_ext cfg0 yes (a + 6) tbl) as Exty.
  destruct (emit cfg0 yes (a + 6) tbl) as [cy t1] eqn:Ey. cbn [fst snd] in Ly, Exty. rewrite Ly in Hc, Htb.
  set (ln := a + 6 + csize cfg0 yes + 2) in *.
  assert (Ln : zlen (fst (match no with Some x => emit cfg0 x (ln + 1) t1 | None => ([], t1) end)) =
               match no with Some x => csize cfg0 x | None => 0 end)
    by (destruct no; [apply emit_length|reflexivity]).
  assert (Extn : tbl_ext t1 (snd (match no with Some x => emit cfg0 x (ln + 1) t1 | None => ([], t1) end)))
    by (destruct no; [apply emit_tbl_ext|apply tbl_ext_refl]).
  destruct (match no with Some x => emit cfg0 x (ln + 1) t1 | None => ([], t1) end) as [cn t2] eqn:En.
  cbn [fst snd] in Ln, Extn, Hc, Htb. rewrite Ln in Hc.
  set (sn := match no with Some x => csize cfg0 x | None => 0 end) in *.
  cbn [app] in Hc.
  apply has_code_cons in Hc. destruct Hc as [H0 Hc]. apply has_code_cons in Hc. destruct Hc as [H1 Hc].
  apply has_code_cons in Hc. destruct Hc as [H2 Hc]. apply has_code_cons in Hc. destruct Hc as [H3 Hc].
  apply has_code_cons in Hc. destruct Hc as [H4 Hc]. apply has_code_cons in Hc. destruct Hc as [H5 Hc].
  replace (a + 1 + 1) with (a + 1 + 1) in H2 by lia.
  replace (a + 1 + 1 + 1) with (a + 3) in * by lia.
  replace (a + 3 + 1) with (a + 3 + 1) in H4 by lia.
  replace (a + 3 + 1 + 1) with (a + 5) in * by lia.
  replace (a + 5 + 1) with (a + 6) in * by lia.
  apply has_code_app in Hc. destruct Hc as [Hcy Hc]. rewrite Ly in Hc.
  apply has_code_cons in Hc. destruct Hc as [Hg0 Hc]. apply has_code_cons in Hc. destruct Hc as [Hg1 Hc].
  apply has_code_cons in Hc. destruct Hc as [HF2 Hcn].
  replace (a + 6 + csize cfg0 yes + 1 + 1) with ln in * by (unfold ln; lia).
  set (my := a + 6 + csize cfg0 yes) in *.
  replace (a + (6 + csize cfg0 yes + 2 + 1 + sn)) with (ln + 1 + sn) in * by (unfold ln, my; lia).
  pose proof (code_at_nonneg p _ _ H0) as Ha.
  pose proof Hk as (np' & T3 & HT3 & w3 & Hw3).
  pose proof Hst as [Hp Hcs].
  set (S1 := zlen C :: zlen T + 1 :: S0).
  assert (Hexy : code_ex (a + 6)) by (eapply cc_code_ex_start; [exact Hcy|]; rewrite Ly; exists Goto; exact Hg0).
  destruct Hexy as [wy Hwy].
  assert (Hexn : code_ex (ln + 1)) by (eapply cc_code_ex_start; [exact Hcn|]; rewrite Ln; exact Hex).
  destruct Hexn as [wn Hwn].
  pose proof Hex as [wx Hwx].
  (* prelude: Setjump ; Lazybranch ln *)
  eapply leadsR_pre.
  { eapply rsteps_trans; [eapply rs_setjump; try exact tc_nonneg; eassumption|].
    eapply rs_lazybranch; try exact tc_nonneg; try eassumption.
    replace (a + 1 + 2) with (a + 3) by lia. exact H3. }
  replace (a + 1 + 2) with (a + 3) by lia. fold S1.
  pose proof (cv_matched _ _ _ HR (caps s) M g Hr Hg Hcs) as Hm.
  destruct (is_matched g (caps s)) eqn:Em.
  - (* the group is set: Forejump, then the "yes" branch *)
    eapply leadsR_pre.
    { eapply rsteps_trans; [eapply rs_testref_ok; try exact tc_nonneg; try eassumption|].
      - replace (a + 3 + 2) with (a + 5) by lia. exact H5.
      - replace (a + 3 + 2) with (a + 5) by lia.
        change (a + 1 :: pos s :: a :: T) with ([a + 1; pos s; a] ++ T).
        eapply rs_forejump; try exact tc_nonneg; try eassumption.
        replace (a + 5 + 1) with (a + 6) by lia. exact Hwy. }
    replace (a + 5 + 1) with (a + 6) by lia.
    eapply cc_over_forejump with (pcF := a + 5) (C' := []) (M' := M); try eassumption; [reflexivity|].
    cbn [app].
    eapply leadsR_exit_map with (m := my).
    { intros t T0 C0 M0. eapply rs_goto; try exact tc_nonneg; eassumption. }
    apply (Hoky s res Hsem Hst (a + 6) tbl (a + 5 :: zlen C :: T) S0 C M).
    + rewrite Ey. exact Hcy.
    + exists Goto. exact Hg0.
    + eapply track_ok_cons. rewrite Z.abs_eq by lia. exact H5.
    + exact Hr.
    + rewrite Ey. cbn [snd]. eapply tbl_ok_ext; eassumption.
  - (* not set: backtrack into the Lazybranch, Forejump at ln, then the "no" branch *)
    eapply leadsR_pre.
    { eapply rsteps_trans.
      { eapply rs_testref_fail; try exact tc_nonneg; try eassumption. rewrite Z.abs_eq by lia. exact H1. }
      rewrite bkr_pos by lia.
      eapply rsteps_trans; [eapply rs_lazybranch_back; try exact tc_nonneg; eassumption|].
      change (a :: T) with ([a] ++ T).
      eapply rs_forejump; try exact tc_nonneg; eassumption. }
    eapply cc_else with (no := no) (tbl := t1); try eassumption.
Qed.

Lemma cc_exprcond f o c yes no :
  ok_nodeR f c -> loops_min_ok c -> ok_nodeR f yes -> ok_opt f no ->
  ok_nodeR (S f) (NExprCond o c yes no).
Proof.
  intros Hokc Hsc Hoky Hokn s res Hsem Hst a tbl T S0 C M Hc Hex Hk Hr Htb.
  cbn [sem] in Hsem. apply sp_bind_ok in Hsem. destruct Hsem as (l1 & Hl1 & Hsem).
  apply sp_first_only_ok in Hl1. destruct Hl1 as (l0 & Hl0 & ->).
  cbn [emit csize] in Hc, Hex, Htb |- *.
  pose proof (emit_length cfg0 c (a + 4) tbl) as Lc.
  pose proof (emit_tbl_ext cfg0 c (a + 4) tbl) as Extc.
  destruct (emit cfg0 c (a + 4) tbl) as [cc t1] eqn:Ec. cbn [fst snd] in Lc, Extc. rewrite Lc in Hc, Htb.
  set (ay := a + 4 + csize cfg0 c + 2) in *.
  pose proof (emit_length cfg0 yes ay t1) as Ly.
  pose proof (emit_tbl_ext cfg0 yes ay t1) as Exty.
  destruct (emit cfg0 yes ay t1) as [cy t2] eqn:Ey. cbn [fst snd] in Ly, Exty. rewrite Ly in Hc, Htb.
  set (ln := ay + csize cfg0 yes + 2) in *.
  assert (Ln : zlen (fst (match no with Some x => emit cfg0 x (ln + 2) t2 | None => ([], t2) end)) =
               match no with Some x => csize cfg0 x | None => 0 end)
    by (destruct no; [apply emit_length|reflexivity]).
  assert (Extn : tbl_ext t2 (snd (match no with Some x => emit cfg0 x (ln + 2) t2 | None => ([], t2) end)))
    by (destruct no; [apply emit_tbl_ext|apply tbl_ext_refl]).
  destruct (match no with Some x => emit cfg0 x (ln + 2) t2 | None => ([], t2) end) as [cn t3] eqn:En.
  cbn [fst snd] in Ln, Extn, Hc, Htb. rewrite Ln in Hc.
  set (sn := match no with Some x => csize cfg0 x | None => 0 end) in *.
  cbn [app] in Hc.
  apply has_code_cons in Hc. destruct Hc as [H0 Hc]. apply has_code_cons in Hc. destruct Hc as [H1 Hc].
  apply has_code_cons in Hc. destruct Hc as [H2 Hc]. apply has_code_cons in Hc. destruct Hc as [H3 Hc].
  replace (a + 1 + 1) with (a + 2) in * by lia. replace (a + 2 + 1 + 1) with (a + 4) in * by lia.
  apply has_code_app in Hc. destruct Hc as [Hcc Hc]. rewrite Lc in Hc.
  set (mc := a + 4 + csize cfg0 c) in *.
  apply has_code_cons in Hc. destruct Hc as [HG1 Hc]. apply has_code_cons in Hc. destruct Hc as [HF1 Hc].
  replace (mc + 1 + 1) with ay in * by (unfold ay, mc; lia).
  apply has_code_app in Hc. destruct Hc as [Hcy Hc]. rewrite Ly in Hc.
  set (my := ay + csize cfg0 yes) in *.
  apply has_code_cons in Hc. destruct Hc as [Hg0 Hc]. apply has_code_cons in Hc. destruct Hc as [Hg1 Hc].
  replace (my + 1 + 1) with ln in * by (unfold ln, my; lia).
  apply has_code_cons in Hc. destruct Hc as [HG2 Hc]. apply has_code_cons in Hc. destruct Hc as [HF2 Hcn].
  replace (ln + 1 + 1) with (ln + 2) in * by lia.
  replace (a + (4 + csize cfg0 c + 2 + csize cfg0 yes + 2 + 2 + sn)) with (ln + 2 + sn) in *
    by (unfold ln, my, ay, mc; lia).
  pose proof (code_at_nonneg p _ _ H0) as Ha.
  pose proof Hk as (np' & T3 & HT3 & w3 & Hw3).
  pose proof Hst as [Hp Hcs].
  set (S1 := zlen C :: zlen T + 1 :: S0).
  assert (Hexc : code_ex (a + 4)).
  { eapply cc_code_ex_start; [exact Hcc|]. rewrite Lc. exists Getmark. exact HG1. }
  destruct Hexc as [wc Hwc].
  assert (Hexy : code_ex ay) by (eapply cc_code_ex_start; [exact Hcy|]; rewrite Ly; exists Goto; exact Hg0).
  destruct Hexy as [wy Hwy].
  assert (Hexn : code_ex (ln + 2)) by (eapply cc_code_ex_start; [exact Hcn|]; rewrite Ln; exact Hex).
  destruct Hexn as [wn Hwn].
  pose proof Hex as [wx Hwx].
  set (T1 := a + 2 :: pos s :: a + 1 :: a :: T).
  assert (G : leadsR mc T1 (pos s :: S1) (pos s :: S1) C M (mkr (a + 4) 0 (pos s) T1 (pos s :: S1) C M) l0).
  { apply (Hokc s l0 Hl0 Hst (a + 4) tbl T1 (pos s :: S1) C M).
    - rewrite Ec. exact Hcc.
    - exists Getmark. exact HG1.
    - eapply track_ok_cons. rewrite Z.abs_eq by lia. exact H2.
    - exact Hr.
    - rewrite Ec. cbn [snd]. eapply tbl_ok_ext; [exact Exty|]. eapply tbl_ok_ext; eassumption. }
  (* prelude: Setjump ; Setmark ; Lazybranch ln *)
  eapply leadsR_pre.
  { eapply rsteps_trans; [eapply rs_setjump; try exact tc_nonneg; eassumption|].
    eapply rsteps_trans.
    { eapply rs_setmark; try exact tc_nonneg; try eassumption. replace (a + 1 + 1) with (a + 2) by lia. exact H2. }
    replace (a + 1 + 1) with (a + 2) by lia.
    eapply rs_lazybranch; try exact tc_nonneg; try eassumption.
    replace (a + 2 + 2) with (a + 4) by lia. exact Hwc. }
  replace (a + 2 + 2) with (a + 4) by lia. fold S1. fold T1.
  destruct l0 as [|q l0].
  - (* the condition fails: Lazybranch back, Getmark, Forejump at ln, then "no" *)
    cbn [leadsR] in G. destruct G as (np & T' & t & HT & Hs). unfold T1 in HT. injection HT as <- <-.
    rewrite bkr_pos in Hs by lia.
    eapply leadsR_pre.
    { eapply rsteps_trans; [exact Hs|].
      eapply rsteps_trans; [eapply rs_lazybranch_back; try exact tc_nonneg; eassumption|].
      eapply rsteps_trans; [eapply rs_getmark; try exact tc_nonneg; eassumption|].
      change (ln :: pos s :: a + 1 :: a :: T) with ([ln; pos s; a + 1; a] ++ T).
      replace (ln + 2) with (ln + 1 + 1) by lia.
      eapply rs_forejump; try exact tc_nonneg; try eassumption.
      replace (ln + 1 + 1) with (ln + 2) by lia. exact Hwn. }
    replace (ln + 1 + 1) with (ln + 2) by lia.
    eapply cc_else with (no := no) (tbl := t2); try eassumption.
  - (* the condition succeeds with q: Getmark, Forejump, then "yes" with q's captures *)
    cbn [leadsR] in G. destruct G as (T' & C' & M' & Hcq & Hu & Hkq & Hs & _).
    assert (Hstq : st_ok e q) by (eapply cc_res_ok_in; [exact Hsc|exact Hl0|exact Hst|left; reflexivity]).
    assert (Hstq' : st_ok e (with_pos q (pos s))) by (destruct Hstq as [_ Hq]; split; [exact Hp|exact Hq]).
    eapply leadsR_pre.
    { eapply rsteps_trans; [exact Hs|].
      eapply rsteps_trans; [eapply rs_getmark; try exact tc_nonneg; eassumption|].
      replace (mc :: pos s :: T' ++ T1) with ((mc :: pos s :: T' ++ [a + 2; pos s; a + 1; a]) ++ T)
        by (unfold T1; cbn [app]; rewrite <- app_assoc; reflexivity).
      eapply rs_forejump; try exact tc_nonneg; try eassumption.
      replace (mc + 1 + 1) with ay by (unfold ay, mc; lia). exact Hwy. }
    replace (mc + 1 + 1) with ay by (unfold ay, mc; lia).
    eapply cc_over_forejump with (pcF := mc + 1) (C' := C') (M' := M'); try eassumption.
    eapply leadsR_exit_map with (m := my).
    { intros t T0 C0 M0. eapply rs_goto; try exact tc_nonneg; eassumption. }
    pose proof (code_at_nonneg p _ _ HF1) as HpF.
    apply (Hoky (with_pos q (pos s)) res Hsem Hstq' ay t1 (mc + 1 :: zlen C :: T) S0 (C' ++ C) M').
    + rewrite Ey. exact Hcy.
    + exists Goto. exact Hg0.
    + eapply track_ok_cons. rewrite Z.abs_eq by lia. exact HF1.
    + exact Hcq.
    + rewrite Ey. cbn [snd]. eapply tbl_ok_ext; eassumption.
Qed.

End CC.

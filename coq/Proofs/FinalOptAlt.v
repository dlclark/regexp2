(* C05, proofs part 6b: reduceAtomic's treatment of an alternation directly inside an atomic group (tree.go:612-707,
   Model/FinalOpt.fo_trim / fo_key / fo_reorder): the branches after an Empty branch are dropped (same FIRST result),
   the branches that start with a literal character are regrouped by that character inside each range of such
   branches (EVERY result kept: from a given state only the branches whose first character is the next character
   of the text can match at all, and their relative order is kept). *)
From Verif Require Import Base.Prelude Gen.ParseLitGen Model.Tree Model.Spec Model.Rewrite Model.ParseLit Model.CharClass Model.Parser
  Model.FinalOpt
  Proofs.SpecProofs Proofs.SpecBoundsProofs Proofs.SpecTermProofs Proofs.RewriteProofs
  Proofs.FinalOptDen Proofs.FinalOptK Proofs.FinalOptLink Proofs.FinalOptLeaf Proofs.FinalOptWalk Proofs.FinalOptAtomic.
From Coq Require Import ZifyBool Permutation.

Lemma fa_partition_filter {A} (f : A -> bool) l : partition f l = (filter f l, filter (fun x => negb (f x)) l).
Proof.
  induction l as [|a l IH]; cbn [partition filter]; [reflexivity|]. rewrite IH. destruct (f a); reflexivity.
Qed.
Lemma fa_filter_perm {A} (f : A -> bool) l : Permutation (filter f l ++ filter (fun x => negb (f x)) l) l.
Proof.
  induction l as [|a l IH]; cbn [filter]; [constructor|]. destruct (f a); cbn [negb app].
  - constructor. exact IH.
  - eapply Permutation_trans; [apply Permutation_sym, Permutation_middle|]. constructor. exact IH.
Qed.
Lemma fa_filter_sub {A} (f g : A -> bool) l : (forall x, f x = true -> g x = true) -> filter f (filter g l) = filter f l.
Proof.
  intros H. induction l as [|a l IH]; cbn [filter]; [reflexivity|].
  destruct (g a) eqn:Eg; cbn [filter]; [rewrite IH; reflexivity|].
  destruct (f a) eqn:Ef; [rewrite (H a Ef) in Eg; discriminate | exact IH].
Qed.
Lemma fa_filter_excl {A} (f g : A -> bool) l : (forall x, f x = true -> g x = false) -> filter f (filter g l) = [].
Proof.
  intros H. induction l as [|a l IH]; cbn [filter]; [reflexivity|].
  destruct (g a) eqn:Eg; cbn [filter]; [|exact IH].
  destruct (f a) eqn:Ef; [rewrite (H a Ef) in Eg; discriminate | exact IH].
Qed.
Lemma fa_filter_all {A} (f : A -> bool) l : Forall (fun x => f x = true) l -> filter f l = l.
Proof. induction 1 as [|a l Ha _ IH]; cbn [filter]; [reflexivity|]. rewrite Ha, IH. reflexivity. Qed.
Lemma fa_flat_map_map {A B C} (g : A -> B) (f : B -> list C) l : flat_map f (map g l) = flat_map (fun x => f (g x)) l.
Proof. induction l as [|a l IH]; cbn [map flat_map]; [reflexivity|]. rewrite IH. reflexivity. Qed.

Definition kf (d : Z) (p : Z * rnode) : bool := fst p =? d.

Lemma span_eq_spec c l :
  l = fst (fo_span_eq c l) ++ snd (fo_span_eq c l) /\ Forall (fun p => kf c p = true) (fst (fo_span_eq c l)) /\
  (forall x r, snd (fo_span_eq c l) = x :: r -> kf c x = false).
Proof.
  induction l as [|[c' x] l IH]; cbn [fo_span_eq].
  - cbn. split; [reflexivity|]. split; [constructor|]. intros; discriminate.
  - destruct (c' =? c) eqn:Ec.
    + destruct (fo_span_eq c l) as [a b]. cbn [fst snd] in *. destruct IH as (H1 & H2 & H3).
      split; [cbn [app]; rewrite <- H1; reflexivity|]. split; [constructor; [exact Ec | exact H2] | exact H3].
    + cbn [fst snd app]. split; [reflexivity|]. split; [constructor|]. intros y r E. injection E as <- _. exact Ec.
Qed.

Lemma reorder_run_S f r :
  fo_reorder_run (S f) r =
  match r with
  | [] => ([], false)
  | (c, _) :: _ =>
      match snd (fo_span_eq c r) with
      | [] => (fst (fo_span_eq c r), false)
      | x :: r'' =>
          (fst (fo_span_eq c r) ++ filter (kf c) r'' ++ fst (fo_reorder_run f (x :: filter (fun p => negb (kf c p)) r'')),
           negb (fo_is_nil (filter (kf c) r'')) || snd (fo_reorder_run f (x :: filter (fun p => negb (kf c p)) r'')))
      end
  end.
Proof.
  cbn [fo_reorder_run]. destruct r as [|[c y] r0]; [reflexivity|].
  destruct (fo_span_eq c ((c, y) :: r0)) as [s r']. cbn [fst snd]. destruct r' as [|x r'']; [reflexivity|].
  change (fun p : Z * rnode => fst p =? c) with (kf c). rewrite fa_partition_filter.
  destruct (fo_reorder_run f (x :: filter (fun p => negb (kf c p)) r'')) as [rest b]. reflexivity.
Qed.

Lemma reorder_run_filter : forall f r d, filter (kf d) (fst (fo_reorder_run f r)) = filter (kf d) r.
Proof.
  induction f as [|f IH]; intros r d; [reflexivity|]. rewrite reorder_run_S.
  destruct r as [|[c y] r0]; [reflexivity|].
  destruct (span_eq_spec c ((c, y) :: r0)) as (Hr & Hs & Hx).
  destruct (snd (fo_span_eq c ((c, y) :: r0))) as [|x r''] eqn:Er'.
  - cbn [fst]. rewrite Hr at 2. rewrite app_nil_r. reflexivity.
  - cbn [fst]. rewrite Hr at 2. rewrite !filter_app, IH. f_equal.
    specialize (Hx x r'' eq_refl).
    destruct (d =? c) eqn:Edc.
    + assert (d = c) by lia. subst d.
      rewrite (fa_filter_sub (kf c) (kf c)) by auto.
      cbn [filter]. rewrite Hx.
      rewrite (fa_filter_excl (kf c) (fun p => negb (kf c p))) by (intros p ->; reflexivity).
      rewrite app_nil_r. reflexivity.
    + rewrite (fa_filter_excl (kf d) (kf c)) by (intros p Hp; unfold kf in *; lia).
      cbn [app filter].
      rewrite (fa_filter_sub (kf d) (fun p => negb (kf c p))) by (intros p Hp; unfold kf in *; lia).
      reflexivity.
Qed.

Lemma reorder_run_perm : forall f r, Permutation (fst (fo_reorder_run f r)) r.
Proof.
  induction f as [|f IH]; intros r; [apply Permutation_refl|]. rewrite reorder_run_S.
  destruct r as [|[c y] r0]; [constructor|].
  destruct (span_eq_spec c ((c, y) :: r0)) as (Hr & _ & _).
  destruct (snd (fo_span_eq c ((c, y) :: r0))) as [|x r''] eqn:Er'.
  - cbn [fst]. rewrite Hr at 2. rewrite app_nil_r. apply Permutation_refl.
  - cbn [fst]. rewrite Hr at 2. apply Permutation_app_head.
    eapply Permutation_trans; [apply Permutation_app_head; apply IH|].
    eapply Permutation_trans; [apply Permutation_sym, Permutation_middle|]. constructor. apply fa_filter_perm.
Qed.

Lemma take_run_spec l :
  l = map (fun p : Z * rnode => (Some (fst p), snd p)) (fst (fo_take_run l)) ++ snd (fo_take_run l) /\
  (forall k x r, snd (fo_take_run l) = (k, x) :: r -> k = None).
Proof.
  induction l as [|[[c|] x] l IH]; cbn [fo_take_run].
  - cbn. split; [reflexivity | intros; discriminate].
  - destruct (fo_take_run l) as [a b]. cbn [fst snd map app] in *. destruct IH as [H1 H2]. split; [rewrite <- H1; reflexivity | exact H2].
  - cbn [fst snd map app]. split; [reflexivity|]. intros k y r E. injection E as <- _ _. reflexivity.
Qed.

Section Alt.
Variable cat_in : Z -> Z -> bool.
Variables isw isew : Z -> bool.
Variable sid : cls -> Z.
Variable e : env.
Variable sets : list cls.
Hypothesis Henv : env_ok cat_in isw isew sid e sets.

Notation den := (den e).
Notation tr := (tr sid).
Notation node_ok := (node_ok sets).

(* an alternation keeps its shape facts with any two or more branches *)
Lemma node_ok_set_kids_alt x ks : node_ok x -> n_t x = T_Alternate -> (2 <= length ks)%nat -> Forall node_ok ks -> node_ok (set_kids x ks).
Proof.
  intros [Hwf Hs] Ht Hlen Hks. destruct x as [t o ch m n str st kids]. cbn [set_kids n_kids n_t] in *. subst t. split.
  - rewrite fo_wf_unfold in Hwf |- *. cbn [n_t n_kids n_set n_m n_n n_str n_o] in *.
    repeat (apply andb_prop in Hwf; destruct Hwf as [Hwf ?]).
    repeat (apply andb_true_intro; split); try assumption.
    + change (Nat.leb 2 (length ks) = true). apply Nat.leb_le. exact Hlen.
    + apply forallb_forall. intros k Hk. rewrite Forall_forall in Hks. exact (proj1 (Hks k Hk)).
  - cbn [FinalOptLeaf.sets_in] in Hs |- *. destruct Hs as [Hs0' _]. split; [exact Hs0'|].
    clear -Hks. induction Hks as [|k ks [_ Hk] _ IH]; [exact I | split; [exact Hk | exact IH]].
Qed.

(* ---- 631-636: the branches after an Empty that is neither the first nor the last branch *)
Lemma trim_from_spec r :
  fo_trim_from r = r \/
  exists pre E post, r = pre ++ E :: post /\ n_t E = T_Empty /\ post <> [] /\ fo_trim_from r = pre ++ [E].
Proof.
  induction r as [|x r IH]; [left; reflexivity|]. cbn [fo_trim_from].
  destruct ((n_t x =? T_Empty) && negb (fo_is_nil r)) eqn:E1.
  - right. exists [], x, r. apply andb_prop in E1. destruct E1 as [E1 E2].
    split; [reflexivity|]. split; [lia|]. split; [destruct r; [cbn in E2; discriminate E2 | intros E; discriminate E] | reflexivity].
  - destruct IH as [-> | (pre & E & post & -> & H1 & H2 & H3)]; [left; reflexivity|].
    right. exists (x :: pre), E, post. rewrite H3. repeat split; assumption.
Qed.

Lemma trim_hrefines o l : rw_hrefines e (NAlternate o (map tr l)) (NAlternate o (map tr (fo_trim l))).
Proof.
  destruct l as [|b0 r]; [apply rw_hrefines_refl|]. cbn [fo_trim].
  destruct (trim_from_spec r) as [-> | (pre & E & post & -> & Ht & _ & ->)]; [apply rw_hrefines_refl|].
  cbn [map]. rewrite !map_app. cbn [map]. rewrite (tr_empty sid E Ht).
  apply (trim_after_empty e o (tr b0 :: map tr pre) (map tr post)).
Qed.

Lemma trim_ok l : Forall node_ok l -> (2 <= length l)%nat -> Forall node_ok (fo_trim l) /\ (2 <= length (fo_trim l))%nat.
Proof.
  intros Hl Hlen. destruct l as [|b0 r]; [cbn in Hlen; lia|]. cbn [fo_trim]. inversion Hl as [|? ? Hb0 Hr]; subst.
  destruct (trim_from_spec r) as [-> | (pre & E & post & -> & _ & _ & ->)]; [split; assumption|].
  apply Forall_app in Hr. destruct Hr as [Hpre HE]. inversion HE; subst. split.
  - constructor; [exact Hb0|]. apply Forall_app. split; [exact Hpre | constructor; [assumption|constructor]].
  - cbn [length]. rewrite app_length. cbn. lia.
Qed.

(* ---- findBranchOneOrMultiStart / FirstCharOfOneOrMulti: a branch with key c has no result from a state whose
   next character is not c *)
Definition key_spec (c : Z) (x : rnode) : Prop := forall a, (char_at e (pos a) =? c) = false -> den (tr x) a = [].

Lemma lead_dead b c : node_ok b -> (n_t b = T_One \/ n_t b = T_Multi) -> useRTL (n_o b) = false ->
  fo_first_char b = Ok c -> key_spec c b.
Proof.
  intros [Hwf Hs] Ht Hl Hc a Ha. unfold fo_first_char in Hc. destruct Ht as [Ht|Ht].
  - assert (H1 : is_one_family (n_t b) = true) by (rewrite Ht; reflexivity). rewrite H1 in Hc. injection Hc as <-.
    apply (dead_fam cat_in isw isew sid e sets Henv b); try assumption.
    + unfold fam. rewrite H1. reflexivity.
    + left. left. unfold T_One in Ht. exact Ht.
    + rewrite (rtest_k cat_in COne b _ H1). exact Ha.
  - assert (H1 : is_one_family (n_t b) = false) by (rewrite Ht; reflexivity). rewrite H1 in Hc.
    destruct (n_str b) as [|c0 rest] eqn:Estr; [discriminate|]. injection Hc as <-.
    apply (dead_multi sid e b c0 rest); assumption.
Qed.

Lemma key_ok strict x c y : Z.testbit strict 3 = true -> node_ok x -> fo_key strict x = Ok (Some c, y) -> y = x /\ key_spec c x.
Proof.
  intros Hs3 Hok H. unfold fo_key, fo_fbs in H. rewrite Hs3 in H. cbn [andb] in H.
  assert (Hlead : forall b, (if (n_t b =? T_One) || (n_t b =? T_Multi) then Some b else None) = Some b ->
            n_t b = T_One \/ n_t b = T_Multi) by (intros b Hb; destruct ((n_t b =? T_One) || (n_t b =? T_Multi)) eqn:E; [lia|discriminate]).
  destruct (n_t x =? T_Concatenate) eqn:Econ.
  - destruct (n_kids x) as [|b ks] eqn:Ek; [discriminate|]. cbn [bind] in H.
    destruct ((n_t b =? T_One) || (n_t b =? T_Multi)) eqn:Elead; [|injection H as ? ?; discriminate].
    destruct (useRTL (n_o b)) eqn:Er; [injection H as ? ?; discriminate|].
    destruct (fo_first_char b) as [c1| | |] eqn:Ec; cbn [bind] in H; try discriminate.
    injection H as <- <-. split; [reflexivity|].
    assert (Hb : node_ok b) by (apply (node_ok_kid sets x); [exact Hok | rewrite Ek; left; reflexivity]).
    pose proof (lead_dead b c1 Hb ltac:(lia) Er Ec) as Hd.
    intros a Ha. rewrite (tr_concat sid x) by lia. rewrite Ek. cbn [map]. rewrite fd_den_concat. cbn [den_seq].
    rewrite (Hd a Ha). reflexivity.
  - cbn [bind] in H.
    destruct ((n_t x =? T_One) || (n_t x =? T_Multi)) eqn:Elead; [|injection H as ? ?; discriminate].
    destruct (useRTL (n_o x)) eqn:Er; [injection H as ? ?; discriminate|].
    destruct (fo_first_char x) as [c1| | |] eqn:Ec; cbn [bind] in H; try discriminate.
    injection H as <- <-. split; [reflexivity|]. apply (lead_dead x c1 Hok ltac:(lia) Er Ec).
Qed.

Definition okkey (p : option Z * rnode) : Prop := match fst p with Some c => key_spec c (snd p) | None => True end.

Lemma keyed_ok strict l keyed : Z.testbit strict 3 = true -> Forall node_ok l ->
  fo_map_res (fo_key strict) l = Ok keyed -> map snd keyed = l /\ Forall okkey keyed.
Proof.
  intros Hs3 Hl H. apply fo_map_res_Forall2 in H. induction H as [|x p l keyed Hx _ IH]; [split; constructor|].
  inversion Hl as [|? ? Hx0 Hl0]; subst. destruct (IH Hl0) as [H1 H2].
  assert (Hp : snd p = x /\ okkey p).
  { destruct p as [[c|] y].
    - destruct (key_ok strict x c y Hs3 Hx0 Hx) as [-> Hk]. split; [reflexivity | exact Hk].
    - split; [|exact I]. unfold fo_key in Hx. destruct (fo_fbs x) as [s| | |]; cbn [bind] in Hx; try discriminate.
      destruct s as [b|]; [|injection Hx as <-; reflexivity].
      destruct (Z.testbit strict 3 && useRTL (n_o b)); [injection Hx as <-; reflexivity|].
      destruct (fo_first_char b); cbn [bind] in Hx; discriminate. }
  destruct Hp as [Hp1 Hp2]. split; [cbn [map]; rewrite Hp1, H1; reflexivity | constructor; assumption].
Qed.

(* from a state, only the branches keyed by the next character count *)
Lemma flat_filter (L : list (Z * rnode)) s : Forall (fun p => key_spec (fst p) (snd p)) L ->
  flat_map (fun p => den (tr (snd p)) s) L = flat_map (fun p => den (tr (snd p)) s) (filter (kf (char_at e (pos s))) L).
Proof.
  induction 1 as [|p L Hp _ IH]; [reflexivity|]. cbn [flat_map filter].
  destruct (kf (char_at e (pos s)) p) eqn:Ek.
  - cbn [flat_map]. rewrite IH. reflexivity.
  - rewrite (Hp s) by (unfold kf in Ek; lia). exact IH.
Qed.

Lemma reorder_run_den f (r : list (Z * rnode)) s : Forall (fun p => key_spec (fst p) (snd p)) r ->
  flat_map (fun p => den (tr (snd p)) s) (fst (fo_reorder_run f r)) = flat_map (fun p => den (tr (snd p)) s) r.
Proof.
  intros Hr. rewrite (flat_filter r s Hr), flat_filter, reorder_run_filter; [reflexivity|].
  eapply Permutation_Forall; [apply Permutation_sym, reorder_run_perm | exact Hr].
Qed.

Lemma fo_reorder_S f l :
  fo_reorder (S f) l =
  match l with
  | [] => ([], false)
  | (None, x) :: r => (x :: fst (fo_reorder f r), snd (fo_reorder f r))
  | (Some _, _) :: _ =>
      let run := fst (fo_take_run l) in
      let rest := snd (fo_take_run l) in
      let rr := if 3 <=? zlen run then fo_reorder_run (S (length run)) run else (run, false) in
      match rest with
      | [] => (map snd (fst rr), snd rr)
      | (_, x) :: rest' => (map snd (fst rr) ++ x :: fst (fo_reorder f rest'), snd rr || snd (fo_reorder f rest'))
      end
  end.
Proof.
  cbn [fo_reorder]. destruct l as [|[[c|] x] r]; [reflexivity| |].
  - destruct (fo_take_run ((Some c, x) :: r)) as [run rest]. cbn [fst snd]. cbv zeta.
    destruct (if 3 <=? zlen run then fo_reorder_run (S (length run)) run else (run, false)) as [run' b1]. cbn [fst snd].
    destruct rest as [|[k y] rest']; [reflexivity|]. destruct (fo_reorder f rest') as [r' b2]. reflexivity.
  - destruct (fo_reorder f r) as [r' b]. reflexivity.
Qed.

Lemma reorder_sound : forall f l, Forall okkey l ->
  Permutation (fst (fo_reorder f l)) (map snd l) /\
  forall s, flat_map (fun x => den (tr x) s) (fst (fo_reorder f l)) = flat_map (fun x => den (tr x) s) (map snd l).
Proof.
  induction f as [|f IH]; intros l Hl; [split; [apply Permutation_refl | reflexivity]|].
  rewrite fo_reorder_S. destruct l as [|[[c|] x] r].
  - split; [constructor | reflexivity].
  - cbv zeta. destruct (take_run_spec ((Some c, x) :: r)) as [Hsplit Hnone].
    set (run := fst (fo_take_run ((Some c, x) :: r))) in *. set (rest := snd (fo_take_run ((Some c, x) :: r))) in *.
    rewrite Hsplit in Hl. apply Forall_app in Hl. destruct Hl as [Hrun Hrest].
    assert (Hrun' : Forall (fun p => key_spec (fst p) (snd p)) run).
    { clear -Hrun. induction run as [|p run IHr]; [constructor|]. cbn [map] in Hrun. inversion Hrun; subst. constructor; [assumption | apply IHr; assumption]. }
    set (rr := if 3 <=? zlen run then fo_reorder_run (S (length run)) run else (run, false)).
    assert (Hrr : Permutation (fst rr) run /\ forall s, flat_map (fun p => den (tr (snd p)) s) (fst rr) = flat_map (fun p => den (tr (snd p)) s) run).
    { unfold rr. destruct (3 <=? zlen run); [|split; [apply Permutation_refl | reflexivity]].
      split; [apply reorder_run_perm | intros s; apply reorder_run_den; exact Hrun']. }
    destruct Hrr as [Hp Hd].
    assert (Hmap : map snd (map (fun p : Z * rnode => (Some (fst p), snd p)) run) = map snd run) by (rewrite map_map; reflexivity).
    rewrite Hsplit, map_app, Hmap.
    destruct rest as [|[k y] rest'] eqn:Erest.
    + cbn [fst map]. rewrite app_nil_r. split; [apply Permutation_map; exact Hp|].
      intros s. rewrite !fa_flat_map_map. apply Hd.
    + cbn [fst map snd]. pose proof (Forall_inv_tail Hrest) as Hrest'. destruct (IH rest' Hrest') as [Hp2 Hd2]. split.
      * apply Permutation_app; [apply Permutation_map; exact Hp | constructor; exact Hp2].
      * intros s. rewrite !flat_map_app. cbn [flat_map]. rewrite Hd2, !fa_flat_map_map, Hd. reflexivity.
  - cbn [fst map snd]. pose proof (Forall_inv_tail Hl) as Hr. destruct (IH r Hr) as [Hp Hd]. split; [constructor; exact Hp|].
    intros s. cbn [flat_map]. rewrite Hd. reflexivity.
Qed.

(* ---- 612-707 as a whole, up to the re-reduction of the reordered alternation *)
Theorem atomic_alt_sound strict child keyed f : Z.testbit strict 3 = true -> node_ok child -> n_t child = T_Alternate ->
  fo_map_res (fo_key strict) (fo_trim (n_kids child)) = Ok keyed ->
  node_ok (set_kids child (fst (fo_reorder f keyed))) /\
  rw_hrefines e (tr child) (tr (set_kids child (fst (fo_reorder f keyed)))).
Proof.
  intros Hs3 Hok Ht Hkeyed.
  assert (Hkids : Forall node_ok (n_kids child)) by (rewrite Forall_forall; intros k Hk; apply (node_ok_kid sets child); assumption).
  assert (Hlen : (2 <= length (n_kids child))%nat).
  { pose proof (fo_wf_arity child (proj1 Hok)) as Har. rewrite Ht in Har. cbn in Har. apply Nat.leb_le. exact Har. }
  destruct (trim_ok _ Hkids Hlen) as [Htk Htl].
  destruct (keyed_ok strict _ keyed Hs3 Htk Hkeyed) as [Hsnd Hkeys].
  destruct (reorder_sound f keyed Hkeys) as [Hp Hd]. rewrite Hsnd in Hp, Hd.
  assert (Hbrs : Forall node_ok (fst (fo_reorder f keyed))) by (eapply Permutation_Forall; [apply Permutation_sym; exact Hp | exact Htk]).
  assert (Hbl : (2 <= length (fst (fo_reorder f keyed)))%nat) by (rewrite (Permutation_length Hp); exact Htl).
  split; [apply node_ok_set_kids_alt; assumption|].
  destruct (set_kids_fields child (fst (fo_reorder f keyed))) as (Ht' & Ho' & _ & _ & _ & _ & _ & Hk2).
  rewrite (tr_alt sid child Ht), (tr_alt sid (set_kids child _)) by (rewrite Ht'; exact Ht). rewrite Ho', Hk2.
  eapply rw_hrefines_trans; [apply trim_hrefines|].
  apply rw_refines_hrefines. apply refines_den. intros s.
  rewrite !fd_den_alt, !fa_flat_map_map. symmetry. apply Hd.
Qed.

End Alt.

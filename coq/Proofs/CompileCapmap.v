(* compile_correct for SPARSE capture maps (writer.caps / mapCapnum, writer.go:78-87, 479-490).

   When the pattern's group numbers are not 0..n-1 the Go writer maps them to slots:
   caps[Capnumlist[i]] = i, and every group operand of the code goes through mapCapnum
   (Model/Writer.v: map_capnum; -1 stays -1, a missing key reads 0).

   Method: no new interpreter proof.  The code emitted under a slot map IS the cfg0 code of the tree
   whose group numbers have been renamed by the map,
       cmap_compile :  compile {| capmap := cm; quick := None |} t = compile cfg0 (ren c t),
   and renaming groups by a map that is injective on the groups that occur commutes with the reference
   semantics (cmap_sem: results pairwise equal in position, and slot [map g] of the renamed run holds the
   capture stack of group g of the original run).  compile_correct2 (Proofs/CompileBal.v) applied to the
   renamed tree then gives the statement for the original tree, with the capture relation read THROUGH the
   map ([caps_rel_map]).

   SIDE CONDITIONS on the map, relative to a set G of group numbers (for the Go writer: the keys of the map;
   for the identity map: everything):
     cmap_inj   map injective on G, and it sends no group of G other than -1 to -1
     ren_ok   every group number occurring in the tree is in G (the pushed side of (?<-u>...) is -1)
   cm_good (decidable, what syntax/writer.go builds: distinct keys, distinct values) implies cmap_inj. *)
From Verif Require Import Base.Prelude Model.Tree Model.Spec Model.VM Model.Writer Gen.RunnerGen
  Proofs.SpecProofs Proofs.SpecBoundsProofs Proofs.MaskProofs Proofs.EraseProofs
  Proofs.VMU Proofs.VMUOps2 Proofs.CompileBase Proofs.CompileDefs Proofs.CompileStage1 Proofs.CompileProofs
  Proofs.CompileBalDen Proofs.CompileBalBase Proofs.CompileBalDefs Proofs.CompileBalCapture Proofs.CompileBal.
From Verif Require Import Proofs.ListFacts.
From Coq Require Import Relations ZifyBool.

(* ---------- renaming the group numbers of a tree ---------- *)
Fixpoint ren_with (mc : Z -> Z) (t : node) : node :=
  match t with
  | NRef o g => NRef o (mc g)
  | NConcat o l => NConcat o (map (ren_with mc) l)
  | NAlternate o l => NAlternate o (map (ren_with mc) l)
  | NLoop lazy o m n r => NLoop lazy o m n (ren_with mc r)
  | NCapture o g u r => NCapture o (mc g) (mc u) (ren_with mc r)
  | NGroup r => NGroup (ren_with mc r)
  | NPosLook o r => NPosLook o (ren_with mc r)
  | NNegLook o r => NNegLook o (ren_with mc r)
  | NAtomic r => NAtomic (ren_with mc r)
  | NBackRefCond o g yes no => NBackRefCond o (mc g) (ren_with mc yes) (mask_opt_node (ren_with mc) no)
  | NExprCond o c yes no => NExprCond o (ren_with mc c) (ren_with mc yes) (mask_opt_node (ren_with mc) no)
  | _ => t
  end.
Definition ren (c : wcfg) : node -> node := ren_with (map_capnum c).

(* every group number of the tree is in G *)
Definition ren_ok_node (G : Z -> Prop) (t : node) : Prop :=
  match t with
  | NCapture _ g u _ => if u =? -1 then G g else G u /\ (g = -1 \/ G g)
  | NRef _ g => G g
  | NBackRefCond _ g _ _ => G g
  | _ => True
  end.
Definition ren_ok (G : Z -> Prop) (t : node) : Prop := sb_all (ren_ok_node G) t.

Definition cmap_inj (mc : Z -> Z) (G : Z -> Prop) : Prop :=
  (forall a b, G a -> G b -> mc a = mc b -> a = b) /\ (forall a, G a -> a <> -1 -> mc a <> -1).

(* ---------- the writer: code under a slot map = cfg0 code of the renamed tree ---------- *)
Section Syn.
Variable c : wcfg.
Hypothesis Hq : quick c = None.

Lemma cmap_emit_capture g u : emit_capture c g u = true.
Proof. unfold emit_capture. rewrite Hq. reflexivity. Qed.

Theorem cmap_csize : forall t, csize c t = csize cfg0 (ren c t).
Proof.
  induction t as [kd o ch|kd lk o ch m n|o str|o g|an| | | |o l HF|o l HF|lazy o m n r IHr|o g u r IHr
                 |r IHr|o r IHr|o r IHr|r IHr|o g yes no IHy IHn|o cnd yes no IHc IHy IHn]
    using node_ind'; unfold ren in *; cbn [ren_with]; try reflexivity.
  - rewrite !wr_csize_concat_eq.
    induction HF as [|x l Hx HF IH]; [reflexivity|]. cbn [map csize_seq]. rewrite Hx, IH. reflexivity.
  - rewrite !wr_csize_alternate_eq.
    induction HF as [|x l Hx HF IH]; [reflexivity|].
    destruct l as [|y l].
    + cbn [map csize_alt]. exact Hx.
    + cbn [map] in IH |- *. rewrite !wr_csize_alt_cons2. rewrite Hx, IH. reflexivity.
  - cbn [csize]. rewrite IHr. reflexivity.
  - cbn [csize]. rewrite cmap_emit_capture. change (emit_capture cfg0 _ _) with true. cbv iota. rewrite IHr. reflexivity.
  - cbn [csize]. exact IHr.
  - cbn [csize]. rewrite IHr. reflexivity.
  - cbn [csize]. rewrite IHr. reflexivity.
  - cbn [csize]. rewrite IHr. reflexivity.
  - cbn [csize]. rewrite IHy. destruct no as [x|]; cbn [mask_opt_node opt_all] in *; [rewrite IHn|]; reflexivity.
  - cbn [csize]. rewrite IHc, IHy. destruct no as [x|]; cbn [mask_opt_node opt_all] in *; [rewrite IHn|]; reflexivity.
Qed.

Theorem cmap_emit : forall t a tbl, emit c t a tbl = emit cfg0 (ren c t) a tbl.
Proof.
  induction t as [kd o ch|kd lk o ch m n|o str|o g|an| | | |o l HF|o l HF|lazy o m n r IHr|o g u r IHr
                 |r IHr|o r IHr|o r IHr|r IHr|o g yes no IHy IHn|o cnd yes no IHc IHy IHn]
    using node_ind'; intros a tbl; try reflexivity.
  - (* NRef *) unfold ren. cbn [ren_with emit]. rewrite cc_map_capnum0. reflexivity.
  - (* NConcat *)
    unfold ren in *. cbn [ren_with]. rewrite !wr_emit_concat_eq. revert a tbl.
    induction HF as [|x l Hx HF IH]; intros a tbl; [reflexivity|].
    cbn [map emit_seq]. rewrite Hx. destruct (emit cfg0 (ren_with (map_capnum c) x) a tbl) as [cx t1].
    rewrite IH. reflexivity.
  - (* NAlternate *)
    rewrite !wr_emit_alternate_eq. rewrite (cmap_csize (NAlternate o l)).
    unfold ren in *. cbn [ren_with]. rewrite wr_emit_alternate_eq.
    generalize (a + csize cfg0 (NAlternate o (map (ren_with (map_capnum c)) l))) as lend. intros lend. revert a tbl.
    induction HF as [|x l Hx HF IH]; intros a tbl; [reflexivity|].
    destruct l as [|y l].
    + cbn [map emit_alt]. exact (Hx a tbl).
    + cbn [map] in IH |- *. rewrite !wr_emit_alt_cons2. rewrite Hx.
      destruct (emit cfg0 (ren_with (map_capnum c) x) (a + 2) tbl) as [cx t1]. cbv zeta.
      rewrite IH. reflexivity.
  - unfold ren in *. cbn [ren_with emit]. rewrite IHr. reflexivity.
  - (* NCapture *)
    unfold ren in *. cbn [ren_with emit]. rewrite cmap_emit_capture. change (emit_capture cfg0 _ _) with true. cbv iota.
    rewrite IHr, !cc_map_capnum0. reflexivity.
  - unfold ren in *. cbn [ren_with emit]. exact (IHr a tbl).
  - unfold ren in *. cbn [ren_with emit]. rewrite IHr. reflexivity.
  - unfold ren in *. cbn [ren_with emit]. rewrite IHr. reflexivity.
  - unfold ren in *. cbn [ren_with emit]. rewrite IHr. reflexivity.
  - unfold ren in *. cbn [ren_with emit]. rewrite IHy, cc_map_capnum0.
    destruct (emit cfg0 (ren_with (map_capnum c) yes) (a + 6) tbl) as [cy t1].
    destruct no as [x|]; cbn [mask_opt_node opt_all] in *; [rewrite IHn|]; reflexivity.
  - unfold ren in *. cbn [ren_with emit]. rewrite IHc.
    destruct (emit cfg0 (ren_with (map_capnum c) cnd) (a + 4) tbl) as [cc t1].
    rewrite IHy. destruct (emit cfg0 (ren_with (map_capnum c) yes) (a + 4 + zlen cc + 2) t1) as [cy t2].
    destruct no as [x|]; cbn [mask_opt_node opt_all] in *; [rewrite IHn|]; reflexivity.
Qed.

Theorem cmap_compile t : compile c t = compile cfg0 (ren c t).
Proof. unfold compile. rewrite cmap_emit. reflexivity. Qed.

End Syn.

Lemma cmap_supported2 mc : forall t, supported2 (ren_with mc t) = supported2 t.
Proof.
  induction t as [kd o ch|kd lk o ch m n|o str|o g|an| | | |o l HF|o l HF|lazy o m n r IHr|o g u r IHr
                 |r IHr|o r IHr|o r IHr|r IHr|o g yes no IHy IHn|o cnd yes no IHc IHy IHn]
    using node_ind'; cbn [ren_with supported2]; try reflexivity; try assumption.
  - exact (c2_supported_list_map (ren_with mc) l HF).
  - exact (c2_supported_alt_map (ren_with mc) o o l HF).
  - rewrite IHr. reflexivity.
  - rewrite IHy. destruct no as [x|]; cbn [mask_opt_node opt_all] in *; [rewrite IHn|]; reflexivity.
  - rewrite IHc, IHy. destruct no as [x|]; cbn [mask_opt_node opt_all] in *; [rewrite IHn|]; reflexivity.
Qed.

(* ---------- the reference semantics commutes with an injective renaming ---------- *)
Section Sem.
Variable e : env.
Variable mc : Z -> Z.
Variable G : Z -> Prop.
Hypothesis Hinj : cmap_inj mc G.
Hypothesis Hfix : mc (-1) = -1.

Definition rcaps (c1 c2 : caps_t) : Prop := forall g, G g -> cap_get (mc g) c2 = cap_get g c1.
Definition ragree (s1 s2 : st) : Prop := pos s1 = pos s2 /\ rcaps (caps s1) (caps s2).


Lemma cmap_rc_set g l c1 c2 : G g -> rcaps c1 c2 -> rcaps (cap_set g l c1) (cap_set (mc g) l c2).
Proof.
  intros Hg Hc g' Hg'. destruct (Z.eq_dec g' g) as [->|Hne].
  - rewrite !er_cap_get_set_same. reflexivity.
  - rewrite (er_cap_get_set_other g g' l c1) by exact Hne.
    rewrite er_cap_get_set_other; [exact (Hc g' Hg')|].
    intros E. apply Hne. destruct Hinj as [Hi _]. apply Hi; assumption.
Qed.
Lemma cmap_rc_push g iv c1 c2 : G g -> rcaps c1 c2 -> rcaps (cap_push g iv c1) (cap_push (mc g) iv c2).
Proof. intros Hg Hc. unfold cap_push. rewrite (Hc g Hg). apply cmap_rc_set; assumption. Qed.
Lemma cmap_rc_pop g c1 c2 : G g -> rcaps c1 c2 -> rcaps (cap_pop g c1) (cap_pop (mc g) c2).
Proof. intros Hg Hc. unfold cap_pop. rewrite (Hc g Hg). apply cmap_rc_set; assumption. Qed.

Lemma cmap_rc_push_none iv c1 c2 : rcaps c1 c2 -> rcaps (cap_push (-1) iv c1) (cap_push (-1) iv c2).
Proof.
  intros Hc g Hg. unfold cap_push. destruct (Z.eq_dec g (-1)) as [->|Hne].
  - rewrite Hfix, !er_cap_get_set_same, <- (Hc (-1) Hg), Hfix. reflexivity.
  - rewrite !er_cap_get_set_other; [exact (Hc g Hg)|exact Hne|exact (proj2 Hinj g Hg Hne)].
Qed.

Lemma cmap_none g : g = -1 \/ G g -> (mc g =? -1) = (g =? -1).
Proof.
  intros [->|Hg]; [rewrite Hfix; reflexivity|].
  destruct (Z.eq_dec g (-1)) as [->|Hne]; [rewrite Hfix; reflexivity|].
  pose proof (proj2 Hinj g Hg Hne). lia.
Qed.

Notation RT := (fun a b => b = ren_with mc a /\ ren_ok G a).
Notation RGr := (fun g g' => g' = mc g /\ (g = -1 \/ G g)).
Notation RRd := (fun u u' => u' = mc u /\ G u).

Lemma cmap_view t : ren_ok G t -> sem_view e e ragree RT RGr RRd (fun _ => False) t (ren_with mc t).
Proof.
  intros Hok. pose proof (sb_all_here _ t Hok) as Hn.
  assert (Hl : forall l, sb_all_list (ren_ok_node G) l -> Forall2 RT l (map (ren_with mc) l)).
  { induction l as [|x l IHl]; intros H; constructor; [split; [reflexivity|apply H]|apply IHl, H]. }
  assert (Ho : forall no, match no with Some n => ren_ok G n | None => True end ->
                          opt_rel RT no (mask_opt_node (ren_with mc) no)).
  { intros [n|] H; [split; [reflexivity|exact H]|exact I]. }
  destruct t as [kd o c|kd lk o c m n|o str|o g|a| | | |o cl|o cl|lazy o m n r|o g u r|r|o r|o r|r
                |o g yes no|o c yes no]; cbn [sb_all] in Hok; cbn [ren_ok_node] in Hn; cbn [ren_with].
  1-8: apply SV_leaf; try reflexivity; intros f s1 s2 Hag;
       pose proof (fun p => conj (eq_refl p) (proj2 Hag) : ragree (with_pos s1 p) (with_pos s2 p)) as Hw.
  4: { apply (sem_ref_pos e _ s1 s2 (proj1 Hag) Hw Hag). symmetry. exact (proj2 Hag g Hn). }
  1-7: apply (sem_leaf_pos e _ s1 s2 (proj1 Hag) Hw Hag); [reflexivity|discriminate].
  - apply SV_concat, Hl, Hok.
  - apply SV_alternate, Hl, Hok.
  - apply SV_loop. split; [reflexivity|apply Hok].
  - apply SV_capture; [split; [reflexivity|apply Hok]| |]; destruct (u =? -1) eqn:Eu.
    + split; [reflexivity|right; exact Hn].
    + split; [reflexivity|apply Hn].
    + left. split; [lia|]. assert (u = -1) as -> by lia. exact Hfix.
    + right. split; [reflexivity|apply Hn].
  - apply SV_group. split; [reflexivity|apply Hok].
  - apply SV_poslook. split; [reflexivity|apply Hok].
  - apply SV_neglook. split; [reflexivity|apply Hok].
  - apply SV_atomic. split; [reflexivity|apply Hok].
  - apply SV_backrefcond; [split; [reflexivity|exact Hn]|split; [reflexivity|apply Hok]|apply Ho, Hok].
  - apply SV_exprcond; [split; [reflexivity|apply Hok]..|apply Ho, Hok].
Qed.

Theorem cmap_sem : forall fuel t s1 s2,
  ren_ok G t -> ragree s1 s2 ->
  rrel (Forall2 ragree) (sem e fuel t s1) (sem e fuel (ren_with mc t) s2).
Proof.
  intros fuel t s1 s2 Hok.
  apply (sem_rel e e ragree RT RGr RRd (fun _ => False)); [| | | | | | | | |split; [reflexivity|exact Hok]].
  - intros t1 t2 [-> H]. exact (cmap_view t1 H).
  - intros a1 a2 [Hp _] a b [Hq _]. rewrite Hp, Hq. reflexivity.
  - intros a b [Hq _]. rewrite Hq. reflexivity.
  - intros a1 a2 a b [Hp _] [_ Hc]. split; [exact Hp|exact Hc].
  - split; [symmetry; exact Hfix|left; reflexivity].
  - intros u ? [-> Hu]. symmetry. apply cmap_none. right. exact Hu.
  - intros g ? a1 a2 a b [-> Hg] [Hp _] [Hq Hc]. split; cbn [pos caps]; [exact Hq|].
    rewrite <- Hp, <- Hq. destruct Hg as [->|Hg]; [rewrite Hfix; apply cmap_rc_push_none|apply cmap_rc_push]; assumption.
  - intros g a1 a b [].
  - intros g ? u ? a1 a2 a b [-> Hg] [-> Hu] [Hp _] [Hq Hc]. rewrite (Hc u Hu).
    destruct (cap_get u (caps a)); [exact I|]. split; cbn [pos caps]; [exact Hq|].
    rewrite <- Hp, <- Hq, (cmap_none g Hg). destruct (g =? -1) eqn:Eg; [apply cmap_rc_pop; assumption|].
    apply cmap_rc_push; [destruct Hg; [lia|assumption]|apply cmap_rc_pop; assumption].
Qed.

Definition opt_ragree (o1 o2 : option st) : Prop :=
  match o1, o2 with
  | None, None => True
  | Some a, Some b => ragree a b
  | _, _ => False
  end.

Lemma cmap_attempt fuel root t0 : ren_ok G root ->
  rrel opt_ragree (attempt e fuel root t0) (attempt e fuel (ren_with mc root) t0).
Proof.
  intros Hok. unfold attempt.
  apply (res_rel_bind (Forall2 ragree) opt_ragree).
  - apply cmap_sem; [exact Hok|]. split; [reflexivity|]. intros g _. reflexivity.
  - intros l1 l2 HF. cbn [rrel]. destruct HF; cbn [opt_ragree]; [exact I|assumption].
Qed.

End Sem.

(* ---------- slot maps as the Go writer builds them ---------- *)
Definition cm_G (cm : option (list (Z * Z))) (g : Z) : Prop :=
  match cm with None => True | Some m => In g (map fst m) end.

Fixpoint znodupb (l : list Z) : bool :=
  match l with [] => true | x :: l' => negb (zmem x l') && znodupb l' end.

(* distinct keys, distinct values, no value -1 *)
Definition cm_good (cm : option (list (Z * Z))) : bool :=
  match cm with
  | None => true
  | Some m => znodupb (map fst m) && znodupb (map snd m) && negb (zmem (-1) (map snd m))
  end.

Lemma cm_zassoc_in k m : In k (map fst m) -> In (k, zassoc k m 0) m.
Proof.
  induction m as [|[k' v] m IH]; cbn [map fst In zassoc]; [contradiction|].
  intros H. destruct (k =? k') eqn:E.
  - left. f_equal. lia.
  - right. apply IH. destruct H as [H|H]; [lia|exact H].
Qed.

Lemma cmap_nodup_snd_inj m : znodupb (map fst m) = true -> znodupb (map snd m) = true ->
  forall a b v, In (a, v) m -> In (b, v) m -> a = b.
Proof.
  induction m as [|[k w] m IH]; cbn [map fst snd znodupb In]; intros Hk Hv a b v Ha Hb; [contradiction|].
  apply andb_prop in Hk. destruct Hk as [Hk1 Hk2]. apply andb_prop in Hv. destruct Hv as [Hv1 Hv2].
  assert (Hnv : forall x, In (x, w) m -> False).
  { intros x Hx. apply (in_map snd) in Hx. cbn [snd] in Hx. apply zmem_In in Hx. rewrite Hx in Hv1. discriminate. }
  destruct Ha as [Ha|Ha], Hb as [Hb|Hb].
  - congruence.
  - injection Ha as <- <-. exfalso. eapply Hnv. exact Hb.
  - injection Hb as <- <-. exfalso. eapply Hnv. exact Ha.
  - eapply IH; eassumption.
Qed.

Lemma cmap_good_inj cm : cm_good cm = true ->
  cmap_inj (map_capnum {| capmap := cm; quick := None |}) (cm_G cm).
Proof.
  destruct cm as [m|]; cbn [cm_good cm_G]; intros H.
  - apply andb_prop in H. destruct H as [H Hm1]. apply andb_prop in H. destruct H as [Hk Hv].
    assert (Hne : forall a, In a (map fst m) -> zassoc a m 0 <> -1).
    { intros a Ha E. apply cm_zassoc_in in Ha. rewrite E in Ha. apply (in_map snd) in Ha. cbn [snd] in Ha.
      apply zmem_In in Ha. rewrite Ha in Hm1. discriminate. }
    split.
    + intros a b Ha Hb E. unfold map_capnum in E. cbn [capmap] in E.
      pose proof (Hne a Ha). pose proof (Hne b Hb).
      destruct (a =? -1) eqn:Ea, (b =? -1) eqn:Eb; try lia.
      eapply (cmap_nodup_snd_inj m Hk Hv a b (zassoc a m 0)); [apply cm_zassoc_in; exact Ha|].
      rewrite E. apply cm_zassoc_in. exact Hb.
    + intros a Ha Hna. unfold map_capnum. cbn [capmap]. replace (a =? -1) with false by lia. apply Hne. exact Ha.
  - split.
    + intros a b _ _ E. unfold map_capnum in E. cbn [capmap] in E.
      destruct (a =? -1) eqn:Ea, (b =? -1) eqn:Eb; lia.
    + intros a _ Hna. unfold map_capnum. cbn [capmap]. replace (a =? -1) with false by lia. exact Hna.
Qed.

(* ---------- compile_correct through a slot map ---------- *)
Section Top.
Variable e : env.
Variable p : program.
Variable cm : option (list (Z * Z)).
Notation c := {| capmap := cm; quick := None |}.

(* slot [map g] of the interpreter's capture arrays denotes group g's reference capture stack *)
Definition caps_rel_map (cp : caps_t) (M : list (list Z)) : Prop :=
  zlen M = capsize p /\
  forall g, cm_G cm g -> 0 <= map_capnum c g < capsize p ->
    exists ps, nth (Z.to_nat (map_capnum c g)) M [] = flat (rev ps) /\ Den ps (cap_get g cp).

Theorem compile_correct_capmap_exec_partial :
  0 <= trackcount p -> tlen e <= INF ->
  forall L fuel vfuel o body t0 r s',
  let root := NCapture o 0 (-1) body in
  let M0 := repeat [] (Z.to_nat (capsize p)) in
  let stop := 2 + csize c root in
  codes p = fst (compile c root) -> strings p = snd (compile c root) ->
  supported2 root = true -> cm_good cm = true -> map_capnum c 0 = 0 ->
  ren_ok (cm_G cm) root -> groups_ok2 (capsize p) (ren c root) ->
  0 <= t0 <= tlen e -> Z.of_nat fuel <= INF ->
  attempt e fuel root t0 = Ok r ->
  exec_at e p L vfuel t0 = Ok s' ->
  pc s' = stop /\ mode s' = 0 /\
  match r with
  | Some q => tp s' = pos q /\ caps_rel_map (caps q) (mcaps s') /\ matched0 s' = true
  | None => mcaps s' = M0 /\ matched0 s' = false
  end.
Proof.
  intros Htc Htl L fuel vfuel o body t0 r s' root M0 stop Hcodes Hstr Hs Hgood H0 Hok Hg Ht0 Hf Hatt Hex.
  pose proof (cmap_good_inj cm Hgood) as Hinj.
  assert (Hfix : map_capnum c (-1) = -1) by reflexivity.
  assert (Hren : ren c root = NCapture o 0 (-1) (ren c body)).
  { unfold ren, root. cbn [ren_with]. rewrite H0, Hfix. reflexivity. }
  pose proof (cmap_attempt e (map_capnum c) (cm_G cm) Hinj Hfix fuel root t0 Hok) as Hsim.
  rewrite Hatt in Hsim.
  destruct (attempt e fuel (ren_with (map_capnum c) root) t0) as [r'| | |] eqn:Hatt'; cbn [rrel] in Hsim; try contradiction.
  fold (ren c root) in Hatt'. rewrite Hren in Hatt', Hg.
  rewrite (cmap_compile c eq_refl root), Hren in Hcodes, Hstr.
  assert (Hs' : supported2 (NCapture o 0 (-1) (ren c body)) = true).
  { rewrite <- Hren. unfold ren. rewrite cmap_supported2. exact Hs. }
  destruct (compile_correct2_exec_partial e p Htc Htl L fuel vfuel o (ren c body) t0 r' s'
              Hcodes Hstr Hs' Hg Ht0 Hf Hatt' Hex) as (Hpc & Hmd & Hres).
  split. { unfold stop. rewrite (cmap_csize c eq_refl root), Hren. exact Hpc. }
  split; [exact Hmd|].
  destruct r as [q|], r' as [q'|]; cbn [opt_ragree] in Hsim; try contradiction.
  - destruct Hres as (Htp & Hcr & Hm0). destruct Hsim as [Hpq Hcq].
    split; [congruence|]. split; [|exact Hm0].
    destruct Hcr as [Hl Hc]. split; [exact Hl|].
    intros g HG Hslot. destruct (Hc _ Hslot) as (ps & Ea & Hd). exists ps. split; [exact Ea|].
    rewrite (Hcq g HG) in Hd. exact Hd.
  - exact Hres.
Qed.

End Top.

Print Assumptions compile_correct_capmap_exec_partial.

(* ---------- a concrete instance: (?<5>a)(?<9>b)\5 with slots 5 -> 1, 9 -> 2 ---------- *)
Example cmap_demo :
  let cm := Some [(0, 0); (5, 1); (9, 2)] in
  let c := {| capmap := cm; quick := None |} in
  let root := NCapture 0 0 (-1) (NConcat 0 [NCapture 0 5 (-1) (NChar COne 0 97); NCapture 0 9 (-1) (NChar COne 0 98); NRef 0 5]) in
  let p := {| codes := fst (compile c root); strings := snd (compile c root);
              trackcount := track_count (fst (compile c root)); capsize := 3 |} in
  let e := cc_demo_env2 [97; 98; 97] in
  cm_good cm = true /\ ren c root <> root /\
  attempt e 20 root 0 = Ok (Some {| pos := 3; caps := [(5, [(0, 1)]); (9, [(1, 1)]); (0, [(0, 3)])] |}) /\
  (exists s', exec_at e p (-1) 5 0 = Ok s' /\ tp s' = 3 /\ mcaps s' = [[0; 3]; [0; 1]; [1; 1]]).
Proof.
  cbv zeta. split; [reflexivity|]. split; [discriminate|]. split; [vm_compute; reflexivity|].
  eexists. split; [vm_compute; reflexivity|]. split; reflexivity.
Qed.

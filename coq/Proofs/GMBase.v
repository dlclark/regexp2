(* Basic facts used by the GroupMap proofs: names, association lists, sorted key lists, itoa. *)
From Verif Require Import Base.Prelude Model.GroupMap.
From Verif Require Export Proofs.ListFacts.
From Coq Require Import Sorting.Sorted DecimalPos DecimalFacts Decimal FinFun.

Lemma aget_aset_same : forall s v m, aget s (aset s v m) = Some v.
Proof.
  induction m as [|[k w] m IH]; cbn.
  - now rewrite zlist_eqb_refl.
  - destruct (zlist_eqb s k) eqn:E; cbn; rewrite E; [reflexivity|assumption].
Qed.

Lemma aget_aset_other : forall s s' v m, s <> s' -> aget s (aset s' v m) = aget s m.
Proof.
  intros s s' v m Hn. induction m as [|[k w] m IH]; cbn.
  - apply zlist_eqb_neq in Hn. now rewrite Hn.
  - destruct (zlist_eqb s' k) eqn:E; cbn.
    + apply zlist_eqb_eq in E. subst k. apply zlist_eqb_neq in Hn. now rewrite Hn.
    + destruct (zlist_eqb s k); [reflexivity|assumption].
Qed.

Lemma amem_aget : forall s m, amem s m = true <-> exists v, aget s m = Some v.
Proof.
  intros. unfold amem. destruct (aget s m); split; intros H; try reflexivity; try discriminate.
  - now eexists.
  - destruct H; discriminate.
Qed.

Lemma amem_false : forall s m, amem s m = false <-> aget s m = None.
Proof. intros. unfold amem. destruct (aget s m); split; intros; congruence. Qed.

Lemma aget0_some : forall s m v, aget s m = Some v -> aget0 s m = v.
Proof. intros. unfold aget0. now rewrite H. Qed.

Definition akeys (m : nmap) : list name := map fst m.

Lemma aget_none_keys : forall s m, aget s m = None <-> ~ In s (akeys m).
Proof.
  induction m as [|[k w] m IH]; cbn; [tauto|].
  destruct (zlist_eqb s k) eqn:E.
  - apply zlist_eqb_eq in E. subst. split; [discriminate|]. intros H. exfalso. apply H. now left.
  - apply zlist_eqb_neq in E. rewrite IH. split; intros H.
    + intros [H1|H1]; [congruence|contradiction].
    + intros H1. apply H. now right.
Qed.

Lemma akeys_aset : forall s v m x, In x (akeys (aset s v m)) <-> x = s \/ In x (akeys m).
Proof.
  induction m as [|[k w] m IH]; intros x; cbn.
  - split; [intros [H|[]]; now left | intros [H|[]]; now left].
  - destruct (zlist_eqb s k) eqn:E; cbn.
    + apply zlist_eqb_eq in E. subst k. split; [tauto|]. intros [H|H]; [now left|assumption].
    + rewrite IH. tauto.
Qed.

Lemma aget_some_key : forall s m v, aget s m = Some v -> In s (akeys m).
Proof.
  intros s m v H. destruct (in_dec (list_eq_dec Z.eq_dec) s (akeys m)) as [Hi|Hn]; [assumption|].
  apply aget_none_keys in Hn. congruence.
Qed.

Lemma akeys_aset_new : forall s v m, aget s m = None -> akeys (aset s v m) = akeys m ++ [s].
Proof.
  induction m as [|[k w] m IH]; intros H; cbn in *; [reflexivity|].
  destruct (zlist_eqb s k) eqn:E; [discriminate|]. cbn. f_equal. now apply IH.
Qed.

Lemma akeys_aset_old : forall s v m, aget s m <> None -> akeys (aset s v m) = akeys m.
Proof.
  induction m as [|[k w] m IH]; intros H; cbn in *; [congruence|].
  destruct (zlist_eqb s k) eqn:E; cbn; [reflexivity|]. f_equal. now apply IH.
Qed.

Lemma aget_aset_cases : forall x s v m w, aget x (aset s v m) = Some w -> (x = s /\ w = v) \/ aget x m = Some w.
Proof.
  intros x s v m w H. destruct (list_eq_dec Z.eq_dec x s) as [->|Hne].
  - rewrite aget_aset_same in H. injection H as <-. now left.
  - rewrite aget_aset_other in H by assumption. now right.
Qed.

Lemma aget_aset_new : forall s v m x w, aget s m = None -> aget x m = Some w -> aget x (aset s v m) = Some w.
Proof. intros s v m x w Hs Hx. rewrite aget_aset_other; [assumption|]. intros ->. congruence. Qed.

Lemma zget_combine_nth : forall (l : list Z) (vs : list Z) k i,
  NoDup l -> length l = length vs -> nth_error l i = Some k ->
  zget k (combine l vs) = nth_error vs i.
Proof.
  induction l as [|x l IH]; intros vs k i Hnd Hlen Hn; destruct vs as [|v vs]; try discriminate.
  - destruct i; discriminate.
  - inversion Hnd as [|? ? Hx Hnd']; subst. cbn in Hlen. injection Hlen as Hlen.
    destruct i as [|i]; cbn in *.
    + injection Hn as ->. now rewrite Z.eqb_refl.
    + destruct (k =? x) eqn:E.
      * apply Z.eqb_eq in E. subst. exfalso. apply Hx. eapply nth_error_In; eauto.
      * eapply IH; eauto.
Qed.

Lemma zget_combine_none : forall (l vs : list Z) k, ~ In k l -> zget k (combine l vs) = None.
Proof.
  induction l as [|x l IH]; intros vs k Hn; destruct vs as [|v vs]; cbn; try reflexivity.
  destruct (k =? x) eqn:E.
  - apply Z.eqb_eq in E. subst. exfalso. apply Hn. now left.
  - apply IH. intros H. apply Hn. now right.
Qed.

Lemma zget_combine_some_in : forall (l vs : list Z) k v, zget k (combine l vs) = Some v -> In k l.
Proof.
  induction l as [|x l IH]; intros vs k v H; destruct vs as [|w vs]; cbn in *; try discriminate.
  destruct (k =? x) eqn:E.
  - apply Z.eqb_eq in E. now left.
  - right. eapply IH; eauto.
Qed.

Lemma zrange_length : forall n, length (zrange n) = Z.to_nat n.
Proof. intros. unfold zrange. now rewrite map_length, seq_length. Qed.

Lemma zrange_nth : forall n i, (i < Z.to_nat n)%nat -> nth_error (zrange n) i = Some (Z.of_nat i).
Proof.
  intros n i H. unfold zrange. rewrite nth_error_map.
  rewrite (nth_error_nth' _ 0%nat) by (now rewrite seq_length).
  rewrite seq_nth by assumption. reflexivity.
Qed.

Lemma zrange_In : forall n k, In k (zrange n) <-> 0 <= k < n.
Proof.
  intros n k. unfold zrange. rewrite in_map_iff. split.
  - intros [i [E H]]. apply in_seq in H. lia.
  - intros H. exists (Z.to_nat k). split; [lia|]. apply in_seq. lia.
Qed.

Definition ssorted (l : list Z) : Prop := StronglySorted Z.lt l.

Lemma ssorted_NoDup : forall l, ssorted l -> NoDup l.
Proof.
  induction l as [|x l IH]; intros H; [constructor|].
  inversion H as [|? ? Hs Hf]; subst. constructor; [|now apply IH].
  intros HI. rewrite Forall_forall in Hf. specialize (Hf _ HI). lia.
Qed.

Lemma caps_insert_In : forall i l y, In y (caps_insert i l) <-> y = i \/ In y l.
Proof.
  induction l as [|x l IH]; intros y; cbn.
  - split; [intros [H|[]]; now left|intros [H|[]]; now left].
  - destruct (i <? x) eqn:E1; [cbn; intuition|].
    destruct (i =? x) eqn:E2.
    + apply Z.eqb_eq in E2. subst. cbn. intuition.
    + cbn. rewrite IH. intuition.
Qed.

Lemma caps_insert_sorted : forall i l, ssorted l -> ssorted (caps_insert i l).
Proof.
  induction l as [|x l IH]; intros H; cbn.
  - constructor; constructor.
  - inversion H as [|? ? Hs Hf]; subst.
    destruct (i <? x) eqn:E1.
    + apply Z.ltb_lt in E1. constructor; [assumption|].
      constructor; [assumption|]. rewrite Forall_forall in *. intros y Hy. specialize (Hf _ Hy). lia.
    + destruct (i =? x) eqn:E2; [assumption|].
      apply Z.ltb_ge in E1. apply Z.eqb_neq in E2.
      constructor; [now apply IH|].
      rewrite Forall_forall in *. intros y Hy. apply caps_insert_In in Hy. destruct Hy as [->|Hy]; [lia|now apply Hf].
Qed.

Lemma caps_insert_length : forall i l, ~ In i l -> length (caps_insert i l) = S (length l).
Proof.
  induction l as [|x l IH]; intros Hn; cbn; [reflexivity|].
  destruct (i <? x); [reflexivity|].
  destruct (i =? x) eqn:E2.
  - apply Z.eqb_eq in E2. subst. exfalso. apply Hn. now left.
  - cbn. rewrite IH; [reflexivity|]. intros H. apply Hn. now right.
Qed.

(* a strictly increasing list inside [lo, hi) has at most hi - lo elements *)
Lemma ssorted_length_bound : forall l lo hi, ssorted l -> (forall x, In x l -> lo <= x < hi) ->
  Z.of_nat (length l) <= Z.max 0 (hi - lo).
Proof.
  induction l as [|x l IH]; intros lo hi Hs Hb; cbn [length]; [lia|].
  inversion Hs as [|? ? Hs' Hf]; subst.
  assert (Hx : lo <= x < hi) by (apply Hb; now left).
  specialize (IH (x + 1) hi Hs').
  assert (Z.of_nat (length l) <= Z.max 0 (hi - (x + 1))).
  { apply IH. intros y Hy. rewrite Forall_forall in Hf. specialize (Hf _ Hy). specialize (Hb y (or_intror Hy)). lia. }
  lia.
Qed.

(* ... and if it has exactly hi - lo elements it is lo, lo+1, ..., hi-1 *)
Lemma ssorted_full : forall l lo, ssorted l ->
  (forall x, In x l -> lo <= x < lo + Z.of_nat (length l)) ->
  l = map (fun i => lo + Z.of_nat i) (seq 0 (length l)).
Proof.
  induction l as [|x l IH]; intros lo Hs Hb; [reflexivity|].
  inversion Hs as [|? ? Hs' Hf]; subst.
  assert (Hx : lo <= x < lo + Z.of_nat (length (x :: l))) by (apply Hb; now left).
  assert (Hlen : Z.of_nat (length l) <= Z.max 0 (lo + Z.of_nat (length (x :: l)) - (x + 1))).
  { apply ssorted_length_bound; [assumption|]. intros y Hy. rewrite Forall_forall in Hf. specialize (Hf _ Hy).
    specialize (Hb y (or_intror Hy)). lia. }
  cbn [length] in *.
  assert (x = lo) by lia. subst x.
  cbn [seq map]. f_equal; [lia|].
  rewrite <- seq_shift, map_map.
  rewrite (IH (lo + 1) Hs').
  - rewrite map_length, seq_length. apply map_ext. intros. lia.
  - intros y Hy. rewrite Forall_forall in Hf. specialize (Hf _ Hy). specialize (Hb y (or_intror Hy)). lia.
Qed.

Lemma ssorted_dense : forall l n, ssorted l -> (forall x, In x l -> 0 <= x < n) -> Z.of_nat (length l) = n -> l = zrange n.
Proof.
  intros l n Hs Hb Hl. unfold zrange. rewrite <- Hl, Nat2Z.id.
  rewrite (ssorted_full l 0 Hs) at 1.
  - apply map_ext. intros. lia.
  - intros x Hx. specialize (Hb _ Hx). lia.
Qed.

Lemma ssorted_nth_lt : forall l i j a b, ssorted l -> nth_error l i = Some a -> nth_error l j = Some b ->
  (i < j)%nat -> a < b.
Proof.
  induction l as [|x l IH]; intros i j a b Hs Hi Hj Hlt.
  - destruct i; discriminate.
  - inversion Hs as [|? ? Hs' Hf]; subst.
    destruct j as [|j]; [lia|]. cbn in Hj.
    destruct i as [|i]; cbn in Hi.
    + injection Hi as ->. rewrite Forall_forall in Hf. apply Hf. eapply nth_error_In; eauto.
    + eapply IH; eauto. lia.
Qed.

Lemma next_free_spec : forall fuel caps a,
  let r := next_free fuel caps a in
  a <= r /\ (forall n, a <= n < r -> In n caps) /\ (~ In r caps \/ r = a + Z.of_nat fuel).
Proof.
  induction fuel as [|f IH]; intros caps a; cbn [next_free].
  - repeat split; [lia| intros; lia | right; lia].
  - destruct (zmem a caps) eqn:E.
    + specialize (IH caps (a + 1)). cbn zeta in IH. destruct IH as [H1 [H2 H3]].
      repeat split; [lia| |].
      * intros n Hn. destruct (Z.eq_dec n a) as [->|Hne]; [now apply zmem_In|]. apply H2. lia.
      * destruct H3 as [H3|H3]; [now left|right; lia].
    + repeat split; [lia|intros; lia|]. left. now apply zmem_false.
Qed.

Lemma next_free_not_in : forall caps a, ssorted caps ->
  ~ In (next_free (S (length caps)) caps a) caps.
Proof.
  intros caps a Hs HI.
  destruct (next_free_spec (S (length caps)) caps a) as [H1 [H2 H3]].
  destruct H3 as [H3|H3]; [contradiction|].
  set (r := next_free (S (length caps)) caps a) in *.
  (* a, a+1, ..., r all in caps: |caps|+2 distinct... at least |caps|+1 *)
  assert (Hall : forall n, a <= n <= r -> In n caps).
  { intros n Hn. destruct (Z.eq_dec n r) as [->|]; [assumption|apply H2; lia]. }
  pose (l := map (fun i => a + Z.of_nat i) (seq 0 (S (S (length caps))))).
  assert (Hincl : incl l caps).
  { intros x Hx. unfold l in Hx. apply in_map_iff in Hx. destruct Hx as [i [<- Hi]]. apply in_seq in Hi. apply Hall. lia. }
  assert (Hnd : NoDup l).
  { unfold l. apply FinFun.Injective_map_NoDup; [|apply seq_NoDup]. intros x y Hxy. lia. }
  pose proof (NoDup_incl_length Hnd Hincl) as Hle.
  unfold l in Hle. rewrite map_length, seq_length in Hle. lia.
Qed.

Lemma uint_digits_inj : forall u v, uint_digits u = uint_digits v -> u = v.
Proof.
  induction u; destruct v; cbn; intros H; try reflexivity; try discriminate;
    injection H as H; f_equal; now apply IHu.
Qed.

Definition is_digit (c : Z) : bool := (48 <=? c) && (c <=? 57).

Lemma uint_digits_all_digits : forall u, forallb is_digit (uint_digits u) = true.
Proof. induction u; cbn; try reflexivity; assumption. Qed.

Lemma to_uint_not_zero : forall q, uint_digits (Pos.to_uint q) <> [48].
Proof.
  intros q H. change [48] with (uint_digits (D0 Nil)) in H. apply uint_digits_inj in H.
  pose proof (Unsigned.of_to q) as Hq. rewrite H in Hq. cbn in Hq. discriminate.
Qed.

Lemma itoa_inj : forall a b, 0 <= a -> 0 <= b -> itoa a = itoa b -> a = b.
Proof.
  intros a b Ha Hb H.
  destruct a as [|p|p]; destruct b as [|q|q]; try lia; cbn in H.
  - exfalso. symmetry in H. now apply to_uint_not_zero in H.
  - exfalso. now apply to_uint_not_zero in H.
  - apply uint_digits_inj in H.
    pose proof (Unsigned.of_to p) as Hp. pose proof (Unsigned.of_to q) as Hq.
    rewrite H in Hp. rewrite Hp in Hq. now injection Hq as ->.
Qed.

Lemma itoa_nonneg_digits : forall a, 0 <= a -> forallb is_digit (itoa a) = true.
Proof.
  intros a Ha. destruct a as [|p|p]; try lia; cbn; [reflexivity|apply uint_digits_all_digits].
Qed.

Lemma itoa_nonempty : forall a, 0 <= a -> itoa a <> [].
Proof.
  intros a Ha. destruct a as [|p|p]; try lia; cbn; [discriminate|].
  pose proof (Unsigned.of_to p) as Hp. destruct (Pos.to_uint p); cbn; try discriminate; cbn in Hp; discriminate Hp.
Qed.

(* a lexical group name: not empty, does not start with a digit *)
Definition lexname (s : name) : bool :=
  match s with
  | [] => false
  | c :: _ => negb (is_digit c)
  end.

Lemma lexname_not_itoa : forall s k, lexname s = true -> 0 <= k -> s <> itoa k.
Proof.
  intros s k Hs Hk E. subst s.
  pose proof (itoa_nonneg_digits k Hk) as Hd. pose proof (itoa_nonempty k Hk) as Hn.
  destruct (itoa k) as [|c r]; [contradiction|]. cbn in Hs, Hd.
  apply andb_true_iff in Hd. destruct Hd as [Hd _]. rewrite Hd in Hs. discriminate.
Qed.

Lemma lexname_nonempty : forall s, lexname s = true -> s <> [].
Proof. intros s H E. subst. discriminate. Qed.

Lemma Forall2_len : forall {A B} (R : A -> B -> Prop) l l', Forall2 R l l' -> length l = length l'.
Proof. exact @Forall2_length. Qed.

Lemma Forall2_nth : forall {A B} (R : A -> B -> Prop) l l' i a b,
  Forall2 R l l' -> nth_error l i = Some a -> nth_error l' i = Some b -> R a b.
Proof.
  intros A B R l l' i a b H. revert i. induction H as [|x y l l' Hxy H IH]; intros i Ha Hb.
  - destruct i; discriminate.
  - destruct i; cbn in *; [congruence|eauto].
Qed.

Lemma nth_error_ext_eq : forall {A} (l1 l2 : list A), (forall n, nth_error l1 n = nth_error l2 n) -> l1 = l2.
Proof.
  induction l1 as [|x l1 IH]; intros l2 H.
  - destruct l2 as [|y l2]; [reflexivity|]. specialize (H 0%nat). discriminate.
  - destruct l2 as [|y l2]; [specialize (H 0%nat); discriminate|].
    pose proof (H 0%nat) as H0. cbn in H0. injection H0 as ->. f_equal. apply IH. intros n. apply (H (S n)).
Qed.

Lemma zrange_nth_none : forall n i, (Z.to_nat n <= i)%nat -> nth_error (zrange n) i = None.
Proof. intros. apply nth_error_None. now rewrite zrange_length. Qed.

Lemma set_nth_spec : forall {A} (l : list A) i v l',
  set_nth i v l = Some l' ->
  length l' = length l /\ forall j, nth_error l' j = if Nat.eqb j i then Some v else nth_error l j.
Proof.
  induction l as [|x l IH]; intros i v l' H; [destruct i; discriminate|].
  destruct i as [|i]; cbn in H.
  - injection H as <-. split; [reflexivity|]. intros [|j]; reflexivity.
  - destruct (set_nth i v l) as [r|] eqn:E; [|discriminate]. injection H as <-.
    destruct (IH _ _ _ E) as [Hl Hn]. split; [cbn; now rewrite Hl|].
    intros [|j]; cbn; [reflexivity|apply Hn].
Qed.

Lemma set_nth_some : forall {A} (l : list A) i v, (i < length l)%nat -> exists l', set_nth i v l = Some l'.
Proof.
  induction l as [|x l IH]; intros i v H; [cbn in H; lia|].
  destruct i as [|i]; cbn; [eexists; reflexivity|].
  destruct (IH i v ltac:(cbn in H; lia)) as [r ->]. eexists; reflexivity.
Qed.

Lemma sorted_head_zero : forall l, ssorted l -> In 0 l -> (forall k, In k l -> 0 <= k) -> exists r, l = 0 :: r.
Proof.
  intros [|x l] Hs Hi Hn; [destruct Hi|].
  inversion Hs as [|? ? _ Hf]; subst. destruct Hi as [->|Hi]; [eexists; reflexivity|].
  rewrite Forall_forall in Hf. specialize (Hf _ Hi). specialize (Hn x (or_introl eq_refl)). lia.
Qed.

Lemma Forall2_nth_intro : forall {A B} (R : A -> B -> Prop) l l',
  length l = length l' ->
  (forall i a b, nth_error l i = Some a -> nth_error l' i = Some b -> R a b) -> Forall2 R l l'.
Proof.
  induction l as [|x l IH]; intros l' Hlen H; destruct l' as [|y l']; try discriminate; constructor.
  - apply (H 0%nat); reflexivity.
  - apply IH; [cbn in Hlen; lia|]. intros i a b Ha Hb. apply (H (S i)); assumption.
Qed.

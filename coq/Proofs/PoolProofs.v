(* C12, part E: calls and histories.  C11: every interleaving of the atomic actions. *)
From Verif Require Import Base.Prelude Model.Pool Proofs.PoolStackProofs Proofs.PoolRunnerProofs
  Proofs.PoolStateProofs Proofs.PoolSimProofs.

Section Histories.
Variable E : env.
Hypothesis WF : env_wf E.

(* one call, on any legal shared state, with any answers of the pools *)
Lemma call_fresh : forall fuel o g ch,
  gstate_ok E g ->
  snd (call E fuel o g ch) = fresh_result E fuel o /\ gstate_ok E (fst (call E fuel o g ch)).
Proof.
  intros fuel o g ch G. unfold call, fresh_result.
  apply (sim_run_ideal E (entry E fuel o) (entry E fuel o) (entry_sim E WF fuel o) g ch G).
Qed.

(* "a freshly compiled Regexp": the state right after Compile, pools empty *)
Lemma fresh_result_on_fresh_state : forall fuel o nre rs bs ch,
  snd (call E fuel o (gstate0 nre rs bs) ch) = fresh_result E fuel o.
Proof. intros. apply call_fresh. apply gstate0_ok. Qed.

Fixpoint calls_of (h : list hstep) : list op :=
  match h with
  | [] => []
  | HCall o _ :: h' => o :: calls_of h'
  | HGc _ :: h' => calls_of h'
  end.

Lemma history_fresh : forall fuel h g,
  gstate_ok E g ->
  snd (run_history E fuel h g) = map (fresh_result E fuel) (calls_of h) /\
  gstate_ok E (fst (run_history E fuel h g)).
Proof.
  induction h as [|[o ch|f] h IH]; intros g G; cbn [run_history calls_of map].
  - cbn; auto.
  - destruct (call_fresh fuel o g ch G) as [V G1].
    destruct (call E fuel o g ch) as [g1 v]; cbn [fst snd] in *.
    destruct (IH g1 G1) as [VS G2].
    destruct (run_history E fuel h g1) as [g2 vs]; cbn [fst snd] in *.
    subst. auto.
  - apply IH. apply gc_ok; auto.
Qed.

(* ---------- C11 ---------- *)

(* p returns v however its Gets are answered (legally) *)
Definition yields {A} (p : prog A) (v : A) : Prop := exists q, sim E p q /\ ideal q = v.

(* head inversion of sim, by induction on the derivation (the right-hand side may carry extra puts) *)
Lemma yields_step : forall {A} (p : prog A) v, yields p v ->
  match p with
  | Ret a => a = v
  | GetRunner re k => forall r, runner_ok (e_cfg E re) r -> yields (k r) v
  | PutRunner re r k => runner_ok (e_cfg E re) r /\ yields k v
  | GetBuf bk n m k => forall b pooled, n <= b_cap b -> yields (k b pooled) v
  | PutBuf bk b k => yields k v
  | CacheGet re key k => forall o, coh E re key o -> yields (k o) v
  | CacheAdd re key d k => e_parse_repl E re key = Ok d /\ yields k v
  end.
Proof.
  intros A p v (q & S & <-). induction S; cbn [ideal].
  - reflexivity.
  - intros r R. exists (k2 (fresh_runner O)). split; [apply H; auto using fresh_runner_ok|reflexivity].
  - split; [assumption|]. exists k2. auto.
  - intros b pooled B. eexists. split; [apply H; auto; apply fresh_buf_fits|reflexivity].
  - exists q. auto.
  - exact IHS.
  - intros o C. exists (k2 None). split; [apply H; [exact C|exact I]|reflexivity].
  - split; [assumption|]. exists q. auto.
  - exact IHS.
Qed.

(* what a goroutine's record looks like at any moment of any schedule: the calls already finished returned
   their fresh results, the call in progress can only return its fresh result *)
Definition pool_tinv (fuel : nat) (ops0 : list op) (t : thread) : Prop :=
  exists dn cur,
    ops0 = dn ++ cur ++ t_rest t /\
    t_done t = rev (map (fresh_result E fuel) dn) /\
    match t_cur t with
    | None => cur = []
    | Some p => exists o, cur = [o] /\ yields p (fresh_result E fuel o)
    end.

Lemma pool_tinv_next : forall fuel ops0 t dn o p owned,
  ops0 = dn ++ [o] ++ t_rest t -> t_done t = rev (map (fresh_result E fuel) dn) -> yields p (fresh_result E fuel o) ->
  pool_tinv fuel ops0 {| t_cur := Some p; t_rest := t_rest t; t_done := t_done t; t_owned := owned |}.
Proof. intros fuel ops0 t dn o p owned O D Y. exists dn, [o]. cbn [t_cur t_rest t_done]. eauto. Qed.

Lemma tstep_inv : forall fuel ops0 g t pk,
  gstate_ok E g -> pool_tinv fuel ops0 t ->
  gstate_ok E (fst (fst (tstep E fuel g t pk))) /\ pool_tinv fuel ops0 (snd (fst (tstep E fuel g t pk))).
Proof.
  intros fuel ops0 g t pk G TI. pose proof TI as (dn & cur & O & D & C). unfold tstep.
  destruct (t_cur t) as [p|] eqn:TC.
  - destruct C as (o & -> & Y). apply yields_step in Y.
    destruct p as [v|re k|re r k|bk n m k|bk b k|re key k|re key d k].
    + (* the call returns *)
      cbn [fst snd]. split; [exact G|].
      exists (dn ++ [o]), []. cbn [t_rest t_done t_cur]. split; [rewrite <- app_assoc; exact O|]. split; [|reflexivity].
      rewrite map_app, rev_app_distr, <- D, Y. reflexivity.
    + pose proof (act_get_runner_ok E g re pk G) as [G1 R1].
      destruct (act_get_runner g re pk) as [g1 r]; cbn [fst snd] in *.
      split; [exact G1|]. apply (pool_tinv_next _ _ _ dn o); auto.
    + destruct Y as [R Y]. destruct (owns (r_id r) (t_owned t)); cbn [fst snd]; [|auto].
      split; [apply act_put_runner_ok; auto|]. apply (pool_tinv_next _ _ _ dn o); auto.
    + pose proof (act_get_buf_ok E g bk n m pk G) as GB.
      destruct (act_get_buf g bk n m pk) as [[g1 b] pooled]. destruct GB as [G1 B1]. cbn [fst snd].
      split; [exact G1|]. apply (pool_tinv_next _ _ _ dn o); auto.
    + destruct (owns (b_id b) (t_owned t)); cbn [fst snd]; [|auto].
      split; [apply act_put_buf_ok; auto|]. apply (pool_tinv_next _ _ _ dn o); auto.
    + pose proof (act_cache_get_ok E g re key G) as [G1 C1].
      destruct (act_cache_get g re key) as [g1 oo]; cbn [fst snd] in *.
      split; [exact G1|]. apply (pool_tinv_next _ _ _ dn o); auto.
    + destruct Y as [P Y]. cbn [fst snd].
      split; [apply act_cache_add_ok; auto|]. apply (pool_tinv_next _ _ _ dn o); auto.
  - subst cur. cbn [app] in O. destruct (t_rest t) as [|o rest] eqn:TR; cbn [fst snd]; [auto|].
    split; [exact G|]. exists dn, [o]. cbn [t_rest t_done t_cur]. split; [exact O|]. split; [exact D|].
    exists o. split; [reflexivity|]. exists (entry E fuel o). split; [apply entry_sim; assumption|reflexivity].
Qed.

Lemma Forall2_upd_nth : forall {A B} (P : A -> B -> Prop) l1 l2 i y,
  Forall2 P l1 l2 -> (forall x, nth_error l1 i = Some x -> P x y) -> Forall2 P l1 (upd_nth i y l2).
Proof.
  intros A B P l1 l2 i y H. revert i. induction H; intros i Hy; [destruct i; constructor|].
  destruct i; cbn [upd_nth]; constructor; auto; try (apply Hy; reflexivity); try (apply IHForall2; intros z Z; apply Hy; exact Z).
Qed.
Lemma Forall2_nth_error : forall {A B} (P : A -> B -> Prop) l1 l2 i y,
  Forall2 P l1 l2 -> nth_error l2 i = Some y -> exists x, nth_error l1 i = Some x /\ P x y.
Proof.
  intros A B P l1 l2 i y H. revert i. induction H; intros i Hy; [destruct i; discriminate|].
  destruct i; cbn in *; [inversion Hy; subst; eauto|auto].
Qed.

Definition pool_cinv (fuel : nat) (opss : list (list op)) (c : config) : Prop :=
  gstate_ok E (c_g c) /\ Forall2 (pool_tinv fuel) opss (c_threads c).

Lemma cstep_inv : forall fuel opss c i pk, pool_cinv fuel opss c -> pool_cinv fuel opss (cstep E fuel c i pk).
Proof.
  intros fuel opss c i pk [G T]. unfold cstep. destruct (nth_error (c_threads c) i) as [t|] eqn:N; [|split; auto].
  destruct (Forall2_nth_error _ _ _ _ _ T N) as (ops0 & N0 & TI).
  pose proof (tstep_inv fuel ops0 (c_g c) t pk G TI) as [G1 T1].
  destruct (tstep E fuel (c_g c) t pk) as [[g1 t1] bad]; cbn [fst snd] in *.
  split; cbn [c_g c_threads]; [exact G1|].
  apply Forall2_upd_nth; auto. intros x X. rewrite N0 in X. inversion X; subst. exact T1.
Qed.

Lemma run_sched_inv : forall fuel opss sched c, pool_cinv fuel opss c -> pool_cinv fuel opss (run_sched E fuel c sched).
Proof.
  induction sched as [|[i pk] s IH]; intros c H; cbn [run_sched]; auto. apply IH. apply cstep_inv; auto.
Qed.

Lemma spawn_inv : forall fuel ops, pool_tinv fuel ops (spawn ops).
Proof. intros. exists [], []. cbn. auto. Qed.

Lemma pool_cinv_init : forall fuel nre rsizes bsizes opss,
  pool_cinv fuel opss {| c_g := gstate0 nre rsizes bsizes; c_threads := map spawn opss; c_fault := false |}.
Proof.
  intros. split; cbn [c_g c_threads]; [apply gstate0_ok|].
  induction opss; cbn; constructor; auto using spawn_inv.
Qed.

End Histories.

(* ---------- the statements of Properties/C11.v and C12.v ---------- *)

Lemma init_match_resets :
  forall cfg r a, cfg_wf cfg -> runner_inv cfg r ->
  forall dl pos,
    view_of (start_watch dl (set_textpos (init_match cfg (sa_info a) (scan_header cfg r a)) pos)) (sa_quick a)
    = Some (canonical_view cfg (r_code r) a pos).
Proof. intros cfg r a W H. exact (proj2 (proj2 (proj2 (proj2 (proj2 (init_match_spec cfg r a W H)))))). Qed.

Lemma size_class_selection :
  forall sizes needed maxsz idx, pool_index sizes needed maxsz = Some idx ->
    needed <= nth idx sizes 0 /\ (idx < length sizes)%nat /\ maxsz <> 0 /\ (0 < maxsz -> nth idx sizes 0 <= maxsz).
Proof.
  intros sizes needed maxsz idx H. destruct (pool_index_spec _ _ _ _ H) as (A & B & C).
  split; [exact A|]. split; [exact B|]. split; [|exact C].
  intros X. subst. discriminate.
Qed.

Lemma cache_coherent_preserved :
  forall (E : env) re key d c, cache_ok E re c ->
    cache_ok E re (fst (cache_get key c)) /\
    (e_parse_repl E re key = Ok d -> cache_ok E re (cache_add (cfg_cache_max (e_cfg E re)) key d c)).
Proof.
  intros E re key d c H. split; [exact (proj1 (cache_get_ok E re key c H))|].
  intros P. exact (cache_add_ok E re key d c H P).
Qed.

Lemma lru_capacity :
  forall (E : env) re c, cache_ok E re c ->
    NoDup (map fst c) /\ (0 < cfg_cache_max (e_cfg E re) -> zlen c <= cfg_cache_max (e_cfg E re)).
Proof. intros E re c (_ & N & L). split; assumption. Qed.

Section Schedules.
Variable E : env.
Hypothesis WF : env_wf E.

Theorem history_independent : forall fuel nre rsizes bsizes h,
  snd (run_history E fuel h (gstate0 nre rsizes bsizes)) = map (fresh_result E fuel) (calls_of h).
Proof. intros. apply history_fresh; auto. apply gstate0_ok. Qed.

Theorem history_independent_any_state : forall fuel h g,
  gstate_ok E g -> snd (run_history E fuel h g) = map (fresh_result E fuel) (calls_of h).
Proof. intros. apply history_fresh; auto. Qed.

Theorem call_independent_of_state : forall fuel o g1 ch1 g2 ch2,
  gstate_ok E g1 -> gstate_ok E g2 -> snd (call E fuel o g1 ch1) = snd (call E fuel o g2 ch2).
Proof.
  intros fuel o g1 ch1 g2 ch2 G1 G2.
  destruct (call_fresh E WF fuel o g1 ch1 G1) as [A _]. destruct (call_fresh E WF fuel o g2 ch2 G2) as [B _]. congruence.
Qed.

Theorem state_ok_preserved : forall fuel o g ch, gstate_ok E g -> gstate_ok E (fst (call E fuel o g ch)).
Proof. intros. apply call_fresh; auto. Qed.

(* every scan, whatever its outcome (match, no match, stack limit, timeout, index fault), leaves the runner in
   a state that putRunner turns into a legal pooled runner *)
Theorem runner_ok_preserved : forall re r a,
  runner_inv (e_cfg E re) r -> runner_ok (e_cfg E re) (put_reset (fst (do_scan E re r a))).
Proof.
  intros re r a H. apply put_reset_ok. destruct WF as (W1 & _).
  apply (scan_facts (e_cfg E re) (e_interp E re) (e_deadline E) r a (W1 re) H).
Qed.

Theorem call_independent_of_runner : forall re r1 r2 a,
  runner_ok (e_cfg E re) r1 -> runner_ok (e_cfg E re) r2 -> snd (do_scan E re r1 a) = snd (do_scan E re r2 a).
Proof.
  intros re r1 r2 a O1 O2. destruct WF as (W1 & W2 & _). unfold do_scan.
  apply scan_independent; auto; try apply O1; try apply O2.
  destruct O1 as (_ & X & _), O2 as (_ & Y & _). congruence.
Qed.

Theorem buffers_transparent : forall g bk s maxsz pk,
  gstate_ok E g ->
  let '(g1, b, pooled) := act_get_buf g bk (zlen s) maxsz pk in
  zlen s <= b_cap b /\ exists b1, decode_into E b s = Some (b1, e_decode E s).
Proof.
  intros g bk s maxsz pk G. pose proof (act_get_buf_ok E g bk (zlen s) maxsz pk G) as H.
  destruct (act_get_buf g bk (zlen s) maxsz pk) as [[g1 b] pooled]. destruct H as [_ B]. split; [exact B|].
  destruct (decode_into_spec E b s WF B) as (b1 & D & _). eauto.
Qed.

Theorem interleaving_eq_sequential : forall fuel nre rsizes bsizes opss sched,
  let c := run_sched E fuel {| c_g := gstate0 nre rsizes bsizes; c_threads := map spawn opss; c_fault := false |} sched in
  forall i t, nth_error (c_threads c) i = Some t ->
  exists ops dn cur,
    nth_error opss i = Some ops /\ ops = dn ++ cur ++ t_rest t /\
    rev (t_done t) = map (fresh_result E fuel) dn /\
    (t_cur t = None -> cur = []).
Proof.
  intros fuel nre rsizes bsizes opss sched c i t N.
  pose proof (run_sched_inv E WF fuel opss sched _ (pool_cinv_init E fuel nre rsizes bsizes opss)) as [G T]. fold c in T.
  destruct (Forall2_nth_error _ _ _ _ _ T N) as (ops & N0 & (dn & cur & O & D & C)).
  exists ops, dn, cur. split; [exact N0|]. split; [exact O|]. split.
  - rewrite D. apply rev_involutive.
  - intros X. rewrite X in C. exact C.
Qed.

Theorem finished_goroutine : forall fuel nre rsizes bsizes opss sched,
  let c := run_sched E fuel {| c_g := gstate0 nre rsizes bsizes; c_threads := map spawn opss; c_fault := false |} sched in
  forall i t ops, nth_error (c_threads c) i = Some t -> nth_error opss i = Some ops ->
    t_cur t = None -> t_rest t = [] -> rev (t_done t) = map (fresh_result E fuel) ops.
Proof.
  intros fuel nre rsizes bsizes opss sched c i t ops N N0 TC TR.
  destruct (interleaving_eq_sequential fuel nre rsizes bsizes opss sched i t N) as (ops' & dn & cur & A & B & C & D).
  rewrite N0 in A. injection A as A. rewrite <- A in B. rewrite (D TC), TR in B. cbn in B. rewrite app_nil_r in B.
  rewrite B. exact C.
Qed.

Theorem shared_state_ok : forall fuel nre rsizes bsizes opss sched,
  gstate_ok E (c_g (run_sched E fuel {| c_g := gstate0 nre rsizes bsizes; c_threads := map spawn opss;
                                       c_fault := false |} sched)).
Proof. intros. apply (run_sched_inv E WF fuel opss sched _ (pool_cinv_init E fuel nre rsizes bsizes opss)). Qed.

End Schedules.

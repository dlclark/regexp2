(* C03, bump-along shortcut on the reference semantics (Model/Spec.v).
   When the pattern starts with an unbounded single-character loop followed by the
   UpdateBumpalong marker (syntax/tree.go:338-361), an attempt that fails at p also fails at every
   p' in (p, p + run], where run is the maximal run of the loop's character test from p: this is
   hypothesis (H3) of Proofs/ScanProofs.v for the real shortcut (runner.go:956-965 writes the
   position the loop reached, which is <= p + run, into the slot the scan resumes from). *)
From Verif Require Import Base.Prelude Model.Tree Model.Spec Model.Rewrite Model.Scan Proofs.SpecProofs Proofs.ScanProofs.

Section Bump.
Variable e : env.

Definition bp_prefix {A} (l' l : list A) : Prop := exists t, l = l' ++ t.

Lemma bp_bindl_prefix : forall {A B} (f : A -> res (list B)) (l' t : list A) r,
  bindl (l' ++ t) f = Ok r -> exists r', bindl l' f = Ok r' /\ bp_prefix r' r.
Proof.
  intros A B f l'. induction l' as [|a l' IH]; intros t r H.
  - exists []. split; [reflexivity | exists r; reflexivity].
  - cbn [app bindl] in H. destruct (f a) as [x| | |] eqn:Ea; try discriminate.
    cbn [bind] in H. destruct (bindl (l' ++ t) f) as [y| | |] eqn:Eb; try discriminate.
    cbn [bind] in H. inversion H; subst r.
    destruct (IH t y Eb) as (y' & Hy' & (t' & Ht')).
    exists (x ++ y'). split.
    + cbn [bindl]. rewrite Ea. cbn [bind]. rewrite Hy'. reflexivity.
    + exists t'. rewrite Ht'. rewrite app_assoc. reflexivity.
Qed.

Lemma bp_bindl_nil_in : forall {A B} (f : A -> res (list B)) (l : list A),
  bindl l f = Ok [] -> forall a, In a l -> f a = Ok [].
Proof.
  intros A B f l. induction l as [|b l IH]; intros H a Hin; [destruct Hin|].
  cbn [bindl] in H. destruct (f b) as [x| | |] eqn:Eb; try discriminate.
  cbn [bind] in H. destruct (bindl l f) as [y| | |] eqn:El; try discriminate.
  cbn [bind] in H. inversion H as [Hxy]. apply app_eq_nil in Hxy. destruct Hxy as [-> ->].
  destruct Hin as [<-|Hin]; [exact Eb | apply IH; [reflexivity | exact Hin]].
Qed.

Lemma bp_cda_app : forall n1 n2 a,
  count_down_aux (n1 + n2) a = count_down_aux n1 a ++ count_down_aux n2 (a - Z.of_nat n1).
Proof.
  induction n1 as [|n1 IH]; intros n2 a.
  - cbn. f_equal. lia.
  - cbn [Nat.add count_down_aux app]. f_equal. rewrite IH. f_equal. f_equal. lia.
Qed.

Lemma bp_cda_map_shift : forall {A} (g1 g2 : Z -> A) d,
  (forall j, g1 j = g2 (j + d)) ->
  forall n a, map g1 (count_down_aux n a) = map g2 (count_down_aux n (a + d)).
Proof.
  intros A g1 g2 d Hg. induction n as [|n IH]; intros a; [reflexivity|].
  cbn [count_down_aux map]. rewrite Hg. f_equal. rewrite IH. f_equal. f_equal. lia.
Qed.

Variable k : ckind.
Variable c : Z.
Variable ol : Z.                        (* the loop node's options *)
Hypothesis Hltr : is_rtl ol = false.

(* maximal run of the loop's character test from p *)
Definition bp_run (p : Z) : Z := run_len e k c ol (Z.to_nat (avail e ol p)) p.

Lemma bp_run_len_nonneg : forall maxn p, 0 <= run_len e k c ol maxn p.
Proof. intros maxn p. apply run_len_bounds. Qed.

Lemma bp_run_step : forall p,
  bp_run p = if (0 <? tlen e - p) && char_test e k c (char_at e p) then 1 + bp_run (p + 1) else 0.
Proof.
  intros p. unfold bp_run, avail. rewrite Hltr.
  destruct (Z.to_nat (tlen e - p)) as [|m] eqn:Em.
  - cbn [run_len]. assert (H : (0 <? tlen e - p) = false) by lia. rewrite H. reflexivity.
  - cbn [run_len]. unfold avail, next_char, dir. rewrite Hltr.
    replace (Z.to_nat (tlen e - (p + 1))) with m by lia. reflexivity.
Qed.

Lemma bp_run_shift : forall d p,
  Z.of_nat d <= bp_run p -> bp_run (p + Z.of_nat d) = bp_run p - Z.of_nat d.
Proof.
  induction d as [|d IH]; intros p Hd.
  - replace (p + Z.of_nat 0) with p by lia. lia.
  - rewrite (bp_run_step p) in Hd |- *.
    destruct ((0 <? tlen e - p) && char_test e k c (char_at e p)); [|lia].
    replace (p + Z.of_nat (S d)) with ((p + 1) + Z.of_nat d) by lia.
    rewrite IH; lia.
Qed.

(* closed form of the loop's result list for a left-to-right unbounded loop *)
Definition bp_shift (s : st) (d : Z) : st := with_pos s (pos s + d).

Lemma bp_charloop_ltr : forall l m s,
  sem_charloop e k l ol c m INF s =
  let r := bp_run (pos s) in
  if r <? m then [] else
  match l with
  | LGreedy => map (bp_shift s) (count_down r m)
  | LLazy => map (bp_shift s) (count_up m r)
  | LAtomic => [bp_shift s r]
  end.
Proof.
  intros l m s. unfold sem_charloop. rewrite Z.eqb_refl. fold (bp_run (pos s)). cbv zeta.
  destruct (bp_run (pos s) <? m); [reflexivity|].
  assert (Hmk : forall j, with_pos s (pos s + dir ol * j) = bp_shift s j).
  { intros j. unfold bp_shift, dir. rewrite Hltr. f_equal. lia. }
  destruct l.
  - apply map_ext. exact Hmk.
  - apply map_ext. exact Hmk.
  - rewrite Hmk. reflexivity.
Qed.

Lemma bp_shift_shift : forall s d j, bp_shift (bp_shift s d) j = bp_shift s (j + d).
Proof. intros s d j. unfold bp_shift, with_pos. cbn [pos caps]. f_equal. lia. Qed.

(* greedy / atomic: the results from p+d are a prefix of the results from p *)
Lemma bp_charloop_prefix : forall l m s d,
  l <> LLazy -> 0 < d <= bp_run (pos s) ->
  bp_prefix (sem_charloop e k l ol c m INF (bp_shift s d)) (sem_charloop e k l ol c m INF s).
Proof.
  intros l m s d Hl Hd. rewrite !bp_charloop_ltr. cbv zeta.
  assert (Hr : bp_run (pos (bp_shift s d)) = bp_run (pos s) - d).
  { unfold bp_shift, with_pos. cbn [pos]. replace d with (Z.of_nat (Z.to_nat d)) by lia.
    apply bp_run_shift. lia. }
  rewrite Hr. set (r := bp_run (pos s)) in *.
  destruct (r - d <? m) eqn:E1; [eexists; reflexivity|].
  assert (E2 : (r <? m) = false) by lia. rewrite E2.
  destruct l; [|congruence|].
  - unfold count_down. assert (E3 : (r - d <? m) = false) by lia.
    assert (E4 : (r <? m) = false) by lia. rewrite E3, E4.
    rewrite (bp_cda_map_shift (bp_shift (bp_shift s d)) (bp_shift s) d (bp_shift_shift s d)).
    replace (r - d + d) with r by lia.
    replace (Z.to_nat (r - m + 1)) with (Z.to_nat (r - d - m + 1) + Z.to_nat d)%nat by lia.
    rewrite bp_cda_app, map_app. eexists; reflexivity.
  - exists []. rewrite bp_shift_shift. replace (r - d + d) with r by lia. reflexivity.
Qed.

(* any kind (greedy, lazy, atomic): every result from p+d is a result from p *)
Lemma bp_charloop_incl : forall l m s d,
  0 < d <= bp_run (pos s) ->
  incl (sem_charloop e k l ol c m INF (bp_shift s d)) (sem_charloop e k l ol c m INF s).
Proof.
  intros l m s d Hd.
  destruct l.
  - destruct (bp_charloop_prefix LGreedy m s d) as [t Ht]; [discriminate | exact Hd |].
    rewrite Ht. apply incl_appl, incl_refl.
  - rewrite !bp_charloop_ltr. cbv zeta.
    assert (Hr : bp_run (pos (bp_shift s d)) = bp_run (pos s) - d).
    { unfold bp_shift, with_pos. cbn [pos]. replace d with (Z.of_nat (Z.to_nat d)) by lia.
      apply bp_run_shift. lia. }
    rewrite Hr. set (r := bp_run (pos s)) in *.
    destruct (r - d <? m) eqn:E1; [intros x Hx; destruct Hx|].
    assert (E2 : (r <? m) = false) by lia. rewrite E2.
    intros x Hx. apply in_map_iff in Hx. destruct Hx as (j & <- & Hj).
    apply count_up_in in Hj. rewrite bp_shift_shift.
    apply in_map. apply count_up_in. lia.
  - destruct (bp_charloop_prefix LAtomic m s d) as [t Ht]; [discriminate | exact Hd |].
    rewrite Ht. apply incl_appl, incl_refl.
Qed.

(* ---------- the shapes the parser produces ---------- *)
(* the concatenation the marker is inserted into: loop, marker, anything *)
Definition bp_core (l : lkind) (o m : Z) (rest : list node) : node :=
  NConcat o (NCharLoop k l ol c m INF :: NBump :: rest).

(* greedy or atomic loop: the concatenation may sit under any nesting of atomic groups and of
   concatenations whose FIRST child leads to it (tree.go:340-347 walks exactly these) *)
Inductive bp_shape_g : node -> Prop :=
| BSG_core : forall l o m rest, l <> LLazy -> bp_shape_g (bp_core l o m rest)
| BSG_atomic : forall t, bp_shape_g t -> bp_shape_g (NAtomic t)
| BSG_concat : forall o t rest, bp_shape_g t -> bp_shape_g (NConcat o (t :: rest)).

(* any loop kind, lazy included: only atomic groups above the concatenation (the whole pattern is
   then the concatenation, so a failed attempt has tried every length of the loop) *)
Inductive bp_shape_a : node -> Prop :=
| BSA_core : forall l o m rest, bp_shape_a (bp_core l o m rest)
| BSA_atomic : forall t, bp_shape_a t -> bp_shape_a (NAtomic t).

Lemma bp_sem_concat_cons : forall f o x l s,
  sem e (S f) (NConcat o (x :: l)) s = bindr (sem e f x s) (seq_sem (sem e f) l).
Proof. reflexivity. Qed.

Lemma bp_sem_atomic : forall f t s, sem e (S f) (NAtomic t) s = first_only (sem e f t s).
Proof. reflexivity. Qed.

Lemma bp_sem_charloop : forall f l m s,
  sem e (S f) (NCharLoop k l ol c m INF) s = Ok (sem_charloop e k l ol c m INF s).
Proof. reflexivity. Qed.

Lemma bp_shape_g_prefix : forall t, bp_shape_g t ->
  forall f s l d, 0 < d <= bp_run (pos s) ->
  sem e f t s = Ok l ->
  exists l', sem e f t (bp_shift s d) = Ok l' /\ bp_prefix l' l.
Proof.
  intros t Ht. induction Ht as [l o m rest Hl | t Ht IH | o t rest Ht IH]; intros f s res d Hd Hs.
  - destruct f as [|f]; [discriminate|]. unfold bp_core in *.
    rewrite bp_sem_concat_cons in Hs |- *.
    apply sp_bindr_ok in Hs. destruct Hs as (l0 & Hl0 & Hb).
    destruct f as [|f]; [discriminate|].
    rewrite bp_sem_charloop in Hl0 |- *. inversion Hl0; subst l0.
    destruct (bp_charloop_prefix l m s d Hl Hd) as [t0 Ht0].
    rewrite Ht0 in Hb. apply bp_bindl_prefix in Hb. exact Hb.
  - destruct f as [|f]; [discriminate|].
    rewrite bp_sem_atomic in Hs |- *.
    unfold first_only in Hs |- *.
    destruct (sem e f t s) as [l0| | |] eqn:E0; try discriminate.
    cbn [bind] in Hs. inversion Hs; subst res.
    destruct (IH f s l0 d Hd E0) as (l0' & Hl0' & (t0 & Ht0)).
    rewrite Hl0'. cbn [bind]. eexists. split; [reflexivity|].
    destruct l0' as [|a l0']; [eexists; reflexivity|].
    rewrite Ht0. cbn [app]. exists []. reflexivity.
  - destruct f as [|f]; [discriminate|].
    rewrite bp_sem_concat_cons in Hs |- *.
    apply sp_bindr_ok in Hs. destruct Hs as (l0 & Hl0 & Hb).
    destruct (IH f s l0 d Hd Hl0) as (l0' & Hl0' & (t0 & Ht0)).
    rewrite Hl0'. unfold bindr. cbn [bind]. rewrite Ht0 in Hb.
    apply bp_bindl_prefix in Hb. exact Hb.
Qed.

Lemma bp_shape_a_nil : forall t, bp_shape_a t ->
  forall f s d, 0 < d <= bp_run (pos s) ->
  sem e f t s = Ok [] -> sem e f t (bp_shift s d) = Ok [].
Proof.
  intros t Ht. induction Ht as [l o m rest | t Ht IH]; intros f s d Hd Hs.
  - destruct f as [|f]; [discriminate|]. unfold bp_core in *.
    rewrite bp_sem_concat_cons in Hs |- *.
    apply sp_bindr_ok in Hs. destruct Hs as (l0 & Hl0 & Hb).
    destruct f as [|f]; [discriminate|].
    rewrite bp_sem_charloop in Hl0 |- *. inversion Hl0; subst l0.
    unfold bindr. cbn [bind]. apply bindl_all_nil. intros a Ha.
    apply (bp_bindl_nil_in _ _ Hb). apply (bp_charloop_incl l m s d Hd). exact Ha.
  - destruct f as [|f]; [discriminate|].
    rewrite bp_sem_atomic in Hs |- *. unfold first_only in Hs |- *.
    destruct (sem e f t s) as [l0| | |] eqn:E0; try discriminate.
    cbn [bind] in Hs. destruct l0 as [|a l0]; [|discriminate].
    rewrite (IH f s d Hd E0). reflexivity.
Qed.

Lemma bp_attempt_none : forall fuel o body p,
  attempt e fuel (NCapture o 0 (-1) body) p = Ok None <->
  exists f, fuel = S f /\ sem e f body {| pos := p; caps := [] |} = Ok [].
Proof.
  intros fuel o body p. unfold attempt. split.
  - intros H. destruct fuel as [|f]; [discriminate|]. exists f. split; [reflexivity|].
    cbn [sem] in H. change (-1 =? -1) with true in H. cbv iota in H.
    destruct (sem e f body {| pos := p; caps := [] |}) as [l0| | |] eqn:E0; try discriminate.
    destruct l0 as [|a l0]; [reflexivity|]. exfalso.
    unfold bindr in H. cbn [bind bindl] in H.
    destruct (bindl l0 _) as [y| | |]; cbn [bind app] in H; discriminate.
  - intros (f & -> & H). cbn [sem]. change (-1 =? -1) with true. cbv iota.
    rewrite H. reflexivity.
Qed.

Theorem bp_bump_sound : forall fuel o body p,
  bp_shape_g body \/ bp_shape_a body ->
  attempt e fuel (NCapture o 0 (-1) body) p = Ok None ->
  forall p', p < p' <= p + bp_run p ->
  attempt e fuel (NCapture o 0 (-1) body) p' = Ok None.
Proof.
  intros fuel o body p Hshape Hfail p' Hp'.
  apply bp_attempt_none in Hfail. destruct Hfail as (f & -> & Hs).
  apply bp_attempt_none. exists f. split; [reflexivity|].
  set (s := {| pos := p; caps := [] |}) in *.
  assert (Hd : 0 < p' - p <= bp_run (pos s)) by (cbn [pos s]; lia).
  replace {| pos := p'; caps := [] |} with (bp_shift s (p' - p))
    by (unfold bp_shift, with_pos, s; cbn [pos caps]; f_equal; lia).
  destruct Hshape as [Hg|Ha].
  - destruct (bp_shape_g_prefix body Hg f s [] (p' - p) Hd Hs) as (l' & Hl' & (t & Ht)).
    symmetry in Ht. apply app_eq_nil in Ht. destruct Ht as [-> _]. exact Hl'.
  - exact (bp_shape_a_nil body Ha f s (p' - p) Hd Hs).
Qed.

End Bump.

(* ------------------------------------------------------------------------------------------
   Links between the abstract loop of Model/Scan.v and the reference semantics. *)

Section SpecLink.
Variable e : env.
Variable fuel : nat.
Variable root : node.

(* one attempt of the reference semantics as an [exec] component; [bumpq p] is where a failed
   attempt leaves Runtextpos (p itself without the shortcut) *)
Definition bp_exec (bumpq : Z -> Z) (p : Z) : option st * Z :=
  match attempt e fuel root p with
  | Ok (Some s) => (Some s, p)
  | Ok None => (@None st, bumpq p)
  | _ => (@None st, p)
  end.

(* [Spec.find] is the naive scan over the attempts (whenever the attempts have enough fuel) *)
Lemma bp_scan_from_naive : forall (rtl : bool) bumpq k p fuel',
  (forall x, 0 <= x <= tlen e -> exists r, attempt e fuel root x = Ok r) ->
  0 <= p <= tlen e ->
  (Z.to_nat (if rtl then p else tlen e - p) < k)%nat ->
  (Z.to_nat (if rtl then p else tlen e - p) < fuel')%nat ->
  scan_from e fuel k root rtl p = naive_loop (tlen e) rtl (bp_exec bumpq) fuel' p.
Proof.
  intros rtl bumpq k. induction k as [|k IH]; intros p fuel' Hok Hp Hk Hf; [lia|].
  destruct fuel' as [|f']; [lia|].
  rewrite sc_naive_loop_S. cbn [scan_from]. unfold bp_exec at 1.
  destruct (Hok p Hp) as [r Hr]. rewrite Hr. cbn [bind].
  destruct r as [s|]; [reflexivity|]. cbn [fst].
  unfold stoppos, bump.
  destruct rtl.
  - destruct (p <=? 0) eqn:E1; destruct (p =? 0) eqn:E2; try lia; [reflexivity|].
    replace (p + -1) with (p - 1) by lia. apply IH; try assumption; lia.
  - destruct (tlen e <=? p) eqn:E1; destruct (p =? tlen e) eqn:E2; try lia; [reflexivity|].
    apply IH; try assumption; lia.
Qed.

Theorem bp_find_naive_scan : forall (rtl : bool) bumpq start prevlen,
  (forall x, 0 <= x <= tlen e -> exists r, attempt e fuel root x = Ok r) ->
  0 <= start <= tlen e ->
  find e fuel root rtl start prevlen = naive_scan (tlen e) rtl (bp_exec bumpq) start prevlen.
Proof.
  intros rtl bumpq start prevlen Hok Hs.
  pose proof (bp_scan_from_naive rtl bumpq) as L. unfold naive_loop in L.
  unfold find, naive_scan, scan, stoppos, bump, scan_fuel.
  destruct (prevlen =? 0) eqn:Ep; cbn [andb].
  - destruct rtl.
    + destruct (start =? 0) eqn:E; [reflexivity|].
      replace (start + -1) with (start - 1) by lia.
      apply L; try assumption; lia.
    + destruct (start =? tlen e) eqn:E; [reflexivity|].
      apply L; try assumption; lia.
  - destruct rtl; apply L; try assumption; lia.
Qed.

(* (H3) holds for the real bump-along shortcut on the shapes of [bp_bump_sound]: whatever position
   in [p, p + run] a failed attempt leaves behind *)
Variable k : ckind.
Variable c : Z.
Variable ol : Z.
Hypothesis Hltr : is_rtl ol = false.

Theorem bp_H3 : forall o body bumpq,
  root = NCapture o 0 (-1) body ->
  bp_shape_g k c ol body \/ bp_shape_a k c ol body ->
  (forall p, p <= bumpq p <= p + bp_run e k c ol p) ->
  sc_H3 st (tlen e) false (bp_exec bumpq).
Proof.
  intros o body bumpq Hroot Hshape Hq p q Hp Hex.
  unfold sc_in_text, sc_ord in *.
  assert (Hrun : bp_run e k c ol p <= tlen e - p).
  { unfold bp_run. pose proof (proj2 (run_len_bounds e k c ol (Z.to_nat (avail e ol p)) p)) as H.
    unfold avail in *. rewrite Hltr in *. lia. }
  unfold bp_exec in Hex.
  destruct (attempt e fuel root p) as [[s|]| | |] eqn:Ea; inversion Hex; subst q.
  - specialize (Hq p). repeat split; try lia.
    intros x Hx1 Hx2. unfold sc_fails, bp_exec.
    assert (Hc : x = p \/ p < x) by lia. destruct Hc as [->|Hc].
    + rewrite Ea. reflexivity.
    + subst root. rewrite (bp_bump_sound e k c ol Hltr fuel o body p Hshape Ea x); [reflexivity | lia].
  - repeat split; try lia. intros x Hx1 Hx2. assert (x = p) by lia. subst x.
    unfold sc_fails, bp_exec. rewrite Ea. reflexivity.
  - repeat split; try lia. intros x Hx1 Hx2. assert (x = p) by lia. subst x.
    unfold sc_fails, bp_exec. rewrite Ea. reflexivity.
  - repeat split; try lia. intros x Hx1 Hx2. assert (x = p) by lia. subst x.
    unfold sc_fails, bp_exec. rewrite Ea. reflexivity.
Qed.

End SpecLink.

(* compile_correct for NAtomic, NPosLook, NNegLook (Setjump / Forejump / Backjump = cut). *)
From Verif Require Import Base.Prelude Model.Tree Model.Spec Model.VM Model.Writer Gen.RunnerGen
  Proofs.SpecProofs Proofs.SpecBoundsProofs Proofs.MaskProofs
  Proofs.VMU Proofs.VMUOps Proofs.VMUOps2 Proofs.VMUOps6 Proofs.CompileBase Proofs.CompileDefs.
From Coq Require Import Relations ZifyBool.

Section CC.
Variable e : env.
Variable p : program.
Hypothesis tc_nonneg : 0 <= trackcount p.
Variable R : caps_t -> list (list Z) -> Prop.

Notation rsteps := (VMUOps2.rsteps e p).
Notation leadsR := (CompileBase.leadsR e p R).
Notation has_code := (CompileBase.has_code p).
Notation track_ok := (CompileBase.track_ok p).
Notation code_ex := (CompileDefs.code_ex p).
Notation ok_nodeR := (CompileDefs.ok_nodeR e p R).

(* the frame [pcF; zlen C] a Forejump leaves: re-entering it undoes the captures and fails *)
Lemma cc_forejump_result b pcF T Sk C C' M M' s q :
  code_at p pcF = Some Forejump -> track_ok T -> R (caps q) M' -> unwind C' M' = Some M ->
  rsteps s (mkr b 0 (pos q) (pcF :: zlen C :: T) Sk (C' ++ C) M') ->
  leadsR b T Sk Sk C M s [q].
Proof.
  intros HF Hk Hcq Hu Hs. pose proof (code_at_nonneg p _ _ HF) as HpF.
  exists [pcF; zlen C], C', M'. cbn [app].
  split; [exact Hcq|]. split; [exact Hu|].
  split. { eapply track_ok_cons. rewrite Z.abs_eq by lia. exact HF. }
  split; [exact Hs|].
  intros np T'' t HT. injection HT as <- <-. rewrite bkr_pos by lia.
  destruct Hk as (np' & T3 & -> & w3 & Hw3).
  eapply leadsR_fail; [reflexivity|].
  eapply rs_forejump_back; try exact tc_nonneg; eassumption.
Qed.

Lemma cc_atomic f r : ok_nodeR f r -> ok_nodeR (S f) (NAtomic r).
Proof.
  intros Hokr s res Hsem Hst a tbl T S0 C M Hc Hex Hk Hr Htb.
  cbn [sem] in Hsem. apply sp_first_only_ok in Hsem. destruct Hsem as (l0 & Hl0 & ->).
  cbn [emit csize] in Hc, Hex, Htb |- *.
  pose proof (emit_length cfg0 r (a + 1) tbl) as Lr.
  destruct (emit cfg0 r (a + 1) tbl) as [cr t1] eqn:Er. cbn [fst snd] in Lr, Hc, Htb.
  apply has_code_cons in Hc. destruct Hc as [H0 Hc].
  apply has_code_app in Hc. destruct Hc as [Hcr Hc]. rewrite Lr in Hc.
  apply has_code_cons in Hc. destruct Hc as [HF _].
  set (m := a + 1 + csize cfg0 r) in *.
  replace (a + (1 + csize cfg0 r + 1)) with (m + 1) in * by (unfold m; lia).
  pose proof (code_at_nonneg p _ _ H0) as Ha.
  destruct Hex as [wx Hwx].
  assert (Hex1 : code_ex (a + 1)).
  { eapply cc_code_ex_start; [exact Hcr|]. rewrite Lr. exists Forejump. exact HF. }
  destruct Hex1 as [w1 Hw1].
  set (S1 := zlen C :: zlen T + 1 :: S0).
  assert (G : leadsR m (a :: T) S1 S1 C M (mkr (a + 1) 0 (pos s) (a :: T) S1 C M) l0).
  { apply (Hokr s l0 Hl0 Hst (a + 1) tbl (a :: T) S1 C M).
    - rewrite Er. exact Hcr.
    - exists Forejump. exact HF.
    - eapply track_ok_cons. rewrite Z.abs_eq by lia. exact H0.
    - exact Hr.
    - rewrite Er. exact Htb. }
  eapply leadsR_pre. { eapply rs_setjump; try exact tc_nonneg; eassumption. }
  fold S1. destruct l0 as [|q l0].
  - cbn [leadsR] in G. destruct G as (np & T' & t & HT & Hs). injection HT as <- <-.
    rewrite bkr_pos in Hs by lia. destruct Hk as (np' & T3 & -> & w3 & Hw3).
    eapply leadsR_fail; [reflexivity|].
    eapply rsteps_trans; [exact Hs|]. eapply rs_setjump_back; try exact tc_nonneg; eassumption.
  - cbn [leadsR] in G. destruct G as (T' & C' & M' & Hcq & Hu & Hkq & Hs & _).
    eapply cc_forejump_result with (pcF := m) (C' := C') (M' := M'); try eassumption.
    eapply rsteps_trans; [exact Hs|].
    replace (T' ++ a :: T) with ((T' ++ [a]) ++ T) by (rewrite <- app_assoc; reflexivity).
    eapply rs_forejump; try exact tc_nonneg; eassumption.
Qed.

Lemma cc_poslook f o r : ok_nodeR f r -> ok_nodeR (S f) (NPosLook o r).
Proof.
  intros Hokr s res Hsem Hst a tbl T S0 C M Hc Hex Hk Hr Htb.
  cbn [sem] in Hsem. apply sp_bind_ok in Hsem. destruct Hsem as (l1 & Hl1 & Hres). injection Hres as <-.
  apply sp_first_only_ok in Hl1. destruct Hl1 as (l0 & Hl0 & ->).
  cbn [emit csize] in Hc, Hex, Htb |- *.
  pose proof (emit_length cfg0 r (a + 2) tbl) as Lr.
  destruct (emit cfg0 r (a + 2) tbl) as [cr t1] eqn:Er. cbn [fst snd] in Lr, Hc, Htb.
  apply has_code_cons in Hc. destruct Hc as [H0 Hc]. apply has_code_cons in Hc. destruct Hc as [H1 Hc].
  replace (a + 1 + 1) with (a + 2) in Hc by lia.
  apply has_code_app in Hc. destruct Hc as [Hcr Hc]. rewrite Lr in Hc.
  apply has_code_cons in Hc. destruct Hc as [HG Hc]. apply has_code_cons in Hc. destruct Hc as [HF _].
  set (m := a + 2 + csize cfg0 r) in *.
  replace (a + (2 + csize cfg0 r + 2)) with (m + 2) in * by (unfold m; lia).
  replace (m + 1 + 1) with (m + 2) in * by lia.
  pose proof (code_at_nonneg p _ _ H0) as Ha.
  destruct Hex as [wx Hwx].
  assert (Hex1 : code_ex (a + 2)).
  { eapply cc_code_ex_start; [exact Hcr|]. rewrite Lr. exists Getmark. exact HG. }
  destruct Hex1 as [w1 Hw1].
  set (S1 := zlen C :: zlen T + 1 :: S0).
  assert (G : leadsR m (a + 1 :: a :: T) (pos s :: S1) (pos s :: S1) C M
                     (mkr (a + 2) 0 (pos s) (a + 1 :: a :: T) (pos s :: S1) C M) l0).
  { apply (Hokr s l0 Hl0 Hst (a + 2) tbl (a + 1 :: a :: T) (pos s :: S1) C M).
    - rewrite Er. exact Hcr.
    - exists Getmark. exact HG.
    - eapply track_ok_cons. rewrite Z.abs_eq by lia. exact H1.
    - exact Hr.
    - rewrite Er. exact Htb. }
  eapply leadsR_pre.
  { eapply rsteps_trans; [eapply rs_setjump; try exact tc_nonneg; eassumption|].
    replace (a + 2) with (a + 1 + 1) by lia. eapply rs_setmark; try exact tc_nonneg; try eassumption.
    replace (a + 1 + 1) with (a + 2) by lia. exact Hw1. }
  replace (a + 1 + 1) with (a + 2) by lia. fold S1. destruct l0 as [|q l0]; cbn [map].
  - cbn [leadsR] in G. destruct G as (np & T' & t & HT & Hs). injection HT as <- <-.
    rewrite bkr_pos in Hs by lia. pose proof Hk as (np' & T3 & HT3 & w3 & Hw3).
    eapply leadsR_fail; [exact HT3|].
    eapply rsteps_trans; [exact Hs|].
    eapply rsteps_trans.
    { eapply rs_mark_back with (w := Setmark); try exact tc_nonneg; try eassumption.
      - left. reflexivity.
      - rewrite Z.abs_eq by lia. exact H0. }
    rewrite bkr_pos by lia. rewrite HT3. eapply rs_setjump_back; try exact tc_nonneg; eassumption.
  - cbn [leadsR] in G. destruct G as (T' & C' & M' & Hcq & Hu & Hkq & Hs & _).
    eapply cc_forejump_result with (pcF := m + 1) (C' := C') (M' := M') (q := with_pos q (pos s)); try eassumption.
    cbn [pos with_pos].
    eapply rsteps_trans; [exact Hs|].
    eapply rsteps_trans; [eapply rs_getmark; try exact tc_nonneg; eassumption|].
    replace (m :: pos s :: T' ++ a + 1 :: a :: T) with ((m :: pos s :: T' ++ [a + 1; a]) ++ T)
      by (cbn [app]; rewrite <- app_assoc; reflexivity).
    replace (m + 2) with (m + 1 + 1) by lia.
    eapply rs_forejump; try exact tc_nonneg; try eassumption.
    replace (m + 1 + 1) with (m + 2) by lia. exact Hwx.
Qed.

Lemma cc_neglook f o r : ok_nodeR f r -> ok_nodeR (S f) (NNegLook o r).
Proof.
  intros Hokr s res Hsem Hst a tbl T S0 C M Hc Hex Hk Hr Htb.
  cbn [sem] in Hsem. apply sp_bind_ok in Hsem. destruct Hsem as (l0 & Hl0 & Hres). injection Hres as <-.
  cbn [emit csize] in Hc, Hex, Htb |- *.
  pose proof (emit_length cfg0 r (a + 3) tbl) as Lr.
  destruct (emit cfg0 r (a + 3) tbl) as [cr t1] eqn:Er. cbn [fst snd] in Lr, Hc, Htb. rewrite Lr in Hc.
  apply has_code_cons in Hc. destruct Hc as [H0 Hc]. apply has_code_cons in Hc. destruct Hc as [H1 Hc].
  apply has_code_cons in Hc. destruct Hc as [H2 Hc].
  replace (a + 1 + 1 + 1) with (a + 3) in Hc by lia.
  apply has_code_app in Hc. destruct Hc as [Hcr Hc]. rewrite Lr in Hc.
  apply has_code_cons in Hc. destruct Hc as [HB Hc]. apply has_code_cons in Hc. destruct Hc as [HF _].
  set (m := a + 3 + csize cfg0 r) in *.
  replace (a + (3 + csize cfg0 r + 2)) with (m + 2) in * by (unfold m; lia).
  pose proof (code_at_nonneg p _ _ H0) as Ha.
  destruct Hex as [wx Hwx].
  assert (Hex1 : code_ex (a + 3)).
  { eapply cc_code_ex_start; [exact Hcr|]. rewrite Lr. exists Backjump. exact HB. }
  destruct Hex1 as [w1 Hw1].
  set (S1 := zlen C :: zlen T + 1 :: S0).
  pose proof Hk as (np' & T3 & HT3 & w3 & Hw3).
  assert (G : leadsR m (a + 1 :: pos s :: a :: T) S1 S1 C M
                     (mkr (a + 3) 0 (pos s) (a + 1 :: pos s :: a :: T) S1 C M) l0).
  { apply (Hokr s l0 Hl0 Hst (a + 3) tbl (a + 1 :: pos s :: a :: T) S1 C M).
    - rewrite Er. exact Hcr.
    - exists Backjump. exact HB.
    - eapply track_ok_cons. rewrite Z.abs_eq by lia. exact H1.
    - exact Hr.
    - rewrite Er. exact Htb. }
  eapply leadsR_pre.
  { eapply rsteps_trans; [eapply rs_setjump; try exact tc_nonneg; eassumption|].
    replace (a + 3) with (a + 1 + 2) by lia. eapply rs_lazybranch; try exact tc_nonneg; try eassumption.
    replace (a + 1 + 2) with (a + 3) by lia. exact Hw1. }
  replace (a + 1 + 2) with (a + 3) by lia. fold S1. destruct l0 as [|q l0].
  - cbn [leadsR] in G. destruct G as (np & T' & t & HT & Hs). injection HT as <- <-.
    rewrite bkr_pos in Hs by lia.
    eapply cc_forejump_result with (pcF := m + 1) (C' := []) (M' := M) (q := s); try eassumption; try reflexivity.
    eapply rsteps_trans; [exact Hs|].
    eapply rsteps_trans.
    { eapply rs_lazybranch_back; try exact tc_nonneg; eassumption. }
    replace (a + 3 + csize cfg0 r + 1) with (m + 1) by (unfold m; lia).
    replace (m + 2) with (m + 1 + 1) by lia.
    change (a :: T) with ([a] ++ T).
    eapply rs_forejump; try exact tc_nonneg; try eassumption.
    replace (m + 1 + 1) with (m + 2) by lia. exact Hwx.
  - cbn [leadsR] in G. destruct G as (T' & C' & M' & Hcq & Hu & Hkq & Hs & _).
    eapply leadsR_fail; [exact HT3|].
    eapply rsteps_trans; [exact Hs|].
    rewrite HT3.
    replace (T' ++ a + 1 :: pos s :: a :: np' :: T3) with ((T' ++ [a + 1; pos s; a]) ++ np' :: T3)
      by (rewrite <- app_assoc; reflexivity).
    unfold S1. rewrite HT3.
    eapply rs_backjump; try exact tc_nonneg; eassumption.
Qed.

(* results delivered over a Forejump frame [pcF; zlen C] (possibly with captures C' made before the
   cut): when they are exhausted the frame undoes C' and fails into the base *)
Lemma cc_over_forejump b pcF T Sk C C' M M' s res :
  code_at p pcF = Some Forejump -> track_ok T -> unwind C' M' = Some M ->
  leadsR b (pcF :: zlen C :: T) Sk Sk (C' ++ C) M' s res ->
  leadsR b T Sk Sk C M s res.
Proof.
  intros HF Hk Hu G. pose proof (code_at_nonneg p _ _ HF) as HpF.
  rewrite <- (app_nil_r res).
  eapply leadsR_app with (T1 := [pcF; zlen C]) (Cx := C') (Sf1 := Sk) (M1 := M'); [exact G|exact Hu|].
  intros np T' t HT. cbn [app] in HT. injection HT as <- <-. rewrite bkr_pos by lia.
  destruct Hk as (np' & T3 & -> & w3 & Hw3).
  eapply leadsR_fail; [reflexivity|].
  eapply rs_forejump_back; try exact tc_nonneg; eassumption.
Qed.

End CC.

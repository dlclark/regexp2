(* C20 — case-insensitive matching ignores case, on the reference semantics Model/Spec.v.

   [sim] is an abstract "same letter up to case" relation on runes (only reflexivity and symmetry
   are ever used).  Two environments [e], [e'] agree on everything but the text; the texts have the
   same length and are pointwise [sim].  [ci_closed e t] says that every character test in the
   tree [t] respects [sim]; it is exactly the shape of tree the parser builds under IgnoreCase
   (cased literal -> case-closed Set, class and subtraction closed under case, One/Notone only
   for characters without case variants, Multi/Ref compared through ToLower).  The oracle facts a
   leaf needs (ToLower / IsWordChar / IsECMAWordChar respect [sim], newline has no case variant)
   are part of [ci_closed] for the leaves that use them, so a tree without such leaves needs no
   assumption on the oracle at all.

   Main theorem [ci_input_invariant]: sem e' fuel t s = sem e fuel t s  for every fuel and state
   (identical result LISTS: positions, captures, order), hence [attempt], [scan_from], [find]
   (both directions, every start offset) and their CPS twins agree. *)
From Verif Require Import Base.Prelude Model.Tree Model.Spec Proofs.SpecProofs.
From Coq Require Import ZifyBool.

Section CaseInvariance.

Variable sim : Z -> Z -> Prop.
Hypothesis sim_refl : forall x, sim x x.
Hypothesis sim_sym : forall x y, sim x y -> sim y x.

(* c has no case variant *)
Definition caseless (c : Z) : Prop := forall x, sim x c -> x = c.
(* a predicate / function on runes does not see case *)
Definition resp_b (f : Z -> bool) : Prop := forall x y, sim x y -> f x = f y.
Definition resp_z (f : Z -> Z) : Prop := forall x y, sim x y -> f x = f y.

Section Closed.
Variable e : env.

Definition ci_leaf (k : ckind) (c : Z) : Prop :=
  match k with
  | COne | CNotone => caseless c
  | CSet => resp_b (set_in e c)
  end.

Definition ci_anchor (a : anchor) : Prop :=
  match a with
  | ABol | AEol | AEndZ => caseless 10
  | ABoundary | ANonboundary => resp_b (is_word e)
  | AECMABoundary | ANonECMABoundary => resp_b (is_eword e)
  | ABeginning | AStart | AEnd => True
  end.

(* every character test of the tree respects [sim] *)
Fixpoint ci_closed (t : node) : Prop :=
  match t with
  | NChar k _ c => ci_leaf k c
  | NCharLoop k _ _ c _ _ => ci_leaf k c
  | NMulti o str => if is_ci o then resp_z (lower e) else Forall caseless str
  | NRef o _ => is_ci o = true /\ resp_z (lower e)
  | NAnchor a => ci_anchor a
  | NNothing | NEmpty | NBump => True
  | NConcat _ l | NAlternate _ l =>
      (fix all (l : list node) : Prop :=
         match l with [] => True | x :: l' => ci_closed x /\ all l' end) l
  | NLoop _ _ _ _ r | NCapture _ _ _ r | NGroup r | NPosLook _ r | NNegLook _ r | NAtomic r =>
      ci_closed r
  | NBackRefCond _ _ yes no =>
      ci_closed yes /\ match no with Some n => ci_closed n | None => True end
  | NExprCond _ c yes no =>
      ci_closed c /\ ci_closed yes /\ match no with Some n => ci_closed n | None => True end
  end.

Definition ci_closed_list (l : list node) : Prop :=
  (fix all (l : list node) : Prop :=
     match l with [] => True | x :: l' => ci_closed x /\ all l' end) l.

Lemma ci_closed_list_Forall l : ci_closed_list l <-> Forall ci_closed l.
Proof.
  induction l as [|x l IH]; cbn.
  - split; auto.
  - split.
    + intros [H1 H2]. constructor; [exact H1 | apply IH, H2].
    + intros H. inversion H; subst. split; [assumption | apply IH; assumption].
Qed.

End Closed.

(* ---- two environments that differ only in the case of the text ---- *)
Variables e e' : env.
Hypothesis E_tstart : tstart e' = tstart e.
Hypothesis E_ecma : ecma e' = ecma e.
Hypothesis E_endz : endz_strict e' = endz_strict e.
Hypothesis E_set : forall sid x, set_in e' sid x = set_in e sid x.
Hypothesis E_lower : forall x, lower e' x = lower e x.
Hypothesis E_word : forall x, is_word e' x = is_word e x.
Hypothesis E_eword : forall x, is_eword e' x = is_eword e x.
Hypothesis E_len : length (txt e') = length (txt e).
Hypothesis E_sim : forall i, 0 <= i < tlen e -> sim (char_at e i) (char_at e' i).

Lemma case_tlen : tlen e' = tlen e.
Proof. unfold tlen, zlen. rewrite E_len. reflexivity. Qed.

(* out of range both sides read 0; a negative index reads index 0 on both sides *)
Lemma case_sim_at : forall i, sim (char_at e i) (char_at e' i).
Proof.
  intros i. destruct (Z_lt_dec i 0) as [Hn|Hn].
  - unfold char_at. replace (Z.to_nat i) with O by lia.
    destruct (txt e) as [|a l] eqn:Ta, (txt e') as [|a' l'] eqn:Tb; cbn in E_len; try discriminate.
    + apply sim_refl.
    + specialize (E_sim 0). unfold char_at, tlen, zlen in E_sim. rewrite Ta, Tb in E_sim.
      cbn in E_sim. apply E_sim. lia.
  - destruct (Z_lt_dec i (tlen e)) as [Hl|Hl].
    + apply E_sim. lia.
    + unfold char_at. unfold tlen, zlen in Hl.
      rewrite (nth_overflow (txt e)) by lia.
      rewrite (nth_overflow (txt e')) by lia. apply sim_refl.
Qed.

Lemma case_avail o p : avail e' o p = avail e o p.
Proof. unfold avail. rewrite case_tlen. reflexivity. Qed.

Lemma case_next_sim o p : sim (next_char e o p) (next_char e' o p).
Proof. unfold next_char. destruct (is_rtl o); apply case_sim_at. Qed.

Lemma case_caseless_eqb c x x' : caseless c -> sim x x' -> (x' =? c) = (x =? c).
Proof.
  intros Hc Hs.
  destruct (Z.eqb_spec x c) as [->|Hn].
  - apply sim_sym in Hs. apply Hc in Hs. subst. apply Z.eqb_refl.
  - destruct (Z.eqb_spec x' c) as [->|Hn']; [|reflexivity].
    apply Hc in Hs. contradiction.
Qed.

Lemma case_caseless_eqb_l c x x' : caseless c -> sim x x' -> (c =? x') = (c =? x).
Proof. intros Hc Hs. rewrite !(Z.eqb_sym c). apply case_caseless_eqb; assumption. Qed.

Lemma case_char_test k c x x' :
  ci_leaf e k c -> sim x x' -> char_test e' k c x' = char_test e k c x.
Proof.
  intros Hl Hs. destruct k; cbn [char_test ci_leaf] in *.
  - apply case_caseless_eqb; assumption.
  - f_equal. apply case_caseless_eqb; assumption.
  - rewrite E_set. symmetry. apply Hl, Hs.
Qed.

Lemma case_step_test k c o p :
  ci_leaf e k c ->
  (0 <? avail e' o p) && char_test e' k c (next_char e' o p)
  = (0 <? avail e o p) && char_test e k c (next_char e o p).
Proof.
  intros Hl. rewrite case_avail.
  rewrite (case_char_test k c (next_char e o p) (next_char e' o p) Hl (case_next_sim o p)).
  reflexivity.
Qed.

Lemma case_run_len k c o : ci_leaf e k c ->
  forall maxn p, run_len e' k c o maxn p = run_len e k c o maxn p.
Proof.
  intros Hl. induction maxn as [|m IH]; intros p; [reflexivity|].
  cbn [run_len]. rewrite (case_step_test k c o p Hl). rewrite IH. reflexivity.
Qed.

Lemma case_sem_charloop k l o c m n s : ci_leaf e k c ->
  sem_charloop e' k l o c m n s = sem_charloop e k l o c m n s.
Proof.
  intros Hl. unfold sem_charloop. rewrite case_avail.
  rewrite (case_run_len k c o Hl). reflexivity.
Qed.

Lemma case_str_match_ci : resp_z (lower e) ->
  forall str p, str_match_at e' true str p = str_match_at e true str p.
Proof.
  intros Hr. induction str as [|c str IH]; intros p; [reflexivity|].
  cbn [str_match_at]. rewrite IH, E_lower.
  rewrite (Hr _ _ (case_sim_at p)). reflexivity.
Qed.

Lemma case_str_match_exact :
  forall str, Forall caseless str ->
  forall p, str_match_at e' false str p = str_match_at e false str p.
Proof.
  induction 1 as [|c str Hc _ IH]; intros p; [reflexivity|].
  cbn [str_match_at]. rewrite IH.
  rewrite (case_caseless_eqb_l c _ _ Hc (case_sim_at p)). reflexivity.
Qed.

Lemma case_sem_multi o str s : ci_closed e (NMulti o str) ->
  sem_multi e' o str s = sem_multi e o str s.
Proof.
  cbn [ci_closed]. intros H. unfold sem_multi. rewrite case_avail.
  destruct (is_ci o).
  - rewrite (case_str_match_ci H). reflexivity.
  - rewrite (case_str_match_exact str H). reflexivity.
Qed.

Lemma case_ref_match_ci : resp_z (lower e) ->
  forall len i p, ref_match_at e' true len i p = ref_match_at e true len i p.
Proof.
  intros Hr. induction len as [|len IH]; intros i p; [reflexivity|].
  cbn [ref_match_at]. rewrite IH, !E_lower.
  rewrite (Hr _ _ (case_sim_at i)), (Hr _ _ (case_sim_at p)). reflexivity.
Qed.

Lemma case_sem_ref o g s : ci_closed e (NRef o g) ->
  sem_ref e' o g s = sem_ref e o g s.
Proof.
  cbn [ci_closed]. intros [Hci Hr]. unfold sem_ref. rewrite E_ecma.
  destruct (cap_get g (caps s)) as [|[i len] _]; [reflexivity|].
  rewrite case_avail, Hci, (case_ref_match_ci Hr). reflexivity.
Qed.

Lemma case_is_boundary w w' i : resp_b w -> (forall x, w' x = w x) ->
  is_boundary e' w' i = is_boundary e w i.
Proof.
  intros Hw Hww. unfold is_boundary. rewrite case_tlen, !Hww.
  rewrite (Hw _ _ (case_sim_at (i - 1))), (Hw _ _ (case_sim_at i)). reflexivity.
Qed.

Lemma case_anchor_ok a p : ci_anchor e a -> anchor_ok e' a p = anchor_ok e a p.
Proof.
  intros Ha. destruct a; cbn [anchor_ok ci_anchor] in *;
    rewrite ?case_tlen, ?E_tstart, ?E_endz; try reflexivity.
  - rewrite (case_caseless_eqb 10 _ _ Ha (case_sim_at (p - 1))). reflexivity.
  - rewrite (case_caseless_eqb 10 _ _ Ha (case_sim_at p)). reflexivity.
  - apply case_is_boundary; assumption.
  - f_equal. apply case_is_boundary; assumption.
  - rewrite (case_caseless_eqb 10 _ _ Ha (case_sim_at p)). reflexivity.
  - apply case_is_boundary; assumption.
  - f_equal. apply case_is_boundary; assumption.
Qed.

Lemma case_view t : ci_closed e t ->
  sem_view e' e eq (fun a b => a = b /\ ci_closed e b) eq eq (fun _ => False) t t.
Proof.
  assert (Hl : forall l, ci_closed_list e l -> Forall2 (fun a b => a = b /\ ci_closed e b) l l).
  { induction l as [|x l IHl]; intros H; constructor; [split; [reflexivity|apply H]|apply IHl, H]. }
  assert (Ho : forall no, match no with Some n => ci_closed e n | None => True end ->
                          opt_rel (fun a b => a = b /\ ci_closed e b) no no).
  { intros [n|] H; [split; [reflexivity|exact H]|exact I]. }
  intros Hc. destruct t; cbn [ci_closed] in Hc;
    try (constructor; try apply Hl; try apply Ho; try split; tauto);
    apply SV_leaf_eq; try reflexivity; intros f s'; cbn [sem].
  - rewrite (case_step_test k c o (pos s') Hc). reflexivity.
  - rewrite (case_sem_charloop k l o c m n s' Hc). reflexivity.
  - rewrite (case_sem_multi o s s' Hc). reflexivity.
  - rewrite (case_sem_ref o g s' Hc). reflexivity.
  - rewrite (case_anchor_ok a (pos s') Hc). reflexivity.
Qed.

Theorem ci_input_invariant :
  forall fuel t s, ci_closed e t -> sem e' fuel t s = sem e fuel t s.
Proof.
  intros fuel t s Hc.
  apply (sem_ext e' e (fun a b => a = b /\ ci_closed e b)); [|split; [reflexivity|exact Hc]].
  intros t1 t2 [-> H]. apply case_view, H.
Qed.

Corollary ci_attempt_invariant fuel root p :
  ci_closed e root -> attempt e' fuel root p = attempt e fuel root p.
Proof. intros Hc. unfold attempt. rewrite (ci_input_invariant fuel root _ Hc). reflexivity. Qed.

Lemma ci_scan_invariant fuel root rtl : ci_closed e root ->
  forall n p, scan_from e' fuel n root rtl p = scan_from e fuel n root rtl p.
Proof.
  intros Hc. induction n as [|n IHn]; intros p; [reflexivity|].
  cbn [scan_from]. rewrite (ci_attempt_invariant fuel root p Hc), case_tlen.
  destruct (attempt e fuel root p) as [[s|]| | |]; cbn [bind]; try reflexivity.
  destruct (if rtl then p <=? 0 else tlen e <=? p); [reflexivity | apply IHn].
Qed.

(* both directions, every start offset, with or without the empty-previous-match bump *)
Corollary ci_find_invariant fuel root rtl start prevlen :
  ci_closed e root -> find e' fuel root rtl start prevlen = find e fuel root rtl start prevlen.
Proof.
  intros Hc. unfold find. rewrite case_tlen.
  destruct ((prevlen =? 0) && (start =? (if rtl then 0 else tlen e))); [reflexivity|].
  apply ci_scan_invariant, Hc.
Qed.

(* ---- the CPS search (what the extracted model runs) ---- *)
Theorem ci_semk_invariant :
  forall fuel t s k k', ci_closed e t -> (forall x, k' x = k x) ->
    semk e' fuel t s k' = semk e fuel t s k.
Proof.
  intros fuel t s k k' Hc.
  apply (semk_ext e' e (fun a b => a = b /\ ci_closed e b)); [|split; [reflexivity|exact Hc]].
  intros t1 t2 [-> H]. apply case_view, H.
Qed.

Corollary ci_findk_invariant fuel root rtl start prevlen :
  ci_closed e root -> findk e' fuel root rtl start prevlen = findk e fuel root rtl start prevlen.
Proof.
  intros Hc. unfold findk. rewrite case_tlen.
  destruct ((prevlen =? 0) && (start =? (if rtl then 0 else tlen e))); [reflexivity|].
  generalize (if prevlen =? 0 then if rtl then start - 1 else start + 1 else start).
  induction (S (Z.to_nat (tlen e))) as [|n IHn]; intros p; [reflexivity|].
  cbn [scank_from]. unfold attemptk.
  rewrite (ci_semk_invariant fuel root _ k_first k_first Hc (fun _ => eq_refl)), case_tlen.
  destruct (semk e fuel root _ k_first) as [[s|]| | |]; cbn [bind]; try reflexivity.
  destruct (if rtl then p <=? 0 else tlen e <=? p); [reflexivity | apply IHn].
Qed.

End CaseInvariance.

(* [ci_closed] is decidable whenever the non-trivial part of [sim] is a finite list of pairs   *)
(* (the simple upper/lower pairs): a boolean checker, sound and complete.                      *)
Section CaseCheck.

Variable sim : Z -> Z -> Prop.
Variable pairs : list (Z * Z).
Hypothesis sim_sym : forall x y, sim x y -> sim y x.
Hypothesis pairs_sim : forall x y, In (x, y) pairs -> sim x y.
Hypothesis sim_pairs : forall x y, sim x y -> x = y \/ In (x, y) pairs \/ In (y, x) pairs.

Definition caselessb (c : Z) : bool :=
  forallb (fun p => (negb (fst p =? c) && negb (snd p =? c)) || (fst p =? snd p)) pairs.
Definition resp_bb (f : Z -> bool) : bool :=
  forallb (fun p => Bool.eqb (f (fst p)) (f (snd p))) pairs.
Definition resp_zb (f : Z -> Z) : bool :=
  forallb (fun p => f (fst p) =? f (snd p)) pairs.

Lemma caselessb_iff c : caselessb c = true <-> caseless sim c.
Proof.
  unfold caselessb, caseless. rewrite forallb_forall. split.
  - intros H x Hs. destruct (sim_pairs _ _ Hs) as [Heq|[Hin|Hin]]; [exact Heq| |];
      specialize (H _ Hin); cbn [fst snd] in H; lia.
  - intros H [x y] Hin. cbn [fst snd].
    pose proof (pairs_sim _ _ Hin) as Hs.
    destruct (Z.eqb_spec y c) as [->|Hy].
    + rewrite (H _ Hs). lia.
    + destruct (Z.eqb_spec x c) as [->|Hx]; [|reflexivity].
      rewrite (H _ (sim_sym _ _ Hs)). lia.
Qed.

Lemma resp_bb_iff f : resp_bb f = true <-> resp_b sim f.
Proof.
  unfold resp_bb, resp_b. rewrite forallb_forall. split.
  - intros H x y Hs. destruct (sim_pairs _ _ Hs) as [->|[Hin|Hin]]; [reflexivity| |];
      specialize (H _ Hin); cbn [fst snd] in H; apply eqb_prop in H; congruence.
  - intros H [x y] Hin. cbn [fst snd]. rewrite (H _ _ (pairs_sim _ _ Hin)). apply eqb_reflx.
Qed.

Lemma resp_zb_iff f : resp_zb f = true <-> resp_z sim f.
Proof.
  unfold resp_zb, resp_z. rewrite forallb_forall. split.
  - intros H x y Hs. destruct (sim_pairs _ _ Hs) as [->|[Hin|Hin]]; [reflexivity| |];
      specialize (H _ Hin); cbn [fst snd] in H; lia.
  - intros H [x y] Hin. cbn [fst snd]. rewrite (H _ _ (pairs_sim _ _ Hin)). apply Z.eqb_refl.
Qed.

Variable e : env.

Definition ci_leafb (k : ckind) (c : Z) : bool :=
  match k with COne | CNotone => caselessb c | CSet => resp_bb (set_in e c) end.

Definition ci_anchorb (a : anchor) : bool :=
  match a with
  | ABol | AEol | AEndZ => caselessb 10
  | ABoundary | ANonboundary => resp_bb (is_word e)
  | AECMABoundary | ANonECMABoundary => resp_bb (is_eword e)
  | ABeginning | AStart | AEnd => true
  end.

Fixpoint ci_closedb (t : node) : bool :=
  match t with
  | NChar k _ c => ci_leafb k c
  | NCharLoop k _ _ c _ _ => ci_leafb k c
  | NMulti o str => if is_ci o then resp_zb (lower e) else forallb caselessb str
  | NRef o _ => is_ci o && resp_zb (lower e)
  | NAnchor a => ci_anchorb a
  | NNothing | NEmpty | NBump => true
  | NConcat _ l | NAlternate _ l =>
      (fix all (l : list node) : bool :=
         match l with [] => true | x :: l' => ci_closedb x && all l' end) l
  | NLoop _ _ _ _ r | NCapture _ _ _ r | NGroup r | NPosLook _ r | NNegLook _ r | NAtomic r =>
      ci_closedb r
  | NBackRefCond _ _ yes no =>
      ci_closedb yes && match no with Some n => ci_closedb n | None => true end
  | NExprCond _ c yes no =>
      ci_closedb c && ci_closedb yes && match no with Some n => ci_closedb n | None => true end
  end.

Lemma ci_leafb_iff k c : ci_leafb k c = true <-> ci_leaf sim e k c.
Proof. destruct k; cbn [ci_leafb ci_leaf]; first [apply caselessb_iff | apply resp_bb_iff]. Qed.

Lemma ci_anchorb_iff a : ci_anchorb a = true <-> ci_anchor sim e a.
Proof.
  destruct a; cbn [ci_anchorb ci_anchor];
    first [apply caselessb_iff | apply resp_bb_iff | split; auto].
Qed.

Lemma ci_closedb_iff : forall t, ci_closedb t = true <-> ci_closed sim e t.
Proof.
  fix IH 1. intros t.
  destruct t; cbn [ci_closedb ci_closed].
  - apply ci_leafb_iff.
  - apply ci_leafb_iff.
  - destruct (is_ci o); [apply resp_zb_iff|].
    rewrite forallb_forall, Forall_forall. split; intros H x Hx; apply caselessb_iff, H, Hx.
  - rewrite andb_true_iff, resp_zb_iff. reflexivity.
  - apply ci_anchorb_iff.
  - split; auto.
  - split; auto.
  - split; auto.
  - induction l as [|x l IHl]; [split; auto|].
    rewrite andb_true_iff, (IH x), IHl. reflexivity.
  - induction l as [|x l IHl]; [split; auto|].
    rewrite andb_true_iff, (IH x), IHl. reflexivity.
  - apply IH.
  - apply IH.
  - apply IH.
  - apply IH.
  - apply IH.
  - apply IH.
  - rewrite andb_true_iff, (IH t). destruct no as [n|]; [rewrite (IH n)|]; intuition.
  - rewrite !andb_true_iff, (IH t1), (IH t2).
    destruct no as [n|]; [rewrite (IH n)|]; intuition.
Qed.

Corollary ci_closed_dec t : {ci_closed sim e t} + {~ ci_closed sim e t}.
Proof.
  destruct (ci_closedb t) eqn:E.
  - left. apply ci_closedb_iff, E.
  - right. intros H. apply ci_closedb_iff in H. congruence.
Qed.

End CaseCheck.

(* A concrete instance: ASCII letters, and the two trees syntax.Parse builds (tree.Dump()) for
     (?i)(a)[b-c]+12\1$         Capture0(Concat(Capture1(Set[Aa]) SetloopAtomic[BCbc]{1,inf} Multi"12" Ref-I(1) EndZ))
     (?i)xy[^b-c][a-z-[m]]\b    Capture0(Concat(Set[Xx] Set[Yy] Set[^BCbc] Set[A-Za-zſK-[Mm]] Boundary))   *)

Definition ascii_sim (x y : Z) : Prop :=
  x = y \/ (97 <= x <= 122 /\ y = x - 32) \/ (65 <= x <= 90 /\ y = x + 32).

Lemma ascii_sim_refl x : ascii_sim x x.
Proof. left. reflexivity. Qed.
Lemma ascii_sim_sym x y : ascii_sim x y -> ascii_sim y x.
Proof. unfold ascii_sim. lia. Qed.
Lemma ascii_sim_trans x y z : ascii_sim x y -> ascii_sim y z -> ascii_sim x z.
Proof. unfold ascii_sim. lia. Qed.

(* the non-trivial pairs (lower, upper) *)
Definition ascii_pairs : list (Z * Z) :=
  map (fun i => (97 + Z.of_nat i, 65 + Z.of_nat i)) (seq 0 26).

Lemma ascii_pairs_sim x y : In (x, y) ascii_pairs -> ascii_sim x y.
Proof.
  unfold ascii_pairs. rewrite in_map_iff. intros [i [Hi Hin]]. apply in_seq in Hin.
  assert (x = 97 + Z.of_nat i /\ y = 65 + Z.of_nat i) as [-> ->] by (split; congruence).
  unfold ascii_sim. lia.
Qed.

Lemma ascii_sim_pairs x y :
  ascii_sim x y -> x = y \/ In (x, y) ascii_pairs \/ In (y, x) ascii_pairs.
Proof.
  intros [H|[[H1 H2]|[H1 H2]]]; [left; exact H | right; left | right; right];
    unfold ascii_pairs; apply in_map_iff.
  - exists (Z.to_nat (x - 97)). split; [f_equal; lia | apply in_seq; lia].
  - exists (Z.to_nat (x - 65)). split; [f_equal; lia | apply in_seq; lia].
Qed.

Definition case_ascii_lower (x : Z) : Z := if (65 <=? x) && (x <=? 90) then x + 32 else x.
Definition case_ascii_word (x : Z) : bool :=
  ((48 <=? x) && (x <=? 57)) || ((65 <=? x) && (x <=? 90)) || ((97 <=? x) && (x <=? 122)) || (x =? 95).

Definition case_in_rng (a b x : Z) : bool := (a <=? x) && (x <=? b).

(* set ids: 0 [Aa]  1 [BCbc]  2 [Xx]  3 [Yy]  4 [^BCbc]  5 [A-Za-zſK-[Mm]]  6 [A-Za-z-[m]] NOT closed:
   the shape built for (?i)[a-z-[m]] before addCaseEquivalences descended into the subtraction *)
Definition case_ex_set_in (sid x : Z) : bool :=
  if sid =? 0 then (x =? 65) || (x =? 97)
  else if sid =? 1 then case_in_rng 66 67 x || case_in_rng 98 99 x
  else if sid =? 2 then (x =? 88) || (x =? 120)
  else if sid =? 3 then (x =? 89) || (x =? 121)
  else if sid =? 4 then negb (case_in_rng 66 67 x || case_in_rng 98 99 x)
  else if sid =? 5 then (case_in_rng 65 90 x || case_in_rng 97 122 x || (x =? 383) || (x =? 8490))
                        && negb ((x =? 77) || (x =? 109))
  else if sid =? 6 then (case_in_rng 65 90 x || case_in_rng 97 122 x) && negb (x =? 109)
  else false.

Definition case_ex_env (text : list Z) : env :=
  {| txt := text; tstart := 0; ecma := false; endz_strict := false;
     set_in := case_ex_set_in; lower := case_ascii_lower; is_word := case_ascii_word; is_eword := case_ascii_word |}.

Definition case_ex_tree1 : node :=
  NCapture 0 0 (-1) (NConcat 1 [NCapture 1 1 (-1) (NChar CSet 1 0);
                                NCharLoop CSet LAtomic 1 1 1 INF;
                                NMulti 0 [49; 50];
                                NRef 1 1;
                                NAnchor AEndZ]).
(* (?i)a[b-c]+ under RightToLeft:  Capture-L(Concatenate-L(Setloop-L[BCbc]{1,inf} Set-L[Aa])) *)
Definition case_ex_tree3 : node :=
  NCapture 64 0 (-1) (NConcat 64 [NCharLoop CSet LGreedy 65 1 1 INF; NChar CSet 65 0]).
Definition case_ex_tree2 : node :=
  NCapture 0 0 (-1) (NConcat 1 [NChar CSet 1 2; NChar CSet 1 3; NChar CSet 1 4; NChar CSet 1 5;
                                NAnchor ABoundary]).

(* any two case_ex_env texts of equal length that are pointwise ascii_sim satisfy the section hypotheses *)
Lemma case_ex_find_invariant (t : node) (w w' : list Z) :
  length w' = length w ->
  (forall i, 0 <= i < zlen w -> ascii_sim (nth (Z.to_nat i) w 0) (nth (Z.to_nat i) w' 0)) ->
  ci_closedb ascii_pairs (case_ex_env w) t = true ->
  forall fuel rtl start prevlen,
    find (case_ex_env w') fuel t rtl start prevlen = find (case_ex_env w) fuel t rtl start prevlen.
Proof.
  intros Hlen Hsim Hb fuel rtl start prevlen.
  apply (ci_find_invariant ascii_sim ascii_sim_refl ascii_sim_sym (case_ex_env w) (case_ex_env w'));
    try reflexivity; try assumption.
  apply (ci_closedb_iff ascii_sim ascii_pairs ascii_sim_sym ascii_pairs_sim ascii_sim_pairs), Hb.
Qed.

(* Closed statements (all section hypotheses packed into one predicate)                        *)

(* e' is e with another text of the same length whose runes are pointwise [sim] *)
Definition case_variant (sim : Z -> Z -> Prop) (e e' : env) : Prop :=
  tstart e' = tstart e /\ ecma e' = ecma e /\ endz_strict e' = endz_strict e /\
  (forall sid x, set_in e' sid x = set_in e sid x) /\ (forall x, lower e' x = lower e x) /\
  (forall x, is_word e' x = is_word e x) /\ (forall x, is_eword e' x = is_eword e x) /\
  length (txt e') = length (txt e) /\
  (forall i, 0 <= i < tlen e -> sim (char_at e i) (char_at e' i)).

Definition sim_ok (sim : Z -> Z -> Prop) : Prop :=
  (forall x, sim x x) /\ (forall x y, sim x y -> sim y x).

Lemma case_sem_invariant sim e e' : sim_ok sim -> case_variant sim e e' ->
  forall t, ci_closed sim e t -> forall fuel s, sem e' fuel t s = sem e fuel t s.
Proof.
  intros [Hr Hs] (H1 & H2 & H3 & H4 & H5 & H6 & H7 & H8 & H9) t Hc fuel s.
  apply (ci_input_invariant sim Hr Hs e e' H1 H2 H3 H4 H5 H6 H7 H8 H9 fuel t s Hc).
Qed.

Lemma case_find_invariant sim e e' : sim_ok sim -> case_variant sim e e' ->
  forall root, ci_closed sim e root ->
  forall fuel rtl start prevlen,
    find e' fuel root rtl start prevlen = find e fuel root rtl start prevlen
    /\ findk e' fuel root rtl start prevlen = findk e fuel root rtl start prevlen
    /\ (forall p, attempt e' fuel root p = attempt e fuel root p).
Proof.
  intros [Hr Hs] (H1 & H2 & H3 & H4 & H5 & H6 & H7 & H8 & H9) root Hc fuel rtl start prevlen.
  split; [|split].
  - apply (ci_find_invariant sim Hr Hs e e' H1 H2 H3 H4 H5 H6 H7 H8 H9 fuel root rtl start prevlen Hc).
  - apply (ci_findk_invariant sim Hr Hs e e' H1 H2 H3 H4 H5 H6 H7 H8 H9 fuel root rtl start prevlen Hc).
  - intros p. apply (ci_attempt_invariant sim Hr Hs e e' H1 H2 H3 H4 H5 H6 H7 H8 H9 fuel root p Hc).
Qed.

(* the relation is symmetric, so is the hypothesis: ci_closed transports along a case variant *)
Lemma case_variant_closed sim e e' : case_variant sim e e' ->
  forall t, ci_closed sim e t -> ci_closed sim e' t.
Proof.
  intros (_ & _ & _ & H4 & H5 & H6 & H7 & _ & _).
  assert (Hleaf : forall k c, ci_leaf sim e k c -> ci_leaf sim e' k c).
  { intros [| |] c H; cbn [ci_leaf] in *; try exact H.
    intros x y Hxy. rewrite !H4. apply H, Hxy. }
  assert (Hlow : resp_z sim (lower e) -> resp_z sim (lower e')).
  { intros H x y Hxy. rewrite !H5. apply H, Hxy. }
  fix IH 1. intros t. destruct t; cbn [ci_closed].
  - apply Hleaf.
  - apply Hleaf.
  - destruct (is_ci o); [apply Hlow | exact (fun H => H)].
  - intros [Ha Hb]. split; [exact Ha | apply Hlow, Hb].
  - destruct a; cbn [ci_anchor]; try exact (fun H => H);
      intros H x y Hxy; rewrite ?H6, ?H7; apply H, Hxy.
  - exact (fun H => H).
  - exact (fun H => H).
  - exact (fun H => H).
  - induction l as [|x l IHl]; [exact (fun H => H)|].
    intros [Hx Hl]. split; [apply IH, Hx | apply IHl, Hl].
  - induction l as [|x l IHl]; [exact (fun H => H)|].
    intros [Hx Hl]. split; [apply IH, Hx | apply IHl, Hl].
  - apply IH.
  - apply IH.
  - apply IH.
  - apply IH.
  - apply IH.
  - apply IH.
  - intros [Hy Hn]. split; [apply IH, Hy|]. destruct no; [apply IH, Hn | exact I].
  - intros [Hc [Hy Hn]]. split; [apply IH, Hc|]. split; [apply IH, Hy|].
    destruct no; [apply IH, Hn | exact I].
Qed.

Lemma case_ex_variant (w w' : list Z) :
  length w' = length w ->
  (forall i, 0 <= i < zlen w -> ascii_sim (nth (Z.to_nat i) w 0) (nth (Z.to_nat i) w' 0)) ->
  case_variant ascii_sim (case_ex_env w) (case_ex_env w').
Proof. intros Hl Hs. unfold case_variant. cbn. repeat split; auto. Qed.

(* pointwise check of two concrete texts *)
Fixpoint ascii_simb_list (w w' : list Z) : bool :=
  match w, w' with
  | [], [] => true
  | x :: w1, y :: w1' =>
      ((x =? y) || (case_in_rng 97 122 x && (y =? x - 32)) || (case_in_rng 65 90 x && (y =? x + 32)))
      && ascii_simb_list w1 w1'
  | _, _ => false
  end.

Lemma ascii_simb_list_ok : forall w w', ascii_simb_list w w' = true ->
  length w' = length w /\
  (forall i, 0 <= i < zlen w -> ascii_sim (nth (Z.to_nat i) w 0) (nth (Z.to_nat i) w' 0)).
Proof.
  induction w as [|x w IH]; intros [|y w'] H; cbn [ascii_simb_list] in H; try discriminate.
  - split; [reflexivity|]. unfold zlen. cbn. lia.
  - apply andb_true_iff in H. destruct H as [Hxy Hr]. destruct (IH _ Hr) as [Hl Hs].
    split; [cbn; lia|]. intros i Hi. unfold zlen in *. cbn [length] in Hi.
    destruct (Z.eq_dec i 0) as [->|Hn].
    + cbn. unfold ascii_sim, case_in_rng in *. lia.
    + replace (Z.to_nat i) with (S (Z.to_nat (i - 1))) by lia. cbn [nth]. apply Hs. lia.
Qed.

Lemma case_ex_variant_b w w' : ascii_simb_list w w' = true ->
  case_variant ascii_sim (case_ex_env w) (case_ex_env w').
Proof. intros H. destruct (ascii_simb_list_ok _ _ H). apply case_ex_variant; assumption. Qed.

Lemma ascii_sim_ok : sim_ok ascii_sim.
Proof. split; [exact ascii_sim_refl | exact ascii_sim_sym]. Qed.

Lemma case_ex_closedb_closed w t :
  ci_closedb ascii_pairs (case_ex_env w) t = true -> ci_closed ascii_sim (case_ex_env w) t.
Proof. apply (ci_closedb_iff ascii_sim ascii_pairs ascii_sim_sym ascii_pairs_sim ascii_sim_pairs). Qed.

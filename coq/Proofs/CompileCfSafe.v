(* Control-flow safety of the interpreter from a STATIC, decidable check of the program (a bytecode verifier).

   [tyck p sh]: every instruction of the program is consistent with a shape assignment [sh] -- for each
   instruction boundary the SHAPE of the grouping stack on entry: a list of kinds
       KM (a mark, 1 word)   KC (a counter: count+mark, 2 words)   KJ (a jump record: crawl pos + track pos, 2 words).
   The dynamic invariant [winv]: the backtracking stack is a sequence of FRAMES (header = +-pc of the instruction
   that pushed it, then the data words that instruction's Back/Back2 handler pops); each frame records the shape
   its handler expects ([in]) and the shape that was current just before the frame was pushed ([pre]), the
   frames chain (pre of a frame = in of the frame below), the grouping stack has the current shape, and every
   KJ record points to a frame-aligned position of the backtracking stack below a Setjump frame.
   cf_sound: tyck -> winv is preserved by every successful step of the unbounded-stack interpreter, hence every
   state reachable from the initial state of an attempt is at an instruction boundary and its grouping stack
   has statically bounded depth: CompileTotal.path_ok holds for EVERY input.
   The three one-step lemmas (winv_fwd, winv_back, winv_back2) walk [step] opcode by opcode themselves and do not
   go through Proofs/VMPlan.v: the invariant needs, for each opcode, the header word of the frame it pushes
   (+-pc), the number of its data words and the frame type [frame_type] gives that opcode; a plan of VMPlan
   records how many words are pushed, not which, and is not indexed by the opcode. *)
From Verif Require Import Base.Prelude Model.Tree Model.Spec Model.VM Model.Writer Gen.RunnerGen Gen.CodeGen
  Proofs.VMLimitProofs Proofs.VMLimitSimProofs Proofs.VMCapacityProofs Proofs.VMEffectProofs Proofs.VMU Proofs.VMUBridge
  Proofs.CompileTotal Proofs.CompileLimit.
From Coq Require Import Relations ZifyBool.

Inductive kind := KM | KC | KJ.
Definition shape := list kind.
Definition kwords (k : kind) : Z := match k with KM => 1 | _ => 2 end.
Fixpoint swords (t : shape) : Z := match t with [] => 0 | k :: t' => kwords k + swords t' end.
Definition kind_eqb (a b : kind) : bool :=
  match a, b with KM, KM | KC, KC | KJ, KJ => true | _, _ => false end.
Fixpoint shape_eqb (a b : shape) : bool :=
  match a, b with
  | [], [] => true
  | x :: a', y :: b' => kind_eqb x y && shape_eqb a' b'
  | _, _ => false
  end.
Lemma shape_eqb_eq a : forall b, shape_eqb a b = true -> a = b.
Proof.
  induction a as [|x a IH]; intros [|y b] H; cbn [shape_eqb] in H; try discriminate; [reflexivity|].
  apply andb_prop in H. destruct H as [H1 H2]. rewrite (IH b H2). destruct x, y; try discriminate; reflexivity.
Qed.
Lemma swords_nonneg t : 0 <= swords t.
Proof. induction t as [|k t IH]; cbn [swords]; [lia|]. destruct k; cbn [kwords]; lia. Qed.

Record frame := { f_pc : Z; f_neg : bool; f_data : list Z }.
Definition f_hdr (F : frame) : Z := if f_neg F then - f_pc F else f_pc F.
Fixpoint flatten (fr : list frame) : list Z :=
  match fr with [] => [] | F :: fr' => f_hdr F :: f_data F ++ flatten fr' end.

Lemma flatten_app a b : flatten (a ++ b) = flatten a ++ flatten b.
Proof. induction a as [|F a IH]; cbn [flatten app]; [reflexivity|]. rewrite IH, app_assoc. reflexivity. Qed.

Fixpoint sh_get (pc : Z) (sh : list (Z * shape)) : option shape :=
  match sh with [] => None | (c, t) :: sh' => if pc =? c then Some t else sh_get pc sh' end.

Section CF.
Variable e : env.
Variable p : program.
Variable sh : list (Z * shape).

(* the code word at an instruction boundary *)
Definition instr_at (pc : Z) : option Z :=
  match List.find (fun co => fst co =? pc) (cp_dec (codes p)) with Some co => Some (snd co) | None => None end.

Lemma instr_at_bnd pc w : instr_at pc = Some w -> cp_boundary (codes p) pc w /\ code_at p pc = Some w.
Proof.
  unfold instr_at. destruct (List.find _ _) as [[c w']|] eqn:E; [|discriminate]. intros H. injection H as <-.
  apply find_some in E. destruct E as [Hin Hc]. cbn [fst] in Hc. assert (c = pc) by lia. subst c.
  split; [exact Hin|]. apply cp_boundary_word. exact Hin.
Qed.

Definition sh_at (pc : Z) : option shape :=
  match instr_at pc with Some _ => sh_get pc sh | None => None end.

Lemma sh_at_instr pc t : sh_at pc = Some t -> exists w, instr_at pc = Some w.
Proof. unfold sh_at. destruct (instr_at pc) as [w|]; [intros _; exists w; reflexivity|discriminate]. Qed.

Definition is_shape (o : option shape) (t : shape) : bool :=
  match o with Some t' => shape_eqb t' t | None => false end.
Lemma is_shape_eq o t : is_shape o t = true -> o = Some t.
Proof. destruct o as [t'|]; cbn [is_shape]; [|discriminate]. intros H. apply shape_eqb_eq in H. subst. reflexivity. Qed.
Lemma is_shape2_eq o1 o2 t1 t2 : is_shape o1 t1 && is_shape o2 t2 = true -> o1 = Some t1 /\ o2 = Some t2.
Proof. intros H. apply andb_prop in H. split; apply is_shape_eq; apply H. Qed.

Definition arg1 (pc : Z) : Z := match code_at p (pc + 1) with Some a => a | None => -1 end.

Definition in_list (x : Z) (l : list Z) : bool := zmem x l.
(* opcodes whose only effects are on the text position: advance to the next instruction or fail *)
Definition plain_ops : list Z :=
  [Onerep; Notonerep; Setrep; One; Notone; SetOp; Multi; Ref; Bol; Eol; Boundary; Nonboundary; Beginning; Start; EndZ; EndOp;
   Testref; ECMABoundary; NonECMABoundary; Oneloopatomic; Notoneloopatomic; Setloopatomic; UpdateBumpalong;
   Oneloop; Notoneloop; Setloop; Onelazy; Notonelazy; Setlazy].

(* an instruction without a shape is dead code: the invariant never reaches it *)
Definition instr_ok (pc w : Z) : bool :=
  match sh_at pc with
  | None => true
  | Some tp =>
      let op := Z.land w 63 in
      let nx := sh_at (pc + opcode_size w) in
      let tg := sh_at (arg1 pc) in
      if in_list op plain_ops then is_shape nx tp
      else if op =? Stop then true
      else if op =? Nothing then true
      else if op =? Goto then is_shape tg tp
      else if op =? Lazybranch then is_shape nx tp && is_shape tg tp
      else if (op =? Setmark) || (op =? Nullmark) then is_shape nx (KM :: tp)
      else if (op =? Getmark) || (op =? Capturemark) then match tp with KM :: t' => is_shape nx t' | _ => false end
      else if (op =? Branchmark) || (op =? Lazybranchmark) then
        match tp with KM :: t' => is_shape nx t' && is_shape tg tp | _ => false end
      else if (op =? Setcount) || (op =? Nullcount) then is_shape nx (KC :: tp)
      else if (op =? Branchcount) || (op =? Lazybranchcount) then
        match tp with KC :: t' => is_shape nx t' && is_shape tg tp | _ => false end
      else if op =? Setjump then is_shape nx (KJ :: tp)
      else if op =? Forejump then match tp with KJ :: t' => is_shape nx t' | _ => false end
      else if op =? Backjump then match tp with KJ :: _ => true | _ => false end
      else false
  end.

(* the frame a Back / Back2 handler expects: (shape on entry of the handler, shape before the frame was pushed) *)
Definition frame_type (F : frame) : option (shape * shape) :=
  match instr_at (f_pc F), sh_at (f_pc F) with
  | Some w, Some tp =>
      let op := Z.land w 63 in let n := f_neg F in let d := f_data F in
      if op =? Lazybranch then (if negb n && (zlen d =? 1) then Some (tp, tp) else None)
      else if (op =? Setmark) || (op =? Nullmark) then (if negb n && (zlen d =? 0) then Some (KM :: tp, tp) else None)
      else if (op =? Getmark) || (op =? Capturemark) then
        match tp with KM :: t' => if negb n && (zlen d =? 1) then Some (t', tp) else None | _ => None end
      else if op =? Branchmark then
        match tp with
        | KM :: t' => if n then (if zlen d =? 1 then Some (t', tp) else None)
                      else (if zlen d =? 2 then Some (tp, tp) else None)
        | _ => None
        end
      else if op =? Lazybranchmark then
        match tp with
        | KM :: t' => if n then match d with [fl; _] => if fl =? 0 then Some (t', tp) else Some (tp, tp) | _ => None end
                      else (if zlen d =? 2 then Some (t', tp) else None)
        | _ => None
        end
      else if (op =? Setcount) || (op =? Nullcount) then (if negb n && (zlen d =? 0) then Some (KC :: tp, tp) else None)
      else if op =? Branchcount then
        match tp with
        | KC :: t' => if n then (if zlen d =? 2 then Some (t', tp) else None)
                      else (if zlen d =? 1 then Some (tp, tp) else None)
        | _ => None
        end
      else if op =? Lazybranchcount then
        match tp with
        | KC :: t' => if n then (if zlen d =? 1 then Some (tp, tp) else None)
                      else (if zlen d =? 3 then Some (t', tp) else None)
        | _ => None
        end
      else if op =? Setjump then (if negb n && (zlen d =? 0) then Some (KJ :: tp, tp) else None)
      else if op =? Forejump then
        match tp with KJ :: t' => if negb n && (zlen d =? 1) then Some (t', t') else None | _ => None end
      else if (3 <=? op) && (op <=? 8) then (if negb n && (zlen d =? 2) then Some (tp, tp) else None)
      else None
  | _, _ => None
  end.

(* the frames chain *)
Fixpoint TWf (fr : list frame) (t : shape) : Prop :=
  match fr with
  | [] => True
  | F :: fr' => exists pre, frame_type F = Some (t, pre) /\ TWf fr' pre
  end.

Definition is_setjump (F : frame) (t : shape) : Prop :=
  f_neg F = false /\ sh_at (f_pc F) = Some t /\ exists w, instr_at (f_pc F) = Some w /\ Z.land w 63 = Setjump.

(* the grouping stack has shape t, and its jump records point below Setjump frames *)
Fixpoint SWf (S : list Z) (t : shape) (fr : list frame) : Prop :=
  match t, S with
  | [], [] => True
  | KM :: t', _ :: S' => SWf S' t' fr
  | KC :: t', _ :: _ :: S' => SWf S' t' fr
  | KJ :: t', _ :: tr :: S' =>
      exists fu FJ f0, fr = fu ++ FJ :: f0 /\ tr = zlen (flatten f0) /\ is_setjump FJ t' /\ SWf S' t' f0
  | _, _ => False
  end.

Lemma SWf_len S : forall t fr, SWf S t fr -> zlen S = swords t.
Proof.
  induction S as [S IH] using (well_founded_induction (Wf_nat.well_founded_ltof _ (@length Z))).
  intros t fr H. destruct t as [|k t].
  - destruct S; [reflexivity|contradiction].
  - destruct k; cbn [SWf] in H.
    + destruct S as [|x S']; [contradiction|]. rewrite zlen_cons. cbn [swords kwords].
      rewrite (IH S' ltac:(unfold ltof; cbn [length]; lia) t fr H). reflexivity.
    + destruct S as [|x [|y S']]; try contradiction. rewrite !zlen_cons. cbn [swords kwords].
      rewrite (IH S' ltac:(unfold ltof; cbn [length]; lia) t fr H). lia.
    + destruct S as [|x [|y S']]; try contradiction. destruct H as (fu & FJ & f0 & _ & _ & _ & H).
      rewrite !zlen_cons. cbn [swords kwords].
      rewrite (IH S' ltac:(unfold ltof; cbn [length]; lia) t f0 H). lia.
Qed.

(* pushing frames keeps the jump records valid *)
Lemma SWf_ext S : forall t fr g, SWf S t fr -> SWf S t (g ++ fr).
Proof.
  induction S as [S IH] using (well_founded_induction (Wf_nat.well_founded_ltof _ (@length Z))).
  intros t fr g H. destruct t as [|k t].
  - destruct S; [exact I|contradiction].
  - destruct k; cbn [SWf] in H |- *.
    + destruct S as [|x S']; [contradiction|]. apply (IH S' ltac:(unfold ltof; cbn [length]; lia)). exact H.
    + destruct S as [|x [|y S']]; try contradiction. apply (IH S' ltac:(unfold ltof; cbn [length]; lia)). exact H.
    + destruct S as [|x [|y S']]; try contradiction. destruct H as (fu & FJ & f0 & -> & Htr & HJ & H).
      exists (g ++ fu), FJ, f0. split; [rewrite app_assoc; reflexivity|]. split; [exact Htr|]. split; [exact HJ|exact H].
Qed.

Lemma SWf_ext1 S t fr F : SWf S t fr -> SWf S t (F :: fr).
Proof. apply (SWf_ext S t fr [F]). Qed.

Definition op_of (F : frame) : option Z := match instr_at (f_pc F) with Some w => Some (Z.land w 63) | None => None end.

(* popping a frame that is not a Setjump frame keeps the jump records valid *)
Lemma SWf_pop S : forall t fr F, op_of F <> Some Setjump -> SWf S t (F :: fr) -> SWf S t fr.
Proof.
  induction S as [S IH] using (well_founded_induction (Wf_nat.well_founded_ltof _ (@length Z))).
  intros t fr F HF H. destruct t as [|k t].
  - destruct S; [exact I|contradiction].
  - destruct k; cbn [SWf] in H |- *.
    + destruct S as [|x S']; [contradiction|]. apply (IH S' ltac:(unfold ltof; cbn [length]; lia) t fr F HF). exact H.
    + destruct S as [|x [|y S']]; try contradiction. apply (IH S' ltac:(unfold ltof; cbn [length]; lia) t fr F HF). exact H.
    + destruct S as [|x [|y S']]; try contradiction. destruct H as (fu & FJ & f0 & Hfr & Htr & HJ & H).
      destruct fu as [|F' fu].
      * cbn [app] in Hfr. injection Hfr as <- <-. exfalso. apply HF.
        destruct HJ as (_ & _ & w & Hw & Hop). unfold op_of. rewrite Hw, Hop. reflexivity.
      * cbn [app] in Hfr. injection Hfr as <- ->. exists fu, FJ, f0. split; [reflexivity|]. split; [exact Htr|]. split; [exact HJ|exact H].
Qed.

(* the chain below a Setjump frame *)
Lemma TWf_below fu : forall t FJ f0 tj, TWf (fu ++ FJ :: f0) t -> is_setjump FJ tj -> TWf f0 tj.
Proof.
  induction fu as [|F fu IH]; intros t FJ f0 tj H HJ.
  - cbn [app TWf] in H. destruct H as (pre & Hft & H).
    destruct HJ as (Hn & Hs & w & Hw & Hop). unfold frame_type in Hft. rewrite Hw, Hs in Hft. cbv zeta in Hft.
    rewrite Hop in Hft. cbn in Hft. rewrite Hn in Hft. cbn [negb andb] in Hft.
    destruct (zlen (f_data FJ) =? 0); [|discriminate]. injection Hft as _ <-. exact H.
  - cbn [app TWf] in H. destruct H as (pre & _ & H). exact (IH pre FJ f0 tj H HJ).
Qed.

(* trackto: keeping the oldest words *)
Lemma cf_skipn_app {A} (a b : list A) : skipn (Z.to_nat (zlen (a ++ b) - zlen b)) (a ++ b) = b.
Proof.
  rewrite zlen_app. replace (Z.to_nat (zlen a + zlen b - zlen b)) with (length a) by (unfold zlen; lia).
  rewrite skipn_app, skipn_all, Nat.sub_diag. reflexivity.
Qed.

Definition tyck : bool :=
  forallb (fun co => instr_ok (fst co) (snd co)) (cp_dec (codes p)) &&
  match instr_at 0 with
  | Some w0 => (Z.land w0 63 =? Lazybranch) &&
               match instr_at (arg1 0) with Some w1 => Z.land w1 63 =? Stop | None => false end
  | None => false
  end &&
  is_shape (sh_at 0) [] &&
  forallb (fun kv => swords (snd kv) + 4 <=? sinit p) sh.

Hypothesis Hty : tyck = true.

Lemma ty_instr pc w : instr_at pc = Some w -> instr_ok pc w = true.
Proof.
  intros H. unfold tyck in Hty. apply andb_prop in Hty. destruct Hty as [H1 _].
  apply andb_prop in H1. destruct H1 as [H1 _]. apply andb_prop in H1. destruct H1 as [H1 _].
  rewrite forallb_forall in H1. unfold instr_at in H.
  destruct (List.find _ _) as [[c w']|] eqn:E; [|discriminate]. injection H as <-.
  apply find_some in E. destruct E as [Hin Hc]. cbn [fst] in Hc. assert (c = pc) by lia. subst c.
  exact (H1 _ Hin).
Qed.

Lemma ty_zero : exists w0 w1, instr_at 0 = Some w0 /\ Z.land w0 63 = Lazybranch /\
  instr_at (arg1 0) = Some w1 /\ Z.land w1 63 = Stop /\ sh_at 0 = Some [].
Proof.
  unfold tyck in Hty. apply andb_prop in Hty. destruct Hty as [H1 _].
  apply andb_prop in H1. destruct H1 as [H1 H3]. apply andb_prop in H1. destruct H1 as [_ H2].
  destruct (instr_at 0) as [w0|]; [|discriminate]. apply andb_prop in H2. destruct H2 as [Ha Hb].
  destruct (instr_at (arg1 0)) as [w1|]; [|discriminate].
  exists w0, w1. repeat split; try reflexivity; try lia. apply is_shape_eq. exact H3.
Qed.

Lemma sh_get_in pc t l : sh_get pc l = Some t -> In (pc, t) l.
Proof.
  induction l as [|[c t'] l IH]; cbn [sh_get]; [discriminate|]. destruct (pc =? c) eqn:E.
  - intros H. injection H as <-. left. f_equal. lia.
  - intros H. right. apply IH. exact H.
Qed.

Lemma ty_bound pc t : sh_at pc = Some t -> swords t + 4 <= sinit p.
Proof.
  intros H. unfold sh_at in H. destruct (instr_at pc); [|discriminate]. apply sh_get_in in H.
  unfold tyck in Hty. apply andb_prop in Hty. destruct Hty as [_ H4]. rewrite forallb_forall in H4.
  specialize (H4 _ H). cbn [snd] in H4. lia.
Qed.

Definition bottom_ok (fr : list frame) : Prop :=
  fr = [] \/ exists fr' x, fr = fr' ++ [{| f_pc := 0; f_neg := false; f_data := [x] |}].

(* the invariant on the four components it reads.  There are frames fr and a shape t with
     TWf fr t      the frames chain: the top frame's handler expects t, each frame's [pre] is what the next expects
     SWf S t fr    the grouping stack S has shape t, its jump records pointing below Setjump frames of fr
     bottom_ok fr  fr is empty (before the Lazybranch at 0 has run) or ends in that instruction's frame
   and, at an instruction in forward mode, t is the shape [sh_at] gives pc0 and the backtracking stack T is fr
   flattened; in a Back (Back2) handler the top frame F is the one being resumed: pushed at pc0, positive
   (negative) header, its header already popped, so T starts with F's data words *)
Definition winv4 (pc0 md : Z) (T S : list Z) : Prop :=
  exists fr t, TWf fr t /\ SWf S t fr /\ bottom_ok fr /\
    if md =? 0 then sh_at pc0 = Some t /\ T = flatten fr /\ (fr = [] -> pc0 = 0 \/ pc0 = arg1 0)
    else exists F fr', fr = F :: fr' /\ f_pc F = pc0 /\ f_neg F = negb (md =? BackBit) /\ T = f_data F ++ flatten fr'.
Definition winv (s : vm) : Prop := winv4 (pc s) (mode s) (track s) (stack s).

Lemma bottom_cons F fr : fr <> [] -> bottom_ok fr -> bottom_ok (F :: fr).
Proof.
  intros Hne [->|(fr' & x & ->)]; [congruence|]. right. exists (F :: fr'), x. reflexivity.
Qed.
Lemma bottom_tail F fr : bottom_ok (F :: fr) -> bottom_ok fr.
Proof.
  intros [H|(fr' & x & H)]; [discriminate|]. destruct fr' as [|G fr'].
  - cbn [app] in H. injection H as _ H. left. exact H.
  - cbn [app] in H. injection H as _ H. right. exists fr', x. exact H.
Qed.
Lemma bottom_suffix fu : forall F f0, bottom_ok (fu ++ F :: f0) -> bottom_ok f0.
Proof.
  induction fu as [|G fu IH]; intros F f0 H; cbn [app] in H.
  - eapply bottom_tail. exact H.
  - apply (IH F f0). eapply bottom_tail. exact H.
Qed.
Lemma bottom_single x : bottom_ok [{| f_pc := 0; f_neg := false; f_data := [x] |}].
Proof. right. exists [], x. reflexivity. Qed.

Lemma frame_type_instr F t pre : frame_type F = Some (t, pre) ->
  exists w tp, instr_at (f_pc F) = Some w /\ sh_at (f_pc F) = Some tp.
Proof.
  unfold frame_type. destruct (instr_at (f_pc F)) as [w|]; [|discriminate].
  destruct (sh_at (f_pc F)) as [tp|]; [|discriminate]. intros _. exists w, tp. split; reflexivity.
Qed.

Lemma instr_at_nonneg pc w : instr_at pc = Some w -> 0 <= pc.
Proof.
  intros H. apply instr_at_bnd in H. destruct H as [H _]. unfold cp_boundary, cp_dec in H.
  apply cp_dec_aux_pos in H. exact H.
Qed.

(* a negative frame is not at position 0 *)
Lemma frame_neg_pos F t pre : frame_type F = Some (t, pre) -> f_neg F = true -> 0 < f_pc F.
Proof.
  intros Hft Hn. destruct (frame_type_instr F t pre Hft) as (w & tp & Hw & Hs).
  pose proof (instr_at_nonneg _ _ Hw) as H0. destruct (Z.eq_dec (f_pc F) 0) as [E|E]; [exfalso|lia].
  destruct ty_zero as (w0 & w1 & H00 & Hop & _). unfold frame_type in Hft. rewrite Hw, Hs in Hft. cbv zeta in Hft.
  rewrite E in Hw. rewrite H00 in Hw. injection Hw as <-. rewrite Hop in Hft. cbn in Hft. rewrite Hn in Hft.
  cbn in Hft. discriminate.
Qed.

(* the bound on the grouping stack *)
Lemma frame_type_bound F t pre : frame_type F = Some (t, pre) -> swords t + 2 <= sinit p.
Proof.
  intros Hft. destruct (frame_type_instr F t pre Hft) as (w & tp & Hw & Hs).
  pose proof (ty_bound _ _ Hs) as Hb. unfold frame_type in Hft. rewrite Hw, Hs in Hft. cbv zeta in Hft.
  repeat match type of Hft with
         | (if ?b then _ else _) = _ => destruct b
         | match ?x with _ => _ end = _ => destruct x
         end; try discriminate; injection Hft as <- _; cbn [swords kwords] in *; lia.
Qed.

Lemma winv_good s : winv s -> st_good p s.
Proof.
  intros (fr & t & HT & HS & Hb & H). pose proof (SWf_len _ _ _ HS) as Hl. unfold st_good, bnd.
  destruct (mode s =? 0).
  - destruct H as (Hsh & _ & _). pose proof (ty_bound _ _ Hsh).
    destruct (sh_at_instr _ _ Hsh) as [w Hw]. apply instr_at_bnd in Hw. split; [exists w; exact (proj1 Hw)|lia].
  - destruct H as (F & fr' & -> & Hpc & _ & _). cbn [TWf] in HT. destruct HT as (pre & Hft & _).
    pose proof (frame_type_bound _ _ _ Hft). destruct (frame_type_instr _ _ _ Hft) as (w & tp & Hw & _).
    rewrite Hpc in Hw. apply instr_at_bnd in Hw. split; [exists w; exact (proj1 Hw)|lia].
Qed.


Lemma cf_tpush_inv s ws s1 : tpush s ws = Ok s1 -> s1 = set_track s (ws ++ track s).
Proof. unfold tpush. destruct (_ <? _); [discriminate|]. intros H. injection H as <-. reflexivity. Qed.
Lemma cf_spush_inv s ws s1 : spush s ws = Ok s1 -> s1 = set_stack s (ws ++ stack s).
Proof. unfold spush. destruct (_ <? _); [discriminate|]. intros H. injection H as <-. reflexivity. Qed.

(* the exits of a step that succeeds (VMEffectProofs.eff_*_inv, read for the outcome Next) *)
Lemma cf_adv_inv s i s0 : cont (advance p s i) = Ok (Next s0) -> s0 = set_pc s (pc s + i + 1) 0.
Proof. intros H. destruct (eff_adv_inv p s i _ H) as [E|E]; [injection E as <-; reflexivity|discriminate E]. Qed.

Lemma cf_goto_inv L s a s0 : cont (goto p L s a) = Ok (Next s0) ->
  pc s0 = a /\ mode s0 = 0 /\ track s0 = track s /\ stack s0 = stack s.
Proof.
  intros H. destruct (eff_goto_inv p L s a _ H) as [(S' & E & A & B & C & D & _)|[E|E]]; [|discriminate E..].
  injection E as <-. repeat split; assumption.
Qed.

Lemma cf_brk_inv L s s0 : brk p L s = Ok (Next s0) ->
  exists np T', track s = np :: T' /\ pc s0 = Z.abs np /\ mode s0 = (if np <? 0 then Back2Bit else BackBit) /\
                track s0 = T' /\ stack s0 = stack s.
Proof using Hty.
  intros H. destruct (eff_brk_inv p L s _ H) as [(S' & np & T & Et & E & A & B & C & D & _)|[E|[E|E]]]; [|discriminate E..].
  injection E as <-. exists np, T. repeat split; assumption.
Qed.

(* ---------- how a step ends: at an instruction in forward mode (by advance or goto), or in a Back handler ---------- *)
Lemma exit_fwd0 pc1 t fr S : sh_at pc1 = Some t -> TWf fr t -> SWf S t fr -> bottom_ok fr ->
  (fr = [] -> pc1 = 0 \/ pc1 = arg1 0) -> winv4 pc1 0 (flatten fr) S.
Proof.
  intros Hs HT HS Hb Hne. exists fr, t. split; [exact HT|]. split; [exact HS|]. split; [exact Hb|].
  change (0 =? 0) with true. cbv iota. split; [exact Hs|]. split; [reflexivity|exact Hne].
Qed.
Lemma exit_fwd pc1 t fr S : sh_at pc1 = Some t -> TWf fr t -> SWf S t fr -> bottom_ok fr -> fr <> [] ->
  winv4 pc1 0 (flatten fr) S.
Proof. intros Hs HT HS Hb Hne. apply (exit_fwd0 _ t); try assumption. intros E. congruence. Qed.

Lemma adv_winv X i s0 : cont (advance p X i) = Ok (Next s0) -> winv4 (pc X + (i + 1)) 0 (track X) (stack X) -> winv s0.
Proof. intros H G. apply cf_adv_inv in H. subst s0. unfold winv. vm_cbn. rewrite <- Z.add_assoc. exact G. Qed.

Lemma goto_winv L X a s0 : cont (goto p L X a) = Ok (Next s0) -> winv4 a 0 (track X) (stack X) -> winv s0.
Proof.
  intros H G. apply cf_goto_inv in H. destruct H as (H1 & H2 & H3 & H4). unfold winv. rewrite H1, H2, H3, H4. exact G.
Qed.

Lemma push_winv tau fr T0 : TWf fr tau -> bottom_ok fr -> fr <> [] -> T0 = flatten fr -> forall F t' pc1 T S,
  frame_type F = Some (t', tau) -> T = f_hdr F :: f_data F ++ T0 -> SWf S t' fr -> sh_at pc1 = Some t' ->
  winv4 pc1 0 T S.
Proof.
  intros HT Hb Hne -> F t' pc1 T S Hft -> HS Hs. apply (exit_fwd pc1 t' (F :: fr) S Hs).
  - exists tau. split; [exact Hft|exact HT].
  - apply SWf_ext1. exact HS.
  - apply bottom_cons; assumption.
  - discriminate.
Qed.

Lemma exit_brk L s s0 F fr' t : brk p L s = Ok (Next s0) ->
  track s = flatten (F :: fr') -> TWf (F :: fr') t -> SWf (stack s) t (F :: fr') -> bottom_ok (F :: fr') ->
  winv s0.
Proof.
  intros H Ht HT HS Hb. apply cf_brk_inv in H. destruct H as (np & T' & Hnp & H1 & H2 & H3 & H4).
  rewrite Ht in Hnp. cbn [flatten] in Hnp. injection Hnp as <- <-.
  pose proof HT as HT0. cbn [TWf] in HT. destruct HT as (pre & Hft & _).
  destruct (frame_type_instr _ _ _ Hft) as (w & tp & Hw & _). pose proof (instr_at_nonneg _ _ Hw) as Hnn.
  unfold winv. rewrite H1, H2, H3, H4. exists (F :: fr'), t.
  split; [exact HT0|]. split; [exact HS|]. split; [exact Hb|].
  unfold f_hdr. destruct (f_neg F) eqn:En.
  - pose proof (frame_neg_pos F t pre Hft En) as Hpos. replace (- f_pc F <? 0) with true by lia.
    change (Back2Bit =? 0) with false. cbv iota. exists F, fr'. split; [reflexivity|]. split; [lia|].
    split; [rewrite En; reflexivity|reflexivity].
  - replace (f_pc F <? 0) with false by lia. change (BackBit =? 0) with false. cbv iota.
    exists F, fr'. split; [reflexivity|]. split; [lia|]. split; [rewrite En; reflexivity|reflexivity].
Qed.


Lemma exit_brk_any L s s0 fr t : brk p L s = Ok (Next s0) ->
  track s = flatten fr -> TWf fr t -> SWf (stack s) t fr -> bottom_ok fr -> winv s0.
Proof.
  intros H Ht HT HS Hb. destruct fr as [|F fr'].
  - exfalso. apply cf_brk_inv in H. destruct H as (np & T' & Hnp & _). rewrite Ht in Hnp. discriminate Hnp.
  - eapply exit_brk; eassumption.
Qed.

Lemma zl0 {A} (l : list A) : zlen l = 0 -> l = [].
Proof. destruct l; [reflexivity|]. rewrite zlen_cons. pose proof (zlen_nonneg l). lia. Qed.
Lemma zl1 {A} (l : list A) : zlen l = 1 -> exists a, l = [a].
Proof. destruct l as [|a l]; [discriminate|]. rewrite zlen_cons. intros H. rewrite (zl0 l ltac:(lia)). eexists. reflexivity. Qed.
Lemma zl2 {A} (l : list A) : zlen l = 2 -> exists a b, l = [a; b].
Proof.
  destruct l as [|a l]; [discriminate|]. rewrite zlen_cons. intros H. destruct (zl1 l ltac:(lia)) as [b ->].
  eexists _, _. reflexivity.
Qed.
Lemma zl3 {A} (l : list A) : zlen l = 3 -> exists a b c, l = [a; b; c].
Proof.
  destruct l as [|a l]; [discriminate|]. rewrite zlen_cons. intros H. destruct (zl2 l ltac:(lia)) as (b & c & ->).
  eexists _, _, _. reflexivity.
Qed.

Lemma bottom_singleton F : bottom_ok [F] -> exists x, F = {| f_pc := 0; f_neg := false; f_data := [x] |}.
Proof.
  intros [H|(fr' & x & H)]; [discriminate|]. destruct fr' as [|G fr'].
  - cbn [app] in H. injection H as ->. exists x. reflexivity.
  - cbn [app] in H. injection H as _ H. destruct fr'; discriminate H.
Qed.

Ltac cf_cbv_in H :=
  cbv beta iota zeta delta
      [pc mode tp track tcap stack scap crawl mcaps
       set_pc set_tp set_track set_stack set_caps set_tcap set_scap bind] in H.

Ltac binv H :=
  repeat match type of H with
         | bind ?x _ = Ok _ => let E := fresh "E" in destruct x eqn:E; cbn [bind] in H; try discriminate H
         end.

Lemma opsize_of w : opcode_size w = zassoc (Z.land w 63) opcode_size_tbl 0.
Proof. reflexivity. Qed.

(* operations that only touch the capture arrays keep pc, mode, track, stack *)
Definition same4 (a b : vm) : Prop := pc a = pc b /\ mode a = mode b /\ track a = track b /\ stack a = stack b.

Lemma cf_do_capture_inv s a x t s1 : do_capture s a x t = Ok s1 -> same4 s1 s.
Proof.
  unfold do_capture. destruct (t <? x); destruct (add_match _ _ _ _); try discriminate;
    intros H; injection H as <-; repeat split.
Qed.
Lemma cf_do_transfer_inv s a b x t s1 : do_transfer s a b x t = Ok s1 -> same4 s1 s.
Proof.
  unfold do_transfer. intros H.
  repeat match type of H with
         | context [match ?x with _ => _ end] =>
             lazymatch x with
             | context [match _ with _ => _ end] => fail
             | _ => destruct x eqn:?
             end
         end; try discriminate; injection H as <-; repeat split.
Qed.
Lemma cf_uncapture_to_inv f s t s1 : uncapture_to f s t = Ok s1 -> same4 s1 s.
Proof.
  rewrite uncapture_to_pure. destruct (unc_pure _ _ _ _) as [[cr m]| | |]; cbn [bind]; try discriminate.
  intros H. injection H as <-. repeat split.
Qed.
Lemma cf_uncapture_inv s s1 : uncapture s = Ok s1 -> same4 s1 s.
Proof.
  unfold uncapture. destruct (crawl s); [discriminate|]. destruct (remove_match _ _); [|discriminate].
  intros H. injection H as <-. repeat split.
Qed.

Lemma cf_opnd0 s a : opnd p s 0 = Ok a -> a = arg1 (pc s).
Proof.
  unfold opnd, arg1. replace (pc s + 0 + 1) with (pc s + 1) by lia.
  destruct (code_at p (pc s + 1)); [|discriminate]. intros H. injection H as <-. reflexivity.
Qed.

Lemma cf_trackto_inv s fu F f0 s1 :
  track s = flatten (fu ++ F :: f0) -> trackto s (zlen (flatten f0)) = Ok s1 -> s1 = set_track s (flatten f0).
Proof.
  intros Ht. unfold trackto. destruct (_ || _); [discriminate|]. intros H. injection H as <-.
  rewrite Ht. f_equal. rewrite flatten_app. cbn [flatten].
  replace (flatten fu ++ f_hdr F :: f_data F ++ flatten f0) with ((flatten fu ++ f_hdr F :: f_data F) ++ flatten f0)
    by (rewrite <- app_assoc; reflexivity).
  apply cf_skipn_app.
Qed.

(* UpdateBumpalong: the oldest word of the backtracking stack is the data word of the bottom frame *)
Definition fbot (x : Z) : frame := {| f_pc := 0; f_neg := false; f_data := [x] |}.

Lemma fbot_type x y t pre : frame_type (fbot x) = Some (t, pre) -> frame_type (fbot y) = Some (t, pre).
Proof. unfold frame_type. cbn [fbot f_pc f_neg f_data]. intros H. exact H. Qed.

Lemma TWf_rebottom fr' : forall t x y, TWf (fr' ++ [fbot x]) t -> TWf (fr' ++ [fbot y]) t.
Proof.
  induction fr' as [|F fr' IH]; intros t x y H; cbn [app TWf] in H |- *.
  - destruct H as (pre & Hft & _). exists pre. split; [exact (fbot_type x y t pre Hft)|exact I].
  - destruct H as (pre & Hft & H). exists pre. split; [exact Hft|exact (IH pre x y H)].
Qed.

Lemma fbot_not_setjump x t : ~ is_setjump (fbot x) t.
Proof.
  intros (_ & _ & w & Hw & Hop). cbn [fbot f_pc] in Hw.
  destruct ty_zero as (w0 & w1 & H00 & Hop0 & _). rewrite H00 in Hw. injection Hw as <-. rewrite Hop0 in Hop. discriminate.
Qed.

Lemma flatten_rebottom_len fr' x y : zlen (flatten (fr' ++ [fbot x])) = zlen (flatten (fr' ++ [fbot y])).
Proof. rewrite !flatten_app, !zlen_app. reflexivity. Qed.

Lemma SWf_rebottom S : forall t fr' x y, SWf S t (fr' ++ [fbot x]) -> SWf S t (fr' ++ [fbot y]).
Proof.
  induction S as [S IH] using (well_founded_induction (Wf_nat.well_founded_ltof _ (@length Z))).
  intros t fr' x y H. destruct t as [|k t].
  - destruct S; [exact I|contradiction].
  - destruct k; cbn [SWf] in H |- *.
    + destruct S as [|a S']; [contradiction|]. apply (IH S' ltac:(unfold ltof; cbn [length]; lia) t fr' x y). exact H.
    + destruct S as [|a [|b S']]; try contradiction. apply (IH S' ltac:(unfold ltof; cbn [length]; lia) t fr' x y). exact H.
    + destruct S as [|a [|b S']]; try contradiction. destruct H as (fu & FJ & f0 & Hfr & Htr & HJ & H).
      (* f0 is a non-empty suffix ending in the bottom frame *)
      assert (Hf0 : exists g, f0 = g ++ [fbot x] /\ fr' = fu ++ FJ :: g).
      { destruct (exists_last (l := f0)) as (g & z & ->).
        - intros ->. assert (E : fr' ++ [fbot x] = (fu ++ []) ++ [FJ]) by (rewrite app_nil_r; exact Hfr).
          apply app_inj_tail in E. destruct E as [_ E]. subst FJ. exact (fbot_not_setjump x t HJ).
        - exists g. assert (E : fr' ++ [fbot x] = (fu ++ FJ :: g) ++ [z]) by (rewrite <- app_assoc; exact Hfr).
          apply app_inj_tail in E. destruct E as [E1 E2]. subst z. split; [reflexivity|exact E1]. }
      destruct Hf0 as (g & -> & ->).
      exists fu, FJ, (g ++ [fbot y]). split; [rewrite <- app_assoc; reflexivity|].
      split; [rewrite Htr; apply flatten_rebottom_len|]. split; [exact HJ|].
      apply (IH S' ltac:(unfold ltof; cbn [length]; lia) t g x y). exact H.
Qed.

Lemma flatten_bottom fr' x : flatten (fr' ++ [fbot x]) = flatten fr' ++ [0; x].
Proof. rewrite flatten_app. reflexivity. Qed.

Lemma setjump_not_last fu FJ t : bottom_ok (fu ++ [FJ]) -> is_setjump FJ t -> False.
Proof.
  intros [H|(fr' & x & H)] HJ.
  - destruct fu; discriminate H.
  - apply app_inj_tail in H. destruct H as [_ ->]. exact (fbot_not_setjump x t HJ).
Qed.

Ltac pushinv :=
  repeat match goal with
         | E : tpush _ _ = Ok ?v |- _ => apply cf_tpush_inv in E; subst v
         | E : spush _ _ = Ok ?v |- _ => apply cf_spush_inv in E; subst v
         end.

Ltac opnd0 :=
  match goal with E : opnd p ?s 0 = Ok ?a |- _ => apply cf_opnd0 in E; subst a end.

(* the frames of the character loops (opcodes 3..8): two data words, the shape unchanged *)
Lemma frame_type_loop pc0 n d w tp : instr_at pc0 = Some w -> sh_at pc0 = Some tp ->
  (3 <=? Z.land w 63) && (Z.land w 63 <=? 8) = true ->
  frame_type {| f_pc := pc0; f_neg := n; f_data := d |} = if negb n && (zlen d =? 2) then Some (tp, tp) else None.
Proof.
  intros Hw Hs Hr. unfold frame_type. cbn [f_pc f_neg f_data]. rewrite Hw, Hs. cbv zeta.
  assert (Hv : Z.land w 63 = 3 \/ Z.land w 63 = 4 \/ Z.land w 63 = 5 \/ Z.land w 63 = 6 \/ Z.land w 63 = 7 \/ Z.land w 63 = 8) by lia.
  clear Hr. destruct Hv as [Ea|[Ea|[Ea|[Ea|[Ea|Ea]]]]]; rewrite Ea; reflexivity.
Qed.

(* a step of a "plain" opcode: evaluate, then every leaf is an advance or a failure with the stacks unchanged *)
Ltac plain_auto H PA PB :=
  repeat (cf_cbv_in H; cp_case_in H);
  cf_cbv_in H;
  first [ discriminate H
        | eapply PA; [exact H|reflexivity|reflexivity|reflexivity|reflexivity]
        | eapply PB; [exact H|reflexivity|reflexivity] ].

Ltac plain_case op k H Plain Brk :=
  let E := fresh "E" in
  destruct (op =? k) eqn:E; [apply Z.eqb_eq in E; rewrite E in Plain; plain_auto H (Plain eq_refl) Brk|].

Ltac take E Hok := apply Z.eqb_eq in E; rewrite E in Hok; cbn -[sh_at arg1 is_shape] in Hok.

Ltac ftype Hw Hsh Eop E :=
  unfold frame_type; cbn [f_pc f_neg f_data]; rewrite Hw, Hsh; cbv zeta; rewrite <- Eop, E; reflexivity.

Lemma winv_fwd s s0 : winv s -> mode s = 0 -> step e p (-1) s = Ok (Next s0) -> winv s0.
Proof.
  intros (fr & tau & HT & HS & Hb & Hm) Hmd H. rewrite Hmd in Hm. change (0 =? 0) with true in Hm. cbv iota in Hm.
  destruct Hm as (Hsh & Htr & Hnil).
  destruct (sh_at_instr _ _ Hsh) as [w Hw].
  pose proof (ty_instr _ _ Hw) as Hok. unfold instr_ok in Hok. rewrite Hsh in Hok. cbv zeta in Hok.
  destruct (instr_at_bnd _ _ Hw) as [_ Hcode].
  unfold step in H. rewrite Hcode in H. cbv zeta in H. rewrite Hmd in H. change (0 =? 0) with true in H. cbv iota in H.
  rewrite opsize_of in Hok.
  remember (Z.land w 63) as op eqn:Eop.
  destruct (op =? Stop) eqn:E0; [discriminate H|].
  (* the bottom frame is pushed by the Lazybranch at 0; the Stop is the only other instruction met without frames *)
  destruct (op =? Lazybranch) eqn:E4.
  { take E4 Hok. destruct (is_shape2_eq _ _ _ _ Hok) as [Hok1 _].
    rewrite E4 in H. cbv beta iota delta [Z.eqb Pos.eqb Lazybranch Nothing Goto Testref] in H.
    binv H. pushinv. apply (adv_winv _ _ _ H). vm_cbn. rewrite Htr.
    apply (exit_fwd _ tau ({| f_pc := pc s; f_neg := false; f_data := [tp s] |} :: fr) _ Hok1).
    - exists tau. split; [ftype Hw Hsh Eop E4|exact HT].
    - apply SWf_ext1. exact HS.
    - destruct fr as [|G fr']; [|apply bottom_cons; [discriminate|exact Hb]].
      destruct (Hnil eq_refl) as [E|E]; [rewrite E; apply bottom_single|].
      exfalso. destruct ty_zero as (w0 & w1 & _ & _ & H01 & Hop1 & _). rewrite E in Hw. rewrite H01 in Hw.
      injection Hw as <-. rewrite <- Eop, E4 in Hop1. discriminate.
    - discriminate. }
  assert (Hne : fr <> []).
  { intros ->. destruct ty_zero as (w0 & w1 & H00 & Hop0 & H01 & Hop1 & _).
    destruct (Hnil eq_refl) as [E|E]; rewrite E in Hw.
    - rewrite H00 in Hw. injection Hw as <-. rewrite <- Eop in Hop0. rewrite Hop0 in E4. discriminate E4.
    - rewrite H01 in Hw. injection Hw as <-. rewrite <- Eop in Hop1. rewrite Hop1 in E0. discriminate E0. }
  clear Hnil E0 E4.
  pose proof (push_winv tau fr (track s) HT Hb Hne Htr) as Push.
  assert (Keep : forall pc1, sh_at pc1 = Some tau -> winv4 pc1 0 (track s) (stack s)).
  { intros pc1 Hs. rewrite Htr. exact (exit_fwd pc1 tau fr _ Hs HT HS Hb Hne). }
  assert (Brk : forall X, brk p (-1) X = Ok (Next s0) -> track X = track s -> stack X = stack s -> winv s0).
  { intros X HX HtX HsX. apply (exit_brk_any (-1) X s0 fr tau HX); [rewrite HtX; exact Htr|exact HT|rewrite HsX; exact HS|exact Hb]. }
  (* what a step that only reads does: advance with the stacks unchanged, or fail *)
  assert (Plain : in_list op plain_ops = true -> forall X i, cont (advance p X i) = Ok (Next s0) ->
            pc X = pc s -> track X = track s -> stack X = stack s -> i + 1 = zassoc op opcode_size_tbl 0 -> winv s0).
  { intros Hp X i HX Hpc HtX HsX Hi. rewrite Hp in Hok. apply is_shape_eq in Hok. apply (adv_winv _ _ _ HX).
    rewrite Hpc, HtX, HsX, Hi. exact (Keep _ Hok). }
  destruct (op =? Nothing) eqn:E1; [exact (Brk s H eq_refl eq_refl)|].
  destruct (op =? Goto) eqn:E2.
  { take E2 Hok. apply is_shape_eq in Hok. binv H. opnd0. exact (goto_winv _ _ _ _ H (Keep _ Hok)). }
  destruct (op =? Testref) eqn:E3.
  { apply Z.eqb_eq in E3. rewrite E3 in Plain.
    binv H. match type of H with match ?x with _ => _ end = _ => destruct x as [[|]|] end;
      [|exact (Brk s H eq_refl eq_refl)|discriminate H].
    exact (Plain eq_refl _ _ H eq_refl eq_refl eq_refl eq_refl). }
  destruct (op =? Setmark) eqn:E5.
  { take E5 Hok. apply is_shape_eq in Hok. binv H. pushinv.
    apply (adv_winv _ _ _ H), (Push {| f_pc := pc s; f_neg := false; f_data := [] |} (KM :: tau));
      [ftype Hw Hsh Eop E5|reflexivity|exact HS|exact Hok]. }
  destruct (op =? Nullmark) eqn:E6.
  { take E6 Hok. apply is_shape_eq in Hok. binv H. pushinv.
    apply (adv_winv _ _ _ H), (Push {| f_pc := pc s; f_neg := false; f_data := [] |} (KM :: tau));
      [ftype Hw Hsh Eop E6|reflexivity|exact HS|exact Hok]. }
  destruct (op =? Getmark) eqn:E7.
  { take E7 Hok. destruct tau as [|[| |] t']; try discriminate Hok. apply is_shape_eq in Hok.
    destruct (stack s) as [|x st] eqn:Es; [discriminate H|]. binv H. pushinv.
    apply (adv_winv _ _ _ H), (Push {| f_pc := pc s; f_neg := false; f_data := [x] |} t');
      [ftype Hw Hsh Eop E7|reflexivity|exact HS|exact Hok]. }
  destruct (op =? Capturemark) eqn:E8.
  { take E8 Hok. destruct tau as [|[| |] t']; try discriminate Hok. apply is_shape_eq in Hok.
    binv H. match type of H with (if negb ?b then _ else _) = _ => destruct b end; cbn [negb] in H;
      [|exact (Brk s H eq_refl eq_refl)].
    destruct (stack s) as [|x st] eqn:Es; [discriminate H|]. binv H.
    match goal with E : (if ?c then do_capture _ _ _ _ else do_transfer _ _ _ _ _) = Ok ?v |- _ =>
      assert (Hv : same4 v (set_stack s st)) by (destruct c; [eapply cf_do_capture_inv|eapply cf_do_transfer_inv]; exact E) end.
    destruct Hv as (V1 & _ & V3 & V4). vm_cbn_in V1. vm_cbn_in V3. vm_cbn_in V4. pushinv.
    apply (adv_winv _ _ _ H), (Push {| f_pc := pc s; f_neg := false; f_data := [x] |} t'); vm_cbn.
    - ftype Hw Hsh Eop E8.
    - rewrite V3. reflexivity.
    - rewrite V4. exact HS.
    - rewrite V1. exact Hok. }
  destruct (op =? Branchmark) eqn:E9.
  { take E9 Hok. destruct tau as [|[| |] t']; try discriminate Hok. destruct (is_shape2_eq _ _ _ _ Hok) as [Hok1 Hok2].
    binv H. opnd0. destruct (stack s) as [|x st] eqn:Es; [discriminate H|].
    match type of H with (if ?b then _ else _) = _ => destruct b end; binv H; pushinv.
    - apply (goto_winv _ _ _ _ H), (Push {| f_pc := pc s; f_neg := false; f_data := [tp s; x] |} (KM :: t'));
        [ftype Hw Hsh Eop E9|reflexivity|exact HS|exact Hok2].
    - apply (adv_winv _ _ _ H), (Push {| f_pc := pc s; f_neg := true; f_data := [x] |} t');
        [ftype Hw Hsh Eop E9|reflexivity|exact HS|exact Hok1]. }
  destruct (op =? Lazybranchmark) eqn:E10.
  { take E10 Hok. destruct tau as [|[| |] t']; try discriminate Hok. destruct (is_shape2_eq _ _ _ _ Hok) as [Hok1 _].
    destruct (stack s) as [|x st] eqn:Es; [discriminate H|]. binv H.
    match goal with E : (if ?b then _ else _) = Ok ?v |- _ => destruct b; [match type of E with (if ?c then _ else _) = _ => destruct c end|] end;
      pushinv; apply (adv_winv _ _ _ H).
    - apply (Push {| f_pc := pc s; f_neg := false; f_data := [tp s; x] |} t'); [ftype Hw Hsh Eop E10|reflexivity|exact HS|exact Hok1].
    - apply (Push {| f_pc := pc s; f_neg := false; f_data := [tp s; tp s] |} t'); [ftype Hw Hsh Eop E10|reflexivity|exact HS|exact Hok1].
    - apply (Push {| f_pc := pc s; f_neg := true; f_data := [0; x] |} t'); [ftype Hw Hsh Eop E10|reflexivity|exact HS|exact Hok1]. }
  destruct (op =? Setcount) eqn:E11.
  { take E11 Hok. apply is_shape_eq in Hok. binv H. pushinv.
    apply (adv_winv _ _ _ H), (Push {| f_pc := pc s; f_neg := false; f_data := [] |} (KC :: tau));
      [ftype Hw Hsh Eop E11|reflexivity|exact HS|exact Hok]. }
  destruct (op =? Nullcount) eqn:E12.
  { take E12 Hok. apply is_shape_eq in Hok. binv H. pushinv.
    apply (adv_winv _ _ _ H), (Push {| f_pc := pc s; f_neg := false; f_data := [] |} (KC :: tau));
      [ftype Hw Hsh Eop E12|reflexivity|exact HS|exact Hok]. }
  destruct (op =? Branchcount) eqn:E13.
  { take E13 Hok. destruct tau as [|[| |] t']; try discriminate Hok. destruct (is_shape2_eq _ _ _ _ Hok) as [Hok1 Hok2].
    binv H. opnd0. destruct (stack s) as [|cnt [|mark st]] eqn:Es; try discriminate H.
    match type of H with (if ?b then _ else _) = _ => destruct b end; binv H; pushinv.
    - apply (adv_winv _ _ _ H), (Push {| f_pc := pc s; f_neg := true; f_data := [cnt; mark] |} t');
        [ftype Hw Hsh Eop E13|reflexivity|exact HS|exact Hok1].
    - apply (goto_winv _ _ _ _ H), (Push {| f_pc := pc s; f_neg := false; f_data := [mark] |} (KC :: t'));
        [ftype Hw Hsh Eop E13|reflexivity|exact HS|exact Hok2]. }
  destruct (op =? Lazybranchcount) eqn:E14.
  { take E14 Hok. destruct tau as [|[| |] t']; try discriminate Hok. destruct (is_shape2_eq _ _ _ _ Hok) as [Hok1 Hok2].
    binv H. opnd0. destruct (stack s) as [|cnt [|mark st]] eqn:Es; try discriminate H.
    match type of H with (if ?b then _ else _) = _ => destruct b end; binv H; pushinv.
    - apply (goto_winv _ _ _ _ H), (Push {| f_pc := pc s; f_neg := true; f_data := [mark] |} (KC :: t'));
        [ftype Hw Hsh Eop E14|reflexivity|exact HS|exact Hok2].
    - apply (adv_winv _ _ _ H), (Push {| f_pc := pc s; f_neg := false; f_data := [tp s; cnt; mark] |} t');
        [ftype Hw Hsh Eop E14|reflexivity|exact HS|exact Hok1]. }
  destruct (op =? Setjump) eqn:E15.
  { (* the new jump record points below the new frame *)
    take E15 Hok. apply is_shape_eq in Hok. binv H. pushinv. apply (adv_winv _ _ _ H). vm_cbn. rewrite Htr.
    apply (exit_fwd _ (KJ :: tau) ({| f_pc := pc s; f_neg := false; f_data := [] |} :: fr) _ Hok).
    - exists tau. split; [ftype Hw Hsh Eop E15|exact HT].
    - cbn [app SWf]. exists [], {| f_pc := pc s; f_neg := false; f_data := [] |}, fr.
      split; [reflexivity|]. split; [reflexivity|]. split; [|exact HS].
      split; [reflexivity|]. split; [exact Hsh|]. exists w. split; [exact Hw|]. rewrite <- Eop. exact E15.
    - apply bottom_cons; assumption.
    - discriminate. }
  destruct (op =? Backjump) eqn:E16.
  { take E16 Hok. destruct tau as [|[| |] t']; try discriminate Hok.
    destruct (stack s) as [|cr [|tr st]] eqn:Es; try discriminate H.
    cbn [SWf] in HS. destruct HS as (fu & FJ & f0 & Hfr & Htr' & HJ & HS').
    binv H. subst tr.
    match goal with E : trackto _ _ = Ok ?v |- _ =>
      apply (cf_trackto_inv (set_stack s st) fu FJ f0) in E; [subst v|vm_cbn; rewrite Htr, Hfr; reflexivity] end.
    match goal with E : uncapture_to _ _ _ = Ok ?v |- _ => apply cf_uncapture_to_inv in E; destruct E as (_ & _ & V3 & V4) end.
    vm_cbn_in V3. vm_cbn_in V4. rewrite Hfr in HT, Hb.
    apply (exit_brk_any (-1) _ s0 f0 t' H V3).
    - eapply TWf_below; eassumption.
    - rewrite V4. exact HS'.
    - eapply bottom_suffix. exact Hb. }
  destruct (op =? Forejump) eqn:E17.
  { take E17 Hok. destruct tau as [|[| |] t']; try discriminate Hok. apply is_shape_eq in Hok.
    destruct (stack s) as [|cr [|tr st]] eqn:Es; try discriminate H.
    cbn [SWf] in HS. destruct HS as (fu & FJ & f0 & Hfr & Htr' & HJ & HS').
    binv H. subst tr.
    match goal with E : trackto _ _ = Ok ?v |- _ =>
      apply (cf_trackto_inv (set_stack s st) fu FJ f0) in E; [subst v|vm_cbn; rewrite Htr, Hfr; reflexivity] end.
    pushinv. rewrite Hfr in HT, Hb.
    assert (Hf0 : f0 <> []).
    { intros ->. eapply setjump_not_last; [|exact HJ]. exact Hb. }
    apply (adv_winv _ _ _ H),
      (push_winv t' f0 _ (TWf_below _ _ _ _ _ HT HJ) (bottom_suffix _ _ _ Hb) Hf0 eq_refl {| f_pc := pc s; f_neg := false; f_data := [cr] |} t');
      [ftype Hw Hsh Eop E17|reflexivity|exact HS'|exact Hok]. }
  clear Push Keep.
  plain_case op Bol H Plain Brk.
  plain_case op Eol H Plain Brk.
  plain_case op Boundary H Plain Brk.
  plain_case op Nonboundary H Plain Brk.
  plain_case op ECMABoundary H Plain Brk.
  plain_case op NonECMABoundary H Plain Brk.
  plain_case op Beginning H Plain Brk.
  plain_case op Start H Plain Brk.
  plain_case op EndZ H Plain Brk.
  plain_case op EndOp H Plain Brk.
  destruct ((op =? One) || (op =? Notone) || (op =? SetOp)) eqn:EG1.
  { assert (Hp : in_list op plain_ops = true /\ zassoc op opcode_size_tbl 0 = 2).
    { assert (Hop : op = One \/ op = Notone \/ op = SetOp) by (clear -EG1; lia).
      clear -Hop. destruct Hop as [->|[->| ->]]; split; reflexivity. }
    destruct Hp as [Hp Hsz]. rewrite Hsz in Plain. plain_auto H (Plain Hp) Brk. }
  plain_case op Multi H Plain Brk.
  plain_case op Ref H Plain Brk.
  destruct ((op =? Onerep) || (op =? Notonerep) || (op =? Setrep)) eqn:EG2.
  { assert (Hp : in_list op plain_ops = true /\ zassoc op opcode_size_tbl 0 = 3).
    { assert (Hop : op = Onerep \/ op = Notonerep \/ op = Setrep) by (clear -EG2; lia).
      clear -Hop. destruct Hop as [->|[->| ->]]; split; reflexivity. }
    destruct Hp as [Hp Hsz]. rewrite Hsz in Plain. plain_auto H (Plain Hp) Brk. }
  pose proof (push_winv tau fr (track s) HT Hb Hne Htr) as Push.
  destruct ((op =? Oneloop) || (op =? Notoneloop) || (op =? Setloop) || (op =? Oneloopatomic) || (op =? Notoneloopatomic) || (op =? Setloopatomic)) eqn:EG3.
  { assert (Hp : in_list op plain_ops = true /\ zassoc op opcode_size_tbl 0 = 3 /\
                 (negb (43 <=? op) = true -> (3 <=? op) && (op <=? 8) = true)).
    { assert (Hop : op = Oneloop \/ op = Notoneloop \/ op = Setloop \/ op = Oneloopatomic \/ op = Notoneloopatomic \/ op = Setloopatomic)
        by (clear -EG3; lia).
      clear -Hop. destruct Hop as [->|[->|[->|[->|[->| ->]]]]]; repeat split; intros X; try reflexivity; discriminate X. }
    destruct Hp as (Hp & Hsz & Hr). rewrite Hsz in Plain.
    binv H. cbv zeta in H.
    match type of H with match ?x with _ => _ end = _ => destruct x as [[i t']|] end; [|discriminate H].
    binv H.
    match goal with E : (if ?b then tpush _ _ else Ok _) = Ok ?v |- _ => destruct b eqn:Eb end.
    - pushinv. apply andb_prop in Eb. destruct Eb as [_ Eat].
      match type of H with cont (advance p (set_track _ ([pc s; ?d1; ?d2] ++ _)) 2) = _ =>
        apply (adv_winv _ _ _ H), (Push {| f_pc := pc s; f_neg := false; f_data := [d1; d2] |} tau) end.
      + rewrite (frame_type_loop _ _ _ w tau Hw Hsh); [reflexivity|].
        rewrite <- Eop. exact (Hr Eat).
      + reflexivity.
      + exact HS.
      + rewrite Hp in Hok. apply is_shape_eq in Hok. rewrite Hsz in Hok. exact Hok.
    - match goal with E : Ok _ = Ok ?v |- _ => injection E as <- end.
      exact (Plain Hp _ _ H eq_refl eq_refl eq_refl eq_refl). }
  destruct ((op =? Onelazy) || (op =? Notonelazy) || (op =? Setlazy)) eqn:EG4.
  { assert (Hp : in_list op plain_ops = true /\ zassoc op opcode_size_tbl 0 = 3 /\ (3 <=? op) && (op <=? 8) = true).
    { assert (Hop : op = Onelazy \/ op = Notonelazy \/ op = Setlazy) by (clear -EG4; lia).
      clear -Hop. destruct Hop as [->|[->| ->]]; repeat split. }
    destruct Hp as (Hp & Hsz & Hr). rewrite Hsz in Plain.
    binv H. cbv zeta in H. binv H.
    match goal with E : (if ?b then tpush _ _ else Ok _) = Ok ?v |- _ => destruct b eqn:Eb end.
    - pushinv.
      match type of H with cont (advance p (set_track _ ([pc s; ?d1; ?d2] ++ _)) 2) = _ =>
        apply (adv_winv _ _ _ H), (Push {| f_pc := pc s; f_neg := false; f_data := [d1; d2] |} tau) end.
      + rewrite (frame_type_loop _ _ _ w tau Hw Hsh); [reflexivity|].
        rewrite <- Eop. exact Hr.
      + reflexivity.
      + exact HS.
      + rewrite Hp in Hok. apply is_shape_eq in Hok. rewrite Hsz in Hok. exact Hok.
    - match goal with E : Ok _ = Ok ?v |- _ => injection E as <- end.
      exact (Plain Hp _ _ H eq_refl eq_refl eq_refl eq_refl). }
  destruct (op =? UpdateBumpalong) eqn:EU; [|discriminate H].
  apply Z.eqb_eq in EU. rewrite EU in Plain, Hok. cbn -[sh_at arg1 is_shape] in Hok. apply is_shape_eq in Hok.
  destruct Hb as [Hb|(fr' & x & Hb)]; [congruence|].
  assert (Hrev : rev (track s) = x :: 0 :: rev (flatten fr')).
  { rewrite Htr, Hb. change [{| f_pc := 0; f_neg := false; f_data := [x] |}] with [fbot x].
    rewrite flatten_bottom, rev_app_distr. reflexivity. }
  rewrite Hrev in H. change [{| f_pc := 0; f_neg := false; f_data := [x] |}] with [fbot x] in Hb. rewrite Hb in HT, HS.
  assert (G : cont (advance p (set_track s (rev (tp s :: 0 :: rev (flatten fr')))) 0) = Ok (Next s0) -> winv s0).
  { intros HH. apply (adv_winv _ _ _ HH). vm_cbn.
    replace (rev (tp s :: 0 :: rev (flatten fr'))) with (flatten (fr' ++ [fbot (tp s)]))
      by (rewrite flatten_bottom; cbn [rev]; rewrite rev_involutive, <- app_assoc; reflexivity).
    apply (exit_fwd _ tau _ _ Hok (TWf_rebottom fr' tau x _ HT) (SWf_rebottom _ tau fr' x _ HS)).
    - right. exists fr', (tp s). reflexivity.
    - destruct fr'; discriminate. }
  destruct (zlen (track s) =? tcap s); destruct (x <? tp s);
    first [exact (G H) | exact (Plain eq_refl _ _ H eq_refl eq_refl eq_refl eq_refl)].
Qed.


Lemma SWf_pop_setjump S t F fr cr tr : SWf (cr :: tr :: S) (KJ :: t) (F :: fr) -> SWf S t fr.
Proof.
  cbn [SWf]. intros (fu & FJ & f0 & Hfr & _ & _ & H). destruct fu as [|G fu]; cbn [app] in Hfr.
  - injection Hfr as _ ->. exact H.
  - injection Hfr as _ ->. replace (fu ++ FJ :: f0) with ((fu ++ [FJ]) ++ f0) by (rewrite <- app_assoc; reflexivity).
    apply SWf_ext. exact H.
Qed.

(* the type of the resumed frame, for its opcode; then the number of its data words *)
Ltac ftake E Hft := rewrite ?E in Hft; cbn -[zlen] in Hft.
Ltac zlen_inv Hft Ez :=
  match type of Hft with (if zlen ?d =? ?k then _ else _) = _ =>
    destruct (zlen d =? k) eqn:Ez; [apply Z.eqb_eq in Ez|discriminate Hft] end;
  injection Hft as <- <-.

Lemma winv_back s s0 : winv s -> mode s = BackBit -> step e p (-1) s = Ok (Next s0) -> winv s0.
Proof.
  intros (fr & tau & HT & HS & Hb & Hm) Hmd H. rewrite Hmd in Hm. change (BackBit =? 0) with false in Hm. cbv iota in Hm.
  destruct Hm as ([fpc fneg d] & fr' & -> & Hpc & Hneg & Htr). cbn [f_pc f_neg f_data] in Hpc, Hneg, Htr.
  change (BackBit =? BackBit) with true in Hneg. cbn [negb] in Hneg. subst fpc fneg.
  cbn [TWf] in HT. destruct HT as (pre & Hft0 & HT).
  destruct (frame_type_instr _ _ _ Hft0) as (w & tp0 & Hw & Hshp). cbn [f_pc] in Hw, Hshp.
  pose proof (ty_instr _ _ Hw) as Hok. unfold instr_ok in Hok. rewrite Hshp in Hok. cbv zeta in Hok.
  destruct (instr_at_bnd _ _ Hw) as [_ Hcode].
  unfold step in H. rewrite Hcode in H. cbv zeta in H. rewrite Hmd in H.
  change (BackBit =? 0) with false in H. change (BackBit =? BackBit) with true in H. cbv iota in H.
  rewrite opsize_of in Hok. rewrite Htr in H.
  pose proof Hft0 as Hft. unfold frame_type in Hft. cbn [f_pc f_neg f_data] in Hft. rewrite Hw, Hshp in Hft. cbv zeta in Hft.
  assert (Hopf : op_of {| f_pc := pc s; f_neg := false; f_data := d |} = Some (Z.land w 63)) by (unfold op_of; cbn [f_pc]; rewrite Hw; reflexivity).
  remember (Z.land w 63) as op eqn:Eop.
  pose proof (bottom_tail _ _ Hb) as Hb'.
  destruct (op =? Lazybranch) eqn:E1.
  { (* the only frame that can be the bottom frame *)
    apply Z.eqb_eq in E1. ftake E1 Hft. zlen_inv Hft Ez. destruct (zl1 _ Ez) as [x ->]. cbn [app] in H.
    rewrite E1 in Hok. cbn -[sh_at arg1 is_shape] in Hok. destruct (is_shape2_eq _ _ _ _ Hok) as [_ Hok2].
    binv H. opnd0. apply (goto_winv _ _ _ _ H). vm_cbn.
    apply (exit_fwd0 _ tp0 fr' _ Hok2 HT); [|exact Hb'|].
    - eapply SWf_pop; [|exact HS]. rewrite Hopf, E1. discriminate.
    - intros ->. destruct (bottom_singleton _ Hb) as [y Ey]. injection Ey as Ey _. right. rewrite Ey. reflexivity. }
  assert (Hne' : fr' <> []).
  { intros ->. destruct (bottom_singleton _ Hb) as [x Ex]. injection Ex as Ex _. rewrite Ex in Hw.
    destruct ty_zero as (w0 & w1 & H00 & Hop0 & _). rewrite H00 in Hw. injection Hw as <-.
    rewrite <- Eop in Hop0. rewrite Hop0 in E1. discriminate E1. }
  clear E1.
  destruct (op =? Setjump) eqn:E12.
  { apply Z.eqb_eq in E12. ftake E12 Hft. zlen_inv Hft Ez. rewrite (zl0 _ Ez) in Htr.
    rewrite E12 in H.
    cbv beta iota delta [Z.eqb Pos.eqb orb Setjump Setmark Nullmark Getmark Capturemark Branchmark Lazybranchmark
                         Setcount Nullcount Branchcount Lazybranchcount] in H.
    destruct (stack s) as [|cr [|tr st]] eqn:Es; try discriminate H.
    exact (exit_brk_any (-1) _ s0 fr' tp0 H Htr HT (SWf_pop_setjump _ _ _ _ _ _ HS) Hb'). }
  assert (HS' : SWf (stack s) tau fr').
  { eapply SWf_pop; [|exact HS]. rewrite Hopf. intros EE. injection EE as EE. rewrite EE in E12. discriminate E12. }
  clear HS Hb Hopf E12.
  pose proof (push_winv pre fr' _ HT Hb' Hne' eq_refl) as Push.
  assert (Brk : forall X, brk p (-1) X = Ok (Next s0) -> track X = flatten fr' -> SWf (stack X) pre fr' -> winv s0).
  { intros X HX HtX HsX. exact (exit_brk_any (-1) X s0 fr' pre HX HtX HT HsX Hb'). }
  destruct ((op =? Setmark) || (op =? Nullmark)) eqn:E23.
  { cbn [negb andb] in Hft. zlen_inv Hft Ez. rewrite (zl0 _ Ez) in Htr.
    destruct (stack s) as [|x st] eqn:Es; [discriminate H|]. exact (Brk _ H Htr HS'). }
  cbv iota in Hft.
  destruct (op =? Getmark) eqn:E4.
  { apply Z.eqb_eq in E4. ftake E4 Hft. destruct tp0 as [|[| |] t']; try discriminate Hft. zlen_inv Hft Ez.
    destruct (zl1 _ Ez) as [x ->]. cbn [app] in H. binv H. pushinv. exact (Brk _ H eq_refl HS'). }
  destruct (op =? Capturemark) eqn:E5.
  { apply Z.eqb_eq in E5. ftake E5 Hft. destruct tp0 as [|[| |] t']; try discriminate Hft. zlen_inv Hft Ez.
    destruct (zl1 _ Ez) as [x ->]. cbn [app] in H. binv H. pushinv.
    match goal with E : uncapture _ = Ok ?v |- _ => apply cf_uncapture_inv in E; destruct E as (_ & _ & V3 & V4) end.
    assert (V : exists u, brk p (-1) u = Ok (Next s0) /\ track u = flatten fr' /\ stack u = x :: stack s).
    { match goal with E : (if ?b then uncapture ?v else Ok ?v) = Ok ?u |- _ => destruct b;
        [apply cf_uncapture_inv in E; destruct E as (_ & _ & U3 & U4); exists u; rewrite U3, U4, V3, V4
        |injection E as <-; exists v; rewrite V3, V4] end;
      vm_cbn; (split; [exact H|split; reflexivity]). }
    destruct V as (u & Hu & Ut & Us). apply (Brk u Hu Ut). rewrite Us. exact HS'. }
  destruct (op =? Branchmark) eqn:E6.
  { apply Z.eqb_eq in E6. ftake E6 Hft. rewrite E6 in Hok. destruct tp0 as [|[| |] t']; try discriminate Hft. zlen_inv Hft Ez.
    destruct (zl2 _ Ez) as (t2 & t1 & ->). cbn [app] in H.
    cbn -[sh_at arg1 is_shape] in Hok. destruct (is_shape2_eq _ _ _ _ Hok) as [Hok1 _].
    destruct (stack s) as [|x st] eqn:Es; [discriminate H|]. binv H. pushinv.
    apply (adv_winv _ _ _ H), (Push {| f_pc := pc s; f_neg := true; f_data := [t1] |} t');
      [ftype Hw Hshp Eop E6|reflexivity|exact HS'|exact Hok1]. }
  destruct (op =? Lazybranchmark) eqn:E7.
  { apply Z.eqb_eq in E7. ftake E7 Hft. rewrite E7 in Hok. destruct tp0 as [|[| |] t']; try discriminate Hft. zlen_inv Hft Ez.
    destruct (zl2 _ Ez) as (t2 & t1 & ->). cbn [app] in H.
    cbn -[sh_at arg1 is_shape] in Hok. destruct (is_shape2_eq _ _ _ _ Hok) as [_ Hok2].
    binv H. opnd0. pushinv.
    apply (goto_winv _ _ _ _ H), (Push {| f_pc := pc s; f_neg := true; f_data := [1; t1] |} (KM :: t'));
      [ftype Hw Hshp Eop E7|reflexivity|exact HS'|exact Hok2]. }
  destruct ((op =? Setcount) || (op =? Nullcount)) eqn:E89.
  { cbn [negb andb orb] in Hft. zlen_inv Hft Ez. rewrite (zl0 _ Ez) in Htr.
    destruct (stack s) as [|x [|y st]] eqn:Es; try discriminate H. exact (Brk _ H Htr HS'). }
  cbn [orb] in Hft. cbv iota in Hft.
  destruct (op =? Branchcount) eqn:E10.
  { apply Z.eqb_eq in E10. ftake E10 Hft. rewrite E10 in Hok. destruct tp0 as [|[| |] t']; try discriminate Hft. zlen_inv Hft Ez.
    destruct (zl1 _ Ez) as (t1 & ->). cbn [app] in H.
    cbn -[sh_at arg1 is_shape] in Hok. destruct (is_shape2_eq _ _ _ _ Hok) as [Hok1 _].
    destruct (stack s) as [|cnt [|mark st]] eqn:Es; try discriminate H. cbv zeta in H.
    match type of H with (if ?b then _ else _) = _ => destruct b end; binv H; pushinv.
    - apply (adv_winv _ _ _ H), (Push {| f_pc := pc s; f_neg := true; f_data := [cnt - 1; t1] |} t');
        [ftype Hw Hshp Eop E10|reflexivity|exact HS'|exact Hok1].
    - exact (Brk _ H eq_refl HS'). }
  destruct (op =? Lazybranchcount) eqn:E11.
  { apply Z.eqb_eq in E11. ftake E11 Hft. rewrite E11 in Hok. destruct tp0 as [|[| |] t']; try discriminate Hft. zlen_inv Hft Ez.
    destruct (zl3 _ Ez) as (t3 & t2 & t1 & ->). cbn [app] in H.
    cbn -[sh_at arg1 is_shape] in Hok. destruct (is_shape2_eq _ _ _ _ Hok) as [_ Hok2].
    binv H. opnd0. cbv zeta in H.
    match type of H with (if ?b then _ else _) = _ => destruct b end; binv H; pushinv.
    - apply (goto_winv _ _ _ _ H), (Push {| f_pc := pc s; f_neg := true; f_data := [t1] |} (KC :: t'));
        [ftype Hw Hshp Eop E11|reflexivity|exact HS'|exact Hok2].
    - exact (Brk _ H eq_refl HS'). }
  destruct (op =? Forejump) eqn:E13.
  { apply Z.eqb_eq in E13. ftake E13 Hft. destruct tp0 as [|[| |] t']; try discriminate Hft. zlen_inv Hft Ez.
    destruct (zl1 _ Ez) as (x & ->). cbn [app] in H. binv H.
    match goal with E : uncapture_to _ _ _ = Ok ?v |- _ => apply cf_uncapture_to_inv in E; destruct E as (_ & _ & V3 & V4) end.
    vm_cbn_in V3. vm_cbn_in V4. apply (Brk _ H V3). rewrite V4. exact HS'. }
  assert (Hloop : (3 <=? op) && (op <=? 8) = true -> tau = tp0 /\ pre = tp0 /\ exists t2 t1, d = [t2; t1]).
  { intros Hr. rewrite (frame_type_loop _ _ _ w tp0 Hw Hshp) in Hft0 by (rewrite <- Eop; exact Hr). cbn [negb andb] in Hft0.
    zlen_inv Hft0 Ez. split; [reflexivity|]. split; [reflexivity|]. exact (zl2 _ Ez). }
  assert (Hfrm : (3 <=? op) && (op <=? 8) = true -> forall d1 d2,
            frame_type {| f_pc := pc s; f_neg := false; f_data := [d1; d2] |} = Some (tp0, tp0)).
  { intros Hr d1 d2. rewrite (frame_type_loop _ _ _ w tp0 Hw Hshp) by (rewrite <- Eop; exact Hr). reflexivity. }
  clear Hft Hft0.
  destruct ((op =? Oneloop) || (op =? Notoneloop) || (op =? Setloop)) eqn:EL1.
  { assert (Hp : in_list op plain_ops = true /\ zassoc op opcode_size_tbl 0 = 3 /\ (3 <=? op) && (op <=? 8) = true).
    { assert (Hop : op = Oneloop \/ op = Notoneloop \/ op = Setloop) by (clear -EL1; lia).
      clear -Hop. destruct Hop as [->|[->| ->]]; repeat split. }
    destruct Hp as (Hp & Hsz & Hr). rewrite Hp in Hok. apply is_shape_eq in Hok. rewrite Hsz in Hok.
    destruct (Hloop Hr) as (-> & -> & t2 & t1 & ->). cbn [app] in H. binv H.
    match goal with E : (if ?b then tpush _ _ else Ok _) = Ok ?v |- _ => destruct b end.
    - pushinv.
    match type of H with cont (advance p (set_track _ ([pc s; ?d1; ?d2] ++ _)) 2) = _ =>
      apply (adv_winv _ _ _ H), (Push _ tp0 _ _ _ (Hfrm Hr d1 d2)) end; [reflexivity|exact HS'|exact Hok].
    - match goal with E : Ok _ = Ok ?v |- _ => injection E as <- end.
      apply (adv_winv _ _ _ H). exact (exit_fwd _ tp0 fr' _ Hok HT HS' Hb' Hne'). }
  destruct ((op =? Onelazy) || (op =? Notonelazy) || (op =? Setlazy)) eqn:EL2; [|discriminate H].
  assert (Hp : in_list op plain_ops = true /\ zassoc op opcode_size_tbl 0 = 3 /\ (3 <=? op) && (op <=? 8) = true).
  { assert (Hop : op = Onelazy \/ op = Notonelazy \/ op = Setlazy) by (clear -EL2; lia).
    clear -Hop. destruct Hop as [->|[->| ->]]; repeat split. }
  destruct Hp as (Hp & Hsz & Hr). rewrite Hp in Hok. apply is_shape_eq in Hok. rewrite Hsz in Hok.
  destruct (Hloop Hr) as (-> & -> & t2 & t1 & ->). cbn [app] in H. binv H.
  match type of H with match ?sc with _ => _ end = _ => destruct sc as [[xc t']|] end; [|discriminate H].
  cbv zeta in H.
  match type of H with (if ?b then _ else _) = _ => destruct b end; [|exact (Brk _ H eq_refl HS')].
  binv H. match goal with E : (if ?b then tpush _ _ else Ok _) = Ok ?v |- _ => destruct b end.
  - pushinv.
    match type of H with cont (advance p (set_track _ ([pc s; ?d1; ?d2] ++ _)) 2) = _ =>
      apply (adv_winv _ _ _ H), (Push _ tp0 _ _ _ (Hfrm Hr d1 d2)) end; [reflexivity|exact HS'|exact Hok].
  - match goal with E : Ok _ = Ok ?v |- _ => injection E as <- end.
    apply (adv_winv _ _ _ H). exact (exit_fwd _ tp0 fr' _ Hok HT HS' Hb' Hne').
Qed.

Lemma winv_back2 s s0 : winv s -> mode s <> 0 -> mode s <> BackBit -> step e p (-1) s = Ok (Next s0) -> winv s0.
Proof.
  intros (fr & tau & HT & HS & Hb & Hm) Hmd0 Hmd1 H.
  assert (M0 : (mode s =? 0) = false) by lia. assert (M1 : (mode s =? BackBit) = false) by lia. clear Hmd0 Hmd1.
  rewrite M0, M1 in Hm.
  destruct Hm as ([fpc fneg d] & fr' & -> & Hpc & Hneg & Htr). cbn [f_pc f_neg f_data negb] in Hpc, Hneg, Htr. subst fpc fneg.
  cbn [TWf] in HT. destruct HT as (pre & Hft & HT).
  destruct (frame_type_instr _ _ _ Hft) as (w & tp0 & Hw & Hshp). cbn [f_pc] in Hw, Hshp.
  destruct (instr_at_bnd _ _ Hw) as [_ Hcode].
  unfold step in H. rewrite Hcode in H. cbv zeta in H. rewrite M0, M1, Htr in H.
  assert (Hopf : op_of {| f_pc := pc s; f_neg := true; f_data := d |} = Some (Z.land w 63)) by (unfold op_of; cbn [f_pc]; rewrite Hw; reflexivity).
  unfold frame_type in Hft. cbn [f_pc f_neg f_data] in Hft. rewrite Hw, Hshp in Hft. cbv zeta in Hft.
  remember (Z.land w 63) as op eqn:Eop.
  assert (Brk : op <> Setjump -> forall X, brk p (-1) X = Ok (Next s0) -> track X = flatten fr' ->
            (SWf (stack s) tau fr' -> SWf (stack X) pre fr') -> winv s0).
  { intros N X HX HtX HsX. apply (exit_brk_any (-1) X s0 fr' pre HX HtX HT); [|exact (bottom_tail _ _ Hb)].
    apply HsX. eapply SWf_pop; [|exact HS]. rewrite Hopf. congruence. }
  clear HS Hb Hopf.
  destruct (op =? Branchmark) eqn:E1.
  { apply Z.eqb_eq in E1. ftake E1 Hft. destruct tp0 as [|[| |] t']; try discriminate Hft. zlen_inv Hft Ez.
    destruct (zl1 _ Ez) as (x & ->). cbn [app] in H. binv H. pushinv.
    apply (Brk ltac:(rewrite E1; discriminate) _ H eq_refl). exact (fun G => G). }
  destruct (op =? Lazybranchmark) eqn:E2.
  { apply Z.eqb_eq in E2. ftake E2 Hft. destruct tp0 as [|[| |] t']; try discriminate Hft.
    destruct d as [|fl [|t1 [|? ?]]]; try discriminate Hft.
    cbn [app] in H. cbv zeta in H. specialize (Brk ltac:(rewrite E2; discriminate)).
    destruct (fl =? 0) eqn:Efl; injection Hft as <- <-; cbn [negb] in H; binv H.
    - match goal with E : Ok _ = Ok ?v |- _ => injection E as <- end. pushinv.
      apply (Brk _ H eq_refl). exact (fun G => G).
    - match goal with E : match stack ?u with _ => _ end = Ok ?v |- _ =>
        vm_cbn_in E; destruct (stack s) as [|y st] eqn:Es; [discriminate E|]; injection E as <- end.
      pushinv. apply (Brk _ H eq_refl). exact (fun G => G). }
  destruct (op =? Branchcount) eqn:E3.
  { apply Z.eqb_eq in E3. ftake E3 Hft. destruct tp0 as [|[| |] t']; try discriminate Hft. zlen_inv Hft Ez.
    destruct (zl2 _ Ez) as (t2 & t1 & ->). cbn [app] in H. binv H. pushinv.
    apply (Brk ltac:(rewrite E3; discriminate) _ H eq_refl). exact (fun G => G). }
  destruct (op =? Lazybranchcount) eqn:E4; [|discriminate H].
  apply Z.eqb_eq in E4. ftake E4 Hft. destruct tp0 as [|[| |] t']; try discriminate Hft. zlen_inv Hft Ez.
  destruct (zl1 _ Ez) as (t1 & ->). cbn [app] in H.
  destruct (stack s) as [|cnt [|mk st]] eqn:Es; try discriminate H. binv H. pushinv.
  apply (Brk ltac:(rewrite E4; discriminate) _ H eq_refl). exact (fun G => G).
Qed.


(* ---------- every successful step of the unbounded-stack interpreter keeps the invariant ---------- *)
Lemma winv_same4 a b : pc a = pc b -> mode a = mode b -> track a = track b -> stack a = stack b -> winv a -> winv b.
Proof. unfold winv. intros -> -> -> ->. exact (fun H => H). Qed.

Lemma winv_step s s0 : winv s -> step e p (-1) s = Ok (Next s0) -> winv s0.
Proof.
  intros Hi H. destruct (Z.eq_dec (mode s) 0) as [E0|N0]; [exact (winv_fwd s s0 Hi E0 H)|].
  destruct (Z.eq_dec (mode s) BackBit) as [E1|N1]; [exact (winv_back s s0 Hi E1 H)|].
  exact (winv_back2 s s0 Hi N0 N1 H).
Qed.

Lemma winv_ustep s s' : winv s -> ustep e p s = Ok (Next s') -> winv s'.
Proof.
  intros Hi H. unfold ustep in H.
  destruct (step e p (-1) (repad p s)) as [[s0|s0|c|w]| | |] eqn:E; try discriminate. injection H as <-.
  assert (Hi' : winv (repad p s)) by (eapply winv_same4; [| | | |exact Hi]; reflexivity).
  pose proof (winv_step _ _ Hi' E) as G. eapply winv_same4; [| | | |exact G]; reflexivity.
Qed.

Lemma winv_init t : winv (a0 p t).
Proof.
  destruct ty_zero as (w0 & w1 & H00 & Hop0 & H01 & Hop1 & Hs0).
  exists [], []. split; [exact I|]. split; [exact I|]. split; [left; reflexivity|].
  cbn [a0 VMU.mk mode pc track]. change (0 =? 0) with true. cbv iota.
  split; [exact Hs0|]. split; [reflexivity|]. intros _. left. reflexivity.
Qed.

Theorem cf_path_ok t : path_ok e p (a0 p t).
Proof.
  intros s Hs. apply winv_good. apply clos_rt_rt1n in Hs.
  assert (G : forall a b, clos_refl_trans_1n vm (ustep1 e p) a b -> winv a -> winv b).
  { induction 1 as [a|a b c Hab _ IH]; intros Ha; [exact Ha|]. apply IH. eapply winv_ustep; eassumption. }
  exact (G _ _ Hs (winv_init t)).
Qed.

End CF.

(* ---------- a shape assignment computed from the code (one forward pass) ---------- *)
Section Infer.
Variable p : program.

Definition sh_add (pc : Z) (t : shape) (known : list (Z * shape)) : list (Z * shape) :=
  match sh_get pc known with Some _ => known | None => known ++ [(pc, t)] end.

Definition infer_step (known : list (Z * shape)) (co : Z * Z) : list (Z * shape) :=
  let pc0 := fst co in let w := snd co in
  match sh_get pc0 known with
  | None => known
  | Some tp =>
      let op := Z.land w 63 in
      let nx := pc0 + opcode_size w in
      let tg := arg1 p pc0 in
      if in_list op plain_ops then sh_add nx tp known
      else if (op =? Stop) || (op =? Nothing) || (op =? Backjump) then known
      else if op =? Goto then sh_add nx tp (sh_add tg tp known)
      else if op =? Lazybranch then sh_add tg tp (sh_add nx tp known)
      else if (op =? Setmark) || (op =? Nullmark) then sh_add nx (KM :: tp) known
      else if (op =? Getmark) || (op =? Capturemark) then match tp with KM :: t' => sh_add nx t' known | _ => known end
      else if (op =? Branchmark) || (op =? Lazybranchmark) then
        match tp with KM :: t' => sh_add tg tp (sh_add nx t' known) | _ => known end
      else if (op =? Setcount) || (op =? Nullcount) then sh_add nx (KC :: tp) known
      else if (op =? Branchcount) || (op =? Lazybranchcount) then
        match tp with KC :: t' => sh_add tg tp (sh_add nx t' known) | _ => known end
      else if op =? Setjump then sh_add nx (KJ :: tp) known
      else if op =? Forejump then match tp with KJ :: t' => sh_add nx t' known | _ => known end
      else known
  end.

Definition infer : list (Z * shape) := fold_left infer_step (cp_dec (codes p)) [(0, [])].
Definition tyck_auto : bool := tyck p infer.

End Infer.

(* control-flow safety from the static check, for every input and every start position *)
Theorem cf_sound e p : tyck_auto p = true -> forall t, path_ok e p (a0 p t).
Proof. intros H t. exact (cf_path_ok e p (infer p) H t). Qed.

Print Assumptions cf_sound.

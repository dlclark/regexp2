(* C04, part 12: the decoration of a published fixed-distance set (FixedDistanceSet.Chars / Range / Negated,
   prefixanalyzer.go:734-749) abbreviates the set exactly, and findFixedDistanceString / the single-character
   case extract literals that hold at every match. *)
From Coq Require Import ZifyBool.
From Verif Require Import Base.Prelude Model.CharClass Base.Utf8 Model.Tree Model.Spec Model.Analysis Model.Analysis2
     Proofs.SpecProofs Proofs.CharClassRanges Proofs.CharClassProofs
     Proofs.AnalysisReach Proofs.AnalysisProofs Proofs.Analysis2Cls Proofs.Analysis2Ffcc Proofs.Analysis2Fixed
     Proofs.Analysis2Lal.

From Verif Require Import Proofs.ListFacts.
Section Abbrev.
Variable cat_in : Z -> Z -> bool.
Variable sets : list cls.
Hypothesis Hgood : sets_good cat_in sets.

(* every set findFixedDistanceSets publishes is in normal form *)
Lemma abbrev_raw_good th root :
  shape_ok false root = true -> lits_ok root = true ->
  forall S d, In (S, d) (fixed_distance_raw cat_in sets th root) -> gcls cat_in S.
Proof.
  intros Hs Hl S d Hin. unfold fixed_distance_raw in Hin.
  destruct (syn_loc cat_in sets th root (syn_all cat_in sets th Hgood root Hs Hl)) as (_ & Hall & _).
  unfold locof, rf_res in Hall. destruct (raw_fixed cat_in sets th root [] 0) as [[ok res] dd]. cbn [fst snd] in Hall.
  destruct (filter (fun sd : cls * Z => negb (anything (fst sd))) res) as [|f0 fl] eqn:Ef.
  - destruct (find_first_char_class cat_in sets root) as [c|] eqn:Ec; [|destruct Hin].
    destruct (anything c); [destruct Hin|]. destruct Hin as [Heq|[]]. injection Heq as <- <-.
    unfold find_first_char_class in Ec. destruct (ffcc_mono_all cat_in sets Hgood root None Hl I) as (A & _ & _).
    destruct (try_ffcc cat_in sets root None) as [v cc]. cbn [snd] in A.
    destruct (v =? 1); [|discriminate Ec]. subst cc. exact (proj1 A).
  - rewrite <- Ef in Hin. apply filter_In in Hin. destruct Hin as [Hin _]. exact (proj1 (Hall S d Hin)).
Qed.

Lemma abbrev_existsb_in (x : Z) (l : list Z) : existsb (Z.eqb x) l = true <-> In x l.
Proof. exact (zmem_In x l). Qed.

(* Range / Chars / Negated say exactly what the Set says *)
Lemma abbrev_decorate S d :
  gcls cat_in S ->
  let f := fd_decorate cat_in (S, d) in
  fs_set f = S /\ fs_dist f = d /\ fs_neg f = neg S /\
  (forall a b, fs_range f = Some (a, b) ->
     forall x, char_in cat_in S x = xorb (fs_neg f) ((a <=? x) && (x <=? b))) /\
  (fs_chars f <> [] -> forall x, char_in cat_in S x = xorb (fs_neg f) (existsb (Z.eqb x) (fs_chars f))).
Proof.
  intros Hg. cbv zeta. pose proof (a2_cmem_plain cat_in S) as Hplain. unfold cmem in Hplain.
  assert (Hchars : forall chars, get_set_chars cat_in S 128 = chars -> chars <> [] ->
            forall x, char_in cat_in S x = xorb (neg S) (existsb (Z.eqb x) chars)).
  { intros chars Hc Hne x. destruct chars as [|x0 l0]; [congruence|].
    destruct (neg S) eqn:En.
    - destruct (get_set_chars_spec cat_in S 128 x0 l0 Hc) as (Hcat & Hsub & Hiff). specialize (Hsub En).
      rewrite (Hplain x Hg), plain_in_top. unfold top_in, sub_in. rewrite En, Hcat, Hsub.
      change (cats_in cat_in [] x) with false. rewrite orb_false_r, andb_true_r. f_equal.
      destruct (existsb (Z.eqb x) (x0 :: l0)) eqn:Ee.
      + apply abbrev_existsb_in in Ee. apply Hiff in Ee. destruct Ee as [Ee _]. exact Ee.
      + destruct (mem (ranges S) x) eqn:Em; [|reflexivity].
        assert (In x (x0 :: l0)) by (apply Hiff; split; [exact Em|left; exact Hsub]).
        apply abbrev_existsb_in in H. congruence.
    - cbn [xorb]. pose proof (get_set_chars_complete cat_in S 128 x0 l0 Hg En Hc x) as Hiff. unfold cmem in Hiff.
      destruct (existsb (Z.eqb x) (x0 :: l0)) eqn:Ee.
      + apply abbrev_existsb_in in Ee. apply Hiff. exact Ee.
      + destruct (char_in cat_in S x) eqn:Ei; [|reflexivity].
        assert (Hin : In x (x0 :: l0)) by (apply Hiff; reflexivity). apply abbrev_existsb_in in Hin. congruence. }
  unfold fd_decorate. cbn [fst snd].
  destruct (get_if_one_range S) as [[a b]|] eqn:Er.
  - assert (Hr : cats S = [] /\ sub S = None /\ ranges S = [(a, b)]).
    { unfold get_if_one_range in Er. destruct (cats S); [|discriminate Er]. unfold no_sub in Er.
      destruct (sub S); [discriminate Er|]. destruct (ranges S) as [|r [|r2 rs]]; try discriminate Er.
      injection Er as ->. auto. }
    destruct Hr as (Hc & Hsb & Hrg).
    destruct (1 <? b - a); cbn [fs_set fs_dist fs_neg fs_range fs_chars].
    + split; [reflexivity|]. split; [reflexivity|]. split; [reflexivity|]. split; [|intros Hne; congruence].
      intros a' b' Heq. injection Heq as <- <-. intros x.
      rewrite (Hplain x Hg), plain_in_top. unfold top_in, sub_in. rewrite Hc, Hsb, Hrg.
      unfold mem, in_range. cbn [existsb cats_in fst snd]. rewrite !orb_false_r, andb_true_r. reflexivity.
    + split; [reflexivity|]. split; [reflexivity|]. split; [reflexivity|]. split; [intros ? ? Heq; discriminate Heq|].
      intros Hne. apply (Hchars _ eq_refl Hne).
  - cbn [fs_set fs_dist fs_neg fs_range fs_chars].
    split; [reflexivity|]. split; [reflexivity|]. split; [reflexivity|]. split; [intros ? ? Heq; discriminate Heq|].
    intros Hne. apply (Hchars _ eq_refl Hne).
Qed.

Variable e : env.
Variable p : Z.

(* the entry holds at the match that starts at p, and its Chars say what its Set says *)
Definition fd_true (f : fdset) : Prop :=
  0 <= fs_dist f /\ p + fs_dist f < tlen e /\ char_in cat_in (fs_set f) (char_at e (p + fs_dist f)) = true /\
  (fs_chars f <> [] -> forall x, char_in cat_in (fs_set f) x = xorb (fs_neg f) (existsb (Z.eqb x) (fs_chars f))).

Lemma fds_single_true f c : fd_true f -> fds_single f = Some c -> char_at e (p + fs_dist f) = c.
Proof.
  intros (_ & _ & Hin & Hab). unfold fds_single. destruct (fs_chars f) as [|c0 [|c1 cs]] eqn:Ec; try discriminate.
  destruct (fs_neg f || negb (Utf8.valid_rune c0)) eqn:En; [discriminate|]. intros H. injection H as <-.
  apply orb_false_iff in En. destruct En as [En _].
  rewrite (Hab ltac:(discriminate)) in Hin. rewrite En in Hin. cbn [existsb] in Hin.
  destruct (char_at e (p + fs_dist f) =? c0) eqn:E; [lia|]. cbn in Hin. discriminate Hin.
Qed.

Definition lit_at (s : list Z) (d0 : Z) : Prop :=
  forall i, 0 <= i < zlen s -> char_at e (p + d0 + i) = nth (Z.to_nat i) s 0.

Definition cur_ok (cur : option (Z * list Z * Z)) : Prop :=
  match cur with None => True | Some (d0, s, dl) => dl = d0 + zlen s - 1 /\ lit_at s d0 end.
Definition best_ok (best : option (list Z * Z)) : Prop :=
  match best with None => True | Some (s, d0) => lit_at s d0 end.

Lemma fds_close_ok cur best : cur_ok cur -> best_ok best -> best_ok (fds_close_b cur best).
Proof.
  intros Hc Hb. unfold fds_close_b. destruct cur as [[[d0 s] dl]|]; [|exact Hb].
  destruct (_ <=? zlen s); [exact (proj2 Hc)|exact Hb].
Qed.

Lemma lit_at_snoc s d0 c : lit_at s d0 -> char_at e (p + d0 + zlen s) = c -> lit_at (s ++ [c]) d0.
Proof.
  intros Hs Hc i Hi. unfold zlen in *. rewrite app_length in Hi. cbn [length] in Hi.
  destruct (Z_lt_ge_dec i (Z.of_nat (length s))) as [Hl|Hl].
  - rewrite app_nth1 by lia. apply Hs. unfold zlen. lia.
  - assert (i = Z.of_nat (length s)) by lia. subst i. rewrite app_nth2 by lia.
    replace (Z.to_nat (Z.of_nat (length s)) - length s)%nat with 0%nat by lia. cbn [nth]. exact Hc.
Qed.

Lemma lit_at_single c d0 : char_at e (p + d0) = c -> lit_at [c] d0.
Proof.
  intros Hc i Hi. unfold zlen in Hi. cbn [length] in Hi. assert (i = 0) by lia. subst i.
  replace (p + d0 + 0) with (p + d0) by lia. exact Hc.
Qed.

Lemma fds_walk_ok : forall l cur best,
  (forall f, In f l -> fd_true f) -> cur_ok cur -> best_ok best -> best_ok (fds_walk_b l cur best).
Proof.
  induction l as [|x l IH]; intros cur best Hl Hc Hb; cbn [fds_walk_b]; [apply fds_close_ok; assumption|].
  assert (Hx : fd_true x) by (apply Hl; left; reflexivity).
  assert (Hl' : forall f, In f l -> fd_true f) by (intros f Hf; apply Hl; right; exact Hf).
  destruct (fds_single x) as [c|] eqn:Es.
  - pose proof (fds_single_true x c Hx Es) as Hch.
    destruct cur as [[[d0 s] dl]|].
    + destruct (fs_dist x =? dl + 1) eqn:Ed.
      * apply IH; [exact Hl'| |exact Hb]. destruct Hc as [Hdl Hs]. cbn [cur_ok]. split.
        -- unfold zlen in *. rewrite app_length. cbn [length]. lia.
        -- apply lit_at_snoc; [exact Hs|]. rewrite <- Hch. f_equal. lia.
      * apply IH; [exact Hl'| |apply fds_close_ok; assumption]. cbn [cur_ok]. split; [unfold zlen; cbn [length]; lia|].
        apply lit_at_single. exact Hch.
    + apply IH; [exact Hl'| |exact Hb]. cbn [cur_ok]. split; [unfold zlen; cbn [length]; lia|].
      apply lit_at_single. exact Hch.
  - apply IH; [exact Hl'|exact I|apply fds_close_ok; assumption].
Qed.

Lemma fds_insert_in x l f : In f (fds_insert x l) -> f = x \/ In f l.
Proof.
  induction l as [|y l IH]; cbn [fds_insert]; [intros [<-|[]]; left; reflexivity|].
  destruct (fs_dist x <? fs_dist y).
  - intros [<-|H]; [left; reflexivity|right; exact H].
  - intros [<-|H]; [right; left; reflexivity|]. destruct (IH H) as [->|H']; [left; reflexivity|right; right; exact H'].
Qed.

Lemma fds_sort_in l f : In f (fds_sort l) -> In f l.
Proof.
  induction l as [|x l IH]; cbn [fds_sort fold_right]; [intros []|].
  intros H. apply fds_insert_in in H. destruct H as [->|H]; [left; reflexivity|right; apply IH; exact H].
Qed.

(* findFixedDistanceString: the string occurs at p + its distance *)
Lemma fds_string_true l str d0 :
  (forall f, In f l -> fd_true f) -> find_fixed_distance_string l = Some (str, d0) -> lit_at str d0.
Proof.
  intros Hl. unfold find_fixed_distance_string. destruct (zlen l <? 2); [discriminate|]. intros H.
  assert (Hb : best_ok (fds_walk_b (fds_sort l) None None)).
  { apply fds_walk_ok; [|exact I|exact I]. intros f Hf. apply Hl. apply fds_sort_in. exact Hf. }
  rewrite H in Hb. exact Hb.
Qed.

Hypothesis Hagree : forall id x, set_in e id x = cmem cat_in (set_cls sets id) x.
Hypothesis Hvalid : forall i, valid_rune (char_at e i).
Hypothesis Hshort : tlen e < INF.

Lemma abbrev_all_true th fuel root s' :
  shape_ok false root = true -> no_ci_lit root = true -> lits_ok root = true -> 0 <= p <= tlen e ->
  attempt e fuel root p = Ok (Some s') ->
  forall f, In f (find_fixed_distance_sets cat_in sets th root) -> fd_true f.
Proof.
  intros Hs Hn Hl Hp Ha f Hin.
  destruct (a2_fixed_distance_sets_sound cat_in sets th Hgood e Hagree Hvalid Hshort fuel root p s' Hs Hn Hl Hp Ha f Hin)
    as (A & B & C).
  unfold find_fixed_distance_sets in Hin. apply in_map_iff in Hin. destruct Hin as [[S d] [<- Hin]].
  destruct (abbrev_decorate S d (abbrev_raw_good th root Hs Hl S d Hin)) as (E1 & E2 & E3 & E4 & E5).
  unfold fd_true. split; [exact A|]. split; [exact B|]. split; [exact C|].
  intros Hne x. rewrite E1. apply E5. exact Hne.
Qed.

End Abbrev.

(* C13 / translator tie (DESIGN §2.2): the hand-written interpreter model Model/VM.v pops and pushes,
   per opcode and per control path, exactly what the table Gen/EffectGen.v says — a table that tools/gen
   reads off runner.go's executeDefault on every run (case labels, trackPush*/stackPush*/Pop* calls whose
   arities are read from the helpers' bodies, trackto, Capture/uncapture, advance / goTo / break).

     vm_step_effect_in_table   for every program, limit and state: the outcome of VM.step is one of the
                               paths G_effects_x lists for the state's case code (opcode | Back | Back2):
                               the track / grouping stack / capture-undo stack after the step are the old
                               ones minus the words the path pops plus the number of words it pushes, and
                               the step leaves by the path's exit (advance(k), goTo(operand i), backtrack,
                               return); ErrBacktrackingStackLimit only on paths ending in goTo or backtrack;
                               "unknown opcode" exactly on the codes [eff_dispatch] rejects
     vm_table_paths_are_model_paths
                               the converse at path level: every path the table lists for a case code is the
                               path VM.step takes from some state (found by computation over a small family of
                               candidate states), so a source edit that ADDS a way through a case is reported too
     eff_dispatch_is_keys      [eff_dispatch] accepts exactly the keys of G_effects_x (vm_compute over all
                               64 opcodes x 3 entry modes): model and source implement the same case codes
     vm_ustep_effect_in_table  the same for the unbounded-stack machine of Proofs/VMU.v
     vm_step_net_effect        the net form over G_effects (delta track, delta stack, exit kind)
     eff_pushers_are_counted, eff_net_push_le_weight
                               cross-checks between the two generated tables: an opcode one of whose paths
                               pushes track words is counted by opcodeBacktracks (Gen/CodeGen.v) — except
                               Nullmark, the known uncounted pusher — and no path's net push exceeds the
                               weight the capacity argument (Proofs/VMCapacityProofs.v) gives the opcode. *)
From Verif Require Import Base.Prelude Model.Tree Model.Spec Model.VM Model.Writer Gen.CodeGen Gen.RunnerGen
  Gen.EffectGen Proofs.VMLimitProofs Proofs.VMLimitSimProofs Proofs.VMU Proofs.VMCapacityProofs.
From Coq Require Import ZifyBool.

Definition eff_path : Type := (Z * Z * Z * Z * Z * Z * Z)%type.

Fixpoint eff_find (c : Z) (l : list (Z * list eff_path)) : option (list eff_path) :=
  match l with
  | [] => None
  | (k, ps) :: l' => if c =? k then Some ps else eff_find c l'
  end.
Definition eff_paths (c : Z) : list eff_path := match eff_find c G_effects_x with Some ps => ps | None => [] end.
Definition eff_is_key (c : Z) : bool := match eff_find c G_effects_x with Some _ => true | None => false end.

(* the source's r.operator for a model state: opcode | Back | Back2 *)
Definition eff_mode_bits (m : Z) : Z := if m =? 0 then 0 else if m =? BackBit then G_Back else G_Back2.
Definition eff_case_code (w m : Z) : Z := Z.land w G_Mask + eff_mode_bits m.

(* [after] is [before] minus its [pop] top words plus [push] new top words *)
Definition eff_lists (pop push : Z) (before after : list Z) : Prop :=
  skipn (Z.to_nat push) after = skipn (Z.to_nat pop) before /\ 0 <= pop <= zlen before /\ 0 <= push <= zlen after.

(* flags 0: plain; 1: trackto — cut back to a saved height (any number of words), then push;
   2: the root (oldest) word is overwritten, nothing else changes *)
Definition eff_track (fl tpop tpush : Z) (before after : list Z) : Prop :=
  if fl =? 0 then eff_lists tpop tpush before after
  else if fl =? 1 then exists k, eff_lists k tpush before after
  else if fl =? 2 then tpop = 0 /\ tpush = 0 /\ exists pre a b, before = pre ++ [a] /\ after = pre ++ [b]
  else False.

(* crawl code = min pushes + 10*max pushes + 100*pops + 1000*(pop down to a saved height) *)
Definition eff_crawl_dec (c : Z) : Z * Z * Z * Z := (c mod 10, (c / 10) mod 10, (c / 100) mod 10, c / 1000).
Definition eff_crawl_sem (d : Z * Z * Z * Z) (before after : list Z) : Prop :=
  let '(pmin, pmax, pops, loop) := d in
  if loop =? 0 then exists j, pmin <= j <= pmax /\ eff_lists pops j before after
  else if (loop =? 1) && (pmin =? 0) && (pmax =? 0) && (pops =? 0) then exists k, eff_lists k 0 before after
  else False.
Definition eff_crawl (c : Z) (before after : list Z) : Prop := eff_crawl_sem (eff_crawl_dec c) before after.

(* exit kinds of the table *)
Definition eff_is_advance (ex : Z) : bool := (0 <=? ex) && (ex <=? 9).
Definition eff_is_goto (ex : Z) : bool := (10 <=? ex) && (ex <=? 19).
Definition eff_can_fail (pt : eff_path) : bool :=
  let '(_, _, _, _, ex, _, _) := pt in eff_is_goto ex || (ex =? 20).

(* which (opcode, entry mode) pairs VM.step implements, tied to VM.step by vm_step_effect_in_table
   (step = Crash C_unknown_op  <->  eff_dispatch = false) *)
Definition eff_dispatch (op m : Z) : bool := zmem op (step_ops m).

Section Eff.
Variable e : env.
Variable p : program.
Variable L : Z.

(* one path of the table describes the step from s with outcome o *)
Definition eff_path_ok (pt : eff_path) (s : vm) (o : outcome) : Prop :=
  let '(tpop, tpush, spop, spush, ex, fl, cw) := pt in
  let body := fun (T S C : list Z) =>
    eff_track fl tpop tpush (track s) T /\ eff_lists spop spush (stack s) S /\ eff_crawl cw (crawl s) C in
  if eff_is_advance ex then
    exists s', o = Next s' /\ mode s' = 0 /\ pc s' = pc s + ex + 1 /\ body (track s') (stack s') (crawl s')
  else if eff_is_goto ex then
    exists s', o = Next s' /\ mode s' = 0 /\ code_at p (pc s + (ex - 10) + 1) = Some (pc s') /\
               body (track s') (stack s') (crawl s')
  else if ex =? 20 then
    (* backtrack() pops the frame head np left on top by the path and enters |np| in Back / Back2 mode *)
    exists s' np, o = Next s' /\ pc s' = Z.abs np /\ mode s' = (if np <? 0 then Back2Bit else BackBit) /\
                  body (np :: track s') (stack s') (crawl s')
  else if ex =? 30 then
    exists s', o = Done s' /\ pc s' = pc s /\ body (track s') (stack s') (crawl s')
  else False.

Definition eff_spec (s : vm) (op m : Z) (r : res outcome) : Prop :=
  (eff_dispatch op m = false -> r = Crash C_unknown_op) /\
  match r with
  | Ok o => exists pt, In pt (eff_paths (op + eff_mode_bits m)) /\ eff_path_ok pt s o
  | Err c => c = E_StackLimit /\ exists pt, In pt (eff_paths (op + eff_mode_bits m)) /\ eff_can_fail pt = true
  | Crash w => w = C_unknown_op -> eff_dispatch op m = false
  | Fuel => True
  end.


(* ---------- how the three ways out of a case body act on the state ---------- *)
Lemma eff_adv_inv S k r :
  cont (advance p S k) = r -> r = Ok (Next (set_pc S (pc S + k + 1) 0)) \/ r = Crash C_code.
Proof.
  unfold cont, advance. intros <-. destruct (code_at p (pc S + k + 1)); cbn [bind]; [left|right]; reflexivity.
Qed.

Lemma eff_ensure_inv S S' : ensure_storage p L S = Ok S' ->
  pc S' = pc S /\ mode S' = mode S /\ track S' = track S /\ stack S' = stack S /\ crawl S' = crawl S.
Proof. intros H. apply ensure_storage_ok in H. destruct H as (tc' & _ & ->). repeat split. Qed.
Lemma eff_ensure_res S : match ensure_storage p L S with Ok _ => True | Err c => c = E_StackLimit | _ => False end.
Proof. rewrite ensure_storage_eq. destruct (grow_tcap _ _ _ _); [exact I|reflexivity]. Qed.

Definition eff_same (S S' : vm) : Prop := track S' = track S /\ stack S' = stack S /\ crawl S' = crawl S.

Lemma eff_goto_inv S a r :
  cont (goto p L S a) = r ->
  (exists S', r = Ok (Next S') /\ pc S' = a /\ mode S' = 0 /\ eff_same S S') \/ r = Err E_StackLimit \/ r = Crash C_code.
Proof.
  unfold cont, goto. intros <-.
  assert (G : forall S1, pc S1 = pc S -> eff_same S S1 ->
    (exists S', bind (match code_at p a with Some _ => Ok (set_pc S1 a 0) | None => Crash C_code end)
                     (fun s1 => Ok (Next s1)) = Ok (Next S') /\ pc S' = a /\ mode S' = 0 /\ eff_same S S') \/
    bind (match code_at p a with Some _ => Ok (set_pc S1 a 0) | None => Crash C_code end) (fun s1 => Ok (Next s1)) = Crash C_code).
  { intros S1 _ HS. destruct (code_at p a); cbn [bind]; [left|right; reflexivity].
    eexists. split; [reflexivity|]. vm_cbn. repeat split; apply HS. }
  destruct (a <=? pc S).
  - pose proof (eff_ensure_res S) as R. destruct (ensure_storage p L S) as [S1|c|w|] eqn:E; try contradiction.
    + apply eff_ensure_inv in E. cbn [bind].
      destruct (G S1) as [G1|G1]; [tauto|unfold eff_same; tauto|left; exact G1|right; right; exact G1].
    + subst c. right. left. reflexivity.
  - cbn [bind]. destruct (G S) as [G1|G1]; [reflexivity|unfold eff_same; tauto|left; exact G1|right; right; exact G1].
Qed.

Lemma eff_brk_inv S r :
  brk p L S = r ->
  (exists S' np T, track S = np :: T /\ r = Ok (Next S') /\ pc S' = Z.abs np /\
                   mode S' = (if np <? 0 then Back2Bit else BackBit) /\
                   track S' = T /\ stack S' = stack S /\ crawl S' = crawl S) \/
  r = Err E_StackLimit \/ r = Crash C_code \/ r = Crash C_track.
Proof.
  unfold brk, backtrack. intros <-. destruct (track S) as [|np T] eqn:Et; [right; right; right; reflexivity|].
  assert (Hab : (if np <? 0 then (- np, Back2Bit) else (np, BackBit)) = (Z.abs np, if np <? 0 then Back2Bit else BackBit)).
  { destruct (np <? 0) eqn:E; f_equal; lia. }
  rewrite Hab. destruct (code_at p (Z.abs np)); [|right; right; left; reflexivity].
  destruct (Z.abs np <? pc S).
  - pose proof (eff_ensure_res (set_track S T)) as R.
    destruct (ensure_storage p L (set_track S T)) as [S1|c|w|] eqn:E; try contradiction.
    + apply eff_ensure_inv in E. vm_cbn_in E. cbn [bind]. left. eexists _, np, T. split; [reflexivity|].
      split; [reflexivity|]. vm_cbn. tauto.
    + subst c. right. left. reflexivity.
  - cbn [bind]. left. eexists _, np, T. split; [reflexivity|]. split; [reflexivity|]. vm_cbn. tauto.
Qed.

End Eff.

Lemma eff_lists_refl l : eff_lists 0 0 l l.
Proof. unfold eff_lists. pose proof (zlen_nonneg l). split; [reflexivity|lia]. Qed.

Lemma eff_lists_pop a l0 l1 n :
  eff_lists a 0 l0 l1 -> (n <= length l1)%nat -> eff_lists (a + Z.of_nat n) 0 l0 (skipn n l1).
Proof.
  unfold eff_lists. cbn [Z.to_nat skipn]. intros (E & Ha & _) Hn. subst l1.
  rewrite skipn_length in Hn. rewrite skipn_skipn. pose proof (zlen_nonneg (skipn (Z.to_nat a + n) l0)).
  split; [f_equal; lia|]. unfold zlen in *. lia.
Qed.

Lemma eff_lists_push a b l0 l1 ws : eff_lists a b l0 l1 -> eff_lists a (b + zlen ws) l0 (ws ++ l1).
Proof.
  unfold eff_lists. intros (E & Ha & Hb). pose proof (zlen_nonneg ws) as Hw. rewrite zlen_app.
  split; [|lia]. rewrite <- E. unfold zlen in *.
  replace (Z.to_nat (b + Z.of_nat (length ws))) with (length ws + Z.to_nat b)%nat by lia.
  rewrite skipn_app, skipn_all2 by lia. cbn [app]. f_equal. lia.
Qed.

Lemma eff_uncapture_to f : forall s t s', uncapture_to f s t = Ok s' ->
  track s' = track s /\ stack s' = stack s /\ exists k, eff_lists k 0 (crawl s) (crawl s').
Proof.
  induction f as [|f IH]; intros s t s' H; cbn [uncapture_to] in H; [discriminate|].
  destruct (zlen (crawl s) =? t).
  - injection H as <-. split; [reflexivity|split; [reflexivity|]]. exists 0. apply eff_lists_refl.
  - unfold uncapture in H. destruct (crawl s) as [|c cr] eqn:Ec; [discriminate|].
    destruct (remove_match c (mcaps s)) as [m|]; [|discriminate]. cbn [bind] in H.
    apply IH in H. vm_cbn_in H. destruct H as (Ht & Hs & k & Hk). split; [exact Ht|split; [exact Hs|]].
    exists (1 + k). destruct Hk as (E & Hk1 & Hk2). unfold eff_lists. rewrite zlen_cons.
    split; [|lia]. rewrite E. replace (Z.to_nat (1 + k)) with (S (Z.to_nat k)) by lia. reflexivity.
Qed.

Lemma eff_uncapture_to_fail f : forall s t,
  match uncapture_to f s t with Err _ => False | Crash w => w <> C_unknown_op | _ => True end.
Proof.
  induction f as [|f IH]; intros s t; cbn [uncapture_to]; [exact I|].
  destruct (zlen (crawl s) =? t); [exact I|]. unfold uncapture.
  destruct (crawl s) as [|c cr]; [discriminate|]. destruct (remove_match c (mcaps s)); [|discriminate]. apply IH.
Qed.

Lemma eff_uop_fail u s : match run_uop u s with Err _ => False | Crash w => w <> C_unknown_op | _ => True end.
Proof.
  destruct u; cbn [run_uop]; try apply eff_uncapture_to_fail;
    unfold tpush, spush, trackto, do_capture, do_transfer, uncapture;
    repeat match goal with
           | |- context [match ?x with _ => _ end] =>
               lazymatch x with context [match _ with _ => _ end] => fail | _ => destruct x end
           end; try exact I; discriminate.
Qed.

Lemma eff_uops_fail us : forall s,
  match run_uops us s with Err _ => False | Crash w => w <> C_unknown_op | _ => True end.
Proof.
  induction us as [|u us IH]; intros s; cbn [run_uops]; [exact I|].
  pose proof (eff_uop_fail u s) as H. destruct (run_uop u s); cbn [bind]; [apply IH|exact H..].
Qed.

(* ---------- what a plan's effect says of the states before and after its operations ---------- *)
Definition peff_inv (a : peff) (s0 s : vm) : Prop :=
  let '(tp, tq, sp, sq, fl, cr) := a in
  eff_track fl tp tq (track s0) (track s) /\ eff_lists sp sq (stack s0) (stack s) /\
  eff_crawl_sem cr (crawl s0) (crawl s).

Lemma peff_inv_0 s : peff_inv (0, 0, 0, 0, 0, (0, 0, 0, 0)) s s.
Proof.
  split; [apply eff_lists_refl|split; [apply eff_lists_refl|]]. exists 0. split; [lia|apply eff_lists_refl].
Qed.

Lemma peff_uop_ok a u a' s0 s s' :
  peff_uop a u = Some a' -> run_uop u s = Ok s' -> peff_inv a s0 s -> peff_inv a' s0 s'.
Proof.
  destruct a as [[[[[tp tq] sp] sq] fl] [[[c1 c2] cp] cl]]. unfold peff_uop, peff_inv.
  intros Ha Hr (IT & IS & IC). destruct u; cbn [run_uop] in Hr.
  - (* pop the track *)
    destruct ((tq =? 0) && (fl =? 0)) eqn:G; [|discriminate]. injection Ha as <-.
    destruct (n <=? length (track s))%nat eqn:Hn; [|discriminate]. injection Hr as <-. vm_cbn.
    apply andb_true_iff in G. destruct G as [G1 G2]. apply Z.eqb_eq in G1, G2. subst tq fl.
    split; [|split; assumption]. apply eff_lists_pop; [exact IT|apply Nat.leb_le; exact Hn].
  - (* pop the grouping stack *)
    destruct (sq =? 0) eqn:G; [|discriminate]. injection Ha as <-. apply Z.eqb_eq in G. subst sq.
    destruct (n <=? length (stack s))%nat eqn:Hn; [|discriminate]. injection Hr as <-. vm_cbn.
    split; [exact IT|split; [|exact IC]]. apply eff_lists_pop; [exact IS|apply Nat.leb_le; exact Hn].
  - injection Ha as <-. injection Hr as <-. vm_cbn. tauto.
  - (* push on the track *)
    destruct (fl =? 2) eqn:G; [discriminate|]. injection Ha as <-.
    unfold tpush in Hr. destruct (tcap s <? _); [discriminate|]. injection Hr as <-. vm_cbn.
    split; [|split; assumption]. unfold eff_track in *. rewrite G in *.
    destruct (fl =? 0); [apply eff_lists_push; exact IT|].
    destruct (fl =? 1); [|contradiction]. destruct IT as [k IT]. exists k. apply eff_lists_push. exact IT.
  - (* push on the grouping stack *)
    injection Ha as <-. unfold spush in Hr. destruct (scap s <? _); [discriminate|]. injection Hr as <-. vm_cbn.
    split; [exact IT|split; [|exact IC]]. apply eff_lists_push. exact IS.
  - (* trackto *)
    destruct ((tq =? 0) && (fl =? 0)) eqn:G; [|discriminate]. injection Ha as <-.
    apply andb_true_iff in G. destruct G as [G1 G2]. apply Z.eqb_eq in G1, G2. subst tq fl.
    unfold trackto in Hr. destruct ((n <? 0) || (zlen (track s) <? n)) eqn:Hn; [discriminate|]. injection Hr as <-. vm_cbn.
    split; [|split; assumption]. eexists. apply eff_lists_pop; [exact IT|]. unfold zlen in *. lia.
  - (* the root slot *)
    destruct ((tp =? 0) && (tq =? 0) && (fl =? 0)) eqn:G; [|discriminate]. injection Ha as <-.
    apply andb_true_iff in G. destruct G as [G G3]. apply andb_true_iff in G. destruct G as [G1 G2].
    apply Z.eqb_eq in G1, G2, G3. subst tp tq fl.
    destruct (rev (track s)) as [|x rest] eqn:Er; [discriminate|]. injection Hr as <-. vm_cbn.
    split; [|split; assumption]. destruct IT as (E & _). cbn [Z.to_nat skipn] in E.
    split; [reflexivity|split; [reflexivity|]]. exists (rev rest), x, v.
    rewrite <- E, <- (rev_involutive (track s)), Er. split; reflexivity.
  - (* Capture *)
    destruct (cl =? 0) eqn:G; [|discriminate]. injection Ha as <-.
    unfold do_capture in Hr. destruct (if en <? st then _ else _) as [x y].
    destruct (add_match c x (y - x) (mcaps s)); [|discriminate]. injection Hr as <-. vm_cbn.
    split; [exact IT|split; [exact IS|]]. unfold eff_crawl_sem in *. rewrite G in *. destruct IC as (j & Hj & IC).
    exists (j + 1). split; [lia|]. apply (eff_lists_push _ _ _ _ [c]). exact IC.
  - (* transferCapture *)
    destruct (cl =? 0) eqn:G; [|discriminate]. injection Ha as <-.
    unfold eff_crawl_sem in *. rewrite G in *. destruct IC as (j & Hj & IC).
    unfold do_transfer in Hr. destruct (if en <? st then _ else _) as [x0 y0].
    destruct (vm_match_index u (mcaps s)); [|discriminate]. destruct (vm_match_length u (mcaps s)); [|discriminate].
    destruct (if _ <=? x0 then _ else _) as [x y]. destruct (balance_match u (mcaps s)); [|discriminate].
    destruct (c =? -1).
    + injection Hr as <-. vm_cbn. split; [exact IT|split; [exact IS|]].
      exists (j + 1). split; [lia|]. apply (eff_lists_push _ _ _ _ [u]). exact IC.
    + destruct (add_match c x (y - x) l); [|discriminate]. injection Hr as <-. vm_cbn.
      split; [exact IT|split; [exact IS|]].
      exists (j + 2). split; [lia|]. apply (eff_lists_push _ _ _ _ [c; u]). exact IC.
  - (* uncapture *)
    destruct ((c1 =? 0) && (c2 =? 0) && (cl =? 0)) eqn:G; [|discriminate]. injection Ha as <-.
    apply andb_true_iff in G. destruct G as [G G3]. apply andb_true_iff in G. destruct G as [G1 G2].
    apply Z.eqb_eq in G1, G2. subst c1 c2. unfold eff_crawl_sem in *. rewrite G3 in *.
    destruct IC as (j & Hj & IC). assert (j = 0) by lia. subst j.
    unfold uncapture in Hr. destruct (crawl s) as [|c cr] eqn:Ec; [discriminate|].
    destruct (remove_match c (mcaps s)); [|discriminate]. injection Hr as <-. vm_cbn.
    split; [exact IT|split; [exact IS|]]. exists 0. split; [lia|].
    apply (eff_lists_pop _ _ _ 1) in IC; [|cbn [length]; lia]. exact IC.
  - (* uncapture down to a saved height *)
    destruct ((c1 =? 0) && (c2 =? 0) && (cp =? 0) && (cl =? 0)) eqn:G; [|discriminate]. injection Ha as <-.
    apply andb_true_iff in G. destruct G as [G G4]. apply andb_true_iff in G. destruct G as [G G3].
    apply andb_true_iff in G. destruct G as [G1 G2]. apply Z.eqb_eq in G1, G2, G3. subst c1 c2 cp.
    unfold eff_crawl_sem in IC. rewrite G4 in IC. destruct IC as (j & Hj & IC). assert (j = 0) by lia. subst j.
    apply eff_uncapture_to in Hr. destruct Hr as (-> & -> & k & Hk).
    split; [exact IT|split; [exact IS|]]. cbv [eff_crawl_sem Z.eqb Pos.eqb andb].
    destruct IC as (E & _), Hk as (E' & Hk & _). cbn [Z.to_nat skipn] in E, E'. rewrite <- E in *.
    eexists. split; [exact E'|]. pose proof (zlen_nonneg (crawl s')). lia.
Qed.

Lemma plan_eff_ok us : forall a a' s0 s s',
  plan_eff a us = Some a' -> run_uops us s = Ok s' -> peff_inv a s0 s -> peff_inv a' s0 s'.
Proof.
  induction us as [|u us IH]; intros a a' s0 s s' Ha Hr I0; cbn [plan_eff run_uops] in Ha, Hr.
  - injection Ha as <-. injection Hr as <-. exact I0.
  - destruct (peff_uop a u) as [a1|] eqn:E1; [|discriminate].
    destruct (run_uop u s) as [s1| | |] eqn:E2; try discriminate.
    exact (IH _ _ _ _ _ Ha Hr (peff_uop_ok _ _ _ _ _ _ E1 E2 I0)).
Qed.

Section Main.
Variable e : env.
Variable p : program.
Variable L : Z.

Definition eff_body (pt : eff_path) (s S : vm) : Prop :=
  let '(tpop, tpush, spop, spush, ex, fl, cw) := pt in
  eff_track fl tpop tpush (track s) (track S) /\ eff_lists spop spush (stack s) (stack S) /\
  eff_crawl cw (crawl s) (crawl S).

Definition eff_exit (pt : eff_path) : Z := let '(_, _, _, _, ex, _, _) := pt in ex.

Lemma eff_ok_adv pt s S k :
  eff_exit pt = k -> eff_is_advance k = true -> pc S = pc s -> eff_body pt s S ->
  eff_path_ok p pt s (Next (set_pc S (pc S + k + 1) 0)).
Proof.
  destruct pt as [[[[[[tpop tpush] spop] spush] ex] fl] cw]. cbn [eff_exit]. intros -> Hk Hpc HB.
  unfold eff_path_ok. rewrite Hk. eexists. split; [reflexivity|]. vm_cbn. rewrite Hpc.
  split; [reflexivity|split; [reflexivity|exact HB]].
Qed.

Lemma eff_ok_goto pt s S S' ex a :
  eff_exit pt = ex -> eff_is_advance ex = false -> eff_is_goto ex = true ->
  code_at p (pc s + (ex - 10) + 1) = Some a -> pc S' = a -> mode S' = 0 -> eff_same S S' ->
  eff_body pt s S -> eff_path_ok p pt s (Next S').
Proof.
  destruct pt as [[[[[[tpop tpush] spop] spush] ex0] fl] cw]. cbn [eff_exit]. intros -> H1 H2 Hc Hpc Hm (Ht & Hs & Hc') HB.
  unfold eff_path_ok. rewrite H1, H2. exists S'. rewrite Hpc, Ht, Hs, Hc'.
  split; [reflexivity|split; [exact Hm|split; [exact Hc|exact HB]]].
Qed.

Lemma eff_ok_back pt s S S' np T :
  eff_exit pt = 20 -> track S = np :: T -> pc S' = Z.abs np -> mode S' = (if np <? 0 then Back2Bit else BackBit) ->
  track S' = T -> stack S' = stack S -> crawl S' = crawl S ->
  eff_body pt s S -> eff_path_ok p pt s (Next S').
Proof.
  destruct pt as [[[[[[tpop tpush] spop] spush] ex0] fl] cw]. cbn [eff_exit]. intros -> Ht Hpc Hm HT Hs Hc HB.
  unfold eff_path_ok. change (eff_is_advance 20) with false. change (eff_is_goto 20) with false. change (20 =? 20) with true.
  cbv iota. exists S', np. rewrite HT, Hs, Hc, <- Ht.
  split; [reflexivity|split; [exact Hpc|split; [exact Hm|exact HB]]].
Qed.

Lemma eff_ok_done pt s S :
  eff_exit pt = 30 -> pc S = pc s -> eff_body pt s S -> eff_path_ok p pt s (Done S).
Proof.
  destruct pt as [[[[[[tpop tpush] spop] spush] ex0] fl] cw]. cbn [eff_exit]. intros -> Hpc HB.
  unfold eff_path_ok. change (eff_is_advance 30) with false. change (eff_is_goto 30) with false.
  change (30 =? 20) with false. change (30 =? 30) with true. cbv iota. exists S.
  split; [reflexivity|split; [exact Hpc|exact HB]].
Qed.

Lemma eff_find_find c l : eff_find c l = option_map snd (List.find (fun kv => c =? fst kv) l).
Proof.
  induction l as [|[k ps] l IH]; cbn [eff_find List.find fst snd]; [reflexivity|].
  destruct (c =? k); [reflexivity|exact IH].
Qed.

Lemma path_covers_ok ex a pt s0 S :
  path_covers ex a pt = true -> peff_inv a s0 S -> eff_exit pt = ex /\ eff_body pt s0 S.
Proof.
  destruct a as [[[[[tp tq] sp] sq] fl] [[[c1 c2] cp] cl]], pt as [[[[[[tpop tpush] spop] spush] ex'] fl'] cw].
  unfold path_covers, peff_inv, eff_body, eff_exit. rewrite !andb_true_iff.
  intros ((((((((E1 & E2) & E3) & E4) & E5) & E6) & E7) & E8) & E9) (IT & IS & IC).
  apply Z.eqb_eq in E1, E2, E4, E5, E6, E7, E8. subst ex' fl' tpush spop spush.
  split; [reflexivity|]. split; [|split; [exact IS|]].
  - apply orb_true_iff in E3. destruct E3 as [E3|E3]; apply Z.eqb_eq in E3; subst; exact IT.
  - unfold eff_crawl, eff_crawl_dec, eff_crawl_sem in *. rewrite E7, E8. destruct (cl =? 0).
    + destruct IC as (j & Hj & IC). exists j. split; [lia|exact IC].
    + destruct ((cl =? 1) && (c1 =? 0) && (c2 =? 0) && (cp =? 0)) eqn:G; [|contradiction].
      apply andb_true_iff in G. destruct G as [G G4]. apply andb_true_iff in G. destruct G as [G _].
      apply andb_true_iff in G. destruct G as [G1 _]. apply andb_true_iff in E9. destruct E9 as [E9 E10].
      rewrite G1, G4, E9, E10. exact IC.
Qed.

Lemma plan_in_table_ok c us ex s S :
  match plan_eff (0, 0, 0, 0, 0, (0, 0, 0, 0)) us, List.find (fun kv => c =? fst kv) G_effects_x with
  | Some a, Some kv => existsb (path_covers ex a) (snd kv)
  | _, _ => false
  end = true ->
  run_uops us s = Ok S ->
  exists pt, In pt (eff_paths c) /\ eff_exit pt = ex /\ eff_body pt s S.
Proof.
  intros G E. destruct (plan_eff _ us) as [a|] eqn:Ea; [|discriminate].
  unfold eff_paths. rewrite eff_find_find. unfold eff_path in *.
  destruct (List.find _ G_effects_x) as [kv|]; [|discriminate].
  cbn [option_map]. apply existsb_exists in G. destruct G as (pt & Hin & Hc). exists pt. split; [exact Hin|].
  exact (path_covers_ok _ _ _ _ _ Hc (plan_eff_ok us _ _ s s S Ea E (peff_inv_0 s))).
Qed.

Lemma eff_exit_can_fail pt : eff_exit pt = 10 \/ eff_exit pt = 20 -> eff_can_fail pt = true.
Proof. destruct pt as [[[[[[? ?] ?] ?] ex] ?] ?]. cbn [eff_exit eff_can_fail]. intros [-> | ->]; reflexivity. Qed.

(* The step runs its plan.  The operations of the plan do to the three stacks what the plan's effect says,
   a tuple of the table covers that effect and names the exit, and the exit is advance, goTo or backtrack
   as analysed above. *)
Lemma eff_step_spec s w : code_at p (pc s) = Some w -> eff_spec p s (Z.land w 63) (mode s) (step e p L s).
Proof.
  intros Hw. destruct (step_plan e p s w Hw) as (us & x & (_ & _ & Hx) & (HD & HT & HG) & Hs).
  specialize (Hs L (tcap s) (scap s)). rewrite with_caps_id in Hs. rewrite Hs, exec_bind. clear Hs.
  fold (eff_dispatch (Z.land w 63) (mode s)) in HD.
  change (case_code (Z.land w 63) (mode s)) with (Z.land w 63 + eff_mode_bits (mode s)) in HT.
  unfold eff_spec. destruct x as [i|a| | |why]; cbn [plan_in_table exit_code] in HT.
  5: { subst us. cbn [run_uops bind run_exit]. destruct (eff_dispatch _ _); cbn [negb] in HD.
       - split; [discriminate|]. intros ->. discriminate HD.
       - apply Z.eqb_eq in HD. subst why. split; reflexivity. }
  all: assert (Hd : eff_dispatch (Z.land w 63) (mode s) = true)
         by (destruct (eff_dispatch _ _); [reflexivity|discriminate HD]);
       rewrite Hd; pose proof (eff_uops_fail us s) as HF;
       destruct (run_uops us s) as [S| | |] eqn:E; cbn [bind];
       [|contradiction|split; [discriminate|intros X; contradiction]|split; [discriminate|exact I]];
       destruct (plan_in_table_ok _ _ _ _ _ HT E) as (pt & Hin & Hex & HB);
       apply uops_sizes in E; destruct E as (Hpc & _); cbn [run_exit].
  - destruct (eff_adv_inv p S i _ eq_refl) as [-> | ->]; (split; [discriminate|]); [|discriminate].
    exists pt. split; [exact Hin|]. apply eff_ok_adv; [exact Hex|unfold eff_is_advance; lia|exact Hpc|exact HB].
  - destruct (eff_goto_inv p L S a _ eq_refl) as [(S' & -> & H1 & H2 & H3)|[-> | ->]]; (split; [discriminate|]);
      [|split; [reflexivity|exists pt; split; [exact Hin|apply eff_exit_can_fail; tauto]]|discriminate].
    exists pt. split; [exact Hin|].
    apply (eff_ok_goto pt s S S' 10 a); try assumption; reflexivity.
  - destruct (eff_brk_inv p L S _ eq_refl) as [(S' & np & T & Ht & -> & H1 & H2 & H3 & H4 & H5)|[-> |[-> | ->]]];
      (split; [discriminate|]);
      [|split; [reflexivity|exists pt; split; [exact Hin|apply eff_exit_can_fail; tauto]]|discriminate..].
    exists pt. split; [exact Hin|]. exact (eff_ok_back pt s S S' np T Hex Ht H1 H2 H3 H4 H5 HB).
  - split; [discriminate|]. exists pt. split; [exact Hin|]. exact (eff_ok_done pt s S Hex Hpc HB).
Qed.

End Main.

(* ---------- the model implements exactly the case codes the source has ---------- *)
Definition eff_all_ops : list Z := map Z.of_nat (seq 0 64).
Definition eff_all_modes : list Z := [0; BackBit; Back2Bit].

(* by computation over 64 opcodes x 3 entry modes: VM.step's dispatch accepts a code iff it is a key of the
   generated table; and every key of the table (the default case -1 aside) is such a code *)
Lemma eff_dispatch_is_keys :
  forallb (fun op => forallb (fun m => Bool.eqb (eff_dispatch op m) (eff_is_key (op + eff_mode_bits m))) eff_all_modes)
          eff_all_ops = true /\
  forallb (fun k => (k =? -1) || existsb (fun op => existsb (fun m => k =? op + eff_mode_bits m) eff_all_modes) eff_all_ops)
          (map fst G_effects_x) = true /\
  eff_paths (-1) = [(0, 0, 0, 0, 31, 0, 0)].
Proof. vm_compute. repeat split; reflexivity. Qed.

Lemma eff_land_in_ops w : In (Z.land w 63) eff_all_ops.
Proof.
  assert (H : 0 <= Z.land w 63 < 64).
  { change 63 with (Z.ones 6). rewrite Z.land_ones by lia. apply Z.mod_pos_bound. reflexivity. }
  unfold eff_all_ops. rewrite <- (Z2Nat.id (Z.land w 63)) by lia. apply in_map. apply in_seq. lia.
Qed.

Lemma eff_dispatch_key w m : eff_dispatch (Z.land w 63) m = eff_is_key (eff_case_code w m).
Proof.
  destruct eff_dispatch_is_keys as [H _]. rewrite forallb_forall in H.
  specialize (H _ (eff_land_in_ops w)). rewrite forallb_forall in H.
  unfold eff_case_code. change G_Mask with 63.
  assert (C : exists m', In m' eff_all_modes /\ eff_dispatch (Z.land w 63) m = eff_dispatch (Z.land w 63) m' /\
                         eff_mode_bits m = eff_mode_bits m').
  { unfold eff_dispatch, step_ops, eff_mode_bits, eff_all_modes. destruct (m =? 0) eqn:E0.
    - exists 0. cbn [In]. split; [tauto|split; reflexivity].
    - destruct (m =? BackBit) eqn:E1.
      + exists BackBit. cbn [In]. split; [tauto|split; reflexivity].
      + exists Back2Bit. cbn [In]. split; [tauto|split; reflexivity]. }
  destruct C as (m' & Hin & -> & ->). apply Bool.eqb_prop. apply H. exact Hin.
Qed.

Section Thm.
Variable e : env.
Variable p : program.

(* THE conformance theorem: VM.step against the table generated from runner.go *)
Theorem vm_step_effect_in_table L s w :
  code_at p (pc s) = Some w ->
  let c := eff_case_code w (mode s) in
  match step e p L s with
  | Ok o => exists pt, In pt (eff_paths c) /\ eff_path_ok p pt s o
  | Err x => x = E_StackLimit /\ exists pt, In pt (eff_paths c) /\ eff_can_fail pt = true
  | Crash why => why = C_unknown_op <-> eff_is_key c = false
  | Fuel => True
  end.
Proof.
  intros Hw c. pose proof (eff_step_spec e p L s w Hw) as [HD HS].
  pose proof (eff_dispatch_key w (mode s)) as HK. fold c in HK.
  change (Z.land w 63 + eff_mode_bits (mode s)) with c in HS.
  destruct (step e p L s) as [o|x|why|]; try exact HS.
  split.
  - intros E. rewrite <- HK. apply HS. exact E.
  - intros E. rewrite <- HK in E. specialize (HD E). injection HD as ->. reflexivity.
Qed.

(* "unknown opcode" (the source's default case) exactly on the case codes the table does not have *)
Theorem vm_step_unknown_iff_not_key L s w :
  code_at p (pc s) = Some w ->
  (step e p L s = Crash C_unknown_op <-> eff_is_key (eff_case_code w (mode s)) = false).
Proof.
  intros Hw. pose proof (eff_step_spec e p L s w Hw) as [HD HS].
  rewrite <- (eff_dispatch_key w (mode s)). split.
  - intros E. rewrite E in HS. apply HS. reflexivity.
  - exact HD.
Qed.

(* states that agree on everything the table talks about *)
Definition eff_eqv (a b : vm) : Prop :=
  pc a = pc b /\ mode a = mode b /\ track a = track b /\ stack a = stack b /\ crawl a = crawl b.
Definition eff_out_eqv (a b : outcome) : Prop :=
  match a, b with
  | Next x, Next y => eff_eqv x y
  | Done x, Done y => eff_eqv x y
  | _, _ => False
  end.

Lemma eff_path_ok_eqv pt s1 s2 o1 o2 :
  eff_eqv s1 s2 -> eff_out_eqv o1 o2 -> eff_path_ok p pt s1 o1 -> eff_path_ok p pt s2 o2.
Proof.
  destruct pt as [[[[[[tpop tpush] spop] spush] ex] fl] cw].
  intros (Hpc & Hm & Ht & Hs & Hc) Ho. unfold eff_path_ok. rewrite Hpc, Ht, Hs, Hc.
  destruct (eff_is_advance ex); [|destruct (eff_is_goto ex); [|destruct (ex =? 20); [|destruct (ex =? 30)]]].
  - intros (s' & -> & H). destruct o2 as [y|y|?|?]; try contradiction.
    destruct Ho as (Hpc' & Hm' & Ht' & Hs' & Hc'). exists y. rewrite <- ?Hpc', <- ?Hm', <- ?Ht', <- ?Hs', <- ?Hc'.
    split; [reflexivity|exact H].
  - intros (s' & -> & H). destruct o2 as [y|y|?|?]; try contradiction.
    destruct Ho as (Hpc' & Hm' & Ht' & Hs' & Hc'). exists y. rewrite <- ?Hpc', <- ?Hm', <- ?Ht', <- ?Hs', <- ?Hc'.
    split; [reflexivity|exact H].
  - intros (s' & np & -> & H). destruct o2 as [y|y|?|?]; try contradiction.
    destruct Ho as (Hpc' & Hm' & Ht' & Hs' & Hc'). exists y, np. rewrite <- ?Hpc', <- ?Hm', <- ?Ht', <- ?Hs', <- ?Hc'.
    split; [reflexivity|exact H].
  - intros (s' & -> & H). destruct o2 as [y|y|?|?]; try contradiction.
    destruct Ho as (Hpc' & Hm' & Ht' & Hs' & Hc'). exists y. rewrite <- ?Hpc', <- ?Hm', <- ?Ht', <- ?Hs', <- ?Hc'.
    split; [reflexivity|exact H].
  - intros [].
Qed.

Lemma eff_path_ok_out pt s o : eff_path_ok p pt s o -> exists s', o = Next s' \/ o = Done s'.
Proof.
  destruct pt as [[[[[[tpop tpush] spop] spush] ex] fl] cw]. unfold eff_path_ok.
  destruct (eff_is_advance ex); [|destruct (eff_is_goto ex); [|destruct (ex =? 20); [|destruct (ex =? 30)]]].
  - intros (s' & -> & _). exists s'. left. reflexivity.
  - intros (s' & -> & _). exists s'. left. reflexivity.
  - intros (s' & np & -> & _). exists s'. left. reflexivity.
  - intros (s' & -> & _). exists s'. right. reflexivity.
  - intros [].
Qed.

(* the same for the unbounded-stack machine used by the compiler-correctness proofs *)
Theorem vm_ustep_effect_in_table s w :
  code_at p (pc s) = Some w ->
  let c := eff_case_code w (mode s) in
  match ustep e p s with
  | Ok o => exists pt, In pt (eff_paths c) /\ eff_path_ok p pt s o
  | Err x => x = E_StackLimit /\ exists pt, In pt (eff_paths c) /\ eff_can_fail pt = true
  | Crash why => why = C_unknown_op <-> eff_is_key c = false
  | Fuel => True
  end.
Proof.
  intros Hw c. pose proof (vm_step_effect_in_table (-1) (repad p s) w Hw) as H. cbv zeta in H.
  change (mode (repad p s)) with (mode s) in H. fold c in H.
  unfold ustep. destruct (step e p (-1) (repad p s)) as [o|x|why|]; try exact H.
  destruct H as (pt & Hin & Hok).
  assert (E : eff_eqv (repad p s) s) by (unfold eff_eqv, repad; vm_cbn; tauto).
  destruct (eff_path_ok_out _ _ _ Hok) as [s' [-> | ->]].
  - exists pt. split; [exact Hin|]. eapply eff_path_ok_eqv; [exact E| |exact Hok].
    unfold eff_out_eqv, eff_eqv, norm, VMU.mk. vm_cbn. tauto.
  - exists pt. split; [exact Hin|]. eapply eff_path_ok_eqv; [exact E| |exact Hok].
    unfold eff_out_eqv, eff_eqv, norm, VMU.mk. vm_cbn. tauto.
Qed.

End Thm.

(* ---------- the net form over G_effects: (delta track, delta stack, exit kind) ---------- *)
Definition eff_proj (pt : eff_path) : Z * Z * Z * Z * Z :=
  let '(tpop, tpush, spop, spush, ex, fl, cw) := pt in
  ((if Z.odd fl then -1 else tpop), tpush, spop, spush, ex).

Fixpoint eff_find5 (c : Z) (l : list (Z * list (Z * Z * Z * Z * Z))) : list (Z * Z * Z * Z * Z) :=
  match l with
  | [] => []
  | (k, ps) :: l' => if c =? k then ps else eff_find5 c l'
  end.
Definition eff_paths5 (c : Z) : list (Z * Z * Z * Z * Z) := eff_find5 c G_effects.

Definition eff_t5_eqb (a b : Z * Z * Z * Z * Z) : bool :=
  let '(a1, a2, a3, a4, a5) := a in let '(b1, b2, b3, b4, b5) := b in
  (a1 =? b1) && (a2 =? b2) && (a3 =? b3) && (a4 =? b4) && (a5 =? b5).

Lemma eff_t5_eqb_eq a b : eff_t5_eqb a b = true -> a = b.
Proof.
  destruct a as [[[[a1 a2] a3] a4] a5], b as [[[[b1 b2] b3] b4] b5]. unfold eff_t5_eqb.
  rewrite !andb_true_iff, !Z.eqb_eq. intros [[[[-> ->] ->] ->] ->]. reflexivity.
Qed.

(* G_effects is G_effects_x with flags and crawl dropped: same keys, and for every key the 5-tuples are
   exactly the projections of the 7-tuples *)
Lemma eff_G_effects_is_projection :
  map fst G_effects = map fst G_effects_x /\
  forallb (fun kv => forallb (fun pt => existsb (eff_t5_eqb (eff_proj pt)) (eff_paths5 (fst kv))) (snd kv)) G_effects_x = true /\
  forallb (fun kv => forallb (fun t => existsb (fun pt => eff_t5_eqb (eff_proj pt) t) (eff_paths (fst kv))) (snd kv)) G_effects = true.
Proof. vm_compute. repeat split; reflexivity. Qed.

Lemma eff_find_in c l ps : eff_find c l = Some ps -> In (c, ps) l.
Proof.
  induction l as [|[k q] l IH]; cbn [eff_find]; [discriminate|].
  destruct (c =? k) eqn:E; [|intros H; right; apply IH; exact H].
  apply Z.eqb_eq in E. subst k. intros H. injection H as ->. left. reflexivity.
Qed.

Lemma eff_proj_in c pt : In pt (eff_paths c) -> In (eff_proj pt) (eff_paths5 c).
Proof.
  unfold eff_paths. destruct (eff_find c G_effects_x) as [ps|] eqn:E; [|intros []].
  intros Hin. apply eff_find_in in E.
  destruct eff_G_effects_is_projection as (_ & H & _). rewrite forallb_forall in H.
  specialize (H _ E). cbn [fst snd] in H. rewrite forallb_forall in H. specialize (H _ Hin).
  apply existsb_exists in H. destruct H as (t & Ht & Heq). apply eff_t5_eqb_eq in Heq. rewrite Heq. exact Ht.
Qed.

Lemma eff_lists_delta pop push b a : eff_lists pop push b a -> zlen a - zlen b = push - pop.
Proof.
  intros (Hs & Hp & Hq). apply (f_equal (@zlen Z)) in Hs. unfold zlen in *. rewrite !skipn_length in Hs. lia.
Qed.

Section Net.
Variable e : env.
Variable p : program.

(* what one path of G_effects says about a step from s to s' (Next) or its end (Done):
   delta track = pushed - popped (- 1 more, the frame head, when the path falls to backtrack(); no claim
   where the path cuts the track back with trackto, popped = -1), delta stack = pushed - popped, exit kind *)
Definition eff_net_ok (t : Z * Z * Z * Z * Z) (s : vm) (o : outcome) : Prop :=
  let '(tpop, tpush, spop, spush, ex) := t in
  let dt := fun s' => tpop = -1 \/ zlen (track s') - zlen (track s) = tpush - tpop - (if ex =? 20 then 1 else 0) in
  let ds := fun s' => zlen (stack s') - zlen (stack s) = spush - spop in
  match o with
  | Next s' =>
      dt s' /\ ds s' /\
      (if eff_is_advance ex then mode s' = 0 /\ pc s' = pc s + ex + 1
       else if eff_is_goto ex then mode s' = 0 /\ code_at p (pc s + (ex - 10) + 1) = Some (pc s')
       else ex = 20 /\ (mode s' = BackBit \/ mode s' = Back2Bit))
  | Done s' => ex = 30 /\ dt s' /\ ds s'
  | _ => False
  end.

Lemma eff_track_delta fl tpop tpush b a :
  eff_track fl tpop tpush b a -> (if Z.odd fl then -1 else tpop) = -1 \/ zlen a - zlen b = tpush - (if Z.odd fl then -1 else tpop).
Proof.
  unfold eff_track. destruct (fl =? 0) eqn:E0; [apply Z.eqb_eq in E0; subst fl|].
  { intros H. right. apply eff_lists_delta in H. exact H. }
  destruct (fl =? 1) eqn:E1; [apply Z.eqb_eq in E1; subst fl; intros _; left; reflexivity|].
  destruct (fl =? 2) eqn:E2; [apply Z.eqb_eq in E2; subst fl|intros []].
  intros (-> & -> & pre & x & y & -> & ->). right. change (Z.odd 2) with false. cbv iota. rewrite !zlen_app, !zlen_cons. change (zlen (@nil Z)) with 0. lia.
Qed.

Lemma eff_path_ok_net pt s o : eff_path_ok p pt s o -> eff_net_ok (eff_proj pt) s o.
Proof.
  destruct pt as [[[[[[tpop tpush] spop] spush] ex] fl] cw]. unfold eff_path_ok, eff_net_ok, eff_proj.
  destruct (eff_is_advance ex) eqn:Ea; [|destruct (eff_is_goto ex) eqn:Eg; [|destruct (ex =? 20) eqn:E20; [|destruct (ex =? 30) eqn:E30]]].
  - intros (s' & -> & Hm & Hpc & Ht & Hs & _).
    assert (E20 : (ex =? 20) = false) by (unfold eff_is_advance in Ea; lia). rewrite ?E20.
    apply eff_track_delta in Ht. apply eff_lists_delta in Hs.
    split; [destruct Ht as [Ht|Ht]; [left; exact Ht|right; lia]|]. split; [exact Hs|]. split; [exact Hm|exact Hpc].
  - intros (s' & -> & Hm & Hpc & Ht & Hs & _).
    assert (E20 : (ex =? 20) = false) by (unfold eff_is_goto in Eg; lia). rewrite ?E20.
    apply eff_track_delta in Ht. apply eff_lists_delta in Hs.
    split; [destruct Ht as [Ht|Ht]; [left; exact Ht|right; lia]|]. split; [exact Hs|]. split; [exact Hm|exact Hpc].
  - intros (s' & np & -> & Hpc & Hm & Ht & Hs & _).
    apply eff_track_delta in Ht. apply eff_lists_delta in Hs. rewrite zlen_cons in Ht.
    split; [destruct Ht as [Ht|Ht]; [left; exact Ht|right; lia]|]. split; [exact Hs|].
    split; [lia|]. rewrite Hm. destruct (np <? 0); [right|left]; reflexivity.
  - intros (s' & -> & Hpc & Ht & Hs & _).
    apply eff_track_delta in Ht. apply eff_lists_delta in Hs.
    split; [lia|]. split; [destruct Ht as [Ht|Ht]; [left; exact Ht|right; lia]|exact Hs].
  - intros [].
Qed.

Theorem vm_step_net_effect L s w o :
  code_at p (pc s) = Some w -> step e p L s = Ok o ->
  exists t, In t (eff_paths5 (eff_case_code w (mode s))) /\ eff_net_ok t s o.
Proof.
  intros Hw Hs. pose proof (vm_step_effect_in_table e p L s w Hw) as H. cbv zeta in H. rewrite Hs in H.
  destruct H as (pt & Hin & Hok). exists (eff_proj pt). split; [apply eff_proj_in; exact Hin|].
  apply eff_path_ok_net. exact Hok.
Qed.

End Net.

(* ---------- the two generated tables check each other ---------- *)
Definition eff_tpush (pt : eff_path) : Z := let '(_, tpush, _, _, _, _, _) := pt in tpush.
(* net push of a path at its own code position: pushed - popped, and for a Back / Back2 variant one word less
   (the frame head backtrack() popped on the way in); trackto only removes words *)
Definition eff_net_push (c : Z) (pt : eff_path) : Z :=
  let '(tpop, tpush, _, _, _, fl, _) := pt in
  tpush - (if Z.odd fl then 0 else tpop) - (if c <? 64 then 0 else 1).

(* (a) an opcode one of whose paths (forward, Back or Back2) pushes track words is counted by opcodeBacktracks —
       except Nullmark, which pushes one word and is not counted (DESIGN Appendix A; the writer always emits it
       next to a counted Goto, Proofs/VMCapacityProofs);
   (b) conversely every opcode opcodeBacktracks counts has a case in the table;
   (c) no path's net push exceeds the weight cp_weight the capacity argument assigns the opcode
       (4 if counted, Goto 0, Nullmark 1, else 0) *)
Lemma eff_pushers_are_counted :
  forallb (fun kv => negb (existsb (fun pt => 0 <? eff_tpush pt) (snd kv)) ||
                     zmem (Z.land (fst kv) 63) opcode_backtracks_list || (Z.land (fst kv) 63 =? G_Nullmark))
          G_effects_x = true /\
  forallb (fun op => eff_is_key op) opcode_backtracks_list = true.
Proof. vm_compute. split; reflexivity. Qed.

Lemma eff_net_push_le_weight :
  forallb (fun kv => (fst kv =? -1) || forallb (fun pt => eff_net_push (fst kv) pt <=? cp_weight (fst kv)) (snd kv))
          G_effects_x = true.
Proof. vm_compute. reflexivity. Qed.

(* the helper arities the table was built with, as read from the helpers' bodies *)
Lemma eff_helper_arities :
  (G_eff_trackPush, G_eff_trackPush1, G_eff_trackPush2, G_eff_trackPush3, G_eff_trackPushNeg1, G_eff_trackPushNeg2) = (1, 2, 3, 4, 2, 3) /\
  (G_eff_stackPush, G_eff_stackPush2, G_eff_trackPop, G_eff_stackPop, G_eff_backtrack_pops) = (1, 2, 1, 1, 1) /\
  (G_eff_Capture, G_eff_transferCapture, G_eff_uncapture) = ((1, 1), (1, 2), 1).
Proof. vm_compute. repeat split; reflexivity. Qed.

(* ---------- the converse at path level: every path the table lists is taken by the model ---------- *)
(* boolean versions of the path predicates (sound: eff_path_okb_sound) *)

Definition eff_listsb (pop push : Z) (before after : list Z) : bool :=
  (0 <=? pop) && (pop <=? zlen before) && (0 <=? push) && (push <=? zlen after) &&
  zlist_eqb (skipn (Z.to_nat push) after) (skipn (Z.to_nat pop) before).
Lemma eff_listsb_sound pop push b a : eff_listsb pop push b a = true -> eff_lists pop push b a.
Proof.
  unfold eff_listsb, eff_lists. rewrite !andb_true_iff. intros [[[[H1 H2] H3] H4] H5].
  apply zlist_eqb_eq in H5. split; [exact H5|lia].
Qed.

Definition eff_heights (l : list Z) : list Z := map Z.of_nat (seq 0 (S (length l))).

Definition eff_trackb (fl tpop tpush : Z) (before after : list Z) : bool :=
  if fl =? 0 then eff_listsb tpop tpush before after
  else if fl =? 1 then existsb (fun k => eff_listsb k tpush before after) (eff_heights before)
  else if fl =? 2 then
    (tpop =? 0) && (tpush =? 0) &&
    match rev before, rev after with
    | _ :: rb, _ :: ra => zlist_eqb rb ra
    | _, _ => false
    end
  else false.
Lemma eff_trackb_sound fl tpop tpush b a : eff_trackb fl tpop tpush b a = true -> eff_track fl tpop tpush b a.
Proof.
  unfold eff_trackb, eff_track. destruct (fl =? 0); [apply eff_listsb_sound|].
  destruct (fl =? 1).
  { intros H. apply existsb_exists in H. destruct H as (k & _ & H). exists k. apply eff_listsb_sound. exact H. }
  destruct (fl =? 2); [|discriminate].
  rewrite !andb_true_iff, !Z.eqb_eq. intros [[-> ->] H]. split; [reflexivity|split; [reflexivity|]].
  destruct (rev b) as [|x rb] eqn:Eb; [discriminate|]. destruct (rev a) as [|y ra] eqn:Ea; [discriminate|].
  apply zlist_eqb_eq in H. subst ra. exists (rev rb), x, y.
  rewrite <- (rev_involutive b), <- (rev_involutive a), Eb, Ea. split; reflexivity.
Qed.

Definition eff_crawlb (c : Z) (before after : list Z) : bool :=
  let '(pmin, pmax, pops, loop) := eff_crawl_dec c in
  if loop =? 0 then existsb (fun j => (pmin <=? j) && (j <=? pmax) && eff_listsb pops j before after) (eff_heights after)
  else if (loop =? 1) && (pmin =? 0) && (pmax =? 0) && (pops =? 0) then
    existsb (fun k => eff_listsb k 0 before after) (eff_heights before)
  else false.
Lemma eff_crawlb_sound c b a : eff_crawlb c b a = true -> eff_crawl c b a.
Proof.
  unfold eff_crawlb, eff_crawl, eff_crawl_sem. destruct (eff_crawl_dec c) as [[[pmin pmax] pops] loop].
  destruct (loop =? 0).
  { intros H. apply existsb_exists in H. destruct H as (j & _ & H). rewrite !andb_true_iff in H.
    destruct H as [[H1 H2] H3]. exists j. split; [lia|apply eff_listsb_sound; exact H3]. }
  destruct ((loop =? 1) && (pmin =? 0) && (pmax =? 0) && (pops =? 0)); [|discriminate].
  intros H. apply existsb_exists in H. destruct H as (k & _ & H). exists k. apply eff_listsb_sound. exact H.
Qed.

Section Real.
Variable p : program.

Definition eff_bodyb (tpop tpush spop spush fl cw : Z) (s : vm) (T S C : list Z) : bool :=
  eff_trackb fl tpop tpush (track s) T && eff_listsb spop spush (stack s) S && eff_crawlb cw (crawl s) C.

Definition eff_path_okb (pt : eff_path) (s : vm) (o : outcome) : bool :=
  let '(tpop, tpush, spop, spush, ex, fl, cw) := pt in
  if eff_is_advance ex then
    match o with
    | Next s' => (mode s' =? 0) && (pc s' =? pc s + ex + 1) && eff_bodyb tpop tpush spop spush fl cw s (track s') (stack s') (crawl s')
    | _ => false
    end
  else if eff_is_goto ex then
    match o with
    | Next s' => (mode s' =? 0) &&
                 match code_at p (pc s + (ex - 10) + 1) with Some v => v =? pc s' | None => false end &&
                 eff_bodyb tpop tpush spop spush fl cw s (track s') (stack s') (crawl s')
    | _ => false
    end
  else if ex =? 20 then
    match o with
    | Next s' =>
        let np := if mode s' =? Back2Bit then - pc s' else pc s' in
        (pc s' =? Z.abs np) && (mode s' =? (if np <? 0 then Back2Bit else BackBit)) &&
        eff_bodyb tpop tpush spop spush fl cw s (np :: track s') (stack s') (crawl s')
    | _ => false
    end
  else if ex =? 30 then
    match o with
    | Done s' => (pc s' =? pc s) && eff_bodyb tpop tpush spop spush fl cw s (track s') (stack s') (crawl s')
    | _ => false
    end
  else false.

Lemma eff_bodyb_sound tpop tpush spop spush fl cw s T S C :
  eff_bodyb tpop tpush spop spush fl cw s T S C = true ->
  eff_track fl tpop tpush (track s) T /\ eff_lists spop spush (stack s) S /\ eff_crawl cw (crawl s) C.
Proof.
  unfold eff_bodyb. rewrite !andb_true_iff. intros [[H1 H2] H3].
  split; [apply eff_trackb_sound; exact H1|split; [apply eff_listsb_sound; exact H2|apply eff_crawlb_sound; exact H3]].
Qed.

Lemma eff_path_okb_sound pt s o : eff_path_okb pt s o = true -> eff_path_ok p pt s o.
Proof.
  destruct pt as [[[[[[tpop tpush] spop] spush] ex] fl] cw]. unfold eff_path_okb, eff_path_ok.
  destruct (eff_is_advance ex); [|destruct (eff_is_goto ex); [|destruct (ex =? 20); [|destruct (ex =? 30)]]].
  - destruct o as [s'| | |]; try discriminate. rewrite !andb_true_iff, !Z.eqb_eq. intros [[H1 H2] H3].
    exists s'. split; [reflexivity|split; [exact H1|split; [exact H2|apply eff_bodyb_sound; exact H3]]].
  - destruct o as [s'| | |]; try discriminate. rewrite !andb_true_iff, !Z.eqb_eq. intros [[H1 H2] H3].
    exists s'. split; [reflexivity|split; [exact H1|split; [|apply eff_bodyb_sound; exact H3]]].
    destruct (code_at p (pc s + (ex - 10) + 1)) as [v|]; [|discriminate]. apply Z.eqb_eq in H2. subst v. reflexivity.
  - destruct o as [s'| | |]; try discriminate. cbv zeta. rewrite !andb_true_iff, !Z.eqb_eq. intros [[H1 H2] H3].
    exists s', (if mode s' =? Back2Bit then - pc s' else pc s').
    split; [reflexivity|split; [exact H1|split; [exact H2|apply eff_bodyb_sound; exact H3]]].
  - destruct o as [|s'| |]; try discriminate. rewrite !andb_true_iff, !Z.eqb_eq. intros [H1 H3].
    exists s'. split; [reflexivity|split; [exact H1|apply eff_bodyb_sound; exact H3]].
  - discriminate.
Qed.

End Real.

(* candidate states: the code word of case code c at position 0 with operands (a, b), followed by Stop words;
   a small family of operands, text positions and stack contents, enough to drive every path of every case *)
Definition eff_env : env :=
  {| txt := [97; 98]; tstart := 0; ecma := false; endz_strict := false; set_in := fun _ x => x =? 97;
     lower := fun x => x; is_word := fun x => x =? 97; is_eword := fun x => x =? 97 |}.
Definition eff_prog (c a b : Z) : program :=
  {| codes := [Z.land c 63; a; b; Stop; Stop; Stop; Stop; Stop]; strings := [[97]]; trackcount := 1; capsize := 2 |}.
Definition eff_state (c t : Z) (T S C : list Z) (M : list (list Z)) : vm :=
  {| pc := 0; mode := (if c <? 128 then 0 else if c <? 256 then BackBit else Back2Bit); tp := t;
     track := T; tcap := 64; stack := S; scap := 64; crawl := C; mcaps := M |}.

Definition eff_cand_operands : list (Z * Z) := [(3, 1); (97, 1); (0, -1); (0, 1); (1, 1)].
Definition eff_cand_tp : list Z := [0; 1; 2; 3].
Definition eff_cand_track : list (list Z) :=
  [[2; 2; 2; 2; 2; 2]; [0; 0; 2; 2; 2; 2]; [0; 1; 2; 2; 2; 2]; [1; 0; 0; 2; 2; 2]; [1; 1; 2; 2; 2; 2]].
Definition eff_cand_stack : list (list Z) := [[0; 0; 0]; [1; 1; 1]; [-1; 0; 0]; [0; 6; 0]; [2; 2; 2]].
Definition eff_cand_caps : list (list Z * list (list Z)) :=
  [([], [[]; []]); ([0; 0], [[0; 1; 0; 1]; [0; 1]]); ([], [[]; [0; 1]])].

Definition eff_realised (c : Z) (pt : eff_path) : bool :=
  existsb (fun ab => existsb (fun t => existsb (fun T => existsb (fun S => existsb (fun CM =>
    let pr := eff_prog c (fst ab) (snd ab) in
    let s := eff_state c t T S (fst CM) (snd CM) in
    (eff_case_code (Z.land c 63) (mode s) =? c) &&
    match step eff_env pr (-1) s with
    | Ok o => eff_path_okb pr pt s o
    | _ => false
    end) eff_cand_caps) eff_cand_stack) eff_cand_track) eff_cand_tp) eff_cand_operands.

Lemma eff_all_paths_realised :
  forallb (fun kv => (fst kv =? -1) || forallb (eff_realised (fst kv)) (snd kv)) G_effects_x = true.
Proof. vm_compute. reflexivity. Qed.

(* every path of every case of the table is the path VM.step takes from some state: the table has no path the
   model lacks (a source edit that ADDS a way through a case body is reported, not only one that changes a way) *)
Theorem vm_table_paths_are_model_paths c pts pt :
  In (c, pts) G_effects_x -> c <> -1 -> In pt pts ->
  exists e p s w o, code_at p (pc s) = Some w /\ eff_case_code w (mode s) = c /\
                    step e p (-1) s = Ok o /\ eff_path_ok p pt s o.
Proof.
  intros Hc Hn Hpt. pose proof eff_all_paths_realised as H. rewrite forallb_forall in H.
  specialize (H _ Hc). cbn [fst snd] in H. apply orb_true_iff in H. destruct H as [H|H]; [lia|].
  rewrite forallb_forall in H. specialize (H _ Hpt). unfold eff_realised in H.
  apply existsb_exists in H. destruct H as (ab & _ & H).
  apply existsb_exists in H. destruct H as (t & _ & H).
  apply existsb_exists in H. destruct H as (T & _ & H).
  apply existsb_exists in H. destruct H as (S & _ & H).
  apply existsb_exists in H. destruct H as (CM & _ & H).
  cbv zeta in H. apply andb_true_iff in H. destruct H as [H1 H2]. apply Z.eqb_eq in H1.
  destruct (step eff_env (eff_prog c (fst ab) (snd ab)) (-1) (eff_state c t T S (fst CM) (snd CM))) as [o| | |] eqn:E;
    try discriminate.
  exists eff_env, (eff_prog c (fst ab) (snd ab)), (eff_state c t T S (fst CM) (snd CM)), (Z.land c 63), o.
  split; [reflexivity|]. split; [exact H1|]. split; [exact E|]. apply eff_path_okb_sound. exact H2.
Qed.

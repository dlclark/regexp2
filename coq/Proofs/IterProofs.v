(* Proofs about Model/Iter.v: C07 (ordering, bound, fresh search, find-all as filtered iteration)
   and C06 (adapter iteration = Go's allMatches around any single-match function). *)
From Verif Require Import Base.Prelude Model.Iter.
From Coq Require Import ZifyBool.

Ltac inv H := inversion H; subst; clear H.

(* n<0: everything; otherwise the first n *)
Definition takeZ {A} (n : Z) (l : list A) : list A :=
  if n <? 0 then l else firstn (Z.to_nat n) l.

Lemma takeZ_nil {A} n : @takeZ A n [] = [].
Proof. unfold takeZ. destruct (n <? 0); [reflexivity | apply firstn_nil]. Qed.

Lemma takeZ_0 {A} (l : list A) : takeZ 0 l = [].
Proof. reflexivity. Qed.

Lemma takeZ_cons {A} n (x : A) l : n <> 0 ->
  takeZ n (x :: l) = x :: takeZ (if n >? 0 then n - 1 else n) l.
Proof.
  intros Hn. unfold takeZ.
  destruct (n <? 0) eqn:E.
  - assert (n >? 0 = false) as -> by lia. rewrite E. reflexivity.
  - assert (n >? 0 = true) as -> by lia. assert (n - 1 <? 0 = false) as -> by lia.
    replace (Z.to_nat n) with (S (Z.to_nat (n - 1))) by lia. reflexivity.
Qed.

Lemma takeZ_all {A} n (l : list A) : Z.of_nat (length l) <= n -> takeZ n l = l.
Proof.
  intros H. unfold takeZ. destruct (n <? 0); [reflexivity |].
  apply firstn_all2. lia.
Qed.

Lemma takeZ_length {A} n (l : list A) : (length (takeZ n l) <= length l)%nat.
Proof. unfold takeZ. destruct (n <? 0); [lia | rewrite firstn_length; lia]. Qed.

Section IterProofs.
  Variable rtl : bool.
  Variable len : Z.
  Variable attempt : Z -> Z -> option mt.
  Hypothesis Hlen : 0 <= len.

  Notation stoppos := (stoppos rtl len).
  Notation bump := (bump rtl).
  Notation scan_loop := (scan_loop rtl len attempt).
  Notation scan := (scan rtl len attempt).
  Notation run := (re_run rtl len attempt).
  Notation find_next_match := (find_next_match rtl len attempt).
  Notation find_runes_match_starting_at := (find_runes_match_starting_at rtl len attempt).
  Notation search_from := (search_from rtl len attempt).
  Notation iterate_from := (iterate_from rtl len attempt).
  Notation iteration := (iteration rtl len attempt).
  Notation dflt := (dflt_fuel len).

  (* the edge of a match at which its attempt began: RuneIndex left-to-right, the END right-to-left *)
  Definition m_start (m : mt) : Z := if rtl then m_index m + m_length m else m_index m.

  (* shape of a match produced by an attempt at position p *)
  Definition shaped (p : Z) (m : mt) : Prop :=
    0 <= m_length m /\ 0 <= m_textpos m <= len /\
    if rtl then m_index m + m_length m = p /\ m_textpos m = m_index m
    else m_index m = p /\ m_textpos m = m_index m + m_length m.

  (* the hypothesis on the matcher: an attempt at an in-range position returns a match that
     begins there and extends in scan direction, inside the text *)
  Definition forward : Prop :=
    forall ts p m, 0 <= p <= len -> attempt ts p = Some m -> shaped p m.

  Definition wfm (m : mt) : Prop := 0 <= m_start m <= len /\ shaped (m_start m) m.

  Hypothesis Hfw : forward.

  Lemma shaped_wfm p m : 0 <= p <= len -> shaped p m -> wfm m.
  Proof.
    unfold wfm, shaped, m_start. intros Hp (Hl & Ht & Hd). destruct rtl.
    - destruct Hd as [H1 H2]. rewrite H1. repeat split; lia.
    - destruct Hd as [H1 H2]. rewrite H1. repeat split; lia.
  Qed.

  Lemma shaped_start p m : shaped p m -> m_start m = p.
  Proof. unfold shaped, m_start. destruct rtl; intuition lia. Qed.

  (* distance from pos to stoppos, in scan steps *)
  Definition dist (pos : Z) : nat := Z.to_nat (if rtl then pos else len - pos).

  (* pure form of the scan loop: first successful attempt among pos, pos+bump, ... (k+1 positions) *)
  Fixpoint first_hit (k : nat) (ts pos : Z) : option mt :=
    match attempt ts pos with
    | Some m => Some m
    | None => match k with O => None | S k' => first_hit k' ts (pos + bump) end
    end.

  Lemma scan_loop_ok : forall fuel ts pos, 0 <= pos <= len -> (dist pos < fuel)%nat ->
    scan_loop fuel ts pos = Ok (first_hit (dist pos) ts pos).
  Proof.
    induction fuel as [|f IH]; intros ts pos Hp Hf; [lia|].
    cbn [Iter.scan_loop].
    destruct (dist pos) as [|k] eqn:Ed.
    - cbn [first_hit]. destruct (attempt ts pos); [reflexivity|].
      assert (pos =? stoppos = true) as ->; [|reflexivity].
      unfold dist, Iter.stoppos in *. destruct rtl; lia.
    - cbn [first_hit]. destruct (attempt ts pos); [reflexivity|].
      assert (pos =? stoppos = false) as ->.
      { unfold dist, Iter.stoppos in *. destruct rtl; lia. }
      assert (dist (pos + bump) = k) as Hk.
      { unfold dist, Iter.bump in *. destruct rtl; lia. }
      rewrite IH.
      + rewrite Hk. reflexivity.
      + unfold dist, Iter.bump in *. destruct rtl; lia.
      + lia.
  Qed.

  Lemma first_hit_some : forall k ts pos m, first_hit k ts pos = Some m ->
    exists j, (j <= k)%nat /\ attempt ts (pos + bump * Z.of_nat j) = Some m /\
              forall i, (i < j)%nat -> attempt ts (pos + bump * Z.of_nat i) = None.
  Proof.
    induction k as [|k IH]; intros ts pos m H; cbn [first_hit] in H.
    - destruct (attempt ts pos) eqn:E; [|discriminate]. inv H.
      exists O. replace (pos + bump * Z.of_nat 0) with pos by lia. repeat split; [lia | assumption | intros; lia].
    - destruct (attempt ts pos) eqn:E.
      + inv H. exists O. replace (pos + bump * Z.of_nat 0) with pos by lia. repeat split; [lia | assumption | intros; lia].
      + apply IH in H. destruct H as (j & Hj & Ha & Hn). exists (S j). repeat split.
        * lia.
        * replace (pos + bump * Z.of_nat (S j)) with (pos + bump + bump * Z.of_nat j) by lia. exact Ha.
        * intros i Hi. destruct i as [|i].
          -- replace (pos + bump * Z.of_nat 0) with pos by lia. exact E.
          -- replace (pos + bump * Z.of_nat (S i)) with (pos + bump + bump * Z.of_nat i) by lia. apply Hn. lia.
  Qed.

  Lemma first_hit_none : forall k ts pos, first_hit k ts pos = None ->
    forall i, (i <= k)%nat -> attempt ts (pos + bump * Z.of_nat i) = None.
  Proof.
    induction k as [|k IH]; intros ts pos H i Hi; cbn [first_hit] in H.
    - destruct (attempt ts pos) eqn:E; [discriminate|]. assert (i = O) by lia. subst.
      replace (pos + bump * Z.of_nat 0) with pos by lia. exact E.
    - destruct (attempt ts pos) eqn:E; [discriminate|]. destruct i as [|i].
      + replace (pos + bump * Z.of_nat 0) with pos by lia. exact E.
      + replace (pos + bump * Z.of_nat (S i)) with (pos + bump + bump * Z.of_nat i) by lia. apply IH; [exact H | lia].
  Qed.

  (* a hit of the scan from pos is a well-formed match whose start edge lies at or beyond pos *)
  Lemma first_hit_wf : forall ts pos m, 0 <= pos <= len -> first_hit (dist pos) ts pos = Some m ->
    wfm m /\ 0 <= bump * (m_start m - pos).
  Proof.
    intros ts pos m Hp H. apply first_hit_some in H. destruct H as (j & Hj & Ha & _).
    assert (0 <= pos + bump * Z.of_nat j <= len) as Hr.
    { unfold dist, Iter.bump in *. destruct rtl; lia. }
    pose proof (Hfw _ _ _ Hr Ha) as Hs. split.
    - eapply shaped_wfm; eauto.
    - rewrite (shaped_start _ _ Hs). unfold Iter.bump. destruct rtl; lia.
  Qed.

  (* pure form of scan / FindNextMatch *)
  Definition scan_p (ts prevlen : Z) : option mt :=
    if prevlen =? 0 then
      if ts =? stoppos then None else first_hit (dist (ts + bump)) ts (ts + bump)
    else first_hit (dist ts) ts ts.
  Definition next_p (m : mt) : option mt := scan_p (m_textpos m) (m_length m).

  Lemma dflt_gt pos : 0 <= pos <= len -> (dist pos < dflt)%nat.
  Proof. unfold dist, dflt_fuel. destruct rtl; lia. Qed.

  Lemma scan_ok ts prevlen : 0 <= ts <= len -> scan dflt ts prevlen = Ok (scan_p ts prevlen).
  Proof.
    intros Ht. unfold Iter.scan, scan_p. destruct (prevlen =? 0).
    - destruct (ts =? stoppos) eqn:E; [reflexivity|].
      assert (0 <= ts + bump <= len) as Hr. { unfold Iter.stoppos, Iter.bump in *. destruct rtl; lia. }
      apply scan_loop_ok; [exact Hr | apply dflt_gt; exact Hr].
    - apply scan_loop_ok; [exact Ht | apply dflt_gt; exact Ht].
  Qed.

  Lemma run_ok ts prevlen : 0 <= ts <= len -> run dflt ts prevlen = Ok (scan_p ts prevlen).
  Proof. intros Ht. unfold Iter.re_run. assert (ts <? 0 = false) as -> by lia. apply scan_ok; exact Ht. Qed.

  Lemma wfm_textpos m : wfm m -> 0 <= m_textpos m <= len.
  Proof. unfold wfm, shaped. intuition. Qed.

  Lemma find_next_ok m : wfm m -> find_next_match dflt m = Ok (next_p m).
  Proof. intros H. apply run_ok. apply wfm_textpos; exact H. Qed.

  Lemma scan_p_wf ts prevlen m' : 0 <= ts <= len -> scan_p ts prevlen = Some m' ->
    wfm m' /\ (if prevlen =? 0 then 1 else 0) <= bump * (m_start m' - ts).
  Proof.
    intros Ht. unfold scan_p. destruct (prevlen =? 0).
    - destruct (ts =? stoppos) eqn:E; [discriminate|]. intros H.
      assert (0 <= ts + bump <= len) as Hr. { unfold Iter.stoppos, Iter.bump in *. destruct rtl; lia. }
      apply first_hit_wf in H; [|exact Hr]. destruct H as [Hw Hd]. split; [exact Hw|].
      unfold Iter.bump in *. destruct rtl; lia.
    - intros H. apply first_hit_wf in H; [|exact Ht]. exact H.
  Qed.

  (* ---------------- C07: next_advances ---------------- *)

  Lemma wfm_edge m : wfm m -> m_textpos m = m_start m + bump * m_length m /\ 0 <= m_length m.
  Proof. unfold wfm, shaped, m_start, Iter.bump. destruct rtl; intuition lia. Qed.

  Lemma next_advances_gen m m' : wfm m -> next_p m = Some m' ->
    wfm m' /\
    0 <= bump * (m_start m' - m_textpos m) /\          (* begins at or beyond the previous advancing edge: no overlap *)
    0 < bump * (m_start m' - m_start m) /\             (* start edges strictly advance *)
    (m_length m = 0 -> 1 <= bump * (m_start m' - m_start m)).
  Proof.
    intros Hw Hn. unfold next_p in Hn.
    pose proof (wfm_textpos _ Hw) as Ht.
    apply scan_p_wf in Hn; [|exact Ht]. destruct Hn as [Hw' Hd].
    destruct (wfm_edge _ Hw) as [He Hl].
    split; [exact Hw'|].
    unfold Iter.bump in *. destruct rtl; destruct (m_length m =? 0) eqn:E; repeat split; intros; lia.
  Qed.

  (* remaining distance of the start edge to the far end: the termination measure *)
  Definition remaining (m : mt) : nat := dist (m_start m).

  Lemma next_remaining m m' : wfm m -> next_p m = Some m' -> (remaining m' < remaining m)%nat.
  Proof.
    intros Hw Hn. destruct (next_advances_gen _ _ Hw Hn) as (Hw' & _ & Hs & _).
    destruct Hw as [Hr _]. destruct Hw' as [Hr' _].
    unfold remaining, dist, Iter.bump in *. destruct rtl; lia.
  Qed.

  Inductive match_chain : option mt -> list mt -> Prop :=
  | match_chain_nil : match_chain None []
  | match_chain_cons m ms : wfm m -> match_chain (next_p m) ms -> match_chain (Some m) (m :: ms).

  Lemma iterate_chain : forall fuel cur,
    (match cur with None => True | Some m => wfm m /\ (remaining m < fuel)%nat end) ->
    exists ms, iterate_from fuel dflt cur = Ok ms /\ match_chain cur ms /\
               (length ms <= match cur with None => 0 | Some m => S (remaining m) end)%nat.
  Proof.
    induction fuel as [|f IH]; intros cur Hc.
    - destruct cur as [m|]; [lia|]. exists []. cbn. repeat split; [constructor | lia].
    - destruct cur as [m|].
      + destruct Hc as [Hw Hr]. cbn [Iter.iterate_from]. rewrite (find_next_ok _ Hw). cbn [bind].
        destruct (IH (next_p m)) as (ms & Hi & Hch & Hl).
        { destruct (next_p m) as [m'|] eqn:En; [|exact I].
          pose proof (next_advances_gen _ _ Hw En) as (Hw' & _).
          pose proof (next_remaining _ _ Hw En). split; [exact Hw' | lia]. }
        exists (m :: ms). rewrite Hi. cbn [bind]. repeat split.
        * constructor; assumption.
        * cbn [length]. destruct (next_p m) as [m'|] eqn:En.
          -- pose proof (next_remaining _ _ Hw En). lia.
          -- lia.
      + exists []. cbn. repeat split; [constructor | lia].
  Qed.

  Lemma remaining_le m : wfm m -> (remaining m <= Z.to_nat len)%nat.
  Proof. intros [Hr _]. unfold remaining, dist. destruct rtl; lia. Qed.

  (* with fuel len+2 the iteration from any in-range start completes, and has at most len+1
     elements (the bound of C07_iteration_bound_and_order) *)
  Lemma iteration_ok startAt : 0 <= startAt <= len ->
    exists ms, iteration dflt dflt startAt = Ok ms /\ match_chain (scan_p startAt (-1)) ms /\
               (length ms <= S (Z.to_nat len))%nat.
  Proof.
    intros Hs. unfold Iter.iteration, Iter.find_runes_match_starting_at.
    rewrite (run_ok _ _ Hs). cbn [bind].
    destruct (iterate_chain dflt (scan_p startAt (-1))) as (ms & Hi & Hc & Hl).
    { destruct (scan_p startAt (-1)) as [m|] eqn:E; [|exact I].
      apply scan_p_wf in E; [|exact Hs]. destruct E as [Hw _]. split; [exact Hw|].
      pose proof (remaining_le _ Hw). unfold dflt_fuel. lia. }
    exists ms. repeat split; [exact Hi | exact Hc |].
    destruct (scan_p startAt (-1)) as [m|] eqn:E; [|lia].
    apply scan_p_wf in E; [|exact Hs]. destruct E as [Hw _]. pose proof (remaining_le _ Hw). lia.
  Qed.

  Inductive consecutive : list mt -> mt -> mt -> Prop :=
  | consec_here a b l : consecutive (a :: b :: l) a b
  | consec_later x l a b : consecutive l a b -> consecutive (x :: l) a b.

  Lemma chain_consecutive : forall ms cur a b, match_chain cur ms -> consecutive ms a b -> wfm a /\ next_p a = Some b.
  Proof.
    induction ms as [|x ms IH]; intros cur a b Hc Hq; [inv Hq|].
    inv Hc. inv Hq.
    - match goal with H : match_chain (next_p a) (b :: _) |- _ => inv H end. split; [assumption | congruence].
    - eapply IH; eauto.
  Qed.

  Lemma chain_wf : forall ms cur, match_chain cur ms -> Forall wfm ms.
  Proof. induction ms; intros cur H; inv H; constructor; eauto. Qed.

  (* ---------------- C07: next_is_fresh_search ---------------- *)

  Lemma next_is_fresh fuel m : 0 <= m_textpos m ->
    find_next_match fuel m =
      if m_length m =? 0 then
        if m_textpos m =? stoppos then Ok None
        else search_from fuel (m_textpos m) (m_textpos m + bump)
      else search_from fuel (m_textpos m) (m_textpos m).
  Proof.
    intros H. unfold Iter.find_next_match, Iter.re_run, Iter.scan, Iter.search_from.
    assert (m_textpos m <? 0 = false) as -> by lia. reflexivity.
  Qed.

  Definition no_G : Prop := forall ts ts' p, attempt ts p = attempt ts' p.

  Lemma scan_loop_noG : no_G -> forall fuel ts ts' pos, scan_loop fuel ts pos = scan_loop fuel ts' pos.
  Proof.
    intros HG. induction fuel as [|f IH]; intros ts ts' pos; [reflexivity|].
    cbn [Iter.scan_loop]. rewrite (HG ts ts' pos). destruct (attempt ts' pos); [reflexivity|].
    destruct (pos =? stoppos); [reflexivity | apply IH].
  Qed.

  Lemma search_from_noG : no_G -> forall fuel ts pos, 0 <= pos ->
    search_from fuel ts pos = find_runes_match_starting_at fuel pos.
  Proof.
    intros HG fuel ts pos Hp. unfold Iter.search_from, Iter.find_runes_match_starting_at, Iter.re_run, Iter.scan.
    assert (pos <? 0 = false) as -> by lia. cbn. apply scan_loop_noG; exact HG.
  Qed.

  (* ---------------- the find-all loops as functions of the iteration list ---------------- *)

  Definition accept (m : mt) (prevEnd : Z) : bool :=
    negb (m_length m =? 0) || negb (m_index m =? prevEnd).

  (* walk the iteration: accepted matches, at most n of them when n>0; [edge] = what prevEnd becomes *)
  Fixpoint acc_list (edge : mt -> Z) (ms : list mt) (prevEnd n : Z) : list mt :=
    if n =? 0 then [] else
    match ms with
    | [] => []
    | m :: ms' =>
      if accept m prevEnd then m :: acc_list edge ms' (edge m) (if n >? 0 then n - 1 else n)
      else acc_list edge ms' prevEnd n
    end.

  Lemma acc_list_0 edge ms pe : acc_list edge ms pe 0 = [].
  Proof. destruct ms; reflexivity. Qed.

  Notation find_all_loop := (find_all_loop rtl len attempt).

  Lemma find_all_loop_chain : forall ms fuel startAt prevlen pe n,
    0 <= startAt <= len ->
    match_chain (scan_p startAt prevlen) ms ->
    (length ms < fuel)%nat ->
    find_all_loop fuel dflt startAt prevlen pe n = Ok (acc_list m_textpos ms pe n).
  Proof.
    induction ms as [|m ms IH]; intros fuel startAt prevlen pe n Hs Hc Hf.
    - destruct fuel as [|f]; [cbn in Hf; lia|]. cbn [Iter.find_all_loop acc_list].
      destruct (n =? 0); [reflexivity|]. rewrite (scan_ok _ _ Hs). cbn [bind].
      remember (scan_p startAt prevlen) as cur eqn:Ec. inv Hc. reflexivity.
    - destruct fuel as [|f]; [cbn in Hf; lia|]. cbn [Iter.find_all_loop acc_list].
      destruct (n =? 0); [reflexivity|]. rewrite (scan_ok _ _ Hs). cbn [bind].
      remember (scan_p startAt prevlen) as cur eqn:Ec. inv Hc.
      match goal with Hw : wfm m |- _ => pose proof (wfm_textpos _ Hw) as Ht end.
      fold (accept m pe). destruct (accept m pe).
      + rewrite (IH f (m_textpos m) (m_length m)); [reflexivity | exact Ht | assumption | cbn in Hf; lia].
      + apply IH; [exact Ht | assumption | cbn in Hf; lia].
  Qed.

  (* adjacency of an empty match to its predecessor in the iteration: it sits on the predecessor's advancing edge *)
  Definition adj_empty (prev : option mt) (m : mt) : bool :=
    match prev with
    | None => false
    | Some p => (m_length m =? 0) && (m_index m =? m_textpos p)
    end.

  Fixpoint filter_adj (prev : option mt) (ms : list mt) : list mt :=
    match ms with
    | [] => []
    | m :: ms' => if adj_empty prev m then filter_adj (Some m) ms' else m :: filter_adj (Some m) ms'
    end.

  Lemma wfm_empty m : wfm m -> m_length m = 0 -> m_textpos m = m_index m.
  Proof. unfold wfm, shaped. destruct rtl; intuition lia. Qed.
  Lemma wfm_index m : wfm m -> 0 <= m_index m.
  Proof. unfold wfm, shaped, m_start. destruct rtl; intuition lia. Qed.

  Lemma acc_list_filter : forall ms prev pe n,
    Forall wfm ms ->
    (forall m, hd_error ms = Some m -> m_length m = 0 -> (m_index m =? pe) = adj_empty prev m) ->
    acc_list m_textpos ms pe n = takeZ n (filter_adj prev ms).
  Proof.
    induction ms as [|m ms IH]; intros prev pe n Hw Hinv.
    - cbn [acc_list filter_adj]. rewrite takeZ_nil. destruct (n =? 0); reflexivity.
    - inv Hw. cbn [acc_list filter_adj].
      destruct (n =? 0) eqn:En.
      { assert (n = 0) by lia. subst. rewrite takeZ_0. reflexivity. }
      assert (accept m pe = negb (adj_empty prev m)) as Hacc.
      { unfold accept. destruct (m_length m =? 0) eqn:El.
        - rewrite (Hinv m eq_refl) by lia. reflexivity.
        - cbn. unfold adj_empty. destruct prev; [rewrite El|]; reflexivity. }
      rewrite Hacc. destruct (adj_empty prev m) eqn:Ea; cbn [negb].
      + (* skipped: empty, so textpos = index = pe *)
        apply IH; [assumption|]. intros m2 Hh Hl2.
        assert (m_length m = 0 /\ m_index m = pe) as [Hl0 Hip].
        { unfold adj_empty in Ea. destruct prev; [|discriminate].
          assert (m_length m = 0) by lia. split; [assumption|].
          specialize (Hinv m eq_refl H). unfold adj_empty in Hinv. rewrite Ea in Hinv. cbn in Hinv. lia. }
        unfold adj_empty. rewrite (wfm_empty _ H1 Hl0). assert (m_length m2 =? 0 = true) as -> by lia. cbn. rewrite Hip. reflexivity.
      + rewrite takeZ_cons by lia. f_equal.
        apply IH; [assumption|]. intros m2 Hh Hl2. unfold adj_empty. assert (m_length m2 =? 0 = true) as -> by lia. reflexivity.
  Qed.

  Lemma acc_list_filter_top ms n : Forall wfm ms ->
    acc_list m_textpos ms (-1) n = takeZ n (filter_adj None ms).
  Proof.
    intros Hw. apply acc_list_filter; [exact Hw|].
    intros m Hh _. destruct ms as [|x ms]; inv Hh. inv Hw. cbn. pose proof (wfm_index _ H1). lia.
  Qed.

  (* find_all_is_filtered_iteration *)
  Lemma find_all_runes_index_ok n :
    exists ms, iteration dflt dflt (if rtl then len else 0) = Ok ms /\
      find_all_runes_index rtl len attempt dflt dflt n =
        Ok (if n =? 0 then None
            else slice_of_list (map (fun m => (m_index m, m_index m + m_length m)) (takeZ n (filter_adj None ms)))).
  Proof.
    assert (0 <= (if rtl then len else 0) <= len) as Hs by (destruct rtl; lia).
    destruct (iteration_ok _ Hs) as (ms & Hi & Hc & Hl).
    exists ms. split; [exact Hi|].
    unfold Iter.find_all_runes_index. destruct (n =? 0); [reflexivity|].
    unfold Iter.find_all_runes_index_from.
    rewrite (find_all_loop_chain ms); [| exact Hs | exact Hc | unfold dflt_fuel; lia ].
    cbn [bind]. rewrite acc_list_filter_top by (eapply chain_wf; eauto). reflexivity.
  Qed.

  (* the same for the makeIndex-parametrised loop used by FindAllStringIndex, from any start *)
  Lemma find_all_from_ok mk startAt n : 0 <= startAt <= len ->
    exists ms, iteration dflt dflt startAt = Ok ms /\
      find_all_runes_index_from rtl len attempt dflt dflt mk startAt n =
        Ok (slice_of_list (map (fun m => mk (m_index m) (m_length m)) (takeZ n (filter_adj None ms)))).
  Proof.
    intros Hs. destruct (iteration_ok _ Hs) as (ms & Hi & Hc & Hl).
    exists ms. split; [exact Hi|].
    unfold Iter.find_all_runes_index_from.
    rewrite (find_all_loop_chain ms); [| exact Hs | exact Hc | unfold dflt_fuel; lia ].
    cbn [bind]. rewrite acc_list_filter_top by (eapply chain_wf; eauto). reflexivity.
  Qed.

  (* every match of the iteration is the result of some in-range attempt *)
  Definition attempted (m : mt) : Prop := exists ts p, 0 <= p <= len /\ attempt ts p = Some m.

  Lemma first_hit_attempted ts pos m : 0 <= pos <= len -> first_hit (dist pos) ts pos = Some m -> attempted m.
  Proof.
    intros Hp H. apply first_hit_some in H. destruct H as (j & Hj & Ha & _).
    exists ts, (pos + bump * Z.of_nat j). split; [|exact Ha].
    unfold dist, Iter.bump in *. destruct rtl; lia.
  Qed.

  Lemma scan_p_attempted ts prevlen m : 0 <= ts <= len -> scan_p ts prevlen = Some m -> attempted m.
  Proof.
    intros Ht. unfold scan_p. destruct (prevlen =? 0).
    - destruct (ts =? stoppos) eqn:E; [discriminate|]. apply first_hit_attempted.
      unfold Iter.stoppos, Iter.bump in *. destruct rtl; lia.
    - apply first_hit_attempted. exact Ht.
  Qed.

  Lemma chain_attempted : forall ms cur, match_chain cur ms ->
    (forall m, cur = Some m -> attempted m) -> Forall attempted ms.
  Proof.
    induction ms as [|x ms IH]; intros cur Hc Hcur; [constructor|].
    inv Hc. constructor; [apply Hcur; reflexivity|].
    eapply IH; [eassumption|]. intros m' Hm'. eapply scan_p_attempted; [|exact Hm'].
    apply wfm_textpos. assumption.
  Qed.

  Lemma first_hit_noG : no_G -> forall k ts ts' pos, first_hit k ts pos = first_hit k ts' pos.
  Proof.
    intros HG. induction k as [|k IH]; intros ts ts' pos; cbn [first_hit]; rewrite (HG ts ts' pos).
    - reflexivity.
    - destruct (attempt ts' pos); [reflexivity | apply IH].
  Qed.

  Lemma acc_list_big edge : forall ms pe n, Z.of_nat (length ms) <= n ->
    acc_list edge ms pe n = acc_list edge ms pe (-1).
  Proof.
    induction ms as [|m ms IH]; intros pe n Hn.
    - cbn [acc_list]. destruct (n =? 0); reflexivity.
    - cbn [length] in Hn. cbn [acc_list].
      assert (n =? 0 = false) as -> by lia. assert (-1 =? 0 = false) as -> by lia.
      assert (n >? 0 = true) as -> by lia. assert (-1 >? 0 = false) as -> by lia.
      destruct (accept m pe).
      + f_equal. apply IH. lia.
      + apply IH. lia.
  Qed.

  Lemma acc_list_ext e1 e2 : forall ms pe n, Forall (fun m => e1 m = e2 m) ms ->
    acc_list e1 ms pe n = acc_list e2 ms pe n.
  Proof.
    induction ms as [|m ms IH]; intros pe n H; [reflexivity|]. inv H.
    cbn [acc_list]. destruct (n =? 0); [reflexivity|]. destruct (accept m pe).
    - f_equal. rewrite H2. apply IH; assumption.
    - apply IH; assumption.
  Qed.

  Lemma acc_list_length edge : forall ms pe n, (length (acc_list edge ms pe n) <= length ms)%nat.
  Proof.
    induction ms as [|m ms IH]; intros pe n; cbn [acc_list].
    - destruct (n =? 0); cbn; lia.
    - destruct (n =? 0); [cbn; lia|]. destruct (accept m pe); cbn [length].
      + specialize (IH (edge m) (if n >? 0 then n - 1 else n)). lia.
      + specialize (IH pe n). lia.
  Qed.

  (* compat's forEachStringMatch walks the same chain *)
  Notation for_each_loop := (for_each_loop rtl len attempt).

  Lemma for_each_loop_chain : forall ms fuel cur pe n,
    match_chain cur ms -> (length ms < fuel)%nat ->
    for_each_loop fuel dflt cur pe n = Ok (acc_list (fun m => m_index m + m_length m) ms pe n).
  Proof.
    induction ms as [|m ms IH]; intros fuel cur pe n Hc Hf.
    - inv Hc. destruct fuel; cbn [Iter.for_each_loop acc_list]; destruct (n =? 0); reflexivity.
    - inv Hc. destruct fuel as [|f]; [cbn in Hf; lia|]. cbn [Iter.for_each_loop acc_list].
      destruct (n =? 0) eqn:En; [reflexivity|].
      fold (accept m pe). destruct (accept m pe).
      + destruct ((n >? 0) && ((if n >? 0 then n - 1 else n) =? 0)) eqn:Eb.
        * assert ((if n >? 0 then n - 1 else n) = 0) as -> by lia. rewrite acc_list_0. reflexivity.
        * rewrite find_next_ok by assumption. cbn [bind].
          rewrite (IH f (next_p m)); [reflexivity | assumption | cbn in Hf; lia].
      + rewrite find_next_ok by assumption. cbn [bind].
        apply IH; [assumption | cbn in Hf; lia].
  Qed.

  Lemma chain_inv_nil cur : match_chain cur [] -> cur = None.
  Proof. intros H. inversion H. reflexivity. Qed.
  Lemma chain_inv_cons cur m ms : match_chain cur (m :: ms) -> cur = Some m /\ wfm m /\ match_chain (next_p m) ms.
  Proof. intros H. inversion H as [|m0 ms0 Hw Hc]; subst. split; [reflexivity|]. split; assumption. Qed.

End IterProofs.

(* direction-specific reading of "b follows a": left-to-right start indexes strictly increase and
   b begins at or after a's end; right-to-left END positions strictly decrease and b ends at or
   before a's start; after an empty match the next match is not the same empty match *)
Definition follows (rtl : bool) (a b : mt) : Prop :=
  (if rtl
   then m_index b + m_length b < m_index a + m_length a /\ m_index b + m_length b <= m_index a
   else m_index a < m_index b /\ m_index a + m_length a <= m_index b)
  /\ (m_length a = 0 -> ~ (m_index b = m_index a /\ m_length b = 0)).


Lemma next_advances_follows :
  forall rtl len attempt, forward rtl len attempt ->
  forall m, wfm rtl len m ->
    find_next_match rtl len attempt (dflt_fuel len) m = Ok (next_p rtl len attempt m) /\
    forall m', next_p rtl len attempt m = Some m' -> wfm rtl len m' /\ follows rtl m m'.
Proof.
  intros rtl len attempt Hfw m Hw. split.
  - apply find_next_ok; exact Hw.
  - intros m' Hn. destruct (next_advances_gen rtl len attempt Hfw m m' Hw Hn) as (Hw' & H1 & H2 & H3).
    split; [exact Hw'|].
    destruct Hw as [_ (Hl & _ & Hd)]. destruct Hw' as [_ (Hl' & _ & Hd')].
    unfold follows, m_start, bump in *. destruct rtl; (split; [lia | intros Hz; specialize (H3 Hz); lia]).
Qed.

Lemma iteration_bound_and_order :
  forall rtl len attempt, forward rtl len attempt ->
  forall start, 0 <= start <= len ->
  exists ms, iteration rtl len attempt (dflt_fuel len) (dflt_fuel len) start = Ok ms /\
             Z.of_nat (length ms) <= len + 1 /\
             Forall (wfm rtl len) ms /\
             forall a b, consecutive ms a b -> follows rtl a b.
Proof.
  intros rtl len attempt Hfw start Hs.
  destruct (iteration_ok rtl len attempt Hfw start Hs) as (ms & Hi & Hc & Hl).
  exists ms. split; [exact Hi|]. split; [lia|]. split; [eapply chain_wf; eauto|].
  intros a b Hab. destruct (chain_consecutive rtl len attempt ms _ a b Hc Hab) as [Hw Hn].
  destruct (next_advances_follows rtl len attempt Hfw a Hw) as [_ H]. apply (H b Hn).
Qed.

(* ---------------- a concrete matcher for the non-vacuity examples: a* on "baaab" ---------------- *)
Definition ex_text : list Z := [98; 97; 97; 97; 98].
Fixpoint count_a (l : list Z) : Z :=
  match l with
  | 97 :: l' => 1 + count_a l'
  | _ => 0
  end.
(* greedy a* anchored at p, scanning right / scanning left *)
Definition ex_ltr (_ p : Z) : option mt :=
  let k := count_a (skipn (Z.to_nat p) ex_text) in Some (MkM p k (p + k) [Some (p, k)]).
Definition ex_rtl (_ p : Z) : option mt :=
  let k := count_a (rev (firstn (Z.to_nat p) ex_text)) in Some (MkM (p - k) k (p - k) [Some (p - k, k)]).

Lemma ex_ltr_forward : forward false 5 ex_ltr.
Proof.
  intros ts p m Hp H.
  assert (p = 0 \/ p = 1 \/ p = 2 \/ p = 3 \/ p = 4 \/ p = 5) as Hc by lia.
  destruct Hc as [->|[->|[->|[->|[->| ->]]]]]; vm_compute in H; inversion H; subst; vm_compute; intuition discriminate.
Qed.
Lemma ex_rtl_forward : forward true 5 ex_rtl.
Proof.
  intros ts p m Hp H.
  assert (p = 0 \/ p = 1 \/ p = 2 \/ p = 3 \/ p = 4 \/ p = 5) as Hc by lia.
  destruct Hc as [->|[->|[->|[->|[->| ->]]]]]; vm_compute in H; inversion H; subst; vm_compute; intuition discriminate.
Qed.


(* the same, without mentioning the pure form of FindNextMatch *)
Lemma next_advances_stmt :
  forall rtl len attempt, forward rtl len attempt ->
  forall m, wfm rtl len m ->
  exists r, find_next_match rtl len attempt (dflt_fuel len) m = Ok r /\
            forall m', r = Some m' -> wfm rtl len m' /\ follows rtl m m'.
Proof.
  intros rtl len attempt Hfw m Hw. destruct (next_advances_follows rtl len attempt Hfw m Hw) as [H1 H2].
  exists (next_p rtl len attempt m). split; assumption.
Qed.

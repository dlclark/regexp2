(* C12, part D: every entry point is a program whose result does not depend on which (legal) runner, buffer or
   cache answer the shared state hands it, and which only ever returns legal objects to the shared state. *)
From Verif Require Import Base.Prelude Model.Pool Proofs.PoolStackProofs Proofs.PoolRunnerProofs Proofs.PoolStateProofs.

Section Sim.
Variable E : env.
Hypothesis WF : env_wf E.

(* [sim p q]: p and q perform the same Gets in the same order, return only legal objects, and end with the same
   value however the Gets are answered (independently on the two sides).  Puts of buffers and cache insertions
   may occur on one side only (they cannot influence a value). *)
Inductive sim {A : Type} : prog A -> prog A -> Prop :=
| sim_ret : forall a, sim (Ret a) (Ret a)
| sim_getr : forall re k1 k2,
    (forall r1 r2, runner_ok (e_cfg E re) r1 -> runner_ok (e_cfg E re) r2 -> sim (k1 r1) (k2 r2)) ->
    sim (GetRunner re k1) (GetRunner re k2)
| sim_putr : forall re r1 r2 k1 k2,
    runner_ok (e_cfg E re) r1 -> runner_ok (e_cfg E re) r2 -> sim k1 k2 ->
    sim (PutRunner re r1 k1) (PutRunner re r2 k2)
| sim_getb : forall bk n m k1 k2,
    (forall b1 b2 p1 p2, n <= b_cap b1 -> n <= b_cap b2 -> sim (k1 b1 p1) (k2 b2 p2)) ->
    sim (GetBuf bk n m k1) (GetBuf bk n m k2)
| sim_putb_l : forall bk b k q, sim k q -> sim (PutBuf bk b k) q
| sim_putb_r : forall bk b p k, sim p k -> sim p (PutBuf bk b k)
| sim_cget : forall re key k1 k2,
    (forall o1 o2, coh E re key o1 -> coh E re key o2 -> sim (k1 o1) (k2 o2)) ->
    sim (CacheGet re key k1) (CacheGet re key k2)
| sim_cadd_l : forall re key d k q, e_parse_repl E re key = Ok d -> sim k q -> sim (CacheAdd re key d k) q
| sim_cadd_r : forall re key d p k, e_parse_repl E re key = Ok d -> sim p k -> sim p (CacheAdd re key d k).

Lemma sim_bind : forall {A B} (p q : prog A) (f g : A -> prog B),
  sim p q -> (forall a, sim (f a) (g a)) -> sim (pbind p f) (pbind q g).
Proof.
  intros A B p q f g H FG. induction H; cbn [pbind]; [apply FG|..]; econstructor; eauto.
Qed.

Lemma fresh_buf_fits : forall n, n <= b_cap {| b_id := O; b_cap := n; b_data := [] |}.
Proof. intros; cbn; lia. Qed.

Lemma sim_ideal : forall {A} (p q : prog A), sim p q -> ideal p = ideal q.
Proof.
  intros A p q H. induction H; cbn [ideal]; auto.
  - apply H0; apply fresh_runner_ok.
  - apply H0; apply fresh_buf_fits.
  - apply H0; exact I.
Qed.

(* whatever the shared state (legal) and whatever the pools answer, a program related to q returns q's value on
   fresh state, and leaves the shared state legal *)
Lemma sim_run_ideal : forall {A} (p q : prog A), sim p q ->
  forall g ch, gstate_ok E g ->
  snd (run_prog E p g ch) = ideal q /\ gstate_ok E (fst (run_prog E p g ch)).
Proof.
  intros A p q H. induction H; intros g ch G; cbn [run_prog ideal].
  - cbn; auto.
  - pose proof (act_get_runner_ok E g re (hd None ch) G) as [G1 R1].
    destruct (act_get_runner g re (hd None ch)) as [g1 r]; cbn [fst snd] in *.
    apply H0; auto. apply fresh_runner_ok.
  - apply IHsim. apply act_put_runner_ok; auto.
  - pose proof (act_get_buf_ok E g bk n m (hd None ch) G) as GB.
    destruct (act_get_buf g bk n m (hd None ch)) as [[g1 b] pooled]. destruct GB as [G1 B1].
    apply H0; auto. apply fresh_buf_fits.
  - apply IHsim. apply act_put_buf_ok; auto.
  - apply IHsim; auto.
  - pose proof (act_cache_get_ok E g re key G) as [G1 C1].
    destruct (act_cache_get g re key) as [g1 o]; cbn [fst snd] in *.
    apply H0; auto. exact I.
  - apply IHsim. apply act_cache_add_ok; auto.
  - apply IHsim; auto.
Qed.

Lemma do_scan_facts : forall re r a r' sr,
  runner_inv (e_cfg E re) r -> do_scan E re r a = (r', sr) ->
  runner_inv (e_cfg E re) r' /\ r_code r' = r_code r /\
  sr = scan_value (e_cfg E re) (e_interp E re) (r_code r) a.
Proof.
  intros re r a r' sr Hinv S. destruct WF as (W1 & W2 & W3). unfold do_scan in S.
  pose proof (scan_facts (e_cfg E re) (e_interp E re) (e_deadline E) r a (W1 re) Hinv) as F.
  pose proof (scan_result (e_cfg E re) (e_interp E re) (e_deadline E) r a (W1 re) (W2 re) Hinv) as V.
  rewrite S in F, V. cbn [fst snd] in *. tauto.
Qed.

(* two runners that no scan can tell apart *)
Definition twin (cfg : re_cfg) (r1 r2 : runner) : Prop :=
  runner_inv cfg r1 /\ runner_inv cfg r2 /\ r_code r1 = r_code r2.

Lemma ok_twin : forall cfg r1 r2, runner_ok cfg r1 -> runner_ok cfg r2 -> twin cfg r1 r2.
Proof. intros cfg r1 r2 (I1 & C1 & _) (I2 & C2 & _). split; [exact I1|]. split; [exact I2|congruence]. Qed.

Lemma switch_twin : forall cfg r1 r2 (c : bool), twin cfg r1 r2 ->
  twin cfg (if c then set_code r1 Quick else r1) (if c then set_code r2 Quick else r2).
Proof.
  intros cfg r1 r2 [] T; [|exact T]. destruct T as (I1 & I2 & _).
  split; [exact (set_code_inv _ _ _ I1)|]. split; [exact (set_code_inv _ _ _ I2)|reflexivity].
Qed.

Lemma twin_stop : forall {B cfg r1 r2} {o : B} {r1' r2' o1 o2},
  twin cfg r1 r2 -> (r1, o) = (r1', o1) -> (r2, o) = (r2', o2) -> o1 = o2 /\ twin cfg r1' r2'.
Proof. intros B cfg r1 r2 o r1' r2' o1 o2 T H1 H2. injection H1 as <- <-. injection H2 as <- <-. auto. Qed.

Lemma do_scan_twin : forall {re r1 r2 a r1' r2' s1 s2},
  twin (e_cfg E re) r1 r2 -> do_scan E re r1 a = (r1', s1) -> do_scan E re r2 a = (r2', s2) ->
  s1 = s2 /\ twin (e_cfg E re) r1' r2'.
Proof.
  intros re r1 r2 a r1' r2' s1 s2 (I1 & I2 & C) S1 S2.
  destruct (do_scan_facts _ _ _ _ _ I1 S1) as (J1 & C1 & V1).
  destruct (do_scan_facts _ _ _ _ _ I2 S2) as (J2 & C2 & V2).
  split; [congruence|]. split; [exact J1|]. split; [exact J2|congruence].
Qed.

(* regexp.go:350-383 *)
Lemma find_all_loop_twin : forall {fuel re r1 r2 text startAt prevlen n prevEnd acc r1' r2' o1 o2},
  twin (e_cfg E re) r1 r2 ->
  find_all_loop E fuel re r1 text startAt prevlen n prevEnd acc = (r1', o1) ->
  find_all_loop E fuel re r2 text startAt prevlen n prevEnd acc = (r2', o2) ->
  o1 = o2 /\ twin (e_cfg E re) r1' r2'.
Proof.
  induction fuel as [|f IH]; intros re r1 r2 text startAt prevlen n prevEnd acc r1' r2' o1 o2 T L1 L2;
    cbn [find_all_loop] in L1, L2; [exact (twin_stop T L1 L2)|].
  destruct (n =? 0); [exact (twin_stop T L1 L2)|].
  destruct (do_scan E re r1 _) as [r1a s1] eqn:S1. destruct (do_scan E re r2 _) as [r2a s2] eqn:S2.
  destruct (do_scan_twin T S1 S2) as [<- T'].
  destruct s1 as [m| | | |]; try exact (twin_stop T' L1 L2).
  destruct (e_fa_emit E prevEnd m); eapply IH; eassumption.
Qed.

(* replace.go:181-202 / 244-267 *)
Lemma replace_loop_twin : forall {fuel re r1 r2 text m count acc r1' r2' ms1 ms2 st1 st2},
  twin (e_cfg E re) r1 r2 ->
  replace_loop E fuel re r1 text m count acc = (r1', ms1, st1) ->
  replace_loop E fuel re r2 text m count acc = (r2', ms2, st2) ->
  ms1 = ms2 /\ st1 = st2 /\ twin (e_cfg E re) r1' r2'.
Proof.
  induction fuel as [|f IH]; intros re r1 r2 text m count acc r1' r2' ms1 ms2 st1 st2 T L1 L2;
    cbn [replace_loop] in L1, L2.
  { injection L1 as <- <- <-. injection L2 as <- <- <-. auto. }
  destruct (count - 1 =? 0).
  { injection L1 as <- <- <-. injection L2 as <- <- <-. auto. }
  destruct (do_scan E re r1 _) as [r1a s1] eqn:S1. destruct (do_scan E re r2 _) as [r2a s2] eqn:S2.
  destruct (do_scan_twin T S1 S2) as [<- T'].
  destruct s1 as [m1| | | |]; try (injection L1 as <- <- <-; injection L2 as <- <- <-; auto).
  eapply IH; eassumption.
Qed.

Lemma sim_put_buf_if : forall {A} p1 p2 bk b1 b2 (k1 k2 : prog A),
  sim k1 k2 -> sim (put_buf_if p1 bk b1 k1) (put_buf_if p2 bk b2 k2).
Proof.
  intros A p1 p2 bk b1 b2 k1 k2 H. unfold put_buf_if.
  destruct p1, p2; auto using sim_putb_l, sim_putb_r.
Qed.

(* putRunner at the end of a call, alone or followed by the Put of the rune buffer *)
Lemma sim_put_twin : forall {A} re r1 r2 (k1 k2 : prog A),
  twin (e_cfg E re) r1 r2 -> sim k1 k2 -> sim (PutRunner re (put_reset r1) k1) (PutRunner re (put_reset r2) k2).
Proof.
  intros A re r1 r2 k1 k2 (I1 & I2 & _) K. apply sim_putr; [apply put_reset_ok, I1|apply put_reset_ok, I2|exact K].
Qed.
Lemma sim_done : forall re r1 r2 p1 p2 b1 b2 (v : result),
  twin (e_cfg E re) r1 r2 ->
  sim (PutRunner re (put_reset r1) (put_buf_if p1 RuneBuf b1 (Ret v)))
      (PutRunner re (put_reset r2) (put_buf_if p2 RuneBuf b2 (Ret v))).
Proof. intros. apply sim_put_twin; [assumption|]. apply sim_put_buf_if, sim_ret. Qed.

(* getRunner, a rune buffer, decodeString: the buffer is long enough and the text is the decoded string,
   whichever runner and buffer the pools hand out *)
Lemma sim_text_head : forall re s (k : runner -> buffer -> bool -> list Z -> prog result),
  (forall r1 r2 b1 b2 p1 p2, runner_ok (e_cfg E re) r1 -> runner_ok (e_cfg E re) r2 ->
     sim (k r1 b1 p1 (e_decode E s)) (k r2 b2 p2 (e_decode E s))) ->
  let p := GetRunner re (fun r => GetBuf RuneBuf (zlen s) (cfg_max_rune (e_cfg E re)) (fun b pooled =>
             match decode_into E b s with
             | None => Ret (Crash CRASH_INDEX)
             | Some (b1, text) => k r b1 pooled text
             end)) in
  sim p p.
Proof.
  intros re s k K. apply sim_getr. intros r1 r2 O1 O2. apply sim_getb. intros b1 b2 p1 p2 B1 B2.
  destruct (decode_into_spec E b1 s WF B1) as (b1' & D1 & _).
  destruct (decode_into_spec E b2 s WF B2) as (b2' & D2 & _).
  rewrite D1, D2. apply K; assumption.
Qed.

(* regexp.go:80-98 *)
Lemma p_run_sim : forall re quick ts prevlen text info,
  sim (p_run E re quick ts prevlen text info) (p_run E re quick ts prevlen text info).
Proof.
  intros. unfold p_run. apply sim_getr. intros r1 r2 O1 O2.
  destruct (do_scan E re (if (_ : bool) then _ else r1) _) as [r1' s1] eqn:S1.
  destruct (do_scan E re (if (_ : bool) then _ else r2) _) as [r2' s2] eqn:S2.
  destruct (do_scan_twin (switch_twin _ _ _ _ (ok_twin _ _ _ O1 O2)) S1 S2) as [<- T].
  apply sim_put_twin; [exact T|apply sim_ret].
Qed.

(* regexp.go:450-482 *)
Lemma p_match_string_at_sim : forall re s startAt,
  sim (p_match_string_at E re s startAt) (p_match_string_at E re s startAt).
Proof.
  intros. unfold p_match_string_at. apply sim_text_head. intros r1 r2 b1 b2 p1 p2 O1 O2.
  destruct (do_scan E re (if (_ : bool) then _ else r1) _) as [r1' s1] eqn:S1.
  destruct (do_scan E re (if (_ : bool) then _ else r2) _) as [r2' s2] eqn:S2.
  destruct (do_scan_twin (switch_twin _ _ _ _ (ok_twin _ _ _ O1 O2)) S1 S2) as [<- T].
  apply sim_done. exact T.
Qed.

Lemma p_match_string_sim : forall re s, sim (p_match_string E re s) (p_match_string E re s).
Proof.
  intros. unfold p_match_string. destruct (e_ms_cand E re s); [apply p_match_string_at_sim|apply sim_ret].
Qed.

Lemma p_find_string_sim : forall re s a v, sim (p_find_string E re s a v) (p_find_string E re s a v).
Proof.
  intros. unfold p_find_string. destruct (e_str_start E re s a v) as [[x|]| | |]; try apply sim_ret. apply p_run_sim.
Qed.

(* regexp.go:282-326 *)
Lemma p_find_all_string_sim : forall fuel re s n,
  sim (p_find_all_string E fuel re s n) (p_find_all_string E fuel re s n).
Proof.
  intros. unfold p_find_all_string. destruct (n =? 0); [apply sim_ret|].
  destruct (e_fa_start E re s) as [[startAt|]| | |]; try apply sim_ret.
  apply sim_text_head. intros r1 r2 b1 b2 p1 p2 O1 O2.
  destruct (find_all_loop E fuel re (if (_ : bool) then _ else r1) _ _ _ _ _ _) as [r1' o1] eqn:L1.
  destruct (find_all_loop E fuel re (if (_ : bool) then _ else r2) _ _ _ _ _ _) as [r2' o2] eqn:L2.
  destruct (find_all_loop_twin (switch_twin _ _ _ _ (ok_twin _ _ _ O1 O2)) L1 L2) as [<- T].
  apply sim_done. exact T.
Qed.

(* regexp.go:330-348 *)
Lemma p_find_all_runes_sim : forall fuel re t n,
  sim (p_find_all_runes E fuel re t n) (p_find_all_runes E fuel re t n).
Proof.
  intros. unfold p_find_all_runes. destruct (n =? 0); [apply sim_ret|].
  apply sim_getr. intros r1 r2 O1 O2.
  destruct (find_all_loop E fuel re (if (_ : bool) then _ else r1) _ _ _ _ _ _) as [r1' o1] eqn:L1.
  destruct (find_all_loop E fuel re (if (_ : bool) then _ else r2) _ _ _ _ _ _) as [r2' o2] eqn:L2.
  destruct (find_all_loop_twin (switch_twin _ _ _ _ (ok_twin _ _ _ O1 O2)) L1 L2) as [<- T].
  apply sim_put_twin; [exact T|apply sim_ret].
Qed.

(* regexp.go:208-224: whether the cache hits, misses, or holds the entry only on one side *)
Lemma p_replacer_data_sim : forall {A} re repl (k : res rdata -> prog A),
  (forall x, sim (k x) (k x)) -> sim (p_replacer_data E re repl k) (p_replacer_data E re repl k).
Proof.
  intros A re repl k K. unfold p_replacer_data. destruct (should_cache (e_cfg E re) repl); [|apply K].
  apply sim_cget. intros o1 o2 C1 C2.
  destruct o1 as [d1|], o2 as [d2|]; cbn in C1, C2.
  - rewrite C1 in C2. inversion C2; subst. apply K.
  - rewrite C1. eapply sim_cadd_r; eauto.
  - rewrite C2. eapply sim_cadd_l; eauto.
  - destruct (e_parse_repl E re repl) eqn:P; try apply K.
    eapply sim_cadd_l; eauto. eapply sim_cadd_r; eauto.
Qed.

(* replace.go:147-276 *)
Lemma p_replace_runner_sim : forall fuel re data s startAt count,
  sim (p_replace_runner E fuel re data s startAt count) (p_replace_runner E fuel re data s startAt count).
Proof.
  intros. unfold p_replace_runner. destruct (zlen s <? startAt); [apply sim_ret|].
  apply sim_text_head. intros r1 r2 b1 b2 p1 p2 O1 O2. pose proof (ok_twin _ _ _ O1 O2) as T.
  destruct ((0 <=? startAt) && (e_rune_start E s startAt <? 0)); [apply sim_done; exact T|].
  destruct (do_scan E re r1 _) as [r1' s1] eqn:S1. destruct (do_scan E re r2 _) as [r2' s2] eqn:S2.
  destruct (do_scan_twin T S1 S2) as [<- T1].
  destruct s1 as [m| | | |]; try (apply sim_done; exact T1).
  apply sim_getb. intros ob1 ob2 op1 op2 _ _.
  destruct (replace_loop E fuel re r1' _ _ _ _) as [[r1'' ms1] st1] eqn:L1.
  destruct (replace_loop E fuel re r2' _ _ _ _) as [[r2'' ms2] st2] eqn:L2.
  destruct (replace_loop_twin T1 L1 L2) as (<- & <- & T2).
  apply sim_put_buf_if, sim_done. exact T2.
Qed.

Lemma sim_refl_res : forall {A B} (x : res A) (f : A -> prog (res B)),
  (forall a, sim (f a) (f a)) ->
  sim (match x with Ok a => f a | Err c => Ret (Err c) | Crash w => Ret (Crash w) | Fuel => Ret Fuel end)
      (match x with Ok a => f a | Err c => Ret (Err c) | Crash w => Ret (Crash w) | Fuel => Ret Fuel end).
Proof. intros A B [a|c|w|] f H; auto using sim_ret. Qed.

Lemma next_loop_replf_sim : forall fuel re text m count acc,
  sim (next_loop_replf E fuel re text m count acc) (next_loop_replf E fuel re text m count acc).
Proof.
  induction fuel as [|f IH]; intros; cbn [next_loop_replf]; [apply sim_ret|].
  destruct (count - 1 =? 0); [apply sim_ret|].
  apply sim_bind; [apply p_run_sim|]. intros [[m1|]|c|w|]; auto using sim_ret.
Qed.

Lemma split_loop_sim : forall fuel re text m count acc,
  sim (split_loop E fuel re text m count acc) (split_loop E fuel re text m count acc).
Proof.
  induction fuel as [|f IH]; intros; cbn [split_loop]; [apply sim_ret|].
  apply sim_bind; [apply p_run_sim|]. intros [[m1|]|c|w|]; auto using sim_ret.
  destruct (0 <? count - 1); auto using sim_ret.
Qed.

(* FindStringMatch, then a loop of FindNextMatch, then the assembly of the output *)
Lemma find_then_loop_sim : forall {A} re s a v (loop : mdata -> prog (res A)) (none : result) (out : A -> result),
  (forall m, sim (loop m) (loop m)) ->
  let p := pbind (p_find_string E re s a v) (fun x =>
             match x with
             | Ok None => Ret none
             | Ok (Some m) =>
               pbind (loop m) (fun y =>
                 match y with
                 | Ok ms => Ret (out ms)
                 | Err c => Ret (Err c) | Crash w => Ret (Crash w) | Fuel => Ret Fuel
                 end)
             | Err c => Ret (Err c) | Crash w => Ret (Crash w) | Fuel => Ret Fuel
             end) in
  sim p p.
Proof.
  intros A re s a v loop none out L. apply sim_bind; [apply p_find_string_sim|]. intros [[m|]|c|w|]; auto using sim_ret.
  apply sim_bind; [apply L|]. intros [ms|c|w|]; auto using sim_ret.
Qed.

Lemma p_replace_tail_sim : forall fuel re data ev s startAt count,
  sim (p_replace_tail E fuel re data ev s startAt count) (p_replace_tail E fuel re data ev s startAt count).
Proof.
  intros. unfold p_replace_tail. destruct (count <? -1); [apply sim_ret|]. destruct (count =? 0); [apply sim_ret|].
  destruct data as [d|]; [apply p_replace_runner_sim|].
  apply find_then_loop_sim. intros m. apply next_loop_replf_sim.
Qed.

Lemma p_replace_sim : forall fuel re s repl a c, sim (p_replace E fuel re s repl a c) (p_replace E fuel re s repl a c).
Proof.
  intros. unfold p_replace. apply p_replacer_data_sim. intros [d|x|w|]; auto using sim_ret, p_replace_tail_sim.
Qed.

Lemma p_split_sim : forall fuel re s count, sim (p_split E fuel re s count) (p_split E fuel re s count).
Proof.
  intros. unfold p_split. destruct (count <? -1); [apply sim_ret|]. destruct (count =? 0); [apply sim_ret|].
  destruct (count =? 1); [apply sim_ret|].
  apply find_then_loop_sim. intros m. apply split_loop_sim.
Qed.

Theorem entry_sim : forall fuel o, sim (entry E fuel o) (entry E fuel o).
Proof.
  intros fuel o. destruct o; cbn [entry].
  - apply p_match_string_sim.
  - apply sim_bind; [apply p_run_sim|intros; apply sim_ret].
  - apply sim_bind; [apply p_find_string_sim|intros; apply sim_ret].
  - apply sim_bind; [apply p_find_string_sim|intros; apply sim_ret].
  - apply sim_bind; [apply p_run_sim|intros; apply sim_ret].
  - apply sim_bind; [apply p_run_sim|intros; apply sim_ret].
  - destruct prev as [[[t pos] len]|]; [|apply sim_ret].
    apply sim_bind; [apply p_run_sim|intros; apply sim_ret].
  - apply p_find_all_string_sim.
  - apply p_find_all_runes_sim.
  - apply p_replace_sim.
  - apply p_replace_tail_sim.
  - apply p_split_sim.
Qed.

End Sim.

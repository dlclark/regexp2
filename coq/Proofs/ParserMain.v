(* Proofs about Model/Parser.v, part 3: the back-slash and group-open scanners, the main loop's state
   invariant, one round of scanRegex. *)
From Coq Require Import ZifyBool.
From Verif Require Import Base.Prelude Gen.ParseLitGen Model.Escape Model.ParseLit Model.GroupMap Model.CharClass
  Model.Parser Proofs.ParseLitProofs Proofs.ParserScan Proofs.ParserTree.

(* what a scanner that builds a node hands back ([badv] below): nothing (scan-only) or a good node *)
Definition node_ok (b : bres) : Prop := match b with BNode x => good x | BNil => True end.

Lemma scan_decimal_nonneg p : forall i v r, 0 <= i -> scan_decimal i p = Ok (v, r) -> 0 <= v.
Proof.
  induction p as [|c p IH]; intros i v r Hi H; cbn [scan_decimal] in H.
  - inversion H. lia.
  - destruct ((c - 48 <? 0) || (9 <? c - 48)) eqn:E; [inversion H; lia|].
    destruct ((214748364 <? i) || ((i =? 214748364) && (7 <? c - 48))); [discriminate|].
    eapply IH; [|exact H]. lia.
Qed.

Lemma decimal_nonneg p v r : decimal p = POk (v, r) -> 0 <= v.
Proof.
  unfold decimal, of_res. destruct (scan_decimal 0 p) as [[v' r']|c|w|] eqn:E; try discriminate.
  intros H. inversion H; subst. eapply scan_decimal_nonneg; [|exact E]. lia.
Qed.

(* scanBlank stops in front of something it would not skip, so running it again changes nothing *)
Lemma blank_head_full x p : forall md c t, blank x md p = POk (c :: t) ->
  x && is_space c = false /\ x && (c =? 35) = false /\ (c =? 40) && starts_qhash t = false.
Proof.
  induction p as [|a p IH]; intros md c t H; cbn [blank] in H.
  - destruct md; discriminate.
  - destruct md.
    + destruct (x && is_space a) eqn:E1; [exact (IH _ _ _ H)|].
      destruct (x && (a =? 35)) eqn:E2; [exact (IH _ _ _ H)|].
      destruct ((a =? 40) && starts_qhash p) eqn:E3; [exact (IH _ _ _ H)|].
      inversion H; subst. auto.
    + destruct (a =? 10) eqn:E10.
      * destruct (is_space 10) eqn:Es; [exact (IH _ _ _ H)|].
        inversion H; subst. assert (c = 10) by lia. subst c. rewrite Es.
        split; [apply andb_false_r | split; [destruct x; reflexivity | reflexivity]].
      * exact (IH _ _ _ H).
    + destruct (a =? 41); exact (IH _ _ _ H).
Qed.

Lemma blank_idem x md p q : blank x md p = POk q -> blank x BNorm q = POk q.
Proof.
  intros H. destruct q as [|c t]; [reflexivity|].
  destruct (blank_head_full x p md c t H) as [H1 [H2 H3]]. cbn [blank]. rewrite H1, H2, H3. reflexivity.
Qed.

Lemma take_run_nil_head o c t : take_run o (c :: t) = ([], c :: t) -> is_stopper o c = true.
Proof. intros H. eapply take_run_stop. exact H. Qed.

Lemma take_run_len o p run p1 : take_run o p = (run, p1) -> length p = (length run + length p1)%nat.
Proof. intros H. apply take_run_app in H. subst. apply app_length. Qed.

Section Main.
Variable is_word_char : Z -> bool.
Variable to_lower : Z -> Z.
Variable simple_fold : Z -> Z.
Variable participates : Z -> bool.
Variable cat_in : Z -> Z -> bool.
Variable cat_name : list Z -> Z.

Local Notation char_escape := (char_escape is_word_char).
Local Notation parse_property := (parse_property is_word_char cat_name).
Local Notation cs_scan := (cs_scan is_word_char cat_name).
Local Notation mk_node_ch := (mk_node_ch simple_fold cat_in).
Local Notation mk_node_set := (mk_node_set simple_fold cat_in).
Local Notation char_code := (char_code is_word_char to_lower simple_fold cat_in).
Local Notation name_or_num := (name_or_num is_word_char to_lower simple_fold cat_in).
Local Notation basic_backslash := (basic_backslash is_word_char to_lower simple_fold cat_in).
Local Notation scan_backslash_full := (scan_backslash_full is_word_char to_lower simple_fold cat_in cat_name).
Local Notation class_node := (class_node to_lower simple_fold cat_in).

(* a scanner returning a [bres]: no fault, moves right, good node; a node whenever scan_only is off *)
Definition badv (r : pr (bres * list Z)) (n : nat) (so : bool) : Prop :=
  match r with
  | POk (b, q) => (length q <= n)%nat /\ node_ok b /\ (so = false -> b <> BNil)
  | PE _ q => (length q <= n)%nat
  | PO => True
  | PC _ | PF => False
  end.

Lemma badv_weaken r n m so : badv r n so -> (n <= m)%nat -> badv r m so.
Proof. destruct r as [[b q]|c q| | |]; cbn; intros; try lia; auto. destruct H as [H1 H2]. split; [lia | exact H2]. Qed.

(* the nodes scanBackslash makes *)
Inductive bs_node (tb : captab) (o : Z) : rnode -> Prop :=
| BN_slot g : ct_slot tb g = true -> bs_node tb o (mk_node_mn T_Ref o g 0)
| BN_name nm g : ct_name tb nm = Some g -> bs_node tb o (mk_node_mn T_Ref o g 0)
| BN_anchor ch : bs_node tb o (mk_node (type_from_code o ch) o)
| BN_one c x : mk_node_ch T_One o c = POk x -> bs_node tb o x
| BN_set s x : mk_node_set T_Set o s = POk x -> bs_node tb o x.

(* no fault, moves right, and the node is one of those; a node whenever scan_only is off *)
Definition bcls (tb : captab) (o : Z) (r : pr (bres * list Z)) (n : nat) (so : bool) : Prop :=
  match r with
  | POk (b, q) => (length q <= n)%nat /\ match b with BNode x => bs_node tb o x | BNil => so = true end
  | PE _ q => (length q <= n)%nat
  | PO => True
  | PC _ | PF => False
  end.

Ltac plia := unfold padv, padv0 in *; cbn [length] in *; lia.

(* the three ways a backslash scan ends well *)
Lemma bcls_err tb o e q n so : (length q <= n)%nat -> bcls tb o (PE e q) n so.
Proof. intros H. exact H. Qed.
Lemma bcls_nil tb o q n : (length q <= n)%nat -> bcls tb o (POk (BNil, q)) n true.
Proof. intros H. split; [exact H | reflexivity]. Qed.
Lemma bcls_node tb o x q n so : (length q <= n)%nat -> bs_node tb o x -> bcls tb o (POk (BNode x, q)) n so.
Proof. intros H B. split; assumption. Qed.

Lemma one_node_bcls (so : bool) tb o c q n : (length q <= n)%nat ->
  bcls tb o (if so then POk (BNil, q) else pdo x <- mk_node_ch T_One o c ; POk (BNode x, q)) n so.
Proof.
  intros Hq. destruct so; [apply bcls_nil; exact Hq|].
  pose proof (mk_node_ch_ok simple_fold cat_in T_One o c ltac:(reflexivity) ltac:(tnum; lia) ltac:(reflexivity)) as M.
  destruct (mk_node_ch T_One o c) as [x| | | |] eqn:E; cbn [pbind bcls]; try contradiction; auto.
  split; [exact Hq | eapply BN_one; exact E].
Qed.

Lemma set_node_bcls (so : bool) tb o s q n : (length q <= n)%nat ->
  bcls tb o (if so then POk (BNil, q) else pdo x <- mk_node_set T_Set o s ; POk (BNode x, q)) n so.
Proof.
  intros Hq. destruct so; [apply bcls_nil; exact Hq|]. pose proof (mk_node_set_ok simple_fold cat_in o s) as M.
  destruct (mk_node_set T_Set o s) as [x| | | |] eqn:E; cbn [pbind bcls]; try contradiction; auto.
  split; [exact Hq | eapply BN_set; exact E].
Qed.

Lemma char_code_bcls so tb o p : p <> [] -> bcls tb o (char_code so o p) (length p) so.
Proof.
  intros Hne. unfold Parser.char_code.
  pose proof (char_escape_adv is_word_char o p Hne) as CE.
  destruct (char_escape o p) as [[c q]|e q| | |]; cbn [pbind padv] in *; [ | exact CE | exact I | contradiction | contradiction].
  apply one_node_bcls. exact CE.
Qed.

Lemma name_or_num_bcls so tb o k close p0 cur :
  p0 <> [] -> cur <> [] -> (length cur <= length p0)%nat -> bcls tb o (name_or_num so tb o k close p0 cur) (length p0) so.
Proof.
  intros H0 Hc Hl. unfold Parser.name_or_num. destruct cur as [|ch cur']; [congruence|].
  destruct (is_digit ch).
  - pose proof (decimal_adv (ch :: cur')) as D.
    destruct (decimal (ch :: cur')) as [[capnum r1]|e q| | |]; cbn [pbind padv] in *;
      [ | apply bcls_err; plia | exact I | contradiction | contradiction].
    pose proof (tl_len r1) as T.
    destruct (hd_is r1 close); [|apply char_code_bcls; exact H0].
    destruct (ct_slot tb capnum) eqn:Es; [|apply bcls_err; plia]. apply bcls_node; [plia | apply BN_slot; exact Es].
  - destruct (useE o); [exact I|].
    pose proof (scan_word_len' is_word_char (ch :: cur')) as W. destruct (scan_word is_word_char (ch :: cur')) as [nm r1]. cbn [snd] in W.
    pose proof (tl_len r1) as T.
    destruct (negb (match nm with [] => true | _ => false end) && hd_is r1 close).
    + destruct so; [apply bcls_nil; plia|].
      destruct (ct_name tb nm) as [g|] eqn:En; [|apply bcls_err; plia]. apply bcls_node; [plia | eapply BN_name; exact En].
    + destruct k; [|apply char_code_bcls; exact H0].
      destruct (negb (match nm with [] => true | _ => false end)); apply bcls_err; plia.
Qed.

Lemma basic_backslash_bcls so tb o p : bcls tb o (basic_backslash so tb o p) (length p) so.
Proof.
  unfold Parser.basic_backslash. destruct p as [|ch p1]; [apply bcls_err; plia|].
  destruct ((ch =? 107) && (negb (useE o) || useU o || ct_named tb)).
  { destruct p1 as [|c2 p2]; [apply bcls_err; plia|].
    destruct (negb ((c2 =? 60) || (negb (useE o) && (c2 =? 39)))); [apply bcls_err; plia|].
    destruct p2 as [|c3 p3]; [apply bcls_err; plia|].
    apply name_or_num_bcls; try discriminate. cbn [length]. lia. }
  destruct (negb (useE o) && ((ch =? 60) || (ch =? 39)) && longer (ch :: p1) 1) eqn:E.
  { destruct p1 as [|c2 p2]; [cbn in E; rewrite andb_false_r in E; discriminate|].
    apply name_or_num_bcls; try discriminate. cbn [length]. lia. }
  destruct ((49 <=? ch) && (ch <=? 57)); [|apply char_code_bcls; discriminate].
  pose proof (decimal_adv (ch :: p1)) as D.
  destruct (decimal (ch :: p1)) as [[capnum q]|e q| | |]; cbn [pbind padv] in *;
    [ | apply bcls_err; plia | exact I | contradiction | contradiction].
  destruct so; [apply bcls_nil; plia|].
  destruct (ct_slot tb capnum) eqn:Es; [apply bcls_node; [plia | apply BN_slot; exact Es]|].
  destruct ((capnum <=? 9) && negb (useE o)); [apply bcls_err; plia | apply char_code_bcls; discriminate].
Qed.

Lemma scan_backslash_full_bcls so tb o p : bcls tb o (scan_backslash_full so tb o p) (length p) so.
Proof.
  unfold Parser.scan_backslash_full. destruct p as [|ch p1]; [apply bcls_err; plia|].
  destruct (zmem ch pl_assert_letters); [destruct so; [apply bcls_nil; plia | apply bcls_node; [plia | apply BN_anchor]]|].
  destruct (zmem ch pl_class_letters).
  { apply (set_node_bcls so tb o (class_of_letter o ch) p1). cbn [length]. lia. }
  destruct ((ch =? 112) || (ch =? 80)); [|apply basic_backslash_bcls].
  destruct (useE o && negb (useU o)); [apply basic_backslash_bcls|].
  pose proof (parse_property_adv is_word_char to_lower simple_fold participates cat_in cat_name o p1) as PP.
  destruct (parse_property o p1) as [[id q]|e q| | |]; cbn [pbind padv] in *;
    [ | apply bcls_err; plia | exact I | contradiction | contradiction].
  apply set_node_bcls. cbn [length]. lia.
Qed.

Lemma ref_node_good o g : good (mk_node_mn T_Ref o g 0).
Proof. apply good_leaf; reflexivity || (tnum; lia). Qed.

Lemma bs_node_good tb o x : bs_node tb o x -> good x.
Proof.
  intros [g _ | nm g _ | ch | c y E | s y E]; try apply ref_node_good.
  - apply good_mk_node; unfold type_from_code;
      repeat match goal with |- context [if ?b then _ else _] => destruct b end; try reflexivity; try (tnum; lia).
  - pose proof (mk_node_ch_ok simple_fold cat_in T_One o c ltac:(reflexivity) ltac:(tnum; lia) ltac:(reflexivity)) as M.
    rewrite E in M. exact M.
  - pose proof (mk_node_set_ok simple_fold cat_in o s) as M. rewrite E in M. exact M.
Qed.

Lemma scan_backslash_full_badv so tb o p : badv (scan_backslash_full so tb o p) (length p) so.
Proof.
  pose proof (scan_backslash_full_bcls so tb o p) as B.
  destruct (scan_backslash_full so tb o p) as [[b q]|e q| | |]; cbn [bcls badv] in *; auto.
  destruct B as [B1 B2]. split; [exact B1|]. destruct b as [x|]; cbn [node_ok].
  - split; [eapply bs_node_good; exact B2 | discriminate].
  - split; [exact I | congruence].
Qed.

(* the Set node of a bracket expression *)
Lemma class_node_ok o s :
  match class_node o s with POk y => good y | PO => True | PE _ _ | PC _ | PF => False end.
Proof.
  unfold Parser.class_node. destruct (useI o && (pp_ci_span_limit <? syn_span o s)); [exact I|].
  pose proof (scan_char_set_rnc cat_in simple_fold to_lower pp_orbit_fuel (Opts (useI o) (useE o) (useRE2 o)) s) as R.
  destruct (scan_char_set cat_in simple_fold to_lower pp_orbit_fuel (Opts (useI o) (useE o) (useRE2 o)) s); cbn in R; try contradiction; auto.
  apply mk_node_set_ok.
Qed.

(* ---------------------------------------------------------------- scanGroupOpen *)
Definition group_t (t : Z) : bool :=
  (t =? T_Capture) || (t =? T_Group) || (t =? T_PosLook) || (t =? T_NegLook) || (t =? T_Atomic) ||
  (t =? T_ExprCond) || (t =? T_BackRefCond).
(* a group node as scanGroupOpen makes it: one of the group kinds, no children yet *)
Definition fresh_group (g : rnode) : Prop := group_t (n_t g) = true /\ n_kids g = [] .

Definition gadv (r : pr (option rnode * gvars * list Z)) (n : nat) : Prop :=
  match r with
  | POk (g, _, q) => (length q <= n)%nat /\ match g with Some x => fresh_group x | None => True end
  | PE _ q => (length q <= n)%nat
  | PO => True
  | PC _ | PF => False
  end.

Ltac gfin := cbn [gadv badv padv padv0 pbind length node_ok] in *; unfold fresh_group;
  repeat match goal with |- _ /\ _ => split end; try assumption; try reflexivity; try (intros; discriminate); try lia; auto.

Ltac csplit := repeat match goal with |- _ /\ _ => split end.

Local Notation group_name := (group_name is_word_char).
Local Notation group_cond := (group_cond is_word_char).
Local Notation group_pyname := (group_pyname is_word_char).
Local Notation group_open := (group_open is_word_char).
Local Notation python_backref := (python_backref is_word_char).

Lemma fresh_mk t o : group_t t = true -> fresh_group (mk_node t o).
Proof. intros H. split; [exact H | reflexivity]. Qed.
Lemma fresh_mk_mn t o m n : group_t t = true -> fresh_group (mk_node_mn t o m n).
Proof. intros H. split; [exact H | reflexivity]. Qed.

Lemma group_name_gadv tb mco v close cur : cur <> [] -> gadv (group_name tb mco v close cur) (length cur).
Proof.
  intros Hc. unfold Parser.group_name. destruct cur as [|ch cur']; [congruence|].
  destruct (useE (gv_o v)); [exact I|].
  set (cur := ch :: cur') in *.
  (* first part: the name or number *)
  match goal with |- gadv (pbind ?a _) _ => assert (A : padv a (length cur)) end.
  { destruct (is_digit ch).
    - pose proof (decimal_adv cur) as D.
      destruct (decimal cur) as [[n q]|e q| | |]; cbn [pbind padv] in *; [ | exact D | exact I | contradiction | contradiction].
      destruct (hd_is_not q close && hd_is_not q 45); [exact D|].
      match goal with |- padv (if ?b then _ else _) _ => destruct b end; exact D.
    - destruct (is_word_char ch).
      + pose proof (scan_word_len' is_word_char cur) as W. destruct (scan_word is_word_char cur) as [nm q]. cbn [snd] in W.
        destruct (hd_is_not q close && hd_is_not q 45); exact W.
      + destruct (ch =? 45); plia. }
  match goal with |- gadv (pbind ?a _) _ => destruct a as [[[capnum proceed] q]|e q| | |] end;
    cbn [pbind padv] in *; [ | exact A | exact I | contradiction | contradiction].
  (* second part: the name after the dash *)
  match goal with |- gadv (pbind ?a _) _ => assert (B : padv a (length cur)) end.
  { destruct ((negb (capnum =? -1) || proceed) && hd_is q 45); [|cbn; exact A].
    pose proof (tl_len q) as T. destruct (tl q) as [|c3 q1'] eqn:Eq1; [plia|].
    destruct (is_digit c3).
    - pose proof (decimal_adv (c3 :: q1')) as D.
      destruct (decimal (c3 :: q1')) as [[u q2]|e q2| | |]; cbn [pbind padv] in *; [ | plia | exact I | contradiction | contradiction].
      destruct (negb (ct_slot tb u)); [plia|]. destruct (hd_is_not q2 close); plia.
    - destruct (is_word_char c3); [|plia].
      pose proof (scan_word_len' is_word_char (c3 :: q1')) as W. destruct (scan_word is_word_char (c3 :: q1')) as [nm q2]. cbn [snd] in W.
      destruct (ct_name tb nm); [|plia]. destruct (hd_is_not q2 close); plia. }
  match goal with |- gadv (pbind ?a _) _ => destruct a as [[uncapnum q3]|e q3| | |] end;
    cbn [pbind padv] in *; [ | exact B | exact I | contradiction | contradiction].
  pose proof (tl_len q3) as T3.
  destruct ((negb (capnum =? -1) || negb (uncapnum =? -1)) && hd_is q3 close); gfin.
Qed.

Lemma group_cond_gadv tb v p1 : gadv (group_cond tb v p1) (length p1).
Proof.
  unfold Parser.group_cond. pose proof (tl_len p1) as T.
  match goal with |- gadv (pbind ?a _) _ =>
    assert (A : match a with POk (Some (_, q)) => (length q <= length p1)%nat | POk None => True
                             | PE _ q => (length q <= length p1)%nat | PO => True | _ => False end) end.
  { destruct (tl p1) as [|c p2'] eqn:E2; [exact I|].
    destruct (is_digit c).
    - pose proof (decimal_adv (c :: p2')) as D.
      destruct (decimal (c :: p2')) as [[n q]|e q| | |]; cbn [pbind padv] in *; [ | plia | exact I | contradiction | contradiction].
      pose proof (tl_len q) as Tq.
      destruct (hd_is q 41); [destruct (ct_slot tb n); plia | plia].
    - destruct (is_word_char c); [|exact I].
      destruct (useE (gv_o v)); [exact I|].
      pose proof (scan_word_len' is_word_char (c :: p2')) as W. destruct (scan_word is_word_char (c :: p2')) as [nm q]. cbn [snd] in W.
      pose proof (tl_len q) as Tq.
      destruct (ct_name tb nm); [|exact I]. destruct (hd_is q 41); [plia | exact I]. }
  match goal with |- gadv (pbind ?a _) _ => destruct a as [[[g q1]|]|e q| | |] end;
    cbn [pbind] in *; [ | | exact A | exact I | contradiction | contradiction].
  - gfin.
  - repeat match goal with |- context [if ?b then _ else _] => destruct b end; gfin.
Qed.

Lemma group_pyname_gadv tb mco v p2 : gadv (group_pyname tb mco v p2) (length p2).
Proof.
  unfold Parser.group_pyname. pose proof (tl_len p2) as T.
  destruct (negb (longer p2 2)); [gfin|].
  destruct (negb (hd_is p2 60)); [gfin|].
  destruct (is_word_char (nth 1 p2 0)); [|gfin].
  destruct (useE (gv_o v)); [exact I|].
  pose proof (scan_word_len' is_word_char (tl p2)) as W. destruct (scan_word is_word_char (tl p2)) as [nm q]. cbn [snd] in W.
  pose proof (tl_len q) as Tq.
  destruct (hd_is_not q 62); [gfin|].
  match goal with |- context [if ?b then _ else _] => destruct b end; gfin.
Qed.

Lemma group_open_gadv tb mco gt v p : gadv (group_open tb mco gt v p) (length p).
Proof.
  unfold Parser.group_open.
  destruct (is_nil p || negb (hd_is p 63) || nth_is 1 p 41).
  { destruct (useN (gv_o v) || gv_ign v); gfin. }
  pose proof (tl_len p) as T.
  destruct (tl p) as [|ch p2] eqn:E1; [gfin|].
  cbn [length] in T.
  destruct (ch =? 58); [gfin|].
  destruct (ch =? 61); [gfin|].
  destruct (ch =? 33); [gfin|].
  destruct (ch =? 62); [gfin|].
  destruct ((ch =? 39) || (ch =? 60)).
  { destruct p2 as [|c2 p3]; [gfin|]. cbn [length] in T.
    destruct ((c2 =? 61) || (c2 =? 33)).
    - destruct ((if ch =? 39 then 39 else 62) =? 39); [gfin|].
      destruct (c2 =? 61); gfin.
    - pose proof (group_name_gadv tb mco (mkGV (gv_o v) false (gv_autocap v)) (if ch =? 39 then 39 else 62) (c2 :: p3) ltac:(discriminate)) as G.
      destruct (group_name tb mco (mkGV (gv_o v) false (gv_autocap v)) (if ch =? 39 then 39 else 62) (c2 :: p3)) as [[[g v'] q]|e q| | |];
        cbn [gadv length] in *; try contradiction; try exact I; try lia. destruct G as [G1 G2]. split; [lia | exact G2]. }
  destruct (ch =? 40).
  { pose proof (group_cond_gadv tb (mkGV (gv_o v) false (gv_autocap v)) (ch :: p2)) as G.
    destruct (group_cond tb (mkGV (gv_o v) false (gv_autocap v)) (ch :: p2)) as [[[g v'] q]|e q| | |];
      cbn [gadv length] in *; try contradiction; try exact I; try lia. destruct G as [G1 G2]. split; [lia | exact G2]. }
  destruct ((ch =? 80) && useRE2 (gv_o v)).
  { pose proof (group_pyname_gadv tb mco (mkGV (gv_o v) false (gv_autocap v)) p2) as G.
    destruct (group_pyname tb mco (mkGV (gv_o v) false (gv_autocap v)) p2) as [[[g v'] q]|e q| | |];
      cbn [gadv length] in *; try contradiction; try exact I; try lia. destruct G as [G1 G2]. split; [lia | exact G2]. }
  assert (L : forall o2 q, (if gt =? T_ExprCond then (gv_o v, ch :: p2) else scan_options_text (gv_o v) (ch :: p2)) = (o2, q) ->
              (length q <= S (length p2))%nat).
  { intros o2 q H. destruct (gt =? T_ExprCond); [inversion H; cbn [length]; lia|].
    apply scan_options_text_len in H. cbn [length] in H. exact H. }
  destruct (if gt =? T_ExprCond then (gv_o v, ch :: p2) else scan_options_text (gv_o v) (ch :: p2)) as [o2 q] eqn:Eo.
  specialize (L o2 q eq_refl).
  destruct q as [|c q1]; [gfin|]. cbn [length] in L.
  destruct (c =? 41); [gfin|]. destruct (c =? 58); gfin.
Qed.

Lemma python_backref_adv tb o p :
  match python_backref tb o p with
  | POk (x, q) => (length q <= length p)%nat /\ good x
  | PE _ q => (length q <= length p)%nat
  | PO => True
  | PC _ | PF => False
  end.
Proof.
  unfold Parser.python_backref. destruct p as [|ch p']; [plia|].
  destruct (useE o); [exact I|].
  destruct (negb (is_word_char ch)); [plia|].
  pose proof (scan_word_len' is_word_char (ch :: p')) as W. destruct (scan_word is_word_char (ch :: p')) as [nm q]. cbn [snd] in W.
  pose proof (tl_len q) as Tq.
  destruct (negb (is_nil nm) && hd_is q 41); [|exact W].
  destruct (ct_name tb nm) as [g|]; [|plia]. split; [lia | apply ref_node_good].
Qed.

(* ---------------------------------------------------------------- the state of scanRegex *)
Definition kids_good (x : rnode) : Prop := Forall good (n_kids x).
Definition alt_ok (a : rnode) : Prop := kids_good a /\ n_t a = T_Alternate.
Definition concat_ok (c : rnode) : Prop := kids_good c /\ n_t c = T_Concatenate.
Definition group_ok (g : rnode) : Prop := kids_good g /\ group_t (n_t g) = true.
Definition frame_ok (f : rnode * rnode * rnode) : Prop :=
  let '(g, a, c) := f in group_ok g /\ alt_ok a /\ concat_ok c.

(* everything but the depth of the option stack *)
Record mbody (st : mst) : Prop := mkMB {
  mb_group : group_ok (ms_group st);
  mb_alt : alt_ok (ms_alt st);
  mb_concat : concat_ok (ms_concat st);
  mb_stack : Forall frame_ok (ms_stack st);
  mb_unit : match ms_unit st with Some u => good u | None => True end }.

(* pushOptions / popOptions run in step with pushGroup / popGroup *)
Definition minv (st : mst) : Prop := mbody st /\ length (ms_os st) = length (ms_stack st).

Local Notation add_child := (add_child cat_in).
Local Notation ACO := (add_child_ok is_word_char to_lower simple_fold participates cat_in cat_name).

Lemma add_child_pres parent child : kids_good parent -> good child ->
  exists p', add_child parent child = Ok p' /\ kids_good p' /\ n_kids p' <> [] /\ n_t p' = n_t parent /\
             length (n_kids p') = S (length (n_kids parent)).
Proof.
  intros K G. destruct (ACO parent child K G) as [p' [E [K' [NE [Ht [_ [_ L]]]]]]].
  exists p'. repeat split; assumption.
Qed.

Lemma group_done g : group_ok g -> n_kids g <> [] -> good g.
Proof.
  intros [K T] NE. destruct g as [t o ch m n str st kids]. cbn [n_kids n_t] in *. unfold kids_good in K. cbn [n_kids] in K.
  apply good_eq. split; [|exact K]. unfold shape_ok. repeat split; intros; try assumption; exfalso; unfold group_t in T; tnum; lia.
Qed.

Lemma alt_good a : alt_ok a -> good a.
Proof.
  intros [K T]. destruct a as [t o ch m n str st kids]. cbn [n_kids n_t] in *. unfold kids_good in K. cbn [n_kids] in K.
  apply good_eq. split; [|exact K]. unfold shape_ok. repeat split; intros; exfalso; tnum; lia.
Qed.

Lemma concat_rev_good c : concat_ok c -> good (reverse_left c).
Proof.
  intros [K T]. apply (reverse_left_good is_word_char to_lower simple_fold participates cat_in cat_name); assumption.
Qed.

Local Notation add_concatenate := (add_concatenate cat_in).
Local Notation add_concatenate3 := (add_concatenate3 cat_in).
Local Notation add_ones := (add_ones simple_fold cat_in).
Local Notation add_to_concatenate := (add_to_concatenate simple_fold participates cat_in).
Local Notation add_alternate := (add_alternate cat_in).
Local Notation add_group := (add_group cat_in).
Local Notation pop_group := (pop_group cat_in).
Local Notation add_run := (add_run simple_fold participates cat_in).
Local Notation scan_quantifier := (scan_quantifier cat_in).
Local Notation after_unit := (after_unit cat_in).
Local Notation round_open := (round_open is_word_char cat_in).
Local Notation round_close := (round_close cat_in).
Local Notation simple_unit := (simple_unit simple_fold cat_in).
Local Notation scan_round := (scan_round is_word_char to_lower simple_fold participates cat_in cat_name).
Local Notation scan_loop_full := (scan_loop_full is_word_char to_lower simple_fold participates cat_in cat_name).
Local Notation scan_regex := (scan_regex is_word_char to_lower simple_fold participates cat_in cat_name).

(* the fields a step leaves alone *)
Definition same_nest (st st' : mst) : Prop :=
  ms_stack st' = ms_stack st /\ ms_os st' = ms_os st.

(* addConcatenate, with or without a quantifier: the unit goes under the concatenation and nothing else moves *)
Definition unit_added (st st' : mst) : Prop :=
  exists c, st' = set_unit (set_concat st c) None /\ n_o c = n_o (ms_concat st) /\ n_t c = n_t (ms_concat st).

Lemma add_child_inv c u r : add_child c u = Ok r -> exists k, reduce cat_in u = Ok k /\ r = set_kids c (n_kids c ++ [k]).
Proof.
  unfold Parser.add_child. destruct (reduce cat_in u) as [k| | |]; cbn [bind]; try discriminate.
  intros H. inversion H. eauto.
Qed.

Lemma add_child_ot c u r : add_child c u = Ok r -> n_o r = n_o c /\ n_t r = n_t c.
Proof. intros H. destruct (add_child_inv _ _ _ H) as [k [_ ->]]. destruct c; split; reflexivity. Qed.

Lemma add_child_nonempty c u r : add_child c u = Ok r -> n_kids r <> [].
Proof.
  intros H. destruct (add_child_inv _ _ _ H) as [k [_ ->]]. destruct c; cbn. intros HH. apply app_eq_nil in HH. destruct HH; discriminate.
Qed.

Lemma add_concatenate_added st st' : add_concatenate st = POk st' -> unit_added st st'.
Proof.
  unfold Parser.add_concatenate. destruct (ms_unit st) as [u|]; [|discriminate].
  destruct (add_child (ms_concat st) u) as [c| | |] eqn:E; cbn [of_res pbind]; try discriminate.
  intros H. inversion H; subst. exists c. split; [reflexivity | eapply add_child_ot; exact E].
Qed.

Lemma add_concatenate3_added st lazy mn mx st' : add_concatenate3 st lazy mn mx = POk st' -> unit_added st st'.
Proof.
  unfold Parser.add_concatenate3. destruct (ms_unit st) as [u|]; [|discriminate].
  destruct (make_quantifier cat_in u lazy mn mx) as [qq| | |]; cbn [of_res pbind]; try discriminate.
  destruct (add_child (ms_concat st) qq) as [c| | |] eqn:E; cbn [of_res pbind]; try discriminate.
  intros H. inversion H; subst. exists c. split; [reflexivity | eapply add_child_ot; exact E].
Qed.

Lemma scan_quantifier_added st p st' q : scan_quantifier st p = POk (st', q) -> unit_added st st'.
Proof.
  unfold Parser.scan_quantifier. destruct p as [|ch p1]; [discriminate|].
  destruct (ms_unit st) as [u|] eqn:Eu.
  2:{ intros H. inversion H; subst st'. exists (ms_concat st). destruct st; cbn in *; subst; auto. }
  match goal with |- pbind ?a _ = _ -> _ => destruct a as [[[[mn mx] q0]|]|e q0| | |] end; cbn [pbind]; try discriminate.
  - destruct (scan_blank_full (ms_o st) q0) as [q1|e q1| | |]; cbn [pbind]; try discriminate.
    destruct (if hd_is q1 63 then (true, tl q1) else (false, q1)) as [lazy q2].
    destruct (mx <? mn); [discriminate|].
    destruct (add_concatenate3 st lazy mn mx) as [st1|e q3| | |] eqn:E3; cbn [pbind]; try discriminate.
    intros H. inversion H; subst. eapply add_concatenate3_added. exact E3.
  - destruct (add_concatenate st) as [st1|e q3| | |] eqn:E1; cbn [pbind]; try discriminate.
    intros H. inversion H; subst. eapply add_concatenate_added. exact E1.
Qed.

Lemma after_unit_added st p st' q wq : after_unit st p = POk (st', q, wq) -> unit_added st st'.
Proof.
  unfold Parser.after_unit. destruct (scan_blank_full (ms_o st) p) as [p1|e p1| | |]; cbn [pbind]; try discriminate.
  destruct (is_nil p1 || negb (is_true_quantifier p1)).
  - destruct (add_concatenate st) as [st1|e q3| | |] eqn:E1; cbn [pbind]; try discriminate.
    intros H. inversion H; subst. eapply add_concatenate_added. exact E1.
  - destruct (scan_quantifier st p1) as [[st1 q1]|e q3| | |] eqn:E1; cbn [pbind]; try discriminate.
    intros H. inversion H; subst. eapply scan_quantifier_added. exact E1.
Qed.

Lemma add_concatenate_ok st : mbody st -> ms_unit st <> None ->
  exists st', add_concatenate st = POk st' /\ mbody st' /\ ms_unit st' = None /\ same_nest st st'.
Proof.
  intros [Bg Ba Bc Bs Bu] Hu. unfold Parser.add_concatenate. destruct (ms_unit st) as [u|] eqn:Eu; [|congruence].
  destruct Bc as [Kc Tc].
  destruct (add_child_pres (ms_concat st) u Kc Bu) as [c' [E [K' [_ [T' _]]]]]. rewrite E. cbn [of_res pbind].
  eexists. split; [reflexivity|]. split; [|split; [reflexivity | split; reflexivity]].
  constructor; cbn; auto. split; [exact K' | congruence].
Qed.

Lemma add_concatenate3_ok st lazy mn mx : mbody st -> ms_unit st <> None -> 0 <= mn ->
  exists st', add_concatenate3 st lazy mn mx = POk st' /\ mbody st' /\ ms_unit st' = None /\ same_nest st st'.
Proof.
  intros [Bg Ba Bc Bs Bu] Hu Hmn. unfold Parser.add_concatenate3. destruct (ms_unit st) as [u|] eqn:Eu; [|congruence].
  destruct (make_quantifier_ok is_word_char to_lower simple_fold participates cat_in cat_name u lazy mn mx Bu Hmn) as [q [Eq Gq]].
  rewrite Eq. cbn [of_res pbind].
  destruct Bc as [Kc Tc].
  destruct (add_child_pres (ms_concat st) q Kc Gq) as [c' [E [K' [_ [T' _]]]]]. rewrite E. cbn [of_res pbind].
  eexists. split; [reflexivity|]. split; [|split; [reflexivity | split; reflexivity]].
  constructor; cbn; auto. split; [exact K' | congruence].
Qed.

Lemma add_ones_ok o s : forall c, concat_ok c ->
  match add_ones o c s with POk c' => concat_ok c' | PO => True | _ => False end.
Proof.
  induction s as [|ch s IH]; intros c Hc; cbn [Parser.add_ones]; [exact Hc|].
  pose proof (mk_node_ch_ok simple_fold cat_in T_One o ch ltac:(reflexivity) ltac:(tnum; lia) ltac:(reflexivity)) as M.
  destruct (Parser.mk_node_ch simple_fold cat_in T_One o ch) as [x| | | |]; cbn [pbind]; try contradiction; auto.
  destruct Hc as [Kc Tc].
  destruct (add_child_pres c x Kc M) as [c' [E [K' [_ [T' _]]]]]. rewrite E. cbn [of_res pbind].
  apply IH. split; [exact K' | congruence].
Qed.

Lemma add_to_concatenate_ok o c s : concat_ok c ->
  match add_to_concatenate o c s with POk c' => concat_ok c' | PO => True | _ => False end.
Proof.
  intros Hc. unfold Parser.add_to_concatenate.
  destruct s as [|ch [|ch2 s']]; [exact Hc | apply add_ones_ok; exact Hc |].
  destruct (negb (useI o) || negb (existsb participates (ch :: ch2 :: s'))); [|apply add_ones_ok; exact Hc].
  destruct Hc as [Kc Tc].
  assert (G : good (mk_node_str T_Multi (clear_I o) (ch :: ch2 :: s'))).
  { apply good_eq. split; [|constructor]. unfold shape_ok. repeat split; intros; try discriminate; exfalso; tnum; lia. }
  destruct (add_child_pres c _ Kc G) as [c' [E [K' [_ [T' _]]]]]. rewrite E. cbn [of_res].
  split; [exact K' | congruence].
Qed.

Lemma add_run_ok st run isq : mbody st -> ms_unit st = None ->
  match add_run st run isq with
  | POk st' => mbody st' /\ same_nest st st' /\ (ms_unit st' <> None -> run <> [] /\ isq = true) /\
               (isq = true -> run <> [] -> ms_unit st' <> None)
  | PO => True
  | _ => False
  end.
Proof.
  intros B Hu. unfold Parser.add_run. destruct run as [|r0 run'].
  { split; [exact B|]. split; [split; reflexivity|]. split; [intros H; congruence | intros _ H; congruence]. }
  set (run := r0 :: run') in *.
  pose proof (add_to_concatenate_ok (ms_o st) (ms_concat st) (if isq then removelast run else run) (mb_concat st B)) as A.
  destruct (add_to_concatenate (ms_o st) (ms_concat st) (if isq then removelast run else run)) as [c| | | |];
    cbn [pbind]; try contradiction; auto.
  destruct B as [Bg Ba Bc Bs Bu].
  destruct isq.
  - pose proof (mk_node_ch_ok simple_fold cat_in T_One (ms_o st) (last run 0) ltac:(reflexivity) ltac:(tnum; lia) ltac:(reflexivity)) as M.
    destruct (Parser.mk_node_ch simple_fold cat_in T_One (ms_o st) (last run 0)) as [u| | | |]; cbn [pbind]; try contradiction; auto.
    split; [constructor; cbn; auto|]. split; [split; reflexivity|]. split; intros; [split; [discriminate | reflexivity] | cbn; discriminate].
  - split; [constructor; cbn; auto; rewrite Hu; exact I|]. split; [split; reflexivity|].
    split; [cbn; intros H; congruence | discriminate].
Qed.

Lemma add_alternate_ok st : mbody st ->
  exists st', add_alternate st = POk st' /\ mbody st' /\ same_nest st st' /\ ms_unit st' = ms_unit st.
Proof.
  intros [Bg Ba Bc Bs Bu]. unfold Parser.add_alternate.
  pose proof (concat_rev_good _ Bc) as Gc.
  assert (Fc : concat_ok (mk_node T_Concatenate (ms_o st))) by (split; [constructor | reflexivity]).
  destruct (is_cond_t (n_t (ms_group st))).
  - destruct Bg as [Kg Tg].
    destruct (add_child_pres (ms_group st) _ Kg Gc) as [g' [E [K' [_ [T' _]]]]]. rewrite E. cbn [of_res pbind].
    eexists. split; [reflexivity|]. split; [|split; [split; reflexivity | reflexivity]].
    constructor; cbn; auto. split; [exact K' | congruence].
  - destruct Ba as [Ka Ta].
    destruct (add_child_pres (ms_alt st) _ Ka Gc) as [a' [E [K' [_ [T' _]]]]]. rewrite E. cbn [of_res pbind].
    eexists. split; [reflexivity|]. split; [|split; [split; reflexivity | reflexivity]].
    constructor; cbn; auto. split; [exact K' | congruence].
Qed.

Lemma add_group_ok st : mbody st ->
  match add_group st with
  | POk st' => mbody st' /\ same_nest st st' /\ ms_unit st' <> None
  | PE _ _ => True
  | _ => False
  end.
Proof.
  intros [Bg Ba Bc Bs Bu]. unfold Parser.add_group.
  pose proof (concat_rev_good _ Bc) as Gc.
  destruct (is_cond_t (n_t (ms_group st))).
  - destruct Bg as [Kg Tg].
    destruct (add_child_pres (ms_group st) _ Kg Gc) as [g' [E [K' [NE [T' _]]]]]. rewrite E. cbn [of_res pbind].
    match goal with |- context [if ?b then _ else _] => destruct b end; [exact I|].
    assert (Gg : group_ok g') by (split; [exact K' | congruence]).
    split; [|split; [split; reflexivity | cbn; discriminate]].
    constructor; cbn; auto. apply group_done; assumption.
  - destruct Ba as [Ka Ta].
    destruct (add_child_pres (ms_alt st) _ Ka Gc) as [a' [E [K' [_ [T' _]]]]]. rewrite E. cbn [of_res pbind].
    assert (Aa : alt_ok a') by (split; [exact K' | congruence]).
    destruct Bg as [Kg Tg].
    destruct (add_child_pres (ms_group st) a' Kg (alt_good _ Aa)) as [g' [E2 [K2 [NE2 [T2 _]]]]]. rewrite E2. cbn [of_res pbind].
    assert (Gg : group_ok g') by (split; [exact K2 | congruence]).
    split; [|split; [split; reflexivity | cbn; discriminate]].
    constructor; cbn; auto. apply group_done; assumption.
Qed.

Lemma pop_group_ok st : mbody st -> ms_stack st <> [] ->
  match pop_group st with
  | POk st' => mbody st' /\ ms_os st' = ms_os st /\ S (length (ms_stack st')) = length (ms_stack st)
  | PE _ _ => True
  | _ => False
  end.
Proof.
  intros [Bg Ba Bc Bs Bu] NE. unfold Parser.pop_group.
  destruct (ms_stack st) as [|[[g a] c] r] eqn:Es; [congruence|].
  inversion Bs as [|? ? Hf Fr]; subst. unfold frame_ok in Hf. destruct Hf as [Fg [Fa Fc]].
  destruct ((n_t g =? T_ExprCond) && match n_kids g with [] => true | _ => false end).
  - destruct (ms_unit st) as [u|]; [|exact I].
    destruct Fg as [Kg Tg].
    destruct (add_child_pres g u Kg Bu) as [g' [E [K' [_ [T' _]]]]]. rewrite E. cbn [of_res pbind].
    split; [|split; [reflexivity | cbn; reflexivity]].
    constructor; cbn; auto. split; [exact K' | congruence].
  - split; [|split; [reflexivity | cbn; reflexivity]].
    constructor; cbn; auto.
Qed.

Lemma brace_counts_ok p1 :
  match brace_counts p1 with
  | POk (Some (mn, _, q)) => 0 <= mn /\ (length q <= length p1)%nat
  | POk None => True
  | PE _ _ | PO => True
  | _ => False
  end.
Proof.
  unfold brace_counts.
  pose proof (decimal_adv p1) as D. pose proof (decimal_nonneg p1) as NN.
  destruct (decimal p1) as [[mn q]|e q0| | |]; cbn [pbind padv] in *; [ | exact I | exact I | contradiction | contradiction].
  specialize (NN mn q eq_refl).
  match goal with |- match pbind ?a _ with _ => _ end => assert (A : padv a (length p1)) end.
  { destruct ((length q <? length p1)%nat && hd_is q 44); [|cbn; exact D].
    pose proof (tl_len q) as T.
    destruct (is_nil (tl q) || hd_is (tl q) 125); [cbn; lia|].
    eapply padv_weaken; [apply decimal_adv | lia]. }
  match goal with |- match pbind ?a _ with _ => _ end => destruct a as [[mx q2]|e q2| | |] end;
    cbn [pbind padv] in *; [ | exact I | exact I | contradiction | contradiction].
  pose proof (tl_len q2) as T2.
  destruct ((length q =? length p1)%nat || negb (hd_is q2 125)); [exact I|]. split; [exact NN | lia].
Qed.

Lemma scan_quantifier_ok st p : mbody st -> ms_unit st <> None -> p <> [] ->
  match scan_quantifier st p with
  | POk (st', q) => mbody st' /\ ms_unit st' = None /\ same_nest st st' /\ (length q <= length p)%nat
  | PE _ _ | PO => True
  | _ => False
  end.
Proof.
  intros B Hu Hp. unfold Parser.scan_quantifier. destruct p as [|ch p1]; [congruence|].
  destruct (ms_unit st) as [u|] eqn:Eu; [|congruence].
  match goal with |- match pbind ?a _ with _ => _ end =>
    assert (A : match a with POk (Some (mn, _, q)) => 0 <= mn /\ (length q <= length p1)%nat
                             | POk None => True | PE _ _ | PO => True | _ => False end) end.
  { destruct (ch =? 42); [split; [lia | lia]|].
    destruct (ch =? 63); [split; [lia | lia]|].
    destruct (ch =? 43); [split; [lia | lia]|].
    destruct (ch =? 123); [apply brace_counts_ok | exact I]. }
  match goal with |- match pbind ?a _ with _ => _ end => destruct a as [[[[mn mx] q]|]|e q0| | |] end;
    cbn [pbind] in *; try contradiction; try exact I.
  - destruct A as [Hmn Hq].
    pose proof (scan_blank_full_adv (ms_o st) q) as Bq.
    destruct (scan_blank_full (ms_o st) q) as [q1|e q1| | |]; cbn [pbind padv0] in *; try contradiction; try exact I.
    pose proof (tl_len q1) as T1.
    destruct (if hd_is q1 63 then (true, tl q1) else (false, q1)) as [lazy q2] eqn:El.
    assert (L2 : (length q2 <= length q1)%nat) by (destruct (hd_is q1 63); inversion El; subst; lia).
    destruct (mx <? mn); [exact I|].
    destruct (add_concatenate3_ok st lazy mn mx B ltac:(congruence) Hmn) as [st' [E [B' [U' N']]]].
    rewrite E. cbn [pbind]. csplit; try assumption; try apply N'. cbn [length]. lia.
  - destruct (add_concatenate_ok st B ltac:(congruence)) as [st' [E [B' [U' N']]]].
    rewrite E. cbn [pbind]. csplit; try assumption; try apply N'. lia.
Qed.

Lemma is_true_quantifier_nonempty p : is_true_quantifier p = true -> p <> [].
Proof. destruct p; [discriminate | discriminate]. Qed.

Lemma after_unit_ok st p : mbody st -> ms_unit st <> None ->
  match after_unit st p with
  | POk (st', q, _) => mbody st' /\ ms_unit st' = None /\ same_nest st st' /\ (length q <= length p)%nat
  | PE _ _ | PO => True
  | _ => False
  end.
Proof.
  intros B Hu. unfold Parser.after_unit.
  pose proof (scan_blank_full_adv (ms_o st) p) as Bp.
  destruct (scan_blank_full (ms_o st) p) as [p1|e p1| | |]; cbn [pbind padv0] in *; try contradiction; try exact I.
  destruct (is_nil p1 || negb (is_true_quantifier p1)) eqn:E.
  - destruct (add_concatenate_ok st B Hu) as [st' [E' [B' [U' N']]]]. rewrite E'. cbn [pbind].
    csplit; try assumption; apply N'.
  - assert (Q : is_true_quantifier p1 = true) by (destruct (is_nil p1); [discriminate|]; destruct (is_true_quantifier p1); [reflexivity | discriminate]).
    pose proof (scan_quantifier_ok st p1 B Hu (is_true_quantifier_nonempty _ Q)) as S.
    destruct (scan_quantifier st p1) as [[st' q]|e q| | |]; cbn [pbind]; try contradiction; try exact I.
    destruct S as [S1 [S2 [S3 S4]]]. csplit; try assumption; try apply S3. lia.
Qed.

(* what a round hands on: the invariant, no pending unit, a strictly shorter pattern *)
Definition round_res (r : pr (mst * option (list Z * bool))) (n : nat) : Prop :=
  match r with
  | POk (st', None) => minv st'
  | POk (st', Some (q, _)) => minv st' /\ ms_unit st' = None /\ (length q <= n)%nat
  | PE _ _ | PO => True
  | _ => False
  end.

Lemma minv_same st st' : minv st -> mbody st' -> same_nest st st' -> minv st'.
Proof. intros [_ D] B [S1 S2]. split; [exact B | rewrite S1, S2; exact D]. Qed.

Lemma mbody_set_unit st x : mbody st -> good x -> mbody (set_unit st (Some x)).
Proof. intros [Bg Ba Bc Bs Bu] G. constructor; cbn; auto. Qed.

(* a unit followed by its quantifier *)
Lemma unit_then_ok st1 x q n : minv st1 -> good x -> (length q <= n)%nat ->
  round_res (pdo r <- after_unit (set_unit st1 (Some x)) q ; let '(st', q', wq) := r in POk (st', Some (q', wq))) n.
Proof.
  intros Iv G Hq. pose proof (after_unit_ok (set_unit st1 (Some x)) q (mbody_set_unit _ _ (proj1 Iv) G) ltac:(cbn; discriminate)) as A.
  destruct (after_unit (set_unit st1 (Some x)) q) as [[[st' q'] wq]|e q0| | |]; cbn [pbind round_res]; try contradiction; try exact I; auto.
  destruct A as [A1 [A2 [A3 A4]]]. split; [|split; [exact A2 | lia]].
  eapply minv_same; [exact Iv | exact A1 |]. destruct A3 as [S1 S2]. split; [exact S1 | exact S2].
Qed.

(* "|": the concatenation goes under the alternation, or under the group when that is a conditional *)
Lemma add_alternate_cases st st' : add_alternate st = POk st' ->
  exists g' a', st' = mkMS (ms_stack st) g' a' (mk_node T_Concatenate (ms_o st)) (ms_unit st) (ms_o st) (ms_os st) (ms_ign st) (ms_autocap st) /\
    (g' = ms_group st \/ exists k, g' = set_kids (ms_group st) (n_kids (ms_group st) ++ [k])).
Proof.
  unfold Parser.add_alternate. destruct (is_cond_t (n_t (ms_group st))).
  - destruct (add_child (ms_group st) (reverse_left (ms_concat st))) as [g'| | |] eqn:Eg; cbn [of_res pbind]; try discriminate.
    intros H. inversion H. destruct (add_child_inv _ _ _ Eg) as [k [_ Ek]]. eauto 6.
  - destruct (add_child (ms_alt st) (reverse_left (ms_concat st))) as [a'| | |]; cbn [of_res pbind]; try discriminate.
    intros H. inversion H. eauto.
Qed.

(* ")" step by step, for the rounds that go through.
   addGroup: the closed group becomes the unit; only the group, the alternation and the unit move *)
Lemma add_group_cases st st' : add_group st = POk st' ->
  exists g' a', st' = mkMS (ms_stack st) g' a' (ms_concat st) (Some g') (ms_o st) (ms_os st) (ms_ign st) (ms_autocap st) /\
    exists k, g' = set_kids (ms_group st) (n_kids (ms_group st) ++ [k]).
Proof.
  unfold Parser.add_group. destruct (is_cond_t (n_t (ms_group st))).
  - destruct (add_child (ms_group st) (reverse_left (ms_concat st))) as [g'| | |] eqn:Eg; cbn [of_res pbind]; try discriminate.
    match goal with |- (if ?c then _ else _) = _ -> _ => destruct c end; [discriminate|]. intros H. inversion H.
    destruct (add_child_inv _ _ _ Eg) as [k [_ Ek]]. eauto 6.
  - destruct (add_child (ms_alt st) (reverse_left (ms_concat st))) as [a'| | |]; cbn [of_res pbind]; try discriminate.
    destruct (add_child (ms_group st) a') as [g'| | |] eqn:Eg; cbn [of_res pbind]; try discriminate. intros H. inversion H.
    destruct (add_child_inv _ _ _ Eg) as [k [_ Ek]]. eauto 6.
Qed.

(* popGroup: the frame on top comes back; an expression conditional that has no child yet takes the unit as
   its condition *)
Lemma pop_group_cases st st' : pop_group st = POk st' ->
  exists g a c r, ms_stack st = (g, a, c) :: r /\
    ((n_t g = T_ExprCond /\ n_kids g = [] /\ exists u g', ms_unit st = Some u /\ add_child g u = Ok g' /\
        st' = mkMS r g' a c None (ms_o st) (ms_os st) (ms_ign st) (ms_autocap st)) \/
     ((n_t g = T_ExprCond -> n_kids g <> []) /\
        st' = mkMS r g a c (ms_unit st) (ms_o st) (ms_os st) (ms_ign st) (ms_autocap st))).
Proof.
  unfold Parser.pop_group. destruct (ms_stack st) as [|[[g a] c] r]; [discriminate|]. intros H.
  exists g, a, c, r. split; [reflexivity|].
  destruct (n_t g =? T_ExprCond) eqn:Et; cbn [andb] in H.
  - destruct (n_kids g) as [|k ks] eqn:Ek.
    + left. destruct (ms_unit st) as [u|]; [|discriminate].
      destruct (add_child g u) as [g'| | |] eqn:Eg; cbn [of_res pbind] in H; try discriminate.
      inversion H. repeat split; [lia | eauto 6].
    + right. inversion H. split; [discriminate | reflexivity].
  - right. inversion H. split; [intros T; lia | reflexivity].
Qed.

Lemma round_close_cases st1 p3 st' nxt : round_close st1 p3 = POk (st', nxt) ->
  exists st2 st3 o1 os1, add_group st1 = POk st2 /\ pop_group st2 = POk st3 /\ ms_os st3 = o1 :: os1 /\
    let st4 := mkMS (ms_stack st3) (ms_group st3) (ms_alt st3) (ms_concat st3) (ms_unit st3) o1 os1 (ms_ign st3) (ms_autocap st3) in
    (ms_unit st3 = None /\ st' = st4 /\ nxt = Some (p3, false)) \/
    (ms_unit st3 <> None /\ exists q' wq, after_unit st4 p3 = POk (st', q', wq) /\ nxt = Some (q', wq)).
Proof.
  unfold Parser.round_close. destruct (ms_stack st1); [discriminate|].
  destruct (add_group st1) as [st2|e q| | |] eqn:E2; cbn [pbind]; try discriminate.
  destruct (pop_group st2) as [st3|e q| | |] eqn:E3; cbn [pbind]; try discriminate.
  unfold pop_options. destruct (ms_os st3) as [|o1 os1] eqn:Eo; [discriminate|]. cbn [pbind ms_unit]. intros H.
  exists st2, st3, o1, os1. split; [reflexivity|]. split; [exact E3|]. split; [exact Eo|]. cbv zeta.
  destruct (ms_unit st3) as [u|].
  - right. split; [discriminate|].
    match type of H with pbind ?a _ = _ => destruct a as [[[st5 q5] wq]|e q0| | |] end; cbn [pbind] in H; try discriminate.
    inversion H; subst. eauto.
  - left. inversion H; subst. auto.
Qed.

Lemma round_open_ok tb mco st1 p3 : minv st1 -> ms_unit st1 = None ->
  round_res (round_open tb mco st1 p3) (length p3).
Proof.
  intros Iv Hu. unfold Parser.round_open.
  destruct (useRE2 (ms_o st1) && negb (ms_ign st1) && hd_is p3 63 && nth_is 1 p3 80 && nth_is 2 p3 61).
  { pose proof (python_backref_adv tb (ms_o st1) (skipn 3 p3)) as P. pose proof (skipn_len 3 p3) as SK.
    destruct (python_backref tb (ms_o st1) (skipn 3 p3)) as [[x q]|e q| | |]; cbn [pbind round_res]; try contradiction; try exact I; auto.
    destruct P as [P1 P2]. apply unit_then_ok; [exact Iv | exact P2 | lia]. }
  pose proof (group_open_gadv tb mco (n_t (ms_group st1)) (mkGV (ms_o st1) (ms_ign st1) (ms_autocap st1)) p3) as G.
  destruct (group_open tb mco (n_t (ms_group st1)) (mkGV (ms_o st1) (ms_ign st1) (ms_autocap st1)) p3) as [[[g v] q]|e q| | |];
    cbn [pbind round_res gadv] in *; try contradiction; try exact I; auto.
  destruct G as [G1 G2]. destruct Iv as [[Bg Ba Bc Bs Bu] D].
  destruct g as [gn|]; cbn [round_res].
  - split; [|split; [cbn; exact Hu | exact G1]].
    destruct G2 as [Gt Gk].
    split; [|cbn; lia].
    constructor; cbn.
    + split; [unfold kids_good; rewrite Gk; constructor | exact Gt].
    + split; [constructor | reflexivity].
    + split; [constructor | reflexivity].
    + constructor; [|exact Bs]. unfold frame_ok. auto.
    + rewrite Hu. exact I.
  - split; [|split; [cbn; exact Hu | exact G1]].
    split; [constructor; cbn; auto | cbn; exact D].
Qed.

Lemma round_close_ok st1 p3 : minv st1 ->
  round_res (round_close st1 p3) (length p3).
Proof.
  intros Iv. unfold Parser.round_close. destruct (ms_stack st1) as [|f r] eqn:Es; [exact I|].
  destruct Iv as [B D].
  pose proof (add_group_ok st1 B) as A.
  destruct (add_group st1) as [st2|e q| | |]; cbn [pbind round_res]; try contradiction; try exact I; auto.
  destruct A as [B2 [[S1 S2] U2]].
  pose proof (pop_group_ok st2 B2 ltac:(rewrite S1, Es; discriminate)) as P.
  destruct (pop_group st2) as [st3|e q| | |]; cbn [pbind round_res]; try contradiction; try exact I; auto.
  destruct P as [B3 [O3 L3]].
  assert (Hos : length (ms_os st3) = S (length (ms_stack st3))) by (rewrite O3, S2, D, <- S1, <- L3; reflexivity).
  unfold pop_options. destruct (ms_os st3) as [|o r3]; [cbn in Hos; lia|].
  cbn [pbind].
  set (st4 := mkMS (ms_stack st3) (ms_group st3) (ms_alt st3) (ms_concat st3) (ms_unit st3) o r3 (ms_ign st3) (ms_autocap st3)).
  assert (I4 : minv st4).
  { split.
    - destruct B3 as [Bg Ba Bc Bs Bu]. constructor; cbn; auto.
    - cbn in *. lia. }
  destruct (ms_unit st4) as [u|] eqn:Eu.
  - pose proof (after_unit_ok st4 p3 (proj1 I4) ltac:(congruence)) as A.
    destruct (after_unit st4 p3) as [[[st' q'] wq]|e q0| | |]; cbn [pbind round_res]; try contradiction; try exact I; auto.
    destruct A as [A1 [A2 [A3 A4]]]. split; [|split; [exact A2 | exact A4]].
    eapply minv_same; [exact I4 | exact A1 | exact A3].
  - cbn [round_res]. split; [exact I4 | split; [exact Eu | lia]].
Qed.

Lemma simple_unit_ok o ch :
  match simple_unit o ch with POk y => good y | PO => True | _ => False end.
Proof.
  unfold Parser.simple_unit.
  destruct (ch =? 94); [apply good_mk_node; destruct (useM o); try reflexivity; tnum; lia|].
  destruct (ch =? 36).
  { apply good_mk_node; destruct (useM o); try reflexivity; try (tnum; lia);
      destruct (useRE2 o || useE o); try reflexivity; tnum; lia. }
  destruct (useS o); [apply mk_node_set_ok|].
  destruct (useE o); [apply mk_node_set_ok|].
  apply mk_node_ch_ok; try reflexivity. tnum. lia.
Qed.

(* ---------------------------------------------------------------- one round, the loop, scanRegex *)
Lemma round_res_weaken r n m : round_res r n -> (n <= m)%nat -> round_res r m.
Proof.
  destruct r as [[st' [[q wq]|]]|e q| | |]; cbn [round_res]; intros H L; auto.
  destruct H as [H1 [H2 H3]]. split; [exact H1 | split; [exact H2 | lia]].
Qed.

Lemma minv_add_run st st1 : minv st -> mbody st1 -> same_nest st st1 -> minv st1.
Proof. apply minv_same. Qed.

(* the unit a round reads off a "[", a "\" or one of "^$.", and the text after it *)
Inductive round_unit (tb : captab) (o : Z) : Z -> list Z -> rnode -> list Z -> Prop :=
| RU_class p3 syn q x : cs_scan (S (length p3)) false o p3 = POk (syn, q) -> class_node o syn = POk x ->
    round_unit tb o 91 p3 x q
| RU_backslash p3 x q : scan_backslash_full false tb o p3 = POk (BNode x, q) -> round_unit tb o 92 p3 x q
| RU_simple ch p3 x : (ch =? 94) || (ch =? 36) || (ch =? 46) = true -> simple_unit o ch = POk x ->
    round_unit tb o ch p3 x p3.

(* the rounds of scanRegex that go through, by what stands at [p2] after the literal run [run] *)
Inductive round_case (tb : captab) (mco : bool) (st : mst) (run p2 : list Z) : mst -> option (list Z * bool) -> Prop :=
| RC_end st1 : p2 = [] -> add_run st run false = POk st1 -> round_case tb mco st run p2 st1 None
| RC_plain ch p3 st1 : p2 = ch :: p3 -> is_special ch = false -> add_run st run false = POk st1 ->
    round_case tb mco st run p2 st1 (Some (p2, false))
| RC_unit ch p3 st1 x q st' nxt : p2 = ch :: p3 -> (ch =? 40) = false -> add_run st run (is_quantifier ch) = POk st1 ->
    round_unit tb (ms_o st) ch p3 x q ->
    (pdo r <- after_unit (set_unit st1 (Some x)) q ; let '(st', q', wq) := r in POk (st', Some (q', wq))) = POk (st', nxt) ->
    round_case tb mco st run p2 st' nxt
| RC_open p3 st1 st' nxt : p2 = 40 :: p3 -> add_run st run false = POk st1 -> round_open tb mco st1 p3 = POk (st', nxt) ->
    round_case tb mco st run p2 st' nxt
| RC_alt p3 st1 st2 : p2 = 124 :: p3 -> add_run st run false = POk st1 -> add_alternate st1 = POk st2 ->
    round_case tb mco st run p2 st2 (Some (p3, false))
| RC_close p3 st1 st' nxt : p2 = 41 :: p3 -> add_run st run false = POk st1 -> round_close st1 p3 = POk (st', nxt) ->
    round_case tb mco st run p2 st' nxt
| RC_quant ch p3 st1 st' q' wq : p2 = ch :: p3 -> (ch =? 40) = false -> add_run st run (is_quantifier ch) = POk st1 ->
    ms_unit st1 <> None -> after_unit st1 p2 = POk (st', q', wq) ->
    round_case tb mco st run p2 st' (Some (q', wq)).

Lemma scan_round_cases tb mco st p wasq st' nxt : scan_round tb mco st p wasq = POk (st', nxt) ->
  exists p0 run p1 p2, scan_blank_full (ms_o st) p = POk p0 /\ take_run (ms_o st) p0 = (run, p1) /\
    scan_blank_full (ms_o st) p1 = POk p2 /\ round_case tb mco st run p2 st' nxt.
Proof.
  intros E. unfold Parser.scan_round in E.
  destruct (scan_blank_full (ms_o st) p) as [p0|e q| | |] eqn:E0; cbn [pbind] in E; try discriminate.
  destruct (take_run (ms_o st) p0) as [run p1] eqn:Er.
  destruct (scan_blank_full (ms_o st) p1) as [p2|e q| | |] eqn:E1; cbn [pbind] in E; try discriminate.
  exists p0, run, p1, p2. split; [reflexivity|]. split; [exact Er|]. split; [exact E1|]. clear E0 Er E1.
  destruct p2 as [|ch p3].
  { destruct (add_run st run false) as [st1| | | |] eqn:Ea; cbn [pbind] in E; try discriminate.
    inversion E; subst. apply RC_end; [reflexivity | exact Ea]. }
  destruct (is_special ch) eqn:Esp; cbn [negb] in E.
  2:{ destruct (add_run st run false) as [st1| | | |] eqn:Ea; cbn [pbind] in E; try discriminate.
      inversion E; subst. eapply RC_plain; [reflexivity | exact Esp | exact Ea]. }
  destruct (add_run st run (is_quantifier ch)) as [st1| | | |] eqn:Ea; cbn [pbind] in E; try discriminate.
  destruct (ch =? 91) eqn:C1.
  { assert (ch = 91) by lia. subst ch.
    destruct (cs_scan (S (length p3)) false (ms_o st) p3) as [[syn q]|e q| | |] eqn:ES; cbn [pbind] in E; try discriminate.
    destruct (class_node (ms_o st) syn) as [x| | | |] eqn:Ex; cbn [pbind] in E; try discriminate.
    eapply RC_unit; [reflexivity | reflexivity | exact Ea | eapply RU_class; eassumption | exact E]. }
  destruct (ch =? 40) eqn:C2.
  { assert (ch = 40) by lia. subst ch. eapply RC_open; [reflexivity | exact Ea | exact E]. }
  destruct (ch =? 124) eqn:C3.
  { assert (ch = 124) by lia. subst ch.
    destruct (add_alternate st1) as [st2|e q| | |] eqn:E2; cbn [pbind] in E; try discriminate.
    inversion E; subst. eapply RC_alt; [reflexivity | exact Ea | exact E2]. }
  destruct (ch =? 41) eqn:C4.
  { assert (ch = 41) by lia. subst ch. eapply RC_close; [reflexivity | exact Ea | exact E]. }
  destruct (ch =? 92) eqn:C5.
  { assert (ch = 92) by lia. subst ch.
    destruct (scan_backslash_full false tb (ms_o st) p3) as [[b q]|e q| | |] eqn:EB; cbn [pbind] in E; try discriminate.
    destruct b as [x|]; [|discriminate].
    eapply RC_unit; [reflexivity | reflexivity | exact Ea | apply RU_backslash; exact EB | exact E]. }
  destruct ((ch =? 94) || (ch =? 36) || (ch =? 46)) eqn:C6.
  { destruct (simple_unit (ms_o st) ch) as [x| | | |] eqn:Ex; cbn [pbind] in E; try discriminate.
    eapply RC_unit; [reflexivity | exact C2 | exact Ea | apply RU_simple; [exact C6 | exact Ex] | exact E]. }
  destruct ((ch =? 123) || (ch =? 42) || (ch =? 43) || (ch =? 63)); [|discriminate].
  destruct (ms_unit st1) as [u|] eqn:Eu; [|discriminate].
  destruct (after_unit st1 (ch :: p3)) as [[[st2 q2] wq]|e q0| | |] eqn:EA; cbn [pbind] in E; try discriminate.
  inversion E; subst. eapply RC_quant; [reflexivity | exact C2 | exact Ea | rewrite Eu; discriminate | exact EA].
Qed.

Lemma scan_round_ok tb mco st p wasq : minv st -> ms_unit st = None -> p <> [] ->
  round_res (scan_round tb mco st p wasq) (pred (length p)).
Proof.
  intros Iv Hu Hp. unfold Parser.scan_round.
  pose proof (scan_blank_full_adv (ms_o st) p) as B0.
  destruct (scan_blank_full (ms_o st) p) as [p0|e q| | |] eqn:E0; cbn [pbind padv0 round_res] in *; try contradiction; try exact I.
  destruct (take_run (ms_o st) p0) as [run p1] eqn:Er.
  pose proof (take_run_len _ _ _ _ Er) as Lr.
  pose proof (scan_blank_full_adv (ms_o st) p1) as B1.
  destruct (scan_blank_full (ms_o st) p1) as [p2|e q| | |] eqn:E1; cbn [pbind padv0 round_res] in *; try contradiction; try exact I.
  destruct p2 as [|ch p3].
  { (* the end of the pattern *)
    pose proof (add_run_ok st run false (proj1 Iv) Hu) as A.
    destruct (add_run st run false) as [st1| | | |]; cbn [pbind round_res]; try contradiction; try exact I.
    destruct A as [A1 [A2 _]]. eapply minv_same; [exact Iv | exact A1 | exact A2]. }
  cbn [length] in B1.
  destruct (negb (is_special ch)) eqn:Esp.
  { (* an ordinary character after blanks: the round must have moved *)
    pose proof (add_run_ok st run false (proj1 Iv) Hu) as A.
    destruct (add_run st run false) as [st1| | | |]; cbn [pbind round_res]; try contradiction; try exact I.
    destruct A as [A1 [A2 [A3 _]]].
    split; [eapply minv_same; [exact Iv | exact A1 | exact A2]|].
    split; [destruct (ms_unit st1); [destruct (A3 ltac:(discriminate)) as [_ F]; discriminate | reflexivity]|].
    cbn [length].
    destruct run as [|r0 run'].
    - (* nothing taken: the character in front is a stopper that is not special, i.e. a blank, which scanBlank skips *)
      exfalso. cbn [length] in Lr.
      assert (p1 = p0) by (pose proof (take_run_app _ _ _ _ Er) as Ea; cbn [app] in Ea; congruence). subst p1.
      unfold scan_blank_full in E0, E1. rewrite (blank_idem _ _ _ _ E0) in E1. inversion E1; subst p0.
      pose proof (take_run_nil_head _ _ _ Er) as St.
      destruct (blank_head_full _ _ _ _ _ E0) as [H1 [H2 _]].
      unfold is_stopper in St. destruct (useX (ms_o st)); [|rewrite St in Esp; discriminate].
      destruct (stopper_not_special_is_blank ch St ltac:(destruct (is_special ch); [discriminate | reflexivity])) as [S|S].
      + rewrite S in H1. discriminate.
      + subst ch. discriminate.
    - cbn [length] in Lr. lia. }
  (* a special character *)
  assert (Lp3 : (length p3 <= pred (length p))%nat) by lia.
  pose proof (add_run_ok st run (is_quantifier ch) (proj1 Iv) Hu) as A.
  destruct (add_run st run (is_quantifier ch)) as [st1| | | |] eqn:Ea; cbn [pbind round_res]; try contradiction; try exact I.
  destruct A as [A1 [A2 [A3 A4]]].
  assert (I1 : minv st1) by (eapply minv_same; [exact Iv | exact A1 | exact A2]).
  assert (NQ : is_quantifier ch = false -> ms_unit st1 = None).
  { intros Hq. destruct (ms_unit st1); [|reflexivity]. destruct (A3 ltac:(discriminate)) as [_ F]. congruence. }
  destruct (ch =? 91) eqn:C1.
  { pose proof (cs_scan_adv is_word_char to_lower simple_fold participates cat_in cat_name (S (length p3)) false (ms_o st) p3 ltac:(lia)) as CS.
    destruct (cs_scan (S (length p3)) false (ms_o st) p3) as [[syn q]|e q| | |]; cbn [pbind padv round_res] in *; try contradiction; try exact I.
    pose proof (class_node_ok (ms_o st) syn) as CN.
    destruct (class_node (ms_o st) syn) as [x| | | |]; cbn [pbind round_res]; try contradiction; try exact I.
    apply unit_then_ok; [exact I1 | exact CN | lia]. }
  destruct (ch =? 40) eqn:C2.
  { eapply round_res_weaken; [apply round_open_ok; [exact I1|] | exact Lp3].
    apply NQ. assert (ch = 40) by lia. subst ch. reflexivity. }
  destruct (ch =? 124) eqn:C3.
  { destruct (add_alternate_ok st1 (proj1 I1)) as [st2 [E2 [B2 [N2 U2]]]]. rewrite E2. cbn [pbind round_res].
    split; [eapply minv_same; [exact I1 | exact B2 | exact N2]|].
    split; [rewrite U2; apply NQ; assert (ch = 124) by lia; subst ch; reflexivity | exact Lp3]. }
  destruct (ch =? 41) eqn:C4.
  { eapply round_res_weaken; [apply round_close_ok; exact I1 | exact Lp3]. }
  destruct (ch =? 92) eqn:C5.
  { pose proof (scan_backslash_full_badv false tb (ms_o st) p3) as SB.
    destruct (scan_backslash_full false tb (ms_o st) p3) as [[b q]|e q| | |]; cbn [pbind badv round_res] in *; try contradiction; try exact I.
    destruct SB as [S1 [S2 S3]].
    destruct b as [x|]; [|exfalso; apply (S3 eq_refl); reflexivity].
    cbn [pbind]. apply unit_then_ok; [exact I1 | exact S2 | lia]. }
  destruct ((ch =? 94) || (ch =? 36) || (ch =? 46)) eqn:C6.
  { pose proof (simple_unit_ok (ms_o st) ch) as SU.
    destruct (simple_unit (ms_o st) ch) as [x| | | |]; cbn [pbind round_res]; try contradiction; try exact I.
    apply unit_then_ok; [exact I1 | exact SU | exact Lp3]. }
  destruct ((ch =? 123) || (ch =? 42) || (ch =? 43) || (ch =? 63)) eqn:C7; [|exact I].
  destruct (ms_unit st1) as [u|] eqn:Eu; [|exact I].
  destruct (A3 ltac:(discriminate)) as [Hrun _].
  pose proof (after_unit_ok st1 (ch :: p3) (proj1 I1) ltac:(congruence)) as AU.
  destruct (after_unit st1 (ch :: p3)) as [[[st' q'] wq]|e q0| | |]; cbn [pbind round_res]; try contradiction; try exact I.
  destruct AU as [U1 [U2 [U3 U4]]].
  split; [eapply minv_same; [exact I1 | exact U1 | exact U3]|]. split; [exact U2|].
  cbn [length] in U4. destruct run as [|r0 run']; [congruence|]. cbn [length] in Lr. lia.
Qed.

Lemma scan_loop_full_ok tb mco fuel : forall st p wasq, minv st -> ms_unit st = None -> (length p < fuel)%nat ->
  match scan_loop_full fuel tb mco st p wasq with
  | POk st' => minv st'
  | PE _ _ | PO => True
  | _ => False
  end.
Proof.
  induction fuel as [|f IH]; intros st p wasq Iv Hu Hf; [lia|].
  cbn [Parser.scan_loop_full]. destruct p as [|c p']; [exact Iv|].
  pose proof (scan_round_ok tb mco st (c :: p') wasq Iv Hu ltac:(discriminate)) as R.
  destruct (scan_round tb mco st (c :: p') wasq) as [[st' [[q wq]|]]|e q| | |]; cbn [pbind round_res] in *; try contradiction; try exact I.
  - destruct R as [R1 [R2 R3]]. apply IH; [exact R1 | exact R2 | cbn [length] in *; lia].
  - exact R.
Qed.

Lemma scan_regex_ok tb mco o p : psafe (scan_regex tb mco o p).
Proof.
  unfold Parser.scan_regex.
  set (st0 := mkMS [] (mk_node_mn T_Capture o 0 (-1)) (mk_node T_Alternate o) (mk_node T_Concatenate o) None o [] false 1).
  assert (I0 : minv st0).
  { split; [|reflexivity]. constructor; cbn; auto.
    - split; [constructor | reflexivity].
    - split; [constructor | reflexivity].
    - split; [constructor | reflexivity]. }
  pose proof (scan_loop_full_ok tb mco (S (length p)) st0 p false I0 eq_refl ltac:(lia)) as L.
  destruct (scan_loop_full (S (length p)) tb mco st0 p false) as [st| | | |]; cbn [pbind psafe]; try contradiction; try exact I.
  destruct (ms_stack st); [|exact I].
  pose proof (add_group_ok st (proj1 L)) as A.
  destruct (add_group st) as [st'| | | |]; cbn [pbind psafe]; try contradiction; try exact I.
  destruct A as [_ [_ U]]. destruct (ms_unit st'); [exact I | congruence].
Qed.

End Main.

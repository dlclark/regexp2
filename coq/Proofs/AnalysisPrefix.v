(* C04, part 3: soundness of the leading literal computed by tryFindPrefix (Analysis.try_find_prefix):
   on a left-to-right pattern every match reads, from the attempt position on, text whose UTF-8
   encoding starts with the published bytes. *)
From Coq Require Import ZifyBool.
From Verif Require Import Base.Prelude Base.Utf8 Model.Tree Model.Spec Model.Analysis
     Proofs.SpecProofs Proofs.Utf8Proofs Proofs.AnalysisReach Proofs.AnalysisProofs.

From Verif Require Import Proofs.ListFacts.

(* ScanBumpProofs.bp_prefix is the same relation at an arbitrary element type *)
Definition an_prefix (a b : list Z) : Prop := exists r, b = a ++ r.

Lemma an_prefix_nil a : an_prefix [] a.
Proof. exists a. reflexivity. Qed.

Lemma an_prefix_refl a : an_prefix a a.
Proof. exists []. rewrite app_nil_r. reflexivity. Qed.

Lemma an_prefix_trans a b c : an_prefix a b -> an_prefix b c -> an_prefix a c.
Proof. intros [r ->] [r' ->]. exists (r ++ r'). rewrite app_assoc. reflexivity. Qed.

Lemma an_prefix_app a b c : an_prefix b c -> an_prefix (a ++ b) (a ++ c).
Proof. intros [r ->]. exists r. rewrite app_assoc. reflexivity. Qed.

Lemma an_prefix_app_r a b c : an_prefix a b -> an_prefix a (b ++ c).
Proof. intros [r ->]. exists (r ++ c). rewrite app_assoc. reflexivity. Qed.

Lemma an_prefix_firstn n (l : list Z) : an_prefix (firstn n l) l.
Proof. exists (skipn n l). symmetry. apply firstn_skipn. Qed.

Lemma an_prefix_firstn_le i j (l : list Z) : (i <= j)%nat -> an_prefix (firstn i l) (firstn j l).
Proof.
  intros Hij. replace (firstn i l) with (firstn i (firstn j l)); [apply an_prefix_firstn|].
  rewrite firstn_firstn. f_equal. lia.
Qed.

Lemma an_cpl_le a : forall b, (common_prefix_len a b <= length a)%nat.
Proof.
  induction a as [|x a IH]; intros b; cbn [common_prefix_len length]; [lia|].
  destruct b as [|y b]; [lia|]. destruct (x =? y); [specialize (IH b)|]; lia.
Qed.

Lemma an_cpl_prefix a : forall b, an_prefix (firstn (common_prefix_len a b) a) b.
Proof.
  induction a as [|x a IH]; intros b; cbn [common_prefix_len].
  - cbn. apply an_prefix_nil.
  - destruct b as [|y b]; [cbn; apply an_prefix_nil|].
    destruct (x =? y) eqn:E; [|cbn; apply an_prefix_nil].
    assert (x = y) by lia. subst y. cbn [firstn].
    apply (an_prefix_app [x]). apply IH.
Qed.

Lemma an_repeat_bytes_app b : forall i j, repeat_bytes (i + j) b = repeat_bytes i b ++ repeat_bytes j b.
Proof.
  induction i as [|i IH]; intros j; cbn [repeat_bytes Nat.add]; [reflexivity|].
  rewrite IH, app_assoc. reflexivity.
Qed.

Lemma an_repeat_bytes_le b i j : (i <= j)%nat -> an_prefix (repeat_bytes i b) (repeat_bytes j b).
Proof.
  intros Hij. replace j with (i + (j - i))%nat by lia. rewrite an_repeat_bytes_app.
  exists (repeat_bytes (j - i) b). reflexivity.
Qed.

Lemma an_encode_string_app a b : encode_string (a ++ b) = encode_string a ++ encode_string b.
Proof. unfold encode_string. apply flat_map_app. Qed.

Lemma an_encode_string_repeat c : forall n, encode_string (repeat c n) = repeat_bytes n (encode c).
Proof.
  induction n as [|n IH]; cbn [repeat repeat_bytes]; [reflexivity|].
  change (c :: repeat c n) with ([c] ++ repeat c n). rewrite an_encode_string_app, IH.
  unfold encode_string at 1. cbn [flat_map]. rewrite app_nil_r. reflexivity.
Qed.

Lemma an_encode_string_prefix a b : an_prefix a b -> an_prefix (encode_string a) (encode_string b).
Proof. intros [r ->]. rewrite an_encode_string_app. exists (encode_string r). reflexivity. Qed.

(* the alternation loop of tryFindPrefix ([fixed = true], the source as it is): the kept length only shrinks, and what is
   kept is a prefix of every branch seen *)
Lemma an_alt_prefix_fold (first : list Z) : forall others k0,
  let k := fold_left (alt_prefix_step true first) others k0 in
  (k <= k0)%nat /\ forall br, In br others -> an_prefix (firstn k first) br.
Proof.
  induction others as [|b others IH]; intros k0; cbn [fold_left].
  - split; [lia|]. intros br [].
  - specialize (IH (alt_prefix_step true first k0 b)). cbv zeta in IH. destruct IH as [Hle Hall].
    assert (Hstep : (alt_prefix_step true first k0 b <= k0)%nat /\
                    an_prefix (firstn (alt_prefix_step true first k0 b) first) b).
    { unfold alt_prefix_step. destruct k0 as [|k0]; [split; [lia|cbn; apply an_prefix_nil]|].
      pose proof (an_cpl_le (firstn (S k0) first) b) as Hl.
      pose proof (firstn_le_length (S k0) first) as Hl2.
      split; [lia|].
      pose proof (an_cpl_prefix (firstn (S k0) first) b) as Hp.
      rewrite firstn_firstn in Hp. rewrite Nat.min_l in Hp by lia. exact Hp. }
    destruct Hstep as [Hs1 Hs2].
    split; [lia|]. intros br [<-|Hin].
    + eapply an_prefix_trans; [apply an_prefix_firstn_le; exact Hle|exact Hs2].
    + apply Hall. exact Hin.
Qed.

Section Prefix.
Variable e : env.

Definition slice (p q : Z) : list Z := firstn (Z.to_nat (q - p)) (skipn (Z.to_nat p) (txt e)).

Lemma an_slice_nil p : slice p p = [].
Proof. unfold slice. replace (p - p) with 0 by lia. reflexivity. Qed.

Lemma an_slice_app p q r : 0 <= p <= q -> q <= r -> slice p r = slice p q ++ slice q r.
Proof.
  intros Hpq Hqr. unfold slice.
  replace (Z.to_nat (r - p)) with (Z.to_nat (q - p) + Z.to_nat (r - q))%nat by lia.
  rewrite firstn_add. f_equal. f_equal.
  replace (Z.to_nat q) with (Z.to_nat p + Z.to_nat (q - p))%nat by lia.
  rewrite skipn_add. reflexivity.
Qed.

Lemma an_skipn_nth (l : list Z) : forall n, (n < length l)%nat -> firstn 1 (skipn n l) = [nth n l 0].
Proof.
  induction l as [|x l IH]; intros n Hn; cbn [length] in Hn; [lia|].
  destruct n as [|n]; [reflexivity|]. cbn [skipn nth]. apply IH. lia.
Qed.

Lemma an_slice_one p : 0 <= p < tlen e -> slice p (p + 1) = [char_at e p].
Proof.
  intros Hp. unfold slice, char_at. replace (p + 1 - p) with 1 by lia.
  change (Z.to_nat 1) with 1%nat. apply an_skipn_nth. unfold tlen, zlen in Hp. lia.
Qed.

Lemma an_slice_prefix_from p q : an_prefix (slice p q) (skipn (Z.to_nat p) (txt e)).
Proof. unfold slice. apply an_prefix_firstn. Qed.

Lemma an_str_match_slice : forall str p,
  0 <= p -> str_match_at e false str p = true -> zlen str <= tlen e - p -> slice p (p + zlen str) = str.
Proof.
  induction str as [|c str IH]; intros p Hp Hm Hlen.
  - unfold zlen. cbn [length]. replace (p + Z.of_nat 0) with p by lia. apply an_slice_nil.
  - cbn [str_match_at] in Hm. apply andb_true_iff in Hm. destruct Hm as [Hc Hrest].
    assert (Hz : zlen (c :: str) = 1 + zlen str) by (unfold zlen; cbn [length]; lia).
    rewrite Hz in *.
    assert (Hz0 : 0 <= zlen str) by (unfold zlen; lia).
    rewrite (an_slice_app p (p + 1) (p + (1 + zlen str))) by lia.
    rewrite an_slice_one by lia.
    replace (p + (1 + zlen str)) with (p + 1 + zlen str) by lia.
    rewrite IH by (try assumption; lia).
    assert (c = char_at e p) by lia. subst c. reflexivity.
Qed.

(* a run of the character c, read left to right *)
Lemma an_run_slice (c o : Z) : is_rtl o = false -> forall maxn p j,
  0 <= p -> 0 <= j <= run_len e COne c o maxn p -> slice p (p + j) = repeat c (Z.to_nat j).
Proof.
  intros Ho. induction maxn as [|m IH]; intros p j Hp Hj; cbn [run_len] in Hj.
  - assert (j = 0) by lia. subst j. replace (p + 0) with p by lia. apply an_slice_nil.
  - destruct (Z.eq_dec j 0) as [->|Hj0].
    { replace (p + 0) with p by lia. apply an_slice_nil. }
    unfold avail, next_char, dir in Hj. rewrite Ho in Hj. cbn [char_test] in Hj.
    destruct ((0 <? tlen e - p) && (char_at e p =? c)) eqn:Ec; [|lia].
    rewrite (an_slice_app p (p + 1) (p + j)) by lia.
    rewrite an_slice_one by lia.
    replace (p + j) with (p + 1 + (j - 1)) by lia.
    rewrite (IH (p + 1) (j - 1)) by lia.
    replace (Z.to_nat j) with (S (Z.to_nat (j - 1))) by lia. cbn [repeat app].
    assert (char_at e p = c) by lia. congruence.
Qed.

Definition enc_slice (s y : st) : list Z := encode_string (slice (pos s) (pos y)).

(* (bytes, continue) is sound for the text read between s and y *)
Definition pref_ok (bc : list Z * bool) (s y : st) : Prop :=
  an_prefix (fst bc) (enc_slice s y) /\ (snd bc = true -> fst bc = enc_slice s y).

Definition QT (t : node) (s y : st) : Prop := pref_ok (try_find_prefix_gen true t) s y.

Definition QS (l : list node) (s y : st) : Prop :=
  forall last, pref_ok (concat_prefix (map (try_find_prefix_gen true) l) last) s y.

Definition QI (r : node) (limit : Z) (s : st) (count : Z) (y : st) : Prop :=
  0 <= limit -> snd (try_find_prefix_gen true r) = true ->
  exists k : nat, enc_slice s y = repeat_bytes k (fst (try_find_prefix_gen true r)) /\
                  (count < 0 -> - count <= Z.of_nat k) /\ (count <= limit -> Z.of_nat k <= limit - count).

Lemma an_pref_trivial s y : pref_ok ([], false) s y.
Proof. split; [apply an_prefix_nil|discriminate]. Qed.

Lemma an_pref_zero s : pref_ok ([], true) s s.
Proof. unfold pref_ok, enc_slice. rewrite an_slice_nil. split; [apply an_prefix_nil|reflexivity]. Qed.

Lemma an_enc_slice_trans s s1 y :
  0 <= pos s <= pos s1 -> pos s1 <= pos y -> enc_slice s y = enc_slice s s1 ++ enc_slice s1 y.
Proof. intros H1 H2. unfold enc_slice. rewrite (an_slice_app _ (pos s1)) by lia. apply an_encode_string_app. Qed.

Lemma an_prefix_all :
  (forall t s y, Run e false no_ci_lit t s y -> QT t s y) /\
  (forall l s y, RunSeq e false no_ci_lit l s y -> QS l s y) /\
  (forall r limit s count y, RunIter e false no_ci_lit r limit s count y -> QI r limit s count y).
Proof.
  apply Run_mutind; unfold QT.
  - (* W_char *)
    intros k o c s [Hs _] Hb Hc. cbn [try_find_prefix_gen].
    destruct k; try apply an_pref_trivial.
    cbn [shape_ok] in Hs. apply eqb_prop in Hs.
    apply andb_true_iff in Hc. destruct Hc as [Hav Hch].
    unfold avail, next_char, dir in *. rewrite Hs in *. cbn [char_test] in Hch. cbn [negb].
    unfold inb in Hb. unfold pref_ok, enc_slice. cbn [pos with_pos fst snd].
    rewrite an_slice_one by lia. assert (char_at e (pos s) = c) as -> by lia.
    unfold encode_string. cbn [flat_map]. rewrite app_nil_r.
    split; [apply an_prefix_refl|reflexivity].
  - (* W_charloop: Oneloop and Onelazy publish the same *)
    intros k l o c m n s y [Hs _] Hb Hin. cbn [try_find_prefix_gen].
    destruct k; try apply an_pref_trivial.
    destruct (m <=? 0) eqn:Em; [destruct l; apply an_pref_trivial|].
    set (count := if m <? 32 then m else 32).
    assert (G : pref_ok (repeat_bytes (Z.to_nat count) (encode c), (count =? n) && negb (is_rtl o)) s y);
      [|destruct l; [exact G|exact G|apply an_pref_trivial]].
    cbn [shape_ok] in Hs. apply andb_true_iff in Hs. destruct Hs as [Hs Hmn]. apply andb_true_iff in Hs. destruct Hs as [Hs Hm0].
    apply eqb_prop in Hs.
    apply an_charloop_in in Hin. destruct Hin as [j [maxn [-> [Hj [_ Hjn]]]]].
    unfold dir. rewrite Hs. unfold inb in Hb.
    unfold pref_ok, enc_slice. cbn [pos with_pos fst snd].
    replace (pos s + 1 * j) with (pos s + j) by lia.
    rewrite (an_run_slice c o Hs maxn (pos s) j) by lia.
    rewrite an_encode_string_repeat.
    assert (Hc : 0 < count <= m) by (subst count; destruct (m <? 32) eqn:E; lia).
    split.
    + apply an_repeat_bytes_le. lia.
    + intros Hx. apply andb_true_iff in Hx. destruct Hx as [Hcn' _].
      assert (Hn2 : n <> INF) by (unfold INF; subst count; destruct (m <? 32) eqn:E32; lia).
      specialize (Hjn Hn2). f_equal. lia.
  - (* W_multi *)
    intros o str s y [Hs Hn] Hb Hin. cbn [try_find_prefix_gen shape_ok no_ci_lit] in *.
    apply eqb_prop in Hs. apply negb_true_iff in Hn.
    apply an_multi_in in Hin. destruct Hin as [-> [Hav Hm]].
    unfold avail, dir in *. rewrite Hs, Hn in *. unfold inb in Hb.
    unfold pref_ok, enc_slice. cbn [pos with_pos fst snd negb].
    replace (pos s + 1 * zlen str) with (pos s + zlen str) by lia.
    rewrite an_str_match_slice by (try assumption; lia).
    split; [apply an_prefix_refl|reflexivity].
  - (* W_ref *) intros; apply an_pref_trivial.
  - (* W_anchor *) intros; apply an_pref_zero.
  - (* W_empty *) intros; apply an_pref_zero.
  - (* W_bump *) intros; apply an_pref_zero.
  - (* W_concat *) intros o l s y _ IH. apply IH.
  - (* W_alt *)
    intros o l x s y _ Hin _ IH _. cbn [try_find_prefix_gen].
    destruct (is_rtl o); [apply an_pref_trivial|]. destruct IH as [Hp _].
    assert (Hi : In (fst (try_find_prefix_gen true x)) (map (fun x => fst (try_find_prefix_gen true x)) l)).
    { apply (in_map (fun x => fst (try_find_prefix_gen true x))). exact Hin. }
    destruct (map (fun x => fst (try_find_prefix_gen true x)) l) as [|first others]; [destruct Hi|].
    split; [|discriminate]. cbn [fst].
    destruct (an_alt_prefix_fold first others (length first)) as [Hle Hall].
    eapply an_prefix_trans; [|exact Hp].
    destruct Hi as [<-|Hi]; [apply an_prefix_firstn|apply Hall; exact Hi].
  - (* W_loop0 *) intros; apply an_pref_trivial.
  - (* W_loop1 *)
    intros lazy o m n r s s1 y _ Hmn _ IH1 _ IH2 Hb Hf1 Hf2. cbn [try_find_prefix_gen].
    replace (m <=? 0) with false by lia. unfold inb in Hb. unfold disp in Hf1, Hf2.
    destruct IH1 as [Hp1 He1].
    destruct (try_find_prefix_gen true r) as [b c] eqn:Etf. cbn [fst snd] in *.
    destruct c.
    + specialize (He1 eq_refl).
      destruct (IH2 ltac:(apply an_loop_limit_nonneg; lia) ltac:(rewrite Etf; reflexivity)) as [k [Hk [Hklo Hkhi]]]. rewrite Etf in Hk. cbn [fst] in Hk.
      unfold pref_ok. cbn [fst snd].
      rewrite (an_enc_slice_trans s s1 y) by lia. rewrite Hk, <- He1.
      change (b ++ repeat_bytes k b) with (repeat_bytes (S k) b).
      set (lim := if m <? 4 then m else 4).
      assert (Hl : 0 < lim <= m) by (subst lim; destruct (m <? 4) eqn:E4; lia).
      assert (Hmk : m <= Z.of_nat (S k)).
      { destruct (Z.eq_dec m 1); [lia|]. specialize (Hklo ltac:(lia)). lia. }
      split.
      * apply an_repeat_bytes_le. lia.
      * intros Hx. apply andb_true_iff in Hx. destruct Hx as [Hln _].
        assert (Hn2 : (n =? INF) = false) by (unfold INF; subst lim; destruct (m <? 4) eqn:E4; lia).
        unfold loop_limit in Hkhi. rewrite Hn2 in Hkhi. specialize (Hkhi ltac:(lia)).
        f_equal. lia.
    + split; [|discriminate]. cbn [fst].
      rewrite (an_enc_slice_trans s s1 y) by lia. apply an_prefix_app_r. exact Hp1.
  - (* W_capture *)
    intros o g u r s s1 y _ IH Hy. cbn [try_find_prefix_gen]. unfold pref_ok, enc_slice in *. rewrite Hy. exact IH.
  - (* W_group *) intros; apply an_pref_trivial.
  - (* W_poslook *)
    intros o r s y Hy. cbn [try_find_prefix_gen].
    unfold pref_ok, enc_slice. rewrite Hy, an_slice_nil. cbn [fst snd].
    split; [apply an_prefix_nil|reflexivity].
  - (* W_neglook *) intros; apply an_pref_zero.
  - (* W_atomic *) intros r s y _ IH. exact IH.
  - (* W_brc *) intros; apply an_pref_trivial.
  - (* W_ec *) intros; apply an_pref_trivial.
  - (* WS_nil *)
    intros s last. cbn [map concat_prefix].
    unfold pref_ok, enc_slice. rewrite an_slice_nil. cbn [fst snd].
    split; [apply an_prefix_nil|reflexivity].
  - (* WS_cons *)
    intros x l s s1 y _ _ _ IH1 _ IH2 Hb Hf1 Hf2 last. unfold inb in Hb. unfold disp in Hf1, Hf2.
    destruct IH1 as [Hp1 He1]. destruct (IH2 last) as [Hp2 He2].
    cbn [map concat_prefix].
    destruct (try_find_prefix_gen true x) as [b c]. cbn [fst snd] in *.
    destruct c.
    + specialize (He1 eq_refl).
      destruct (concat_prefix (map (try_find_prefix_gen true) l) last) as [b' c']. cbn [fst snd] in *.
      unfold pref_ok. cbn [fst snd].
      rewrite (an_enc_slice_trans s s1 y) by lia. rewrite <- He1.
      split; [apply an_prefix_app; exact Hp2|]. intros Hc'. rewrite (He2 Hc'). reflexivity.
    + split; [|discriminate]. cbn [fst].
      rewrite (an_enc_slice_trans s s1 y) by lia. apply an_prefix_app_r. exact Hp1.
  - (* WI_stop *)
    intros r limit s count _ Hc Hlim Hsnd. exists 0%nat.
    unfold enc_slice. rewrite an_slice_nil. cbn [repeat_bytes]. split; [reflexivity|]. lia.
  - (* WI_more *)
    intros r limit s count s1 y Hc _ IH1 _ IH2 Hb Hf1 Hf2 Hlim Hsnd. unfold inb in Hb. unfold disp in Hf1, Hf2.
    destruct IH1 as [_ He1]. specialize (He1 Hsnd).
    destruct (IH2 Hlim Hsnd) as [k [Hk [Hklo Hkhi]]].
    exists (S k). rewrite (an_enc_slice_trans s s1 y) by lia. rewrite Hk, <- He1.
    split; [reflexivity|]. split; intros; lia.
Qed.

Lemma an_prefix_reach t s y :
  Reach e t s y -> shape_ok false t = true -> no_ci_lit t = true -> inb e s -> caps_nonneg (caps s) ->
  pref_ok (try_find_prefix_gen true t) s y.
Proof.
  intros Hr Hs Hn Hb Hcn.
  exact (proj1 an_prefix_all _ _ _ (proj1 (reach_run e false no_ci_lit an_no_ci_kids) _ _ _ Hr (conj Hs Hn) Hb Hcn)).
Qed.

Theorem an_find_prefix_sound fuel root p s' :
  shape_ok false root = true -> no_ci_lit root = true -> 0 <= p <= tlen e ->
  attempt e fuel root p = Ok (Some s') ->
  an_prefix (find_prefix root) (encode_string (skipn (Z.to_nat p) (txt e))).
Proof.
  intros Hs Hn Hp Ha.
  destruct (an_prefix_reach _ _ _ (attempt_reach e _ _ _ _ Ha) Hs Hn Hp an_caps_nonneg_nil) as [Hpre _].
  unfold find_prefix, try_find_prefix. eapply an_prefix_trans; [exact Hpre|].
  unfold enc_slice. cbn [pos]. apply an_encode_string_prefix. apply an_slice_prefix_from.
Qed.

End Prefix.

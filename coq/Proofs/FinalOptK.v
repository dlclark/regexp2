(* C05, proofs part 2: "same first result under a continuation".
   K : st -> list st stands for what follows a node up to the end of the enclosing atomic scope (the results
   of the rest from a state).  [HK K t t'] : from every state, t followed by K and t' followed by K have the
   same FIRST result.  HK is a congruence for every constructor, with the continuation of a child written
   out (kseq, kcap, identity inside Atomic / lookarounds / conditions, any continuation inside a loop). *)
From Verif Require Import Base.Prelude Model.Tree Model.Spec Model.Rewrite
  Proofs.SpecProofs Proofs.SpecBoundsProofs Proofs.SpecTermProofs Proofs.RewriteProofs Proofs.FinalOptDen.
From Coq Require Import ZifyBool.

Definition hq {A} (a b : list A) : Prop := hd_list a = hd_list b.

Lemma hq_refl {A} (a : list A) : hq a a.
Proof. reflexivity. Qed.
Lemma hq_sym {A} (a b : list A) : hq a b -> hq b a.
Proof. unfold hq. congruence. Qed.
Lemma hq_trans {A} (a b c : list A) : hq a b -> hq b c -> hq a c.
Proof. unfold hq. congruence. Qed.
Lemma hq_nil {A} (a b : list A) : hq a b -> a = [] -> b = [].
Proof. exact (hd_list_nil_inv a b). Qed.
Lemma hq_nil_iff {A} (a b : list A) : hq a b -> (a = [] <-> b = []).
Proof. intros H. split; [apply hq_nil; exact H | apply hq_nil, hq_sym; exact H]. Qed.

Lemma hq_app {A} (a a' b b' : list A) : hq a a' -> hq b b' -> hq (a ++ b) (a' ++ b').
Proof. exact (hd_list_app_congr a a' b b'). Qed.

Lemma hq_flat_map_in {A B} (F F' : A -> list B) (l : list A) :
  (forall a, In a l -> hq (F a) (F' a)) -> hq (flat_map F l) (flat_map F' l).
Proof.
  intros H. induction l as [|a l IH]; cbn [flat_map]; [reflexivity|].
  apply hq_app; [apply H; left; reflexivity | apply IH; intros b Hb; apply H; right; exact Hb].
Qed.

Lemma hq_flat_map {A B} (F F' : A -> list B) (l : list A) :
  (forall a, hq (F a) (F' a)) -> hq (flat_map F l) (flat_map F' l).
Proof. intros H. apply hq_flat_map_in. intros a _. apply H. Qed.

Lemma flat_map_single {A} (l : list A) : flat_map (fun a => [a]) l = l.
Proof. induction l as [|a l IH]; cbn; [reflexivity|]. rewrite IH. reflexivity. Qed.

Section K.
Variable e : env.
Notation den := (den e).
Notation den_seq := (den_seq e).
Notation sok := (st_ok e).

(* states stay inside the text: every statement below is about such states *)
Definition okl (l : list st) : Prop := Forall sok l.
Definition okp (t : node) : Prop := forall s, sok s -> okl (den t s).
Definition okps (l : list node) : Prop := forall s, sok s -> okl (den_seq l s).

Lemma okp_lmo t : loops_min_ok t -> okp t.
Proof.
  intros H s Hs. destruct (fd_den_evals e t s) as [f Hf]. exact (sb_sem_in_bounds e f t s _ H Hf Hs).
Qed.

Lemma okl_flat_map (F : st -> list st) l : okl l -> (forall a, sok a -> okl (F a)) -> okl (flat_map F l).
Proof.
  intros Hl HF. induction Hl as [|a l Ha Hl IH]; cbn [flat_map]; [constructor|].
  apply Forall_app. split; [apply HF; exact Ha | exact IH].
Qed.

Lemma okps_nil : okps [].
Proof. intros s Hs. constructor; [exact Hs|constructor]. Qed.
Lemma okps_cons x l : okp x -> okps l -> okps (x :: l).
Proof. intros Hx Hl s Hs. cbn [FinalOptDen.den_seq]. apply okl_flat_map; [apply Hx; exact Hs | exact Hl]. Qed.
Lemma okps_all l : Forall okp l -> okps l.
Proof. induction 1; [apply okps_nil | apply okps_cons; assumption]. Qed.

Definition kont := st -> list st.
Definition kid : kont := fun s => [s].
(* what follows a child of a concatenation: its right siblings, then K *)
Definition kseq (l : list node) (K : kont) : kont := fun a => flat_map K (den_seq l a).
(* what follows the child of a capture that was entered at s0 *)
Definition kcap (g u : Z) (s0 : st) (K : kont) : kont := fun a => flat_map K (capture_close g u s0 a).
(* a node, then K *)
Definition kb (x : node) (K : kont) : kont := fun a => flat_map K (den x a).

Definition HKs (K : kont) (t t' : node) (s : st) : Prop := hq (flat_map K (den t s)) (flat_map K (den t' s)).
Definition HK (K : kont) (t t' : node) : Prop := forall s, sok s -> HKs K t t' s.

Lemma HK_refl K t : HK K t t.
Proof. intros s _. apply hq_refl. Qed.
Lemma HK_trans K a b c : HK K a b -> HK K b c -> HK K a c.
Proof. intros H1 H2 s Hs. eapply hq_trans; [apply H1|apply H2]; exact Hs. Qed.

Lemma HK_kid_den t t' : HK kid t t' -> forall s, sok s -> hd_list (den t s) = hd_list (den t' s).
Proof. intros H s Hs. specialize (H s Hs). unfold HKs, kid in H. rewrite !flat_map_single in H. exact H. Qed.

Lemma kseq_nil K a : kseq [] K a = K a.
Proof. unfold kseq. cbn. apply app_nil_r. Qed.
Lemma kseq_cons x l K a : kseq (x :: l) K a = kb x (kseq l K) a.
Proof. unfold kseq, kb. cbn [FinalOptDen.den_seq]. apply fd_flat_map_flat_map. Qed.

Lemma HK_concat_at K o pre x x' post :
  okps pre -> HK (kseq post K) x x' -> HK K (NConcat o (pre ++ x :: post)) (NConcat o (pre ++ x' :: post)).
Proof.
  intros Hpre H s Hs. unfold HKs. rewrite !fd_den_concat, !fd_den_seq_app. cbn [FinalOptDen.den_seq].
  rewrite !fd_flat_map_flat_map. apply hq_flat_map_in. intros a Ha.
  rewrite !fd_flat_map_flat_map. apply H.
  specialize (Hpre s Hs). unfold okl in Hpre. rewrite Forall_forall in Hpre. apply Hpre. exact Ha.
Qed.

Lemma HK_alt_at K o pre x x' post :
  HK K x x' -> HK K (NAlternate o (pre ++ x :: post)) (NAlternate o (pre ++ x' :: post)).
Proof.
  intros H s Hs. unfold HKs. rewrite !fd_den_alt, !flat_map_app. cbn [flat_map]. rewrite !flat_map_app.
  apply hq_app; [apply hq_refl|]. apply hq_app; [apply H; exact Hs | apply hq_refl].
Qed.

Lemma HK_capture K o g u r r' :
  (forall s, sok s -> HKs (kcap g u s K) r r' s) -> HK K (NCapture o g u r) (NCapture o g u r').
Proof.
  intros H s Hs. unfold HKs. rewrite !fd_den_capture, !fd_flat_map_flat_map. exact (H s Hs).
Qed.

Lemma HK_group K r r' : HK K r r' -> HK K (NGroup r) (NGroup r').
Proof. intros H s Hs. unfold HKs. rewrite !fd_den_group. apply H. exact Hs. Qed.

Lemma HK_atomic K r r' : HK kid r r' -> HK K (NAtomic r) (NAtomic r').
Proof. intros H s Hs. unfold HKs. rewrite !fd_den_atomic, (HK_kid_den _ _ H s Hs). apply hq_refl. Qed.
Lemma HK_poslook K o r r' : HK kid r r' -> HK K (NPosLook o r) (NPosLook o r').
Proof. intros H s Hs. unfold HKs. rewrite !fd_den_poslook, (HK_kid_den _ _ H s Hs). apply hq_refl. Qed.
Lemma HK_neglook K o r r' : HK kid r r' -> HK K (NNegLook o r) (NNegLook o r').
Proof. intros H s Hs. unfold HKs. rewrite !fd_den_neglook, (HK_kid_den _ _ H s Hs). apply hq_refl. Qed.

Definition HK_opt (K : kont) (n n' : option node) : Prop :=
  match n, n' with
  | Some a, Some b => HK K a b
  | None, None => True
  | _, _ => False
  end.

Lemma HK_backref_cond K o g y y' n n' :
  HK K y y' -> HK_opt K n n' -> HK K (NBackRefCond o g y n) (NBackRefCond o g y' n').
Proof.
  intros Hy Hn s Hs. unfold HKs. rewrite !fd_den_backref_cond. destruct (is_matched g (caps s)); [apply Hy; exact Hs|].
  destruct n, n'; cbn in Hn; try contradiction; cbn [den_opt]; [apply Hn; exact Hs | apply hq_refl].
Qed.

Lemma sok_with_pos s s' : sok s -> sok s' -> sok (with_pos s' (pos s)).
Proof. intros [Hp _] [_ Hc]. split; cbn [with_pos pos caps]; assumption. Qed.

Lemma HK_expr_cond K o c c' y y' n n' :
  okp c -> HK kid c c' -> HK K y y' -> HK_opt K n n' -> HK K (NExprCond o c y n) (NExprCond o c' y' n').
Proof.
  intros Hok Hc Hy Hn s Hs. unfold HKs. rewrite !fd_den_expr_cond.
  pose proof (HK_kid_den _ _ Hc s Hs) as Hh. pose proof (Hok s Hs) as Hokc.
  destruct (den c s) as [|s1 l1], (den c' s) as [|s2 l2]; cbn in Hh; try discriminate.
  - destruct n, n'; cbn in Hn; try contradiction; cbn [den_opt]; [apply Hn; exact Hs | apply hq_refl].
  - injection Hh as ->. apply Hy. apply sok_with_pos; [exact Hs|]. inversion Hokc; assumption.
Qed.

(* ---- loops: the body is followed by "iterate again or leave", which is not one of the continuations above,
   so the body must be interchangeable under EVERY continuation *)
(* what follows one iteration of a loop whose later iterations run B': iterate again or leave, then K *)
Definition kiter (K : kont) (B' : st -> list st) (lazy : bool) (limit mark count : Z) : kont :=
  fun a => flat_map K (iterD B' lazy limit a mark count).

Lemma HK_iter (K : kont) (B B' : st -> list st) lazy limit :
  (forall s, sok s -> okl (B s)) ->
  (forall mark count s, sok s -> hq (flat_map (kiter K B' lazy limit mark count) (B s)) (flat_map (kiter K B' lazy limit mark count) (B' s))) ->
  forall n s mark count, iter_fuel limit count = n -> sok s ->
    hq (flat_map K (iterD B lazy limit s mark count)) (flat_map K (iterD B' lazy limit s mark count)).
Proof.
  intros HBok HB. induction n as [n IH] using lt_wf_ind. intros s mark count Hn Hs.
  rewrite !fd_iterD_eq.
  assert (Hag : (count < 0 \/ count < limit) ->
            hq (flat_map K (iter_again B lazy limit s count)) (flat_map K (iter_again B' lazy limit s count))).
  { intros Hc. unfold iter_again. rewrite !fd_flat_map_flat_map.
    eapply hq_trans.
    - apply hq_flat_map_in. intros a Ha. apply (IH (iter_fuel limit (count + 1))); [|reflexivity|].
      + subst n. unfold iter_fuel. lia.
      + specialize (HBok s Hs). unfold okl in HBok. rewrite Forall_forall in HBok. apply HBok. exact Ha.
    - apply (HB (pos s) (count + 1) s Hs). }
  destruct lazy.
  - destruct (count <? 0) eqn:Ec; [apply Hag; lia|].
    cbn [flat_map]. apply hq_app; [apply hq_refl|].
    destruct ((count <? limit) && negb (pos s =? mark)) eqn:E2; [apply Hag; lia | apply hq_refl].
  - destruct ((limit <=? count) || (pos s =? mark) && (0 <=? count)) eqn:E1; [apply hq_refl|].
    rewrite !flat_map_app. apply hq_app; [apply Hag; lia | apply hq_refl].
Qed.

(* the body may be replaced if it is interchangeable under the loop's own continuations *)
Lemma HK_loop_iter (K : kont) lazy o m n r r' :
  okp r ->
  (forall mark count, HK (kiter K (den r') lazy (loop_limit m n) mark count) r r') ->
  HK K (NLoop lazy o m n r) (NLoop lazy o m n r').
Proof.
  intros Hok H s Hs. unfold HKs. rewrite !fd_den_loop.
  assert (HB : forall mark count a, sok a ->
            hq (flat_map (kiter K (den r') lazy (loop_limit m n) mark count) (den r a))
               (flat_map (kiter K (den r') lazy (loop_limit m n) mark count) (den r' a))) by (intros mark count a Ha; apply H; exact Ha).
  destruct (m =? 0).
  - apply (HK_iter K _ _ lazy _ Hok HB _ _ _ _ eq_refl Hs).
  - rewrite !fd_flat_map_flat_map. eapply hq_trans.
    + apply hq_flat_map_in. intros a Ha. apply (HK_iter K _ _ lazy _ Hok HB _ _ _ _ eq_refl).
      specialize (Hok s Hs). unfold okl in Hok. rewrite Forall_forall in Hok. apply Hok. exact Ha.
    + apply (HB (pos s) (1 - m) s Hs).
Qed.

Lemma HK_loop (K : kont) lazy o m n r r' :
  okp r -> (forall F : kont, HK F r r') -> HK K (NLoop lazy o m n r) (NLoop lazy o m n r').
Proof. intros Hok H. apply HK_loop_iter; [exact Hok|]. intros mark count. apply H. Qed.

(* dead on a set of states / never failing *)
Definition KD (P : st -> Prop) (K : kont) : Prop := forall s, sok s -> P s -> K s = [].
Definition KT (K : kont) : Prop := forall s, sok s -> K s <> [].

Lemma KT_kid : KT kid.
Proof. intros s _. discriminate. Qed.

End K.

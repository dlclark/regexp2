(* C13 — the limit is invisible except through ErrBacktrackingStackLimit: a lock-step simulation
   between the interpreter run with limit L and the interpreter run with a larger (or no) limit L'.

   States are related by [simrel L]: every field equal except the allocated track length [tcap],
   and  tcap1 = tcap2  \/  (tcap1 = L  /\  L <= tcap2)   (the smaller limit has capped the growth).
   Results are related by [res_rel]: the limited side may additionally stop with
   Err E_StackLimit or with Crash C_track (a push beyond the allocated length); otherwise both
   sides produce related outcomes (same result, same error, same crash, same fuel exhaustion). *)
From Verif Require Import Base.Prelude Model.Tree Model.Spec Model.VM Gen.RunnerGen Proofs.VMLimitProofs.
From Coq Require Import ZifyBool.

Definition eqv (s1 s2 : vm) : Prop :=
  pc s1 = pc s2 /\ mode s1 = mode s2 /\ tp s1 = tp s2 /\ track s1 = track s2 /\
  stack s1 = stack s2 /\ scap s1 = scap s2 /\ crawl s1 = crawl s2 /\ mcaps s1 = mcaps s2.

(* L' is at least as permissive as L (a negative limit means "no limit") *)
Definition lim_le (L L' : Z) : Prop := L' < 0 \/ (0 <= L /\ L <= L').

Definition simrel (L : Z) (s1 s2 : vm) : Prop :=
  eqv s1 s2 /\ (tcap s1 = tcap s2 \/ (0 <= L /\ tcap s1 = L /\ L <= tcap s2)).

Definition res_rel {A} (R : A -> A -> Prop) (r1 r2 : res A) : Prop :=
  r1 = Err E_StackLimit \/ r1 = Crash C_track \/
  match r1, r2 with
  | Ok a, Ok b => R a b
  | Err c, Err c' => c = c'
  | Crash w, Crash w' => w = w'
  | Fuel, Fuel => True
  | _, _ => False
  end.

Definition out_rel (L : Z) (o1 o2 : outcome) : Prop :=
  match o1, o2 with
  | Next a, Next b => simrel L a b
  | Done a, Done b => simrel L a b
  | Fail c, Fail c' => c = c'
  | Crashed w, Crashed w' => w = w'
  | _, _ => False
  end.

Lemma eqv_refl s : eqv s s.
Proof. unfold eqv. repeat split. Qed.

Lemma res_rel_ok {A} (R : A -> A -> Prop) a b : R a b -> res_rel R (Ok a) (Ok b).
Proof. intros H. right. right. exact H. Qed.
Lemma res_rel_crash {A} (R : A -> A -> Prop) w : res_rel R (Crash w) (Crash w).
Proof. right. right. reflexivity. Qed.
Lemma res_rel_err {A} (R : A -> A -> Prop) c : res_rel R (Err c) (Err c).
Proof. right. right. reflexivity. Qed.
Lemma res_rel_fuel {A} (R : A -> A -> Prop) : res_rel R Fuel Fuel.
Proof. right. right. exact I. Qed.
Lemma res_rel_limit {A} (R : A -> A -> Prop) r : res_rel R (Err E_StackLimit) r.
Proof. left. reflexivity. Qed.
Lemma res_rel_ctrack {A} (R : A -> A -> Prop) r : res_rel R (Crash C_track) r.
Proof. right. left. reflexivity. Qed.

Lemma res_rel_bind {A B} (R : A -> A -> Prop) (Q : B -> B -> Prop) r1 r2 k1 k2 :
  res_rel R r1 r2 -> (forall a b, R a b -> res_rel Q (k1 a) (k2 b)) ->
  res_rel Q (bind r1 k1) (bind r2 k2).
Proof.
  intros [->| [->|H]] K.
  - left. reflexivity.
  - right. left. reflexivity.
  - destruct r1, r2; cbn [bind]; try contradiction.
    + apply K. exact H.
    + subst. apply res_rel_err.
    + subst. apply res_rel_crash.
    + apply res_rel_fuel.
Qed.

(* the successful side determines the other *)
Lemma res_rel_ok_inv {A} (R : A -> A -> Prop) a r2 :
  res_rel R (Ok a) r2 -> exists b, r2 = Ok b /\ R a b.
Proof.
  intros [H|[H|H]]; try discriminate. destruct r2; try contradiction. eexists. split; [reflexivity|exact H].
Qed.

(* the same relation without the "push beyond the allocated stack" alternative: what the
   capacity-free parts of the interpreter (ensureStorage, goTo, advance, backtrack) satisfy, and what
   the whole step satisfies once the capacity invariant is known (Proofs/VMCapacityProofs.v) *)
Definition res_rel0 {A} (R : A -> A -> Prop) (r1 r2 : res A) : Prop :=
  r1 = Err E_StackLimit \/
  match r1, r2 with
  | Ok a, Ok b => R a b
  | Err c, Err c' => c = c'
  | Crash w, Crash w' => w = w'
  | Fuel, Fuel => True
  | _, _ => False
  end.

Lemma res_rel0_weaken {A} (R : A -> A -> Prop) r1 r2 : res_rel0 R r1 r2 -> res_rel R r1 r2.
Proof. intros [H|H]; [left; exact H|right; right; exact H]. Qed.
Lemma res_rel0_ok {A} (R : A -> A -> Prop) a b : R a b -> res_rel0 R (Ok a) (Ok b).
Proof. intros H. right. exact H. Qed.
Lemma res_rel0_crash {A} (R : A -> A -> Prop) w : res_rel0 R (Crash w) (Crash w).
Proof. right. reflexivity. Qed.
Lemma res_rel0_err {A} (R : A -> A -> Prop) c : res_rel0 R (Err c) (Err c).
Proof. right. reflexivity. Qed.
Lemma res_rel0_fuel {A} (R : A -> A -> Prop) : res_rel0 R Fuel Fuel.
Proof. right. exact I. Qed.
Lemma res_rel0_limit {A} (R : A -> A -> Prop) r : res_rel0 R (Err E_StackLimit) r.
Proof. left. reflexivity. Qed.

Lemma res_rel0_bind {A B} (R : A -> A -> Prop) (Q : B -> B -> Prop) r1 r2 k1 k2 :
  res_rel0 R r1 r2 -> (forall a b, R a b -> res_rel0 Q (k1 a) (k2 b)) ->
  res_rel0 Q (bind r1 k1) (bind r2 k2).
Proof.
  intros [->|H] K.
  - left. reflexivity.
  - destruct r1, r2; cbn [bind]; try contradiction.
    + apply K. exact H.
    + subst. apply res_rel0_err.
    + subst. apply res_rel0_crash.
    + apply res_rel0_fuel.
Qed.

Lemma res_rel0_ok_inv {A} (R : A -> A -> Prop) a r2 :
  res_rel0 R (Ok a) r2 -> exists b, r2 = Ok b /\ R a b.
Proof.
  intros [H|H]; try discriminate. destruct r2; try contradiction. eexists. split; [reflexivity|exact H].
Qed.

(* uncapture_to only touches crawl / mcaps: a state-free version *)
Fixpoint unc_pure (fuel : nat) (cr : list Z) (m : list (list Z)) (target : Z) : res (list Z * list (list Z)) :=
  match fuel with
  | O => Fuel
  | S f => if zlen cr =? target then Ok (cr, m)
           else match cr with
                | [] => Crash C_crawl
                | c :: cr' => match remove_match c m with
                              | None => Crash C_cap
                              | Some m' => unc_pure f cr' m' target
                              end
                end
  end.

Lemma uncapture_to_pure f : forall s t,
  uncapture_to f s t =
  bind (unc_pure f (crawl s) (mcaps s) t) (fun cm => Ok (set_caps s (fst cm) (snd cm))).
Proof.
  induction f as [|f IH]; intros s t; cbn [uncapture_to unc_pure]; [reflexivity|].
  destruct (zlen (crawl s) =? t).
  - cbn [bind fst snd]. destruct s; reflexivity.
  - unfold uncapture. destruct (crawl s) as [|c cr] eqn:Ec; [reflexivity|].
    destruct (remove_match c (mcaps s)) as [m'|]; [|reflexivity].
    cbn [bind]. rewrite IH. vm_cbn. reflexivity.
Qed.

Section Sim.
Variable e : env.
Variable p : program.
Variable L L' : Z.
Hypothesis HL : lim_le L L'.

Lemma sim_init t : simrel L (init_vm p L t) (init_vm p L' t).
Proof.
  unfold simrel, eqv, init_vm, lim_le in *. vm_cbn.
  repeat split.
  set (ts0 := Z.max (trackcount p * G_tracksize_mul) G_tracksize_min).
  destruct ((0 <=? L) && (L <? ts0)) eqn:E1; destruct ((0 <=? L') && (L' <? ts0)) eqn:E2; lia.
Qed.

Lemma eqv_caps s1 s2 : eqv s1 s2 -> s2 = with_caps s1 (tcap s2) (scap s2).
Proof.
  destruct s1, s2. unfold eqv. vm_cbn. intros (-> & -> & -> & -> & -> & -> & -> & ->). reflexivity.
Qed.

(* growTrack under the two limits: where the smaller limit grants a length, the larger grants the same one, or
   the smaller limit has capped it *)
Lemma grow_tcap_sim tc1 tc2 n need :
  tc1 = tc2 \/ (0 <= L /\ tc1 = L /\ L <= tc2) ->
  match grow_tcap L tc1 n need with
  | None => True
  | Some a => exists b, grow_tcap L' tc2 n need = Some b /\ (a = b \/ (0 <= L /\ a = L /\ L <= b))
  end.
Proof.
  intros HR. unfold lim_le in HL. unfold grow_tcap. cbv zeta.
  destruct (tc1 - n <? need) eqn:E1.
  - (* the limited side grows: it was not at its limit, so both sides have the same length *)
    set (nl0 := if tc1 * 2 =? 0 then 1 else tc1 * 2). set (nl := if (0 <=? L) && (L <? nl0) then L else nl0).
    destruct (nl <=? tc1) eqn:E4; [exact I|]. destruct (nl - n <? need) eqn:E5; [exact I|].
    assert (tc1 = tc2) as <-.
    { destruct HR as [HR|(H0 & E & HR)]; [exact HR|exfalso]. subst nl nl0.
      destruct (tc1 * 2 =? 0) eqn:E2; destruct ((0 <=? L) && _) eqn:E3; lia. }
    rewrite E1. fold nl0. set (nl' := if (0 <=? L') && (L' <? nl0) then L' else nl0).
    assert (Hn : nl = nl' \/ (0 <= L /\ nl = L /\ L <= nl')).
    { subst nl nl'. clear - HL. destruct ((0 <=? L) && _) eqn:E3; destruct ((0 <=? L') && _) eqn:E3'; lia. }
    replace (nl' <=? tc1) with false by lia. replace (nl' - n <? need) with false by lia.
    exists nl'. split; [reflexivity|exact Hn].
  - exists tc2. split; [|exact HR]. replace (tc2 - n <? need) with false by lia. reflexivity.
Qed.

Lemma sim_ensure s1 s2 :
  simrel L s1 s2 -> res_rel0 (simrel L) (ensure_storage p L s1) (ensure_storage p L' s2).
Proof.
  intros [HE HR]. rewrite !ensure_storage_eq. pose proof HE as (_ & _ & _ & Htr & Hst & Hsc & _).
  rewrite <- Htr, <- Hst, <- Hsc.
  pose proof (grow_tcap_sim (tcap s1) (tcap s2) (zlen (track s1)) (trackcount p * G_ensure_factor) HR) as G.
  destruct (grow_tcap L _ _ _) as [a|]; [|apply res_rel0_limit]. destruct G as (b & -> & Hab).
  apply res_rel0_ok. rewrite (eqv_caps _ _ HE). unfold simrel, eqv, with_caps. vm_cbn. tauto.
Qed.

Lemma sim_goto s1 s2 a :
  simrel L s1 s2 -> res_rel0 (out_rel L) (cont (goto p L s1 a)) (cont (goto p L' s2 a)).
Proof.
  intros HR. unfold cont, goto.
  assert (Hpc : pc s1 = pc s2) by (destruct HR as [HE _]; unfold eqv in HE; tauto).
  rewrite <- Hpc.
  apply res_rel0_bind with (R := simrel L); [|intros x y Hxy; apply res_rel0_ok; exact Hxy].
  apply res_rel0_bind with (R := simrel L).
  - destruct (a <=? pc s1); [apply sim_ensure; exact HR|apply res_rel0_ok; exact HR].
  - intros x y [HE HT]. destruct (code_at p a); [|apply res_rel0_crash].
    apply res_rel0_ok. unfold simrel, eqv in *. vm_cbn. tauto.
Qed.

Lemma sim_adv s1 s2 i :
  simrel L s1 s2 -> res_rel0 (out_rel L) (cont (advance p s1 i)) (cont (advance p s2 i)).
Proof.
  intros HR. unfold cont, advance.
  assert (Hpc : pc s1 = pc s2) by (destruct HR as [HE _]; unfold eqv in HE; tauto).
  rewrite <- Hpc.
  apply res_rel0_bind with (R := simrel L); [|intros x y Hxy; apply res_rel0_ok; exact Hxy].
  destruct (code_at p (pc s1 + i + 1)); [|apply res_rel0_crash].
  apply res_rel0_ok. unfold simrel, eqv in *. vm_cbn. tauto.
Qed.

Lemma sim_brk s1 s2 :
  simrel L s1 s2 -> res_rel0 (out_rel L) (brk p L s1) (brk p L' s2).
Proof.
  intros HR. unfold brk.
  apply res_rel0_bind with (R := simrel L); [|intros x y Hxy; apply res_rel0_ok; exact Hxy].
  unfold backtrack.
  destruct HR as [HE HT]. unfold eqv in HE. destruct HE as (Hpc & Hmd & Htp & Htr & Hst & Hsc & Hcr & Hmc).
  rewrite <- Htr, <- Hpc.
  destruct (track s1) as [|np t] eqn:Et; [apply res_rel0_crash|].
  destruct (if np <? 0 then (- np, Back2Bit) else (np, BackBit)) as [newpos m].
  destruct (code_at p newpos); [|apply res_rel0_crash].
  apply res_rel0_bind with (R := simrel L).
  - assert (HR1 : simrel L (set_track s1 t) (set_track s2 t)).
    { unfold simrel, eqv. vm_cbn. tauto. }
    destruct (newpos <? pc s1); [apply sim_ensure; exact HR1|apply res_rel0_ok; exact HR1].
  - intros x y [HE' HT']. apply res_rel0_ok. unfold simrel, eqv in *. vm_cbn. tauto.
Qed.

Lemma simrel_caps s1 s2 a :
  simrel L s1 s2 -> tcap a = tcap s1 -> scap a = scap s1 -> simrel L a (with_caps a (tcap s2) (scap s2)).
Proof.
  unfold simrel, eqv, with_caps. vm_cbn. intros [HE HT] -> ->. repeat split; tauto.
Qed.

(* The operations of a plan keep the two sides related, unless the side with the smaller allocation runs
   beyond it: then the plan pushes more than that side has free. *)
Lemma sim_uops us : forall s1 s2, simrel L s1 s2 ->
  res_rel0 (simrel L) (run_uops us s1) (run_uops us s2) \/
  (run_uops us s1 = Crash C_track /\ tcap s1 < zlen (track s1) + tpushed us).
Proof.
  induction us as [|u us IH]; intros s1 s2 HR; cbn [run_uops]; [left; apply res_rel0_ok; exact HR|].
  pose proof (tpushed_nonneg us) as Hn. pose proof HR as [HE HT].
  destruct (is_push u) eqn:P.
  - pose proof HE as (Hpc & Hmd & Htp & Htr & Hst & Hsc & Hcr & Hmc).
    destruct u; try discriminate; cbn [run_uop tpushed]; unfold tpush, spush; rewrite <- ?Htr, <- ?Hst, <- ?Hsc.
    + destruct (tcap s1 <? zlen (track s1) + zlen ws) eqn:E1; [right; split; [reflexivity|lia]|].
      replace (tcap s2 <? zlen (track s1) + zlen ws) with false by lia. cbn [bind].
      destruct (IH (set_track s1 (ws ++ track s1)) (set_track s2 (ws ++ track s1))) as [G|[G1 G2]].
      * unfold simrel, eqv. vm_cbn. tauto.
      * left. exact G.
      * right. split; [exact G1|]. vm_cbn_in G2. rewrite zlen_app in G2. lia.
    + destruct (scap s1 <? zlen (stack s1) + zlen ws); [left; apply res_rel0_crash|]. cbn [bind].
      apply (IH (set_stack s1 (ws ++ stack s1)) (set_stack s2 (ws ++ stack s1))). unfold simrel, eqv. vm_cbn. tauto.
  - pose proof (uop_caps u s1 (tcap s2) (scap s2) P) as F. rewrite <- (eqv_caps _ _ HE) in F. rewrite F.
    destruct (pushed_nonpush u us P) as [-> _].
    destruct (run_uop u s1) as [a| | |] eqn:E; cbn [res_map bind];
      [|left; apply res_rel0_err|left; apply res_rel0_crash|left; apply res_rel0_fuel].
    apply uop_sizes in E. destruct (pushed_nonpush u [] P) as [Pt _]. rewrite Pt in E.
    destruct E as (_ & Ht & Hs & Hl & _). cbn [tpushed] in Hl.
    destruct (IH a (with_caps a (tcap s2) (scap s2)) (simrel_caps _ _ _ HR Ht Hs)) as [G|[G1 G2]];
      [left; exact G|right; split; [exact G1|lia]].
Qed.

Lemma out_rel_refl o : out_rel L o o.
Proof. destruct o; cbn [out_rel]; try reflexivity; (split; [apply eqv_refl|left; reflexivity]). Qed.

Lemma sim_exec us x s1 s2 : simrel L s1 s2 ->
  res_rel0 (out_rel L) (exec p L us x s1) (exec p L' us x s2) \/
  (exec p L us x s1 = Crash C_track /\ tcap s1 < zlen (track s1) + tpushed us).
Proof.
  intros HR. rewrite !exec_bind. destruct (sim_uops us s1 s2 HR) as [G|[G1 G2]].
  - left. apply res_rel0_bind with (R := simrel L); [exact G|]. intros a b Hab. destruct x; cbn [run_exit].
    + apply sim_adv. exact Hab.
    + apply sim_goto. exact Hab.
    + apply sim_brk. exact Hab.
    + apply res_rel0_ok. exact Hab.
    + apply res_rel0_crash.
  - right. rewrite G1. split; [reflexivity|exact G2].
Qed.

Lemma step_sim_plan s1 s2 : simrel L s1 s2 ->
  match code_at p (pc s1) with
  | None => step e p L s1 = Crash C_code /\ step e p L' s2 = Crash C_code
  | Some w => exists us x, plan_ok (op_pushes (Z.land w 63)) us x /\
                step e p L s1 = exec p L us x s1 /\ step e p L' s2 = exec p L' us x s2
  end.
Proof.
  intros [HE _]. destruct (code_at p (pc s1)) as [w|] eqn:Hw.
  - destruct (step_plan2 e p s1 s2 w Hw (eqv_caps _ _ HE)) as (us & x & Hok & Hs).
    exists us, x. split; [exact Hok|apply Hs].
  - split; apply step_no_code; [exact Hw|]. replace (pc s2) with (pc s1) by apply HE. exact Hw.
Qed.

Lemma step_sim s1 s2 :
  simrel L s1 s2 -> res_rel (out_rel L) (step e p L s1) (step e p L' s2).
Proof.
  intros HR. pose proof (step_sim_plan s1 s2 HR) as H. destruct (code_at p (pc s1)) as [w|].
  - destruct H as (us & x & _ & -> & ->).
    destruct (sim_exec us x s1 s2 HR) as [G|[G _]]; [apply res_rel0_weaken; exact G|rewrite G; apply res_rel_ctrack].
  - destruct H as [-> ->]. apply res_rel_crash.
Qed.

Definition pair_rel (r1 r2 : vm * bool) : Prop := simrel L (fst r1) (fst r2) /\ snd r1 = snd r2.

Lemma run_steps_sim k : forall s1 s2,
  simrel L s1 s2 -> res_rel pair_rel (run_steps e p L k s1) (run_steps e p L' k s2).
Proof.
  induction k as [|k IH]; intros s1 s2 HR; cbn [run_steps].
  - apply res_rel_ok. split; [exact HR|reflexivity].
  - destruct (step_sim s1 s2 HR) as [E|[E|E]].
    + rewrite E. apply res_rel_limit.
    + rewrite E. apply res_rel_ctrack.
    + destruct (step e p L s1) as [o1|c1|w1|], (step e p L' s2) as [o2|c2|w2|]; try contradiction.
      * destruct o1 as [a|a|c|w], o2 as [b|b|c'|w']; cbn [out_rel] in E; try contradiction.
        -- apply IH. exact E.
        -- apply res_rel_ok. split; [exact E|reflexivity].
        -- subst. apply res_rel_err.
        -- subst. apply res_rel_crash.
      * subst. apply res_rel_err.
      * subst. apply res_rel_crash.
      * apply res_rel_fuel.
Qed.

Lemma run_sim fuel : forall s1 s2,
  simrel L s1 s2 -> res_rel (simrel L) (run e p L fuel s1) (run e p L' fuel s2).
Proof.
  induction fuel as [|f IH]; intros s1 s2 HR; cbn [run]; [apply res_rel_fuel|].
  apply res_rel_bind with (R := pair_rel); [apply run_steps_sim; exact HR|].
  intros [a b1] [b b2] [H1 H2]. cbn [fst snd] in *. subst b2.
  destruct b1; [apply res_rel_ok; exact H1|apply IH; exact H1].
Qed.

Definition opt_rel (R : vm -> vm -> Prop) (o1 o2 : option vm) : Prop :=
  match o1, o2 with
  | None, None => True
  | Some a, Some b => R a b
  | _, _ => False
  end.

Lemma cont_rel_inv r1 r2 :
  res_rel (out_rel L) (cont r1) (cont r2) -> res_rel (simrel L) r1 r2.
Proof.
  unfold cont. intros H. destruct r1 as [a|c|w|]; cbn [bind] in H.
  - destruct H as [H|[H|H]]; try discriminate.
    destruct r2; cbn [bind] in H; try contradiction. right. right. exact H.
  - destruct H as [H|[H|H]]; try discriminate.
    + injection H as ->. apply res_rel_limit.
    + destruct r2; cbn [bind] in H; try contradiction. subst. apply res_rel_err.
  - destruct H as [H|[H|H]]; try discriminate.
    + injection H as ->. apply res_rel_ctrack.
    + destruct r2; cbn [bind] in H; try contradiction. subst. apply res_rel_crash.
  - destruct H as [H|[H|H]]; try discriminate.
    destruct r2; cbn [bind] in H; try contradiction. apply res_rel_fuel.
Qed.

Lemma goto_sim s1 s2 a : simrel L s1 s2 -> res_rel (simrel L) (goto p L s1 a) (goto p L' s2 a).
Proof. intros HR. apply cont_rel_inv. apply res_rel0_weaken, sim_goto. exact HR. Qed.

Lemma exec_at_sim fuel t :
  res_rel (simrel L) (exec_at e p L fuel t) (exec_at e p L' fuel t).
Proof.
  unfold exec_at. apply res_rel_bind with (R := simrel L); [|intros a b H; apply run_sim; exact H].
  apply goto_sim. apply sim_init.
Qed.

Lemma scan_sim fuel n : forall rtl s1 s2 t,
  simrel L s1 s2 ->
  res_rel (opt_rel (simrel L)) (vm_scan_from e p L fuel n rtl s1 t) (vm_scan_from e p L' fuel n rtl s2 t).
Proof.
  induction n as [|n IH]; intros rtl s1 s2 t HR; cbn [vm_scan_from].
  - apply res_rel_ok. exact I.
  - apply res_rel_bind with (R := simrel L).
    { apply goto_sim. destruct HR as [HE HT]. unfold eqv in HE.
      unfold simrel, eqv. vm_cbn. repeat split; try tauto. }
    intros a b Hab.
    apply res_rel_bind with (R := simrel L); [apply run_sim; exact Hab|].
    intros a2 b2 H2.
    assert (Hm : matched0 a2 = matched0 b2).
    { unfold matched0. destruct H2 as [HE _]. unfold eqv in HE.
      replace (mcaps b2) with (mcaps a2) by tauto. reflexivity. }
    rewrite <- Hm. destruct (matched0 a2); [apply res_rel_ok; exact H2|].
    destruct (if rtl then t <=? 0 else tlen e <=? t); [apply res_rel_ok; exact I|].
    apply IH. exact H2.
Qed.

Lemma find_sim fuel rtl start prevlen :
  res_rel (opt_rel (simrel L)) (vm_find e p L fuel rtl start prevlen) (vm_find e p L' fuel rtl start prevlen).
Proof.
  unfold vm_find.
  destruct ((prevlen =? 0) && (start =? (if rtl then 0 else tlen e))); [apply res_rel_ok; exact I|].
  apply scan_sim. apply sim_init.
Qed.

End Sim.

(* what a caller can observe of a returned match: found or not, and every field of the final
   interpreter state (text position, capture arrays, ...) except the allocated track length *)
Definition same_result (r r' : option vm) : Prop := opt_rel eqv r r'.

Lemma opt_rel_weaken L r r' : opt_rel (simrel L) r r' -> same_result r r'.
Proof. unfold same_result, opt_rel. destruct r, r'; try tauto. intros [H _]. exact H. Qed.

(* With any limit the search either agrees with the unlimited search (same result, same error,
   same crash, same fuel exhaustion), or stops with ErrBacktrackingStackLimit, or a push ran beyond
   the allocated stack (Crash C_track).  No side condition. *)
Theorem vml_limit_trichotomy e p L fuel rtl start prevlen :
  let r1 := vm_find e p L fuel rtl start prevlen in
  let r2 := vm_find e p (-1) fuel rtl start prevlen in
  r1 = Err E_StackLimit \/ r1 = Crash C_track \/
  match r1, r2 with
  | Ok a, Ok b => same_result a b
  | Err c, Err c' => c = c'
  | Crash w, Crash w' => w = w'
  | Fuel, Fuel => True
  | _, _ => False
  end.
Proof.
  cbv zeta.
  assert (HL : lim_le L (-1)) by (left; lia).
  destruct (find_sim e p L (-1) HL fuel rtl start prevlen) as [H|[H|H]]; [left; exact H|right; left; exact H|].
  right. right.
  destruct (vm_find e p L fuel rtl start prevlen), (vm_find e p (-1) fuel rtl start prevlen); try exact H.
  eapply opt_rel_weaken. exact H.
Qed.

Theorem vml_limit_transparent e p L fuel rtl start prevlen r :
  vm_find e p L fuel rtl start prevlen = Ok r ->
  exists r', vm_find e p (-1) fuel rtl start prevlen = Ok r' /\ same_result r r'.
Proof.
  intros H. assert (HL : lim_le L (-1)) by (left; lia).
  pose proof (find_sim e p L (-1) HL fuel rtl start prevlen) as S. rewrite H in S.
  apply res_rel_ok_inv in S. destruct S as (b & E & R). exists b. split; [exact E|].
  eapply opt_rel_weaken. exact R.
Qed.

(* A successful search stays successful, with the same result, under every larger limit and
   without a limit *)
Theorem vml_raise_limit_monotone e p L L' fuel rtl start prevlen r :
  0 <= L -> (L <= L' \/ L' < 0) ->
  vm_find e p L fuel rtl start prevlen = Ok r ->
  exists r', vm_find e p L' fuel rtl start prevlen = Ok r' /\ same_result r r'.
Proof.
  intros H0 HL' H. assert (HL : lim_le L L') by (unfold lim_le; lia).
  pose proof (find_sim e p L L' HL fuel rtl start prevlen) as S. rewrite H in S.
  apply res_rel_ok_inv in S. destruct S as (b & E & R). exists b. split; [exact E|].
  eapply opt_rel_weaken. exact R.
Qed.

(* the same for a single execute() call *)
Theorem vml_exec_raise_limit e p L L' fuel t s :
  lim_le L L' -> exec_at e p L fuel t = Ok s ->
  exists s', exec_at e p L' fuel t = Ok s' /\ eqv s s'.
Proof.
  intros HL H. pose proof (exec_at_sim e p L L' HL fuel t) as S. rewrite H in S.
  apply res_rel_ok_inv in S. destruct S as (b & E & R). exists b. split; [exact E|exact (proj1 R)].
Qed.

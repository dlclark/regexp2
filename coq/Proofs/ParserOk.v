(* Proofs about Model/Parser.v, part 10: every tree the parser builds satisfies the hypotheses of the compile and
   termination theorems.

   [to_node sid]: the parser's RegexNode (Model/Parser.v rnode) as the writer's tree (Model/Tree.v node), through
   Tree.build -- the very function that decodes the harness' tree export -- with set ids chosen by [sid]
   (the harness interns the sets by content; nothing here depends on the choice).

   wfb (Proofs/ParserOkTree.v) -> the conversion succeeds, and the converted tree is supported2, term_ok,
   every group number of a Capture / Ref / BackRefCond satisfies the membership predicate (ren_ok), and dirb
   becomes tm_dir_ok.  With Proofs/ParserOkMain.v (shape) and Proofs/ParserOkAgree.v (group numbers), both for every
   option word, this gives the facts about parsed trees. *)
From Coq Require Import ZifyBool.
From Verif Require Import Base.Prelude Base.Wire Gen.ParseLitGen Model.Escape Model.ParseLit Model.GroupMap Model.CharClass
  Model.Parser Model.Tree Model.Spec Model.VM Model.Writer
  Proofs.ParseLitProofs Proofs.GMBase Proofs.ParserScan Proofs.ParserTree Proofs.ParserMain Proofs.ParserPre Proofs.ParserProofs
  Proofs.SpecProofs Proofs.SpecBoundsProofs Proofs.MaskProofs Proofs.SpecTermProofs
  Proofs.CompileDefs Proofs.CompileBalDefs Proofs.CompileCapmap
  Proofs.ParserOkTree Proofs.ParserOkMain Proofs.ParserOkPre Proofs.ParserOkAgree Proofs.CompileSafe.

Section Conv.
Variable sid : cls -> Z.

Definition rhead (t o ch m n : Z) (str : list Z) (st : option cls) (nk : Z) : rawhead :=
  {| rh_t := t; rh_o := o; rh_ch := ch; rh_m := m; rh_n := n; rh_str := str;
     rh_set := match st with Some c => sid c | None => 0 end; rh_nc := nk |}.

Fixpoint to_node (x : rnode) : option node :=
  let 'RN t o ch m n str st kids := x in
  match (fix go (ks : list rnode) : option (list node) :=
           match ks with
           | [] => Some []
           | k :: r => match to_node k, go r with Some a, Some b => Some (a :: b) | _, _ => None end
           end) kids with
  | Some ch' => build (rhead t o ch m n str st (zlen kids)) ch'
  | None => None
  end.

Fixpoint to_nodes (ks : list rnode) : option (list node) :=
  match ks with
  | [] => Some []
  | k :: r => match to_node k, to_nodes r with Some a, Some b => Some (a :: b) | _, _ => None end
  end.

Lemma to_node_eq t o ch m n str st kids :
  to_node (RN t o ch m n str st kids) =
  match to_nodes kids with Some ch' => build (rhead t o ch m n str st (zlen kids)) ch' | None => None end.
Proof.
  cbn [to_node].
  assert (H : (fix go (ks : list rnode) : option (list node) :=
           match ks with
           | [] => Some []
           | k :: r => match to_node k, go r with Some a, Some b => Some (a :: b) | _, _ => None end
           end) kids = to_nodes kids).
  { induction kids as [|k r IH]; [reflexivity|]. cbn [to_nodes]. rewrite <- IH. reflexivity. }
  rewrite H. reflexivity.
Qed.

Lemma kcls_inv t :
  match kcls t with
  | KCharLoop => t = 3 \/ t = 4 \/ t = 5 \/ t = 6 \/ t = 7 \/ t = 8 \/ t = 43 \/ t = 44 \/ t = 45
  | KLeaf => t = 9 \/ t = 10 \/ t = 11 \/ t = 12 \/ t = 13 \/ t = 22 \/ t = 23 \/ 14 <= t <= 21 \/ t = 41 \/ t = 42
  | KConcat => t = 25
  | KAlt => t = 24
  | KLoop => t = 26 \/ t = 27
  | KUnary => t = 28 \/ t = 29 \/ t = 30 \/ t = 31 \/ t = 32
  | KBref => t = 33
  | KEcond => t = 34
  | KBad => True
  end.
Proof.
  unfold kcls, is_charloop, is_leaf0, is_char1, is_anchor_t, is_loop_t, is_unary1,
    is_oneloop_family, is_notoneloop_family, is_setloop_family,
    T_Oneloop, T_Notoneloop, T_Setloop, T_Onelazy, T_Notonelazy, T_Setlazy, T_One, T_Notone, T_Set, T_Multi, T_Ref,
    T_Nothing, T_Empty, T_Alternate, T_Concatenate, T_Loop, T_Lazyloop, T_Capture, T_Group, T_PosLook, T_NegLook, T_Atomic,
    T_BackRefCond, T_ExprCond, T_Oneloopatomic, T_Notoneloopatomic, T_Setloopatomic.
  repeat match goal with |- context [if ?b then _ else _] => destruct b eqn:? end; try exact I; lia.
Qed.

Lemma rtl_same o : is_rtl o = useRTL o.
Proof. reflexivity. Qed.

Section Main.
Variable capin : Z -> bool.

Definition okn (t : node) : Prop :=
  supported2 t = true /\ term_ok t = true /\ ren_ok (fun g => capin g = true) t.
Definition dirn (x : rnode) (t : node) : Prop := forall d, dirb d x = true -> tm_dir_ok d t = true.

Definition conv_ok (x : rnode) : Prop := exists t, to_node x = Some t /\ okn t /\ dirn x t.

Lemma to_nodes_ok kids : Forall (fun k => wfb capin k = true -> conv_ok k) kids -> forallb (wfb capin) kids = true ->
  exists l, to_nodes kids = Some l /\ length l = length kids /\ Forall okn l /\
            (forall d, forallb (dirb d) kids = true -> forallb (tm_dir_ok d) l = true) /\
            Forall2 (fun k t => dirn k t) kids l.
Proof.
  induction 1 as [|k r Hk Hr IH]; intros W.
  - exists []. repeat split; auto.
  - cbn [forallb] in W. apply andb_prop in W. destruct W as [Wk Wr].
    destruct (Hk Wk) as [t [E1 [O1 D1]]]. destruct (IH Wr) as [l [E2 [L2 [O2 [D2 F2]]]]].
    exists (t :: l). cbn [to_nodes]. rewrite E1, E2. repeat split; auto.
    + cbn. lia.
    + intros d H. cbn [forallb] in H |- *. apply andb_prop in H. destruct H as [H1 H2]. rewrite (D1 d H1), (D2 d H2). reflexivity.
Qed.

Lemma supported2_list_forall l : Forall okn l -> supported2_list l = true /\ forallb term_ok l = true /\
  sb_all_list (ren_ok_node (fun g => capin g = true)) l.
Proof.
  induction 1 as [|t l [S [T R]] H IH]; [repeat split; reflexivity|]. destruct IH as [I1 [I2 I3]].
  split; [unfold supported2_list in *; cbn; rewrite S; exact I1|]. split; [cbn; rewrite T, I2; reflexivity|].
  split; [exact R | exact I3].
Qed.


Lemma bounds_sup m n : bounds_ok m n = true -> (0 <=? m) && (m <=? n) && (n <=? INF) = true.
Proof. unfold bounds_ok, pp_inf, INF. auto. Qed.

Ltac okleaf := split; [reflexivity|]; split; [reflexivity|]; cbn; auto.

Lemma conv_nokids t o ch m n str st :
  wfb capin (RN t o ch m n str st []) = true -> (kcls t = KCharLoop \/ kcls t = KLeaf) -> conv_ok (RN t o ch m n str st []).
Proof.
  intros W K. apply wf_iff in W. destruct W as [KN _]. unfold knd in KN.
  pose proof (kcls_inv t) as INV. unfold conv_ok. rewrite to_node_eq. cbn [to_nodes].
  destruct K as [K|K]; rewrite K in KN, INV.
  - cbn [nokids andb] in KN. pose proof (bounds_sup _ _ KN) as BS.
    assert (T0 : (0 <=? m) = true) by (unfold bounds_ok in KN; lia).
    destruct INV as [-> | [-> | [-> | [-> | [-> | [-> | [-> | [-> | ->]]]]]]]]; cbn [build rhead rh_t rh_o rh_ch rh_m rh_n rh_set Z.eqb Pos.eqb];
      (eexists; split; [reflexivity|]; split;
       [split; [exact BS|]; split; [exact T0|]; cbn; auto
       | intros d Hd; rewrite dirb_leaf in Hd; cbn in Hd; exact Hd]).
  - cbn [nokids andb] in KN.
    destruct INV as [-> | [-> | [-> | [-> | [-> | [-> | [-> | [A | [-> | ->]]]]]]]]].
    + eexists. split; [reflexivity|]. split; [okleaf | intros d Hd; rewrite dirb_leaf in Hd; exact Hd].
    + eexists. split; [reflexivity|]. split; [okleaf | intros d Hd; rewrite dirb_leaf in Hd; exact Hd].
    + eexists. split; [reflexivity|]. split; [okleaf | intros d Hd; rewrite dirb_leaf in Hd; exact Hd].
    + eexists. split; [reflexivity|]. split; [okleaf | intros d Hd; rewrite dirb_leaf in Hd; exact Hd].
    + eexists. split; [reflexivity|]. split; [|intros d Hd; rewrite dirb_leaf in Hd; exact Hd].
      split; [reflexivity|]. split; [reflexivity|]. cbn. split; [|exact I]. cbn in KN. unfold gq in KN. cbn in KN. exact KN.
    + eexists. split; [reflexivity|]. split; [okleaf | intros d _; reflexivity].
    + eexists. split; [reflexivity|]. split; [okleaf | intros d _; reflexivity].
    + assert (T : t = 14 \/ t = 15 \/ t = 16 \/ t = 17 \/ t = 18 \/ t = 19 \/ t = 20 \/ t = 21) by lia.
      destruct T as [-> | [-> | [-> | [-> | [-> | [-> | [-> | ->]]]]]]];
        (eexists; split; [reflexivity|]; split; [okleaf | intros d _; reflexivity]).
    + eexists. split; [reflexivity|]. split; [okleaf | intros d _; reflexivity].
    + eexists. split; [reflexivity|]. split; [okleaf | intros d _; reflexivity].
Qed.


Lemma build_list t o ch m n str st nk l : (t = 24 \/ t = 25) ->
  build (rhead t o ch m n str st nk) l = Some (if t =? 25 then NConcat o l else NAlternate o l).
Proof. intros [-> | ->]; destruct l; reflexivity. Qed.

Lemma dirb_kids_list d t o ch m n str st kids : (t = 24 \/ t = 25) -> dirb d (RN t o ch m n str st kids) = forallb (dirb d) kids.
Proof. intros [-> | ->]; rewrite dirb_eq; reflexivity. Qed.

Theorem wf_conv : forall x, wfb capin x = true -> conv_ok x.
Proof.
  induction x as [t o ch m n str st kids IH] using rnode_ind'. intros W.
  pose proof W as W0. apply wf_iff in W. destruct W as [KN WK]. unfold wfl in WK.
  destruct (to_nodes_ok kids IH WK) as [l [EL [LL [OL [DL FL]]]]].
  destruct (supported2_list_forall l OL) as [SL [TL RL]].
  pose proof (kcls_inv t) as INV. unfold knd in KN.
  destruct (kcls t) eqn:K.
  - (* single-character loop *)
    destruct kids; [|cbn in KN; discriminate]. apply conv_nokids; auto.
  - destruct kids; [|cbn in KN; discriminate]. apply conv_nokids; auto.
  - (* Concatenate *)
    subst t. unfold conv_ok. rewrite to_node_eq, EL, build_list by auto. cbn [Z.eqb Pos.eqb].
    eexists. split; [reflexivity|]. split.
    + split; [exact SL|]. split; [exact TL|]. split; [exact I | exact RL].
    + intros d Hd. rewrite dirb_kids_list in Hd by auto. cbn [tm_dir_ok]. apply DL. exact Hd.
  - (* Alternate *)
    subst t. unfold conv_ok. rewrite to_node_eq, EL, build_list by auto. cbn [Z.eqb Pos.eqb].
    eexists. split; [reflexivity|]. split.
    + split.
      * cbn [supported2]. fold (supported2_list l). rewrite SL, andb_true_r.
        destruct l; [|reflexivity]. destruct kids; [cbn in KN; discriminate | discriminate].
      * split; [exact TL|]. split; [exact I | exact RL].
    + intros d Hd. rewrite dirb_kids_list in Hd by auto. cbn [tm_dir_ok]. apply DL. exact Hd.
  - (* Loop / Lazyloop *)
    destruct kids as [|k [|k2 r]]; try discriminate. apply andb_prop in KN. destruct KN as [B DK].
    destruct l as [|tk [|t2 l']]; try discriminate. inversion OL as [|? ? [S1 [T1 R1]] _]; subst.
    inversion FL as [|? ? ? ? D1 _]; subst.
    assert (BS : (0 <=? m) && (n <=? INF) = true) by (unfold bounds_ok, pp_inf, INF in *; lia).
    assert (DT : (tm_dir_ok false tk || tm_dir_ok true tk) = true).
    { apply orb_true_iff in DK. destruct DK as [DK|DK]; [rewrite (D1 _ DK); reflexivity | rewrite (D1 _ DK); apply orb_true_r]. }
    unfold conv_ok. rewrite to_node_eq, EL.
    destruct INV as [-> | ->]; cbn [build rhead rh_t rh_o rh_ch rh_m rh_n rh_set Z.eqb Pos.eqb];
      (eexists; split; [reflexivity|]; split;
       [split; [cbn [supported2]; rewrite BS, S1; reflexivity|]; split; [cbn [term_ok]; rewrite DT, T1; reflexivity|]; cbn; auto
       | intros d Hd; rewrite loop_kid_dir in Hd by reflexivity; cbn [tm_dir_ok]; apply D1; exact Hd]).
  - (* one-child kinds *)
    destruct kids as [|k [|k2 r]]; try discriminate.
    destruct l as [|tk [|t2 l']]; try discriminate. inversion OL as [|? ? [S1 [T1 R1]] _]; subst.
    inversion FL as [|? ? ? ? D1 _]; subst.
    unfold conv_ok. rewrite to_node_eq, EL.
    destruct INV as [-> | [-> | [-> | [-> | ->]]]]; cbn [build rhead rh_t rh_o rh_ch rh_m rh_n rh_set Z.eqb Pos.eqb].
    + (* Capture *)
      eexists. split; [reflexivity|]. split.
      * split; [exact S1|]. split; [exact T1|]. cbn. split; [|exact R1].
        cbn in KN. unfold gq in KN. cbn in KN. destruct (n =? -1); [exact KN|].
        apply andb_prop in KN. destruct KN as [K1 K2]. split; [exact K1|].
        apply orb_true_iff in K2. destruct K2 as [K2|K2]; [left; lia | right; exact K2].
      * intros d Hd. rewrite dirb_unary in Hd by reflexivity. cbn [tm_dir_ok]. apply D1. exact Hd.
    + eexists. split; [reflexivity|]. split; [split; [exact S1|]; split; [exact T1|]; cbn; auto|].
      intros d Hd. rewrite dirb_unary in Hd by reflexivity. cbn [tm_dir_ok]. apply D1. exact Hd.
    + eexists. split; [reflexivity|]. split; [split; [exact S1|]; split; [exact T1|]; cbn; auto | intros d _; reflexivity].
    + eexists. split; [reflexivity|]. split; [split; [exact S1|]; split; [exact T1|]; cbn; auto | intros d _; reflexivity].
    + eexists. split; [reflexivity|]. split; [split; [exact S1|]; split; [exact T1|]; cbn; auto|].
      intros d Hd. rewrite dirb_unary in Hd by reflexivity. cbn [tm_dir_ok]. apply D1. exact Hd.
  - (* back-reference conditional *)
    subst t. unfold conv_ok. rewrite to_node_eq, EL.
    destruct kids as [|k [|k2 [|k3 r]]]; try discriminate; destruct l as [|ta [|tb' [|tc l']]]; try discriminate.
    + inversion OL as [|? ? [S1 [T1 R1]] _]; subst. inversion FL as [|? ? ? ? D1 _]; subst.
      eexists. split; [reflexivity|]. split.
      * split; [cbn; rewrite S1; reflexivity|]. split; [cbn; rewrite T1; reflexivity|]. cbn. cbn in KN. unfold gq in KN. cbn in KN. auto.
      * intros d Hd. rewrite dirb_bref in Hd. cbn [forallb] in Hd. rewrite andb_true_r in Hd. cbn. rewrite (D1 _ Hd). reflexivity.
    + inversion OL as [|? ? [S1 [T1 R1]] OL2]; subst. inversion OL2 as [|? ? [S2 [T2 R2]] _]; subst.
      inversion FL as [|? ? ? ? D1 FL2]; subst. inversion FL2 as [|? ? ? ? D2 _]; subst.
      eexists. split; [reflexivity|]. split.
      * split; [cbn; rewrite S1, S2; reflexivity|]. split; [cbn; rewrite T1, T2; reflexivity|]. cbn. cbn in KN. unfold gq in KN. cbn in KN. auto.
      * intros d Hd. rewrite dirb_bref in Hd. cbn [forallb] in Hd. rewrite andb_true_r in Hd. apply andb_prop in Hd. destruct Hd as [H1 H2].
        cbn. rewrite (D1 _ H1), (D2 _ H2). reflexivity.
  - (* expression conditional *)
    subst t. unfold conv_ok. rewrite to_node_eq, EL.
    destruct kids as [|k [|k2 [|k3 [|k4 r]]]]; try discriminate; destruct l as [|ta [|tb' [|tc [|td l']]]]; try discriminate.
    + inversion OL as [|? ? [S1 [T1 R1]] OL2]; subst. inversion OL2 as [|? ? [S2 [T2 R2]] _]; subst.
      inversion FL as [|? ? ? ? D1 FL2]; subst. inversion FL2 as [|? ? ? ? D2 _]; subst.
      eexists. split; [reflexivity|]. split.
      * split; [cbn; rewrite S1, S2; reflexivity|]. split; [cbn; rewrite T1, T2; reflexivity|]. cbn. auto.
      * intros d Hd. rewrite dirb_econd in Hd. cbn [tl forallb] in Hd. rewrite andb_true_r in Hd. cbn. rewrite (D2 _ Hd). reflexivity.
    + inversion OL as [|? ? [S1 [T1 R1]] OL2]; subst. inversion OL2 as [|? ? [S2 [T2 R2]] OL3]; subst. inversion OL3 as [|? ? [S3 [T3 R3]] _]; subst.
      inversion FL as [|? ? ? ? D1 FL2]; subst. inversion FL2 as [|? ? ? ? D2 FL3]; subst. inversion FL3 as [|? ? ? ? D3 _]; subst.
      eexists. split; [reflexivity|]. split.
      * split; [cbn; rewrite S1, S2, S3; reflexivity|]. split; [cbn; rewrite T1, T2, T3; reflexivity|]. cbn. auto 10.
      * intros d Hd. rewrite dirb_econd in Hd. cbn [tl forallb] in Hd. rewrite andb_true_r in Hd. apply andb_prop in Hd. destruct Hd as [H2 H3].
        cbn. rewrite (D2 _ H2), (D3 _ H3). reflexivity.
  - discriminate.
Qed.

End Main.
End Conv.

Section Parsed.
Variable is_word_char : Z -> bool.
Variable to_lower : Z -> Z.
Variable simple_fold : Z -> Z.
Variable participates : Z -> bool.
Variable cat_in : Z -> Z -> bool.
Variable cat_name : list Z -> Z.

Local Notation parse := (parse is_word_char to_lower simple_fold participates cat_in cat_name).

(* the root of the converted tree *)
Lemma root_conv sid capin t : n_t t = T_Capture -> n_m t = 0 -> n_n t = -1 -> forall root,
  wfb capin t = true -> to_node sid t = Some root -> exists body, root = NCapture (n_o t) 0 (-1) body.
Proof.
  destruct t as [t o ch m n str st kids]. cbn [n_t n_m n_n n_o]. intros -> -> -> root W E.
  apply wf_iff in W. destruct W as [KN _]. unfold knd in KN. cbn in KN.
  destruct kids as [|k [|k2 r]]; try discriminate.
  rewrite to_node_eq in E. cbn [to_nodes] in E. destruct (to_node sid k) as [tk|]; [|discriminate].
  cbn in E. inversion E; subst. eexists. reflexivity.
Qed.

(* the tree converts, is supported and terminates: every option word, every oracle *)
Theorem parsed_tree_supported_term o mco_flag p t caps captop :
  parse o mco_flag p = Ok (PR_Tree t caps captop) ->
  forall sid, exists body,
    to_node sid t = Some (NCapture (n_o t) 0 (-1) body) /\
    supported2 (NCapture (n_o t) 0 (-1) body) = true /\ term_ok (NCapture (n_o t) 0 (-1) body) = true.
Proof.
  intros E sid.
  pose proof (parse_tree_shape is_word_char to_lower simple_fold participates cat_in cat_name o mco_flag p t caps captop E) as W.
  destruct (parse_tree_root is_word_char to_lower simple_fold participates cat_in cat_name o mco_flag p t caps captop E) as [R1 [R2 R3]].
  destruct (wf_conv sid (fun _ => true) t W) as [root [ER [[S [T _]] _]]].
  destruct (root_conv sid (fun _ => true) t R1 R2 R3 root W ER) as [body ->].
  exists body. auto.
Qed.

(* the group numbers are keys of Caps, every option word: the word-character oracle agrees with the ASCII table on a dozen characters;
   Captop below MaxInt32 *)
Theorem parsed_tree_groups o mco_flag p t caps captop :
  (forall c, is_word_char c = true -> negb (zmem c [33; 35; 39; 40; 41; 45; 60; 61; 62; 63; 91; 92]) = true) ->
  (forall c, (49 <=? c) && (c <=? 57) = true -> is_word_char c = true) ->
  captop < maxint32 ->
  parse o mco_flag p = Ok (PR_Tree t caps captop) ->
  forall sid, exists body,
    to_node sid t = Some (NCapture (n_o t) 0 (-1) body) /\
    supported2 (NCapture (n_o t) 0 (-1) body) = true /\ term_ok (NCapture (n_o t) 0 (-1) body) = true /\
    ren_ok (fun g => zmem g caps = true) (NCapture (n_o t) 0 (-1) body).
Proof.
  intros HW HD HT E sid.
  pose proof (parse_tree_wf is_word_char to_lower simple_fold participates cat_in cat_name HW HD o mco_flag p t caps captop HT E) as W.
  destruct (parse_tree_root is_word_char to_lower simple_fold participates cat_in cat_name o mco_flag p t caps captop E) as [R1 [R2 R3]].
  destruct (wf_conv sid (fun k => zmem k caps) t W) as [root [ER [[S [T R]] _]]].
  destruct (root_conv sid (fun k => zmem k caps) t R1 R2 R3 root W ER) as [body ->].
  exists body. auto.
Qed.

(* the capture table: Parse hands Caps and Captop on; the keys are sorted, hold 0, lie below Captop *)
Theorem parsed_caps_table o mco_flag p t caps captop :
  parse o mco_flag p = Ok (PR_Tree t caps captop) ->
  ssorted caps /\ In 0 caps /\ (forall k, In k caps -> 0 <= k) /\ (captop < maxint32 -> forall k, In k caps -> k < captop).
Proof.
  intros E. unfold Parser.parse in E.
  destruct (negb pl_bounds_ok); [discriminate|].
  destruct (negb (forallb (fun c => 0 <=? c) p)); [discriminate|].
  set (mco := mco_flag || useE o || useRE2 o) in *.
  destruct (count_captures is_word_char to_lower simple_fold cat_in cat_name mco o p) as [tb|e q| | |] eqn:EC; cbn [pbind] in E; try discriminate.
  destruct (scan_regex is_word_char to_lower simple_fold participates cat_in cat_name (captab_main tb) mco o p) as [t0|e q| | |];
    cbn [pbind] in E; try discriminate.
  inversion E; subst.
  destruct (count_captures_table is_word_char to_lower simple_fold participates cat_in cat_name mco o p tb EC) as [[TS TZ TN TB TL TV] _].
  auto.
Qed.

End Parsed.

(* ================================================================ renaming group numbers keeps the side conditions *)
Lemma forallb_map_ext {A} (f g : A -> bool) (h : A -> A) l :
  Forall (fun x => f (h x) = g x) l -> forallb f (map h l) = forallb g l.
Proof. induction 1 as [|x l Hx _ IH]; [reflexivity|]. cbn. rewrite Hx, IH. reflexivity. Qed.

Lemma ren_dir_ok mc d : forall t, tm_dir_ok d (ren_with mc t) = tm_dir_ok d t.
Proof.
  induction t using node_ind'; cbn [ren_with tm_dir_ok]; try reflexivity; try assumption.
  - apply forallb_map_ext. exact H.
  - apply forallb_map_ext. exact H.
  - rewrite IHt. destruct no as [x|]; cbn [mask_opt_node tm_opt opt_all] in *; [rewrite H|]; reflexivity.
  - rewrite IHt2. destruct no as [x|]; cbn [mask_opt_node tm_opt opt_all] in *; [rewrite H|]; reflexivity.
Qed.

Lemma ren_term_ok mc : forall t, term_ok (ren_with mc t) = term_ok t.
Proof.
  induction t using node_ind'; cbn [ren_with term_ok]; try reflexivity; try assumption.
  - apply forallb_map_ext. exact H.
  - apply forallb_map_ext. exact H.
  - rewrite !ren_dir_ok, IHt. reflexivity.
  - rewrite IHt. destruct no as [x|]; cbn [mask_opt_node tm_opt opt_all] in *; [rewrite H|]; reflexivity.
  - rewrite IHt1, IHt2. destruct no as [x|]; cbn [mask_opt_node tm_opt opt_all] in *; [rewrite H|]; reflexivity.
Qed.

Lemma ren_fuel_list mc tl l : Forall (fun t => term_fuel_n tl (ren_with mc t) = term_fuel_n tl t) l ->
  tm_fuel_list tl (map (ren_with mc) l) = tm_fuel_list tl l.
Proof.
  induction 1 as [|x l Hx _ IH]; [reflexivity|]. cbn [map tm_fuel_list]. fold (tm_fuel_list tl (map (ren_with mc) l)). fold (tm_fuel_list tl l).
  rewrite Hx, IH. reflexivity.
Qed.

Lemma ren_term_fuel mc tl : forall t, term_fuel_n tl (ren_with mc t) = term_fuel_n tl t.
Proof.
  induction t using node_ind'; cbn [ren_with term_fuel_n]; try reflexivity; try (rewrite IHt; reflexivity).
  - fold (tm_fuel_list tl (map (ren_with mc) l)). fold (tm_fuel_list tl l). rewrite (ren_fuel_list mc tl l H). reflexivity.
  - fold (tm_fuel_list tl (map (ren_with mc) l)). fold (tm_fuel_list tl l). rewrite (ren_fuel_list mc tl l H). reflexivity.
  - rewrite IHt. destruct no as [x|]; cbn [mask_opt_node opt_all] in *; [rewrite H|]; reflexivity.
  - rewrite IHt1, IHt2. destruct no as [x|]; cbn [mask_opt_node opt_all] in *; [rewrite H|]; reflexivity.
Qed.

(* every group number in G is sent to a slot *)
Lemma ren_groups_ok (G : Z -> Prop) mc cs : mc (-1) = -1 -> (forall g, G g -> 0 <= mc g < cs) ->
  forall t, ren_ok G t -> groups_ok2 cs (ren_with mc t).
Proof.
  intros M1 MG. unfold ren_ok, groups_ok2.
  induction t using node_ind'; cbn [ren_with sb_all]; intros R; try (split; [exact I | exact I]).
  - destruct R as [R _]. cbn in R. split; [cbn; apply MG; exact R | exact I].
  - destruct R as [_ R]. split; [exact I|]. induction H as [|x l Hx _ IH]; [exact I|]. destruct R as [R1 R2]. cbn [map]. split; [apply Hx; exact R1 | apply IH; exact R2].
  - destruct R as [_ R]. split; [exact I|]. induction H as [|x l Hx _ IH]; [exact I|]. destruct R as [R1 R2]. cbn [map]. split; [apply Hx; exact R1 | apply IH; exact R2].
  - destruct R as [_ R]. split; [exact I | apply IHt; exact R].
  - destruct R as [R0 R]. split; [|apply IHt; exact R]. cbn in R0 |- *.
    destruct (u =? -1) eqn:EU.
    + assert (u = -1) by lia. subst u. rewrite M1. cbn. apply MG. exact R0.
    + destruct R0 as [RU RG]. pose proof (MG u RU) as MU.
      assert (NU : (mc u =? -1) = false) by lia. rewrite NU. split; [exact MU|].
      destruct RG as [-> | RG]; [left; exact M1 | right; apply MG; exact RG].
  - destruct R as [_ R]. split; [exact I | apply IHt; exact R].
  - destruct R as [_ R]. split; [exact I | apply IHt; exact R].
  - destruct R as [_ R]. split; [exact I | apply IHt; exact R].
  - destruct R as [_ R]. split; [exact I | apply IHt; exact R].
  - destruct R as [R0 [R1 R2]]. cbn in R0. split; [cbn; apply MG; exact R0|]. split; [apply IHt; exact R1|].
    destruct no as [x|]; cbn [mask_opt_node opt_all] in *; [apply H; exact R2 | exact I].
  - destruct R as [_ [R1 [R2 R3]]]. split; [exact I|]. split; [apply IHt1; exact R1|]. split; [apply IHt2; exact R2|].
    destruct no as [x|]; cbn [mask_opt_node opt_all] in *; [apply H; exact R3 | exact I].
Qed.

Lemma ren_ok_mono (G G' : Z -> Prop) : (forall g, G g -> G' g) -> forall t, ren_ok G t -> ren_ok G' t.
Proof.
  intros HG. unfold ren_ok.
  induction t using node_ind'; cbn [sb_all]; intros R; try (destruct R as [R0 R]; split; [cbn in *; auto|]; auto).
  - clear R0. induction H as [|x l Hx _ IH]; [exact I|]. destruct R as [R1 R2]. split; [apply Hx; exact R1 | apply IH; exact R2].
  - clear R0. induction H as [|x l Hx _ IH]; [exact I|]. destruct R as [R1 R2]. split; [apply Hx; exact R1 | apply IH; exact R2].
  - cbn in *. destruct (u =? -1); [auto|]. destruct R0 as [A [B|B]]; auto.
  - destruct R as [R1 R2]. split; [auto|]. destruct no as [x|]; cbn [opt_all] in *; auto.
  - destruct R as [R1 [R2 R3]]. split; [auto|]. split; [auto|]. destruct no as [x|]; cbn [opt_all] in *; auto.
Qed.

(* codeFromTree (writer.go:76-87) from RegexTree.Caps / Captop (GroupMap.compile_maps): sparse numbers are mapped to
   their index in the sorted key list, dense numbers are their own slots *)
Definition caps_map (caps : list Z) (captop : Z) : option (list (Z * Z)) :=
  if zlen caps <? captop then Some (List.combine caps (zrange (zlen caps))) else None.
Definition caps_size (caps : list Z) (captop : Z) : Z := if zlen caps <? captop then zlen caps else captop.

Lemma compile_maps_caps tb : tbl_ok tb ->
  r_caps (compile_maps tb) = caps_map (t_caps tb) (t_captop tb) /\ r_capsize (compile_maps tb) = caps_size (t_caps tb) (t_captop tb).
Proof.
  intros [_ _ _ _ TL _]. unfold compile_maps, caps_map, caps_size. rewrite TL.
  destruct (zlen (t_caps tb) <? t_captop tb) eqn:E; [|split; reflexivity].
  assert (N : (t_captop tb =? zlen (t_caps tb)) = false) by lia. rewrite N. split; reflexivity.
Qed.

Lemma nodup_znodupb l : NoDup l -> znodupb l = true.
Proof.
  induction 1 as [|x l Hx _ IH]; [reflexivity|]. cbn [znodupb]. rewrite IH, andb_true_r.
  destruct (zmem x l) eqn:E; [apply zmem_In in E; contradiction | reflexivity].
Qed.

Lemma zrange_nodup n : NoDup (zrange n).
Proof. unfold zrange. apply FinFun.Injective_map_NoDup; [intros x y H; lia | apply seq_NoDup]. Qed.

Lemma combine_fst_snd (l : list Z) : map fst (List.combine l (zrange (zlen l))) = l /\ map snd (List.combine l (zrange (zlen l))) = zrange (zlen l).
Proof.
  assert (L : length l = length (zrange (zlen l))) by (rewrite zrange_length; unfold zlen; lia).
  revert L. generalize (zrange (zlen l)) as r. induction l as [|x l IH]; intros r L; destruct r as [|y r]; try discriminate; [split; reflexivity|].
  cbn [List.combine map fst snd]. cbn [length] in L. destruct (IH r ltac:(lia)) as [A B]. rewrite A, B. split; reflexivity.
Qed.

Section SlotMap.
Variable caps : list Z.
Variable captop : Z.
Hypothesis CS : ssorted caps.
Hypothesis CZ : In 0 caps.
Hypothesis CN : forall k, In k caps -> 0 <= k.
Hypothesis CB : forall k, In k caps -> k < captop.

Local Notation cm := (caps_map caps captop).
Local Notation cc := {| capmap := caps_map caps captop; quick := None |}.

Lemma caps_map_good : cm_good cm = true.
Proof.
  unfold caps_map. destruct (zlen caps <? captop); [|reflexivity]. unfold cm_good.
  destruct (combine_fst_snd caps) as [F S]. rewrite F, S.
  rewrite (nodup_znodupb caps (ssorted_NoDup _ CS)), (nodup_znodupb _ (zrange_nodup (zlen caps))). cbn [andb].
  destruct (zmem (-1) (zrange (zlen caps))) eqn:E; [|reflexivity]. apply zmem_In in E. apply zrange_In in E. lia.
Qed.

Lemma caps_map_zero : map_capnum cc 0 = 0.
Proof.
  unfold map_capnum. cbn [Z.eqb capmap]. unfold caps_map. destruct (zlen caps <? captop); [|reflexivity].
  destruct (sorted_head_zero caps CS CZ CN) as [r ->]. unfold zlen, zrange. cbn [length]. rewrite Nat2Z.id. cbn [seq map List.combine zassoc Z.eqb]. reflexivity.
Qed.

Lemma caps_map_G root : ren_ok (fun g => zmem g caps = true) root -> ren_ok (cm_G cm) root.
Proof.
  apply ren_ok_mono. intros g H. unfold caps_map. destruct (zlen caps <? captop); [|exact I].
  cbn [cm_G]. rewrite (proj1 (combine_fst_snd caps)). apply zmem_In. exact H.
Qed.

Lemma caps_map_slots g : zmem g caps = true -> 0 <= map_capnum cc g < caps_size caps captop.
Proof.
  intros H. apply zmem_In in H. unfold map_capnum, caps_size. pose proof (CN g H) as N. assert (NG : (g =? -1) = false) by lia. rewrite NG.
  cbn [capmap]. unfold caps_map. destruct (zlen caps <? captop) eqn:E.
  - assert (I : In g (map fst (List.combine caps (zrange (zlen caps))))) by (rewrite (proj1 (combine_fst_snd caps)); exact H).
    apply cm_zassoc_in in I. apply (in_map snd) in I. cbn [snd] in I. rewrite (proj2 (combine_fst_snd caps)) in I. apply zrange_In in I. exact I.
  - split; [exact N | apply CB; exact H].
Qed.

Lemma caps_map_groups root : ren_ok (fun g => zmem g caps = true) root -> groups_ok2 (caps_size caps captop) (ren cc root).
Proof. unfold ren. apply ren_groups_ok; [reflexivity | apply caps_map_slots]. Qed.

End SlotMap.

(* ================================================================ from the tree to the interpreter *)

(* the compile + termination theorems applied to a tree with the side conditions of this file *)
Theorem tree_end_to_end (caps : list Z) (captop : Z) (o : Z) (body : node) :
  ssorted caps -> In 0 caps -> (forall k, In k caps -> 0 <= k) -> (forall k, In k caps -> k < captop) ->
  let root := NCapture o 0 (-1) body in
  let cm := caps_map caps captop in
  let c := {| capmap := cm; quick := None |} in
  supported2 root = true -> term_ok root = true -> ren_ok (fun g => zmem g caps = true) root ->
  forall (e : env) (p : program),
    0 <= trackcount p -> track_count (codes p) <= trackcount p -> tlen e <= INF ->
    codes p = fst (compile c root) -> strings p = snd (compile c root) -> capsize p = caps_size caps captop ->
    Z.of_nat (term_fuel e root) <= INF ->
    forall t0, 0 <= t0 <= tlen e ->
    exists r, attempt e (term_fuel e root) root t0 = Ok r /\
    exists vfuel0 : nat, forall L vfuel, (vfuel0 <= vfuel)%nat ->
      let x := exec_at e p L vfuel t0 in
      ((x = Err E_StackLimit /\ 0 <= L) \/
       (exists s', x = Ok s' /\ pc s' = 2 + csize c root /\ mode s' = 0 /\
          match r with
          | Some q => tp s' = pos q /\ caps_rel_map p cm (Spec.caps q) (mcaps s') /\ matched0 s' = true
          | None => mcaps s' = repeat [] (Z.to_nat (capsize p)) /\ matched0 s' = false
          end)) /\
      (L < 0 -> exists s', x = Ok s').
Proof.
  intros CS CZ CN CB root cm c HS HT HR e p Htc Htk Htl Hcodes Hstr Hcs Hf t0 Ht0.
  assert (G1 : cm_good cm = true) by (apply caps_map_good; assumption).
  assert (G2 : map_capnum c 0 = 0) by (apply caps_map_zero; assumption).
  assert (G3 : ren_ok (cm_G cm) root) by (apply caps_map_G; assumption).
  assert (G4 : groups_ok2 (capsize p) (ren c root)) by (rewrite Hcs; apply caps_map_groups; assumption).
  (* the reference search answers on the tree ... *)
  destruct (spec_attempt_total e root t0 HT Ht0 (term_fuel e root) (Nat.le_refl _)) as [r [Hatt _]].
  exists r. split; [exact Hatt|].
  (* ... and on the renamed tree, whose cfg0 code is the emitted code *)
  set (root' := ren c root).
  assert (ER : root' = NCapture o 0 (-1) (ren c body)).
  { unfold root', ren, root. cbn [ren_with]. rewrite G2. reflexivity. }
  assert (HT' : term_ok root' = true) by (unfold root', ren; rewrite ren_term_ok; exact HT).
  assert (HF' : term_fuel e root' = term_fuel e root) by (unfold root', ren, term_fuel; apply ren_term_fuel).
  assert (HS' : supported2 root' = true) by (unfold root', ren; rewrite cmap_supported2; exact HS).
  destruct (spec_attempt_total e root' t0 HT' Ht0 (term_fuel e root) ltac:(rewrite HF'; apply Nat.le_refl)) as [r' [Hatt' _]].
  pose proof (cmap_compile c eq_refl root) as CC. fold root' in CC.
  assert (G4' : groups_ok2 (capsize p) root') by exact G4.
  rewrite ER in *.
  destruct (compile_exec_total e p Htc Htk Htl (term_fuel e root) o (ren c body) t0 r'
              ltac:(rewrite Hcodes, CC; reflexivity) ltac:(rewrite Hstr, CC; reflexivity) HS' G4' Ht0 Hf Hatt') as [n Hn].
  exists (S n). intros L vfuel Hv x.
  destruct (Hn L vfuel) as [Htri Hunl]. cbv zeta in Htri, Hunl. fold x in Htri, Hunl.
  assert (Hlt : (n < 1000 * vfuel)%nat) by lia.
  split; [|intros HL; exact (Hunl HL Hlt)].
  destruct Htri as [Hlim | [[_ [s' Hx]] | [Hge _]]]; [left; exact Hlim | | lia].
  right. exists s'. split; [exact Hx|].
  exact (compile_correct_capmap_exec_partial e p cm Htc Htl L (term_fuel e root) vfuel o body t0 r s'
           Hcodes Hstr HS G1 G2 G3 G4 Ht0 Hf Hatt Hx).
Qed.

(* ================================================================ from the pattern text *)
(* the per-tree check of leg c10-parse (Extract/Drv10.v nums_okb, same definition) *)
Fixpoint nums_b (caps : list Z) (x : rnode) : bool :=
  match x with
  | RN t _ _ m n _ _ kids =>
      (if t =? T_Capture then (if n =? -1 then zmem m caps else zmem n caps && ((m =? -1) || zmem m caps))
       else if (t =? T_Ref) || (t =? T_BackRefCond) then zmem m caps else true)
      && (fix go (ks : list rnode) : bool := match ks with [] => true | k :: ks' => nums_b caps k && go ks' end) kids
  end.

Lemma nums_b_eq caps t o ch m n str st kids :
  nums_b caps (RN t o ch m n str st kids) =
  (if t =? T_Capture then (if n =? -1 then zmem m caps else zmem n caps && ((m =? -1) || zmem m caps))
   else if (t =? T_Ref) || (t =? T_BackRefCond) then zmem m caps else true) && forallb (nums_b caps) kids.
Proof.
  cbn [nums_b]. reflexivity.
Qed.

(* shape + numbers = the full invariant *)
Lemma shape_nums_wf caps : forall x, wfb (fun _ => true) x = true -> nums_b caps x = true -> wfb (fun k => zmem k caps) x = true.
Proof.
  induction x as [t o ch m n str st kids IH] using rnode_ind'. intros W N.
  rewrite wfb_eq in W |- *. rewrite nums_b_eq in N. apply andb_prop in W. destruct W as [K WK]. apply andb_prop in N. destruct N as [N0 NK].
  apply andb_true_intro. split.
  - unfold knd, gq in *. pose proof (kcls_inv t) as INV. destruct (kcls t) eqn:KC; try exact K.
    + (* leaf *) apply andb_prop in K. destruct K as [K1 _]. rewrite K1. cbn [andb].
      destruct (t =? T_Ref) eqn:ER; [|reflexivity]. assert (t = 13) by (unfold T_Ref in ER; lia). subst t. cbn in N0 |- *. exact N0.
    + (* one child *) destruct kids as [|k [|k2 r]]; try discriminate.
      destruct (t =? T_Capture) eqn:EC; [|reflexivity]. cbn [negb orb]. exact N0.
    + (* BackRefCond *) subst t. cbn in N0 |- *. destruct kids as [|k [|k2 [|k3 r]]]; try discriminate; exact N0.
  - clear K N0. induction IH as [|k r Hk _ IHr]; [reflexivity|]. cbn [forallb] in *.
    apply andb_prop in WK. destruct WK as [W1 W2]. apply andb_prop in NK. destruct NK as [N1 N2].
    rewrite (Hk W1 N1), (IHr W2 N2). reflexivity.
Qed.

(* the full invariant contains the numbers check *)
Lemma wf_nums caps : forall x, wfb (fun k => zmem k caps) x = true -> nums_b caps x = true.
Proof.
  induction x as [t o ch m n str st kids IH] using rnode_ind'. intros W.
  rewrite wfb_eq in W. rewrite nums_b_eq. apply andb_prop in W. destruct W as [K WK]. apply andb_true_intro. split.
  - unfold knd, gq in K. pose proof (kcls_inv t) as INV. destruct (kcls t) eqn:KC; try discriminate;
      try (assert (NT : (t =? T_Capture) = false /\ (t =? T_Ref) = false /\ (t =? T_BackRefCond) = false)
             by (unfold T_Capture, T_Ref, T_BackRefCond; lia); destruct NT as [-> [-> ->]]; reflexivity).
    + apply andb_prop in K. destruct K as [_ K]. destruct (t =? T_Ref) eqn:ER.
      * assert (t = 13) by (unfold T_Ref in ER; lia). subst t. cbn in K |- *. exact K.
      * assert (NT : (t =? T_Capture) = false /\ (t =? T_BackRefCond) = false) by (unfold T_Capture, T_BackRefCond; lia).
        destruct NT as [-> ->]. reflexivity.
    + destruct kids as [|k [|k2 r]]; try discriminate. destruct (t =? T_Capture) eqn:EC.
      * cbn [negb orb] in K. exact K.
      * assert (NT : (t =? T_Ref) = false /\ (t =? T_BackRefCond) = false) by (unfold T_Ref, T_BackRefCond; lia). destruct NT as [-> ->]. reflexivity.
    + subst t. cbn in K |- *. destruct kids as [|k [|k2 [|k3 r]]]; try discriminate; exact K.
  - clear K. induction IH as [|k r Hk _ IHr]; [reflexivity|]. cbn [forallb] in *. apply andb_prop in WK. destruct WK as [W1 W2].
    rewrite (Hk W1), (IHr W2). reflexivity.
Qed.

Section EndToEnd.
Variable is_word_char : Z -> bool.
Variable to_lower : Z -> Z.
Variable simple_fold : Z -> Z.
Variable participates : Z -> bool.
Variable cat_in : Z -> Z -> bool.
Variable cat_name : list Z -> Z.

Local Notation parse := (parse is_word_char to_lower simple_fold participates cat_in cat_name).

(* what is claimed of the program the writer emits for the parsed tree *)
Definition runs_as_spec (caps : list Z) (captop : Z) (root : node) : Prop :=
  let cm := caps_map caps captop in
  let c := {| capmap := cm; quick := None |} in
  forall (e : env) (p : program),
    0 <= trackcount p -> track_count (codes p) <= trackcount p -> tlen e <= INF ->
    codes p = fst (compile c root) -> strings p = snd (compile c root) -> capsize p = caps_size caps captop ->
    Z.of_nat (term_fuel e root) <= INF ->
    forall t0, 0 <= t0 <= tlen e ->
    exists r, attempt e (term_fuel e root) root t0 = Ok r /\
    exists vfuel0 : nat, forall L vfuel, (vfuel0 <= vfuel)%nat ->
      let x := exec_at e p L vfuel t0 in
      ((x = Err E_StackLimit /\ 0 <= L) \/
       (exists s', x = Ok s' /\ pc s' = 2 + csize c root /\ mode s' = 0 /\
          match r with
          | Some q => tp s' = pos q /\ caps_rel_map p cm (Spec.caps q) (mcaps s') /\ matched0 s' = true
          | None => mcaps s' = repeat [] (Z.to_nat (capsize p)) /\ matched0 s' = false
          end)) /\
      (L < 0 -> exists s', x = Ok s').

(* outright: every option word *)
Theorem pattern_text_end_to_end o mco_flag ptxt t caps captop :
  (forall c, is_word_char c = true -> negb (zmem c [33; 35; 39; 40; 41; 45; 60; 61; 62; 63; 91; 92]) = true) ->
  (forall c, (49 <=? c) && (c <=? 57) = true -> is_word_char c = true) ->
  captop < maxint32 ->
  parse o mco_flag ptxt = Ok (PR_Tree t caps captop) ->
  forall sid, exists body,
    to_node sid t = Some (NCapture (n_o t) 0 (-1) body) /\ runs_as_spec caps captop (NCapture (n_o t) 0 (-1) body).
Proof.
  intros HW HD HT E sid.
  destruct (parsed_tree_groups is_word_char to_lower simple_fold participates cat_in cat_name o mco_flag ptxt t caps captop HW HD HT E sid)
    as [body [EN [S [T R]]]].
  destruct (parsed_caps_table is_word_char to_lower simple_fold participates cat_in cat_name o mco_flag ptxt t caps captop E) as [CS [CZ [CN CB]]].
  exists body. split; [exact EN|]. unfold runs_as_spec.
  exact (tree_end_to_end caps captop (n_o t) body CS CZ CN (CB HT) S T R).
Qed.

(* without the oracle ties: the group numbers checked on the tree *)
Theorem pattern_text_end_to_end_checked o mco_flag ptxt t caps captop :
  captop < maxint32 ->
  parse o mco_flag ptxt = Ok (PR_Tree t caps captop) ->
  nums_b caps t = true ->
  forall sid, exists body,
    to_node sid t = Some (NCapture (n_o t) 0 (-1) body) /\ runs_as_spec caps captop (NCapture (n_o t) 0 (-1) body).
Proof.
  intros HT E NB sid.
  pose proof (parse_tree_shape is_word_char to_lower simple_fold participates cat_in cat_name o mco_flag ptxt t caps captop E) as W0.
  pose proof (shape_nums_wf caps t W0 NB) as W.
  destruct (parse_tree_root is_word_char to_lower simple_fold participates cat_in cat_name o mco_flag ptxt t caps captop E) as [R1 [R2 R3]].
  destruct (wf_conv sid (fun k => zmem k caps) t W) as [root [ER [[S [T R]] _]]].
  destruct (root_conv sid (fun k => zmem k caps) t R1 R2 R3 root W ER) as [body ->].
  destruct (parsed_caps_table is_word_char to_lower simple_fold participates cat_in cat_name o mco_flag ptxt t caps captop E) as [CS [CZ [CN CB]]].
  exists body. split; [exact ER|]. unfold runs_as_spec.
  exact (tree_end_to_end caps captop (n_o t) body CS CZ CN (CB HT) S T R).
Qed.

(* the invariants on the parser's own tree *)
Theorem parsed_tree_shape_root o mco_flag p t caps captop :
  parse o mco_flag p = Ok (PR_Tree t caps captop) ->
  wfb (fun _ => true) t = true /\ n_t t = T_Capture /\ n_m t = 0 /\ n_n t = -1.
Proof.
  intros E. split; [exact (parse_tree_shape is_word_char to_lower simple_fold participates cat_in cat_name o mco_flag p t caps captop E)|].
  exact (parse_tree_root is_word_char to_lower simple_fold participates cat_in cat_name o mco_flag p t caps captop E).
Qed.

Theorem parsed_tree_nums o mco_flag p t caps captop :
  (forall c, is_word_char c = true -> negb (zmem c [33; 35; 39; 40; 41; 45; 60; 61; 62; 63; 91; 92]) = true) ->
  (forall c, (49 <=? c) && (c <=? 57) = true -> is_word_char c = true) ->
  captop < maxint32 ->
  parse o mco_flag p = Ok (PR_Tree t caps captop) ->
  wfb (fun k => zmem k caps) t = true /\ nums_b caps t = true.
Proof.
  intros HW HD HT E.
  pose proof (parse_tree_wf is_word_char to_lower simple_fold participates cat_in cat_name HW HD o mco_flag p t caps captop HT E) as W.
  split; [exact W | apply wf_nums; exact W].
Qed.

End EndToEnd.

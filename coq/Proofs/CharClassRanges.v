(* Range lists of Model/CharClass.v: plain membership, the two lookup paths, sort and merge. *)
From Verif Require Import Base.Prelude Model.CharClass.
From Coq Require Import ZifyBool Permutation.

(* plain membership of a rune in an arbitrary list of ranges *)
Definition in_range (r : Z * Z) (ch : Z) : bool := (fst r <=? ch) && (ch <=? snd r).
Definition mem (rs : list (Z * Z)) (ch : Z) : bool := existsb (fun r => in_range r ch) rs.

(* every range lies inside [0, MaxRune] and is not empty *)
Definition wf_range (r : Z * Z) : Prop := 0 <= fst r /\ fst r <= snd r /\ snd r <= max_rune.
Definition wf_ranges (rs : list (Z * Z)) : Prop := Forall wf_range rs.

(* sorted, pairwise disjoint and not even adjacent; every range non-empty *)
Fixpoint sorted_from (prev : Z) (rs : list (Z * Z)) : Prop :=
  match rs with
  | [] => True
  | (a, b) :: t => prev + 1 < a /\ a <= b /\ sorted_from b t
  end.
Definition canonical_ranges (rs : list (Z * Z)) : Prop :=
  match rs with
  | [] => True
  | (a, b) :: t => a <= b /\ sorted_from b t
  end.

Lemma existsb_ext' {A} (f g : A -> bool) l : (forall x, f x = g x) -> existsb f l = existsb g l.
Proof. intros H. induction l as [|h t IH]; [reflexivity|]. cbn. rewrite H, IH. reflexivity. Qed.

Lemma mem_app l1 l2 ch : mem (l1 ++ l2) ch = mem l1 ch || mem l2 ch.
Proof. unfold mem. apply existsb_app. Qed.

Lemma mem_cons r l ch : mem (r :: l) ch = in_range r ch || mem l ch.
Proof. reflexivity. Qed.

Lemma mem_true_iff rs ch : mem rs ch = true <-> exists r, In r rs /\ fst r <= ch <= snd r.
Proof.
  unfold mem. rewrite existsb_exists. unfold in_range.
  split; intros [r [Hin H]]; exists r; split; auto; lia.
Qed.

Lemma mem_perm l1 l2 ch : Permutation l1 l2 -> mem l1 ch = mem l2 ch.
Proof.
  intros HP. apply eq_true_iff_eq. rewrite !mem_true_iff.
  split; intros [r [Hin H]]; exists r; split; auto.
  - eapply Permutation_in; eauto.
  - eapply Permutation_in; [apply Permutation_sym|]; eauto.
Qed.

Lemma sorted_from_weaken p q rs : q <= p -> sorted_from p rs -> sorted_from q rs.
Proof. destruct rs as [|[a b] t]; cbn; [auto|]. intros; intuition lia. Qed.

Lemma sorted_from_mem_false p rs ch : sorted_from p rs -> ch <= p + 1 -> mem rs ch = false.
Proof.
  revert p. induction rs as [|[a b] t IH]; intros p Hs Hc; [reflexivity|].
  cbn in Hs. destruct Hs as (H1 & H2 & H3).
  rewrite mem_cons. unfold in_range; cbn [fst snd].
  rewrite (IH b H3) by lia. lia.
Qed.

Lemma canonical_sorted_from rs : canonical_ranges rs -> exists p, sorted_from p rs.
Proof.
  destruct rs as [|[a b] t]; cbn; [exists 0; exact I|].
  intros [H1 H2]. exists (a - 2). repeat split; auto; lia.
Qed.

Lemma sorted_from_canonical p rs : sorted_from p rs -> canonical_ranges rs.
Proof. destruct rs as [|[a b] t]; cbn; intuition. Qed.

Lemma linear_scan_sorted p rs ch : sorted_from p rs -> linear_scan rs ch = mem rs ch.
Proof.
  revert p. induction rs as [|[a b] t IH]; intros p Hs; [reflexivity|].
  cbn in Hs. destruct Hs as (H1 & H2 & H3).
  cbn [linear_scan]. rewrite mem_cons. unfold in_range; cbn [fst snd].
  destruct (ch <? a) eqn:E1.
  - rewrite (sorted_from_mem_false b t ch H3) by lia. lia.
  - destruct (ch <=? b) eqn:E2.
    + replace (a <=? ch) with true by lia. reflexivity.
    + rewrite (IH b H3). replace (a <=? ch) with true by lia. reflexivity.
Qed.

(* number of ranges whose first is <= ch (a prefix, on a sorted list) *)
Fixpoint count_le (rs : list (Z * Z)) (ch : Z) : nat :=
  match rs with
  | [] => O
  | (a, _) :: t => if a <=? ch then S (count_le t ch) else O
  end.

Lemma count_le_length rs ch : (count_le rs ch <= length rs)%nat.
Proof. induction rs as [|[a b] t IH]; cbn; [lia|]. destruct (a <=? ch); lia. Qed.

Lemma sorted_nth_first p rs ch : sorted_from p rs ->
  forall i a b, nth_error rs i = Some (a, b) -> (a <=? ch) = (i <? count_le rs ch)%nat.
Proof.
  revert p. induction rs as [|[a0 b0] t IH]; intros p Hs i a b Hn.
  - destruct i; discriminate.
  - cbn in Hs. destruct Hs as (H1 & H2 & H3).
    destruct i as [|i]; cbn in Hn.
    + injection Hn as -> ->. cbn [count_le]. destruct (a <=? ch) eqn:E; cbn; lia.
    + cbn [count_le]. destruct (a0 <=? ch) eqn:E.
      * rewrite (IH b0 H3 i a b Hn). apply eq_true_iff_eq. rewrite !Nat.ltb_lt. lia.
      * (* everything later starts after b0 >= a0 > ch *)
        assert (Hm : forall j x y, nth_error t j = Some (x, y) -> b0 < x).
        { clear -H3. revert b0 H3. induction t as [|[x0 y0] t IH]; intros b0 H3 j x y Hj.
          - destruct j; discriminate.
          - cbn in H3. destruct H3 as (K1 & K2 & K3). destruct j; cbn in Hj.
            + injection Hj as -> ->. lia.
            + specialize (IH y0 K3 j x y Hj). lia. }
        specialize (Hm i a b Hn). cbn. lia.
Qed.

Lemma znth_nth_error {A} (l : list A) i : 0 <= i -> znth l i = nth_error l (Z.to_nat i).
Proof. intros H. unfold znth. replace (i <? 0) with false by lia. reflexivity. Qed.

Lemma bsearch_spec p rs ch : sorted_from p rs ->
  forall fuel lo hi,
    0 <= lo <= Z.of_nat (count_le rs ch) -> Z.of_nat (count_le rs ch) <= hi <= zlen rs ->
    (Z.to_nat (hi - lo) <= fuel)%nat ->
    bsearch fuel rs ch lo hi = Z.of_nat (count_le rs ch).
Proof.
  intros Hs. induction fuel as [|f IH]; intros lo hi Hlo Hhi Hf.
  - cbn. lia.
  - cbn [bsearch]. destruct (lo <? hi) eqn:E; [|lia].
    assert (Hmid : lo <= (lo + hi) / 2 < hi) by (split; [apply Z.div_le_lower_bound|apply Z.div_lt_upper_bound]; lia).
    rewrite znth_nth_error by lia.
    destruct (nth_error rs (Z.to_nat ((lo + hi) / 2))) as [[a b]|] eqn:En.
    + pose proof (sorted_nth_first p rs ch Hs _ a b En) as Hc.
      destruct (a <=? ch) eqn:Ea.
      * symmetry in Hc. apply Nat.ltb_lt in Hc. apply IH; lia.
      * symmetry in Hc. apply Nat.ltb_ge in Hc. apply IH; lia.
    + apply nth_error_None in En. unfold zlen in Hhi. lia.
Qed.

Lemma mem_count_le p rs ch : sorted_from p rs ->
  mem rs ch = match count_le rs ch with
              | O => false
              | S k => match nth_error rs k with Some (_, b) => ch <=? b | None => false end
              end.
Proof.
  revert p. induction rs as [|[a b] t IH]; intros p Hs; [reflexivity|].
  cbn in Hs. destruct Hs as (H1 & H2 & H3).
  rewrite mem_cons. unfold in_range; cbn [fst snd count_le].
  destruct (a <=? ch) eqn:Ea.
  - rewrite (IH b H3). destruct (count_le t ch) as [|k] eqn:Ek.
    + cbn. lia.
    + cbn [nth_error]. destruct (nth_error t k) as [[x y]|] eqn:En.
      * (* ch >= x > b + 1 *)
        pose proof (sorted_nth_first b t ch H3 k x y En) as Hc. rewrite Ek in Hc.
        replace (k <? S k)%nat with true in Hc by (symmetry; apply Nat.ltb_lt; lia).
        assert (b < x).
        { clear -H3 En. revert b k H3 En. induction t as [|[x0 y0] t IH]; intros b k H3 En.
          - destruct k; discriminate.
          - cbn in H3. destruct H3 as (K1 & K2 & K3). destruct k; cbn in En.
            + injection En as -> ->. lia.
            + specialize (IH y0 k K3 En). lia. }
        lia.
      * apply nth_error_None in En. pose proof (count_le_length t ch). lia.
  - rewrite (sorted_from_mem_false b t ch H3) by lia. reflexivity.
Qed.

Lemma binary_scan_sorted p rs ch : sorted_from p rs -> binary_scan rs ch = mem rs ch.
Proof.
  intros Hs. unfold binary_scan.
  pose proof (count_le_length rs ch) as Hl.
  rewrite (bsearch_spec p rs ch Hs) by (unfold zlen; lia).
  rewrite (mem_count_le p rs ch Hs).
  destruct (count_le rs ch) as [|k] eqn:Ek; [reflexivity|].
  replace (0 <? Z.of_nat (S k)) with true by lia.
  rewrite znth_nth_error by lia. replace (Z.to_nat (Z.of_nat (S k) - 1)) with k by lia.
  reflexivity.
Qed.

(* extra fuel changes nothing (the model passes length rs) *)
Lemma bsearch_fuel_stable p rs ch fuel : sorted_from p rs -> (length rs <= fuel)%nat ->
  bsearch fuel rs ch 0 (zlen rs) = bsearch (length rs) rs ch 0 (zlen rs).
Proof.
  intros Hs Hf. pose proof (count_le_length rs ch).
  rewrite !(bsearch_spec p rs ch Hs) by (unfold zlen; lia). reflexivity.
Qed.

Lemma in_ranges_sorted p rs ch : sorted_from p rs -> in_ranges rs ch = mem rs ch.
Proof.
  intros Hs. unfold in_ranges. destruct rs as [|r t]; [reflexivity|].
  destruct (zlen (r :: t) <=? 4).
  - apply (linear_scan_sorted p); exact Hs.
  - apply (binary_scan_sorted p); exact Hs.
Qed.

Lemma in_ranges_canonical rs ch : canonical_ranges rs -> in_ranges rs ch = mem rs ch.
Proof. intros H. destruct (canonical_sorted_from rs H) as [p Hp]. eapply in_ranges_sorted; eauto. Qed.

Lemma insert_range_perm r l : Permutation (r :: l) (insert_range r l).
Proof.
  induction l as [|h t IH]; cbn; [apply Permutation_refl|].
  destruct (fst r <? fst h); [apply Permutation_refl|].
  eapply Permutation_trans; [apply perm_swap|]. apply perm_skip. exact IH.
Qed.

Lemma sort_ranges_perm l : Permutation l (sort_ranges l).
Proof.
  induction l as [|h t IH]; cbn; [apply Permutation_refl|].
  eapply Permutation_trans; [apply perm_skip; exact IH|]. apply insert_range_perm.
Qed.

(* sorted by first (weakly) *)
Fixpoint first_sorted (lo : Z) (rs : list (Z * Z)) : Prop :=
  match rs with
  | [] => True
  | (a, _) :: t => lo <= a /\ first_sorted a t
  end.

Lemma first_sorted_weaken lo lo' rs : lo' <= lo -> first_sorted lo rs -> first_sorted lo' rs.
Proof. destruct rs as [|[a b] t]; cbn; [auto|]. intros; intuition lia. Qed.

Lemma insert_range_sorted r l lo : lo <= fst r -> first_sorted lo l -> first_sorted lo (insert_range r l).
Proof.
  revert lo. induction l as [|[a b] t IH]; intros lo Hr Hs; destruct r as [x y]; cbn [fst] in *.
  - cbn. auto with zarith.
  - cbn in Hs. destruct Hs as [H1 H2]. cbn [insert_range fst].
    destruct (x <? a) eqn:E.
    + cbn. repeat split; auto; lia.
    + cbn. split; [auto|]. apply (IH a); cbn [fst]; [lia|exact H2].
Qed.

Lemma sort_ranges_sorted l : Forall (fun r => 0 <= fst r) l -> first_sorted 0 (sort_ranges l).
Proof.
  induction 1 as [|h t Hh Ht IH]; cbn; [exact I|]. apply insert_range_sorted; auto.
Qed.

Lemma sort_ranges_length l : length (sort_ranges l) = length l.
Proof. symmetry. apply Permutation_length. apply sort_ranges_perm. Qed.

Lemma wf_ranges_perm l1 l2 : Permutation l1 l2 -> wf_ranges l1 -> wf_ranges l2.
Proof. intros HP H. unfold wf_ranges in *. rewrite Forall_forall in *. intros x Hx. apply H. eapply Permutation_in; [apply Permutation_sym|]; eauto. Qed.

Lemma merge_ranges_mem : forall rest first last ch,
  first <= last -> last <= max_rune -> first_sorted first rest -> wf_ranges rest ->
  mem (merge_ranges first last rest) ch = mem ((first, last) :: rest) ch.
Proof.
  induction rest as [|[a b] t IH]; intros first last ch Hfl Hlm Hs Hw; [reflexivity|].
  cbn in Hs. destruct Hs as [Hs1 Hs2]. inversion Hw as [|? ? Hw1 Hw2]; subst.
  destruct Hw1 as (W1 & W2 & W3); cbn [fst snd] in *.
  cbn [merge_ranges].
  destruct (last >=? max_rune) eqn:E1.
  - (* done: whatever follows lies inside [first, last] *)
    rewrite !mem_cons. unfold in_range at 1 2 3; cbn [fst snd mem existsb].
    assert (Ht : mem t ch = true -> first <= ch <= last).
    { rewrite mem_true_iff. intros [r [Hin Hr]]. unfold wf_ranges in Hw2. rewrite Forall_forall in Hw2.
      destruct (Hw2 r Hin) as (V1 & V2 & V3).
      assert (a <= fst r).
      { clear -Hs2 Hin. revert a Hs2. induction t as [|[x y] t IH]; intros a Hs2; [destruct Hin|].
        cbn in Hs2. destruct Hs2 as [K1 K2]. destruct Hin as [<-|Hin]; cbn [fst]; [lia|].
        specialize (IH Hin x K2). lia. }
      lia. }
    destruct (mem t ch) eqn:Em; [specialize (Ht eq_refl)|]; lia.
  - destruct (a >? last + 1) eqn:E2.
    + rewrite mem_cons. rewrite (IH a b ch) by (auto; lia). reflexivity.
    + rewrite (IH first (if last <? b then b else last) ch); [| destruct (last <? b); lia | destruct (last <? b); lia | |exact Hw2].
      * rewrite !mem_cons. unfold in_range; cbn [fst snd]. destruct (last <? b) eqn:E3; lia.
      * eapply first_sorted_weaken; [|exact Hs2]. lia.
Qed.

Lemma merge_ranges_sorted : forall rest first last p,
  p + 1 < first -> first <= last -> first_sorted first rest -> wf_ranges rest ->
  sorted_from p (merge_ranges first last rest).
Proof.
  induction rest as [|[a b] t IH]; intros first last p Hp Hfl Hs Hw.
  - cbn. auto.
  - cbn in Hs. destruct Hs as [Hs1 Hs2]. inversion Hw as [|? ? Hw1 Hw2]; subst.
    destruct Hw1 as (W1 & W2 & W3); cbn [fst snd] in *.
    cbn [merge_ranges]. destruct (last >=? max_rune); [cbn; auto|].
    destruct (a >? last + 1) eqn:E2.
    + cbn [sorted_from]. repeat split; auto. apply IH; auto; lia.
    + apply IH; auto; [destruct (last <? b); lia|]. eapply first_sorted_weaken; [|exact Hs2]. lia.
Qed.

Lemma merge_ranges_wf : forall rest first last,
  0 <= first -> first <= last -> last <= max_rune -> wf_ranges rest ->
  wf_ranges (merge_ranges first last rest).
Proof.
  induction rest as [|[a b] t IH]; intros first last H0 Hfl Hlm Hw.
  - constructor; [|constructor]. repeat split; auto.
  - inversion Hw as [|? ? Hw1 Hw2]; subst. destruct Hw1 as (W1 & W2 & W3); cbn [fst snd] in *.
    cbn [merge_ranges]. destruct (last >=? max_rune).
    + constructor; [|constructor]. repeat split; auto.
    + destruct (a >? last + 1).
      * constructor; [repeat split; auto|]. apply IH; auto.
      * apply IH; auto; destruct (last <? b) eqn:E3; lia.
Qed.

(* the range part of canonicalize *)
Definition merged (rs : list (Z * Z)) : list (Z * Z) :=
  match rs with
  | [] => []
  | [r] => [r]
  | _ => merge_sorted (sort_ranges rs)
  end.

Lemma merged_eq rs : merged rs = merge_sorted (sort_ranges rs).
Proof. destruct rs as [|[a b] [|r2 t]]; reflexivity. Qed.

Lemma merge_sorted_ok s : wf_ranges s -> first_sorted 0 s ->
  (forall ch, mem (merge_sorted s) ch = mem s ch) /\ canonical_ranges (merge_sorted s) /\ wf_ranges (merge_sorted s).
Proof.
  intros Hw Hs. destruct s as [|[a b] t]; [cbn; auto|].
  inversion Hw as [|? ? W1 W2]; subst. destruct W1 as (V1 & V2 & V3); cbn [fst snd] in *.
  destruct t as [|r' t']; [cbn; auto|]. cbn [merge_sorted]. destruct Hs as [_ Hs].
  split; [intros ch; apply merge_ranges_mem; auto|].
  split; [apply (sorted_from_canonical (a - 2)), merge_ranges_sorted; auto; lia|apply merge_ranges_wf; auto].
Qed.

Lemma merged_spec rs : wf_ranges rs ->
  (forall ch, mem (merged rs) ch = mem rs ch) /\ canonical_ranges (merged rs) /\ wf_ranges (merged rs).
Proof.
  intros Hw. rewrite merged_eq. pose proof (sort_ranges_perm rs) as HP.
  destruct (merge_sorted_ok (sort_ranges rs)) as (A & B & C); [exact (wf_ranges_perm _ _ HP Hw)| |].
  - apply sort_ranges_sorted. unfold wf_ranges in Hw. eapply Forall_impl; [|exact Hw]. intros x [? _]; auto.
  - split; [intros ch; rewrite A; symmetry; apply mem_perm; exact HP|auto].
Qed.

Lemma merged_mem rs ch : wf_ranges rs -> mem (merged rs) ch = mem rs ch.
Proof. intros Hw. apply (merged_spec rs Hw). Qed.

Lemma merged_canonical rs : wf_ranges rs -> canonical_ranges (merged rs).
Proof. intros Hw. apply (merged_spec rs Hw). Qed.

Lemma merged_wf rs : wf_ranges rs -> wf_ranges (merged rs).
Proof. intros Hw. apply (merged_spec rs Hw). Qed.

(* C04, part 6: soundness of findFirstCharClass (Analysis2.try_ffcc / find_first_char_class):
   whenever the analysis returns a class, every successful attempt consumes at least one character
   and the first character it consumes (the one at the attempt position, resp. before it for a
   right-to-left pattern) belongs to the class. *)
From Coq Require Import ZifyBool.
From Verif Require Import Base.Prelude Model.Tree Model.Spec Model.CharClass Model.Analysis Model.Analysis2
     Proofs.SpecProofs Proofs.CharClassRanges Proofs.CharClassProofs Proofs.MaskProofs
     Proofs.AnalysisReach Proofs.AnalysisProofs Proofs.AnalysisPrefix Proofs.Analysis2Cls.

From Verif Require Import Proofs.ListFacts.
(* the tree predicate of the analyses of Analysis2: no case-insensitive literal, every literal a rune *)
Definition lit_tree (t : node) : bool := no_ci_lit t && lits_ok t.

Lemma lits_kids t : lits_ok t = true -> forallb lits_ok (kids t) = true.
Proof.
  destruct t as [| | | | | | | | | | | | | | | |o g yes [n|]|o c yes [n|]]; cbn [kids lits_ok forallb]; intros H;
    rewrite ?andb_true_r in *; try exact H; reflexivity.
Qed.

Lemma lit_tree_kids t : lit_tree t = true -> forallb lit_tree (kids t) = true.
Proof. exact (an_kids_andb no_ci_lit lits_ok an_no_ci_kids lits_kids t). Qed.

Lemma lit_tree_inv t : lit_tree t = true -> no_ci_lit t = true /\ lits_ok t = true.
Proof. apply andb_true_iff. Qed.

Lemma lit_trees_inv l : forallb lit_tree l = true -> forallb no_ci_lit l = true /\ forallb lits_ok l = true.
Proof. unfold lit_tree. rewrite forallb_andb. apply andb_true_iff. Qed.

(* the rune tryFindFirstCharClass and getFirstCharsPrefix take from a Multi node *)
Definition multi_first (o : Z) (s : list Z) : Z := if is_rtl o then last s 0 else hd 0 s.

Lemma multi_first_in o s : s <> [] -> In (multi_first o s) s.
Proof.
  intros Hne. unfold multi_first. destruct (is_rtl o); [|destruct s; [congruence|left; reflexivity]].
  destruct (exists_last Hne) as [l' [z ->]]. rewrite last_last. apply in_or_app. right. left. reflexivity.
Qed.

Lemma multi_first_rune o s : lits_ok (NMulti o s) = true -> rune_ok (multi_first o s) = true.
Proof.
  cbn [lits_ok]. intros Hl. destruct s as [|a s'] eqn:E; [discriminate Hl|]. rewrite <- E in *.
  rewrite forallb_forall in Hl. apply Hl. apply multi_first_in. rewrite E. discriminate.
Qed.

(* ---- the inner loops of try_ffcc as top-level functions ---- *)
Section Loops.
Variable cat_in : Z -> Z -> bool.
Variable sets : list cls.

Fixpoint ffcc_cat (l : list node) (cc : option cls) : Z * option cls :=
  match l with
  | [] => (-1, cc)
  | x :: l' => let '(v, cc') := try_ffcc cat_in sets x cc in if v =? -1 then ffcc_cat l' cc' else (v, cc')
  end.

Fixpoint ffcc_alt (l : list node) (cc : option cls) (anynull : bool) : Z * option cls :=
  match l with
  | [] => ((if anynull then -1 else 1), cc)
  | x :: l' => let '(v, cc') := try_ffcc cat_in sets x cc in
               if v =? 0 then (0, cc') else ffcc_alt l' cc' (anynull || (v =? -1))
  end.

Lemma ffcc_concat_eq o l cc : try_ffcc cat_in sets (NConcat o l) cc = ffcc_cat l cc.
Proof. reflexivity. Qed.
Lemma ffcc_alternate_eq o l cc : try_ffcc cat_in sets (NAlternate o l) cc = ffcc_alt l cc false.
Proof. reflexivity. Qed.

Definition ffcc_cond (yes n : node) (cc : option cls) : Z * option cls :=
  let p1 := try_ffcc cat_in sets yes cc in
  let p2 := try_ffcc cat_in sets n (snd p1) in
  ((if (fst p1 =? 0) || (fst p2 =? 0) then 0 else if (fst p1 =? -1) || (fst p2 =? -1) then -1 else 1), snd p2).

Lemma ffcc_brc_eq o g yes n cc : try_ffcc cat_in sets (NBackRefCond o g yes (Some n)) cc = ffcc_cond yes n cc.
Proof.
  cbn [try_ffcc]. unfold ffcc_cond. destruct (try_ffcc cat_in sets yes cc) as [a cc1]. cbn [fst snd].
  destruct (try_ffcc cat_in sets n cc1) as [b cc2]. cbn [fst snd].
  destruct ((a =? 0) || (b =? 0)); [reflexivity|]. destruct ((a =? -1) || (b =? -1)); reflexivity.
Qed.
Lemma ffcc_ec_eq o c yes n cc : try_ffcc cat_in sets (NExprCond o c yes (Some n)) cc = ffcc_cond yes n cc.
Proof. exact (ffcc_brc_eq 0 0 yes n cc). Qed.

Lemma ffcc_loop_eq lz o m n r cc :
  try_ffcc cat_in sets (NLoop lz o m n r) cc =
  let p := try_ffcc cat_in sets r cc in ((if (fst p <=? 0) || negb (m =? 0) then fst p else -1), snd p).
Proof.
  cbn [try_ffcc]. destruct (try_ffcc cat_in sets r cc) as [v cc']. cbn [fst snd].
  destruct ((v <=? 0) || negb (m =? 0)); reflexivity.
Qed.

Lemma ffcc_cat_cons x l cc :
  ffcc_cat (x :: l) cc =
  let p := try_ffcc cat_in sets x cc in if fst p =? -1 then ffcc_cat l (snd p) else p.
Proof. cbn [ffcc_cat]. destruct (try_ffcc cat_in sets x cc) as [v cc']. reflexivity. Qed.

Lemma ffcc_alt_cons x l cc an :
  ffcc_alt (x :: l) cc an =
  let p := try_ffcc cat_in sets x cc in
  if fst p =? 0 then (0, snd p) else ffcc_alt l (snd p) (an || (fst p =? -1)).
Proof. cbn [ffcc_alt]. destruct (try_ffcc cat_in sets x cc) as [v cc']. reflexivity. Qed.

(* complement of one character, as tryFindFirstCharClass builds it *)
Definition compl_of (c : Z) : list (Z * Z) :=
  (if 0 <? c then [(0, c - 1)] else []) ++ (if c <? MAXR then [(c + 1, MAXR)] else []).

Definition ffcc_leaf (k : ckind) (c v : Z) (cc : option cls) : Z * option cls :=
  let c0 := match cc with Some x => x | None => empty_cls end in
  match k with
  | COne => if is_mergeable c0 then (v, Some (add_char cat_in c0 c)) else (0, Some c0)
  | CNotone => if is_mergeable c0 then (v, Some (add_ranges cat_in c0 (compl_of c))) else (0, Some c0)
  | CSet => match cc with
            | None => (v, Some (cls_copy (set_cls sets c)))
            | Some c0 => if is_mergeable c0 && is_mergeable (set_cls sets c)
                         then (v, Some (add_set cat_in c0 (set_cls sets c))) else (0, cc)
            end
  end.

Lemma ffcc_char_eq k o c cc : try_ffcc cat_in sets (NChar k o c) cc = ffcc_leaf k c 1 cc.
Proof. destruct k; reflexivity. Qed.
Lemma ffcc_charloop_eq k l o c m n cc :
  try_ffcc cat_in sets (NCharLoop k l o c m n) cc = ffcc_leaf k c (ffcc_ret (0 <? m)) cc.
Proof. destruct k; reflexivity. Qed.
Lemma ffcc_multi_eq o s cc : try_ffcc cat_in sets (NMulti o s) cc = ffcc_leaf COne (multi_first o s) 1 cc.
Proof. reflexivity. Qed.

(* the test of Spec.char_test, on the exported class structures *)
Definition leaf_test (k : ckind) (c x : Z) : bool :=
  match k with COne => x =? c | CNotone => negb (x =? c) | CSet => cmem cat_in (set_cls sets c) x end.

Definition lit_ok (k : ckind) (c : Z) : bool := match k with CSet => true | _ => rune_ok c end.

Definition accm (cc : option cls) (x : Z) : bool := match cc with Some c => cmem cat_in c x | None => false end.
Definition cc_ok (cc : option cls) : Prop := match cc with Some c => acc_ok cat_in c | None => True end.

Definition sets_good : Prop := forall id, gcls cat_in (set_cls sets id).

Definition tri (v : Z) : Prop := v = 1 \/ v = 0 \/ v = -1.

Lemma ffcc_ret_tri b : tri (ffcc_ret b).
Proof. unfold tri, ffcc_ret. destruct b; auto. Qed.

Definition mono_step (cc : option cls) (r : Z * option cls) : Prop :=
  cc_ok (snd r) /\ tri (fst r) /\ forall x, valid_rune x -> accm cc x = true -> accm (snd r) x = true.

Definition mono_at (t : node) : Prop :=
  forall cc, lits_ok t = true -> cc_ok cc -> mono_step cc (try_ffcc cat_in sets t cc).

Lemma mono_same cc v : cc_ok cc -> tri v -> mono_step cc (v, cc).
Proof. intros Hok Hv. split; [exact Hok|]. split; [exact Hv|]. auto. Qed.

Lemma mono_trans cc r1 r2 : mono_step cc r1 -> mono_step (snd r1) r2 -> mono_step cc r2.
Proof. intros (_ & _ & C) (A & B & C'). split; [exact A|]. split; [exact B|]. auto. Qed.

Lemma a2_rune_ok c : rune_ok c = true -> 0 <= c <= max_rune.
Proof. unfold rune_ok, MAXR, max_rune. lia. Qed.

Lemma compl_wf c : 0 <= c <= max_rune -> wf_ranges (compl_of c).
Proof.
  intros Hc. unfold compl_of, MAXR, max_rune in *. unfold wf_ranges.
  destruct (0 <? c) eqn:E1, (c <? 1114111) eqn:E2; cbn [app]; repeat constructor; cbn [fst snd]; unfold max_rune; lia.
Qed.

Lemma compl_mem c x : valid_rune x -> x <> c -> mem (compl_of c) x = true.
Proof.
  unfold valid_rune, max_rune. intros Hx Hne. unfold compl_of, MAXR.
  rewrite mem_app. destruct (x <? c) eqn:E.
  - destruct (0 <? c) eqn:E1; [|lia]. unfold mem, in_range. cbn [existsb fst snd]. lia.
  - destruct (c <? 1114111) eqn:E2; [|lia].
    apply orb_true_iff. right. unfold mem, in_range. cbn [existsb fst snd]. lia.
Qed.

Definition leaf_step (cc : option cls) (g : Z -> bool) (v : Z) (r : Z * option cls) : Prop :=
  mono_step cc r /\ (fst r <> 0 -> fst r = v /\ forall x, valid_rune x -> g x = true -> accm (snd r) x = true).

Lemma leaf_add (cc : option cls) (f : cls -> cls) (g : Z -> bool) (v : Z) :
  cc_ok cc -> tri v ->
  (forall c0, acc_ok cat_in c0 -> is_mergeable c0 = true ->
     acc_ok cat_in (f c0) /\ forall x, valid_rune x -> cmem cat_in (f c0) x = cmem cat_in c0 x || g x) ->
  let c0 := match cc with Some x => x | None => empty_cls end in
  leaf_step cc g v (if is_mergeable c0 then (v, Some (f c0)) else (0, Some c0)).
Proof.
  intros Hok Hv Hf c0.
  assert (H0 : acc_ok cat_in c0) by (destruct cc; [exact Hok|apply a2_empty_acc]).
  assert (Hm : forall x, accm cc x = true -> cmem cat_in c0 x = true) by (destruct cc; [auto|discriminate]).
  unfold leaf_step, mono_step. destruct (is_mergeable c0) eqn:Em; cbn [fst snd].
  - destruct (Hf c0 H0 Em) as [A B]. split.
    + split; [exact A|]. split; [exact Hv|]. intros x Hx Hx0. cbn [accm]. rewrite B, (Hm x Hx0) by exact Hx. reflexivity.
    + intros _. split; [reflexivity|]. intros x Hx Hg. cbn [accm]. rewrite B, Hg by exact Hx. apply orb_true_r.
  - split; [|congruence]. split; [exact H0|]. split; [right; left; reflexivity|]. intros x _. apply Hm.
Qed.

Lemma ffcc_leaf_step k c v cc : sets_good -> lit_ok k c = true -> cc_ok cc -> tri v ->
  leaf_step cc (leaf_test k c) v (ffcc_leaf k c v cc).
Proof.
  intros Hg Hl Hok Hv. destruct k; cbn [ffcc_leaf leaf_test lit_ok] in *.
  - apply (leaf_add cc (fun c0 => add_char cat_in c0 c) _ v Hok Hv).
    intros c0 H0 Em. exact (a2_add_char cat_in c0 c H0 Em (a2_rune_ok c Hl)).
  - apply (leaf_add cc (fun c0 => add_ranges cat_in c0 (compl_of c)) _ v Hok Hv).
    intros c0 H0 Em. destruct (a2_add_ranges cat_in c0 (compl_of c) H0 Em (compl_wf c (a2_rune_ok c Hl))) as [A B].
    split; [exact A|]. intros x Hx. rewrite B by exact Hx. f_equal. cbn [leaf_test].
    destruct (x =? c) eqn:E; cbn [negb]; [|apply compl_mem; [exact Hx|lia]].
    assert (x = c) by lia. subst x. unfold compl_of, MAXR, mem. rewrite existsb_app.
    destruct (0 <? c), (c <? 1114111); cbn [existsb orb]; unfold in_range; cbn [fst snd]; lia.
  - unfold leaf_step, mono_step. destruct cc as [c0|]; cbn [fst snd].
    + destruct (is_mergeable c0 && is_mergeable (set_cls sets c)) eqn:Em; cbn [fst snd].
      * apply andb_true_iff in Em. destruct Em as [E1 E2].
        destruct (a2_add_set cat_in c0 (set_cls sets c) Hok E1 (Hg c) E2) as [A B]. split.
        -- split; [exact A|]. split; [exact Hv|]. intros x Hx Hm. cbn [accm] in *. rewrite B, Hm by exact Hx. reflexivity.
        -- intros _. split; [reflexivity|]. intros x Hx Hm. cbn [accm leaf_test] in *. rewrite B, Hm by exact Hx. apply orb_true_r.
      * split; [|congruence]. apply (mono_same (Some c0)); [exact Hok|right; left; reflexivity].
    + split.
      * split; [apply a2_copy_acc; apply Hg|]. split; [exact Hv|]. intros x _ H. discriminate H.
      * intros _. split; [reflexivity|]. intros x _ Hm. cbn [accm]. rewrite a2_copy_mem by apply Hg. exact Hm.
Qed.

Lemma ffcc_cat_mono : forall l, Forall mono_at l -> forallb lits_ok l = true ->
  forall cc, cc_ok cc -> mono_step cc (ffcc_cat l cc).
Proof.
  induction l as [|x l IH]; intros Hf Hl cc Hok.
  - apply mono_same; [exact Hok|right; right; reflexivity].
  - rewrite ffcc_cat_cons. cbv zeta. cbn [forallb] in Hl. apply andb_true_iff in Hl. destruct Hl as [Hx Hl].
    inversion Hf as [|? ? Px Pl]; subst. pose proof (Px cc Hx Hok) as M.
    destruct (fst (try_ffcc cat_in sets x cc) =? -1); [|exact M].
    exact (mono_trans _ _ _ M (IH Pl Hl _ (proj1 M))).
Qed.

Lemma ffcc_alt_mono : forall l, Forall mono_at l -> forallb lits_ok l = true ->
  forall cc an, cc_ok cc -> mono_step cc (ffcc_alt l cc an).
Proof.
  induction l as [|x l IH]; intros Hf Hl cc an Hok.
  - apply mono_same; [exact Hok|destruct an; [right; right|left]; reflexivity].
  - rewrite ffcc_alt_cons. cbv zeta. cbn [forallb] in Hl. apply andb_true_iff in Hl. destruct Hl as [Hx Hl].
    inversion Hf as [|? ? Px Pl]; subst. pose proof (Px cc Hx Hok) as M.
    destruct (fst (try_ffcc cat_in sets x cc) =? 0).
    + destruct M as (A & _ & C). split; [exact A|]. split; [right; left; reflexivity|exact C].
    + exact (mono_trans _ _ _ M (IH Pl Hl _ _ (proj1 M))).
Qed.

Lemma ffcc_cond_mono yes n : mono_at yes -> mono_at n -> lits_ok yes = true -> lits_ok n = true ->
  forall cc, cc_ok cc -> mono_step cc (ffcc_cond yes n cc).
Proof.
  intros Py Pn Hy Hn cc Hok. pose proof (Py cc Hy Hok) as M. destruct (Pn _ Hn (proj1 M)) as (A & _ & C).
  apply (mono_trans _ _ _ M). unfold ffcc_cond. cbn [fst snd]. split; [exact A|]. split; [|exact C].
  destruct (_ || _); [right; left; reflexivity|]. destruct (_ || _); [right; right|left]; reflexivity.
Qed.

Lemma ffcc_mono_all : sets_good -> forall t, mono_at t.
Proof.
  intros Hg. induction t using node_ind'; intros cc Hl Hok;
    try (apply (mono_same cc); [exact Hok|cbn; unfold tri; auto]).
  - rewrite ffcc_char_eq. apply ffcc_leaf_step; [exact Hg|destruct k; exact Hl|exact Hok|left; reflexivity].
  - rewrite ffcc_charloop_eq. apply ffcc_leaf_step; [exact Hg|destruct k; exact Hl|exact Hok|apply ffcc_ret_tri].
  - rewrite ffcc_multi_eq. apply ffcc_leaf_step; [exact Hg|exact (multi_first_rune o s Hl)|exact Hok|left; reflexivity].
  - rewrite ffcc_concat_eq. apply ffcc_cat_mono; assumption.
  - rewrite ffcc_alternate_eq. apply ffcc_alt_mono; assumption.
  - rewrite ffcc_loop_eq. destruct (IHt cc Hl Hok) as (A & B & C). cbv zeta. cbn [fst snd].
    split; [exact A|]. split; [|exact C]. destruct (_ || _); [exact B|right; right; reflexivity].
  - apply IHt; assumption.
  - apply IHt; assumption.
  - destruct no as [n|]; [|apply mono_same; [exact Hok|right; right; reflexivity]].
    rewrite ffcc_brc_eq. cbn [lits_ok] in Hl. apply andb_true_iff in Hl. apply ffcc_cond_mono; tauto.
  - destruct no as [n|]; [|apply mono_same; [exact Hok|right; right; reflexivity]].
    rewrite ffcc_ec_eq. cbn [lits_ok] in Hl. apply andb_true_iff in Hl. apply ffcc_cond_mono; tauto.
Qed.

(* [r] was computed by a walk that passed through child [x] with some accumulator [cc']: if r is not 0 neither
   was the child's result, if r is 1 so was the child's, and r's class contains the child's *)
Definition ffcc_pick (r : Z * option cls) (x : node) : Prop :=
  fst r <> 0 -> exists cc', cc_ok cc' /\ fst (try_ffcc cat_in sets x cc') <> 0 /\
    (fst r = 1 -> fst (try_ffcc cat_in sets x cc') = 1) /\
    forall z, valid_rune z -> accm (snd (try_ffcc cat_in sets x cc')) z = true -> accm (snd r) z = true.

Lemma ffcc_alt_null : forall l cc, fst (ffcc_alt l cc true) <> 1.
Proof.
  induction l as [|x l IH]; intros cc; [cbn; lia|]. rewrite ffcc_alt_cons. cbv zeta.
  destruct (_ =? 0); [cbn; lia|apply IH].
Qed.

Lemma ffcc_alt_pick : sets_good -> forall l x, forallb lits_ok l = true -> In x l ->
  forall cc an, cc_ok cc -> ffcc_pick (ffcc_alt l cc an) x.
Proof.
  intros Hg. induction l as [|x0 l IH]; intros x Hl Hin cc an Hok Hne; [destruct Hin|].
  cbn [forallb] in Hl. apply andb_true_iff in Hl. destruct Hl as [Hl0 Hl].
  pose proof (ffcc_mono_all Hg x0 cc Hl0 Hok) as M.
  assert (Hall : Forall mono_at l) by (apply Forall_forall; intros; apply ffcc_mono_all; exact Hg).
  rewrite ffcc_alt_cons in *. cbv zeta in *.
  destruct (fst (try_ffcc cat_in sets x0 cc) =? 0) eqn:E0; [cbn [fst] in Hne; congruence|].
  destruct Hin as [->|Hin]; [|exact (IH x Hl Hin _ _ (proj1 M) Hne)].
  exists cc. split; [exact Hok|]. split; [lia|]. split.
  - intros H1. destruct M as (_ & [B|[B|B]] & _); [exact B|lia|].
    rewrite B, orb_true_r in H1. destruct (ffcc_alt_null _ _ H1).
  - apply (ffcc_alt_mono l Hall Hl _ _ (proj1 M)).
Qed.

Lemma ffcc_cond_pick : sets_good -> forall yes n x, lits_ok yes = true -> lits_ok n = true -> x = yes \/ x = n ->
  forall cc, cc_ok cc -> ffcc_pick (ffcc_cond yes n cc) x.
Proof.
  intros Hg yes n x Hy Hn Hx cc Hok Hne.
  pose proof (ffcc_mono_all Hg yes cc Hy Hok) as (A & B & C).
  pose proof (ffcc_mono_all Hg n _ Hn A) as (A' & B' & C').
  unfold ffcc_cond in *. cbn [fst snd] in *.
  destruct (fst (try_ffcc cat_in sets yes cc) =? 0) eqn:E1; [cbn in Hne; congruence|].
  destruct (fst (try_ffcc cat_in sets n (snd (try_ffcc cat_in sets yes cc))) =? 0) eqn:E2; [cbn in Hne; congruence|].
  cbn [orb]. destruct Hx as [->| ->].
  - exists cc. split; [exact Hok|]. split; [lia|]. split; [|exact C'].
    destruct (fst (try_ffcc cat_in sets yes cc) =? -1) eqn:E3; [cbn; lia|]. intros _. destruct B as [B|[B|B]]; lia.
  - exists (snd (try_ffcc cat_in sets yes cc)). split; [exact A|]. split; [lia|]. split; [|auto].
    destruct (fst (try_ffcc cat_in sets yes cc) =? -1); [cbn; lia|]. cbn [orb].
    destruct (fst (try_ffcc cat_in sets n (snd (try_ffcc cat_in sets yes cc))) =? -1) eqn:E3; [cbn; lia|].
    intros _. destruct B' as [B'|[B'|B']]; lia.
Qed.

End Loops.

(* first-character facts of the reference semantics                                            *)

Section First.
Variable e : env.

(* the first character a direction-d node reads from state s *)
Definition fchar (d : bool) (s : st) : Z := if d then char_at e (pos s - 1) else char_at e (pos s).

(* from s to y: at least one character is consumed when [strict] holds, and when one is consumed the first
   satisfies M *)
Definition fsound (d : bool) (strict : Prop) (M : Z -> Prop) (s y : st) : Prop :=
  (strict -> 0 < disp d s y) /\ (0 < disp d s y -> M (fchar d s)).

Lemma fsound_zero d (A : Prop) M s y : ~ A -> pos y = pos s -> fsound d A M s y.
Proof. intros HA Hp. unfold fsound, disp. rewrite Hp. split; [tauto|]. destruct d; lia. Qed.

Lemma fsound_weaken d (A A' : Prop) (M M' : Z -> Prop) s y :
  fsound d A M s y -> (A' -> A) -> (M (fchar d s) -> M' (fchar d s)) -> fsound d A' M' s y.
Proof. intros [H1 H2] HA HM. split; auto. Qed.

Lemma fsound_pos d A M s s' y y' : pos s' = pos s -> pos y' = pos y -> fsound d A M s y -> fsound d A M s' y'.
Proof. unfold fsound, disp, fchar. intros -> ->. auto. Qed.

(* s to s1 then s1 to y: the second fact counts only when the first step consumed nothing *)
Lemma fsound_seq d (A B C : Prop) M s s1 y :
  0 <= disp d s s1 -> 0 <= disp d s1 y -> fsound d A M s s1 -> (pos s1 = pos s -> fsound d B M s1 y) ->
  (C -> A \/ B) -> fsound d C M s y.
Proof.
  intros H1 H2 [A1 A2] HB HC. unfold fsound. rewrite (an_disp_trans d s s1 y).
  destruct (Z.eq_dec (disp d s s1) 0) as [Hz|Hz].
  - assert (Hp : pos s1 = pos s) by (unfold disp in Hz; destruct d; lia).
    destruct (HB Hp) as [B1 B2]. unfold fchar in *. rewrite Hp in B2. split; [|intros; apply B2; lia].
    intros c. destruct (HC c) as [a|b]; [specialize (A1 a)|specialize (B1 b)]; lia.
  - split; [lia|]. intros _. apply A2. lia.
Qed.

Lemma fsound_ext d (A C : Prop) M s s1 y : A -> 0 <= disp d s1 y -> fsound d A M s s1 -> fsound d C M s y.
Proof.
  intros a H2 [A1 A2]. specialize (A1 a). unfold fsound. rewrite (an_disp_trans d s s1 y).
  split; [lia|]. intros _. apply A2. exact A1.
Qed.

Lemma run_len_pos k c o : forall maxn p, 0 < run_len e k c o maxn p -> char_test e k c (next_char e o p) = true.
Proof.
  destruct maxn as [|m]; intros p H; cbn [run_len] in H; [lia|].
  destruct ((0 <? avail e o p) && char_test e k c (next_char e o p)) eqn:E; [|lia].
  apply andb_true_iff in E. tauto.
Qed.

Lemma next_char_fchar d o s : is_rtl o = d -> next_char e o (pos s) = fchar d s.
Proof. intros <-. unfold next_char, fchar. reflexivity. Qed.

Lemma last_nth (l : list Z) : l <> [] -> last l 0 = nth (length l - 1) l 0.
Proof.
  intros Hne. destruct (exists_last Hne) as [l' [z ->]]. rewrite last_last.
  rewrite app_length. cbn [length]. replace (length l' + 1 - 1)%nat with (length l') by lia.
  rewrite app_nth2 by lia. replace (length l' - length l')%nat with 0%nat by lia. reflexivity.
Qed.

Lemma char_first d k o c s : shape_ok d (NChar k o c) = true ->
  (0 <? avail e o (pos s)) && char_test e k c (next_char e o (pos s)) = true ->
  fsound d True (fun x => char_test e k c x = true) s (with_pos s (pos s + dir o)).
Proof.
  intros Hs Hc. cbn [shape_ok] in Hs. apply eqb_prop in Hs. apply andb_true_iff in Hc. destruct Hc as [_ Hch].
  rewrite (next_char_fchar d o s Hs) in Hch. split; [|intros _; exact Hch].
  intros _. unfold disp, dir. cbn [pos with_pos]. rewrite Hs. destruct d; lia.
Qed.

Lemma charloop_first d k l o c m n s y :
  shape_ok d (NCharLoop k l o c m n) = true -> In y (sem_charloop e k l o c m n s) ->
  fsound d (m <> 0) (fun x => char_test e k c x = true) s y.
Proof.
  intros Hs Hin. cbn [shape_ok] in Hs. apply andb_true_iff in Hs. destruct Hs as [Hs _].
  apply andb_true_iff in Hs. destruct Hs as [Hs Hm0]. apply eqb_prop in Hs.
  apply an_charloop_in in Hin. destruct Hin as [j [maxn [-> [Hj _]]]].
  assert (Hd : disp d s (with_pos s (pos s + dir o * j)) = j).
  { unfold disp, dir. cbn [pos with_pos]. rewrite Hs. destruct d; lia. }
  unfold fsound. rewrite Hd. split; [lia|]. intros Hj0.
  rewrite <- (next_char_fchar d o s Hs). apply (run_len_pos k c o maxn). lia.
Qed.

Lemma multi_first_sound d o str s y :
  shape_ok d (NMulti o str) = true -> is_ci o = false -> str <> [] -> In y (sem_multi e o str s) ->
  fsound d True (fun x => char_test e COne (multi_first o str) x = true) s y.
Proof.
  intros Hs Hn Hne Hin. cbn [shape_ok] in Hs. apply eqb_prop in Hs.
  apply an_multi_in in Hin. destruct Hin as [-> [_ Hm]]. rewrite Hn, Hs in Hm.
  assert (Hlen : 0 < zlen str) by (unfold zlen; destruct str; [congruence|cbn [length]; lia]).
  split.
  - intros _. unfold disp, dir. cbn [pos with_pos]. rewrite Hs. destruct d; lia.
  - intros _. cbn [char_test]. apply Z.eqb_eq. unfold multi_first, fchar. rewrite Hs. destruct d.
    + rewrite (last_nth str Hne).
      rewrite (an_str_match_nth e str (pos s - zlen str) (length str - 1) Hm) by (unfold zlen in Hlen; lia).
      f_equal. unfold zlen in *. lia.
    + destruct str as [|c0 str']; [congruence|]. cbn [hd].
      change c0 with (nth 0 (c0 :: str') 0). rewrite (an_str_match_nth e (c0 :: str') (pos s) 0 Hm) by (cbn [length]; lia).
      f_equal. lia.
Qed.

End First.

(* soundness against the reference semantics                                                   *)

Section Sound.
Variable e : env.
Variable cat_in : Z -> Z -> bool.
Variable sets : list cls.
Hypothesis Hgood : sets_good cat_in sets.
(* the oracle of the semantics answers as CharIn does on the exported class structures *)
Hypothesis Hagree : forall id x, set_in e id x = cmem cat_in (set_cls sets id) x.
Hypothesis Hvalid : forall i, valid_rune (char_at e i).

Notation T := (try_ffcc cat_in sets).
Notation accm := (accm cat_in).
Notation cc_ok := (cc_ok cat_in).

Lemma fchar_valid d s : valid_rune (fchar e d s).
Proof. unfold fchar. destruct d; apply Hvalid. Qed.

Definition rsound (d : bool) (r : Z * option cls) (s y : st) : Prop :=
  fsound e d (fst r = 1) (fun x => accm (snd r) x = true) s y.

Definition FT (d : bool) (t : node) (s y : st) : Prop :=
  forall cc, cc_ok cc -> fst (T t cc) <> 0 -> rsound d (T t cc) s y.

Definition FS (d : bool) (l : list node) (s y : st) : Prop :=
  forall cc, cc_ok cc -> fst (ffcc_cat cat_in sets l cc) <> 0 -> rsound d (ffcc_cat cat_in sets l cc) s y.

Definition FI (d : bool) (r : node) (limit : Z) (s : st) (count : Z) (y : st) : Prop :=
  forall cc, cc_ok cc -> fst (T r cc) <> 0 ->
    fsound e d (fst (T r cc) = 1 /\ count < 0) (fun x => accm (snd (T r cc)) x = true) s y.

Lemma ffcc_leaf_sound d k c v cc (A : Prop) s y :
  lit_ok k c = true -> tri v -> cc_ok cc -> fst (ffcc_leaf cat_in sets k c v cc) <> 0 ->
  fsound e d A (fun x => char_test e k c x = true) s y -> (v = 1 -> A) ->
  rsound d (ffcc_leaf cat_in sets k c v cc) s y.
Proof.
  intros Hl Hv Hok Hne Hf HA.
  destruct (proj2 (ffcc_leaf_step cat_in sets k c v cc Hgood Hl Hok Hv) Hne) as [E M].
  apply (fsound_weaken e d _ _ _ _ s y Hf); [rewrite E; exact HA|].
  intros Hx. apply M; [apply fchar_valid|]. rewrite <- Hx. destruct k; cbn [leaf_test char_test]; auto.
Qed.

(* a zero-width node: the result is -1 and nothing is consumed *)
Lemma ft_zero_width d t s y : (forall cc, T t cc = (-1, cc)) -> pos y = pos s -> FT d t s y.
Proof. intros HT Hp cc _ _. rewrite HT. apply fsound_zero; [cbn; lia|exact Hp]. Qed.

Lemma ft_pick d r x s y : ffcc_pick cat_in sets r x -> fst r <> 0 -> FT d x s y -> rsound d r s y.
Proof.
  intros Hp Hne IH. destruct (Hp Hne) as [cc' (A & B & C & D)].
  apply (fsound_weaken e d _ _ _ _ s y (IH cc' A B) C). apply D. apply fchar_valid.
Qed.

Notation Run := (Run e).

Lemma ffcc_all (d : bool) :
  (forall t s y, Run d lit_tree t s y -> FT d t s y) /\
  (forall l s y, RunSeq e d lit_tree l s y -> FS d l s y) /\
  (forall r limit s count y, RunIter e d lit_tree r limit s count y -> FI d r limit s count y).
Proof.
  apply Run_mutind.
  - (* W_char *)
    intros k o c s [Hs Ho] _ Hc cc Hok Hne. rewrite ffcc_char_eq in *.
    apply lit_tree_inv in Ho. destruct Ho as [_ Hl].
    apply (ffcc_leaf_sound d k c 1 cc True); [destruct k; exact Hl|left; reflexivity|exact Hok|exact Hne| |trivial].
    exact (char_first e d k o c s Hs Hc).
  - (* W_charloop *)
    intros k l o c m n s y [Hs Ho] _ Hin cc Hok Hne. rewrite ffcc_charloop_eq in *.
    apply lit_tree_inv in Ho. destruct Ho as [_ Hl].
    apply (ffcc_leaf_sound d k c _ cc (m <> 0)); [destruct k; exact Hl|apply ffcc_ret_tri|exact Hok|exact Hne| |].
    + exact (charloop_first e d k l o c m n s y Hs Hin).
    + unfold ffcc_ret. destruct (0 <? m) eqn:E; lia.
  - (* W_multi *)
    intros o str s y [Hs Ho] _ Hin cc Hok Hne. rewrite ffcc_multi_eq in *.
    apply lit_tree_inv in Ho. destruct Ho as [Hn Hl]. cbn [no_ci_lit] in Hn. apply negb_true_iff in Hn.
    apply (ffcc_leaf_sound d COne _ 1 cc True); [exact (multi_first_rune o str Hl)|left; reflexivity|exact Hok|exact Hne| |trivial].
    apply (multi_first_sound e d o str s y Hs Hn); [|exact Hin]. destruct str; [discriminate Hl|discriminate].
  - (* W_ref *) intros o g s y _ cc _ Hne. destruct Hne. reflexivity.
  - (* W_anchor *) intros a s _. apply ft_zero_width; reflexivity.
  - (* W_empty *) intros s. apply ft_zero_width; reflexivity.
  - (* W_bump *) intros s. apply ft_zero_width; reflexivity.
  - (* W_concat *) intros o l s y _ IH cc. rewrite ffcc_concat_eq. apply IH.
  - (* W_alt *)
    intros o l x s y [_ Hl] Hin _ IH _ cc Hok Hne. rewrite ffcc_alternate_eq in *.
    apply lit_trees_inv in Hl. destruct Hl as [_ Hl].
    exact (ft_pick d _ x s y (ffcc_alt_pick cat_in sets Hgood l x Hl Hin cc false Hok) Hne IH).
  - (* W_loop0 *)
    intros lazy o n r s y _ _ IH cc Hok Hne. rewrite ffcc_loop_eq in *. cbv zeta in *. cbn [fst snd negb Z.eqb orb] in *.
    rewrite orb_false_r in *.
    assert (Hr0 : fst (T r cc) <> 0) by (destruct (fst (T r cc) <=? 0) eqn:E; [exact Hne|lia]).
    apply (fsound_weaken e d _ _ _ _ s y (IH cc Hok Hr0)); [|auto].
    destruct (fst (T r cc) <=? 0) eqn:E; cbn [fst]; lia.
  - (* W_loop1 *)
    intros lazy o m n r s s1 y _ Hm _ IH1 _ IH2 _ Hd1 Hd2 cc Hok Hne. rewrite ffcc_loop_eq in *. cbv zeta in *.
    replace (m =? 0) with false in * by lia. rewrite orb_true_r in *. cbn [fst snd] in *.
    apply (fsound_seq e d _ _ _ _ s s1 y Hd1 Hd2 (IH1 cc Hok Hne) (fun _ => IH2 cc Hok Hne)). auto.
  - (* W_capture *)
    intros o g u r s s1 y _ IH Hp cc Hok Hne. cbn [try_ffcc] in *.
    exact (fsound_pos e d _ _ s s s1 y eq_refl Hp (IH cc Hok Hne)).
  - (* W_group *) intros r s y _ _ cc _ Hne. destruct Hne. reflexivity.
  - (* W_poslook *) intros o r s y Hp. apply ft_zero_width; [reflexivity|exact Hp].
  - (* W_neglook *) intros o r s. apply ft_zero_width; reflexivity.
  - (* W_atomic *) intros r s y _ IH. exact IH.
  - (* W_brc *)
    intros o g yes n x s y [_ Hy] [_ Hn] Hx _ IH cc Hok Hne. rewrite ffcc_brc_eq in *.
    apply lit_tree_inv in Hy. apply lit_tree_inv in Hn.
    exact (ft_pick d _ x s y (ffcc_cond_pick cat_in sets Hgood yes n x (proj2 Hy) (proj2 Hn) Hx cc Hok) Hne IH).
  - (* W_ec *)
    intros o c yes n x s s0 y [_ Hy] [_ Hn] Hx Hp _ IH cc Hok Hne. rewrite ffcc_ec_eq in *.
    apply lit_tree_inv in Hy. apply lit_tree_inv in Hn.
    apply (fsound_pos e d _ _ s0 s y y (eq_sym Hp) eq_refl).
    exact (ft_pick d _ x s0 y (ffcc_cond_pick cat_in sets Hgood yes n x (proj2 Hy) (proj2 Hn) Hx cc Hok) Hne IH).
  - (* WS_nil *) intros s cc _ _. apply fsound_zero; [cbn; lia|reflexivity].
  - (* WS_cons *)
    intros x l s s1 y [_ Hx] [_ Hl] _ IH1 _ IH2 _ Hd1 Hd2 cc Hok Hne. rewrite ffcc_cat_cons in *. cbv zeta in *.
    apply lit_tree_inv in Hx. apply lit_trees_inv in Hl.
    destruct (ffcc_mono_all cat_in sets Hgood x cc (proj2 Hx) Hok) as (A & B & _).
    destruct (fst (T x cc) =? -1) eqn:E1.
    + assert (Hgrow : mono_step cat_in (snd (T x cc)) (ffcc_cat cat_in sets l (snd (T x cc)))).
      { apply ffcc_cat_mono; [|tauto|exact A]. apply Forall_forall. intros; apply ffcc_mono_all; exact Hgood. }
      eapply (fsound_seq e d (fst (T x cc) = 1) _ _ _ s s1 y Hd1 Hd2); [|intros _; exact (IH2 _ A Hne)|auto].
      apply (fsound_weaken e d _ _ _ _ s s1 (IH1 cc Hok ltac:(lia))); [auto|]. apply Hgrow. apply fchar_valid.
    + assert (H1 : fst (T x cc) = 1) by (destruct B as [B|[B|B]]; lia).
      exact (fsound_ext e d _ _ _ s s1 y H1 Hd2 (IH1 cc Hok Hne)).
  - (* WI_stop *)
    intros r limit s count Hlim Hc cc _ _. apply fsound_zero; [lia|reflexivity].
  - (* WI_more *)
    intros r limit s count s1 y _ _ IH1 _ IH2 _ Hd1 Hd2 cc Hok Hne.
    apply (fsound_seq e d _ _ _ _ s s1 y Hd1 Hd2 (IH1 cc Hok Hne) (fun _ => IH2 cc Hok Hne)). tauto.
Qed.

(* findFirstCharClass returned the class C: every successful attempt consumes at least one character and the
   first one (at p for a left-to-right pattern, at p-1 for a right-to-left one) is in C *)
Theorem a2_first_char_class_sound (d : bool) fuel root p s' C :
  shape_ok d root = true -> no_ci_lit root = true -> lits_ok root = true -> 0 <= p <= tlen e ->
  find_first_char_class cat_in sets root = Some C ->
  attempt e fuel root p = Ok (Some s') ->
  (if d then 0 < p /\ pos s' < p else p < tlen e /\ p < pos s') /\
  char_in cat_in C (if d then char_at e (p - 1) else char_at e p) = true.
Proof.
  intros Hs Hn Hl Hp Hf Ha.
  assert (Hw : wf d lit_tree root) by (split; [exact Hs|unfold lit_tree; rewrite Hn, Hl; reflexivity]).
  pose proof (attempt_run e d lit_tree lit_tree_kids fuel root p s' Hw Hp Ha) as Hr.
  unfold find_first_char_class in Hf. destruct (T root None) as [v cc] eqn:ET.
  destruct (v =? 1) eqn:Ev; [|discriminate Hf]. subst cc. assert (v = 1) by lia. subst v.
  destruct (proj1 (ffcc_all d) _ _ _ Hr None I) as [I1 I2]; [rewrite ET; cbn; lia|].
  rewrite ET in I1, I2. cbn [fst snd] in I1, I2. specialize (I1 eq_refl). specialize (I2 I1).
  destruct (an_step e d root _ _ (attempt_reach e _ _ _ _ Ha) Hs Hp an_caps_nonneg_nil) as [Hy _].
  unfold inb, disp, fchar in *. cbn [pos] in *. cbn [Analysis2Ffcc.accm] in I2. unfold cmem in I2.
  destruct d; (split; [lia|exact I2]).
Qed.

End Sound.

(* the boolean check of the exported class table implies the hypothesis sets_good *)
Lemma sets_good_b cat_in sets : forallb cls_good_b sets = true -> sets_good cat_in sets.
Proof.
  intros H id. unfold set_cls. rewrite forallb_forall in H.
  destruct (nth_in_or_default (Z.to_nat id) sets empty_cls) as [Hin|Hd].
  - apply a2_cls_good_b. apply H. exact Hin.
  - rewrite Hd. apply (a2_empty_acc cat_in).
Qed.

(* C04, part 5: what the analyses of Model/Analysis2.v need from the character-class model (C16):
   membership of the classes they build (addChar / addRanges / addSet on a mergeable accumulator, Copy)
   in terms of CharIn. *)
From Coq Require Import ZifyBool.
From Verif Require Import Base.Prelude Model.Tree Model.CharClass Model.Analysis2
     Proofs.CharClassRanges Proofs.CharClassProofs.

Section Cls.
Variable cat_in : Z -> Z -> bool.

(* a class on which CharIn is plain set algebra: canonical ranges at every level, bitmaps (if any) are the
   computed ones, the anything flag only together with [0, MaxRune], ranges inside 0..MaxRune *)
Definition gcls (c : cls) : Prop :=
  canonical c /\ bitmaps_ok cat_in c /\ any_inv c /\ wf_ranges (ranges c).

(* an accumulator built by the analyses: never carries a bitmap of its own *)
Definition acc_ok (c : cls) : Prop := gcls c /\ ascii c = None.

Definition cmem (c : cls) (x : Z) : bool := char_in cat_in c x.

Lemma a2_cmem_plain c x : gcls c -> cmem c x = plain_in cat_in c x.
Proof. intros (Hc & Hb & _). unfold cmem. apply (lookup_paths_agree cat_in c x Hc Hb). Qed.

Lemma a2_mergeable_inv c : is_mergeable c = true -> neg c = false /\ sub c = None.
Proof.
  unfold is_mergeable, no_sub. intros H. apply andb_true_iff in H. destruct H as [H1 H2].
  split; [destruct (neg c); [discriminate|reflexivity]|destruct (sub c); [discriminate|reflexivity]].
Qed.

Lemma a2_mergeable_plain c x : is_mergeable c = true -> plain_in cat_in c x = body cat_in c x.
Proof.
  intros H. destruct (a2_mergeable_inv c H) as [Hn Hs].
  rewrite plain_in_top, top_in_body. unfold sub_in. rewrite Hn, Hs. destruct (body cat_in c x); reflexivity.
Qed.

Lemma a2_empty_acc : acc_ok empty_cls.
Proof.
  unfold acc_ok, gcls, empty_cls. cbn. repeat split; auto.
  - intros H. discriminate H.
  - constructor.
Qed.

Lemma a2_empty_mem x : cmem empty_cls x = false.
Proof. reflexivity. Qed.

(* a canonicalising mutator keeps the accumulator invariant *)
Lemma a2_mut_acc c c' : acc_ok c -> mut_ok c c' -> acc_ok c'.
Proof.
  intros [(Hc & Hb & Hi & Hw) Ha] (M1 & M2 & M3 & M4 & M5).
  destruct c as [rs cs sb ng an asc], c' as [rs' cs' sb' ng' an' asc'].
  cbn [sub ascii ranges] in *. subst sb' asc' asc.
  unfold acc_ok, gcls. cbn [canonical bitmaps_ok ranges ascii] in *.
  repeat split; try tauto.
Qed.

Lemma a2_mut_refl c : gcls c -> mut_ok c c.
Proof.
  intros (Hc & _ & Hi & Hw). unfold mut_ok. repeat split; auto.
  destruct c; cbn in Hc |- *. tauto.
Qed.

Lemma a2_add_range c lo hi :
  acc_ok c -> is_mergeable c = true -> 0 <= lo -> lo <= hi -> hi <= max_rune ->
  acc_ok (add_range cat_in c lo hi) /\
  forall x, valid_rune x -> cmem (add_range cat_in c lo hi) x = cmem c x || ((lo <=? x) && (x <=? hi)).
Proof.
  intros Ha Hm H0 H1 H2. pose proof Ha as [Hg Hasc]. pose proof Hg as (Hc & Hb & Hi & Hw).
  destruct (a2_mergeable_inv c Hm) as [Hn Hs].
  assert (Hok : acc_ok (add_range cat_in c lo hi)) by (eapply a2_mut_acc; [exact Ha|apply add_range_ok; auto]).
  split; [exact Hok|]. intros x Hx.
  rewrite (a2_cmem_plain _ x (proj1 Hok)), (a2_cmem_plain c x Hg).
  rewrite add_range_union by auto. rewrite (a2_mergeable_plain c x Hm).
  unfold sub_in. rewrite Hs. rewrite andb_true_r. reflexivity.
Qed.

Lemma a2_add_char c ch :
  acc_ok c -> is_mergeable c = true -> 0 <= ch <= max_rune ->
  acc_ok (add_char cat_in c ch) /\
  forall x, valid_rune x -> cmem (add_char cat_in c ch) x = cmem c x || (x =? ch).
Proof.
  intros Ha Hm Hch. unfold add_char. destruct (a2_add_range c ch ch Ha Hm) as [Hok Hmem]; try lia.
  split; [exact Hok|]. intros x Hx. rewrite Hmem by exact Hx. f_equal. lia.
Qed.

Lemma a2_add_ranges c rs :
  acc_ok c -> is_mergeable c = true -> wf_ranges rs ->
  acc_ok (add_ranges cat_in c rs) /\
  forall x, valid_rune x -> cmem (add_ranges cat_in c rs) x = cmem c x || mem rs x.
Proof.
  intros Ha Hm Hr. pose proof Ha as [Hg Hasc]. pose proof Hg as (Hc & Hb & Hi & Hw).
  destruct (a2_mergeable_inv c Hm) as [Hn Hs].
  assert (Hcr : canonical_ranges (ranges c)) by (destruct c; cbn in Hc |- *; tauto).
  pose proof (add_ranges_ok cat_in c rs Hi Hw Hcr Hr) as Hmut.
  assert (Hok : acc_ok (add_ranges cat_in c rs)) by (eapply a2_mut_acc; eassumption).
  split; [exact Hok|]. intros x Hx.
  rewrite (a2_cmem_plain _ x (proj1 Hok)), (a2_cmem_plain c x Hg).
  rewrite plain_in_top, add_ranges_top by auto. rewrite (a2_mergeable_plain c x Hm).
  destruct Hmut as (M1 & _). unfold sub_in. rewrite M1, Hs, Hn. rewrite andb_true_r. apply xorb_false_l.
Qed.

Lemma a2_add_set_mut c s : gcls c -> wf_ranges (ranges s) -> mut_ok c (add_set cat_in c s).
Proof.
  intros Hg Hws. pose proof Hg as (Hc & Hb & Hi & Hw). unfold add_set.
  destruct (anything c) eqn:Ea; [apply a2_mut_refl; exact Hg|].
  destruct (anything s) eqn:Eas.
  - destruct (make_anything_shape c) as (A & B & C & D). unfold mut_ok.
    split; [exact A|]. split; [exact B|]. split; [exact C|]. split; [exact D|].
    intros _. reflexivity.
  - set (c1 := set_ranges c (ranges c ++ ranges s)).
    destruct (add_categories_shape cat_in c1 (cats s)) as (A & B & C & D & E).
    assert (Hw1 : wf_ranges (ranges c1)) by (cbn [ranges set_ranges c1]; apply wf_ranges_app; auto).
    assert (Hi1 : any_inv c1) by (intros Hx; cbn in Hx; congruence).
    destruct (canonicalize_mut_ok cat_in (add_categories c1 (cats s)) (D Hw1) (any_inv_sem cat_in _ (E Hi1)))
      as (M1 & M2 & M3 & M4 & M5).
    unfold mut_ok. rewrite M1, M2, A, B. cbn [sub ascii set_ranges c1].
    split; [reflexivity|]. split; [reflexivity|]. split; [exact M3|]. split; [exact M4|exact M5].
Qed.

Lemma a2_add_set c s :
  acc_ok c -> is_mergeable c = true -> gcls s -> is_mergeable s = true ->
  acc_ok (add_set cat_in c s) /\
  forall x, valid_rune x -> cmem (add_set cat_in c s) x = cmem c x || cmem s x.
Proof.
  intros Ha Hm Hgs Hms. pose proof Ha as [Hg Hasc]. pose proof Hg as (Hc & Hb & Hi & Hw).
  pose proof Hgs as (Hcs & Hbs & His & Hws).
  destruct (a2_mergeable_inv c Hm) as [Hn Hs].
  assert (Hok : acc_ok (add_set cat_in c s)) by (eapply a2_mut_acc; [exact Ha|apply a2_add_set_mut; auto]).
  split; [exact Hok|]. intros x Hx.
  rewrite (a2_cmem_plain _ x (proj1 Hok)), (a2_cmem_plain c x Hg), (a2_cmem_plain s x Hgs).
  rewrite add_set_union by auto.
  rewrite (a2_mergeable_plain c x Hm), (a2_mergeable_plain s x Hms).
  unfold sub_in. rewrite Hs. rewrite andb_true_r. reflexivity.
Qed.

Lemma a2_copy_plain : forall c x, plain_in cat_in (cls_copy c) x = plain_in cat_in c x.
Proof.
  induction c using cls_induction; intros x; cbn [cls_copy plain_in]; [reflexivity|].
  rewrite IHc. reflexivity.
Qed.

Lemma a2_copy_canonical : forall c, canonical c -> canonical (cls_copy c).
Proof.
  induction c using cls_induction; cbn [cls_copy canonical]; [tauto|].
  intros [H1 H2]. split; [exact H1|apply IHc; exact H2].
Qed.

Lemma a2_copy_bitmaps : forall c, bitmaps_ok cat_in (cls_copy c).
Proof.
  induction c using cls_induction; cbn [cls_copy bitmaps_ok]; [tauto|]. split; [exact I|exact IHc].
Qed.

Lemma a2_copy_acc c : gcls c -> acc_ok (cls_copy c).
Proof.
  intros (Hc & Hb & Hi & Hw). unfold acc_ok, gcls. split; [|destruct c; reflexivity].
  split; [apply a2_copy_canonical; exact Hc|]. split; [apply a2_copy_bitmaps|].
  destruct c as [rs cs sb ng an asc]. cbn [cls_copy ranges] in *. split; [|exact Hw].
  unfold any_inv in *. cbn [anything ranges] in *. exact Hi.
Qed.

Lemma a2_copy_mem c x : gcls c -> cmem (cls_copy c) x = cmem c x.
Proof.
  intros Hg. rewrite (a2_cmem_plain _ x (proj1 (a2_copy_acc c Hg))), (a2_cmem_plain c x Hg).
  apply a2_copy_plain.
Qed.

Lemma a2_copy_mergeable c : is_mergeable (cls_copy c) = is_mergeable c.
Proof. destruct c as [rs cs [s|] ng an asc]; reflexivity. Qed.

Lemma a2_copy_anything c : anything (cls_copy c) = anything c.
Proof. destruct c; reflexivity. Qed.

Lemma a2_sorted_b p rs : sorted_b p rs = true -> sorted_from p rs.
Proof.
  revert p. induction rs as [|[a b] t IH]; intros p H; cbn [sorted_b sorted_from] in *; [exact I|].
  apply andb_true_iff in H. destruct H as [H H3]. apply andb_true_iff in H. destruct H as [H1 H2].
  split; [lia|]. split; [lia|]. apply IH. exact H3.
Qed.

Lemma a2_canon_b : forall c, canon_b c = true -> canonical c /\ bitmaps_ok cat_in c.
Proof.
  induction c using cls_induction; cbn [canon_b canonical bitmaps_ok]; intros H.
  - apply andb_true_iff in H. destruct H as [H _]. apply andb_true_iff in H. destruct H as [H1 H2].
    destruct asc; [discriminate H2|]. split; [|tauto]. split; [|exact I].
    destruct rs as [|[a b] t]; cbn [canon_ranges_b canonical_ranges] in *; [exact I|].
    apply andb_true_iff in H1. destruct H1 as [Ha Hb]. split; [lia|apply a2_sorted_b; exact Hb].
  - apply andb_true_iff in H. destruct H as [H H3]. apply andb_true_iff in H. destruct H as [H1 H2].
    destruct asc; [discriminate H2|]. destruct (IHc H3) as [I1 I2]. split; [|tauto]. split; [|exact I1].
    destruct rs as [|[a b] t]; cbn [canon_ranges_b canonical_ranges] in *; [exact I|].
    apply andb_true_iff in H1. destruct H1 as [Ha Hb]. split; [lia|apply a2_sorted_b; exact Hb].
Qed.

Lemma a2_cls_good_b c : cls_good_b c = true -> gcls c.
Proof.
  unfold cls_good_b. intros H. apply andb_true_iff in H. destruct H as [H H3].
  apply andb_true_iff in H. destruct H as [H1 H2]. destruct (a2_canon_b c H1) as [Hc Hb].
  split; [exact Hc|]. split; [exact Hb|]. split.
  - intros Ha. rewrite Ha in H2. destruct (ranges c) as [|[a b] [|r t]]; try discriminate H2.
    unfold MAXR in H2. unfold max_rune. f_equal. f_equal; lia.
  - unfold wf_ranges. rewrite Forall_forall. rewrite forallb_forall in H3. intros r Hr. specialize (H3 r Hr).
    unfold wf_range, MAXR, max_rune in *. lia.
Qed.

End Cls.

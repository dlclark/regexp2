(* compile_correct with balancing captures, part 1: the constructor set [supported2] (= CompileDefs.supported
   without the restriction u = -1 on captures) and the slot side condition [groups_ok2].
   The induction on fuel and tree of Proofs/CompileGen.v is stated over these two (every constructor), also
   when it is used for [supported] trees (CompileProofs, through [plain_node] and c2_supported_split below).
   Writer configuration: cfg0 (identity slot map, full code); other configurations are reduced to it by
   tree transformations (Proofs/CompileCapmap.v, Proofs/CompileQuick.v). *)
From Verif Require Import Base.Prelude Model.Tree Model.Spec Model.VM Model.Writer Gen.RunnerGen
  Proofs.SpecProofs Proofs.SpecBoundsProofs Proofs.MaskProofs
  Proofs.VMU Proofs.VMUOps Proofs.VMUOps2 Proofs.VMUOps6 Proofs.VMUOps3 Proofs.CompileBase Proofs.CompileDefs.
From Coq Require Import Relations ZifyBool.

(* ---------- the constructor set covered: every constructor, balancing captures included ---------- *)
Fixpoint supported2 (t : node) : bool :=
  match t with
  | NChar _ _ _ | NAnchor _ | NNothing | NEmpty | NBump => true
  | NCharLoop _ _ _ _ m n => (0 <=? m) && (m <=? n) && (n <=? INF)
  | NMulti _ _ | NRef _ _ => true
  | NConcat _ l => (fix go (l : list node) : bool := match l with [] => true | x :: l' => supported2 x && go l' end) l
  | NAlternate _ l =>
      match l with [] => false | _ => true end &&
      (fix go (l : list node) : bool := match l with [] => true | x :: l' => supported2 x && go l' end) l
  | NCapture _ g u r => supported2 r
  | NGroup r | NAtomic r | NPosLook _ r | NNegLook _ r => supported2 r
  | NLoop _ _ m n r => (0 <=? m) && (n <=? INF) && supported2 r
  | NBackRefCond _ _ yes no => supported2 yes && match no with Some x => supported2 x | None => true end
  | NExprCond _ c yes no => supported2 c && supported2 yes && match no with Some x => supported2 x | None => true end
  end.

Definition supported2_list (l : list node) : bool :=
  (fix go (l : list node) : bool := match l with [] => true | x :: l' => supported2 x && go l' end) l.

(* every group number used is a slot of the program.  Balancing capture (?<g-u>...): the popped group u is a
   slot; the pushed group g is a slot or absent (g = -1, the form (?<-u>...)). *)
Definition grp_ok_node2 (cs : Z) (t : node) : Prop :=
  match t with
  | NCapture _ g u _ => if u =? -1 then 0 <= g < cs else 0 <= u < cs /\ (g = -1 \/ 0 <= g < cs)
  | NRef _ g => 0 <= g < cs
  | NBackRefCond _ g _ _ => 0 <= g < cs
  | _ => True
  end.
Definition groups_ok2 (cs : Z) (t : node) : Prop := sb_all (grp_ok_node2 cs) t.

Lemma c2_supported_list_forall l : supported2_list l = true -> Forall (fun t => supported2 t = true) l.
Proof.
  induction l as [|x l IH]; cbn [supported2_list]; intros H; [constructor|].
  apply andb_prop in H. destruct H as [Hx Hl]. constructor; [exact Hx|apply IH; exact Hl].
Qed.

Lemma c2_supported_list_map (f : node -> node) l : Forall (fun t => supported2 (f t) = supported2 t) l ->
  supported2_list (map f l) = supported2_list l.
Proof.
  induction 1 as [|x l Hx HF IH]; [reflexivity|]. cbn [map].
  change (supported2 (f x) && supported2_list (map f l) = supported2 x && supported2_list l).
  rewrite Hx, IH. reflexivity.
Qed.

Lemma c2_supported_alt_map (f : node -> node) o o' l : Forall (fun t => supported2 (f t) = supported2 t) l ->
  supported2 (NAlternate o' (map f l)) = supported2 (NAlternate o l).
Proof.
  intros HF. change (match map f l with [] => false | _ => true end && supported2_list (map f l) =
                     match l with [] => false | _ => true end && supported2_list l).
  rewrite (c2_supported_list_map f l HF). destruct l; reflexivity.
Qed.

Lemma c2_supported_min_ok : forall t, supported2 t = true -> loops_min_ok t.
Proof.
  unfold loops_min_ok.
  induction t using node_ind'; intros Hs; cbn [supported2] in Hs; try discriminate Hs;
    cbn [sb_all sb_min_ok]; try (split; exact I); try (split; [lia|exact I]).
  - split; [exact I|]. change (supported2_list l = true) in Hs. apply c2_supported_list_forall in Hs.
    induction H as [|x l Hx Hl IH]; [exact I|]. inversion Hs; subst. split; [apply Hx; assumption|apply IH; assumption].
  - split; [exact I|]. apply andb_prop in Hs. destruct Hs as [_ Hs].
    change (supported2_list l = true) in Hs. apply c2_supported_list_forall in Hs.
    induction H as [|x l Hx Hl IH]; [exact I|]. inversion Hs; subst. split; [apply Hx; assumption|apply IH; assumption].
  - apply andb_prop in Hs. destruct Hs as [_ Hs]. split; [exact I|apply IHt; exact Hs].
  - split; [exact I|apply IHt; exact Hs].
  - split; [exact I|apply IHt; exact Hs].
  - split; [exact I|apply IHt; exact Hs].
  - split; [exact I|apply IHt; exact Hs].
  - split; [exact I|apply IHt; exact Hs].
  - apply andb_prop in Hs. destruct Hs as [Hy Hn]. split; [exact I|]. split; [apply IHt; exact Hy|].
    destruct no as [x|]; [apply H; exact Hn|exact I].
  - apply andb_prop in Hs. destruct Hs as [Hs Hn]. apply andb_prop in Hs. destruct Hs as [Hc Hy].
    split; [exact I|]. split; [apply IHt1; exact Hc|]. split; [apply IHt2; exact Hy|].
    destruct no as [x|]; [apply H; exact Hn|exact I].
Qed.

(* [supported] is [supported2] plus: every capture node is a plain one *)
Definition plain_node (t : node) : Prop :=
  match t with NCapture _ _ u _ => u = -1 | _ => True end.

Lemma c2_supported_split_list l :
  Forall (fun x => supported x = true -> supported2 x = true /\ sb_all plain_node x) l ->
  supported_list l = true -> supported2_list l = true /\ sb_all_list plain_node l.
Proof.
  induction 1 as [|x l Hx _ IH]; intros Hs; [split; [reflexivity|exact I]|].
  cbn [supported_list] in Hs. apply andb_prop in Hs. destruct Hs as [H1 H2].
  destruct (Hx H1) as [Hx2 Hxp]. destruct (IH H2) as [Hl2 Hlp].
  cbn [supported2_list]. rewrite Hx2. split; [exact Hl2|split; assumption].
Qed.

Lemma c2_supported_split : forall t, supported t = true -> supported2 t = true /\ sb_all plain_node t.
Proof.
  induction t using node_ind'; intros Hs; cbn [supported] in Hs; cbn [supported2 sb_all plain_node];
    try (split; [exact Hs|split; exact I]).
  - destruct (c2_supported_split_list l H Hs) as [H2 Hp]. split; [exact H2|split; [exact I|exact Hp]].
  - apply andb_prop in Hs. destruct Hs as [Hne Hs]. rewrite Hne.
    destruct (c2_supported_split_list l H Hs) as [H2 Hp]. split; [exact H2|split; [exact I|exact Hp]].
  - apply andb_prop in Hs. destruct Hs as [Hmn Hs]. destruct (IHt Hs) as [H2 Hp]. rewrite Hmn, H2.
    split; [reflexivity|split; [exact I|exact Hp]].
  - apply andb_prop in Hs. destruct Hs as [Hu Hs]. apply Z.eqb_eq in Hu. destruct (IHt Hs) as [H2 Hp].
    split; [exact H2|split; [exact Hu|exact Hp]].
  - destruct (IHt Hs) as [H2 Hp]. split; [exact H2|split; [exact I|exact Hp]].
  - destruct (IHt Hs) as [H2 Hp]. split; [exact H2|split; [exact I|exact Hp]].
  - destruct (IHt Hs) as [H2 Hp]. split; [exact H2|split; [exact I|exact Hp]].
  - destruct (IHt Hs) as [H2 Hp]. split; [exact H2|split; [exact I|exact Hp]].
  - apply andb_prop in Hs. destruct Hs as [Hy Hn]. destruct (IHt Hy) as [H2 Hp]. rewrite H2.
    destruct no as [x|]; [destruct (H Hn) as [Hx2 Hxp]; split; [exact Hx2|]|split; [reflexivity|]];
      (split; [exact I|split; [exact Hp|assumption]]).
  - apply andb_prop in Hs. destruct Hs as [Hs Hn]. apply andb_prop in Hs. destruct Hs as [Hc Hy].
    destruct (IHt1 Hc) as [Hc2 Hcp]. destruct (IHt2 Hy) as [Hy2 Hyp]. rewrite Hc2, Hy2.
    destruct no as [x|]; [destruct (H Hn) as [Hx2 Hxp]; split; [exact Hx2|]|split; [reflexivity|]];
      (split; [exact I|split; [exact Hcp|split; [exact Hyp|assumption]]]).
Qed.

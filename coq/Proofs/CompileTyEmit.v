(* Every program the writer emits is accepted by the static frame-shape verifier of Proofs/CompileCfSafe.v.

   The typing judgment (Section WT, Section Link): [wtc G a code S] -- the code placed at address a decodes into
   instructions starting at the addresses S, each consistent with the shape function G ([iokb]) -- and its link
   to the verifier: a program with  wtc G 0 (codes p) S,  G defined only on S,  the entry/exit conventions and
   the depth bound satisfies  tyck p (sh_of G) = true  (compiled_tyck).
   The emitted code (from [shf] to emit_typed): the shape function of emitted code, by recursion on the tree
   ([shf]), and  wtc  for [emit] by induction, node kind by node kind through [wtd] (typed code with shapes at
   its instruction boundaries only, so that fragments compose without side conditions), with one lemma per
   instruction the writer puts around fragments. *)
From Verif Require Import Base.Prelude Model.Tree Model.Spec Model.VM Model.Writer Gen.RunnerGen Gen.CodeGen
  Proofs.MaskProofs Proofs.VMLimitProofs Proofs.VMCapacityProofs Proofs.VMU Proofs.CompileDefs
  Proofs.CompileTotal Proofs.CompileLimit Proofs.CompileCfSafe.
From Coq Require Import Relations ZifyBool.

Section WT.
Variable G : Z -> option shape.

(* CompileCfSafe.instr_ok over an arbitrary shape function G and operand: instr_ok reads the shapes from a table
   through [sh_at], which is None off the instruction boundaries of one given program, and the operand from that
   program; here no program is at hand yet.  The table of opcodes is the same; Link.instr_ok_of is the equation
   between the two for G tabulated as [sh_of]. *)
Definition iokb (a w arg : Z) : bool :=
  match G a with
  | None => true
  | Some tp =>
      let op := Z.land w 63 in
      let nx := G (a + opcode_size w) in
      let tg := G arg in
      if in_list op plain_ops then is_shape nx tp
      else if op =? Stop then true
      else if op =? Nothing then true
      else if op =? Goto then is_shape tg tp
      else if op =? Lazybranch then is_shape nx tp && is_shape tg tp
      else if (op =? Setmark) || (op =? Nullmark) then is_shape nx (KM :: tp)
      else if (op =? Getmark) || (op =? Capturemark) then match tp with KM :: t' => is_shape nx t' | _ => false end
      else if (op =? Branchmark) || (op =? Lazybranchmark) then
        match tp with KM :: t' => is_shape nx t' && is_shape tg tp | _ => false end
      else if (op =? Setcount) || (op =? Nullcount) then is_shape nx (KC :: tp)
      else if (op =? Branchcount) || (op =? Lazybranchcount) then
        match tp with KC :: t' => is_shape nx t' && is_shape tg tp | _ => false end
      else if op =? Setjump then is_shape nx (KJ :: tp)
      else if op =? Forejump then match tp with KJ :: t' => is_shape nx t' | _ => false end
      else if op =? Backjump then match tp with KJ :: _ => true | _ => false end
      else false
  end.

Inductive wtc : Z -> list Z -> list Z -> Prop :=
| wtc_nil a : wtc a [] []
| wtc_ins a op args rest S :
    opcode_size op = 1 + zlen args -> iokb a op (hd (-1) args) = true ->
    wtc (a + opcode_size op) rest S -> wtc a (op :: args ++ rest) (a :: S).

Lemma wtc_len a code S : wtc a code S -> forall b, In b S -> a <= b < a + zlen code.
Proof.
  induction 1 as [a|a op args rest S Hsz Hok Hr IH]; intros b Hin; [contradiction|].
  pose proof (zlen_nonneg args). pose proof (zlen_nonneg rest).
  rewrite zlen_cons, zlen_app. destruct Hin as [<-|Hin]; [lia|]. specialize (IH b Hin). lia.
Qed.

Lemma wtc_app a c1 S1 : wtc a c1 S1 -> forall c2 S2, wtc (a + zlen c1) c2 S2 -> wtc a (c1 ++ c2) (S1 ++ S2).
Proof.
  induction 1 as [a|a op args rest S Hsz Hok Hr IH]; intros c2 S2 H2; cbn [app].
  - rewrite zlen_nil, Z.add_0_r in H2. exact H2.
  - rewrite <- app_assoc. apply wtc_ins; [exact Hsz|exact Hok|]. apply IH.
    rewrite zlen_cons, zlen_app in H2. replace (a + opcode_size op + zlen rest) with (a + (1 + (zlen args + zlen rest))) by lia.
    exact H2.
Qed.

(* the operand is only read by jump opcodes, which have operands *)
Lemma iokb_arg_irrel a w x y : opcode_size w = 1 -> iokb a w x = iokb a w y.
Proof.
  intros Hsz. unfold iokb. destruct (G a) as [tp|]; [|reflexivity]. cbv zeta.
  unfold opcode_size in Hsz. set (op := Z.land w 63) in *.
  assert (N : forall k, zassoc k opcode_size_tbl 0 <> 1 -> (op =? k) = false).
  { intros k Hk. destruct (op =? k) eqn:E; [|reflexivity]. apply Z.eqb_eq in E. rewrite E in Hsz. contradiction. }
  rewrite (N Goto), (N Lazybranch), (N Branchmark), (N Lazybranchmark), (N Branchcount), (N Lazybranchcount)
    by (vm_compute; congruence).
  cbn [orb]. reflexivity.
Qed.

End WT.

Section IOK.
Variable G : Z -> option shape.

Lemma is_shape_refl t : is_shape (Some t) t = true.
Proof. cbn [is_shape]. induction t as [|k t IH]; cbn [shape_eqb]; [reflexivity|]. rewrite IH. destruct k; reflexivity. Qed.

Lemma iok_plain a w arg tp : in_list (Z.land w 63) plain_ops = true ->
  G a = Some tp -> G (a + opcode_size w) = Some tp -> iokb G a w arg = true.
Proof. intros Hp Ha Hn. unfold iokb. rewrite Ha. cbv zeta. rewrite Hp, Hn. apply is_shape_refl. Qed.

End IOK.

(* ---------- the shape function of emitted code ---------- *)
Lemma csize_nonneg c t : 0 <= csize c t.
Proof. rewrite <- (emit_length c t 0 []). apply zlen_nonneg. Qed.

Definition at_pc (pc a : Z) (t : shape) : option shape := if pc =? a then Some t else None.

Fixpoint shf (c : wcfg) (t : node) (a : Z) (tau : shape) (pc : Z) : option shape :=
  match t with
  | NChar _ _ _ | NMulti _ _ | NRef _ _ | NAnchor _ | NNothing | NBump => at_pc pc a tau
  | NEmpty => None
  | NCharLoop _ _ _ _ m n =>
      if (pc =? a) && ((0 <? m) || (m <? n)) then Some tau
      else if (pc =? a + 3) && (0 <? m) && (m <? n) then Some tau else None
  | NConcat _ l =>
      (fix go (l : list node) (a : Z) : option shape :=
         match l with
         | [] => None
         | x :: l' => if pc <? a + csize c x then shf c x a tau pc else go l' (a + csize c x)
         end) l a
  | NAlternate _ l =>
      (fix go (l : list node) (a : Z) : option shape :=
         match l with
         | [] => None
         | [x] => shf c x a tau pc
         | x :: l' =>
             if pc =? a then Some tau
             else if pc <? a + 2 + csize c x then shf c x (a + 2) tau pc
             else if pc =? a + 2 + csize c x then Some tau
             else go l' (a + 2 + csize c x + 2)
         end) l a
  | NLoop _ _ m n r =>
      let cnt := counted m n in
      let k := if cnt then KC else KM in
      let pre := if cnt then 2 else 1 in
      let lbody := a + pre + (if m =? 0 then 2 else 0) in
      let ltest := lbody + csize c r in
      if pc =? a then Some tau
      else if (m =? 0) && (pc =? a + pre) then Some (k :: tau)
      else if (lbody <=? pc) && (pc <? ltest) then shf c r lbody (k :: tau) pc
      else if pc =? ltest then Some (k :: tau) else None
  | NCapture _ g u r =>
      if emit_capture c g u then
        if pc =? a then Some tau
        else if pc <? a + 1 + csize c r then shf c r (a + 1) (KM :: tau) pc
        else if pc =? a + 1 + csize c r then Some (KM :: tau) else None
      else shf c r a tau pc
  | NGroup r => shf c r a tau pc
  | NPosLook _ r =>
      if pc =? a then Some tau
      else if pc =? a + 1 then Some (KJ :: tau)
      else if pc <? a + 2 + csize c r then shf c r (a + 2) (KM :: KJ :: tau) pc
      else if pc =? a + 2 + csize c r then Some (KM :: KJ :: tau)
      else if pc =? a + 2 + csize c r + 1 then Some (KJ :: tau) else None
  | NNegLook _ r =>
      if pc =? a then Some tau
      else if pc =? a + 1 then Some (KJ :: tau)
      else if pc <? a + 3 + csize c r then (if a + 3 <=? pc then shf c r (a + 3) (KJ :: tau) pc else None)
      else if pc =? a + 3 + csize c r then Some (KJ :: tau)
      else if pc =? a + 3 + csize c r + 1 then Some (KJ :: tau) else None
  | NAtomic r =>
      if pc =? a then Some tau
      else if pc <? a + 1 + csize c r then shf c r (a + 1) (KJ :: tau) pc
      else if pc =? a + 1 + csize c r then Some (KJ :: tau) else None
  | NBackRefCond _ _ yes no =>
      let ly := a + 6 + csize c yes in
      if pc =? a then Some tau
      else if (pc =? a + 1) || (pc =? a + 3) || (pc =? a + 5) then Some (KJ :: tau)
      else if pc <? ly then (if a + 6 <=? pc then shf c yes (a + 6) tau pc else None)
      else if pc =? ly then Some tau
      else if pc =? ly + 2 then Some (KJ :: tau)
      else match no with Some x => shf c x (ly + 3) tau pc | None => None end
  | NExprCond _ cnd yes no =>
      let lc := a + 4 + csize c cnd in
      let ay := lc + 2 in
      let ly := ay + csize c yes in
      if pc =? a then Some tau
      else if pc =? a + 1 then Some (KJ :: tau)
      else if pc =? a + 2 then Some (KM :: KJ :: tau)
      else if pc <? lc then (if a + 4 <=? pc then shf c cnd (a + 4) (KM :: KJ :: tau) pc else None)
      else if pc =? lc then Some (KM :: KJ :: tau)
      else if pc =? lc + 1 then Some (KJ :: tau)
      else if pc <? ly then shf c yes ay tau pc
      else if pc =? ly then Some tau
      else if pc =? ly + 2 then Some (KM :: KJ :: tau)
      else if pc =? ly + 3 then Some (KJ :: tau)
      else match no with Some x => shf c x (ly + 4) tau pc | None => None end
  end.

Definition shf_seq (c : wcfg) (tau : shape) (pc : Z) : list node -> Z -> option shape :=
  fix go (l : list node) (a : Z) : option shape :=
    match l with
    | [] => None
    | x :: l' => if pc <? a + csize c x then shf c x a tau pc else go l' (a + csize c x)
    end.
Definition shf_alt (c : wcfg) (tau : shape) (pc : Z) : list node -> Z -> option shape :=
  fix go (l : list node) (a : Z) : option shape :=
    match l with
    | [] => None
    | [x] => shf c x a tau pc
    | x :: l' =>
        if pc =? a then Some tau
        else if pc <? a + 2 + csize c x then shf c x (a + 2) tau pc
        else if pc =? a + 2 + csize c x then Some tau
        else go l' (a + 2 + csize c x + 2)
    end.
Lemma shf_concat_eq c o l a tau pc : shf c (NConcat o l) a tau pc = shf_seq c tau pc l a.
Proof. reflexivity. Qed.
Lemma shf_alternate_eq c o l a tau pc : shf c (NAlternate o l) a tau pc = shf_alt c tau pc l a.
Proof. reflexivity. Qed.

Definition agree (G f : Z -> option shape) (lo hi : Z) : Prop := forall pc, lo <= pc < hi -> G pc = f pc.

Ltac ifs_in H := repeat match type of H with context [if ?b then _ else _] => destruct b eqn:? end.

Lemma csize_seq_nonneg c l : 0 <= csize_seq c l.
Proof. induction l as [|x l IH]; cbn [csize_seq]; [lia|]. pose proof (csize_nonneg c x). lia. Qed.
Lemma csize_alt_nonneg c l : 0 <= csize_alt c l.
Proof.
  induction l as [|x l IH]; [cbn; lia|]. destruct l as [|y l]; [cbn [csize_alt]; apply csize_nonneg|].
  rewrite wr_csize_alt_cons2. pose proof (csize_nonneg c x). lia.
Qed.

Lemma shf_range c : forall t a tau pc s, shf c t a tau pc = Some s -> a <= pc < a + csize c t.
Proof.
  induction t as [kd o ch|kd lk o ch m n|o str|o g|an| | | |o l HF|o l HF|lazy o m n r IHr|o g u r IHr
                 |r IHr|o r IHr|o r IHr|r IHr|o g yes no IHy IHn|o cnd yes no IHc IHy IHn]
    using node_ind'; intros a tau pc s H; cbn [shf csize] in H |- *; unfold at_pc in H;
    try (destruct (pc =? a) eqn:E; [lia|discriminate H]); try discriminate H.
  - destruct (0 <? m) eqn:E1, (m <? n) eqn:E2; cbn [orb] in H; rewrite ?andb_true_r, ?andb_false_r in H; cbn [andb] in H;
      ifs_in H; try discriminate H; lia.
  - change (shf_seq c tau pc l a = Some s) in H. change (a <= pc < a + csize_seq c l). revert a H.
    induction HF as [|x l Hx HF IH]; intros a H; cbn [shf_seq csize_seq] in *; [discriminate H|].
    pose proof (csize_nonneg c x). pose proof (csize_seq_nonneg c l).
    destruct (pc <? a + csize c x) eqn:E; [apply Hx in H; lia|apply IH in H; lia].
  - change (shf_alt c tau pc l a = Some s) in H. change (a <= pc < a + csize_alt c l). revert a H.
    induction HF as [|x l Hx HF IH]; intros a H; [discriminate H|].
    destruct l as [|y l]; [cbn [shf_alt csize_alt] in *; apply Hx in H; exact H|].
    rewrite wr_csize_alt_cons2. pose proof (csize_nonneg c x). pose proof (csize_alt_nonneg c (y :: l)).
    change (shf_alt c tau pc (x :: y :: l) a) with
      (if pc =? a then Some tau else if pc <? a + 2 + csize c x then shf c x (a + 2) tau pc
       else if pc =? a + 2 + csize c x then Some tau else shf_alt c tau pc (y :: l) (a + 2 + csize c x + 2)) in H.
    ifs_in H; try (apply Hx in H); try (apply IH in H); lia.
  - cbv zeta in H. pose proof (csize_nonneg c r).
    destruct (counted m n), (m =? 0) eqn:Em; ifs_in H; try discriminate H; try (apply IHr in H); lia.
  - pose proof (csize_nonneg c r). destruct (emit_capture c g u); [|apply IHr in H; exact H].
    ifs_in H; try discriminate H; try (apply IHr in H); lia.
  - apply IHr in H. exact H.
  - pose proof (csize_nonneg c r). ifs_in H; try discriminate H; try (apply IHr in H); lia.
  - pose proof (csize_nonneg c r). ifs_in H; try discriminate H; try (apply IHr in H); lia.
  - pose proof (csize_nonneg c r). ifs_in H; try discriminate H; try (apply IHr in H); lia.
  - cbv zeta in H. pose proof (csize_nonneg c yes).
    destruct no as [x|]; cbn [opt_all] in IHn; [pose proof (csize_nonneg c x)|];
      ifs_in H; try discriminate H; try (apply IHy in H); try (apply IHn in H); lia.
  - cbv zeta in H. pose proof (csize_nonneg c yes). pose proof (csize_nonneg c cnd).
    destruct no as [x|]; cbn [opt_all] in IHn; [pose proof (csize_nonneg c x)|];
      ifs_in H; try discriminate H; try (apply IHc in H); try (apply IHy in H); try (apply IHn in H); lia.
Qed.

Lemma shf_entry c : forall t a tau, 0 < csize c t -> shf c t a tau a = Some tau.
Proof.
  induction t as [kd o ch|kd lk o ch m n|o str|o g|an| | | |o l HF|o l HF|lazy o m n r IHr|o g u r IHr
                 |r IHr|o r IHr|o r IHr|r IHr|o g yes no IHy IHn|o cnd yes no IHc IHy IHn]
    using node_ind'; intros a tau H; cbn [shf csize] in H |- *; unfold at_pc; rewrite ?Z.eqb_refl; try reflexivity; try lia.
  - destruct (0 <? m) eqn:E1, (m <? n) eqn:E2; cbn [orb andb]; try reflexivity; lia.
  - change (shf_seq c tau a l a = Some tau). change (0 < csize_seq c l) in H. revert a H.
    induction HF as [|x l Hx HF IH]; intros a H; cbn [shf_seq csize_seq] in *; [lia|].
    pose proof (csize_nonneg c x). destruct (a <? a + csize c x) eqn:E; [apply Hx; lia|].
    replace (a + csize c x) with a by lia. apply IH. lia.
  - change (shf_alt c tau a l a = Some tau). change (0 < csize_alt c l) in H. revert a H.
    induction HF as [|x l Hx HF IH]; intros a H; [cbn in H; lia|].
    destruct l as [|y l]; [cbn [shf_alt csize_alt] in *; apply Hx; exact H|].
    change (shf_alt c tau a (x :: y :: l) a) with
      (if a =? a then Some tau else if a <? a + 2 + csize c x then shf c x (a + 2) tau a
       else if a =? a + 2 + csize c x then Some tau else shf_alt c tau a (y :: l) (a + 2 + csize c x + 2)).
    rewrite Z.eqb_refl. reflexivity.
  - destruct (emit_capture c g u); [reflexivity|apply IHr; exact H].
  - apply IHr. exact H.
Qed.

Lemma entryG c t a tau G : agree G (shf c t a tau) a (a + csize c t) -> G (a + csize c t) = Some tau -> G a = Some tau.
Proof.
  intros Ha He. pose proof (csize_nonneg c t). destruct (Z.eq_dec (csize c t) 0) as [E|E].
  - rewrite E, Z.add_0_r in He. exact He.
  - rewrite (Ha a ltac:(lia)). apply shf_entry. lia.
Qed.

Lemma agree_sub G f g lo hi lo' hi' : agree G f lo hi -> lo <= lo' -> hi' <= hi ->
  (forall pc, lo' <= pc < hi' -> f pc = g pc) -> agree G g lo' hi'.
Proof. intros H H1 H2 Hfg pc Hpc. rewrite <- Hfg by exact Hpc. apply H. lia. Qed.

Lemma wtc_one G a w args : opcode_size w = 1 + zlen args -> iokb G a w (hd (-1) args) = true -> wtc G a (w :: args) [a].
Proof.
  intros Hsz Hok. replace (w :: args) with (w :: args ++ []) by (rewrite app_nil_r; reflexivity).
  apply wtc_ins; [exact Hsz|exact Hok|apply wtc_nil].
Qed.

Definition typed_frag (c : wcfg) (t : node) : Prop :=
  forall a tbl tau G, agree G (shf c t a tau) a (a + csize c t) -> G (a + csize c t) = Some tau ->
    exists S, wtc G a (fst (emit c t a tbl)) S /\ forall pc s, shf c t a tau pc = Some s -> In pc S.

Lemma tf_plain1 c t w k : (forall a tbl, exists args, fst (emit c t a tbl) = w :: args /\ zlen args = k) -> csize c t = 1 + k ->
  opcode_size w = 1 + k -> in_list (Z.land w 63) plain_ops = true ->
  (forall a tau pc, shf c t a tau pc = at_pc pc a tau) -> typed_frag c t.
Proof.
  intros He Hcs Hsz Hp Hsh a tbl tau G Ha Hx. destruct (He a tbl) as (args & -> & Hk). exists [a]. split.
  - apply wtc_one; [lia|]. apply (iok_plain G a w _ tau Hp).
    + pose proof (zlen_nonneg args). rewrite (Ha a ltac:(lia)), Hsh. unfold at_pc. rewrite Z.eqb_refl. reflexivity.
    + rewrite Hsz, <- Hcs. exact Hx.
  - intros pc s H. rewrite Hsh in H. unfold at_pc in H. destruct (pc =? a) eqn:E; [left; lia|discriminate H].
Qed.

(* resolving the range tests of [shf] at a concrete position *)
Ltac shev :=
  repeat match goal with
         | |- context [if ?b then _ else _] =>
             first [replace b with true by lia | replace b with false by lia]
         end.
(* G at position x, from agreement with the shape function of the enclosing node *)
Ltac gat Ha x := rewrite (Ha x ltac:(lia)); cbn [shf]; cbv zeta; unfold at_pc; shev; try reflexivity.

Lemma shf_none c t a tau pc : ~ a <= pc < a + csize c t -> shf c t a tau pc = None.
Proof. intros N. destruct (shf c t a tau pc) as [s|] eqn:E; [|reflexivity]. apply shf_range in E. contradiction. Qed.

Ltac iok Ha := unfold iokb; rewrite Ha; cbn.

(* ---------- typed code, with shapes at the instruction boundaries only ---------- *)
Section WTD.
Variable G : Z -> option shape.

Definition wtd (a : Z) (code : list Z) : Prop :=
  exists S, wtc G a code S /\ forall pc s, a <= pc < a + zlen code -> G pc = Some s -> In pc S.

Lemma wtd_nil a : wtd a [].
Proof. exists []. split; [apply wtc_nil|]. intros pc s Hpc. change (zlen (@nil Z)) with 0 in Hpc. lia. Qed.

Lemma wtd_app a c1 c2 : wtd a c1 -> wtd (a + zlen c1) c2 -> wtd a (c1 ++ c2).
Proof.
  intros (S1 & W1 & D1) (S2 & W2 & D2). exists (S1 ++ S2). split; [exact (wtc_app G a c1 S1 W1 c2 S2 W2)|].
  intros pc s Hpc Hs. rewrite zlen_app in Hpc. apply in_or_app.
  destruct (Z.lt_ge_cases pc (a + zlen c1)); [left; apply (D1 pc s); [lia|exact Hs]|right; apply (D2 pc s); [lia|exact Hs]].
Qed.

Lemma wtd_ins a w args : opcode_size w = 1 + zlen args -> iokb G a w (hd (-1) args) = true ->
  (forall pc, a < pc < a + (1 + zlen args) -> G pc = None) -> wtd a (w :: args).
Proof.
  intros Hsz Hok Hin. exists [a]. split; [exact (wtc_one G a w args Hsz Hok)|].
  intros pc s Hpc Hs. rewrite zlen_cons in Hpc. left. destruct (Z.eq_dec a pc) as [E|N]; [exact E|].
  rewrite (Hin pc) in Hs by lia. discriminate Hs.
Qed.
Lemma wtd_ins1 a w : opcode_size w = 1 -> iokb G a w (-1) = true -> wtd a [w].
Proof. intros Hsz Hok. apply (wtd_ins a w [] Hsz Hok). intros pc Hpc. change (zlen (@nil Z)) with 0 in Hpc. lia. Qed.
Lemma wtd_ins2 a w x : opcode_size w = 2 -> iokb G a w x = true -> G (a + 1) = None -> wtd a [w; x].
Proof.
  intros Hsz Hok H1. apply (wtd_ins a w [x] Hsz Hok). intros pc Hpc. change (zlen [x]) with 1 in Hpc.
  replace pc with (a + 1) by lia. exact H1.
Qed.
Lemma wtd_ins3 a w x y : opcode_size w = 3 -> iokb G a w x = true -> G (a + 1) = None -> G (a + 2) = None -> wtd a [w; x; y].
Proof.
  intros Hsz Hok H1 H2. apply (wtd_ins a w [x; y] Hsz Hok). intros pc Hpc. change (zlen [x; y]) with 2 in Hpc.
  destruct (Z.eq_dec pc (a + 1)) as [->|N]; [exact H1|]. replace pc with (a + 2) by lia. exact H2.
Qed.

Lemma wtd_setjump a tp : G a = Some tp -> G (a + 1) = Some (KJ :: tp) -> wtd a [Setjump].
Proof. intros Ha Hn. apply wtd_ins1; [reflexivity|]. iok Ha. change (opcode_size Setjump) with 1. rewrite Hn. apply is_shape_refl. Qed.
Lemma wtd_setmark a tp : G a = Some tp -> G (a + 1) = Some (KM :: tp) -> wtd a [Setmark].
Proof. intros Ha Hn. apply wtd_ins1; [reflexivity|]. iok Ha. change (opcode_size Setmark) with 1. rewrite Hn. apply is_shape_refl. Qed.
Lemma wtd_getmark a tp : G a = Some (KM :: tp) -> G (a + 1) = Some tp -> wtd a [Getmark].
Proof. intros Ha Hn. apply wtd_ins1; [reflexivity|]. iok Ha. change (opcode_size Getmark) with 1. rewrite Hn. apply is_shape_refl. Qed.
Lemma wtd_forejump a tp : G a = Some (KJ :: tp) -> G (a + 1) = Some tp -> wtd a [Forejump].
Proof. intros Ha Hn. apply wtd_ins1; [reflexivity|]. iok Ha. change (opcode_size Forejump) with 1. rewrite Hn. apply is_shape_refl. Qed.
Lemma wtd_backjump a tp : G a = Some (KJ :: tp) -> wtd a [Backjump].
Proof. intros Ha. apply wtd_ins1; [reflexivity|]. iok Ha. reflexivity. Qed.
Lemma wtd_goto a tg tp : G a = Some tp -> G (a + 1) = None -> G tg = Some tp -> wtd a [Goto; tg].
Proof. intros Ha H1 Ht. apply wtd_ins2; [reflexivity| |exact H1]. iok Ha. rewrite Ht. apply is_shape_refl. Qed.
Lemma wtd_lazybranch a tg tp : G a = Some tp -> G (a + 1) = None -> G (a + 2) = Some tp -> G tg = Some tp -> wtd a [Lazybranch; tg].
Proof.
  intros Ha H1 Hn Ht. apply wtd_ins2; [reflexivity| |exact H1]. iok Ha. change (opcode_size Lazybranch) with 2.
  rewrite Hn, Ht, !is_shape_refl. reflexivity.
Qed.
Lemma wtd_capturemark a x y tp : G a = Some (KM :: tp) -> G (a + 1) = None -> G (a + 2) = None -> G (a + 3) = Some tp ->
  wtd a [Capturemark; x; y].
Proof.
  intros Ha H1 H2 Hn. apply wtd_ins3; [reflexivity| |exact H1|exact H2]. iok Ha. change (opcode_size Capturemark) with 3.
  rewrite Hn. apply is_shape_refl.
Qed.
Lemma wtd_plain2 a w x tp : opcode_size w = 2 -> in_list (Z.land w 63) plain_ops = true ->
  G a = Some tp -> G (a + 1) = None -> G (a + 2) = Some tp -> wtd a [w; x].
Proof. intros Hsz Hp Ha H1 Hn. apply wtd_ins2; [exact Hsz| |exact H1]. apply (iok_plain G a w x tp Hp Ha). rewrite Hsz. exact Hn. Qed.
Lemma wtd_plain3 a w x y tp : opcode_size w = 3 -> in_list (Z.land w 63) plain_ops = true ->
  G a = Some tp -> G (a + 1) = None -> G (a + 2) = None -> G (a + 3) = Some tp -> wtd a [w; x; y].
Proof.
  intros Hsz Hp Ha H1 H2 Hn. apply wtd_ins3; [exact Hsz| |exact H1|exact H2]. apply (iok_plain G a w x tp Hp Ha). rewrite Hsz. exact Hn.
Qed.

End WTD.

(* a fragment is typed in this sense, and it is enough to type a fragment in this sense *)
Lemma wtd_frag c t G a tbl tau : typed_frag c t -> agree G (shf c t a tau) a (a + csize c t) -> G (a + csize c t) = Some tau ->
  wtd G a (fst (emit c t a tbl)).
Proof.
  intros Ht Ha Hx. destruct (Ht a tbl tau G Ha Hx) as (S & W & D). exists S. split; [exact W|].
  intros pc s Hpc Hs. rewrite emit_length in Hpc. rewrite (Ha pc Hpc) in Hs. exact (D pc s Hs).
Qed.
Lemma wtd_typed c t :
  (forall a tbl tau G, agree G (shf c t a tau) a (a + csize c t) -> G (a + csize c t) = Some tau -> wtd G a (fst (emit c t a tbl))) ->
  typed_frag c t.
Proof.
  intros H a tbl tau G Ha Hx. destruct (H a tbl tau G Ha Hx) as (S & W & D). exists S. split; [exact W|].
  intros pc s Hs. pose proof (shf_range c t a tau pc s Hs) as Hpc. apply (D pc s); [rewrite emit_length; exact Hpc|].
  rewrite (Ha pc Hpc). exact Hs.
Qed.

Lemma typed_seq c l : Forall (typed_frag c) l -> forall a tbl tau G,
  agree G (fun pc => shf_seq c tau pc l a) a (a + csize_seq c l) -> G (a + csize_seq c l) = Some tau ->
  wtd G a (fst (emit_seq c l a tbl)).
Proof.
  induction 1 as [|x l Hx HF IH]; intros a tbl tau G Ha Hend; [apply wtd_nil|].
  cbn [emit_seq csize_seq] in *. pose proof (csize_nonneg c x) as Hx0. pose proof (csize_seq_nonneg c l) as Hl0.
  pose proof (emit_length c x a tbl) as Lx. rewrite Z.add_assoc in Hend.
  assert (Har : agree G (fun pc => shf_seq c tau pc l (a + csize c x)) (a + csize c x) (a + csize c x + csize_seq c l)).
  { intros pc Hpc. rewrite (Ha pc ltac:(lia)). cbn [shf_seq]. shev. reflexivity. }
  assert (Hmid : G (a + csize c x) = Some tau) by exact (entryG c (NConcat 0 l) (a + csize c x) tau G Har Hend).
  assert (Hax : agree G (shf c x a tau) a (a + csize c x)).
  { intros pc Hpc. rewrite (Ha pc ltac:(lia)). cbn [shf_seq]. shev. reflexivity. }
  pose proof (wtd_frag c x G a tbl tau Hx Hax Hmid) as Wx.
  destruct (emit c x a tbl) as [cx t1]. cbn [fst] in *. rewrite Lx.
  pose proof (IH (a + csize c x) t1 tau G Har Hend) as Wr.
  destruct (emit_seq c l (a + csize c x) t1) as [cr t2]. cbn [fst] in *.
  apply (wtd_app G a cx cr Wx). rewrite Lx. exact Wr.
Qed.

Lemma typed_alt c lend l : Forall (typed_frag c) l -> forall a tbl tau G, lend = a + csize_alt c l ->
  agree G (fun pc => shf_alt c tau pc l a) a lend -> G lend = Some tau -> wtd G a (fst (emit_alt c lend l a tbl)).
Proof.
  induction 1 as [|x l Hx HF IH]; intros a tbl tau G Hl Ha Hend; [apply wtd_nil|].
  destruct l as [|y l].
  - cbn [emit_alt csize_alt shf_alt] in *. subst lend. exact (wtd_frag c x G a tbl tau Hx Ha Hend).
  - rewrite wr_csize_alt_cons2 in Hl. rewrite wr_emit_alt_cons2.
    pose proof (csize_nonneg c x) as Hx0. pose proof (csize_alt_nonneg c (y :: l)) as Hl0.
    pose proof (emit_length c x (a + 2) tbl) as Lx.
    remember (a + 2 + csize c x + 2) as nxt eqn:En.
    assert (Hsh : forall pc, shf_alt c tau pc (x :: y :: l) a =
              (if pc =? a then Some tau else if pc <? a + 2 + csize c x then shf c x (a + 2) tau pc
               else if pc =? a + 2 + csize c x then Some tau else shf_alt c tau pc (y :: l) nxt)) by (rewrite En; reflexivity).
    assert (Hnone : forall pc, pc < nxt -> shf_alt c tau pc (y :: l) nxt = None).
    { intros pc Hpc. rewrite <- (shf_alternate_eq c 0). apply shf_none. lia. }
    assert (Har : agree G (fun pc => shf_alt c tau pc (y :: l) nxt) nxt lend).
    { intros pc Hpc. rewrite (Ha pc ltac:(lia)), Hsh. shev. reflexivity. }
    assert (Hnxt : G nxt = Some tau).
    { apply (entryG c (NAlternate 0 (y :: l)) nxt tau G); rewrite wr_csize_alternate_eq;
        replace (nxt + csize_alt c (y :: l)) with lend by lia; assumption. }
    assert (Ha0 : G a = Some tau) by (rewrite (Ha a ltac:(lia)), Hsh, Z.eqb_refl; reflexivity).
    assert (Ha1 : G (a + 1) = None) by (rewrite (Ha (a + 1) ltac:(lia)), Hsh; shev; apply shf_none; lia).
    assert (Hg : G (a + 2 + csize c x) = Some tau) by (rewrite (Ha (a + 2 + csize c x) ltac:(lia)), Hsh; shev; reflexivity).
    assert (Hg1 : G (a + 2 + csize c x + 1) = None) by (rewrite (Ha (a + 2 + csize c x + 1) ltac:(lia)), Hsh; shev; apply Hnone; lia).
    assert (Hax : agree G (shf c x (a + 2) tau) (a + 2) (a + 2 + csize c x)).
    { intros pc Hpc. rewrite (Ha pc ltac:(lia)), Hsh. shev. reflexivity. }
    pose proof (wtd_frag c x G (a + 2) tbl tau Hx Hax Hg) as Wx.
    destruct (emit c x (a + 2) tbl) as [cx t1]. cbn [fst] in *. cbv zeta. rewrite Lx, <- En.
    pose proof (IH nxt t1 tau G ltac:(lia) Har Hend) as Wr.
    destruct (emit_alt c lend (y :: l) nxt t1) as [cr t2]. cbn [fst] in *.
    apply (wtd_app G a [Lazybranch; nxt] _ (wtd_lazybranch G a nxt tau Ha0 Ha1 (entryG c x (a + 2) tau G Hax Hg) Hnxt)).
    apply (wtd_app G (a + 2) cx _ Wx). rewrite Lx.
    apply (wtd_app G (a + 2 + csize c x) [Goto; lend] _ (wtd_goto G _ lend tau Hg Hg1 Hend)).
    change (zlen [Goto; lend]) with 2. rewrite <- En. exact Wr.
Qed.

Lemma typed_loop c lazy o m n r : typed_frag c r -> typed_frag c (NLoop lazy o m n r).
Proof.
  intros IHr. apply wtd_typed. intros a tbl tau G Ha Hx. cbn [emit csize] in *. cbv zeta in *. pose proof (csize_nonneg c r) as Hr0.
  set (cnt := counted m n) in *.
  set (pre := if cnt then (if m =? 0 then [Nullcount; 0] else [Setcount; 1 - m]) else (if m =? 0 then [Nullmark] else [Setmark])) in *.
  set (k := if cnt then KC else KM).
  assert (Hpl : zlen pre = if cnt then 2 else 1) by (unfold pre; destruct cnt, (m =? 0); reflexivity).
  rewrite Hpl.
  remember (if cnt then 2 else 1) as np eqn:Enp. remember (if m =? 0 then 2 else 0) as ng eqn:Eng.
  remember (if cnt then 3 else 2) as nt eqn:Ent.
  assert (Hnp : 1 <= np <= 2) by (destruct cnt; lia).
  assert (Hng : (m =? 0) = true /\ ng = 2 \/ (m =? 0) = false /\ ng = 0) by (destruct (m =? 0); [left|right]; split; congruence).
  assert (Hnt : 2 <= nt <= 3) by (destruct cnt; lia).
  remember (a + np + ng) as lb eqn:Elb. remember (lb + csize c r) as lt eqn:Elt.
  assert (Hsh : forall pc, shf c (NLoop lazy o m n r) a tau pc =
            if pc =? a then Some tau else if (m =? 0) && (pc =? a + np) then Some (k :: tau)
            else if (lb <=? pc) && (pc <? lt) then shf c r lb (k :: tau) pc else if pc =? lt then Some (k :: tau) else None).
  { intros pc. rewrite Elt, Elb, Enp, Eng. reflexivity. }
  assert (Hend : G (lt + nt) = Some tau) by (replace (lt + nt) with (a + (np + ng + csize c r + nt)) by lia; exact Hx).
  assert (Ha0 : G a = Some tau) by (rewrite (Ha a ltac:(lia)), Hsh, Z.eqb_refl; reflexivity).
  assert (Hlt : G lt = Some (k :: tau)) by (rewrite (Ha lt ltac:(lia)), Hsh; shev; reflexivity).
  assert (Har : agree G (shf c r lb (k :: tau)) lb (lb + csize c r)).
  { intros pc Hpc. rewrite (Ha pc ltac:(lia)), Hsh. shev. reflexivity. }
  rewrite <- Elt in Har.
  assert (Hlb : G lb = Some (k :: tau)) by (rewrite Elt in Har, Hlt; exact (entryG c r lb _ G Har Hlt)).
  pose proof (emit_length c r lb tbl) as Lr.
  pose proof (wtd_frag c r G lb tbl _ IHr ltac:(rewrite <- Elt; exact Har) ltac:(rewrite <- Elt; exact Hlt)) as Wr.
  destruct (emit c r lb tbl) as [cr t1]. cbn [fst] in *. rewrite Lr, <- Elt.
  assert (Hin : forall x, a < x < lb \/ lt < x < lt + nt -> ((m =? 0) && (x =? a + np)) = false -> G x = None).
  { intros x Hx1 Hx2. rewrite (Ha x ltac:(lia)), Hsh, Hx2. shev. reflexivity. }
  (* the instruction that opens the loop pushes k; the test at the end pops it or jumps back to the body *)
  assert (Wpre : forall x, G x = Some (k :: tau) -> x = a + np -> wtd G a pre).
  { intros x Hgx ->. subst k. unfold pre. destruct cnt; subst np.
    - assert (H1 : G (a + 1) = None) by (apply Hin; lia).
      destruct (m =? 0); (apply wtd_ins2; [reflexivity| |exact H1]); iok Ha0; rewrite Hgx; apply is_shape_refl.
    - destruct (m =? 0); (apply wtd_ins1; [reflexivity|]); iok Ha0; rewrite Hgx; apply is_shape_refl. }
  assert (Wtail : wtd G lb (cr ++ (if cnt then [Branchcount + (if lazy then 1 else 0); lb; if n =? INF then INF else n - m]
                                   else [Branchmark + (if lazy then 1 else 0); lb]))).
  { apply (wtd_app G lb cr _ Wr). rewrite Lr, <- Elt. assert (H1 : G (lt + 1) = None) by (apply Hin; lia).
    subst k. destruct cnt; subst nt.
    - assert (H2 : G (lt + 2) = None) by (apply Hin; lia).
      destruct lazy; (apply wtd_ins3; [reflexivity| |exact H1|exact H2]); iok Hlt;
        [change (opcode_size (Branchcount + 1)) with 3|change (opcode_size (Branchcount + 0)) with 3];
        rewrite Hend, Hlb, !is_shape_refl; reflexivity.
    - destruct lazy; (apply wtd_ins2; [reflexivity| |exact H1]); iok Hlt;
        [change (opcode_size (Branchmark + 1)) with 2|change (opcode_size (Branchmark + 0)) with 2];
        rewrite Hend, Hlb, !is_shape_refl; reflexivity. }
  destruct Hng as [[Em0 ->]|[Em0 ->]]; rewrite Em0 in *.
  - assert (Hg : G (a + np) = Some (k :: tau)) by (rewrite (Ha (a + np) ltac:(lia)), Hsh; shev; reflexivity).
    assert (Hg1 : G (a + np + 1) = None) by (apply Hin; lia).
    apply (wtd_app G a pre _ (Wpre _ Hg eq_refl)). rewrite Hpl.
    apply (wtd_app G (a + np) [Goto; lt] _ (wtd_goto G _ _ _ Hg Hg1 Hlt)). change (zlen [Goto; lt]) with 2. rewrite <- Elb. exact Wtail.
  - apply (wtd_app G a pre _ (Wpre _ Hlb ltac:(lia))). rewrite Hpl. replace (a + np) with lb by lia. exact Wtail.
Qed.

Lemma typed_charloop c kd lk o ch m n : typed_frag c (NCharLoop kd lk o ch m n).
Proof.
  apply wtd_typed. intros a tbl tau G Ha Hx. cbn [emit fst csize] in *.
  assert (Hr : opcode_size (rep_op kd + bits_of o) = 3 /\ in_list (Z.land (rep_op kd + bits_of o) 63) plain_ops = true).
  { split; [destruct kd; cp_side|]. rewrite cp_land_bits by (destruct kd; cbv; split; congruence). destruct kd; reflexivity. }
  assert (Hl : opcode_size (loop_op kd lk + bits_of o) = 3 /\ in_list (Z.land (loop_op kd lk + bits_of o) 63) plain_ops = true).
  { split; [destruct kd, lk; cp_side|]. rewrite cp_land_bits by (destruct kd, lk; cbv; split; congruence). destruct kd, lk; reflexivity. }
  destruct Hr as [Hr1 Hr2], Hl as [Hl1 Hl2].
  destruct (0 <? m) eqn:E1, (m <? n) eqn:E2.
  + apply (wtd_app G a [_; _; _] [_; _; _]).
    * apply (wtd_plain3 G a _ _ _ tau Hr1 Hr2); [gat Ha a|gat Ha (a + 1)|gat Ha (a + 2)|gat Ha (a + 3)].
    * apply (wtd_plain3 G (a + 3) _ _ _ tau Hl1 Hl2); [gat Ha (a + 3)|gat Ha (a + 3 + 1)|gat Ha (a + 3 + 2)|].
      rewrite <- Z.add_assoc. exact Hx.
  + rewrite app_nil_r. apply (wtd_plain3 G a _ _ _ tau Hr1 Hr2); [gat Ha a|gat Ha (a + 1)|gat Ha (a + 2)|exact Hx].
  + apply (wtd_plain3 G a _ _ _ tau Hl1 Hl2); [gat Ha a|gat Ha (a + 1)|gat Ha (a + 2)|exact Hx].
  + apply wtd_nil.
Qed.

Lemma typed_capture c o g u r (IHr : typed_frag c r) : typed_frag c (NCapture o g u r).
Proof.
  destruct (emit_capture c g u) eqn:Ec.
  - apply wtd_typed. intros a tbl tau G Ha Hx. cbn [emit csize] in *. rewrite Ec in *. rewrite !Z.add_assoc in Hx.
    pose proof (csize_nonneg c r) as Hr0.
    assert (Hsh : forall pc, shf c (NCapture o g u r) a tau pc =
              if pc =? a then Some tau else if pc <? a + 1 + csize c r then shf c r (a + 1) (KM :: tau) pc
              else if pc =? a + 1 + csize c r then Some (KM :: tau) else None) by (intros pc; cbn [shf]; rewrite Ec; reflexivity).
    assert (Ha0 : G a = Some tau) by (rewrite (Ha a ltac:(lia)), Hsh; shev; reflexivity).
    assert (Hm : G (a + 1 + csize c r) = Some (KM :: tau)) by (rewrite (Ha (a + 1 + csize c r) ltac:(lia)), Hsh; shev; reflexivity).
    assert (Hm1 : G (a + 1 + csize c r + 1) = None) by (rewrite (Ha (a + 1 + csize c r + 1) ltac:(lia)), Hsh; shev; reflexivity).
    assert (Hm2 : G (a + 1 + csize c r + 2) = None) by (rewrite (Ha (a + 1 + csize c r + 2) ltac:(lia)), Hsh; shev; reflexivity).
    assert (Har : agree G (shf c r (a + 1) (KM :: tau)) (a + 1) (a + 1 + csize c r)).
    { intros pc Hpc. rewrite (Ha pc ltac:(lia)), Hsh. shev. reflexivity. }
    pose proof (wtd_frag c r G (a + 1) tbl _ IHr Har Hm) as Wr. pose proof (emit_length c r (a + 1) tbl) as Lr.
    destruct (emit c r (a + 1) tbl) as [cr t1]. cbn [fst] in *.
    apply (wtd_app G a [Setmark]); [exact (wtd_setmark G a tau Ha0 (entryG c r _ _ G Har Hm))|].
    apply (wtd_app G (a + 1) cr _ Wr). rewrite Lr. exact (wtd_capturemark G _ _ _ tau Hm Hm1 Hm2 Hx).
  - intros a tbl tau G Ha Hx. cbn [emit csize] in *. rewrite Ec in *. destruct (IHr a tbl tau G) as (S & W & D); [|exact Hx|].
    { intros pc Hpc. rewrite (Ha pc Hpc). cbn [shf]. rewrite Ec. reflexivity. }
    exists S. split; [exact W|]. intros pc s H. cbn [shf] in H. rewrite Ec in H. exact (D pc s H).
Qed.

Lemma typed_poslook c o r (IHr : typed_frag c r) : typed_frag c (NPosLook o r).
Proof.
  apply wtd_typed. intros a tbl tau G Ha Hx. cbn [emit csize] in *.
  replace (a + (2 + csize c r + 2)) with (a + 2 + csize c r + 1 + 1) in Hx by lia.
  pose proof (csize_nonneg c r) as Hr0.
  assert (Ha0 : G a = Some tau) by gat Ha a.
  assert (Ha1 : G (a + 1) = Some (KJ :: tau)) by gat Ha (a + 1).
  assert (Hm : G (a + 2 + csize c r) = Some (KM :: KJ :: tau)) by gat Ha (a + 2 + csize c r).
  assert (Hm1 : G (a + 2 + csize c r + 1) = Some (KJ :: tau)) by gat Ha (a + 2 + csize c r + 1).
  assert (Har : agree G (shf c r (a + 2) (KM :: KJ :: tau)) (a + 2) (a + 2 + csize c r)).
  { intros pc Hpc. rewrite (Ha pc ltac:(lia)). cbn [shf]. shev. reflexivity. }
  pose proof (wtd_frag c r G (a + 2) tbl _ IHr Har Hm) as Wr. pose proof (emit_length c r (a + 2) tbl) as Lr.
  destruct (emit c r (a + 2) tbl) as [cr t1]. cbn [fst] in *.
  apply (wtd_app G a [Setjump; Setmark]).
  { apply (wtd_app G a [Setjump] [Setmark] (wtd_setjump G a tau Ha0 Ha1)).
    refine (wtd_setmark G (a + 1) _ Ha1 _). rewrite <- Z.add_assoc. exact (entryG c r _ _ G Har Hm). }
  apply (wtd_app G (a + 2) cr _ Wr). rewrite Lr.
  apply (wtd_app G _ [Getmark] [Forejump] (wtd_getmark G _ _ Hm Hm1)). exact (wtd_forejump G _ tau Hm1 Hx).
Qed.

Lemma typed_neglook c o r (IHr : typed_frag c r) : typed_frag c (NNegLook o r).
Proof.
  apply wtd_typed. intros a tbl tau G Ha Hx. cbn [emit csize] in *.
  replace (a + (3 + csize c r + 2)) with (a + 3 + csize c r + 1 + 1) in Hx by lia.
  pose proof (csize_nonneg c r) as Hr0.
  assert (Ha0 : G a = Some tau) by gat Ha a.
  assert (Ha1 : G (a + 1) = Some (KJ :: tau)) by gat Ha (a + 1).
  assert (Ha2 : G (a + 1 + 1) = None) by gat Ha (a + 1 + 1).
  assert (Hm : G (a + 3 + csize c r) = Some (KJ :: tau)) by gat Ha (a + 3 + csize c r).
  assert (Hm1 : G (a + 3 + csize c r + 1) = Some (KJ :: tau)) by gat Ha (a + 3 + csize c r + 1).
  assert (Har : agree G (shf c r (a + 3) (KJ :: tau)) (a + 3) (a + 3 + csize c r)).
  { intros pc Hpc. rewrite (Ha pc ltac:(lia)). cbn [shf]. shev. reflexivity. }
  pose proof (wtd_frag c r G (a + 3) tbl _ IHr Har Hm) as Wr. pose proof (emit_length c r (a + 3) tbl) as Lr.
  destruct (emit c r (a + 3) tbl) as [cr t1]. cbn [fst] in *. rewrite Lr.
  apply (wtd_app G a [Setjump; Lazybranch; a + 3 + csize c r + 1]).
  { apply (wtd_app G a [Setjump] _ (wtd_setjump G a tau Ha0 Ha1)).
    refine (wtd_lazybranch G (a + 1) _ _ Ha1 Ha2 _ Hm1). rewrite <- Z.add_assoc. exact (entryG c r _ _ G Har Hm). }
  apply (wtd_app G (a + 3) cr _ Wr). rewrite Lr.
  apply (wtd_app G _ [Backjump] [Forejump] (wtd_backjump G _ _ Hm)). exact (wtd_forejump G _ tau Hm1 Hx).
Qed.

Lemma typed_atomic c r (IHr : typed_frag c r) : typed_frag c (NAtomic r).
Proof.
  apply wtd_typed. intros a tbl tau G Ha Hx. cbn [emit csize] in *. rewrite !Z.add_assoc in Hx.
  pose proof (csize_nonneg c r) as Hr0.
  assert (Ha0 : G a = Some tau) by gat Ha a.
  assert (Hm : G (a + 1 + csize c r) = Some (KJ :: tau)) by gat Ha (a + 1 + csize c r).
  assert (Har : agree G (shf c r (a + 1) (KJ :: tau)) (a + 1) (a + 1 + csize c r)).
  { intros pc Hpc. rewrite (Ha pc ltac:(lia)). cbn [shf]. shev. reflexivity. }
  pose proof (wtd_frag c r G (a + 1) tbl _ IHr Har Hm) as Wr. pose proof (emit_length c r (a + 1) tbl) as Lr.
  destruct (emit c r (a + 1) tbl) as [cr t1]. cbn [fst] in *.
  apply (wtd_app G a [Setjump]); [exact (wtd_setjump G a tau Ha0 (entryG c r _ _ G Har Hm))|].
  apply (wtd_app G (a + 1) cr _ Wr). rewrite Lr. exact (wtd_forejump G _ tau Hm Hx).
Qed.

(* the optional last branch of a conditional *)
Lemma wtd_opt c no G x tbl tau (IHn : opt_all (typed_frag c) no) :
  agree G (fun pc => match no with Some n => shf c n x tau pc | None => None end) x
        (x + match no with Some n => csize c n | None => 0 end) ->
  G (x + match no with Some n => csize c n | None => 0 end) = Some tau ->
  wtd G x (fst (match no with Some n => emit c n x tbl | None => ([], tbl) end)) /\ G x = Some tau /\
  zlen (fst (match no with Some n => emit c n x tbl | None => ([], tbl) end)) = match no with Some n => csize c n | None => 0 end.
Proof.
  destruct no as [n|]; cbn [opt_all] in IHn; intros Ha Hx.
  - split; [exact (wtd_frag c n G x tbl tau IHn Ha Hx)|]. split; [exact (entryG c n x tau G Ha Hx)|apply emit_length].
  - rewrite Z.add_0_r in Hx. split; [apply wtd_nil|]. split; [exact Hx|reflexivity].
Qed.

Lemma typed_backrefcond c o g yes no (IHy : typed_frag c yes) (IHn : opt_all (typed_frag c) no) : typed_frag c (NBackRefCond o g yes no).
Proof.
  apply wtd_typed. intros a tbl tau G Ha Hx. cbn [emit csize] in *.
  pose proof (csize_nonneg c yes) as Hy0. pose proof (emit_length c yes (a + 6) tbl) as Ly.
  set (sn := match no with Some x => csize c x | None => 0 end) in *.
  assert (Hn0 : 0 <= sn) by (unfold sn; destruct no; [apply csize_nonneg|lia]).
  remember (a + 6 + csize c yes) as ly eqn:Ely.
  replace (a + (6 + csize c yes + 2 + 1 + sn)) with (ly + 2 + 1 + sn) in Hx by lia.
  assert (Ha0 : G a = Some tau) by gat Ha a.
  assert (Ha1 : G (a + 1) = Some (KJ :: tau)) by gat Ha (a + 1).
  assert (Ha2 : G (a + 1 + 1) = None) by gat Ha (a + 1 + 1).
  assert (Ha3 : G (a + 1 + 2) = Some (KJ :: tau)) by gat Ha (a + 1 + 2).
  assert (Ha4 : G (a + 1 + 2 + 1) = None) by gat Ha (a + 1 + 2 + 1).
  assert (Ha5 : G (a + 1 + 2 + 2) = Some (KJ :: tau)) by gat Ha (a + 1 + 2 + 2).
  assert (Hly : G ly = Some tau) by gat Ha ly.
  assert (Hly1 : G (ly + 1) = None) by (gat Ha (ly + 1); destruct no; [apply shf_none; lia|reflexivity]).
  assert (Hln : G (ly + 2) = Some (KJ :: tau)) by gat Ha (ly + 2).
  assert (Hay : agree G (shf c yes (a + 6) tau) (a + 6) (a + 6 + csize c yes)).
  { intros pc Hpc. rewrite (Ha pc ltac:(lia)). cbn [shf]. cbv zeta. shev. reflexivity. }
  rewrite <- Ely in Hay.
  assert (Hey : G (a + 1 + 2 + 2 + 1) = Some tau).
  { replace (a + 1 + 2 + 2 + 1) with (a + 6) by lia. rewrite Ely in Hay, Hly. exact (entryG c yes _ _ G Hay Hly). }
  pose proof (wtd_frag c yes G (a + 6) tbl tau IHy ltac:(rewrite <- Ely; exact Hay) ltac:(rewrite <- Ely; exact Hly)) as Wy.
  destruct (emit c yes (a + 6) tbl) as [cy t1]. cbn [fst] in *. rewrite Ly, <- Ely.
  destruct (wtd_opt c no G (ly + 2 + 1) t1 tau IHn) as (Wn & Hen & Ln); [|exact Hx|].
  { intros pc Hpc. fold sn in Hpc. rewrite (Ha pc ltac:(lia)). cbn [shf]. cbv zeta. shev.
    replace (a + 6 + csize c yes + 3) with (ly + 2 + 1) by lia. reflexivity. }
  fold sn in Ln. destruct (match no with Some x => emit c x (ly + 2 + 1) t1 | None => ([], t1) end) as [cn t2]. cbn [fst] in *. rewrite Ln.
  apply (wtd_app G a [Setjump; Lazybranch; ly + 2; Testref; map_capnum c g; Forejump]).
  { apply (wtd_app G a [Setjump] _ (wtd_setjump G a tau Ha0 Ha1)).
    apply (wtd_app G (a + 1) [Lazybranch; ly + 2] _ (wtd_lazybranch G (a + 1) _ _ Ha1 Ha2 Ha3 Hln)).
    apply (wtd_app G (a + 1 + 2) [Testref; map_capnum c g] _ (wtd_plain2 G _ Testref _ _ eq_refl eq_refl Ha3 Ha4 Ha5)).
    exact (wtd_forejump G (a + 1 + 2 + 2) tau Ha5 Hey). }
  apply (wtd_app G (a + 6) cy _ Wy). rewrite Ly, <- Ely.
  apply (wtd_app G ly [Goto; ly + 2 + 1 + sn] _ (wtd_goto G ly _ tau Hly Hly1 Hx)).
  exact (wtd_app G (ly + 2) [Forejump] _ (wtd_forejump G (ly + 2) tau Hln Hen) Wn).
Qed.

Lemma typed_exprcond c o cnd yes no (IHc : typed_frag c cnd) (IHy : typed_frag c yes) (IHn : opt_all (typed_frag c) no) : typed_frag c (NExprCond o cnd yes no).
Proof.
  apply wtd_typed. intros a tbl tau G Ha Hx. cbn [emit csize] in *.
  pose proof (csize_nonneg c cnd) as Hc0. pose proof (csize_nonneg c yes) as Hy0. pose proof (emit_length c cnd (a + 4) tbl) as Lc.
  set (sn := match no with Some x => csize c x | None => 0 end) in *.
  assert (Hn0 : 0 <= sn) by (unfold sn; destruct no; [apply csize_nonneg|lia]).
  remember (a + 4 + csize c cnd) as lc eqn:Elc. remember (lc + 2 + csize c yes) as ly eqn:Ely.
  replace (a + (4 + csize c cnd + 2 + csize c yes + 2 + 2 + sn)) with (ly + 2 + 2 + sn) in Hx by lia.
  assert (Ha0 : G a = Some tau) by gat Ha a.
  assert (Ha1 : G (a + 1) = Some (KJ :: tau)) by gat Ha (a + 1).
  assert (Ha2 : G (a + 1 + 1) = Some (KM :: KJ :: tau)) by gat Ha (a + 1 + 1).
  assert (Ha3 : G (a + 1 + 1 + 1) = None) by gat Ha (a + 1 + 1 + 1).
  assert (Hlc : G lc = Some (KM :: KJ :: tau)) by gat Ha lc.
  assert (Hlc1 : G (lc + 1) = Some (KJ :: tau)) by gat Ha (lc + 1).
  assert (Hly : G ly = Some tau) by gat Ha ly.
  assert (Hly1 : G (ly + 1) = None) by (gat Ha (ly + 1); destruct no; [apply shf_none; lia|reflexivity]).
  assert (Hln : G (ly + 2) = Some (KM :: KJ :: tau)) by gat Ha (ly + 2).
  assert (Hln1 : G (ly + 2 + 1) = Some (KJ :: tau)) by gat Ha (ly + 2 + 1).
  assert (Hac : agree G (shf c cnd (a + 4) (KM :: KJ :: tau)) (a + 4) (a + 4 + csize c cnd)).
  { intros pc Hpc. rewrite (Ha pc ltac:(lia)). cbn [shf]. cbv zeta. shev. reflexivity. }
  assert (Hay : agree G (shf c yes (lc + 2) tau) (lc + 2) (lc + 2 + csize c yes)).
  { intros pc Hpc. rewrite (Ha pc ltac:(lia)). cbn [shf]. cbv zeta. shev. rewrite <- Elc. reflexivity. }
  assert (Hec : G (a + 1 + 1 + 2) = Some (KM :: KJ :: tau)).
  { replace (a + 1 + 1 + 2) with (a + 4) by lia. rewrite Elc in Hlc. exact (entryG c cnd _ _ G Hac Hlc). }
  assert (Hey : G (lc + 1 + 1) = Some tau).
  { replace (lc + 1 + 1) with (lc + 2) by lia. rewrite Ely in Hly. exact (entryG c yes _ _ G Hay Hly). }
  pose proof (wtd_frag c cnd G (a + 4) tbl _ IHc Hac ltac:(rewrite <- Elc; exact Hlc)) as Wc.
  destruct (emit c cnd (a + 4) tbl) as [cc t1]. cbn [fst] in *. rewrite Lc, <- Elc.
  pose proof (wtd_frag c yes G (lc + 2) t1 _ IHy Hay ltac:(rewrite <- Ely; exact Hly)) as Wy.
  pose proof (emit_length c yes (lc + 2) t1) as Ly.
  destruct (emit c yes (lc + 2) t1) as [cy t2]. cbn [fst] in *. rewrite Ly, <- Ely.
  destruct (wtd_opt c no G (ly + 2 + 2) t2 tau IHn) as (Wn & Hen & Ln); [|exact Hx|].
  { intros pc Hpc. fold sn in Hpc. rewrite (Ha pc ltac:(lia)). cbn [shf]. cbv zeta. shev.
    replace (a + 4 + csize c cnd + 2 + csize c yes + 4) with (ly + 2 + 2) by lia. reflexivity. }
  fold sn in Ln. destruct (match no with Some x => emit c x (ly + 2 + 2) t2 | None => ([], t2) end) as [cn t3]. cbn [fst] in *. rewrite Ln.
  apply (wtd_app G a [Setjump; Setmark; Lazybranch; ly + 2]).
  { apply (wtd_app G a [Setjump] _ (wtd_setjump G a tau Ha0 Ha1)).
    apply (wtd_app G (a + 1) [Setmark] _ (wtd_setmark G (a + 1) _ Ha1 Ha2)).
    exact (wtd_lazybranch G (a + 1 + 1) _ _ Ha2 Ha3 Hec Hln). }
  apply (wtd_app G (a + 4) cc _ Wc). rewrite Lc, <- Elc.
  apply (wtd_app G lc [Getmark; Forejump]).
  { exact (wtd_app G lc [Getmark] _ (wtd_getmark G lc _ Hlc Hlc1) (wtd_forejump G (lc + 1) tau Hlc1 Hey)). }
  apply (wtd_app G (lc + 2) cy _ Wy). rewrite Ly, <- Ely.
  apply (wtd_app G ly [Goto; ly + 2 + 2 + sn] _ (wtd_goto G ly _ tau Hly Hly1 Hx)).
  apply (wtd_app G (ly + 2) [Getmark; Forejump]); [|exact Wn].
  exact (wtd_app G (ly + 2) [Getmark] _ (wtd_getmark G _ _ Hln Hln1) (wtd_forejump G (ly + 2 + 1) tau Hln1 ltac:(rewrite <- Z.add_assoc; exact Hen))).
Qed.

Theorem emit_typed c : forall t, typed_frag c t.
Proof.
  induction t as [kd o ch|kd lk o ch m n|o str|o g|an| | | |o l HF|o l HF|lazy o m n r IHr|o g u r IHr
                 |r IHr|o r IHr|o r IHr|r IHr|o g yes no IHy IHn|o cnd yes no IHc IHy IHn]
    using node_ind'.
  - (* NChar *)
    apply (tf_plain1 c _ (char_op kd + bits_of o) 1); try reflexivity.
    + intros a tbl. exists [ch]. split; reflexivity.
    + destruct kd; cp_side.
    + rewrite cp_land_bits by (destruct kd; cbv; split; congruence). destruct kd; reflexivity.
  - exact (typed_charloop c kd lk o ch m n).
  - (* NMulti *)
    apply (tf_plain1 c _ (Multi + bits_of o) 1); try reflexivity.
    + intros a tbl. cbn [emit]. destruct (string_code str tbl) as [i tbl']. exists [i]. split; reflexivity.
    + cp_side.
    + rewrite cp_land_bits by (cbv; split; congruence). reflexivity.
  - (* NRef *)
    apply (tf_plain1 c _ (Ref + bits_of o) 1); try reflexivity.
    + intros a tbl. exists [map_capnum c g]. split; reflexivity.
    + cp_side.
    + rewrite cp_land_bits by (cbv; split; congruence). reflexivity.
  - (* NAnchor *)
    apply (tf_plain1 c _ (anchor_code an) 0); try reflexivity.
    + intros a tbl. exists []. split; reflexivity.
    + destruct an; reflexivity.
    + destruct an; reflexivity.
  - (* NNothing *)
    intros a tbl tau G Ha Hx. cbn [emit fst csize] in *. exists [a]. split.
    + apply wtc_one; [reflexivity|]. assert (Ha0 : G a = Some tau) by gat Ha a. iok Ha0. reflexivity.
    + intros pc s H. cbn [shf] in H. unfold at_pc in H. destruct (pc =? a) eqn:E; [left; lia|discriminate H].
  - (* NEmpty *)
    intros a tbl tau G Ha Hx. exists []. split; [apply wtc_nil|]. intros pc s H. discriminate H.
  - (* NBump *)
    apply (tf_plain1 c _ UpdateBumpalong 0); try reflexivity.
    intros a tbl. exists []. split; reflexivity.
  - (* NConcat *)
    apply wtd_typed. intros a tbl tau G Ha Hx. rewrite wr_emit_concat_eq. rewrite wr_csize_concat_eq in *.
    apply (typed_seq c l HF a tbl tau G); [|exact Hx]. intros pc Hpc. rewrite (Ha pc Hpc). apply shf_concat_eq.
  - (* NAlternate *)
    apply wtd_typed. intros a tbl tau G Ha Hx. rewrite wr_emit_alternate_eq. rewrite wr_csize_alternate_eq in *.
    apply (typed_alt c (a + csize_alt c l) l HF a tbl tau G eq_refl); [|exact Hx]. intros pc Hpc. rewrite (Ha pc Hpc). apply shf_alternate_eq.
  - exact (typed_loop c lazy o m n r IHr).
  - exact (typed_capture c o g u r IHr).
  - (* NGroup *)
    intros a tbl tau G Ha Hx. cbn [emit csize] in *. apply IHr; assumption.
  - exact (typed_poslook c o r IHr).
  - exact (typed_neglook c o r IHr).
  - exact (typed_atomic c r IHr).
  - exact (typed_backrefcond c o g yes no IHy IHn).
  - exact (typed_exprcond c o cnd yes no IHc IHy IHn).
Qed.

Print Assumptions emit_typed.

(* ---------- from the judgment to the verifier ---------- *)
Section Link.
Variable p : program.
Variable G : Z -> option shape.

(* the shape table: G tabulated on the instruction boundaries *)
Definition sh_of : list (Z * shape) :=
  flat_map (fun co => match G (fst co) with Some t => [(fst co, t)] | None => [] end) (cp_dec (codes p)).

Lemma cp_dec_aux_tail f : forall pos code c op,
  In (c, op) (match cp_dec_aux f pos code with [] => [] | _ :: tl => tl end) -> pos < c.
Proof.
  destruct f as [|f]; intros pos code c op H; cbn [cp_dec_aux] in H; [contradiction|].
  destruct code as [|w code']; [contradiction|]. cbv zeta in H.
  destruct (opcode_size w <=? 0) eqn:E; [contradiction|]. apply cp_dec_aux_pos in H. lia.
Qed.

Lemma sh_get_flat_none pc (l : list (Z * Z)) : (forall c op, In (c, op) l -> pc < c) ->
  sh_get pc (flat_map (fun co => match G (fst co) with Some t => [(fst co, t)] | None => [] end) l) = None.
Proof.
  induction l as [|[c op] l IH]; intros H; cbn [flat_map]; [reflexivity|]. cbn [fst].
  pose proof (H c op (or_introl eq_refl)) as Hc.
  destruct (G c) as [t|]; cbn [app sh_get]; [replace (pc =? c) with false by lia|]; apply IH; intros c' op' Hin; apply (H c' op'); right; exact Hin.
Qed.

Lemma sh_get_dec f : forall pos code pc w, In (pc, w) (cp_dec_aux f pos code) ->
  sh_get pc (flat_map (fun co => match G (fst co) with Some t => [(fst co, t)] | None => [] end) (cp_dec_aux f pos code)) = G pc.
Proof.
  induction f as [|f IH]; intros pos code pc w H; cbn [cp_dec_aux] in H |- *; [contradiction|].
  destruct code as [|w0 code']; [contradiction|]. cbv zeta in H |- *.
  destruct (opcode_size w0 <=? 0) eqn:E; [contradiction|]. cbn [flat_map fst].
  destruct H as [H|H].
  - injection H as <- <-. destruct (G pos) as [t|] eqn:Eg; cbn [app sh_get].
    + rewrite Z.eqb_refl. reflexivity.
    + apply sh_get_flat_none. intros c op Hin. apply cp_dec_aux_pos in Hin. lia.
  - pose proof (cp_dec_aux_pos _ _ _ _ _ H) as Hp.
    destruct (G pos) as [t|]; cbn [app sh_get]; [replace (pc =? pos) with false by lia|]; eapply IH; exact H.
Qed.

Hypothesis Hdom : forall pc s, G pc = Some s -> exists w, instr_at p pc = Some w.

Lemma sh_at_of pc : sh_at p sh_of pc = G pc.
Proof.
  unfold sh_at. destruct (instr_at p pc) as [w|] eqn:E.
  - apply instr_at_bnd in E. destruct E as [E _]. unfold sh_of. unfold cp_boundary, cp_dec in *. eapply sh_get_dec. exact E.
  - destruct (G pc) as [s|] eqn:Eg; [|reflexivity]. destruct (Hdom pc s Eg) as [w Hw]. rewrite Hw in E. discriminate.
Qed.

Lemma instr_ok_of pc w : instr_ok p sh_of pc w = iokb G pc w (arg1 p pc).
Proof. unfold instr_ok, iokb. rewrite !sh_at_of. reflexivity. Qed.


Lemma arg1_at pre op x tl a : codes p = pre ++ op :: x :: tl -> zlen pre = a -> arg1 p a = x.
Proof.
  intros Hc Ha. unfold arg1, code_at, znth. rewrite Hc. pose proof (zlen_nonneg pre).
  replace (a + 1 <? 0) with false by lia. unfold zlen in *.
  rewrite nth_error_app2 by lia. replace (Z.to_nat (a + 1) - length pre)%nat with 1%nat by lia. reflexivity.
Qed.

Lemma wtc_dec : forall a code Sl, wtc G a code Sl -> forall pre fuel, codes p = pre ++ code -> zlen pre = a ->
  (length code <= fuel)%nat ->
  (forall c w, In (c, w) (cp_dec_aux fuel a code) -> iokb G c w (arg1 p c) = true) /\
  map fst (cp_dec_aux fuel a code) = Sl.
Proof.
  induction 1 as [a|a op args rest Sl Hsz Hok Hr IH]; intros pre fuel Hc Ha Hf.
  - destruct fuel; cbn [cp_dec_aux]; (split; [intros c w H; contradiction|reflexivity]).
  - destruct fuel as [|f]; [cbn [length] in Hf; lia|].
    cbn [cp_dec_aux]. cbv zeta. pose proof (zlen_nonneg args) as Hz.
    replace (opcode_size op <=? 0) with false by lia.
    assert (Hsk : skipn (Z.to_nat (opcode_size op)) (op :: args ++ rest) = rest).
    { rewrite Hsz. unfold zlen. replace (Z.to_nat (1 + Z.of_nat (length args))) with (S (length args)) by lia.
      cbn [skipn]. rewrite skipn_app, skipn_all, Nat.sub_diag. reflexivity. }
    rewrite Hsk. cbn [length] in Hf. rewrite app_length in Hf.
    destruct (IH (pre ++ op :: args) f) as [I1 I2].
    { rewrite Hc, <- app_assoc. reflexivity. }
    { rewrite zlen_app, zlen_cons. lia. }
    { lia. }
    split.
    + intros c w [H|H]; [|apply I1; exact H]. injection H as <- <-.
      destruct args as [|x args'].
      * rewrite (iokb_arg_irrel G a op _ (-1)); [exact Hok|]. rewrite Hsz. reflexivity.
      * rewrite (arg1_at pre op x (args' ++ rest) a Hc Ha). exact Hok.
    + cbn [map fst]. rewrite I2. reflexivity.
Qed.

Lemma wtc_program S : wtc G 0 (codes p) S ->
  (forall pc w, In (pc, w) (cp_dec (codes p)) -> iokb G pc w (arg1 p pc) = true) /\
  (forall pc, In pc S -> exists w, instr_at p pc = Some w).
Proof.
  intros W. destruct (wtc_dec 0 (codes p) S W [] (length (codes p)) eq_refl eq_refl (le_n _)) as [I1 I2].
  fold (cp_dec (codes p)) in I1, I2. split.
  - exact I1.
  - intros pc Hin. rewrite <- I2 in Hin. apply in_map_iff in Hin. destruct Hin as ([c w] & E & Hin). cbn [fst] in E. subst c.
    unfold instr_at. destruct (List.find (fun co => fst co =? pc) (cp_dec (codes p))) as [[c' w']|] eqn:Ef.
    + exists w'. reflexivity.
    + exfalso. pose proof (find_none _ _ Ef _ Hin) as Hn. cbn [fst] in Hn. lia.
Qed.

End Link.

(* ---------- the depth of the grouping stack is bounded by the number of counted instructions ---------- *)
Definition dep_opt (f : node -> Z) (no : option node) : Z := match no with Some x => f x | None => 0 end.

Fixpoint dep (c : wcfg) (t : node) : Z :=
  match t with
  | NConcat _ l | NAlternate _ l =>
      (fix go (l : list node) : Z := match l with [] => 0 | x :: l' => Z.max (dep c x) (go l') end) l
  | NLoop _ _ _ _ r => 2 + dep c r
  | NCapture _ g u r => if emit_capture c g u then 1 + dep c r else dep c r
  | NGroup r => dep c r
  | NPosLook _ r => 3 + dep c r
  | NNegLook _ r => 2 + dep c r
  | NAtomic r => 2 + dep c r
  | NBackRefCond _ _ yes no => Z.max 2 (Z.max (dep c yes) (dep_opt (dep c) no))
  | NExprCond _ cnd yes no => Z.max (3 + dep c cnd) (Z.max (dep c yes) (dep_opt (dep c) no))
  | _ => 0
  end.
Definition dep_list (c : wcfg) : list node -> Z :=
  fix go (l : list node) : Z := match l with [] => 0 | x :: l' => Z.max (dep c x) (go l') end.

Lemma dep_nonneg c : forall t, 0 <= dep c t.
Proof.
  induction t as [kd o ch|kd lk o ch m n|o str|o g|an| | | |o l HF|o l HF|lazy o m n r IHr|o g u r IHr
                 |r IHr|o r IHr|o r IHr|r IHr|o g yes no IHy IHn|o cnd yes no IHc IHy IHn]
    using node_ind'; cbn [dep]; try lia.
  - change (0 <= dep_list c l). induction HF as [|x l Hx HF IH]; cbn [dep_list]; lia.
  - change (0 <= dep_list c l). induction HF as [|x l Hx HF IH]; cbn [dep_list]; lia.
  - destruct (emit_capture c g u); lia.
Qed.

Lemma shf_depth c : forall t a tau pc s, shf c t a tau pc = Some s -> swords s <= swords tau + dep c t.
Proof.
  induction t as [kd o ch|kd lk o ch m n|o str|o g|an| | | |o l HF|o l HF|lazy o m n r IHr|o g u r IHr
                 |r IHr|o r IHr|o r IHr|r IHr|o g yes no IHy IHn|o cnd yes no IHc IHy IHn]
    using node_ind'; intros a tau pc s H; cbn [shf dep] in H |- *; unfold at_pc in H;
    try (destruct (pc =? a); [injection H as <-; lia|discriminate H]); try discriminate H.
  - ifs_in H; try discriminate H; injection H as <-; lia.
  - change (shf_seq c tau pc l a = Some s) in H. change (swords s <= swords tau + dep_list c l). revert a H.
    induction HF as [|x l Hx HF IH]; intros a H; cbn [shf_seq dep_list] in *; [discriminate H|].
    destruct (pc <? a + csize c x); [apply Hx in H; lia|apply IH in H; lia].
  - change (shf_alt c tau pc l a = Some s) in H. change (swords s <= swords tau + dep_list c l). revert a H.
    induction HF as [|x l Hx HF IH]; intros a H; [discriminate H|].
    destruct l as [|y l]; [cbn [shf_alt dep_list] in *; apply Hx in H; lia|].
    change (shf_alt c tau pc (x :: y :: l) a) with
      (if pc =? a then Some tau else if pc <? a + 2 + csize c x then shf c x (a + 2) tau pc
       else if pc =? a + 2 + csize c x then Some tau else shf_alt c tau pc (y :: l) (a + 2 + csize c x + 2)) in H.
    pose proof (dep_nonneg c x). assert (0 <= dep_list c (y :: l)).
    { clear. induction (y :: l) as [|z l' IHl]; cbn [dep_list]; [lia|]. pose proof (dep_nonneg c z). lia. }
    change (dep_list c (x :: y :: l)) with (Z.max (dep c x) (dep_list c (y :: l))).
    ifs_in H; try (injection H as <-); try (apply Hx in H); try (apply IH in H); lia.
  - cbv zeta in H. pose proof (dep_nonneg c r).
    destruct (counted m n); ifs_in H; try discriminate H; try (injection H as <-; cbn [swords kwords]; lia);
      apply IHr in H; cbn [swords kwords] in H; lia.
  - pose proof (dep_nonneg c r). destruct (emit_capture c g u); [|apply IHr in H; lia].
    ifs_in H; try discriminate H; try (injection H as <-; cbn [swords kwords]; lia); apply IHr in H; cbn [swords kwords] in H; lia.
  - apply IHr in H. lia.
  - pose proof (dep_nonneg c r).
    ifs_in H; try discriminate H; try (injection H as <-; cbn [swords kwords]; lia); apply IHr in H; cbn [swords kwords] in H; lia.
  - pose proof (dep_nonneg c r).
    ifs_in H; try discriminate H; try (injection H as <-; cbn [swords kwords]; lia); apply IHr in H; cbn [swords kwords] in H; lia.
  - pose proof (dep_nonneg c r).
    ifs_in H; try discriminate H; try (injection H as <-; cbn [swords kwords]; lia); apply IHr in H; cbn [swords kwords] in H; lia.
  - cbv zeta in H. pose proof (dep_nonneg c yes).
    destruct no as [x|]; cbn [opt_all dep_opt] in *; [pose proof (dep_nonneg c x)|];
      ifs_in H; try discriminate H; try (injection H as <-; cbn [swords kwords]; lia);
      try (apply IHy in H; lia); try (apply IHn in H; lia).
  - cbv zeta in H. pose proof (dep_nonneg c yes). pose proof (dep_nonneg c cnd).
    destruct no as [x|]; cbn [opt_all dep_opt] in *; [pose proof (dep_nonneg c x)|];
      ifs_in H; try discriminate H; try (injection H as <-; cbn [swords kwords]; lia);
      try (apply IHc in H; cbn [swords kwords] in H; lia); try (apply IHy in H; lia); try (apply IHn in H; lia).
Qed.

Definition cp_dgood (d : Z) (code : list Z) : Prop := exists tc w, cp_frag code tc w /\ d <= 2 * tc /\ 0 <= tc.
Ltac dfinish := unfold cp_dgood; do 2 eexists; split; [cp_build|split; lia].

Lemma cp_emit_dgood c : forall t a tbl, cp_dgood (dep c t) (fst (emit c t a tbl)).
Proof.
  induction t as [kd o ch|kd lk o ch m n|o str|o g|an| | | |o l HF|o l HF|lazy o m n r IHr|o g u r IHr
                 |r IHr|o r IHr|o r IHr|r IHr|o g yes no IHy IHn|o cnd yes no IHc IHy IHn]
    using node_ind'; intros a tbl.
  - cbn [emit fst dep]. destruct kd; cbn [char_op]; dfinish.
  - cbn [emit fst dep]. destruct kd, lk, (0 <? m), (m <? n); cbn [rep_op loop_op app]; dfinish.
  - cbn [emit dep]. destruct (string_code str tbl) as [i tbl']. cbn [fst]. dfinish.
  - cbn [emit fst dep]. dfinish.
  - cbn [emit fst dep]. destruct an; cbn [anchor_code]; dfinish.
  - cbn [emit fst dep]. dfinish.
  - cbn [emit fst dep]. dfinish.
  - cbn [emit fst dep]. dfinish.
  - (* NConcat *)
    rewrite wr_emit_concat_eq. change (dep c (NConcat o l)) with (dep_list c l). revert a tbl.
    induction HF as [|x l Hx HF IH]; intros a tbl; cbn [emit_seq dep_list].
    + cbn [fst]. dfinish.
    + destruct (Hx a tbl) as (t1 & w1 & F1 & L1 & N1). destruct (emit c x a tbl) as [cx tb1]. cbn [fst] in F1.
      destruct (IH (a + zlen cx) tb1) as (t2 & w2 & F2 & L2 & N2).
      destruct (emit_seq c l (a + zlen cx) tb1) as [cr tb2]. cbn [fst] in F2 |- *. dfinish.
  - (* NAlternate *)
    rewrite wr_emit_alternate_eq. change (dep c (NAlternate o l)) with (dep_list c l).
    generalize (a + csize c (NAlternate o l)) as lend. intros lend. revert a tbl.
    induction HF as [|x l Hx HF IH]; intros a tbl.
    + cbn [emit_alt fst dep_list]. dfinish.
    + destruct l as [|y l].
      * cbn [emit_alt dep_list]. destruct (Hx a tbl) as (t1 & w1 & F1 & L1 & N1). exists t1, w1. split; [exact F1|]. split; lia.
      * rewrite wr_emit_alt_cons2. change (dep_list c (x :: y :: l)) with (Z.max (dep c x) (dep_list c (y :: l))).
        destruct (Hx (a + 2) tbl) as (t1 & w1 & F1 & L1 & N1). destruct (emit c x (a + 2) tbl) as [cx tb1].
        cbn [fst] in F1. cbv zeta.
        destruct (IH (a + 2 + zlen cx + 2) tb1) as (t2 & w2 & F2 & L2 & N2).
        destruct (emit_alt c lend (y :: l) (a + 2 + zlen cx + 2) tb1) as [cr tb2]. cbn [fst] in F2 |- *.
        dfinish.
  - (* NLoop *)
    cbn [emit dep]. cbv zeta.
    match goal with |- context [emit c r ?x tbl] => destruct (IHr x tbl) as (t1 & w1 & F1 & L1 & N1);
                                                     destruct (emit c r x tbl) as [cr tb1] end.
    cbn [fst] in F1 |- *.
    destruct lazy, (counted m n), (m =? 0); cbn [app]; dfinish.
  - (* NCapture *)
    cbn [emit dep]. destruct (emit_capture c g u).
    + destruct (IHr (a + 1) tbl) as (t1 & w1 & F1 & L1 & N1). destruct (emit c r (a + 1) tbl) as [cr tb1].
      cbn [fst] in F1 |- *. dfinish.
    + apply IHr.
  - cbn [emit dep]. apply IHr.
  - cbn [emit dep]. destruct (IHr (a + 2) tbl) as (t1 & w1 & F1 & L1 & N1). destruct (emit c r (a + 2) tbl) as [cr tb1].
    cbn [fst] in F1 |- *. dfinish.
  - cbn [emit dep]. destruct (IHr (a + 3) tbl) as (t1 & w1 & F1 & L1 & N1). destruct (emit c r (a + 3) tbl) as [cr tb1].
    cbn [fst] in F1 |- *. dfinish.
  - cbn [emit dep]. destruct (IHr (a + 1) tbl) as (t1 & w1 & F1 & L1 & N1). destruct (emit c r (a + 1) tbl) as [cr tb1].
    cbn [fst] in F1 |- *. dfinish.
  - (* NBackRefCond *)
    cbn [emit dep]. destruct (IHy (a + 6) tbl) as (t1 & w1 & F1 & L1 & N1). destruct (emit c yes (a + 6) tbl) as [cy tb1].
    cbn [fst] in F1. cbv zeta.
    destruct no as [x|]; cbn [opt_all dep_opt] in *.
    + match goal with |- context [emit c x ?q tb1] => destruct (IHn q tb1) as (t2 & w2 & F2 & L2 & N2);
                                                       destruct (emit c x q tb1) as [cn tb2] end.
      cbn [fst] in F2 |- *. dfinish.
    + cbn [fst]. dfinish.
  - (* NExprCond *)
    cbn [emit dep]. destruct (IHc (a + 4) tbl) as (t0 & w0 & F0 & L0 & N0). destruct (emit c cnd (a + 4) tbl) as [cc tb0].
    cbn [fst] in F0. cbv zeta.
    match goal with |- context [emit c yes ?q tb0] => destruct (IHy q tb0) as (t1 & w1 & F1 & L1 & N1);
                                                      destruct (emit c yes q tb0) as [cy tb1] end.
    cbn [fst] in F1.
    destruct no as [x|]; cbn [opt_all dep_opt] in *.
    + match goal with |- context [emit c x ?q tb1] => destruct (IHn q tb1) as (t2 & w2 & F2 & L2 & N2);
                                                       destruct (emit c x q tb1) as [cn tb2] end.
      cbn [fst] in F2 |- *. dfinish.
    + cbn [fst]. dfinish.
Qed.

Theorem compiled_tyck c root p :
  codes p = fst (compile c root) -> track_count (codes p) <= trackcount p ->
  exists sh, tyck p sh = true.
Proof.
  intros Hcodes Htk. unfold compile in Hcodes.
  pose proof (emit_length c root 2 []) as Lr. pose proof (csize_nonneg c root) as Hr0.
  destruct (cp_emit_dgood c root 2 []) as (t1 & w1 & F1 & D1 & N1).
  remember (2 + csize c root) as L eqn:EL.
  set (G := fun pc => if pc =? 0 then Some [] else if pc =? L then Some []
                      else if (2 <=? pc) && (pc <? L) then shf c root 2 [] pc else None).
  assert (Har : agree G (shf c root 2 []) 2 (2 + csize c root)).
  { intros pc Hpc. unfold G. shev. reflexivity. }
  assert (HL : G L = Some []) by (unfold G; shev; reflexivity).
  assert (H0 : G 0 = Some []) by reflexivity.
  assert (Hcases : forall pc s, G pc = Some s -> (s = [] /\ (pc = 0 \/ pc = L)) \/ shf c root 2 [] pc = Some s).
  { intros pc s H. unfold G in H. destruct (pc =? 0) eqn:E0; [left; injection H as <-; split; [reflexivity|lia]|].
    destruct (pc =? L) eqn:E1; [left; injection H as <-; split; [reflexivity|lia]|].
    destruct ((2 <=? pc) && (pc <? L)); [right; exact H|discriminate H]. }
  clearbody G.
  assert (HL' : G (2 + csize c root) = Some []) by (rewrite <- EL; exact HL).
  destruct (emit_typed c root 2 [] [] G Har HL') as (Sr & Wr & Dr).
  destruct (emit c root 2 []) as [cr tbl] eqn:Er. cbn [fst] in *. rewrite Lr in Hcodes. rewrite <- EL in Hcodes.
  assert (W : wtc G 0 (codes p) ([0] ++ Sr ++ [L])).
  { rewrite Hcodes. apply (wtc_app G 0 [Lazybranch; L] [0]).
    - apply wtc_one; [reflexivity|]. iok H0. change (opcode_size Lazybranch) with 2. change (0 + 2) with 2.
      rewrite (entryG c root 2 [] G Har HL'), HL. reflexivity.
    - change (zlen [Lazybranch; L]) with 2. change (0 + 2) with 2. apply (wtc_app G 2 cr Sr Wr). rewrite Lr, <- EL.
      apply wtc_one; [reflexivity|]. iok HL. reflexivity. }
  destruct (wtc_program p G _ W) as [I1 I2].
  assert (Hdom : forall pc s, G pc = Some s -> exists w, instr_at p pc = Some w).
  { intros pc s H. apply I2. cbn [app]. destruct (Hcases pc s H) as [[_ [E|E]]|E].
    - left. lia.
    - right. apply in_or_app. right. left. lia.
    - right. apply in_or_app. left. eapply Dr. exact E. }
  exists (sh_of p G). unfold tyck.
  (* the opcodes at 0 and at L *)
  assert (Hc0 : code_at p 0 = Some Lazybranch) by (unfold code_at; rewrite Hcodes; reflexivity).
  assert (Ha1 : arg1 p 0 = L) by (apply (arg1_at p [] Lazybranch L (cr ++ [Stop]) 0); [exact Hcodes|reflexivity]).
  assert (HcL : code_at p L = Some Stop).
  { unfold code_at, znth. rewrite Hcodes. replace (L <? 0) with false by lia.
    change ([Lazybranch; L] ++ cr ++ [Stop]) with (Lazybranch :: L :: cr ++ [Stop]).
    replace (Z.to_nat L) with (S (S (length cr))) by (unfold zlen in Lr; lia).
    cbn [nth_error]. rewrite nth_error_app2 by lia. rewrite Nat.sub_diag. reflexivity. }
  assert (Hi0 : instr_at p 0 = Some Lazybranch).
  { destruct (I2 0 ltac:(cbn [app]; left; reflexivity)) as [w Hw]. pose proof (instr_at_bnd p 0 w Hw) as [_ Hcw]. congruence. }
  assert (HiL : instr_at p L = Some Stop).
  { destruct (I2 L ltac:(cbn [app]; right; apply in_or_app; right; left; reflexivity)) as [w Hw].
    pose proof (instr_at_bnd p L w Hw) as [_ Hcw]. congruence. }
  apply andb_true_intro. split; [apply andb_true_intro; split; [apply andb_true_intro; split|]|].
  - apply forallb_forall. intros [pc w] Hin. cbn [fst snd]. rewrite (instr_ok_of p G Hdom). apply I1. exact Hin.
  - rewrite Hi0, Ha1, HiL. reflexivity.
  - rewrite (sh_at_of p G Hdom), H0. reflexivity.
  - apply forallb_forall. intros [pc s] Hin. cbn [snd].
    unfold sh_of in Hin. apply in_flat_map in Hin. destruct Hin as ([c0 w0] & _ & Hin). cbn [fst] in Hin.
    destruct (G c0) as [s0|] eqn:Eg; [|contradiction]. destruct Hin as [Hin|[]]. injection Hin as <- <-.
    (* TrackCount of the whole program *)
    assert (Ftot : cp_frag (codes p) (1 + (t1 + 0)) (4 + (w1 + 0))).
    { rewrite Hcodes. change ([Lazybranch; L] ++ cr ++ [Stop]) with (Lazybranch :: L :: cr ++ [Stop]).
      apply (cp_frag_i1 Lazybranch L (cr ++ [Stop]) 1 4); [reflexivity|reflexivity|reflexivity|].
      apply (cp_frag_app cr t1 w1 F1). apply (cp_frag_i0 Stop [] 0 0 0 0); [reflexivity|reflexivity|reflexivity|apply cp_frag_nil]. }
    apply cp_frag_totals in Ftot. destruct Ftot as [_ Htc].
    assert (Hs : swords s0 <= dep c root).
    { destruct (Hcases c0 s0 Eg) as [[-> _]|E]; [cbn [swords]; apply dep_nonneg|].
      apply shf_depth in E. cbn [swords] in E. lia. }
    unfold sinit, G_stacksize_mul, G_stacksize_min. lia.
Qed.

Print Assumptions compiled_tyck.

(* C12, part C: buffers, the replacement cache, and the invariant of the shared state under every atomic action. *)
From Verif Require Import Base.Prelude Model.Pool Proofs.PoolStackProofs Proofs.PoolRunnerProofs.

From Verif Require Import Proofs.ListFacts.

Lemma nth_upd_nth : forall {A} (l : list A) n i x d,
  nth i (upd_nth n x l) d = if (Nat.eqb i n && Nat.ltb n (length l))%bool then x else nth i l d.
Proof.
  induction l as [|y l IH]; intros n i x d.
  - cbn. destruct n, i; cbn; rewrite ?Bool.andb_false_r; reflexivity.
  - destruct n, i; cbn [upd_nth nth length]; try reflexivity.
    rewrite IH. reflexivity.
Qed.
Lemma nth_upd_nth_all : forall {A} (P : nat -> A -> Prop) l n x d,
  (forall i, P i (nth i l d)) -> P n x -> forall i, P i (nth i (upd_nth n x l) d).
Proof.
  intros A P l n x d H Hx i. rewrite nth_upd_nth. destruct (Nat.eqb_spec i n); cbn [andb]; [|apply H].
  subst. destruct (Nat.ltb n (length l)); [exact Hx|apply H].
Qed.
Lemma upd_nth_length : forall {A} (l : list A) n x, length (upd_nth n x l) = length l.
Proof. induction l; destruct n; cbn; auto. Qed.

Lemma remove_nth_incl : forall {A} (l : list A) n, incl (remove_nth n l) l.
Proof.
  induction l as [|y l IH]; intros n x H; [destruct n; exact H|].
  destruct n; cbn in *; [auto|]. destruct H; [auto|]. right; eapply IH; eauto.
Qed.
Lemma take_spec : forall {A} pk (l : list A) x rest,
  take pk l = Some (x, rest) -> In x l /\ incl rest l.
Proof.
  intros A pk l x rest H. unfold take in H. destruct pk as [i|]; [|discriminate].
  destruct (nth_error l i) eqn:N; [|discriminate]. inversion H; subst.
  split; [eapply nth_error_In; eauto|apply remove_nth_incl].
Qed.

Lemma filter_idx_incl : forall {A} f (l : list A) i, incl (filter_idx f i l) l.
Proof.
  induction l as [|y l IH]; intros i x H; cbn in *; [auto|].
  destruct (f i); cbn in H; [destruct H; auto|]; right; eapply IH; eauto.
Qed.

Lemma pool_index_from_spec : forall sizes i needed maxsz idx,
  pool_index_from i sizes needed maxsz = Some idx ->
  (i <= idx)%nat /\ needed <= nth (idx - i) sizes 0 /\ (idx - i < length sizes)%nat /\
  (0 < maxsz -> nth (idx - i) sizes 0 <= maxsz).
Proof.
  induction sizes as [|c rest IH]; intros i needed maxsz idx H; cbn in H; [discriminate|].
  destruct (Z.leb_spec needed c).
  - destruct (Z.ltb_spec 0 maxsz), (Z.ltb_spec maxsz c); try discriminate;
      inversion H; subst; rewrite Nat.sub_diag; cbn; repeat split; lia.
  - apply IH in H. destruct H as (H1 & H2 & H3 & H4).
    replace (idx - i)%nat with (S (idx - S i)) by lia. cbn. repeat split; lia.
Qed.

(* size-class selection never yields a class smaller than what was asked for; of the Max...Length options, 0
   disables pooling and a positive value excludes the classes above it *)
Lemma pool_index_spec : forall sizes needed maxsz idx,
  pool_index sizes needed maxsz = Some idx ->
  needed <= nth idx sizes 0 /\ (idx < length sizes)%nat /\ (0 < maxsz -> nth idx sizes 0 <= maxsz).
Proof.
  intros sizes needed maxsz idx H. unfold pool_index in H.
  destruct (maxsz =? 0); [discriminate|].
  apply pool_index_from_spec in H. rewrite Nat.sub_0_r in H. tauto.
Qed.

Lemma pool_index_disabled : forall sizes needed, pool_index sizes needed 0 = None.
Proof. reflexivity. Qed.

Lemma read_write : forall (out rest : list Z), firstn (length out) ((out ++ rest) ++ repeat 0 (length out)) = out.
Proof.
  intros. rewrite <- app_assoc. rewrite firstn_app, Nat.sub_diag, firstn_all. cbn. apply app_nil_r.
Qed.

(* buffers_transparent: whatever the buffer held before and whatever its capacity, the decoded text is the text *)
Lemma write_read_buf : forall b out,
  zlen out <= b_cap b ->
  exists b1, write_buf b out = Some b1 /\ read_buf b1 (length out) = out /\ b_id b1 = b_id b /\ b_cap b1 = b_cap b.
Proof.
  intros b out H. unfold write_buf. destruct (Z.ltb_spec (b_cap b) (zlen out)); [lia|].
  eexists; split; [reflexivity|]. unfold read_buf; cbn. split; [apply read_write|auto].
Qed.

Section WithEnv.
Variable E : env.

Definition env_wf : Prop :=
  (forall re, cfg_wf (e_cfg E re)) /\
  (forall re, interp_wf (e_cfg E re) (e_interp E re)) /\
  (forall s, zlen (e_decode E s) <= zlen s).

Lemma decode_into_spec : forall b s,
  env_wf -> zlen s <= b_cap b ->
  exists b1, decode_into E b s = Some (b1, e_decode E s) /\ b_id b1 = b_id b /\ b_cap b1 = b_cap b.
Proof.
  intros b s (_ & _ & D) H. unfold decode_into.
  destruct (write_read_buf b (e_decode E s)) as (b1 & W & R & I & C); [specialize (D s); lia|].
  rewrite W, R. eauto.
Qed.

Definition cache_ok (re : nat) (c : list (list Z * rdata)) : Prop :=
  Forall (fun kd => e_parse_repl E re (fst kd) = Ok (snd kd)) c /\         (* cache_coherent *)
  NoDup (map fst c) /\
  (0 < cfg_cache_max (e_cfg E re) -> zlen c <= cfg_cache_max (e_cfg E re)). (* lru_capacity *)

Definition coh (re : nat) (key : list Z) (o : option rdata) : Prop :=
  match o with None => True | Some d => e_parse_repl E re key = Ok d end.

Lemma cache_find_coh : forall re key c d,
  Forall (fun kd => e_parse_repl E re (fst kd) = Ok (snd kd)) c -> cache_find key c = Some d ->
  e_parse_repl E re key = Ok d.
Proof.
  induction c as [|[k d0] c IH]; intros d F H; cbn in H; [discriminate|].
  inversion F; subst. destruct (zlist_eqb key k) eqn:K.
  - apply zlist_eqb_eq in K. inversion H; subst. assumption.
  - apply IH; auto.
Qed.
Lemma cache_find_none : forall key c, cache_find key c = None -> ~ In key (map fst c).
Proof.
  induction c as [|[k d0] c IH]; intros H; cbn in *; [tauto|].
  destruct (zlist_eqb key k) eqn:K; [discriminate|]. intros [X|X].
  - subst. assert (zlist_eqb key key = true) by (apply zlist_eqb_eq; reflexivity). congruence.
  - apply IH; auto.
Qed.
Lemma cache_remove_incl : forall key c, incl (cache_remove key c) c.
Proof.
  induction c as [|[k d0] c IH]; intros x H; cbn in *; [auto|].
  destruct (zlist_eqb key k); [auto|]. destruct H; [left|right; apply IH]; assumption.
Qed.
Lemma cache_remove_nodup : forall key c, NoDup (map fst c) ->
  NoDup (map fst (cache_remove key c)) /\ ~ In key (map fst (cache_remove key c)).
Proof.
  induction c as [|[k d0] c IH]; intros N; cbn in *; [split; [constructor|tauto]|].
  inversion N; subst. destruct (zlist_eqb key k) eqn:K.
  - apply zlist_eqb_eq in K; subst. auto.
  - destruct (IH H2) as [I1 I2]. cbn. split.
    + constructor; auto. intros X; apply H1. exact (incl_map fst (cache_remove_incl key c) _ X).
    + intros [X|X]; [|tauto]. subst.
      assert (zlist_eqb key key = true) by (apply zlist_eqb_eq; reflexivity). congruence.
Qed.
Lemma cache_remove_len : forall key c d, cache_find key c = Some d -> S (length (cache_remove key c)) = length c.
Proof.
  induction c as [|[k d0] c IH]; intros d H; cbn in *; [discriminate|].
  destruct (zlist_eqb key k); [reflexivity|]. cbn. erewrite IH; eauto.
Qed.

Lemma removelast_incl : forall {A} (l : list A), incl (removelast l) l.
Proof.
  induction l as [|y l IH]; intros x H; [auto|]. cbn in H. destruct l; [contradiction|].
  destruct H; [left; auto|right; auto].
Qed.
Lemma removelast_nodup : forall {A} (l : list A), NoDup l -> NoDup (removelast l).
Proof.
  induction l as [|y l IH]; intros N; [constructor|]. cbn. destruct l; [constructor|].
  inversion N; subst. constructor; auto. intros X; apply H1. apply removelast_incl; auto.
Qed.
Lemma removelast_map : forall {A B} (f : A -> B) l, map f (removelast l) = removelast (map f l).
Proof. induction l as [|y l IH]; [reflexivity|]. cbn. destruct l; [reflexivity|]. cbn in *. rewrite IH. reflexivity. Qed.
Lemma removelast_len : forall {A} (l : list A), l <> [] -> S (length (removelast l)) = length l.
Proof.
  induction l as [|y l IH]; intros H; [congruence|]. cbn. destruct l; [reflexivity|]. cbn in *. rewrite IH; congruence.
Qed.

(* MoveToFront of a key that is present, with the data it had or with new data *)
Lemma cache_front_ok : forall re key d d0 c,
  cache_ok re c -> cache_find key c = Some d0 -> e_parse_repl E re key = Ok d ->
  cache_ok re ((key, d) :: cache_remove key c).
Proof.
  intros re key d d0 c (F & N & L) Fd P. destruct (cache_remove_nodup key c N) as [N1 N2]. split; [|split].
  - constructor; [exact P|]. exact (incl_Forall (cache_remove_incl key c) F).
  - cbn. constructor; auto.
  - intros M. specialize (L M). unfold zlen in *. cbn [length]. rewrite (cache_remove_len key c d0 Fd). exact L.
Qed.

(* cache_coherent_preserved / lru_capacity for get *)
Lemma cache_get_ok : forall re key c,
  cache_ok re c -> cache_ok re (fst (cache_get key c)) /\ coh re key (snd (cache_get key c)).
Proof.
  intros re key c H. unfold cache_get.
  destruct (cache_find key c) as [d|] eqn:Fd; cbn [fst snd]; [|split; [exact H|exact I]].
  pose proof (cache_find_coh re key c d (proj1 H) Fd) as P. split; [|exact P]. exact (cache_front_ok re key d d c H Fd P).
Qed.

(* cache_coherent_preserved / lru_capacity for add, including the eviction of the oldest entry *)
Lemma cache_add_ok : forall re key d c,
  cache_ok re c -> e_parse_repl E re key = Ok d ->
  cache_ok re (cache_add (cfg_cache_max (e_cfg E re)) key d c).
Proof.
  intros re key d c H P. unfold cache_add.
  destruct (cache_find key c) as [d0|] eqn:Fd; [exact (cache_front_ok re key d d0 c H Fd P)|].
  destruct H as (F & N & L). set (mx := cfg_cache_max (e_cfg E re)) in *.
  pose proof (cache_find_none key c Fd) as NI.
  assert (F1 : Forall (fun kd => e_parse_repl E re (fst kd) = Ok (snd kd)) ((key, d) :: c)) by (constructor; auto).
  assert (N1 : NoDup (map fst ((key, d) :: c))) by (cbn; constructor; auto).
  destruct ((0 <? mx) && (mx <? zlen ((key, d) :: c))) eqn:B.
  - apply andb_prop in B. destruct B as [B1 B2]. apply Z.ltb_lt in B1, B2.
    split; [exact (incl_Forall (removelast_incl _) F1)|]. split; [rewrite removelast_map; apply removelast_nodup; auto|].
    intros _. specialize (L B1). unfold zlen in *.
    pose proof (removelast_len ((key, d) :: c) ltac:(discriminate)) as RL. cbn [length] in *. lia.
  - split; [exact F1|split; [exact N1|]]. intros M.
    apply Bool.andb_false_iff in B. destruct B as [B|B]; [apply Z.ltb_ge in B; lia|apply Z.ltb_ge in B; exact B].
Qed.

(* cache_transparent: with a coherent cache the data used by Replace is what a fresh parse gives *)
Lemma cache_transparent_get : forall re key c d,
  cache_ok re c -> snd (cache_get key c) = Some d -> e_parse_repl E re key = Ok d.
Proof.
  intros re key c d H G. destruct (cache_get_ok re key c H) as [_ C]. rewrite G in C. exact C.
Qed.

Definition rs_ok (re : nat) (rs : re_state) : Prop :=
  Forall (runner_ok (e_cfg E re)) (rs_pool rs) /\ cache_ok re (rs_cache rs).
(* every pooled buffer has exactly the capacity of its class *)
Definition bp_ok (bp : bufpools) : Prop :=
  forall idx b, In b (nth idx (bp_pools bp) []) -> b_cap b = nth idx (bp_sizes bp) 0.
Definition gstate_ok (g : gstate) : Prop :=
  (forall re, rs_ok re (get_rs g re)) /\ bp_ok (g_rune g) /\ bp_ok (g_byte g).

Lemma rs_empty_ok : forall re, rs_ok re rs_empty.
Proof.
  intros re. split; [constructor|]. split; [constructor|]. split; [constructor|]. cbn. intros; lia.
Qed.

Lemma get_set_rs : forall g re rs re',
  get_rs (set_rs g re rs) re' = if (Nat.eqb re' re && Nat.ltb re (length (g_res g)))%bool then rs else get_rs g re'.
Proof. intros. unfold get_rs, set_rs; cbn. apply nth_upd_nth. Qed.

Lemma set_rs_ok : forall g re rs, gstate_ok g -> rs_ok re rs -> gstate_ok (set_rs g re rs).
Proof.
  intros g re rs (A & B & C) H. split; [|split; [exact B|exact C]].
  exact (nth_upd_nth_all rs_ok (g_res g) re rs rs_empty A H).
Qed.
Lemma bump_next_ok : forall g, gstate_ok g -> gstate_ok (bump_next g).
Proof. intros g H; exact H. Qed.
Lemma get_bp_ok : forall g bk, gstate_ok g -> bp_ok (get_bp g bk).
Proof. intros g [] (A & B & C); auto. Qed.
Lemma set_bp_ok : forall g bk bp, gstate_ok g -> bp_ok bp -> gstate_ok (set_bp g bk bp).
Proof. intros g [] bp (A & B & C) H; (split; [exact A|split]); auto. Qed.

Lemma bp0_ok : forall sizes n, bp_ok {| bp_sizes := sizes; bp_pools := repeat [] n |}.
Proof. intros sizes n idx b H. cbn [bp_pools] in H. rewrite nth_repeat in H. contradiction. Qed.

Lemma gstate0_ok : forall nre rs bs, gstate_ok (gstate0 nre rs bs).
Proof.
  intros. split; [|split; apply bp0_ok]. intros re. unfold get_rs, gstate0; cbn [g_res]. rewrite nth_repeat.
  apply rs_empty_ok.
Qed.

(* getRunner: whatever the pool hands back satisfies runner_ok *)
Lemma act_get_runner_ok : forall g re pk,
  gstate_ok g ->
  gstate_ok (fst (act_get_runner g re pk)) /\ runner_ok (e_cfg E re) (snd (act_get_runner g re pk)).
Proof.
  intros g re pk G. unfold act_get_runner.
  destruct (take pk (rs_pool (get_rs g re))) as [[r rest]|] eqn:T; cbn [fst snd].
  - pose proof G as (A & B & C). destruct (A re) as [P Q]. apply take_spec in T. destruct T as [T1 T2].
    split.
    + apply set_rs_ok; [exact G|]. split; [|exact Q]. exact (incl_Forall T2 P).
    + eapply Forall_forall in P; eauto.
  - split; [apply bump_next_ok; auto|apply fresh_runner_ok].
Qed.
Lemma act_put_runner_ok : forall g re r,
  gstate_ok g -> runner_ok (e_cfg E re) r -> gstate_ok (act_put_runner g re r).
Proof.
  intros g re r G R. unfold act_put_runner. apply set_rs_ok; auto.
  destruct G as (A & _). destruct (A re) as [P Q]. split; [constructor; auto|exact Q].
Qed.

Lemma bp_upd_ok : forall bp idx l,
  bp_ok bp -> (forall b, In b l -> b_cap b = nth idx (bp_sizes bp) 0) ->
  bp_ok {| bp_sizes := bp_sizes bp; bp_pools := upd_nth idx l (bp_pools bp) |}.
Proof.
  intros bp idx l H L.
  exact (nth_upd_nth_all (fun i p => forall b, In b p -> b_cap b = nth i (bp_sizes bp) 0) (bp_pools bp) idx l [] H L).
Qed.

(* a buffer handed out is never shorter than needed, whether fresh, recycled, or unpooled *)
Lemma act_get_buf_ok : forall g bk needed maxsz pk,
  gstate_ok g ->
  let '(g1, b, pooled) := act_get_buf g bk needed maxsz pk in
  gstate_ok g1 /\ needed <= b_cap b.
Proof.
  intros g bk needed maxsz pk G. unfold act_get_buf.
  pose proof (get_bp_ok g bk G) as BP.
  destruct (pool_index (bp_sizes (get_bp g bk)) needed maxsz) as [idx|] eqn:PI.
  - apply pool_index_spec in PI. destruct PI as (PI1 & PI2 & _).
    destruct (take pk (nth idx (bp_pools (get_bp g bk)) [])) as [[b rest]|] eqn:T.
    + apply take_spec in T. destruct T as [T1 T2].
      assert (G1 : gstate_ok (set_bp g bk {| bp_sizes := bp_sizes (get_bp g bk);
                                              bp_pools := upd_nth idx rest (bp_pools (get_bp g bk)) |})).
      { apply set_bp_ok; auto. apply bp_upd_ok; auto. }
      destruct (Z.leb_spec needed (b_cap b)); cbn; split; auto; lia.
    + cbn. split; [apply bump_next_ok; auto|lia].
  - cbn. split; [apply bump_next_ok; auto|lia].
Qed.
(* the capacity check of get never fails on a pooled buffer: nothing is dropped *)
Lemma act_get_buf_no_drop : forall g bk needed maxsz pk idx b rest,
  gstate_ok g -> pool_index (bp_sizes (get_bp g bk)) needed maxsz = Some idx ->
  take pk (nth idx (bp_pools (get_bp g bk)) []) = Some (b, rest) -> needed <= b_cap b.
Proof.
  intros g bk needed maxsz pk idx b rest G PI T.
  pose proof (get_bp_ok g bk G) as BP. apply pool_index_spec in PI. apply take_spec in T.
  destruct T as [T1 _]. rewrite (BP idx b T1). tauto.
Qed.
(* put files a buffer under the class whose size equals its capacity, or drops it *)
Lemma act_put_buf_ok : forall g bk b, gstate_ok g -> gstate_ok (act_put_buf g bk b).
Proof.
  intros g bk b G. unfold act_put_buf. pose proof (get_bp_ok g bk G) as BP.
  destruct (pool_index (bp_sizes (get_bp g bk)) (b_cap b) (-1)) as [idx|]; [|auto].
  destruct (Z.eqb_spec (b_cap b) (nth idx (bp_sizes (get_bp g bk)) 0)); [|auto].
  apply set_bp_ok; auto. apply bp_upd_ok; auto.
  intros b' [X|X]; [subst; auto|auto].
Qed.

Lemma act_cache_get_ok : forall g re key,
  gstate_ok g -> gstate_ok (fst (act_cache_get g re key)) /\ coh re key (snd (act_cache_get g re key)).
Proof.
  intros g re key G. unfold act_cache_get.
  pose proof G as (A & B & C). destruct (A re) as [P Q].
  pose proof (cache_get_ok re key (rs_cache (get_rs g re)) Q) as [X Y].
  destruct (cache_get key (rs_cache (get_rs g re))) as [c o]; cbn [fst snd] in *.
  split; [|exact Y]. apply set_rs_ok; [exact G|]. split; auto.
Qed.
Lemma act_cache_add_ok : forall g re key d,
  gstate_ok g -> e_parse_repl E re key = Ok d -> gstate_ok (act_cache_add (e_cfg E re) g re key d).
Proof.
  intros g re key d G H. unfold act_cache_add. pose proof G as (A & _). destruct (A re) as [P Q].
  apply set_rs_ok; auto. split; [exact P|]. cbn. apply cache_add_ok; auto.
Qed.

Lemma nth_map_default : forall {A B} (f : A -> B) l i d d', f d = d' -> nth i (map f l) d' = f (nth i l d).
Proof. intros A B f l i d d' H. rewrite <- H. apply map_nth. Qed.

(* a garbage collection only removes pooled objects *)
Lemma gc_bp_ok : forall f bp, bp_ok bp -> bp_ok (gc_bp f bp).
Proof.
  intros f bp H idx b X. unfold gc_bp in X; cbn [bp_pools bp_sizes] in *.
  rewrite (nth_map_default _ _ _ (@nil buffer)) in X by reflexivity. apply filter_idx_incl in X. auto.
Qed.

Lemma gc_ok : forall f g, gstate_ok g -> gstate_ok (gc f g).
Proof.
  intros f g (A & B & C). split; [|split; apply gc_bp_ok; assumption].
  intros re. unfold get_rs, gc; cbn [g_res]. rewrite (nth_map_default _ _ _ rs_empty) by reflexivity.
  destruct (A re) as [P Q]. split; [|exact Q]. exact (incl_Forall (filter_idx_incl _ _ _) P).
Qed.

End WithEnv.

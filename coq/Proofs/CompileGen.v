(* compile_correct for an arbitrary capture relation [R] with a [caps_view]: the induction over fuel and
   tree that assembles the per-node lemmas (CompileStage1/Loop/CharLoop/Multi/Stage4/Cond/Ref), and the
   whole program  Lazybranch Lend ; [root] ; Lend: Stop.
   The trees are the [supported2] ones whose nodes all satisfy [A]; [A] says which group numbers are
   slots and is where an instance may rule balancing captures out (CompileProofs) or bring the lemma for
   them (CompileBal). *)
From Verif Require Import Base.Prelude Model.Tree Model.Spec Model.VM Model.Writer Gen.RunnerGen
  Proofs.SpecProofs Proofs.SpecBoundsProofs Proofs.MaskProofs
  Proofs.VMU Proofs.VMUOps Proofs.VMUOps2 Proofs.VMUOps6 Proofs.VMUOps3 Proofs.CompileBase
  Proofs.CompileDefs Proofs.CompileBalDefs Proofs.CompileStage1 Proofs.CompileLoop Proofs.CompileCharLoop
  Proofs.CompileMulti Proofs.CompileStage4 Proofs.CompileCond Proofs.CompileRef.
From Coq Require Import Relations ZifyBool.

Lemma cc_matched0 M : vm_is_matched 0 M = Some true ->
  match mc_get 0 M with Some a => 0 <? zlen a | None => false end = true.
Proof.
  unfold vm_is_matched. cbn [Z.ltb Z.compare]. destruct (mc_get 0 M) as [a|]; [|discriminate].
  destruct (zlen a =? 0) eqn:E; [discriminate|]. intros _. pose proof (zlen_nonneg a). lia.
Qed.

Section CG.
Variable e : env.
Variable p : program.
Hypothesis tc_nonneg : 0 <= trackcount p.
Hypothesis Htlen : tlen e <= INF.
Variable R : caps_t -> list (list Z) -> Prop.
Hypothesis HR : caps_view e p R.
Variable A : node -> Prop.
Hypothesis A_grp : forall t, A t -> grp_ok_node2 (capsize p) t.

Notation ok_nodeR := (CompileDefs.ok_nodeR e p R).

Hypothesis Hbal : forall f o g u r, u <> -1 -> A (NCapture o g u r) ->
  ok_nodeR f r -> loops_min_ok r -> ok_nodeR (S f) (NCapture o g u r).

Definition ok_at (f : nat) : Prop := forall t, supported2 t = true -> sb_all A t -> ok_nodeR f t.

Lemma cc_list_ok f l : ok_at f -> supported2_list l = true -> sb_all_list A l -> Forall (ok_nodeR f) l.
Proof.
  intros Hok. induction l as [|x l IH]; cbn [supported2_list]; intros Hs Ha; [constructor|].
  apply andb_prop in Hs. destruct Hs as [Hx Hl]. destruct Ha as [Hax Hal].
  constructor; [apply Hok; assumption|apply IH; assumption].
Qed.

Lemma cc_list_min_ok l : supported2_list l = true -> Forall loops_min_ok l.
Proof.
  intros Hs. eapply Forall_impl; [|apply c2_supported_list_forall; exact Hs].
  intros t. apply c2_supported_min_ok.
Qed.

Theorem cc_all_ok : forall f, Z.of_nat f <= INF -> ok_at f.
Proof.
  induction f as [|f IH]; intros Hf t Hs Hg.
  - intros s res Hsem. discriminate Hsem.
  - assert (IH' : ok_at f) by (apply IH; lia). clear IH.
    pose proof (A_grp t (sb_all_here A t Hg)) as Hg0.
    destruct t; try discriminate Hs; cbn [supported2] in Hs; cbn [grp_ok_node2] in Hg0; destruct Hg as [Ha Hg].
    + apply cc_char; exact tc_nonneg.
    + apply cc_charloop; try assumption; lia.
    + apply cc_multi; exact tc_nonneg.
    + apply cc_ref; assumption.
    + apply cc_anchor; exact tc_nonneg.
    + apply cc_nothing; exact tc_nonneg.
    + apply cc_empty.
    + apply cc_bump.
    + apply cc_concat; [apply cc_list_ok; assumption|apply cc_list_min_ok; exact Hs].
    + apply andb_prop in Hs. destruct Hs as [Hne Hs].
      apply cc_alternate; [exact tc_nonneg|destruct l; discriminate|apply cc_list_ok; assumption].
    + apply andb_prop in Hs. destruct Hs as [Hs Hsr]. apply andb_prop in Hs. destruct Hs as [Hm Hn].
      apply cc_loop; try assumption; try lia; [apply IH'; assumption|apply c2_supported_min_ok; exact Hsr].
    + pose proof (IH' t Hs Hg) as Hr. pose proof (c2_supported_min_ok t Hs) as Hmin.
      destruct (u =? -1) eqn:Eu.
      * apply Z.eqb_eq in Eu. subst u. apply cc_capture; assumption.
      * apply Z.eqb_neq in Eu. apply Hbal; assumption.
    + apply cc_group. apply IH'; assumption.
    + apply cc_poslook; [exact tc_nonneg|]. apply IH'; assumption.
    + apply cc_neglook; [exact tc_nonneg|]. apply IH'; assumption.
    + apply cc_atomic; [exact tc_nonneg|]. apply IH'; assumption.
    + apply andb_prop in Hs. destruct Hs as [Hsy Hsn]. destruct Hg as [Hgy Hgn].
      apply cc_backrefcond; [exact tc_nonneg|exact HR|apply IH'; assumption| |exact Hg0].
      destruct no as [x|]; [apply IH'; assumption|exact I].
    + apply andb_prop in Hs. destruct Hs as [Hs Hsn]. apply andb_prop in Hs. destruct Hs as [Hsc Hsy].
      destruct Hg as [Hgc [Hgy Hgn]].
      apply cc_exprcond; [exact tc_nonneg|apply IH'; assumption|apply c2_supported_min_ok; exact Hsc
                         |apply IH'; assumption|].
      destruct no as [x|]; [apply IH'; assumption|exact I].
Qed.

(* ---------- the whole program: Lazybranch Lend ; root ; Lend: Stop ---------- *)
Theorem cc_top : forall fuel o body t0 r,
  let root := NCapture o 0 (-1) body in
  let M0 := repeat [] (Z.to_nat (capsize p)) in
  let stop := 2 + csize cfg0 root in
  codes p = fst (compile cfg0 root) -> strings p = snd (compile cfg0 root) ->
  supported2 root = true -> sb_all A root -> 0 <= t0 <= tlen e ->
  Z.of_nat fuel <= INF ->
  attempt e fuel root t0 = Ok r ->
  code_at p stop = Some Stop /\
  exists t T S C M,
    VMU.usteps e p (VMU.mk 0 0 t0 [] [] [] M0) (VMU.mk stop 0 t T S C M) /\
    VMU.ustep e p (VMU.mk stop 0 t T S C M) = Ok (Done (VMU.mk stop 0 t T S C M)) /\
    match r with
    | Some q => t = pos q /\ R (caps q) M /\ matched0 (VMU.mk stop 0 t T S C M) = true
    | None => M = M0 /\ T = [] /\ S = [] /\ C = [] /\ matched0 (VMU.mk stop 0 t T S C M) = false
    end.
Proof.
  intros fuel o body t0 r root M0 stop Hcodes Hstrings Hs Hg Ht0 Hfuel Hatt.
  unfold attempt in Hatt. apply sp_bind_ok in Hatt. destruct Hatt as [l [Hsem Hr]]. injection Hr as <-.
  pose proof (has_code_self p) as Hc. rewrite Hcodes in Hc. unfold compile in Hc, Hstrings.
  pose proof (emit_length cfg0 root 2 []) as Lr.
  destruct (emit cfg0 root 2 []) as [cr tbl'] eqn:Er. cbn [fst snd] in Lr, Hc, Hstrings.
  apply has_code_cons in Hc. destruct Hc as [H0 Hc]. apply has_code_cons in Hc. destruct Hc as [H1 Hc].
  apply has_code_app in Hc. destruct Hc as [Hcr Hc]. apply has_code_cons in Hc. destruct Hc as [Hstop _].
  replace (0 + 1) with 1 in * by lia. replace (1 + 1) with 2 in * by lia.
  rewrite Lr in *. fold stop in H1, Hstop.
  split; [exact Hstop|].
  assert (Hg0 : 0 <= 0 < capsize p) by (apply (A_grp root), sb_all_here; exact Hg).
  assert (Hst : st_ok e {| pos := t0; caps := [] |}) by (apply sb_init_ok; exact Ht0).
  assert (Hex2 : code_ex p 2).
  { eapply cc_code_ex_start; [exact Hcr|]. rewrite Lr. exists Stop. exact Hstop. }
  destruct Hex2 as [w2 Hw2].
  assert (Hcap : 0 <= capsize p) by lia.
  assert (G : leadsR e p R stop [0] [] [] [] M0 (mkr 2 0 t0 [0] [] [] M0) l).
  { apply (cc_all_ok fuel Hfuel root Hs Hg {| pos := t0; caps := [] |} l Hsem Hst 2 [] [0] [] [] M0).
    - rewrite Er. exact Hcr.
    - exists Stop. exact Hstop.
    - eapply track_ok_cons. exact H0.
    - apply (cv_init _ _ _ HR). exact Hcap.
    - rewrite Er. cbn [snd]. intros i str Hi. rewrite Hstrings. exact Hi. }
  assert (Hstep1 : VMU.usteps e p (VMU.mk 0 0 t0 [] [] [] M0) (mkr 2 0 t0 [0] [] [] M0 t0)).
  { apply usteps_one. unfold mkr. cbn [app]. eapply ustep_lazybranch; eassumption. }
  assert (HlM0 : zlen M0 = capsize p) by (unfold M0, zlen; rewrite repeat_length; lia).
  destruct l as [|q l'].
  - cbn [leadsR] in G. destruct G as (np & T' & t & HT & Hs1). injection HT as <- <-.
    destruct (Hs1 t0) as [r' Hr']. rewrite bkr_pos in Hr' by lia. unfold mkr in Hr' at 2. cbn [app] in Hr'.
    exists r', [], [], [], M0.
    split.
    { eapply usteps_trans; [exact Hstep1|]. eapply usteps_trans; [exact Hr'|]. apply usteps_one.
      eapply ustep_lazybranch_back; eassumption. }
    split. { apply ustep_stop. exact Hstop. }
    repeat (split; [reflexivity|]).
    unfold matched0, mc_get. cbn [mcaps VMU.mk]. rewrite (cc_znth_nth M0 0 []) by lia.
    unfold M0. rewrite nth_repeat. reflexivity.
  - assert (Hstq : st_ok e q).
    { eapply cc_res_ok_in; [apply c2_supported_min_ok; exact Hs|exact Hsem|exact Hst|left; reflexivity]. }
    cbn [leadsR] in G. destruct G as (T' & C' & M' & Hcq & Hu & Hk & Hs1 & _).
    destruct (Hs1 t0) as [r' Hr']. unfold mkr in Hr' at 2.
    exists (pos q), ((T' ++ [0]) ++ [r']), [], (C' ++ []), M'.
    split. { eapply usteps_trans; [exact Hstep1|exact Hr']. }
    split. { apply ustep_stop. exact Hstop. }
    split; [reflexivity|]. split; [exact Hcq|].
    (* group 0 was pushed last, so isMatched(0) holds in the final arrays *)
    unfold root in Hsem. destruct fuel as [|f]; [discriminate Hsem|]. rewrite cc_sem_capture in Hsem.
    apply sp_bindr_ok in Hsem. destruct Hsem as [la [_ Hb]].
    apply sb_bindl_singleton in Hb. destruct la as [|s' la']; [discriminate Hb|]. cbn [map] in Hb. injection Hb as -> _.
    pose proof (cv_matched _ _ _ HR _ M' 0 Hcq Hg0 (proj2 Hstq)) as Hm.
    unfold is_matched, cap_push in Hm. cbn [caps] in Hm. rewrite sb_cap_get_set_same in Hm.
    apply cc_matched0. exact Hm.
Qed.

End CG.

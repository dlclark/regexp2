(* The interpreter with unbounded stacks: [ustep] is VM.step applied to a state whose stack
   capacities have been re-padded so that no capacity check binds.  It reuses the validated
   VM.step verbatim; the link back to bounded capacities (a concrete step that succeeds is a ustep)
   is Proofs/VMUBridge.v (step_is_ustep).  compile_correct (Proofs/CompileProofs.v) is stated over [usteps]. *)
From Verif Require Import Base.Prelude Model.Tree Model.Spec Model.VM Model.Writer Gen.RunnerGen.
From Verif Require Export Proofs.ListFacts.
From Coq Require Import Relations ZifyBool.

Section U.
Variable e : env.
Variable p : program.
Hypothesis tc_nonneg : 0 <= trackcount p.

Definition pad : Z := trackcount p * G_ensure_factor + 16.

Definition mk (pc0 m t : Z) (T S C : list Z) (M : list (list Z)) : vm :=
  {| pc := pc0; mode := m; tp := t; track := T; tcap := 0; stack := S; scap := 0; crawl := C; mcaps := M |}.

Definition repad (s : vm) : vm :=
  {| pc := pc s; mode := mode s; tp := tp s; track := track s; tcap := zlen (track s) + pad;
     stack := stack s; scap := zlen (stack s) + pad; crawl := crawl s; mcaps := mcaps s |}.

Definition norm (s : vm) : vm := mk (pc s) (mode s) (tp s) (track s) (stack s) (crawl s) (mcaps s).

Definition ustep (s : vm) : res outcome :=
  match step e p (-1) (repad s) with
  | Ok (Next s') => Ok (Next (norm s'))
  | Ok (Done s') => Ok (Done (norm s'))
  | r => r
  end.

(* what [ustep] does to the result of the step *)
Definition unorm (r : res outcome) : res outcome :=
  match r with
  | Ok (Next s') => Ok (Next (norm s'))
  | Ok (Done s') => Ok (Done (norm s'))
  | Ok (Fail c) => Ok (Fail c)
  | Ok (Crashed w) => Ok (Crashed w)
  | Err c => Err c
  | Crash w => Crash w
  | Fuel => Fuel
  end.

Definition ustep1 (s s' : vm) : Prop := ustep s = Ok (Next s').
Definition usteps : vm -> vm -> Prop := clos_refl_trans vm ustep1.

Lemma usteps_refl s : usteps s s. Proof. apply rt_refl. Qed.
Lemma usteps_one s s' : ustep1 s s' -> usteps s s'. Proof. apply rt_step. Qed.
Lemma usteps_trans a b c : usteps a b -> usteps b c -> usteps a c. Proof. apply rt_trans. Qed.
Lemma usteps_step a b c : ustep1 a b -> usteps b c -> usteps a c.
Proof. intros H1 H2. eapply rt_trans; [apply rt_step; exact H1 | exact H2]. Qed.


(* ---------- helpers evaluated on re-padded states ---------- *)

Lemma tpush_ok s ws : zlen (track s) + zlen ws <= tcap s -> tpush s ws = Ok (set_track s (ws ++ track s)).
Proof. intros H. unfold tpush. replace (tcap s <? zlen (track s) + zlen ws) with false by lia. reflexivity. Qed.
Lemma spush_ok s ws : zlen (stack s) + zlen ws <= scap s -> spush s ws = Ok (set_stack s (ws ++ stack s)).
Proof. intros H. unfold spush. replace (scap s <? zlen (stack s) + zlen ws) with false by lia. reflexivity. Qed.
Lemma advance_ok s i w : code_at p (pc s + i + 1) = Some w -> advance p s i = Ok (set_pc s (pc s + i + 1) 0).
Proof. intros H. unfold advance. rewrite H. reflexivity. Qed.
Lemma advance_at s i n w : n = pc s + i + 1 -> code_at p n = Some w -> advance p s i = Ok (set_pc s n 0).
Proof. intros -> H. apply (advance_ok s i w H). Qed.
Lemma opnd_at s i a v : a = pc s + i + 1 -> code_at p a = Some v -> opnd p s i = Ok v.
Proof. intros -> H. unfold opnd. rewrite H. reflexivity. Qed.
Lemma ensure_ok s : trackcount p * G_ensure_factor <= scap s - zlen (stack s) ->
  trackcount p * G_ensure_factor <= tcap s - zlen (track s) -> ensure_storage p (-1) s = Ok s.
Proof.
  intros H1 H2. unfold ensure_storage.
  replace (scap s - zlen (stack s) <? trackcount p * G_ensure_factor) with false by lia.
  replace (tcap s - zlen (track s) <? trackcount p * G_ensure_factor) with false by lia. reflexivity.
Qed.
Lemma goto_ok s n w : code_at p n = Some w ->
  trackcount p * G_ensure_factor <= scap s - zlen (stack s) ->
  trackcount p * G_ensure_factor <= tcap s - zlen (track s) -> goto p (-1) s n = Ok (set_pc s n 0).
Proof.
  intros H H1 H2. unfold goto. destruct (n <=? pc s).
  - rewrite ensure_ok by assumption. cbn [bind]. rewrite H. reflexivity.
  - cbn [bind]. rewrite H. reflexivity.
Qed.
(* backtrack on a state whose track is np :: T *)
Lemma backtrack_ok s np T w :
  track s = np :: T -> code_at p (Z.abs np) = Some w ->
  trackcount p * G_ensure_factor <= scap s - zlen (stack s) ->
  trackcount p * G_ensure_factor <= tcap s - zlen T ->
  backtrack p (-1) s = Ok (set_pc (set_track s T) (Z.abs np) (if np <? 0 then Back2Bit else BackBit)).
Proof.
  intros Ht Hc H1 H2. unfold backtrack. rewrite Ht.
  destruct (np <? 0) eqn:E.
  - assert (Ha : Z.abs np = - np) by lia. rewrite Ha in *. rewrite Hc.
    destruct (- np <? pc s); [rewrite ensure_ok by (cbn; assumption)|]; reflexivity.
  - assert (Ha : Z.abs np = np) by lia. rewrite Ha in *. rewrite Hc.
    destruct (np <? pc s); [rewrite ensure_ok by (cbn; assumption)|]; reflexivity.
Qed.

Lemma brk_ok s np T w :
  track s = np :: T -> code_at p (Z.abs np) = Some w ->
  trackcount p * G_ensure_factor <= scap s - zlen (stack s) ->
  trackcount p * G_ensure_factor <= tcap s - zlen T ->
  brk p (-1) s = Ok (Next (set_pc (set_track s T) (Z.abs np) (if np <? 0 then Back2Bit else BackBit))).
Proof. intros. unfold brk. erewrite backtrack_ok by eassumption. reflexivity. Qed.

End U.

(* ---------- the code word of an opcode with its direction / case bits (Writer.bits_of) ---------- *)
Lemma cp_land_bits base o : 0 <= base < 64 -> Z.land (base + bits_of o) 63 = base.
Proof.
  intros Hb. change 63 with (Z.ones 6). rewrite Z.land_ones by lia. change (2 ^ 6) with 64.
  unfold bits_of, RtlBit, CiBit. destruct (is_rtl o), (is_ci o); Z.div_mod_to_equations; lia.
Qed.

Lemma land_pow2 x n : 0 <= n -> Z.land x (2 ^ n) = if Z.testbit x n then 2 ^ n else 0.
Proof.
  intros Hn. apply Z.bits_inj'. intros i Hi. rewrite Z.land_spec, Z.pow2_bits_eqb by exact Hn.
  destruct (Z.eqb_spec n i) as [<-|Hne].
  - destruct (Z.testbit x n); [rewrite Z.pow2_bits_true by exact Hn; reflexivity|rewrite Z.bits_0; reflexivity].
  - rewrite andb_false_r. destruct (Z.testbit x n); [rewrite Z.pow2_bits_false by lia; reflexivity|rewrite Z.bits_0; reflexivity].
Qed.

Lemma rtl_of_bits base o : 0 <= base < 64 -> rtl_of (base + bits_of o) = is_rtl o.
Proof.
  intros Hb. unfold rtl_of, has_bit, RtlBit. change 64 with (2 ^ 6). rewrite land_pow2 by lia.
  rewrite Z.testbit_odd, Z.shiftr_div_pow2 by lia. change (2 ^ 6) with 64.
  unfold bits_of, RtlBit, CiBit. destruct (is_rtl o), (is_ci o);
    [replace ((base + (64 + 512)) / 64) with 9 by (Z.div_mod_to_equations; lia)
    |replace ((base + (64 + 0)) / 64) with 1 by (Z.div_mod_to_equations; lia)
    |replace ((base + (0 + 512)) / 64) with 8 by (Z.div_mod_to_equations; lia)
    |replace ((base + (0 + 0)) / 64) with 0 by (Z.div_mod_to_equations; lia)]; reflexivity.
Qed.

Lemma ci_of_bits base o : 0 <= base < 64 -> ci_of (base + bits_of o) = is_ci o.
Proof.
  intros Hb. unfold ci_of, has_bit, CiBit. change 512 with (2 ^ 9). rewrite land_pow2 by lia.
  rewrite Z.testbit_odd, Z.shiftr_div_pow2 by lia. change (2 ^ 9) with 512.
  unfold bits_of, RtlBit, CiBit. destruct (is_rtl o), (is_ci o);
    [replace ((base + (64 + 512)) / 512) with 1 by (Z.div_mod_to_equations; lia)
    |replace ((base + (64 + 0)) / 512) with 0 by (Z.div_mod_to_equations; lia)
    |replace ((base + (0 + 512)) / 512) with 1 by (Z.div_mod_to_equations; lia)
    |replace ((base + (0 + 0)) / 512) with 0 by (Z.div_mod_to_equations; lia)]; reflexivity.
Qed.

(* the opcode families of the writer lie below the bits *)
Lemma char_op_range k : 0 <= char_op k < 64.
Proof. destruct k; cbv; split; congruence. Qed.
Lemma rep_op_range k : 0 <= rep_op k < 64.
Proof. destruct k; cbv; split; congruence. Qed.
Lemma loop_op_range k l : 0 <= loop_op k l < 64.
Proof. destruct k, l; cbv; split; congruence. Qed.
Lemma multi_range : 0 <= Multi < 64. Proof. cbv; split; congruence. Qed.
Lemma ref_range : 0 <= Ref < 64. Proof. cbv; split; congruence. Qed.

(* closes the numeric side conditions "enough room after re-padding" *)
Ltac room :=
  cbn [repad mk set_track set_stack set_tp set_pc set_caps pc mode tp track stack crawl mcaps tcap scap app];
  rewrite ?zlen_cons, ?zlen_nil, ?zlen_app; unfold pad, G_ensure_factor;
  repeat match goal with |- context [zlen ?l] => lazymatch goal with H : 0 <= zlen l |- _ => fail | _ => pose proof (zlen_nonneg l) end end;
  lia.

(* Proofs for C09: the replace drivers and Split compute the fold of the match sequence. *)
From Verif Require Import Base.Prelude Gen.ReplaceGen Model.Escape Model.Replace.
From Verif Require Import Proofs.ListFacts.
From Coq Require Import ZifyBool.

(** * The two copies of the special rule numbers agree (replace.go vs syntax/replacerdata.go)   *)

Lemma consts_agree :
  r_replaceSpecials = s_replaceSpecials /\ r_replaceLeftPortion = s_replaceLeftPortion /\
  r_replaceRightPortion = s_replaceRightPortion /\ r_replaceLastGroup = s_replaceLastGroup /\
  r_replaceWholeString = s_replaceWholeString.
Proof. repeat split; reflexivity. Qed.

Lemma zslice_empty {A} (l : list A) (a b : Z) : b <= a -> zslice l a b = [].
Proof. intros H. unfold zslice. replace (Z.to_nat (b - a)) with O by lia. reflexivity. Qed.

Lemma zslice_full {A} (l : list A) : zslice l 0 (zlen l) = l.
Proof.
  unfold zslice, zlen. cbn [Z.to_nat skipn]. rewrite Z.sub_0_r, Nat2Z.id. apply firstn_all.
Qed.

Lemma zslice_to_end {A} (l : list A) (a : Z) : zslice l a (zlen l) = skipn (Z.to_nat a) l.
Proof.
  unfold zslice, zlen. apply firstn_all2. rewrite skipn_length. lia.
Qed.

Lemma zslice_from_0 {A} (l : list A) (b : Z) : zslice l 0 b = firstn (Z.to_nat b) l.
Proof. unfold zslice. cbn [Z.to_nat skipn]. rewrite Z.sub_0_r. reflexivity. Qed.

Lemma zslice_app {A} (l : list A) (a b c : Z) :
  0 <= a -> a <= b -> b <= c -> zslice l a b ++ zslice l b c = zslice l a c.
Proof.
  intros Ha Hab Hbc. unfold zslice.
  replace (Z.to_nat (c - a)) with (Z.to_nat (b - a) + Z.to_nat (c - b))%nat by lia.
  rewrite firstn_add. f_equal. rewrite skipn_skipn.
  replace (Z.to_nat a + Z.to_nat (b - a))%nat with (Z.to_nat b) by lia. reflexivity.
Qed.

Lemma last_opt_app {A} (l : list A) (x : A) : last_opt (l ++ [x]) = Some x.
Proof.
  induction l as [|y l IH]; [reflexivity|].
  cbn [app last_opt]. destruct (l ++ [x]) eqn:E; [destruct l; discriminate|]. exact IH.
Qed.

Lemma znth_last {A} (l : list A) : l <> [] -> znth l (zlen l - 1) = last_opt l.
Proof.
  intros Hne. destruct (exists_last Hne) as (l' & x & ->).
  rewrite last_opt_app. unfold znth. rewrite zlen_app.
  change (zlen [x]) with 1. pose proof (zlen_nonneg l').
  destruct (zlen l' + 1 - 1 <? 0) eqn:E; [lia|].
  replace (Z.to_nat (zlen l' + 1 - 1)) with (length l') by (unfold zlen; lia).
  rewrite nth_error_app2 by lia. rewrite Nat.sub_diag. reflexivity.
Qed.

Lemma znth_some_lt {A} (l : list A) (i : Z) : 0 <= i -> i < zlen l -> exists x, znth l i = Some x /\ In x l.
Proof.
  intros H0 H1. unfold znth. destruct (i <? 0) eqn:E; [lia|].
  destruct (nth_error l (Z.to_nat i)) eqn:N.
  - eexists; split; [reflexivity|]. eapply nth_error_In; eauto.
  - apply nth_error_None in N. unfold zlen in H1. lia.
Qed.

Lemma znth_app_r0 {A} (l : list A) (x : A) : znth (l ++ [x]) (zlen l) = Some x.
Proof.
  unfold znth. pose proof (zlen_nonneg l). destruct (zlen l <? 0) eqn:E; [lia|].
  unfold zlen. rewrite Nat2Z.id, nth_error_app2 by lia. rewrite Nat.sub_diag. reflexivity.
Qed.

Lemma zfirstn_nonpos {A} (n : Z) (l : list A) : n <= 0 -> zfirstn n l = [].
Proof. intros H. destruct l; cbn [zfirstn]; [reflexivity|]. destruct (n <=? 0) eqn:E; [reflexivity|lia]. Qed.

Lemma zfirstn_cons {A} (n : Z) (x : A) (l : list A) : 0 < n -> zfirstn n (x :: l) = x :: zfirstn (n - 1) l.
Proof. intros H. cbn [zfirstn]. destruct (n <=? 0) eqn:E; [lia|reflexivity]. Qed.

Lemma zfirstn_all {A} (n : Z) (l : list A) : zlen l <= n -> zfirstn n l = l.
Proof.
  revert n. induction l as [|x l IH]; intros n H; [reflexivity|].
  rewrite zlen_cons in H. pose proof (zlen_nonneg l).
  rewrite zfirstn_cons by lia. rewrite IH by lia. reflexivity.
Qed.

Lemma zfirstn_firstn {A} (n : Z) (l : list A) : zfirstn n l = firstn (Z.to_nat n) l.
Proof.
  revert n. induction l as [|x l IH]; intros n.
  - rewrite firstn_nil. reflexivity.
  - destruct (Z_le_gt_dec n 0).
    + rewrite zfirstn_nonpos by lia. replace (Z.to_nat n) with O by lia. reflexivity.
    + rewrite zfirstn_cons by lia. replace (Z.to_nat n) with (S (Z.to_nat (n - 1))) by lia.
      cbn [firstn]. rewrite IH. reflexivity.
Qed.

Lemma Forall_zfirstn {A} (P : A -> Prop) (n : Z) (l : list A) : Forall P l -> Forall P (zfirstn n l).
Proof.
  intros H. revert n. induction H as [|x l Hx Hl IH]; intros n; [constructor|].
  cbn [zfirstn]. destruct (n <=? 0); [constructor|]. constructor; [exact Hx|apply IH].
Qed.

Lemma write_range_ok (text : list Z) (lo hi : Z) :
  0 <= lo -> hi <= zlen text -> write_range text lo hi = Ok (zslice text lo hi).
Proof.
  intros H0 H1. unfold write_range. destruct (hi <=? lo) eqn:E.
  - rewrite zslice_empty by lia. reflexivity.
  - destruct ((lo <? 0) || (zlen text <? hi)) eqn:E2; [lia|reflexivity].
Qed.

Lemma slice_expr_ok (text : list Z) (lo hi : Z) :
  0 <= lo -> lo <= hi -> hi <= zlen text -> slice_expr text lo hi = Ok (zslice text lo hi).
Proof.
  intros H0 H1 H2. unfold slice_expr.
  destruct ((0 <=? lo) && (lo <=? hi) && (hi <=? zlen text)) eqn:E; [reflexivity|lia].
Qed.

(** * One match: replacementImpl computes [expand]                                              *)

Lemma cap_in_bounds_last (len : Z) (caps : list (Z * Z)) (i l : Z) :
  Forall (cap_in_bounds len) caps -> last_opt caps = Some (i, l) -> 0 <= i /\ 0 <= l /\ i + l <= len.
Proof.
  intros HF HL. assert (In (i, l) caps) as HI.
  { clear HF. induction caps as [|c caps IH]; [discriminate|].
    cbn [last_opt] in HL. destruct caps as [|c' caps'].
    - inversion HL; subst. left; reflexivity.
    - right. apply IH. exact HL. }
  rewrite Forall_forall in HF. apply (HF _ HI).
Qed.

Lemma group_value_ok (text : list Z) (m : mtch) (k : Z) (caps : list (Z * Z)) :
  wf_match (zlen text) m -> znth (m_groups m) k = Some caps ->
  In caps (m_groups m) ->
  group_value text m k = Ok (cap_text text caps).
Proof.
  intros (_ & _ & _ & _ & HF) Hk HI. unfold group_value, cap_text. rewrite Hk.
  destruct (last_opt caps) as [[i l]|] eqn:HL; [|reflexivity].
  rewrite Forall_forall in HF. specialize (HF _ HI).
  destruct (cap_in_bounds_last _ _ _ _ HF HL) as (? & ? & ?).
  apply write_range_ok; lia.
Qed.

Lemma last_opt_In {A} (l : list A) (x : A) : last_opt l = Some x -> In x l.
Proof.
  induction l as [|y l IH]; [discriminate|]. cbn [last_opt]. destruct l as [|z l'].
  - intros H; inversion H; left; reflexivity.
  - intros H. right. apply IH. exact H.
Qed.

Lemma last_opt_nonempty {A} (l : list A) : l <> [] -> exists x, last_opt l = Some x.
Proof.
  intros H. destruct (exists_last H) as (l' & x & ->). exists x. apply last_opt_app.
Qed.

Lemma rule_piece_ok (d : rdata) (text : list Z) (m : mtch) (r : Z) (t : rtok) :
  wf_match (zlen text) m ->
  rule_ok (zlen (rd_strings d)) (group_count m) r ->
  tok_of_rule (rd_strings d) r = Some t ->
  rule_piece d text m r = Ok (tok_text m text t).
Proof.
  intros Hwf (Hs & Hg) Ht. pose proof Hwf as (Hi & Hl & Hb & Hne & HF).
  pose proof (zlen_nonneg text) as HL0.
  unfold rule_piece, tok_of_rule in *.
  unfold r_replaceSpecials, r_replaceLeftPortion, r_replaceRightPortion, r_replaceLastGroup, r_replaceWholeString.
  change (Z.opp 4) with (-4).
  destruct (0 <=? r) eqn:E0.
  - destruct (znth (rd_strings d) r) eqn:N; [|discriminate]. inversion Ht; subst. reflexivity.
  - destruct (r <? -4) eqn:E4.
    + destruct (r =? -1) eqn:E1; [lia|]. destruct (r =? -2) eqn:E2; [lia|].
      destruct (r =? -3) eqn:E3; [lia|]. destruct (r =? -4) eqn:E5; [lia|].
      assert (t = TGroup (-5 - r)) as -> by congruence. cbv beta iota delta [tok_text].
      replace (-4 - 1 - r) with (-5 - r) by lia.
      destruct (znth_some_lt (m_groups m) (-5 - r)) as (caps & Hk & HI); [lia|unfold group_count in Hg; lia|].
      rewrite Hk. apply group_value_ok; assumption.
    + assert (r = -1 \/ r = -2 \/ r = -3 \/ r = -4) as Hr by lia.
      destruct Hr as [-> | [-> | [-> | ->]]]; cbn in Ht; inversion Ht; subst t; cbv beta iota delta [tok_text].
      * change (-4 - 1 - -1) with (-4). change (-4 =? -1) with false. change (-4 =? -2) with false.
        change (-4 =? -3) with false. change (-4 =? -4) with true. cbv beta iota.
        rewrite write_range_ok by lia. rewrite zslice_full. reflexivity.
      * change (-4 - 1 - -2) with (-3). change (-3 =? -1) with false. change (-3 =? -2) with false.
        change (-3 =? -3) with true. cbv beta iota.
        unfold group_count, group_value. rewrite znth_last by assumption.
        destruct (last_opt_nonempty _ Hne) as (caps & HL). rewrite HL.
        unfold cap_text. destruct (last_opt caps) as [[i l]|] eqn:HL2; [|reflexivity].
        rewrite Forall_forall in HF. specialize (HF _ (last_opt_In _ _ HL)).
        destruct (cap_in_bounds_last _ _ _ _ HF HL2) as (? & ? & ?). apply write_range_ok; lia.
      * change (-4 - 1 - -3) with (-2). change (-2 =? -1) with false. change (-2 =? -2) with true. cbv beta iota.
        rewrite write_range_ok by lia. rewrite zslice_to_end. reflexivity.
      * change (-4 - 1 - -4) with (-1). change (-1 =? -1) with true. cbv beta iota.
        rewrite write_range_ok by lia. rewrite zslice_from_0. reflexivity.
Qed.

Lemma toks_of_rules_app (strings : list (list Z)) (r1 r2 : list Z) (t1 t2 : list rtok) :
  toks_of_rules strings r1 = Some t1 -> toks_of_rules strings r2 = Some t2 ->
  toks_of_rules strings (r1 ++ r2) = Some (t1 ++ t2).
Proof.
  revert t1. induction r1 as [|r r1 IH]; intros t1 H1 H2.
  - inversion H1; subst. exact H2.
  - cbn [toks_of_rules app] in *. destruct (tok_of_rule strings r); [|discriminate].
    destruct (toks_of_rules strings r1) eqn:E; [|discriminate]. inversion H1; subst.
    rewrite (IH _ eq_refl H2). reflexivity.
Qed.

Lemma toks_of_rules_rev (strings : list (list Z)) (rules : list Z) (toks : list rtok) :
  toks_of_rules strings rules = Some toks -> toks_of_rules strings (rev rules) = Some (rev toks).
Proof.
  revert toks. induction rules as [|r rules IH]; intros toks H.
  - inversion H; subst. reflexivity.
  - cbn [toks_of_rules] in H. destruct (tok_of_rule strings r) eqn:Er; [|discriminate].
    destruct (toks_of_rules strings rules) eqn:E; [|discriminate]. inversion H; subst.
    cbn [rev]. apply toks_of_rules_app; [apply IH; reflexivity|].
    cbn [toks_of_rules]. rewrite Er. reflexivity.
Qed.

Lemma replacement_impl_go_ok (d : rdata) (text : list Z) (m : mtch) (rules : list Z) (toks : list rtok) (buf : list Z) :
  wf_match (zlen text) m ->
  Forall (rule_ok (zlen (rd_strings d)) (group_count m)) rules ->
  toks_of_rules (rd_strings d) rules = Some toks ->
  replacement_impl_go d text m rules buf = Ok (buf ++ expand toks m text).
Proof.
  intros Hwf. revert toks buf. induction rules as [|r rules IH]; intros toks buf HF Ht.
  - inversion Ht; subst. unfold expand. cbn. rewrite app_nil_r. reflexivity.
  - cbn [toks_of_rules] in Ht. destruct (tok_of_rule (rd_strings d) r) eqn:Er; [|discriminate].
    destruct (toks_of_rules (rd_strings d) rules) eqn:E; [|discriminate]. inversion Ht; subst.
    inversion HF; subst. cbn [replacement_impl_go].
    rewrite (rule_piece_ok _ _ _ _ _ Hwf H1 Er). cbn [bind].
    rewrite (IH _ _ H2 eq_refl). unfold expand. cbn [map concat]. rewrite app_assoc. reflexivity.
Qed.

Lemma replacement_impl_rtl_go_ok (d : rdata) (text : list Z) (m : mtch) (rules : list Z) (toks : list rtok) (al : list (list Z)) :
  wf_match (zlen text) m ->
  Forall (rule_ok (zlen (rd_strings d)) (group_count m)) rules ->
  toks_of_rules (rd_strings d) rules = Some toks ->
  replacement_impl_rtl_go d text m rules al = Ok (al ++ map (tok_text m text) toks).
Proof.
  intros Hwf. revert toks al. induction rules as [|r rules IH]; intros toks al HF Ht.
  - inversion Ht; subst. cbn. rewrite app_nil_r. reflexivity.
  - cbn [toks_of_rules] in Ht. destruct (tok_of_rule (rd_strings d) r) eqn:Er; [|discriminate].
    destruct (toks_of_rules (rd_strings d) rules) eqn:E; [|discriminate]. inversion Ht; subst.
    inversion HF; subst. cbn [replacement_impl_rtl_go].
    rewrite (rule_piece_ok _ _ _ _ _ Hwf H1 Er). cbn [bind].
    rewrite (IH _ _ H2 eq_refl). cbn [map]. rewrite <- app_assoc. reflexivity.
Qed.

Lemma data_ok_rules (d : rdata) (n : Z) (m : mtch) :
  data_ok d n -> group_count m = n -> Forall (rule_ok (zlen (rd_strings d)) (group_count m)) (rd_rules d).
Proof. intros H <-. exact H. Qed.

Lemma replacement_impl_ok (d : rdata) (toks : list rtok) (text : list Z) (m : mtch) (buf : list Z) :
  wf_match (zlen text) m -> data_ok d (group_count m) -> toks_of d = Some toks ->
  replacement_impl d text m buf = Ok (buf ++ expand toks m text).
Proof. intros. apply replacement_impl_go_ok; assumption. Qed.

Lemma replacement_impl_rtl_ok (d : rdata) (toks : list rtok) (text : list Z) (m : mtch) (al : list (list Z)) :
  wf_match (zlen text) m -> data_ok d (group_count m) -> toks_of d = Some toks ->
  replacement_impl_rtl d text m al = Ok (al ++ rev (map (tok_text m text) toks)).
Proof.
  intros Hwf Hd Ht. unfold replacement_impl_rtl.
  rewrite (replacement_impl_rtl_go_ok d text m (rev (rd_rules d)) (rev toks) al Hwf).
  - rewrite map_rev. reflexivity.
  - apply Forall_rev. exact Hd.
  - apply toks_of_rules_rev. exact Ht.
Qed.

(** * The fold over a region of the text                                                        *)

(* [fold_between f text lo hi ms]: the region [lo,hi) with the (ascending) matches ms replaced *)
Fixpoint fold_between (f : mtch -> list Z) (text : list Z) (lo hi : Z) (ms : list mtch) : list Z :=
  match ms with
  | [] => zslice text lo hi
  | m :: ms' => zslice text lo (m_index m) ++ f m ++ fold_between f text (m_index m + m_length m) hi ms'
  end.

Lemma fold_matches_between (f : mtch -> list Z) (text : list Z) (lo : Z) (ms : list mtch) :
  fold_matches f text lo ms = fold_between f text lo (zlen text) ms.
Proof.
  revert lo. induction ms as [|m ms IH]; intros lo; cbn [fold_matches fold_between].
  - rewrite zslice_to_end. reflexivity.
  - rewrite IH. reflexivity.
Qed.

Lemma fold_between_snoc (f : mtch -> list Z) (text : list Z) (lo hi : Z) (ms : list mtch) (m : mtch) :
  fold_between f text lo hi (ms ++ [m]) =
  fold_between f text lo (m_index m) ms ++ f m ++ zslice text (m_index m + m_length m) hi.
Proof.
  revert lo. induction ms as [|a ms IH]; intros lo; cbn [app fold_between].
  - reflexivity.
  - rewrite IH. rewrite <- !app_assoc. reflexivity.
Qed.

(* ascending, disjoint, inside [lo,hi] *)
Fixpoint ord_asc (lo hi : Z) (ms : list mtch) : Prop :=
  match ms with
  | [] => lo <= hi
  | m :: ms' => lo <= m_index m /\ 0 <= m_length m /\ ord_asc (m_index m + m_length m) hi ms'
  end.

Lemma ord_asc_le (lo hi : Z) (ms : list mtch) : ord_asc lo hi ms -> lo <= hi.
Proof.
  revert lo. induction ms as [|m ms IH]; intros lo H; [exact H|].
  destruct H as (H1 & H2 & H3). specialize (IH _ H3). lia.
Qed.

Lemma ord_asc_snoc (lo hi : Z) (ms : list mtch) (m : mtch) :
  ord_asc lo (m_index m) ms -> 0 <= m_length m -> m_index m + m_length m <= hi -> ord_asc lo hi (ms ++ [m]).
Proof.
  revert lo. induction ms as [|a ms IH]; intros lo H Hl Hh; cbn [app ord_asc] in *.
  - repeat split; lia.
  - destruct H as (H1 & H2 & H3). repeat split; try assumption. apply IH; assumption.
Qed.

Lemma ordered_ltr_asc (len prev : Z) (ms : list mtch) :
  prev <= len -> Forall (wf_match len) ms -> ordered_ltr prev ms -> ord_asc prev len ms.
Proof.
  revert prev. induction ms as [|m ms IH]; intros prev Hp HF Ho; cbn [ord_asc ordered_ltr] in *; [exact Hp|].
  inversion HF as [|? ? Hm HF']; subst. destruct Hm as (Hi & Hl & Hb & _). destruct Ho as (Ho1 & Ho2).
  repeat split; try assumption. apply IH; assumption.
Qed.

Lemma ordered_rtl_asc (prev : Z) (len : Z) (ms : list mtch) :
  Forall (wf_match len) ms -> ordered_rtl prev ms -> 0 <= prev -> ord_asc 0 prev (rev ms).
Proof.
  revert prev. induction ms as [|m ms IH]; intros prev HF Ho Hp; cbn [rev ord_asc ordered_rtl] in *; [exact Hp|].
  inversion HF as [|? ? Hm HF']; subst. destruct Hm as (Hi & Hl & Hb & _). destruct Ho as (Ho1 & Ho2).
  apply ord_asc_snoc; try assumption. apply IH; assumption.
Qed.

(* replacing every match by its own text changes nothing *)
Lemma fold_between_matched (text : list Z) (lo hi : Z) (ms : list mtch) :
  0 <= lo -> ord_asc lo hi ms -> fold_between (matched_text text) text lo hi ms = zslice text lo hi.
Proof.
  revert lo. induction ms as [|m ms IH]; intros lo H0 Ho; cbn [fold_between ord_asc] in *; [reflexivity|].
  destruct Ho as (H1 & H2 & H3). pose proof (ord_asc_le _ _ _ H3).
  rewrite IH by (try assumption; lia). unfold matched_text.
  rewrite zslice_app by lia. rewrite zslice_app by lia. reflexivity.
Qed.

Lemma ordered_ltr_zfirstn (prev n : Z) (ms : list mtch) : ordered_ltr prev ms -> ordered_ltr prev (zfirstn n ms).
Proof.
  revert prev n. induction ms as [|m ms IH]; intros prev n H; [exact H|].
  cbn [zfirstn]. destruct (n <=? 0); [exact I|]. destruct H as (H1 & H2). split; [exact H1|apply IH; exact H2].
Qed.
Lemma ordered_rtl_zfirstn (prev n : Z) (ms : list mtch) : ordered_rtl prev ms -> ordered_rtl prev (zfirstn n ms).
Proof.
  revert prev n. induction ms as [|m ms IH]; intros prev n H; [exact H|].
  cbn [zfirstn]. destruct (n <=? 0); [exact I|]. destruct H as (H1 & H2). split; [exact H1|apply IH; exact H2].
Qed.

Lemma wf_matches_zfirstn (rtl : bool) (text : list Z) (n : Z) (ms : list mtch) :
  wf_matches rtl text ms -> wf_matches rtl text (zfirstn n ms).
Proof.
  intros (HF & Ho). split; [apply Forall_zfirstn; exact HF|].
  destruct rtl; [apply ordered_rtl_zfirstn|apply ordered_ltr_zfirstn]; exact Ho.
Qed.

Lemma wf_matches_take (rtl : bool) (text : list Z) (count : Z) (ms : list mtch) :
  wf_matches rtl text ms -> wf_matches rtl text (take_count count ms).
Proof. intros H. unfold take_count. destruct (count <? 0); [exact H|apply wf_matches_zfirstn; exact H]. Qed.

(* the processed matches, in text order, are ascending inside the text *)
Lemma wf_matches_asc (rtl : bool) (text : list Z) (ms : list mtch) :
  wf_matches rtl text ms -> ord_asc 0 (zlen text) (text_order rtl ms).
Proof.
  intros (HF & Ho). pose proof (zlen_nonneg text). destruct rtl; cbn [text_order].
  - eapply ordered_rtl_asc; eauto.
  - eapply ordered_ltr_asc; eauto.
Qed.

Lemma take_count_nil (count : Z) : take_count count [] = [].
Proof. unfold take_count. destruct (count <? 0); reflexivity. Qed.

Lemma take_count_cons (count : Z) (m : mtch) (ms : list mtch) :
  count <> 0 -> take_count count (m :: ms) = m :: take_count (count - 1) ms.
Proof.
  intros H. unfold take_count. destruct (count <? 0) eqn:E.
  - destruct (count - 1 <? 0) eqn:E2; [reflexivity|lia].
  - destruct (count - 1 <? 0) eqn:E2; [lia|]. apply zfirstn_cons. lia.
Qed.

Lemma take_count_zero (ms : list mtch) : take_count 0 ms = [].
Proof. unfold take_count. cbn. apply zfirstn_nonpos. lia. Qed.

Lemma ltr_loop_ok (between : list Z -> Z -> Z -> res (list Z)) (emit : mtch -> list Z -> res (list Z))
      (f : mtch -> list Z) (text : list Z) :
  (forall lo hi, 0 <= lo -> lo <= hi -> hi <= zlen text -> between text lo hi = Ok (zslice text lo hi)) ->
  forall (ms : list mtch) (prevat count : Z) (buf : list Z),
    (forall m b, In m ms -> emit m b = Ok (b ++ f m)) ->
    count <> 0 -> 0 <= prevat -> ord_asc prevat (zlen text) ms ->
    exists X prevat',
      ltr_loop between emit text ms prevat count buf = Ok (buf ++ X, prevat') /\
      prevat <= prevat' /\ prevat' <= zlen text /\
      X ++ zslice text prevat' (zlen text) = fold_between f text prevat (zlen text) (take_count count ms).
Proof.
  intros Hbet ms. induction ms as [|m ms IH]; intros prevat count buf Hemit Hc Hp Ho.
  - exists [], prevat. cbn [ltr_loop ord_asc] in *. rewrite app_nil_r, take_count_nil.
    repeat split; try lia; try reflexivity.
  - cbn [ord_asc] in Ho. destruct Ho as (Ho1 & Ho2 & Ho3). pose proof (ord_asc_le _ _ _ Ho3) as Hle.
    cbn [ltr_loop].
    assert ((if m_index m =? prevat then Ok buf
             else do b <- between text prevat (m_index m); Ok (buf ++ b)) = Ok (buf ++ zslice text prevat (m_index m))) as ->.
    { destruct (m_index m =? prevat) eqn:E.
      - rewrite zslice_empty by lia. rewrite app_nil_r. reflexivity.
      - rewrite Hbet by lia. reflexivity. }
    cbn [bind]. rewrite Hemit by (left; reflexivity). cbn [bind].
    rewrite take_count_cons by assumption.
    destruct (count - 1 =? 0) eqn:Ec.
    + exists (zslice text prevat (m_index m) ++ f m), (m_index m + m_length m).
      replace (count - 1) with 0 by lia. rewrite take_count_zero. cbn [fold_between].
      rewrite <- !app_assoc. repeat split; try lia; try reflexivity.
    + destruct (IH (m_index m + m_length m) (count - 1) ((buf ++ zslice text prevat (m_index m)) ++ f m))
        as (X & p' & HX & Hp1 & Hp2 & HE); try assumption; try lia.
      { intros; apply Hemit; right; assumption. }
      exists (zslice text prevat (m_index m) ++ f m ++ X), p'. rewrite HX.
      cbn [fold_between]. rewrite <- HE. rewrite <- !app_assoc. repeat split; try lia; try reflexivity.
Qed.

Lemma concat_rev_snoc (al : list (list Z)) (b : list Z) : concat (rev (al ++ [b])) = b ++ concat (rev al).
Proof. rewrite rev_app_distr. reflexivity. Qed.

Lemma rtl_loop_ok (emit : mtch -> list (list Z) -> res (list (list Z))) (f : mtch -> list Z) (text : list Z) :
  forall (ms : list mtch) (prevat count : Z) (al : list (list Z)),
    (forall m a, In m ms -> exists E, emit m a = Ok (a ++ E) /\ concat (rev E) = f m) ->
    count <> 0 -> 0 <= prevat -> prevat <= zlen text ->
    Forall (wf_match (zlen text)) ms -> ordered_rtl prevat ms ->
    exists al' p',
      rtl_loop emit text ms prevat count al = Ok (al', p') /\ 0 <= p' /\ p' <= prevat /\
      zslice text 0 p' ++ concat (rev al') =
      fold_between f text 0 prevat (rev (take_count count ms)) ++ concat (rev al).
Proof.
  induction ms as [|m ms IH]; intros prevat count al Hemit Hc Hp0 Hp HF Ho.
  - exists al, prevat. cbn [rtl_loop]. rewrite take_count_nil. cbn [rev fold_between].
    repeat split; try lia.
  - inversion HF as [|? ? Hm HF']; subst. destruct Hm as (Hi & Hl & Hb & _).
    cbn [ordered_rtl] in Ho. destruct Ho as (Ho1 & Ho2).
    cbn [rtl_loop].
    assert (exists al1, (if m_index m + m_length m =? prevat then Ok al
             else do b <- slice_expr text (m_index m + m_length m) prevat; Ok (al ++ [b])) = Ok al1 /\
            concat (rev al1) = zslice text (m_index m + m_length m) prevat ++ concat (rev al)) as (al1 & -> & H1).
    { destruct (m_index m + m_length m =? prevat) eqn:E.
      - exists al. split; [reflexivity|]. rewrite zslice_empty by lia. reflexivity.
      - rewrite slice_expr_ok by lia. eexists. split; [reflexivity|]. apply concat_rev_snoc. }
    cbn [bind]. destruct (Hemit m al1 (or_introl eq_refl)) as (E & -> & HE). cbn [bind].
    assert (concat (rev (al1 ++ E)) = f m ++ zslice text (m_index m + m_length m) prevat ++ concat (rev al)) as H2.
    { rewrite rev_app_distr, concat_app, HE, H1. reflexivity. }
    rewrite take_count_cons by assumption.
    destruct (count - 1 =? 0) eqn:Ec.
    + exists (al1 ++ E), (m_index m). replace (count - 1) with 0 by lia. rewrite take_count_zero.
      cbn [rev app fold_between]. rewrite H2. rewrite <- !app_assoc. repeat split; try lia.
    + destruct (IH (m_index m) (count - 1) (al1 ++ E)) as (al' & p' & HX & Hp1 & Hp2 & HEq); try assumption; try lia.
      { intros; apply Hemit; right; assumption. }
      exists al', p'. rewrite HX. repeat split; try lia.
      rewrite HEq. cbn [rev]. rewrite fold_between_snoc. rewrite H2. rewrite <- !app_assoc. reflexivity.
Qed.

Lemma run_ltr_ok (between : list Z -> Z -> Z -> res (list Z)) (emit : mtch -> list Z -> res (list Z))
      (f : mtch -> list Z) (text : list Z) (ms : list mtch) (count : Z) :
  (forall lo hi, 0 <= lo -> lo <= hi -> hi <= zlen text -> between text lo hi = Ok (zslice text lo hi)) ->
  (forall m b, In m ms -> emit m b = Ok (b ++ f m)) ->
  count <> 0 -> wf_matches false text ms ->
  run_ltr between emit text ms count = Ok (fold_matches f text 0 (take_count count ms)).
Proof.
  intros Hbet Hemit Hc Hwf. pose proof (wf_matches_asc _ _ _ Hwf) as Ho. cbn [text_order] in Ho.
  rewrite fold_matches_between. unfold run_ltr. destruct ms as [|m ms].
  - rewrite take_count_nil. cbn [fold_between]. rewrite zslice_full. reflexivity.
  - destruct (ltr_loop_ok between emit f text Hbet (m :: ms) 0 count [] Hemit Hc (Z.le_refl 0) Ho)
      as (X & p' & -> & Hp1 & Hp2 & HE).
    cbn [bind app]. rewrite <- HE. destruct (p' <? zlen text) eqn:E.
    + rewrite Hbet by lia. reflexivity.
    + rewrite zslice_empty by lia. rewrite app_nil_r. reflexivity.
Qed.

Lemma run_rtl_ok (head : list Z -> Z -> res (list Z)) (emit : mtch -> list (list Z) -> res (list (list Z)))
      (f : mtch -> list Z) (text : list Z) (ms : list mtch) (count : Z) :
  (forall p, 0 < p -> p <= zlen text -> head text p = Ok (zslice text 0 p)) ->
  (forall m a, In m ms -> exists E, emit m a = Ok (a ++ E) /\ concat (rev E) = f m) ->
  count <> 0 -> wf_matches true text ms ->
  run_rtl head emit text ms count = Ok (fold_matches f text 0 (rev (take_count count ms))).
Proof.
  intros Hhead Hemit Hc (HF & Ho). pose proof (zlen_nonneg text) as HL.
  rewrite fold_matches_between. unfold run_rtl. destruct ms as [|m ms].
  - rewrite take_count_nil. cbn [rev fold_between]. rewrite zslice_full. reflexivity.
  - destruct (rtl_loop_ok emit f text (m :: ms) (zlen text) count [] Hemit Hc HL (Z.le_refl _) HF Ho)
      as (al' & p' & -> & Hp1 & Hp2 & HE).
    cbn [bind]. cbn [rev concat] in HE. rewrite app_nil_r in HE. rewrite <- HE.
    destruct (0 <? p') eqn:E.
    + rewrite Hhead by lia. reflexivity.
    + rewrite zslice_empty by lia. reflexivity.
Qed.

(** * Replace / ReplaceFunc = the fold                                                          *)

Lemma replace_spec_count0 (rtl : bool) (ms : list mtch) (f : mtch -> list Z) (text : list Z) :
  replace_spec_f rtl ms f 0 text = text.
Proof. unfold replace_spec_f. rewrite take_count_zero. destruct rtl; reflexivity. Qed.

Lemma Forall_In {A} (P : A -> Prop) (l : list A) (x : A) : Forall P l -> In x l -> P x.
Proof. intros H. rewrite Forall_forall in H. auto. Qed.

Lemma replace_func_fold (rtl : bool) (f : mtch -> list Z) (tw : list (Z * Z)) (startAt count : Z) (ms : list mtch) :
  -1 <= count -> check_start tw startAt = Ok tt ->
  wf_matches rtl (runes_of tw) ms ->
  replace rtl (ByEval f) tw startAt count ms = Ok (replace_spec_f rtl ms f count (runes_of tw)).
Proof.
  intros Hc Hs Hwf. unfold replace. destruct (count <? -1) eqn:E1; [lia|].
  destruct (count =? 0) eqn:E0.
  { replace count with 0 by lia. rewrite replace_spec_count0. reflexivity. }
  rewrite Hs. cbn [bind]. unfold replace_spec_f. destruct rtl; cbn [text_order].
  - apply run_rtl_ok; try assumption; try lia.
    + intros p H1 H2. apply slice_expr_ok; lia.
    + intros m a _. exists [f m]. split; [reflexivity|]. cbn. apply app_nil_r.
  - apply run_ltr_ok; try assumption; try lia.
    + intros; apply slice_expr_ok; assumption.
    + intros; reflexivity.
Qed.

Lemma replace_data_fold (rtl : bool) (d : rdata) (toks : list rtok) (tw : list (Z * Z)) (startAt count : Z) (ms : list mtch) :
  -1 <= count -> check_start tw startAt = Ok tt ->
  wf_matches rtl (runes_of tw) ms -> (forall m, In m ms -> data_ok d (group_count m)) -> toks_of d = Some toks ->
  replace rtl (ByData d) tw startAt count ms = Ok (replace_spec rtl ms toks count (runes_of tw)).
Proof.
  intros Hc Hs Hwf Hd Ht. unfold replace. destruct (count <? -1) eqn:E1; [lia|].
  destruct (count =? 0) eqn:E0.
  { replace count with 0 by lia. unfold replace_spec. rewrite replace_spec_count0. reflexivity. }
  rewrite Hs. cbn [bind]. unfold replace_spec, replace_spec_f. pose proof Hwf as (HF & _).
  destruct rtl; cbn [text_order].
  - apply run_rtl_ok; try assumption; try lia.
    + intros p H1 H2. apply write_range_ok; lia.
    + intros m a Hin. exists (rev (map (tok_text m (runes_of tw)) toks)). split.
      * apply replacement_impl_rtl_ok; [exact (Forall_In _ _ _ HF Hin)|exact (Hd m Hin)|exact Ht].
      * rewrite rev_involutive. reflexivity.
  - apply run_ltr_ok; try assumption; try lia.
    + intros; apply write_range_ok; lia.
    + intros m b Hin. apply replacement_impl_ok; [exact (Forall_In _ _ _ HF Hin)|exact (Hd m Hin)|exact Ht].
Qed.

Lemma data_ok_each (d : rdata) (n : Z) (ms : list mtch) :
  Forall (fun m => group_count m = n) ms -> data_ok d n -> forall m, In m ms -> data_ok d (group_count m).
Proof. intros Hn Hd m Hin. rewrite (Forall_In _ _ _ Hn Hin). exact Hd. Qed.

Lemma fold_between_ext (f g : mtch -> list Z) (text : list Z) (lo hi : Z) (ms : list mtch) :
  (forall m, In m ms -> f m = g m) -> fold_between f text lo hi ms = fold_between g text lo hi ms.
Proof.
  revert lo. induction ms as [|m ms IH]; intros lo H; cbn [fold_between]; [reflexivity|].
  rewrite (H m (or_introl eq_refl)). rewrite IH; [reflexivity|]. intros; apply H; right; assumption.
Qed.

Lemma In_zfirstn {A} (n : Z) (l : list A) (x : A) : In x (zfirstn n l) -> In x l.
Proof.
  revert n. induction l as [|a l IH]; intros n H; [exact H|].
  cbn [zfirstn] in H. destruct (n <=? 0); [contradiction|].
  destruct H as [->|H]; [left; reflexivity|right; eapply IH; exact H].
Qed.

Lemma take_count_incl (count : Z) (ms : list mtch) (m : mtch) : In m (take_count count ms) -> In m ms.
Proof.
  unfold take_count. destruct (count <? 0); [auto|apply In_zfirstn].
Qed.

Lemma in_text_order (rtl : bool) (ms : list mtch) (m : mtch) : In m (text_order rtl ms) -> In m ms.
Proof. destruct rtl; cbn [text_order]; [rewrite <- in_rev|]; auto. Qed.

Lemma replace_spec_f_ext (rtl : bool) (ms : list mtch) (f g : mtch -> list Z) (count : Z) (text : list Z) :
  (forall m, In m ms -> f m = g m) -> replace_spec_f rtl ms f count text = replace_spec_f rtl ms g count text.
Proof.
  intros H. unfold replace_spec_f. rewrite !fold_matches_between. apply fold_between_ext.
  intros m Hm. apply H. eapply take_count_incl. eapply in_text_order. exact Hm.
Qed.

Lemma replace_func_eq_replace (rtl : bool) (d : rdata) (toks : list rtok) (n : Z) (f : mtch -> list Z)
      (tw : list (Z * Z)) (startAt count : Z) (ms : list mtch) :
  -1 <= count -> check_start tw startAt = Ok tt ->
  wf_matches rtl (runes_of tw) ms -> Forall (fun m => group_count m = n) ms ->
  data_ok d n -> toks_of d = Some toks ->
  (forall m, In m ms -> f m = expand toks m (runes_of tw)) ->
  replace rtl (ByEval f) tw startAt count ms = replace rtl (ByData d) tw startAt count ms.
Proof.
  intros. rewrite replace_func_fold by assumption.
  rewrite (replace_data_fold rtl d toks) by (try assumption; eapply data_ok_each; eassumption).
  unfold replace_spec. f_equal. apply replace_spec_f_ext. assumption.
Qed.

(* $& : the rule list [-5] *)
Definition amp_data : rdata := mkRD [] [-5].

Lemma expand_amp (text : list Z) (m : mtch) :
  group0_ok m -> expand [TGroup 0] m text = matched_text text m.
Proof.
  intros (caps & rest & Hg & HL). unfold expand. cbn [map concat tok_text]. rewrite Hg.
  cbn [znth Z.ltb Z.compare Z.to_nat nth_error]. unfold cap_text. rewrite HL. rewrite app_nil_r. reflexivity.
Qed.

Lemma replace_amp_identity (rtl : bool) (tw : list (Z * Z)) (startAt count : Z) (ms : list mtch) :
  -1 <= count -> check_start tw startAt = Ok tt ->
  wf_matches rtl (runes_of tw) ms -> Forall group0_ok ms ->
  replace rtl (ByData amp_data) tw startAt count ms = Ok (runes_of tw).
Proof.
  intros Hc Hs Hwf Hg0. pose proof Hwf as (HF & _).
  rewrite (replace_data_fold rtl amp_data [TGroup 0]); try assumption; try reflexivity.
  - f_equal. unfold replace_spec, replace_spec_f. rewrite fold_matches_between.
    rewrite (fold_between_ext _ (matched_text (runes_of tw))).
    + rewrite fold_between_matched; [apply zslice_full|lia|].
      apply wf_matches_asc. apply wf_matches_take. exact Hwf.
    + intros m Hin. apply expand_amp. eapply Forall_In; [exact Hg0|].
      eapply take_count_incl. eapply in_text_order. exact Hin.
  - (* rule -5 = group 0, which every match has *)
    intros m Hin. destruct (Forall_In _ _ _ HF Hin) as (_ & _ & _ & Hne & _). constructor; [|constructor].
    split; [lia|]. intros _. unfold group_count. destruct (m_groups m) as [|g0 gs]; [contradiction|].
    rewrite zlen_cons. pose proof (zlen_nonneg gs). lia.
Qed.

(** * count and startAt                                                                         *)

(* b is the byte offset of a rune of the string, or its length *)
Definition is_boundary (tw : list (Z * Z)) (b : Z) : Prop :=
  exists k, (k <= length tw)%nat /\ b = byte_len (firstn k tw).

Lemma byte_len_cons (p : Z * Z) (tw : list (Z * Z)) : byte_len (p :: tw) = snd p + byte_len tw.
Proof. reflexivity. Qed.

Lemma rune_start_go_spec (tw : list (Z * Z)) (startAt strIdx n acc : Z) :
  0 <= n -> -1 <= acc ->
  (0 <= rune_start_go tw startAt strIdx n acc <->
   0 <= acc \/ (0 <= startAt /\ exists k, (k < length tw)%nat /\ startAt = strIdx + byte_len (firstn k tw))).
Proof.
  revert strIdx n acc. induction tw as [|[r w] tw IH]; intros strIdx n acc Hn Hacc; cbn [rune_start_go].
  - split; [intros H; left; exact H|]. intros [H|(_ & k & Hk & _)]; [exact H|cbn in Hk; lia].
  - rewrite IH by (try lia; destruct ((0 <=? startAt) && (strIdx =? startAt)); lia).
    split.
    + intros [H|(H0 & k & Hk & He)].
      * destruct ((0 <=? startAt) && (strIdx =? startAt)) eqn:E; [|left; exact H].
        right. split; [lia|]. exists O. split; [cbn [length]; lia|]. cbn [firstn]. change (byte_len []) with 0. lia.
      * right. split; [exact H0|]. exists (S k). split; [cbn [length]; lia|]. cbn [firstn].
        rewrite byte_len_cons. cbn [snd]. lia.
    + intros [H|(H0 & k & Hk & He)].
      * left. destruct ((0 <=? startAt) && (strIdx =? startAt)); lia.
      * destruct k as [|k].
        -- left. cbn [firstn] in He. change (byte_len []) with 0 in He.
           destruct ((0 <=? startAt) && (strIdx =? startAt)) eqn:E; lia.
        -- right. split; [exact H0|]. exists k. split; [cbn [length] in Hk; lia|].
           cbn [firstn] in He. rewrite byte_len_cons in He. cbn [snd] in He. lia.
Qed.

Lemma firstn_all_len {A} (l : list A) : firstn (length l) l = l.
Proof. apply firstn_all. Qed.

Lemma rune_start_spec (tw : list (Z * Z)) (startAt : Z) :
  0 <= startAt -> (0 <= rune_start tw startAt <-> is_boundary tw startAt).
Proof.
  intros H0. unfold rune_start, is_boundary.
  destruct ((0 <=? startAt) && (startAt =? byte_len tw)) eqn:E.
  - split; [|intros _; apply zlen_nonneg]. intros _. exists (length tw). split; [lia|].
    rewrite firstn_all_len. lia.
  - rewrite rune_start_go_spec by lia. split.
    + intros [H|(_ & k & Hk & He)]; [lia|]. exists k. split; [lia|lia].
    + intros (k & Hk & He). right. split; [exact H0|]. exists k. split; [|lia].
      destruct (Nat.eq_dec k (length tw)) as [->|]; [|lia]. rewrite firstn_all_len in He. lia.
Qed.

Lemma check_start_ok (tw : list (Z * Z)) (startAt : Z) :
  startAt <= byte_len tw -> (0 <= startAt -> is_boundary tw startAt) -> check_start tw startAt = Ok tt.
Proof.
  intros H1 H2. unfold check_start. destruct (byte_len tw <? startAt) eqn:E; [lia|].
  destruct ((0 <=? startAt) && (rune_start tw startAt <? 0)) eqn:E2; [|reflexivity].
  assert (0 <= startAt) as H0 by lia. apply H2 in H0 as Hb. apply rune_start_spec in Hb; lia.
Qed.

Lemma check_start_too_large (tw : list (Z * Z)) (startAt : Z) :
  byte_len tw < startAt -> check_start tw startAt = Err E_StartTooLarge.
Proof. intros H. unfold check_start. destruct (byte_len tw <? startAt) eqn:E; [reflexivity|lia]. Qed.

Lemma check_start_not_boundary (tw : list (Z * Z)) (startAt : Z) :
  0 <= startAt -> startAt <= byte_len tw -> ~ is_boundary tw startAt ->
  check_start tw startAt = Err E_StartNotBoundary.
Proof.
  intros H0 H1 Hnb. unfold check_start. destruct (byte_len tw <? startAt) eqn:E; [lia|].
  destruct ((0 <=? startAt) && (rune_start tw startAt <? 0)) eqn:E2; [reflexivity|].
  exfalso. apply Hnb. apply rune_start_spec; lia.
Qed.

Lemma replace_count_startat (rtl : bool) (r : replacer) (tw : list (Z * Z)) (startAt count : Z) (ms : list mtch) :
  (count < -1 -> replace rtl r tw startAt count ms = Err E_CountTooSmall) /\
  (count = 0 -> replace rtl r tw startAt count ms = Ok (runes_of tw)) /\
  (-1 <= count -> count <> 0 -> byte_len tw < startAt ->
     replace rtl r tw startAt count ms = Err E_StartTooLarge) /\
  (-1 <= count -> count <> 0 -> 0 <= startAt -> startAt <= byte_len tw -> ~ is_boundary tw startAt ->
     replace rtl r tw startAt count ms = Err E_StartNotBoundary) /\
  (-1 <= count -> startAt <= byte_len tw -> (0 <= startAt -> is_boundary tw startAt) -> ms = [] ->
     replace rtl r tw startAt count ms = Ok (runes_of tw)).
Proof.
  unfold replace. repeat split.
  - intros H. destruct (count <? -1) eqn:E; [reflexivity|lia].
  - intros ->. reflexivity.
  - intros H1 H2 H3. destruct (count <? -1) eqn:E; [lia|]. destruct (count =? 0) eqn:E0; [lia|].
    rewrite check_start_too_large by assumption. reflexivity.
  - intros H1 H2 H3 H4 H5. destruct (count <? -1) eqn:E; [lia|]. destruct (count =? 0) eqn:E0; [lia|].
    rewrite check_start_not_boundary by assumption. reflexivity.
  - intros H1 H2 H3 ->. destruct (count <? -1) eqn:E; [lia|]. destruct (count =? 0) eqn:E0; [reflexivity|].
    rewrite check_start_ok by assumption. cbn [bind]. destruct r, rtl; reflexivity.
Qed.

(** * Split                                                                                     *)

Lemma group_string_ok (text : list Z) (caps : list (Z * Z)) :
  Forall (cap_in_bounds (zlen text)) caps -> group_string text caps = Ok (cap_text text caps).
Proof.
  intros HF. unfold group_string, cap_text. pose proof (zlen_nonneg text).
  destruct (last_opt caps) as [[i l]|] eqn:HL.
  - destruct (cap_in_bounds_last _ _ _ _ HF HL) as (? & ? & ?). apply slice_expr_ok; lia.
  - rewrite slice_expr_ok by lia. rewrite zslice_empty by lia. reflexivity.
Qed.

Lemma strings_of_groups_ok (text : list Z) (gs : list (list (Z * Z))) :
  Forall (Forall (cap_in_bounds (zlen text))) gs ->
  strings_of_groups text gs = Ok (map (cap_text text) gs).
Proof.
  induction gs as [|g gs IH]; intros HF; [reflexivity|]. inversion HF; subst.
  cbn [strings_of_groups map]. rewrite group_string_ok by assumption. cbn [bind].
  rewrite IH by assumption. reflexivity.
Qed.

Lemma group_strings_ok (text : list Z) (m : mtch) :
  wf_match (zlen text) m -> group_strings text m = Ok (group_texts text m).
Proof.
  intros (_ & _ & _ & Hne & HF). unfold group_strings, group_texts.
  destruct (m_groups m) as [|g gs]; [contradiction|]. inversion HF; subst.
  cbn [tl]. apply strings_of_groups_ok. assumption.
Qed.

(* the pieces for the region [lo,hi) with ascending matches; gt m = what a match contributes *)
Fixpoint sfb (gt : mtch -> list (list Z)) (text : list Z) (lo hi : Z) (ms : list mtch) : list (list Z) :=
  match ms with
  | [] => [zslice text lo hi]
  | m :: ms' => zslice text lo (m_index m) :: gt m ++ sfb gt text (m_index m + m_length m) hi ms'
  end.

Lemma split_fold_sfb (text : list Z) (lo : Z) (ms : list mtch) :
  split_fold text lo ms = sfb (group_texts text) text lo (zlen text) ms.
Proof.
  revert lo. induction ms as [|m ms IH]; intros lo; cbn [split_fold sfb].
  - rewrite zslice_to_end. reflexivity.
  - rewrite IH. reflexivity.
Qed.

Lemma sfb_snoc (gt : mtch -> list (list Z)) (text : list Z) (lo hi : Z) (ms : list mtch) (m : mtch) :
  sfb gt text lo hi (ms ++ [m]) =
  sfb gt text lo (m_index m) ms ++ gt m ++ [zslice text (m_index m + m_length m) hi].
Proof.
  revert lo. induction ms as [|a ms IH]; intros lo; cbn [app sfb]; [reflexivity|].
  rewrite IH. rewrite <- !app_assoc. reflexivity.
Qed.

Lemma split_fold_rtl_rev (text : list Z) (hi : Z) (ms : list mtch) :
  rev (split_fold_rtl text hi ms) = sfb (fun m => rev (group_texts text m)) text 0 hi (rev ms).
Proof.
  revert hi. induction ms as [|m ms IH]; intros hi; cbn [split_fold_rtl rev sfb].
  - rewrite zslice_from_0. reflexivity.
  - rewrite sfb_snoc. rewrite <- IH. rewrite rev_app_distr. rewrite <- app_assoc. reflexivity.
Qed.

Definition isnil {A} (l : list A) : bool := match l with [] => true | _ => false end.

Lemma split_loop_ltr (text : list Z) :
  forall (ms : list mtch) (count prior : Z) (first : bool) (ret : list (list Z)),
    0 <= prior -> ord_asc prior (zlen text) ms -> Forall (wf_match (zlen text)) ms ->
    exists body prior',
      split_loop false text ms count prior first ret = Ok (ret ++ body, prior', first && isnil (zfirstn count ms)) /\
      prior <= prior' /\ prior' <= zlen text /\
      body ++ [zslice text prior' (zlen text)] = sfb (group_texts text) text prior (zlen text) (zfirstn count ms).
Proof.
  induction ms as [|m ms IH]; intros count prior first ret Hp Ho HF.
  - exists [], prior. cbn [split_loop zfirstn isnil sfb ord_asc] in *. rewrite app_nil_r, andb_true_r.
    repeat split; try lia; try reflexivity.
  - cbn [split_loop]. destruct (count <=? 0) eqn:Ec.
    + exists [], prior. rewrite zfirstn_nonpos by lia. cbn [isnil sfb]. rewrite app_nil_r, andb_true_r.
      pose proof (ord_asc_le _ _ _ Ho). repeat split; try lia; try reflexivity.
    + inversion HF as [|? ? Hm HF']; subst. cbn [ord_asc] in Ho. destruct Ho as (Ho1 & Ho2 & Ho3).
      pose proof (ord_asc_le _ _ _ Ho3) as Hle.
      cbn [andb]. rewrite slice_expr_ok by lia. cbn [bind].
      rewrite group_strings_ok by assumption. cbn [bind].
      destruct (IH (count - 1) (m_index m + m_length m) false
                   (ret ++ zslice text prior (m_index m) :: group_texts text m)) as (body & p' & HX & H1 & H2 & HE);
        try assumption; try lia.
      exists (zslice text prior (m_index m) :: group_texts text m ++ body), p'.
      rewrite HX. rewrite zfirstn_cons by lia. cbn [isnil sfb andb]. rewrite andb_false_r.
      rewrite <- HE. rewrite <- !app_assoc. cbn [app]. rewrite <- !app_assoc. repeat split; try lia; try reflexivity.
Qed.

Lemma split_loop_rtl (text : list Z) :
  forall (ms : list mtch) (count prior : Z) (first : bool) (ret : list (list Z)),
    let eff := if first then zlen text else prior in
    0 <= eff -> eff <= zlen text -> ordered_rtl eff ms -> Forall (wf_match (zlen text)) ms ->
    exists body prior' first',
      split_loop true text ms count prior first ret = Ok (ret ++ body, prior', first') /\
      first' = first && isnil (zfirstn count ms) /\
      let eff' := if first' then zlen text else prior' in
      0 <= eff' /\ eff' <= eff /\
      body ++ [zslice text 0 eff'] = split_fold_rtl text eff (zfirstn count ms).
Proof.
  induction ms as [|m ms IH]; intros count prior first ret eff H0 Hp Ho HF.
  - exists [], prior, first. cbn [split_loop zfirstn isnil split_fold_rtl]. rewrite app_nil_r, andb_true_r.
    fold eff. rewrite zslice_from_0. repeat split; try lia; try reflexivity.
  - cbn [split_loop]. destruct (count <=? 0) eqn:Ec.
    + exists [], prior, first. rewrite zfirstn_nonpos by lia. cbn [isnil split_fold_rtl]. rewrite app_nil_r, andb_true_r.
      fold eff. rewrite zslice_from_0. repeat split; try lia; try reflexivity.
    + inversion HF as [|? ? Hm HF']; subst. pose proof Hm as (Hi & Hl & Hb & _).
      cbn [ordered_rtl] in Ho. destruct Ho as (Ho1 & Ho2).
      cbn [andb]. fold eff. rewrite slice_expr_ok by lia. cbn [bind].
      rewrite group_strings_ok by assumption. cbn [bind].
      destruct (IH (count - 1) (m_index m) false
                   (ret ++ zslice text (m_index m + m_length m) eff :: group_texts text m))
        as (body & p' & f' & HX & Hf & H1 & H2 & HE); try assumption; try lia.
      rewrite Hf in *. cbn [andb] in *.
      exists (zslice text (m_index m + m_length m) eff :: group_texts text m ++ body), p', false.
      rewrite HX. rewrite zfirstn_cons by lia. cbn [isnil split_fold_rtl]. rewrite andb_false_r.
      rewrite <- HE. rewrite <- !app_assoc. cbn [app]. rewrite <- !app_assoc. repeat split; try lia; try reflexivity.
Qed.

Lemma split_processed_eq (count : Z) (ms : list mtch) :
  -1 <= count -> count <> 0 -> count <> 1 ->
  split_processed count ms = zfirstn (if count =? -1 then maxint else count) ms.
Proof.
  intros. unfold split_processed. destruct (count =? -1) eqn:E; [reflexivity|].
  destruct (count <=? 1) eqn:E1; [lia|reflexivity].
Qed.

Lemma split_processed_wf (rtl : bool) (text : list Z) (count : Z) (ms : list mtch) :
  wf_matches rtl text ms -> wf_matches rtl text (split_processed count ms).
Proof.
  intros H. unfold split_processed.
  destruct (count =? -1); [apply wf_matches_zfirstn; exact H|].
  destruct (count <=? 1); [|apply wf_matches_zfirstn; exact H].
  split; [constructor|]. destruct rtl; cbn; [|lia]. exact I.
Qed.

Lemma isnil_zfirstn_pos {A} (n : Z) (l : list A) : 0 < n -> isnil (zfirstn n l) = isnil l.
Proof. intros H. destruct l; [reflexivity|]. rewrite zfirstn_cons by lia. reflexivity. Qed.

Lemma split_spec_eq (rtl : bool) (tw : list (Z * Z)) (count : Z) (ms : list mtch) :
  -1 <= count -> wf_matches rtl (runes_of tw) ms ->
  split rtl tw count ms = Ok (split_spec rtl ms count (runes_of tw)).
Proof.
  intros Hc Hwf. set (text := runes_of tw) in *. pose proof (zlen_nonneg text) as HL.
  unfold split, split_spec. fold text.
  destruct (count <? -1) eqn:E1; [lia|]. destruct (count =? 0) eqn:E0; [reflexivity|].
  destruct (count =? 1) eqn:E2.
  { replace count with 1 by lia. unfold split_processed. cbn [Z.eqb Z.leb Z.compare Pos.compare Pos.compare_cont].
    destruct rtl; cbn [split_fold split_fold_rtl rev app].
    - unfold zlen. rewrite Nat2Z.id, firstn_all. reflexivity.
    - reflexivity. }
  rewrite split_processed_eq by lia.
  set (cnt := if count =? -1 then maxint else count).
  assert (0 < cnt) as Hcnt by (subst cnt; destruct (count =? -1) eqn:E; [reflexivity|lia]).
  destruct Hwf as (HF & Ho). destruct rtl.
  - destruct (split_loop_rtl text ms cnt 0 true [] HL (Z.le_refl _) Ho HF)
      as (body & p' & f' & -> & Hf & H1 & H2 & HE).
    cbn [bind app]. cbn [andb] in Hf. rewrite isnil_zfirstn_pos in Hf by assumption. subst f'.
    destruct ms as [|m ms]; cbn [isnil] in *.
    + cbn [zfirstn split_fold_rtl rev app]. unfold zlen. rewrite Nat2Z.id, firstn_all. reflexivity.
    + rewrite slice_expr_ok by lia. cbn [bind]. rewrite HE. reflexivity.
  - assert (ord_asc 0 (zlen text) ms) as Ha by (eapply ordered_ltr_asc; eauto).
    destruct (split_loop_ltr text ms cnt 0 true [] (Z.le_refl 0) Ha HF) as (body & p' & -> & H1 & H2 & HE).
    cbn [bind app andb]. rewrite isnil_zfirstn_pos by assumption. rewrite split_fold_sfb.
    destruct ms as [|m ms]; cbn [isnil].
    + cbn [zfirstn sfb]. rewrite zslice_full. reflexivity.
    + rewrite slice_expr_ok by lia. cbn [bind]. rewrite HE. reflexivity.
Qed.

Lemma split_count_too_small (rtl : bool) (tw : list (Z * Z)) (count : Z) (ms : list mtch) :
  count < -1 -> split rtl tw count ms = Err E_CountTooSmall.
Proof. intros H. unfold split. destruct (count <? -1) eqn:E; [reflexivity|lia]. Qed.

(* count = -1 processes every match (a slice cannot hold more than MaxInt elements) *)
Lemma split_processed_all (ms : list mtch) : zlen ms <= maxint -> split_processed (-1) ms = ms.
Proof. intros H. unfold split_processed. cbn [Z.eqb Pos.eqb]. apply zfirstn_all. exact H. Qed.

Lemma every_kth_go_skip {A} (k j : nat) (l1 l2 : list A) :
  length l1 = j -> every_kth_go k j (l1 ++ l2) = every_kth_go k 0 l2.
Proof.
  revert j. induction l1 as [|x l1 IH]; intros j H; cbn [length] in H; subst j; [reflexivity|].
  cbn [app every_kth_go]. apply IH. reflexivity.
Qed.

Lemma sfb_rejoin (gt : mtch -> list (list Z)) (text : list Z) (k : nat) :
  forall (ms : list mtch) (lo hi : Z),
    (forall m, In m ms -> length (gt m) = k) -> 0 <= lo -> ord_asc lo hi ms ->
    interleave (every_kth k (sfb gt text lo hi ms)) (map (matched_text text) ms) = zslice text lo hi.
Proof.
  induction ms as [|m ms IH]; intros lo hi Hk H0 Ho; cbn [sfb map ord_asc] in *.
  - cbn. rewrite app_nil_r. reflexivity.
  - destruct Ho as (H1 & H2 & H3). pose proof (ord_asc_le _ _ _ H3) as Hle.
    unfold every_kth. cbn [every_kth_go]. rewrite every_kth_go_skip by (apply Hk; left; reflexivity).
    cbn [interleave]. fold (every_kth k (sfb gt text (m_index m + m_length m) hi ms)).
    rewrite IH; try assumption; try lia.
    + unfold matched_text. rewrite zslice_app by lia. rewrite zslice_app by lia. reflexivity.
    + intros; apply Hk; right; assumption.
Qed.

Lemma split_rejoin (rtl : bool) (ms : list mtch) (count : Z) (text : list Z) (k : nat) :
  count <> 0 -> wf_matches rtl text ms ->
  Forall (fun m => length (m_groups m) = S k) ms ->
  interleave (every_kth k (split_spec rtl ms count text))
             (map (matched_text text) (text_order rtl (split_processed count ms))) = text.
Proof.
  intros Hc Hwf Hk. unfold split_spec. destruct (count =? 0) eqn:E0; [lia|].
  pose proof (split_processed_wf rtl text count ms Hwf) as Hp.
  pose proof (wf_matches_asc _ _ _ Hp) as Ha.
  assert (forall m, In m (split_processed count ms) -> length (tl (m_groups m)) = k) as Hlen.
  { intros m Hin. assert (In m ms) as Hin'.
    { revert Hin. unfold split_processed. destruct (count =? -1); [apply In_zfirstn|].
      destruct (count <=? 1); [intros []|apply In_zfirstn]. }
    pose proof (Forall_In _ _ _ Hk Hin') as Hl. cbv beta in Hl.
    destruct (m_groups m); cbn [length tl] in *; lia. }
  destruct rtl; cbn [text_order] in *.
  - rewrite split_fold_rtl_rev. rewrite sfb_rejoin; try assumption; try lia.
    + apply zslice_full.
    + intros m Hin. rewrite <- in_rev in Hin. rewrite rev_length. unfold group_texts. rewrite map_length.
      apply Hlen. exact Hin.
  - rewrite split_fold_sfb. rewrite sfb_rejoin; try assumption; try lia.
    + apply zslice_full.
    + intros m Hin. unfold group_texts. rewrite map_length. apply Hlen. exact Hin.
Qed.

(* compile_correct2_top_partial + totality + the stack limit, for programs the writer emits for supported2 trees
   (writer configuration cfg0):

   compile_exec_total_partial   one execute() call under any limit L: with n = the number of interpreter steps of
       the attempt (it exists and does not depend on L or the fuel),
         exec_at = Err ErrBacktrackingStackLimit  (only if 0 <= L), or
         exec_at = Ok s'   (then s' is the final Stop state with Spec.attempt's answer: compile_correct2_exec_partial;
                            and n < 1000 * vfuel), or
         exec_at = Fuel    (only if 1000 * vfuel <= n);
       never a fault; with no limit (L < 0) and n < 1000 * vfuel it IS Ok.
   compile_find_dichotomy_partial  the same for the whole scan VM.vm_find against the unlimited scan
       (C13's first sentence; its control-flow hypothesis is replaced by [path_ok] on the unbounded paths).

   Hypotheses ([_partial]): path_ok at each start position (Proofs/CompileTotal.v: every state of the
   UNBOUNDED path is at an instruction boundary and its grouping stack is two words below max (8*TrackCount) 32)
   -- decidable per instance by CompileLimit.mon_steps (compile_exec_total_checked); TrackCount as counted on
   the code (track_count (codes p) <= trackcount p: what syntax.Write stores); and, for the scan, enough
   reference fuel at every start position.
   The path_ok hypothesis is discharged in Proofs/CompileSafe.v (compile_exec_total, compile_find_dichotomy). *)
From Verif Require Import Base.Prelude Model.Tree Model.Spec Model.VM Model.Writer Gen.RunnerGen
  Proofs.SpecBoundsProofs Proofs.VMLimitProofs Proofs.VMLimitSimProofs Proofs.VMCapacityProofs
  Proofs.VMU Proofs.VMUOps2 Proofs.VMUBridge Proofs.CompileBase Proofs.CompileDefs Proofs.CompileProofs
  Proofs.CompileBalDen Proofs.CompileBalDefs Proofs.CompileBal Proofs.CompileTotal Proofs.CompileLimit Proofs.CompileCfSafe.
From Coq Require Import Relations ZifyBool.

Lemma clt_weight c root p : codes p = fst (compile c root) -> track_count (codes p) <= trackcount p ->
  cp_need (codes p) 0 <= trackcount p * G_ensure_factor.
Proof.
  intros Hc Ht. pose proof (cp_compile_weight c root) as H. cbv zeta in H. rewrite <- Hc in H.
  unfold G_ensure_factor. lia.
Qed.

Lemma clt_code0 root p : codes p = fst (compile cfg0 root) -> code_at p 0 = Some Lazybranch.
Proof.
  intros Hc. unfold code_at. rewrite Hc. unfold compile. destruct (emit cfg0 root 2 []) as [cr tbl]. reflexivity.
Qed.

(* stated once: [lia] is slow on the numeral 1000 in nat *)
Lemma clt_fuel_enough n v : (n < v)%nat -> (n < 1000 * v)%nat.
Proof. intros H. change (1000 * v)%nat with (v + 999 * v)%nat. apply Nat.lt_lt_add_r. exact H. Qed.

(* one execute() call against the attempt's unbounded path of n steps: the limit error, a state, or out of fuel,
   by the fuel alone *)
Lemma clt_exec_of_path e p c root t0 n sd sd' :
  0 <= trackcount p -> track_count (codes p) <= trackcount p -> codes p = fst (compile c root) ->
  code_at p 0 = Some Lazybranch -> attempt_path e p (a0 p t0) n sd sd' ->
  forall L vfuel, let x := exec_at e p L vfuel t0 in
    (x = Err E_StackLimit /\ 0 <= L) \/
    ((n < 1000 * vfuel)%nat /\ exists s', x = Ok s') \/
    ((1000 * vfuel <= n)%nat /\ x = Fuel).
Proof.
  intros Htc Htk Hcodes H0 Hap L vfuel x.
  destruct (lim_exec e p Htc (clt_weight c root p Hcodes Htk) L t0 Lazybranch n sd sd' H0 Hap vfuel) as [E|[J1 J2]];
    [left; exact E|right].
  fold x in J1, J2. clearbody x. revert J1 J2. generalize (1000 * vfuel)%nat. intros k J1 J2.
  destruct (Nat.lt_ge_cases n k) as [Hlt|Hge].
  - left. split; [exact Hlt|]. destruct (J1 Hlt) as (s1 & s2 & E1 & _). exists s1. exact E1.
  - right. split; [exact Hge|]. exact (proj1 (J2 Hge)).
Qed.

(* the unbounded path of one attempt, from compile_correct2_top_partial *)
Lemma clt_path e p : 0 <= trackcount p -> tlen e <= INF ->
  forall fuel o body t0 r,
  let root := NCapture o 0 (-1) body in
  codes p = fst (compile cfg0 root) -> strings p = snd (compile cfg0 root) ->
  supported2 root = true -> groups_ok2 (capsize p) root -> 0 <= t0 <= tlen e -> Z.of_nat fuel <= INF ->
  attempt e fuel root t0 = Ok r -> path_ok e p (a0 p t0) ->
  exists n sd sd', attempt_path e p (a0 p t0) n sd sd'.
Proof.
  intros Htc Htl fuel o body t0 r root Hcodes Hstr Hs Hg Ht0 Hf Hatt Hp.
  destruct (compile_correct2_top_partial e p Htc Htl fuel o body t0 r Hcodes Hstr Hs Hg Ht0 Hf Hatt)
    as (_ & t & T & S & C & M & Hpath & Hdone & _).
  destruct (usteps_counted e p _ _ Hpath) as [n Hn].
  exists n, (VMU.mk (2 + csize cfg0 root) 0 t T S C M), (VMU.mk (2 + csize cfg0 root) 0 t T S C M).
  split; [exact Hp|]. split; [exact Hn|exact Hdone].
Qed.

Theorem compile_exec_total_partial :
  forall (e : env) (p : program), 0 <= trackcount p -> track_count (codes p) <= trackcount p -> tlen e <= INF ->
  forall fuel o body t0 r,
  let root := NCapture o 0 (-1) body in
  codes p = fst (compile cfg0 root) -> strings p = snd (compile cfg0 root) ->
  supported2 root = true -> groups_ok2 (capsize p) root -> 0 <= t0 <= tlen e -> Z.of_nat fuel <= INF ->
  attempt e fuel root t0 = Ok r ->
  path_ok e p (a0 p t0) ->
  exists n : nat, forall L vfuel,
    let x := exec_at e p L vfuel t0 in
    ((x = Err E_StackLimit /\ 0 <= L) \/
     ((n < 1000 * vfuel)%nat /\ exists s', x = Ok s') \/
     ((1000 * vfuel <= n)%nat /\ x = Fuel)) /\
    (L < 0 -> (n < 1000 * vfuel)%nat -> exists s', x = Ok s').
Proof.
  intros e p Htc Htk Htl fuel o body t0 r root Hcodes Hstr Hs Hg Ht0 Hf Hatt Hp.
  destruct (clt_path e p Htc Htl fuel o body t0 r Hcodes Hstr Hs Hg Ht0 Hf Hatt Hp) as (n & sd & sd' & Hap).
  exists n. intros L vfuel x.
  pose proof (clt_exec_of_path e p cfg0 root t0 n sd sd' Htc Htk Hcodes (clt_code0 root p Hcodes) Hap L vfuel)
    as Hmain. cbv zeta in Hmain. fold x in Hmain.
  split; [exact Hmain|].
  intros HL Hlt. destruct Hmain as [[_ H]|[[_ H]|[H _]]]; [clear - HL H; lia|exact H|].
  exfalso. exact (proj1 (Nat.lt_nge _ _) Hlt H).
Qed.

Print Assumptions compile_exec_total_partial.

(* the same with the path hypothesis discharged by the monitor on the concrete instance *)
Theorem compile_exec_total_checked :
  forall (e : env) (p : program), 0 <= trackcount p -> track_count (codes p) <= trackcount p -> tlen e <= INF ->
  forall fuel o body t0 r k n,
  let root := NCapture o 0 (-1) body in
  codes p = fst (compile cfg0 root) -> strings p = snd (compile cfg0 root) ->
  supported2 root = true -> groups_ok2 (capsize p) root -> 0 <= t0 <= tlen e -> Z.of_nat fuel <= INF ->
  attempt e fuel root t0 = Ok r ->
  mon_steps e p k (a0 p t0) = Some n ->
  forall L vfuel,
    let x := exec_at e p L vfuel t0 in
    (x = Err E_StackLimit /\ 0 <= L) \/
    ((n < 1000 * vfuel)%nat /\ exists s', x = Ok s') \/
    ((1000 * vfuel <= n)%nat /\ x = Fuel).
Proof.
  intros e p Htc Htk Htl fuel o body t0 r k n root Hcodes Hstr Hs Hg Ht0 Hf Hatt Hm L vfuel x.
  destruct (mon_sound e p k _ n Hm) as (sd & sd' & Hap).
  exact (clt_exec_of_path e p cfg0 root t0 n sd sd' Htc Htk Hcodes (clt_code0 root p Hcodes) Hap L vfuel).
Qed.

Print Assumptions compile_exec_total_checked.

(* the whole scan: C13's dichotomy with its control-flow hypothesis replaced by path_ok on the unbounded paths *)
Theorem compile_find_dichotomy_partial :
  forall (e : env) (p : program), 0 <= trackcount p -> track_count (codes p) <= trackcount p -> tlen e <= INF ->
  forall fuel o body,
  let root := NCapture o 0 (-1) body in
  codes p = fst (compile cfg0 root) -> strings p = snd (compile cfg0 root) ->
  supported2 root = true -> groups_ok2 (capsize p) root -> Z.of_nat fuel <= INF ->
  (forall t, 0 <= t <= tlen e -> exists r, attempt e fuel root t = Ok r) ->
  (forall t, 0 <= t <= tlen e -> path_ok e p (a0 p t)) ->
  forall L vfuel rtl start prevlen, 0 <= start <= tlen e ->
    let r1 := vm_find e p L vfuel rtl start prevlen in
    let r2 := vm_find e p (-1) vfuel rtl start prevlen in
    (r1 = Err E_StackLimit /\ 0 <= L) \/
    match r1, r2 with
    | Ok a, Ok b => same_result a b
    | Fuel, Fuel => True
    | _, _ => False
    end.
Proof.
  intros e p Htc Htk Htl fuel o body root Hcodes Hstr Hs Hg Hf Hatt Hp L vfuel rtl start prevlen Hst r1 r2.
  pose proof (clt_weight cfg0 root p Hcodes Htk) as Hw.
  pose proof (clt_code0 root p Hcodes) as H0.
  assert (Hall : all_paths e p).
  { intros t Ht. destruct (Hatt t Ht) as [r Hr].
    exact (clt_path e p Htc Htl fuel o body t r Hcodes Hstr Hs Hg Ht Hf Hr (Hp t Ht)). }
  destruct (lim_find e p Htc Hw L Lazybranch vfuel rtl start prevlen H0 Hall Hst) as [E|H]; [left; exact E|]. right.
  fold r1 r2 in H. destruct r1 as [a| | |], r2 as [b| | |]; try exact H.
  eapply opt_rel_weaken. exact H.
Qed.

Print Assumptions compile_find_dichotomy_partial.

(* ---------- with the STATIC check of Proofs/CompileCfSafe.v instead of path_ok ----------
   tyck_auto p = true is a decidable property of the program alone (no input, no run): the frame-shape
   verifier accepts it.  cf_sound turns it into path_ok for every input and start position. *)
Theorem compile_exec_total_typed :
  forall (e : env) (p : program), 0 <= trackcount p -> track_count (codes p) <= trackcount p -> tlen e <= INF ->
  forall fuel o body t0 r,
  let root := NCapture o 0 (-1) body in
  codes p = fst (compile cfg0 root) -> strings p = snd (compile cfg0 root) ->
  supported2 root = true -> groups_ok2 (capsize p) root -> 0 <= t0 <= tlen e -> Z.of_nat fuel <= INF ->
  attempt e fuel root t0 = Ok r ->
  tyck_auto p = true ->
  exists n : nat, forall L vfuel,
    let x := exec_at e p L vfuel t0 in
    ((x = Err E_StackLimit /\ 0 <= L) \/
     ((n < 1000 * vfuel)%nat /\ exists s', x = Ok s') \/
     ((1000 * vfuel <= n)%nat /\ x = Fuel)) /\
    (L < 0 -> (n < 1000 * vfuel)%nat -> exists s', x = Ok s').
Proof.
  intros e p Htc Htk Htl fuel o body t0 r root Hcodes Hstr Hs Hg Ht0 Hf Hatt Hty.
  exact (compile_exec_total_partial e p Htc Htk Htl fuel o body t0 r Hcodes Hstr Hs Hg Ht0 Hf Hatt (cf_sound e p Hty t0)).
Qed.

Print Assumptions compile_exec_total_typed.

Theorem compile_find_dichotomy_typed :
  forall (e : env) (p : program), 0 <= trackcount p -> track_count (codes p) <= trackcount p -> tlen e <= INF ->
  forall fuel o body,
  let root := NCapture o 0 (-1) body in
  codes p = fst (compile cfg0 root) -> strings p = snd (compile cfg0 root) ->
  supported2 root = true -> groups_ok2 (capsize p) root -> Z.of_nat fuel <= INF ->
  (forall t, 0 <= t <= tlen e -> exists r, attempt e fuel root t = Ok r) ->
  tyck_auto p = true ->
  forall L vfuel rtl start prevlen, 0 <= start <= tlen e ->
    let r1 := vm_find e p L vfuel rtl start prevlen in
    let r2 := vm_find e p (-1) vfuel rtl start prevlen in
    (r1 = Err E_StackLimit /\ 0 <= L) \/
    match r1, r2 with
    | Ok a, Ok b => same_result a b
    | Fuel, Fuel => True
    | _, _ => False
    end.
Proof.
  intros e p Htc Htk Htl fuel o body root Hcodes Hstr Hs Hg Hf Hatt Hty.
  exact (compile_find_dichotomy_partial e p Htc Htk Htl fuel o body Hcodes Hstr Hs Hg Hf Hatt (fun t _ => cf_sound e p Hty t)).
Qed.

Print Assumptions compile_find_dichotomy_typed.

Example clt_demo_typed : tyck_auto c2_demo_prog = true /\ tyck_auto cc_demo_prog = true.
Proof. split; vm_compute; reflexivity. Qed.

(* ---------- instances: the hypotheses hold on the demos (monitor, by computation) ---------- *)
Example clt_demo :
  let e := cc_demo_env2 [97;97;98;98] in
  let p := c2_demo_prog in
  mon_steps e p 200 (a0 p 0) = Some 37%nat /\
  (forall L vfuel, let x := exec_at e p L vfuel 0 in
     (x = Err E_StackLimit /\ 0 <= L) \/ ((37 < 1000 * vfuel)%nat /\ exists s', x = Ok s') \/
     ((1000 * vfuel <= 37)%nat /\ x = Fuel)) /\
  exec_at e p 100 5 0 = Err E_StackLimit /\
  (exists s', exec_at e p 120 5 0 = Ok s' /\ tp s' = 4 /\ tcap s' = 120) /\
  exec_at e p (-1) 0 0 = Fuel.
Proof.
  cbv zeta. assert (Hm : mon_steps (cc_demo_env2 [97;97;98;98]) c2_demo_prog 200 (a0 c2_demo_prog 0) = Some 37%nat)
    by (vm_compute; reflexivity).
  split; [exact Hm|]. split.
  - intros L vfuel.
    assert (Hg : groups_ok2 (capsize c2_demo_prog) (NCapture 0 0 (-1) c2_demo_body)).
    { cbn. repeat split; try exact I; try (left; reflexivity); try (right; split); cbv; congruence. }
    apply (compile_exec_total_checked (cc_demo_env2 [97;97;98;98]) c2_demo_prog ltac:(vm_compute; congruence)
             ltac:(vm_compute; congruence) ltac:(cbv; congruence) 40 0 c2_demo_body 0 _ 200 37
             eq_refl eq_refl eq_refl Hg ltac:(cbv; split; congruence) ltac:(cbv; congruence)
             ltac:(vm_compute; reflexivity) Hm).
  - split; [vm_compute; reflexivity|]. split; [eexists; split; [vm_compute; reflexivity|split; reflexivity]|].
    vm_compute. reflexivity.
Qed.

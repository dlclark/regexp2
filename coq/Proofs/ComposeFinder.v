(* C03 x C04, second part: end-to-end soundness of the find modes whose fact C04 proves for the analyses of
   Model/Analysis2.v (prefixanalyzer.go / prefix.go).  Same shape as Proofs/FinderCompose.v:
     on a tree satisfying the C04 side conditions, whatever the decision ladder selected, if the DATA it
     publishes is the output of the analysis function, then the scan loop with the finder of that mode in
     front returns what Spec.find (the accelerator-free scan) returns.
   One attempt of the matcher is Spec.attempt ([bp_exec e fuel root bumpq]).
   Covered: fixed-distance sets / leading set (modes 21 / 16), fixed-distance char (19), fixed-distance
   string (20), literal after loop (22), leading strings exact / ignore-case (14 / 15), ignore-case leading
   string (13), landmark chain (23), and the legacy first-character loop of findFirstCharDefault (both
   directions).
   No new model: only the translation of the analysis' result records (Analysis2.fdset / lal / lm_alt, which
   carry class STRUCTURES or tree set ids) into the records the runner reads (Finder.fdset / fdlal / fdalt,
   which carry set ids answered by a CharIn oracle) and the composition of the two families of theorems.
   The inductions here are over that published data, never over the matcher: the list of sets (the i-th
   gets id i; the string findFixedDistanceString assembles from consecutive one-rune sets stands in the
   text, at the distance of one of them) and the landmark lists (every collected alternative has a
   positive minimum width; the translation keeps "the remaining landmarks stand in order"). *)
From Coq Require Import ZifyBool.
From Verif Require Import Base.Prelude Base.Utf8 Model.CharClass Model.Tree Model.Spec Model.Scan Model.Finder
     Model.Analysis Model.Analysis2
     Proofs.ScanProofs Proofs.ScanBumpProofs Proofs.FinderProofs Proofs.FinderCompose Proofs.Utf8Proofs
     Proofs.AnalysisReach Proofs.AnalysisProofs Proofs.AnalysisPrefix Proofs.AnalysisFacts
     Proofs.Analysis2Cls Proofs.Analysis2Ffcc Proofs.Analysis2Fixed Proofs.Analysis2Lal Proofs.Analysis2Prefixes
     Proofs.Analysis2Chain Proofs.Analysis2Fc Proofs.Analysis2Abbrev.

From Verif Require Import Proofs.ListFacts.
(* ---------- translation of the published fixed-distance sets ----------
   FixedDistanceSet.Set is a *CharSet; the finder model reads it through an oracle [set_in id]; the analysis
   model produces the class structure.  The i-th published set gets id i, and the oracle of the finder is
   CharIn of that structure as C16 models it ([char_in cat_in]). *)
Definition cf_fdset (i : Z) (f : Analysis2.fdset) : Finder.fdset :=
  {| Finder.fs_set := Some i; Finder.fs_chars := Analysis2.fs_chars f; Finder.fs_negated := Analysis2.fs_neg f;
     Finder.fs_range := Analysis2.fs_range f; Finder.fs_distance := Analysis2.fs_dist f |}.

Fixpoint cf_fdsets_from (i : Z) (L : list Analysis2.fdset) : list Finder.fdset :=
  match L with
  | [] => []
  | f :: L' => cf_fdset i f :: cf_fdsets_from (i + 1) L'
  end.
Definition cf_fdsets (L : list Analysis2.fdset) : list Finder.fdset := cf_fdsets_from 0 L.

Definition cf_set_in (cat_in : Z -> Z -> bool) (L : list Analysis2.fdset) (id x : Z) : bool :=
  match nth_error L (Z.to_nat id) with
  | Some f => char_in cat_in (Analysis2.fs_set f) x
  | None => false
  end.

Lemma cf_fdsets_from_in : forall L i s, 0 <= i -> In s (cf_fdsets_from i L) ->
  exists j f, 0 <= j /\ s = cf_fdset (i + j) f /\ nth_error L (Z.to_nat j) = Some f.
Proof.
  induction L as [|f0 L IH]; intros i s Hi Hin; cbn [cf_fdsets_from] in Hin; [destruct Hin|].
  destruct Hin as [<-|Hin].
  - exists 0, f0. split; [lia|]. split; [f_equal; lia|reflexivity].
  - destruct (IH (i + 1) s ltac:(lia) Hin) as (j & f & Hj & -> & Hn).
    exists (j + 1), f. split; [lia|]. split; [f_equal; lia|].
    replace (Z.to_nat (j + 1)) with (S (Z.to_nat j)) by lia. exact Hn.
Qed.

Lemma cf_fdsets_in : forall L s, In s (cf_fdsets L) ->
  exists j f, 0 <= j /\ s = cf_fdset j f /\ nth_error L (Z.to_nat j) = Some f.
Proof.
  intros L s Hin. destruct (cf_fdsets_from_in L 0 s ltac:(lia) Hin) as (j & f & Hj & -> & Hn).
  exists j, f. split; [exact Hj|]. split; [f_equal|exact Hn].
Qed.

(* ---------- findFixedDistanceString: the literal lies INSIDE the text, and its distance is a published one ---------- *)
Section CfString.
Variable cat_in : Z -> Z -> bool.
Variable e : env.
Variable p : Z.

Definition cf_lit_in (s : list Z) (d0 : Z) : Prop :=
  forall i, 0 <= i < zlen s -> p + d0 + i < tlen e /\ char_at e (p + d0 + i) = nth (Z.to_nat i) s 0.

Definition cf_cur_ok (cur : option (Z * list Z * Z)) : Prop :=
  match cur with None => True | Some (d0, s, dl) => dl = d0 + zlen s - 1 /\ cf_lit_in s d0 end.
Definition cf_best_ok (best : option (list Z * Z)) : Prop :=
  match best with None => True | Some (s, d0) => cf_lit_in s d0 end.

Lemma cf_close_ok cur best : cf_cur_ok cur -> cf_best_ok best -> cf_best_ok (fds_close_b cur best).
Proof.
  intros Hc Hb. unfold fds_close_b. destruct cur as [[[d0 s] dl]|]; [|exact Hb].
  destruct (_ <=? zlen s); [exact (proj2 Hc)|exact Hb].
Qed.

Lemma cf_lit_in_snoc s d0 c :
  cf_lit_in s d0 -> p + d0 + zlen s < tlen e -> char_at e (p + d0 + zlen s) = c -> cf_lit_in (s ++ [c]) d0.
Proof.
  intros Hs Hb Hc i Hi. unfold zlen in *. rewrite app_length in Hi. cbn [length] in Hi.
  destruct (Z_lt_ge_dec i (Z.of_nat (length s))) as [Hl|Hl].
  - rewrite app_nth1 by lia. apply Hs. unfold zlen. lia.
  - assert (i = Z.of_nat (length s)) by lia. subst i. rewrite app_nth2 by lia.
    replace (Z.to_nat (Z.of_nat (length s)) - length s)%nat with 0%nat by lia. cbn [nth]. split; [exact Hb|exact Hc].
Qed.

Lemma cf_lit_in_single c d0 : p + d0 < tlen e -> char_at e (p + d0) = c -> cf_lit_in [c] d0.
Proof.
  intros Hb Hc i Hi. unfold zlen in Hi. cbn [length] in Hi. assert (i = 0) by lia. subst i.
  replace (p + d0 + 0) with (p + d0) by lia. split; [exact Hb|exact Hc].
Qed.

Lemma cf_walk_ok : forall l cur best,
  (forall f, In f l -> fd_true cat_in e p f) -> cf_cur_ok cur -> cf_best_ok best -> cf_best_ok (fds_walk_b l cur best).
Proof.
  induction l as [|x l IH]; intros cur best Hl Hc Hb; cbn [fds_walk_b]; [apply cf_close_ok; assumption|].
  assert (Hx : fd_true cat_in e p x) by (apply Hl; left; reflexivity).
  assert (Hl' : forall f, In f l -> fd_true cat_in e p f) by (intros f Hf; apply Hl; right; exact Hf).
  destruct (fds_single x) as [c|] eqn:Es.
  - pose proof (fds_single_true cat_in e p x c Hx Es) as Hch.
    assert (Hin : p + Analysis2.fs_dist x < tlen e) by exact (proj1 (proj2 Hx)).
    destruct cur as [[[d0 s] dl]|].
    + destruct (Analysis2.fs_dist x =? dl + 1) eqn:Ed.
      * apply IH; [exact Hl'| |exact Hb]. destruct Hc as [Hdl Hs]. cbn [cf_cur_ok]. split.
        -- unfold zlen in *. rewrite app_length. cbn [length]. lia.
        -- apply cf_lit_in_snoc; [exact Hs| |].
           ++ replace (p + d0 + zlen s) with (p + Analysis2.fs_dist x) by lia. exact Hin.
           ++ rewrite <- Hch. f_equal. lia.
      * apply IH; [exact Hl'| |apply cf_close_ok; assumption]. cbn [cf_cur_ok]. split; [unfold zlen; cbn [length]; lia|].
        apply cf_lit_in_single; assumption.
    + apply IH; [exact Hl'| |exact Hb]. cbn [cf_cur_ok]. split; [unfold zlen; cbn [length]; lia|].
      apply cf_lit_in_single; assumption.
  - apply IH; [exact Hl'|exact I|apply cf_close_ok; assumption].
Qed.

Lemma cf_fds_string_in l str d0 :
  (forall f, In f l -> fd_true cat_in e p f) -> find_fixed_distance_string l = Some (str, d0) -> cf_lit_in str d0.
Proof.
  intros Hl. unfold find_fixed_distance_string. destruct (zlen l <? 2); [discriminate|]. intros H.
  assert (Hb : cf_best_ok (fds_walk_b (fds_sort l) None None)).
  { apply cf_walk_ok; [|exact I|exact I]. intros f Hf. apply Hl. apply fds_sort_in. exact Hf. }
  rewrite H in Hb. exact Hb.
Qed.
End CfString.

(* static: the distance of the extracted string is the distance of a published set *)
Definition cf_cur_d (l0 : list Analysis2.fdset) (cur : option (Z * list Z * Z)) : Prop :=
  match cur with None => True | Some (d0, _, _) => exists f, In f l0 /\ Analysis2.fs_dist f = d0 end.
Definition cf_best_d (l0 : list Analysis2.fdset) (best : option (list Z * Z)) : Prop :=
  match best with None => True | Some (_, d0) => exists f, In f l0 /\ Analysis2.fs_dist f = d0 end.

Lemma cf_close_d l0 cur best : cf_cur_d l0 cur -> cf_best_d l0 best -> cf_best_d l0 (fds_close_b cur best).
Proof.
  intros Hc Hb. unfold fds_close_b. destruct cur as [[[d0 s] dl]|]; [|exact Hb].
  destruct (_ <=? zlen s); [exact Hc|exact Hb].
Qed.

Lemma cf_walk_d l0 : forall l cur best,
  (forall f, In f l -> In f l0) -> cf_cur_d l0 cur -> cf_best_d l0 best -> cf_best_d l0 (fds_walk_b l cur best).
Proof.
  induction l as [|x l IH]; intros cur best Hl Hc Hb; cbn [fds_walk_b]; [apply cf_close_d; assumption|].
  assert (Hx : In x l0) by (apply Hl; left; reflexivity).
  assert (Hl' : forall f, In f l -> In f l0) by (intros f Hf; apply Hl; right; exact Hf).
  assert (Hnew : forall s dl, cf_cur_d l0 (Some (Analysis2.fs_dist x, s, dl))) by (intros s dl; exists x; auto).
  destruct (fds_single x) as [c|].
  - destruct cur as [[[d0 s] dl]|].
    + destruct (Analysis2.fs_dist x =? dl + 1).
      * apply IH; [exact Hl'|exact Hc|exact Hb].
      * apply IH; [exact Hl'|apply Hnew|apply cf_close_d; assumption].
    + apply IH; [exact Hl'|apply Hnew|exact Hb].
  - apply IH; [exact Hl'|exact I|apply cf_close_d; assumption].
Qed.

Lemma cf_fds_string_dist l str d0 :
  find_fixed_distance_string l = Some (str, d0) -> exists f, In f l /\ Analysis2.fs_dist f = d0.
Proof.
  unfold find_fixed_distance_string. destruct (zlen l <? 2); [discriminate|]. intros H.
  assert (Hb : cf_best_d l (fds_walk_b (fds_sort l) None None)).
  { apply cf_walk_d; [|exact I|exact I]. intros f Hf. apply fds_sort_in. exact Hf. }
  rewrite H in Hb. exact Hb.
Qed.

(* ---------- translation of the other published records ---------- *)
(* the record the runner reads: LiteralAfterLoop{String, StringIgnoreCase, Char, Chars, LoopNode.Set};
   a case-sensitive String is the Go string whose bytes the analysis collected ([]rune of it = runes_of),
   the ignore-case String is the ASCII rune list itself *)
Definition cf_lal (L : lal) : fdlal :=
  match lal_what L with
  | LalChar c =>
      {| lal_string := []; lal_string_ic := false; lal_char := c; lal_chars := []; lal_loop_set := Some (lal_loop L) |}
  | LalChars cs =>
      {| lal_string := []; lal_string_ic := false; lal_char := 0; lal_chars := cs; lal_loop_set := Some (lal_loop L) |}
  | LalString b false =>
      {| lal_string := runes_of b; lal_string_ic := false; lal_char := 0; lal_chars := [];
         lal_loop_set := Some (lal_loop L) |}
  | LalString cp true =>
      {| lal_string := cp; lal_string_ic := true; lal_char := 0; lal_chars := []; lal_loop_set := Some (lal_loop L) |}
  end.


Definition cf_alt (a : lm_alt) : fdalt :=
  {| la_literal := la_lit a; Finder.la_set := Analysis2.la_set a; la_lead_ws := la_lead a; la_trail_ws := la_trail a;
     Finder.la_min := Analysis2.la_min a; Finder.la_max := Analysis2.la_max a;
     Finder.la_req_before := Analysis2.la_req_before a; Finder.la_req_after := Analysis2.la_req_after a |}.

Definition cf_chain (loop : Z) (lms : list (list lm_alt)) : fdchain :=
  {| lc_loop_set := Some loop; lc_landmarks := map (map cf_alt) lms |}.

(* ---------- static facts about what the analyses publish ---------- *)
Section CfStatic.
Variable cat_in : Z -> Z -> bool.
Variable sets : list cls.
Variable root : node.

(* static: a published String is not empty *)
Lemma cf_lal_static : forall part_cc L,
  find_lit_after_loop cat_in part_cc sets root = Ok (Some L) ->
  match lal_what L with LalString b _ => b <> [] | _ => True end.
Proof.
  intros part_cc L. unfold find_lit_after_loop. cbv zeta.
  repeat match goal with
  | |- context [match ?x with _ => _ end] => destruct x eqn:?; try discriminate
  end.
  all: intros H; injection H as <-; cbn [lal_what]; try exact I; try discriminate.
  all: cbn [lal_what] in *;
       match goal with H : LalString _ _ = LalString _ _ |- _ => injection H as <- <- end; try discriminate.
  intros E. match goal with H : (2 <=? zlen ?x) = true |- _ => rewrite E in H; discriminate H end.
Qed.

Lemma cf_runes_of_nonempty : forall b, b <> [] -> runes_of b <> [].
Proof. intros [|x b] H; [contradiction|]. unfold runes_of, decode. cbn [decode_aux map]. discriminate. Qed.

Lemma cf_prefixes_static : forall part_cc ic ps,
  find_prefixes cat_in part_cc sets ic root = Some ps -> Forall (fun P => P <> []) ps.
Proof.
  intros part_cc ic ps. unfold find_prefixes. cbv zeta.
  destruct (_ || _) eqn:E; [discriminate|]. intros H. injection H as <-.
  apply orb_false_iff in E. destruct E as [_ E]. apply Forall_forall. intros P HP ->.
  assert (Hex : existsb (fun p => blen p <? MIN_PREFIX_LEN) (snd (fp_core cat_in part_cc sets ic true root [[]])) = true).
  { apply existsb_exists. exists []. split; [exact HP|reflexivity]. }
  congruence.
Qed.

(* static: MinRepeat of every published alternative is positive *)
Lemma cf_lm_core_min : forall t lit st mn mx, lm_core cat_in sets t = Some (lit, st, mn, mx) -> 0 < mn.
Proof.
  intros t lit st mn mx. unfold lm_core.
  repeat match goal with
  | |- context [match ?x with _ => _ end] => destruct x eqn:?; try discriminate
  end.
  all: intros H; injection H as <- <- <- <-; lia.
Qed.

Lemma cf_extract_alt_min : forall t a, extract_alt cat_in sets t = Some a -> 0 < Analysis2.la_min a.
Proof.
  intros t a. unfold extract_alt. cbv zeta.
  repeat match goal with
  | |- context [lm_core cat_in sets ?x] => let E := fresh "Ecore" in destruct (lm_core cat_in sets x) as [[[[? ?] ?] ?]|] eqn:E
  | |- context [match ?x with _ => _ end] => destruct x eqn:?; try discriminate
  end; try discriminate.
  all: intros H; injection H as <-; cbn [Analysis2.la_min];
       match goal with E : lm_core _ _ _ = Some _ |- _ => exact (cf_lm_core_min _ _ _ _ _ E) end.
Qed.

Lemma cf_all_some_forall {A} (P : A -> Prop) : forall (l : list (option A)) r,
  all_some l = Some r -> (forall x, In (Some x) l -> P x) -> Forall P r.
Proof.
  induction l as [|[a|] l IH]; intros r H HP; cbn [all_some] in H; [injection H as <-; constructor| |discriminate].
  destruct (all_some l) as [r'|] eqn:E; [|discriminate]. injection H as <-. constructor.
  - apply HP. left. reflexivity.
  - apply (IH r' eq_refl). intros x Hx. apply HP. right. exact Hx.
Qed.

Lemma cf_extract_landmark_min : forall t lm, extract_landmark cat_in sets t = Some lm ->
  Forall (fun a => 0 < Analysis2.la_min a) lm.
Proof.
  intros t lm. unfold extract_landmark.
  assert (Hone : forall nd, match extract_alt cat_in sets nd with Some a => Some [a] | None => None end = Some lm ->
                  Forall (fun a => 0 < Analysis2.la_min a) lm).
  { intros nd H. destruct (extract_alt cat_in sets nd) as [a|] eqn:E; [|discriminate]. injection H as <-.
    constructor; [exact (cf_extract_alt_min nd a E)|constructor]. }
  destruct (unwrap_t t) eqn:Eu; try (apply Hone).
  destruct (all_some (map (extract_alt cat_in sets) l)) as [[|a r]|] eqn:E; try discriminate.
  intros H. injection H as <-.
  apply (cf_all_some_forall _ _ _ E). intros x Hx. apply in_map_iff in Hx. destruct Hx as (nd & Hnd & _).
  exact (cf_extract_alt_min nd x Hnd).
Qed.

Lemma cf_lm_collect_min : forall l acc r, lm_collect cat_in sets l acc = Some r ->
  Forall (Forall (fun a => 0 < Analysis2.la_min a)) acc -> Forall (Forall (fun a => 0 < Analysis2.la_min a)) r.
Proof.
  induction l as [|x l IH]; intros acc r H Hacc; cbn [lm_collect] in H; [injection H as <-; exact Hacc|].
  destruct (extract_landmark cat_in sets x) as [lm|] eqn:E.
  - apply (IH _ _ H). apply Forall_app. split; [exact Hacc|]. constructor; [exact (cf_extract_landmark_min x lm E)|constructor].
  - destruct acc as [|a0 acc'].
    + destruct (is_zero_width_gap x); [|discriminate]. exact (IH _ _ H Hacc).
    + exact (IH _ _ H Hacc).
Qed.

Lemma cf_chain_static : forall loop lms, find_landmark_chain cat_in sets root = Some (loop, lms) ->
  Forall (Forall (fun a => 0 < Analysis2.la_min a)) lms.
Proof.
  intros loop lms. unfold find_landmark_chain. cbv zeta.
  destruct (match root with NCapture o _ _ _ | NConcat o _ => is_rtl o | _ => false end); [discriminate|].
  destruct (unwrap_t root); try discriminate.
  destruct (zlen l <? 4); [discriminate|]. destruct l as [|first rest]; [discriminate|].
  destruct (is_set_loop_inf (unwrap_t first)) as [lp|]; [|discriminate].
  destruct (lm_collect cat_in sets rest []) as [r|] eqn:E; [|discriminate].
  destruct (zlen r <? 2); [discriminate|]. intros H. injection H as <- <-.
  apply (cf_lm_collect_min rest [] r E). constructor.
Qed.

Lemma cf_chain_len : forall loop lms, find_landmark_chain cat_in sets root = Some (loop, lms) -> 2 <= zlen lms.
Proof.
  intros loop lms. unfold find_landmark_chain. cbv zeta.
  destruct (match root with NCapture o _ _ _ | NConcat o _ => is_rtl o | _ => false end); [discriminate|].
  destruct (unwrap_t root); try discriminate.
  destruct (zlen l <? 4); [discriminate|]. destruct l as [|first rest]; [discriminate|].
  destruct (is_set_loop_inf (unwrap_t first)) as [lp|]; [|discriminate].
  destruct (lm_collect cat_in sets rest []) as [r|]; [|discriminate].
  destruct (zlen r <? 2) eqn:E2; [discriminate|]. intros H. injection H as <- <-. lia.
Qed.

Lemma cf_alts_wf : forall alts, Forall (fun a => 0 < Analysis2.la_min a) alts -> fd_alts_wf (map cf_alt alts).
Proof.
  intros alts H a Hin. apply in_map_iff in Hin. destruct Hin as (a0 & <- & Hin0).
  rewrite Forall_forall in H. specialize (H a0 Hin0). cbn [cf_alt Finder.la_min]. lia.
Qed.

Lemma cf_chain_wf : forall lms, Forall (Forall (fun a => 0 < Analysis2.la_min a)) lms -> fd_chain_wf (map (map cf_alt) lms).
Proof.
  induction lms as [|alts lms IH]; intros H; cbn [map fd_chain_wf]; [exact I|].
  inversion H; subst. split; [apply cf_alts_wf; assumption|apply IH; assumption].
Qed.

End CfStatic.

(* ---------- the analysis' conclusions in the form the finder theorems take ---------- *)
Section CfGeneric.
Variable e : env.
Local Notation n := (tlen e).

(* rune-by-rune comparison: what the analysis proves is what the finder compares *)
Lemma cf_ci_eqc : forall (lower' : Z -> Z) (P : list Z) c x,
  (forall u, 65 <= u <= 90 -> lower' u = u + 32) ->
  ci_match c x = true -> fd_leading_eqc lower' true P x c = true.
Proof.
  intros lower' P c x Hlow H. unfold ci_match in H. unfold fd_leading_eqc.
  destruct (fd_is_ascii_runes P).
  - unfold fd_eq_fold_ascii, fd_fold_ascii.
    destruct ((65 <=? x) && (x <=? 90)) eqn:E1; destruct ((65 <=? c) && (c <=? 90)) eqn:E2; lia.
  - unfold fd_eq_lower. destruct (x =? c) eqn:E; [reflexivity|].
    assert (Hx : 65 <= x <= 90 /\ x = c - 32) by lia. rewrite (Hlow x (proj1 Hx)). lia.
Qed.

Lemma cf_ci_prefix_match : forall (lower' : Z -> Z) (cp : list Z) k,
  (forall u, 65 <= u <= 90 -> lower' u = u + 32) -> 0 <= k ->
  ci_ok e cp k -> fd_prefix_match (fd_leading_eqc lower' true cp) cp (skipn (Z.to_nat k) (txt e)) = true.
Proof.
  intros lower' cp k Hlow Hk Hok.
  destruct (Z.eq_dec (zlen cp) 0) as [Hz|Hz].
  - destruct cp; [reflexivity|]. rewrite zlen_cons in Hz. pose proof (zlen_nonneg cp). lia.
  - pose proof (zlen_nonneg cp) as Hnn.
    destruct (Hok (zlen cp - 1) ltac:(lia)) as [Hb _]. unfold tlen in Hb.
    apply fd_prefix_match_intro.
    + rewrite fd_zlen_skipn by lia. lia.
    + intros j Hj. rewrite fd_nth_skipn_Z by lia. destruct (Hok j Hj) as [_ Hc].
      apply cf_ci_eqc; [exact Hlow|exact Hc].
Qed.

Lemma cf_pm_eqc : forall (ic : bool) c x,
  (ic = true -> forall u, 65 <= u <= 90 -> lower e u = u + 32) ->
  pm ic c x = true -> fd_strings_eqc (lower e) ic x c = true.
Proof.
  intros ic c x Hlow H. unfold pm in H. unfold fd_strings_eqc. destruct ic.
  - unfold ci_match in H. unfold fd_eq_lower. destruct (x =? c) eqn:E; [reflexivity|].
    assert (Hx : 65 <= x <= 90 /\ x = c - 32) by lia. rewrite (Hlow eq_refl x (proj1 Hx)). lia.
  - unfold fd_eq_exact. exact H.
Qed.

(* one alternative: the analysis' [alt_at] gives the finder's [fd_alt_match_at] *)
Lemma cf_alt_match : forall a s c en t, alt_at e a s c en t ->
  fd_alt_match_at (txt e) (set_in e) (cf_alt a) c en /\ 0 <= s <= c /\ en <= t <= n /\
  (forall i, s <= i < c -> fd_opt_set_in (set_in e) (la_lead a) (nth (Z.to_nat i) (txt e) 0) = true).
Proof.
  intros a s c en t (Hlead & Hrb & Hcore & Htrail & Hra & Hs0 & Htn).
  unfold tlen in Htn.
  assert (Hsc : s <= c) by (unfold ws_run in Hlead; destruct (la_lead a); [exact (proj1 Hlead)|lia]).
  assert (Het : en <= t) by (unfold ws_run in Htrail; destruct (la_trail a); [exact (proj1 Htrail)|lia]).
  split; [|split; [lia|split; [unfold tlen; lia|]]].
  - unfold fd_alt_match_at. cbn [cf_alt Finder.la_req_before Finder.la_req_after la_lead_ws la_trail_ws la_literal
                                 Finder.la_set Finder.la_min Finder.la_max].
    split; [|split].
    + intros Hb. specialize (Hrb Hb). split; [lia|]. unfold ws_run in Hlead.
      destruct (la_lead a) as [ws|]; [|lia]. exists ws. split; [reflexivity|]. apply (proj2 Hlead). lia.
    + destruct (Analysis2.la_set a) as [sid|].
      * destruct Hcore as (Hl & Hmn & Hb & Hrun). right. split; [exact Hl|]. exists sid. split; [reflexivity|].
        split; [exact Hmn|]. split.
        -- unfold fd_alt_emax. cbn [cf_alt Finder.la_max Finder.la_min]. destruct (Analysis2.la_max a <=? 0) eqn:E; lia.
        -- split; [lia|exact Hrun].
      * destruct Hcore as (Hl & Hen & Hch). left. split; [exact Hl|]. split; [exact Hen|].
        apply fd_prefix_match_intro.
        -- rewrite fd_zlen_skipn by (unfold tlen in Htn; pose proof (zlen_nonneg (la_lit a)); lia).
           unfold tlen in Htn. lia.
        -- intros j Hj. rewrite fd_nth_skipn_Z by lia. unfold fd_eq_exact. specialize (Hch j Hj).
           unfold char_at in Hch. rewrite Hch. apply Z.eqb_refl.
    + intros Ha. specialize (Hra Ha). split; [unfold tlen in Htn; lia|]. unfold ws_run in Htrail.
      destruct (la_trail a) as [ws|]; [|lia]. exists ws. split; [reflexivity|]. apply (proj2 Htrail). lia.
  - intros i Hi. unfold ws_run in Hlead. unfold fd_opt_set_in. destruct (la_lead a) as [ws|]; [|lia].
    apply (proj2 Hlead). exact Hi.
Qed.

Lemma cf_chain_rest : forall lms from from', chain_from e lms from -> from' <= from ->
  fd_chain_rest (txt e) (set_in e) (map (map cf_alt) lms) from'.
Proof.
  induction lms as [|alts lms IH]; intros from from' H Hle; cbn [map fd_chain_rest]; [exact I|].
  cbn [chain_from] in H. destruct H as (a & s & c & en & t & Hin & Hfs & Hat & Hrest).
  destruct (cf_alt_match a s c en t Hat) as (Hm & Hsc & Het & _).
  exists (cf_alt a), c, en. split; [apply in_map; exact Hin|]. split; [lia|]. split; [lia|]. split; [exact Hm|].
  apply (IH t en Hrest). lia.
Qed.

End CfGeneric.

Section ComposeFinder.
Variable e : env.
Variable fuel : nat.
Variable root : node.
Variable bumpq : Z -> Z.
Variable later_useful : bool.

Local Notation exec := (bp_exec e fuel root bumpq).
Local Notation n := (tlen e).
Local Notation f := (facts false later_useful root).

Hypothesis Hshape : shape_ok false root = true.
Hypothesis Hnoci : no_ci_lit root = true.
Hypothesis Hlook : look_ok root = true.
Hypothesis Hfuel : forall x, 0 <= x <= n -> exists r, attempt e fuel root x = Ok r.
Hypothesis H3 : sc_H3 st n false exec.

Lemma cf_optimized_scan : forall (set_in' : Z -> Z -> bool) (lower' : Z -> Z) (g : fdopts),
  fo_minreq g = f_min f -> fd_mode_handled g = true ->
  fd_mode_fact st (txt e) exec set_in' lower' g ->
  forall start prevlen, 0 <= start <= n ->
  exists r, find e fuel root false start prevlen = Ok r /\
            scan n false (f_min f) (fd_total (fd_optimized_finder (txt e) set_in' lower' g)) exec start prevlen = Ok r.
Proof. exact (fc_optimized_scan e fuel root bumpq later_useful Hshape Hnoci Hlook Hfuel H3). Qed.

(* the class table of the tree and the tie between the semantics' oracle and C16's CharIn *)
Variable cat_in : Z -> Z -> bool.
Variable sets : list cls.
Hypothesis Hgood : forallb cls_good_b sets = true.
Hypothesis Hagree : forall id x, set_in e id x = char_in cat_in (set_cls sets id) x.

Let Hgood' : sets_good cat_in sets := sets_good_b cat_in sets Hgood.

(* ===== fixed-distance sets / leading set, fixed-distance char, fixed-distance string ===== *)
Hypothesis Hvalid : forall i, 0 <= char_at e i <= 1114111.
Hypothesis Hshort : n < INF.
Hypothesis Hlits : lits_ok root = true.

Lemma cf_raw_dist_nonneg th :
  forall S d, In (S, d) (fixed_distance_raw cat_in sets th root) -> 0 <= d.
Proof.
  intros S d Hin. unfold fixed_distance_raw in Hin.
  destruct (syn_loc cat_in sets th root (syn_all cat_in sets th Hgood' root Hshape Hlits)) as (_ & Hall & _).
  unfold locof, rf_res in Hall. destruct (raw_fixed cat_in sets th root [] 0) as [[ok res] dd]. cbn [fst snd] in Hall.
  destruct (filter (fun sd : cls * Z => negb (anything (fst sd))) res) as [|f0 fl] eqn:Ef.
  - destruct (find_first_char_class cat_in sets root) as [c|]; [|destruct Hin].
    destruct (anything c); [destruct Hin|]. destruct Hin as [Heq|[]]. injection Heq as <- <-. lia.
  - rewrite <- Ef in Hin. apply filter_In in Hin. destruct Hin as [Hin _]. exact (proj1 (proj2 (Hall S d Hin))).
Qed.

Lemma cf_fds_dist_nonneg th :
  forall f0, In f0 (find_fixed_distance_sets cat_in sets th root) -> 0 <= Analysis2.fs_dist f0.
Proof.
  intros f0 Hin. unfold find_fixed_distance_sets in Hin. apply in_map_iff in Hin. destruct Hin as [[S d] [<- Hin]].
  replace (Analysis2.fs_dist (fd_decorate cat_in (S, d))) with d.
  - exact (cf_raw_dist_nonneg th S d Hin).
  - unfold fd_decorate. cbn [fst snd]. destruct (get_if_one_range S) as [[a b]|]; [destruct (1 <? b - a)|]; reflexivity.
Qed.

(* every published set holds at every successful attempt, and its decoration is exact *)
Lemma cf_all_true th : forall q, 0 <= q <= n -> fd_succeeds st exec q ->
  forall f0, In f0 (find_fixed_distance_sets cat_in sets th root) -> fd_true cat_in e q f0.
Proof.
  intros q Hq Hs. destruct (fc_succeeds_attempt e fuel root bumpq q Hs) as [s' Hat].
  exact (abbrev_all_true cat_in sets Hgood' e q Hagree Hvalid Hshort th fuel root s' Hshape Hnoci Hlits Hq Hat).
Qed.

(* the decoration Chars / Range / Negated answers exactly what CharIn of the Set answers (static) *)
Lemma cf_abbrev_exact th : forall f0, In f0 (find_fixed_distance_sets cat_in sets th root) ->
  forall j (L : list Analysis2.fdset), nth_error L (Z.to_nat j) = Some f0 -> 0 <= j ->
  forall c, fd_char_in_fds (cf_set_in cat_in L) (cf_fdset j f0) c = cf_set_in cat_in L j c.
Proof.
  intros f0 Hin j L Hn Hj c. unfold cf_set_in at 2. rewrite Hn.
  unfold find_fixed_distance_sets in Hin. apply in_map_iff in Hin. destruct Hin as [[S d] [Heq Hin]].
  destruct (abbrev_decorate cat_in S d (abbrev_raw_good cat_in sets Hgood' th root Hshape Hlits S d Hin))
    as (E1 & E2 & E3 & E4 & E5).
  rewrite Heq in E1, E2, E3, E4, E5.
  unfold fd_char_in_fds, cf_fdset.
  cbn [Finder.fs_chars Finder.fs_negated Finder.fs_range Finder.fs_set].
  destruct (Analysis2.fs_chars f0) as [|c0 cs] eqn:Ec.
  - destruct (Analysis2.fs_range f0) as [[a b]|] eqn:Er.
    + rewrite E1. rewrite (E4 a b eq_refl c). destruct (Analysis2.fs_neg f0); symmetry; [apply Bool.xorb_true_l | apply Bool.xorb_false_l].
    + unfold cf_set_in. rewrite Hn. reflexivity.
  - rewrite E1. rewrite (E5 ltac:(discriminate) c). unfold zmem. destruct (Analysis2.fs_neg f0); symmetry; [apply Bool.xorb_true_l | apply Bool.xorb_false_l].
Qed.

Lemma cf_fds_fact th : forall L,
  (forall f0, In f0 L -> In f0 (find_fixed_distance_sets cat_in sets th root)) ->
  fd_fds_fact st (txt e) exec (cf_set_in cat_in L) (cf_fdsets L).
Proof.
  intros L HL. apply fd_fds_fact_of_sets.
  - intros s Hin. destruct (cf_fdsets_in L s Hin) as (j & f0 & Hj & -> & Hn).
    exists j. split; [reflexivity|]. intros c.
    apply (cf_abbrev_exact th f0); [apply HL; eapply nth_error_In; exact Hn|exact Hn|exact Hj].
  - intros q Hq Hs s id Hin Hid. destruct (cf_fdsets_in L s Hin) as (j & f0 & Hj & -> & Hn).
    cbn [cf_fdset Finder.fs_set] in Hid. injection Hid as <-. cbn [cf_fdset Finder.fs_distance].
    assert (Hf0 : In f0 (find_fixed_distance_sets cat_in sets th root)) by (apply HL; eapply nth_error_In; exact Hn).
    destruct (cf_all_true th q Hq Hs f0 Hf0) as (A & B & C & _).
    split; [unfold tlen in B; lia|]. unfold cf_set_in. rewrite Hn. exact C.
Qed.

(* FixedDistanceSets_LeftToRight / LeadingSet_LeftToRight: the published list is any non-empty selection L of
   the sets findFixedDistanceSets computes (the quality sort and the truncation to the best few only select
   and reorder), the i-th published Set answering CharIn as the C16 model does on its structure *)
Theorem cf_mode_fixed_distance_sets_sound : forall (th : bool) (L : list Analysis2.fdset) (g : fdopts),
  L <> [] -> (forall f0, In f0 L -> In f0 (find_fixed_distance_sets cat_in sets th root)) ->
  fo_mode g = FM_LeadingSet_LeftToRight \/ fo_mode g = FM_FixedDistanceSets_LeftToRight ->
  fo_minreq g = f_min f -> fo_sets g = cf_fdsets L ->
  forall start prevlen, 0 <= start <= n ->
  exists r, find e fuel root false start prevlen = Ok r /\
            scan n false (f_min f) (fd_total (fd_optimized_finder (txt e) (cf_set_in cat_in L) (lower e) g))
                 exec start prevlen = Ok r.
Proof.
  intros th L g HLne HL Hm Hmr Hsets. apply cf_optimized_scan; [exact Hmr| |].
  - unfold fd_mode_handled. cbv zeta. destruct Hm as [-> | ->]; reflexivity.
  - unfold fd_mode_fact. cbv zeta.
    assert (Hfact : exists primary rest id, fo_sets g = primary :: rest /\ Finder.fs_set primary = Some id /\
              0 <= Finder.fs_distance primary /\ fd_fds_fact st (txt e) exec (cf_set_in cat_in L) (fo_sets g)).
    { rewrite Hsets. destruct L as [|f0 L']; [contradiction|].
      exists (cf_fdset 0 f0), (cf_fdsets_from 1 L'), 0. split; [reflexivity|]. split; [reflexivity|]. split.
      - cbn [cf_fdset Finder.fs_distance]. apply (cf_fds_dist_nonneg th). apply HL. left. reflexivity.
      - exact (cf_fds_fact th (f0 :: L') HL). }
    destruct Hm as [-> | ->]; exact Hfact.
Qed.

(* FixedDistanceChar_LeftToRight: a published set whose Chars is one valid non-negated rune *)
Theorem cf_mode_fixed_distance_char_sound : forall (th : bool) (f0 : Analysis2.fdset) (c : Z) (g : fdopts),
  In f0 (find_fixed_distance_sets cat_in sets th root) -> fds_single f0 = Some c ->
  fo_mode g = FM_FixedDistanceChar_LeftToRight -> fo_minreq g = f_min f ->
  fo_fdl_c g = c -> fo_fdl_distance g = Analysis2.fs_dist f0 ->
  forall (set_in' : Z -> Z -> bool) start prevlen, 0 <= start <= n ->
  exists r, find e fuel root false start prevlen = Ok r /\
            scan n false (f_min f) (fd_total (fd_optimized_finder (txt e) set_in' (lower e) g)) exec start prevlen = Ok r.
Proof.
  intros th f0 c g Hin Hsg Hm Hmr Hc Hd set_in'. apply cf_optimized_scan; [exact Hmr| |].
  - unfold fd_mode_handled. cbv zeta. rewrite Hm. reflexivity.
  - unfold fd_mode_fact. cbv zeta. rewrite Hm. cbn. rewrite Hc, Hd. split; [exact (cf_fds_dist_nonneg th f0 Hin)|].
    intros q Hq Hs. pose proof (cf_all_true th q Hq Hs f0 Hin) as Ht.
    split; [exact (proj1 (proj2 Ht))|exact (fds_single_true cat_in e q f0 c Ht Hsg)].
Qed.

(* FixedDistanceString_LeftToRight: the string findFixedDistanceString extracts from the published sets *)
Theorem cf_mode_fixed_distance_string_sound : forall (th : bool) (str : list Z) (d0 : Z) (g : fdopts),
  find_fixed_distance_string (find_fixed_distance_sets cat_in sets th root) = Some (str, d0) ->
  fo_mode g = FM_FixedDistanceString_LeftToRight -> fo_minreq g = f_min f ->
  fo_fdl_s g = str -> fo_fdl_distance g = d0 ->
  forall (set_in' : Z -> Z -> bool) start prevlen, 0 <= start <= n ->
  exists r, find e fuel root false start prevlen = Ok r /\
            scan n false (f_min f) (fd_total (fd_optimized_finder (txt e) set_in' (lower e) g)) exec start prevlen = Ok r.
Proof.
  intros th str d0 g Hstr Hm Hmr Hs Hd set_in'. apply cf_optimized_scan; [exact Hmr| |].
  - unfold fd_mode_handled. cbv zeta. rewrite Hm. reflexivity.
  - unfold fd_mode_fact. cbv zeta. rewrite Hm. cbn. rewrite Hs, Hd.
    assert (Hd0 : 0 <= d0).
    { destruct (cf_fds_string_dist _ str d0 Hstr) as (f0 & Hin & <-). exact (cf_fds_dist_nonneg th f0 Hin). }
    split; [exact Hd0|].
    intros q Hq Hsq.
    pose proof (cf_fds_string_in cat_in e q _ str d0 (cf_all_true th q Hq Hsq) Hstr) as Hlit.
    destruct (Z.eq_dec (zlen str) 0) as [Hz|Hz].
    + destruct str; [reflexivity|]. rewrite zlen_cons in Hz. pose proof (zlen_nonneg str). lia.
    + pose proof (zlen_nonneg str) as Hnn.
      destruct (Hlit (zlen str - 1) ltac:(lia)) as [Hb _]. unfold tlen in Hb.
      apply fd_prefix_match_intro.
      * rewrite fd_zlen_skipn by lia. lia.
      * intros j Hj. rewrite fd_nth_skipn_Z by lia. unfold fd_eq_exact.
        destruct (Hlit j Hj) as [_ Hc]. unfold char_at in Hc.
        replace (q + d0 + j) with (q + d0 + j) in Hc by lia. rewrite Hc. apply Z.eqb_refl.
Qed.


(* ===== literal after a leading loop (FindMode 22) ===== *)



Lemma cf_lal_fact : forall part_cc L,
  find_lit_after_loop cat_in part_cc sets root = Ok (Some L) ->
  (forall b, lal_what L = LalString b false -> valid_utf8 b = true) ->
  (forall u, 65 <= u <= 90 -> lower e u = u + 32) ->
  forallb Utf8.valid_rune (txt e) = true ->
  fd_lal_fact st (txt e) exec (lower e) (set_in e) (cf_lal L) (lal_loop L).
Proof using Hshape Hnoci Hgood Hgood' Hagree Hshort.
  clear Hvalid Hlits Hlook Hfuel H3.
  intros part_cc L HL Hutf Hlow Hsc q Hq Hs.
  destruct (fc_succeeds_attempt e fuel root bumpq q Hs) as [s' Hat].
  destruct (a2_lit_after_loop_sound e cat_in part_cc sets Hgood' Hagree Hshort Hsc fuel root q s' L
              Hshape Hnoci Hq HL Hat) as (k & Hk & Hrun & Hlit).
  exists k. split; [exact Hk|]. split; [exact Hrun|].
  pose proof (cf_lal_static cat_in sets root part_cc L HL) as Hst.
  unfold fd_lal_literal_at, cf_lal. unfold lal_lit_at in Hlit.
  destruct (lal_what L) as [c|b ic|cs] eqn:Ew.
  - cbn [lal_string lal_chars lal_char]. exact Hlit.
  - destruct ic.
    + cbn [lal_string lal_string_ic]. destruct b as [|b0 b']; [contradiction|].
      apply (cf_ci_prefix_match e (lower e) (b0 :: b') k Hlow); [lia|exact Hlit].
    + cbn [lal_string lal_string_ic].
      pose proof (cf_runes_of_nonempty b Hst) as Hne.
      destruct (runes_of b) as [|r0 rs] eqn:Er; [contradiction|].
      destruct (Hlit (Hutf b eq_refl)) as [rest Hrest]. rewrite Hrest. unfold fd_leading_eqc.
      apply fc_prefix_match_app.
  - cbn [lal_string lal_chars lal_char]. destruct Hlit as [Hlt Hin].
    destruct cs as [|c0 cs']; [destruct Hin|]. split; [exact Hlt|].
    unfold zmem. apply (proj2 (abbrev_existsb_in _ _)). exact Hin.
Qed.

Theorem cf_mode_literal_after_loop_sound : forall (part_cc : Z -> bool) (L : lal) (g : fdopts),
  find_lit_after_loop cat_in part_cc sets root = Ok (Some L) ->
  (forall b, lal_what L = LalString b false -> valid_utf8 b = true) ->
  (forall u, 65 <= u <= 90 -> lower e u = u + 32) ->
  forallb Utf8.valid_rune (txt e) = true ->
  fo_mode g = FM_LiteralAfterLoop_LeftToRight -> fo_minreq g = f_min f -> fo_lal g = Some (cf_lal L) ->
  forall start prevlen, 0 <= start <= n ->
  exists r, find e fuel root false start prevlen = Ok r /\
            scan n false (f_min f) (fd_total (fd_optimized_finder (txt e) (set_in e) (lower e) g)) exec start prevlen = Ok r.
Proof using Hshape Hnoci Hlook Hfuel H3 Hgood Hgood' Hagree Hshort.
  intros part_cc L g HL Hutf Hlow Hsc Hm Hmr Hlal. apply cf_optimized_scan; [exact Hmr| |].
  - unfold fd_mode_handled. cbv zeta. rewrite Hm. reflexivity.
  - unfold fd_mode_fact. cbv zeta. rewrite Hm. cbn.
    exists (cf_lal L), (lal_loop L). split; [exact Hlal|]. split.
    + unfold cf_lal. destruct (lal_what L) as [c|b [|]|cs]; reflexivity.
    + exact (cf_lal_fact part_cc L HL Hutf Hlow Hsc).
Qed.

(* ===== leading strings (FindMode 14 / 15) and the ignore-case leading string (13) ===== *)



Lemma cf_prefixes_fact : forall part_cc ic ps,
  find_prefixes cat_in part_cc sets ic root = Some ps ->
  (ic = true -> forall u, 65 <= u <= 90 -> lower e u = u + 32) ->
  fd_prefixes_fact st (txt e) exec (fd_strings_eqc (lower e) ic) ps.
Proof using Hshape Hnoci Hgood Hgood' Hagree.
  clear Hvalid Hshort Hlits Hlook Hfuel H3.
  intros part_cc ic ps Hps Hlow q Hq Hs.
  destruct (fc_succeeds_attempt e fuel root bumpq q Hs) as [s' Hat].
  destruct (a2_prefixes_sound e cat_in part_cc sets ic Hgood' Hagree fuel root q s' ps Hshape Hnoci Hq Hps Hat)
    as (P & HP & Hok).
  exists P. split; [exact HP|]. unfold pw_ok in Hok.
  destruct (Z.eq_dec (zlen P) 0) as [Hz|Hz].
  - destruct P; [reflexivity|]. rewrite zlen_cons in Hz. pose proof (zlen_nonneg P). lia.
  - pose proof (zlen_nonneg P) as Hnn.
    destruct (Hok (zlen P - 1) ltac:(lia)) as [Hb _]. unfold tlen in Hb.
    apply fd_prefix_match_intro.
    + rewrite fd_zlen_skipn by lia. lia.
    + intros j Hj. rewrite fd_nth_skipn_Z by lia. destruct (Hok j Hj) as [_ Hc].
      apply (cf_pm_eqc e); [exact Hlow|exact Hc].
Qed.

(* LeadingStrings_LeftToRight / LeadingStrings_OrdinalIgnoreCase_LeftToRight: the published LeadingPrefixes
   are the rune lists findPrefixes computes (their Go strings read back as the same runes when valid:
   C04_prefix_runes), LeadingPrefixFirstRunes is what leadingPrefixFirstRunes computes from them *)
Theorem cf_mode_leading_strings_sound : forall (part_cc : Z -> bool) (ic : bool) (ps : list (list Z)) (g : fdopts),
  find_prefixes cat_in part_cc sets ic root = Some ps -> ps <> [] ->
  (ic = true -> forall u, 65 <= u <= 90 -> lower e u = u + 32) ->
  fo_mode g = (if ic then FM_LeadingStrings_OrdinalIgnoreCase_LeftToRight else FM_LeadingStrings_LeftToRight) ->
  fo_minreq g = f_min f -> fo_prefixes g = ps ->
  (ic = false -> fo_first_runes g = fd_leading_prefix_first_runes ps) ->
  forall (set_in' : Z -> Z -> bool) start prevlen, 0 <= start <= n ->
  exists r, find e fuel root false start prevlen = Ok r /\
            scan n false (f_min f) (fd_total (fd_optimized_finder (txt e) set_in' (lower e) g)) exec start prevlen = Ok r.
Proof using Hshape Hnoci Hlook Hfuel H3 Hgood Hgood' Hagree.
  intros part_cc ic ps g Hps Hne Hlow Hm Hmr Hpre Hfirst set_in'. apply cf_optimized_scan; [exact Hmr| |].
  - unfold fd_mode_handled. cbv zeta. rewrite Hm. destruct ic; reflexivity.
  - unfold fd_mode_fact. cbv zeta. rewrite Hm, Hpre.
    pose proof (cf_prefixes_static cat_in sets root part_cc ic ps Hps) as Hall.
    pose proof (cf_prefixes_fact part_cc ic ps Hps Hlow) as Hfact.
    destruct ic; cbn.
    + split; [exact Hne|]. split; [exact Hall|exact Hfact].
    + split; [exact Hne|]. split; [exact Hall|]. split; [|exact Hfact].
      rewrite (Hfirst eq_refl). exact (fd_leading_prefix_first_runes_ok ps).
Qed.

(* LeadingString_OrdinalIgnoreCase_LeftToRight: the published prefix is the ASCII rune list
   findPrefixOrdinalCaseInsensitive computes *)
Theorem cf_mode_leading_string_ic_sound : forall (part_cc : Z -> bool) (g : fdopts),
  (forall u, 65 <= u <= 90 -> lower e u = u + 32) ->
  fo_mode g = FM_LeadingString_OrdinalIgnoreCase_LeftToRight -> fo_minreq g = f_min f ->
  fo_prefix g = ci_prefix cat_in part_cc sets root ->
  forall (set_in' : Z -> Z -> bool) start prevlen, 0 <= start <= n ->
  exists r, find e fuel root false start prevlen = Ok r /\
            scan n false (f_min f) (fd_total (fd_optimized_finder (txt e) set_in' (lower e) g)) exec start prevlen = Ok r.
Proof using Hshape Hnoci Hlook Hfuel H3 Hgood Hgood' Hagree Hshort.
  clear Hvalid Hlits.
  intros part_cc g Hlow Hm Hmr Hpre set_in'. apply cf_optimized_scan; [exact Hmr| |].
  - unfold fd_mode_handled. cbv zeta. rewrite Hm. reflexivity.
  - unfold fd_mode_fact. cbv zeta. rewrite Hm, Hpre. cbn.
    intros q Hq Hs. destruct (fc_succeeds_attempt e fuel root bumpq q Hs) as [s' Hat].
    pose proof (attempt_reach e _ _ _ _ Hat) as Hr.
    pose proof (ci_prefix_sound e cat_in part_cc sets Hgood' Hagree Hshort root _ _ Hr Hshape Hnoci Hq) as Hok.
    cbn [pos] in Hok. apply (cf_ci_prefix_match e); [exact Hlow|lia|exact Hok].
Qed.

(* ===== required landmark chain (FindMode 23) ===== *)



Lemma cf_chain_fact : forall loop alts rest,
  find_landmark_chain cat_in sets root = Some (loop, alts :: rest) ->
  fd_chain_fact st (txt e) exec (set_in e) loop (map cf_alt alts) (map (map cf_alt) rest).
Proof using Hshape Hnoci Hlits Hshort.
  clear Hvalid Hgood' Hgood Hagree Hlook Hfuel H3.
  intros loop alts rest Hc q Hq Hs.
  destruct (fc_succeeds_attempt e fuel root bumpq q Hs) as [s' Hat].
  destruct (a2_landmark_chain_sound e cat_in sets Hshort fuel root q s' loop (alts :: rest) Hshape Hnoci Hlits Hq Hc Hat)
    as (s1 & Hs1 & Hrun & Hfirst & _).
  cbn [chain_first] in Hfirst. destruct Hfirst as (a & c & en & t & Hin & Halt & Hrest).
  destruct (cf_alt_match e a s1 c en t Halt) as (Hm & Hsc & Het & Hws).
  exists (cf_alt a), s1, c, en. split; [apply in_map; exact Hin|]. split; [lia|]. split; [exact Hrun|].
  split; [exact Hws|]. split; [exact Hm|]. apply (cf_chain_rest e rest t en Hrest). lia.
Qed.

(* RequiredLandmarkChain_LeftToRight: the published chain is what findRequiredLandmarkChain computes
   (LeadingLoopSet and the landmark sets are set ids of the tree, answered by the semantics' own oracle) *)
Theorem cf_mode_landmark_chain_sound : forall (loop : Z) (lms : list (list lm_alt)) (g : fdopts),
  find_landmark_chain cat_in sets root = Some (loop, lms) ->
  fo_mode g = FM_RequiredLandmarkChain_LeftToRight -> fo_minreq g = f_min f ->
  fo_chain g = Some (cf_chain loop lms) ->
  forall start prevlen, 0 <= start <= n ->
  exists r, find e fuel root false start prevlen = Ok r /\
            scan n false (f_min f) (fd_total (fd_optimized_finder (txt e) (set_in e) (lower e) g)) exec start prevlen = Ok r.
Proof using Hshape Hnoci Hlook Hfuel H3 Hlits Hshort.
  clear Hvalid Hgood' Hgood Hagree.
  intros loop lms g Hc Hm Hmr Hch. apply cf_optimized_scan; [exact Hmr| |].
  - unfold fd_mode_handled. cbv zeta. rewrite Hm. reflexivity.
  - unfold fd_mode_fact. cbv zeta. rewrite Hm. cbn.
    pose proof (cf_chain_static cat_in sets root loop lms Hc) as Hst.
    destruct lms as [|alts rest].
    { exfalso. pose proof (cf_chain_len cat_in sets root loop [] Hc) as Hlen. unfold zlen in Hlen. cbn [length] in Hlen. lia. }
    inversion Hst; subst.
    exists (cf_chain loop (alts :: rest)), loop, (map cf_alt alts), (map (map cf_alt) rest).
    split; [exact Hch|]. split; [reflexivity|]. split; [reflexivity|].
    split; [apply cf_alts_wf; assumption|]. split; [apply cf_chain_wf; assumption|].
    exact (cf_chain_fact loop alts rest Hc).
Qed.

End ComposeFinder.

(* ===== the legacy first-character loop of findFirstCharDefault (Code.FcPrefix), both directions ===== *)
Section ComposeFirstChars.
Variable e : env.
Variable fuel : nat.
Variable root : node.
Variable bumpq : Z -> Z.
Variable rtl : bool.

Local Notation exec := (bp_exec e fuel root bumpq).
Local Notation n := (tlen e).

Hypothesis Hshape : shape_ok rtl root = true.
Hypothesis Hnoci : no_ci_lit root = true.
Hypothesis Hfuel : forall x, 0 <= x <= n -> exists r, attempt e fuel root x = Ok r.
Hypothesis H3 : sc_H3 st n rtl exec.

Variable cat_in : Z -> Z -> bool.
Variable sets : list cls.
Hypothesis Hgood : forallb cls_good_b sets = true.
Hypothesis Hagree : forall id x, set_in e id x = char_in cat_in (set_cls sets id) x.
Hypothesis Hvalid : forall i, 0 <= char_at e i <= 1114111.
Hypothesis Hlits : lits_ok root = true.

(* FcPrefix = (PrefixSet, CaseInsensitive) as getFirstCharsPrefix computes it; the runner tests a rune with
   [fd_fc_test set_in' fc] (the singleton fast path, else CharIn of PrefixSet): all that is needed of it is that
   it accepts every rune the class accepts *)
Lemma cf_fc_fact : forall (to_lower : Z -> Z) (C : cls) (ci : bool) (test : Z -> bool),
  first_chars_prefix cat_in to_lower sets root = Ok (Some (C, ci)) ->
  (forall x, char_in cat_in C x = true -> test x = true) ->
  fd_fc_fact st (txt e) exec rtl test.
Proof.
  intros to_lower C ci test Hfc Htie q Hq Hs.
  destruct (fc_succeeds_attempt e fuel root bumpq q Hs) as [s' Hat].
  destruct (a2_first_chars_prefix_sound cat_in sets (sets_good_b cat_in sets Hgood) e Hagree Hvalid to_lower rtl fuel
              root q s' C ci Hshape Hnoci Hlits Hq Hfc Hat) as (_ & Hpos & Hin).
  destruct rtl.
  - split; [lia|]. apply Htie. exact Hin.
  - split; [unfold tlen in Hpos; lia|]. apply Htie. exact Hin.
Qed.

Theorem cf_mode_first_chars_sound :
  forall (to_lower : Z -> Z) (C : cls) (ci : bool) (set_in' : Z -> Z -> bool) (fc : fdfc) (o : option fdopts),
  first_chars_prefix cat_in to_lower sets root = Ok (Some (C, ci)) ->
  (forall x, char_in cat_in C x = true -> fd_fc_test set_in' fc x = true) ->
  (forall o', o = Some o' -> fd_should_use_optimized o' = false) ->
  forall start prevlen, 0 <= start <= n ->
  exists r, find e fuel root rtl start prevlen = Ok r /\
            scan n rtl (min_len root)
                 (fd_total (fd_find_first_char_default (txt e) set_in' (lower e) rtl 0 (tstart e) None None o (Some fc)))
                 exec start prevlen = Ok r.
Proof.
  intros to_lower C ci set_in' fc o Hfc Htie Hno start prevlen Hs.
  pose proof (cf_fc_fact to_lower C ci (fd_fc_test set_in' fc) Hfc Htie) as Hfact.
  assert (Hnobm : sc_H1_true st (zlen (txt e)) rtl (fd_total (fd_ffc_nobm (txt e) set_in' (lower e) rtl o (Some fc))) exec /\
                  sc_H1_false st (zlen (txt e)) rtl (fd_total (fd_ffc_nobm (txt e) set_in' (lower e) rtl o (Some fc))) exec).
  { apply fd_ffc_nobm_H1.
    - intros o' Ho Hsu. rewrite (Hno o' Ho) in Hsu. discriminate Hsu.
    - intros _ f0 Hf0. injection Hf0 as <-. exact Hfact. }
  destruct (fd_default_H1 st (txt e) exec set_in' (lower e) rtl 0 (tstart e) None None o (Some fc)) as [A1 A2].
  - intros Hb. vm_compute in Hb. discriminate Hb.
  - intros Hb. vm_compute in Hb. discriminate Hb.
  - intros Hb. vm_compute in Hb. discriminate Hb.
  - intros Hb. vm_compute in Hb. discriminate Hb.
  - intros im Him. discriminate Him.
  - intros sc Hsc. discriminate Hsc.
  - intros _. exact Hnobm.
  - destruct (sc_scan_finder_sound st n rtl (min_len root) _ exec A1 A2
                (fc_min_len_H2 e fuel root bumpq rtl Hshape) H3 start prevlen Hs) as (r & Hr1 & Hr2).
    exists r. split; [|exact Hr1].
    rewrite (bp_find_naive_scan e fuel root rtl bumpq start prevlen Hfuel Hs). exact Hr2.
Qed.

(* the canonical reading of the record: no singleton fast path, set id 0 answered by CharIn of PrefixSet *)
Corollary cf_mode_first_chars_sound_canonical :
  forall (to_lower : Z -> Z) (C : cls) (ci : bool),
  first_chars_prefix cat_in to_lower sets root = Ok (Some (C, ci)) ->
  forall start prevlen, 0 <= start <= n ->
  exists r, find e fuel root rtl start prevlen = Ok r /\
            scan n rtl (min_len root)
                 (fd_total (fd_find_first_char_default (txt e) (fun _ x => char_in cat_in C x) (lower e) rtl 0 (tstart e)
                              None None None (Some {| fc_singleton := None; fc_set := 0 |})))
                 exec start prevlen = Ok r.
Proof.
  intros to_lower C ci Hfc. apply (cf_mode_first_chars_sound to_lower C ci); [exact Hfc| |].
  - intros x Hx. exact Hx.
  - intros o' Ho. discriminate Ho.
Qed.

End ComposeFirstChars.

(* ===== findFirstCharDefault ANSWERS: at every position of the text the whole default finder returns Ok
   (no index fault = Crash, no exhausted loop = Fuel), whatever the anchors / Boyer-Moore oracles / FcPrefix are;
   only when an optimized finder is in use does it need that finder's fact (which is what makes the published
   distances / sets / chains usable as indices). ===== *)
Lemma cf_first_char_loop_ok : forall (text : list Z) (set_in : Z -> Z -> bool) (rtl : bool) (fc : option fdfc) (p : Z),
  0 <= p <= zlen text -> exists r, fd_first_char_loop text set_in rtl fc p = Ok r.
Proof.
  intros text set_in rtl fc p Hp. unfold fd_first_char_loop. destruct fc as [fc|]; [|eexists; reflexivity].
  cbv zeta.
  destruct (fd_fc_loop_spec text rtl
              (match fc_singleton fc with Some ch => fun c => ch =? c | None => set_in (fc_set fc) end)
              (Z.to_nat (if rtl then p else fd_n text - p)) p) as (found & q & Hr & _).
  - unfold fd_n. destruct rtl; lia.
  - exact Hp.
  - eexists. exact Hr.
Qed.

Theorem cf_default_finder_answers_ok :
  forall (R : Type) (text : list Z) (exec : Z -> option R * Z) (set_in : Z -> Z -> bool) (lower : Z -> Z)
         (rtl : bool) (anchors ts : Z) (bm : option (Z -> bool)) (bm_scan : option (Z -> Z))
         (o : option fdopts) (fc : option fdfc),
  (forall o', o = Some o' -> fd_should_use_optimized o' = true ->
     fd_minlen_fact R text exec (fo_minreq o') /\ fd_mode_fact R text exec set_in lower o') ->
  forall p, 0 <= p <= zlen text ->
  exists r, fd_find_first_char_default text set_in lower rtl anchors ts bm bm_scan o fc p = Ok r.
Proof.
  intros R text exec set_in lower rtl anchors ts bm bm_scan o fc Ho p Hp.
  unfold fd_find_first_char_default.
  destruct (abit anchors _); [eexists; reflexivity|].
  destruct bm_scan as [sc|].
  { destruct (sc p =? -1); eexists; reflexivity. }
  unfold fd_ffc_nobm. cbv zeta. destruct o as [o'|]; [|apply cf_first_char_loop_ok; exact Hp].
  destruct (fd_should_use_optimized o') eqn:E; [|apply cf_first_char_loop_ok; exact Hp].
  destruct (Ho o' eq_refl E) as [Hmin Hfact].
  destruct (fd_optimized_sound R text exec set_in lower o' (fd_should_use_handled o' E) Hmin Hfact) as [Hs Hh].
  destruct (Hs p Hp) as (found & q & Hr & _). unfold fd_optimized_finder in Hr.
  destruct (fd_find_first_char_optimized text set_in lower o' p) as [[[h f0] q0]| | |] eqn:Eo; cbn in Hr; try discriminate Hr.
  pose proof (Hh p _ Eo) as Hh'. cbn in Hh'. subst h. cbn. eexists. reflexivity.
Qed.

(* Proofs about Model/Parser.v, part 5: the parser model is total.
   For every pattern (any list of non-negative runes, any length), every option word, either value of
   MaintainCaptureOrder and EVERY oracle (word characters, ToLower, SimpleFold, case participation, category
   membership, category names) the model answers Ok: an error code, a tree with its capture table, or
   "outside the fragment" - never Crash (a Go run-time fault: index out of range on the pattern or on a
   Children / Str slice, pop of an empty option or group stack, nil CharSet, a capture-table slot out of range)
   and never Fuel.  The fuel is explicit in the model: length + 1 turns for the capture pre-scan, for the
   main loop and for each bracket expression (Model/Parser.v count_captures, scan_regex, prescan_step,
   scan_round). *)
From Verif Require Import Base.Prelude Gen.ParseLitGen Model.Escape Model.ParseLit Model.GroupMap Model.CharClass
  Model.Parser Proofs.ParseLitProofs Proofs.ParserScan Proofs.ParserTree Proofs.ParserMain Proofs.ParserPre.

Lemma land_lor_disjoint o b k : Z.land b k = 0 -> Z.land (Z.lor o b) k = Z.land o k.
Proof. intros H. rewrite Z.land_lor_distr_l, H. apply Z.lor_0_r. Qed.

Lemma land_ldiff_disjoint o b k : Z.land b k = 0 -> Z.land (Z.ldiff o b) k = Z.land o k.
Proof.
  intros H. apply Z.bits_inj'. intros n Hn. rewrite !Z.land_spec, Z.ldiff_spec.
  assert (T : Z.testbit b n && Z.testbit k n = false) by (rewrite <- Z.land_spec, H; apply Z.bits_0).
  destruct (Z.testbit o n), (Z.testbit b n), (Z.testbit k n); cbn in *; congruence.
Qed.

(* the option letters scanOptions accepts never touch RightToLeft, ECMAScript or RE2 *)
Lemma inline_bit_disjoint ch k :
  (k = opt_r \/ k = opt_e \/ k = opt_re2) ->
  (option_from_code ch =? 0) || is_only_top_option (option_from_code ch) = false ->
  Z.land (option_from_code ch) k = 0.
Proof.
  intros Hk. unfold option_from_code, is_only_top_option, opt_i, opt_r, opt_m, opt_n, opt_s, opt_x, opt_e, opt_u, opt_re2 in *.
  repeat match goal with |- context [if ?b then _ else _] => destruct b end; cbn; intros H; try discriminate;
    destruct Hk as [-> | [-> | ->]]; reflexivity.
Qed.

Lemma scan_options_keeps o cs k :
  Forall (fun c => match c with OBit b => Z.land b k = 0 | _ => True end) cs ->
  forall off, Z.land (scan_options off cs o) k = Z.land o k.
Proof.
  intros H. revert o. induction H as [|c cs Hc Hcs IH]; intros o off; cbn [scan_options]; [reflexivity|].
  destruct c as [| |b]; try apply IH.
  rewrite IH. destruct off; [apply land_ldiff_disjoint | apply land_lor_disjoint]; exact Hc.
Qed.

Lemma ochars_of_disjoint k : (k = opt_r \/ k = opt_e \/ k = opt_re2) -> forall p,
  Forall (fun c => match c with OBit b => Z.land b k = 0 | _ => True end) (fst (ochars_of p)).
Proof.
  intros Hk. induction p as [|ch p IH]; cbn [ochars_of fst]; [constructor|].
  destruct (ch =? 45); [destruct (ochars_of p); cbn [fst] in *; constructor; [exact I | exact IH]|].
  destruct (ch =? 43); [destruct (ochars_of p); cbn [fst] in *; constructor; [exact I | exact IH]|].
  destruct ((option_from_code ch =? 0) || is_only_top_option (option_from_code ch)) eqn:E; [constructor|].
  destruct (ochars_of p); cbn [fst] in *. constructor; [apply inline_bit_disjoint; assumption | exact IH].
Qed.

Theorem inline_options_keep_top_bits o p o' q :
  scan_options_text o p = (o', q) ->
  useRTL o' = useRTL o /\ useE o' = useE o /\ useRE2 o' = useRE2 o.
Proof.
  unfold scan_options_text. pose proof (fun k Hk => ochars_of_disjoint k Hk p) as D.
  destruct (ochars_of p) as [cs r]. cbn [fst] in D. intros H. inversion H; subst.
  unfold useRTL, useE, useRE2, pl_bit, ParseLitGen.PL_RightToLeft, ParseLitGen.PL_ECMAScript, ParseLitGen.PL_RE2.
  rewrite (scan_options_keeps o cs 64 (D opt_r ltac:(auto)) false).
  rewrite (scan_options_keeps o cs 256 (D opt_e ltac:(auto)) false).
  rewrite (scan_options_keeps o cs 512 (D opt_re2 ltac:(auto)) false). auto.
Qed.

Lemma useRTL_set o : useRTL (set_rtl o) = true.
Proof.
  unfold useRTL, pl_bit, set_rtl. rewrite Z.land_lor_distr_l.
  destruct (Z.lor (Z.land o ParseLitGen.PL_RightToLeft) (Z.land ParseLitGen.PL_RightToLeft ParseLitGen.PL_RightToLeft) =? 0) eqn:E; [|reflexivity].
  apply Z.eqb_eq in E. apply Z.lor_eq_0_iff in E. destruct E as [_ E]. vm_compute in E. discriminate.
Qed.

Lemma useRTL_clear o : useRTL (clear_rtl o) = false.
Proof.
  unfold useRTL, pl_bit, clear_rtl.
  assert (H : Z.land (Z.ldiff o ParseLitGen.PL_RightToLeft) ParseLitGen.PL_RightToLeft = 0).
  { apply Z.bits_inj'. intros n Hn. rewrite Z.land_spec, Z.ldiff_spec, Z.bits_0.
    destruct (Z.testbit o n), (Z.testbit ParseLitGen.PL_RightToLeft n); reflexivity. }
  rewrite H. reflexivity.
Qed.

Section Total.
Variable is_word_char : Z -> bool.
Variable to_lower : Z -> Z.
Variable simple_fold : Z -> Z.
Variable participates : Z -> bool.
Variable cat_in : Z -> Z -> bool.
Variable cat_name : list Z -> Z.

Local Notation parse := (parse is_word_char to_lower simple_fold participates cat_in cat_name).

Theorem parser_total o mco p :
  forallb (fun c => 0 <=? c) p = true ->
  exists r, parse o mco p = Ok r.
Proof.
  intros Hp. unfold Parser.parse. rewrite pl_bounds_ok_true, Hp. cbn [negb].
  pose proof (count_captures_ok is_word_char to_lower simple_fold participates cat_in cat_name (mco || useE o || useRE2 o) o p) as C.
  destruct (count_captures is_word_char to_lower simple_fold cat_in cat_name (mco || useE o || useRE2 o) o p) as [tb|e q| | |];
    cbn [pbind psafe] in *; try contradiction; eauto.
  pose proof (scan_regex_ok is_word_char to_lower simple_fold participates cat_in cat_name (captab_main tb) (mco || useE o || useRE2 o) o p) as S.
  destruct (scan_regex is_word_char to_lower simple_fold participates cat_in cat_name (captab_main tb) (mco || useE o || useRE2 o) o p) as [t|e q| | |];
    cbn [pbind psafe] in *; try contradiction; eauto.
Qed.

(* the two loops with the fuel as a parameter: any fuel above the length of the pattern is enough, and
   each turn strictly shortens what is left (the scan position only moves right) *)
Theorem parser_prescan_fuel mco fuel st p :
  cinv mco (cs_c st) -> (length p < fuel)%nat ->
  match prescan_loop is_word_char to_lower simple_fold cat_in cat_name fuel mco st p with
  | POk st' => cinv mco (cs_c st')
  | PE _ _ | PO => True
  | PC _ | PF => False
  end.
Proof. intros H1 H2. eapply prescan_loop_ok; eauto. Qed.

Theorem parser_main_fuel tb mco fuel st p wasq :
  minv st -> ms_unit st = None -> (length p < fuel)%nat ->
  match scan_loop_full is_word_char to_lower simple_fold participates cat_in cat_name fuel tb mco st p wasq with
  | POk st' => minv st'
  | PE _ _ | PO => True
  | PC _ | PF => False
  end.
Proof. intros H1 H2 H3. eapply scan_loop_full_ok; eauto. Qed.

Theorem parser_round_moves_right tb mco st p wasq :
  minv st -> ms_unit st = None -> p <> [] ->
  match scan_round is_word_char to_lower simple_fold participates cat_in cat_name tb mco st p wasq with
  | POk (st', Some (q, _)) => minv st' /\ ms_unit st' = None /\ (length q < length p)%nat
  | POk (st', None) => minv st'
  | PE _ _ | PO => True
  | PC _ | PF => False
  end.
Proof.
  intros Iv Hu Hp. pose proof (scan_round_ok is_word_char to_lower simple_fold participates cat_in cat_name tb mco st p wasq Iv Hu Hp) as R.
  destruct (scan_round is_word_char to_lower simple_fold participates cat_in cat_name tb mco st p wasq) as [[st' [[q wq]|]]|e q| | |];
    cbn [round_res] in R; auto.
  destruct R as [R1 [R2 R3]]. split; [exact R1 | split; [exact R2|]]. destruct p; [congruence | cbn [length] in *; lia].
Qed.

Theorem parser_prescan_step_moves_right mco st ch p1 :
  cinv mco (cs_c st) ->
  match prescan_step is_word_char to_lower simple_fold cat_in cat_name mco st ch p1 with
  | POk (st', q) => cinv mco (cs_c st') /\ (length q < length (ch :: p1))%nat
  | PE _ _ | PO => True
  | PC _ | PF => False
  end.
Proof.
  intros Hc. pose proof (prescan_step_ok is_word_char to_lower simple_fold participates cat_in cat_name mco st ch p1 Hc) as S.
  destruct (prescan_step is_word_char to_lower simple_fold cat_in cat_name mco st ch p1) as [[st' q]|e q| | |]; cbn [step_res] in S; auto.
  destruct S as [S1 S2]. split; [exact S1 | cbn [length]; lia].
Qed.

(* scanGroupOpen on "(?<=" / "(?<!" : a lookaround node with the RightToLeft bit, and the parser's current options
   (under which the group's alternation, concatenation and every node of the body are created) carry it too;
   "(?=" / "(?!" clear it *)
Theorem lookbehind_opens_right_to_left tb mco gt v c p : c = 61 \/ c = 33 ->
  group_open is_word_char tb mco gt v (63 :: 60 :: c :: p) =
    POk (Some (mk_node (if c =? 61 then T_PosLook else T_NegLook) (set_rtl (gv_o v))),
         mkGV (set_rtl (gv_o v)) false (gv_autocap v), p)
  /\ useRTL (set_rtl (gv_o v)) = true.
Proof. intros [-> | ->]; (split; [reflexivity | apply useRTL_set]). Qed.

Theorem lookahead_opens_left_to_right tb mco gt v c p : c = 61 \/ c = 33 ->
  group_open is_word_char tb mco gt v (63 :: c :: p) =
    POk (Some (mk_node (if c =? 61 then T_PosLook else T_NegLook) (clear_rtl (gv_o v))),
         mkGV (clear_rtl (gv_o v)) false (gv_autocap v), p)
  /\ useRTL (clear_rtl (gv_o v)) = false.
Proof. intros [-> | ->]; (split; [reflexivity | apply useRTL_clear]). Qed.

End Total.

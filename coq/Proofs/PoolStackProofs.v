(* C12, part A: the outcome of a match computation does not depend on the (stale) lengths of the track and
   grouping stacks of the runner it happens to run on (ensureStorage / growTrack, runner.go:982-1088). *)
From Verif Require Import Base.Prelude Model.Pool.
From Coq Require Import ZifyBool.

Ltac bdestr1 :=
  match goal with
  | |- context [?a <? ?b] => destruct (Z.ltb_spec a b)
  | |- context [?a <=? ?b] => destruct (Z.leb_spec a b)
  | |- context [?a =? ?b] => destruct (Z.eqb_spec a b)
  | H : context [?a <? ?b] |- _ => destruct (Z.ltb_spec a b)
  | H : context [?a <=? ?b] |- _ => destruct (Z.leb_spec a b)
  | H : context [?a =? ?b] |- _ => destruct (Z.eqb_spec a b)
  end.
Ltac bdestr := repeat (bdestr1; cbn [andb orb negb] in * ).

(* lengths a track / grouping stack can have in any runner of a Regexp with this limit and TrackCount *)
Definition track_len_ok (limit tc tl : Z) : Prop := init_tracksize limit tc <= tl /\ (limit < 0 \/ tl <= limit).
Definition stack_len_ok (tc sl : Z) : Prop := init_stacksize tc <= sl.

Lemma init_track_ok : forall limit tc, track_len_ok limit tc (init_tracksize limit tc).
Proof. intros; unfold track_len_ok, init_tracksize; cbn zeta; bdestr; lia. Qed.
Lemma init_stack_ok : forall tc, stack_len_ok tc (init_stacksize tc).
Proof. intros; unfold stack_len_ok; lia. Qed.
Lemma init_stack_pos : forall tc, 32 <= init_stacksize tc /\ tc * 8 <= init_stacksize tc.
Proof. intros; unfold init_stacksize; bdestr; lia. Qed.

Lemma grow_track_ok : forall limit tc tl tl1, track_len_ok limit tc tl -> grow_track limit tl = Some tl1 ->
  track_len_ok limit tc tl1 /\ tl < tl1.
Proof.
  unfold track_len_ok, grow_track, init_tracksize; intros limit tc tl tl1 [H1 H2] H.
  cbn zeta in *; bdestr; inversion H; subst; lia.
Qed.

(* the capacity conditions interpreter traces satisfy (C13's capacity lemma, assumed here): a check happens at a
   depth reached before, and at most 4*TrackCount slots are pushed before the next check *)
Fixpoint segs_wf (tc d0 s0 : Z) (segs : list seg) : Prop :=
  match segs with
  | [] => True
  | s :: rest =>
    0 <= sg_td s <= d0 /\ sg_td s <= sg_tmax s <= sg_td s + tc * 4 /\
    0 <= sg_sd s <= s0 /\ sg_sd s <= sg_smax s <= sg_sd s + tc * 4 /\
    segs_wf tc (sg_tmax s) (sg_smax s) rest
  end.

(* what the stacks' capacity does to a computation, stated without any capacity: refuse at the first check
   deeper than limit - 4*tc *)
Fixpoint ideal_status (limit tc : Z) (segs : list seg) : seg_status :=
  match segs with
  | [] => SegOk
  | s :: rest => if (0 <=? limit) && (limit - tc * 4 <? sg_td s) then SegErr else ideal_status limit tc rest
  end.

Lemma grow_track_spec limit tl : 0 <= tl -> (limit < 0 \/ tl <= limit) ->
  match grow_track limit tl with
  | None => tl = limit
  | Some tl1 => tl < tl1 /\ (tl * 2 <= tl1 \/ (0 <= limit /\ tl1 = limit))
  end.
Proof. intros H0 Hl. unfold grow_track. cbn zeta. bdestr; lia. Qed.

Lemma init_track_cases limit tc :
  (0 <= limit /\ init_tracksize limit tc = limit) \/ (64 <= init_tracksize limit tc /\ tc * 8 <= init_tracksize limit tc).
Proof. unfold init_tracksize. cbn zeta. bdestr; lia. Qed.

Lemma ensure_storage_spec : forall limit tc tl sl d sd,
  0 <= tc -> track_len_ok limit tc tl -> stack_len_ok tc sl -> 0 <= d <= tl -> 0 <= sd <= sl ->
  match ensure_storage limit tc tl sl d sd with
  | (tl1, sl1, ok) =>
    track_len_ok limit tc tl1 /\ stack_len_ok tc sl1 /\ tl <= tl1 /\ sl <= sl1 /\
    ok = negb ((0 <=? limit) && (limit - tc * 4 <? d)) /\
    (ok = true -> tc * 4 <= tl1 - d /\ tc * 4 <= sl1 - sd)
  end.
Proof.
  intros limit tc tl sl d sd Htc Ht Hs Hd Hsd.
  pose proof (init_stack_pos tc) as [Hp1 Hp2]. pose proof (init_track_cases limit tc) as Hi.
  pose proof (grow_track_spec limit tl ltac:(lia) (proj2 Ht)) as Hg.
  unfold ensure_storage. set (sl1 := if sl - sd <? tc * 4 then sl * 2 else sl).
  (* the grouping stack doubles when it is short, and doubling is enough *)
  assert (S : stack_len_ok tc sl1 /\ sl <= sl1 /\ tc * 4 <= sl1 - sd).
  { unfold stack_len_ok in *. unfold sl1. destruct (sl - sd <? tc * 4) eqn:E; lia. }
  clearbody sl1. clear Hs Hsd Hp1 Hp2. destruct S as (S1 & S2 & S3). destruct Ht as [Ht1 Ht2].
  (* the track: refused exactly when the limit leaves less than 4*tc above the depth *)
  destruct (tl - d <? tc * 4) eqn:E1.
  - destruct (grow_track limit tl) as [tl1|] eqn:G.
    + destruct (grow_track_ok _ _ _ _ (conj Ht1 Ht2) G) as [Hok _]. destruct Hok as [Hk1 Hk2].
      destruct (tl1 - d <? tc * 4) eqn:E2; unfold track_len_ok; repeat split; try assumption; lia.
    + unfold track_len_ok. repeat split; try assumption; lia.
  - unfold track_len_ok. repeat split; try assumption; lia.
Qed.

(* lengths stay legal whatever the trace does (needed even when the hypothesis on traces fails) *)
Lemma ensure_storage_lens : forall limit tc tl sl d sd,
  track_len_ok limit tc tl -> stack_len_ok tc sl ->
  match ensure_storage limit tc tl sl d sd with
  | (tl1, sl1, _) => track_len_ok limit tc tl1 /\ stack_len_ok tc sl1
  end.
Proof.
  intros limit tc tl sl d sd Ht Hs.
  pose proof (init_stack_pos tc) as [Hp1 Hp2].
  unfold ensure_storage.
  assert (Hs1 : stack_len_ok tc (if sl - sd <? tc * 4 then sl * 2 else sl)).
  { unfold stack_len_ok in *. bdestr; lia. }
  destruct (tl - d <? tc * 4); [|auto].
  destruct (grow_track limit tl) as [tl1|] eqn:G; [|auto].
  destruct (grow_track_ok _ _ _ _ Ht G) as [Hok _].
  destruct (tl1 - d <? tc * 4); auto.
Qed.

Lemma run_segs_lens : forall limit tc segs tl sl,
  track_len_ok limit tc tl -> stack_len_ok tc sl ->
  match run_segs limit tc tl sl segs with
  | (tl1, sl1, _) => track_len_ok limit tc tl1 /\ stack_len_ok tc sl1
  end.
Proof.
  induction segs as [|s rest IH]; intros tl sl Ht Hs; cbn [run_segs]; [auto|].
  pose proof (ensure_storage_lens limit tc tl sl (sg_td s) (sg_sd s) Ht Hs) as H.
  destruct (ensure_storage limit tc tl sl (sg_td s) (sg_sd s)) as [[tl1 sl1] ok].
  destruct H as [H1 H2].
  destruct (negb ok); [auto|].
  destruct ((tl1 <? sg_tmax s) || (sl1 <? sg_smax s)); [auto|].
  apply IH; auto.
Qed.

(* main lemma: on well-formed traces the status is the capacity-free one, for EVERY legal pair of lengths *)
Lemma run_segs_ideal : forall limit tc segs tl sl d0 s0,
  0 <= tc -> track_len_ok limit tc tl -> stack_len_ok tc sl -> d0 <= tl -> s0 <= sl ->
  segs_wf tc d0 s0 segs ->
  snd (run_segs limit tc tl sl segs) = ideal_status limit tc segs.
Proof.
  induction segs as [|s rest IH]; intros tl sl d0 s0 Htc Ht Hs Hd Hs0 Hwf; cbn [run_segs ideal_status]; [reflexivity|].
  destruct Hwf as (W1 & W2 & W3 & W4 & W5).
  pose proof (ensure_storage_spec limit tc tl sl (sg_td s) (sg_sd s) Htc Ht Hs ltac:(lia) ltac:(lia)) as H.
  destruct (ensure_storage limit tc tl sl (sg_td s) (sg_sd s)) as [[tl1 sl1] ok].
  destruct H as (H1 & H2 & H3 & H4 & H5 & H6).
  rewrite H5. rewrite Bool.negb_involutive.
  destruct ((0 <=? limit) && (limit - tc * 4 <? sg_td s)) eqn:B; [reflexivity|].
  subst ok. specialize (H6 eq_refl). destruct H6 as [H6 H7].
  replace ((tl1 <? sg_tmax s) || (sl1 <? sg_smax s)) with false.
  2:{ symmetry. apply Bool.orb_false_iff. split; apply Z.ltb_ge; lia. }
  apply (IH tl1 sl1 (sg_tmax s) (sg_smax s)); auto; lia.
Qed.

Corollary run_segs_independent : forall limit tc segs tl1 sl1 tl2 sl2,
  0 <= tc -> track_len_ok limit tc tl1 -> stack_len_ok tc sl1 -> track_len_ok limit tc tl2 -> stack_len_ok tc sl2 ->
  segs_wf tc 0 0 segs ->
  snd (run_segs limit tc tl1 sl1 segs) = snd (run_segs limit tc tl2 sl2 segs).
Proof.
  intros limit tc segs tl1 sl1 tl2 sl2 Htc A1 A2 B1 B2 W.
  assert (P : forall tl, track_len_ok limit tc tl -> 0 <= tl).
  { unfold track_len_ok, init_tracksize. cbn zeta. intros tl [X Y]. bdestr; lia. }
  assert (Q : forall sl, stack_len_ok tc sl -> 0 <= sl).
  { unfold stack_len_ok. intros sl X. pose proof (init_stack_pos tc). lia. }
  rewrite (run_segs_ideal limit tc segs tl1 sl1 0 0); auto.
  rewrite (run_segs_ideal limit tc segs tl2 sl2 0 0); auto.
Qed.

(* the repaired defect (runner.go before 0ad14dc accepted a capped growth that left < 4*tc free): with the
   old ensureStorage the same trace gave Ok on a fresh runner and Err on a runner whose track had already
   reached the limit.  Kept as an executable witness that [run_segs_independent] is not vacuous. *)
Definition ensure_storage_old (limit tc tl sl d sd : Z) : Z * Z * bool :=
  let sl1 := if sl - sd <? tc * 4 then sl * 2 else sl in
  if tl - d <? tc * 4 then
    match grow_track limit tl with
    | None => (tl, sl1, false)
    | Some tl1 => (tl1, sl1, true)
    end
  else (tl, sl1, true).

Example old_ensure_storage_was_history_dependent :
  let limit := 65 in let tc := 2 in
  snd (ensure_storage_old limit tc 64 32 60 0) = true /\      (* fresh runner: 64 -> 65, accepted with 5 free *)
  snd (ensure_storage_old limit tc 65 32 60 0) = false /\     (* recycled runner already at the limit *)
  snd (ensure_storage limit tc 64 32 60 0) = false /\
  snd (ensure_storage limit tc 65 32 60 0) = false.
Proof. vm_compute. repeat split. Qed.

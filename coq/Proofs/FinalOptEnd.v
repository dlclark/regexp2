(* C05, proofs part 7: the bump-along marker, removal of ending backtracking (eliminateEndingBacktracking,
   Model/FinalOpt.fo_ee) and the gated reduce in its lite form preserve the meaning: fo_ee keeps the FIRST result
   (rw_hrefines), the reduce and the marker keep every result (rw_refines).
   Words of Model/FinalOpt.v: the gate mask g switches the optional rewrite families of tree.go off bit by bit (bit 16:
   prefix factoring, which these proofs leave out, so fo_gate g 16 = true throughout); "lite" is the model run with
   the mandatory reducers replaced by the identity where a gated branch re-reduces a node; the bits of [strict] make
   the model refuse the steps the proofs do not cover (bit 0: the end of the pattern after a \B, bit 1: balancing
   captures, bit 2: leaving an atomic group the walk itself entered, bit 3: a right-to-left One / Multi at the start of
   a branch). *)
From Verif Require Import Base.Prelude Gen.ParseLitGen Model.Tree Model.Spec Model.Rewrite Model.ParseLit Model.CharClass Model.Parser
  Model.FinalOpt
  Proofs.SpecProofs Proofs.SpecBoundsProofs Proofs.SpecTermProofs Proofs.RewriteProofs
  Proofs.FinalOptDen Proofs.FinalOptK Proofs.FinalOptPrune Proofs.FinalOptLink Proofs.FinalOptLeaf Proofs.FinalOptWalk Proofs.FinalOptAtomic Proofs.FinalOptAlt.
From Coq Require Import ZifyBool.

Section DenRel.
Variable e : env.
Notation den := (den e).

Lemma refines_sym t t' : rw_refines e t t' -> rw_refines e t' t.
Proof. rewrite !refines_den. intros H s. symmetry. apply H. Qed.
Lemma hrefines_sym t t' : rw_hrefines e t t' -> rw_hrefines e t' t.
Proof. rewrite !hrefines_den. intros H s. symmetry. apply H. Qed.
Lemma heqs_hrefines t t' : rw_heqs e t t' -> rw_hrefines e t t'.
Proof. apply rw_heqs_hrefines. Qed.

(* a node with at most one result (RewriteProofs.single_result), on the denotation: the first result is all there is *)
Lemma single_result_den t : single_result e t <-> forall s, den t s = hd_list (den t s).
Proof.
  split.
  - intros H s. specialize (H s _ (fd_den_evals e t s)). destruct (den t s) as [|a [|b l]]; cbn in *; try reflexivity; lia.
  - intros H s l Hl. apply fd_evals_den in Hl. subst l. rewrite H. destruct (den t s); cbn; lia.
Qed.
Lemma hrefines_single t t' : single_result e t -> single_result e t' -> rw_hrefines e t t' -> rw_refines e t t'.
Proof. rewrite hrefines_den, refines_den, !single_result_den. intros H1 H2 H s. rewrite H1, H2. apply H. Qed.

Lemma single_result_poslook o r : single_result e (NPosLook o r).
Proof. apply single_result_den. intros s. rewrite fd_den_poslook. destruct (hd_list (den r s)) as [|a [|b l]] eqn:E; try reflexivity.
  exfalso. destruct (den r s); cbn in E; discriminate. Qed.
Lemma single_result_neglook o r : single_result e (NNegLook o r).
Proof. apply single_result_den. intros s. rewrite fd_den_neglook. destruct (hd_list (den r s)); reflexivity. Qed.
Lemma single_result_empty : single_result e NEmpty.
Proof. apply single_result_den. intros s. rewrite fd_den_empty. reflexivity. Qed.
Lemma single_result_nothing : single_result e NNothing.
Proof. apply single_result_den. intros s. rewrite fd_den_nothing. reflexivity. Qed.

(* ---- every result kept: congruences not in RewriteProofs *)
Lemma fd_iterD_ext (B B' : st -> list st) lazy limit : (forall a, B a = B' a) ->
  forall n s mark count, iter_fuel limit count = n -> iterD B lazy limit s mark count = iterD B' lazy limit s mark count.
Proof.
  intros HB. induction n as [n IH] using lt_wf_ind. intros s mark count Hn.
  rewrite !fd_iterD_eq.
  assert (Hag : (count < 0 \/ count < limit) -> iter_again B lazy limit s count = iter_again B' lazy limit s count).
  { intros Hc. unfold iter_again. rewrite HB. apply flat_map_ext. intros a.
    apply (IH (iter_fuel limit (count + 1))); [subst n; unfold iter_fuel; lia | reflexivity]. }
  destruct lazy.
  - destruct (count <? 0) eqn:Ec; [apply Hag; lia|].
    destruct ((count <? limit) && negb (pos s =? mark)) eqn:E2; [rewrite Hag by lia; reflexivity | reflexivity].
  - destruct ((limit <=? count) || (pos s =? mark) && (0 <=? count)) eqn:E1; [reflexivity|].
    rewrite Hag by lia. reflexivity.
Qed.

Lemma loop_refines lazy o m n r r' : rw_refines e r r' -> rw_refines e (NLoop lazy o m n r) (NLoop lazy o m n r').
Proof.
  rewrite !refines_den. intros H s. rewrite !fd_den_loop.
  destruct (m =? 0).
  - apply (fd_iterD_ext _ _ lazy _ H _ _ _ _ eq_refl).
  - rewrite H. apply flat_map_ext. intros a. apply (fd_iterD_ext _ _ lazy _ H _ _ _ _ eq_refl).
Qed.
Lemma atomic_refines r r' : rw_refines e r r' -> rw_refines e (NAtomic r) (NAtomic r').
Proof. intros H. apply atomic_observes_head. apply rw_refines_hrefines. exact H. Qed.
Lemma poslook_refines o r r' : rw_refines e r r' -> rw_refines e (NPosLook o r) (NPosLook o r').
Proof. intros H. apply poslook_observes_head. apply rw_refines_hrefines. exact H. Qed.
Lemma neglook_refines o r r' : rw_refines e r r' -> rw_refines e (NNegLook o r) (NNegLook o r').
Proof. intros H. apply neglook_observes_head. apply rw_refines_hrefines. exact H. Qed.
Lemma backref_cond_refines o g y y' n n' : rw_refines e y y' ->
  match n, n' with Some a, Some b => rw_refines e a b | None, None => True | _, _ => False end ->
  rw_refines e (NBackRefCond o g y n) (NBackRefCond o g y' n').
Proof.
  rewrite !refines_den. intros Hy Hn s. rewrite !fd_den_backref_cond. destruct (is_matched g (caps s)); [apply Hy|].
  destruct n, n'; try contradiction; cbn [den_opt]; [|reflexivity]. rewrite refines_den in Hn. apply Hn.
Qed.
Lemma expr_cond_refines o c c' y y' n n' : rw_refines e c c' -> rw_refines e y y' ->
  match n, n' with Some a, Some b => rw_refines e a b | None, None => True | _, _ => False end ->
  rw_refines e (NExprCond o c y n) (NExprCond o c' y' n').
Proof.
  rewrite !refines_den. intros Hc Hy Hn s. rewrite !fd_den_expr_cond, Hc. destruct (den c' s); [|apply Hy].
  destruct n, n'; try contradiction; cbn [den_opt]; [|reflexivity]. rewrite refines_den in Hn. apply Hn.
Qed.
Lemma alt_at_refines o pre x x' post : rw_refines e x x' ->
  rw_refines e (NAlternate o (pre ++ x :: post)) (NAlternate o (pre ++ x' :: post)).
Proof.
  rewrite !refines_den. intros H s. rewrite !fd_den_alt, !flat_map_app. cbn [flat_map]. rewrite H. reflexivity.
Qed.
Lemma capture_refines o o' g u r r' : rw_refines e r r' -> rw_refines e (NCapture o g u r) (NCapture o' g u r').
Proof. rewrite !refines_den. intros H s. rewrite !fd_den_capture, H. reflexivity. Qed.

End DenRel.

Section End.
Variable cat_in : Z -> Z -> bool.
Variables isw isew : Z -> bool.
Variable sid : cls -> Z.
Variable e : env.
Variable sets : list cls.
Hypothesis Henv : env_ok cat_in isw isew sid e sets.

Notation den := (den e).
Notation tr := (tr sid).
Notation sets_in := (sets_in sets).
Notation node_ok := (node_ok sets).

Lemma charloop_cases t : fo_is_charloop t || fo_is_charlazy t = true -> t = 3 \/ t = 4 \/ t = 5 \/ t = 6 \/ t = 7 \/ t = 8.
Proof. clear. unfold fo_is_charloop, fo_is_charlazy, T_Oneloop, T_Notoneloop, T_Setloop, T_Onelazy, T_Notonelazy, T_Setlazy. lia. Qed.

(* ---- makeLoopAtomic (tree.go:717-747) on the raw node is Model/Rewrite.make_loop_atomic on the tree *)
Lemma tr_mla x : fo_is_charloop (n_t x) || fo_is_charlazy (n_t x) = true ->
  tr (Parser.make_loop_atomic x) = Rewrite.make_loop_atomic (tr x).
Proof.
  intros Ht. destruct x as [t o ch m n str st kids]. cbn [n_t] in Ht.
  destruct (charloop_cases t Ht) as [-> | [-> | [-> | [-> | [-> | -> ]]]]]; try reflexivity.
  - (* Onelazy *)
    change (tr (RN 6 o ch m n str st kids)) with (NCharLoop COne LLazy o ch m n).
    cbn [Rewrite.make_loop_atomic Parser.make_loop_atomic].
    change ((6 =? T_Oneloop) || (6 =? T_Notoneloop) || (6 =? T_Setloop)) with false.
    change ((6 =? T_Onelazy) || (6 =? T_Notonelazy) || (6 =? T_Setlazy)) with true. cbv iota.
    destruct (m =? 0) eqn:Em; [reflexivity|].
    change (6 + (T_Oneloopatomic - T_Onelazy) =? T_Oneloopatomic) with true. cbn [andb].
    unfold MULTI_VS_REPEATER_LIMIT, pp_multi_limit. destruct ((2 <=? m) && (m <=? 64)) eqn:E2; reflexivity.
  - change (tr (RN 7 o ch m n str st kids)) with (NCharLoop CNotone LLazy o ch m n).
    cbn [Rewrite.make_loop_atomic Parser.make_loop_atomic].
    change ((7 =? T_Oneloop) || (7 =? T_Notoneloop) || (7 =? T_Setloop)) with false.
    change ((7 =? T_Onelazy) || (7 =? T_Notonelazy) || (7 =? T_Setlazy)) with true. cbv iota.
    destruct (m =? 0) eqn:Em; [reflexivity|].
    change (7 + (T_Oneloopatomic - T_Onelazy) =? T_Oneloopatomic) with false. cbn [andb]. reflexivity.
  - change (tr (RN 8 o ch m n str st kids)) with (NCharLoop CSet LLazy o (tr_set sid st) m n).
    cbn [Rewrite.make_loop_atomic Parser.make_loop_atomic].
    change ((8 =? T_Oneloop) || (8 =? T_Notoneloop) || (8 =? T_Setloop)) with false.
    change ((8 =? T_Onelazy) || (8 =? T_Notonelazy) || (8 =? T_Setlazy)) with true. cbv iota.
    destruct (m =? 0) eqn:Em; [reflexivity|].
    change (8 + (T_Oneloopatomic - T_Onelazy) =? T_Oneloopatomic) with false. cbn [andb]. reflexivity.
Qed.

Lemma repeat_nonempty (c : Z) m : 1 <= m -> repeat_rune c m <> [].
Proof. intros Hm. unfold repeat_rune. destruct (Z.to_nat m) eqn:E; [lia|]. discriminate. Qed.

Lemma mla_lazy_eq t o ch m n str st kids : t = 6 \/ t = 7 \/ t = 8 ->
  Parser.make_loop_atomic (RN t o ch m n str st kids) =
  if m =? 0 then RN 23 o 0 m m [] st kids
  else if (t =? 6) && (2 <=? m) && (m <=? 64) then RN 12 o 0 0 0 (repeat_rune ch m) st kids
  else RN (t + 37) o ch m m str st kids.
Proof. intros [-> | [-> | ->]]; reflexivity. Qed.

Lemma node_ok_mla x : node_ok x -> fo_is_charloop (n_t x) || fo_is_charlazy (n_t x) = true ->
  node_ok (Parser.make_loop_atomic x).
Proof.
  intros Hok Ht. destruct (fo_is_charloop (n_t x)) eqn:Eg.
  { apply (node_ok_mla_greedy sets); assumption. }
  cbn [orb] in Ht. destruct Hok as [Hwf Hs].
  destruct (wf_flags x Hwf) as (Har & Hset & Hlk & _ & _ & Hci & _).
  destruct x as [t o ch m n str st kids]. cbn [n_t n_kids n_set n_m n_n n_str n_o] in *.
  unfold fo_is_charlazy, T_Onelazy, T_Notonelazy, T_Setlazy in Ht.
  assert (Hc : t = 6 \/ t = 7 \/ t = 8) by (clear -Ht; lia).
  assert (Hk : kids = []).
  { destruct Hc as [-> | [-> | ->]]; cbn in Har; destruct kids; try reflexivity; discriminate. }
  subst kids.
  assert (Hb : 0 <= m <= n /\ m < INF) by (destruct Hc as [-> | [-> | ->]]; eapply Hlk; reflexivity).
  assert (Hci' : useI o = false) by (apply Hci; clear -Hc; unfold T_Ref, T_Capture; lia).
  rewrite (mla_lazy_eq t o ch m n str st [] Hc).
  destruct (m =? 0) eqn:Em.
  { split; [|cbn [FinalOptLeaf.sets_in] in *; tauto].
    rewrite fo_wf_unfold. cbn [n_t n_kids n_set n_m n_n n_str n_o length forallb]. cbn. rewrite Hci'. reflexivity. }
  destruct ((t =? 6) && (2 <=? m) && (m <=? 64)) eqn:E2.
  { split; [|cbn [FinalOptLeaf.sets_in] in *; tauto].
    rewrite fo_wf_unfold. cbn [n_t n_kids n_set n_m n_n n_str n_o length forallb]. cbn. rewrite Hci'.
    pose proof (repeat_nonempty ch m ltac:(clear -E2; lia)) as Hne. destruct (repeat_rune ch m); [contradiction|reflexivity]. }
  split; [|cbn [FinalOptLeaf.sets_in] in *; tauto].
  rewrite fo_wf_unfold. cbn [n_t n_kids n_set n_m n_n n_str n_o length forallb].
  destruct Hc as [-> | [-> | ->]]; cbn; rewrite ?Hci'; cbn [negb andb]; try (clear -Hb; lia).
  destruct (Hset eq_refl) as (cs & -> & Hokc). rewrite Hokc. cbn [andb]. clear -Hb. lia.
Qed.

Lemma mla_hrefines x : node_ok x -> fo_is_charloop (n_t x) || fo_is_charlazy (n_t x) = true ->
  rw_hrefines e (tr x) (tr (Parser.make_loop_atomic x)).
Proof.
  intros [Hwf Hs] Ht. rewrite (tr_mla x Ht).
  destruct (wf_flags x Hwf) as (_ & _ & Hlk & _ & _ & Hci & _).
  pose proof (charloop_cases _ Ht) as Hc.
  assert (exists k l, lk_of (n_t x) = Some (k, l)) as (k & l & Hkl).
  { destruct Hc as [E | [E | [E | [E | [E | E]]]]]; rewrite E; cbn; eexists; eexists; reflexivity. }
  rewrite (tr_charloop sid x k l Hkl). apply rw_heqs_hrefines. apply make_loop_atomic_heqs.
  unfold loop_atomic_ok. destruct l; try exact I.
  destruct (Hlk _ Hkl) as [Hb Hi]. split; [exact Hb|]. split; [exact Hi|].
  intros _ Hcio. exfalso. rewrite is_ci_useI in Hcio. rewrite Hci in Hcio; [discriminate | |]; clear -Hc; unfold T_Ref, T_Capture; lia.
Qed.

(* ---- children replaced by children with the same results: the same results *)
Lemma tr_node_refines x l l' : Forall2 (rw_refines e) l l' -> rw_refines e (tr_node sid x l) (tr_node sid x l').
Proof.
  intros H.
  assert (Hn : forall i, rw_refines e (nth i l NNothing) (nth i l' NNothing)).
  { induction H as [|a a' l l' Ha _ IH]; intros [|i]; cbn [nth]; try apply rw_refines_refl; [exact Ha | apply IH]. }
  destruct (tr_node_form sid x) as (F & HF & E). rewrite !E.
  destruct HF; try apply rw_refines_refl.
  - apply concat_congr, H.
  - apply alt_congr, H.
  - apply loop_refines, Hn.
  - apply loop_refines, Hn.
  - apply capture_refines, Hn.
  - apply group_congr, Hn.
  - apply poslook_refines, Hn.
  - apply neglook_refines, Hn.
  - apply atomic_refines, Hn.
  - apply backref_cond_refines; [apply Hn|]. destruct H as [|? ? ? ? _ [|? ? ? ? Hb [|]]]; try exact I. exact Hb.
  - apply expr_cond_refines; [apply Hn | apply (Hn 1%nat)|].
    destruct H as [|? ? ? ? _ [|? ? ? ? _ [|? ? ? ? Hc [|]]]]; try exact I. exact Hc.
Qed.

Lemma kids_refines x ks' : Forall2 (fun k k' => rw_refines e (tr k) (tr k')) (n_kids x) ks' ->
  rw_refines e (tr x) (tr (set_kids x ks')).
Proof. intros HF. rewrite tr_unfold, tr_set_kids. apply tr_node_refines, (Forall2_map_rel tr), HF. Qed.

(* ---- the bump-along marker (tree.go:338-368): every result kept *)
Lemma tr_bump o : tr (RN T_Bump o 0 0 0 [] None []) = NBump.
Proof. reflexivity. Qed.

Lemma node_ok_bump o : useI o = false -> node_ok (RN T_Bump o 0 0 0 [] None []).
Proof. intros Ho. split; [|cbn; tauto]. rewrite fo_wf_unfold. cbn. rewrite Ho. reflexivity. Qed.

Lemma Forall2_refl_refines l : Forall2 (fun k k' => rw_refines e (tr k) (tr k')) l l.
Proof. induction l; constructor; [apply rw_refines_refl | assumption]. Qed.

Theorem bump_sound : forall f g node aba committing node' mk,
  fo_bump f g node aba committing = Ok (node', mk) -> node_ok node ->
  node_ok node' /\ rw_refines e (tr node) (tr node') /\
  match mk with Some b => b = RN T_Bump (n_o node) 0 0 0 [] None [] /\ node' = node /\ n_t node <> 13 /\ n_t node <> 28 | None => True end.
Proof.
  induction f as [|f IH]; intros g node aba committing node' mk H Hok; [discriminate|].
  cbn [fo_bump] in H.
  destruct (n_t node =? T_Atomic) eqn:Ea.
  { destruct (n_kids node) as [|k ks] eqn:Ek; [discriminate|].
    destruct (fo_bump f g k aba (committing || negb aba)) as [[k' mk']| | |] eqn:Eb; cbn [bind] in H; try discriminate.
    injection H as <- <-. cbn [fst].
    pose proof (node_ok_kids sets node Hok) as Hks. rewrite Ek in Hks.
    destruct (IH _ _ _ _ _ _ Eb (Forall_inv Hks)) as (Hk' & Hr & _).
    split; [apply node_ok_set_kids; [exact Hok | rewrite Ek; reflexivity | constructor; [exact Hk' | exact (Forall_inv_tail Hks)]]|].
    split; [|exact I]. apply kids_refines. rewrite Ek. constructor; [exact Hr | apply Forall2_refl_refines]. }
  destruct (n_t node =? T_Concatenate) eqn:Ec.
  { apply Z.eqb_eq in Ec. destruct (n_kids node) as [|k ks] eqn:Ek; [discriminate|].
    destruct (fo_bump f g k false committing) as [[k' mk']| | |] eqn:Eb; cbn [bind] in H; try discriminate.
    injection H as <- <-. cbn [fst snd].
    pose proof (node_ok_kids sets node Hok) as Hkks. rewrite Ek in Hkks.
    pose proof (Forall_inv Hkks) as Hk. pose proof (Forall_inv_tail Hkks) as Hks.
    destruct (IH _ _ _ _ _ _ Eb Hk) as (Hk' & Hr & Hmk).
    destruct mk' as [b|].
    - destruct Hmk as (-> & -> & Hn13 & Hn28).
      assert (Hob : node_ok (RN T_Bump (n_o k) 0 0 0 [] None [])).
      { apply node_ok_bump. destruct (wf_flags k (proj1 Hk)) as (_ & _ & _ & _ & _ & Hci & _). apply Hci; assumption. }
      split.
      { destruct Hok as [Hwf Hs]. destruct node as [t o ch m n str st kids]. cbn [set_kids n_kids n_t] in *. subst t kids. split.
        - rewrite fo_wf_unfold in Hwf |- *. cbn [n_t n_kids n_set n_m n_n n_str n_o] in *.
          cbn [forallb length] in Hwf |- *. rewrite (proj1 Hob). cbn in Hwf |- *.
          destruct (length ks); cbn in Hwf |- *; [discriminate Hwf | exact Hwf].
        - cbn [FinalOptLeaf.sets_in] in Hs |- *. tauto. }
      split; [|exact I].
      rewrite tr_unfold, tr_set_kids, Ek, !(tr_node_concat sid node _ Ec). cbn [map]. rewrite tr_bump. exact (proj1 (bump_insert_eq e (n_o node) [tr k] (map tr ks))).
    - split; [apply node_ok_set_kids; [exact Hok | rewrite Ek; reflexivity | constructor; assumption]|].
      split; [|exact I]. apply kids_refines. rewrite Ek. constructor; [exact Hr | apply Forall2_refl_refines]. }
  destruct ((n_n node =? pp_inf) && (fo_is_charloop (n_t node) || is_atomicloop_family (n_t node) || fo_is_charlazy (n_t node) && negb aba && negb committing)) eqn:Et.
  - injection H as <- <-. split; [exact Hok|]. split; [apply rw_refines_refl|].
    destruct (fo_gate g 4); [exact I|]. split; [reflexivity|]. split; [reflexivity|].
    clear -Et. unfold fo_is_charloop, fo_is_charlazy, is_atomicloop_family, T_Oneloop, T_Notoneloop, T_Setloop, T_Onelazy, T_Notonelazy, T_Setlazy,
      T_Oneloopatomic, T_Notoneloopatomic, T_Setloopatomic in Et. lia.
  - injection H as <- <-. split; [exact Hok|]. split; [apply rw_refines_refl|exact I].
Qed.

Lemma clear_I_noop o : useI o = false -> clear_I o = o.
Proof.
  unfold useI, pl_bit, clear_I, PL_IgnoreCase. intros H.
  assert (Z.land o 1 = 0) as Hl by lia.
  apply Z.bits_inj'. intros i Hi. rewrite Z.ldiff_spec.
  destruct (Z.eq_dec i 0) as [->|Hne].
  - assert (Z.testbit o 0 = false) as Hb.
    { pose proof (Z.land_spec o 1 0) as Hs. rewrite Hl in Hs. cbn in Hs. rewrite andb_true_r in Hs. symmetry. exact Hs. }
    rewrite Hb. reflexivity.
  - replace (Z.testbit 1 i) with false; [rewrite andb_true_r; reflexivity|].
    symmetry. destruct i; try lia; reflexivity.
Qed.

(* the node reduce() works on: IgnoreCase cleared in the options (tree.go:488-490) *)
Definition clr (x : rnode) : rnode := set_o x (if n_t x =? T_Ref then n_o x else clear_I (n_o x)).

Lemma clr_same x : fo_wf x = true -> n_t x <> 28 -> clr x = x.
Proof.
  intros Hwf H28. unfold clr. destruct (n_t x =? T_Ref) eqn:E; [destruct x; reflexivity|].
  destruct (wf_flags x Hwf) as (_ & _ & _ & _ & _ & Hci & _).
  rewrite clear_I_noop by (apply Hci; [apply Z.eqb_neq; exact E | exact H28]). destruct x; reflexivity.
Qed.

Lemma single_mla t : single_result e (Rewrite.make_loop_atomic t) \/ Rewrite.make_loop_atomic t = t.
Proof.
  destruct t; try (right; reflexivity). cbn [Rewrite.make_loop_atomic].
  destruct l.
  - left. apply single_result_charloop_atomic.
  - left. destruct (m =? 0); [apply single_result_empty|]. destruct k; try apply single_result_charloop_atomic.
    destruct ((2 <=? m) && (m <=? MULTI_VS_REPEATER_LIMIT)); [apply single_result_multi | apply single_result_charloop_atomic].
  - right. reflexivity.
Qed.

(* Atomic in front of a node with at most one result is that node *)
Lemma atomic_single_refines t : single_result e t -> rw_refines e (NAtomic t) t.
Proof. intros H. apply refines_den. intros s. rewrite fd_den_atomic. symmetry. apply single_result_den, H. Qed.
Lemma atomic_atomic_refines t : rw_refines e (NAtomic (NAtomic t)) (NAtomic t).
Proof. apply atomic_single_refines. apply single_result_atomic. Qed.

Lemma atomic_mla_refines x : node_ok x -> fo_is_charloop (n_t x) || fo_is_charlazy (n_t x) = true ->
  rw_refines e (NAtomic (tr x)) (tr (Parser.make_loop_atomic x)).
Proof.
  intros Hok Ht. pose proof (mla_hrefines x Hok Ht) as Hh. rewrite (tr_mla x Ht) in *.
  apply refines_den. intros s. rewrite fd_den_atomic. rewrite hrefines_den in Hh. rewrite (Hh s).
  destruct (single_mla (tr x)) as [Hs|Heq]; [symmetry; apply single_result_den, Hs|].
  (* make_loop_atomic left the tree alone: it is an atomic loop already; not for a greedy / lazy loop *)
  exfalso. pose proof (charloop_cases _ Ht) as Hc.
  assert (exists k l, l <> LAtomic /\ lk_of (n_t x) = Some (k, l)) as (k & l & Hl & Hkl).
  { destruct Hc as [E | [E | [E | [E | [E | E]]]]]; rewrite E; cbn; eexists; eexists; split; try reflexivity; discriminate. }
  rewrite (tr_charloop sid x k l Hkl) in Heq. cbn [Rewrite.make_loop_atomic] in Heq.
  destruct l; try contradiction; try discriminate.
  destruct (n_m x =? 0); [discriminate|]. destruct k; try discriminate.
  destruct ((2 <=? n_m x) && (n_m x <=? MULTI_VS_REPEATER_LIMIT)); discriminate.
Qed.


Lemma tr_atomicloop_single x : is_atomicloop_family (n_t x) = true -> single_result e (tr x).
Proof.
  unfold is_atomicloop_family, T_Oneloopatomic, T_Notoneloopatomic, T_Setloopatomic. intros H.
  assert (Hc : n_t x = 43 \/ n_t x = 44 \/ n_t x = 45) by (clear -H; lia).
  assert (exists k, lk_of (n_t x) = Some (k, LAtomic)) as (k & Hk).
  { destruct Hc as [E | [E | E]]; rewrite E; cbn; eexists; reflexivity. }
  rewrite (tr_charloop sid x k LAtomic Hk). apply single_result_charloop_atomic.
Qed.

Lemma innermost_spec : forall x, n_t x = T_Atomic -> node_ok x ->
  let a := fo_innermost_atomic x in
  n_t a = T_Atomic /\ node_ok a /\ rw_refines e (tr x) (tr a) /\
  exists child, n_kids a = [child] /\ n_t child <> T_Atomic.
Proof.
  induction x as [t o ch m n str st kids IHk] using rnode_ind'. intros Ht Hok. cbn [n_t] in Ht. subst t.
  destruct (kids_one _ (proj1 Hok) eq_refl) as [k Hk]. cbn [n_kids] in Hk. subst kids.
  cbn [fo_innermost_atomic]. destruct (Z.eqb_spec (n_t k) T_Atomic) as [Ek|Ek].
  - destruct (Forall_inv IHk Ek (Forall_inv (node_ok_kids sets _ Hok))) as (Ha & Hoka & Hr & c & Hc & Hnc).
    split; [exact Ha|]. split; [exact Hoka|]. split; [|exists c; split; assumption].
    rewrite (tr_atomic sid (RN T_Atomic o ch m n str st [k]) k) by reflexivity.
    eapply rw_refines_trans; [apply atomic_refines; exact Hr|].
    rewrite (tr_atomic sid _ c Ha Hc). apply atomic_atomic_refines.
  - split; [reflexivity|]. split; [exact Hok|]. split; [apply rw_refines_refl|]. exists k. split; [reflexivity|exact Ek].
Qed.

(* ---- eliminateEndingBacktracking keeps the first result; the gated reduce (lite) keeps every result *)
Section EE.
Variable g strict : Z.
Hypothesis Hg16 : fo_gate g 16 = true.
Hypothesis HS0 : Z.testbit strict 0 = true.
Hypothesis HS1 : Z.testbit strict 1 = true.
Hypothesis HS2 : Z.testbit strict 2 = true.
Hypothesis HS3 : Z.testbit strict 3 = true.

Definition ee_spec (node node' : rnode) : Prop :=
  node_ok node' /\ rw_hrefines e (tr node) (tr node') /\
  ((n_t node = T_Atomic \/ n_t node = T_PosLook \/ n_t node = T_NegLook) -> n_t node' = n_t node /\ n_o node' = n_o node /\ length (n_kids node') = length (n_kids node)).
Definition red_spec (x x' : rnode) : Prop := node_ok x' /\ rw_refines e (tr x) (tr x').

Lemma ee_spec_refl node : node_ok node -> ee_spec node node.
Proof. intros H. split; [exact H|]. split; [apply rw_hrefines_refl|]. intros _. repeat split; reflexivity. Qed.

Lemma node_ok_clr x : node_ok x -> node_ok (clr x) /\ rw_refines e (tr x) (tr (clr x)).
Proof.
  intros Hok. destruct (Z.eq_dec (n_t x) T_Capture) as [E|E].
  - (* a capture: the options are not looked at *)
    destruct (kids_one x (proj1 Hok) ltac:(rewrite E; reflexivity)) as [k Hk]. unfold clr. rewrite E.
    destruct x as [t o ch m n str st kids]. cbn [n_t n_kids n_o set_o] in *. subst t kids. split.
    + destruct Hok as [Hwf Hs]. split; [|exact Hs]. rewrite fo_wf_unfold in Hwf |- *. exact Hwf.
    + rewrite !(tr_capture sid _ k) by reflexivity. cbn [n_o n_m n_n]. apply capture_refines. apply rw_refines_refl.
  - rewrite (clr_same x (proj1 Hok) E). split; [exact Hok | apply rw_refines_refl].
Qed.

Lemma pos_pred_NQ n : pos_pred (NQ cat_in e n).
Proof. intros a b Hp [H1 H2]. unfold NQ. rewrite <- Hp. split; assumption. Qed.

(* ---- the local functions of Model/FinalOpt.fo_ee and the branches of fo_reduce by name.  [ee], [red], [cb]: the
   calls of fo_ee, fo_reduce and fo_cbma with less fuel *)
Definition ee_first_kid (ee : bool -> rnode -> res rnode) (pa : bool) (nd : rnode) : res rnode :=
  match n_kids nd with
  | [] => Crash 53
  | k :: ks => do k' <- ee pa k ; Ok (set_kids nd (k' :: ks))
  end.
Definition ee_as_loop (ee : bool -> rnode -> res rnode) (cb : rnode -> rnode -> res bool) (nd : rnode) : res rnode :=
  if n_n nd =? 1 then ee_first_kid ee false nd
  else
    do r <- fo_loop_last false strict nd (fun first lastc =>
              do b <- cb lastc first ;
              if b then (do l' <- ee false lastc ; Ok (Some l')) else Ok None) ;
    match r with Some nd' => Ok nd' | None => Ok nd end.
(* tree.go:773-801: the last child, first wrapped in an Atomic node if it branches or loops; [k]: what is done with it *)
Definition ee_wrap (ee : bool -> rnode -> res rnode) (red : Z -> rnode -> res rnode) (t : Z) (ec : rnode) (k : rnode -> res rnode) : res rnode :=
  do c1 <- red T_Atomic ec ;
  do a1 <- red t (RN T_Atomic (n_o ec) 0 0 0 [] None [c1]) ;
  do a2 <- (if n_t a1 =? T_Atomic then
              match n_kids a1 with
              | [c] => do c' <- ee true c ; Ok (set_kids a1 [c'])
              | _ => Ok a1
              end
            else Ok a1) ;
  k a2.
Definition ee_last_kid (ee : bool -> rnode -> res rnode) (red : Z -> rnode -> res rnode) (atomic_parent : bool) (node : rnode) : res rnode :=
  match rev (n_kids node) with
  | [] => Crash 54
  | ec :: rpre =>
      let et := n_t ec in
      if ((et =? T_Alternate) || (et =? T_BackRefCond) || (et =? T_ExprCond) || (et =? T_Loop) || (et =? T_Lazyloop)) && negb atomic_parent
      then ee_wrap ee red (n_t node) ec (fun a2 => Ok (set_kids node (rev (a2 :: rpre))))
      else do ec' <- ee false ec ; Ok (set_kids node (rev (ec' :: rpre)))
  end.
Definition ee_branches (ee : bool -> rnode -> res rnode) (node : rnode) : res rnode :=
  match n_kids node with
  | [] => Crash 55
  | k0 :: ks =>
      do ks' <- fo_map_res (ee false) ks ;
      do k0' <- (if n_t node =? T_ExprCond then Ok k0 else ee false k0) ;
      Ok (set_kids node (k0' :: ks'))
  end.

Lemma fo_ee_S f par node :
  fo_ee cat_in isw isew (S f) g strict true par node =
  let ee := fo_ee cat_in isw isew f g strict true in
  let red := fo_reduce cat_in isw isew f g strict true 0 in
  let cb := fun lastc first => fo_cbma cat_in isw isew f strict lastc first [] false false false in
  if fo_gate g 2 then Ok node
  else
    let t := n_t node in
    if fo_is_charloop t || fo_is_charlazy t then Ok (Parser.make_loop_atomic node)
    else if (t =? T_Atomic) || (t =? T_PosLook) || (t =? T_NegLook) then ee_first_kid ee (t =? T_Atomic) node
    else if (t =? T_Capture) || (t =? T_Concatenate) then
      if (t =? T_Capture) && negb (n_n node =? -1) then Ok node else ee_last_kid ee red par node
    else if (t =? T_Alternate) || (t =? T_BackRefCond) || (t =? T_ExprCond) then ee_branches ee node
    else if t =? T_Lazyloop then ee_as_loop ee cb (set_mn node (n_m node) (n_m node))
    else if t =? T_Loop then ee_as_loop ee cb node
    else Ok node.
Proof. reflexivity. Qed.

Definition red_atomic (ee : bool -> rnode -> res rnode) (red : Z -> rnode -> res rnode) (x1 : rnode) : res rnode :=
  let atomic := fo_innermost_atomic x1 in
  match n_kids atomic with
  | [] => Crash 22
  | child :: crest =>
      let ct := n_t child in
      let dflt (c : rnode) : res rnode := do c' <- ee true c ; Ok (set_kids atomic (c' :: crest)) in
      if (ct =? T_Empty) || (ct =? T_Nothing) then Ok child
      else if is_atomicloop_family ct then Ok child
      else if fo_is_charloop ct || fo_is_charlazy ct then Ok (Parser.make_loop_atomic child)
      else if (ct =? T_Alternate) && negb (useRTL (n_o x1)) then
        if fo_gate g 8 then dflt child
        else
          match n_kids child with
          | [] => Crash 46
          | b0 :: _ =>
              if n_t b0 =? T_Empty then Ok (mk_node T_Empty (n_o child))
              else
                do keyed <- fo_map_res (fo_key strict) (fo_trim (n_kids child)) ;
                let (brs, reordered) := fo_reorder (S (length keyed)) keyed in
                let child1 := set_kids child brs in
                do child2 <- (if reordered then red T_Atomic child1 else Ok child1) ;
                dflt child2
          end
      else dflt child
  end.
Definition red_look (ee : bool -> rnode -> res rnode) (x1 : rnode) : res rnode :=
  do x2 <- ee false x1 ;
  match n_kids x2 with
  | [] => Crash 21
  | k :: _ => if n_t k =? T_Empty
              then Ok (set_kids (set_t x1 (if n_t x1 =? T_PosLook then T_Empty else T_Nothing)) [])
              else Ok x2
  end.
(* mode 0 (a node built by the gated reduce itself) and mode 1 coincide in the lite form *)
Definition red_cond (ee : bool -> rnode -> res rnode) (red : Z -> rnode -> res rnode) (mode : Z) (x1 : rnode) : res rnode :=
  match n_kids x1 with
  | [] => Crash 28
  | c :: r =>
      if mode =? 2 then
        do c1 <- ee false c ;
        if n_t c1 =? T_Empty then Ok (set_kids x1 (mk_node T_Empty (n_o x1) :: r))
        else do c2 <- red T_ExprCond c1 ; do c3 <- ee false c2 ; Ok (set_kids x1 (c3 :: r))
      else do c' <- ee false c ; Ok (set_kids x1 (c' :: r))
  end.

Lemma fo_reduce_S f mode ptype x :
  fo_reduce cat_in isw isew (S f) g strict true mode ptype x =
  let ee := fo_ee cat_in isw isew f g strict true in
  let red := fo_reduce cat_in isw isew f g strict true 0 in
  let t := n_t x in
  if t =? T_Alternate then Ok (clr x)
  else if t =? T_Atomic then red_atomic ee red (clr x)
  else if (t =? T_PosLook) || (t =? T_NegLook) then red_look ee (clr x)
  else if t =? T_ExprCond then red_cond ee red mode (clr x)
  else Ok (clr x).
Proof.
  destruct x as [t o ch m n str st kids]. cbn [fo_reduce]. cbv zeta. rewrite Hg16. cbn [andb n_t].
  unfold clr, red_cond. cbn [n_t n_o set_o n_kids].
  destruct (mode =? 0) eqn:Em0; [|reflexivity].
  apply Z.eqb_eq in Em0. subst mode. destruct kids; reflexivity.
Qed.

Lemma wrapped_type t : (t =? T_Alternate) || (t =? T_BackRefCond) || (t =? T_ExprCond) || (t =? T_Loop) || (t =? T_Lazyloop) = true ->
  t <> T_Ref /\ t <> T_Capture.
Proof. clear. unfold T_Alternate, T_BackRefCond, T_ExprCond, T_Loop, T_Lazyloop, T_Ref, T_Capture. lia. Qed.

(* ---- one more unit of fuel *)
Section Step.
Variable f : nat.
Notation ee := (fo_ee cat_in isw isew f g strict true).
Notation red := (fo_reduce cat_in isw isew f g strict true 0).
Notation cb := (fun lastc first => fo_cbma cat_in isw isew f strict lastc first [] false false false).
Hypothesis IHE : forall par node node', ee par node = Ok node' -> node_ok node -> ee_spec node node'.
Hypothesis IHR : forall mode ptype x x', fo_reduce cat_in isw isew f g strict true mode ptype x = Ok x' -> node_ok x -> red_spec x x'.

Lemma first_kid_inv pa nd nd' : node_ok nd -> fo_arity_ok (n_t nd) 1 = true -> ee_first_kid ee pa nd = Ok nd' ->
  exists k k', n_kids nd = [k] /\ nd' = set_kids nd [k'] /\ node_ok nd' /\ rw_hrefines e (tr k) (tr k').
Proof.
  intros Hok Har H. destruct (kids_one nd (proj1 Hok) Har) as [k Ek]. unfold ee_first_kid in H. rewrite Ek in H.
  destruct (ee pa k) as [k'| | |] eqn:Eee; cbn [bind] in H; try discriminate. injection H as <-.
  pose proof (node_ok_kids sets nd Hok) as Hk. rewrite Ek in Hk.
  destruct (IHE _ _ _ Eee (Forall_inv Hk)) as (Hk' & Hh & _).
  exists k, k'. split; [exact Ek|]. split; [reflexivity|]. split; [|exact Hh].
  apply node_ok_set_kids; [exact Hok | rewrite Ek; reflexivity | constructor; [exact Hk'|constructor]].
Qed.

(* Atomic, PosLook, NegLook: the child *)
Lemma ee_look pa node node' : n_t node = T_Atomic \/ n_t node = T_PosLook \/ n_t node = T_NegLook -> node_ok node ->
  ee_first_kid ee pa node = Ok node' -> ee_spec node node'.
Proof.
  intros Ht Hok H.
  destruct (first_kid_inv pa node node' Hok ltac:(destruct Ht as [E|[E|E]]; rewrite E; reflexivity) H) as (k & k' & Ek & -> & Hok' & Hh).
  split; [exact Hok'|]. split.
  - rewrite tr_unfold, tr_set_kids, Ek. cbn [map]. destruct Ht as [E|[E|E]].
    + rewrite !(tr_node_atomic sid node _ E). apply atomic_tail, Hh.
    + rewrite !(tr_node_poslook sid node _ E). apply poslook_tail, Hh.
    + rewrite !(tr_node_neglook sid node _ E). apply neglook_tail, Hh.
  - intros _. destruct (set_kids_fields node [k']) as (-> & -> & _ & _ & _ & _ & _ & ->). rewrite Ek. repeat split; reflexivity.
Qed.

Lemma ee_wrap_sound t ec k y : node_ok ec -> n_t ec <> T_Ref -> n_t ec <> T_Capture ->
  ee_wrap ee red t ec k = Ok y -> exists a2, k a2 = Ok y /\ node_ok a2 /\ rw_hrefines e (tr ec) (tr a2).
Proof.
  intros Hec H13 H28 H. unfold ee_wrap in H.
  destruct (red T_Atomic ec) as [c1| | |] eqn:Ec1; cbn [bind] in H; try discriminate.
  destruct (IHR _ _ _ _ Ec1 Hec) as [Hc1 Hr1].
  set (atom := RN T_Atomic (n_o ec) 0 0 0 [] None [c1]) in *.
  assert (Hatom : node_ok atom).
  { destruct Hc1 as [Hw1 Hs1]. split; [|cbn; tauto]. rewrite fo_wf_unfold. cbn. rewrite Hw1.
    destruct (wf_flags ec (proj1 Hec)) as (_ & _ & _ & _ & _ & Hci & _). rewrite (Hci H13 H28). reflexivity. }
  destruct (red t atom) as [a1| | |] eqn:Ea1; cbn [bind] in H; try discriminate.
  destruct (IHR _ _ _ _ Ea1 Hatom) as [Ha1 Hr2].
  assert (Hchain : rw_hrefines e (tr ec) (tr a1)).
  { eapply rw_hrefines_trans; [apply rw_refines_hrefines; exact Hr1|].
    eapply rw_hrefines_trans; [apply hrefines_sym; apply (proj1 (atomic_heq e (tr c1)))|].
    change (NAtomic (tr c1)) with (tr atom). apply rw_refines_hrefines. exact Hr2. }
  destruct (n_t a1 =? T_Atomic) eqn:Eat; [|exists a1; split; [exact H|split; assumption]].
  apply Z.eqb_eq in Eat.
  destruct (kids_one a1 (proj1 Ha1) ltac:(rewrite Eat; reflexivity)) as [c Ekc]. rewrite Ekc in H.
  destruct (ee true c) as [c'| | |] eqn:Ec'; cbn [bind] in H; try discriminate.
  assert (H' : ee_first_kid ee true a1 = Ok (set_kids a1 [c'])) by (unfold ee_first_kid; rewrite Ekc, Ec'; reflexivity).
  destruct (ee_look true a1 _ (or_introl Eat) Ha1 H') as (Ha2 & Hh & _).
  exists (set_kids a1 [c']). split; [exact H|]. split; [exact Ha2 | eapply rw_hrefines_trans; eassumption].
Qed.

(* Concatenate, Capture that is not a balancing one: the last child *)
Lemma ee_last par node node' : n_t node = T_Concatenate \/ n_t node = T_Capture /\ n_n node = -1 -> node_ok node ->
  ee_last_kid ee red par node = Ok node' -> node_ok node' /\ rw_hrefines e (tr node) (tr node').
Proof.
  intros Ht Hok H. unfold ee_last_kid in H.
  destruct (rev (n_kids node)) as [|ec rpre] eqn:Erev; [discriminate|]. apply rev_cons_inv in Erev. cbv zeta in H.
  assert (Hec : node_ok ec) by (apply (node_ok_kid sets node); [exact Hok | rewrite Erev; apply in_or_app; right; left; reflexivity]).
  assert (Hec' : forall r, node_ok r /\ rw_hrefines e (tr ec) (tr r) -> Ok (set_kids node (rev (r :: rpre))) = Ok node' ->
            node_ok node' /\ rw_hrefines e (tr node) (tr node')).
  { intros r [Hr Hh] E. injection E as <-. cbn [rev].
    destruct (last_kid_rel sid e sets (rw_hrefines e) node (rev rpre) ec r
                (conj (fun o pre a a' _ => concat_last_tail e o pre a a') (capture_tail e)) Hok Erev Ht) as [H1 H2].
    split; [exact (H1 Hr) | exact (H2 Hh)]. }
  destruct (((n_t ec =? T_Alternate) || (n_t ec =? T_BackRefCond) || (n_t ec =? T_ExprCond) || (n_t ec =? T_Loop) || (n_t ec =? T_Lazyloop)) && negb par) eqn:Ew.
  - apply andb_prop in Ew. destruct (wrapped_type _ (proj1 Ew)) as [H13 H28].
    destruct (ee_wrap_sound _ _ _ _ Hec H13 H28 H) as (a2 & E & Ha2). exact (Hec' a2 Ha2 E).
  - destruct (ee false ec) as [ec'| | |] eqn:Eec; cbn [bind] in H; try discriminate.
    destruct (IHE _ _ _ Eec Hec) as (H1 & H2 & _). exact (Hec' ec' (conj H1 H2) H).
Qed.

(* Alternate, BackRefCond, ExprCond: every branch (not the condition of an ExprCond) *)
Lemma ee_branches_sound node node' : n_t node = T_Alternate \/ n_t node = T_BackRefCond \/ n_t node = T_ExprCond -> node_ok node ->
  ee_branches ee node = Ok node' -> node_ok node' /\ rw_hrefines e (tr node) (tr node').
Proof.
  intros Ht Hok H. unfold ee_branches in H.
  destruct (n_kids node) as [|k0 ks] eqn:Ek; [discriminate|].
  destruct (fo_map_res (ee false) ks) as [ks'| | |] eqn:Eks; cbn [bind] in H; try discriminate.
  pose proof (node_ok_kids sets node Hok) as Hkk. rewrite Ek in Hkk.
  assert (Hee : forall k k', ee false k = Ok k' -> node_ok k -> node_ok k' /\ rw_hrefines e (tr k) (tr k')).
  { intros k k' Hk Hk0. destruct (IHE _ _ _ Hk Hk0) as (HA & HB & _). split; assumption. }
  pose proof (map_res_rel sets _ _ _ _ Hee (Forall_inv_tail Hkk) Eks) as Hall.
  pose proof (fun go' => branches_rel sid e sets (rw_hrefines e) node go' (alt_all_tail e)
                (fun o g y y' n n' => backref_cond_tail e o g y y' (Some n) (Some n'))
                (fun o c y y' n n' _ => expr_cond_tail e o c c y y' (Some n) (Some n') (rw_hrefines_refl e c)) Hok Ht) as Hbr.
  cbv zeta in Hbr. rewrite Ek in Hbr. cbn [firstn skipn] in Hbr.
  destruct (n_t node =? T_ExprCond).
  - injection H as <-. exact (Hbr ks' Hall).
  - destruct (ee false k0) as [k0'| | |] eqn:E0; cbn [bind] in H; try discriminate. injection H as <-.
    exact (Hbr (k0' :: ks') (Forall2_cons _ _ (Hee _ _ E0 (Forall_inv Hkk)) Hall)).
Qed.

(* Loop, Lazyloop (tree.go:829-842): the body of a loop that runs at most once; else the last child of the body, when it
   is disjoint from the body's first child (FindLastExpressionInLoopForAutoAtomic) *)
Lemma ee_as_loop_sound nd nd' : fo_gate g 2 = false -> n_t nd = T_Loop \/ n_t nd = T_Lazyloop -> node_ok nd ->
  ee_as_loop ee cb nd = Ok nd' -> node_ok nd' /\ rw_hrefines e (tr nd) (tr nd').
Proof.
  intros Eg2 Htl Hnd Hr. unfold ee_as_loop in Hr.
  assert (Har : fo_arity_ok (n_t nd) 1 = true) by (destruct Htl as [E|E]; rewrite E; reflexivity).
  destruct (wf_flags nd (proj1 Hnd)) as (_ & _ & _ & Hb & _). specialize (Hb Htl).
  assert (Etr : forall a, tr_node sid nd [a] = NLoop (n_t nd =? T_Lazyloop) (n_o nd) (n_m nd) (n_n nd) a).
  { intros a. destruct Htl as [E|E]; rewrite E; [apply tr_node_loop | apply tr_node_lazyloop]; exact E. }
  destruct (n_n nd =? 1) eqn:En1.
  - destruct (first_kid_inv false nd nd' Hnd Har Hr) as (k & k' & Ek & -> & Hok' & Hh). split; [exact Hok'|].
    rewrite tr_unfold, tr_set_kids, Ek. cbn [map]. rewrite !Etr. replace (n_n nd) with 1 in * by (clear -En1; lia).
    apply loop_one_tail; [clear -Hb; lia | exact Hh].
  - destruct (kids_one nd (proj1 Hnd) Har) as [b Eb]. unfold fo_loop_last in Hr. rewrite Eb in Hr.
    set (k0 := fun first lastc : rnode =>
                 do b <- fo_cbma cat_in isw isew f strict lastc first [] false false false ;
                 if b then (do l' <- ee false lastc ; Ok (Some l')) else Ok None) in Hr.
    destruct (fo_body_last strict b k0) as [r| | |] eqn:Er; cbn [bind] in Hr; try discriminate.
    destruct r as [b'|]; [|injection Hr as <-; split; [exact Hnd | apply rw_hrefines_refl]].
    injection Hr as <-.
    pose proof (node_ok_kids sets nd Hnd) as Hkb. rewrite Eb in Hkb. apply Forall_inv in Hkb.
    destruct (body_last_sound sid e sets strict HS1 k0 b b' Er Hkb) as (first & lastc & l' & Hk & Hf & Hl & Hokb & HR & _ & Hd').
    unfold k0 in Hk.
    destruct (fo_cbma cat_in isw isew f strict lastc first [] false false false) as [bb| | |] eqn:Ecb; cbn [bind] in Hk; try discriminate.
    destruct bb; [|discriminate].
    destruct (ee false lastc) as [l2| | |] eqn:Eee; cbn [bind] in Hk; try discriminate.
    injection Hk as <-.
    pose proof (cbma_true_greedy cat_in isw isew sid e sets strict _ _ _ _ _ _ Ecb Hf (Forall_nil _)) as Hgr.
    pose proof (cbma_true_ltr cat_in isw isew strict _ _ _ _ _ _ _ Ecb) as Hltr.
    (* on a greedy single-character loop eliminateEndingBacktracking is makeLoopAtomic *)
    assert (El2 : l2 = make_loop_atomic lastc).
    { clear -Eee Eg2 Hgr. destruct f as [|f']; [discriminate|]. rewrite fo_ee_S, Eg2 in Eee. cbv zeta in Eee.
      rewrite Hgr in Eee. cbn [orb] in Eee. injection Eee as <-. reflexivity. }
    subst l2.
    assert (Hl2 : node_ok (make_loop_atomic lastc)) by (apply (node_ok_mla_greedy sets); assumption).
    split; [apply node_ok_set_kids; [exact Hnd | rewrite Eb; reflexivity | constructor; [apply Hokb; exact Hl2|constructor]]|].
    rewrite tr_unfold, tr_set_kids, Eb. cbn [map]. rewrite !Etr. apply hrefines_den. intros s.
    apply (proj2 (loop_hpr e (NQ cat_in e lastc) _ (n_o nd) (n_m nd) (n_n nd) (tr b) (tr b')
             (loop_limit_nonneg _ _ (proj2 (proj1 Hb)))
             (HR _ (tail_closed_hpr e _ (pos_pred_NQ lastc)) (mla_hpr cat_in isw isew sid e sets Henv lastc Hgr Hl Hltr))
             (fun q Hq => Hd' q (cbma_noiter_dead cat_in isw isew sid e sets Henv strict _ _ _ _ _ _ Ecb Hl Hf q Hq)) s)).
Qed.

(* tree.go:826-828: a lazy loop at the end runs its minimum *)
Lemma lazy_min_sound node : node_ok node -> n_t node = T_Lazyloop ->
  let nd := set_mn node (n_m node) (n_m node) in
  n_t nd = T_Lazyloop /\ node_ok nd /\ rw_hrefines e (tr node) (tr nd).
Proof.
  intros Hok Et. destruct (wf_flags node (proj1 Hok)) as (_ & _ & _ & Hb & _). specialize (Hb (or_intror Et)).
  destruct (kids_one node (proj1 Hok) ltac:(rewrite Et; reflexivity)) as [k Ek].
  destruct node as [t o ch m n str st kids]. cbn [n_t n_m n_n n_kids set_mn] in *. subst t kids.
  split; [reflexivity|]. split.
  - destruct Hok as [Hwf Hs]. split; [|exact Hs].
    rewrite fo_wf_unfold in Hwf |- *. cbn [n_t n_kids n_set n_m n_n n_str n_o] in *.
    rewrite Z.leb_refl. replace (m <=? n) with true in Hwf by (symmetry; apply Z.leb_le, Hb). exact Hwf.
  - rewrite !(tr_lazyloop sid _ k) by reflexivity. cbn [n_o n_m n_n]. apply lazyloop_min_tail; apply Hb.
Qed.

Lemma ee_step par node node' : fo_ee cat_in isw isew (S f) g strict true par node = Ok node' -> node_ok node -> ee_spec node node'.
Proof.
  intros H Hok. rewrite fo_ee_S in H. cbv zeta in H.
  destruct (fo_gate g 2) eqn:Eg2; [injection H as <-; apply ee_spec_refl; exact Hok|].
  destruct (fo_is_charloop (n_t node) || fo_is_charlazy (n_t node)) eqn:Ecl.
  { injection H as <-. split; [apply node_ok_mla; assumption|]. split; [apply mla_hrefines; assumption|].
    intros Ht. exfalso. clear -Ecl Ht. destruct Ht as [E|[E|E]]; rewrite E in Ecl; discriminate. }
  destruct ((n_t node =? T_Atomic) || (n_t node =? T_PosLook) || (n_t node =? T_NegLook)) eqn:Eapn.
  { exact (ee_look _ node node' (proj1 (eqb_or3 _ _ _ _) Eapn) Hok H). }
  assert (Hplain : forall nd', node_ok nd' /\ rw_hrefines e (tr node) (tr nd') -> ee_spec node nd').
  { intros nd' [H1 H2]. split; [exact H1|]. split; [exact H2|]. intros Hc. apply eqb_or3 in Hc. rewrite Hc in Eapn. discriminate. }
  destruct ((n_t node =? T_Capture) || (n_t node =? T_Concatenate)) eqn:Ecc.
  { destruct ((n_t node =? T_Capture) && negb (n_n node =? -1)) eqn:Ebal; [injection H as <-; apply ee_spec_refl; exact Hok|].
    apply Hplain. exact (ee_last par node node' (last_kid_type _ _ Ecc Ebal) Hok H). }
  destruct ((n_t node =? T_Alternate) || (n_t node =? T_BackRefCond) || (n_t node =? T_ExprCond)) eqn:Ealt.
  { apply Hplain. exact (ee_branches_sound node node' (proj1 (eqb_or3 _ _ _ _) Ealt) Hok H). }
  destruct (n_t node =? T_Lazyloop) eqn:Elz.
  { apply Z.eqb_eq in Elz. destruct (lazy_min_sound node Hok Elz) as (Et & Hnd & Hh0).
    destruct (ee_as_loop_sound _ node' Eg2 (or_intror Et) Hnd H) as [Hnd' Hh].
    apply Hplain. split; [exact Hnd' | eapply rw_hrefines_trans; eassumption]. }
  destruct (n_t node =? T_Loop) eqn:Elp.
  { apply Z.eqb_eq in Elp. apply Hplain. exact (ee_as_loop_sound node node' Eg2 (or_introl Elp) Hok H). }
  injection H as <-. apply ee_spec_refl; exact Hok.
Qed.

(* ---- the gated reduce.  reduceAtomic (tree.go:586-715) *)
Lemma red_atomic_sound x1 y : node_ok x1 -> n_t x1 = T_Atomic -> red_atomic ee red x1 = Ok y -> red_spec x1 y.
Proof.
  intros Hok1 Eat H. unfold red_atomic in H. cbv zeta in H.
  destruct (innermost_spec x1 Eat Hok1) as (Hta & Hoka & Hra & child & Ekc & Hnc). cbv zeta in Hta, Hoka, Hra, Ekc.
  rewrite Ekc in H.
  assert (Hchild : node_ok child) by (apply (node_ok_kid sets (fo_innermost_atomic x1)); [exact Hoka | rewrite Ekc; left; reflexivity]).
  assert (Hlift : forall y, node_ok y -> rw_refines e (NAtomic (tr child)) (tr y) -> red_spec x1 y).
  { intros y0 H1 H2. split; [exact H1|]. eapply rw_refines_trans; [exact Hra|].
    rewrite (tr_atomic sid (fo_innermost_atomic x1) child Hta Ekc). exact H2. }
  assert (Hdflt : forall c, node_ok c -> rw_hrefines e (tr child) (tr c) ->
            forall y, (do c' <- ee true c ; Ok (set_kids (fo_innermost_atomic x1) [c'])) = Ok y -> red_spec x1 y).
  { intros c Hc Hhc y0 Hy.
    destruct (ee true c) as [c'| | |] eqn:Ec; cbn [bind] in Hy; try discriminate.
    injection Hy as <-. destruct (IHE _ _ _ Ec Hc) as (Hc' & Hh & _).
    apply Hlift.
    - apply node_ok_set_kids; [exact Hoka | rewrite Ekc; reflexivity | constructor; [exact Hc'|constructor]].
    - rewrite tr_set_kids. cbn [map]. rewrite (tr_node_atomic sid _ _ Hta).
      apply atomic_observes_head. eapply rw_hrefines_trans; [exact Hhc | exact Hh]. }
  destruct ((n_t child =? T_Empty) || (n_t child =? T_Nothing)) eqn:Een.
  { injection H as <-. apply Hlift; [exact Hchild|]. apply atomic_single_refines.
    apply orb_prop in Een. destruct Een as [E|E]; apply Z.eqb_eq in E;
      [rewrite (tr_empty sid child E); apply single_result_empty | rewrite (tr_nothing sid child E); apply single_result_nothing]. }
  destruct (is_atomicloop_family (n_t child)) eqn:Eal.
  { injection H as <-. apply Hlift; [exact Hchild|]. apply atomic_single_refines. apply tr_atomicloop_single. exact Eal. }
  destruct (fo_is_charloop (n_t child) || fo_is_charlazy (n_t child)) eqn:Ecl.
  { injection H as <-. apply Hlift; [apply node_ok_mla; assumption | apply atomic_mla_refines; assumption]. }
  destruct ((n_t child =? T_Alternate) && negb (useRTL (n_o x1))) eqn:Ealt8;
    [|apply (Hdflt child Hchild (rw_hrefines_refl e _) _ H)].
  destruct (fo_gate g 8); [apply (Hdflt child Hchild (rw_hrefines_refl e _) _ H)|].
  (* reduceAtomic's alternation branch (tree.go:612-707) *)
  apply andb_prop in Ealt8. destruct Ealt8 as [Etc _]. apply Z.eqb_eq in Etc.
  destruct (n_kids child) as [|b0 bs] eqn:Ekids; [discriminate|].
  destruct (n_t b0 =? T_Empty) eqn:Eb0.
  { apply Z.eqb_eq in Eb0. injection H as <-. apply Hlift.
    - split; [|cbn; tauto]. rewrite fo_wf_unfold. cbn.
      destruct (wf_flags child (proj1 Hchild)) as (_ & _ & _ & _ & _ & Hci & _).
      rewrite Hci by (rewrite Etc; discriminate). reflexivity.
    - rewrite (tr_alt sid child Etc), Ekids. cbn [map]. rewrite (tr_empty sid b0 Eb0).
      change (tr (mk_node T_Empty (n_o child))) with NEmpty.
      eapply rw_refines_trans; [apply atomic_observes_head; apply trim_first_empty | apply atomic_single_refines; apply single_result_empty]. }
  rewrite <- Ekids in H.
  destruct (fo_map_res (fo_key strict) (fo_trim (n_kids child))) as [keyed| | |] eqn:Ekeyed; cbn [bind] in H; try discriminate.
  destruct (atomic_alt_sound cat_in isw isew sid e sets Henv strict child keyed (S (length keyed)) HS3 Hchild Etc Ekeyed) as [Hc1 Hh1].
  destruct (fo_reorder (S (length keyed)) keyed) as [brs reordered] eqn:Ero. cbn [fst] in Hc1, Hh1. cbv zeta in H.
  assert (Hc2 : exists child2,
            (if reordered then red T_Atomic (set_kids child brs) else Ok (set_kids child brs)) = Ok child2 /\
            node_ok child2 /\ rw_hrefines e (tr child) (tr child2)).
  { destruct reordered.
    - destruct (red T_Atomic (set_kids child brs)) as [c2| | |] eqn:Ec2; cbn [bind] in H; try discriminate.
      exists c2. split; [reflexivity|]. destruct (IHR _ _ _ _ Ec2 Hc1) as [Hc2 Hr2]. split; [exact Hc2|].
      eapply rw_hrefines_trans; [exact Hh1 | apply rw_refines_hrefines; exact Hr2].
    - exists (set_kids child brs). split; [reflexivity|]. split; assumption. }
  destruct Hc2 as (child2 & E2 & Hc2 & Hh2). rewrite E2 in H. cbn [bind] in H.
  apply (Hdflt child2 Hc2 Hh2 _ H).
Qed.

(* reduceLookaround (tree.go:516-540) *)
Lemma red_look_sound x1 y : node_ok x1 -> n_t x1 = T_PosLook \/ n_t x1 = T_NegLook -> red_look ee x1 = Ok y -> red_spec x1 y.
Proof.
  intros Hok1 Et H. unfold red_look in H.
  destruct (ee false x1) as [x2| | |] eqn:Ex2; cbn [bind] in H; try discriminate.
  destruct (IHE _ _ _ Ex2 Hok1) as (Hok2 & Hh & Hty).
  destruct (Hty (or_intror Et)) as (Ht2 & _ & _).
  assert (Har : fo_arity_ok (n_t x1) 1 = true) by (destruct Et as [E|E]; rewrite E; reflexivity).
  destruct (kids_one x1 (proj1 Hok1) Har) as [k1 Ek1]. rewrite <- Ht2 in Har.
  destruct (kids_one x2 (proj1 Hok2) Har) as [k Ek]. rewrite Ek in H.
  rewrite (tr_unfold sid x1), (tr_unfold sid x2), Ek1, Ek in Hh. cbn [map] in Hh.
  assert (Hsingle : rw_refines e (tr x1) (tr x2)).
  { rewrite (tr_unfold sid x1), (tr_unfold sid x2), Ek1, Ek. cbn [map]. destruct Et as [E|E].
    - rewrite (tr_node_poslook sid x1 _ E), (tr_node_poslook sid x2 _ (eq_trans Ht2 E)) in *.
      apply hrefines_single; [apply single_result_poslook | apply single_result_poslook | exact Hh].
    - rewrite (tr_node_neglook sid x1 _ E), (tr_node_neglook sid x2 _ (eq_trans Ht2 E)) in *.
      apply hrefines_single; [apply single_result_neglook | apply single_result_neglook | exact Hh]. }
  destruct (n_t k =? T_Empty) eqn:Eke; [|injection H as <-; split; [exact Hok2 | exact Hsingle]].
  apply Z.eqb_eq in Eke. injection H as <-.
  assert (Hci : useI (n_o x1) = false).
  { destruct (wf_flags x1 (proj1 Hok1)) as (_ & _ & _ & _ & _ & Hci & _). apply Hci; destruct Et as [E|E]; rewrite E; discriminate. }
  split.
  - destruct Hok1 as [_ Hs]. destruct x1 as [t o ch m n str st kids]. cbn [n_t n_o set_t set_kids] in *.
    split; [|cbn in Hs |- *; tauto].
    rewrite fo_wf_unfold. cbn [n_t n_kids n_set n_m n_n n_str n_o length forallb].
    destruct (t =? T_PosLook); cbn; rewrite Hci; reflexivity.
  - eapply rw_refines_trans; [exact Hsingle|]. rewrite (tr_unfold sid x2), Ek. cbn [map]. rewrite (tr_empty sid k Eke).
    destruct Et as [E|E].
    + rewrite (tr_node_poslook sid x2 _ (eq_trans Ht2 E)), tr_empty by (destruct x1; cbn [n_t set_t set_kids] in *; rewrite E; reflexivity).
      apply refines_den. intros s. rewrite fd_den_poslook, !fd_den_empty. cbn. rewrite with_pos_same. reflexivity.
    + rewrite (tr_node_neglook sid x2 _ (eq_trans Ht2 E)), tr_nothing by (destruct x1; cbn [n_t set_t set_kids] in *; rewrite E; reflexivity).
      apply refines_den. intros s. rewrite fd_den_neglook, fd_den_empty, fd_den_nothing. reflexivity.
Qed.

(* reduceExpressionConditional (tree.go:556-581): the condition *)
Lemma red_cond_sound mode x1 y : node_ok x1 -> n_t x1 = T_ExprCond -> red_cond ee red mode x1 = Ok y -> red_spec x1 y.
Proof.
  intros Hok1 Et H. unfold red_cond in H.
  destruct (kids_three x1 (proj1 Hok1) Et) as (c0 & y0 & nn & Ek). rewrite Ek in H.
  pose proof (node_ok_kids sets x1 Hok1) as Hks. rewrite Ek in Hks. pose proof (Forall_inv Hks) as Hc0.
  assert (Hcond : forall c', node_ok c' -> rw_hrefines e (tr c0) (tr c') -> red_spec x1 (set_kids x1 [c'; y0; nn])).
  { intros c' Hc' Hh. split.
    - apply node_ok_set_kids; [exact Hok1 | rewrite Ek; reflexivity | constructor; [exact Hc' | exact (Forall_inv_tail Hks)]].
    - rewrite tr_unfold, tr_set_kids, Ek. cbn [map]. rewrite !(tr_node_expr_cond sid x1 _ _ _ Et).
      apply exprcond_observes_head. exact Hh. }
  destruct (mode =? 2).
  - destruct (ee false c0) as [c1| | |] eqn:Ec1; cbn [bind] in H; try discriminate.
    destruct (IHE _ _ _ Ec1 Hc0) as (Hc1 & Hh1 & _).
    destruct (n_t c1 =? T_Empty) eqn:Ee.
    + (* the PosLook node itself became Empty, tree.go:530-536 *)
      apply Z.eqb_eq in Ee. injection H as <-. apply Hcond.
      * split; [|cbn; tauto]. rewrite fo_wf_unfold. cbn.
        destruct (wf_flags x1 (proj1 Hok1)) as (_ & _ & _ & _ & _ & Hci & _). rewrite Hci by (rewrite Et; discriminate). reflexivity.
      * change (tr (mk_node T_Empty (n_o x1))) with NEmpty. rewrite <- (tr_empty sid c1 Ee). exact Hh1.
    + destruct (red T_ExprCond c1) as [c2| | |] eqn:Ec2; cbn [bind] in H; try discriminate.
      destruct (IHR _ _ _ _ Ec2 Hc1) as [Hc2 Hr2].
      destruct (ee false c2) as [c3| | |] eqn:Ec3; cbn [bind] in H; try discriminate.
      destruct (IHE _ _ _ Ec3 Hc2) as (Hc3 & Hh3 & _). injection H as <-.
      apply Hcond; [exact Hc3|].
      eapply rw_hrefines_trans; [exact Hh1|]. eapply rw_hrefines_trans; [apply rw_refines_hrefines; exact Hr2 | exact Hh3].
  - destruct (ee false c0) as [c'| | |] eqn:Ec; cbn [bind] in H; try discriminate.
    injection H as <-. destruct (IHE _ _ _ Ec Hc0) as (Hc' & Hh & _). apply Hcond; assumption.
Qed.

Lemma red_step mode ptype x x' : fo_reduce cat_in isw isew (S f) g strict true mode ptype x = Ok x' -> node_ok x -> red_spec x x'.
Proof.
  intros H Hok. rewrite fo_reduce_S in H. cbv zeta in H.
  destruct (node_ok_clr x Hok) as [Hok1 Hr1].
  assert (Et1 : n_t (clr x) = n_t x) by (destruct x; reflexivity).
  assert (Hlift : forall y, red_spec (clr x) y -> red_spec x y).
  { intros y [H1 H2]. split; [exact H1 | eapply rw_refines_trans; [exact Hr1 | exact H2]]. }
  apply Hlift.
  destruct (n_t x =? T_Alternate); [injection H as <-; split; [exact Hok1 | apply rw_refines_refl]|].
  destruct (n_t x =? T_Atomic) eqn:Ea; [apply Z.eqb_eq in Ea; exact (red_atomic_sound _ _ Hok1 (eq_trans Et1 Ea) H)|].
  destruct ((n_t x =? T_PosLook) || (n_t x =? T_NegLook)) eqn:El.
  { apply orb_prop in El. rewrite !Z.eqb_eq, <- Et1 in El. exact (red_look_sound _ _ Hok1 El H). }
  destruct (n_t x =? T_ExprCond) eqn:Ec; [apply Z.eqb_eq in Ec; exact (red_cond_sound mode _ _ Hok1 (eq_trans Et1 Ec) H)|].
  injection H as <-. split; [exact Hok1 | apply rw_refines_refl].
Qed.

End Step.

Theorem ee_red_sound : forall f,
  (forall par node node', fo_ee cat_in isw isew f g strict true par node = Ok node' -> node_ok node -> ee_spec node node') /\
  (forall mode ptype x x', fo_reduce cat_in isw isew f g strict true mode ptype x = Ok x' -> node_ok x -> red_spec x x').
Proof using Henv Hg16 HS0 HS1 HS2 HS3.
  induction f as [|f [IHE IHR]]; [split; intros; discriminate|]. split.
  - intros par node node'. apply (ee_step f IHE IHR).
  - intros mode ptype x x'. apply (red_step f IHE IHR).
Qed.

End EE.

End End.

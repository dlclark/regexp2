(* C05, proofs part 1: the reference semantics as a total FUNCTION.
   Spec.sem terminates on every tree with enough fuel (SpecTermProofs.spec_sem_total_any) and is monotone in
   the fuel (RewriteProofs.rw_sem_mono), so  den e t s  = "the priority-ordered list of all results of t from s"
   is a function; it satisfies one equation per constructor (fd_den_...), loops through the total iteration
   function iterD.  Everything about the rewrites is then equational reasoning on lists. *)
From Verif Require Import Base.Prelude Model.Tree Model.Spec Model.Rewrite
  Proofs.SpecProofs Proofs.SpecTermProofs Proofs.RewriteProofs.
From Verif Require Import Proofs.ListFacts.
From Coq Require Import ZifyBool.

Section Den.
Variable e : env.

Definition den (t : node) (s : st) : list st :=
  match sem e (term_fuel_any t) t s with Ok l => l | _ => [] end.

Lemma fd_den_evals t s : rw_evals e t s (den t s).
Proof.
  unfold den. destruct (spec_sem_total_any e t (term_fuel_any t) (Nat.le_refl _) s) as [l Hl].
  rewrite Hl. exists (term_fuel_any t). exact Hl.
Qed.

Lemma fd_evals_den t s l : rw_evals e t s l <-> den t s = l.
Proof.
  split.
  - intros H. exact (rw_evals_det e t s _ _ (fd_den_evals t s) H).
  - intros <-. apply fd_den_evals.
Qed.

Lemma fd_den_leaf t s r : leaf_result e t s = Some r -> den t s = r.
Proof. intros H. apply fd_evals_den. apply (evals_leaf e t s r r H). reflexivity. Qed.

Lemma fd_den_char k o c s :
  den (NChar k o c) s = if (0 <? avail e o (pos s)) && char_test e k c (next_char e o (pos s))
                        then [with_pos s (pos s + dir o)] else [].
Proof. apply fd_den_leaf. reflexivity. Qed.
Lemma fd_den_charloop k l o c m n s : den (NCharLoop k l o c m n) s = sem_charloop e k l o c m n s.
Proof. apply fd_den_leaf. reflexivity. Qed.
Lemma fd_den_multi o str s : den (NMulti o str) s = sem_multi e o str s.
Proof. apply fd_den_leaf. reflexivity. Qed.
Lemma fd_den_ref o g s : den (NRef o g) s = sem_ref e o g s.
Proof. apply fd_den_leaf. reflexivity. Qed.
Lemma fd_den_anchor a s : den (NAnchor a) s = if anchor_ok e a (pos s) then [s] else [].
Proof. apply fd_den_leaf. reflexivity. Qed.
Lemma fd_den_nothing s : den NNothing s = [].
Proof. apply fd_den_leaf. reflexivity. Qed.
Lemma fd_den_empty s : den NEmpty s = [s].
Proof. apply fd_den_leaf. reflexivity. Qed.
Lemma fd_den_bump s : den NBump s = [s].
Proof. apply fd_den_leaf. reflexivity. Qed.

(* ---- concatenation: the rest of a concatenation as a function *)
Fixpoint den_seq (l : list node) (s : st) : list st :=
  match l with
  | [] => [s]
  | x :: l' => flat_map (den_seq l') (den x s)
  end.

Lemma fd_Forall2_fun {A B} (f : A -> B) (l : list A) : Forall2 (fun a b => f a = b) l (map f l).
Proof. induction l; constructor; auto. Qed.
Lemma fd_Forall2_fun_inv {A B} (f : A -> B) (l : list A) zs : Forall2 (fun a b => f a = b) l zs -> zs = map f l.
Proof. induction 1; cbn; congruence. Qed.
Lemma fd_den_concat o l s : den (NConcat o l) s = den_seq l s.
Proof.
  revert s. induction l as [|x l IH]; intros s.
  - apply fd_evals_den. apply evals_concat_nil. reflexivity.
  - apply fd_evals_den. apply evals_concat_cons.
    exists (den x s), (map (den (NConcat o l)) (den x s)).
    split; [apply fd_den_evals|]. split.
    + eapply Forall2_impl; [|apply fd_Forall2_fun]. intros a b <-. apply fd_den_evals.
    + cbn [den_seq]. rewrite <- flat_map_concat_map. apply flat_map_ext. intros a. symmetry. apply IH.
Qed.

Lemma fd_flat_map_flat_map {A B C} (f : A -> list B) (g : B -> list C) (l : list A) :
  flat_map g (flat_map f l) = flat_map (fun a => flat_map g (f a)) l.
Proof. induction l as [|a l IH]; cbn [flat_map]; [reflexivity|]. rewrite flat_map_app, IH. reflexivity. Qed.

Lemma fd_den_seq_app l1 l2 s : den_seq (l1 ++ l2) s = flat_map (den_seq l2) (den_seq l1 s).
Proof.
  revert s. induction l1 as [|x l1 IH]; intros s; cbn [den_seq app].
  - cbn. rewrite app_nil_r. reflexivity.
  - rewrite fd_flat_map_flat_map. apply flat_map_ext. intros a. apply IH.
Qed.

Lemma fd_den_alt o l s : den (NAlternate o l) s = flat_map (fun x => den x s) l.
Proof.
  induction l as [|x l IH].
  - apply fd_evals_den. apply evals_alt_nil. reflexivity.
  - apply fd_evals_den. apply evals_alt_cons. exists (den x s), (den (NAlternate o l) s).
    split; [apply fd_den_evals|]. split; [apply fd_den_evals|]. cbn [flat_map]. rewrite IH. reflexivity.
Qed.

Lemma fd_den_atomic r s : den (NAtomic r) s = hd_list (den r s).
Proof. apply fd_evals_den. apply evals_atomic. exists (den r s). split; [apply fd_den_evals|reflexivity]. Qed.
Lemma fd_den_group r s : den (NGroup r) s = den r s.
Proof. apply fd_evals_den. apply evals_group. apply fd_den_evals. Qed.
Lemma fd_den_poslook o r s : den (NPosLook o r) s = map (fun s' => with_pos s' (pos s)) (hd_list (den r s)).
Proof. apply fd_evals_den. apply evals_poslook. exists (den r s). split; [apply fd_den_evals|reflexivity]. Qed.
Lemma fd_den_neglook o r s : den (NNegLook o r) s = match hd_list (den r s) with [] => [s] | _ => [] end.
Proof. apply fd_evals_den. apply evals_neglook. exists (den r s). split; [apply fd_den_evals|reflexivity]. Qed.
Lemma fd_den_capture o g u r s : den (NCapture o g u r) s = flat_map (capture_close g u s) (den r s).
Proof. apply fd_evals_den. apply evals_capture. exists (den r s). split; [apply fd_den_evals|reflexivity]. Qed.

Definition den_opt (n : option node) (s : st) : list st :=
  match n with Some n' => den n' s | None => [s] end.

Lemma fd_den_backref_cond o g y n s :
  den (NBackRefCond o g y n) s = if is_matched g (caps s) then den y s else den_opt n s.
Proof.
  apply fd_evals_den. apply evals_backref_cond. destruct (is_matched g (caps s)); [apply fd_den_evals|].
  destruct n; cbn [den_opt]; [apply fd_den_evals|reflexivity].
Qed.
Lemma fd_den_expr_cond o c y n s :
  den (NExprCond o c y n) s =
  match den c s with
  | s' :: _ => den y (with_pos s' (pos s))
  | [] => den_opt n s
  end.
Proof.
  apply fd_evals_den. apply evals_expr_cond. exists (den c s). split; [apply fd_den_evals|].
  destruct (den c s); [|apply fd_den_evals]. destruct n; cbn [den_opt]; [apply fd_den_evals|reflexivity].
Qed.

(* ---- loops: the iteration of Spec.iter over a total body, as a function *)
Definition iter_fuel (limit count : Z) : nat := Z.to_nat (Z.max 0 (limit - count) + Z.max 0 (- count) + 1).

Definition iterD (body : st -> list st) (lazy : bool) (limit : Z) (s : st) (mark count : Z) : list st :=
  match iter (iter_fuel limit count) (fun a => Ok (body a)) lazy limit s mark count with Ok l => l | _ => [] end.

Lemma fd_iter_total body lazy limit : forall f s mark count,
  (iter_fuel limit count <= f)%nat ->
  exists l, iter f (fun a => Ok (body a)) lazy limit s mark count = Ok l.
Proof.
  intros f s mark count Hf.
  apply (tm_iter_count_total (fun a => Ok (body a))); [intros a; eexists; reflexivity|].
  unfold iter_fuel in Hf. lia.
Qed.

Lemma fd_iter_stable body lazy limit f s mark count :
  (iter_fuel limit count <= f)%nat ->
  iter f (fun a => Ok (body a)) lazy limit s mark count = Ok (iterD body lazy limit s mark count).
Proof.
  intros Hf. unfold iterD.
  destruct (fd_iter_total body lazy limit (iter_fuel limit count) s mark count (Nat.le_refl _)) as [l Hl].
  rewrite Hl. apply (rle_iter _ _ lazy limit (fun a => rle_refl _) _ _ Hf). exact Hl.
Qed.

Definition iter_again (body : st -> list st) (lazy : bool) (limit : Z) (s : st) (count : Z) : list st :=
  flat_map (fun s' => iterD body lazy limit s' (pos s) (count + 1)) (body s).

(* the unfolding of Spec.iter *)
Lemma fd_iterD_eq body lazy limit s mark count :
  iterD body lazy limit s mark count =
  if lazy then
    if count <? 0 then iter_again body lazy limit s count
    else s :: (if (count <? limit) && negb (pos s =? mark) then iter_again body lazy limit s count else [])
  else
    if (limit <=? count) || ((pos s =? mark) && (0 <=? count)) then [s]
    else iter_again body lazy limit s count ++ (if 0 <=? count then [s] else []).
Proof.
  assert (Hag : (count < 0 \/ count < limit) -> forall f, (iter_fuel limit count <= S f)%nat ->
            bindr (Ok (body s)) (fun s' => iter f (fun a => Ok (body a)) lazy limit s' (pos s) (count + 1)) =
            Ok (iter_again body lazy limit s count)).
  { intros Hc f Hf. unfold bindr. cbn [bind]. unfold iter_again.
    rewrite <- (bindl_pure (body s)). apply bindl_ext. intros a.
    apply fd_iter_stable. unfold iter_fuel in *. lia. }
  pose proof (fd_iter_stable body lazy limit (S (iter_fuel limit count)) s mark count ltac:(lia)) as H.
  rewrite iter_S in H. cbv zeta in H.
  destruct lazy.
  - destruct (count <? 0) eqn:Ec.
    + rewrite Hag in H by lia. congruence.
    + destruct ((count <? limit) && negb (pos s =? mark)) eqn:E2.
      * rewrite Hag in H by lia. cbn in H. congruence.
      * cbn in H. congruence.
  - destruct ((limit <=? count) || (pos s =? mark) && (0 <=? count)) eqn:E1.
    + congruence.
    + rewrite Hag in H by lia. cbn in H. congruence.
Qed.

Definition loop_limit (m n : Z) : Z := if n =? INF then INF else n - m.

Lemma fd_iter_ext (body body' : st -> res (list st)) lazy limit : (forall a, body a = body' a) ->
  forall f s mark count, iter f body lazy limit s mark count = iter f body' lazy limit s mark count.
Proof.
  intros Hb. induction f as [|f IH]; intros s mark count; [reflexivity|].
  rewrite !iter_S. cbv zeta. rewrite Hb.
  assert (Hag : bindr (body' s) (fun s' => iter f body lazy limit s' (pos s) (count + 1)) =
                bindr (body' s) (fun s' => iter f body' lazy limit s' (pos s) (count + 1))).
  { apply bindr_ext. intros a. apply IH. }
  rewrite Hag. reflexivity.
Qed.

Lemma fd_den_loop lazy o m n r s :
  den (NLoop lazy o m n r) s =
  if m =? 0 then iterD (den r) lazy (loop_limit m n) s (-1) 0
  else flat_map (fun s' => iterD (den r) lazy (loop_limit m n) s' (pos s) (1 - m)) (den r s).
Proof.
  apply fd_evals_den.
  set (F := Nat.max (term_fuel_any r) (Nat.max (iter_fuel (loop_limit m n) 0) (iter_fuel (loop_limit m n) (1 - m)))).
  exists (S F). rewrite tm_sem_loop. fold (loop_limit m n).
  assert (Hbody : forall a, sem e F r a = Ok (den r a)).
  { intros a. destruct (fd_den_evals r a) as [f Hf].
    destruct (spec_sem_total_any e r F ltac:(unfold F; lia) a) as [l Hl].
    rewrite Hl. f_equal. apply (rw_evals_det e r a); [exists F; exact Hl | exists f; exact Hf]. }
  assert (Hit : forall a mark count, (iter_fuel (loop_limit m n) count <= F)%nat ->
            iter F (sem e F r) lazy (loop_limit m n) a mark count = Ok (iterD (den r) lazy (loop_limit m n) a mark count)).
  { intros a mark count Hc. rewrite (fd_iter_ext _ (fun a0 => Ok (den r a0)) lazy (loop_limit m n) Hbody).
    apply fd_iter_stable. exact Hc. }
  destruct (m =? 0).
  - apply Hit. unfold F. lia.
  - rewrite Hbody. unfold bindr. cbn [bind]. rewrite <- (bindl_pure (den r s)). apply bindl_ext.
    intros a. apply Hit. unfold F. lia.
Qed.

(* the fuel-free relations of Model/Rewrite.v, on the denotation *)
Lemma refines_den t t' : rw_refines e t t' <-> forall s, den t s = den t' s.
Proof.
  split.
  - intros H s. symmetry. apply fd_evals_den. apply H. apply fd_den_evals.
  - intros H s l Hl. apply fd_evals_den in Hl. apply fd_evals_den. rewrite <- H. exact Hl.
Qed.
Lemma hrefines_den t t' : rw_hrefines e t t' <-> forall s, hd_list (den t s) = hd_list (den t' s).
Proof.
  split.
  - intros H s. destruct (H s _ (fd_den_evals t s)) as (l' & Hl' & Hh). apply fd_evals_den in Hl'. subst l'. exact Hh.
  - intros H s l Hl. apply fd_evals_den in Hl. subst l. exists (den t' s). split; [apply fd_den_evals | apply H].
Qed.
End Den.

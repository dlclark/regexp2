(* Option bits: of a node's option word, the reference semantics (Model/Spec.v) and the writer
   (Model/Writer.v) read ONLY the RightToLeft (64) and IgnoreCase (1) bits.
   [mask_node] clears every other bit in every option word of a tree; then
     mask_sem     : sem e fuel (mask_node t) s = sem e fuel t s
     mask_semk    : semk e fuel (mask_node t) s k = semk e fuel t s k
     mask_find / mask_findk
     mask_csize   : csize c (mask_node t) = csize c t
     mask_emit    : emit c (mask_node t) a tbl = emit c t a tbl
     mask_compile : compile c (mask_node t) = compile c t            *)
From Verif Require Import Base.Prelude Model.Tree Model.Spec Model.VM Model.Writer Proofs.SpecProofs.

Definition mask_opts (o : Z) : Z := Z.land o (OPT_RTL + OPT_CI).

Definition mask_opt_node (f : node -> node) (no : option node) : option node :=
  match no with Some x => Some (f x) | None => None end.

Fixpoint mask_node (t : node) : node :=
  match t with
  | NChar k o c => NChar k (mask_opts o) c
  | NCharLoop k l o c m n => NCharLoop k l (mask_opts o) c m n
  | NMulti o s => NMulti (mask_opts o) s
  | NRef o g => NRef (mask_opts o) g
  | NAnchor a => NAnchor a
  | NNothing => NNothing
  | NEmpty => NEmpty
  | NBump => NBump
  | NConcat o l => NConcat (mask_opts o) (map mask_node l)
  | NAlternate o l => NAlternate (mask_opts o) (map mask_node l)
  | NLoop lazy o m n r => NLoop lazy (mask_opts o) m n (mask_node r)
  | NCapture o g u r => NCapture (mask_opts o) g u (mask_node r)
  | NGroup r => NGroup (mask_node r)
  | NPosLook o r => NPosLook (mask_opts o) (mask_node r)
  | NNegLook o r => NNegLook (mask_opts o) (mask_node r)
  | NAtomic r => NAtomic (mask_node r)
  | NBackRefCond o g yes no =>
      NBackRefCond (mask_opts o) g (mask_node yes) (mask_opt_node mask_node no)
  | NExprCond o c yes no =>
      NExprCond (mask_opts o) (mask_node c) (mask_node yes) (mask_opt_node mask_node no)
  end.

(* ------------------------------------------------------------------------------------------ *)
(* structural induction for the rose tree [node]                                               *)

Definition opt_all (P : node -> Prop) (no : option node) : Prop :=
  match no with Some x => P x | None => True end.

Section NodeInd.
  Variable P : node -> Prop.
  Hypothesis H_Char : forall k o c, P (NChar k o c).
  Hypothesis H_CharLoop : forall k l o c m n, P (NCharLoop k l o c m n).
  Hypothesis H_Multi : forall o s, P (NMulti o s).
  Hypothesis H_Ref : forall o g, P (NRef o g).
  Hypothesis H_Anchor : forall a, P (NAnchor a).
  Hypothesis H_Nothing : P NNothing.
  Hypothesis H_Empty : P NEmpty.
  Hypothesis H_Bump : P NBump.
  Hypothesis H_Concat : forall o l, Forall P l -> P (NConcat o l).
  Hypothesis H_Alternate : forall o l, Forall P l -> P (NAlternate o l).
  Hypothesis H_Loop : forall lazy o m n r, P r -> P (NLoop lazy o m n r).
  Hypothesis H_Capture : forall o g u r, P r -> P (NCapture o g u r).
  Hypothesis H_Group : forall r, P r -> P (NGroup r).
  Hypothesis H_PosLook : forall o r, P r -> P (NPosLook o r).
  Hypothesis H_NegLook : forall o r, P r -> P (NNegLook o r).
  Hypothesis H_Atomic : forall r, P r -> P (NAtomic r).
  Hypothesis H_BackRefCond : forall o g yes no, P yes -> opt_all P no -> P (NBackRefCond o g yes no).
  Hypothesis H_ExprCond : forall o c yes no, P c -> P yes -> opt_all P no -> P (NExprCond o c yes no).

  Fixpoint node_ind' (t : node) : P t :=
    let all := fix all (l : list node) : Forall P l :=
                 match l with
                 | [] => Forall_nil P
                 | x :: l' => Forall_cons x (node_ind' x) (all l')
                 end in
    let opt := fun (no : option node) =>
                 match no return opt_all P no with
                 | Some x => node_ind' x
                 | None => I
                 end in
    match t with
    | NChar k o c => H_Char k o c
    | NCharLoop k l o c m n => H_CharLoop k l o c m n
    | NMulti o s => H_Multi o s
    | NRef o g => H_Ref o g
    | NAnchor a => H_Anchor a
    | NNothing => H_Nothing
    | NEmpty => H_Empty
    | NBump => H_Bump
    | NConcat o l => H_Concat o l (all l)
    | NAlternate o l => H_Alternate o l (all l)
    | NLoop lazy o m n r => H_Loop lazy o m n r (node_ind' r)
    | NCapture o g u r => H_Capture o g u r (node_ind' r)
    | NGroup r => H_Group r (node_ind' r)
    | NPosLook o r => H_PosLook o r (node_ind' r)
    | NNegLook o r => H_NegLook o r (node_ind' r)
    | NAtomic r => H_Atomic r (node_ind' r)
    | NBackRefCond o g yes no => H_BackRefCond o g yes no (node_ind' yes) (opt no)
    | NExprCond o c yes no => H_ExprCond o c yes no (node_ind' c) (node_ind' yes) (opt no)
    end.
End NodeInd.

Lemma mask_is_rtl o : is_rtl (mask_opts o) = is_rtl o.
Proof.
  unfold is_rtl, has_bit, mask_opts. rewrite <- Z.land_assoc.
  change (Z.land (OPT_RTL + OPT_CI) OPT_RTL) with OPT_RTL. reflexivity.
Qed.

Lemma mask_is_ci o : is_ci (mask_opts o) = is_ci o.
Proof.
  unfold is_ci, has_bit, mask_opts. rewrite <- Z.land_assoc.
  change (Z.land (OPT_RTL + OPT_CI) OPT_CI) with OPT_CI. reflexivity.
Qed.

Lemma mask_opts_65 o : mask_opts o = Z.land o 65.
Proof. reflexivity. Qed.

Lemma mask_opts_idem o : mask_opts (mask_opts o) = mask_opts o.
Proof.
  unfold mask_opts. rewrite <- Z.land_assoc. rewrite Z.land_diag. reflexivity.
Qed.

Lemma mask_dir o : dir (mask_opts o) = dir o.
Proof. unfold dir. rewrite mask_is_rtl. reflexivity. Qed.

Lemma mask_avail e o p : avail e (mask_opts o) p = avail e o p.
Proof. unfold avail. rewrite mask_is_rtl. reflexivity. Qed.

Lemma mask_next_char e o p : next_char e (mask_opts o) p = next_char e o p.
Proof. unfold next_char. rewrite mask_is_rtl. reflexivity. Qed.

Lemma mask_run_len e k c o : forall maxn p,
  run_len e k c (mask_opts o) maxn p = run_len e k c o maxn p.
Proof.
  induction maxn as [|m IH]; intros p; cbn [run_len]; [reflexivity|].
  rewrite mask_avail, mask_next_char, mask_dir, IH. reflexivity.
Qed.

Lemma mask_sem_charloop e k l o c m n s :
  sem_charloop e k l (mask_opts o) c m n s = sem_charloop e k l o c m n s.
Proof.
  unfold sem_charloop. rewrite mask_avail, mask_run_len, mask_dir. reflexivity.
Qed.

Lemma mask_sem_multi e o str s : sem_multi e (mask_opts o) str s = sem_multi e o str s.
Proof.
  unfold sem_multi. rewrite mask_avail, mask_is_rtl, mask_is_ci, mask_dir. reflexivity.
Qed.

Lemma mask_sem_ref e o g s : sem_ref e (mask_opts o) g s = sem_ref e o g s.
Proof.
  unfold sem_ref. destruct (cap_get g (caps s)) as [|[i len] rest]; [reflexivity|].
  rewrite mask_avail, mask_is_rtl, mask_is_ci, mask_dir. reflexivity.
Qed.

Lemma mask_view e t :
  sem_view e e eq (fun a b => a = mask_node b) eq eq (fun _ => False) (mask_node t) t.
Proof.
  assert (Hl : forall l, Forall2 (fun a b => a = mask_node b) (map mask_node l) l).
  { intros l. rewrite <- (map_id l) at 2. apply Forall2_map_same. reflexivity. }
  assert (Ho : forall no, opt_rel (fun a b => a = mask_node b) (mask_opt_node mask_node no) no).
  { intros [n|]; reflexivity. }
  destruct t; cbn [mask_node]; try (constructor; auto; fail);
    apply SV_leaf_eq; try reflexivity; intros f s'; cbn [sem];
    rewrite ?mask_avail, ?mask_next_char, ?mask_dir, ?mask_sem_charloop, ?mask_sem_multi, ?mask_sem_ref;
    reflexivity.
Qed.

Theorem mask_sem : forall e fuel t s, sem e fuel (mask_node t) s = sem e fuel t s.
Proof.
  intros e fuel t s. apply (sem_ext e e (fun a b => a = mask_node b)); [|reflexivity].
  intros t1 t2 ->. apply mask_view.
Qed.

Corollary mask_attempt e fuel root p : attempt e fuel (mask_node root) p = attempt e fuel root p.
Proof. unfold attempt. rewrite mask_sem. reflexivity. Qed.

Lemma mask_scan_from e fuel root rtl : forall n p,
  scan_from e fuel n (mask_node root) rtl p = scan_from e fuel n root rtl p.
Proof.
  induction n as [|n IH]; intros p; [reflexivity|].
  cbn [scan_from]. rewrite mask_attempt.
  destruct (attempt e fuel root p) as [[s|]| | |]; cbn [bind]; try reflexivity.
  destruct (if rtl then p <=? 0 else tlen e <=? p); [reflexivity|]. apply IH.
Qed.

Corollary mask_find e fuel root rtl start prevlen :
  find e fuel (mask_node root) rtl start prevlen = find e fuel root rtl start prevlen.
Proof.
  unfold find. destruct ((prevlen =? 0) && (start =? (if rtl then 0 else tlen e))); [reflexivity|].
  apply mask_scan_from.
Qed.

Corollary mask_semk e fuel t s k : semk e fuel (mask_node t) s k = semk e fuel t s k.
Proof.
  apply (semk_ext e e (fun a b => a = mask_node b)); try reflexivity.
  intros t1 t2 ->. apply mask_view.
Qed.

Corollary mask_attemptk e fuel root p : attemptk e fuel (mask_node root) p = attemptk e fuel root p.
Proof. unfold attemptk. apply mask_semk. Qed.

Lemma mask_scank_from e fuel root rtl : forall n p,
  scank_from e fuel n (mask_node root) rtl p = scank_from e fuel n root rtl p.
Proof.
  induction n as [|n IH]; intros p; [reflexivity|].
  cbn [scank_from]. rewrite mask_attemptk.
  destruct (attemptk e fuel root p) as [[s|]| | |]; cbn [bind]; try reflexivity.
  destruct (if rtl then p <=? 0 else tlen e <=? p); [reflexivity|]. apply IH.
Qed.

Corollary mask_findk e fuel root rtl start prevlen :
  findk e fuel (mask_node root) rtl start prevlen = findk e fuel root rtl start prevlen.
Proof.
  unfold findk. destruct ((prevlen =? 0) && (start =? (if rtl then 0 else tlen e))); [reflexivity|].
  apply mask_scank_from.
Qed.

Lemma mask_bits_of o : bits_of (mask_opts o) = bits_of o.
Proof. unfold bits_of. rewrite mask_is_rtl, mask_is_ci. reflexivity. Qed.

(* named copies of the writer's local loops (convertible with them: see wr_*_eq below) *)
Section WriterLoops.
  Variable c : wcfg.

  Fixpoint csize_seq (l : list node) : Z :=
    match l with [] => 0 | x :: l' => csize c x + csize_seq l' end.

  Fixpoint csize_alt (l : list node) : Z :=
    match l with
    | [] => 0
    | [x] => csize c x
    | x :: l' => 2 + csize c x + 2 + csize_alt l'
    end.

  Fixpoint emit_seq (l : list node) (a : Z) (tbl : list (list Z)) : list Z * list (list Z) :=
    match l with
    | [] => ([], tbl)
    | x :: l' => let '(cx, t1) := emit c x a tbl in
                 let '(cr, t2) := emit_seq l' (a + zlen cx) t1 in (cx ++ cr, t2)
    end.

  Variable lend : Z.
  Fixpoint emit_alt (l : list node) (a : Z) (tbl : list (list Z)) : list Z * list (list Z) :=
    match l with
    | [] => ([], tbl)
    | [x] => emit c x a tbl
    | x :: l' =>
        let '(cx, t1) := emit c x (a + 2) tbl in
        let nxt := a + 2 + zlen cx + 2 in
        let '(cr, t2) := emit_alt l' nxt t1 in
        ([Lazybranch; nxt] ++ cx ++ [Goto; lend] ++ cr, t2)
    end.
End WriterLoops.

Lemma wr_csize_concat_eq c o l : csize c (NConcat o l) = csize_seq c l.
Proof. reflexivity. Qed.
Lemma wr_csize_alternate_eq c o l : csize c (NAlternate o l) = csize_alt c l.
Proof. reflexivity. Qed.
Lemma wr_emit_concat_eq c o l a tbl : emit c (NConcat o l) a tbl = emit_seq c l a tbl.
Proof. reflexivity. Qed.
Lemma wr_emit_alternate_eq c o l a tbl :
  emit c (NAlternate o l) a tbl = emit_alt c (a + csize c (NAlternate o l)) l a tbl.
Proof. reflexivity. Qed.

Lemma wr_csize_alt_cons2 c x y l : csize_alt c (x :: y :: l) = 2 + csize c x + 2 + csize_alt c (y :: l).
Proof. reflexivity. Qed.
Lemma wr_emit_alt_cons2 c lend x y l a tbl :
  emit_alt c lend (x :: y :: l) a tbl =
  let '(cx, t1) := emit c x (a + 2) tbl in
  let nxt := a + 2 + zlen cx + 2 in
  let '(cr, t2) := emit_alt c lend (y :: l) nxt t1 in
  ([Lazybranch; nxt] ++ cx ++ [Goto; lend] ++ cr, t2).
Proof. reflexivity. Qed.

Theorem mask_csize c : forall t, csize c (mask_node t) = csize c t.
Proof.
  induction t as [kd o ch|kd lk o ch m n|o str|o g|a| | | |o l HF|o l HF|lazy o m n r IHr|o g u r IHr
                 |r IHr|o r IHr|o r IHr|r IHr|o g yes no IHy IHn|o cnd yes no IHc IHy IHn]
    using node_ind'; cbn [mask_node]; try reflexivity.
  - (* NConcat *)
    rewrite !wr_csize_concat_eq.
    induction HF as [|x l Hx HF IH]; [reflexivity|].
    cbn [map csize_seq]. rewrite Hx, IH. reflexivity.
  - (* NAlternate *)
    rewrite !wr_csize_alternate_eq.
    induction HF as [|x l Hx HF IH]; [reflexivity|].
    destruct l as [|y l].
    + cbn [map csize_alt]. exact Hx.
    + cbn [map] in IH |- *. rewrite !wr_csize_alt_cons2. rewrite Hx, IH. reflexivity.
  - cbn [csize]. rewrite IHr. reflexivity.
  - cbn [csize]. rewrite IHr. reflexivity.
  - cbn [csize]. exact IHr.
  - cbn [csize]. rewrite IHr. reflexivity.
  - cbn [csize]. rewrite IHr. reflexivity.
  - cbn [csize]. rewrite IHr. reflexivity.
  - cbn [csize]. rewrite IHy. destruct no as [x|]; cbn [mask_opt_node opt_all] in *; [rewrite IHn|]; reflexivity.
  - cbn [csize]. rewrite IHc, IHy. destruct no as [x|]; cbn [mask_opt_node opt_all] in *; [rewrite IHn|]; reflexivity.
Qed.

Theorem mask_emit c : forall t a tbl, emit c (mask_node t) a tbl = emit c t a tbl.
Proof.
  induction t as [kd o ch|kd lk o ch m n|o str|o g|an| | | |o l HF|o l HF|lazy o m n r IHr|o g u r IHr
                 |r IHr|o r IHr|o r IHr|r IHr|o g yes no IHy IHn|o cnd yes no IHc IHy IHn]
    using node_ind'; intros a tbl; cbn [mask_node]; try reflexivity.
  - cbn [emit]. rewrite mask_bits_of. reflexivity.
  - cbn [emit]. rewrite mask_bits_of. reflexivity.
  - cbn [emit]. rewrite mask_bits_of. reflexivity.
  - cbn [emit]. rewrite mask_bits_of. reflexivity.
  - (* NConcat *)
    rewrite !wr_emit_concat_eq. revert a tbl.
    induction HF as [|x l Hx HF IH]; intros a tbl; [reflexivity|].
    cbn [map emit_seq]. rewrite Hx. destruct (emit c x a tbl) as [cx t1]. rewrite IH. reflexivity.
  - (* NAlternate *)
    rewrite !wr_emit_alternate_eq.
    change (NAlternate (mask_opts o) (map mask_node l)) with (mask_node (NAlternate o l)).
    rewrite mask_csize.
    generalize (a + csize c (NAlternate o l)) as lend. intros lend. revert a tbl.
    induction HF as [|x l Hx HF IH]; intros a tbl; [reflexivity|].
    destruct l as [|y l].
    + cbn [map emit_alt]. apply Hx.
    + cbn [map] in IH |- *. rewrite !wr_emit_alt_cons2. rewrite Hx.
      destruct (emit c x (a + 2) tbl) as [cx t1]. cbv zeta. rewrite IH. reflexivity.
  - cbn [emit]. rewrite IHr. reflexivity.
  - cbn [emit]. rewrite !IHr. reflexivity.
  - cbn [emit]. apply IHr.
  - cbn [emit]. rewrite IHr. reflexivity.
  - cbn [emit]. rewrite IHr. reflexivity.
  - cbn [emit]. rewrite IHr. reflexivity.
  - cbn [emit]. rewrite IHy. destruct (emit c yes (a + 6) tbl) as [cy t1].
    destruct no as [x|]; cbn [mask_opt_node opt_all] in *; [rewrite IHn|]; reflexivity.
  - cbn [emit]. rewrite IHc. destruct (emit c cnd (a + 4) tbl) as [cc t1].
    rewrite IHy. destruct (emit c yes (a + 4 + zlen cc + 2) t1) as [cy t2].
    destruct no as [x|]; cbn [mask_opt_node opt_all] in *; [rewrite IHn|]; reflexivity.
Qed.

Theorem mask_compile c t : compile c (mask_node t) = compile c t.
Proof. unfold compile. rewrite mask_emit. reflexivity. Qed.

Corollary mask_write_full capmap t : write_full capmap (mask_node t) = write_full capmap t.
Proof. unfold write_full. apply mask_compile. Qed.

Corollary mask_write_quick capmap capsize t :
  write_quick capmap capsize (mask_node t) = write_quick capmap capsize t.
Proof. unfold write_quick. rewrite mask_write_full, mask_compile. reflexivity. Qed.

(* C05, proofs part 6: automatic atomic loops (findAndMakeLoopsAtomic / processNode, Model/FinalOpt.fo_fa, fo_pn)
   preserve the first result under every continuation the context allows. *)
From Verif Require Import Base.Prelude Model.Tree Model.Spec Model.Rewrite Model.ParseLit Model.CharClass Model.Parser
  Model.FinalOpt
  Proofs.SpecProofs Proofs.SpecBoundsProofs Proofs.RewriteProofs
  Proofs.FinalOptDen Proofs.FinalOptK Proofs.FinalOptPrune Proofs.FinalOptLink Proofs.FinalOptLeaf Proofs.FinalOptWalk.
From Verif Require Import Proofs.ListFacts.
From Coq Require Import ZifyBool.

Section Atomic.
Variable cat_in : Z -> Z -> bool.
Variables isw isew : Z -> bool.
Variable sid : cls -> Z.
Variable e : env.
Variable sets : list cls.
Hypothesis Henv : env_ok cat_in isw isew sid e sets.

Notation den := (den e).
Notation sok := (st_ok e).
Notation tr := (tr sid).
Notation PQ := (PQ cat_in e).
Notation sets_in := (sets_in sets).
Notation node_ok := (node_ok sets).
Notation ctx_ok := (ctx_ok sets).
Notation kb := (kb e).
Notation kseq := (kseq e).
Notation KD := (KD e).
Notation KT := (KT e).
Notation HK := (HK e).
Notation CK := (CK sid e).
Notation Dc := (Dc cat_in sid e).
Notation Tc := (Tc sid e).

(* ---- the states at which a loop stopped early.  From EVERY state: the next character passes the loop's test *)
Lemma early_NQ L k l c : lk_of (n_t L) = Some (k, l) -> ltr (n_o L) ->
  (forall x, char_test e k c x = rtest cat_in L x) ->
  forall s j, 0 <= j < loop_run e k (n_o L) c (n_n L) s -> NQ cat_in e L (loop_state (n_o L) s j).
Proof.
  intros Hlk Hl Ht s j [Hj1 Hj2].
  unfold loop_run in Hj2. cbv zeta in Hj2.
  set (cap := if n_n L =? INF then avail e (n_o L) (pos s) else Z.min (n_n L) (avail e (n_o L) (pos s))) in *.
  unfold loop_state. rewrite (ltr_dir _ Hl).
  pose proof (run_len_char e k c (n_o L) (Z.to_nat cap) (pos s) j ltac:(lia)) as Hj.
  rewrite (ltr_dir _ Hl), (ltr_avail e _ _ Hl), (ltr_next e _ _ Hl) in Hj. apply andb_prop in Hj. destruct Hj as [Hja Hjt].
  unfold FinalOptLeaf.NQ. cbn [pos with_pos]. split; [lia|]. rewrite <- Ht. exact Hjt.
Qed.
(* from a state inside the text, and with the previous character when the loop has iterated *)
Lemma early_PQ L k l c : lk_of (n_t L) = Some (k, l) -> ltr (n_o L) -> 0 <= n_m L ->
  (forall x, char_test e k c x = rtest cat_in L x) ->
  forall s j, sok s -> n_m L <= j < loop_run e k (n_o L) c (n_n L) s ->
    sok (loop_state (n_o L) s j) /\ PQ L (loop_state (n_o L) s j).
Proof.
  intros Hlk Hl Hm Ht s j [Hp Hc] [Hj1 Hj2].
  destruct (early_NQ L k l c Hlk Hl Ht s j ltac:(lia)) as [Hq1 Hq2].
  split; [split; [|exact Hc] | split; [exact Hq1 | split; [exact Hq2|]]].
  - unfold loop_state in *. rewrite (ltr_dir _ Hl) in *. cbn [pos with_pos] in *. lia.
  - intros Hm0. destruct (early_NQ L k l c Hlk Hl Ht s (j - 1) ltac:(lia)) as [_ Hr].
    unfold loop_state in *. rewrite (ltr_dir _ Hl) in *. cbn [pos with_pos] in *. split; [lia|].
    replace (pos s + 1 * j - 1) with (pos s + 1 * (j - 1)) by (clear; lia). exact Hr.
Qed.

Lemma hq_cons_nonempty {A} (x : list A) (y : list A) : x <> [] -> hq (x ++ y) x.
Proof. destruct x; [contradiction|reflexivity]. Qed.

(* a continuation that is dead on the states P, or that never fails *)
Definition goodK (P : st -> Prop) (K : kont) : Prop := KD P K \/ KT K.

(* a greedy loop and its atomic form under such a continuation, P the states where the loop may stop early *)
Lemma step_charloop k o c m nn (P : st -> Prop) (K : kont) :
  0 <= m ->
  (forall s j, sok s -> m <= j < loop_run e k o c nn s -> sok (loop_state o s j) /\ P (loop_state o s j)) ->
  (forall s, sok s -> okl e (den (NCharLoop k LAtomic o c m nn) s)) ->
  goodK P K ->
  HK K (NCharLoop k LGreedy o c m nn) (NCharLoop k LAtomic o c m nn).
Proof.
  intros Hm Hearly Hok HK s Hs. unfold HKs. rewrite !fd_den_charloop, !sem_charloop_unfold. cbv zeta.
  destruct (loop_run e k o c nn s <? m) eqn:Er; [apply hq_refl|].
  set (r := loop_run e k o c nn s) in *.
  rewrite (count_down_cons r m) by lia. cbn [map flat_map].
  destruct HK as [HD|HT].
  - assert (Hnil : flat_map K (map (loop_state o s) (count_down (r - 1) m)) = []).
    { apply flat_map_all_nil. intros a Ha. apply in_map_iff in Ha. destruct Ha as (j & <- & Hj).
      apply count_down_in in Hj. destruct (Hearly s j Hs ltac:(lia)) as [Hoks HP]. exact (HD _ Hoks HP). }
    rewrite Hnil. apply hq_refl.
  - assert (Hne : K (loop_state o s r) <> []).
    { apply HT. specialize (Hok s Hs). rewrite fd_den_charloop, sem_charloop_unfold in Hok. cbv zeta in Hok.
      fold r in Hok. rewrite Er in Hok. inversion Hok; assumption. }
    unfold hq. destruct (K (loop_state o s r)); [contradiction|reflexivity].
Qed.

(* a lazy loop and the atomic greedy one, under a continuation that is dead where the loop may stop early *)
Lemma step_charloop_lazy k o c m nn (P : st -> Prop) (K : kont) :
  0 <= m ->
  (forall s j, sok s -> m <= j < loop_run e k o c nn s -> sok (loop_state o s j) /\ P (loop_state o s j)) ->
  KD P K ->
  HK K (NCharLoop k LLazy o c m nn) (NCharLoop k LAtomic o c m nn).
Proof.
  intros Hm Hearly HD s Hs. unfold HKs. rewrite !fd_den_charloop, !sem_charloop_unfold. cbv zeta.
  destruct (loop_run e k o c nn s <? m) eqn:Er; [apply hq_refl|].
  set (r := loop_run e k o c nn s) in *.
  rewrite (count_up_snoc m r) by lia. rewrite map_app, flat_map_app. cbn [map].
  assert (Hnil : flat_map K (map (loop_state o s) (count_up m (r - 1))) = []).
  { apply flat_map_all_nil. intros a Ha. apply in_map_iff in Ha. destruct Ha as (j & <- & Hj).
    apply count_up_in in Hj. destruct (Hearly s j Hs ltac:(lia)) as [Hoks HP]. exact (HD _ Hoks HP). }
  rewrite Hnil. apply hq_refl.
Qed.

(* ---- makeLoopAtomic on a raw node *)
Lemma mla_greedy L : fo_is_charloop (n_t L) = true -> make_loop_atomic L = set_t L (n_t L + (T_Oneloopatomic - T_Oneloop)).
Proof. destruct L as [t o ch m n str st kids]. cbn [n_t make_loop_atomic set_t]. unfold fo_is_charloop. intros ->. reflexivity. Qed.
Lemma mla_lazy L : fo_is_charlazy (n_t L) = true ->
  make_loop_atomic (set_t L (n_t L - (T_Onelazy - T_Oneloop))) = set_t L (n_t L + (T_Oneloopatomic - T_Onelazy)).
Proof.
  destruct L as [t o ch m n str st kids]. cbn [n_t make_loop_atomic set_t]. unfold fo_is_charlazy, T_Onelazy, T_Notonelazy, T_Setlazy, T_Oneloop, T_Notoneloop, T_Setloop.
  intros H. replace ((t - (6 - 3) =? 3) || (t - (6 - 3) =? 4) || (t - (6 - 3) =? 5)) with true by lia.
  f_equal. unfold T_Oneloopatomic. lia.
Qed.

Lemma tr_set_t_loop L t' k l' : lk_of t' = Some (k, l') ->
  tr (set_t L t') = NCharLoop k l' (n_o L) (match k with CSet => tr_set sid (n_set L) | _ => n_ch L end) (n_m L) (n_n L).
Proof.
  intros H. destruct L. rewrite tr_unfold. unfold tr_node. cbn [set_t n_t n_o n_ch n_m n_n n_set]. rewrite H. reflexivity.
Qed.

Lemma node_ok_set_t_atomic L t' : node_ok L -> fam (n_t L) = true ->
  (n_t L = T_Oneloop \/ n_t L = T_Onelazy) /\ t' = T_Oneloopatomic \/ (n_t L = T_Notoneloop \/ n_t L = T_Notonelazy) /\ t' = T_Notoneloopatomic \/
  (n_t L = T_Setloop \/ n_t L = T_Setlazy) /\ t' = T_Setloopatomic ->
  node_ok (set_t L t').
Proof.
  intros [Hwf Hs] Hf Ht. pose proof (fam_leaf L Hf Hwf) as Hk.
  destruct L as [t o ch m n str st kids]. cbn [n_t n_kids] in *. subst kids. split.
  - cbn [set_t]. rewrite fo_wf_unfold in Hwf |- *. cbn [n_t n_kids n_set n_m n_n n_str n_o length forallb] in *.
    destruct Ht as [[[-> | ->] ->] | [[[-> | ->] ->] | [[-> | ->] ->]]]; cbn in Hwf |- *; exact Hwf.
  - cbn [set_t]. exact Hs.
Qed.

(* ---- continuations a sub-node of the node in front of [sub] may have *)
Definition Adm (sub : rnode) (c : list frame) (KN : kont) : Prop :=
  forall n, (Dc n c (tr sub) -> KD (PQ n) KN) /\ (Tc c (tr sub) -> KT KN).

Lemma Adm_ext sub c K K' : (forall a, K a = K' a) -> Adm sub c K' -> Adm sub c K.
Proof.
  intros H HA n. destruct (HA n) as [H1 H2].
  split; intros H0; [exact (KD_ext e _ _ _ H (H1 H0)) | exact (KT_ext e _ _ H (H2 H0))].
Qed.

Lemma Adm_base sub c K0 : CK c K0 -> Adm sub c (kb (tr sub) K0).
Proof. intros HK n. split; intros H; apply H; exact HK. Qed.

Lemma Adm_kcap sub c KN g s0 : sok s0 -> Adm sub c KN -> Adm sub c (kcap g (-1) s0 KN).
Proof.
  intros Hs0' HA n. destruct (HA n) as [H1 H2].
  split; intros H0; [exact (KD_kcap e _ KN g s0 (pos_pred_PQ cat_in e n) Hs0' (H1 H0)) | exact (KT_kcap e KN g s0 Hs0' (H2 H0))].
Qed.

Lemma HK_ext K K' t t' : (forall a, K a = K' a) -> HK K' t t' -> HK K t t'.
Proof.
  intros H H0 s Hs. specialize (H0 s Hs). unfold HKs in *.
  rewrite (flat_map_ext K K' H (den t s)), (flat_map_ext K K' H (den t' s)). exact H0.
Qed.

Lemma loop_facts L : fam (n_t L) = true -> node_ok L ->
  forall k l, lk_of (n_t L) = Some (k, l) ->
  let c := match k with CSet => tr_set sid (n_set L) | _ => n_ch L end in
  tr L = NCharLoop k l (n_o L) c (n_m L) (n_n L) /\ (forall x, char_test e k c x = rtest cat_in L x) /\ 0 <= n_m L.
Proof.
  intros Hf [Hwf Hs] k l Hlk c. split; [apply tr_charloop; exact Hlk|]. split.
  - destruct (fam_kind cat_in isw isew sid e sets Henv L Hf Hwf Hs) as (k' & c' & Ht & [[Hsing Etr] | [l' [El Etr]]]).
    + exfalso. unfold lk_of in Hlk. destruct Hsing as [E|[E|E]]; rewrite E in Hlk; cbn in Hlk; discriminate.
    + rewrite (tr_charloop sid L k l Hlk) in Etr. injection Etr as <- <- <-. exact Ht.
  - destruct (wf_flags L Hwf) as (_ & _ & Hb & _). exact (proj1 (proj1 (Hb _ Hlk))).
Qed.

Lemma node_ok_mla_greedy L : fo_is_charloop (n_t L) = true -> node_ok L -> node_ok (make_loop_atomic L).
Proof.
  intros Ht Hok. rewrite (mla_greedy L Ht).
  apply node_ok_set_t_atomic; [exact Hok | revert Ht; clear; unfold fo_is_charloop; fam_unfold; lia | revert Ht; clear; unfold fo_is_charloop; fam_unfold; lia].
Qed.
Lemma node_ok_mla_lazy L : fo_is_charlazy (n_t L) = true -> node_ok L ->
  node_ok (make_loop_atomic (set_t L (n_t L - (T_Onelazy - T_Oneloop)))).
Proof.
  intros Ht Hok. rewrite (mla_lazy L Ht).
  apply node_ok_set_t_atomic; [exact Hok | revert Ht; clear; unfold fo_is_charlazy; fam_unfold; lia | revert Ht; clear; unfold fo_is_charlazy; fam_unfold; lia].
Qed.

(* a greedy (lazy) single-character loop and the atomic loop makeLoopAtomic turns it into: the same test and bounds *)
Lemma charloop_atomic L l t' :
  fo_is_charloop (n_t L) = true /\ l = LGreedy /\ t' = n_t L + (T_Oneloopatomic - T_Oneloop) \/ fo_is_charlazy (n_t L) = true /\ l = LLazy /\ t' = n_t L + (T_Oneloopatomic - T_Onelazy) ->
  node_ok L ->
  exists k c, lk_of (n_t L) = Some (k, l) /\ tr L = NCharLoop k l (n_o L) c (n_m L) (n_n L) /\
    tr (set_t L t') = NCharLoop k LAtomic (n_o L) c (n_m L) (n_n L) /\
    (forall x, char_test e k c x = rtest cat_in L x) /\ 0 <= n_m L.
Proof.
  intros Hc Hok.
  assert (Hn : (n_t L = T_Oneloop \/ n_t L = T_Notoneloop \/ n_t L = T_Setloop) /\ l = LGreedy /\ t' = n_t L + (T_Oneloopatomic - T_Oneloop) \/
               (n_t L = T_Onelazy \/ n_t L = T_Notonelazy \/ n_t L = T_Setlazy) /\ l = LLazy /\ t' = n_t L + (T_Oneloopatomic - T_Onelazy))
    by (destruct Hc as [(Ht & -> & ->)|(Ht & -> & ->)]; [left|right]; (split; [|split; reflexivity]);
        revert Ht; clear; unfold fo_is_charloop, fo_is_charlazy; fam_unfold; lia).
  assert (Hf : fam (n_t L) = true) by (destruct Hn as [[Ht _]|[Ht _]]; revert Ht; clear; fam_unfold; lia).
  assert (exists k, lk_of (n_t L) = Some (k, l) /\ lk_of t' = Some (k, LAtomic)) as (k & Hlk & Hlk').
  { destruct Hn as [([E|[E|E]] & -> & ->)|([E|[E|E]] & -> & ->)]; rewrite E; cbn; eexists; split; reflexivity. }
  destruct (loop_facts L Hf Hok k l Hlk) as (Etr & Htest & Hm).
  exists k, (match k with CSet => tr_set sid (n_set L) | _ => n_ch L end).
  split; [exact Hlk|]. split; [exact Etr|]. split; [exact (tr_set_t_loop L _ k LAtomic Hlk')|]. split; [exact Htest | exact Hm].
Qed.

Lemma leaf_step_greedy L : fo_is_charloop (n_t L) = true -> node_ok L -> ltr (n_o L) ->
  forall KN, goodK (PQ L) KN -> HK KN (tr L) (tr (make_loop_atomic L)).
Proof.
  intros Ht Hok Hl KN HKN. pose proof (node_ok_mla_greedy L Ht Hok) as Hok'. rewrite (mla_greedy L Ht) in *.
  destruct (charloop_atomic L LGreedy _ (or_introl (conj Ht (conj eq_refl eq_refl))) Hok) as (k & c & Hlk & -> & Etr' & Htest & Hm).
  rewrite Etr'. apply (step_charloop k (n_o L) c (n_m L) (n_n L) (PQ L) KN Hm).
  - intros s j Hs Hj. apply (early_PQ L k LGreedy _ Hlk Hl Hm Htest s j Hs Hj).
  - intros s Hs. rewrite <- Etr'. apply (node_ok_okp sid e sets _ Hok' s Hs).
  - exact HKN.
Qed.

Lemma mla_hpr L : fo_is_charloop (n_t L) = true -> node_ok L -> ltr (n_o L) ->
  forall s, hpr (NQ cat_in e L) (den (tr L) s) (den (tr (make_loop_atomic L)) s).
Proof.
  intros Ht Hok Hl s. rewrite (mla_greedy L Ht).
  destruct (charloop_atomic L LGreedy _ (or_introl (conj Ht (conj eq_refl eq_refl))) Hok) as (k & c & Hlk & -> & -> & Htest & Hm).
  rewrite !fd_den_charloop, !sem_charloop_unfold. cbv zeta.
  destruct (loop_run e k (n_o L) c (n_n L) s <? n_m L) eqn:Er; [apply hpr_refl|].
  set (r := loop_run e k (n_o L) c (n_n L) s) in *.
  rewrite (count_down_cons r (n_m L)) by lia. cbn [map]. split; [|reflexivity].
  apply drops_keep. rewrite <- (app_nil_r (map _ _)). apply drops_all; [|constructor].
  rewrite Forall_forall. intros a Ha. apply in_map_iff in Ha. destruct Ha as (j & <- & Hj).
  apply count_down_in in Hj. apply (early_NQ L k LGreedy c Hlk Hl Htest). fold r. lia.
Qed.

Lemma leaf_step_lazy L : fo_is_charlazy (n_t L) = true -> node_ok L -> ltr (n_o L) ->
  forall KN, KD (PQ L) KN -> HK KN (tr L) (tr (make_loop_atomic (set_t L (n_t L - (T_Onelazy - T_Oneloop))))).
Proof.
  intros Ht Hok Hl KN HKN. rewrite (mla_lazy L Ht).
  destruct (charloop_atomic L LLazy _ (or_intror (conj Ht (conj eq_refl eq_refl))) Hok) as (k & c & Hlk & -> & -> & Htest & Hm).
  apply (step_charloop_lazy k (n_o L) c (n_m L) (n_n L) (PQ L) KN Hm); [|exact HKN].
  intros s j Hs Hj. apply (early_PQ L k LLazy _ Hlk Hl Hm Htest s j Hs Hj).
Qed.

Lemma node_ok_set_kids x ks : node_ok x -> length ks = length (n_kids x) -> Forall node_ok ks -> node_ok (set_kids x ks).
Proof.
  intros [Hwf Hs] Hlen Hks. destruct x as [t o ch m n str st kids]. cbn [set_kids n_kids] in *. split.
  - rewrite fo_wf_unfold in Hwf |- *. cbn [n_t n_kids n_set n_m n_n n_str n_o] in *. rewrite Hlen.
    repeat (apply andb_prop in Hwf; destruct Hwf as [Hwf ?]).
    repeat (apply andb_true_intro; split); try assumption.
    apply forallb_forall. intros k Hk. rewrite Forall_forall in Hks. exact (proj1 (Hks k Hk)).
  - cbn [FinalOptLeaf.sets_in] in Hs |- *. destruct Hs as [Hs0' _]. split; [exact Hs0'|].
    clear -Hks. induction Hks as [|k ks [_ Hk] _ IH]; [exact I | split; [exact Hk | exact IH]].
Qed.

Lemma okps_nodes l : Forall node_ok l -> okps e (map tr l).
Proof.
  intros H. apply okps_all. rewrite Forall_forall. intros x Hx. apply in_map_iff in Hx. destruct Hx as (k & <- & Hk).
  rewrite Forall_forall in H. exact (node_ok_okp sid e sets k (H k Hk)).
Qed.

Lemma Forall2_Forall_r {A B} (R : A -> B -> Prop) (P : B -> Prop) l l' :
  (forall a b, R a b -> P b) -> Forall2 R l l' -> Forall P l'.
Proof. intros HP. induction 1; constructor; eauto. Qed.
Lemma Forall2_two {A B} (R : A -> B -> Prop) a b l' : Forall2 R [a; b] l' -> exists a' b', l' = [a'; b'] /\ R a a' /\ R b b'.
Proof.
  intros H. inversion H as [|? a' ? l1 Ha H1]; subst. inversion H1 as [|? b' ? l2 Hb H2]; subst. inversion H2; subst.
  exists a', b'. auto.
Qed.

Lemma fo_map_res_Forall2 {A B} (g : A -> res B) l l' : fo_map_res g l = Ok l' -> Forall2 (fun a b => g a = Ok b) l l'.
Proof.
  revert l'. induction l as [|a l IH]; intros l' H; cbn [fo_map_res] in H.
  - injection H as <-. constructor.
  - destruct (g a) as [b| | |] eqn:Ea; cbn [bind] in H; try discriminate.
    destruct (fo_map_res g l) as [r| | |] eqn:Er; cbn [bind] in H; try discriminate.
    injection H as <-. constructor; [exact Ea | apply IH; reflexivity].
Qed.

Lemma alt_kids_HK KN o : forall l l', Forall2 (HK KN) l l' ->
  forall pre, HK KN (NAlternate o (pre ++ l)) (NAlternate o (pre ++ l')).
Proof.
  induction 1 as [|k k' l l' Hk _ IH]; intros pre; [apply HK_refl|].
  eapply HK_trans; [apply HK_alt_at; exact Hk|].
  replace (pre ++ k' :: l) with ((pre ++ [k']) ++ l) by (rewrite <- app_assoc; reflexivity).
  replace (pre ++ k' :: l') with ((pre ++ [k']) ++ l') by (rewrite <- app_assoc; reflexivity).
  apply IH.
Qed.

Lemma Forall2_map_rel {A B} (h : A -> B) (R : B -> B -> Prop) l l' : Forall2 (fun a a' => R (h a) (h a')) l l' -> Forall2 R (map h l) (map h l').
Proof. induction 1; cbn [map]; constructor; assumption. Qed.

(* a list of nodes through a pass that relates every well-formed node to its result *)
Lemma map_res_rel (g : rnode -> res rnode) (R : rnode -> rnode -> Prop) l l' :
  (forall k k', g k = Ok k' -> node_ok k -> R k k') -> Forall node_ok l -> fo_map_res g l = Ok l' -> Forall2 R l l'.
Proof.
  intros Hg Hl E. apply fo_map_res_Forall2 in E. induction E as [|k k' l l' Hk _ IH]; [constructor|].
  inversion Hl; subst. constructor; auto.
Qed.

Lemma rev_cons_inv {A} (l : list A) x r : rev l = x :: r -> l = rev r ++ [x].
Proof. intros H. rewrite <- (rev_involutive l), H. reflexivity. Qed.

(* ---- the last child of a concatenation, or of a capture that is not a balancing one, replaced by a related one *)
Lemma last_kid_type t n : (t =? T_Capture) || (t =? T_Concatenate) = true -> (t =? T_Capture) && negb (n =? -1) = false ->
  t = T_Concatenate \/ t = T_Capture /\ n = -1.
Proof. clear. lia. Qed.

Lemma eqb_or3 t a b c : (t =? a) || (t =? b) || (t =? c) = true <-> t = a \/ t = b \/ t = c.
Proof. clear. lia. Qed.

(* relations that hold of a concatenation when they hold of its last child, of a capture that is not a balancing one when
   they hold of its child *)
Definition tail_closed (R : node -> node -> Prop) : Prop :=
  (forall o pre a a', okps e pre -> R a a' -> R (NConcat o (pre ++ [a])) (NConcat o (pre ++ [a']))) /\
  (forall o g a a', R a a' -> R (NCapture o g (-1) a) (NCapture o g (-1) a')).

(* "the same first result under every continuation of a class", when the class has the continuations of those children *)
Lemma tail_closed_HK (C : kont -> Prop) :
  (forall K K', (forall a, K a = K' a) -> C K' -> C K) -> (forall K g s0, sok s0 -> C K -> C (kcap g (-1) s0 K)) ->
  tail_closed (fun a a' => forall K, C K -> HK K a a').
Proof.
  intros Hext Hcap. split.
  - intros o pre a a' Hpre H K HK. apply (HK_concat_at e K o pre a a' [] Hpre). apply H. eapply Hext; [intros s; apply kseq_nil | exact HK].
  - intros o g a a' H K HK. apply HK_capture. intros s Hs. apply H; [|exact Hs]. apply Hcap; assumption.
Qed.

Lemma last_kid_rel (R : node -> node -> Prop) x pre k k' : tail_closed R ->
  node_ok x -> n_kids x = pre ++ [k] -> n_t x = T_Concatenate \/ n_t x = T_Capture /\ n_n x = -1 ->
  (node_ok k' -> node_ok (set_kids x (pre ++ [k']))) /\ (R (tr k) (tr k') -> R (tr x) (tr (set_kids x (pre ++ [k'])))).
Proof.
  intros [Hcon Hcap] Hok Ek Ht.
  pose proof (node_ok_kids sets x Hok) as Hks. rewrite Ek in Hks. apply Forall_app in Hks. destruct Hks as [Hpre _]. split.
  - intros Hk'. apply node_ok_set_kids; [exact Hok | rewrite Ek, !app_length; reflexivity|].
    apply Forall_app. split; [exact Hpre | constructor; [exact Hk'|constructor]].
  - intros HR. rewrite tr_unfold, tr_set_kids, Ek, !map_app. cbn [map]. destruct Ht as [E|[E En]].
    + rewrite !(tr_node_concat sid x _ E). apply Hcon; [apply okps_nodes; exact Hpre | exact HR].
    + destruct (kids_one x (proj1 Hok) ltac:(rewrite E; reflexivity)) as [k0 Ek0]. rewrite Ek0 in Ek.
      destruct pre as [|p0 [|p1 pre]]; try discriminate. cbn [map app].
      rewrite !(tr_node_capture sid x _ E), En. apply Hcap. exact HR.
Qed.

(* ---- every branch of an alternation or conditional replaced by a related one; the condition of an ExprCond stays *)
Lemma branches_rel (R : node -> node -> Prop) x go' :
  (forall o l l', Forall2 R l l' -> R (NAlternate o l) (NAlternate o l')) ->
  (forall o g y y' n n', R y y' -> R n n' -> R (NBackRefCond o g y (Some n)) (NBackRefCond o g y' (Some n'))) ->
  (forall o c y y' n n', okp e c -> R y y' -> R n n' -> R (NExprCond o c y (Some n)) (NExprCond o c y' (Some n'))) ->
  node_ok x -> n_t x = T_Alternate \/ n_t x = T_BackRefCond \/ n_t x = T_ExprCond ->
  let ec := n_t x =? T_ExprCond in
  Forall2 (fun k k' => node_ok k' /\ R (tr k) (tr k')) (if ec then skipn 1 (n_kids x) else n_kids x) go' ->
  let ks' := (if ec then firstn 1 (n_kids x) else []) ++ go' in
  node_ok (set_kids x ks') /\ R (tr x) (tr (set_kids x ks')).
Proof.
  intros Halt Hbrc Hec Hok Ht ec Hall ks'. subst ec ks'. pose proof (node_ok_kids sets x Hok) as Hks.
  rewrite tr_unfold, tr_set_kids. destruct Ht as [E|[E|E]]; rewrite E in Hall |- *; cbn [Z.eqb Pos.eqb T_Alternate T_BackRefCond T_ExprCond] in Hall |- *.
  - cbn [app]. split.
    + apply node_ok_set_kids; [exact Hok | symmetry; exact (Forall2_length _ _ _ Hall) | exact (Forall2_Forall_r _ _ _ _ (fun _ _ => @proj1 _ _) Hall)].
    + rewrite !(tr_node_alt sid x _ E). apply Halt, (Forall2_map_rel tr), (Forall2_impl _ _ _ _ (fun _ _ => @proj2 _ _) Hall).
  - destruct (kids_two x (proj1 Hok) E) as (y & nn & Ek). rewrite Ek in Hall |- *.
    destruct (Forall2_two _ _ _ _ Hall) as (y' & nn' & -> & [Hy' Hy] & [Hnn' Hnn]). cbn [app map]. split.
    + apply node_ok_set_kids; [exact Hok | rewrite Ek; reflexivity | exact (Forall_cons _ Hy' (Forall_cons _ Hnn' (Forall_nil _)))].
    + rewrite !(tr_node_backref_cond sid x _ _ E). apply Hbrc; assumption.
  - destruct (kids_three x (proj1 Hok) E) as (c0 & y & nn & Ek). rewrite Ek in Hall, Hks |- *. cbn [firstn skipn] in Hall |- *.
    destruct (Forall2_two _ _ _ _ Hall) as (y' & nn' & -> & [Hy' Hy] & [Hnn' Hnn]). cbn [app map]. split.
    + apply node_ok_set_kids; [exact Hok | rewrite Ek; reflexivity | exact (Forall_cons _ (Forall_inv Hks) (Forall_cons _ Hy' (Forall_cons _ Hnn' (Forall_nil _))))].
    + rewrite !(tr_node_expr_cond sid x _ _ _ E). apply Hec; [apply (node_ok_okp sid e sets), (Forall_inv Hks) | assumption | assumption].
Qed.

(* ---- FindLastExpressionInLoopForAutoAtomic (tree.go:853-880): the last child L of the body of a loop, disjoint from the
   body's first child *)

Lemma goodK_ext P K K' : (forall a, K a = K' a) -> goodK P K' -> goodK P K.
Proof. intros H [HD|HT]; [left; exact (KD_ext e _ _ _ H HD) | right; exact (KT_ext e _ _ H HT)]. Qed.
Lemma goodK_kcap P K g s0 : pos_pred P -> sok s0 -> goodK P K -> goodK P (kcap g (-1) s0 K).
Proof. intros HP Hs0' [HD|HT]; [left; apply KD_kcap | right; apply KT_kcap]; assumption. Qed.

Lemma tail_closed_hpr (P : st -> Prop) : pos_pred P -> tail_closed (fun a a' => forall s, hpr P (den a s) (den a' s)).
Proof.
  intros HP. split.
  - intros o pre a a' _ H s. rewrite !fd_den_concat, !fd_den_seq_app. apply hpr_flat_map_same.
    intros b. cbn [den_seq]. rewrite !flat_map_single. apply H.
  - intros o g a a' H s. rewrite !fd_den_capture. apply hpr_flat_map_single; [|apply H].
    intros b. unfold capture_close. cbn. eexists. split; [reflexivity|]. apply HP. reflexivity.
Qed.

(* what follows an iteration of the loop, at a state where the NEXT iteration (and leaving) start with a dead body *)
Lemma goodK_kiter (P : st -> Prop) (KN : kont) (B' : st -> list st) (limit mark count : Z) :
  0 <= limit -> (forall q, sok q -> P q -> B' q = []) -> (forall a, sok a -> okl e (B' a)) ->
  goodK P KN -> goodK P (kiter KN B' false limit mark count).
Proof.
  intros Hlim Hdead Hok HK.
  assert (Hq0 : forall q, sok q -> P q -> iterD B' false limit q mark count = [q] \/ iterD B' false limit q mark count = []).
  { intros q Hq HPq. rewrite fd_iterD_eq. unfold iter_again. rewrite (Hdead q Hq HPq). cbn [flat_map app].
    destruct ((limit <=? count) || (pos q =? mark) && (0 <=? count)); [left; reflexivity|].
    destruct (0 <=? count); [left|right]; reflexivity. }
  destruct (Z_lt_ge_dec count 0) as [Hneg|Hnn].
  - (* iterations still owed: leaving is not an option, so the continuation is dead there *)
    left. intros q Hq HPq. unfold kiter. rewrite fd_iterD_eq. unfold iter_again. rewrite (Hdead q Hq HPq). cbn [flat_map app].
    replace ((limit <=? count) || (pos q =? mark) && (0 <=? count)) with false by lia.
    replace (0 <=? count) with false by lia. reflexivity.
  - destruct HK as [HD|HT].
    + left. intros q Hq HPq. unfold kiter. destruct (Hq0 q Hq HPq) as [-> | ->]; cbn [flat_map]; [rewrite (HD q Hq HPq)|]; reflexivity.
    + right. intros a Ha. unfold kiter. rewrite fd_iterD_eq.
      destruct ((limit <=? count) || (pos a =? mark) && (0 <=? count)).
      * cbn [flat_map]. specialize (HT a Ha). destruct (KN a); [contradiction|discriminate].
      * replace (0 <=? count) with true by lia. rewrite flat_map_app. cbn [flat_map].
        specialize (HT a Ha). destruct (KN a); [contradiction|]. intros E. apply app_eq_nil in E. destruct E as [_ E]. discriminate.
Qed.

(* ---- from here on: the code with the strict bits 0-2 set *)
Variable strict : Z.
Hypothesis Hs0 : Z.testbit strict 0 = true.
Hypothesis Hs1 : Z.testbit strict 1 = true.
Hypothesis Hs2 : Z.testbit strict 2 = true.

(* fo_cbma = true only for a left-to-right loop *)
Lemma cbma_true_ltr f n sub c iter al seen :
  fo_cbma cat_in isw isew f strict n sub c iter al seen = Ok true -> ltr (n_o n).
Proof.
  destruct f as [|f]; [discriminate|]. rewrite fo_cbma_S. destruct (fo_descend sub c) as [s ctx1].
  destruct (negb (n_o n =? n_o s)); [discriminate|]. destruct (useRTL (n_o n)) eqn:E; [discriminate|]. intros _. exact E.
Qed.

(* ---- processNode *)
Definition pn_leaf (g : rnode -> res rnode) (f : nat) (sub : rnode) (ctx : list frame) (nd : rnode) : res rnode :=
  let t := n_t nd in
  if fo_is_charloop t then
    do b <- fo_cbma cat_in isw isew f strict nd sub ctx true false false ;
    Ok (if b then make_loop_atomic nd else nd)
  else if fo_is_charlazy t then
    do b <- fo_cbma cat_in isw isew f strict nd sub ctx false true false ;
    Ok (if b then make_loop_atomic (set_t nd (t - (T_Onelazy - T_Oneloop))) else nd)
  else if (t =? T_Alternate) || (t =? T_BackRefCond) || (t =? T_ExprCond) then
    let kids := n_kids nd in
    let keep := if t =? T_ExprCond then firstn 1 kids else [] in
    let go := if t =? T_ExprCond then skipn 1 kids else kids in
    do go' <- fo_map_res g go ;
    Ok (set_kids nd (keep ++ go'))
  else Ok nd.

Lemma fo_pn_S f node sub ctx :
  fo_pn cat_in isw isew (S f) strict node sub ctx =
  let t := n_t node in
  let leaf := pn_leaf (fun k => fo_pn cat_in isw isew f strict k sub ctx) f sub ctx in
  if (t =? T_Capture) && Z.testbit strict 1 && negb (n_n node =? -1) then Ok node
  else if (t =? T_Capture) || (t =? T_Concatenate) then
    match rev (n_kids node) with
    | [] => Crash 42
    | lastk :: rpre => do l' <- fo_pn cat_in isw isew f strict lastk sub ctx ; Ok (set_kids node (rev (l' :: rpre)))
    end
  else if t =? T_Loop then
    do r <- fo_loop_last false strict node (fun first lastc =>
              do b <- fo_cbma cat_in isw isew f strict lastc first [] false false false ;
              if b then (do l' <- leaf lastc ; Ok (Some l')) else Ok None) ;
    match r with Some node' => Ok node' | None => Ok node end
  else leaf node.
Proof. reflexivity. Qed.

Lemma body_last_sound (k : rnode -> rnode -> res (option rnode)) :
  forall body body', fo_body_last strict body k = Ok (Some body') -> node_ok body ->
  exists first lastc l', k first lastc = Ok (Some l') /\ node_ok first /\ node_ok lastc /\
    (node_ok l' -> node_ok body') /\
    (forall R, tail_closed R -> R (tr lastc) (tr l') -> R (tr body) (tr body')) /\
    (forall a, den (tr first) a = [] -> den (tr body) a = []) /\
    (forall a, den (tr first) a = [] -> den (tr body') a = []).
Proof.
  induction body as [t o ch m n str st kids IHk] using rnode_ind'. intros body' H Hok.
  cbn [fo_body_last] in H.
  set (body := RN t o ch m n str st kids) in *.
  destruct ((t =? T_Capture) && Z.testbit strict 1 && negb (n =? -1)) eqn:Ebal; [discriminate|].
  rewrite Hs1, andb_true_r in Ebal.
  destruct (t =? T_Capture) eqn:Ecap.
  { apply Z.eqb_eq in Ecap. subst t. destruct kids as [|c cs]; [discriminate|].
    destruct (fo_body_last strict c k) as [r| | |] eqn:Er; cbn [bind] in H; try discriminate.
    destruct r as [c'|]; [|discriminate]. injection H as <-.
    assert (Hcs : cs = []).
    { destruct (kids_one body (proj1 Hok) eq_refl) as [k0 Hk0]. cbn in Hk0. injection Hk0 as _ ->. reflexivity. }
    subst cs.
    destruct (Forall_inv IHk c' Er (Forall_inv (node_ok_kids sets body Hok))) as (first & lastc & l' & Hk & Hf & Hl & Hokb & HR & Hd & Hd').
    exists first, lastc, l'. split; [exact Hk|]. split; [exact Hf|]. split; [exact Hl|].
    assert (En : n = -1) by (clear -Ebal; lia). subst n.
    pose proof (fun R HR => last_kid_rel R body [] c c' HR Hok eq_refl (or_intror (conj eq_refl eq_refl))) as Hlk.
    split; [intros Hl'; exact (proj1 (Hlk (fun _ _ => True) (conj (fun _ _ _ _ _ _ => I) (fun _ _ _ _ _ => I))) (Hokb Hl'))|].
    split; [intros R HcR HRl; exact (proj2 (Hlk R HcR) (HR R HcR HRl))|].
    split; intros a Ha; [rewrite (tr_capture sid body c) by reflexivity | rewrite (tr_capture sid _ c') by reflexivity];
      rewrite fd_den_capture; [rewrite (Hd a Ha) | rewrite (Hd' a Ha)]; reflexivity. }
  destruct (t =? T_Concatenate) eqn:Econ; [|discriminate]. apply Z.eqb_eq in Econ. subst t.
  destruct kids as [|first krest] eqn:Ekids; [discriminate|].
  destruct (rev (first :: krest)) as [|lastc rpre] eqn:Erev; [discriminate|].
  destruct (k first lastc) as [r| | |] eqn:Ek; cbn [bind] in H; try discriminate.
  destruct r as [l'|]; [|discriminate]. injection H as <-. change (rev (l' :: rpre)) with (rev rpre ++ [l']).
  apply rev_cons_inv in Erev.
  exists first, lastc, l'. split; [exact Ek|].
  pose proof (node_ok_kids sets body Hok) as Hkids. unfold body in Hkids. cbn [n_kids] in Hkids.
  split; [exact (Forall_inv Hkids)|]. rewrite Erev in Hkids. split; [exact (Forall_inv (proj2 (proj1 (Forall_app _ _ _) Hkids)))|].
  pose proof (fun R HR => last_kid_rel R body (rev rpre) lastc l' HR Hok Erev (or_introl eq_refl)) as Hlk.
  split; [exact (proj1 (Hlk (fun _ _ => True) (conj (fun _ _ _ _ _ _ => I) (fun _ _ _ _ _ => I))))|].
  split; [intros R HcR; exact (proj2 (Hlk R HcR))|].
  split; intros a Ha; rewrite tr_concat by reflexivity; unfold body; cbn [n_o n_kids]; rewrite fd_den_concat.
  - cbn [map den_seq]. rewrite Ha. reflexivity.
  - destruct (rev rpre) as [|p0 pr] eqn:Epr.
    + (* a concatenation has two children at least *)
      exfalso. pose proof (fo_wf_arity body (proj1 Hok)) as Har. unfold body in Har. cbn [n_t n_kids] in Har.
      rewrite Erev in Har. discriminate Har.
    + cbn [app] in Erev. injection Erev as -> _. cbn [app map den_seq]. rewrite Ha. reflexivity.
Qed.

(* canBeMadeAtomic without allowLazy says true for a greedy loop only *)
Lemma cbma_true_greedy : forall f n sub c iter seen,
  fo_cbma cat_in isw isew f strict n sub c iter false seen = Ok true -> node_ok sub -> ctx_ok c ->
  fo_is_charloop (n_t n) = true.
Proof.
  induction f as [|f IHf]; intros n sub c iter seen H Hsub Hc; [discriminate|].
  rewrite fo_cbma_S in H. destruct (fo_descend sub c) as [s ctx1] eqn:Ed.
  destruct (descend_sound cat_in sid e sets n sub c s ctx1 Ed Hsub Hc) as (Hs & Hc1 & _).
  destruct (negb (n_o n =? n_o s)); [discriminate|]. destruct (useRTL (n_o n)); [discriminate|]. cbv zeta in H.
  destruct ((n_t s =? T_Alternate) || (n_t s =? T_ExprCond) && (zlen (n_kids s) =? 3)) eqn:Ealt.
  - assert (exists k ks, n_kids s = k :: ks) as (k & ks & Ek).
    { pose proof (fo_wf_arity s (proj1 Hs)) as Har. destruct (n_kids s) as [|k ks] eqn:Ek; [|exists k, ks; reflexivity]. exfalso.
      destruct (n_t s =? T_Alternate) eqn:Ea.
      - apply Z.eqb_eq in Ea. rewrite Ea in Har. discriminate Har.
      - apply andb_prop in Ealt. destruct Ealt as [Ee _]. apply Z.eqb_eq in Ee. rewrite Ee in Har. discriminate Har. }
    rewrite Ek in H. cbn [fo_branches] in H.
    destruct (fo_cbma cat_in isw isew f strict n k (mkF (n_t s) false true ks :: ctx1) iter false seen) as [b| | |] eqn:Eb; cbn [bind] in H; try discriminate.
    destruct b; [|discriminate].
    apply (IHf _ _ _ _ _ Eb).
    + apply (node_ok_kid sets s); [exact Hs | rewrite Ek; left; reflexivity].
    + constructor; [|exact Hc1]. cbn [f_rights]. rewrite Forall_forall. intros r Hr.
      apply (node_ok_kid sets s); [exact Hs | rewrite Ek; right; exact Hr].
  - destruct (fo_verdict cat_in isw isew n s false) as [v| | |] eqn:Ev; cbn [bind] in H; try discriminate.
    assert (Hv : v <> 0) by (intros ->; cbn in H; discriminate).
    unfold fo_verdict in Ev. rewrite !andb_false_r, !orb_false_r in Ev.
    unfold fo_is_charloop.
    destruct (n_t n =? T_Oneloop); [reflexivity|]. destruct (n_t n =? T_Notoneloop); [reflexivity|].
    destruct (n_t n =? T_Setloop); [reflexivity|]. injection Ev as <-. contradiction.
Qed.

(* processNode (tree.go:408-484): the rewritten node is well formed and has the same first result as the node under
   every continuation that may follow it in front of [sub] *)
Theorem pn_sound : forall f node sub c node',
  fo_pn cat_in isw isew f strict node sub c = Ok node' ->
  node_ok node -> node_ok sub -> ctx_ok c ->
  node_ok node' /\ forall KN, Adm sub c KN -> HK KN (tr node) (tr node').
Proof.
  induction f as [|f IHf]; intros node sub c node' H Hn Hsub Hc; [discriminate|].
  pose proof (cbma_sound cat_in isw isew sid e sets Henv strict Hs0 Hs1 Hs2 f) as Hcbma.
  rewrite fo_pn_S in H. cbv zeta in H.
  destruct ((n_t node =? T_Capture) && Z.testbit strict 1 && negb (n_n node =? -1)) eqn:Ebal.
  { injection H as <-. split; [exact Hn|]. intros KN _. apply HK_refl. }
  rewrite Hs1, andb_true_r in Ebal.
  destruct ((n_t node =? T_Capture) || (n_t node =? T_Concatenate)) eqn:Ecc.
  { destruct (rev (n_kids node)) as [|lastk rpre] eqn:Erev; [discriminate|].
    apply rev_cons_inv in Erev.
    destruct (fo_pn cat_in isw isew f strict lastk sub c) as [l'| | |] eqn:El; cbn [bind] in H; try discriminate.
    injection H as <-. cbn [rev].
    assert (Hlast : node_ok lastk) by (apply (node_ok_kid sets node); [exact Hn | rewrite Erev; apply in_or_app; right; left; reflexivity]).
    destruct (IHf lastk sub c l' El Hlast Hsub Hc) as [Hl' HHK].
    destruct (last_kid_rel _ node (rev rpre) lastk l' (tail_closed_HK (Adm sub c) (Adm_ext sub c) (fun K g s0 Hs0 => Adm_kcap sub c K g s0 Hs0))
                Hn Erev (last_kid_type _ _ Ecc Ebal)) as [H1 H2].
    split; [exact (H1 Hl') | exact (H2 HHK)]. }
  destruct (n_t node =? T_Loop) eqn:Eloop.
  { apply Z.eqb_eq in Eloop.
    destruct (kids_one node (proj1 Hn) ltac:(rewrite Eloop; reflexivity)) as [b Eb].
    unfold fo_loop_last in H. rewrite Eb in H.
    set (k0 := fun first lastc : rnode =>
                 do b0 <- fo_cbma cat_in isw isew f strict lastc first [] false false false ;
                 if b0 then (do l' <- pn_leaf (fun k => fo_pn cat_in isw isew f strict k sub c) f sub c lastc ; Ok (Some l')) else Ok None) in *.
    destruct (fo_body_last strict b k0) as [r| | |] eqn:Er; cbn [bind] in H; try discriminate.
    destruct r as [b'|]; [|injection H as <-; split; [exact Hn|intros KN _; apply HK_refl]].
    injection H as <-.
    assert (Hb : node_ok b) by (apply (node_ok_kid sets node); [exact Hn | rewrite Eb; left; reflexivity]).
    (* the leaf and what the two calls of canBeMadeAtomic say *)
    assert (Hk0 : forall first lastc l', k0 first lastc = Ok (Some l') -> node_ok first -> node_ok lastc ->
              node_ok l' /\
              (forall q, sok q -> PQ lastc q -> den (tr first) q = []) /\
              (forall KN, Adm sub c KN -> forall K, goodK (PQ lastc) KN -> goodK (PQ lastc) K -> HK K (tr lastc) (tr l')) /\
              (forall KN, Adm sub c KN -> l' = lastc \/ goodK (PQ lastc) KN)).
    { intros first lastc l' Hk Hf Hl. unfold k0 in Hk.
      destruct (fo_cbma cat_in isw isew f strict lastc first [] false false false) as [b0| | |] eqn:E1; cbn [bind] in Hk; try discriminate.
      destruct b0; [|discriminate].
      destruct (pn_leaf (fun k => fo_pn cat_in isw isew f strict k sub c) f sub c lastc) as [l1| | |] eqn:El; cbn [bind] in Hk; try discriminate.
      injection Hk as <-.
      pose proof (cbma_true_greedy f lastc first [] false false E1 Hf (Forall_nil _)) as Hgl.
      assert (Hfirst : forall q, sok q -> PQ lastc q -> den (tr first) q = []).
      { destruct (Hcbma lastc first [] false false false E1 Hl Hf (Forall_nil _))
          as [HD|(Habs & _)]; [|discriminate].
        intros q Hq HPq. pose proof (HD kid (KT_kid e) q Hq HPq) as H0. unfold FinalOptK.kb, kid in H0. rewrite flat_map_single in H0. exact H0. }
      unfold pn_leaf in El. cbv zeta in El. rewrite Hgl in El.
      destruct (fo_cbma cat_in isw isew f strict lastc sub c true false false) as [b2| | |] eqn:E2; cbn [bind] in El; try discriminate.
      injection El as <-. destruct b2.
      - split; [apply node_ok_mla_greedy; assumption|]. split; [exact Hfirst|]. split.
        + intros KN HA K _ HK. apply leaf_step_greedy; [exact Hgl | exact Hl | exact (cbma_true_ltr _ _ _ _ _ _ _ E2) | exact HK].
        + intros KN HA. right.
          destruct (Hcbma lastc sub c true false false E2 Hl Hsub Hc)
            as [HD|(_ & _ & HT)]; [left; apply (proj1 (HA lastc)); exact HD | right; apply (proj2 (HA lastc)); exact HT].
      - split; [exact Hl|]. split; [exact Hfirst|]. split; [intros; apply HK_refl | intros; left; reflexivity]. }
    destruct (body_last_sound k0 b b' Er Hb) as (first & lastc & l' & Hk & Hf & Hl & Hokb & HR & Hd & Hd').
    pose proof (fun P HP => HR _ (tail_closed_HK (goodK P) (goodK_ext P) (fun K g s0 => goodK_kcap P K g s0 HP))) as HHK.
    destruct (Hk0 first lastc l' Hk Hf Hl) as (Hl' & Hfirst & Hleaf & Hgood).
    assert (Hb' : node_ok b') by (apply Hokb; exact Hl').
    split; [apply node_ok_set_kids; [exact Hn | rewrite Eb; reflexivity | constructor; [exact Hb'|constructor]]|].
    intros KN HA.
    rewrite tr_unfold, tr_set_kids, Eb. cbn [map]. rewrite !(tr_node_loop sid node _ Eloop).
    destruct (Hgood KN HA) as [Esame|HgKN].
    - (* canBeMadeAtomic said no for what follows the loop: the child is left alone *)
      subst l'. apply HK_loop_iter; [apply (node_ok_okp sid e sets); exact Hb|]. intros mark count.
      apply (HHK (fun _ => False) ltac:(intros ? ? ? []) ); [intros; apply HK_refl|].
      left. intros q _ [].
    - apply HK_loop_iter; [apply (node_ok_okp sid e sets); exact Hb|]. intros mark count.
      assert (Hlim : 0 <= loop_limit (n_m node) (n_n node)).
      { destruct (wf_flags node (proj1 Hn)) as (_ & _ & _ & Hb1 & _). apply loop_limit_nonneg. exact (proj2 (proj1 (Hb1 (or_introl Eloop)))). }
      apply (HHK (PQ lastc) (pos_pred_PQ cat_in e lastc)).
      + intros K HK. apply (Hleaf KN HA K HgKN HK).
      + apply goodK_kiter; [exact Hlim| | |exact HgKN].
        * intros q Hq HPq. apply Hd'. apply Hfirst; assumption.
        * apply (node_ok_okp sid e sets). exact Hb'. }
  (* the switch *)
  unfold pn_leaf in H. cbv zeta in H.
  destruct (fo_is_charloop (n_t node)) eqn:Egl.
  { destruct (fo_cbma cat_in isw isew f strict node sub c true false false) as [b| | |] eqn:Eb; cbn [bind] in H; try discriminate.
    injection H as <-. destruct b; [|split; [exact Hn|intros KN _; apply HK_refl]].
    split; [apply node_ok_mla_greedy; assumption|]. intros KN HA.
    apply leaf_step_greedy; [exact Egl | exact Hn | exact (cbma_true_ltr _ _ _ _ _ _ _ Eb)|].
    destruct (Hcbma node sub c true false false Eb Hn Hsub Hc)
      as [HD|(_ & _ & HT)]; [left; apply (proj1 (HA node)); exact HD | right; apply (proj2 (HA node)); exact HT]. }
  destruct (fo_is_charlazy (n_t node)) eqn:Elz.
  { destruct (fo_cbma cat_in isw isew f strict node sub c false true false) as [b| | |] eqn:Eb; cbn [bind] in H; try discriminate.
    injection H as <-. destruct b; [|split; [exact Hn|intros KN _; apply HK_refl]].
    split; [apply node_ok_mla_lazy; assumption|]. intros KN HA.
    apply leaf_step_lazy; [exact Elz | exact Hn | exact (cbma_true_ltr _ _ _ _ _ _ _ Eb)|].
    destruct (Hcbma node sub c false true false Eb Hn Hsub Hc)
      as [HD|(Habs & _)]; [apply (proj1 (HA node)); exact HD | discriminate]. }
  destruct ((n_t node =? T_Alternate) || (n_t node =? T_BackRefCond) || (n_t node =? T_ExprCond)) eqn:Ealt;
    [|injection H as <-; split; [exact Hn|intros KN _; apply HK_refl]].
  (* the branches, not the condition of an expression conditional *)
  destruct (fo_map_res _ _) as [go'| | |] eqn:Ego in H; cbn [bind] in H; try discriminate. injection H as <-.
  pose proof (node_ok_kids sets node Hn) as Hkids.
  apply (branches_rel (fun a a' => forall KN, Adm sub c KN -> HK KN a a')); [| | | exact Hn | exact (proj1 (eqb_or3 _ _ _ _) Ealt)|].
  - intros o l l' Hl KN HA. refine (alt_kids_HK KN o l l' _ []). revert Hl. apply Forall2_impl. intros a b Hk. exact (Hk KN HA).
  - intros o g y y' n n' Hy Hnn KN HA. apply HK_backref_cond; [apply Hy, HA | apply Hnn, HA].
  - intros o c0 y y' n n' Hc0 Hy Hnn KN HA. apply HK_expr_cond; [exact Hc0 | apply HK_refl | apply Hy, HA | apply Hnn, HA].
  - refine (map_res_rel _ _ _ _ (fun k k' Hk Hk0 => IHf _ _ _ _ Hk Hk0 Hsub Hc) _ Ego).
    destruct (n_t node =? T_ExprCond); [destruct (n_kids node); [constructor | exact (Forall_inv_tail Hkids)] | exact Hkids].
Qed.

(* ---- findAndMakeLoopsAtomic *)
Definition fa_go (g : rnode -> list frame -> res rnode) (t : Z) (bal : bool) (ctx : list frame) : list rnode -> res (list rnode) :=
  fix go (ks : list rnode) : res (list rnode) :=
    match ks with
    | [] => Ok []
    | k :: ks' => do k' <- g k (mkF t bal false ks' :: ctx) ; do r <- go ks' ; Ok (k' :: r)
    end.
Definition fa_pairs (p : rnode -> rnode -> list frame -> res rnode) (ctx : list frame) : list rnode -> res (list rnode) :=
  fix pairs (ks : list rnode) : res (list rnode) :=
    match ks with
    | a :: ((b :: rest) as tl) =>
        do a' <- p a b (mkF T_Concatenate false false rest :: ctx) ; do r <- pairs tl ; Ok (a' :: r)
    | _ => Ok ks
    end.

Lemma fa_pairs_cc p ctx a b rest :
  fa_pairs p ctx (a :: b :: rest) =
  do a' <- p a b (mkF T_Concatenate false false rest :: ctx) ; do r <- fa_pairs p ctx (b :: rest) ; Ok (a' :: r).
Proof. reflexivity. Qed.
Lemma fa_go_cons g t bal ctx k ks :
  fa_go g t bal ctx (k :: ks) = do k' <- g k (mkF t bal false ks :: ctx) ; do r <- fa_go g t bal ctx ks ; Ok (k' :: r).
Proof. reflexivity. Qed.

Lemma fo_fa_S f x ctx :
  fo_fa cat_in isw isew (S f) strict x ctx =
  if useRTL (n_o x) then Ok x
  else
    let bal := (n_t x =? T_Capture) && negb (n_n x =? -1) in
    do kids1 <- fa_go (fun k c => fo_fa cat_in isw isew f strict k c) (n_t x) bal ctx (n_kids x) ;
    if negb (n_t x =? T_Concatenate) then Ok (set_kids x kids1)
    else do kids2 <- fa_pairs (fun a b c => fo_pn cat_in isw isew f strict a b c) ctx kids1 ; Ok (set_kids x kids2).
Proof. reflexivity. Qed.

Section FaStep.
Variable f : nat.
Hypothesis IHf : forall x c x', fo_fa cat_in isw isew f strict x c = Ok x' -> node_ok x -> ctx_ok c ->
  node_ok x' /\ forall K, CK c K -> HK K (tr x) (tr x').

Fixpoint go_rel (t : Z) (bal : bool) (c : list frame) (ks ks1 : list rnode) : Prop :=
  match ks, ks1 with
  | [], [] => True
  | k :: r, k' :: r' =>
      node_ok k' /\ (forall K, CK (mkF t bal false r :: c) K -> HK K (tr k) (tr k')) /\ go_rel t bal c r r'
  | _, _ => False
  end.

Lemma go_sound t bal c : ctx_ok c -> forall ks ks1, Forall node_ok ks ->
  fa_go (fun k c0 => fo_fa cat_in isw isew f strict k c0) t bal c ks = Ok ks1 -> go_rel t bal c ks ks1.
Proof.
  intros Hc. induction ks as [|k r IH]; intros ks1 Hks H.
  - cbn [fa_go] in H. injection H as <-. exact I.
  - rewrite fa_go_cons in H. inversion Hks as [|? ? Hk Hr]; subst.
    destruct (fo_fa cat_in isw isew f strict k (mkF t bal false r :: c)) as [k'| | |] eqn:Ek; cbn [bind] in H; try discriminate.
    destruct (fa_go (fun k0 c0 => fo_fa cat_in isw isew f strict k0 c0) t bal c r) as [r'| | |] eqn:Er; cbn [bind] in H; try discriminate.
    injection H as <-. cbn [go_rel].
    assert (Hc' : ctx_ok (mkF t bal false r :: c)) by (constructor; [exact Hr|exact Hc]).
    destruct (IHf k _ k' Ek Hk Hc') as [Hk' HHK]. split; [exact Hk'|]. split; [exact HHK|]. apply IH; [exact Hr|reflexivity].
Qed.

Lemma go_rel_ok t bal c : forall ks ks1, go_rel t bal c ks ks1 -> Forall node_ok ks1 /\ length ks1 = length ks.
Proof.
  induction ks as [|k r IH]; intros [|k' r'] H; cbn [go_rel] in H; try contradiction.
  - split; [constructor|reflexivity].
  - destruct H as (Hk' & _ & Hr). destruct (IH r' Hr) as [H1 H2]. split; [constructor; assumption | cbn; congruence].
Qed.

Lemma go_rel_nil t bal c ks1 : go_rel t bal c [] ks1 -> ks1 = [].
Proof. destruct ks1; [reflexivity|contradiction]. Qed.
Lemma go_rel_cons t bal c k r ks1 : go_rel t bal c (k :: r) ks1 ->
  exists k' r', ks1 = k' :: r' /\ (forall K, CK (mkF t bal false r :: c) K -> HK K (tr k) (tr k')) /\ go_rel t bal c r r'.
Proof. destruct ks1 as [|k' r']; [contradiction|]. intros (_ & H1 & H2). exists k', r'. auto. Qed.

Lemma concat_go o c : forall ks ks1, go_rel T_Concatenate false c ks ks1 -> forall pre, Forall node_ok pre ->
  forall K, CK c K -> HK K (NConcat o (map tr pre ++ map tr ks)) (NConcat o (map tr pre ++ map tr ks1)).
Proof.
  induction ks as [|k r IH]; intros [|k' r'] H pre Hpre K HK0; cbn [go_rel] in H; try contradiction; [apply HK_refl|].
  destruct H as (Hk' & HHK & Hr). cbn [map].
  eapply HK_trans.
  - apply HK_concat_at; [apply okps_nodes; exact Hpre|]. apply HHK. apply CK_concat_frame. exact HK0.
  - replace (map tr pre ++ tr k' :: map tr r) with (map tr (pre ++ [k']) ++ map tr r) by (rewrite map_app, <- app_assoc; reflexivity).
    replace (map tr pre ++ tr k' :: map tr r') with (map tr (pre ++ [k']) ++ map tr r') by (rewrite map_app, <- app_assoc; reflexivity).
    apply IH; [exact Hr | apply Forall_app; split; [exact Hpre | constructor; [exact Hk'|constructor]] | exact HK0].
Qed.

Lemma alt_go o b c : forall ks ks1, go_rel T_Alternate b c ks ks1 -> forall pre,
  forall K, CK c K -> HK K (NAlternate o (pre ++ map tr ks)) (NAlternate o (pre ++ map tr ks1)).
Proof.
  intros ks ks1 H pre K HK0. apply alt_kids_HK, (Forall2_map_rel tr). revert ks1 H.
  induction ks as [|k r IH]; intros [|k' r'] H; cbn [go_rel] in H; try contradiction; constructor.
  - apply (proj1 (proj2 H)), CK_alt_frame, HK0.
  - apply IH, H.
Qed.

Lemma pairs_sound o c : ctx_ok c -> forall ks ks2, Forall node_ok ks ->
  fa_pairs (fun a b c0 => fo_pn cat_in isw isew f strict a b c0) c ks = Ok ks2 ->
  Forall node_ok ks2 /\ length ks2 = length ks /\
  forall pre, Forall node_ok pre -> forall K, CK c K ->
    HK K (NConcat o (map tr pre ++ map tr ks)) (NConcat o (map tr pre ++ map tr ks2)).
Proof.
  intros Hc. induction ks as [|a tl IH]; intros ks2 Hks H.
  - cbn [fa_pairs] in H. injection H as <-. split; [constructor|]. split; [reflexivity|]. intros; apply HK_refl.
  - destruct tl as [|b rest].
    + unfold fa_pairs in H. injection H as <-. split; [exact Hks|]. split; [reflexivity|]. intros; apply HK_refl.
    + rewrite fa_pairs_cc in H.
      inversion Hks as [|? ? Ha Htl]; subst. inversion Htl as [|? ? Hb Hrest]; subst.
      destruct (fo_pn cat_in isw isew f strict a b (mkF T_Concatenate false false rest :: c)) as [a'| | |] eqn:Ea; cbn [bind] in H; try discriminate.
      destruct (fa_pairs (fun a0 b0 c0 => fo_pn cat_in isw isew f strict a0 b0 c0) c (b :: rest)) as [r| | |] eqn:Er; cbn [bind] in H; try discriminate.
      injection H as <-.
      assert (Hc' : ctx_ok (mkF T_Concatenate false false rest :: c)) by (constructor; [exact Hrest|exact Hc]).
      destruct (pn_sound f a b _ a' Ea Ha Hb Hc') as [Ha' HHK].
      destruct (IH r Htl eq_refl) as (Hr & Hlen & HIH).
      split; [constructor; assumption|]. split; [cbn [length] in *; lia|].
      intros pre Hpre K HK0.
      change (map tr (a :: b :: rest)) with (tr a :: map tr (b :: rest)). change (map tr (a' :: r)) with (tr a' :: map tr r).
      eapply HK_trans.
      * apply HK_concat_at; [apply okps_nodes; exact Hpre|].
        apply HHK. eapply Adm_ext; [intros s; apply (kseq_cons e (tr b) (map tr rest) K s)|].
        apply Adm_base. apply CK_concat_frame. exact HK0.
      * replace (map tr pre ++ tr a' :: map tr (b :: rest)) with (map tr (pre ++ [a']) ++ map tr (b :: rest)) by (rewrite map_app, <- app_assoc; reflexivity).
        replace (map tr pre ++ tr a' :: map tr r) with (map tr (pre ++ [a']) ++ map tr r) by (rewrite map_app, <- app_assoc; reflexivity).
        apply HIH; [apply Forall_app; split; [exact Hpre | constructor; [exact Ha'|constructor]] | exact HK0].
Qed.

End FaStep.

Theorem fa_sound : forall f x c x',
  fo_fa cat_in isw isew f strict x c = Ok x' -> node_ok x -> ctx_ok c ->
  node_ok x' /\ forall K, CK c K -> HK K (tr x) (tr x').
Proof.
  induction f as [|f IHf]; intros x c x' H Hx Hc; [discriminate|].
  rewrite fo_fa_S in H. destruct (useRTL (n_o x)); [injection H as <-; split; [exact Hx|intros; apply HK_refl]|].
  cbv zeta in H.
  set (bal := (n_t x =? T_Capture) && negb (n_n x =? -1)) in *.
  destruct (fa_go (fun k c0 => fo_fa cat_in isw isew f strict k c0) (n_t x) bal c (n_kids x)) as [kids1| | |] eqn:Ego;
    cbn [bind] in H; try discriminate.
  pose proof (node_ok_kids sets x Hx) as Hkids.
  pose proof (go_sound f IHf (n_t x) bal c Hc _ _ Hkids Ego) as Hrel.
  destruct (go_rel_ok _ _ _ _ _ Hrel) as [Hk1 Hlen1].
  destruct (n_t x =? T_Concatenate) eqn:Econ; cbn [negb] in H.
  - (* a concatenation: then the pairs *)
    apply Z.eqb_eq in Econ.
    destruct (fa_pairs (fun a b c0 => fo_pn cat_in isw isew f strict a b c0) c kids1) as [kids2| | |] eqn:Ep;
      cbn [bind] in H; try discriminate.
    injection H as <-.
    destruct (pairs_sound f (n_o x) c Hc kids1 kids2 Hk1 Ep) as (Hk2 & Hlen2 & HP).
    split; [apply node_ok_set_kids; [exact Hx | lia | exact Hk2]|].
    intros K HK0. rewrite tr_unfold, tr_set_kids, !(tr_node_concat sid x _ Econ).
    unfold bal in Hrel. rewrite Econ in Hrel.
    eapply HK_trans.
    + exact (concat_go (n_o x) c _ _ Hrel [] (Forall_nil _) K HK0).
    + exact (HP [] (Forall_nil _) K HK0).
  - injection H as <-. split; [apply node_ok_set_kids; assumption|].
    intros K HK0. rewrite tr_unfold, tr_set_kids.
    destruct (wf_shape x (proj1 Hx)) as [Ek|[E|[E|[(k & Ek & E1)|[(y & nn & Ek & E)|(c0 & y & nn & Ek & E)]]]]].
    + rewrite Ek in Hrel |- *. apply go_rel_nil in Hrel as ->. apply HK_refl.
    + rewrite E in Econ. discriminate.
    + rewrite E in Hrel. rewrite !(tr_node_alt sid x _ E). exact (alt_go (n_o x) bal c _ _ Hrel [] K HK0).
    + rewrite Ek in Hrel, Hkids |- *. apply go_rel_cons in Hrel as (k' & r' & -> & HHK & Hrel). apply go_rel_nil in Hrel as ->.
      cbn [map]. apply Forall_inv, (node_ok_okp sid e sets) in Hkids.
      destruct (unary_cases _ E1) as [E|[E|[E|[E|[E|E]]]]]; rewrite E in HHK.
      * rewrite !(tr_node_loop sid x _ E). apply HK_loop; [exact Hkids|]. intros F. apply HHK. apply CK_opaque; reflexivity.
      * rewrite !(tr_node_lazyloop sid x _ E). apply HK_loop; [exact Hkids|]. intros F. apply HHK. apply CK_opaque; reflexivity.
      * rewrite !(tr_node_capture sid x _ E). apply HK_capture. intros s Hs. apply HHK; [|exact Hs].
        apply CK_capture_frame; [exact Hs | | exact HK0]. unfold bal. rewrite E. clear. lia.
      * rewrite !(tr_node_poslook sid x _ E). apply HK_poslook. apply HHK. apply CK_opaque; reflexivity.
      * rewrite !(tr_node_neglook sid x _ E). apply HK_neglook. apply HHK. apply CK_opaque; reflexivity.
      * rewrite !(tr_node_atomic sid x _ E). apply HK_atomic. apply HHK. apply CK_atomic_frame.
    + rewrite Ek, E in Hrel. rewrite Ek.
      apply go_rel_cons in Hrel as (y' & r1 & -> & HHy & Hrel). apply go_rel_cons in Hrel as (nn' & r2 & -> & HHn & Hrel).
      apply go_rel_nil in Hrel as ->. cbn [map]. rewrite !(tr_node_backref_cond sid x _ _ E).
      apply HK_backref_cond; [apply HHy | apply HHn]; apply CK_opaque; reflexivity.
    + rewrite Ek, E in Hrel. rewrite Ek in Hkids |- *.
      apply go_rel_cons in Hrel as (c0' & r0 & -> & HHc & Hrel). apply go_rel_cons in Hrel as (y' & r1 & -> & HHy & Hrel).
      apply go_rel_cons in Hrel as (nn' & r2 & -> & HHn & Hrel). apply go_rel_nil in Hrel as ->.
      cbn [map]. rewrite !(tr_node_expr_cond sid x _ _ _ E).
      apply HK_expr_cond; [apply (node_ok_okp sid e sets), (Forall_inv Hkids) | apply HHc | apply HHy | apply HHn]; apply CK_opaque; reflexivity.
Qed.

End Atomic.

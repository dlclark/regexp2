(* C02, string entry points — library lemmas for Proofs/EntryFilter.v and Proofs/EntryProofs.v:
   the string-search functions of Model/Entry.v return the FIRST occurrence; rune boundaries of a
   byte string (Utf8Proofs.boundary) are increasing, end at the length, and are exactly what
   isStringRuneBoundary / getRunesAndStart / decodeStringWithStart compute; a decoded rune other
   than U+FFFD is present in the string as its UTF-8 encoding (self-synchronisation). *)
From Verif Require Import Base.Prelude Base.Utf8 Model.Offsets Model.Entry Proofs.Utf8Proofs.
From Verif Require Import Proofs.ListFacts.
From Coq Require Import ZifyBool.
Ltac Zify.zify_post_hook ::= Z.div_mod_to_equations.

Lemma enb_zlen_skipn {A} (l : list A) k : (k <= length l)%nat -> zlen (skipn k l) = zlen l - Z.of_nat k.
Proof. exact (zlen_skipn l k). Qed.

Lemma enb_zlen_app {A} (a b : list A) : zlen (a ++ b) = zlen a + zlen b.
Proof. exact (zlen_app a b). Qed.

Lemma enb_from_nat s k : en_from s (Z.of_nat k) = skipn k s.
Proof. unfold en_from. rewrite Nat2Z.id. reflexivity. Qed.

Lemma enb_upto_nat s k : en_upto s (Z.of_nat k) = firstn k s.
Proof. unfold en_upto. rewrite Nat2Z.id. reflexivity. Qed.

Lemma enb_at_nat s k : en_at s (Z.of_nat k) = nth k s 0.
Proof. unfold en_at. rewrite Nat2Z.id. reflexivity. Qed.

(* ---------- HasPrefix / Index ---------- *)

Lemma enb_has_prefix_iff s p : en_has_prefix s p = true <-> exists rest, s = p ++ rest.
Proof.
  revert s. induction p as [|x p IH]; intros s.
  - destruct s; cbn; split; eauto.
  - destruct s as [|y s]; cbn [en_has_prefix].
    + split; [discriminate|]. intros [rest H]. discriminate H.
    + rewrite andb_true_iff, IH. split.
      * intros [Hxy [rest ->]]. exists rest. cbn. f_equal. lia.
      * intros [rest H]. cbn in H. injection H as -> ->. split; [lia|eauto].
Qed.

Lemma enb_has_prefix_app s p : en_has_prefix (p ++ s) p = true.
Proof. apply enb_has_prefix_iff. eauto. Qed.

Lemma enb_has_prefix_app_same a s p : en_has_prefix (a ++ s) (a ++ p) = en_has_prefix s p.
Proof.
  induction a as [|x a IH]; [reflexivity|]. cbn [app en_has_prefix]. rewrite Z.eqb_refl. exact IH.
Qed.

Lemma enb_has_prefix_nil p : en_has_prefix [] p = true -> p = [].
Proof. destruct p; [reflexivity|discriminate]. Qed.

Lemma enb_has_prefix_length s p : en_has_prefix s p = true -> (length p <= length s)%nat.
Proof. intros H. apply enb_has_prefix_iff in H. destruct H as [rest ->]. rewrite app_length. lia. Qed.

(* occurrence of sub at byte offset k of s *)
Definition enb_occ (s sub : list Z) (k : nat) : Prop := en_has_prefix (skipn k s) sub = true.

(* the search functions are only ever called with a non-negative running index *)
Lemma enb_index_from_spec sub : forall s i, 0 <= i ->
  (en_index_from s sub i = -1 /\ forall k, ~ enb_occ s sub k) \/
  (exists k, en_index_from s sub i = i + Z.of_nat k /\ (k <= length s)%nat /\ enb_occ s sub k /\
             forall k', (k' < k)%nat -> ~ enb_occ s sub k').
Proof.
  induction s as [|b t IH]; intros i Hi.
  - cbn [en_index_from]. destruct (en_has_prefix [] sub) eqn:E.
    + right. exists 0%nat. unfold enb_occ. cbn [skipn length]. repeat split; try lia. exact E.
    + left. split; [reflexivity|]. intros k. unfold enb_occ. rewrite skipn_nil. congruence.
  - cbn [en_index_from]. destruct (en_has_prefix (b :: t) sub) eqn:E.
    + right. exists 0%nat. unfold enb_occ. cbn [skipn length]. repeat split; try lia. exact E.
    + destruct (IH (i + 1) ltac:(lia)) as [[H1 H2]|[k [H1 [H2 [H3 H4]]]]].
      * left. split; [exact H1|]. intros [|k]; unfold enb_occ; cbn [skipn]; [congruence|apply H2].
      * right. exists (S k). unfold enb_occ in *. cbn [skipn length]. repeat split; try lia; try exact H3.
        intros [|k'] Hk'; cbn [skipn]; [congruence|]. apply H4. lia.
Qed.

Lemma enb_index_spec s sub :
  (en_index s sub = -1 /\ forall k, ~ enb_occ s sub k) \/
  (exists k, en_index s sub = Z.of_nat k /\ (k <= length s)%nat /\ enb_occ s sub k /\
             forall k', (k' < k)%nat -> ~ enb_occ s sub k').
Proof. unfold en_index. destruct (enb_index_from_spec sub s 0 ltac:(lia)) as [H|[k H]]; [left; exact H|right; exists k; exact H]. Qed.

(* first byte satisfying a test: IndexByte and the range scan of the ASCII set scanner *)
Fixpoint enb_find_first (f : Z -> bool) (s : list Z) (i : Z) : Z :=
  match s with
  | [] => -1
  | b :: t => if f b then i else enb_find_first f t (i + 1)
  end.

Lemma enb_index_byte_from_find s c : forall i, en_index_byte_from s c i = enb_find_first (fun b => b =? c) s i.
Proof. induction s as [|b t IH]; intros i; cbn; [reflexivity|]. rewrite IH. reflexivity. Qed.

Lemma enb_index_in_range_find s first last : forall i,
  en_index_in_range s first last i = enb_find_first (fun b => (first <=? b) && (b <=? last)) s i.
Proof. induction s as [|b t IH]; intros i; cbn; [reflexivity|]. rewrite IH. reflexivity. Qed.

Lemma enb_find_first_spec f : forall s i, 0 <= i ->
  (enb_find_first f s i = -1 /\ forall k, (k < length s)%nat -> f (nth k s 0) = false) \/
  (exists k, enb_find_first f s i = i + Z.of_nat k /\ (k < length s)%nat /\ f (nth k s 0) = true /\
             forall k', (k' < k)%nat -> f (nth k' s 0) = false).
Proof.
  induction s as [|b t IH]; intros i Hi; cbn [enb_find_first].
  - left. split; [reflexivity|]. cbn. intros; lia.
  - destruct (f b) eqn:E.
    + right. exists 0%nat. cbn [nth length]. repeat split; try lia. exact E.
    + destruct (IH (i + 1) ltac:(lia)) as [[H1 H2]|[k [H1 [H2 [H3 H4]]]]].
      * left. split; [exact H1|]. intros [|k] Hk; cbn [nth]; [exact E|]. apply H2. cbn [length] in Hk. lia.
      * right. exists (S k). cbn [nth length]. repeat split; try lia; try exact H3.
        intros [|k'] Hk'; cbn [nth]; [exact E|]. apply H4. lia.
Qed.

Lemma enb_boundary_len s : boundary s (length (decode s)) = length s.
Proof.
  pose proof (decode_total s) as H. unfold widths_of, zlen in H.
  unfold boundary. rewrite <- map_length with (f := snd), firstn_all.
  assert (G : forall d : list (Z * nat), zsum (map (fun p => Z.of_nat (snd p)) d) = Z.of_nat (nsum (map snd d))).
  { induction d as [|[r w] d IH]; [reflexivity|]. cbn [map zsum nsum fold_right snd].
    fold (zsum (map (fun p => Z.of_nat (snd p)) d)). fold (nsum (map snd d)). rewrite IH. lia. }
  rewrite G in H. lia.
Qed.

Lemma enb_boundary_ge s k : (length (decode s) <= k)%nat -> boundary s k = length s.
Proof.
  intros H. rewrite <- enb_boundary_len. unfold boundary.
  rewrite !firstn_all2; try (rewrite map_length; lia). reflexivity.
Qed.

(* one step: the k-th decoded pair (c, w) occupies bytes [boundary k, boundary k + w) *)
Lemma enb_boundary_step s k c w :
  nth_error (decode s) k = Some (c, w) ->
  boundary s (S k) = (boundary s k + w)%nat /\ (1 <= w <= 4)%nat /\
  decode_rune (skipn (boundary s k) s) = (c, w) /\ skipn (boundary s k) s <> [].
Proof.
  intros H.
  assert (Hd : decode (skipn (boundary s k) s) = (c, w) :: skipn (S k) (decode s)).
  { rewrite decode_skipn_boundary. apply skipn_cons_nth_error. exact H. }
  destruct (skipn (boundary s k) s) as [|b0 t] eqn:Es; [discriminate Hd|].
  rewrite decode_unfold in Hd.
  assert (Hr : decode_rune (b0 :: t) = (c, w)).
  { apply (f_equal (hd (0, 0%nat))) in Hd. cbn [hd] in Hd. exact Hd. }
  clear Hd.
  pose proof (decode_rune_width b0 t) as [Hw _]. rewrite Hr in Hw. cbn [snd] in Hw.
  repeat split; try lia; try exact Hr; try discriminate.
  replace (S k) with (k + 1)%nat by lia. rewrite boundary_add. f_equal.
  rewrite Es. rewrite boundary_S, boundary_0, Hr. cbn [snd]. lia.
Qed.

Lemma enb_boundary_S_lt s k : (k < length (decode s))%nat -> (boundary s k < boundary s (S k))%nat.
Proof.
  intros H. destruct (nth_error (decode s) k) as [[c w]|] eqn:E.
  - destruct (enb_boundary_step s k c w E) as [H1 [H2 _]]. lia.
  - apply nth_error_None in E. lia.
Qed.

Lemma enb_boundary_gap s : forall j k, (k + j <= length (decode s))%nat -> (boundary s k + j <= boundary s (k + j))%nat.
Proof.
  induction j as [|j IH]; intros k H; [rewrite !Nat.add_0_r; lia|].
  assert (H1 : (k + j < length (decode s))%nat) by lia.
  assert (H2 : (k + j <= length (decode s))%nat) by lia.
  pose proof (enb_boundary_S_lt s (k + j) H1) as H3. pose proof (IH k H2) as H4.
  replace (k + S j)%nat with (S (k + j)) by lia. lia.
Qed.

Lemma enb_boundary_mono s k k' : (k <= k')%nat -> (boundary s k <= boundary s k')%nat.
Proof.
  intros H. destruct (Nat.le_gt_cases k' (length (decode s))) as [L|L].
  - pose proof (enb_boundary_gap s (k' - k) k ltac:(lia)). replace (k + (k' - k))%nat with k' in * by lia. lia.
  - rewrite (enb_boundary_ge s k') by lia. apply boundary_le.
Qed.

Lemma enb_boundary_lt s k k' : (k < k')%nat -> (k' <= length (decode s))%nat -> (boundary s k < boundary s k')%nat.
Proof.
  intros H L. pose proof (enb_boundary_gap s (k' - k) k ltac:(lia)).
  replace (k + (k' - k))%nat with k' in * by lia. lia.
Qed.

Lemma enb_boundary_inj_le s k k' :
  (k <= length (decode s))%nat -> (k' <= length (decode s))%nat ->
  (boundary s k <= boundary s k')%nat -> (k <= k')%nat.
Proof.
  intros L L' H. destruct (Nat.le_gt_cases k k') as [|G]; [assumption|].
  pose proof (enb_boundary_lt s k' k G L). lia.
Qed.

Lemma enb_bytes_ge_runes s k : (k <= length (decode s))%nat ->
  (length (decode s) - k <= length s - boundary s k)%nat.
Proof.
  intros H. pose proof (enb_boundary_gap s (length (decode s) - k) k ltac:(lia)) as G.
  replace (k + (length (decode s) - k))%nat with (length (decode s)) in G by lia.
  rewrite enb_boundary_len in G. lia.
Qed.

Lemma enb_boundary_suffix s k j :
  boundary (skipn (boundary s k) s) j = (boundary s (k + j) - boundary s k)%nat.
Proof. rewrite boundary_add. lia. Qed.

Lemma enb_runes_skipn s k : runes_of (skipn (boundary s k) s) = skipn k (runes_of s).
Proof. unfold runes_of. rewrite decode_skipn_boundary, skipn_map. reflexivity. Qed.

Lemma enb_runes_length s : length (runes_of s) = length (decode s).
Proof. unfold runes_of. apply map_length. Qed.

Lemma enb_rune_nth s k c : nth_error (runes_of s) k = Some c <-> exists w, nth_error (decode s) k = Some (c, w).
Proof.
  unfold runes_of. rewrite nth_error_map. destruct (nth_error (decode s) k) as [[c' w']|]; cbn; split.
  - intros H. injection H as ->. eauto.
  - intros [w H]. injection H as -> _. reflexivity.
  - discriminate.
  - intros [w H]. discriminate.
Qed.

Definition enb_off (d : list (Z * nat)) (k : nat) : nat := nsum (firstn k (map snd d)).

Lemma enb_off_boundary s k : enb_off (decode s) k = boundary s k.
Proof. reflexivity. Qed.

Lemma enb_off_S c w d k : enb_off ((c, w) :: d) (S k) = (w + enb_off d k)%nat.
Proof. reflexivity. Qed.

Definition enb_widths_pos (d : list (Z * nat)) : Prop := Forall (fun p => (1 <= snd p)%nat) d.

Lemma enb_decode_widths_pos s : enb_widths_pos (decode s).
Proof.
  unfold enb_widths_pos. pose proof (decode_widths_range s) as H. unfold widths_of in H.
  rewrite Forall_map in H. eapply Forall_impl; [|exact H]. cbn. intros a Ha. lia.
Qed.

Lemma enb_range_find_spec f : forall d a,
  (en_range_find f (range_items a d) = -1 /\ forall k c w, nth_error d k = Some (c, w) -> f c = false) \/
  (exists k c w, nth_error d k = Some (c, w) /\ f c = true /\
     en_range_find f (range_items a d) = a + Z.of_nat (enb_off d k) /\
     forall k' c' w', (k' < k)%nat -> nth_error d k' = Some (c', w') -> f c' = false).
Proof.
  induction d as [|[c0 w0] d IH]; intros a.
  - left. split; [reflexivity|]. intros [|k] c w H; discriminate H.
  - cbn [range_items en_range_find]. destruct (f c0) eqn:E.
    + right. exists 0%nat, c0, w0. cbn [nth_error]. repeat split; try assumption.
      * unfold enb_off. cbn. lia.
      * intros k' c' w' Hk. lia.
    + destruct (IH (a + Z.of_nat w0)) as [[H1 H2]|(k & c & w & H1 & H2 & H3 & H4)].
      * left. split; [exact H1|]. intros [|k] c w H; cbn [nth_error] in H.
        -- injection H as -> _. exact E.
        -- eapply H2. exact H.
      * right. exists (S k), c, w. cbn [nth_error]. repeat split; try assumption.
        -- rewrite H3, enb_off_S. lia.
        -- intros [|k'] c' w' Hk H; cbn [nth_error] in H.
           ++ injection H as -> _. exact E.
           ++ eapply H4; [|exact H]. lia.
Qed.

Lemma enb_boundary_scan_iff : forall d a index, enb_widths_pos d ->
  (en_boundary_scan (range_items a d) index = true <->
   exists k, (k < length d)%nat /\ index = a + Z.of_nat (enb_off d k)).
Proof.
  induction d as [|[c0 w0] d IH]; intros a index Hw.
  - cbn. split; [discriminate|]. intros [k [H _]]. lia.
  - inversion Hw as [|? ? Hw0 Hw']; subst. cbn [snd] in Hw0.
    cbn [range_items en_boundary_scan length].
    destruct (a =? index) eqn:E1.
    + split; [|reflexivity]. intros _. exists 0%nat. unfold enb_off. cbn. lia.
    + destruct (index <? a) eqn:E2.
      * split; [discriminate|]. intros [k [_ H]]. lia.
      * rewrite (IH (a + Z.of_nat w0) index Hw'). split.
        -- intros [k [H1 H2]]. exists (S k). rewrite enb_off_S. split; lia.
        -- intros [[|k] [H1 H2]].
           ++ unfold enb_off in H2. cbn in H2. lia.
           ++ exists k. rewrite enb_off_S in H2. split; lia.
Qed.

(* isStringRuneBoundary answers true exactly at the byte offsets of runes and at the end *)
Lemma enb_is_boundary_iff s i :
  en_is_boundary s i = true <-> exists k, (k <= length (decode s))%nat /\ i = Z.of_nat (boundary s k).
Proof.
  unfold en_is_boundary.
  destruct ((i =? 0) || (i =? zlen s)) eqn:E0.
  - split; [|reflexivity]. intros _. apply orb_true_iff in E0. destruct E0 as [E|E].
    + exists 0%nat. rewrite boundary_0. split; lia.
    + exists (length (decode s)). rewrite enb_boundary_len. unfold zlen in E. split; lia.
  - apply orb_false_iff in E0. destruct E0 as [E1 E2].
    destruct ((i <? 0) || (zlen s <? i)) eqn:E3.
    + split; [discriminate|]. intros [k [Hk ->]]. pose proof (boundary_le s k). unfold zlen in E3. lia.
    + unfold go_range. rewrite (enb_boundary_scan_iff (decode s) 0 i (enb_decode_widths_pos s)). split.
      * intros [k [H1 H2]]. exists k. rewrite enb_off_boundary in H2. split; lia.
      * intros [k [H1 H2]]. exists k. rewrite enb_off_boundary. split; [|lia].
        destruct (Nat.eq_dec k (length (decode s))) as [->|]; [|lia].
        rewrite enb_boundary_len in H2. unfold zlen in E2. lia.
Qed.

Lemma enb_is_boundary_at s k : en_is_boundary s (Z.of_nat (boundary s k)) = true.
Proof.
  apply enb_is_boundary_iff. destruct (Nat.le_gt_cases k (length (decode s))) as [L|L].
  - exists k. split; [exact L|reflexivity].
  - exists (length (decode s)). split; [lia|]. rewrite enb_boundary_ge by lia. rewrite enb_boundary_len. reflexivity.
Qed.

Definition enb_at_boundary (b : list Z) (k0 : nat) (c : Z) : Prop :=
  exists k', (k0 <= k' <= length (decode b))%nat /\ c = Z.of_nat (boundary b k').

(* the loop shared by getRunesAndStart and decodeStringWithStart *)
Definition enb_ri_step (startAt : Z) (st : Z * Z) (it : Z * Z) : Z * Z :=
  let '(n, idx) := st in (n + 1, if fst it =? startAt then n else idx).

Lemma enb_ri_fold_miss startAt : forall d a n0 idx0,
  (forall k, (k < length d)%nat -> startAt <> a + Z.of_nat (enb_off d k)) ->
  fold_left (enb_ri_step startAt) (range_items a d) (n0, idx0) = (n0 + Z.of_nat (length d), idx0).
Proof.
  induction d as [|[c0 w0] d IH]; intros a n0 idx0 H.
  - cbn. f_equal. lia.
  - cbn [range_items fold_left enb_ri_step fst length].
    assert (E : (a =? startAt) = false).
    { specialize (H 0%nat ltac:(cbn; lia)). unfold enb_off in H. cbn in H. lia. }
    rewrite E. rewrite IH.
    + f_equal. lia.
    + intros k Hk. specialize (H (S k) ltac:(cbn; lia)). rewrite enb_off_S in H. lia.
Qed.

Lemma enb_ri_fold_hit startAt : forall d a n0 idx0 k, enb_widths_pos d ->
  (k < length d)%nat -> startAt = a + Z.of_nat (enb_off d k) ->
  fold_left (enb_ri_step startAt) (range_items a d) (n0, idx0) = (n0 + Z.of_nat (length d), n0 + Z.of_nat k).
Proof.
  induction d as [|[c0 w0] d IH]; intros a n0 idx0 k Hw Hk H; [cbn in Hk; lia|].
  apply Forall_cons_iff in Hw. destruct Hw as [Hw0 Hw']. cbn [snd] in Hw0.
  cbn [range_items fold_left enb_ri_step fst length].
  destruct k as [|k].
  - assert (E : (a =? startAt) = true) by (unfold enb_off in H; cbn in H; lia). rewrite E.
    rewrite enb_ri_fold_miss.
    + f_equal; lia.
    + intros k Hk'. unfold enb_off in H; cbn in H. lia.
  - rewrite enb_off_S in H.
    assert (E : (a =? startAt) = false) by lia. rewrite E.
    rewrite (IH (a + Z.of_nat w0) (n0 + 1) idx0 k Hw').
    + f_equal; lia.
    + cbn [length] in Hk. lia.
    + lia.
Qed.

Lemma enb_runes_and_index_eq s startAt :
  en_runes_and_index s startAt =
  (let '(n, idx) := fold_left (enb_ri_step startAt) (go_range s) (0, -1) in
   (runes_of s, if startAt =? zlen s then n else idx)).
Proof. reflexivity. Qed.

Lemma enb_runes_and_index_boundary s k : (k <= length (decode s))%nat ->
  en_runes_and_index s (Z.of_nat (boundary s k)) = (runes_of s, Z.of_nat k).
Proof.
  intros Hk. rewrite enb_runes_and_index_eq. unfold go_range.
  destruct (Nat.eq_dec k (length (decode s))) as [->|Hne].
  - rewrite enb_boundary_len. rewrite enb_ri_fold_miss.
    + unfold zlen. rewrite Z.eqb_refl. f_equal.
    + intros k Hk'. rewrite enb_off_boundary.
      pose proof (enb_boundary_lt s k (length (decode s)) Hk' (Nat.le_refl _)) as H.
      rewrite enb_boundary_len in H. lia.
  - rewrite (enb_ri_fold_hit _ (decode s) 0 0 (-1) k (enb_decode_widths_pos s)); [|lia|rewrite enb_off_boundary; lia].
    assert (H : (boundary s k < length s)%nat).
    { pose proof (enb_boundary_lt s k (length (decode s)) ltac:(lia) (Nat.le_refl _)) as H.
      rewrite enb_boundary_len in H. exact H. }
    unfold zlen. replace (Z.of_nat (boundary s k) =? Z.of_nat (length s)) with false by lia.
    f_equal.
Qed.

Lemma enb_runes_and_index_off s i : en_is_boundary s i = false ->
  en_runes_and_index s i = (runes_of s, -1).
Proof.
  intros H. rewrite enb_runes_and_index_eq. unfold go_range.
  assert (Hnb : forall k, (k <= length (decode s))%nat -> i <> Z.of_nat (boundary s k)).
  { intros k Hk ->. rewrite enb_is_boundary_at in H. discriminate H. }
  rewrite enb_ri_fold_miss.
  - assert (E : (i =? zlen s) = false).
    { specialize (Hnb (length (decode s)) (Nat.le_refl _)). rewrite enb_boundary_len in Hnb. unfold zlen. lia. }
    rewrite E. reflexivity.
  - intros k Hk. rewrite enb_off_boundary. specialize (Hnb k ltac:(lia)). lia.
Qed.

Lemma enb_decoded_valid s k c w : nth_error (decode s) k = Some (c, w) -> valid_rune c = true.
Proof.
  intros H. pose proof (decode_elements s) as F. rewrite Forall_forall in F.
  specialize (F (c, w) (nth_error_In _ _ H)). cbn [fst snd] in F.
  destruct F as [F|[F _]]; [|exact F]. injection F as -> _. reflexivity.
Qed.

(* self-synchronisation, decoder side: a decoded rune other than U+FFFD stands in the string as its encoding *)
Lemma enb_rune_bytes s k c w :
  nth_error (decode s) k = Some (c, w) -> c <> rune_error ->
  valid_rune c = true /\ Z.of_nat w = rune_len c /\
  skipn (boundary s k) s = encode c ++ skipn (boundary s (S k)) s.
Proof.
  intros H Hc. destruct (enb_boundary_step s k c w H) as (HS & Hw & Hr & Hne).
  destruct (skipn (boundary s k) s) as [|b0 t] eqn:Es; [congruence|].
  destruct (decode_rune_cases b0 t) as [C|C].
  - rewrite Hr in C. injection C as -> _. congruence.
  - rewrite Hr in C. destruct C as (Hv & Hl & Hf). repeat split; try assumption.
    rewrite <- (firstn_skipn w (b0 :: t)) at 1. rewrite Hf. f_equal.
    rewrite <- Es, skipn_skipn, HS. reflexivity.
Qed.

Definition enb_good (c : Z) : Prop := valid_rune c = true /\ c <> rune_error.

(* encoder side: the encodings of valid runes are prefix-free *)
Lemma enb_encode_inj x p a b :
  valid_rune x = true -> valid_rune p = true -> encode x ++ a = encode p ++ b -> x = p /\ a = b.
Proof.
  intros Hx Hp H. pose proof (decode_rune_encode x a Hx) as D1. pose proof (decode_rune_encode p b Hp) as D2.
  rewrite H in D1. rewrite D1 in D2. injection D2 as -> _. split; [reflexivity|].
  eapply app_inv_head. exact H.
Qed.

(* step 1: if the re-encoded runes start with the encoding of good runes ps, the runes start with ps *)
Lemma enb_runes_of_encoded_prefix : forall ps rs rest,
  Forall enb_good ps -> Forall (fun x => valid_rune x = true) rs ->
  encode_string rs = encode_string ps ++ rest -> firstn (length ps) rs = ps.
Proof.
  induction ps as [|p ps IH]; intros rs rest Hps Hrs H; [reflexivity|].
  inversion Hps as [|? ? [Hpv Hpe] Hps']; subst.
  destruct rs as [|x rs].
  - exfalso. unfold encode_string in H. cbn [flat_map] in H.
    destruct (encode p) eqn:E; [exact (encode_nonempty p E)|discriminate H].
  - inversion Hrs as [|? ? Hxv Hrs']; subst.
    unfold encode_string in H. cbn [flat_map] in H. rewrite <- app_assoc in H.
    destruct (enb_encode_inj x p _ _ Hxv Hpv H) as [-> H'].
    cbn [length firstn]. f_equal. eapply IH; eauto.
Qed.

Lemma enb_runes_valid s : Forall (fun x => valid_rune x = true) (runes_of s).
Proof.
  apply Forall_forall. intros x Hin. apply In_nth_error in Hin. destruct Hin as [k Hk].
  apply enb_rune_nth in Hk. destruct Hk as [w Hk]. eapply enb_decoded_valid. exact Hk.
Qed.

(* step 2: good runes at rune position k stand as their encoding at byte position boundary k *)
Lemma enb_bytes_of_rune_prefix : forall ps s k,
  Forall enb_good ps -> firstn (length ps) (skipn k (runes_of s)) = ps ->
  en_has_prefix (skipn (boundary s k) s) (encode_string ps) = true.
Proof.
  induction ps as [|p ps IH]; intros s k Hps H.
  - destruct (skipn (boundary s k) s); reflexivity.
  - inversion Hps as [|? ? [Hpv Hpe] Hps']; subst.
    cbn [length firstn] in H.
    destruct (skipn k (runes_of s)) as [|x rs] eqn:Er; [discriminate H|].
    injection H as -> Hrest.
    assert (Hn : nth_error (runes_of s) k = Some p).
    { rewrite <- (firstn_skipn k (runes_of s)), Er.
      assert (Hl : length (firstn k (runes_of s)) = k).
      { apply firstn_length_le. destruct (Nat.le_gt_cases k (length (runes_of s))) as [|G]; [assumption|].
        rewrite skipn_all2 in Er by lia. discriminate Er. }
      rewrite nth_error_app2 by lia. rewrite Hl, Nat.sub_diag. reflexivity. }
    apply enb_rune_nth in Hn. destruct Hn as [w Hn].
    destruct (enb_rune_bytes s k p w Hn Hpe) as (_ & _ & Hb).
    rewrite Hb. unfold encode_string. cbn [flat_map]. rewrite enb_has_prefix_app_same.
    apply IH; [exact Hps'|].
    replace (skipn (S k) (runes_of s)) with rs; [exact Hrest|].
    replace (S k) with (k + 1)%nat by lia. rewrite skipn_add, Er. reflexivity.
Qed.

(* a byte string in which no rune decodes to U+FFFD is the encoding of good runes *)
Definition enb_no_fffd (p : list Z) : Prop := en_contains_rune p rune_error = false.

Lemma enb_no_fffd_good p : enb_no_fffd p -> p = encode_string (runes_of p) /\ Forall enb_good (runes_of p).
Proof.
  unfold enb_no_fffd, en_contains_rune, en_index_rune. intros H.
  replace ((0 <=? rune_error) && (rune_error <? 128)) with false in H by reflexivity.
  rewrite Z.eqb_refl in H. unfold go_range in H.
  destruct (enb_range_find_spec (fun c => c =? rune_error) (decode p) 0) as [[H1 H2]|(k & c & w & H1 & H2 & H3 & H4)].
  - assert (G : Forall enb_good (runes_of p)).
    { apply Forall_forall. intros x Hin. apply In_nth_error in Hin. destruct Hin as [k Hk].
      apply enb_rune_nth in Hk. destruct Hk as [w Hk]. split; [eapply enb_decoded_valid; exact Hk|].
      specialize (H2 k x w Hk). cbn in H2. lia. }
    split; [|exact G]. symmetry. apply encode_decode. unfold valid_utf8. apply forallb_forall.
    intros [c w] Hin. pose proof (decode_elements p) as F. rewrite Forall_forall in F.
    specialize (F (c, w) Hin). unfold valid_pair. cbn [fst snd] in *.
    destruct F as [F|[_ F]]; [|lia].
    injection F as -> ->. exfalso. apply In_nth_error in Hin. destruct Hin as [k Hk].
    specialize (H2 k _ _ Hk). cbn in H2. discriminate H2.
  - rewrite H3 in H. lia.
Qed.

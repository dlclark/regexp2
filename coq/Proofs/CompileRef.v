(* compile_correct for back-references NRef. *)
From Verif Require Import Base.Prelude Model.Tree Model.Spec Model.VM Model.Writer Gen.RunnerGen
  Proofs.SpecProofs Proofs.SpecBoundsProofs Proofs.MaskProofs
  Proofs.VMU Proofs.VMUOps Proofs.VMUOps2 Proofs.VMUOps6 Proofs.VMUOps7 Proofs.CompileBase Proofs.CompileDefs.
From Coq Require Import Relations ZifyBool.

Section CC.
Variable e : env.
Variable p : program.
Hypothesis tc_nonneg : 0 <= trackcount p.
Variable R : caps_t -> list (list Z) -> Prop.
Hypothesis HR : caps_view e p R.

Notation rsteps := (VMUOps2.rsteps e p).
Notation leadsR := (CompileBase.leadsR e p R).
Notation has_code := (CompileBase.has_code p).
Notation track_ok := (CompileBase.track_ok p).
Notation code_ex := (CompileDefs.code_ex p).
Notation ok_nodeR := (CompileDefs.ok_nodeR e p R).

Lemma cc_ref f o g : 0 <= g < capsize p -> ok_nodeR (S f) (NRef o g).
Proof.
  intros Hg s res Hsem Hst a tbl T S0 C M Hc Hex Hk Hr Htb.
  cbn [sem] in Hsem. injection Hsem as <-.
  cbn [emit csize fst] in Hc, Hex |- *.
  unfold map_capnum in Hc. cbn [capmap cfg0] in Hc. replace (g =? -1) with false in Hc by lia.
  apply has_code_cons in Hc. destruct Hc as [H0 Hc]. apply has_code_cons in Hc. destruct Hc as [H1 _].
  destruct Hex as [w2 H2]. destruct Hst as [Hp Hcs].
  pose proof (cv_matched _ _ _ HR (caps s) M g Hr Hg Hcs) as Hm. unfold is_matched in Hm.
  pose proof Hk as (np & T' & HT & w3 & H3).
  unfold sem_ref.
  destruct (cap_get g (caps s)) as [|[i len] rest] eqn:Eg.
  - destruct (ecma e) eqn:Ee.
    + apply leadsR_leaf; [exact Hk|exact Hr|]. eapply rs_ref_unset_ecma; try exact tc_nonneg; eassumption.
    + eapply leadsR_fail; [exact HT|]. rewrite HT. eapply rs_ref_unset; try exact tc_nonneg; eassumption.
  - destruct (cv_index_length _ _ _ HR (caps s) M g i len rest Hr Hg Hcs Eg) as (Hix & Hln & Hi & Hl & Hil).
    assert (Hres : (if avail e o (pos s) <? len then []
                    else if ref_match_at e (is_ci o) (Z.to_nat len) i (if is_rtl o then pos s - len else pos s)
                         then [with_pos s (pos s + dir o * len)] else []) =
                   if ref_cond e o i len (pos s) then [with_pos s (pos s + dir o * len)] else []).
    { unfold ref_cond. destruct (avail e o (pos s) <? len); reflexivity. }
    cbv zeta. rewrite Hres. destruct (ref_cond e o i len (pos s)) eqn:Ec.
    + apply leadsR_leaf; [exact Hk|exact Hr|]. cbn [pos with_pos].
      eapply rs_ref_set_ok with (i := i) (len := len) (g := g); try exact tc_nonneg; eassumption.
    + eapply leadsR_fail; [exact HT|]. rewrite HT.
      eapply rs_ref_set_fail with (i := i) (len := len) (g := g); try exact tc_nonneg; eassumption.
Qed.

End CC.

(* The tree the parser builds for \A Escape(s) \z (Proofs/ParseLitProofs.v: anchored_body), read by
   the reference semantics of Model/Spec.v, matches a text exactly when the text is s. *)
From Verif Require Import Base.Prelude Model.Tree Model.Spec Gen.ParseLitGen Model.ParseLit Proofs.ParseLitProofs.
From Coq Require Import ZifyBool.

(* the fragment's trees as Model/Tree.v nodes (the same reading as Tree.build of the exported tree) *)
Definition node_of_pnode (n : pnode) : node :=
  match n with
  | PnOne o c => NChar COne o c
  | PnMulti o s => NMulti o s
  | PnSet o id => NChar CSet o id
  | PnSetLoop o id k => NCharLoop CSet LGreedy o id k k
  | PnType t _ => match anchor_of_code t with Some a => NAnchor a | None => NNothing end
  | PnRef o g => NRef o g
  end.
Definition node_of_pbody (b : pbody) : node :=
  match b with
  | BEmpty _ => NEmpty
  | BSingle n => node_of_pnode n
  | BConcat o l => NConcat o (map node_of_pnode l)
  end.
Definition node_of_ptree (t : ptree) : node :=
  match t with PRoot o b => NCapture o 0 (-1) (node_of_pbody b) end.

(* clearing the bits of a leaves no bit of b when b lies inside a, or when there was none to begin with *)
Lemma ldiff_land_0 o a b : Z.land a b = b \/ Z.land o b = 0 -> Z.land (Z.ldiff o a) b = 0.
Proof.
  intros H. apply Z.bits_inj'. intros n Hn. rewrite Z.land_spec, Z.ldiff_spec, Z.bits_0.
  destruct H as [H|H]; apply (f_equal (fun z => Z.testbit z n)) in H; rewrite Z.land_spec, ?Z.bits_0 in H;
    destruct (Z.testbit o n), (Z.testbit a n), (Z.testbit b n); cbn in *; congruence.
Qed.

Lemma clear_I_not_ci o : is_ci (clear_I o) = false.
Proof.
  unfold is_ci, has_bit, clear_I, OPT_CI, PL_IgnoreCase.
  apply negb_false_iff, Z.eqb_eq, ldiff_land_0. left. reflexivity.
Qed.

Lemma clear_I_not_rtl o : useRTL o = false -> is_rtl (clear_I o) = false.
Proof.
  unfold useRTL, pl_bit, is_rtl, has_bit, clear_I, OPT_RTL, PL_RightToLeft, PL_IgnoreCase.
  intros H. apply negb_false_iff, Z.eqb_eq in H.
  apply negb_false_iff, Z.eqb_eq, ldiff_land_0. right. exact H.
Qed.

Lemma nth_hd_skipn {A} (d : A) : forall n l, nth n l d = hd d (skipn n l).
Proof. induction n as [|n IH]; intros [|a l]; cbn; auto. Qed.

Lemma skipn_succ {A} : forall n (l : list A) a t, skipn n l = a :: t -> skipn (S n) l = t.
Proof.
  induction n as [|n IH]; intros l a t H.
  - cbn in H. subst. reflexivity.
  - destruct l as [|b l]; [discriminate|]. cbn [skipn] in *. exact (IH l a t H).
Qed.

Section Sem.
Variable e : env.

(* the literal s sits in the text at position p *)
Lemma str_match_prefix : forall s p t, 0 <= p -> skipn (Z.to_nat p) (txt e) = t ->
  (str_match_at e false s p = true /\ (length s <= length t)%nat) <-> exists t', t = s ++ t'.
Proof.
  induction s as [|c s IH]; intros p t Hp Ht.
  - cbn. split; [intros _; exists t; reflexivity | intros _; split; [reflexivity | lia]].
  - cbn [str_match_at length app].
    assert (Hc : char_at e p = hd 0 t) by (unfold char_at; rewrite nth_hd_skipn, Ht; reflexivity).
    rewrite Hc. destruct t as [|a t1].
    + split; [intros [_ H]; cbn in H; lia | intros [t' H]; discriminate].
    + cbn [hd length].
      assert (Ht1 : skipn (Z.to_nat (p + 1)) (txt e) = t1).
      { replace (Z.to_nat (p + 1)) with (S (Z.to_nat p)) by lia. eapply skipn_succ. exact Ht. }
      specialize (IH (p + 1) t1 ltac:(lia) Ht1).
      split.
      * intros [H L]. apply andb_prop in H. destruct H as [H1 H2].
        assert (L' : (length s <= length t1)%nat) by lia.
        destruct (proj1 IH (conj H2 L')) as [t' E]. exists t'. assert (c = a) by lia. subst c. rewrite E. reflexivity.
      * intros [t' E]. inversion E as [[Ea Et]]. subst a.
        destruct (proj2 IH (ex_intro _ t' Et)) as [H2 L]. split. 2:{ rewrite <- Et. lia. }
        rewrite H2. rewrite Z.eqb_refl. reflexivity.
Qed.

Lemma bindr_nil {A B} (g : A -> res (list B)) : bindr (Ok []) g = Ok [].
Proof. reflexivity. Qed.
Lemma bindr_single {A B} (a : A) (g : A -> res (list B)) : bindr (Ok [a]) g = g a.
Proof. cbn. destruct (g a); cbn; try reflexivity. rewrite app_nil_r. reflexivity. Qed.

Definition seqf (f : nat) : list node -> st -> res (list st) :=
  fix seq (l : list node) (s : st) : res (list st) :=
    match l with
    | [] => Ok [s]
    | x :: l' => bindr (sem e (S f) x s) (seq l')
    end.

Lemma sem_concat f o l s : sem e (S (S f)) (NConcat o l) s = seqf f l s.
Proof. reflexivity. Qed.
Lemma seqf_nil f s : seqf f [] s = Ok [s].
Proof. reflexivity. Qed.
Lemma seqf_cons f x l s : seqf f (x :: l) s = bindr (sem e (S f) x s) (seqf f l).
Proof. reflexivity. Qed.

Lemma sem_capture0 f o r s :
  sem e (S f) (NCapture o 0 (-1) r) s =
  bindr (sem e f r s) (fun s' => Ok [{| pos := pos s'; caps := cap_push 0 (span (pos s) (pos s')) (caps s') |}]).
Proof. reflexivity. Qed.

Lemma sem_anchor f a s : sem e (S f) (NAnchor a) s = Ok (if anchor_ok e a (pos s) then [s] else []).
Proof. reflexivity. Qed.

Variable o' : Z.
Hypothesis Hci : is_ci o' = false.
Hypothesis Hrtl : is_rtl o' = false.

Lemma sem_one f c s :
  sem e (S f) (NChar COne o' c) s =
  Ok (if (0 <? tlen e - pos s) && (char_at e (pos s) =? c) then [with_pos s (pos s + 1)] else []).
Proof. cbn [sem]. unfold avail, next_char, dir, char_test. rewrite Hrtl. reflexivity. Qed.

Lemma sem_multi_lit f str s :
  sem e (S f) (NMulti o' str) s =
  Ok (if tlen e - pos s <? zlen str then []
      else if str_match_at e false str (pos s) then [with_pos s (pos s + zlen str)] else []).
Proof.
  cbn [sem]. unfold sem_multi, avail, dir. rewrite Hrtl, Hci.
  replace (pos s + 1 * zlen str) with (pos s + zlen str) by lia. reflexivity.
Qed.

(* the literal s stands in the text at position p *)
Definition lit_here (s : list Z) (p : Z) : bool :=
  (zlen s <=? tlen e - p) && str_match_at e false s p.

(* the three node shapes of a literal all behave as "s is here" *)
Lemma seqf_lit f s l st : pos st <= tlen e ->
  seqf f (map node_of_pnode (lit_nodes o' s) ++ l) st =
  if lit_here s (pos st) then seqf f l (with_pos st (pos st + zlen s)) else Ok [].
Proof.
  intros Hp. unfold lit_here. destruct s as [|c [|c2 s2]].
  - cbn [lit_nodes map app zlen length Z.of_nat str_match_at]. rewrite andb_true_r.
    replace (0 <=? tlen e - pos st) with true by lia.
    destruct st as [p0 c0]. cbn [pos with_pos caps]. rewrite Z.add_0_r. reflexivity.
  - cbn [lit_nodes map app node_of_pnode]. rewrite seqf_cons, sem_one.
    change (zlen [c]) with 1. cbn [str_match_at]. rewrite andb_true_r.
    replace (1 <=? tlen e - pos st) with (0 <? tlen e - pos st) by lia.
    replace (c =? char_at e (pos st)) with (char_at e (pos st) =? c) by lia.
    destruct ((0 <? tlen e - pos st) && (char_at e (pos st) =? c)); [apply bindr_single | apply bindr_nil].
  - rewrite lit_nodes_long by (cbn [length]; lia).
    cbn [map app node_of_pnode]. rewrite seqf_cons, sem_multi_lit.
    replace (tlen e - pos st <? zlen (c :: c2 :: s2)) with (negb (zlen (c :: c2 :: s2) <=? tlen e - pos st)) by lia.
    destruct (zlen (c :: c2 :: s2) <=? tlen e - pos st); cbn [negb andb]; [|apply bindr_nil].
    destruct (str_match_at e false (c :: c2 :: s2) (pos st)); [apply bindr_single | apply bindr_nil].
Qed.

(* \A s \z under the root capture: one attempt *)
Theorem anchored_attempt f o s p : 0 <= p <= tlen e ->
  attempt e (S (S (S f))) (node_of_ptree (PRoot o (anchored_body o' s))) p =
  Ok (if (p =? 0) && lit_here s 0 && (tlen e <=? zlen s)
      then Some {| pos := zlen s; caps := cap_push 0 (span 0 (zlen s)) [] |}
      else None).
Proof.
  intros Hp. unfold attempt, node_of_ptree, anchored_body, node_of_pbody.
  rewrite sem_capture0, sem_concat. cbn [map node_of_pnode anchor_of_code NT_Beginning].
  change (anchor_of_code NT_Beginning) with (Some ABeginning). cbv iota.
  rewrite seqf_cons, sem_anchor. cbn [anchor_ok pos].
  destruct (p =? 0) eqn:E0.
  - assert (p = 0) by lia. subst p. change (0 <=? 0) with true. cbv iota. rewrite bindr_single.
    rewrite map_app. cbn [map node_of_pnode]. change (anchor_of_code NT_End) with (Some AEnd). cbv iota.
    rewrite seqf_lit by (cbn [pos]; lia). cbn [pos andb].
    destruct (lit_here s 0); cbn [andb]; [|reflexivity].
    rewrite seqf_cons, sem_anchor. cbn [anchor_ok pos with_pos]. rewrite Z.add_0_l.
    destruct (tlen e <=? zlen s); cbn [bindr bind bindl app]; reflexivity.
  - replace (p <=? 0) with false by lia. reflexivity.
Qed.

(* s is the whole text <-> the literal stands at 0 and the text ends right after it *)
Lemma lit_whole_text s : (lit_here s 0 && (tlen e <=? zlen s) = true) <-> txt e = s.
Proof.
  unfold lit_here, tlen, zlen.
  pose proof (str_match_prefix s 0 (txt e) ltac:(lia) eq_refl) as P.
  split.
  - intros H. apply andb_prop in H. destruct H as [H H3]. apply andb_prop in H. destruct H as [H1 H2].
    assert (L0 : (length s <= length (txt e))%nat) by lia.
    destruct (proj1 P (conj H2 L0)) as [t' E].
    assert (length t' = 0)%nat.
    { assert (L : length (txt e) = (length s + length t')%nat) by (rewrite E, app_length; reflexivity). lia. }
    destruct t'; [|discriminate]. rewrite app_nil_r in E. exact E.
  - intros E. assert (E' : txt e = s ++ []) by (rewrite app_nil_r; exact E).
    destruct (proj2 P (ex_intro _ [] E')) as [H2 L].
    rewrite H2, E. rewrite Z.sub_0_r. lia.
Qed.

(* the search from the start of the text finds a match iff the text is s *)
Theorem anchored_find f o s :
  let root := node_of_ptree (PRoot o (anchored_body o' s)) in
  (txt e = s ->
     find e (S (S (S f))) root false 0 (-1) =
     Ok (Some {| pos := zlen s; caps := cap_push 0 (span 0 (zlen s)) [] |})) /\
  (txt e <> s -> find e (S (S (S f))) root false 0 (-1) = Ok None).
Proof.
  intros root.
  assert (Hnone : forall n p, 1 <= p <= tlen e -> scan_from e (S (S (S f))) n root false p = Ok None).
  { induction n as [|n IH]; intros p Hp; [reflexivity|]. cbn [scan_from].
    unfold root. rewrite anchored_attempt by lia. replace (p =? 0) with false by lia. cbn [andb bind].
    destruct (tlen e <=? p) eqn:E; [reflexivity|]. apply IH. lia. }
  assert (Hlen : 0 <= tlen e) by (unfold tlen, zlen; lia).
  unfold find. cbn [andb]. change (-1 =? 0) with false. cbn [andb]. cbv iota.
  cbn [scan_from]. unfold root. rewrite anchored_attempt by lia. change (0 =? 0) with true. cbn [andb].
  split.
  - intros E. rewrite (proj2 (lit_whole_text s) E). reflexivity.
  - intros NE. destruct (lit_here s 0 && (tlen e <=? zlen s)) eqn:B.
    + exfalso. apply NE. apply lit_whole_text. exact B.
    + cbn [bind]. destruct (tlen e <=? 0) eqn:E0; [reflexivity|]. apply Hnone. lia.
Qed.

End Sem.

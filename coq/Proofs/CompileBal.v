(* compile_correct2 (C01, link 3, EVERY constructor of Tree.node): the code the writer emits for a tree,
   run by the interpreter, delivers exactly the reference semantics' priority-ordered result list --
   balancing captures (?<g-u>...) / (?<-u>...) included.

   This is Proofs/CompileGen.v at the capture relation [caps_rel2] (Proofs/CompileBalDen.v):
   an interpreter capture array may contain balanceMatch's marker pairs and DENOTES the reference
   semantics' capture stack; without markers caps_rel2 is caps_rel (bd_caps_rel_of_plain).
   The per-node lemmas of CompileStage1/Loop/CharLoop/Multi/Stage4/Cond/Ref hold for any relation with a
   [caps_view] (only three places READ the capture arrays: plain capture, Ref, Testref; caps_rel2_view);
   the balancing capture node is Proofs/CompileBalCapture.v (c2_capture_bal) with the opcode lemmas of
   Proofs/CompileBalOps.v.

   PROVED (all closed under the global context), writer configuration cfg0:
     compile_correct2_partial      as compile_correct_partial, for every [supported2] tree
     compile_correct2_top_partial  as compile_correct_top_partial; the final capture arrays are related to the
                                   reference captures by caps_rel2
     compile_correct2_exec_partial as compile_correct_exec_partial (real finite stacks, any limit)
     c2_demo                       a^n b^n with a balancing group, cross-checked against VM.exec_at

   THE SET [supported2] = CompileDefs.supported WITHOUT the restriction u = -1 on NCapture.
   SIDE CONDITION beyond groups_ok (groups_ok2): for NCapture _ g u r with u <> -1:  0 <= u < capsize  and
   (g = -1  or  0 <= g < capsize).  Nothing else: the uncapture/crawl discipline is not a hypothesis, it is
   part of the invariant (leadsg2: "unwind C' M' = Some M0" -- the crawl entries g :: u pushed by
   transferCapture are undone by Capturemark|Back, in that order, and restore the arrays exactly).
   [_partial] because of: NAlternate [] and NCharLoop with m > n (parser never builds them), fuel/length <= MaxInt32. *)
From Verif Require Import Base.Prelude Model.Tree Model.Spec Model.VM Model.Writer Gen.RunnerGen
  Proofs.SpecProofs Proofs.SpecBoundsProofs Proofs.MaskProofs
  Proofs.VMU Proofs.VMUOps Proofs.VMUOps2 Proofs.VMUOps6 Proofs.VMUOps3 Proofs.CompileBase
  Proofs.CompileDefs Proofs.CompileGen Proofs.CompileProofs Proofs.CompileExec
  Proofs.CompileBalDen Proofs.CompileBalBase Proofs.CompileBalDefs Proofs.CompileBalCapture.
From Coq Require Import Relations ZifyBool.

Section CC.
Variable e : env.
Variable p : program.
Hypothesis tc_nonneg : 0 <= trackcount p.
Hypothesis Htlen : tlen e <= INF.

Notation leadsg2 := (CompileBalBase.leadsg2 e p).
Notation has_code := (CompileBase.has_code p).
Notation track_ok := (CompileBase.track_ok p).
Notation caps_rel2 := (CompileBalDen.caps_rel2 p).
Notation tbl_ok := (CompileDefs.tbl_ok p).

Theorem compile_correct2_partial : forall fuel t s res,
  Z.of_nat fuel <= INF ->
  sem e fuel t s = Ok res -> supported2 t = true -> st_ok e s -> groups_ok2 (capsize p) t ->
  forall a tbl T S C M,
    has_code a (fst (emit cfg0 t a tbl)) -> (exists w, code_at p (a + csize cfg0 t) = Some w) ->
    track_ok T -> caps_rel2 (caps s) M -> tbl_ok (snd (emit cfg0 t a tbl)) ->
    leadsg2 (a + csize cfg0 t) T S S C M (mkr a 0 (pos s) T S C M) res.
Proof.
  intros fuel t s res Hf Hsem Hs Hst Hg. rewrite leadsg2_leadsR.
  exact (cc_all_ok e p tc_nonneg Htlen caps_rel2 (caps_rel2_view e p) _ (fun _ H => H) (c2_capture_bal e p tc_nonneg)
           fuel Hf t Hs Hg s res Hsem Hst).
Qed.

(* ---------- the whole program: Lazybranch Lend ; root ; Lend: Stop ---------- *)
Theorem compile_correct2_top_partial : forall fuel o body t0 r,
  let root := NCapture o 0 (-1) body in
  let M0 := repeat [] (Z.to_nat (capsize p)) in
  let stop := 2 + csize cfg0 root in
  codes p = fst (compile cfg0 root) -> strings p = snd (compile cfg0 root) ->
  supported2 root = true -> groups_ok2 (capsize p) root -> 0 <= t0 <= tlen e ->
  Z.of_nat fuel <= INF ->
  attempt e fuel root t0 = Ok r ->
  code_at p stop = Some Stop /\
  exists t T S C M,
    VMU.usteps e p (VMU.mk 0 0 t0 [] [] [] M0) (VMU.mk stop 0 t T S C M) /\
    VMU.ustep e p (VMU.mk stop 0 t T S C M) = Ok (Done (VMU.mk stop 0 t T S C M)) /\
    match r with
    | Some q => t = pos q /\ caps_rel2 (caps q) M /\ matched0 (VMU.mk stop 0 t T S C M) = true
    | None => M = M0 /\ T = [] /\ S = [] /\ C = [] /\ matched0 (VMU.mk stop 0 t T S C M) = false
    end.
Proof.
  intros fuel o body t0 r root M0 stop.
  exact (cc_top e p tc_nonneg Htlen caps_rel2 (caps_rel2_view e p) _ (fun _ H => H) (c2_capture_bal e p tc_nonneg) fuel o body t0 r).
Qed.

End CC.

Print Assumptions compile_correct2_partial.

Print Assumptions compile_correct2_top_partial.

(* ---------- the interpreter with its real finite stacks (as CompileExec.compile_correct_exec_partial) ---------- *)
Theorem compile_correct2_exec_partial :
  forall (e : env) (p : program), 0 <= trackcount p -> tlen e <= INF ->
  forall L fuel vfuel o body t0 r s',
  let root := NCapture o 0 (-1) body in
  let M0 := repeat [] (Z.to_nat (capsize p)) in
  let stop := 2 + csize cfg0 root in
  codes p = fst (compile cfg0 root) -> strings p = snd (compile cfg0 root) ->
  supported2 root = true -> groups_ok2 (capsize p) root -> 0 <= t0 <= tlen e ->
  Z.of_nat fuel <= INF ->
  attempt e fuel root t0 = Ok r ->
  exec_at e p L vfuel t0 = Ok s' ->
  pc s' = stop /\ mode s' = 0 /\
  match r with
  | Some q => tp s' = pos q /\ caps_rel2 p (caps q) (mcaps s') /\ matched0 s' = true
  | None => mcaps s' = M0 /\ matched0 s' = false
  end.
Proof.
  intros e p Htc Htl L fuel vfuel o body t0 r s' root M0 stop Hcodes Hstr Hs Hg Ht0 Hf Hatt.
  apply cc_exec_of_top; [exact Htc|].
  apply (compile_correct2_top_partial e p Htc Htl fuel o body t0 r Hcodes Hstr Hs Hg Ht0 Hf Hatt).
Qed.

Print Assumptions compile_correct2_exec_partial.

Lemma c2_supported_of_supported : forall t, supported t = true -> supported2 t = true.
Proof. intros t Hs. apply c2_supported_split. exact Hs. Qed.

(* ---------- a concrete instance: a^n b^n with a balancing group ----------
   (?<1>a)+ (?<2-1>b)+ (?(1)(?!)) (?<-2>) \z   on "aabb":
   every b pops one a (group 2 records the text in between), the conditional checks that no a is left,
   (?<-2>) pops one capture of 2 again.  Reference result: group 1 = [] (both popped), group 2 = [(2,0)].
   The interpreter's arrays carry the markers: slot 1 = a a marker(->pair 0) marker(none), slot 2 = two
   captures and a marker.  On "aab" the conditional fails the only candidate: no match, arrays restored. *)
Definition c2_demo_body : node :=
  NConcat 0 [ NLoop false 0 1 INF (NCapture 0 1 (-1) (NChar COne 0 97));
              NLoop false 0 1 INF (NCapture 0 2 1 (NChar COne 0 98));
              NBackRefCond 0 1 NNothing (Some NEmpty);
              NCapture 0 (-1) 2 NEmpty;
              NAnchor AEnd ].
Definition c2_demo_prog : program :=
  let root := NCapture 0 0 (-1) c2_demo_body in
  {| codes := fst (compile cfg0 root); strings := snd (compile cfg0 root);
     trackcount := track_count (fst (compile cfg0 root)); capsize := 3 |}.

Example c2_demo :
  let e := cc_demo_env2 [97;97;98;98] in
  let e' := cc_demo_env2 [97;97;98] in
  let root := NCapture 0 0 (-1) c2_demo_body in
  let p := c2_demo_prog in
  let q := {| pos := 4; caps := [(1, []); (2, [(2, 0)]); (0, [(0, 4)])] |} in
  supported root = false /\ supported2 root = true /\
  attempt e 40 root 0 = Ok (Some q) /\
  (exists t T S C M,
     VMU.usteps e p (VMU.mk 0 0 0 [] [] [] [[]; []; []]) (VMU.mk 39 0 t T S C M) /\
     VMU.ustep e p (VMU.mk 39 0 t T S C M) = Ok (Done (VMU.mk 39 0 t T S C M)) /\
     t = 4 /\ caps_rel2 p (caps q) M) /\
  (exists s', exec_at e p (-1) 5 0 = Ok s' /\ pc s' = 39 /\ tp s' = 4 /\
              mcaps s' = [[0; 4]; [0; 1; 1; 1; -3; -4; -1; -2]; [2; 0; 1; 2; -3; -4]]) /\
  attempt e' 40 root 0 = Ok None /\
  (exists s', exec_at e' p (-1) 5 0 = Ok s' /\ pc s' = 39 /\ mcaps s' = [[]; []; []]).
Proof.
  intros e e' root p q. split; [reflexivity|]. split; [reflexivity|]. split; [vm_compute; reflexivity|]. split.
  - assert (Htc : 0 <= trackcount p) by (vm_compute; congruence).
    assert (Hg : groups_ok2 (capsize p) root).
    { cbn. repeat split; try exact I; try (left; reflexivity); try (right; split); cbv; congruence. }
    assert (Hp : 0 <= 0 <= tlen e) by (cbv; split; congruence).
    destruct (compile_correct2_top_partial e p Htc ltac:(cbv; congruence) 40 0 c2_demo_body 0 (Some q)
                eq_refl eq_refl eq_refl Hg Hp ltac:(cbv; congruence) ltac:(vm_compute; reflexivity))
      as [_ (t & T & S & C & M & H1 & H2 & H3 & H4 & H5)].
    exists t, T, S, C, M. exact (conj H1 (conj H2 (conj H3 H4))).
  - split; [eexists; split; [vm_compute; reflexivity|]; repeat split|].
    split; [vm_compute; reflexivity|].
    eexists. split; [vm_compute; reflexivity|]. repeat split.
Qed.

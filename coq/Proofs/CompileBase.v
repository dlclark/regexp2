(* Framework for compile_correct: code presence, the relation between the reference semantics'
   capture tables and the interpreter's capture arrays, and the invariant [leadsg]
   ("the frames a node leaves on the backtracking stack denote the tail of its result list").
   All states are root-slot families (Proofs/VMUOps2.v: [mkr], [bkr], [rsteps]). *)
From Verif Require Import Base.Prelude Model.Tree Model.Spec Model.VM Model.Writer Gen.RunnerGen
  Proofs.SpecProofs Proofs.VMU Proofs.VMUOps Proofs.VMUOps2 Proofs.VMUOps6.
From Coq Require Import Relations ZifyBool.

Section CB.
Variable e : env.
Variable p : program.
Hypothesis tc_nonneg : 0 <= trackcount p.

Notation rsteps := (VMUOps2.rsteps e p).

(* the words [ws] sit at absolute offset [a] of the program *)
Definition has_code (a : Z) (ws : list Z) : Prop :=
  forall i w, nth_error ws i = Some w -> code_at p (a + Z.of_nat i) = Some w.

Lemma has_code_app a w1 w2 : has_code a (w1 ++ w2) -> has_code a w1 /\ has_code (a + zlen w1) w2.
Proof.
  intros H; split; intros i w Hi.
  - apply H. rewrite nth_error_app1; [exact Hi|]. apply nth_error_Some. congruence.
  - unfold zlen. replace (a + Z.of_nat (length w1) + Z.of_nat i) with (a + Z.of_nat (length w1 + i)) by lia.
    apply H. rewrite nth_error_app2 by lia. replace (length w1 + i - length w1)%nat with i by lia. exact Hi.
Qed.

Lemma has_code_cons a x ws : has_code a (x :: ws) -> code_at p a = Some x /\ has_code (a + 1) ws.
Proof.
  intros H; split.
  - replace a with (a + Z.of_nat 0) by lia. apply H. reflexivity.
  - intros i w Hi. replace (a + 1 + Z.of_nat i) with (a + Z.of_nat (S i)) by lia. apply H. exact Hi.
Qed.

Lemma has_code_nil a : has_code a []. Proof. intros i w Hi. destruct i; discriminate. Qed.

Lemma has_code_self : has_code 0 (codes p).
Proof.
  intros i w Hi. unfold code_at, znth. replace (0 + Z.of_nat i <? 0) with false by lia.
  replace (Z.to_nat (0 + Z.of_nat i)) with i by lia. exact Hi.
Qed.

Fixpoint flat (l : list (Z * Z)) : list Z :=
  match l with [] => [] | (i, n) :: l' => i :: n :: flat l' end.

Definition caps_rel (c : caps_t) (M : list (list Z)) : Prop :=
  zlen M = capsize p /\
  forall g, 0 <= g < capsize p -> nth (Z.to_nat g) M [] = flat (rev (cap_get g c)).

(* the base track always has a frame on top whose code position exists *)
Definition track_ok (T : list Z) : Prop :=
  exists np T', T = np :: T' /\ exists w, code_at p (Z.abs np) = Some w.

Lemma track_ok_cons a w T : code_at p (Z.abs a) = Some w -> track_ok (a :: T).
Proof. intros H. exists a, T. split; [reflexivity|]. exists w. exact H. Qed.
Lemma track_ok_app T' T : track_ok T' -> track_ok (T' ++ T).
Proof. intros (np & T1 & -> & Hw). exists np, (T1 ++ T). split; [reflexivity|exact Hw]. Qed.

(* [leadsR] (below) at the capture relation [caps_rel]: leadsg_leadsR *)
Fixpoint leadsg (b : Z) (T Ss Sf C : list Z) (M0 : list (list Z)) (start : Z -> vm) (res : list st) : Prop :=
  match res with
  | [] => exists np T' t, T = np :: T' /\ rsteps start (bkr np t T' Sf C M0)
  | q :: rest =>
      exists T' C' M', caps_rel (caps q) M' /\ unwind C' M' = Some M0 /\ track_ok (T' ++ T) /\
        rsteps start (mkr b 0 (pos q) (T' ++ T) Ss (C' ++ C) M') /\
        forall np T'' t, T' ++ T = np :: T'' ->
                         leadsg b T Ss Sf C M0 (bkr np t T'' Ss (C' ++ C) M') rest
  end.

Lemma leadsg_nil_any b b' T Ss Ss' Sf C M0 s : leadsg b T Ss Sf C M0 s [] -> leadsg b' T Ss' Sf C M0 s [].
Proof. intros H. exact H. Qed.

End CB.

Section LR.
Variable e : env.
Variable p : program.
Variable R : caps_t -> list (list Z) -> Prop.

Notation rsteps := (VMUOps2.rsteps e p).
Notation track_ok := (track_ok p).

(* [leadsR b T Ss Sf C M0 start res], for a relation [R] between capture tables and capture arrays:
   running from [start], the results [res] are delivered one after the other at code position [b]
   (forward mode, grouping stack [Ss], some frames T' on top of the base track T, captures [R]-related
   to the result and undoable back to M0); backtracking into those frames delivers the next result;
   when the list is exhausted the machine backtracks into the base track T with the grouping stack
   [Sf], the crawl stack [C] and the capture arrays [M0].
   The simulation proof needs of [R] only what the capture-reading nodes say (CompileDefs.caps_view). *)
Fixpoint leadsR (b : Z) (T Ss Sf C : list Z) (M0 : list (list Z)) (start : Z -> vm) (res : list st) : Prop :=
  match res with
  | [] => exists np T' t, T = np :: T' /\ rsteps start (bkr np t T' Sf C M0)
  | q :: rest =>
      exists T' C' M', R (caps q) M' /\ unwind C' M' = Some M0 /\ track_ok (T' ++ T) /\
        rsteps start (mkr b 0 (pos q) (T' ++ T) Ss (C' ++ C) M') /\
        forall np T'' t, T' ++ T = np :: T'' ->
                         leadsR b T Ss Sf C M0 (bkr np t T'' Ss (C' ++ C) M') rest
  end.

Lemma leadsR_pre b T Ss Sf C M0 s s' res :
  rsteps s s' -> leadsR b T Ss Sf C M0 s' res -> leadsR b T Ss Sf C M0 s res.
Proof.
  destruct res as [|q rest]; cbn [leadsR]; intros H1 H2.
  - destruct H2 as [np [T' [t [Ht Hs]]]]. exists np, T', t. split; [exact Ht|]. eapply rsteps_trans; eassumption.
  - destruct H2 as (T' & C' & M' & Hc & Hu & Hk & Hs & Hr). exists T', C', M'.
    repeat (split; [assumption|]). split; [|exact Hr]. eapply rsteps_trans; eassumption.
Qed.

(* results r1 over a deeper base (T1 ++ T) with its own failure data, then r2 from every failure state *)
Lemma leadsR_app b T1 T Ss Sf1 Sf Cx C M1 M0 s r1 r2 :
  leadsR b (T1 ++ T) Ss Sf1 (Cx ++ C) M1 s r1 ->
  unwind Cx M1 = Some M0 ->
  (forall np T' t, T1 ++ T = np :: T' -> leadsR b T Ss Sf C M0 (bkr np t T' Sf1 (Cx ++ C) M1) r2) ->
  leadsR b T Ss Sf C M0 s (r1 ++ r2).
Proof.
  intros H1 HU H2. revert s H1. induction r1 as [|q r1 IH]; cbn [leadsR app]; intros s H1.
  - destruct H1 as [np [T' [t [Ht Hs]]]]. eapply leadsR_pre; [exact Hs|]. apply H2. exact Ht.
  - destruct H1 as (T' & C' & M' & Hc & Hu & Hk & Hs & Hr).
    exists (T' ++ T1), (C' ++ Cx), M'. split; [exact Hc|].
    split; [eapply unwind_app; eassumption|].
    rewrite <- !app_assoc. split; [exact Hk|]. split; [exact Hs|].
    intros np T'' t Ht. apply IH. apply Hr. exact Ht.
Qed.

(* every result of r1 (delivered at m with grouping stack Ss1) is continued by a fragment that
   delivers f q at b with grouping stack Ss2 and fails back with Ss1 *)
Lemma leadsR_bindl m b T Ss1 Ss2 Sf C M0 (f : st -> res (list st)) : forall r1 s res,
  leadsR m T Ss1 Sf C M0 s r1 ->
  bindl r1 f = Ok res ->
  (forall q rq T' C' M', In q r1 -> f q = Ok rq -> R (caps q) M' -> unwind C' M' = Some M0 ->
     track_ok (T' ++ T) ->
     leadsR b (T' ++ T) Ss2 Ss1 (C' ++ C) M' (mkr m 0 (pos q) (T' ++ T) Ss1 (C' ++ C) M') rq) ->
  leadsR b T Ss2 Sf C M0 s res.
Proof.
  induction r1 as [|q r1 IH]; intros s res H1 Hb Hf.
  - cbn [bindl] in Hb. injection Hb as <-. exact H1.
  - cbn [bindl] in Hb. apply sp_bind_ok in Hb. destruct Hb as [x [Hx Hb]].
    apply sp_bind_ok in Hb. destruct Hb as [y [Hy Hb]]. injection Hb as <-.
    cbn [leadsR] in H1. destruct H1 as (T' & C' & M' & Hc & Hu & Hk & Hs & Hr).
    eapply leadsR_pre; [exact Hs|].
    eapply leadsR_app with (T1 := T') (Cx := C') (M1 := M') (Sf1 := Ss1).
    + apply Hf; try assumption. left. reflexivity.
    + exact Hu.
    + intros np T'' t Ht. apply IH; [apply Hr; exact Ht|exact Hy|].
      intros q' rq T2 C2 M2 Hin. apply Hf. right. exact Hin.
Qed.

(* the exit of the results can be moved along deterministic forward steps *)
Lemma leadsR_exit_map m b T Ss Sf C M0 s res :
  (forall t T' C' M', rsteps (mkr m 0 t T' Ss C' M') (mkr b 0 t T' Ss C' M')) ->
  leadsR m T Ss Sf C M0 s res -> leadsR b T Ss Sf C M0 s res.
Proof.
  intros Hm. revert s. induction res as [|q rest IH]; cbn [leadsR]; intros s H; [exact H|].
  destruct H as (T' & C' & M' & Hc & Hu & Hk & Hs & Hr). exists T', C', M'.
  repeat (split; [assumption|]). split.
  - eapply rsteps_trans; [exact Hs|apply Hm].
  - intros np T'' t Ht. apply IH. apply Hr. exact Ht.
Qed.

Lemma leadsR_fail b T Ss Sf C M0 s np T' t :
  T = np :: T' -> rsteps s (bkr np t T' Sf C M0) -> leadsR b T Ss Sf C M0 s [].
Proof. intros HT H. exists np, T', t. split; assumption. Qed.

(* one result that leaves the frame F; re-entering F fails back into the base *)
Lemma leadsR_one b T Ss Sf C M0 s q F :
  track_ok (F ++ T) -> R (caps q) M0 ->
  (forall np T'' t, F ++ T = np :: T'' ->
     exists np' T3 t', T = np' :: T3 /\ rsteps (bkr np t T'' Ss C M0) (bkr np' t' T3 Sf C M0)) ->
  rsteps s (mkr b 0 (pos q) (F ++ T) Ss C M0) ->
  leadsR b T Ss Sf C M0 s [q].
Proof.
  intros Hk Hc Hb Hs. exists F, [], M0. cbn [app unwind].
  repeat (split; [first [assumption|reflexivity]|]).
  intros np T'' t HT. destruct (Hb np T'' t HT) as (np' & T3 & t' & HT3 & Hs3).
  exists np', T3, t'. split; assumption.
Qed.

Lemma leadsR_leaf b T S C M0 s q :
  track_ok T -> R (caps q) M0 -> rsteps s (mkr b 0 (pos q) T S C M0) -> leadsR b T S S C M0 s [q].
Proof.
  intros Hk Hc Hs. apply (leadsR_one b T S S C M0 s q []); try assumption.
  intros np T'' t Ht. exists np, T'', t. split; [exact Ht|apply rsteps_refl].
Qed.

End LR.

Lemma leadsg_leadsR e p : leadsg e p = leadsR e p (caps_rel p).
Proof. reflexivity. Qed.

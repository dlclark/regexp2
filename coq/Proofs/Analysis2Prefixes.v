(* C04, part 9: soundness of findPrefixes (Analysis2.fp_core / find_prefixes), both flavours:
   every match of a left-to-right pattern starts with one of the published prefixes. *)
From Coq Require Import ZifyBool.
From Verif Require Import Base.Prelude Model.CharClass Base.Utf8 Model.Tree Model.Spec Model.Analysis Model.Analysis2
     Proofs.SpecProofs Proofs.CharClassRanges Proofs.CharClassProofs
     Proofs.AnalysisReach Proofs.AnalysisProofs Proofs.AnalysisPrefix Proofs.Analysis2Cls Proofs.Analysis2Lal.

From Verif Require Import Proofs.ListFacts.
(* GetSetChars lists the characters in ascending order                                         *)

Fixpoint asc_from (lo : Z) (l : list Z) : Prop :=
  match l with [] => True | x :: t => lo <= x /\ asc_from (x + 1) t end.

Lemma asc_from_weaken lo lo' l : lo' <= lo -> asc_from lo l -> asc_from lo' l.
Proof. destruct l; cbn [asc_from]; [auto|]. intros H [H1 H2]. split; [lia|exact H2]. Qed.

Lemma asc_from_app lo mid l1 l2 :
  asc_from lo l1 -> (forall x, In x l1 -> x < mid) -> lo <= mid -> asc_from mid l2 -> asc_from lo (l1 ++ l2).
Proof.
  revert lo. induction l1 as [|a l1 IH]; intros lo H1 Hb Hlm H2; cbn [app].
  - apply (asc_from_weaken mid lo); assumption.
  - cbn [asc_from] in *. destruct H1 as [Ha H1]. split; [exact Ha|].
    apply IH; [exact H1|intros x Hx; apply Hb; right; exact Hx| |exact H2].
    specialize (Hb a (or_introl eq_refl)). lia.
Qed.

Lemma gsc_range_asc (keep : Z -> bool) : forall n budget ch b' l,
  gsc_range keep budget n ch = Some (b', l) -> asc_from ch l /\ forall x, In x l -> x < ch + Z.of_nat n.
Proof.
  induction n as [|n IH]; intros budget ch b' l H; cbn [gsc_range] in H.
  - injection H as <- <-. split; [exact I|intros x []].
  - destruct budget as [|b]; [discriminate H|].
    destruct (gsc_range keep b n (ch + 1)) as [[b1 l1]|] eqn:E; [|discriminate H].
    injection H as <- <-. destruct (IH _ _ _ _ E) as [Ha Hb].
    destruct (keep ch).
    + split; [cbn [asc_from]; split; [lia|exact Ha]|]. intros x [<-|Hx]; [lia|]. specialize (Hb x Hx). lia.
    + split; [apply (asc_from_weaken (ch + 1)); [lia|exact Ha]|]. intros x Hx. specialize (Hb x Hx). lia.
Qed.

Lemma gsc_ranges_asc (keep : Z -> bool) : forall rs budget l p,
  sorted_from p rs -> gsc_ranges keep budget rs = Some l -> asc_from (p + 2) l.
Proof.
  induction rs as [|[a b] rs IH]; intros budget l p Hs H; cbn [gsc_ranges] in H.
  - injection H as <-. exact I.
  - cbn [sorted_from] in Hs. destruct Hs as (H1 & H2 & H3).
    set (n := if b <? a then 0%nat else Z.to_nat (Z.min (b - a + 1) (Z.of_nat budget + 1))) in H.
    destruct (gsc_range keep budget n a) as [[b1 l1]|] eqn:E1; [|discriminate H].
    destruct (gsc_ranges keep b1 rs) as [l2|] eqn:E2; [|discriminate H]. injection H as <-.
    destruct (gsc_range_asc keep n budget a b1 l1 E1) as [Ha Hb].
    assert (Hn : Z.of_nat n <= b - a + 1) by (subst n; destruct (b <? a) eqn:Eb; lia).
    apply (asc_from_app (p + 2) (b + 2)).
    + apply (asc_from_weaken a); [lia|exact Ha].
    + intros x Hx. specialize (Hb x Hx). lia.
    + lia.
    + exact (IH _ _ b H3 E2).
Qed.

Lemma get_set_chars_two cat_in c maxc a b :
  canonical c -> get_set_chars cat_in c maxc = [a; b] -> a < b.
Proof.
  intros Hc. unfold get_set_chars. destruct (cats c); [|discriminate].
  destruct (maxc <? zlen (ranges c)); [discriminate|].
  destruct (neg c && negb (no_sub c)); [discriminate|].
  destruct (gsc_ranges _ (Z.to_nat maxc) (ranges c)) as [l|] eqn:E; [|discriminate].
  intros ->. assert (Hcr : canonical_ranges (ranges c)) by (destruct c; cbn in Hc |- *; tauto).
  destruct (canonical_sorted_from _ Hcr) as [p Hp].
  pose proof (gsc_ranges_asc _ _ _ _ p Hp E) as Ha. cbn [asc_from] in Ha. lia.
Qed.

(* the second character of containsAsciiIgnoreCaseCharacter is the lower-case letter *)
Lemma contains_ascii_ic_second cat_in c a b :
  gcls cat_in c -> contains_ascii_ic cat_in c = Some (a, b) ->
  97 <= b <= 122 /\ a = b - 32 /\
  forall x, char_in cat_in c x = true -> x = b \/ x = b - 32.
Proof.
  intros Hg. unfold contains_ascii_ic. destruct (neg c) eqn:En; [discriminate|].
  destruct (get_set_chars cat_in c 3) as [|a0 [|b0 [|c0 l0]]] eqn:Eg; try discriminate.
  destruct ((a0 <? 127) && (b0 <? 127) && (Z.lor a0 32 =? Z.lor b0 32) && is_ascii_letter a0 && is_ascii_letter b0) eqn:Et;
    [|discriminate].
  intros H. injection H as <- <-.
  apply andb_true_iff in Et. destruct Et as [Et Lb]. apply andb_true_iff in Et. destruct Et as [Et La].
  apply andb_true_iff in Et. destruct Et as [_ Eq].
  pose proof (get_set_chars_two cat_in c 3 a0 b0 (proj1 Hg) Eg) as Hlt.
  rewrite (lal_lor32 a0 La), (lal_lor32 b0 Lb) in Eq. unfold is_ascii_letter in La, Lb.
  assert (Hab : 97 <= b0 <= 122 /\ a0 = b0 - 32).
  { destruct (a0 <=? 90) eqn:E1; destruct (b0 <=? 90) eqn:E2; lia. }
  destruct Hab as [H1 H2]. split; [exact H1|]. split; [exact H2|].
  intros x Hx. pose proof (proj1 (get_set_chars_complete cat_in c 3 a0 [b0] Hg En Eg x) Hx) as Hin.
  destruct Hin as [<-|[<-|[]]]; [right; exact H2|left; reflexivity].
Qed.

(* the inner loops of fp_core as top-level functions                                           *)

Section Loops.
Variable cat_in : Z -> Z -> bool.
Variable part_cc : Z -> bool.
Variable sets : list cls.
Variable ic : bool.
Notation FP := (fp_core cat_in part_cc sets ic).

Fixpoint fp_cat (l : list node) (res : list (list Z)) : bool * list (list Z) :=
  match l with
  | [] => (true, res)
  | x :: l' => let '(ok, res') := FP true x res in if ok then fp_cat l' res' else (false, res')
  end.

Section Rep.
Variable r : node.
Variable last : bool.
Fixpoint fp_rep (k : nat) (res : list (list Z)) : bool * list (list Z) :=
  match k with
  | O => (last, res)
  | S k' => let '(ok, res') := FP true r res in if ok then fp_rep k' res' else (false, res')
  end.
End Rep.

Fixpoint fp_alt (l : list node) (all : list (list Z)) : option (list (list Z)) :=
  match l with
  | [] => Some all
  | x :: l' =>
      let br := snd (FP true x [[]]) in
      if MAX_PREFIXES <? zlen all + zlen br then None
      else if existsb (fun p => blen p =? 0) br then None
      else fp_alt l' (all ++ br)
  end.

Fixpoint fp_multi_ic (s : list Z) (res : list (list Z)) : bool * list (list Z) :=
  match s with
  | [] => (true, res)
  | c :: s' => if part_cc c then (false, res) else fp_multi_ic s' (map (fun r => r ++ [c]) res)
  end.

(* the entry test of findPrefixesCore *)
Definition fp_pre (rtl : bool) (res : list (list Z)) : bool :=
  existsb (fun p => MAX_PREFIX_LEN <=? blen p) res || rtl || (MAX_PREFIXES <? zlen res).

Lemma fp_concat_eq chk o l res :
  FP chk (NConcat o l) res = if chk && fp_pre (is_rtl o) res then (false, res) else fp_cat l res.
Proof. reflexivity. Qed.

Lemma fp_alternate_eq chk o l res :
  FP chk (NAlternate o l) res =
  if chk && fp_pre (is_rtl o) res then (false, res)
  else if MAX_PREFIXES <? zlen l then (false, res)
  else match fp_alt l [] with
       | None => (false, res)
       | Some all => match res with
                     | [[]] => (false, all)
                     | _ => (false, flat_map (fun sfx => map (fun r => r ++ sfx) res) all)
                     end
       end.
Proof. reflexivity. Qed.

Lemma fp_loop_eq chk lz o m n r res :
  FP chk (NLoop lz o m n r) res =
  if chk && fp_pre (is_rtl o) res then (false, res)
  else if 0 <? m then
    let limit := if m <? MAX_PREFIX_LEN then m else MAX_PREFIX_LEN in
    fp_rep r (limit =? n) (Z.to_nat limit) res
  else (false, res).
Proof. reflexivity. Qed.

Lemma fp_multi_eq chk o s res :
  FP chk (NMulti o s) res =
  if chk && fp_pre (is_rtl o) res then (false, res)
  else if negb ic then (true, map (fun r => r ++ s) res) else fp_multi_ic s res.
Proof. reflexivity. Qed.

Lemma fp_cat_cons x l res :
  fp_cat (x :: l) res = let p := FP true x res in if fst p then fp_cat l (snd p) else (false, snd p).
Proof. cbn [fp_cat]. destruct (FP true x res). reflexivity. Qed.

Lemma fp_rep_S r last k res :
  fp_rep r last (S k) res = let p := FP true r res in if fst p then fp_rep r last k (snd p) else (false, snd p).
Proof. cbn [fp_rep]. destruct (FP true r res). reflexivity. Qed.

End Loops.

(* soundness against the reference semantics                                                   *)

Section Sound.
Variable e : env.
Variable cat_in : Z -> Z -> bool.
Variable part_cc : Z -> bool.
Variable sets : list cls.
Variable ic : bool.
Hypothesis Hgood : forall id, gcls cat_in (set_cls sets id).
Hypothesis Hagree : forall id x, set_in e id x = char_in cat_in (set_cls sets id) x.
Hypothesis Hshort : tlen e < INF.
Notation FP := (fp_core cat_in part_cc sets ic).

(* how a published prefix rune c matches a text rune x *)
Definition pm (c x : Z) : bool := if ic then ci_match c x else (x =? c).
Definition pw_ok (P : list Z) (p : Z) : Prop :=
  forall i, 0 <= i < zlen P -> p + i < tlen e /\ pm (nth (Z.to_nat i) P 0) (char_at e (p + i)) = true.

Lemma pm_refl c : pm c c = true.
Proof. unfold pm. destruct ic; [apply ci_match_refl|apply Z.eqb_refl]. Qed.

Lemma pw_nil p : pw_ok [] p.
Proof. exact (starts_nil e pm p). Qed.

Lemma pw_app a b p : pw_ok a p -> pw_ok b (p + zlen a) -> pw_ok (a ++ b) p.
Proof. exact (starts_app e pm a b p). Qed.

Lemma pw_single c p : p < tlen e -> pm c (char_at e p) = true -> pw_ok [c] p.
Proof.
  intros Hp Hm i Hi. unfold zlen in Hi. cbn [length] in Hi. assert (i = 0) by lia. subst i.
  replace (p + 0) with p by lia. cbn [nth Z.to_nat]. split; assumption.
Qed.

(* the result still contains a prefix of the text read from p0; when the node was fully processed
   that prefix ends where the node ends *)
Definition step_ok (r : bool * list (list Z)) (p0 : Z) (y : st) : Prop :=
  exists R', In R' (snd r) /\ pw_ok R' p0 /\ (fst r = true -> p0 + zlen R' = pos y).

Lemma step_stop res p0 y R : In R res -> pw_ok R p0 -> step_ok (false, res) p0 y.
Proof. intros Hin Hp. exists R. cbn [fst snd]. split; [exact Hin|]. split; [exact Hp|discriminate]. Qed.

Lemma step_keep (b : bool) res p0 y R : In R res -> pw_ok R p0 -> p0 + zlen R = pos y -> step_ok (b, res) p0 y.
Proof. intros Hin Hp He. exists R. cbn [fst snd]. split; [exact Hin|]. split; [exact Hp|intros _; exact He]. Qed.

(* every candidate gets the same suffix w, which is what the node read *)
Lemma step_append (b : bool) res p0 s y R w :
  In R res -> pw_ok R p0 -> p0 + zlen R = pos s -> pw_ok w (pos s) -> (b = true -> pos y = pos s + zlen w) ->
  step_ok (b, map (fun r => r ++ w) res) p0 y.
Proof.
  intros Hin Hp He Hw Hy. exists (R ++ w). cbn [fst snd].
  split; [apply in_map_iff; exists R; split; [reflexivity|exact Hin]|].
  split; [apply pw_app; [exact Hp|rewrite He; exact Hw]|].
  intros Hb. rewrite zlen_app, (Hy Hb). lia.
Qed.

Lemma fp_expand_in res chars R c : In R res -> In c chars -> In (R ++ [c]) (fp_expand res chars).
Proof.
  intros HR Hc. unfold fp_expand. apply in_flat_map. exists c. split; [exact Hc|].
  apply in_map_iff. exists R. split; [reflexivity|exact HR].
Qed.

(* the set expansion: [k] characters of the text, each one of [chars] *)
Lemma fp_set_reps_ok chars : forall k res R p0,
  ic = false -> In R res -> pw_ok R p0 ->
  (forall i, 0 <= i < Z.of_nat k -> p0 + zlen R + i < tlen e /\ In (char_at e (p0 + zlen R + i)) chars) ->
  exists R', In R' (snd (fp_set_reps k res chars)) /\ pw_ok R' p0 /\
             (fst (fp_set_reps k res chars) = true -> zlen R' = zlen R + Z.of_nat k).
Proof.
  induction k as [|k IH]; intros res R p0 Hic HR Hp Hch; cbn [fp_set_reps].
  - exists R. cbn [fst snd]. split; [exact HR|]. split; [exact Hp|intros _; lia].
  - destruct (MAX_PREFIXES <? zlen res * zlen chars).
    + exists R. cbn [fst snd]. split; [exact HR|]. split; [exact Hp|discriminate].
    + destruct (Hch 0 ltac:(lia)) as [H0 Hin0]. replace (p0 + zlen R + 0) with (p0 + zlen R) in * by lia.
      set (x := char_at e (p0 + zlen R)) in *.
      assert (Hp1 : pw_ok (R ++ [x]) p0).
      { apply pw_app; [exact Hp|]. apply pw_single; [exact H0|]. unfold pm. rewrite Hic. apply Z.eqb_refl. }
      destruct (IH (fp_expand res chars) (R ++ [x]) p0 Hic (fp_expand_in res chars R x HR Hin0) Hp1) as [R' [A [B C]]].
      { intros i Hi. rewrite zlen_app. assert (Hz1 : zlen [x] = 1) by reflexivity. rewrite Hz1.
        specialize (Hch (i + 1) ltac:(lia)). replace (p0 + (zlen R + 1) + i) with (p0 + zlen R + (i + 1)) by lia.
        exact Hch. }
      exists R'. split; [exact A|]. split; [exact B|]. intros Hok. rewrite (C Hok), zlen_app. assert (Hz1 : zlen [x] = 1) by reflexivity. lia.
Qed.

Definition HT (t : node) (s y : st) : Prop :=
  forall chk res p0 R, In R res -> pw_ok R p0 -> p0 + zlen R = pos s -> step_ok (FP chk t res) p0 y.

Definition HS (l : list node) (s y : st) : Prop :=
  forall res p0 R, In R res -> pw_ok R p0 -> p0 + zlen R = pos s ->
    step_ok (fp_cat cat_in part_cc sets ic l res) p0 y.

Definition HI (r : node) (L : Z) (s : st) (count : Z) (y : st) : Prop :=
  forall last k res p0 R, Z.of_nat k <= - count -> In R res -> pw_ok R p0 -> p0 + zlen R = pos s ->
    exists R', In R' (snd (fp_rep cat_in part_cc sets ic r last k res)) /\ pw_ok R' p0 /\
      (fst (fp_rep cat_in part_cc sets ic r last k res) = true -> Z.of_nat k = - count -> L = 0 -> p0 + zlen R' = pos y).

Lemma fp_rep_last r last : forall k res, fst (fp_rep cat_in part_cc sets ic r last k res) = true -> last = true.
Proof.
  induction k as [|k IH]; intros res H; [exact H|].
  rewrite fp_rep_S in H. cbv zeta in H. destruct (fst (FP true r res)); [exact (IH _ H)|discriminate H].
Qed.

Lemma fp_alt_incl : forall l all0 all,
  fp_alt cat_in part_cc sets ic l all0 = Some all ->
  incl all0 all /\ forall x, In x l -> incl (snd (FP true x [[]])) all.
Proof.
  induction l as [|x l IH]; intros all0 all H; cbn [fp_alt] in H.
  - injection H as <-. split; [apply incl_refl|intros x []].
  - destruct (MAX_PREFIXES <? zlen all0 + zlen (snd (FP true x [[]]))); [discriminate H|].
    destruct (existsb (fun p => blen p =? 0) (snd (FP true x [[]]))); [discriminate H|].
    destruct (IH _ _ H) as [I1 I2]. split.
    + intros z Hz. apply I1. apply in_or_app. left. exact Hz.
    + intros x0 [<-|Hx0]; [intros z Hz; apply I1; apply in_or_app; right; exact Hz|apply I2; exact Hx0].
Qed.

Lemma fp_multi_ic_ok : forall str res p0 R q,
  In R res -> pw_ok R p0 -> p0 + zlen R = q -> str_match_at e false str q = true -> q + zlen str <= tlen e ->
  exists R', In R' (snd (fp_multi_ic part_cc str res)) /\ pw_ok R' p0 /\
             (fst (fp_multi_ic part_cc str res) = true -> zlen R' = zlen R + zlen str).
Proof.
  induction str as [|c str IH]; intros res p0 R q HR Hp Hq Hm Hlen; cbn [fp_multi_ic].
  - exists R. cbn [fst snd]. split; [exact HR|]. split; [exact Hp|]. intros _. unfold zlen at 3. cbn [length]. lia.
  - destruct (part_cc c).
    + exists R. cbn [fst snd]. split; [exact HR|]. split; [exact Hp|discriminate].
    + cbn [str_match_at] in Hm. apply andb_true_iff in Hm. destruct Hm as [Hc Hm].
      assert (Hz : zlen (c :: str) = 1 + zlen str) by (unfold zlen; cbn [length]; lia).
      assert (Hz0 : 0 <= zlen str) by (unfold zlen; lia).
      assert (Hp1 : pw_ok (R ++ [c]) p0).
      { apply pw_app; [exact Hp|]. rewrite Hq. apply pw_single; [lia|]. assert (char_at e q = c) as -> by lia. apply pm_refl. }
      destruct (IH (map (fun r => r ++ [c]) res) p0 (R ++ [c]) (q + 1)) as [R' [A [B C]]].
      * apply in_map_iff. exists R. split; [reflexivity|exact HR].
      * exact Hp1.
      * rewrite zlen_app. assert (Hz1 : zlen [c] = 1) by reflexivity. lia.
      * exact Hm.
      * lia.
      * exists R'. split; [exact A|]. split; [exact B|]. intros Hok. rewrite (C Hok), zlen_app.
        assert (Hz1 : zlen [c] = 1) by reflexivity. lia.
Qed.

Lemma prefixes_all :
  (forall t s y, Run e false no_ci_lit t s y -> HT t s y) /\
  (forall l s y, RunSeq e false no_ci_lit l s y -> HS l s y) /\
  (forall r L s count y, RunIter e false no_ci_lit r L s count y -> HI r L s count y).
Proof.
  apply Run_mutind.
  - (* W_char *)
    intros k o c s [Hs _] _ Hc chk res p0 R HR Hp Hq.
    cbn [shape_ok] in Hs. apply eqb_prop in Hs.
    apply andb_true_iff in Hc. destruct Hc as [Hav Hch]. unfold avail, next_char, dir in *. rewrite Hs in *.
    destruct k; cbn [fp_core char_test] in *; rewrite Hs;
      (destruct (chk && _) eqn:Epre; [apply (step_stop res p0 _ R HR Hp)|]).
    + destruct (negb ic || negb (part_cc c)); [|apply (step_stop res p0 _ R HR Hp)].
      apply (step_append true res p0 s _ R [c] HR Hp Hq).
      * apply pw_single; [lia|]. assert (char_at e (pos s) = c) as -> by lia. apply pm_refl.
      * intros _. cbn [pos with_pos]. reflexivity.
    + apply (step_stop res p0 _ R HR Hp).
    + rewrite Hagree in Hch.
      destruct (neg (set_cls sets c)) eqn:En; [apply (step_stop res p0 _ R HR Hp)|].
      destruct (get_set_chars cat_in (set_cls sets c) MAX_PREFIXES) as [|c0 cs] eqn:Eg; [apply (step_stop res p0 _ R HR Hp)|].
      destruct (negb ic) eqn:Eic.
      * apply negb_true_iff in Eic.
        destruct (fp_set_reps_ok (c0 :: cs) 1 res R p0 Eic HR Hp) as [R' [A [B C]]].
        { intros i Hi. assert (i = 0) by lia. subst i. rewrite Hq. replace (pos s + 0) with (pos s) by lia.
          split; [lia|]. exact (proj1 (get_set_chars_complete cat_in _ _ c0 cs (Hgood c) En Eg _) Hch). }
        destruct (fp_set_reps 1 res (c0 :: cs)) as [ok res'] eqn:Er. cbn [fst snd] in *.
        destruct ok; exists R'; cbn [fst snd]; (split; [exact A|]); (split; [exact B|]); [|discriminate].
        intros _. rewrite (C eq_refl). cbn [pos with_pos]. lia.
      * destruct (contains_ascii_ic cat_in (set_cls sets c)) as [[a b]|] eqn:Ec; [|apply (step_stop res p0 _ R HR Hp)].
        destruct (contains_ascii_ic_second cat_in _ a b (Hgood c) Ec) as (Hb1 & _ & Hx).
        apply (step_append true res p0 s _ R [b] HR Hp Hq).
        -- apply pw_single; [lia|]. unfold pm. apply negb_false_iff in Eic. rewrite Eic. unfold ci_match.
           destruct (Hx _ Hch) as [->| ->]; lia.
        -- intros _. cbn [pos with_pos]. reflexivity.
  - (* W_charloop *)
    intros k l o c m n s y [Hs _] Hb Hin chk res p0 R HR Hp Hq.
    cbn [shape_ok] in Hs. apply andb_true_iff in Hs. destruct Hs as [Hs Hmn].
    apply andb_true_iff in Hs. destruct Hs as [Hs Hm0]. apply eqb_prop in Hs.
    apply an_charloop_in in Hin. destruct Hin as [j [maxn [Hy [Hj [Hav0 Hjn]]]]]. subst y. unfold avail, dir in *. rewrite Hs in *.
    set (reps := fp_reps false m).
    assert (Hreps : 0 <= reps <= m /\ reps <= MAX_PREFIX_LEN).
    { subst reps. unfold fp_reps, MAX_PREFIX_LEN. destruct (m <? 8) eqn:E8; lia. }
    assert (Hend : reps = n -> j = reps).
    { intros Hrn. assert (Hn2 : n <> INF) by (unfold MAX_PREFIX_LEN, INF in *; lia). specialize (Hjn Hn2). lia. }
    assert (Htest : forall i, 0 <= i < reps -> pos s + i < tlen e /\ char_test e k c (char_at e (pos s + i)) = true).
    { intros i Hi. destruct (an_run_len_nth e k c o Hs maxn (pos s) i ltac:(lia)) as [H1 H2]. split; assumption. }
    destruct k; cbn [fp_core] in *; rewrite Hs;
      (destruct (chk && _) eqn:Epre; [apply (step_stop res p0 _ R HR Hp)|]); fold reps.
    + destruct (negb ic || negb (part_cc c)); [|apply (step_stop res p0 _ R HR Hp)].
      apply (step_append (reps =? n) res p0 s _ R (repeat c (Z.to_nat reps)) HR Hp Hq).
      * apply (starts_repeat e pm). intros i Hi. destruct (Htest i ltac:(lia)) as [H1 H2]. split; [exact H1|].
        cbn [char_test] in H2. assert (char_at e (pos s + i) = c) as -> by lia. apply pm_refl.
      * intros Hrn. cbn [pos with_pos]. unfold zlen. rewrite repeat_length. rewrite (Hend ltac:(lia)). lia.
    + apply (step_stop res p0 _ R HR Hp).
    + destruct (neg (set_cls sets c)) eqn:En; [apply (step_stop res p0 _ R HR Hp)|].
      destruct (get_set_chars cat_in (set_cls sets c) MAX_PREFIXES) as [|c0 cs] eqn:Eg; [apply (step_stop res p0 _ R HR Hp)|].
      assert (Hmem : forall i, 0 <= i < reps -> char_in cat_in (set_cls sets c) (char_at e (pos s + i)) = true).
      { intros i Hi. destruct (Htest i Hi) as [_ H2]. cbn [char_test] in H2. rewrite Hagree in H2. exact H2. }
      destruct (negb ic) eqn:Eic.
      * apply negb_true_iff in Eic.
        destruct (fp_set_reps_ok (c0 :: cs) (Z.to_nat reps) res R p0 Eic HR Hp) as [R' [A [B C]]].
        { intros i Hi. rewrite Hq. destruct (Htest i ltac:(lia)) as [H1 _]. split; [exact H1|].
          exact (proj1 (get_set_chars_complete cat_in _ _ c0 cs (Hgood c) En Eg _) (Hmem i ltac:(lia))). }
        destruct (fp_set_reps (Z.to_nat reps) res (c0 :: cs)) as [ok res'] eqn:Er. cbn [fst snd] in *.
        destruct ok; exists R'; cbn [fst snd]; (split; [exact A|]); (split; [exact B|]); [|discriminate].
        intros Hrn. rewrite (C eq_refl). cbn [pos with_pos]. rewrite (Hend ltac:(lia)). lia.
      * destruct (contains_ascii_ic cat_in (set_cls sets c)) as [[a b]|] eqn:Ec; [|apply (step_stop res p0 _ R HR Hp)].
        destruct (contains_ascii_ic_second cat_in _ a b (Hgood c) Ec) as (Hb1 & _ & Hx).
        apply (step_append (reps =? n) res p0 s _ R (repeat b (Z.to_nat reps)) HR Hp Hq).
        -- apply (starts_repeat e pm). intros i Hi. destruct (Htest i ltac:(lia)) as [H1 _]. split; [exact H1|].
           unfold pm. apply negb_false_iff in Eic. rewrite Eic. unfold ci_match.
           destruct (Hx _ (Hmem i ltac:(lia))) as [->| ->]; lia.
        -- intros Hrn. cbn [pos with_pos]. unfold zlen. rewrite repeat_length. rewrite (Hend ltac:(lia)). lia.
  - (* W_multi *)
    intros o str s y [Hs Hn] _ Hin chk res p0 R HR Hp Hq. rewrite fp_multi_eq.
    cbn [shape_ok no_ci_lit] in Hs, Hn. apply eqb_prop in Hs. apply negb_true_iff in Hn.
    apply an_multi_in in Hin. destruct Hin as [-> [Hav Hm]]. rewrite Hn, Hs in Hm. unfold avail, dir in *. rewrite Hs in *.
    destruct (chk && _) eqn:Epre; [apply (step_stop res p0 _ R HR Hp)|].
    destruct (negb ic).
    + apply (step_append true res p0 s _ R str HR Hp Hq).
      * intros i Hi. split; [lia|].
        rewrite (an_str_match_nth e str (pos s) (Z.to_nat i) Hm) by (unfold zlen in Hi; lia).
        replace (pos s + Z.of_nat (Z.to_nat i)) with (pos s + i) by lia. apply pm_refl.
      * intros _. cbn [pos with_pos]. lia.
    + destruct (fp_multi_ic_ok str res p0 R (pos s) HR Hp Hq Hm ltac:(lia)) as [R' [A [B C]]].
      exists R'. split; [exact A|]. split; [exact B|]. intros Hok. rewrite (C Hok). cbn [pos with_pos]. lia.
  - (* W_ref *)
    intros o g s y _ chk res p0 R HR Hp _. cbn [fp_core]. destruct (chk && _); apply (step_stop res p0 _ R HR Hp).
  - (* W_anchor *)
    intros a s _ chk res p0 R HR Hp Hq. cbn [fp_core].
    destruct (chk && _); [apply (step_stop res p0 _ R HR Hp)|apply (step_keep true res p0 _ R HR Hp Hq)].
  - (* W_empty *)
    intros s chk res p0 R HR Hp Hq. cbn [fp_core].
    destruct (chk && _); [apply (step_stop res p0 _ R HR Hp)|apply (step_keep true res p0 _ R HR Hp Hq)].
  - (* W_bump *)
    intros s chk res p0 R HR Hp Hq. cbn [fp_core].
    destruct (chk && _); [apply (step_stop res p0 _ R HR Hp)|apply (step_keep true res p0 _ R HR Hp Hq)].
  - (* W_concat *)
    intros o l s y _ IH chk res p0 R HR Hp Hq. rewrite fp_concat_eq.
    destruct (chk && _); [apply (step_stop res p0 _ R HR Hp)|]. exact (IH res p0 R HR Hp Hq).
  - (* W_alt *)
    intros o l x s y _ Hin _ IH _ chk res p0 R HR Hp Hq. rewrite fp_alternate_eq.
    destruct (chk && _); [apply (step_stop res p0 _ R HR Hp)|].
    destruct (MAX_PREFIXES <? zlen l); [apply (step_stop res p0 _ R HR Hp)|].
    destruct (fp_alt cat_in part_cc sets ic l []) as [all|] eqn:Ea; [|apply (step_stop res p0 _ R HR Hp)].
    destruct (fp_alt_incl l [] all Ea) as [_ Hincl].
    destruct (IH true [[]] (pos s) [] (or_introl eq_refl) (pw_nil _)) as [R2 [A2 [B2 _]]];
      [unfold zlen; cbn [length]; lia|].
    pose proof (Hincl x Hin R2 A2) as Hall.
    assert (Hgen : In (R ++ R2) (flat_map (fun sfx => map (fun r => r ++ sfx) res) all)).
    { apply in_flat_map. exists R2. split; [exact Hall|]. apply in_map_iff. exists R. split; [reflexivity|exact HR]. }
    assert (Hpw : pw_ok (R ++ R2) p0) by (apply pw_app; [exact Hp|rewrite Hq; exact B2]).
    destruct res as [|[|a0 r0] [|r1 rs]]; try (apply (step_stop _ p0 _ (R ++ R2) Hgen Hpw)).
    destruct HR as [<-|[]]. cbn [app] in Hpw. apply (step_stop all p0 _ R2 Hall Hpw).
  - (* W_loop0 *)
    intros lazy o n r s y _ _ _ chk res p0 R HR Hp Hq. rewrite fp_loop_eq.
    destruct (chk && _); apply (step_stop res p0 _ R HR Hp).
  - (* W_loop1 *)
    intros lazy o m n r s s1 y _ Hmn _ IH1 _ IH2 _ _ _ chk res p0 R HR Hp Hq. rewrite fp_loop_eq.
    destruct (chk && _); [apply (step_stop res p0 _ R HR Hp)|].
    replace (0 <? m) with true by lia. cbv zeta.
    set (limit := if m <? MAX_PREFIX_LEN then m else MAX_PREFIX_LEN).
    assert (Hlim : 1 <= limit <= m /\ limit <= 8) by (subst limit; unfold MAX_PREFIX_LEN; destruct (m <? 8) eqn:E8; lia).
    destruct (Z.to_nat limit) as [|k'] eqn:Ek; [lia|].
    rewrite fp_rep_S. cbv zeta.
    destruct (IH1 true res p0 R HR Hp Hq) as [R1 [A1 [B1 C1]]].
    destruct (fst (FP true r res)) eqn:E1; [|exists R1; cbn [fst snd]; split; [exact A1|]; split; [exact B1|discriminate]].
    destruct (IH2 (limit =? n) k' (snd (FP true r res)) p0 R1 ltac:(lia) A1 B1 (C1 eq_refl)) as [R' [A [B C]]].
    exists R'. split; [exact A|]. split; [exact B|]. intros Hok.
    pose proof (fp_rep_last r _ _ _ Hok) as Hlast. apply C; [exact Hok|lia|].
    unfold loop_limit. replace (n =? INF) with false by (unfold INF; lia). lia.
  - (* W_capture *)
    intros o g u r s s1 y _ IH Hy chk res p0 R HR Hp Hq. cbn [fp_core].
    destruct (chk && _); [apply (step_stop res p0 _ R HR Hp)|]. unfold step_ok. rewrite Hy.
    exact (IH false res p0 R HR Hp Hq).
  - (* W_group *)
    intros r s y _ _ chk res p0 R HR Hp _. cbn [fp_core]. destruct (chk && _); apply (step_stop res p0 _ R HR Hp).
  - (* W_poslook *)
    intros o r s y Hy chk res p0 R HR Hp Hq. cbn [fp_core].
    destruct (chk && _); [apply (step_stop res p0 _ R HR Hp)|apply (step_keep true res p0 _ R HR Hp)]. lia.
  - (* W_neglook *)
    intros o r s chk res p0 R HR Hp Hq. cbn [fp_core].
    destruct (chk && _); [apply (step_stop res p0 _ R HR Hp)|apply (step_keep true res p0 _ R HR Hp Hq)].
  - (* W_atomic *)
    intros r s y _ IH chk res p0 R HR Hp Hq. cbn [fp_core].
    destruct (chk && _); [apply (step_stop res p0 _ R HR Hp)|]. exact (IH false res p0 R HR Hp Hq).
  - (* W_brc *) intros; intros chk res p0 R HR Hp ?; cbn [fp_core]; destruct (chk && _); apply (step_stop res p0 _ R HR Hp).
  - (* W_ec *) intros; intros chk res p0 R HR Hp ?; cbn [fp_core]; destruct (chk && _); apply (step_stop res p0 _ R HR Hp).
  - (* WS_nil *)
    intros s res p0 R HR Hp Hq. cbn [fp_cat]. apply (step_keep true res p0 _ R HR Hp Hq).
  - (* WS_cons *)
    intros x l s s1 y _ _ _ IH1 _ IH2 _ _ _ res p0 R HR Hp Hq. rewrite fp_cat_cons. cbv zeta.
    destruct (IH1 true res p0 R HR Hp Hq) as [R1 [A1 [B1 C1]]].
    destruct (fst (FP true x res)) eqn:E1; [|exists R1; cbn [fst snd]; split; [exact A1|]; split; [exact B1|discriminate]].
    exact (IH2 (snd (FP true x res)) p0 R1 A1 B1 (C1 eq_refl)).
  - (* WI_stop *)
    intros r L s count HL Hc last k res p0 R Hk HR Hp Hq.
    assert (k = 0%nat) by lia. subst k. cbn [fp_rep fst snd]. exists R. split; [exact HR|]. split; [exact Hp|].
    intros _ _ _. exact Hq.
  - (* WI_more *)
    intros r L s count s1 y Hc _ IH1 _ IH2 _ _ _ last k res p0 R Hk HR Hp Hq.
    destruct k as [|k'].
    + cbn [fp_rep fst snd]. exists R. split; [exact HR|]. split; [exact Hp|]. intros _ H0 HL0. lia.
    + rewrite fp_rep_S. cbv zeta.
      destruct (IH1 true res p0 R HR Hp Hq) as [R1 [A1 [B1 C1]]].
      destruct (fst (FP true r res)) eqn:E1; [|exists R1; cbn [fst snd]; split; [exact A1|]; split; [exact B1|discriminate]].
      destruct (IH2 last k' (snd (FP true r res)) p0 R1 ltac:(lia) A1 B1 (C1 eq_refl)) as [R' [A [B C]]].
      exists R'. split; [exact A|]. split; [exact B|]. intros Hok Hk2 HL0. apply C; [exact Hok|lia|exact HL0].
Qed.

(* findPrefixes returned the list ps: every successful attempt at p reads text that starts with one of them
   (rune by rune: equal, or -- ignoreCase -- the published lower-case ASCII letter's upper-case form) *)
Theorem a2_prefixes_sound fuel root p s' ps :
  shape_ok false root = true -> no_ci_lit root = true -> 0 <= p <= tlen e ->
  find_prefixes cat_in part_cc sets ic root = Some ps ->
  attempt e fuel root p = Ok (Some s') ->
  exists P, In P ps /\ pw_ok P p.
Proof.
  intros Hs Hn Hp Hf Ha.
  pose proof (attempt_run e false no_ci_lit an_no_ci_kids fuel root p s' (conj Hs Hn) Hp Ha) as Hr.
  unfold find_prefixes in Hf.
  destruct ((MAX_PREFIXES <? zlen (snd (FP true root [[]]))) || existsb (fun q => blen q <? MIN_PREFIX_LEN) (snd (FP true root [[]])));
    [discriminate Hf|]. injection Hf as <-.
  destruct (proj1 prefixes_all _ _ _ Hr true [[]] p [] (or_introl eq_refl) (pw_nil _))
    as [R' [A [B _]]]; [unfold zlen; cbn [length pos]; lia|].
  exists R'. split; assumption.
Qed.

End Sound.

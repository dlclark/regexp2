(* IgnoreCase on a class, continued.  This file: the four lcTable operations map intervals to intervals
   (op_interval, op_monotone); oracles that agree with the table walk the table's orbits (orbit_agree,
   case_equivalences_agree); canonicalize only merges a class that ends below the last two code points
   (canonicalize_bounded). *)
From Coq Require Import FMapPositive ZifyBool.
From Verif Require Import Base.Prelude Model.CharClass Model.FoldD
  Proofs.CharClassRanges Proofs.CharClassProofs Proofs.CharClassFold Proofs.CharClassCi.

Lemma lor1 x : 0 <= x -> Z.lor x 1 = if Z.even x then x + 1 else x.
Proof. intros H. destruct x as [|p|p]; [reflexivity| |lia]. destruct p; cbn; try reflexivity; lia. Qed.

Lemma land1 x : 0 <= x -> Z.land x 1 = if Z.even x then 0 else 1.
Proof. intros H. destruct x as [|p|p]; [reflexivity| |lia]. destruct p; cbn; reflexivity. Qed.

Lemma op_interval op data mn mx y : 0 <= mn -> mn <= mx ->
  op_apply op data mn <= y <= op_apply op data mx ->
  (mn <= y <= mx) \/ exists x, mn <= x <= mx /\ y = op_apply op data x.
Proof.
  intros H0 Hm Hy. unfold op_apply in *.
  destruct (op =? 0); [right; exists mn; split; lia|].
  destruct (op =? 1); [right; exists (y - data); split; lia|].
  destruct (op =? 2).
  { rewrite !lor1 in Hy by lia. destruct (y <=? mx) eqn:E.
    - left. destruct (Z.even mn); lia.
    - right. exists mx. split; [lia|]. rewrite lor1 by lia. destruct (Z.even mx), (Z.even mn); lia. }
  destruct (op =? 3).
  { rewrite !land1 in Hy by lia. destruct (y <=? mx) eqn:E.
    - left. destruct (Z.even mn); lia.
    - right. exists mx. split; [lia|]. rewrite land1 by lia. destruct (Z.even mx), (Z.even mn); lia. }
  left. lia.
Qed.

Lemma op_monotone op data mn mx : 0 <= mn -> mn <= mx -> op_apply op data mn <= op_apply op data mx.
Proof.
  intros H0 Hm. unfold op_apply.
  destruct (op =? 0); [lia|]. destruct (op =? 1); [lia|].
  destruct (op =? 2); [rewrite !lor1 by lia; destruct (Z.even mn) eqn:E1, (Z.even mx) eqn:E2; try lia|].
  - destruct (mn =? mx) eqn:E; [assert (mn = mx) by lia; subst; congruence|lia].
  - destruct (op =? 3); [|lia]. rewrite !land1 by lia. destruct (Z.even mn) eqn:E1, (Z.even mx) eqn:E2; try lia.
    destruct (mn =? mx) eqn:E; [assert (mn = mx) by lia; subst; congruence|lia].
Qed.

Lemma good_pt_facts x : good_pt x = true ->
  In x dom_t /\ In (lower_t x) (orb x) /\
  forall e, In e lc_table -> entry_covers e x -> In (entry_op e x) (orb x).
Proof.
  unfold good_pt. intros H. apply andb_prop in H. destruct H as [H H3]. apply andb_prop in H. destruct H as [H1 H2].
  split; [apply zmem_In; exact H1|]. split; [apply zmem_In; exact H2|].
  intros [[[lmin lmax] op] data] He Hc. rewrite forallb_forall in H3. specialize (H3 _ He). cbn in H3, Hc.
  apply orb_prop in H3. destruct H3 as [H3|H3]; [lia|]. apply zmem_In. exact H3.
Qed.

Lemma good_dom_In x : In x good_dom <-> In x dom_t /\ good_pt x = true.
Proof. unfold good_dom. apply filter_In. Qed.

Lemma mem_singles L z : mem (map (fun x : Z => (x, x)) L) z = true <-> In z L.
Proof.
  rewrite mem_true_iff. split.
  - intros [r [Hr Hz]]. apply in_map_iff in Hr. destruct Hr as [x [<- Hx]]. cbn in Hz. assert (z = x) by lia. subst. exact Hx.
  - intros H. exists (z, z). split; [apply in_map_iff; exists z; auto|cbn; lia].
Qed.

Section Ci.
  Variable cat_in : Z -> Z -> bool.
  Variable simple_fold to_lower : Z -> Z.
  (* the oracles agree with the generated table on its domain (checked by leg c16-class-0: the table
     IS what the running toolchain computes) *)
  Hypothesis agree : forall x, In x dom_t -> simple_fold x = fold_t x /\ to_lower x = lower_t x.

  Lemma orb_unfold x : orb x = x :: orbit_walk fold_t orbit_fuel x x.
  Proof. reflexivity. Qed.

  Lemma fold_closed x : In x dom_t -> In (fold_t x) dom_t.
  Proof.
    intros Hx. destruct (rel_facts x Hx) as (F1 & _).
    destruct (fold_t x =? x) eqn:E; [assert (fold_t x = x) by lia; congruence|].
    apply (F1 (fold_t x)). rewrite orb_unfold. right.
    change orbit_fuel with (S 7). cbn [orbit_walk]. rewrite E. left. reflexivity.
  Qed.

  Lemma fold_orbit_agree fuel : forall ch cur, In cur dom_t ->
    fold_orbit simple_fold fuel ch cur = fold_orbit fold_t fuel ch cur.
  Proof.
    induction fuel as [|f IH]; intros ch cur Hc; [reflexivity|].
    cbn [fold_orbit]. rewrite (proj1 (agree cur Hc)).
    destruct (fold_t cur =? ch); [reflexivity|]. rewrite IH by (apply fold_closed; exact Hc). reflexivity.
  Qed.

  Lemma orbit_walk_agree fuel : forall ch cur, In cur dom_t ->
    orbit_walk simple_fold fuel ch cur = orbit_walk fold_t fuel ch cur.
  Proof.
    induction fuel as [|f IH]; intros ch cur Hc; [reflexivity|].
    cbn [orbit_walk]. rewrite (proj1 (agree cur Hc)).
    destruct (fold_t cur =? ch); [reflexivity|]. rewrite IH by (apply fold_closed; exact Hc). reflexivity.
  Qed.

  Lemma orbit_agree x : In x dom_t -> orbit simple_fold orbit_fuel x = orb x.
  Proof. intros H. unfold orb, orbit. rewrite orbit_walk_agree by exact H. reflexivity. Qed.

  Lemma case_equivalences_agree x : In x dom_t ->
    exists l, case_equivalences simple_fold orbit_fuel x = Ok l /\ x :: l = orb x.
  Proof.
    intros H. destruct (rel_facts x H) as (_ & (l & Hl & Ho) & _). exists l. split; [|exact Ho].
    unfold case_equivalences in *. rewrite fold_orbit_agree by exact H. exact Hl.
  Qed.

  Lemma nf_bounded c : wf_ranges (ranges c) -> (forall y, mem (ranges c) y = true -> y < max_rune - 1) ->
    normal_form_3 cat_in (normal_form_2 (normal_form_1 c)) = c.
  Proof.
    intros Hw Hb. destruct (nf_cases cat_in c) as [E|H]; [exact E|].
    (* a normal form applies only to ranges that reach the last two code points *)
    assert (Top : has_top (ranges c)) by (destruct H as [_ T _|p q _ _ _ T _ _]; apply T; exact Hw).
    destruct Top as (w & Hw1 & Hw2). specialize (Hb w Hw2). lia.
  Qed.

  Lemma canonicalize_bounded c : wf_ranges (ranges c) ->
    (forall y, mem (ranges c) y = true -> y < max_rune - 1) ->
    canonicalize cat_in c = set_ranges c (merged (ranges c)).
  Proof.
    intros Hw Hb. rewrite canonicalize_unfold. destruct (ranges c) as [|r t] eqn:Er.
    - destruct c; cbn in *; subst; reflexivity.
    - rewrite <- Er in *. apply nf_bounded; cbn [ranges set_ranges]; [apply merged_wf; exact Hw|].
      intros y Hy. apply Hb. rewrite <- merged_mem by exact Hw. exact Hy.
  Qed.

End Ci.

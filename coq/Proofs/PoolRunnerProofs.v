(* C12, part B: the invariant of a pooled runner, its preservation by scan/putRunner, and independence of a
   scan's result from the runner it runs on. *)
From Verif Require Import Base.Prelude Model.Pool Proofs.PoolStackProofs.

(* facts about a compiled Regexp: makeQuickCode copies the Code struct, so both programs share TrackCount *)
Definition cfg_wf (cfg : re_cfg) : Prop :=
  0 <= cfg_tc cfg Full /\ cfg_tc cfg Quick = cfg_tc cfg Full /\ 0 <= cfg_capsize cfg.

Definition stacks_ok (cfg : re_cfg) (r : runner) : Prop :=
  match r_track r, r_stack r, r_crawl r with
  | None, None, None => True
  | Some tk, Some st, Some cr =>
    track_len_ok (cfg_limit cfg) (cfg_tc cfg Full) (sk_len tk) /\
    stack_len_ok (cfg_tc cfg Full) (sk_len st) /\
    r_trackcount r = cfg_tc cfg Full
  | _, _, _ => False
  end.
Definition match_ok (cfg : re_cfg) (r : runner) : Prop :=
  match r_match r with
  | None => True
  | Some m => length (mo_matchcount m) = Z.to_nat (cfg_capsize cfg)
  end.
(* holds at every moment of a runner's life *)
Definition runner_inv (cfg : re_cfg) (r : runner) : Prop := stacks_ok cfg r /\ match_ok cfg r.
(* holds of every runner in the pool: everything else in the record is arbitrary *)
Definition runner_ok (cfg : re_cfg) (r : runner) : Prop :=
  runner_inv cfg r /\ r_code r = Full /\ r_text r = None /\
  match r_match r with None => True | Some m => mo_text m = false end.

Lemma fresh_runner_ok : forall cfg id, runner_ok cfg (fresh_runner id).
Proof. intros; repeat split; cbn; auto. Qed.

Lemma put_reset_ok : forall cfg r, runner_inv cfg r -> runner_ok cfg (put_reset r).
Proof.
  intros cfg r [Hs Hm]. unfold runner_ok, runner_inv, stacks_ok, match_ok in *.
  destruct r as [id code text ts tp te tk st cr tcn m ig to dl db misc]; cbn in *.
  destruct m; cbn; auto.
Qed.
Lemma put_reset_id : forall r, r_id (put_reset r) = r_id r.
Proof. reflexivity. Qed.

Lemma set_code_inv : forall cfg r c, runner_inv cfg r -> runner_inv cfg (set_code r c).
Proof. intros cfg r c H; exact H. Qed.

Lemma map_const_repeat : forall (l : list Z), map (fun _ => 0) l = repeat 0 (length l).
Proof. induction l; cbn; congruence. Qed.

Lemma fit_length : forall n l, length (fit n l) = n.
Proof.
  intros; unfold fit. rewrite firstn_length, app_length, repeat_length. lia.
Qed.

(* the view a computation gets on ANY runner satisfying the invariant *)
Definition canonical_view (cfg : re_cfg) (code : code_sel) (a : sargs) (pos : Z) : view :=
  {| v_code := code; v_text := sa_text a; v_textstart := sa_start a; v_textpos := pos;
     v_textend := zlen (sa_text a); v_ignore := (cfg_timeout cfg =? max_int64); v_timeout := cfg_timeout cfg;
     v_debug := cfg_debug cfg; v_tc := cfg_tc cfg Full; v_tdepth := 0; v_sdepth := 0; v_cdepth := 0;
     v_info := sa_info a; v_mtextstart := sa_start a;
     v_matchcount := repeat 0 (Z.to_nat (cfg_capsize cfg)); v_balancing := false; v_quick := sa_quick a |}.

(* init_match_resets: scan's header followed by initMatch puts every field of the view into a state that
   depends only on the configuration, the arguments and r.code *)
Lemma init_match_spec : forall cfg r a,
  cfg_wf cfg -> runner_inv cfg r ->
  let r2 := init_match cfg (sa_info a) (scan_header cfg r a) in
  runner_inv cfg r2 /\ r_code r2 = r_code r /\ r_textpos r2 = sa_start a /\
  r_textend r2 = zlen (sa_text a) /\
  (exists tk st, r_track r2 = Some tk /\ r_stack r2 = Some st /\
     track_len_ok (cfg_limit cfg) (cfg_tc cfg Full) (sk_len tk) /\ stack_len_ok (cfg_tc cfg Full) (sk_len st)) /\
  forall dl pos, view_of (start_watch dl (set_textpos r2 pos)) (sa_quick a) = Some (canonical_view cfg (r_code r) a pos).
Proof.
  intros cfg r a (W1 & W2 & W3) [Hs Hm].
  assert (Wtc : forall c, cfg_tc cfg c = cfg_tc cfg Full) by (intros []; auto).
  unfold runner_inv, stacks_ok, match_ok in *.
  destruct r as [id code text ts tp te tk st cr tcn m ig to dl0 db misc]; cbn in *.
  unfold init_match, scan_header; cbn.
  assert (ML : length (mo_matchcount match m with
                                     | Some m0 => reset_match m0 (sa_info a) (sa_start a)
                                     | None => new_match cfg (sa_info a) (sa_start a) end)
               = Z.to_nat (cfg_capsize cfg)).
  { destruct m; cbn; [rewrite map_length; auto | apply repeat_length]. }
  destruct tk as [tk|], st as [st|], cr as [cr|]; try contradiction; cbn.
  - destruct Hs as (H1 & H2 & H3). subst tcn.
    split. { split; cbn; [auto | exact ML]. }
    split; [reflexivity|]. split; [reflexivity|]. split; [reflexivity|].
    split. { exists (top tk), (top st). cbn. auto. }
    intros dl pos. unfold start_watch, canonical_view; cbn.
    destruct (cfg_timeout cfg =? max_int64); cbn; unfold depth; cbn;
      rewrite ?Z.sub_diag;
      (destruct m; cbn; [rewrite map_const_repeat, Hm|]; reflexivity).
  - pose proof (init_track_ok (cfg_limit cfg) (cfg_tc cfg Full)) as IT.
    pose proof (init_stack_ok (cfg_tc cfg Full)) as IS.
    split. { split; cbn; [rewrite (Wtc code); auto | exact ML]. }
    split; [reflexivity|]. split; [reflexivity|]. split; [reflexivity|].
    split. { eexists _, _. split; [reflexivity|]. split; [reflexivity|]. cbn. rewrite (Wtc code). auto. }
    intros dl pos. unfold start_watch, canonical_view; cbn.
    destruct (cfg_timeout cfg =? max_int64); cbn; unfold depth; cbn;
      rewrite ?Z.sub_diag, ?(Wtc code);
      (destruct m; cbn; [rewrite map_const_repeat, Hm|]; reflexivity).
Qed.

Lemma set_textpos_same : forall r, set_textpos r (r_textpos r) = r.
Proof. intros []; reflexivity. Qed.

Lemma tidy_keep_inv : forall cfg r i l, runner_inv cfg r -> runner_inv cfg (tidy_keep r i l).
Proof.
  intros cfg r i l [Hs Hm]. split; [exact Hs|].
  unfold match_ok, tidy_keep in *. destruct r as [id code text ts tp te tk st cr tcn m ig to dl0 db misc]; cbn in *.
  destruct m; cbn; auto.
Qed.

Lemma start_watch_inv : forall cfg dl r, runner_inv cfg r -> runner_inv cfg (start_watch dl r).
Proof. intros cfg dl r H. unfold start_watch. destruct (r_ignore r); exact H. Qed.
Lemma set_textpos_inv : forall cfg r p, runner_inv cfg r -> runner_inv cfg (set_textpos r p).
Proof. intros cfg r p H; exact H. Qed.

Lemma post_exec_inv : forall cfg r tl sl j tk st,
  runner_inv cfg r -> r_track r = Some tk -> r_stack r = Some st ->
  track_len_ok (cfg_limit cfg) (cfg_tc cfg Full) tl -> stack_len_ok (cfg_tc cfg Full) sl ->
  runner_inv cfg (post_exec r tl sl j).
Proof.
  intros cfg r tl sl j tk st [Hs Hm] Ht Hst Htl Hsl.
  unfold runner_inv, stacks_ok, match_ok, post_exec in *.
  destruct r as [id code text ts tp te tk0 st0 cr tcn m ig to dl0 db misc]; cbn in *. subst.
  destruct cr as [cr|]; try contradiction. cbn. split.
  - destruct Hs as (_ & _ & H3); auto.
  - destruct m; cbn; auto. rewrite fit_length; auto.
Qed.

Definition scan_parts (cfg : re_cfg) (interp : view -> trace) (dl : Z -> Z) (r : runner) (a : sargs) :=
  scan cfg interp dl r a.

Lemma scan_facts : forall cfg interp dl r a,
  cfg_wf cfg -> runner_inv cfg r ->
  runner_inv cfg (fst (scan cfg interp dl r a)) /\ r_code (fst (scan cfg interp dl r a)) = r_code r.
Proof.
  intros cfg interp dl r a W Hinv.
  pose proof (init_match_spec cfg r a W Hinv) as P. cbn zeta in P.
  destruct P as (Pinv & Pcode & Ppos & Pend & (tk & st & Ptk & Pst & Ptl & Psl) & Pview).
  unfold scan.
  set (r2 := init_match cfg (sa_info a) (scan_header cfg r a)) in *.
  destruct ((sa_prevlen a =? 0) && (r_textpos r2 =? (if cfg_rtl cfg then 0 else r_textend (scan_header cfg r a)))).
  { cbn [fst]. split; [apply tidy_keep_inv; auto|exact Pcode]. }
  set (r3 := if sa_prevlen a =? 0 then set_textpos r2 (r_textpos r2 + (if cfg_rtl cfg then -1 else 1)) else r2).
  assert (E3 : exists pos, r3 = set_textpos r2 pos).
  { unfold r3. destruct (sa_prevlen a =? 0); eexists; [reflexivity|symmetry; apply set_textpos_same]. }
  destruct E3 as [pos E3]. rewrite E3.
  rewrite (Pview dl pos).
  assert (T4 : r_track (start_watch dl (set_textpos r2 pos)) = Some tk).
  { unfold start_watch. destruct (r_ignore _); cbn; exact Ptk. }
  assert (S4 : r_stack (start_watch dl (set_textpos r2 pos)) = Some st).
  { unfold start_watch. destruct (r_ignore _); cbn; exact Pst. }
  assert (I4 : runner_inv cfg (start_watch dl (set_textpos r2 pos))).
  { apply start_watch_inv, set_textpos_inv, Pinv. }
  assert (C4 : r_code (start_watch dl (set_textpos r2 pos)) = r_code r).
  { unfold start_watch. destruct (r_ignore _); cbn; exact Pcode. }
  rewrite T4, S4.
  set (r4 := start_watch dl (set_textpos r2 pos)) in *.
  cbn [v_tc canonical_view].
  pose proof (run_segs_lens (cfg_limit cfg) (cfg_tc cfg Full) (tr_segs (interp (canonical_view cfg (r_code r) a pos)))
                (sk_len tk) (sk_len st) Ptl Psl) as L.
  destruct (run_segs (cfg_limit cfg) (cfg_tc cfg Full) (sk_len tk) (sk_len st)
              (tr_segs (interp (canonical_view cfg (r_code r) a pos)))) as [[tl sl] status].
  destruct L as [L1 L2].
  pose proof (post_exec_inv cfg r4 tl sl (tr_junk (interp (canonical_view cfg (r_code r) a pos))) tk st I4 T4 S4 L1 L2) as I5.
  destruct status; [|cbn [fst]; auto|cbn [fst]; auto].
  destruct (tr_term (interp (canonical_view cfg (r_code r) a pos))) as [md| |]; cbn [fst].
  - unfold tidy_match. destruct (sa_quick a); cbn [fst].
    + split; [apply tidy_keep_inv; auto|exact C4].
    + split; [|exact C4].
      destruct I5 as [X Y]. split; [exact X|]. unfold match_ok; cbn. exact I.
  - split; [apply tidy_keep_inv; auto|exact C4].
  - auto.
Qed.

(* the result of a scan as a function of configuration, arguments and r.code only *)
Definition scan_value (cfg : re_cfg) (interp : view -> trace) (code : code_sel) (a : sargs) : sres :=
  let stoppos := if cfg_rtl cfg then 0 else zlen (sa_text a) in
  let bump := if cfg_rtl cfg then -1 else 1 in
  if (sa_prevlen a =? 0) && (sa_start a =? stoppos) then SNone
  else
    let pos := if sa_prevlen a =? 0 then sa_start a + bump else sa_start a in
    let tr := interp (canonical_view cfg code a pos) in
    match ideal_status (cfg_limit cfg) (cfg_tc cfg Full) (tr_segs tr) with
    | SegErr => SErrLimit
    | SegCrash => SCrash
    | SegOk => match tr_term tr with TTimeout => SErrTimeout | TNone => SNone | TMatch md => SMatch md end
    end.

Definition interp_wf (cfg : re_cfg) (interp : view -> trace) : Prop :=
  forall v, v_tc v = cfg_tc cfg Full -> segs_wf (v_tc v) 0 0 (tr_segs (interp v)).

Lemma scan_result : forall cfg interp dl r a,
  cfg_wf cfg -> interp_wf cfg interp -> runner_inv cfg r ->
  snd (scan cfg interp dl r a) = scan_value cfg interp (r_code r) a.
Proof.
  intros cfg interp dl r a W IW Hinv.
  pose proof (init_match_spec cfg r a W Hinv) as P. cbn zeta in P.
  destruct P as (Pinv & Pcode & Ppos & Pend & (tk & st & Ptk & Pst & Ptl & Psl) & Pview).
  unfold scan, scan_value.
  set (r2 := init_match cfg (sa_info a) (scan_header cfg r a)) in *.
  rewrite Ppos.
  replace (r_textend (scan_header cfg r a)) with (zlen (sa_text a)) by reflexivity.
  destruct ((sa_prevlen a =? 0) && (sa_start a =? (if cfg_rtl cfg then 0 else zlen (sa_text a)))); [reflexivity|].
  set (pos := if sa_prevlen a =? 0 then sa_start a + (if cfg_rtl cfg then -1 else 1) else sa_start a).
  assert (E3 : (if sa_prevlen a =? 0 then set_textpos r2 (sa_start a + (if cfg_rtl cfg then -1 else 1)) else r2)
               = set_textpos r2 pos).
  { unfold pos. destruct (sa_prevlen a =? 0); [reflexivity|]. rewrite <- Ppos. symmetry; apply set_textpos_same. }
  rewrite E3, (Pview dl pos).
  assert (T4 : r_track (start_watch dl (set_textpos r2 pos)) = Some tk).
  { unfold start_watch. destruct (r_ignore _); cbn; exact Ptk. }
  assert (S4 : r_stack (start_watch dl (set_textpos r2 pos)) = Some st).
  { unfold start_watch. destruct (r_ignore _); cbn; exact Pst. }
  rewrite T4, S4. cbn [v_tc canonical_view].
  set (tr := interp (canonical_view cfg (r_code r) a pos)).
  destruct W as (W1 & W2 & W3).
  pose proof (run_segs_ideal (cfg_limit cfg) (cfg_tc cfg Full) (tr_segs tr) (sk_len tk) (sk_len st) 0 0 W1 Ptl Psl) as RI.
  assert (P0 : 0 <= sk_len tk).
  { destruct Ptl as [X Y]. unfold init_tracksize in X. cbn zeta in X. bdestr; lia. }
  assert (Q0 : 0 <= sk_len st).
  { unfold stack_len_ok in Psl. pose proof (init_stack_pos (cfg_tc cfg Full)). lia. }
  specialize (RI P0 Q0 (IW (canonical_view cfg (r_code r) a pos) eq_refl)).
  destruct (run_segs (cfg_limit cfg) (cfg_tc cfg Full) (sk_len tk) (sk_len st) (tr_segs tr)) as [[tl sl] status].
  cbn [snd] in RI. rewrite <- RI.
  destruct status; [|reflexivity|reflexivity].
  destruct (tr_term tr); [|reflexivity|reflexivity].
  unfold tidy_match. destruct (sa_quick a); reflexivity.
Qed.

(* call_independent_of_runner at the level of one scan *)
Corollary scan_independent : forall cfg interp dl1 dl2 r1 r2 a,
  cfg_wf cfg -> interp_wf cfg interp -> runner_inv cfg r1 -> runner_inv cfg r2 -> r_code r1 = r_code r2 ->
  snd (scan cfg interp dl1 r1 a) = snd (scan cfg interp dl2 r2 a).
Proof.
  intros. rewrite !scan_result by auto. congruence.
Qed.

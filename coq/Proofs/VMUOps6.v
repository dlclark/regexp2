(* Per-opcode lemmas for the cut opcodes Setjump / Forejump / Backjump, Getmark and Testref,
   by symbolic evaluation of VM.step; root-slot liftings.  [trackto] is [skipn] to a recorded
   length; [uncapture_to] undoes the captures recorded on the crawl stack ([unwind]). *)
From Verif Require Import Base.Prelude Model.Tree Model.Spec Model.VM Model.Writer Gen.RunnerGen
  Proofs.VMU Proofs.VMUOps Proofs.VMUOps2.
From Coq Require Import Relations ZifyBool.

(* undoing the captures recorded on a piece of the crawl stack *)
Fixpoint unwind (C : list Z) (M : list (list Z)) : option (list (list Z)) :=
  match C with
  | [] => Some M
  | c :: C' => match remove_match c M with Some M1 => unwind C' M1 | None => None end
  end.

Lemma unwind_app A B M M1 M2 : unwind A M = Some M1 -> unwind B M1 = Some M2 -> unwind (A ++ B) M = Some M2.
Proof.
  revert M. induction A as [|c A IH]; cbn [unwind app]; intros M H1 H2.
  - injection H1 as <-. exact H2.
  - destruct (remove_match c M) as [M'|]; [|discriminate]. apply IH; assumption.
Qed.

Section Ops6.
Variable e : env.
Variable p : program.
Hypothesis tc_nonneg : 0 <= trackcount p.

Notation ustep := (VMU.ustep e p).
Notation mk := VMU.mk.

Lemma uncapture_to_unwind C : forall C' fuel s M0,
  crawl s = C' ++ C -> unwind C' (mcaps s) = Some M0 -> (length C' < fuel)%nat ->
  uncapture_to fuel s (zlen C) = Ok (set_caps s C M0).
Proof.
  induction C' as [|c C' IH]; intros fuel s M0 Hc Hu Hf; (destruct fuel as [|fuel]; [lia|]); cbn [uncapture_to].
  - cbn [app] in Hc. rewrite Hc. rewrite Z.eqb_refl. cbn [unwind] in Hu. injection Hu as <-.
    destruct s; cbn in *; subst; reflexivity.
  - rewrite Hc. cbn [app]. rewrite zlen_cons, zlen_app.
    replace (1 + (zlen C' + zlen C) =? zlen C) with false by (pose proof (zlen_nonneg C'); lia).
    unfold uncapture. rewrite Hc. cbn [app]. cbn [unwind] in Hu.
    destruct (remove_match c (mcaps s)) as [M1|]; [|discriminate]. cbn [bind].
    rewrite (IH fuel (set_caps s (C' ++ C) M1) M0); [|reflexivity|exact Hu|cbn [length] in Hf; lia].
    destruct s; reflexivity.
Qed.

Lemma trackto_cut s X1 X2 tr : track s = X1 ++ X2 -> tr = zlen X2 -> trackto s tr = Ok (set_track s X2).
Proof.
  intros Ht ->. unfold trackto. rewrite Ht, zlen_app.
  pose proof (zlen_nonneg X1). pose proof (zlen_nonneg X2).
  replace ((zlen X2 <? 0) || (zlen X1 + zlen X2 <? zlen X2)) with false by lia.
  replace (Z.to_nat (zlen X1 + zlen X2 - zlen X2)) with (length X1) by (unfold zlen; lia).
  rewrite skipn_app, skipn_all, Nat.sub_diag. reflexivity.
Qed.

Lemma ustep_setjump pc0 t T S C M w2 :
  code_at p pc0 = Some Setjump -> code_at p (pc0 + 1) = Some w2 ->
  ustep (mk pc0 0 t T S C M) = Ok (Next (mk (pc0 + 1) 0 t (pc0 :: T) (zlen C :: zlen T :: S) C M)).
Proof.
  intros H0 H2. start H0. change (Z.land Setjump 63) with 34. cbn -[tpush spush advance zlen].
  spu. tpu. adv (pc0 + 1) H2. fin.
Qed.

Lemma ustep_forejump pc0 t X1 X2 cr tr S C M w2 :
  code_at p pc0 = Some Forejump -> code_at p (pc0 + 1) = Some w2 -> tr = zlen X2 ->
  ustep (mk pc0 0 t (X1 ++ X2) (cr :: tr :: S) C M) = Ok (Next (mk (pc0 + 1) 0 t (pc0 :: cr :: X2) S C M)).
Proof.
  intros H0 H2 Htr. start H0. change (Z.land Forejump 63) with 36. cbn -[tpush trackto advance zlen].
  erewrite trackto_cut; [|cbn [track set_stack repad VMU.mk]; reflexivity|exact Htr]. cbn [bind].
  tpu. adv (pc0 + 1) H2. fin.
Qed.

Lemma ustep_backjump pc0 t X1 np X2 tr S C' C M M0 w3 :
  code_at p pc0 = Some Backjump -> code_at p (Z.abs np) = Some w3 -> tr = zlen (np :: X2) ->
  unwind C' M = Some M0 ->
  ustep (mk pc0 0 t (X1 ++ np :: X2) (zlen C :: tr :: S) (C' ++ C) M) = Ok (Next (bk np t X2 S C M0)).
Proof.
  intros H0 H3 Htr Hu. start H0. change (Z.land Backjump 63) with 35. cbn -[brk trackto uncapture_to zlen length].
  erewrite trackto_cut; [|cbn [track set_stack repad VMU.mk]; reflexivity|exact Htr]. cbn [bind].
  erewrite uncapture_to_unwind with (C' := C'); [|reflexivity|exact Hu|].
  2:{ cbn [crawl set_track set_stack repad VMU.mk]. rewrite app_length. lia. }
  cbn [bind]. pose proof (zlen_cons np X2) as Hz. pose proof (zlen_nonneg X1) as Hz1. fail_to H3; fin.
Qed.

Notation rsteps := (VMUOps2.rsteps e p).

Lemma rs_setjump pc0 t T S C M w2 :
  code_at p pc0 = Some Setjump -> code_at p (pc0 + 1) = Some w2 ->
  rsteps (mkr pc0 0 t T S C M) (mkr (pc0 + 1) 0 t (pc0 :: T) (zlen C :: zlen T + 1 :: S) C M).
Proof.
  intros H0 H2. apply rsteps_one. intro r. unfold mkr. cbn [app].
  erewrite ustep_setjump by eassumption. rewrite zlen_app. reflexivity.
Qed.

Lemma rs_setjump_back pc0 t np T x y S C M w3 :
  code_at p pc0 = Some Setjump -> code_at p (Z.abs np) = Some w3 ->
  rsteps (mkr pc0 BackBit t (np :: T) (x :: y :: S) C M) (bkr np t T S C M).
Proof.
  intros H0 H3. apply rsteps_one. intro r. unfold bkr, mkr. cbn [app]. start H0. change (Z.land Setjump 63) with 34. cbn -[brk]. fail_to H3; fin.
Qed.

Lemma rs_forejump pc0 t T' T cr S C M w2 :
  code_at p pc0 = Some Forejump -> code_at p (pc0 + 1) = Some w2 ->
  rsteps (mkr pc0 0 t (T' ++ T) (cr :: zlen T + 1 :: S) C M) (mkr (pc0 + 1) 0 t (pc0 :: cr :: T) S C M).
Proof.
  intros H0 H2. apply rsteps_one. intro r. unfold mkr. rewrite <- app_assoc. cbn [app].
  eapply ustep_forejump; try eassumption. rewrite zlen_app. reflexivity.
Qed.

Lemma rs_forejump_back pc0 t np T S C' C M M0 w3 :
  code_at p pc0 = Some Forejump -> code_at p (Z.abs np) = Some w3 -> unwind C' M = Some M0 ->
  rsteps (mkr pc0 BackBit t (zlen C :: np :: T) S (C' ++ C) M) (bkr np t T S C M0).
Proof.
  intros H0 H3 Hu. apply rsteps_one. intro r. unfold bkr, mkr. cbn [app]. start H0. change (Z.land Forejump 63) with 36. cbn -[brk uncapture_to zlen length].
  erewrite uncapture_to_unwind with (C' := C'); [|reflexivity|exact Hu|cbn [crawl set_track repad VMU.mk]; rewrite app_length; lia].
  cbn [bind]. fail_to H3; fin.
Qed.

Lemma rs_backjump pc0 t T' np T S C' C M M0 w3 :
  code_at p pc0 = Some Backjump -> code_at p (Z.abs np) = Some w3 -> unwind C' M = Some M0 ->
  rsteps (mkr pc0 0 t (T' ++ np :: T) (zlen C :: zlen (np :: T) + 1 :: S) (C' ++ C) M) (bkr np t T S C M0).
Proof.
  intros H0 H3 Hu. apply rsteps_one. intro r. unfold bkr, mkr. rewrite <- app_assoc. cbn [app].
  eapply ustep_backjump; try eassumption. rewrite !zlen_cons, zlen_app. change (zlen [r]) with 1. lia.
Qed.

Lemma rs_getmark pc0 t x T S C M w2 :
  code_at p pc0 = Some Getmark -> code_at p (pc0 + 1) = Some w2 ->
  rsteps (mkr pc0 0 t T (x :: S) C M) (mkr (pc0 + 1) 0 x (pc0 :: x :: T) S C M).
Proof.
  intros H0 H2. apply rsteps_one. intro r. unfold bkr, mkr. cbn [app]. start H0. change (Z.land Getmark 63) with 33. cbn -[tpush advance].
  tpu. adv (pc0 + 1) H2. fin.
Qed.

Lemma rs_getmark_back pc0 t x np T S C M w3 :
  code_at p pc0 = Some Getmark -> code_at p (Z.abs np) = Some w3 ->
  rsteps (mkr pc0 BackBit t (x :: np :: T) S C M) (bkr np t T (x :: S) C M).
Proof.
  intros H0 H3. apply rsteps_one. intro r. unfold bkr, mkr. cbn [app]. start H0. change (Z.land Getmark 63) with 33. cbn -[spush brk].
  spu. fail_to H3; fin.
Qed.

Lemma rs_testref_ok pc0 t g T S C M w2 :
  code_at p pc0 = Some Testref -> code_at p (pc0 + 1) = Some g -> code_at p (pc0 + 2) = Some w2 ->
  vm_is_matched g M = Some true ->
  rsteps (mkr pc0 0 t T S C M) (mkr (pc0 + 2) 0 t T S C M).
Proof.
  intros H0 H1 H2 Hm. apply rsteps_one. intro r. unfold bkr, mkr. cbn [app]. start H0. change (Z.land Testref 63) with 37. cbn -[opnd vm_is_matched brk advance].
  opn (pc0 + 1) H1. cbn [bind]. rewrite Hm. adv (pc0 + 2) H2. fin.
Qed.

Lemma rs_testref_fail pc0 t g np T S C M w3 :
  code_at p pc0 = Some Testref -> code_at p (pc0 + 1) = Some g -> code_at p (Z.abs np) = Some w3 ->
  vm_is_matched g M = Some false ->
  rsteps (mkr pc0 0 t (np :: T) S C M) (bkr np t T S C M).
Proof.
  intros H0 H1 H3 Hm. apply rsteps_one. intro r. unfold bkr, mkr. cbn [app]. start H0. change (Z.land Testref 63) with 37. cbn -[opnd vm_is_matched brk advance].
  opn (pc0 + 1) H1. cbn [bind]. rewrite Hm. fail_to H3; fin.
Qed.

End Ops6.

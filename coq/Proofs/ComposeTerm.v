(* The termination theorem of the reference search (SpecTermProofs.spec_attempt_total) composed with the
   interpreter-level theorems of CompileBal, CompileSafe and ComposeExec: it discharges their hypothesis
   "Spec.attempt e fuel root t0 = Ok r, Z.of_nat fuel <= INF".

   The reference fuel is the explicit  term_fuel e root  (1 + nesting depth, loops add their minimum count
   + text length + 2); the two hypotheses that stand in place of that one are both DECIDABLE on the instance:
     term_ok root = true                       every loop body is one-directional (leg c01-frag: every exported tree)
     Z.of_nat (term_fuel e root) <= INF        that fuel is inside the engine's counter range 2^31-1

   ct_exec_total_terminating      compile_exec_total o compile_correct2_exec_partial: for every stack limit there is
                                  an interpreter fuel from which on execute() returns Spec.attempt's answer or
                                  ErrBacktrackingStackLimit -- never Crash, never Fuel
   ct_vm_forward, ct_iteration_*, ct_next_*   the C07 theorems for compiled programs
   ct_exec_captures_in_bounds, ct_exec_group0_is_match_span   the C08 theorems at the interpreter level
   ct_search_never_hangs          C10 *)
From Verif Require Import Base.Prelude Model.Iter Proofs.IterProofs.
From Verif Require Import Model.Tree Model.Spec Model.VM Model.Writer Model.Analysis
  Proofs.SpecProofs Proofs.SpecBoundsProofs Proofs.SpecTermProofs
  Proofs.CompileBase Proofs.CompileDefs Proofs.CompileProofs
  Proofs.CompileBalDen Proofs.CompileBalBase Proofs.CompileBalDefs Proofs.CompileBal
  Proofs.CompileLimitTop Proofs.CompileSafe Proofs.ComposeExec.
From Coq Require Import ZifyBool.

(* the bound reads the environment through the text length only *)
Lemma ct_term_fuel_env_at e ts root : term_fuel (cx_env_at e ts) root = term_fuel e root.
Proof. reflexivity. Qed.

(* the residual hypothesis of cx_vm_forward and of the C07 theorems for compiled programs *)
Lemma ct_attempt_terminates_in_range (e : env) (root : node) :
  term_ok root = true -> Z.of_nat (term_fuel e root) <= INF ->
  forall ts t0, 0 <= t0 <= tlen e ->
    exists fuel r, Z.of_nat fuel <= INF /\ Spec.attempt (cx_env_at e ts) fuel root t0 = Ok r.
Proof.
  intros Hok Hf ts t0 Ht0. exists (term_fuel e root).
  destruct (spec_attempt_total (cx_env_at e ts) root t0 Hok Ht0 (term_fuel e root)) as (r & Hr & _).
  { rewrite ct_term_fuel_env_at. apply Nat.le_refl. }
  exists r. split; [exact Hf|exact Hr].
Qed.

(* ============================ C01: one execute() call returns ============================ *)
Theorem ct_exec_total_terminating :
  forall (e : env) (p : program), 0 <= trackcount p -> track_count (codes p) <= trackcount p -> tlen e <= INF ->
  forall o body t0,
  let root := NCapture o 0 (-1) body in
  let M0 := repeat [] (Z.to_nat (capsize p)) in
  let stop := 2 + csize cfg0 root in
  codes p = fst (compile cfg0 root) -> strings p = snd (compile cfg0 root) ->
  supported2 root = true -> groups_ok2 (capsize p) root -> 0 <= t0 <= tlen e ->
  term_ok root = true -> Z.of_nat (term_fuel e root) <= INF ->
  exists r, Spec.attempt e (term_fuel e root) root t0 = Ok r /\
  exists vfuel0 : nat, forall L vfuel, (vfuel0 <= vfuel)%nat ->
    let x := exec_at e p L vfuel t0 in
    ((x = Err E_StackLimit /\ 0 <= L) \/
     (exists s', x = Ok s' /\ pc s' = stop /\ mode s' = 0 /\
        match r with
        | Some q => tp s' = pos q /\ caps_rel2 p (caps q) (mcaps s') /\ matched0 s' = true
        | None => mcaps s' = M0 /\ matched0 s' = false
        end)) /\
    (L < 0 -> exists s', x = Ok s').
Proof.
  intros e p Htc Htk Htl o body t0 root M0 stop Hcodes Hstr Hs Hg Ht0 Hok Hf.
  destruct (spec_attempt_total e root t0 Hok Ht0 (term_fuel e root) (Nat.le_refl _)) as (r & Hatt & _).
  exists r. split; [exact Hatt|].
  pose proof (compile_exec_total e p Htc Htk Htl (term_fuel e root) o body t0 r Hcodes Hstr Hs Hg Ht0 Hf Hatt)
    as [n Hn].
  exists (S n). intros L vfuel Hv x.
  pose proof (Hn L vfuel) as [Htri Hunl]. cbv zeta in Htri, Hunl. fold x in Htri, Hunl.
  pose proof (clt_fuel_enough n vfuel Hv) as Hlt.
  split; [|intros HL; exact (Hunl HL Hlt)].
  destruct Htri as [Hlim|[[_ [s' Hx]]|[Hge _]]]; [left; exact Hlim| |destruct (proj1 (Nat.lt_nge _ _) Hlt Hge)].
  right. exists s'. split; [exact Hx|].
  exact (compile_correct2_exec_partial e p Htc Htl L (term_fuel e root) vfuel o body t0 r s'
           Hcodes Hstr Hs Hg Ht0 Hf Hatt Hx).
Qed.

(* ============================ C07: iteration over a compiled program ============================ *)
Theorem ct_vm_forward :
  forall (e : env) (p : program) (rtl : bool), 0 <= trackcount p -> tlen e <= INF ->
  forall L vfuel o body,
  let root := NCapture o 0 (-1) body in
  codes p = fst (compile cfg0 root) -> strings p = snd (compile cfg0 root) ->
  supported2 root = true -> groups_ok2 (capsize p) root ->
  shape_ok rtl root = true -> no_group0 body ->
  term_ok root = true -> Z.of_nat (term_fuel e root) <= INF ->
  forward rtl (tlen e) (cx_vm_matcher e p L vfuel).
Proof.
  intros e p rtl Htc Htl L vfuel o body root Hcodes Hstr Hs Hg Hsh Hn0 Hok Hf.
  exact (cx_vm_forward e p rtl Htc Htl L vfuel o body Hcodes Hstr Hs Hg Hsh Hn0
           (ct_attempt_terminates_in_range e root Hok Hf)).
Qed.

Theorem ct_iteration_for_compiled_programs :
  forall (e : env) (p : program) (rtl : bool), 0 <= trackcount p -> tlen e <= INF ->
  forall L vfuel o body,
  let root := NCapture o 0 (-1) body in
  codes p = fst (compile cfg0 root) -> strings p = snd (compile cfg0 root) ->
  supported2 root = true -> groups_ok2 (capsize p) root ->
  shape_ok rtl root = true -> no_group0 body ->
  term_ok root = true -> Z.of_nat (term_fuel e root) <= INF ->
  forall start, 0 <= start <= tlen e ->
  exists ms, Iter.iteration rtl (tlen e) (cx_vm_matcher e p L vfuel)
               (Iter.dflt_fuel (tlen e)) (Iter.dflt_fuel (tlen e)) start = Ok ms /\
             Z.of_nat (length ms) <= tlen e + 1 /\
             Forall (wfm rtl (tlen e)) ms /\
             forall a b, consecutive ms a b -> follows rtl a b.
Proof.
  intros e p rtl Htc Htl L vfuel o body root Hcodes Hstr Hs Hg Hsh Hn0 Hok Hf.
  exact (cx_iteration_for_compiled_programs e p rtl Htc Htl L vfuel o body Hcodes Hstr Hs Hg Hsh Hn0
           (ct_attempt_terminates_in_range e root Hok Hf)).
Qed.

Theorem ct_next_advances_for_compiled_programs :
  forall (e : env) (p : program) (rtl : bool), 0 <= trackcount p -> tlen e <= INF ->
  forall L vfuel o body,
  let root := NCapture o 0 (-1) body in
  codes p = fst (compile cfg0 root) -> strings p = snd (compile cfg0 root) ->
  supported2 root = true -> groups_ok2 (capsize p) root ->
  shape_ok rtl root = true -> no_group0 body ->
  term_ok root = true -> Z.of_nat (term_fuel e root) <= INF ->
  forall m, wfm rtl (tlen e) m ->
  exists r, Iter.find_next_match rtl (tlen e) (cx_vm_matcher e p L vfuel) (Iter.dflt_fuel (tlen e)) m = Ok r /\
            forall m', r = Some m' -> wfm rtl (tlen e) m' /\ follows rtl m m'.
Proof.
  intros e p rtl Htc Htl L vfuel o body root Hcodes Hstr Hs Hg Hsh Hn0 Hok Hf.
  exact (cx_next_advances_for_compiled_programs e p rtl Htc Htl L vfuel o body Hcodes Hstr Hs Hg Hsh Hn0
           (ct_attempt_terminates_in_range e root Hok Hf)).
Qed.

(* ============================ C08: captures of the interpreter stay inside the text ============================ *)
Theorem ct_exec_captures_in_bounds :
  forall (e : env) (p : program), 0 <= trackcount p -> tlen e <= INF ->
  forall L vfuel o body t0 s',
  let root := NCapture o 0 (-1) body in
  codes p = fst (compile cfg0 root) -> strings p = snd (compile cfg0 root) ->
  supported2 root = true -> groups_ok2 (capsize p) root -> 0 <= t0 <= tlen e ->
  term_ok root = true -> Z.of_nat (term_fuel e root) <= INF ->
  exec_at e p L vfuel t0 = Ok s' -> matched0 s' = true ->
  0 <= tp s' <= tlen e /\
  forall g, 0 <= g < capsize p ->
    exists ps stk,
      nth (Z.to_nat g) (mcaps s') [] = flat (rev ps) /\ Den ps stk /\
      (forall i len, In (i, len) stk -> 0 <= i /\ 0 <= len /\ i + len <= tlen e) /\
      vm_is_matched g (mcaps s') = Some (match stk with [] => false | _ => true end) /\
      (forall i len rest, stk = (i, len) :: rest ->
         vm_match_index g (mcaps s') = Some i /\ vm_match_length g (mcaps s') = Some len).
Proof.
  intros e p Htc Htl L vfuel o body t0 s' root Hcodes Hstr Hs Hg Ht0 Hok Hf Hex Hm.
  destruct (spec_attempt_total e root t0 Hok Ht0 (term_fuel e root) (Nat.le_refl _)) as (r & Hatt & _).
  exact (cx_exec_captures_in_bounds e p Htc Htl L (term_fuel e root) vfuel o body t0 r s'
           Hcodes Hstr Hs Hg Ht0 Hf Hatt Hex Hm).
Qed.

Theorem ct_exec_group0_is_match_span :
  forall (e : env) (p : program), 0 <= trackcount p -> tlen e <= INF ->
  forall L vfuel o body t0 s',
  let root := NCapture o 0 (-1) body in
  codes p = fst (compile cfg0 root) -> strings p = snd (compile cfg0 root) ->
  supported2 root = true -> groups_ok2 (capsize p) root -> 0 <= t0 <= tlen e ->
  term_ok root = true -> Z.of_nat (term_fuel e root) <= INF ->
  no_group0 body ->
  exec_at e p L vfuel t0 = Ok s' -> matched0 s' = true ->
  0 < capsize p /\
  (exists ps, nth 0 (mcaps s') [] = flat (rev ps) /\
              Den ps [(Z.min t0 (tp s'), Z.abs (tp s' - t0))]) /\
  vm_is_matched 0 (mcaps s') = Some true /\
  vm_match_index 0 (mcaps s') = Some (Z.min t0 (tp s')) /\
  vm_match_length 0 (mcaps s') = Some (Z.abs (tp s' - t0)).
Proof.
  intros e p Htc Htl L vfuel o body t0 s' root Hcodes Hstr Hs Hg Ht0 Hok Hf Hn0 Hex Hm.
  destruct (spec_attempt_total e root t0 Hok Ht0 (term_fuel e root) (Nat.le_refl _)) as (r & Hatt & _).
  exact (cx_exec_group0_is_match_span e p Htc Htl L (term_fuel e root) vfuel o body t0 r s'
           Hcodes Hstr Hs Hg Ht0 Hf Hatt Hn0 Hex Hm).
Qed.

(* ============================ C10: nothing hangs ============================ *)
(* (1) the reference search, list-valued and continuation-passing, answers on EVERY tree, text, direction and
       start offset (fuel term_fuel_any root: the loop counters alone end every loop);
   (2) on trees with one-directional loop bodies it answers within the small fuel term_fuel e root;
   (3) the interpreter on the program of such a supported2 tree: from some interpreter fuel on, every execute()
       call returns a state or ErrBacktrackingStackLimit, and does return when there is no limit. *)
Theorem ct_search_never_hangs :
  (forall (e : env) root (rtl : bool) start prevlen fuel, (term_fuel_any root <= fuel)%nat ->
     exists r, Spec.find e fuel root rtl start prevlen = Ok r /\ Spec.findk e fuel root rtl start prevlen = Ok r)
  /\
  (forall (e : env) root (rtl : bool) start prevlen, term_ok root = true -> 0 <= start <= tlen e ->
     forall fuel, (term_fuel e root <= fuel)%nat ->
     exists r, Spec.find e fuel root rtl start prevlen = Ok r /\ Spec.findk e fuel root rtl start prevlen = Ok r)
  /\
  (forall (e : env) (p : program), 0 <= trackcount p -> track_count (codes p) <= trackcount p -> tlen e <= INF ->
   forall o body t0,
   let root := NCapture o 0 (-1) body in
   codes p = fst (compile cfg0 root) -> strings p = snd (compile cfg0 root) ->
   supported2 root = true -> groups_ok2 (capsize p) root -> 0 <= t0 <= tlen e ->
   term_ok root = true -> Z.of_nat (term_fuel e root) <= INF ->
   exists vfuel0 : nat, forall L vfuel, (vfuel0 <= vfuel)%nat ->
     ((exec_at e p L vfuel t0 = Err E_StackLimit /\ 0 <= L) \/ exists s', exec_at e p L vfuel t0 = Ok s') /\
     (L < 0 -> exists s', exec_at e p L vfuel t0 = Ok s')).
Proof.
  split; [exact spec_find_total_any|]. split; [exact spec_find_total|].
  intros e p Htc Htk Htl o body t0 root Hcodes Hstr Hs Hg Ht0 Hok Hf.
  destruct (ct_exec_total_terminating e p Htc Htk Htl o body t0 Hcodes Hstr Hs Hg Ht0 Hok Hf)
    as (r & _ & vfuel0 & Hv).
  exists vfuel0. intros L vfuel Hle. destruct (Hv L vfuel Hle) as [H1 H2]. cbv zeta in H1, H2.
  split; [|exact H2]. destruct H1 as [H1|(s' & Hx & _)]; [left; exact H1|right; exists s'; exact Hx].
Qed.

(* ---------- non-vacuity: the a^n b^n program with balancing groups (CompileBal.c2_demo) ---------- *)
Example ct_demo :
  let e := cc_demo_env2 [97;97;98;98] in
  let root := NCapture 0 0 (-1) c2_demo_body in
  term_ok root = true /\ term_fuel e root = 10%nat /\ Z.of_nat (term_fuel e root) <= INF /\
  (exists q, Spec.attempt e (term_fuel e root) root 0 = Ok (Some q) /\ pos q = 4) /\
  Spec.attempt e (term_fuel e root) root 1 = Ok None.
Proof.
  cbv zeta. split; [reflexivity|]. split; [vm_compute; reflexivity|]. split; [vm_compute; congruence|].
  split; [eexists; split; vm_compute; reflexivity|vm_compute; reflexivity].
Qed.

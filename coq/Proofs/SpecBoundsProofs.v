(* C08 (reference-semantics half): every state the reference semantics [Spec.sem] produces keeps
   the text position and every capture of every group inside the input, balancing groups
   included; and group 0 of a successful attempt has exactly one capture, equal to the match.

   Both facts are instances of one generic lemma ([sb_sem_rel]): a relation R between the start
   state and every result state that is reflexive, transitive, respected by the leaves, by
   re-positioning (lookarounds / conditionals) and by the two capture forms, holds for all
   results of all trees. *)
From Verif Require Import Base.Prelude Model.Tree Model.Spec Proofs.SpecProofs.
From Coq Require Import ZifyBool.

Fixpoint sb_all (P : node -> Prop) (t : node) : Prop :=
  P t /\
  match t with
  | NConcat _ l | NAlternate _ l =>
      (fix go (l : list node) : Prop :=
         match l with [] => True | x :: l' => sb_all P x /\ go l' end) l
  | NLoop _ _ _ _ r | NCapture _ _ _ r | NGroup r | NPosLook _ r | NNegLook _ r | NAtomic r => sb_all P r
  | NBackRefCond _ _ y no => sb_all P y /\ match no with Some n => sb_all P n | None => True end
  | NExprCond _ c y no =>
      sb_all P c /\ sb_all P y /\ match no with Some n => sb_all P n | None => True end
  | _ => True
  end.

Definition sb_all_list (P : node -> Prop) (l : list node) : Prop :=
  (fix go (l : list node) : Prop :=
     match l with [] => True | x :: l' => sb_all P x /\ go l' end) l.

Lemma sb_all_here P t : sb_all P t -> P t.
Proof. destruct t; cbn [sb_all]; tauto. Qed.

Definition sb_leaf (t : node) : bool :=
  match t with
  | NChar _ _ _ | NCharLoop _ _ _ _ _ _ | NMulti _ _ | NRef _ _ | NAnchor _ | NNothing | NEmpty | NBump => true
  | _ => false
  end.

Lemma sb_bindl_forall {A B} (Q : B -> Prop) (f : A -> res (list B)) : forall la l,
  (forall a l', In a la -> f a = Ok l' -> Forall Q l') -> bindl la f = Ok l -> Forall Q l.
Proof.
  induction la as [|a la IH]; intros l Hf H; cbn [bindl] in H.
  - injection H as <-. constructor.
  - apply sp_bind_ok in H. destruct H as [x [Hx H]].
    apply sp_bind_ok in H. destruct H as [y [Hy H]]. injection H as <-.
    apply Forall_app. split.
    + apply (Hf a x); [left; reflexivity|exact Hx].
    + apply IH; [|exact Hy]. intros a' l' Hin. apply Hf. right. exact Hin.
Qed.

Lemma sb_bindl_singleton {A B} (g : A -> B) : forall la l,
  bindl la (fun a => Ok [g a]) = Ok l -> l = map g la.
Proof.
  induction la as [|a la IH]; intros l H; cbn [bindl] in H.
  - injection H as <-. reflexivity.
  - cbn [bind] in H. apply sp_bind_ok in H. destruct H as [y [Hy H]]. injection H as <-.
    cbn [map app]. f_equal. apply IH. exact Hy.
Qed.

Section SemRel.
Variable e : env.
Variable P : node -> Prop.
Variable R : st -> st -> Prop.
Hypothesis R_refl : forall s, R s s.
Hypothesis R_trans : forall a b c, R a b -> R b c -> R a c.
Hypothesis R_leaf : forall f t s l, P t -> sb_leaf t = true -> sem e (S f) t s = Ok l -> Forall (R s) l.
Hypothesis R_repos : forall s s', R s s' -> R s (with_pos s' (pos s)).
Hypothesis R_capture : forall o g r s s',
  P (NCapture o g (-1) r) -> R s s' ->
  R s {| pos := pos s'; caps := cap_push g (span (pos s) (pos s')) (caps s') |}.
Hypothesis R_balance : forall o g u r s s' top rest,
  P (NCapture o g u r) -> R s s' -> cap_get u (caps s') = top :: rest ->
  R s {| pos := pos s';
         caps := if g =? -1 then cap_pop u (caps s')
                 else cap_push g (balance_span (pos s) (pos s') top) (cap_pop u (caps s')) |}.

Lemma sb_forall_trans s a l : R s a -> Forall (R a) l -> Forall (R s) l.
Proof. intros Hsa Hl. eapply Forall_impl; [|exact Hl]. intros c Hc. eapply R_trans; eassumption. Qed.

Lemma sb_bindr_rel (r : res (list st)) (f : st -> res (list st)) s l :
  (forall la, r = Ok la -> Forall (R s) la) ->
  (forall a l', f a = Ok l' -> Forall (R a) l') ->
  bindr r f = Ok l -> Forall (R s) l.
Proof.
  intros Hr Hf H. apply sp_bindr_ok in H. destruct H as [la [Hla H]].
  pose proof (Hr la Hla) as Fla.
  eapply sb_bindl_forall; [|exact H].
  intros a l' Hin Ha. apply sb_forall_trans with (a := a).
  - rewrite Forall_forall in Fla. apply Fla. exact Hin.
  - apply Hf. exact Ha.
Qed.

Lemma sb_appr_rel (a b : res (list st)) s l :
  (forall x, a = Ok x -> Forall (R s) x) -> (forall y, b = Ok y -> Forall (R s) y) ->
  appr a b = Ok l -> Forall (R s) l.
Proof.
  intros Ha Hb H. apply sp_appr_ok in H. destruct H as (x & y & Hx & Hy & ->).
  apply Forall_app. split; [apply Ha; exact Hx|apply Hb; exact Hy].
Qed.

Lemma sb_first_only_rel (r : res (list st)) s l :
  (forall x, r = Ok x -> Forall (R s) x) -> first_only r = Ok l -> Forall (R s) l.
Proof.
  intros Hr H. apply sp_first_only_ok in H. destruct H as (l0 & Hl0 & ->).
  pose proof (Hr l0 Hl0) as F. destruct l0 as [|a l0]; [constructor|].
  inversion F; subst. constructor; [assumption|constructor].
Qed.

Lemma sb_iter_rel (body : st -> res (list st)) :
  (forall s l, body s = Ok l -> Forall (R s) l) ->
  forall fuel lazy limit s mark count l,
    iter fuel body lazy limit s mark count = Ok l -> Forall (R s) l.
Proof.
  intros Hb. induction fuel as [|f IH]; intros lazy limit s mark count l H; [discriminate H|].
  cbn [iter] in H.
  assert (Hagain : forall la,
    bindr (body s) (fun s' => iter f body lazy limit s' (pos s) (count + 1)) = Ok la -> Forall (R s) la).
  { intros la. apply sb_bindr_rel; [apply Hb|]. intros a l'. apply IH. }
  assert (Hself : Forall (R s) [s]) by (constructor; [apply R_refl|constructor]).
  destruct lazy.
  - destruct (count <? 0); [exact (Hagain l H)|].
    revert H. apply sb_appr_rel.
    + intros x Hx. injection Hx as <-. exact Hself.
    + destruct ((count <? limit) && negb (pos s =? mark)); [exact Hagain|].
      intros y Hy. injection Hy as <-. constructor.
  - destruct ((limit <=? count) || ((pos s =? mark) && (0 <=? count))).
    + injection H as <-. exact Hself.
    + revert H. apply sb_appr_rel; [exact Hagain|].
      intros y Hy. injection Hy as <-. destruct (0 <=? count); [exact Hself|constructor].
Qed.

Theorem sb_sem_rel : forall fuel t s l,
  sb_all P t -> sem e fuel t s = Ok l -> Forall (R s) l.
Proof.
  induction fuel as [|f IH]; intros t s l HP H; [discriminate H|].
  pose proof (sb_all_here P t HP) as Ht.
  destruct t as [kd o c|kd lk o c m n|o str|o g|a| | | |o cl|o cl|lazy o m n r|o g u r|r|o r|o r|r
                |o g yes no|o c yes no];
    try (apply (R_leaf f _ s l Ht eq_refl H)); cbn [sem] in H; cbn [sb_all] in HP.
  - (* NConcat *)
    destruct HP as [_ HP]. clear Ht. revert s l H. induction cl as [|x cl IHl]; intros s l H.
    + injection H as <-. constructor; [apply R_refl|constructor].
    + destruct HP as [Hx Hcl]. revert H. apply sb_bindr_rel.
      * intros la. apply IH. exact Hx.
      * intros a l'. apply IHl. exact Hcl.
  - (* NAlternate *)
    destruct HP as [_ HP]. clear Ht. revert l H. induction cl as [|x cl IHl]; intros l H.
    + injection H as <-. constructor.
    + destruct HP as [Hx Hcl]. revert H. apply sb_appr_rel.
      * intros la. apply IH. exact Hx.
      * intros y. apply IHl. exact Hcl.
  - (* NLoop *)
    destruct HP as [_ HP].
    assert (HI : forall lazy limit s mark count l,
               iter f (sem e f r) lazy limit s mark count = Ok l -> Forall (R s) l).
    { apply sb_iter_rel. intros s0 l0. apply IH. exact HP. }
    destruct (m =? 0); [exact (HI _ _ _ _ _ _ H)|].
    revert H. apply sb_bindr_rel; [intros la; apply IH; exact HP|].
    intros a l'. apply HI.
  - (* NCapture *)
    destruct HP as [_ HP].
    destruct (u =? -1) eqn:Eu.
    + apply sp_bindr_ok in H. destruct H as [la [Hla H]].
      pose proof (IH _ _ _ HP Hla) as Fla.
      eapply sb_bindl_forall; [|exact H].
      intros a l' Hin Ha. injection Ha as <-. constructor; [|constructor].
      assert (u = -1) by lia. subst u.
      eapply R_capture; [exact Ht|]. rewrite Forall_forall in Fla. apply Fla. exact Hin.
    + apply sp_bindr_ok in H. destruct H as [la [Hla H]].
      pose proof (IH _ _ _ HP Hla) as Fla.
      eapply sb_bindl_forall; [|exact H].
      intros a l' Hin Ha. cbv beta in Ha. destruct (cap_get u (caps a)) as [|top rest] eqn:Eg.
      * injection Ha as <-. constructor.
      * injection Ha as <-. constructor; [|constructor].
        eapply R_balance; [exact Ht| |exact Eg]. rewrite Forall_forall in Fla. apply Fla. exact Hin.
  - (* NGroup *) destruct HP as [_ HP]. exact (IH _ _ _ HP H).
  - (* NPosLook *)
    destruct HP as [_ HP]. apply sp_bind_ok in H. destruct H as [l1 [H1 H]]. injection H as <-.
    assert (F1 : Forall (R s) l1).
    { revert H1. apply sb_first_only_rel. intros x. apply IH. exact HP. }
    rewrite Forall_forall in *. intros x Hx. apply in_map_iff in Hx. destruct Hx as (y & <- & Hy).
    apply R_repos. apply F1. exact Hy.
  - (* NNegLook *)
    apply sp_bind_ok in H. destruct H as [l1 [H1 H]]. injection H as <-.
    destruct l1; constructor; [apply R_refl|constructor].
  - (* NAtomic *)
    destruct HP as [_ HP]. revert H. apply sb_first_only_rel. intros x. apply IH. exact HP.
  - (* NBackRefCond *)
    destruct HP as [_ [Hy Hn]].
    destruct (is_matched g (caps s)); [exact (IH _ _ _ Hy H)|].
    destruct no as [n|]; [exact (IH _ _ _ Hn H)|].
    injection H as <-. constructor; [apply R_refl|constructor].
  - (* NExprCond *)
    destruct HP as [_ [Hc [Hy Hn]]].
    apply sp_bind_ok in H. destruct H as [l1 [H1 H]].
    assert (F1 : Forall (R s) l1).
    { revert H1. apply sb_first_only_rel. intros x. apply IH. exact Hc. }
    destruct l1 as [|s' l1].
    + destruct no as [n|]; [exact (IH _ _ _ Hn H)|].
      injection H as <-. constructor; [apply R_refl|constructor].
    + inversion F1; subst. apply sb_forall_trans with (a := with_pos s' (pos s)).
      * apply R_repos. assumption.
      * exact (IH _ _ _ Hy H).
Qed.

End SemRel.

Lemma sb_run_len_bounds e k c o : forall n p, 0 <= run_len e k c o n p <= Z.of_nat n.
Proof. exact (run_len_bounds e k c o). Qed.

(* every result of a leaf is the start state moved to another position *)
Lemma sb_leaf_shape e f t s l :
  sb_leaf t = true -> sem e (S f) t s = Ok l -> Forall (fun s' => exists q, s' = with_pos s q) l.
Proof.
  assert (Hs : s = with_pos s (pos s)) by (destruct s; reflexivity).
  destruct t; cbn [sb_leaf]; try discriminate; intros _ H; cbn [sem] in H; injection H as <-.
  - destruct ((0 <? avail e o (pos s)) && char_test e k c (next_char e o (pos s))); repeat constructor.
    eexists; reflexivity.
  - unfold sem_charloop. destruct (_ <? m); [constructor|].
    destruct l0; [| |repeat constructor; eexists; reflexivity];
      apply Forall_forall; intros x Hx; apply in_map_iff in Hx; destruct Hx as (j & <- & _);
      eexists; reflexivity.
  - unfold sem_multi. destruct (_ <? _); [constructor|]. destruct (str_match_at _ _ _ _); repeat constructor.
    eexists; reflexivity.
  - unfold sem_ref. destruct (cap_get g (caps s)) as [|[i len] rest].
    + destruct (ecma e); repeat constructor. exists (pos s). exact Hs.
    + destruct (_ <? _); [constructor|]. destruct (ref_match_at _ _ _ _ _); repeat constructor.
      eexists; reflexivity.
  - destruct (anchor_ok e a (pos s)); repeat constructor. exists (pos s). exact Hs.
  - constructor.
  - repeat constructor. exists (pos s). exact Hs.
  - repeat constructor. exists (pos s). exact Hs.
Qed.

Lemma sb_cap_get_set_same g l c : cap_get g (cap_set g l c) = l.
Proof.
  induction c as [|[g' l'] c IH]; cbn [cap_set cap_get].
  - rewrite Z.eqb_refl. reflexivity.
  - destruct (g =? g') eqn:E; cbn [cap_get]; rewrite ?Z.eqb_refl, ?E; [reflexivity|exact IH].
Qed.
Lemma sb_cap_get_set_other g g' l c : g <> g' -> cap_get g (cap_set g' l c) = cap_get g c.
Proof.
  intros Hne. induction c as [|[g2 l2] c IH]; cbn [cap_set cap_get].
  - replace (g =? g') with false by lia. reflexivity.
  - destruct (g' =? g2) eqn:E; cbn [cap_get].
    + assert (g' = g2) by lia. subst g2. replace (g =? g') with false by lia. reflexivity.
    + destruct (g =? g2); [reflexivity|exact IH].
Qed.

(* ================= C08: everything stays inside the input ================= *)
Definition sb_iv_ok (e : env) (iv : Z * Z) : Prop := 0 <= fst iv /\ 0 <= snd iv /\ fst iv + snd iv <= tlen e.
Definition sb_caps_ok (e : env) (c : caps_t) : Prop := Forall (fun gl => Forall (sb_iv_ok e) (snd gl)) c.
Definition st_ok (e : env) (s : st) : Prop := 0 <= pos s <= tlen e /\ sb_caps_ok e (caps s).

(* the only side condition: a single-character loop has a non-negative minimum count
   (the parser never produces another one; with m < 0 the reference semantics itself would
   step in front of the start position) *)
Definition sb_min_ok (t : node) : Prop :=
  match t with NCharLoop _ _ _ _ m _ => 0 <= m | _ => True end.
Definition loops_min_ok (t : node) : Prop := sb_all sb_min_ok t.

Lemma sb_caps_ok_get e g c : sb_caps_ok e c -> Forall (sb_iv_ok e) (cap_get g c).
Proof.
  unfold sb_caps_ok. induction c as [|[g' l'] c IH]; intros H; cbn [cap_get]; [constructor|].
  inversion H; subst. destruct (g =? g'); [assumption|apply IH; assumption].
Qed.
Lemma sb_caps_ok_set e g l c : sb_caps_ok e c -> Forall (sb_iv_ok e) l -> sb_caps_ok e (cap_set g l c).
Proof.
  unfold sb_caps_ok. induction c as [|[g' l'] c IH]; intros H Hl; cbn [cap_set].
  - constructor; [exact Hl|constructor].
  - inversion H; subst. destruct (g =? g'); constructor; cbn [snd]; try assumption.
    apply IH; assumption.
Qed.
Lemma sb_caps_ok_push e g iv c : sb_caps_ok e c -> sb_iv_ok e iv -> sb_caps_ok e (cap_push g iv c).
Proof.
  intros H Hiv. unfold cap_push. apply sb_caps_ok_set; [exact H|].
  constructor; [exact Hiv|apply sb_caps_ok_get; exact H].
Qed.
Lemma sb_caps_ok_pop e g c : sb_caps_ok e c -> sb_caps_ok e (cap_pop g c).
Proof.
  intros H. unfold cap_pop. apply sb_caps_ok_set; [exact H|].
  pose proof (sb_caps_ok_get e g c H) as F. destruct (cap_get g c); [constructor|].
  inversion F; assumption.
Qed.

Lemma sb_span_ok e a b : 0 <= a <= tlen e -> 0 <= b <= tlen e -> sb_iv_ok e (span a b).
Proof. unfold sb_iv_ok, span. cbn [fst snd]. lia. Qed.

(* the three cases of transferCapture: before, after, overlapping *)
Lemma sb_balance_span_ok e a b u :
  0 <= a <= tlen e -> 0 <= b <= tlen e -> sb_iv_ok e u -> sb_iv_ok e (balance_span a b u).
Proof.
  unfold sb_iv_ok, balance_span, span. destruct u as [s2 l2]. cbn [fst snd]. intros Ha Hb Hu.
  destruct (s2 + l2 <=? Z.min a b) eqn:E1; cbn [fst snd]; [lia|].
  destruct (Z.min a b + Z.abs (b - a) <=? s2) eqn:E2; cbn [fst snd]; lia.
Qed.

Lemma sb_leaf_ok e f t s l :
  sb_min_ok t -> sb_leaf t = true -> sem e (S f) t s = Ok l -> st_ok e s -> Forall (st_ok e) l.
Proof.
  intros Hm Hl H [Hp Hc].
  assert (Hself : st_ok e s) by (split; assumption).
  assert (Hmv : forall q, 0 <= q <= tlen e -> st_ok e (with_pos s q)).
  { intros q Hq. split; [exact Hq|exact Hc]. }
  assert (Hone : forall x, st_ok e x -> Forall (st_ok e) [x]).
  { intros x Hx. constructor; [exact Hx|constructor]. }
  destruct t; cbn [sb_leaf] in Hl; try discriminate; cbn [sem] in H; injection H as <-.
  - (* NChar *)
    destruct ((0 <? avail e o (pos s)) && char_test e k c (next_char e o (pos s))) eqn:E; [|constructor].
    apply Hone, Hmv. unfold avail, dir in *. destruct (is_rtl o); lia.
  - (* NCharLoop *)
    cbn [sb_min_ok] in Hm. unfold sem_charloop.
    set (cap := if n =? INF then avail e o (pos s) else Z.min n (avail e o (pos s))).
    pose proof (sb_run_len_bounds e k c o (Z.to_nat cap) (pos s)) as Hr.
    set (r := run_len e k c o (Z.to_nat cap) (pos s)) in *.
    assert (Hav : 0 <= avail e o (pos s)) by (unfold avail; destruct (is_rtl o); lia).
    assert (Hcap : cap <= avail e o (pos s)) by (subst cap; destruct (n =? INF); lia).
    assert (Hj : forall j, m <= j <= r -> st_ok e (with_pos s (pos s + dir o * j))).
    { intros j Hjr. apply Hmv. unfold avail, dir in *. destruct (is_rtl o); lia. }
    destruct (r <? m) eqn:Erm; [constructor|].
    destruct l0.
    + apply Forall_forall. intros x Hx. apply in_map_iff in Hx. destruct Hx as (j & <- & Hin).
      apply count_down_in in Hin. apply Hj. lia.
    + apply Forall_forall. intros x Hx. apply in_map_iff in Hx. destruct Hx as (j & <- & Hin).
      apply count_up_in in Hin. apply Hj. lia.
    + apply Hone, Hj. lia.
  - (* NMulti *)
    unfold sem_multi. destruct (avail e o (pos s) <? zlen s0) eqn:E; [constructor|].
    destruct (str_match_at _ _ _ _); [|constructor].
    apply Hone, Hmv. pose proof (Zle_0_nat (length s0)). unfold zlen, avail, dir in *. destruct (is_rtl o); lia.
  - (* NRef *)
    unfold sem_ref. pose proof (sb_caps_ok_get e g (caps s) Hc) as Fg.
    destruct (cap_get g (caps s)) as [|[i len] rest].
    + destruct (ecma e); [apply Hone; exact Hself|constructor].
    + inversion Fg as [|? ? Hiv _]; subst. unfold sb_iv_ok in Hiv. cbn [fst snd] in Hiv.
      destruct (avail e o (pos s) <? len) eqn:E; [constructor|].
      destruct (ref_match_at _ _ _ _ _); [|constructor].
      apply Hone, Hmv. unfold avail, dir in *. destruct (is_rtl o); lia.
  - destruct (anchor_ok e a (pos s)); [apply Hone; exact Hself|constructor].
  - constructor.
  - apply Hone; exact Hself.
  - apply Hone; exact Hself.
Qed.

Theorem sb_sem_in_bounds e fuel t s l :
  loops_min_ok t -> sem e fuel t s = Ok l -> st_ok e s -> Forall (st_ok e) l.
Proof.
  intros HP H Hs.
  pose proof (sb_sem_rel e sb_min_ok (fun a b => st_ok e a -> st_ok e b)) as G.
  assert (F : Forall (fun b => st_ok e s -> st_ok e b) l).
  { apply (G) with (fuel := fuel) (t := t); try assumption.
    - intros a Ha. exact Ha.
    - intros a b c Hab Hbc Ha. apply Hbc. apply Hab. exact Ha.
    - intros f t0 s0 l0 Hm Hl H0. apply Forall_forall. intros x Hx Hs0.
      pose proof (sb_leaf_ok e f t0 s0 l0 Hm Hl H0 Hs0) as F0. rewrite Forall_forall in F0. apply F0. exact Hx.
    - intros s0 s' Hss Hs0. specialize (Hss Hs0). destruct Hs0 as [Hp0 _], Hss as [_ Hc'].
      split; [exact Hp0|exact Hc'].
    - intros o g r s0 s' _ Hss Hs0. specialize (Hss Hs0). destruct Hs0 as [Hp0 _], Hss as [Hp' Hc'].
      split; cbn [pos caps]; [exact Hp'|]. apply sb_caps_ok_push; [exact Hc'|]. apply sb_span_ok; assumption.
    - intros o g u r s0 s' top rest _ Hss Eg Hs0. specialize (Hss Hs0).
      destruct Hs0 as [Hp0 _], Hss as [Hp' Hc'].
      split; cbn [pos caps]; [exact Hp'|].
      destruct (g =? -1); [apply sb_caps_ok_pop; exact Hc'|].
      apply sb_caps_ok_push; [apply sb_caps_ok_pop; exact Hc'|].
      apply sb_balance_span_ok; try assumption.
      pose proof (sb_caps_ok_get e u (caps s') Hc') as Fu. rewrite Eg in Fu. inversion Fu; assumption. }
  eapply Forall_impl; [|exact F]. intros b Hb. apply Hb. exact Hs.
Qed.

Lemma sb_init_ok e p : 0 <= p <= tlen e -> st_ok e {| pos := p; caps := [] |}.
Proof. intros Hp. split; [exact Hp|constructor]. Qed.

Corollary sb_attempt_in_bounds e fuel root p s :
  loops_min_ok root -> 0 <= p <= tlen e -> attempt e fuel root p = Ok (Some s) -> st_ok e s.
Proof.
  intros HP Hp H. unfold attempt in H. apply sp_bind_ok in H. destruct H as [l [Hl H]].
  pose proof (sb_sem_in_bounds e fuel root _ l HP Hl (sb_init_ok e p Hp)) as F.
  destruct l as [|s0 l]; [discriminate|]. injection H as <-. inversion F; assumption.
Qed.

Lemma sb_scan_in_bounds e fuel root rtl : forall n p s,
  loops_min_ok root -> 0 <= p <= tlen e -> scan_from e fuel n root rtl p = Ok (Some s) -> st_ok e s.
Proof.
  induction n as [|n IH]; intros p s HP Hp H; cbn [scan_from] in H; [discriminate|].
  apply sp_bind_ok in H. destruct H as [r [Hr H]]. destruct r as [s0|].
  - injection H as <-. eapply sb_attempt_in_bounds; eassumption.
  - destruct (if rtl then p <=? 0 else tlen e <=? p) eqn:E; [discriminate|].
    eapply IH; [exact HP| |exact H]. destruct rtl; lia.
Qed.

Corollary sb_find_in_bounds e fuel root rtl start prevlen s :
  loops_min_ok root -> 0 <= start <= tlen e ->
  find e fuel root rtl start prevlen = Ok (Some s) -> st_ok e s.
Proof.
  intros HP Hs. unfold find.
  destruct ((prevlen =? 0) && (start =? (if rtl then 0 else tlen e))) eqn:E; [discriminate|].
  apply sb_scan_in_bounds; [exact HP|]. destruct (prevlen =? 0), rtl; cbn [andb] in E; lia.
Qed.

(* [st_ok] as property C08 states it: every capture of every group lies inside the text *)
Lemma sb_st_ok_capture e s g i len :
  st_ok e s -> In (i, len) (cap_get g (caps s)) -> 0 <= i /\ 0 <= len /\ i + len <= tlen e.
Proof.
  intros [_ Hc] Hin. pose proof (sb_caps_ok_get e g (caps s) Hc) as F.
  rewrite Forall_forall in F. exact (F _ Hin).
Qed.

(* ================= C08: group 0 has exactly one capture, the match ================= *)
Definition sb_not0 (t : node) : Prop :=
  match t with NCapture _ g u _ => g <> 0 /\ u <> 0 | _ => True end.
(* no node of the body writes or balances group 0 *)
Definition no_group0 (body : node) : Prop := sb_all sb_not0 body.

Lemma sb_group0_unchanged e fuel body s l :
  no_group0 body -> sem e fuel body s = Ok l ->
  Forall (fun s' => cap_get 0 (caps s') = cap_get 0 (caps s)) l.
Proof.
  intros HP H.
  apply (sb_sem_rel e sb_not0 (fun a b => cap_get 0 (caps b) = cap_get 0 (caps a))) with (fuel := fuel) (t := body);
    try assumption.
  - reflexivity.
  - intros a b c Hab Hbc. congruence.
  - intros f t s0 l0 _ Hl H0. pose proof (sb_leaf_shape e f t s0 l0 Hl H0) as F.
    eapply Forall_impl; [|exact F]. intros x [q ->]. reflexivity.
  - intros s0 s' Hss. exact Hss.
  - intros o g r s0 s' [Hg _] Hss. cbn [caps]. unfold cap_push.
    rewrite sb_cap_get_set_other by lia. exact Hss.
  - intros o g u r s0 s' top rest [Hg Hu] Hss _. cbn [caps].
    destruct (g =? -1); unfold cap_push, cap_pop; rewrite !sb_cap_get_set_other by lia; exact Hss.
Qed.

Theorem sb_group0_single e fuel o body p s' :
  no_group0 body ->
  attempt e fuel (NCapture o 0 (-1) body) p = Ok (Some s') ->
  cap_get 0 (caps s') = [(Z.min p (pos s'), Z.abs (pos s' - p))].
Proof.
  intros HP H. unfold attempt in H. apply sp_bind_ok in H. destruct H as [l [Hl H]].
  destruct fuel as [|f]; [discriminate|]. cbn [sem] in Hl.
  change (-1 =? -1) with true in Hl. cbv iota in Hl.
  apply sp_bindr_ok in Hl. destruct Hl as [la [Hla Hl]].
  apply sb_bindl_singleton in Hl. subst l.
  pose proof (sb_group0_unchanged e f body _ la HP Hla) as F.
  destruct la as [|a la]; [discriminate|]. cbn [map] in H. injection H as <-.
  inversion F as [|? ? Ha _]; subst. cbn [pos caps] in *.
  unfold cap_push. rewrite sb_cap_get_set_same. rewrite Ha. reflexivity.
Qed.

(* ---------- names used by the property file ---------- *)
Theorem C08_spec_captures_in_bounds :
  forall e fuel root rtl start prevlen s,
    loops_min_ok root -> 0 <= start <= tlen e ->
    find e fuel root rtl start prevlen = Ok (Some s) ->
    0 <= pos s <= tlen e /\
    forall g i len, In (i, len) (cap_get g (caps s)) -> 0 <= i /\ 0 <= len /\ i + len <= tlen e.
Proof.
  intros e fuel root rtl start prevlen s HP Hs H.
  pose proof (sb_find_in_bounds e fuel root rtl start prevlen s HP Hs H) as Hok.
  split; [exact (proj1 Hok)|]. intros g i len. apply sb_st_ok_capture. exact Hok.
Qed.

Theorem C08_spec_group0_single :
  forall e fuel o body p s',
    no_group0 body ->
    attempt e fuel (NCapture o 0 (-1) body) p = Ok (Some s') ->
    cap_get 0 (caps s') = [(Z.min p (pos s'), Z.abs (pos s' - p))].
Proof. exact sb_group0_single. Qed.

(* ---------- non-vacuity and the reason for the side condition ---------- *)
Definition sb_demo_env (t : list Z) : env :=
  {| txt := t; tstart := 0; ecma := false; endz_strict := false; set_in := fun _ _ => false;
     lower := fun x => x; is_word := fun _ => false; is_eword := fun _ => false |}.

(* (?<1>a)(?<2-1>b) under the root capture, on "ab": hypotheses hold, the attempt succeeds, group 2
   receives the balanced interval and group 0 is the whole match *)
Example sb_witness_balancing :
  let root_body := NConcat 0 [NCapture 0 1 (-1) (NChar COne 0 97); NCapture 0 2 1 (NChar COne 0 98)] in
  loops_min_ok (NCapture 0 0 (-1) root_body) /\ no_group0 root_body /\
  attempt (sb_demo_env [97; 98]) 10 (NCapture 0 0 (-1) root_body) 0 =
    Ok (Some {| pos := 2; caps := [(1, []); (2, [(1, 0)]); (0, [(0, 2)])] |}).
Proof. cbv zeta. split; [|split]; [cbn; tauto| |vm_compute; reflexivity].
  unfold no_group0. cbn. repeat split; discriminate. Qed.

(* a single-character loop with a negative minimum (never produced by the parser) makes the
   reference semantics itself step in front of position 0: the side condition is needed *)
Example sb_witness_min_needed :
  sem (sb_demo_env [98]) 1 (NCharLoop COne LGreedy 0 97 (-1) 1) {| pos := 0; caps := [] |} =
  Ok [{| pos := 0; caps := [] |}; {| pos := -1; caps := [] |}].
Proof. vm_compute. reflexivity. Qed.

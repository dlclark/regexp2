(* Proofs about Model/Clock.v (property C14).  All theorems are by induction over the action list
   of an arbitrary schedule; the invariant [Inv] is the heart. *)
From Coq Require Import ZifyBool.
From Verif Require Import Base.Prelude Model.Clock.
(* lia sees / and mod through their defining equations (in this file only: the redefinition does not reach importers) *)
Ltac Zify.zify_post_hook ::= Z.div_mod_to_equations.

Lemma ticks_div x : ticks x = x / 1048576.
Proof.
  unfold ticks, tick_shift. rewrite Z.shiftr_div_pow2 by lia.
  change (2 ^ 20) with 1048576. reflexivity.
Qed.

Lemma slop_val : slop_ticks = 953.
Proof. reflexivity. Qed.

Lemma wrap64_id z : 0 <= z <= max_dur -> wrap64 z = z.
Proof. unfold wrap64, max_dur. intros H. lia. Qed.

Global Opaque ticks slop_ticks wrap64.

Ltac tk := rewrite ?ticks_div, ?slop_val in *; unfold tick_ns in *; lia.

Ltac sg := cbn [cur cend start running mu now gs ths set_cur set_cend set_start set_running set_mu set_now unlock dur_since].

(* H : tstep .. t = Some (G', t', sp) with t a constructor: one goal per branch of that action *)
Ltac tstep_cases H :=
  cbn [tstep] in H; unfold lock in H;
  try match type of H with context [match mu ?g with _ => _ end] => destruct (mu g) eqn:? end;
  repeat match type of H with context [match ?c with _ => _ end] => destruct c eqn:? end;
  try discriminate H; inversion H; subst; clear H.

Lemma nth_error_upd_eq {A} (l : list A) i x y :
  nth_error l i = Some y -> nth_error (upd i x l) i = Some x.
Proof.
  revert i. induction l as [|a l IH]; intros [|i] H; cbn in *; try discriminate; auto.
Qed.

Lemma nth_error_upd_neq {A} (l : list A) i j x :
  i <> j -> nth_error (upd i x l) j = nth_error l j.
Proof.
  revert i j. induction l as [|a l IH]; intros [|i] [|j] H; cbn; auto; try congruence.
Qed.

Lemma length_upd {A} (l : list A) i x : length (upd i x l) = length l.
Proof. revert i. induction l as [|a l IH]; intros [|i]; cbn; auto. Qed.

Lemma nth_error_lt {A} (l : list A) i x : nth_error l i = Some x -> (i < length l)%nat.
Proof. intros H. apply nth_error_Some. congruence. Qed.

(* the thread list after a step of thread i that spawns sp *)
Lemma nth_new {A} (l sp : list A) i x y j z :
  nth_error l i = Some y ->
  nth_error (upd i x l ++ sp) j = Some z ->
  (j = i /\ z = x) \/ (j <> i /\ nth_error l j = Some z) \/
  (exists k, j = (length l + k)%nat /\ nth_error sp k = Some z).
Proof.
  intros Hi Hj.
  destruct (Nat.lt_ge_cases j (length l)) as [Hlt|Hge].
  - rewrite nth_error_app1 in Hj by (rewrite length_upd; exact Hlt).
    destruct (Nat.eq_dec j i) as [->|Hne].
    + rewrite (nth_error_upd_eq _ _ _ _ Hi) in Hj. left. split; congruence.
    + rewrite nth_error_upd_neq in Hj by congruence. right. left. auto.
  - rewrite nth_error_app2 in Hj by (rewrite length_upd; exact Hge).
    rewrite length_upd in Hj. right. right. exists (j - length l)%nat. split; [lia | exact Hj].
Qed.

Lemma nth_old {A} (l sp : list A) i x y j z :
  nth_error l i = Some y -> j <> i -> nth_error l j = Some z ->
  nth_error (upd i x l ++ sp) j = Some z.
Proof.
  intros Hi Hne Hj. rewrite nth_error_app1 by (rewrite length_upd; eapply nth_error_lt; eauto).
  rewrite nth_error_upd_neq by congruence. exact Hj.
Qed.

Lemma nth_self {A} (l sp : list A) i x y :
  nth_error l i = Some y -> nth_error (upd i x l ++ sp) i = Some x.
Proof.
  intros Hi. rewrite nth_error_app1 by (rewrite length_upd; eapply nth_error_lt; eauto).
  eapply nth_error_upd_eq; eauto.
Qed.

Lemma nth_spawn {A} (l : list A) i x z :
  nth_error (upd i x l ++ [z]) (length l) = Some z.
Proof.
  rewrite nth_error_app2 by (rewrite length_upd; lia). rewrite length_upd, Nat.sub_diag. reflexivity.
Qed.

Lemma nth_snoc {A} (l : list A) x j z :
  nth_error (l ++ [x]) j = Some z -> nth_error l j = Some z \/ (j = length l /\ z = x).
Proof.
  intros Hj. destruct (Nat.lt_ge_cases j (length l)) as [Hlt|Hge].
  - rewrite nth_error_app1 in Hj by exact Hlt. left. exact Hj.
  - rewrite nth_error_app2 in Hj by exact Hge. right.
    destruct (j - length l)%nat as [|k] eqn:Ek; [|destruct k; discriminate Hj].
    inversion Hj. split; [lia | reflexivity].
Qed.

(* ---------- the invariant (patched code, fx = true) ---------- *)
Section Inv.
Variables period lag : Z.
Hypothesis Hper : 0 <= period.
Hypothesis Hlag : 0 <= lag.

Notation kd := (kd period).

(* current is at least as recent as real time x *)
Definition fresh (G : gst) (x : Z) : Prop :=
  match start G with Some s => ticks (x - s) <= cur G | None => True end.

(* goroutine holds fast.mu at this program counter *)
Definition holds (t : thr) : bool :=
  match t with
  | MChk _ _ _ | MWr _ _ _ _ | E1 _ _ _ | E2 _ _ _ | E3 _ _ _ | E4 _ _ _
  | R1 _ | R2 _ | R5 _ | R6 _ _ | R7 _ | R8 _ | S1 | S2 | S4 | S5 _ => true
  | _ => false
  end.

Definition bnd (G : gst) (t0 : Z) : Prop := t0 <= now G <= t0 + lag.

(* the deadline is not too small / not too large relative to the call time t0 *)
Definition elow (G : gst) (d t0 e : Z) : Prop :=
  match start G with
  | Some s => ticks (t0 - (period + 2 * lag) - s) + kd d <= e
  | None => kd d <= e
  end.
Definition eupL (G : gst) (d t0 e : Z) : Prop :=
  match start G with
  | Some s => s <= t0 + lag /\ e <= ticks (t0 + lag - s) + kd d
  | None => e <= kd d
  end.
Definition eup (G : gst) (d t0 e : Z) : Prop :=
  exists s, start G = Some s /\ s <= t0 + lag /\ e <= ticks (t0 + lag - s) + kd d.

Definition no_early_ok (d t0 tm : Z) : Prop :=
  0 <= d -> d + period <= max_dur -> t0 + d - early_slack lag <= tm.

Definition cinv (G : gst) (last : Z) : Prop :=
  last <= now G <= last + period + lag /\ fresh G (last - lag) /\ start G <> None.

Definition wr_ok (G : gst) (tr : Z) : Prop :=
  exists s, start G = Some s /\ cur G <= ticks (tr - s).

Definition pinv (G : gst) (t : thr) : Prop :=
  match t with
  | MStart d t0 => bnd G t0
  | MRead2 d t0 ce =>
      bnd G t0 /\ (ce <= cur G \/ fresh G (t0 - (period + 2 * lag))) /\ (start G = None -> ce = 0)
  | MLock d t0 e => bnd G t0
  | MChk d t0 e => bnd G t0
  | MWr d t0 e tr => bnd G t0 /\ t0 <= tr <= now G /\ running G = false /\ wr_ok G tr
  | MUnl _ _ _ | ELock _ _ _ => False
  | E1 d t0 e => bnd G t0 /\ elow G d t0 e /\ eupL G d t0 e /\ (running G = false -> fresh G t0)
  | E2 d t0 e => bnd G t0 /\ elow G d t0 e /\ eupL G d t0 e /\ (running G = false -> fresh G t0)
                 /\ start G <> None
  | E3 d t0 e => bnd G t0 /\ elow G d t0 e /\ eupL G d t0 e /\ (running G = false -> fresh G t0)
                 /\ start G <> None /\ e + slop_ticks <= cend G
  | E4 d t0 e => bnd G t0 /\ elow G d t0 e /\ eupL G d t0 e /\ start G <> None
                 /\ e + slop_ticks <= cend G
  | MRet d t0 e => t0 <= now G /\ (1 <= kd d -> elow G d t0 e) /\ (e <= 0 \/ eup G d t0 e)
  | MTimedOut d t0 e tm => no_early_ok d t0 tm
  | MDone _ _ _ => True
  | R0 last | R1 last | R2 last | R3 last _ | R4 last | R5 last => cinv G last
  | R6 last tr => cinv G last /\ last <= tr <= now G /\ wr_ok G tr
  | R7 last => cinv G last /\ cend G < cur G
  | R8 last => last <= now G <= last + period + lag
  | RDone | S0 | S1 | S2 | S3 | S4 | S5 _ | SDone => True
  end.

Definition tinv (G : gst) (j : nat) (t : thr) : Prop :=
  (holds t = true <-> mu G = Some j) /\ pinv G t.

Definition upper (G : gst) : Prop :=
  match start G with
  | Some s => s <= now G /\ cur G <= ticks (now G - s)
  | None => cur G = 0 /\ cend G = 0 /\ running G = false
  end.

Definition at_E3 (t : thr) : bool :=
  match t with E3 _ _ _ => true | _ => false end.

Record Inv (s : st) : Prop := {
  i_thr : forall j t, nth_error (ths s) j = Some t -> tinv (gs s) j t;
  i_up : upper (gs s);
  i_cur0 : 0 <= cur (gs s);
  i_mu : forall j, mu (gs s) = Some j -> (j < length (ths s))%nat;
  i_run : running (gs s) = true ->
          exists j t, nth_error (ths s) j = Some t /\ active t = true;
  i_stop : running (gs s) = false ->
           (exists j t, nth_error (ths s) j = Some t /\ at_E3 t = true) \/ cend (gs s) <= cur (gs s)
}.

(* what one step of goroutine i may change in the shared state *)
Definition gchg (i : nat) (G G' : gst) : Prop :=
  now G' = now G /\
  cur G <= cur G' /\
  (cur G' <> cur G \/ cend G' <> cend G \/ running G' <> running G \/ start G' <> start G ->
   mu G = Some i) /\
  (start G' = start G \/ (start G = None /\ start G' = Some (now G) /\ cur G' = cur G)) /\
  (mu G' = mu G \/ (mu G = None /\ mu G' = Some i) \/ (mu G = Some i /\ mu G' = None)).


Lemma kd_plain d : 0 <= d -> d + period <= max_dur -> kd d = ticks (d + period).
Proof. intros. unfold Clock.kd. rewrite wrap64_id; auto. lia. Qed.

Lemma fresh_le G x y : fresh G x -> y <= x -> fresh G y.
Proof. unfold fresh. destruct (start G); tk. Qed.

Lemma fresh_unstarted G x : start G = None -> fresh G x.
Proof. unfold fresh. intros ->. exact I. Qed.

(* current only grows and start is only ever set to the present time: what was fresh stays so *)
Lemma fresh_chg i G G' x :
  gchg i G G' -> 0 <= cur G -> x <= now G -> fresh G x -> fresh G' x.
Proof.
  intros (_ & Hc & _ & Hs & _) H0 Hx. unfold fresh.
  destruct Hs as [->|(-> & -> & ->)]; [destruct (start G)|]; tk.
Qed.

Lemma cinv_chg i G G' last : gchg i G G' -> 0 <= cur G -> cinv G last -> cinv G' last.
Proof.
  intros Hg H0 (Hb & Hf & Hst). pose proof Hg as (Hn & _ & _ & Hs & _).
  unfold cinv. rewrite Hn. split; [exact Hb|]. split.
  - apply (fresh_chg i G); auto. lia.
  - destruct Hs as [Hs|(Hs & _)]; congruence.
Qed.

(* current is never ahead of real time *)
Lemma upper_some G s x :
  upper G -> start G = Some s -> now G <= x -> s <= x /\ cur G <= ticks (x - s).
Proof. unfold upper. intros Hu Hs Hx. rewrite Hs in Hu. tk. Qed.

Lemma upper_none G : upper G -> start G = None -> cur G = 0 /\ cend G = 0 /\ running G = false.
Proof. unfold upper. intros Hu Hs. rewrite Hs in Hu. exact Hu. Qed.

(* clockEnd and running are only written once the clock has been started *)
Lemma upper_started G G' :
  upper G -> start G <> None -> start G' = start G -> cur G' = cur G -> now G' = now G -> upper G'.
Proof. unfold upper. intros Hu Hs -> -> ->. destruct (start G); [exact Hu | congruence]. Qed.

Lemma wr_ok_now G : upper G -> start G <> None -> wr_ok G (now G).
Proof.
  intros Hu Hs. unfold wr_ok. destruct (start G) as [s0|] eqn:Es; [|congruence].
  exists s0. split; [reflexivity|]. apply (upper_some G s0 (now G) Hu Es). lia.
Qed.

(* current.write(time.Since(start)) for a time reading tr made under the lock *)
Lemma write_cur G tr (G' := set_cur G (ticks (dur_since (start G) tr))) :
  upper G -> wr_ok G tr -> tr <= now G -> cur G <= cur G' /\ upper G' /\ fresh G' tr.
Proof.
  intros Hu (s0 & Hs & Hc) Ht. unfold upper, fresh in *. subst G'. sg. rewrite Hs in *. sg. tk.
Qed.

Lemma pinv_ext G G' t :
  cur G' = cur G -> cend G' = cend G -> running G' = running G -> start G' = start G ->
  now G' = now G -> pinv G t -> pinv G' t.
Proof.
  intros H1 H2 H3 H4 H5.
  destruct t; cbn [pinv]; unfold bnd, elow, eupL, eup, fresh, cinv, wr_ok, fresh;
    rewrite ?H1, ?H2, ?H3, ?H4, ?H5; auto.
Qed.

Lemma frame i j G G' t :
  gchg i G G' -> 0 <= cur G -> j <> i -> tinv G j t -> tinv G' j t.
Proof using Hper Hlag.
  intros Hg H0 Hne [Hh Hp]. pose proof Hg as (Hn & Hc & Hw & Hs & Hm).
  destruct (holds t) eqn:Eh.
  - (* t holds the lock, so i does not: nothing it reads changed *)
    assert (Hmu : mu G = Some j) by (apply Hh; reflexivity).
    assert (Hni : mu G <> Some i) by (rewrite Hmu; congruence).
    assert (cur G' = cur G) by (destruct (Z.eq_dec (cur G') (cur G)); auto; exfalso; apply Hni, Hw; auto).
    assert (cend G' = cend G) by (destruct (Z.eq_dec (cend G') (cend G)); auto; exfalso; apply Hni, Hw; auto).
    assert (running G' = running G) by (destruct (Bool.bool_dec (running G') (running G)); auto; exfalso; apply Hni, Hw; auto).
    assert (start G' = start G).
    { destruct Hs as [Hs|(Hs & Hs' & _)]; auto. exfalso. apply Hni, Hw. right. right. right.
      congruence. }
    assert (mu G' = mu G).
    { destruct Hm as [Hm|[(Hm & _)|(Hm & _)]]; auto; congruence. }
    split; [rewrite H4, Eh; exact Hh | eapply pinv_ext; eauto].
  - assert (Hmu : mu G <> Some j) by (intro X; apply Hh in X; discriminate).
    assert (Hmu' : mu G' <> Some j).
    { destruct Hm as [Hm|[(_ & Hm)|(_ & Hm)]]; rewrite Hm; congruence. }
    split; [rewrite Eh; split; [discriminate | intro X; contradiction] |].
    destruct t; cbn [holds] in Eh; try discriminate; cbn [pinv] in *;
      unfold bnd in *; rewrite ?Hn; eauto using cinv_chg.
    + (* MRead2 *)
      destruct Hp as (Hb & Hf & Hz). split; [exact Hb|]. split.
      * destruct Hf as [Hf|Hf]; [left; lia | right; apply (fresh_chg i G); auto; lia].
      * intros Hs'. apply Hz. destruct Hs as [Hs|(_ & Hs & _)]; congruence.
    + (* MRet *)
      unfold elow, eup in *. destruct Hp as (Hb & Hl & Hu). split; [exact Hb|].
      destruct Hs as [Hs|(Hs & Hs' & Hcc)].
      * rewrite Hs. split; [exact Hl | exact Hu].
      * rewrite Hs'. rewrite Hs in Hl. split.
        -- intro K. specialize (Hl K). tk.
        -- destruct Hu as [Hu|(s & Hu & _)]; [left; exact Hu | congruence].
Qed.

Notation tstepF := (tstep true period).
Notation stepF := (step true period lag).
Notation runF := (run true period lag).

(* ---------- one step of goroutine i: what is left to show about the action itself ---------- *)
Lemma inv_step_gen s i t G' t' sp :
  Inv s -> nth_error (ths s) i = Some t ->
  gchg i (gs s) G' ->
  tinv G' i t' ->
  (forall k x, nth_error sp k = Some x -> tinv G' (length (ths s) + k) x) ->
  upper G' ->
  (running G' = true ->
   (running (gs s) = true /\ implb (active t) (active t') = true) \/
   exists k x, nth_error sp k = Some x /\ active x = true) ->
  (running G' = false ->
   at_E3 t' = true \/ cend G' <= cur G' \/
   (running (gs s) = false /\ cend G' = cend (gs s) /\ at_E3 t = false)) ->
  Inv (mkSt G' (upd i t' (ths s) ++ sp)).
Proof.
  intros HI Hi Hg Ht' Hsp Hup Hrun Hstop.
  pose proof Hg as (Hn & Hc & Hw & Hs & Hm).
  constructor; cbn [gs ths].
  - intros j x Hj. destruct (nth_new _ _ _ _ _ _ _ Hi Hj) as [(-> & ->)|[(Hne & Hj')|(k & -> & Hk)]].
    + exact Ht'.
    + eapply frame; eauto using i_cur0, i_thr.
    + eauto.
  - exact Hup.
  - pose proof (i_cur0 _ HI). lia.
  - intros j Hj. rewrite app_length, length_upd.
    assert (i < length (ths s))%nat by (eapply nth_error_lt; eauto).
    destruct Hm as [Hm|[(_ & Hm)|(_ & Hm)]]; rewrite Hm in Hj.
    + apply (i_mu _ HI) in Hj. lia.
    + inversion Hj. lia.
    + discriminate.
  - intros Hr. destruct (Hrun Hr) as [(Hr0 & Hact)|(k & x & Hk & Hx)].
    + destruct (i_run _ HI Hr0) as (j & x & Hj & Hx).
      destruct (Nat.eq_dec j i) as [->|Hne].
      * exists i, t'. split; [eapply nth_self; eauto|].
        rewrite Hi in Hj. inversion Hj; subst x. rewrite Hx in Hact. exact Hact.
      * exists j, x. split; [eapply nth_old; eauto | exact Hx].
    + exists (length (ths s) + k)%nat, x. split; [|exact Hx].
      rewrite nth_error_app2 by (rewrite length_upd; lia). rewrite length_upd.
      replace (length (ths s) + k - length (ths s))%nat with k by lia. exact Hk.
  - intros Hr. destruct (Hstop Hr) as [He|[Hle|(Hr0 & Hce & Hne3)]].
    + left. exists i, t'. split; [eapply nth_self; eauto | exact He].
    + right. exact Hle.
    + destruct (i_stop _ HI Hr0) as [(j & x & Hj & Hx)|Hle].
      * left. exists j, x. split; [|exact Hx]. eapply nth_old; eauto.
        intros ->. rewrite Hi in Hj. inversion Hj; subst x. congruence.
      * right. lia.
Qed.

Lemma no_spawn {A} (P : nat -> A -> Prop) : forall k y, nth_error (@nil A) k = Some y -> P k y.
Proof. intros [|k] y H; discriminate H. Qed.

Lemma set_mu_id G : set_mu G (mu G) = G.
Proof. destruct G; reflexivity. Qed.

(* an action that writes no shared variable other than fast.mu: the pc invariant of the new pc is
   shown in the old state, the rest is bookkeeping on program counters *)
Lemma inv_step_mu s i t m t' :
  Inv s -> nth_error (ths s) i = Some t ->
  m = mu (gs s) \/ (mu (gs s) = None /\ m = Some i) \/ (mu (gs s) = Some i /\ m = None) ->
  (holds t' = true <-> m = Some i) ->
  pinv (gs s) t' ->
  implb (active t) (active t') = true ->
  implb (at_E3 t) (at_E3 t' || running (gs s)) = true ->
  Inv (mkSt (set_mu (gs s) m) (upd i t' (ths s) ++ [])).
Proof.
  intros HI Hi Hm Hh Hp Ha He.
  apply (inv_step_gen s i t _ _ _ HI Hi).
  - unfold gchg; sg. repeat split; auto; try lia.
    intros [X|[X|[X|X]]]; congruence.
  - split; [exact Hh | exact (pinv_ext _ _ _ eq_refl eq_refl eq_refl eq_refl eq_refl Hp)].
  - apply no_spawn.
  - exact (i_up _ HI).
  - intros Hr. left. split; [exact Hr | exact Ha].
  - sg. intros Hr. rewrite Hr, orb_false_r in He.
    destruct (at_E3 t); [left; exact He | right; right; auto].
Qed.

Lemma inv_local s i t t' :
  Inv s -> nth_error (ths s) i = Some t ->
  holds t' = holds t -> pinv (gs s) t' ->
  implb (active t) (active t') = true ->
  implb (at_E3 t) (at_E3 t' || running (gs s)) = true ->
  Inv (mkSt (gs s) (upd i t' (ths s) ++ [])).
Proof.
  intros HI Hi Hh Hp Ha He.
  pose proof (inv_step_mu s i t (mu (gs s)) t' HI Hi) as H. rewrite set_mu_id in H.
  apply H; auto. rewrite Hh. apply (i_thr _ HI _ _ Hi).
Qed.

(* fast.mu.Lock(), in the shape tstep has it *)
Lemma inv_lock s i t t1 G' t' sp :
  Inv s -> nth_error (ths s) i = Some t ->
  match lock i (gs s) with Some g1 => Some (g1, t1, []) | None => None end = Some (G', t', sp) ->
  holds t1 = true -> pinv (gs s) t1 ->
  implb (active t) (active t1) = true -> at_E3 t = false ->
  Inv (mkSt G' (upd i t' (ths s) ++ sp)).
Proof.
  unfold lock. intros HI Hi Hl Hh Hp Ha He.
  destruct (mu (gs s)) eqn:Emu; [discriminate|]. inversion Hl; subst; clear Hl.
  apply (inv_step_mu s i t); auto.
  - split; auto.
  - rewrite He. reflexivity.
Qed.

Lemma inv_unlock s i t t' :
  Inv s -> nth_error (ths s) i = Some t ->
  holds t = true -> holds t' = false -> pinv (gs s) t' ->
  implb (active t) (active t') = true -> at_E3 t = false ->
  Inv (mkSt (unlock (gs s)) (upd i t' (ths s) ++ [])).
Proof.
  intros HI Hi Hh Hh' Hp Ha He.
  apply (inv_step_mu s i t); auto.
  - right. right. split; [|reflexivity]. apply (i_thr _ HI _ _ Hi), Hh.
  - rewrite Hh'. split; discriminate.
  - rewrite He. reflexivity.
Qed.

Lemma gchg_holder i G G' :
  mu G = Some i -> mu G' = mu G -> now G' = now G -> cur G <= cur G' ->
  start G' = start G \/ (start G = None /\ start G' = Some (now G) /\ cur G' = cur G) ->
  gchg i G G'.
Proof. unfold gchg. auto 6. Qed.

(* while the clock is running (or about to be started by a goroutine at E3) current is recent *)
Lemma run_fresh s x :
  Inv s -> running (gs s) = true -> x <= now (gs s) -> fresh (gs s) (x - (period + 2 * lag)).
Proof.
  intros HI Er Hx.
  destruct (i_run _ HI Er) as (j & t & Hj & Ht).
  destruct (i_thr _ HI _ _ Hj) as [_ Hp].
  assert (exists last, cinv (gs s) last) as (last & Hb & Hf & _).
  { destruct t; try discriminate Ht; cbn [pinv] in Hp; eauto; destruct Hp; eauto. }
  apply (fresh_le _ _ _ Hf). lia.
Qed.

Lemma live_fresh s x :
  Inv s -> x <= now (gs s) ->
  cend (gs s) <= cur (gs s) \/ fresh (gs s) (x - (period + 2 * lag)).
Proof.
  intros HI Hx.
  destruct (running (gs s)) eqn:Er; [right; apply run_fresh; auto|].
  destruct (i_stop _ HI Er) as [(j & t & Hj & Ht)|Hle]; [right|left; exact Hle].
  destruct (i_thr _ HI _ _ Hj) as [_ Hp]. destruct t; try discriminate Ht.
  destruct Hp as (Hb & _ & _ & Hf & _). unfold bnd in Hb.
  apply (fresh_le _ _ _ (Hf Er)). lia.
Qed.

(* ---------- the atomic actions of makeDeadline / extendClock ---------- *)
Lemma act_MStart G d t0 :
  upper G -> bnd G t0 -> cend G <= cur G \/ fresh G (t0 - (period + 2 * lag)) ->
  pinv G (MRead2 d t0 (cend G)).
Proof.
  intros Hu Hb Hf. cbn [pinv]. split; [exact Hb|]. split; [exact Hf|].
  intros Hs. apply (upper_none G Hu Hs).
Qed.

(* clockEnd covered the deadline: return without taking the lock *)
Lemma act_MRead2 G d t0 x :
  upper G -> 0 <= cur G -> pinv G (MRead2 d t0 x) -> cur G + kd d <= x ->
  pinv G (MRet d t0 (cur G + kd d)).
Proof.
  intros Hu H0 (Hb & Hf & Hz) He. unfold bnd in Hb. cbn [pinv]. unfold elow, eup.
  split; [lia|]. destruct (start G) as [s0|] eqn:Es.
  - destruct (upper_some G s0 (t0 + lag) Hu Es) as [Hs Hc]; [lia|]. split.
    + intros Hk. destruct Hf as [Hf|Hf]; [lia|]. unfold fresh in Hf. rewrite Es in Hf. lia.
    + right. exists s0. split; [reflexivity|]. split; [exact Hs | lia].
  - specialize (Hz eq_refl). destruct (upper_none G Hu Es) as (Hc & _). split; [lia | left; lia].
Qed.

Lemma act_MChk_stale G d t0 e :
  upper G -> bnd G t0 -> running G = false -> start G <> None -> pinv G (MWr d t0 e (now G)).
Proof.
  intros Hu Hb Hr Hs. cbn [pinv]. split; [exact Hb|]. unfold bnd in Hb.
  split; [lia|]. split; [exact Hr | apply wr_ok_now; assumption].
Qed.

(* a deadline computed under the lock from a recent current *)
Lemma pinv_E1_fresh G d t0 :
  upper G -> 0 <= cur G -> bnd G t0 ->
  fresh G (t0 - (period + 2 * lag)) -> (running G = false -> fresh G t0) ->
  pinv G (E1 d t0 (cur G + kd d)).
Proof.
  intros Hu H0 Hb Hf Hr. cbn [pinv]. unfold elow, eupL. unfold fresh in Hf.
  split; [exact Hb|]. unfold bnd in Hb. destruct (start G) as [s0|] eqn:Es.
  - destruct (upper_some G s0 (t0 + lag) Hu Es) as [Hs Hc]; [lia|].
    split; [lia|]. split; [split; [exact Hs | lia] | exact Hr].
  - destruct (upper_none G Hu Es) as (Hc & _). split; [lia|]. split; [lia | exact Hr].
Qed.

Lemma act_MWr G d t0 e tr (G' := set_cur G (ticks (dur_since (start G) tr))) :
  upper G -> 0 <= cur G -> pinv G (MWr d t0 e tr) ->
  cur G <= cur G' /\ upper G' /\ pinv G' (E1 d t0 (cur G' + kd d)).
Proof.
  intros Hu H0 (Hb & Htr & Hr & Hw).
  destruct (write_cur G tr Hu Hw) as (Hc & Hu' & Hf); [lia|].
  split; [exact Hc|]. split; [exact Hu'|].
  apply pinv_E1_fresh; [exact Hu' | exact (Z.le_trans _ _ _ H0 Hc) | exact Hb | |intros _]; apply (fresh_le _ _ _ Hf); lia.
Qed.

Lemma act_E1_start G d t0 e (G' := set_start G (Some (now G))) :
  upper G -> 0 <= cur G -> start G = None -> pinv G (E1 d t0 e) -> upper G' /\ pinv G' (E2 d t0 e).
Proof.
  intros Hu H0 Hs (Hb & Hl & Hue & _). destruct (upper_none G Hu Hs) as (Hc & _).
  unfold bnd, elow, eupL in *. rewrite Hs in Hl, Hue.
  subst G'. unfold upper. cbn [pinv]. unfold bnd, elow, eupL, fresh. sg.
  repeat split; try discriminate; tk.
Qed.

(* clockEnd is read by no pc invariant but those of E3 and E4 *)
Lemma act_E2 G G' d t0 e :
  cur G' = cur G -> start G' = start G -> running G' = running G -> now G' = now G ->
  pinv G (E2 d t0 e) -> e + slop_ticks <= cend G' -> pinv G' (E3 d t0 e).
Proof.
  intros H1 H2 H3 H4. cbn [pinv]. unfold bnd, elow, eupL, fresh. rewrite H1, H2, H3, H4. tauto.
Qed.

Lemma act_E3_spawn G d t0 e (G' := set_running G true) :
  pinv G (E3 d t0 e) -> running G = false -> pinv G' (E4 d t0 e) /\ pinv G' (R0 (now G)).
Proof.
  intros (Hb & Hl & Hu & Hf & Hs & Hce) Hr. split.
  - exact (conj Hb (conj Hl (conj Hu (conj Hs Hce)))).
  - subst G'. cbn [pinv]. unfold cinv. sg. unfold bnd in Hb. split; [lia|]. split; [|exact Hs].
    change (fresh G (now G - lag)). apply (fresh_le _ _ _ (Hf Hr)). lia.
Qed.

Lemma act_E4 G d t0 e : pinv G (E4 d t0 e) -> pinv G (MRet d t0 e).
Proof.
  intros (Hb & Hl & Hu & Hs & _). cbn [pinv]. unfold bnd in Hb. unfold eupL in Hu. unfold eup.
  split; [lia|]. split; [auto|]. right. destruct (start G) as [s0|]; [|congruence].
  exists s0. tauto.
Qed.

(* a poll that answers "reached" *)
Lemma reached_not_early G d t0 e :
  upper G -> pinv G (MRet d t0 e) -> e <= cur G -> no_early_ok d t0 (now G).
Proof.
  intros Hu (Hb & Hl & _) He Hd Hdp. unfold early_slack.
  pose proof (kd_plain d Hd Hdp) as Hk.
  destruct (Z_lt_ge_dec (kd d) 1) as [Hk1|Hk1].
  - rewrite Hk in Hk1. tk.
  - specialize (Hl ltac:(lia)). unfold elow in Hl. unfold upper in Hu.
    destruct (start G); [rewrite Hk in Hl; tk | lia].
Qed.

(* ---------- the atomic actions of runClock ---------- *)
Lemma act_R5 G last : upper G -> cinv G last -> pinv G (R6 last (now G)).
Proof.
  intros Hu Hc. pose proof Hc as (Hb & _ & Hs). cbn [pinv].
  split; [exact Hc|]. split; [lia | apply wr_ok_now; assumption].
Qed.

Lemma act_R6 G last tr (G' := set_cur G (ticks (dur_since (start G) tr))) :
  upper G -> pinv G (R6 last tr) -> cur G <= cur G' /\ upper G' /\ pinv G' (R1 tr).
Proof.
  intros Hu ((Hb & _ & Hs) & Htr & Hw).
  destruct (write_cur G tr Hu Hw) as (Hc & Hu' & Hf); [lia|].
  split; [exact Hc|]. split; [exact Hu'|].
  cbn [pinv]. unfold cinv. split; [subst G'; sg; lia|].
  split; [apply (fresh_le _ _ _ Hf); lia | exact Hs].
Qed.

(* a write by the holder of fast.mu that leaves [running] alone and starts no goroutine; clockEnd is
   either unchanged or written at E2, on the way to E3 *)
Lemma inv_write s i t G' t' :
  Inv s -> nth_error (ths s) i = Some t ->
  gchg i (gs s) G' -> tinv G' i t' -> upper G' ->
  running G' = running (gs s) -> implb (active t) (active t') = true ->
  at_E3 t' = true \/ (cend G' = cend (gs s) /\ at_E3 t = false) ->
  Inv (mkSt G' (upd i t' (ths s) ++ [])).
Proof.
  intros HI Hi Hg Ht Hu Hr Ha Hs.
  apply (inv_step_gen s i t G' t' [] HI Hi Hg Ht); [apply no_spawn | exact Hu | |].
  - intros X. left. rewrite <- Hr. split; [exact X | exact Ha].
  - intros X. destruct Hs as [Hs|(Hc & He)]; [left; exact Hs|]. right. right. rewrite <- Hr. auto.
Qed.

Lemma inv_tstep s i t G' t' sp :
  Inv s -> nth_error (ths s) i = Some t ->
  tstepF i (gs s) t = Some (G', t', sp) ->
  Inv (mkSt G' (upd i t' (ths s) ++ sp)).
Proof.
  intros HI Hi Hst.
  destruct (i_thr _ HI _ _ Hi) as [Hh Hp].
  pose proof (i_up _ HI) as Hup. pose proof (i_cur0 _ HI) as H0.
  assert (Hmu : holds t = true -> mu (gs s) = Some i) by apply Hh.
  destruct t; cbn [tstep] in Hst; try discriminate Hst; try (exfalso; exact Hp).
  - (* MStart *) inversion Hst; subst; clear Hst.
    apply (inv_local s i _ _ HI Hi); try reflexivity.
    apply (act_MStart _ d t0 Hup Hp). apply (live_fresh s t0 HI), Hp.
  - (* MRead2 *)
    revert Hst. destruct (_ >? _) eqn:E; intros Hst; inversion Hst; subst; clear Hst;
      apply (inv_local s i _ _ HI Hi); try reflexivity.
    + exact (proj1 Hp).
    + apply (act_MRead2 _ d t0 x); auto. lia.
  - (* MLock *) eapply inv_lock; eauto.
  - (* MChk *)
    revert Hst. destruct (running (gs s)) eqn:Er; [|destruct (start (gs s)) as [s0|] eqn:Es];
      cbn [negb andb]; intros Hst; inversion Hst; subst; clear Hst;
      apply (inv_local s i _ _ HI Hi); try reflexivity.
    + apply pinv_E1_fresh; auto; [apply run_fresh; auto; apply Hp | rewrite Er; discriminate].
    + apply act_MChk_stale; auto. congruence.
    + apply pinv_E1_fresh; auto using fresh_unstarted.
  - (* MWr *) inversion Hst; subst; clear Hst.
    destruct (act_MWr _ d t0 e tr Hup H0 Hp) as (Hc & Hu' & Hp').
    apply (inv_write s i _ _ _ HI Hi);
      [apply gchg_holder; auto | split; [exact Hh | exact Hp'] | exact Hu' | reflexivity | reflexivity |
       right; split; reflexivity].
  - (* E1 *)
    destruct (start (gs s)) as [s0|] eqn:Es; inversion Hst; subst; clear Hst.
    + apply (inv_local s i _ _ HI Hi); try reflexivity.
      assert (start (gs s) <> None) by congruence. cbn [pinv] in *. tauto.
    + destruct (act_E1_start _ d t0 e Hup H0 Es Hp) as (Hu' & Hp').
      apply (inv_write s i _ _ _ HI Hi);
        [apply gchg_holder; sg; auto; lia | split; [exact Hh | exact Hp'] | exact Hu' | reflexivity | reflexivity |
         right; split; reflexivity].
  - (* E2 *)
    assert (Hs : start (gs s) <> None) by apply Hp.
    destruct (e + slop_ticks >? cend (gs s)) eqn:E; inversion Hst; subst; clear Hst.
    + apply (inv_write s i _ _ _ HI Hi);
        [apply gchg_holder; sg; auto; lia | split; [exact Hh|] | | reflexivity | reflexivity | left; reflexivity].
      * apply (act_E2 (gs s)); auto. sg. lia.
      * apply (upper_started (gs s)); auto.
    + apply (inv_local s i _ _ HI Hi); try reflexivity.
      apply (act_E2 (gs s)); auto. lia.
  - (* E3 *)
    revert Hst. destruct (running (gs s)) eqn:Er; intros Hst; inversion Hst; subst; clear Hst.
    + apply (inv_local s i _ _ HI Hi); [reflexivity | | reflexivity | rewrite Er; reflexivity].
      cbn [pinv] in *. tauto.
    + destruct (act_E3_spawn _ d t0 e Hp Er) as (Hp' & Hpr).
      apply (inv_step_gen s i _ _ _ _ HI Hi); [apply gchg_holder; sg; auto; lia | split; [exact Hh | exact Hp'] | | | | ].
      * intros k y Hy. destruct k as [|k]; [|destruct k; discriminate Hy]. inversion Hy; subst y.
        split; [|exact Hpr]. sg. split; [discriminate|]. rewrite Hmu by reflexivity. intros X.
        inversion X. apply nth_error_lt in Hi. lia.
      * apply (upper_started (gs s)); auto. apply Hp.
      * intros _. right. exists 0%nat, (R0 (now (gs s))). split; reflexivity.
      * discriminate.
  - (* E4 *) inversion Hst; subst; clear Hst.
    apply (inv_unlock s i _ _ HI Hi); try reflexivity. apply act_E4, Hp.
  - (* MRet *)
    revert Hst. destruct (_ >=? _) eqn:E; intros Hst; inversion Hst; subst; clear Hst;
      apply (inv_local s i _ _ HI Hi); try reflexivity; [|exact Hp].
    apply (reached_not_early _ d t0 e Hup Hp). lia.
  - (* R0 *) eapply inv_lock; eauto.
  - (* R1 *)
    revert Hst. destruct (_ <=? _) eqn:E; intros Hst; inversion Hst; subst; clear Hst;
      apply (inv_local s i _ _ HI Hi); try reflexivity; [exact Hp|].
    split; [exact Hp | lia].
  - (* R2 *) inversion Hst; subst; clear Hst.
    apply (inv_unlock s i _ _ HI Hi); try reflexivity. exact Hp.
  - (* R3 *) destruct (_ >=? _); inversion Hst; subst; clear Hst.
    apply (inv_local s i _ _ HI Hi); try reflexivity. exact Hp.
  - (* R4 *) eapply inv_lock; eauto.
  - (* R5 *) inversion Hst; subst; clear Hst.
    apply (inv_local s i _ _ HI Hi); try reflexivity. apply act_R5; assumption.
  - (* R6 *) inversion Hst; subst; clear Hst.
    destruct (act_R6 _ last tr Hup Hp) as (Hc & Hu' & Hp').
    apply (inv_write s i _ _ _ HI Hi);
      [apply gchg_holder; auto | split; [exact Hh | exact Hp'] | exact Hu' | reflexivity | reflexivity |
       right; split; reflexivity].
  - (* R7 *) inversion Hst; subst; clear Hst. destruct Hp as (Hc & Hlt).
    apply (inv_step_gen s i _ _ _ _ HI Hi);
      [apply gchg_holder; sg; auto; lia | split; [exact Hh | exact (proj1 Hc)] | apply no_spawn | | discriminate | ].
    + apply (upper_started (gs s)); auto. apply Hc.
    + intros _. right. left. sg. lia.
  - (* R8 *) inversion Hst; subst; clear Hst.
    apply (inv_unlock s i _ _ HI Hi); reflexivity.
  - (* S0 *) eapply inv_lock; eauto.
  - (* S1 *)
    revert Hst. destruct (running (gs s)) eqn:Er; intros Hst; inversion Hst; subst; clear Hst.
    + apply (inv_step_gen s i _ _ _ _ HI Hi);
        [apply gchg_holder; sg; auto; lia | split; [exact Hh | exact I] | apply no_spawn | | intros Hr; left; split; [exact Hr | reflexivity] | ].
      * apply (upper_started (gs s)); auto. intros Es.
        destruct (upper_none _ Hup Es) as (_ & _ & X). congruence.
      * sg. congruence.
    + apply (inv_local s i _ _ HI Hi); reflexivity.
  - (* S2 *) inversion Hst; subst; clear Hst.
    apply (inv_unlock s i _ _ HI Hi); reflexivity.
  - (* S3 *) eapply inv_lock; eauto.
  - (* S4 *) inversion Hst; subst; clear Hst.
    apply (inv_local s i _ _ HI Hi); reflexivity.
  - (* S5 *) inversion Hst; subst; clear Hst.
    apply (inv_unlock s i _ _ HI Hi); destruct b; reflexivity.
Qed.

Lemma pinv_tick G t dt :
  pinv G t -> 0 <= dt -> may_pass period lag (now G + dt) t = true ->
  pinv (set_now G (now G + dt)) t.
Proof.
  intros Hp Hd Hm. unfold may_pass in Hm.
  destruct t; cbn [pinv due] in *;
    unfold bnd, cinv, fresh, elow, eupL, eup, wr_ok in *; sg; try tauto;
    repeat match goal with H : _ /\ _ |- _ => destruct H end; repeat split; auto; try lia.
Qed.

Lemma inv_tick s dt :
  Inv s -> 0 <= dt ->
  forallb (may_pass period lag (now (gs s) + dt)) (ths s) = true ->
  Inv (mkSt (set_now (gs s) (now (gs s) + dt)) (ths s)).
Proof.
  intros HI Hd Hall. rewrite forallb_forall in Hall.
  constructor; sg.
  - intros j t Hj. destruct (i_thr _ HI _ _ Hj) as [Hh Hp]. split; [exact Hh|].
    apply pinv_tick; auto. apply Hall. eapply nth_error_In; eauto.
  - pose proof (i_up _ HI) as Hup. unfold upper in *; sg.
    destruct (start (gs s)); [|exact Hup]. split; [lia|tk].
  - apply (i_cur0 _ HI).
  - apply (i_mu _ HI).
  - apply (i_run _ HI).
  - apply (i_stop _ HI).
Qed.

(* a new goroutine that does not hold the lock and whose pc invariant holds *)
Lemma inv_spawn s t :
  Inv s -> holds t = false -> pinv (gs s) t ->
  Inv (mkSt (gs s) (ths s ++ [t])).
Proof.
  intros HI Hh Hp. constructor; sg.
  - intros j x Hj. destruct (nth_snoc _ _ _ _ Hj) as [Hj'|[-> ->]]; [apply (i_thr _ HI _ _ Hj')|].
    split; [|exact Hp]. rewrite Hh. split; [discriminate|].
    intros Hm. apply (i_mu _ HI) in Hm. lia.
  - apply (i_up _ HI).
  - apply (i_cur0 _ HI).
  - intros j Hj. apply (i_mu _ HI) in Hj. rewrite app_length. lia.
  - intros Hr. destruct (i_run _ HI Hr) as (j & x & Hj & Hx). exists j, x. split; [|exact Hx].
    rewrite nth_error_app1 by (eapply nth_error_lt; eauto). exact Hj.
  - intros Hr. destruct (i_stop _ HI Hr) as [(j & x & Hj & Hx)|Hle]; [left|right; exact Hle].
    exists j, x. split; [|exact Hx]. rewrite nth_error_app1 by (eapply nth_error_lt; eauto). exact Hj.
Qed.

Lemma inv_step s a s' : Inv s -> stepF s a = Some s' -> Inv s'.
Proof.
  intros HI Hst. destruct a; cbn [step] in Hst.
  - destruct (0 <=? dt) eqn:Ed; [|discriminate]. cbn [andb] in Hst.
    destruct (forallb _ _) eqn:Ef; [|discriminate]. inversion Hst; subst; clear Hst.
    apply inv_tick; auto. lia.
  - inversion Hst; subst; clear Hst. apply inv_spawn; auto. cbn [pinv]. unfold bnd. lia.
  - inversion Hst; subst; clear Hst. apply inv_spawn; auto. exact I.
  - destruct (nth_error (ths s) i) as [t|] eqn:Hi; [|discriminate].
    destruct (tstepF i (gs s) t) as [[[G' t'] sp]|] eqn:Ht; [|discriminate].
    inversion Hst; subst; clear Hst. eapply inv_tstep; eauto.
  - destruct (nth_error (ths s) i) as [t|] eqn:Hi; [|discriminate].
    destruct t; try discriminate. inversion Hst; subst; clear Hst.
    rewrite <- (app_nil_r (upd _ _ _)).
    apply (inv_local s i _ _ HI Hi); reflexivity.
Qed.

Lemma inv_init : Inv init.
Proof.
  constructor; cbn.
  - intros j t Hj. destruct j; discriminate.
  - repeat split.
  - lia.
  - discriminate.
  - discriminate.
  - intros _. right. lia.
Qed.

Lemma run_with_inv ok s l s' :
  Inv s -> run_with true period lag ok s l = Some s' -> Inv s'.
Proof.
  revert s. induction l as [|a l IH]; intros s HI Hr; cbn [run_with] in Hr.
  - inversion Hr; subst; exact HI.
  - destruct (ok s a); [|discriminate]. destruct (stepF s a) as [s1|] eqn:E; [|discriminate].
    eapply IH; [|exact Hr]. eapply inv_step; eauto.
Qed.

Lemma reach_inv l s : runF init l = Some s -> Inv s.
Proof. apply run_with_inv, inv_init. Qed.



Lemma no_early_timeout l s i d t0 e tm :
  runF init l = Some s -> nth_error (ths s) i = Some (MTimedOut d t0 e tm) ->
  0 <= d -> d + period <= max_dur -> t0 + d - early_slack lag <= tm.
Proof.
  intros Hr Hi Hd Hdp. apply reach_inv in Hr; auto.
  destruct (i_thr _ Hr _ _ Hi) as [_ Hp]. cbn [pinv] in Hp. apply Hp; auto.
Qed.

(* a poll made earlier than d - early_slack after the call reports "not reached";
   the match can therefore finish without a timeout error *)
Lemma finished_in_time l s i d t0 e :
  runF init l = Some s -> nth_error (ths s) i = Some (MRet d t0 e) ->
  0 <= d -> d + period <= max_dur -> now (gs s) < t0 + d - early_slack lag ->
  cur (gs s) < e /\
  stepF s (Step i) = Some (mkSt (gs s) (upd i (MRet d t0 e) (ths s) ++ [])) /\
  stepF s (Finish i) = Some (mkSt (gs s) (upd i (MDone d t0 (now (gs s))) (ths s))).
Proof.
  intros Hr Hi Hd Hdp Hn. apply reach_inv in Hr; auto.
  assert (Hc : cur (gs s) < e).
  { destruct (Z_lt_ge_dec (cur (gs s)) e) as [H|H]; auto.
    destruct (i_thr _ Hr _ _ Hi) as [_ Hp].
    pose proof (reached_not_early _ d t0 e (i_up _ Hr) Hp ltac:(lia) Hd Hdp). lia. }
  split; [exact Hc|]. cbn [step]. rewrite Hi. cbn [tstep].
  destruct (cur (gs s) >=? e) eqn:E; [lia|]. auto.
Qed.

(* while no StopTimeoutClock reset happens, the clock is kept covering the deadline of goroutine i *)
Definition cov (G : gst) (t : thr) : Prop :=
  match t with
  | MRead2 d t0 ce => ce <= cend G
  | MRet d t0 e => e <= cur G \/ e <= cend G
  | _ => True
  end.

Definition cover (s : st) (i : nat) : Prop :=
  forall t, nth_error (ths s) i = Some t -> cov (gs s) t.

Lemma cov_mono G G' t : cur G <= cur G' -> cend G <= cend G' -> cov G t -> cov G' t.
Proof. destruct t; cbn [cov]; auto; lia. Qed.

Lemma tstep_cov s j t G' t' sp :
  Inv s -> nth_error (ths s) j = Some t -> tstepF j (gs s) t = Some (G', t', sp) ->
  no_stop_write s (Step j) = true ->
  cur (gs s) <= cur G' /\ cend (gs s) <= cend G' /\
  (cov (gs s) t -> cov G' t') /\ forall x, In x sp -> cov G' x.
Proof.
  intros HI Hj Hst. destruct (i_thr _ HI _ _ Hj) as [_ Hp].
  unfold no_stop_write. rewrite Hj. intros Hns.
  destruct t; cbn [pinv cov] in *; tstep_cases Hst; cbn [cov In]; sg;
    try (repeat split; try tauto; lia).
  - (* MWr *) destruct Hp as (_ & _ & _ & s0 & Hs0 & Hc). rewrite Hs0. sg. repeat split; try tauto; lia.
  - (* E3 *) repeat split; try lia; auto. intros x [<-|[]]. exact I.
  - (* E4 *) destruct Hp as (_ & _ & _ & _ & Hp). rewrite slop_val in Hp. repeat split; try tauto; lia.
  - (* R6 *) destruct Hp as (_ & _ & s0 & Hs0 & Hc). rewrite Hs0. sg. repeat split; try tauto; lia.
Qed.

Lemma cover_step s a s' i :
  Inv s -> cover s i -> no_stop_write s a = true -> stepF s a = Some s' -> cover s' i.
Proof.
  intros HI Hc Hns Hst x.
  destruct a; cbn [step] in Hst.
  - destruct (_ && _); [|discriminate]. inversion Hst; subst; clear Hst. exact (Hc x).
  - inversion Hst; subst; clear Hst. sg. intros Hx.
    destruct (nth_snoc _ _ _ _ Hx) as [Hx'|[_ ->]]; [exact (Hc _ Hx') | exact I].
  - inversion Hst; subst; clear Hst. sg. intros Hx.
    destruct (nth_snoc _ _ _ _ Hx) as [Hx'|[_ ->]]; [exact (Hc _ Hx') | exact I].
  - destruct (nth_error (ths s) i0) as [t|] eqn:Hj; [|discriminate].
    destruct (tstepF i0 (gs s) t) as [[[G' t'] sp]|] eqn:Ht; [|discriminate].
    inversion Hst; subst; clear Hst. sg. intros Hx.
    destruct (tstep_cov _ _ _ _ _ _ HI Hj Ht Hns) as (Hcur & Hce & Hown & Hsp).
    destruct (nth_new _ _ _ _ _ _ _ Hj Hx) as [(-> & ->)|[(Hne & Hx')|(k & -> & Hk)]].
    + exact (Hown (Hc _ Hj)).
    + exact (cov_mono _ _ _ Hcur Hce (Hc _ Hx')).
    + eapply Hsp, nth_error_In, Hk.
  - destruct (nth_error (ths s) i0) as [t|] eqn:Hj; [|discriminate].
    destruct t; try discriminate. inversion Hst; subst; clear Hst. sg.
    destruct (Nat.eq_dec i i0) as [->|Hne].
    + rewrite (nth_error_upd_eq _ _ _ _ Hj). intros Hx. inversion Hx. exact I.
    + rewrite nth_error_upd_neq by congruence. exact (Hc x).
Qed.

Lemma cover_run s l s' i :
  Inv s -> cover s i ->
  run_with true period lag no_stop_write s l = Some s' -> cover s' i.
Proof.
  revert s. induction l as [|a l IH]; intros s HI Hc Hr; cbn [run_with] in Hr.
  - inversion Hr; subst; exact Hc.
  - destruct (no_stop_write s a) eqn:En; [|discriminate].
    destruct (stepF s a) as [s1|] eqn:E; [|discriminate].
    eapply IH; [| |exact Hr]; [eapply inv_step; eauto | eapply cover_step; eauto].
Qed.

Lemma fires_state s i d t0 e :
  Inv s -> cover s i -> nth_error (ths s) i = Some (MRet d t0 e) ->
  0 <= d -> d + period <= max_dur ->
  t0 + d + late_slack period lag <= now (gs s) -> e <= cur (gs s).
Proof.
  intros HI Hc Hi Hd Hdp Hn. specialize (Hc _ Hi). cbn [cov] in Hc.
  destruct (Z_lt_ge_dec (cur (gs s)) e) as [Hlt|Hge]; [exfalso|lia].
  destruct Hc as [Hc|Hc]; [lia|].
  destruct (i_thr _ HI _ _ Hi) as [_ (Hb & _ & Hu)].
  pose proof (i_cur0 _ HI) as H0. pose proof (kd_plain d Hd Hdp) as Hk.
  destruct Hu as [Hu|(s0 & Hs0 & Hs0' & Hu)]; [lia|]. rewrite Hk in Hu.
  unfold late_slack in Hn.
  destruct (live_fresh s (now (gs s)) HI ltac:(lia)) as [Hle|Hf]; [lia|].
  unfold fresh in Hf. rewrite Hs0 in Hf. tk.
Qed.

Lemma timeout_fires l1 s1 l2 s2 i d t0 e :
  runF init l1 = Some s1 -> nth_error (ths s1) i = Some (MStart d t0) ->
  run_with true period lag no_stop_write s1 l2 = Some s2 ->
  nth_error (ths s2) i = Some (MRet d t0 e) ->
  0 <= d -> d + period <= max_dur ->
  t0 + d + late_slack period lag <= now (gs s2) -> e <= cur (gs s2).
Proof.
  intros H1 Hi H2 Hi2 Hd Hdp Hn. apply reach_inv in H1; auto.
  eapply fires_state; eauto.
  - eapply run_with_inv; eauto.
  - eapply cover_run; eauto. intros x Hx. rewrite Hi in Hx. inversion Hx. exact I.
Qed.


(* ---------- the clock goroutine exits ---------- *)
Lemma quiet_spec s : quiet s = true <-> forall j t, nth_error (ths s) j = Some t -> inflight t = false.
Proof.
  unfold quiet. rewrite forallb_forall. split.
  - intros H j t Hj. apply nth_error_In in Hj. apply H in Hj. destruct (inflight t); auto; discriminate.
  - intros H t Ht. apply In_nth_error in Ht. destruct Ht as [j Hj]. rewrite (H _ _ Hj). reflexivity.
Qed.

Definition qthr (H : Z) (G : gst) (t : thr) : Prop :=
  match t with
  | R0 last => last <= H
  | R1 last => last <= H \/
               (exists s0, start G = Some s0 /\ cur G = ticks (last - s0) /\ last <= H + period + lag)
  | R2 last | R3 last _ | R4 last | R5 last | R6 last _ => last <= H
  | R7 last | R8 last => last <= H + period + lag
  | _ => True
  end.

Definition qinv (H C : Z) (s : st) : Prop :=
  quiet s = true /\ cend (gs s) <= C /\
  (forall s0, start (gs s) = Some s0 -> real_of s0 C <= H) /\
  forall j t, nth_error (ths s) j = Some t -> qthr H (gs s) t.

Lemma tstep_quiet j G t G' t' sp :
  inflight t = false -> tstepF j G t = Some (G', t', sp) ->
  inflight t' = false /\ sp = [] /\ start G' = start G /\ now G' = now G /\
  (cur G' = cur G \/ exists last tr, t = R6 last tr) /\
  (cend G' = cend G \/ (t = S1 /\ cend G' = 0)).
Proof.
  intros Hq Hst.
  destruct t; try discriminate Hq; tstep_cases Hst; sg; repeat split; eauto.
Qed.

Lemma qinv_step H C s a s' :
  Inv s -> qinv H C s -> 0 <= C -> no_call s a = true -> stepF s a = Some s' ->
  qinv H C s'.
Proof.
  intros HI (Hq & Hc & Hh & Ht) HC Hnc Hst. rewrite quiet_spec in Hq.
  destruct a; cbn [step no_call] in *; try discriminate.
  - destruct (_ && _); [|discriminate]. inversion Hst; subst; clear Hst.
    split; [rewrite quiet_spec; exact Hq|]. split; [exact Hc|]. split; [exact Hh|]. sg.
    intros j t Hj. specialize (Ht _ _ Hj). destruct t; exact Ht.
  - inversion Hst; subst; clear Hst.
    split; [|split; [exact Hc|split; [exact Hh|]]]; sg.
    + rewrite quiet_spec. sg. intros j t Hj. destruct (nth_snoc _ _ _ _ Hj) as [Hj'|[_ ->]]; eauto.
    + intros j t Hj. destruct (nth_snoc _ _ _ _ Hj) as [Hj'|[_ ->]]; [eauto|exact I].
  - destruct (nth_error (ths s) i) as [t|] eqn:Hi; [|discriminate].
    destruct (tstepF i (gs s) t) as [[[G' t'] sp]|] eqn:Hts; [|discriminate].
    inversion Hst; subst; clear Hst.
    destruct (tstep_quiet _ _ _ _ _ _ (Hq _ _ Hi) Hts) as (Hq' & -> & Hs & Hn & Hcur & Hce).
    destruct (i_thr _ HI _ _ Hi) as [Hhi Hpi].
    split; [|split; [|split]]; sg.
    + rewrite quiet_spec. sg. intros j x Hj.
      destruct (nth_new _ _ _ _ _ _ _ Hi Hj) as [(-> & ->)|[(Hne & Hj')|(k & -> & Hk)]]; eauto.
      destruct k; discriminate Hk.
    + destruct Hce as [->|(_ & ->)]; lia.
    + rewrite Hs. exact Hh.
    + intros j x Hj.
      destruct (nth_new _ _ _ _ _ _ _ Hi Hj) as [(-> & ->)|[(Hne & Hj')|(k & -> & Hk)]].
      * (* the stepping goroutine *)
        specialize (Ht _ _ Hi).
        destruct t; tstep_cases Hts; cbn [qthr pinv] in *; sg; auto; try lia.
        -- (* R1: test true, continue *)
           destruct Ht as [Ht|(s0 & Hs0 & Hcu & Hl)]; [exact Ht|].
           specialize (Hh _ Hs0). unfold real_of in Hh. tk.
        -- (* R1: test false, exit *)
           destruct Ht as [Ht|(s0 & Hs0 & Hcu & Hl)]; lia.
        -- (* R6: write *)
           destruct Hpi as ((Hb & _ & _) & Htr & s0 & Hs0 & _). right. exists s0. rewrite Hs0. sg.
           repeat split; auto. lia.
      * (* another goroutine: only R1 looks at shared state, and it holds the lock *)
        specialize (Ht _ _ Hj'). destruct x; cbn [qthr] in *; auto.
        destruct Ht as [Ht|(s0 & Hs0 & Hcu & Hl)]; [left; exact Ht|].
        destruct Hcur as [Hcur|(l0 & tr & ->)].
        -- right. exists s0. rewrite Hs, Hcur. auto.
        -- exfalso. destruct (i_thr _ HI _ _ Hj') as [Hhj _]. cbn [holds] in Hhi, Hhj.
           assert (mu (gs s) = Some i) by (apply Hhi; reflexivity).
           assert (mu (gs s) = Some j) by (apply Hhj; reflexivity). congruence.
      * destruct k; discriminate Hk.
  - destruct (nth_error (ths s) i) as [t|] eqn:Hi; [|discriminate].
    destruct t; try discriminate. inversion Hst; subst; clear Hst.
    split; [|split; [exact Hc|split; [exact Hh|]]]; sg.
    + rewrite quiet_spec. sg. intros j x Hj.
      destruct (Nat.eq_dec i j) as [->|Hne].
      * rewrite (nth_error_upd_eq _ _ _ _ Hi) in Hj. inversion Hj. reflexivity.
      * rewrite nth_error_upd_neq in Hj by exact Hne. eauto.
    + intros j x Hj. destruct (Nat.eq_dec i j) as [->|Hne].
      * rewrite (nth_error_upd_eq _ _ _ _ Hi) in Hj. inversion Hj. exact I.
      * rewrite nth_error_upd_neq in Hj by exact Hne. eauto.
Qed.

Lemma qinv_run H C s l s' :
  Inv s -> qinv H C s -> 0 <= C ->
  run_with true period lag no_call s l = Some s' -> qinv H C s'.
Proof.
  revert s. induction l as [|a l IH]; intros s HI Hq HC Hr; cbn [run_with] in Hr.
  - inversion Hr; subst; exact Hq.
  - destruct (no_call s a) eqn:En; [|discriminate].
    destruct (stepF s a) as [s1|] eqn:E; [|discriminate].
    eapply IH; [| |exact HC|exact Hr]; [eapply inv_step; eauto | eapply qinv_step; eauto].
Qed.

Lemma qinv_start s :
  Inv s -> quiet s = true -> qinv (horizon s) (Z.max 0 (cend (gs s))) s.
Proof.
  intros HI Hq. unfold horizon. split; [exact Hq|]. split; [lia|]. split.
  - intros s0 Hs0. rewrite Hs0. lia.
  - intros j t Hj. destruct (i_thr _ HI _ _ Hj) as [_ Hp].
    assert (Hn : now (gs s) <= match start (gs s) with
                              | Some s0 => Z.max (now (gs s)) (real_of s0 (Z.max 0 (cend (gs s))))
                              | None => now (gs s) end) by (destruct (start (gs s)); lia).
    destruct t; cbn [qthr pinv] in *; auto; unfold cinv in *; try lia.
Qed.

Lemma qinv_gone H C s :
  Inv s -> qinv H C s -> H + exit_slack period lag < now (gs s) ->
  running (gs s) = false /\ forall j t, nth_error (ths s) j = Some t -> clock_alive t = false.
Proof.
  intros HI (_ & _ & _ & Ht) Hn. unfold exit_slack in Hn.
  assert (Hall : forall j t, nth_error (ths s) j = Some t -> clock_alive t = false).
  { intros j t Hj. specialize (Ht _ _ Hj). destruct (i_thr _ HI _ _ Hj) as [_ Hp].
    destruct t; cbn [clock_alive qthr pinv] in *; auto; exfalso; unfold cinv in *; try lia.
    destruct Ht as [Ht|(s0 & _ & _ & Ht)]; lia. }
  split; [|exact Hall].
  destruct (running (gs s)) eqn:Er; auto.
  destruct (i_run _ HI Er) as (j & t & Hj & Ha). specialize (Hall _ _ Hj).
  destruct t; cbn in *; discriminate.
Qed.

Lemma clock_exits l1 s1 l2 s2 :
  runF init l1 = Some s1 -> quiet s1 = true ->
  run_with true period lag no_call s1 l2 = Some s2 ->
  horizon s1 + exit_slack period lag < now (gs s2) ->
  running (gs s2) = false /\ forall j t, nth_error (ths s2) j = Some t -> clock_alive t = false.
Proof.
  intros H1 Hq H2 Hn. apply reach_inv in H1; auto.
  eapply qinv_gone; [eapply run_with_inv; eauto| |exact Hn].
  eapply qinv_run; [exact H1|apply qinv_start; auto|lia|exact H2].
Qed.

(* ---------- and is restarted on demand ---------- *)
Lemma upd_at {A} (l : list A) x y r : upd (length l) y (l ++ x :: r) = l ++ y :: r.
Proof. induction l as [|a l IH]; cbn; [reflexivity|]. rewrite IH. reflexivity. Qed.

Lemma step_at G l x r :
  stepF (mkSt G (l ++ x :: r)) (Step (length l)) =
  match tstepF (length l) G x with
  | Some (G1, t1, sp) => Some (mkSt G1 (l ++ t1 :: (r ++ sp)))
  | None => None
  end.
Proof.
  cbn [step gs ths]. rewrite nth_error_app2 by lia. rewrite Nat.sub_diag. cbn [nth_error].
  destruct (tstepF (length l) G x) as [[[G1 t1] sp]|]; [|reflexivity].
  rewrite upd_at, <- app_assoc. reflexivity.
Qed.

Lemma run_cons s a l :
  runF s (a :: l) = match stepF s a with Some s' => runF s' l | None => None end.
Proof. reflexivity. Qed.

Lemma clock_restarts l s d s0 :
  runF init l = Some s ->
  running (gs s) = false -> mu (gs s) = None -> quiet s = true ->
  start (gs s) = Some s0 -> 1 <= kd d ->
  let n := length (ths s) in
  let t := now (gs s) in
  let e := ticks (t - s0) + kd d in
  exists s', runF s (Call d :: repeat (Step n) 9) = Some s' /\
             running (gs s') = true /\ mu (gs s') = None /\ now (gs s') = t /\
             cur (gs s') = ticks (t - s0) /\ cend (gs s') = e + slop_ticks /\
             ths s' = ths s ++ [MRet d t e; R0 t].
Proof.
  intros Hr Hrun Hmu Hq Hs0 Hk n t e. apply reach_inv in Hr; auto.
  pose proof (i_up _ Hr) as Hup. unfold upper in Hup. rewrite Hs0 in Hup.
  assert (Hce : cend (gs s) <= cur (gs s)).
  { destruct (i_stop _ Hr Hrun) as [(j & x & Hj & Hx)|H]; [|exact H].
    rewrite quiet_spec in Hq. apply Hq in Hj. destruct x; try discriminate Hx. discriminate Hj. }
  destruct s as [G ths0]. cbn [gs ths] in *. subst n t e.
  set (n := length ths0). set (t := now G) in *. set (k := kd d) in *.
  cbn [repeat]. rewrite run_cons. cbn [step gs ths].
  (* 1: load clockEnd *)
  rewrite run_cons, step_at. cbn [tstep app].
  (* 2: load current, compare *)
  rewrite run_cons, step_at. cbn [tstep app]. fold k.
  assert (E1 : (cur G + k >? cend G) = true) by lia. rewrite E1.
  (* 3: lock *)
  rewrite run_cons, step_at. cbn [tstep app]. unfold lock. rewrite Hmu.
  (* 4: stale-clock test *)
  rewrite run_cons, step_at. cbn [tstep app]. sg. rewrite Hrun, Hs0. cbn [negb andb].
  (* 5: refresh *)
  rewrite run_cons, step_at. cbn [tstep app]. sg. rewrite Hs0. sg. fold k. fold t.
  (* 6: start already set *)
  rewrite run_cons, step_at. cbn [tstep app]. sg. rewrite Hs0.
  (* 7: extend *)
  rewrite run_cons, step_at. cbn [tstep app]. sg.
  assert (E2 : (ticks (t - s0) + k + slop_ticks >? cend G) = true) by (rewrite slop_val; lia). rewrite E2.
  (* 8: start the clock goroutine *)
  rewrite run_cons, step_at. cbn [tstep app]. sg. rewrite Hrun.
  (* 9: unlock *)
  rewrite run_cons, step_at. cbn [tstep app]. sg.
  eexists. split; [reflexivity|]. sg. repeat split; reflexivity.
Qed.

End Inv.

(* ---------- statements parametric in the code variant, and the refutation for fx = false ---------- *)
Definition no_early_timeout_stmt (fx : bool) (period lag : Z) : Prop :=
  forall l s i d t0 e tm,
    run fx period lag init l = Some s ->
    nth_error (ths s) i = Some (MTimedOut d t0 e tm) ->
    0 <= d -> d + period <= max_dur ->
    t0 + d - early_slack lag <= tm.

Lemma no_early_timeout_fixed period lag :
  0 <= period -> 0 <= lag -> no_early_timeout_stmt true period lag.
Proof. intros Hp Hl l s i d t0 e tm. apply no_early_timeout; auto. Qed.

Definition ms : Z := 1000000.
Definition rep {A} (n : nat) (l : list A) : list A := concat (repeat l n).
(* clock goroutine j asleep at R3: the period passes; wake, lock, read time, write, test, unlock+sleep *)
Definition clock_iter (p : Z) (j : nat) : list act := Tick p :: rep 6 [Step j].
(* same, but the loop test fails: running = false, unlock, goroutine gone *)
Definition clock_last_iter (p : Z) (j : nat) : list act := Tick p :: rep 7 [Step j].
(* a whole makeDeadline call of goroutine i, uninterrupted: number of atomic actions *)
Definition md_steps (fx refresh : bool) : nat :=
  match fx, refresh with
  | true, true => 9 | true, false => 8 | false, true => 11 | false, false => 10
  end%nat.

(* First use: one match with a 500 ms timeout finishes at once; the clock goroutine (goroutine 1)
   ticks every 100 ms until current > clockEnd (17 iterations), exits; then 1.3 s of silence. *)
Definition sched_idle (fx : bool) : list act :=
  Call (500 * ms) :: rep (md_steps fx false) [Step 0%nat] ++ [Finish 0%nat] ++ rep 3 [Step 1%nat]
  ++ rep 16 (clock_iter (100 * ms) 1) ++ clock_last_iter (100 * ms) 1 ++ [Tick (1300 * ms)].

(* Two matches A (goroutine 2) and B (goroutine 3), both with a 500 ms timeout, start at the same
   instant t = 3.0 s after that idle period.  A performs its two atomic loads, B then runs
   makeDeadline to completion (refreshes current, extends and starts the clock, goroutine 4),
   then A continues.  100 ms later the clock ticks once and A polls. *)
Definition sched_race (fx : bool) : list act :=
  sched_idle fx ++ [Call (500 * ms); Call (500 * ms); Step 2%nat; Step 2%nat]
  ++ rep (md_steps fx true) [Step 3%nat]
  ++ rep (if fx then 6 else 8) [Step 2%nat]
  ++ rep 3 [Step 4%nat] ++ [Tick (100 * ms)] ++ rep 4 [Step 4%nat] ++ [Step 2%nat].

Definition final (fx : bool) (period lag : Z) (l : list act) : st :=
  match run fx period lag init l with Some s => s | None => init end.

(* fx = false, fastclock.go without the patch: A's deadline was computed from the stale current (2193 ticks = 2.3 s) although the
   call happened at 3.0 s, so the first tick of the restarted clock reports a timeout after 100 ms
   of a 500 ms budget; every goroutine was lag-timely (lag = 1 ms). *)
Lemma race_orig_run :
  run false (100 * ms) (1 * ms) init (sched_race false) = Some (final false (100 * ms) (1 * ms) (sched_race false)).
Proof. vm_compute. reflexivity. Qed.

Lemma race_orig_timed_out :
  nth_error (ths (final false (100 * ms) (1 * ms) (sched_race false))) 2
  = Some (MTimedOut (500 * ms) (3000 * ms) 2193 (3100 * ms)).
Proof. vm_compute. reflexivity. Qed.

Lemma no_early_timeout_orig_refuted : ~ no_early_timeout_stmt false (100 * ms) (1 * ms).
Proof.
  intros H.
  specialize (H _ _ _ _ _ _ _ race_orig_run race_orig_timed_out).
  specialize (H ltac:(vm_compute; discriminate) ltac:(vm_compute; discriminate)).
  vm_compute in H. apply H. reflexivity.
Qed.

(* further concrete schedules used as non-vacuity witnesses in Properties/C14.v *)
(* one catastrophic match with a 500 ms timeout polls after every clock tick *)
Definition sched_fires : list act :=
  Call (500 * ms) :: rep 8 [Step 0%nat] ++ rep 3 [Step 1%nat]
  ++ rep 6 (clock_iter (100 * ms) 1 ++ [Step 0%nat]).
(* StopTimeoutClock (goroutine 2) while that match is pending: the clock exits, nothing fires *)
Definition sched_stop_pending : list act :=
  Call (500 * ms) :: rep 8 [Step 0%nat] ++ rep 3 [Step 1%nat]
  ++ [CallStop; Step 2%nat; Step 2%nat; Step 2%nat]
  ++ clock_last_iter (100 * ms) 1 ++ rep 3 [Step 2%nat] ++ [Tick (2000 * ms); Step 0%nat].
(* MatchTimeout = MaxInt64 - 1: d + clockPeriod wraps around in int64 *)
Definition sched_overflow : list act :=
  Call (max_dur - 1) :: rep 3 [Step 0%nat].
(* prefix of sched_idle up to the end of the first match, and the quiet remainder *)
Definition sched_idle_head : list act :=
  Call (500 * ms) :: rep 8 [Step 0%nat] ++ [Finish 0%nat].
Definition sched_idle_tail : list act :=
  rep 3 [Step 1%nat] ++ rep 16 (clock_iter (100 * ms) 1) ++ clock_last_iter (100 * ms) 1 ++ [Tick (1300 * ms)].

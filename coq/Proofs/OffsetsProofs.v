(* Proofs about Model/Offsets.v: every rune->byte map of /repo denotes the prefix sums of the
   decode widths, for all byte strings / rune slices; slicing; group materialisation. *)
From Verif Require Import Base.Prelude Base.Utf8 Model.Offsets Proofs.Utf8Proofs.
From Verif Require Import Proofs.ListFacts.
From Coq Require Import ZifyBool.
(* lia sees / and mod through their defining equations (in this file only: the redefinition does not reach importers) *)
Ltac Zify.zify_post_hook ::= Z.div_mod_to_equations.

(* byte position of every rune boundary: [a; a+w0; a+w0+w1; ...], one more entry than widths *)
Fixpoint psums (a : Z) (ws : list Z) : list Z :=
  a :: match ws with [] => [] | w :: ws' => psums (a + w) ws' end.

Definition all_one (ws : list Z) : bool := forallb (fun w => w =? 1) ws.

(* what every table-building function must return: nil when rune index = byte index everywhere *)
Definition offsets_tbl (ws : list Z) : option (list Z) :=
  if all_one ws then None else Some (psums 0 ws).

Definition byte_pos (ws : list Z) (q : nat) : Z := zsum (firstn q ws).

Lemma psums_length a ws : length (psums a ws) = S (length ws).
Proof. revert a. induction ws as [|w ws IH]; intros a; cbn [psums length]; [|rewrite IH]; reflexivity. Qed.

Lemma psums_nth a ws : forall q, (q <= length ws)%nat ->
  nth_error (psums a ws) q = Some (a + byte_pos ws q).
Proof.
  revert a. induction ws as [|w ws IH]; intros a q Hq.
  - cbn [length] in Hq. replace q with 0%nat by lia. cbn. f_equal. lia.
  - destruct q as [|q]; [cbn; f_equal; lia|].
    cbn [psums nth_error]. rewrite IH by (cbn [length] in Hq; lia).
    unfold byte_pos. cbn [firstn zsum fold_right]. f_equal. fold (zsum (firstn q ws)). lia.
Qed.

Lemma all_one_psums ws : all_one ws = true -> psums 0 ws = iota (S (length ws)).
Proof.
  unfold iota.
  assert (G : forall a, all_one ws = true -> psums (Z.of_nat a) ws = map Z.of_nat (seq a (S (length ws)))).
  { induction ws as [|w ws IH]; intros a H; [reflexivity|].
    cbn [all_one forallb] in H. apply andb_true_iff in H. destruct H as [H1 H2].
    cbn [psums length seq map]. f_equal.
    replace (Z.of_nat a + w) with (Z.of_nat (S a)) by lia. apply IH. exact H2. }
  apply (G 0%nat).
Qed.

Lemma all_one_byte_pos ws q : all_one ws = true -> (q <= length ws)%nat -> byte_pos ws q = Z.of_nat q.
Proof.
  revert q. induction ws as [|w ws IH]; intros q H Hq.
  - cbn [length] in Hq. replace q with 0%nat by lia. reflexivity.
  - cbn [all_one forallb] in H. apply andb_true_iff in H. destruct H as [H1 H2].
    destruct q as [|q]; [reflexivity|]. unfold byte_pos in *. cbn [firstn zsum fold_right].
    fold (zsum (firstn q ws)). rewrite IH by (cbn [length] in Hq; try assumption; lia). lia.
Qed.

Lemma aset_middle pre x post v :
  aset (pre ++ x :: post) (zlen pre) v = Ok (pre ++ v :: post).
Proof.
  unfold aset. pose proof (zlen_nonneg pre). rewrite zlen_app. unfold zlen in *. cbn [length].
  replace ((0 <=? Z.of_nat (length pre)) && (Z.of_nat (length pre) <? Z.of_nat (length pre) + Z.of_nat (S (length post))))
    with true by lia.
  rewrite Nat2Z.id. f_equal.
  rewrite firstn_app, firstn_all, Nat.sub_diag. cbn [firstn]. rewrite app_nil_r. f_equal.
  replace (S (length pre)) with (length pre + 1)%nat by lia.
  rewrite skipn_app. rewrite skipn_all2 by lia.
  replace (length pre + 1 - length pre)%nat with 1%nat by lia. reflexivity.
Qed.

Lemma iota_S k : iota (S k) = iota k ++ [Z.of_nat k].
Proof. unfold iota. rewrite seq_S, map_app. reflexivity. Qed.

Lemma iota_length k : length (iota k) = k.
Proof. unfold iota. rewrite map_length, seq_length. reflexivity. Qed.

Lemma zlen_iota k : zlen (iota k) = Z.of_nat k.
Proof. unfold zlen. rewrite iota_length. reflexivity. Qed.

Lemma aget_nth {A} (a : list A) (q : nat) v : nth_error a q = Some v -> aget a (Z.of_nat q) = Ok v.
Proof.
  intros H. unfold aget, znth. replace (Z.of_nat q <? 0) with false by lia.
  rewrite Nat2Z.id, H. reflexivity.
Qed.

Local Opaque decode_rune.

Definition ws_of (d : list (Z * nat)) : list Z := map (fun p => Z.of_nat (snd p)) d.

(* suffix view: the decoding of s from byte p on *)
Lemma decode_suffix_cons s p r w d' :
  decode (skipn p s) = (r, w) :: d' ->
  decode_rune (skipn p s) = (r, w) /\ d' = decode (skipn (p + w) s) /\
  (1 <= w)%nat /\ (p + w <= length s)%nat.
Proof.
  intros H. destruct (skipn p s) as [|b t] eqn:E; [discriminate H|].
  rewrite decode_unfold in H. injection H as H1 H2.
  pose proof (decode_rune_width b t) as [Hw Hl]. rewrite H1 in Hw, Hl. cbn [snd] in Hw, Hl.
  rewrite H1 in H2. cbn [snd] in H2.
  assert (Hlen : length (b :: t) = (length s - p)%nat) by (rewrite <- E; apply skipn_length).
  repeat split; try lia; try assumption.
  rewrite skipn_add, E. symmetry. exact H2.
Qed.

(* the runeLen the loops compute is the decode width *)
Lemma range_rune_len_width s p r w :
  decode_rune (skipn p s) = (r, w) -> (1 <= w)%nat ->
  range_rune_len s (Z.of_nat p) r = Z.of_nat w.
Proof.
  intros H Hw. unfold range_rune_len. rewrite Nat2Z.id, H. cbn [snd].
  destruct (r =? rune_error) eqn:E; [reflexivity|].
  destruct (skipn p s) as [|b t] eqn:Es; [rewrite decode_rune_nil in H; injection H as _ H; lia|].
  destruct (decode_rune_valid_width b t r w H) as (_ & Hl & _).
  - unfold invalid1. intros C. injection C as C1 C2. lia.
  - symmetry. exact Hl.
Qed.

(* stringByteOffsets, runeByteOffsets and bytesToRunesAndOffsets run one state machine over the widths:
   no table while rune index = byte index; at the first width <> 1 the identity table up to the rune
   index k plus the current byte position; from then on one recorded position per rune. *)
Definition tbl_next (t : option (list Z)) (k : nat) (pos w : Z) : option (list Z) :=
  match t with
  | Some a => Some (a ++ [pos])
  | None => if w =? 1 then None else Some (iota k ++ [pos])
  end.

Fixpoint tbl_run (t : option (list Z)) (k : nat) (pos : Z) (ws : list Z) : option (list Z) :=
  match ws with
  | [] => t
  | w :: ws' => tbl_run (tbl_next t k pos w) (S k) (pos + w) ws'
  end.

Definition tbl_close (t : option (list Z)) (pos : Z) : option (list Z) :=
  match t with Some a => Some (a ++ [pos]) | None => None end.

Definition tbl_inv (t : option (list Z)) (k : nat) (pos : Z) : Prop :=
  match t with Some a => length a = k | None => pos = Z.of_nat k end.

Lemma tbl_next_inv t k pos w : tbl_inv t k pos -> tbl_inv (tbl_next t k pos w) (S k) (pos + w).
Proof.
  destruct t as [a|]; cbn [tbl_inv tbl_next]; intros H.
  - rewrite app_length, H. cbn [length]. lia.
  - destruct (w =? 1) eqn:E; cbn [tbl_inv]; [lia|].
    rewrite app_length, iota_length. cbn [length]. lia.
Qed.

Lemma tbl_run_inv ws : forall t k pos,
  tbl_inv t k pos -> tbl_inv (tbl_run t k pos ws) (k + length ws) (pos + zsum ws).
Proof.
  induction ws as [|w ws IH]; intros t k pos H; cbn [tbl_run length zsum fold_right].
  - rewrite Nat.add_0_r, Z.add_0_r. exact H.
  - fold (zsum ws). rewrite Nat.add_succ_r, Z.add_assoc. apply (IH _ (S k)), tbl_next_inv, H.
Qed.

Lemma tbl_run_some ws : forall a k pos,
  tbl_close (tbl_run (Some a) k pos ws) (pos + zsum ws) = Some (a ++ psums pos ws).
Proof.
  induction ws as [|w ws IH]; intros a k pos; cbn [tbl_run tbl_next psums zsum fold_right].
  - cbn [tbl_close]. rewrite Z.add_0_r. reflexivity.
  - fold (zsum ws). rewrite Z.add_assoc, IH, <- app_assoc. reflexivity.
Qed.

Lemma tbl_run_none ws : forall k,
  tbl_close (tbl_run None k (Z.of_nat k) ws) (Z.of_nat k + zsum ws) =
  if all_one ws then None else Some (iota k ++ psums (Z.of_nat k) ws).
Proof.
  induction ws as [|w ws IH]; intros k; [reflexivity|].
  cbn [tbl_run tbl_next all_one forallb psums zsum fold_right]. fold (zsum ws) (all_one ws).
  rewrite Z.add_assoc. destruct (w =? 1) eqn:E; cbn [andb].
  - apply Z.eqb_eq in E. subst w. replace (Z.of_nat k + 1) with (Z.of_nat (S k)) by lia.
    rewrite IH, iota_S, <- app_assoc. reflexivity.
  - rewrite tbl_run_some, <- app_assoc. reflexivity.
Qed.

Lemma tbl_run_offsets ws : tbl_close (tbl_run None 0 0 ws) (zsum ws) = offsets_tbl ws.
Proof. exact (tbl_run_none ws 0). Qed.

(* match.go writes the table into make([]int, cap+1): the entries so far, then zeros *)
Definition prealloc (cap : nat) (a : list Z) : list Z := a ++ repeat 0 (S cap - length a).

Lemma prealloc_set cap a v : (length a <= cap)%nat ->
  aset (prealloc cap a) (zlen a) v = Ok (prealloc cap (a ++ [v])).
Proof.
  intros H. unfold prealloc. rewrite app_length. cbn [length].
  replace (S cap - length a)%nat with (S (cap - length a)) by lia.
  replace (S cap - (length a + 1))%nat with (cap - length a)%nat by lia.
  cbn [repeat]. rewrite aset_middle, <- app_assoc. reflexivity.
Qed.

Lemma prealloc_fill cap : forall n k, (k + n <= S cap)%nat ->
  fill_identity (prealloc cap (iota k)) (Z.of_nat k) n = Ok (prealloc cap (iota (k + n))).
Proof.
  induction n as [|n IH]; intros k H; cbn [fill_identity].
  - rewrite Nat.add_0_r. reflexivity.
  - pose proof (prealloc_set cap (iota k) (Z.of_nat k)) as HA. rewrite zlen_iota, iota_length in HA.
    rewrite HA by lia. cbn [bind]. rewrite <- iota_S.
    replace (Z.of_nat k + 1) with (Z.of_nat (S k)) by lia.
    rewrite IH, Nat.add_succ_r by lia. reflexivity.
Qed.

Lemma prealloc_identity cap k : (k <= S cap)%nat ->
  fill_identity (repeat 0 (S cap)) 0 k = Ok (prealloc cap (iota k)).
Proof. exact (prealloc_fill cap k 0). Qed.

Lemma prealloc_slice cap a : go_slice (prealloc cap a) 0 (zlen a) = Ok a.
Proof.
  unfold go_slice, prealloc. rewrite zlen_app.
  pose proof (zlen_nonneg a). pose proof (zlen_nonneg (repeat 0 (S cap - length a))).
  replace ((0 <=? 0) && (0 <=? zlen a) && (zlen a <=? zlen a + zlen (repeat 0 (S cap - length a))))
    with true by lia.
  rewrite Z.sub_0_r. unfold zlen at 1. rewrite Nat2Z.id. cbn [Z.to_nat skipn].
  rewrite firstn_app, firstn_all, Nat.sub_diag. cbn [firstn]. rewrite app_nil_r. reflexivity.
Qed.

(* match.go:114-116 + 121-127 = 141-143 + 148-154: record the position if there is a table, else build
   one if this rune asks for it *)
Definition tbl_store (cap : nat) (bo : option (list Z)) (k pos : Z) (build : bool) : res (option (list Z)) :=
  match bo with
  | Some a => do a' <- aset a k pos ; Ok (Some a')
  | None =>
    if build then
      do a <- fill_identity (repeat 0 (S cap)) 0 (Z.to_nat k) ;
      do a' <- aset a k pos ;
      Ok (Some a')
    else Ok None
  end.

Lemma tbl_store_spec cap t k pos w build :
  tbl_inv t k pos -> (k <= cap)%nat -> (t = None -> build = negb (w =? 1)) ->
  tbl_store cap (option_map (prealloc cap) t) (Z.of_nat k) pos build =
  Ok (option_map (prealloc cap) (tbl_next t k pos w)).
Proof.
  intros Hi Hk Hb. destruct t as [a|]; cbn [tbl_inv] in Hi; cbn [tbl_store option_map tbl_next].
  - subst k. fold (zlen a). rewrite prealloc_set by exact Hk. reflexivity.
  - clear Hi. rewrite (Hb eq_refl). destruct (w =? 1); cbn [negb option_map]; [reflexivity|].
    rewrite Nat2Z.id, prealloc_identity by lia. cbn [bind].
    rewrite <- (zlen_iota k), prealloc_set by (rewrite iota_length; exact Hk). reflexivity.
Qed.

Lemma tbl_run_length ws : forall a, tbl_run None 0 0 ws = Some a -> length a = length ws.
Proof. intros a H. pose proof (tbl_run_inv ws None 0 0 eq_refl) as Hi. rewrite H in Hi. exact Hi. Qed.

(* ---------- match.go stringByteOffsets ---------- *)

Lemma range_items_cons p r w d :
  range_items p ((r, w) :: d) = (p, r) :: range_items (p + Z.of_nat w) d.
Proof. reflexivity. Qed.

Lemma sbo_step_store s bo k strIdx ch :
  sbo_step s (bo, k) (strIdx, ch) =
  do bo' <- tbl_store (length s) bo k strIdx
              (negb (strIdx =? k) || negb (range_rune_len s strIdx ch =? 1)) ;
  Ok (bo', k + 1).
Proof. unfold tbl_store. cbn [sbo_step]. destruct bo as [a|]; [destruct (aset a k strIdx)|]; reflexivity. Qed.

(* the loop from byte p / rune k on; the rune index never overtakes the byte index *)
Lemma sbo_fold s : forall d p t k,
  d = decode (skipn p s) -> tbl_inv t k (Z.of_nat p) -> (k <= p)%nat ->
  foldM (sbo_step s) (range_items (Z.of_nat p) d) (option_map (prealloc (length s)) t, Z.of_nat k) =
  Ok (option_map (prealloc (length s)) (tbl_run t k (Z.of_nat p) (ws_of d)), Z.of_nat (k + length d)).
Proof.
  induction d as [|[r w] d IH]; intros p t k Hd Hi Hk.
  - cbn [range_items foldM ws_of map tbl_run length]. rewrite Nat.add_0_r. reflexivity.
  - symmetry in Hd. destruct (decode_suffix_cons s p r w d Hd) as (Hdr & Hd' & Hw & Hlen).
    rewrite range_items_cons. cbn [foldM]. rewrite sbo_step_store.
    rewrite (range_rune_len_width s p r w Hdr Hw).
    rewrite (tbl_store_spec _ t k _ (Z.of_nat w)).
    + cbn [bind ws_of map snd tbl_run length]. fold (ws_of d).
      replace (Z.of_nat k + 1) with (Z.of_nat (S k)) by lia.
      rewrite <- Nat2Z.inj_add, Nat.add_succ_r.
      apply (IH (p + w)%nat _ (S k) Hd'); [|lia].
      rewrite Nat2Z.inj_add. apply tbl_next_inv, Hi.
    + exact Hi.
    + lia.
    + intros ->. cbn [tbl_inv] in Hi. rewrite Hi, Z.eqb_refl. reflexivity.
Qed.

Lemma ws_of_widths s : ws_of (decode s) = widths_of s.
Proof. reflexivity. Qed.

Lemma ws_of_length d : length (ws_of d) = length d.
Proof. apply map_length. Qed.

(* match.go:110-135 returns the prefix sums of the decode widths, or nil when they are all 1 *)
Lemma string_byte_offsets_spec s :
  string_byte_offsets s = Ok (offsets_tbl (widths_of s)).
Proof.
  unfold string_byte_offsets, go_range.
  pose proof (sbo_fold s (decode s) 0 None 0 eq_refl eq_refl (le_n 0)) as H.
  cbn [Z.of_nat option_map Nat.add] in H. rewrite H. cbn [bind]. rewrite ws_of_widths.
  rewrite <- tbl_run_offsets, decode_total.
  destruct (tbl_run None 0 0 (widths_of s)) as [a|] eqn:E; cbn [option_map tbl_close]; [|reflexivity].
  apply tbl_run_length in E. unfold widths_of in E. rewrite map_length in E. rewrite <- E. fold (zlen a).
  pose proof (decode_length_le s).
  rewrite prealloc_set by lia. cbn [bind].
  replace (zlen a + 1) with (zlen (a ++ [zlen s])) by (rewrite zlen_app; reflexivity).
  rewrite prealloc_slice. reflexivity.
Qed.

(* ---------- match.go runeByteOffsets ---------- *)

Definition elens (rs : list Z) : list Z := map encode_len rs.

Lemma rbo_step_store n bo k pos ch :
  rbo_step n (bo, k, pos) ch =
  do bo' <- tbl_store n bo k pos (negb (encode_len ch =? 1)) ; Ok (bo', k + 1, pos + encode_len ch).
Proof. unfold tbl_store. cbn [rbo_step]. destruct bo as [a|]; [destruct (aset a k pos)|]; reflexivity. Qed.

Lemma rbo_fold n : forall rs t k pos,
  tbl_inv t k pos -> (k + length rs <= n)%nat ->
  foldM (rbo_step n) rs (option_map (prealloc n) t, Z.of_nat k, pos) =
  Ok (option_map (prealloc n) (tbl_run t k pos (elens rs)), Z.of_nat (k + length rs),
      pos + zsum (elens rs)).
Proof.
  induction rs as [|r rs IH]; intros t k pos Hi Hk; cbn [length] in Hk.
  - cbn [foldM elens map tbl_run length zsum fold_right]. rewrite Nat.add_0_r, Z.add_0_r. reflexivity.
  - cbn [foldM]. rewrite rbo_step_store, (tbl_store_spec _ t k _ (encode_len r)) by (trivial; lia).
    cbn [bind elens map tbl_run length zsum fold_right]. fold (elens rs) (zsum (elens rs)).
    replace (Z.of_nat k + 1) with (Z.of_nat (S k)) by lia.
    rewrite Nat.add_succ_r, Z.add_assoc.
    apply (IH _ (S k)); [apply tbl_next_inv, Hi|lia].
Qed.

(* match.go:137-161 returns the prefix sums of the encoded lengths (invalid runes count 3), or nil *)
Lemma rune_byte_offsets_spec rs :
  rune_byte_offsets rs = Ok (offsets_tbl (elens rs)).
Proof.
  unfold rune_byte_offsets.
  pose proof (rbo_fold (length rs) rs None 0 0 eq_refl (le_n _)) as H.
  cbn [Z.of_nat option_map Nat.add Z.add] in H. rewrite H. cbn [bind].
  rewrite <- tbl_run_offsets.
  destruct (tbl_run None 0 0 (elens rs)) as [a|] eqn:E; cbn [option_map tbl_close]; [|reflexivity].
  apply tbl_run_length in E. unfold elens in E. rewrite map_length in E.
  unfold zlen. rewrite <- E. fold (zlen a).
  rewrite prealloc_set by lia. cbn [bind]. unfold prealloc.
  rewrite app_length. cbn [length]. replace (S (length a) - (length a + 1))%nat with 0%nat by lia.
  cbn [repeat]. rewrite app_nil_r. reflexivity.
Qed.

(* ---------- compat bytesToRunesAndOffsets ---------- *)

(* here the table is appended to, and the rune index is len(runes) *)
Lemma b2r_run b : forall fuel p runes t,
  (p <= length b)%nat -> (length b - p < fuel)%nat -> tbl_inv t (length runes) (Z.of_nat p) ->
  b2r_loop fuel b (Z.of_nat p) runes t =
  Ok (runes ++ map fst (decode (skipn p b)),
      tbl_close (tbl_run t (length runes) (Z.of_nat p) (ws_of (decode (skipn p b)))) (zlen b)).
Proof.
  induction fuel as [|fuel IH]; intros p runes t Hp Hf Hi; [lia|].
  cbn [b2r_loop]. unfold zlen at 1.
  destruct (Z.of_nat p <? Z.of_nat (length b)) eqn:E.
  - rewrite Nat2Z.id.
    destruct (decode (skipn p b)) as [|[r w] d] eqn:Hd.
    { destruct (skipn p b) as [|x u] eqn:Es; [|rewrite decode_unfold in Hd; discriminate Hd].
      pose proof (skipn_length p b) as HL. rewrite Es in HL. cbn [length] in HL. lia. }
    destruct (decode_suffix_cons b p r w d Hd) as (Hdr & Hd' & Hw & Hlen).
    rewrite Hdr.
    match goal with |- b2r_loop _ _ _ _ ?bo = _ =>
      replace bo with (tbl_next t (length runes) (Z.of_nat p) (Z.of_nat w)) end.
    + rewrite <- Nat2Z.inj_add, IH, <- Hd'.
      * rewrite app_length, Nat.add_1_r, Nat2Z.inj_add, <- app_assoc. reflexivity.
      * lia.
      * lia.
      * rewrite app_length, Nat.add_1_r, Nat2Z.inj_add. apply tbl_next_inv, Hi.
    + destruct t as [a|]; cbn [tbl_next tbl_inv] in *; [reflexivity|].
      unfold zlen. rewrite Hi, Z.eqb_refl. destruct (Z.of_nat w =? 1); reflexivity.
  - rewrite skipn_all2 by lia. cbn [decode decode_aux map ws_of tbl_run]. rewrite app_nil_r. reflexivity.
Qed.

(* compat/regexp.go:377-399: the runes of the string and the prefix sums of their widths *)
Lemma bytes_to_runes_and_offsets_spec fuel b :
  (length b < fuel)%nat ->
  bytes_to_runes_and_offsets fuel b = Ok (runes_of b, offsets_tbl (widths_of b)).
Proof.
  intros Hf. unfold bytes_to_runes_and_offsets.
  pose proof (b2r_run b fuel 0 [] None ltac:(lia) ltac:(lia) eq_refl) as H.
  cbn [skipn app length Z.of_nat] in H. rewrite H.
  rewrite ws_of_widths, <- (decode_total b), tbl_run_offsets. reflexivity.
Qed.

(* compat readRunes: offsets are the prefix sums of whatever sizes the reader reported *)
Lemma read_runes_spec items :
  read_runes items = (map fst items, psums 0 (map snd items)).
Proof.
  unfold read_runes.
  assert (G : forall (items : list (Z * Z)) (text pre : list Z) (a : Z),
    fold_left (fun st it => let '(text, offs) := st in
                            (text ++ [fst it], offs ++ [last offs 0 + snd it]))
              items (text, pre ++ [a]) =
    (text ++ map fst items, pre ++ psums a (map snd items))).
  { clear. induction items as [|[r sz] items IH]; intros text pre a.
    - cbn [fold_left map psums]. rewrite app_nil_r. reflexivity.
    - cbn [fold_left map psums fst snd]. rewrite last_last.
      rewrite <- (app_assoc pre [a]). cbn [app].
      replace (pre ++ [a; a + sz]) with ((pre ++ [a]) ++ [a + sz]) by (rewrite <- app_assoc; reflexivity).
      rewrite IH. rewrite <- !app_assoc. reflexivity. }
  apply (G items [] [] 0).
Qed.

(* ---------- regexp.go stringByteMapper / byteIndex ---------- *)

(* the sparse table in closed form: one entry (k+1, cumulated extra bytes) per rune k of width <> 1 *)
Fixpoint entries (k D : Z) (ws : list Z) : list (Z * Z) :=
  match ws with
  | [] => []
  | w :: ws' =>
    if w =? 1 then entries (k + 1) D ws'
    else (k + 1, D + (w - 1)) :: entries (k + 1) (D + (w - 1)) ws'
  end.

Definition mapper_of (m : option mapper) : mapper :=
  match m with Some m0 => m0 | None => {| m_idx := []; m_delta := [] |} end.

Definition mapper_add (m : option mapper) (E : list (Z * Z)) : option mapper :=
  match E with
  | [] => m
  | _ => Some {| m_idx := m_idx (mapper_of m) ++ map fst E;
                 m_delta := m_delta (mapper_of m) ++ map snd E |}
  end.

Lemma mapper_add_cons m x y E :
  mapper_add (Some {| m_idx := m_idx (mapper_of m) ++ [x]; m_delta := m_delta (mapper_of m) ++ [y] |}) E =
  mapper_add m ((x, y) :: E).
Proof.
  destruct E as [|e E]; cbn [mapper_add mapper_of m_idx m_delta map fst snd]; [reflexivity|].
  rewrite <- !app_assoc. reflexivity.
Qed.

Definition extras (ws : list Z) : list Z := map (fun w => w - 1) ws.

Lemma byte_mapper_fold s : forall d p m k D,
  d = decode (skipn p s) ->
  fold_left (bm_step s) (range_items (Z.of_nat p) d) (m, k, D) =
  (mapper_add m (entries k D (ws_of d)), k + zlen d, D + zsum (extras (ws_of d))).
Proof.
  induction d as [|[r w] d IH]; intros p m k D Hd.
  - cbn [range_items fold_left ws_of map entries mapper_add extras zsum fold_right]. unfold zlen.
    cbn [length]. f_equal; [f_equal|]; lia.
  - symmetry in Hd. destruct (decode_suffix_cons s p r w d Hd) as (Hdr & Hd' & Hw & Hlen).
    rewrite range_items_cons. cbn [fold_left bm_step].
    rewrite (range_rune_len_width s p r w Hdr Hw).
    cbn [ws_of map snd entries extras zsum fold_right]. fold (ws_of d). fold (extras (ws_of d)).
    fold (zsum (extras (ws_of d))).
    replace (Z.of_nat p + Z.of_nat w) with (Z.of_nat (p + w)) by lia.
    destruct (Z.of_nat w =? 1) eqn:E1; cbn [negb].
    + rewrite (IH (p + w)%nat m (k + 1) D Hd'). f_equal; [f_equal|]; try lia.
      unfold zlen. cbn [length]. lia.
    + fold (mapper_of m).
      rewrite (IH (p + w)%nat _ (k + 1) (D + (Z.of_nat w - 1)) Hd').
      rewrite mapper_add_cons. f_equal; [f_equal|]; try lia.
      unfold zlen. cbn [length]. lia.
Qed.

Lemma new_byte_mapper_spec s :
  new_byte_mapper s = mapper_add None (entries 0 0 (widths_of s)).
Proof.
  unfold new_byte_mapper, go_range.
  pose proof (byte_mapper_fold s (decode s) 0 None 0 0 eq_refl) as H. cbn [Z.of_nat] in H. rewrite H.
  reflexivity.
Qed.

(* strictly increasing, everything above k *)
Fixpoint off_sorted_from (k : Z) (l : list Z) : Prop :=
  match l with [] => True | x :: l' => k < x /\ off_sorted_from x l' end.

Lemma off_sorted_from_weaken l : forall k k', k' <= k -> off_sorted_from k l -> off_sorted_from k' l.
Proof. destruct l as [|x l]; intros k k' Hk H; cbn [off_sorted_from] in *; [exact I|]. split; [lia|tauto]. Qed.

Lemma entries_sorted ws : forall k D, off_sorted_from k (map fst (entries k D ws)).
Proof.
  induction ws as [|w ws IH]; intros k D; cbn [entries]; [exact I|].
  destruct (w =? 1).
  - apply (off_sorted_from_weaken _ (k + 1)); [lia|apply IH].
  - cbn [map fst off_sorted_from]. split; [lia|apply IH].
Qed.

Lemma off_sorted_from_nth l : forall k h, off_sorted_from k l -> (h < length l)%nat -> k < nth h l 0.
Proof.
  induction l as [|x l IH]; intros k h Hs Hh; [cbn [length] in Hh; lia|].
  cbn [off_sorted_from] in Hs. destruct Hs as [Hx Hs]. destruct h as [|h]; [exact Hx|].
  cbn [nth]. cbn [length] in Hh. specialize (IH x h Hs ltac:(lia)). lia.
Qed.

(* how many leading entries are <= q (for a sorted list: how many entries are <= q) *)
Fixpoint off_count_le (q : Z) (l : list Z) : nat :=
  match l with
  | [] => 0%nat
  | x :: l' => if x <=? q then S (off_count_le q l') else 0%nat
  end.

Lemma off_count_le_length q l : (off_count_le q l <= length l)%nat.
Proof. induction l as [|x l IH]; cbn [off_count_le length]; [lia|]. destruct (x <=? q); lia. Qed.

Lemma off_count_le_spec q l : forall k h,
  off_sorted_from k l -> (h < length l)%nat ->
  (q <? nth h l 0) = (off_count_le q l <=? h)%nat.
Proof.
  induction l as [|x l IH]; intros k h Hs Hh; [cbn [length] in Hh; lia|].
  cbn [off_count_le]. destruct (x <=? q) eqn:E.
  - destruct h as [|h]; [cbn [nth]; lia|]. cbn [nth].
    cbn [off_sorted_from] in Hs. destruct Hs as [_ Hs]. cbn [length] in Hh.
    rewrite (IH x h Hs ltac:(lia)). reflexivity.
  - pose proof (off_sorted_from_nth (x :: l) k h Hs Hh) as Hn.
    cbn [off_sorted_from] in Hs. destruct Hs as [Hx Hs].
    assert (x <= nth h (x :: l) 0).
    { destruct h as [|h]; [cbn [nth]; lia|]. cbn [nth]. cbn [length] in Hh.
      pose proof (off_sorted_from_nth l x h Hs ltac:(lia)). lia. }
    replace (0 <=? h)%nat with true by lia. lia.
Qed.

(* linear reading of the table: extra bytes accumulated before rune index q *)
Fixpoint off_lookup (D0 q : Z) (E : list (Z * Z)) : Z :=
  match E with
  | [] => D0
  | (i, d) :: E' => if i <=? q then off_lookup d q E' else D0
  end.

Lemma off_lookup_count E : forall D0 q,
  off_lookup D0 q E =
  match off_count_le q (map fst E) with O => D0 | S c => nth c (map snd E) 0 end.
Proof.
  induction E as [|[i d] E IH]; intros D0 q; [reflexivity|].
  cbn [off_lookup map fst snd off_count_le]. destruct (i <=? q); [|reflexivity].
  rewrite IH. destruct (off_count_le q (map fst E)); reflexivity.
Qed.

Lemma off_lookup_above E : forall k D0 q, off_sorted_from k (map fst E) -> q <= k -> off_lookup D0 q E = D0.
Proof.
  destruct E as [|[i d] E]; intros k D0 q Hs Hq; [reflexivity|].
  cbn [map fst off_sorted_from] in Hs. cbn [off_lookup]. replace (i <=? q) with false by lia. reflexivity.
Qed.

Lemma off_lookup_entries ws : forall k D m,
  off_lookup D (k + Z.of_nat m) (entries k D ws) = D + zsum (firstn m (extras ws)).
Proof.
  induction ws as [|w ws IH]; intros k D m.
  - cbn [entries off_lookup extras map]. rewrite firstn_nil. cbn. lia.
  - cbn [entries extras map]. fold (extras ws). destruct m as [|m].
    + cbn [firstn zsum fold_right]. replace (k + Z.of_nat 0) with k by lia.
      replace (D + 0) with D by lia.
      destruct (w =? 1).
      * apply (off_lookup_above _ (k + 1)); [apply entries_sorted|lia].
      * cbn [off_lookup]. replace (k + 1 <=? k) with false by lia. reflexivity.
    + cbn [firstn zsum fold_right]. fold (zsum (firstn m (extras ws))).
      replace (k + Z.of_nat (S m)) with ((k + 1) + Z.of_nat m) by lia.
      destruct (w =? 1) eqn:E.
      * rewrite IH. lia.
      * cbn [off_lookup]. replace (k + 1 <=? k + 1 + Z.of_nat m) with true by lia. rewrite IH. lia.
Qed.

Lemma byte_pos_extras ws : forall q, (q <= length ws)%nat ->
  byte_pos ws q = Z.of_nat q + zsum (firstn q (extras ws)).
Proof.
  unfold byte_pos. induction ws as [|w ws IH]; intros q Hq.
  - cbn [length] in Hq. replace q with 0%nat by lia. reflexivity.
  - destruct q as [|q]; [reflexivity|]. cbn [extras map firstn zsum fold_right]. fold (extras ws).
    fold (zsum (firstn q ws)). fold (zsum (firstn q (extras ws))).
    cbn [length] in Hq. rewrite IH by lia. lia.
Qed.

(* sort.Search finds the boundary of a monotone predicate *)
Lemma go_search_spec (f : Z -> res bool) n c :
  (forall h, 0 <= h < n -> f h = Ok (c <=? h)) ->
  forall fuel i j, 0 <= i <= c -> c <= j <= n -> (Z.to_nat (j - i) < fuel)%nat ->
  go_search fuel f i j = Ok c.
Proof.
  intros Hf. induction fuel as [|fuel IH]; intros i j Hi Hj Hfu; [lia|].
  cbn [go_search]. destruct (i <? j) eqn:E.
  - rewrite Hf by lia. cbn [bind].
    destruct (c <=? (i + j) / 2) eqn:Ec; cbn [negb].
    + apply IH; lia.
    + apply IH; lia.
  - f_equal. lia.
Qed.

Lemma aget_nth_default (a : list Z) h : (h < length a)%nat -> aget a (Z.of_nat h) = Ok (nth h a 0).
Proof. intros H. apply aget_nth. apply nth_error_nth'. exact H. Qed.

Lemma entries_length_le ws : forall k D, (length (entries k D ws) <= length ws)%nat.
Proof.
  induction ws as [|w ws IH]; intros k D; cbn [entries length]; [lia|].
  destruct (w =? 1); cbn [length]; specialize (IH (k + 1)); [specialize (IH D)|specialize (IH (D + (w - 1)))]; lia.
Qed.

(* regexp.go:412-420 on the table of regexp.go:390-410 = the prefix-sum function *)
Lemma byte_index_entries ws fuel q :
  let E := entries 0 0 ws in
  (q <= length ws)%nat -> (length E < fuel)%nat ->
  byte_index fuel {| m_idx := map fst E; m_delta := map snd E |} (Z.of_nat q) =
  Ok (byte_pos ws q).
Proof.
  intros E Hq Hfu. unfold byte_index. cbn [m_idx m_delta].
  set (idx := map fst E). set (c := off_count_le (Z.of_nat q) idx).
  assert (Hs : off_sorted_from 0 idx) by apply entries_sorted.
  assert (Hlen : length idx = length E) by apply map_length.
  pose proof (off_count_le_length (Z.of_nat q) idx) as Hc. fold c in Hc.
  rewrite (go_search_spec _ (zlen idx) (Z.of_nat c)).
  - cbn [bind].
    pose proof (off_lookup_entries ws 0 0 q) as HL. rewrite Z.add_0_l in HL.
    rewrite off_lookup_count in HL. fold E idx c in HL.
    rewrite (byte_pos_extras ws q Hq).
    destruct c as [|c'] eqn:Ec.
    + replace (Z.of_nat 0 - 1 <? 0) with true by lia. f_equal. lia.
    + replace (Z.of_nat (S c') - 1 <? 0) with false by lia.
      replace (Z.of_nat (S c') - 1) with (Z.of_nat c') by lia.
      rewrite aget_nth_default by (rewrite map_length; lia). cbn [bind]. f_equal. lia.
  - intros h Hh. unfold zlen in Hh.
    replace h with (Z.of_nat (Z.to_nat h)) by lia.
    rewrite aget_nth_default by lia. cbn [bind]. f_equal.
    rewrite (off_count_le_spec _ idx 0 (Z.to_nat h) Hs ltac:(lia)). fold c. lia.
  - lia.
  - unfold zlen. lia.
  - unfold zlen. lia.
Qed.

Lemma entries_nil_all_one ws : forall k D, entries k D ws = [] <-> all_one ws = true.
Proof.
  induction ws as [|w ws IH]; intros k D; cbn [entries all_one forallb]; [tauto|].
  destruct (w =? 1); cbn [andb]; [apply IH|]. split; discriminate.
Qed.

(* byte_index_spec: for every string, at every rune index 0..n *)
Lemma byte_index_spec s fuel q :
  (q <= length (decode s))%nat -> (length s < fuel)%nat ->
  match new_byte_mapper s with
  | Some m => byte_index fuel m (Z.of_nat q) = Ok (byte_pos (widths_of s) q)
  | None => byte_pos (widths_of s) q = Z.of_nat q /\ all_one (widths_of s) = true
  end.
Proof.
  intros Hq Hfu. rewrite new_byte_mapper_spec.
  assert (Hwl : length (widths_of s) = length (decode s)) by apply map_length.
  destruct (entries 0 0 (widths_of s)) as [|e E] eqn:HE.
  - cbn [mapper_add]. apply entries_nil_all_one in HE. split; [|exact HE].
    apply all_one_byte_pos; [exact HE|lia].
  - cbn [mapper_add mapper_of m_idx m_delta app]. rewrite <- HE.
    apply byte_index_entries; [lia|].
    pose proof (entries_length_le (widths_of s) 0 0). pose proof (decode_length_le s). lia.
Qed.

Lemma new_byte_mapper_none s : new_byte_mapper s = None <-> all_one (widths_of s) = true.
Proof.
  rewrite new_byte_mapper_spec, <- (entries_nil_all_one (widths_of s) 0 0).
  destruct (entries 0 0 (widths_of s)); cbn [mapper_add]; split; intros H; congruence.
Qed.

(* ---------- ByteRange, Runes, String ---------- *)

Lemma byte_pos_boundary s q : byte_pos (widths_of s) q = Z.of_nat (boundary s q).
Proof.
  unfold byte_pos, boundary, widths_of. generalize (decode s) as d. intros d. revert q.
  induction d as [|[r w] d IH]; intros q; [destruct q; reflexivity|].
  destruct q as [|q]; [reflexivity|]. cbn [map firstn zsum nsum fold_right snd].
  fold (zsum (firstn q (map (fun p => Z.of_nat (snd p)) d))). fold (nsum (firstn q (map snd d))).
  rewrite IH. lia.
Qed.

Lemma byte_pos_mono ws q q' :
  Forall (fun w => 1 <= w <= 4) ws -> (q <= q')%nat -> byte_pos ws q <= byte_pos ws q'.
Proof.
  unfold byte_pos. intros Hw. revert q q'. induction Hw as [|w ws Hw1 Hw IH]; intros q q' Hq.
  - rewrite !firstn_nil. lia.
  - destruct q as [|q]; destruct q' as [|q']; cbn [firstn zsum fold_right]; try lia.
    + fold (zsum (firstn q' ws)). specialize (IH 0%nat q' ltac:(lia)). cbn [firstn zsum fold_right] in IH. lia.
    + fold (zsum (firstn q' ws)). fold (zsum (firstn q ws)). specialize (IH q q' ltac:(lia)). lia.
Qed.

Lemma psums_aget ws q : (q <= length ws)%nat -> aget (psums 0 ws) (Z.of_nat q) = Ok (byte_pos ws q).
Proof. intros H. apply aget_nth, (psums_nth 0 ws q H). Qed.

(* table lookup of the lazily built offsets: the prefix-sum function, whatever the representation *)
Lemma tbl_byte_range ws (i l : nat) :
  (i + l <= length ws)%nat ->
  match offsets_tbl ws with
  | None => Ok (Z.of_nat i, Z.of_nat l)
  | Some a =>
    do bi <- aget a (Z.of_nat i) ;
    do e <- aget a (Z.of_nat i + Z.of_nat l) ;
    Ok (bi, e - bi)
  end = Ok (byte_pos ws i, byte_pos ws (i + l) - byte_pos ws i).
Proof.
  intros H. unfold offsets_tbl. destruct (all_one ws) eqn:A.
  - rewrite !all_one_byte_pos by (try assumption; lia). f_equal. f_equal. lia.
  - rewrite <- Nat2Z.inj_add, !psums_aget by lia. reflexivity.
Qed.

(* Capture.ByteRange on a string input *)
Lemma byte_range_string s (i l : nat) :
  (i + l <= length (decode s))%nat ->
  byte_range (new_string_match_text s (runes_of s)) (Z.of_nat i) (Z.of_nat l) =
  Ok (byte_pos (widths_of s) i, byte_pos (widths_of s) (i + l) - byte_pos (widths_of s) i).
Proof.
  intros H. unfold byte_range, build_byte_offsets. cbn [mt_has_string new_string_match_text mt_input].
  rewrite string_byte_offsets_spec. cbn [bind]. apply tbl_byte_range.
  unfold widths_of. rewrite map_length. exact H.
Qed.

(* Capture.ByteRange on a []rune input: positions in string(runes) *)
Lemma byte_range_runes rs (i l : nat) :
  (i + l <= length rs)%nat ->
  byte_range (new_match_text rs) (Z.of_nat i) (Z.of_nat l) =
  Ok (byte_pos (elens rs) i, byte_pos (elens rs) (i + l) - byte_pos (elens rs) i).
Proof.
  intros H. unfold byte_range, build_byte_offsets. cbn [mt_has_string new_match_text mt_runes].
  rewrite rune_byte_offsets_spec. cbn [bind]. apply tbl_byte_range.
  unfold elens. rewrite map_length. exact H.
Qed.

Lemma go_slice_nat {A} (a : list A) (i l : nat) :
  (i + l <= length a)%nat ->
  go_slice a (Z.of_nat i) (Z.of_nat i + Z.of_nat l) = Ok (firstn l (skipn i a)).
Proof.
  intros H. unfold go_slice, zlen.
  replace ((0 <=? Z.of_nat i) && (Z.of_nat i <=? Z.of_nat i + Z.of_nat l) &&
           (Z.of_nat i + Z.of_nat l <=? Z.of_nat (length a))) with true by lia.
  replace (Z.to_nat (Z.of_nat i + Z.of_nat l - Z.of_nat i)) with l by lia.
  rewrite Nat2Z.id. reflexivity.
Qed.

(* Capture.Runes() *)
Lemma capture_runes_spec t (i l : nat) :
  (i + l <= length (mt_runes t))%nat ->
  capture_runes t (Z.of_nat i) (Z.of_nat l) = Ok (firstn l (skipn i (mt_runes t))).
Proof. intros H. apply go_slice_nat. exact H. Qed.

(* byte_range_slices: the bytes addressed by ByteRange decode to exactly the captured runes *)
Lemma byte_range_slices s (i l : nat) :
  (i + l <= length (decode s))%nat ->
  let t := new_string_match_text s (runes_of s) in
  exists bi bl sl,
    byte_range t (Z.of_nat i) (Z.of_nat l) = Ok (bi, bl) /\
    0 <= bi /\ 0 <= bl /\ bi + bl <= zlen s /\
    go_slice s bi (bi + bl) = Ok sl /\
    decode sl = firstn l (skipn i (decode s)) /\
    capture_runes t (Z.of_nat i) (Z.of_nat l) = Ok (runes_of sl) /\
    (valid_utf8 sl = true -> capture_string t (Z.of_nat i) (Z.of_nat l) = Ok sl).
Proof.
  intros H t.
  set (bi := boundary s i). set (be := boundary s (i + l)).
  assert (Hle : (bi <= be)%nat).
  { unfold bi, be. rewrite boundary_add. lia. }
  assert (Hbe : (be <= length s)%nat) by apply boundary_le.
  set (sl := firstn (be - bi) (skipn bi s)).
  exists (Z.of_nat bi), (Z.of_nat (be - bi)), sl.
  assert (Hdec : decode sl = firstn l (skipn i (decode s))) by apply decode_slice.
  assert (Hrunes : capture_runes t (Z.of_nat i) (Z.of_nat l) = Ok (runes_of sl)).
  { unfold t. rewrite capture_runes_spec
      by (cbn [mt_runes new_string_match_text]; unfold runes_of; rewrite map_length; exact H).
    cbn [mt_runes new_string_match_text]. unfold runes_of. rewrite Hdec.
    rewrite skipn_map, firstn_map. reflexivity. }
  split; [|split; [lia|split; [lia|split; [unfold zlen; lia|split; [|split; [exact Hdec|split; [exact Hrunes|]]]]]]].
  - unfold t. rewrite byte_range_string by exact H. rewrite !byte_pos_boundary. fold bi be.
    f_equal. f_equal. lia.
  - apply go_slice_nat. lia.
  - intros Hv. unfold capture_string. rewrite Hrunes. cbn [bind]. f_equal. apply encode_decode. exact Hv.
Qed.

(* ---------- agreement of the routes ---------- *)

Lemma valid_utf8_elens s : valid_utf8 s = true -> elens (runes_of s) = widths_of s.
Proof.
  unfold valid_utf8, elens, runes_of, widths_of. generalize (decode s) as d. intros d.
  induction d as [|[r w] d IH]; intros H; [reflexivity|].
  cbn [forallb] in H. apply andb_true_iff in H. destruct H as [Hp Hd].
  cbn [map fst snd]. rewrite IH by exact Hd. f_equal.
  unfold valid_pair in Hp. cbn [fst snd] in Hp. unfold encode_len.
  destruct (rune_len r <? 0) eqn:E; lia.
Qed.

(* ... so for valid UTF-8 both ByteRange tables are the same object *)
Lemma rune_string_offsets_coincide s :
  valid_utf8 s = true -> rune_byte_offsets (runes_of s) = string_byte_offsets s.
Proof.
  intros H. rewrite rune_byte_offsets_spec, string_byte_offsets_spec, valid_utf8_elens by exact H.
  reflexivity.
Qed.

(* ... and in general the []rune table is the string table of string(runes) *)
Lemma widths_of_encode_string rs : widths_of (encode_string rs) = elens rs.
Proof.
  unfold widths_of, elens. rewrite decode_encode_string, map_map. apply map_ext. intros r.
  cbn [snd]. pose proof (encode_len_range r). lia.
Qed.

Lemma rune_offsets_are_string_offsets rs :
  rune_byte_offsets rs = string_byte_offsets (encode_string rs).
Proof. rewrite rune_byte_offsets_spec, string_byte_offsets_spec, widths_of_encode_string. reflexivity. Qed.

(* the pair FindAllStringIndex reports *)
Lemma find_all_pair_spec s fuel (i l : nat) :
  (i + l <= length (decode s))%nat -> (length s < fuel)%nat ->
  find_all_pair fuel (new_byte_mapper s) (Z.of_nat i) (Z.of_nat l) =
  Ok (byte_pos (widths_of s) i, byte_pos (widths_of s) (i + l)).
Proof.
  intros H Hf. unfold find_all_pair.
  pose proof (byte_index_spec s fuel i ltac:(lia) Hf) as H1.
  pose proof (byte_index_spec s fuel (i + l) H Hf) as H2.
  destruct (new_byte_mapper s) as [m|].
  - rewrite H1. cbn [bind]. replace (Z.of_nat i + Z.of_nat l) with (Z.of_nat (i + l)) by lia.
    rewrite H2. reflexivity.
  - destruct H1 as [H1 _]. destruct H2 as [H2 _]. rewrite H1, H2. f_equal. f_equal. lia.
Qed.

Lemma psums_compat_pair ws (i l : nat) :
  (i + l <= length ws)%nat ->
  compat_pair (Some (psums 0 ws)) (Z.of_nat i) (Z.of_nat l) = Ok (byte_pos ws i, byte_pos ws (i + l)).
Proof. intros H. unfold compat_pair. rewrite <- Nat2Z.inj_add, !psums_aget by lia. reflexivity. Qed.

Lemma tbl_compat_pair ws (i l : nat) :
  (i + l <= length ws)%nat ->
  compat_pair (offsets_tbl ws) (Z.of_nat i) (Z.of_nat l) = Ok (byte_pos ws i, byte_pos ws (i + l)).
Proof.
  intros H. unfold offsets_tbl. destruct (all_one ws) eqn:A; [|apply psums_compat_pair, H].
  cbn [compat_pair]. rewrite !all_one_byte_pos by (try assumption; lia). f_equal. f_equal. lia.
Qed.

(* the pair the adapter reports for []byte input *)
Lemma compat_bytes_pair_spec s fuel (i l : nat) :
  (i + l <= length (decode s))%nat -> (length s < fuel)%nat ->
  (do ro <- bytes_to_runes_and_offsets fuel s ; compat_pair (snd ro) (Z.of_nat i) (Z.of_nat l)) =
  Ok (byte_pos (widths_of s) i, byte_pos (widths_of s) (i + l)).
Proof.
  intros H Hf. rewrite bytes_to_runes_and_offsets_spec by exact Hf. cbn [bind snd].
  apply tbl_compat_pair. unfold widths_of. rewrite map_length. exact H.
Qed.

(* the pair the adapter reports for a rune reader that hands out the decode pairs of s *)
Lemma compat_reader_pair_spec s (i l : nat) :
  (i + l <= length (decode s))%nat ->
  let rd := read_runes (map (fun p => (fst p, Z.of_nat (snd p))) (decode s)) in
  fst rd = runes_of s /\
  compat_pair (Some (snd rd)) (Z.of_nat i) (Z.of_nat l) =
  Ok (byte_pos (widths_of s) i, byte_pos (widths_of s) (i + l)).
Proof.
  intros H rd. unfold rd. rewrite read_runes_spec. cbn [fst snd]. rewrite !map_map. cbn [fst snd].
  split; [reflexivity|]. fold (widths_of s).
  apply psums_compat_pair. unfold widths_of. rewrite map_length. exact H.
Qed.

(* ---------- newGroup / Groups() ---------- *)

Lemma firstn_S_last {A} (l : list A) : forall n x,
  nth_error l n = Some x -> firstn (S n) l = firstn n l ++ [x].
Proof.
  induction l as [|y l IH]; intros n x H; [destruct n; discriminate H|].
  destruct n as [|n]; [cbn in H; injection H as ->; reflexivity|].
  cbn [nth_error] in H. cbn [firstn app]. rewrite <- (IH n x H). reflexivity.
Qed.

(* the capture words read as (index, length) pairs *)
Fixpoint cap_pairs (caps : list Z) : list (Z * Z) :=
  match caps with
  | a :: b :: rest => (a, b) :: cap_pairs rest
  | _ => []
  end.

Lemma pairs_ind {A} (P : list A -> Prop) :
  P [] -> (forall x, P [x]) -> (forall x y l, P l -> P (x :: y :: l)) -> forall l, P l.
Proof. intros H0 H1 H2. fix IH 1. intros [|x [|y l]]; [exact H0|apply H1|apply H2, IH]. Qed.

Lemma aget_cons {A} (x : A) l i : 0 <= i -> aget (x :: l) (i + 1) = aget l i.
Proof.
  intros H. unfold aget, znth. replace (i + 1 <? 0) with false by lia. replace (i <? 0) with false by lia.
  replace (Z.to_nat (i + 1)) with (S (Z.to_nat i)) by lia. reflexivity.
Qed.

Lemma cap_pairs_nth caps : forall j a b,
  nth_error (cap_pairs caps) j = Some (a, b) ->
  aget caps (Z.of_nat j * 2) = Ok a /\ aget caps (Z.of_nat j * 2 + 1) = Ok b.
Proof.
  induction caps as [|x|x y rest IH] using pairs_ind; intros j a b H; try (destruct j; discriminate H).
  cbn [cap_pairs] in H. destruct j as [|j]; cbn [nth_error] in H.
  - injection H as -> ->. split; reflexivity.
  - replace (Z.of_nat (S j) * 2) with (Z.of_nat j * 2 + 1 + 1) by lia.
    rewrite !aget_cons by lia. exact (IH j a b H).
Qed.

Lemma cap_pairs_length caps : length (cap_pairs caps) = Nat.div2 (length caps).
Proof.
  induction caps as [|x|x y rest IH] using pairs_ind; try reflexivity.
  cbn [cap_pairs length Nat.div2]. rewrite IH. reflexivity.
Qed.

Lemma new_group_caps_spec caps : forall n i,
  (i + n <= length (cap_pairs caps))%nat ->
  new_group_caps caps (Z.of_nat i) n = Ok (firstn n (skipn i (cap_pairs caps))).
Proof.
  induction n as [|n IH]; intros i H; [reflexivity|].
  cbn [new_group_caps].
  destruct (nth_error (cap_pairs caps) i) as [[a b]|] eqn:E;
    [|apply nth_error_None in E; lia].
  destruct (cap_pairs_nth caps i a b E) as [H1 H2]. rewrite H1, H2. cbn [bind].
  replace (Z.of_nat i + 1) with (Z.of_nat (S i)) by lia.
  rewrite IH by lia. cbn [bind]. f_equal.
  rewrite (skipn_cons_nth_error _ i (a, b) E). reflexivity.
Qed.

Definition group_embedded (g : group) : Z * Z := (g_index g, g_length g).

(* newGroup: the captures are the first capcount pairs, the embedded capture is the last one
   (or the zero capture when there is none) *)
Lemma new_group_spec caps (n : nat) :
  (n <= length (cap_pairs caps))%nat ->
  exists g, new_group caps (Z.of_nat n) = Ok g /\
            g_caps g = firstn n (cap_pairs caps) /\
            group_embedded g = last (g_caps g) (0, 0).
Proof.
  intros H. unfold new_group.
  replace (Z.of_nat n <? 0) with false by lia. rewrite Nat2Z.id.
  pose proof (new_group_caps_spec caps n 0 ltac:(lia)) as HC. cbn [Z.of_nat skipn] in HC.
  destruct n as [|n].
  - cbn [Z.of_nat]. cbn [Z.ltb Z.compare bind]. rewrite HC. cbn [bind firstn].
    eexists. split; [reflexivity|]. split; reflexivity.
  - replace (0 <? Z.of_nat (S n)) with true by lia.
    destruct (nth_error (cap_pairs caps) n) as [[a b]|] eqn:E;
      [|apply nth_error_None in E; lia].
    destruct (cap_pairs_nth caps n a b E) as [H1 H2].
    replace ((Z.of_nat (S n) - 1) * 2) with (Z.of_nat n * 2) by lia.
    replace (Z.of_nat (S n) * 2 - 1) with (Z.of_nat n * 2 + 1) by lia.
    rewrite H1, H2. cbn [bind]. rewrite HC. cbn [bind].
    eexists. split; [reflexivity|]. cbn [g_caps group_embedded g_index g_length fst snd].
    split; [reflexivity|].
    rewrite (firstn_S_last _ n (a, b) E). rewrite last_last. reflexivity.
Qed.

Definition in_bounds (n : Z) (c : Z * Z) : Prop := 0 <= fst c /\ 0 <= snd c /\ fst c + snd c <= n.

(* what the interpreter + tidy must establish for one group's storage (the VM invariant that
   DESIGN §4 calls caps_in_bounds; it is a hypothesis here):
   capcount pairs are stored, each an in-range (index, length) *)
Definition stored_ok (n : Z) (caps : list Z) (cnt : Z) : Prop :=
  0 <= cnt /\ (Z.to_nat cnt <= length (cap_pairs caps))%nat /\
  Forall (in_bounds n) (firstn (Z.to_nat cnt) (cap_pairs caps)).

Definition group_wf (n : Z) (g : group) : Prop :=
  Forall (in_bounds n) (g_caps g) /\ group_embedded g = last (g_caps g) (0, 0).

Lemma populate_spec n matches matchcount : forall k i,
  (i + k <= length matchcount)%nat -> length matches = length matchcount ->
  (forall j caps cnt, (i <= j < i + k)%nat -> nth_error matches j = Some caps ->
                      nth_error matchcount j = Some cnt -> stored_ok n caps cnt) ->
  exists gs, populate matches matchcount (Z.of_nat i) k = Ok gs /\ length gs = k /\
             Forall (group_wf n) gs /\
             (forall j caps cnt g, (j < k)%nat -> nth_error matches (i + j) = Some caps ->
                nth_error matchcount (i + j) = Some cnt -> nth_error gs j = Some g ->
                g_caps g = firstn (Z.to_nat cnt) (cap_pairs caps)).
Proof.
  induction k as [|k IH]; intros i Hi Hlen Hok.
  - exists []. cbn [populate]. repeat split; try constructor. intros; lia.
  - cbn [populate].
    destruct (nth_error matches i) as [caps|] eqn:Em; [|apply nth_error_None in Em; lia].
    destruct (nth_error matchcount i) as [cnt|] eqn:Ec; [|apply nth_error_None in Ec; lia].
    rewrite (aget_nth _ i _ Em), (aget_nth _ i _ Ec). cbn [bind].
    destruct (Hok i caps cnt ltac:(lia) Em Ec) as (Hc0 & Hcl & Hcb).
    destruct (new_group_spec caps (Z.to_nat cnt) Hcl) as (g & Hg & Hgc & Hge).
    rewrite Z2Nat.id in Hg by lia. rewrite Hg. cbn [bind].
    replace (Z.of_nat i + 1) with (Z.of_nat (S i)) by lia.
    destruct (IH (S i) ltac:(lia) Hlen) as (gs & Hgs & Hgl & Hgw & Hgn).
    { intros j c2 n2 Hj. apply Hok. lia. }
    rewrite Hgs. cbn [bind]. exists (g :: gs). split; [reflexivity|]. split; [cbn [length]; lia|].
    split.
    + constructor; [|exact Hgw]. split; [rewrite Hgc; exact Hcb|exact Hge].
    + intros j c2 n2 g2 Hj Hm2 Hc2 Hg2. destruct j as [|j].
      * rewrite Nat.add_0_r in Hm2, Hc2. cbn [nth_error] in Hg2.
        assert (c2 = caps) by congruence. assert (n2 = cnt) by congruence. assert (g2 = g) by congruence.
        subst. exact Hgc.
      * cbn [nth_error] in Hg2. apply (Hgn j c2 n2 g2); try lia; try assumption.
        -- replace (S i + j)%nat with (i + S j)%nat by lia. exact Hm2.
        -- replace (S i + j)%nat with (i + S j)%nat by lia. exact Hc2.
Qed.

(* Groups(): group 0 as tidy leaves it plus the materialised others; if the stored words of every
   group are in range ([stored_ok]) then every capture of every group is inside the input,
   group 0 has exactly one capture equal to the match, and each embedded capture is the last one *)
Lemma groups_of_wf n idx len matches matchcount :
  in_bounds n (idx, len) ->
  (1 <= length matchcount)%nat -> length matches = length matchcount ->
  (forall j caps cnt, (1 <= j)%nat -> nth_error matches j = Some caps ->
                      nth_error matchcount j = Some cnt -> stored_ok n caps cnt) ->
  exists gs, groups_of (group0 idx len) matches matchcount = Ok gs /\
             length gs = length matchcount /\
             Forall (group_wf n) gs /\
             (exists others, gs = group0 idx len :: others) /\
             g_caps (group0 idx len) = [(idx, len)] /\
             group_embedded (group0 idx len) = (idx, len).
Proof.
  intros Hb H1 Hlen Hok. unfold groups_of, zlen.
  replace (Z.of_nat (length matchcount) <? 1) with false by lia.
  destruct (populate_spec n matches matchcount (length matchcount - 1) 1 ltac:(lia) Hlen)
    as (gs & Hgs & Hgl & Hgw & _).
  { intros j caps cnt Hj. apply Hok. lia. }
  cbn [Z.of_nat Pos.of_succ_nat] in Hgs. rewrite Hgs. cbn [bind].
  exists (group0 idx len :: gs). split; [reflexivity|]. split; [cbn [length]; lia|].
  split; [|split; [eexists; reflexivity|split; reflexivity]].
  constructor; [|exact Hgw]. split; [cbn [group0 g_caps]; constructor; [exact Hb|constructor]|reflexivity].
Qed.

(* ---------- packaged statements used by Properties/C08.v ---------- *)

Lemma decode_total_full s :
  zsum (widths_of s) = zlen s /\ Forall (fun w => 1 <= w <= 4) (widths_of s).
Proof. split; [apply decode_total|apply decode_widths_range]. Qed.

Lemma decode_encode_full rs :
  decode (encode_string rs) = map (fun r => (sanitize r, Z.to_nat (encode_len r))) rs /\
  (forallb valid_rune rs = true ->
   decode (encode_string rs) = map (fun r => (r, Z.to_nat (rune_len r))) rs) /\
  valid_utf8 (encode_string rs) = true.
Proof.
  split; [apply decode_encode_string|split; [apply decode_encode_valid|apply encode_string_valid]].
Qed.

Lemma offsets_spec_full :
  (forall s, string_byte_offsets s = Ok (offsets_tbl (widths_of s))) /\
  (forall s, new_byte_mapper s = None <-> all_one (widths_of s) = true) /\
  (forall s fuel, (length s < fuel)%nat ->
     bytes_to_runes_and_offsets fuel s = Ok (runes_of s, offsets_tbl (widths_of s))) /\
  (forall items, read_runes items = (map fst items, psums 0 (map snd items))) /\
  (forall rs, rune_byte_offsets rs = Ok (offsets_tbl (map encode_len rs))) /\
  (forall rs, rune_byte_offsets rs = string_byte_offsets (encode_string rs)) /\
  (forall s, valid_utf8 s = true -> rune_byte_offsets (runes_of s) = string_byte_offsets s).
Proof.
  split; [exact string_byte_offsets_spec|].
  split; [exact new_byte_mapper_none|].
  split; [intros s fuel H; apply bytes_to_runes_and_offsets_spec; exact H|].
  split; [exact read_runes_spec|].
  split; [exact rune_byte_offsets_spec|].
  split; [exact rune_offsets_are_string_offsets|exact rune_string_offsets_coincide].
Qed.

Lemma routes_agree s fuel (i l : nat) :
  (i + l <= length (decode s))%nat -> (length s < fuel)%nat ->
  let bi := byte_pos (widths_of s) i in
  let be := byte_pos (widths_of s) (i + l) in
  byte_range (new_string_match_text s (runes_of s)) (Z.of_nat i) (Z.of_nat l) = Ok (bi, be - bi) /\
  find_all_pair fuel (new_byte_mapper s) (Z.of_nat i) (Z.of_nat l) = Ok (bi, be) /\
  (do ro <- bytes_to_runes_and_offsets fuel s ; compat_pair (snd ro) (Z.of_nat i) (Z.of_nat l)) = Ok (bi, be) /\
  compat_pair (Some (snd (read_runes (map (fun p => (fst p, Z.of_nat (snd p))) (decode s)))))
              (Z.of_nat i) (Z.of_nat l) = Ok (bi, be) /\
  0 <= bi <= be /\ be <= zlen s.
Proof.
  intros H Hf bi be.
  split; [apply byte_range_string; exact H|].
  split; [apply find_all_pair_spec; assumption|].
  split; [apply compat_bytes_pair_spec; assumption|].
  split; [apply (compat_reader_pair_spec s i l H)|].
  unfold bi, be. rewrite !byte_pos_boundary. pose proof (boundary_le s (i + l)).
  rewrite boundary_add. unfold zlen. rewrite boundary_add in H0. lia.
Qed.

Lemma rune_input_byte_range rs (i l : nat) :
  (i + l <= length rs)%nat ->
  byte_range (new_match_text rs) (Z.of_nat i) (Z.of_nat l) =
    Ok (zlen (encode_string (firstn i rs)), zlen (encode_string (firstn l (skipn i rs)))) /\
  capture_string (new_match_text rs) (Z.of_nat i) (Z.of_nat l) =
    Ok (encode_string (firstn l (skipn i rs))).
Proof.
  intros H. split.
  - rewrite byte_range_runes by exact H. f_equal.
    assert (G : forall q, byte_pos (elens rs) q = zlen (encode_string (firstn q rs))).
    { clear. intros q. unfold byte_pos, elens, encode_string. revert q.
      induction rs as [|r rs IH]; intros q; [destruct q; reflexivity|].
      destruct q as [|q]; [reflexivity|]. cbn [map firstn zsum fold_right flat_map].
      fold (zsum (firstn q (map encode_len rs))). rewrite IH, zlen_app, encode_length. reflexivity. }
    rewrite !G. f_equal.
    rewrite <- (firstn_skipn i (firstn (i + l) rs)).
    rewrite firstn_firstn, Nat.min_l by lia.
    unfold encode_string. rewrite flat_map_app, zlen_app.
    rewrite skipn_firstn_comm. replace (i + l - i)%nat with l by lia. lia.
  - unfold capture_string. rewrite capture_runes_spec by (cbn [mt_runes new_match_text]; exact H).
    reflexivity.
Qed.

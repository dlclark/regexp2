(* C04, part 8: soundness of findLiteralFollowingLeadingLoop (Analysis2.find_lit_after_loop), with
   findPrefixOrdinalCaseInsensitive (ci_prefix) and the completeness of GetSetChars it needs:
   every match of a left-to-right pattern starts with a run of loop-set characters followed by the literal. *)
From Coq Require Import ZifyBool.
From Verif Require Import Base.Prelude Model.CharClass Base.Utf8 Model.Tree Model.Spec Model.Analysis Model.Analysis2
     Proofs.SpecProofs Proofs.Utf8Proofs Proofs.CharClassRanges Proofs.CharClassProofs
     Proofs.AnalysisReach Proofs.AnalysisProofs Proofs.AnalysisPrefix Proofs.Analysis2Cls.

(* UTF-8: a byte prefix that is the encoding of valid scalars is a rune prefix                  *)

Lemma lal_valid_encode_len r : Utf8.valid_rune r = true -> Z.to_nat (rune_len r) = length (encode r).
Proof.
  intros H. pose proof (encode_length r) as HL. unfold encode_len in HL. pose proof (rune_len_valid r H).
  replace (rune_len r <? 0) with false in HL by lia. unfold zlen in HL. lia.
Qed.

Lemma lal_utf8_prefix : forall R T rest,
  forallb Utf8.valid_rune R = true -> forallb Utf8.valid_rune T = true ->
  encode_string T = encode_string R ++ rest -> exists T', T = R ++ T'.
Proof.
  induction R as [|r R IH]; intros T rest HR HT E; [exists T; reflexivity|].
  cbn [forallb] in HR. apply andb_true_iff in HR. destruct HR as [Hr HR].
  unfold encode_string in E. cbn [flat_map] in E. fold (encode_string R) in E.
  destruct T as [|c T].
  - cbn [flat_map] in E. pose proof (encode_length r) as HL. pose proof (encode_len_range r).
    apply (f_equal (@length Z)) in E. rewrite !app_length in E. cbn [length] in E. unfold zlen in HL. lia.
  - cbn [flat_map] in E. fold (encode_string T) in E.
    cbn [forallb] in HT. apply andb_true_iff in HT. destruct HT as [Hc HT].
    pose proof (decode_rune_encode c (encode_string T) Hc) as D1.
    rewrite E, <- app_assoc in D1. rewrite (decode_rune_encode r _ Hr) in D1.
    injection D1 as Hcr _. subst c.
    rewrite <- app_assoc in E. apply app_inv_head in E.
    destruct (IH T rest HR HT E) as [T' ->]. exists T'. reflexivity.
Qed.

Lemma lal_encode_first r : match encode r with b :: _ => 0 <= b | [] => False end.
Proof.
  unfold encode, encode_error. repeat break_if; cbv iota beta; lia.
Qed.

Lemma lal_first_byte_nonneg b q T : an_prefix (b :: q) (encode_string T) -> 0 <= b.
Proof.
  intros [rest H]. destruct T as [|c T]; [discriminate H|].
  unfold encode_string in H. cbn [flat_map] in H. pose proof (lal_encode_first c) as Hf.
  destruct (encode c) as [|b0 t]; [destruct Hf|]. cbn [app] in H. injection H as <- _. exact Hf.
Qed.

(* the runes of a valid UTF-8 string are valid scalars *)
Lemma lal_runes_valid s : valid_utf8 s = true -> forallb Utf8.valid_rune (runes_of s) = true.
Proof.
  unfold valid_utf8, runes_of. intros H. rewrite forallb_forall in *. intros r Hin.
  apply in_map_iff in Hin. destruct Hin as [[r' w] [<- Hin]]. specialize (H _ Hin).
  unfold valid_pair in H. cbn [fst snd] in *.
  destruct (Utf8.valid_rune r') eqn:V; [reflexivity|]. pose proof (rune_len_invalid r' V). lia.
Qed.

(* the wrappers unwrap_ac / unwrap_imm strip do not change where a node starts and ends        *)

Section Inv.
Variable e : env.

(* the Atomic / Capture wrappers do not change where a node starts and ends *)
Lemma lal_unwrap_ac : forall t sa sb, Reach e t sa sb -> exists sb', Reach e (unwrap_ac t) sa sb' /\ pos sb' = pos sb.
Proof.
  induction t; intros sa sb H; cbn [unwrap_ac]; try (exists sb; split; [exact H|reflexivity]).
  - destruct (an_reach_capture_inv e _ _ _ _ _ _ H) as [s1 [H1 Hp]].
    destruct (IHt _ _ H1) as [y' [H2 Hp2]]. exists y'. split; [exact H2|lia].
  - apply an_reach_atomic_inv in H. exact (IHt _ _ H).
Qed.

(* unwrapImmediateLiteralAfterLoopNode: the node found starts where the wrapped one does *)
Lemma lal_unwrap_imm : forall t nc sa sb, unwrap_imm t = Some nc -> Reach e t sa sb -> exists sb', Reach e nc sa sb'.
Proof.
  induction t using MaskProofs.node_ind'; intros nc sa sb Hu Hr; cbn [unwrap_imm] in Hu;
    try (injection Hu as <-; exists sb; exact Hr).
  - (* NConcat *)
    destruct l as [|x l']; [discriminate Hu|]. apply an_reach_concat_inv in Hr.
    destruct (an_reachseq_cons_inv e _ _ _ _ Hr) as [s1 [H1 _]].
    inversion H as [|? ? Px _]; subst. exact (Px nc sa s1 Hu H1).
  - (* NCapture *)
    destruct (an_reach_capture_inv e _ _ _ _ _ _ Hr) as [s1 [H1 _]]. exact (IHt nc sa s1 Hu H1).
  - apply an_reach_group_inv in Hr. exact (IHt nc sa sb Hu Hr).
  - apply an_reach_atomic_inv in Hr. exact (IHt nc sa sb Hu Hr).
Qed.

End Inv.

(* shape / case flags are inherited by what the unwrappers return *)
Lemma lal_unwrap_ac_shape d : forall t, shape_ok d t = true -> shape_ok d (unwrap_ac t) = true.
Proof. induction t; cbn [unwrap_ac shape_ok]; auto. Qed.
Lemma lal_unwrap_ac_noci : forall t, no_ci_lit t = true -> no_ci_lit (unwrap_ac t) = true.
Proof. induction t; cbn [unwrap_ac no_ci_lit]; auto. Qed.

Lemma lal_unwrap_imm_shape d : forall t nc, unwrap_imm t = Some nc -> shape_ok d t = true -> shape_ok d nc = true.
Proof.
  induction t using MaskProofs.node_ind'; intros nc Hu Hs; cbn [unwrap_imm] in Hu; try (injection Hu as <-; exact Hs).
  - destruct l as [|x l']; [discriminate Hu|]. cbn [shape_ok forallb] in Hs. apply andb_true_iff in Hs.
    inversion H as [|? ? Px _]; subst. apply Px; tauto.
  - cbn [shape_ok] in Hs. auto.
  - cbn [shape_ok] in Hs. auto.
  - cbn [shape_ok] in Hs. auto.
Qed.
Lemma lal_unwrap_imm_noci : forall t nc, unwrap_imm t = Some nc -> no_ci_lit t = true -> no_ci_lit nc = true.
Proof.
  induction t using MaskProofs.node_ind'; intros nc Hu Hs; cbn [unwrap_imm] in Hu; try (injection Hu as <-; exact Hs).
  - destruct l as [|x l']; [discriminate Hu|]. cbn [no_ci_lit forallb] in Hs. apply andb_true_iff in Hs.
    inversion H as [|? ? Px _]; subst. apply Px; tauto.
  - cbn [no_ci_lit] in Hs. auto.
  - cbn [no_ci_lit] in Hs. auto.
  - cbn [no_ci_lit] in Hs. auto.
Qed.

(* GetSetChars enumerates exactly the characters of the ranges (that CharIn accepts, when the    *)
(* class has a subtraction)                                                                     *)

Lemma gsc_range_spec (keep : Z -> bool) : forall n budget ch b' l,
  gsc_range keep budget n ch = Some (b', l) ->
  (n <= budget)%nat /\ forall x, In x l <-> (ch <= x < ch + Z.of_nat n /\ keep x = true).
Proof.
  induction n as [|n IH]; intros budget ch b' l H; cbn [gsc_range] in H.
  - injection H as <- <-. split; [lia|]. intros x. split; [intros []|intros [Hx _]; lia].
  - destruct budget as [|b]; [discriminate H|].
    destruct (gsc_range keep b n (ch + 1)) as [[b1 l1]|] eqn:E; [|discriminate H].
    injection H as <- <-. destruct (IH _ _ _ _ E) as [Hle Hiff]. split; [lia|].
    intros x. destruct (keep ch) eqn:Ek.
    + split.
      * intros [<-|Hin]; [split; [lia|exact Ek]|]. apply Hiff in Hin. destruct Hin. split; [lia|assumption].
      * intros [Hx Hk]. destruct (Z.eq_dec x ch) as [->|Hne]; [left; reflexivity|]. right. apply Hiff. split; [lia|exact Hk].
    + split.
      * intros Hin. apply Hiff in Hin. destruct Hin. split; [lia|assumption].
      * intros [Hx Hk]. destruct (Z.eq_dec x ch) as [->|Hne]; [congruence|]. apply Hiff. split; [lia|exact Hk].
Qed.

Lemma gsc_ranges_spec (keep : Z -> bool) : forall rs budget l,
  gsc_ranges keep budget rs = Some l ->
  forall x, In x l <-> (mem rs x = true /\ keep x = true).
Proof.
  induction rs as [|[a b] rs IH]; intros budget l H; cbn [gsc_ranges] in H.
  - injection H as <-. intros x. split; [intros []|intros [Hm _]; discriminate Hm].
  - set (n := if b <? a then 0%nat else Z.to_nat (Z.min (b - a + 1) (Z.of_nat budget + 1))) in H.
    destruct (gsc_range keep budget n a) as [[b1 l1]|] eqn:E1; [|discriminate H].
    destruct (gsc_ranges keep b1 rs) as [l2|] eqn:E2; [|discriminate H]. injection H as <-.
    destruct (gsc_range_spec keep n budget a b1 l1 E1) as [Hle Hiff]. specialize (IH _ _ E2).
    assert (Hn : Z.of_nat n = Z.max 0 (b - a + 1)).
    { subst n. destruct (b <? a) eqn:Eb; [lia|]. destruct (b <? a); lia. }
    intros x. rewrite mem_cons. unfold in_range. cbn [fst snd]. split.
    + intros Hin. apply in_app_or in Hin. destruct Hin as [Hin|Hin].
      * apply Hiff in Hin. destruct Hin as [Hx Hk]. split; [|exact Hk]. apply orb_true_iff. left. lia.
      * apply IH in Hin. destruct Hin as [Hm Hk]. split; [|exact Hk]. rewrite Hm. apply orb_true_r.
    + intros [Hm Hk]. apply in_or_app. apply orb_true_iff in Hm. destruct Hm as [Hm|Hm].
      * left. apply Hiff. split; [lia|exact Hk].
      * right. apply IH. split; assumption.
Qed.

Section GSC.
Variable cat_in : Z -> Z -> bool.

Lemma get_set_chars_spec c maxc x0 l0 :
  get_set_chars cat_in c maxc = x0 :: l0 ->
  cats c = [] /\ (neg c = true -> sub c = None) /\
  forall x, In x (x0 :: l0) <-> (mem (ranges c) x = true /\ (sub c = None \/ char_in cat_in c x = true)).
Proof.
  unfold get_set_chars. destruct (cats c) eqn:Ec; [|discriminate].
  destruct (maxc <? zlen (ranges c)); [discriminate|].
  destruct (neg c && negb (no_sub c)) eqn:En; [discriminate|].
  destruct (gsc_ranges _ (Z.to_nat maxc) (ranges c)) as [l|] eqn:E; [|discriminate].
  intros ->. split; [reflexivity|]. split.
  - intros Hn. rewrite Hn in En. unfold no_sub in En. destruct (sub c); [discriminate En|reflexivity].
  - intros x. rewrite (gsc_ranges_spec _ _ _ _ E x). unfold no_sub. destruct (sub c) as [sb|].
    + split; [intros [A B]; split; [exact A|right; exact B]|intros [A [B|B]]; [discriminate B|split; assumption]].
    + split; [intros [A _]; split; [exact A|left; reflexivity]|intros [A _]; split; [exact A|reflexivity]].
Qed.

(* for a non-negated class in normal form: the characters listed are exactly the members *)
Lemma get_set_chars_complete c maxc x0 l0 :
  gcls cat_in c -> neg c = false -> get_set_chars cat_in c maxc = x0 :: l0 ->
  forall x, cmem cat_in c x = true <-> In x (x0 :: l0).
Proof.
  intros Hg Hn H. destruct (get_set_chars_spec c maxc x0 l0 H) as (Hc & _ & Hiff).
  intros x. rewrite (Hiff x). pose proof (a2_cmem_plain cat_in c x Hg) as Hp. unfold cmem in *. rewrite Hp.
  assert (Hpl : plain_in cat_in c x = mem (ranges c) x && negb (sub_in cat_in c x)).
  { rewrite plain_in_top. unfold top_in. rewrite Hn, Hc. cbn [cats_in existsb].
    destruct (mem (ranges c) x); reflexivity. }
  rewrite Hpl. unfold sub_in. destruct (sub c) as [sb|] eqn:Es.
  - split.
    + intros H1. apply andb_true_iff in H1. destruct H1 as [H1 H2]. split; [exact H1|]. right.
      rewrite H1, H2. reflexivity.
    + intros [H1 [H2|H2]]; [discriminate H2|exact H2].
  - rewrite andb_true_r. split; [intros H1; split; [exact H1|left; reflexivity]|intros [H1 _]; exact H1].
Qed.

End GSC.

(* findPrefixOrdinalCaseInsensitive                                                            *)

(* how a published lower-case ASCII string matches the text: the character itself, or the upper-case
   form of a published lower-case letter *)
Definition ci_match (c x : Z) : bool := (x =? c) || ((97 <=? c) && (c <=? 122) && (x =? c - 32)).

Lemma lal_lor32_tab :
  forallb (fun n => let a := Z.of_nat n in
                    negb (is_ascii_letter a) || (Z.lor a 32 =? (if a <=? 90 then a + 32 else a))) (seq 0 128) = true.
Proof. vm_compute. reflexivity. Qed.

Lemma lal_lor32 a : is_ascii_letter a = true -> Z.lor a 32 = if a <=? 90 then a + 32 else a.
Proof.
  intros H. pose proof lal_lor32_tab as T. rewrite forallb_forall in T.
  assert (Hr : 0 <= a < 128) by (unfold is_ascii_letter in H; lia).
  specialize (T (Z.to_nat a)). cbv zeta in T. rewrite Z2Nat.id in T by lia. rewrite H in T. cbn [negb orb] in T.
  assert (Hin : In (Z.to_nat a) (seq 0 128)) by (apply in_seq; lia). specialize (T Hin). lia.
Qed.

Section CiPrefix.
Variable e : env.
Variable cat_in : Z -> Z -> bool.
Variable part_cc : Z -> bool.
Variable sets : list cls.
Hypothesis Hgood : forall id, gcls cat_in (set_cls sets id).
Hypothesis Hagree : forall id x, set_in e id x = char_in cat_in (set_cls sets id) x.
Hypothesis Hshort : tlen e < INF.

Definition ci_ok (cp : list Z) (p : Z) : Prop :=
  forall i, 0 <= i < zlen cp -> p + i < tlen e /\ ci_match (nth (Z.to_nat i) cp 0) (char_at e (p + i)) = true.

Lemma ci_ok_nil p : ci_ok [] p.
Proof. exact (starts_nil e ci_match p). Qed.

Lemma ci_ok_app a b p : ci_ok a p -> ci_ok b (p + zlen a) -> ci_ok (a ++ b) p.
Proof. exact (starts_app e ci_match a b p). Qed.

Lemma ci_match_refl c : ci_match c c = true.
Proof. unfold ci_match. rewrite Z.eqb_refl. reflexivity. Qed.

(* the two members of a set accepted by containsAsciiIgnoreCaseCharacter *)
Lemma contains_ascii_ic_sound id a b x :
  contains_ascii_ic cat_in (set_cls sets id) = Some (a, b) -> char_in cat_in (set_cls sets id) x = true ->
  ci_match (Z.lor a 32) x = true.
Proof.
  unfold contains_ascii_ic. destruct (neg (set_cls sets id)) eqn:En; [discriminate|].
  destruct (get_set_chars cat_in (set_cls sets id) 3) as [|a0 [|b0 [|c0 l0]]] eqn:Eg; try discriminate.
  destruct ((a0 <? 127) && (b0 <? 127) && (Z.lor a0 32 =? Z.lor b0 32) && is_ascii_letter a0 && is_ascii_letter b0) eqn:Et;
    [|discriminate].
  intros H. injection H as <- <-. intros Hin.
  apply andb_true_iff in Et. destruct Et as [Et Lb]. apply andb_true_iff in Et. destruct Et as [Et La].
  apply andb_true_iff in Et. destruct Et as [_ Eq].
  pose proof (proj1 (get_set_chars_complete cat_in _ 3 a0 [b0] (Hgood id) En Eg x) Hin) as Hx.
  rewrite (lal_lor32 a0 La) in *. rewrite (lal_lor32 b0 Lb) in Eq.
  unfold is_ascii_letter in La, Lb. unfold ci_match.
  destruct Hx as [<-|[<-|[]]]; destruct (a0 <=? 90) eqn:E1; destruct (b0 <=? 90) eqn:E2; lia.
Qed.

(* TryGetOrdinalCaseInsensitiveString: the collected string matches, case-insensitively, the text read by the
   children it was collected from *)
Lemma ci_string_sound : forall l s y,
  ReachSeq e l s y -> forallb (shape_ok false) l = true -> forallb no_ci_lit l = true -> inb e s ->
  ci_ok (ci_string cat_in part_cc sets l) (pos s).
Proof.
  induction l as [|x l IH]; intros s y Hr Hs Hn Hb; cbn [ci_string]; [apply ci_ok_nil|].
  destruct (an_reachseq_cons_inv e _ _ _ _ Hr) as [s1 [H1 H2]].
  cbn [forallb] in Hs, Hn. apply andb_true_iff in Hs. destruct Hs as [Hsx Hsl].
  apply andb_true_iff in Hn. destruct Hn as [Hnx Hnl].
  assert (Hzw : pos s1 = pos s -> inb e s1) by (intros Hp; unfold inb in *; rewrite Hp; exact Hb).
  destruct x; try apply ci_ok_nil.
  - (* NChar *)
    destruct k; try apply ci_ok_nil.
    + destruct ((127 <=? c) || part_cc c); [apply ci_ok_nil|].
      apply an_reach_char_inv in H1. destruct H1 as [-> Hc]. cbn [shape_ok] in Hsx. apply eqb_prop in Hsx.
      apply andb_true_iff in Hc. destruct Hc as [Hav Hc]. unfold avail, next_char, dir in *. rewrite Hsx in *.
      cbn [char_test] in Hc. change (c :: ci_string cat_in part_cc sets l) with ([c] ++ ci_string cat_in part_cc sets l).
      apply ci_ok_app.
      * intros i Hi. unfold zlen in Hi. cbn [length] in Hi. assert (i = 0) by lia. subst i.
        replace (pos s + 0) with (pos s) by lia. cbn [nth Z.to_nat]. split; [lia|].
        assert (char_at e (pos s) = c) as -> by lia. apply ci_match_refl.
      * apply (IH _ y H2 Hsl Hnl). unfold inb in *. cbn [pos with_pos]. unfold zlen. cbn [length]. lia.
    + destruct (contains_ascii_ic cat_in (set_cls sets c)) as [[a b]|] eqn:Ec; [|apply ci_ok_nil].
      apply an_reach_char_inv in H1. destruct H1 as [-> Hc]. cbn [shape_ok] in Hsx. apply eqb_prop in Hsx.
      apply andb_true_iff in Hc. destruct Hc as [Hav Hc]. unfold avail, next_char, dir in *. rewrite Hsx in *.
      cbn [char_test] in Hc. rewrite Hagree in Hc.
      change (Z.lor a 32 :: ci_string cat_in part_cc sets l) with ([Z.lor a 32] ++ ci_string cat_in part_cc sets l).
      apply ci_ok_app.
      * intros i Hi. unfold zlen in Hi. cbn [length] in Hi. assert (i = 0) by lia. subst i.
        replace (pos s + 0) with (pos s) by lia. cbn [nth Z.to_nat]. split; [lia|].
        exact (contains_ascii_ic_sound c a b _ Ec Hc).
      * apply (IH _ y H2 Hsl Hnl). unfold inb in *. cbn [pos with_pos]. unfold zlen. cbn [length]. lia.
  - (* NCharLoop *)
    destruct k; try apply ci_ok_nil.
    destruct (m =? n) eqn:Emn; [|apply ci_ok_nil].
    destruct (contains_ascii_ic cat_in (set_cls sets c)) as [[a b]|] eqn:Ec; [|apply ci_ok_nil].
    apply an_reach_charloop_inv in H1. cbn [shape_ok] in Hsx. apply andb_true_iff in Hsx. destruct Hsx as [Hsx Hmn].
    apply andb_true_iff in Hsx. destruct Hsx as [Hsx Hm0]. apply eqb_prop in Hsx.
    apply an_charloop_in in H1. destruct H1 as [j [maxn [Hy [Hj [Hav0 Hjn]]]]]. subst s1. unfold avail, dir in *. rewrite Hsx in *. unfold inb in Hb.
    assert (Hjm : j = m).
    { destruct (Z.eq_dec n INF) as [Hinf|Hn2]; [lia|]. specialize (Hjn Hn2). lia. }
    subst j. apply ci_ok_app.
    + apply (starts_repeat e ci_match). intros i Hi.
      destruct (an_run_len_nth e CSet c o Hsx maxn (pos s) i ltac:(lia)) as [Hc Hlt]. split; [exact Hlt|].
      cbn [char_test] in Hc. rewrite Hagree in Hc. exact (contains_ascii_ic_sound c a b _ Ec Hc).
    + replace (pos s + zlen (repeat (Z.lor a 32) (Z.to_nat m))) with (pos (with_pos s (pos s + 1 * m)))
        by (cbn [pos with_pos]; unfold zlen; rewrite repeat_length; lia).
      apply (IH _ y H2 Hsl Hnl). unfold inb. cbn [pos with_pos]. lia.
  - (* NMulti *)
    destruct (existsb (fun ch => 127 <? ch) s0 || existsb part_cc s0); [apply ci_ok_nil|].
    apply an_reach_multi_inv in H1. apply an_multi_in in H1. destruct H1 as [-> [Hav Hm]].
    cbn [shape_ok no_ci_lit] in Hsx, Hnx. apply eqb_prop in Hsx. apply negb_true_iff in Hnx.
    rewrite Hnx, Hsx in Hm. unfold avail, dir in *. rewrite Hsx in *. unfold inb in Hb.
    apply ci_ok_app.
    + intros i Hi. split; [lia|].
      rewrite (an_str_match_nth e s0 (pos s) (Z.to_nat i) Hm) by (unfold zlen in Hi; lia).
      replace (pos s + Z.of_nat (Z.to_nat i)) with (pos s + i) by lia. apply ci_match_refl.
    + replace (pos s + zlen s0) with (pos (with_pos s (pos s + 1 * zlen s0))) by (cbn [pos with_pos]; lia).
      apply (IH _ y H2 Hsl Hnl). unfold inb. cbn [pos with_pos]. unfold zlen in *. lia.
  - (* NAnchor *)
    destruct a; cbn [ci_zero_width]; try apply ci_ok_nil;
      (apply an_reach_anchor_inv in H1; destruct H1 as [-> _]; exact (IH _ y H2 Hsl Hnl Hb)).
  - (* NEmpty *) apply an_reach_empty_inv in H1. subst s1. exact (IH _ y H2 Hsl Hnl Hb).
  - (* NBump *) cbn [ci_zero_width]. apply an_reach_bump_inv in H1. subst s1. exact (IH _ y H2 Hsl Hnl Hb).
  - (* NPosLook *)
    cbn [ci_zero_width]. apply an_reach_poslook_inv in H1. destruct H1 as [_ [_ H1]]. rewrite <- H1. apply (IH _ y H2 Hsl Hnl). apply Hzw. exact H1.
  - (* NNegLook *) cbn [ci_zero_width]. apply an_reach_neglook_inv in H1. subst s1. exact (IH _ y H2 Hsl Hnl Hb).
Qed.

Lemma ci_prefix_sound : forall t s y,
  Reach e t s y -> shape_ok false t = true -> no_ci_lit t = true -> inb e s ->
  ci_ok (ci_prefix cat_in part_cc sets t) (pos s).
Proof.
  induction t; intros sa sb Hr Hs Hn Hb; cbn [ci_prefix]; try apply ci_ok_nil.
  - (* NConcat *)
    apply an_reach_concat_inv in Hr. cbn [shape_ok no_ci_lit] in Hs, Hn.
    destruct (2 <=? zlen (ci_string cat_in part_cc sets l)); [|apply ci_ok_nil].
    exact (ci_string_sound l sa sb Hr Hs Hn Hb).
  - (* NLoop *)
    destruct (m <=? 0) eqn:Em; [apply ci_ok_nil|].
    destruct (an_reach_loop_inv e _ _ _ _ _ _ _ Hr ltac:(lia)) as [s1 [H1 _]].
    cbn [shape_ok no_ci_lit] in Hs, Hn. apply andb_true_iff in Hs. destruct Hs as [_ Hs].
    exact (IHt sa s1 H1 Hs Hn Hb).
  - (* NCapture *)
    destruct (an_reach_capture_inv e _ _ _ _ _ _ Hr) as [s1 [H1 _]]. cbn [shape_ok no_ci_lit] in Hs, Hn.
    exact (IHt sa s1 H1 Hs Hn Hb).
  - (* NAtomic *)
    apply an_reach_atomic_inv in Hr. cbn [shape_ok no_ci_lit] in Hs, Hn. exact (IHt sa sb Hr Hs Hn Hb).
Qed.

(* findLiteralFollowingLeadingLoop                                                             *)

Hypothesis Hscalar : forallb Utf8.valid_rune (txt e) = true.

Lemma lal_removelast_prefix (q : list Z) : an_prefix (removelast q) q.
Proof.
  destruct q as [|a q]; [apply an_prefix_nil|].
  assert (Hne : a :: q <> []) by discriminate. destruct (exists_last Hne) as [q' [z Hz]].
  rewrite Hz. rewrite removelast_last. exists [z]. reflexivity.
Qed.

Lemma lal_trim_prefix : forall f q, an_prefix (trim_partial f q) q.
Proof.
  induction f as [|f IH]; intros q; cbn [trim_partial]; [apply an_prefix_refl|].
  destruct (last_rune_bad q); [|apply an_prefix_refl].
  eapply an_prefix_trans; [apply IH|apply lal_removelast_prefix].
Qed.

Lemma lal_removelast_length (q : list Z) : q <> [] -> length (removelast q) = (length q - 1)%nat.
Proof.
  intros Hne. destruct (exists_last Hne) as [q' [z ->]]. rewrite removelast_last, app_length. cbn [length]. lia.
Qed.

Lemma lal_trim_not_bad : forall f q, (length q <= f)%nat ->
  trim_partial f q = [] \/ last_rune_bad (trim_partial f q) = false.
Proof.
  induction f as [|f IH]; intros q Hl; cbn [trim_partial].
  - left. destruct q; [reflexivity|cbn [length] in Hl; lia].
  - destruct (last_rune_bad q) eqn:Eb; [|right; exact Eb].
    destruct q as [|a q']; [left; destruct f; reflexivity|].
    apply IH. rewrite lal_removelast_length by discriminate. cbn [length] in *. lia.
Qed.

Lemma lal_skipn_valid k : forallb Utf8.valid_rune (skipn k (txt e)) = true.
Proof.
  rewrite forallb_forall in *. intros x Hx. apply Hscalar.
  rewrite <- (firstn_skipn k (txt e)). apply in_or_app. right. exact Hx.
Qed.

Lemma lal_skipn_hd k c T : 0 <= k -> skipn (Z.to_nat k) (txt e) = c :: T -> k < tlen e /\ char_at e k = c.
Proof.
  intros Hk H. unfold char_at, tlen, zlen. split.
  - destruct (Z_lt_ge_dec k (Z.of_nat (length (txt e)))) as [Hl|Hl]; [exact Hl|].
    rewrite skipn_all2 in H by lia. discriminate H.
  - rewrite <- (firstn_skipn (Z.to_nat k) (txt e)) at 1. rewrite H.
    assert (Hlen : length (firstn (Z.to_nat k) (txt e)) = Z.to_nat k).
    { apply firstn_length_le. destruct (Z_lt_ge_dec k (Z.of_nat (length (txt e)))) as [Hl|Hl]; [lia|].
      rewrite skipn_all2 in H by lia. discriminate H. }
    rewrite app_nth2 by lia. rewrite Hlen, Nat.sub_diag. reflexivity.
Qed.

(* what the published literal says about position k *)
Definition lal_lit_at (w : lal_lit) (k : Z) : Prop :=
  match w with
  | LalChar c => k < tlen e /\ char_at e k = c
  | LalChars cs => k < tlen e /\ In (char_at e k) cs
  | LalString b false => valid_utf8 b = true -> an_prefix (runes_of b) (skipn (Z.to_nat k) (txt e))
  | LalString cp true => ci_ok cp k
  end.

(* the bytes found by findPrefix on a node that starts at k *)
Lemma lal_prefix_bytes nc s y :
  Reach e nc s y -> shape_ok false nc = true -> no_ci_lit nc = true -> inb e s -> caps_nonneg (caps s) ->
  an_prefix (find_prefix nc) (encode_string (skipn (Z.to_nat (pos s)) (txt e))).
Proof.
  intros Hr Hs Hn Hb Hcn. destruct (an_prefix_reach e _ _ _ Hr Hs Hn Hb Hcn) as [Hp _].
  unfold find_prefix, try_find_prefix. eapply an_prefix_trans; [exact Hp|].
  unfold enc_slice. apply an_encode_string_prefix. apply an_slice_prefix_from.
Qed.

Lemma lal_decode_single b : decode_rune [b] = invalid1 \/ (0 <= b < 128 /\ decode_rune [b] = (b, 1%nat)).
Proof.
  unfold decode_rune, invalid1. repeat break_if; try (left; reflexivity); right; split; try lia; reflexivity.
Qed.

Lemma lal_bad_single b : 128 <= b -> last_rune_bad [b] = true.
Proof.
  intros Hb. unfold last_rune_bad, zlen. cbn [length]. change (Z.of_nat 1) with 1.
  change (1 =? 0) with false. change (nth (Z.to_nat (1 - 1)) [b] 0) with b.
  replace (b <? 128) with false by lia. cbv zeta.
  change (Z.max 0 (1 - 4)) with 0. change (0 <=? 1 - 2) with false. change (0 <=? 1 - 3) with false.
  change (0 <=? 1 - 4) with false. cbn [andb]. change (Z.max 0 (0 - 1)) with 0.
  change (skipn (Z.to_nat 0) [b]) with [b].
  destruct (lal_decode_single b) as [Hd|[Hb1 _]]; [|lia]. rewrite Hd. reflexivity.
Qed.

(* the literal part of find_lit_after_loop (prefixanalyzer.go:1205-1267): what is published for the node nc that
   follows the leading set loop [loop] with set [loopset] *)
Definition lal_literal (nc : node) (loopset : cls) (loop : Z) : res (option lal) :=
  let p0 := find_prefix nc in
  let p1 := trim_partial (length p0) p0 in
  let p := if existsb (fun r => r =? rune_error) (runes_of p1) then [] else p1 in
  match p with
  | _ :: _ =>
      let '(fr, w) := decode_rune p in
      if char_in cat_in loopset fr then Ok None
      else if zlen p =? Z.of_nat w then Ok (Some {| lal_loop := loop; lal_what := LalChar fr |})
      else Ok (Some {| lal_loop := loop; lal_what := LalString p false |})
  | [] =>
      let cp := ci_prefix cat_in part_cc sets nc in
      if 2 <=? zlen cp then
        let ch := hd 0 cp in
        if (if part_cc ch
            then char_in cat_in loopset (Z.lor ch 32) || char_in cat_in loopset (Z.land ch (Z.lnot 32))
            else char_in cat_in loopset ch)
        then Ok None
        else Ok (Some {| lal_loop := loop; lal_what := LalString cp true |})
      else
        match nc with
        | NChar CSet _ id =>
            if neg (set_cls sets id) then Ok None
            else match get_set_chars cat_in (set_cls sets id) 5 with
                 | [] => Ok None
                 | cs => if existsb (char_in cat_in loopset) cs then Ok None
                         else Ok (Some {| lal_loop := loop; lal_what := LalChars cs |})
                 end
        | NCharLoop CSet _ _ id m _ =>
            if neg (set_cls sets id) || negb (1 <=? m) then Ok None
            else match get_set_chars cat_in (set_cls sets id) 5 with
                 | [] => Ok None
                 | cs => if existsb (char_in cat_in loopset) cs then Ok None
                         else Ok (Some {| lal_loop := loop; lal_what := LalChars cs |})
                 end
        | _ => Ok None
        end
  end.

Lemma lal_literal_sound nc s y loopset loop L :
  Reach e nc s y -> shape_ok false nc = true -> no_ci_lit nc = true -> inb e s -> caps_nonneg (caps s) ->
  lal_literal nc loopset loop = Ok (Some L) ->
  lal_loop L = loop /\ lal_lit_at (lal_what L) (pos s).
Proof.
  intros Hr Hs Hn Hb Hcn. unfold lal_literal. cbv zeta.
  pose proof (lal_prefix_bytes nc s y Hr Hs Hn Hb Hcn) as Hbytes.
  pose proof (lal_trim_prefix (length (find_prefix nc)) (find_prefix nc)) as Htp.
  pose proof (lal_trim_not_bad (length (find_prefix nc)) (find_prefix nc) (le_n _)) as Htb.
  set (pt1 := trim_partial (length (find_prefix nc)) (find_prefix nc)) in *.
  assert (Hpt1 : an_prefix pt1 (encode_string (skipn (Z.to_nat (pos s)) (txt e)))) by (eapply an_prefix_trans; eassumption).
  pose proof (lal_skipn_valid (Z.to_nat (pos s))) as HT.
  set (pt := if existsb (fun r => r =? rune_error) (runes_of pt1) then [] else pt1).
  assert (Hpt : an_prefix pt (encode_string (skipn (Z.to_nat (pos s)) (txt e)))).
  { subst pt. destruct (existsb _ _); [apply an_prefix_nil|exact Hpt1]. }
  assert (Htb' : pt = [] \/ last_rune_bad pt = false).
  { subst pt. destruct (existsb _ _); [left; reflexivity|exact Htb]. }
  clear Htb. rename Htb' into Htb. clearbody pt.
  destruct pt as [|b pt'] eqn:Ept.
  - (* no case-sensitive literal *)
    destruct (2 <=? zlen (ci_prefix cat_in part_cc sets nc)) eqn:E2.
    + destruct (if part_cc (hd 0 (ci_prefix cat_in part_cc sets nc)) then _ else _); [discriminate|].
      intros H. injection H as <-. cbn [lal_loop lal_what lal_lit_at]. split; [reflexivity|].
      exact (ci_prefix_sound nc s y Hr Hs Hn Hb).
    + destruct nc; try discriminate.
      * destruct k; try discriminate.
        destruct (neg (set_cls sets c)) eqn:En; [discriminate|].
        destruct (get_set_chars cat_in (set_cls sets c) 5) as [|c0 cs] eqn:Eg; [discriminate|].
        destruct (existsb (char_in cat_in loopset) (c0 :: cs)); [discriminate|].
        intros H. injection H as <-. cbn [lal_loop lal_what lal_lit_at]. split; [reflexivity|].
        apply an_reach_char_inv in Hr. destruct Hr as [_ Hc]. cbn [shape_ok] in Hs. apply eqb_prop in Hs.
        apply andb_true_iff in Hc. destruct Hc as [Hav Hc]. unfold avail, next_char in *. rewrite Hs in *.
        cbn [char_test] in Hc. rewrite Hagree in Hc. split; [lia|].
        exact (proj1 (get_set_chars_complete cat_in _ 5 c0 cs (Hgood c) En Eg _) Hc).
      * destruct k; try discriminate.
        destruct (neg (set_cls sets c) || negb (1 <=? m)) eqn:En; [discriminate|].
        apply orb_false_iff in En. destruct En as [En Em].
        destruct (get_set_chars cat_in (set_cls sets c) 5) as [|c0 cs] eqn:Eg; [discriminate|].
        destruct (existsb (char_in cat_in loopset) (c0 :: cs)); [discriminate|].
        intros H. injection H as <-. cbn [lal_loop lal_what lal_lit_at]. split; [reflexivity|].
        apply an_reach_charloop_inv in Hr. cbn [shape_ok] in Hs. apply andb_true_iff in Hs. destruct Hs as [Hs _].
        apply andb_true_iff in Hs. destruct Hs as [Hs _]. apply eqb_prop in Hs.
        apply an_charloop_in in Hr. destruct Hr as [j [maxn [_ [Hj _]]]].
        destruct (an_run_len_nth e CSet c o Hs maxn (pos s) 0 ltac:(lia)) as [Hc Hlt].
        replace (pos s + 0) with (pos s) in * by lia. cbn [char_test] in Hc. rewrite Hagree in Hc.
        split; [exact Hlt|]. exact (proj1 (get_set_chars_complete cat_in _ 5 c0 cs (Hgood c) En Eg _) Hc).
  - (* a case-sensitive literal: bytes b :: pt' *)
    destruct (decode_rune (b :: pt')) as [fr w] eqn:Ed.
    destruct (char_in cat_in loopset fr); [discriminate|].
    destruct (zlen (b :: pt') =? Z.of_nat w) eqn:Ew.
    + (* a single rune *)
      intros H. injection H as <-. cbn [lal_loop lal_what lal_lit_at]. split; [reflexivity|].
      assert (Hb0 : 0 <= b) by exact (lal_first_byte_nonneg b pt' _ Hpt).
      assert (Hval : (fr, w) <> invalid1).
      { intros Hinv. unfold invalid1 in Hinv. injection Hinv as Hfr Hw1. subst fr w. unfold zlen in Ew. cbn [length] in Ew.
        assert (pt' = []) by (destruct pt'; [reflexivity|cbn [length] in Ew; lia]). subst pt'.
        destruct (b <? 128) eqn:Eb.
        - unfold decode_rune in Ed. replace (b <? 0) with false in Ed by lia. rewrite Eb in Ed.
          injection Ed as Hf. unfold rune_error in Hf. lia.
        - destruct Htb as [Htb|Htb]; [discriminate Htb|]. rewrite lal_bad_single in Htb by lia. discriminate Htb. }
      destruct (decode_rune_valid_width b pt' fr w Ed Hval) as (Vf & Hw & Hf).
      assert (Hpe : b :: pt' = encode fr).
      { rewrite <- Hf. symmetry. apply firstn_all2. unfold zlen in Ew. lia. }
      rewrite Hpe in Hpt. destruct Hpt as [rest Hrest].
      assert (HR : forallb Utf8.valid_rune [fr] = true) by (cbn [forallb]; rewrite Vf; reflexivity).
      assert (He : encode_string (skipn (Z.to_nat (pos s)) (txt e)) = encode_string [fr] ++ rest).
      { unfold encode_string at 2. cbn [flat_map]. rewrite app_nil_r. exact Hrest. }
      destruct (lal_utf8_prefix [fr] _ rest HR HT He) as [T' HT'].
      unfold inb in Hb. exact (lal_skipn_hd (pos s) fr T' ltac:(lia) HT').
    + (* a string *)
      intros H. injection H as <-. cbn [lal_loop lal_what lal_lit_at]. split; [reflexivity|].
      intros Hvu. destruct Hpt as [rest Hrest].
      rewrite <- (encode_decode _ Hvu) in Hrest.
      destruct (lal_utf8_prefix _ _ rest (lal_runes_valid _ Hvu) HT Hrest) as [T' HT']. exists T'. exact HT'.
Qed.

(* findLiteralFollowingLeadingLoop found (loop set, literal): every successful attempt at p reads a run of
   loop-set characters p .. k-1 and the literal occurs at k *)
Theorem a2_lit_after_loop_sound fuel root p s' L :
  shape_ok false root = true -> no_ci_lit root = true -> 0 <= p <= tlen e ->
  find_lit_after_loop cat_in part_cc sets root = Ok (Some L) ->
  attempt e fuel root p = Ok (Some s') ->
  exists k, p <= k <= tlen e /\
    (forall i, p <= i < k -> set_in e (lal_loop L) (char_at e i) = true) /\
    lal_lit_at (lal_what L) k.
Proof.
  intros Hs Hn Hp Hf Ha. pose proof (attempt_reach e _ _ _ _ Ha) as Hr.
  set (s0 := {| pos := p; caps := [] |}) in *.
  assert (Hb0 : inb e s0) by exact Hp.
  unfold find_lit_after_loop in Hf.
  destruct (match root with NCapture o _ _ _ | NConcat o _ => is_rtl o | _ => false end); [discriminate Hf|].
  destruct (lal_unwrap_ac e root s0 s' Hr) as [y1 [Hr1 _]].
  pose proof (lal_unwrap_ac_shape false root Hs) as Hs1. pose proof (lal_unwrap_ac_noci root Hn) as Hn1.
  destruct (unwrap_ac root) as [| | | | | | | |o l| | | | | | | | |] eqn:Eu; try discriminate Hf.
  destruct l as [|first rest]; [discriminate Hf|].
  apply an_reach_concat_inv in Hr1. destruct (an_reachseq_cons_inv e _ _ _ _ Hr1) as [s1 [Hf1 Hrest]].
  cbn [shape_ok no_ci_lit forallb] in Hs1, Hn1.
  apply andb_true_iff in Hs1. destruct Hs1 as [Hsf Hsr]. apply andb_true_iff in Hn1. destruct Hn1 as [Hnf Hnr].
  (* the leading loop *)
  destruct (lal_unwrap_ac e first s0 s1 Hf1) as [s1' [Hl1 Hp1]].
  pose proof (lal_unwrap_ac_shape false first Hsf) as Hsl.
  destruct (is_set_loop_inf (unwrap_ac first)) as [loop|] eqn:El; [|discriminate Hf].
  destruct (unwrap_ac first) as [|k lk o' c m n| | | | | | | | | | | | | | | |] eqn:Euf; try discriminate El.
  destruct k; try discriminate El. cbn [is_set_loop_inf] in El.
  destruct (n =? INF); [|discriminate El]. injection El as ->.
  apply an_reach_charloop_inv in Hl1. cbn [shape_ok] in Hsl. apply andb_true_iff in Hsl. destruct Hsl as [Hsl _].
  apply andb_true_iff in Hsl. destruct Hsl as [Hsl Hm0]. apply eqb_prop in Hsl.
  apply an_charloop_in in Hl1. destruct Hl1 as [j [maxn [Hy [Hj [Hav0 _]]]]]. unfold avail, dir in *. rewrite Hsl in *.
  assert (Hj0 : 0 <= j) by lia.
  assert (Hk : pos s1 = p + j) by (rewrite <- Hp1, Hy; cbn [pos with_pos s0]; lia).
  assert (Hrun : forall i, p <= i < p + j -> set_in e loop (char_at e i) = true).
  { intros i Hi. destruct (an_run_len_nth e CSet loop o' Hsl maxn p (i - p)) as [Hc _]; [cbn [pos s0] in Hj; lia|].
    replace (p + (i - p)) with i in Hc by lia. exact Hc. }
  assert (Hb1 : inb e s1).
  { unfold inb. rewrite Hk. cbn [pos s0] in Hav0. lia. }
  assert (Hcn1 : caps_nonneg (caps s1)) by exact (an_reach_caps e _ _ _ Hf1 an_caps_nonneg_nil).
  (* the node after the loop *)
  destruct rest as [|nx rest']; [discriminate Hf|].
  destruct (an_reachseq_cons_inv e _ _ _ _ Hrest) as [s2 [Hnx Hrest2]].
  cbn [forallb] in Hsr, Hnr.
  apply andb_true_iff in Hsr. destruct Hsr as [Hsnx Hsr']. apply andb_true_iff in Hnr. destruct Hnr as [Hnnx Hnr'].
  set (nxt := match nx with NBump => match rest' with [] => None | n2 :: _ => Some n2 end | _ => Some nx end) in Hf.
  assert (Hnxt : forall n0, nxt = Some n0 ->
            exists y0, Reach e n0 s1 y0 /\ shape_ok false n0 = true /\ no_ci_lit n0 = true).
  { intros n0 E0. subst nxt. destruct nx; try (injection E0 as <-; exists s2; auto).
    destruct rest' as [|n2 rest'']; [discriminate E0|]. injection E0 as <-.
    apply an_reach_bump_inv in Hnx. subst s2. destruct (an_reachseq_cons_inv e _ _ _ _ Hrest2) as [s3 [Hn2 _]].
    cbn [forallb] in Hsr', Hnr'. apply andb_true_iff in Hsr'. apply andb_true_iff in Hnr'. exists s3. tauto. }
  destruct nxt as [n0|]; [|discriminate Hf].
  destruct (Hnxt n0 eq_refl) as [y0 [Hr0 [Hs0 Hn0]]].
  destruct (unwrap_imm n0) as [nc|] eqn:Eim; [|discriminate Hf].
  destruct (lal_unwrap_imm e n0 nc s1 y0 Eim Hr0) as [y2 Hrc].
  pose proof (lal_unwrap_imm_shape false n0 nc Eim Hs0) as Hsc.
  pose proof (lal_unwrap_imm_noci n0 nc Eim Hn0) as Hnc.
  destruct (lal_literal_sound nc s1 y2 (set_cls sets loop) loop L Hrc Hsc Hnc Hb1 Hcn1 Hf) as [Hloop Hlit].
  exists (pos s1). rewrite Hloop. unfold inb in Hb1. split; [lia|]. split; [|exact Hlit].
  intros i Hi. apply Hrun. lia.
Qed.

End CiPrefix.

(* compile_correct with balancing captures, part 0: what an interpreter capture array DENOTES.

   match.go keeps, per slot, a flat array of pairs.  A pair (i, n) with i >= 0 is a recorded capture.
   A balancing capture (?<g-u>...) does not delete the newest capture of u: balanceMatch APPENDS a
   marker pair (-3-t, -4-t) meaning "the newest live capture is now the pair at word index t"
   (t = -2: none).  isMatched / matchIndex / matchLength follow one marker; Match.tidy compacts later.

   [Den ps stk]: the array  flat (rev ps)  (ps = its pairs, newest first) is well formed and denotes the
   stack [stk] of live captures (newest first) -- the reference semantics' per-group capture stack.
   Facts proved here, all by computation on VM.v's own functions:
     bd_is_matched     vm_is_matched      = (stack non-empty)
     bd_index_length   vm_match_index/len = newest live capture
     bd_balance        balance_match appends a marker whose denotation is the POPPED stack
   [caps_rel2] is CompileBase.caps_rel with "= flat (rev stack)" replaced by "denotes stack";
   without markers the two coincide (bd_caps_rel_of_plain). *)
From Verif Require Import Base.Prelude Model.Tree Model.Spec Model.VM Model.Writer
  Proofs.SpecProofs Proofs.SpecBoundsProofs Proofs.VMU Proofs.VMUOps Proofs.VMUOps2 Proofs.VMUOps6
  Proofs.CompileBase Proofs.CompileDefs Proofs.CapFacts.
From Verif Require Import Proofs.ListFacts.
From Coq Require Import ZifyBool.

Inductive Den : list (Z * Z) -> list (Z * Z) -> Prop :=
| Den_nil : Den [] []
| Den_push ps stk i n : Den ps stk -> 0 <= i -> 0 <= n -> Den ((i, n) :: ps) ((i, n) :: stk)
| Den_bal0 ps m1 m2 : m1 = -1 -> m2 = -2 -> Den ((m1, m2) :: ps) []
| Den_bal ps k i n ps' stk' m1 m2 :
    m1 = -3 - 2 * Z.of_nat k -> m2 = -4 - 2 * Z.of_nat k ->
    (k < length ps)%nat -> skipn (length ps - S k) ps = (i, n) :: ps' -> 0 <= i ->
    Den ((i, n) :: ps') stk' ->
    Den ((m1, m2) :: ps) stk'.

Lemma bd_zlen_flat l : zlen (flat l) = 2 * zlen l.
Proof.
  induction l as [|[i n] l IH]; cbn [flat]; [reflexivity|]. rewrite !zlen_cons, IH. lia.
Qed.

Lemma bd_flat_rev_cons x ps : flat (rev (x :: ps)) = flat (rev ps) ++ [fst x; snd x].
Proof. cbn [rev]. rewrite cc_flat_app. destruct x as [i n]. reflexivity. Qed.

Lemma bd_znth_app_r {A} (a b : list A) i : 0 <= i -> znth (a ++ b) (zlen a + i) = znth b i.
Proof.
  intros H. unfold znth. pose proof (zlen_nonneg a) as Ha.
  replace (zlen a + i <? 0) with false by lia. replace (i <? 0) with false by lia.
  unfold zlen in *. rewrite nth_error_app2 by lia. f_equal. lia.
Qed.

Lemma bd_skipn_plus {A} (l1 l2 : list A) j : skipn (length l1 + j) (l1 ++ l2) = skipn j l2.
Proof. induction l1 as [|x l1 IH]; cbn [length app plus skipn]; [reflexivity|exact IH]. Qed.

Lemma bd_skipn_suffix {A} (ps pre suf : list A) m : ps = pre ++ suf -> (m <= length suf)%nat ->
  skipn (length ps - m) ps = skipn (length suf - m) suf.
Proof.
  intros -> Hm. rewrite app_length.
  replace (length pre + length suf - m)%nat with (length pre + (length suf - m))%nat by lia.
  apply bd_skipn_plus.
Qed.

Lemma bd_suffix {A} (ps pre suf : list A) : ps = pre ++ suf -> skipn (length ps - length suf) ps = suf.
Proof.
  intros H. rewrite (bd_skipn_suffix ps pre suf (length suf) H) by lia.
  rewrite Nat.sub_diag. reflexivity.
Qed.

(* the pair with index k (counted from the oldest) of the array of [ps] *)
Lemma bd_pair_at ps k x rest : (k < length ps)%nat -> skipn (length ps - S k) ps = x :: rest ->
  znth (flat (rev ps)) (2 * Z.of_nat k) = Some (fst x) /\
  znth (flat (rev ps)) (2 * Z.of_nat k + 1) = Some (snd x).
Proof.
  intros Hk Hs.
  assert (Hl : length rest = k).
  { pose proof (skipn_length (length ps - S k) ps) as L. rewrite Hs in L. cbn [length] in L. lia. }
  rewrite <- (firstn_skipn (length ps - S k) ps), Hs.
  rewrite rev_app_distr. cbn [rev]. rewrite <- app_assoc, !cc_flat_app. destruct x as [i n]. cbn [flat app fst snd].
  assert (Hz : zlen (flat (rev rest)) = 2 * Z.of_nat k).
  { rewrite bd_zlen_flat. unfold zlen. rewrite rev_length, Hl. reflexivity. }
  split.
  - replace (2 * Z.of_nat k) with (zlen (flat (rev rest)) + 0) by lia. rewrite bd_znth_app_r by lia. reflexivity.
  - replace (2 * Z.of_nat k + 1) with (zlen (flat (rev rest)) + 1) by lia. rewrite bd_znth_app_r by lia. reflexivity.
Qed.

(* ---------- match.go's readers as functions of one array ---------- *)
Definition arr_is_matched (a : list Z) : option bool :=
  if zlen a =? 0 then Some false
  else match znth a (zlen a - 1) with Some w => Some (negb (w =? -2)) | None => None end.
Definition arr_index (a : list Z) : option Z :=
  match znth a (zlen a - 2) with
  | None => None
  | Some i => if 0 <=? i then Some i else znth a (-3 - i)
  end.
Definition arr_length (a : list Z) : option Z :=
  match znth a (zlen a - 1) with
  | None => None
  | Some i => if 0 <=? i then Some i else znth a (-3 - i)
  end.
Definition arr_marker (a : list Z) : option (Z * Z) :=
  let target0 := zlen a - 2 in
  match znth a target0 with
  | None => None
  | Some w =>
      let target1 := if w <? 0 then -3 - w else target0 in
      let target := target1 - 2 in
      if 0 <=? target then
        match znth a target, znth a (target + 1) with
        | Some x, Some y => if x <? 0 then Some (x, y) else Some (-3 - target, -4 - target)
        | _, _ => None
        end
      else Some (-3 - target, -4 - target)
  end.

Lemma bd_vm_is_matched c M a : 0 <= c -> mc_get c M = Some a -> vm_is_matched c M = arr_is_matched a.
Proof. intros Hc H. unfold vm_is_matched. replace (c <? 0) with false by lia. rewrite H. reflexivity. Qed.
Lemma bd_vm_index c M a : mc_get c M = Some a -> vm_match_index c M = arr_index a.
Proof. intros H. unfold vm_match_index. rewrite H. reflexivity. Qed.
Lemma bd_vm_length c M a : mc_get c M = Some a -> vm_match_length c M = arr_length a.
Proof. intros H. unfold vm_match_length. rewrite H. reflexivity. Qed.
Lemma bd_vm_balance c M a x y : mc_get c M = Some a -> arr_marker a = Some (x, y) ->
  balance_match c M = Some (mc_set c (a ++ [x; y]) M).
Proof.
  intros H Hm. unfold balance_match, arr_marker in *. rewrite H. cbv zeta in Hm.
  destruct (znth a (zlen a - 2)) as [w|]; [|discriminate].
  destruct (0 <=? (if w <? 0 then -3 - w else zlen a - 2) - 2).
  - destruct (znth a ((if w <? 0 then -3 - w else zlen a - 2) - 2)) as [x0|]; [|discriminate].
    destruct (znth a ((if w <? 0 then -3 - w else zlen a - 2) - 2 + 1)) as [y0|]; [|discriminate].
    destruct (x0 <? 0); injection Hm as <- <-; unfold add_match; rewrite H; reflexivity.
  - injection Hm as <- <-. unfold add_match. rewrite H. reflexivity.
Qed.

(* ---------- what a denoting array answers ---------- *)
Lemma bd_den_nil_inv stk : Den [] stk -> stk = [].
Proof. intros H. inversion H. reflexivity. Qed.

Lemma bd_den_pos_inv i n ps stk : 0 <= i -> Den ((i, n) :: ps) stk ->
  exists stk', stk = (i, n) :: stk' /\ Den ps stk' /\ 0 <= n.
Proof.
  intros Hi H. inversion H; subst; try (exfalso; lia).
  eexists. repeat split; eassumption.
Qed.

Lemma bd_last2 ps x : let a := flat (rev (x :: ps)) in
  znth a (zlen a - 1) = Some (snd x) /\ znth a (zlen a - 2) = Some (fst x) /\ zlen a = 2 * zlen ps + 2.
Proof.
  cbv zeta. rewrite bd_flat_rev_cons.
  destruct (cf_znth_last2 (flat (rev ps)) (fst x) (snd x)) as [H1 H2]. split; [exact H1|]. split; [exact H2|].
  rewrite zlen_app, bd_zlen_flat. unfold zlen. rewrite rev_length. cbn [length]. lia.
Qed.

Lemma bd_is_matched ps stk : Den ps stk ->
  arr_is_matched (flat (rev ps)) = Some (match stk with [] => false | _ => true end).
Proof.
  intros H. unfold arr_is_matched. inversion H; subst.
  - reflexivity.
  - destruct (bd_last2 ps0 (i, n)) as (L1 & _ & Lz). cbn [snd] in L1. rewrite L1, Lz.
    pose proof (zlen_nonneg ps0). replace (2 * zlen ps0 + 2 =? 0) with false by lia.
    replace (n =? -2) with false by lia. reflexivity.
  - destruct (bd_last2 ps0 (-1, -2)) as (L1 & _ & Lz). cbn [snd] in L1. rewrite L1, Lz.
    pose proof (zlen_nonneg ps0). replace (2 * zlen ps0 + 2 =? 0) with false by lia. reflexivity.
  - destruct (bd_last2 ps0 (-3 - 2 * Z.of_nat k, -4 - 2 * Z.of_nat k)) as (L1 & _ & Lz). cbn [snd] in L1. rewrite L1, Lz.
    pose proof (zlen_nonneg ps0). replace (2 * zlen ps0 + 2 =? 0) with false by lia.
    replace (-4 - 2 * Z.of_nat k =? -2) with false by lia. cbn [negb].
    match goal with Hd : Den ((i, n) :: ps') stk |- _ => apply bd_den_pos_inv in Hd; [|assumption] end.
    match goal with Hd : exists _, _ |- _ => destruct Hd as (stk1 & -> & _) end. reflexivity.
Qed.

Lemma bd_index_length ps i n stk : Den ps ((i, n) :: stk) ->
  arr_index (flat (rev ps)) = Some i /\ arr_length (flat (rev ps)) = Some n /\ 0 <= i /\ 0 <= n.
Proof.
  intros H. unfold arr_index, arr_length. inversion H; subst.
  - destruct (bd_last2 ps0 (i, n)) as (L1 & L2 & _). cbn [fst snd] in L1, L2. rewrite L1, L2.
    replace (0 <=? i) with true by lia. replace (0 <=? n) with true by lia. repeat split; try reflexivity; assumption.
  - destruct (bd_last2 ps0 (-3 - 2 * Z.of_nat k, -4 - 2 * Z.of_nat k)) as (L1 & L2 & Lz). cbn [fst snd] in L1, L2.
    rewrite L1, L2.
    replace (0 <=? -3 - 2 * Z.of_nat k) with false by lia. replace (0 <=? -4 - 2 * Z.of_nat k) with false by lia.
    replace (-3 - (-3 - 2 * Z.of_nat k)) with (2 * Z.of_nat k) by lia.
    replace (-3 - (-4 - 2 * Z.of_nat k)) with (2 * Z.of_nat k + 1) by lia.
    rewrite bd_flat_rev_cons.
    match goal with Hs : skipn _ ps0 = _ |- _ => destruct (bd_pair_at ps0 k _ _ ltac:(assumption) Hs) as [P1 P2] end.
    assert (Hlt : 2 * Z.of_nat k + 1 < zlen (flat (rev ps0))).
    { rewrite bd_zlen_flat. unfold zlen. rewrite rev_length. lia. }
    rewrite !znth_app_l by lia. rewrite P1, P2. cbn [fst snd].
    match goal with Hd : Den ((?i0, ?n0) :: ps') _ |- _ => apply bd_den_pos_inv in Hd; [|assumption];
      destruct Hd as (stk1 & E & _ & Hn); injection E as <- <- _ end.
    repeat split; try reflexivity; assumption.
Qed.

(* the marker balanceMatch computes when the newest live capture is the pair just above [ps1] *)
Lemma bd_marker_below ps pre x ps1 stk : ps = pre ++ x :: ps1 -> Den ps1 stk ->
  let a := flat (rev ps) in
  let target := 2 * zlen ps1 - 2 in
  exists mk,
    (if 0 <=? target then
       match znth a target, znth a (target + 1) with
       | Some x, Some y => if x <? 0 then Some (x, y) else Some (-3 - target, -4 - target)
       | _, _ => None
       end
     else Some (-3 - target, -4 - target)) = Some mk /\ Den (mk :: ps) stk.
Proof.
  intros Hps Hd. cbv zeta.
  destruct ps1 as [|[x1 y1] ps2].
  - change (2 * zlen (@nil (Z * Z)) - 2) with (-2). change (0 <=? -2) with false. cbv iota.
    eexists. split; [reflexivity|].
    apply bd_den_nil_inv in Hd. subst stk. apply Den_bal0; reflexivity.
  - rewrite zlen_cons. pose proof (zlen_nonneg ps2) as Hz2.
    replace (0 <=? 2 * (1 + zlen ps2) - 2) with true by lia.
    replace (2 * (1 + zlen ps2) - 2) with (2 * Z.of_nat (length ps2)) by (unfold zlen; lia).
    assert (Hpre : ps = (pre ++ [x]) ++ (x1, y1) :: ps2) by (rewrite <- app_assoc; exact Hps).
    assert (Hk : (length ps2 < length ps)%nat).
    { rewrite Hpre, app_length. cbn [length]. lia. }
    assert (Hs : skipn (length ps - S (length ps2)) ps = (x1, y1) :: ps2).
    { apply (bd_suffix ps (pre ++ [x]) ((x1, y1) :: ps2) Hpre). }
    destruct (bd_pair_at ps (length ps2) _ _ Hk Hs) as [P1 P2]. cbn [fst snd] in P1, P2. rewrite P1, P2.
    destruct (x1 <? 0) eqn:Ex.
    + eexists. split; [reflexivity|].
      inversion Hd; subst; try lia.
      * apply Den_bal0; reflexivity.
      * match goal with Hs' : skipn (length ps2 - S ?k0) ps2 = _ |- _ =>
          eapply Den_bal with (k := k0); [reflexivity|reflexivity| | |eassumption|eassumption];
          [rewrite app_length; cbn [length]; lia|];
          match goal with |- skipn _ (?pr ++ ?a :: ?b :: ps2) = _ =>
            rewrite (bd_skipn_suffix (pr ++ a :: b :: ps2) (pr ++ [a; b]) ps2 (S k0));
              [exact Hs'|rewrite <- app_assoc; reflexivity|lia]
          end
        end.
    + eexists. split; [reflexivity|].
      eapply Den_bal with (k := length ps2); [reflexivity|reflexivity|exact Hk|exact Hs|lia|exact Hd].
Qed.

Lemma bd_balance ps top stk : Den ps (top :: stk) ->
  exists mk, arr_marker (flat (rev ps)) = Some mk /\ Den (mk :: ps) stk.
Proof.
  intros H. unfold arr_marker. cbv zeta. inversion H; subst.
  - destruct (bd_last2 ps0 (i, n)) as (_ & L2 & Lz). cbn [fst] in L2. rewrite L2, Lz.
    replace (i <? 0) with false by lia.
    replace (2 * zlen ps0 + 2 - 2 - 2) with (2 * zlen ps0 - 2) by lia.
    apply (bd_marker_below ((i, n) :: ps0) [] (i, n) ps0 stk); [reflexivity|assumption].
  - destruct (bd_last2 ps0 (-3 - 2 * Z.of_nat k, -4 - 2 * Z.of_nat k)) as (_ & L2 & Lz). cbn [fst] in L2. rewrite L2.
    replace (-3 - 2 * Z.of_nat k <? 0) with true by lia.
    match goal with Hd : Den ((?i0, ?n0) :: ps') _ |- _ => apply bd_den_pos_inv in Hd; [|assumption];
      destruct Hd as (stk1 & E & Hd & _); injection E as -> <- end.
    assert (Hl : length ps' = k).
    { match goal with Hs : skipn _ ps0 = _ |- _ =>
        pose proof (skipn_length (length ps0 - S k) ps0) as L; rewrite Hs in L; cbn [length] in L end. lia. }
    replace (-3 - (-3 - 2 * Z.of_nat k) - 2) with (2 * zlen ps' - 2) by (unfold zlen; lia).
    match goal with Hs : skipn _ ps0 = _ |- _ =>
      apply (bd_marker_below _ ((-3 - 2 * Z.of_nat k, -4 - 2 * Z.of_nat k) :: firstn (length ps0 - S k) ps0) (i, n) ps' stk);
        [|assumption];
      cbn [app]; f_equal; rewrite <- Hs; symmetry; apply firstn_skipn
    end.
Qed.

(* transferCapture's interval arithmetic is Spec.balance_span *)
Lemma bd_transfer_span x t s2 l2 :
  (let '(a0, b0) := if t <? x then (t, x) else (x, t) in
   let e2 := s2 + l2 in
   let '(a, b) := if e2 <=? a0 then (e2, a0) else if b0 <=? s2 then (b0, s2) else (Z.max a0 s2, Z.min b0 e2) in
   (a, b - a)) = balance_span x t (s2, l2).
Proof.
  unfold balance_span, span. cbn [fst snd].
  destruct (t <? x) eqn:E.
  - replace (Z.min x t) with t by lia. replace (Z.abs (t - x)) with (x - t) by lia.
    replace (t + (x - t)) with x by lia.
    destruct (s2 + l2 <=? t); [reflexivity|]. destruct (x <=? s2); reflexivity.
  - replace (Z.min x t) with x by lia. replace (Z.abs (t - x)) with (t - x) by lia.
    replace (x + (t - x)) with t by lia.
    destruct (s2 + l2 <=? x); [reflexivity|]. destruct (t <=? s2); reflexivity.
Qed.

Section CR.
Variable e : env.
Variable p : program.

Definition caps_rel2 (c : caps_t) (M : list (list Z)) : Prop :=
  zlen M = capsize p /\
  forall g, 0 <= g < capsize p -> exists ps, nth (Z.to_nat g) M [] = flat (rev ps) /\ Den ps (cap_get g c).

Lemma bd_den_plain stk : Forall (sb_iv_ok e) stk -> Den stk stk.
Proof.
  induction 1 as [|[i n] stk Hiv _ IH]; [constructor|].
  destruct Hiv as (Hi & Hn & _). cbn [fst snd] in *. constructor; assumption.
Qed.

(* without balancing markers the relation is the plain one *)
Lemma bd_caps_rel_of_plain c M : sb_caps_ok e c -> caps_rel p c M -> caps_rel2 c M.
Proof.
  intros Hok [Hl Hc]. split; [exact Hl|]. intros g Hg. exists (cap_get g c). split; [apply Hc; exact Hg|].
  apply bd_den_plain. apply sb_caps_ok_get. exact Hok.
Qed.

Lemma bd_caps_rel_init : 0 <= capsize p -> caps_rel2 [] (repeat [] (Z.to_nat (capsize p))).
Proof.
  intros H. split.
  - unfold zlen. rewrite repeat_length. lia.
  - intros g Hg. exists []. split; [|constructor]. cbn [rev flat].
    destruct (nth_in_or_default (Z.to_nat g) (repeat (@nil Z) (Z.to_nat (capsize p))) []) as [Hin|Hd]; [|exact Hd].
    apply repeat_spec in Hin. exact Hin.
Qed.

Lemma bd_mc_get M g : zlen M = capsize p -> 0 <= g < capsize p -> mc_get g M = Some (nth (Z.to_nat g) M []).
Proof. intros Hl Hg. unfold mc_get. apply cc_znth_nth. lia. Qed.

Lemma bd_caps_rel_push c M g iv : caps_rel2 c M -> 0 <= g < capsize p -> 0 <= fst iv -> 0 <= snd iv ->
  caps_rel2 (cap_push g iv c) (mc_set g (nth (Z.to_nat g) M [] ++ [fst iv; snd iv]) M).
Proof.
  intros [Hl Hc] Hg Hi Hn. split.
  - unfold mc_set, zlen. rewrite cc_list_set_length. exact Hl.
  - intros g' Hg'. unfold mc_set, cap_push. destruct (Z.eq_dec g' g) as [->|Hne].
    + rewrite cc_nth_list_set_same by (unfold zlen in Hl; lia).
      rewrite sb_cap_get_set_same. destruct (Hc g Hg) as (ps & Ea & Hd). exists (iv :: ps). split.
      * rewrite bd_flat_rev_cons, Ea. reflexivity.
      * destruct iv as [i n]. apply Den_push; assumption.
    + rewrite cc_nth_list_set_other by lia. rewrite sb_cap_get_set_other by exact Hne. apply Hc. exact Hg'.
Qed.

Lemma bd_matched c M g : caps_rel2 c M -> 0 <= g < capsize p -> vm_is_matched g M = Some (is_matched g c).
Proof.
  intros [Hl Hc] Hg. destruct (Hc g Hg) as (ps & Ea & Hd).
  rewrite (bd_vm_is_matched g M _ ltac:(lia) (bd_mc_get M g Hl Hg)), Ea.
  rewrite (bd_is_matched ps _ Hd). reflexivity.
Qed.

Lemma bd_caps_index_length c M g i len rest : caps_rel2 c M -> 0 <= g < capsize p -> sb_caps_ok e c ->
  cap_get g c = (i, len) :: rest ->
  vm_match_index g M = Some i /\ vm_match_length g M = Some len /\ 0 <= i /\ 0 <= len /\ i + len <= tlen e.
Proof.
  intros [Hl Hc] Hg Hok Hget. destruct (Hc g Hg) as (ps & Ea & Hd). rewrite Hget in Hd.
  rewrite (bd_vm_index g M _ (bd_mc_get M g Hl Hg)), (bd_vm_length g M _ (bd_mc_get M g Hl Hg)), Ea.
  destruct (bd_index_length ps i len rest Hd) as (H1 & H2 & Hi & Hn).
  pose proof (sb_caps_ok_get e g c Hok) as F. rewrite Hget in F. inversion F as [|? ? Hiv _]; subst.
  destruct Hiv as (_ & _ & Hsum). cbn [fst snd] in Hsum.
  repeat split; assumption.
Qed.

Lemma bd_caps_rel_reads c M g : caps_rel2 c M -> 0 <= g < capsize p -> sb_caps_ok e c ->
  vm_is_matched g M = Some (is_matched g c) /\
  forall i len rest, cap_get g c = (i, len) :: rest ->
    vm_match_index g M = Some i /\ vm_match_length g M = Some len.
Proof.
  intros H Hg Hok. split; [exact (bd_matched c M g H Hg)|].
  intros i len rest Hget. destruct (bd_caps_index_length c M g i len rest H Hg Hok Hget) as (H1 & H2 & _).
  split; assumption.
Qed.

(* balanceMatch on a slot whose stack is non-empty: the marked array denotes the popped stack *)
Lemma bd_caps_rel_balance c M u top rest : caps_rel2 c M -> 0 <= u < capsize p -> cap_get u c = top :: rest ->
  exists x y, let M1 := mc_set u (nth (Z.to_nat u) M [] ++ [x; y]) M in
    balance_match u M = Some M1 /\ caps_rel2 (cap_pop u c) M1.
Proof.
  intros [Hl Hc] Hu Hget. destruct (Hc u Hu) as (ps & Ea & Hd). rewrite Hget in Hd.
  destruct (bd_balance ps top rest Hd) as ([x y] & Hm & Hd'). exists x, y. cbv zeta. split.
  - apply bd_vm_balance; [apply bd_mc_get; assumption|]. rewrite Ea. exact Hm.
  - split.
    + unfold mc_set, zlen. rewrite cc_list_set_length. exact Hl.
    + intros g Hg. unfold mc_set, cap_pop. destruct (Z.eq_dec g u) as [->|Hne].
      * rewrite cc_nth_list_set_same by (unfold zlen in Hl; lia). rewrite sb_cap_get_set_same, Hget. cbn [tl].
        exists ((x, y) :: ps). split; [|exact Hd']. rewrite bd_flat_rev_cons, Ea. reflexivity.
      * rewrite cc_nth_list_set_other by lia. rewrite sb_cap_get_set_other by exact Hne. apply Hc. exact Hg.
Qed.

Lemma caps_rel2_view : caps_view e p caps_rel2.
Proof.
  constructor.
  - intros c M [Hl _]. exact Hl.
  - exact bd_caps_rel_init.
  - exact bd_caps_rel_push.
  - intros c M g H Hg _. exact (bd_matched c M g H Hg).
  - exact bd_caps_index_length.
Qed.

End CR.

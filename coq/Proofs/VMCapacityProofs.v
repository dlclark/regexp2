(* C13/C10 — the capacity argument of DESIGN Appendix A.

   Part 1 (static, about Writer.compile): give every instruction a weight that bounds the net
   number of backtracking-stack slots one execution of it (forward, Back or Back2) can add:
       4 for an instruction counted by opcodeBacktracks, except Goto (0);  1 for Nullmark;  0 otherwise.
   For every tree, the code the writer emits decodes into instructions whose total weight is at
   most 4 * TrackCount (Nullmark, the one uncounted pusher, is always emitted next to a Goto).

   Part 2 (dynamic, about VM.step): let need(c) be the total weight of the instructions at positions
   >= c.  If the current code position is an instruction boundary and  free = tcap - |track| >= need(pc),
   then no push of this step overflows and the next state satisfies free >= need(pc) again:
   forward moves consume weight, backward moves go through ensureStorage, which leaves
   free >= 4 * TrackCount >= need(0).

   What is NOT proved here: that every reachable code position of a compiled program is an
   instruction boundary (control-flow safety: the frame discipline of track and grouping stack).
   It is a hypothesis of the final theorem here; Proofs/CompileCfSafe.v (a verified static verifier) with
   Proofs/CompileTyped.v and Proofs/CompileSafe.v discharge it for every program the writer emits. *)
From Verif Require Import Base.Prelude Model.Tree Model.Spec Model.VM Model.Writer Gen.CodeGen Gen.RunnerGen
  Proofs.MaskProofs Proofs.VMLimitProofs Proofs.VMLimitSimProofs Proofs.VMU.
From Coq Require Import ZifyBool.
(* lia also takes / and mod apart; this setting reaches every file that imports this one *)
Ltac Zify.zify_post_hook ::= Z.div_mod_to_equations.

Definition cp_weight (op : Z) : Z :=
  let o := Z.land op 63 in
  if o =? Goto then 0 else if o =? Nullmark then 1 else if zmem o opcode_backtracks_list then 4 else 0.
Definition cp_count (op : Z) : Z := if opcode_backtracks op then 1 else 0.

(* ---------- decoding a code list into instruction boundaries ---------- *)
Fixpoint cp_dec_aux (fuel : nat) (pos : Z) (code : list Z) : list (Z * Z) :=
  match fuel with
  | O => []
  | S f => match code with
           | [] => []
           | op :: _ => let sz := opcode_size op in
                        if sz <=? 0 then []
                        else (pos, op) :: cp_dec_aux f (pos + sz) (skipn (Z.to_nat sz) code)
           end
  end.
Definition cp_dec (code : list Z) : list (Z * Z) := cp_dec_aux (length code) 0 code.

Fixpoint cp_need_l (l : list (Z * Z)) (c : Z) : Z :=
  match l with
  | [] => 0
  | (pos, op) :: l' => (if c <=? pos then cp_weight op else 0) + cp_need_l l' c
  end.
Definition cp_need (code : list Z) (c : Z) : Z := cp_need_l (cp_dec code) c.
Definition cp_boundary (code : list Z) (c : Z) (op : Z) : Prop := In (c, op) (cp_dec code).

Lemma cp_weight_range op : 0 <= cp_weight op <= 4.
Proof.
  unfold cp_weight. cbv zeta. destruct (_ =? Goto); [lia|]. destruct (_ =? Nullmark); [lia|].
  destruct (zmem _ _); lia.
Qed.

Lemma cp_need_l_nonneg l c : 0 <= cp_need_l l c.
Proof.
  induction l as [|[pos op] l IH]; cbn [cp_need_l]; [lia|].
  pose proof (cp_weight_range op). destruct (c <=? pos); lia.
Qed.

Lemma cp_need_l_mono l c c' : c <= c' -> cp_need_l l c' <= cp_need_l l c.
Proof.
  intros Hc. induction l as [|[pos op] l IH]; cbn [cp_need_l]; [lia|].
  pose proof (cp_weight_range op). destruct (c <=? pos) eqn:E1, (c' <=? pos) eqn:E2; lia.
Qed.

Lemma cp_dec_aux_pos f : forall pos code c op, In (c, op) (cp_dec_aux f pos code) -> pos <= c.
Proof.
  induction f as [|f IH]; intros pos code c op H; cbn [cp_dec_aux] in H; [contradiction|].
  destruct code as [|w code']; [contradiction|]. cbv zeta in H.
  destruct (opcode_size w <=? 0) eqn:E; [contradiction|].
  destruct H as [H|H]; [injection H as <- <-; lia|]. apply IH in H. lia.
Qed.

(* the opcode recorded at a boundary is the word stored there *)
Lemma cp_dec_aux_word f : forall pos code c op,
  In (c, op) (cp_dec_aux f pos code) -> nth_error code (Z.to_nat (c - pos)) = Some op.
Proof.
  induction f as [|f IH]; intros pos code c op H; cbn [cp_dec_aux] in H; [contradiction|].
  destruct code as [|w code']; [contradiction|]. cbv zeta in H.
  destruct (opcode_size w <=? 0) eqn:E; [contradiction|].
  destruct H as [H|H].
  - injection H as <- <-. replace (pos - pos) with 0 by lia. reflexivity.
  - pose proof (cp_dec_aux_pos _ _ _ _ _ H) as Hp. apply IH in H.
    rewrite nth_error_skipn in H.
    replace (Z.to_nat (c - pos)) with (Z.to_nat (opcode_size w) + Z.to_nat (c - (pos + opcode_size w)))%nat by lia.
    exact H.
Qed.

Lemma cp_boundary_word code c op : cp_boundary code c op -> znth code c = Some op.
Proof.
  unfold cp_boundary, cp_dec. intros H. pose proof (cp_dec_aux_pos _ _ _ _ _ H) as Hp.
  apply cp_dec_aux_word in H. unfold znth. replace (c <? 0) with false by lia.
  replace (c - 0) with c in H by lia. exact H.
Qed.

(* below every boundary of the list the need does not depend on the position *)
Lemma cp_need_l_below l q a b :
  a <= q -> b <= q -> (forall c0 o0, In (c0, o0) l -> q <= c0) -> cp_need_l l a = cp_need_l l b.
Proof.
  intros Ha Hb. induction l as [|[p0 o0] l IHl]; intros Hl; cbn [cp_need_l]; [reflexivity|].
  pose proof (Hl p0 o0 (or_introl eq_refl)).
  replace (a <=? p0) with true by lia. replace (b <=? p0) with true by lia.
  rewrite IHl; [reflexivity|]. intros c0 o1 Hin. apply (Hl c0 o1). right. exact Hin.
Qed.

(* at a boundary, need splits into the instruction's own weight and the need of what follows *)
Lemma cp_need_l_split f : forall pos code c op,
  In (c, op) (cp_dec_aux f pos code) ->
  cp_need_l (cp_dec_aux f pos code) c = cp_weight op + cp_need_l (cp_dec_aux f pos code) (c + 1).
Proof.
  induction f as [|f IH]; intros pos code c op H; cbn [cp_dec_aux] in H |- *; [contradiction|].
  destruct code as [|w code']; [contradiction|]. cbv zeta in H |- *.
  destruct (opcode_size w <=? 0) eqn:E; [contradiction|]. cbn [cp_need_l].
  destruct H as [H|H].
  - injection H as <- <-. replace (pos <=? pos) with true by lia. replace (pos + 1 <=? pos) with false by lia.
    enough (cp_need_l (cp_dec_aux f (pos + opcode_size w) (skipn (Z.to_nat (opcode_size w)) (w :: code'))) pos =
            cp_need_l (cp_dec_aux f (pos + opcode_size w) (skipn (Z.to_nat (opcode_size w)) (w :: code'))) (pos + 1)) by lia.
    apply (cp_need_l_below _ (pos + opcode_size w)); [lia|lia|].
    intros c0 o0 Hin. eapply cp_dec_aux_pos. exact Hin.
  - pose proof (cp_dec_aux_pos _ _ _ _ _ H) as Hp.
    replace (c <=? pos) with false by lia. replace (c + 1 <=? pos) with false by lia.
    rewrite (IH _ _ _ _ H). lia.
Qed.

Lemma cp_need_split code c op :
  cp_boundary code c op -> cp_need code c = cp_weight op + cp_need code (c + 1).
Proof. unfold cp_boundary, cp_need, cp_dec. apply cp_need_l_split. Qed.

Lemma cp_need_mono code c c' : c <= c' -> cp_need code c' <= cp_need code c.
Proof. unfold cp_need. apply cp_need_l_mono. Qed.

Lemma cp_need_nonneg code c : 0 <= cp_need code c.
Proof. unfold cp_need. apply cp_need_l_nonneg. Qed.

(* ---------- Part 1: the writer ---------- *)
Inductive cp_frag : list Z -> Z -> Z -> Prop :=
| cp_frag_nil : cp_frag [] 0 0
| cp_frag_ins op args rest tc w :
    opcode_size op = 1 + zlen args -> cp_frag rest tc w ->
    cp_frag (op :: args ++ rest) (cp_count op + tc) (cp_weight op + w).

Lemma cp_frag_app a : forall t1 w1, cp_frag a t1 w1 -> forall b t2 w2, cp_frag b t2 w2 ->
  cp_frag (a ++ b) (t1 + t2) (w1 + w2).
Proof.
  induction 1 as [|op args rest tc w Hsz Hr IH]; intros b t2 w2 Hb; cbn [app].
  - replace (0 + t2) with t2 by lia. replace (0 + w2) with w2 by lia. exact Hb.
  - rewrite <- app_assoc.
    replace (cp_count op + tc + t2) with (cp_count op + (tc + t2)) by lia.
    replace (cp_weight op + w + w2) with (cp_weight op + (w + w2)) by lia.
    apply cp_frag_ins; [exact Hsz|]. apply IH. exact Hb.
Qed.

Lemma cp_frag_i0 op rest c k tc w :
  opcode_size op = 1 -> cp_count op = c -> cp_weight op = k -> cp_frag rest tc w ->
  cp_frag (op :: rest) (c + tc) (k + w).
Proof. intros Hs <- <- H. apply (cp_frag_ins op [] rest); [exact Hs|exact H]. Qed.
Lemma cp_frag_i1 op a rest c k tc w :
  opcode_size op = 2 -> cp_count op = c -> cp_weight op = k -> cp_frag rest tc w ->
  cp_frag (op :: a :: rest) (c + tc) (k + w).
Proof. intros Hs <- <- H. apply (cp_frag_ins op [a] rest); [exact Hs|exact H]. Qed.
Lemma cp_frag_i2 op a b rest c k tc w :
  opcode_size op = 3 -> cp_count op = c -> cp_weight op = k -> cp_frag rest tc w ->
  cp_frag (op :: a :: b :: rest) (c + tc) (k + w).
Proof. intros Hs <- <- H. apply (cp_frag_ins op [a; b] rest); [exact Hs|exact H]. Qed.

(* total weight and TrackCount of a decodable fragment *)
Lemma cp_frag_dec code tc w : cp_frag code tc w ->
  forall fuel pos c, (length code <= fuel)%nat -> c <= pos ->
    cp_need_l (cp_dec_aux fuel pos code) c = w /\ track_count_aux fuel code = tc.
Proof.
  induction 1 as [|op args rest tc w Hsz Hr IH]; intros fuel pos c Hf Hc.
  - destruct fuel; cbn; split; reflexivity.
  - destruct fuel as [|f]; [cbn [length] in Hf; lia|].
    cbn [cp_dec_aux track_count_aux]. cbv zeta.
    assert (Hz : 0 <= zlen args) by apply zlen_nonneg.
    replace (opcode_size op <=? 0) with false by lia.
    assert (Hsk : skipn (Z.to_nat (opcode_size op)) (op :: args ++ rest) = rest).
    { rewrite Hsz. unfold zlen. replace (Z.to_nat (1 + Z.of_nat (length args))) with (S (length args)) by lia.
      cbn [skipn]. rewrite skipn_app, skipn_all, Nat.sub_diag. reflexivity. }
    rewrite Hsk. cbn [cp_need_l]. replace (c <=? pos) with true by lia.
    cbn [length] in Hf. rewrite app_length in Hf.
    destruct (IH f (pos + opcode_size op) c ltac:(lia) ltac:(lia)) as [E1 E2].
    rewrite E1, E2. unfold cp_count. split; reflexivity.
Qed.

Lemma cp_frag_totals code tc w : cp_frag code tc w -> cp_need code 0 = w /\ track_count code = tc.
Proof.
  intros H. unfold cp_need, cp_dec, track_count.
  apply (cp_frag_dec code tc w H (length code) 0 0); lia.
Qed.

Ltac cp_side :=
  unfold opcode_size, cp_count, opcode_backtracks, cp_weight;
  rewrite ?cp_land_bits by (cbv; split; congruence);
  vm_compute; reflexivity.

Ltac cp_build :=
  cbn [app];
  repeat first
    [ apply cp_frag_nil
    | eassumption
    | eapply cp_frag_i2; [solve [cp_side]|solve [cp_side]|solve [cp_side]|]
    | eapply cp_frag_i1; [solve [cp_side]|solve [cp_side]|solve [cp_side]|]
    | eapply cp_frag_i0; [solve [cp_side]|solve [cp_side]|solve [cp_side]|]
    | eapply cp_frag_app; [eassumption|] ].

Definition cp_good (code : list Z) : Prop := exists tc w, cp_frag code tc w /\ w <= 4 * tc.

Ltac cp_finish := unfold cp_good; do 2 eexists; split; [cp_build|lia].

Lemma cp_emit_good c : forall t a tbl, cp_good (fst (emit c t a tbl)).
Proof.
  induction t as [kd o ch|kd lk o ch m n|o str|o g|an| | | |o l HF|o l HF|lazy o m n r IHr|o g u r IHr
                 |r IHr|o r IHr|o r IHr|r IHr|o g yes no IHy IHn|o cnd yes no IHc IHy IHn]
    using node_ind'; intros a tbl.
  - cbn [emit fst]. destruct kd; cbn [char_op]; cp_finish.
  - cbn [emit fst]. destruct kd, lk, (0 <? m), (m <? n); cbn [rep_op loop_op app]; cp_finish.
  - cbn [emit]. destruct (string_code str tbl) as [i tbl']. cbn [fst]. cp_finish.
  - cbn [emit fst]. cp_finish.
  - cbn [emit fst]. destruct an; cbn [anchor_code]; cp_finish.
  - cbn [emit fst]. cp_finish.
  - cbn [emit fst]. cp_finish.
  - cbn [emit fst]. cp_finish.
  - (* NConcat *)
    rewrite wr_emit_concat_eq. revert a tbl.
    induction HF as [|x l Hx HF IH]; intros a tbl; cbn [emit_seq].
    + cbn [fst]. cp_finish.
    + destruct (Hx a tbl) as (t1 & w1 & F1 & L1). destruct (emit c x a tbl) as [cx tb1]. cbn [fst] in F1.
      destruct (IH (a + zlen cx) tb1) as (t2 & w2 & F2 & L2).
      destruct (emit_seq c l (a + zlen cx) tb1) as [cr tb2]. cbn [fst] in F2 |- *. cp_finish.
  - (* NAlternate *)
    rewrite wr_emit_alternate_eq. generalize (a + csize c (NAlternate o l)) as lend. intros lend. revert a tbl.
    induction HF as [|x l Hx HF IH]; intros a tbl.
    + cbn [emit_alt fst]. cp_finish.
    + destruct l as [|y l].
      * cbn [emit_alt]. apply Hx.
      * rewrite wr_emit_alt_cons2.
        destruct (Hx (a + 2) tbl) as (t1 & w1 & F1 & L1). destruct (emit c x (a + 2) tbl) as [cx tb1].
        cbn [fst] in F1. cbv zeta.
        destruct (IH (a + 2 + zlen cx + 2) tb1) as (t2 & w2 & F2 & L2).
        destruct (emit_alt c lend (y :: l) (a + 2 + zlen cx + 2) tb1) as [cr tb2]. cbn [fst] in F2 |- *.
        cp_finish.
  - (* NLoop *)
    cbn [emit]. cbv zeta.
    match goal with |- context [emit c r ?x tbl] => destruct (IHr x tbl) as (t1 & w1 & F1 & L1);
                                                     destruct (emit c r x tbl) as [cr tb1] end.
    cbn [fst] in F1 |- *.
    destruct lazy, (counted m n), (m =? 0); cbn [app]; cp_finish.
  - (* NCapture *)
    cbn [emit]. destruct (emit_capture c g u).
    + destruct (IHr (a + 1) tbl) as (t1 & w1 & F1 & L1). destruct (emit c r (a + 1) tbl) as [cr tb1].
      cbn [fst] in F1 |- *. cp_finish.
    + apply IHr.
  - cbn [emit]. apply IHr.
  - (* NPosLook *)
    cbn [emit]. destruct (IHr (a + 2) tbl) as (t1 & w1 & F1 & L1). destruct (emit c r (a + 2) tbl) as [cr tb1].
    cbn [fst] in F1 |- *. cp_finish.
  - (* NNegLook *)
    cbn [emit]. destruct (IHr (a + 3) tbl) as (t1 & w1 & F1 & L1). destruct (emit c r (a + 3) tbl) as [cr tb1].
    cbn [fst] in F1 |- *. cp_finish.
  - (* NAtomic *)
    cbn [emit]. destruct (IHr (a + 1) tbl) as (t1 & w1 & F1 & L1). destruct (emit c r (a + 1) tbl) as [cr tb1].
    cbn [fst] in F1 |- *. cp_finish.
  - (* NBackRefCond *)
    cbn [emit]. destruct (IHy (a + 6) tbl) as (t1 & w1 & F1 & L1). destruct (emit c yes (a + 6) tbl) as [cy tb1].
    cbn [fst] in F1. cbv zeta.
    destruct no as [x|]; cbn [opt_all] in IHn.
    + match goal with |- context [emit c x ?p tb1] => destruct (IHn p tb1) as (t2 & w2 & F2 & L2);
                                                       destruct (emit c x p tb1) as [cn tb2] end.
      cbn [fst] in F2 |- *. cp_finish.
    + cbn [fst]. cp_finish.
  - (* NExprCond *)
    cbn [emit]. destruct (IHc (a + 4) tbl) as (t0 & w0 & F0 & L0). destruct (emit c cnd (a + 4) tbl) as [cc tb0].
    cbn [fst] in F0. cbv zeta.
    match goal with |- context [emit c yes ?p tb0] => destruct (IHy p tb0) as (t1 & w1 & F1 & L1);
                                                      destruct (emit c yes p tb0) as [cy tb1] end.
    cbn [fst] in F1.
    destruct no as [x|]; cbn [opt_all] in IHn.
    + match goal with |- context [emit c x ?p tb1] => destruct (IHn p tb1) as (t2 & w2 & F2 & L2);
                                                       destruct (emit c x p tb1) as [cn tb2] end.
      cbn [fst] in F2 |- *. cp_finish.
    + cbn [fst]. cp_finish.
Qed.

(* the whole program: Lazybranch Lend ; root ; Stop *)
Theorem cp_compile_weight c root :
  let code := fst (compile c root) in
  cp_need code 0 <= 4 * track_count code.
Proof.
  cbv zeta. unfold compile.
  destruct (cp_emit_good c root 2 []) as (t1 & w1 & F1 & L1). destruct (emit c root 2 []) as [cr tbl].
  cbn [fst] in F1 |- *.
  assert (G : cp_good ([Lazybranch; 2 + zlen cr] ++ cr ++ [Stop])) by cp_finish.
  destruct G as (tc & w & F & Lw). apply cp_frag_totals in F. destruct F as [-> ->]. exact Lw.
Qed.

(* ---------- Part 2: the interpreter ---------- *)
(* the weight of an instruction is the bound VMPlan.step_plan gives on what its plans push *)
Lemma cp_weight_pushes w : op_pushes (Z.land w 63) = cp_weight w.
Proof. reflexivity. Qed.

Lemma cp_need_le_total code a : cp_need code a <= cp_need code 0.
Proof.
  destruct (0 <=? a) eqn:E0; [apply cp_need_mono; lia|].
  enough (cp_need code a = cp_need code 0) by lia.
  unfold cp_need, cp_dec. apply (cp_need_l_below _ 0); [lia|lia|].
  intros c0 o0 Hin. eapply cp_dec_aux_pos. exact Hin.
Qed.

Ltac cp_case_in H :=
  match type of H with
  | context [match ?x with _ => _ end] =>
      lazymatch x with
      | context [match _ with _ => _ end] => fail
      | context [bind _ _] => fail
      | _ => destruct x eqn:?
      end
  | context [bind ?x _] =>
      lazymatch x with
      | context [match _ with _ => _ end] => fail
      | context [bind _ _] => fail
      | _ => destruct x eqn:?
      end
  end.

Section Cap.
Variable e : env.
Variable p : program.
Variable L : Z.
(* the static fact: total weight <= 4 * TrackCount (cp_compile_weight for compiled programs) *)
Hypothesis Hw : cp_need (codes p) 0 <= trackcount p * G_ensure_factor.

Definition cp_free (s : vm) : Z := tcap s - zlen (track s).
Definition cp_inv (s : vm) : Prop := cp_need (codes p) (pc s) <= cp_free s.
Definition cp_out_inv (o : outcome) : Prop := match o with Next s => cp_inv s | _ => True end.

Lemma cp_ensure s s' :
  ensure_storage p L s = Ok s' ->
  trackcount p * G_ensure_factor <= cp_free s' /\ pc s' = pc s.
Proof.
  rewrite ensure_storage_eq. destruct (grow_tcap _ _ _ _) as [tc'|] eqn:G; [|discriminate]. intros H. injection H as <-.
  apply grow_tcap_spec in G. unfold cp_free, with_caps. vm_cbn. split; [lia|reflexivity].
Qed.

Lemma cp_inv_goto s a s' :
  goto p L s a = Ok s' -> cp_need (codes p) (pc s + 1) <= cp_free s -> cp_inv s'.
Proof.
  unfold goto, cp_inv. intros H Hn. destruct (a <=? pc s) eqn:Ea.
  - destruct (ensure_storage p L s) as [s1| | |] eqn:E; cbn [bind] in H; try discriminate.
    apply cp_ensure in E. destruct E as [E1 E2].
    destruct (code_at p a); [|discriminate]. injection H as <-. unfold cp_free in *. vm_cbn.
    pose proof (cp_need_le_total (codes p) a). lia.
  - cbn [bind] in H. destruct (code_at p a); [|discriminate]. injection H as <-. unfold cp_free in *. vm_cbn.
    pose proof (cp_need_mono (codes p) (pc s + 1) a ltac:(lia)). lia.
Qed.

Lemma cp_inv_goto_back s a s' : a <= pc s -> goto p L s a = Ok s' -> cp_inv s'.
Proof.
  unfold goto, cp_inv. intros Ha H. replace (a <=? pc s) with true in H by lia.
  destruct (ensure_storage p L s) as [s1| | |] eqn:E; cbn [bind] in H; try discriminate.
  apply cp_ensure in E. destruct E as [E1 E2].
  destruct (code_at p a); [|discriminate]. injection H as <-. unfold cp_free in *. vm_cbn.
  pose proof (cp_need_le_total (codes p) a). lia.
Qed.

Lemma cp_inv_cont_goto s a o :
  cont (goto p L s a) = Ok o -> cp_need (codes p) (pc s + 1) <= cp_free s -> cp_out_inv o.
Proof.
  unfold cont. intros H Hn. destruct (goto p L s a) as [s1| | |] eqn:E; cbn [bind] in H; try discriminate.
  injection H as <-. cbn [cp_out_inv]. eapply cp_inv_goto; eassumption.
Qed.

Lemma cp_inv_cont_advance s i o :
  cont (advance p s i) = Ok o -> 0 <= i -> cp_need (codes p) (pc s + 1) <= cp_free s -> cp_out_inv o.
Proof.
  unfold cont, advance. intros H Hi Hn. destruct (code_at p (pc s + i + 1)); cbn [bind] in H; [|discriminate].
  injection H as <-. cbn [cp_out_inv]. unfold cp_inv, cp_free in *. vm_cbn.
  pose proof (cp_need_mono (codes p) (pc s + 1) (pc s + i + 1) ltac:(lia)). lia.
Qed.

Lemma cp_inv_brk s o :
  brk p L s = Ok o -> cp_need (codes p) (pc s) <= cp_free s + 1 -> cp_out_inv o.
Proof.
  unfold brk, backtrack. intros H Hn. destruct (track s) as [|np t] eqn:Et; [discriminate|].
  destruct (if np <? 0 then (- np, Back2Bit) else (np, BackBit)) as [newpos m].
  destruct (code_at p newpos); [|discriminate].
  destruct (newpos <? pc s) eqn:En.
  - destruct (ensure_storage p L (set_track s t)) as [s1| | |] eqn:E; cbn [bind] in H; try discriminate.
    apply cp_ensure in E. destruct E as [E1 E2]. injection H as <-. cbn [cp_out_inv]. unfold cp_inv, cp_free in *. vm_cbn.
    pose proof (cp_need_le_total (codes p) newpos). lia.
  - cbn [bind] in H. injection H as <-. cbn [cp_out_inv]. unfold cp_inv, cp_free in *. vm_cbn.
    rewrite Et in Hn. rewrite zlen_cons in Hn.
    pose proof (cp_need_mono (codes p) (pc s) newpos ltac:(lia)). lia.
Qed.

(* one step keeps  free >= need(pc)  provided the current position is an instruction boundary: the plan of
   the step pushes at most the weight of the instruction, and nothing before a backtrack *)
Lemma cp_step_inv s w o :
  cp_boundary (codes p) (pc s) w -> cp_inv s -> step e p L s = Ok o -> cp_out_inv o.
Proof.
  intros Hb Hinv H. unfold cp_inv, cp_free in Hinv.
  pose proof (cp_need_split _ _ _ Hb) as Hsplit.
  pose proof (cp_need_nonneg (codes p) (pc s + 1)) as Hnn.
  apply cp_boundary_word in Hb.
  destruct (step_plan1 e p s w Hb) as (us & x & (Hk & _ & Hx) & Hs). rewrite Hs, exec_bind in H.
  rewrite cp_weight_pushes in Hk.
  destruct (run_uops us s) as [a| | |] eqn:E; try discriminate. cbn [bind] in H.
  apply uops_sizes in E. destruct E as (Ep & Et & _ & El & _).
  destruct x; cbn [run_exit] in H.
  - eapply cp_inv_cont_advance; [exact H|exact (proj1 Hx)|]. unfold cp_free. rewrite Ep. lia.
  - eapply cp_inv_cont_goto; [exact H|]. unfold cp_free. rewrite Ep. lia.
  - eapply cp_inv_brk; [exact H|]. unfold cp_free. rewrite Ep. lia.
  - injection H as <-. exact I.
  - discriminate.
Qed.

(* ---------- no push overflows: the simulation of VMLimitSimProofs without its Crash C_track case ---------- *)
Variable L' : Z.
Hypothesis HL : lim_le L L'.

Lemma cp_step_sim s1 s2 w :
  cp_boundary (codes p) (pc s1) w -> cp_inv s1 -> simrel L s1 s2 ->
  res_rel0 (out_rel L) (step e p L s1) (step e p L' s2).
Proof.
  intros Hb Hinv HR. unfold cp_inv, cp_free in Hinv.
  pose proof (cp_need_split _ _ _ Hb) as Hsplit.
  pose proof (cp_need_nonneg (codes p) (pc s1 + 1)) as Hnn.
  apply cp_boundary_word in Hb. change (code_at p (pc s1) = Some w) in Hb.
  pose proof (step_sim_plan e p L L' s1 s2 HR) as H. rewrite Hb in H.
  destruct H as (us & x & (Hk & _) & -> & ->).
  rewrite cp_weight_pushes in Hk.
  destruct (sim_exec p L L' HL us x s1 s2 HR) as [G|[_ G]]; [exact G|lia].
Qed.

End Cap.

(* The limited and the more permissive run go in lock step as long as an invariant I of the pair of states
   makes each step simulate; I must hold after goTo(0) from the fresh states an attempt starts from, and
   be kept by a pair of steps. *)
Section InvSim.
Variable e : env.
Variable p : program.
Variable L L' : Z.
Hypothesis HL : lim_le L L'.
Variable I : vm -> vm -> Prop.

(* the state an attempt at text position t starts from, with the capacities of c (vm_scan_from) *)
Definition attempt_start (c : vm) (t : Z) : vm :=
  {| pc := 0; mode := 0; tp := t; track := []; tcap := tcap c; stack := []; scap := scap c;
     crawl := []; mcaps := repeat [] (Z.to_nat (capsize p)) |}.

Hypothesis I_start : forall c1 c2 t a b,
  goto p L (attempt_start c1 t) 0 = Ok a -> goto p L' (attempt_start c2 t) 0 = Ok b -> I a b.
Hypothesis I_step : forall s1 s2, simrel L s1 s2 -> I s1 s2 ->
  res_rel0 (out_rel L) (step e p L s1) (step e p L' s2) /\
  forall a b, step e p L s1 = Ok (Next a) -> step e p L' s2 = Ok (Next b) -> I a b.

Definition inv_pair_rel (r1 r2 : vm * bool) : Prop :=
  simrel L (fst r1) (fst r2) /\ snd r1 = snd r2 /\ (snd r1 = false -> I (fst r1) (fst r2)).

Lemma inv_run_steps_sim k : forall s1 s2, simrel L s1 s2 -> I s1 s2 ->
  res_rel0 inv_pair_rel (run_steps e p L k s1) (run_steps e p L' k s2).
Proof.
  induction k as [|k IH]; intros s1 s2 HR Hi; cbn [run_steps].
  - apply res_rel0_ok. split; [exact HR|split; [reflexivity|intros _; exact Hi]].
  - destruct (I_step s1 s2 HR Hi) as [S Hn].
    destruct (step e p L s1) as [o1|c1|w1|].
    + destruct S as [S|S]; [discriminate|].
      destruct (step e p L' s2) as [o2|c2|w2|]; try contradiction.
      destruct o1 as [a|a|c|w0], o2 as [b|b|c'|w']; cbn [out_rel] in S; try contradiction.
      * apply IH; [exact S|apply Hn; reflexivity].
      * apply res_rel0_ok. split; [exact S|split; [reflexivity|intros D; discriminate D]].
      * subst. apply res_rel0_err.
      * subst. apply res_rel0_crash.
    + destruct S as [S|S]; [injection S as ->; apply res_rel0_limit|].
      destruct (step e p L' s2); try contradiction. subst. apply res_rel0_err.
    + destruct S as [S|S]; [discriminate|].
      destruct (step e p L' s2); try contradiction. subst. apply res_rel0_crash.
    + destruct S as [S|S]; [discriminate|].
      destruct (step e p L' s2); try contradiction. apply res_rel0_fuel.
Qed.

Lemma inv_run_sim fuel : forall s1 s2,
  simrel L s1 s2 -> I s1 s2 -> res_rel0 (simrel L) (run e p L fuel s1) (run e p L' fuel s2).
Proof.
  induction fuel as [|f IH]; intros s1 s2 HR Hi; cbn [run]; [apply res_rel0_fuel|].
  apply res_rel0_bind with (R := inv_pair_rel); [apply inv_run_steps_sim; assumption|].
  intros [a b1] [b b2] (H1 & H2 & H3). cbn [fst snd] in *. subst b2.
  destruct b1; [apply res_rel0_ok; exact H1|apply IH; [exact H1|apply H3; reflexivity]].
Qed.

(* goTo(0) from the start states of related carriers *)
Lemma inv_goto0_sim c1 c2 t : simrel L c1 c2 ->
  res_rel0 (fun a b => simrel L a b /\ I a b)
           (goto p L (attempt_start c1 t) 0) (goto p L' (attempt_start c2 t) 0).
Proof.
  intros HR.
  assert (HRf : simrel L (attempt_start c1 t) (attempt_start c2 t)).
  { destruct HR as [HE HT]. unfold eqv in HE. unfold simrel, eqv, attempt_start. vm_cbn. repeat split; tauto. }
  pose proof (sim_goto p L L' HL _ _ 0 HRf) as S. unfold cont in S.
  pose proof (I_start c1 c2 t) as Hs.
  destruct (goto p L (attempt_start c1 t) 0) as [a|c|w|]; cbn [bind] in S.
  - destruct S as [S|S]; [discriminate|].
    destruct (goto p L' (attempt_start c2 t) 0); cbn [bind] in S; try contradiction.
    apply res_rel0_ok. split; [exact S|apply Hs; reflexivity].
  - destruct S as [S|S]; [injection S as ->; apply res_rel0_limit|].
    destruct (goto p L' (attempt_start c2 t) 0); cbn [bind] in S; try contradiction. subst. apply res_rel0_err.
  - destruct S as [S|S]; [discriminate|].
    destruct (goto p L' (attempt_start c2 t) 0); cbn [bind] in S; try contradiction. subst. apply res_rel0_crash.
  - destruct S as [S|S]; [discriminate|].
    destruct (goto p L' (attempt_start c2 t) 0); cbn [bind] in S; try contradiction. apply res_rel0_fuel.
Qed.

Lemma inv_scan_sim fuel n : forall rtl c1 c2 t,
  simrel L c1 c2 ->
  res_rel0 (opt_rel (simrel L)) (vm_scan_from e p L fuel n rtl c1 t) (vm_scan_from e p L' fuel n rtl c2 t).
Proof.
  induction n as [|n IH]; intros rtl c1 c2 t HR; cbn [vm_scan_from].
  - apply res_rel0_ok. exact Logic.I.
  - apply res_rel0_bind with (R := fun a b => simrel L a b /\ I a b); [exact (inv_goto0_sim c1 c2 t HR)|].
    intros a b [Hab Hi].
    apply res_rel0_bind with (R := simrel L); [apply inv_run_sim; assumption|].
    intros a2 b2 H2.
    assert (Hm : matched0 a2 = matched0 b2).
    { unfold matched0. destruct H2 as [HE _]. unfold eqv in HE.
      replace (mcaps b2) with (mcaps a2) by tauto. reflexivity. }
    rewrite <- Hm. destruct (matched0 a2); [apply res_rel0_ok; exact H2|].
    destruct (if rtl then t <=? 0 else tlen e <=? t); [apply res_rel0_ok; exact Logic.I|].
    apply IH. exact H2.
Qed.

Lemma inv_find_sim fuel rtl start prevlen :
  res_rel0 (opt_rel (simrel L)) (vm_find e p L fuel rtl start prevlen) (vm_find e p L' fuel rtl start prevlen).
Proof.
  unfold vm_find.
  destruct ((prevlen =? 0) && (start =? (if rtl then 0 else tlen e))); [apply res_rel0_ok; exact Logic.I|].
  apply inv_scan_sim. apply sim_init. exact HL.
Qed.

End InvSim.

Section CapRun.
Variable e : env.
Variable p : program.
Variable L L' : Z.
Hypothesis Hw : cp_need (codes p) 0 <= trackcount p * G_ensure_factor.
Hypothesis HL : lim_le L L'.

(* the states the limited interpreter goes through: an attempt starts with goTo(0) from a state
   at code position 0 and proceeds by steps *)
Inductive cp_reach : vm -> Prop :=
| cp_reach_start s0 s : pc s0 = 0 -> goto p L s0 0 = Ok s -> cp_reach s
| cp_reach_step s s' : cp_reach s -> step e p L s = Ok (Next s') -> cp_reach s'.

(* control-flow safety (NOT proved here): every code position the limited run reaches is an
   instruction boundary of the program *)
Hypothesis Hcf : forall s, cp_reach s -> exists w, cp_boundary (codes p) (pc s) w.

Lemma cp_reach_inv s : cp_reach s -> cp_inv p s.
Proof.
  induction 1 as [s0 s H0 Hg|s s' Hr IH Hs].
  - eapply cp_inv_goto_back; [exact Hw| |exact Hg]. lia.
  - destruct (Hcf s Hr) as [w Hb].
    change (cp_out_inv p (Next s')). eapply cp_step_inv; first [exact Hw|exact Hb|exact IH|exact Hs].
Qed.

(* the invariant of the limited side alone: it is a reached state *)
Lemma cp_find_sim fuel rtl start prevlen :
  res_rel0 (opt_rel (simrel L)) (vm_find e p L fuel rtl start prevlen) (vm_find e p L' fuel rtl start prevlen).
Proof.
  apply (inv_find_sim e p L L' HL (fun a _ => cp_reach a)).
  - intros c1 c2 t a b Ha _. exact (cp_reach_start (attempt_start p c1 t) a eq_refl Ha).
  - intros s1 s2 HR Hr. destruct (Hcf s1 Hr) as [w Hb]. split.
    + eapply cp_step_sim; first [exact HL|exact Hb|exact HR|apply cp_reach_inv; exact Hr].
    + intros a b Ha _. exact (cp_reach_step _ a Hr Ha).
Qed.

End CapRun.

(* The statement of C13's first sentence, for a program whose total push weight is at most
   4 * TrackCount (true of every program the writer produces: cp_compile_weight), under the
   control-flow hypothesis: with any limit, the search either is ErrBacktrackingStackLimit or agrees
   with the unlimited search in every outcome.  No push ever runs beyond the allocated stack. *)
Theorem cp_limit_dichotomy e p L fuel rtl start prevlen :
  cp_need (codes p) 0 <= trackcount p * G_ensure_factor ->
  (forall s, cp_reach e p L s -> exists w, cp_boundary (codes p) (pc s) w) ->
  let r1 := vm_find e p L fuel rtl start prevlen in
  let r2 := vm_find e p (-1) fuel rtl start prevlen in
  r1 = Err E_StackLimit \/
  match r1, r2 with
  | Ok a, Ok b => same_result a b
  | Err c, Err c' => c = c'
  | Crash w, Crash w' => w = w'
  | Fuel, Fuel => True
  | _, _ => False
  end.
Proof.
  intros Hw Hcf. cbv zeta.
  assert (HL : lim_le L (-1)) by (left; lia).
  destruct (cp_find_sim e p L (-1) Hw HL Hcf fuel rtl start prevlen) as [H|H]; [left; exact H|].
  right.
  destruct (vm_find e p L fuel rtl start prevlen), (vm_find e p (-1) fuel rtl start prevlen); try exact H.
  eapply opt_rel_weaken. exact H.
Qed.

(* the weight hypothesis holds for every program the writer produces *)
Theorem cp_compiled_weight c root strs cs :
  let code := fst (compile c root) in
  let p := {| codes := code; strings := strs; trackcount := track_count code; capsize := cs |} in
  cp_need (codes p) 0 <= trackcount p * G_ensure_factor.
Proof.
  cbv zeta. cbn [codes trackcount]. pose proof (cp_compile_weight c root) as H. cbv zeta in H.
  unfold G_ensure_factor. lia.
Qed.

(* every state of the limited run has a twin, at the same code position, in the run with the
   more permissive limit: control-flow safety need only be known for the unlimited engine *)
Lemma cp_reach_transfer e p L L' : lim_le L L' ->
  forall s1, cp_reach e p L s1 -> exists s2, cp_reach e p L' s2 /\ simrel L s1 s2.
Proof.
  intros HL. induction 1 as [s0 s H0 Hg|s s' Hr IH Hs].
  - assert (HR : simrel L s0 s0) by (split; [apply eqv_refl|left; reflexivity]).
    pose proof (goto_sim p L L' HL s0 s0 0 HR) as S. rewrite Hg in S.
    apply res_rel_ok_inv in S. destruct S as (b & E & R).
    exists b. split; [eapply cp_reach_start; eassumption|exact R].
  - destruct IH as (s2 & Hr2 & HR).
    pose proof (step_sim e p L L' HL s s2 HR) as S. rewrite Hs in S.
    apply res_rel_ok_inv in S. destruct S as (o2 & E & R).
    destruct o2 as [b|b|c|w]; cbn [out_rel] in R; try contradiction.
    exists b. split; [eapply cp_reach_step; eassumption|exact R].
Qed.

Theorem cp_limit_dichotomy_unl e p L fuel rtl start prevlen :
  cp_need (codes p) 0 <= trackcount p * G_ensure_factor ->
  (forall s, cp_reach e p (-1) s -> exists w, cp_boundary (codes p) (pc s) w) ->
  let r1 := vm_find e p L fuel rtl start prevlen in
  let r2 := vm_find e p (-1) fuel rtl start prevlen in
  r1 = Err E_StackLimit \/
  match r1, r2 with
  | Ok a, Ok b => same_result a b
  | Err c, Err c' => c = c'
  | Crash w, Crash w' => w = w'
  | Fuel, Fuel => True
  | _, _ => False
  end.
Proof.
  intros Hw Hcf. apply cp_limit_dichotomy; [exact Hw|].
  intros s Hr. assert (HL : lim_le L (-1)) by (left; lia).
  destruct (cp_reach_transfer e p L (-1) HL s Hr) as (s2 & Hr2 & [HE _]).
  destruct (Hcf s2 Hr2) as [w Hb]. exists w. unfold eqv in HE. replace (pc s) with (pc s2) by (symmetry; tauto).
  exact Hb.
Qed.

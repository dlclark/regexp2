(* Proofs about Model/Parser.v, part 4: the capture pre-scan (countCaptures + assignNameSlots) never
   faults and never runs out of fuel.
   Three invariants of the pre-scan's capture tables are in use.  [cinv] (here) is the little that keeps
   assignNameSlots from indexing out of range.  [capsinv] / [gm_pinv] (Proofs/GMPrescan.v) are the full account of
   the tables, stated for the three primitives on their own.  [cw] (Proofs/ParserOkPre.v) is capsinv's part about
   the key list plus "every name is listed", carried through the text scanner.  New work on the tables should
   build on gm_pinv; cinv and cw are weaker and are just what the loop proofs of these two files need. *)
From Coq Require Import ZifyBool.
From Verif Require Import Base.Prelude Gen.ParseLitGen Model.Escape Model.ParseLit Model.GroupMap Model.CharClass
  Model.Parser Proofs.ParseLitProofs Proofs.GMBase Proofs.GMPrescan Proofs.ParserScan Proofs.ParserTree Proofs.ParserMain.

(* what keeps assignNameSlots / assignOrderedNameSlots from indexing out of range *)
Record cinv (mco : bool) (c : cstate) : Prop := mkCinv {
  ci_auto : 1 <= c_autocap c;
  ci_nonneg : Forall (fun k => 0 <= k) (c_caps c);
  ci_names : c_capnames c <> None -> c_capnamelist c <> [];
  ci_mco : mco = true ->
           c_capcount c = c_autocap c /\ c_captop c <= c_autocap c /\
           (forall k, In k (c_caps c) <-> 0 <= k < c_autocap c) /\
           (forall s v, aget s (names_of c) = Some v -> 0 <= v < c_autocap c) }.

Lemma cinv_init mco : cinv mco c_init.
Proof.
  constructor; cbn.
  - lia.
  - constructor; [lia | constructor].
  - congruence.
  - intros _. split; [reflexivity|]. split; [lia|]. split.
    + intros k. split; [intros [H|[]]; lia | intros H; left; lia].
    + intros s v H. discriminate.
Qed.

Lemma caps_insert_nonneg i l : 0 <= i -> Forall (fun k => 0 <= k) l -> Forall (fun k => 0 <= k) (caps_insert i l).
Proof.
  intros Hi H. rewrite Forall_forall in *. intros y Hy. apply caps_insert_In in Hy. destruct Hy as [->|Hy]; auto.
Qed.

Lemma note_slot_caps_In i c k : In k (c_caps (note_slot i c)) <-> k = i \/ In k (c_caps c).
Proof. apply note_slot_caps. Qed.

(* a plain "(" outside MaintainCaptureOrder / an explicit number *)
Lemma note_slot_cinv_plain i c : cinv false c -> 0 <= i -> cinv false (note_slot i c).
Proof.
  intros [A N M _] Hi. unfold note_slot. destruct (zmem i (c_caps c)); [constructor; auto; discriminate|].
  constructor; cbn; auto; [apply caps_insert_nonneg; assumption | discriminate].
Qed.

(* consumeAutocap + noteCaptureSlot of the consumed number *)
Lemma note_auto_cinv mco c : cinv mco c -> cinv mco (note_auto c).
Proof.
  intros [A N M D]. unfold note_auto.
  set (k := c_autocap c).
  set (c1 := mkC (k + 1) (c_caps c) (c_capcount c) (c_captop c) (c_capnames c) (c_capnamelist c)).
  assert (F : c_autocap (note_slot k c1) = k + 1 /\ c_capnames (note_slot k c1) = c_capnames c /\
              c_capnamelist (note_slot k c1) = c_capnamelist c).
  { unfold note_slot. destruct (zmem k (c_caps c1)); cbn; auto. }
  destruct F as [F1 [F2 F3]].
  constructor.
  - rewrite F1. lia.
  - unfold note_slot. destruct (zmem k (c_caps c1)); cbn; [exact N | apply caps_insert_nonneg; [subst k; lia | exact N]].
  - rewrite F2, F3. exact M.
  - intros Hm. destruct (D Hm) as [D1 [D2 [D3 D4]]]. rewrite F1.
    assert (NI : zmem k (c_caps c1) = false).
    { apply zmem_false. cbn. intros H. apply D3 in H. subst k. lia. }
    unfold note_slot. rewrite NI. cbn.
    split; [subst k; lia|].
    split; [destruct (c_captop c <=? k); [destruct (k =? maxint32); lia | lia]|].
    split.
    + intros k0. split.
      * intros H. apply caps_insert_In in H. destruct H as [->|H]; [subst k; lia | apply D3 in H; subst k; lia].
      * intros H. apply caps_insert_In. destruct (Z.eq_dec k0 k) as [->|Hne]; [left; reflexivity | right; apply D3; subst k; lia].
    + unfold names_of in *. cbn. intros s v H. specialize (D4 s v H). subst k. lia.
Qed.

Lemma note_name_cinv mco ecma s c : cinv mco c ->
  match note_name mco ecma s c with Ok c' => cinv mco c' | Err _ => True | _ => False end.
Proof.
  intros Hc. pose proof Hc as [A N M D]. unfold note_name.
  destruct (aget s (names_of c)) as [v|] eqn:Eg.
  - destruct ecma; [exact I|].
    constructor; cbn; auto.
    intros _. apply M. unfold names_of in Eg. destruct (c_capnames c); [discriminate | discriminate].
  - destruct mco.
    + (* the name takes the next automatic number *)
      set (slot := c_autocap c).
      set (c1 := mkC (slot + 1) (c_caps c) (c_capcount c) (c_captop c) (Some (aset s slot (names_of c))) (c_capnamelist c)).
      destruct (D eq_refl) as [D1 [D2 [D3 D4]]].
      assert (NI : zmem slot (c_caps c1) = false).
      { apply zmem_false. cbn. intros H. apply D3 in H. subst slot. lia. }
      unfold note_slot. rewrite NI. cbn.
      constructor; cbn.
      * subst slot. lia.
      * apply caps_insert_nonneg; [subst slot; lia | exact N].
      * intros _ H. apply app_eq_nil in H. destruct H; discriminate.
      * intros _.
        split; [subst slot; lia|].
        split; [destruct (c_captop c <=? slot); [destruct (slot =? maxint32); lia | lia]|].
        split.
        -- intros k. split.
           ++ intros H. apply caps_insert_In in H. destruct H as [->|H]; [subst slot; lia | apply D3 in H; subst slot; lia].
           ++ intros H. apply caps_insert_In. destruct (Z.eq_dec k slot) as [->|Hne]; [left; reflexivity | right; apply D3; subst slot; lia].
        -- unfold names_of. cbn. intros s0 v H. apply aget_aset_cases in H. destruct H as [[_ ->]|H]; [subst slot; lia|].
           specialize (D4 s0 v H). subst slot. lia.
    + constructor; cbn; auto.
      * intros _ H. apply app_eq_nil in H. destruct H; discriminate.
      * discriminate.
Qed.

(* ---------------------------------------------------------------- assignNameSlots *)
Lemma next_free_ge fuel caps : forall a, a <= next_free fuel caps a.
Proof.
  induction fuel as [|f IH]; intros a; cbn [next_free]; [lia|].
  destruct (zmem a caps); [specialize (IH (a + 1)); lia | lia].
Qed.

Lemma note_slot_nonneg i c : 0 <= i -> Forall (fun k => 0 <= k) (c_caps c) -> Forall (fun k => 0 <= k) (c_caps (note_slot i c)).
Proof.
  intros Hi N. unfold note_slot. destruct (zmem i (c_caps c)); cbn; [exact N | apply caps_insert_nonneg; assumption].
Qed.

Lemma assign_names_keeps names : forall c, 1 <= c_autocap c -> Forall (fun k => 0 <= k) (c_caps c) ->
  1 <= c_autocap (assign_names names c) /\ Forall (fun k => 0 <= k) (c_caps (assign_names names c)) /\
  c_capnamelist (assign_names names c) = c_capnamelist c /\
  (c_capnames c <> None -> c_capnames (assign_names names c) <> None).
Proof.
  induction names as [|s r IH]; intros c A N; cbn [assign_names]; [auto|]. lazy zeta.
  pose proof (next_free_ge (S (length (c_caps c))) (c_caps c) (c_autocap c)) as Ha.
  set (a := next_free (S (length (c_caps c))) (c_caps c) (c_autocap c)) in *. clearbody a.
  set (c1 := mkC a (c_caps c) (c_capcount c) (c_captop c) (Some (aset s a (names_of c))) (c_capnamelist c)).
  destruct (note_slot_fields a c1) as [S1 [S2 S3]].
  pose proof (note_slot_nonneg a c1 ltac:(lia) N) as S4.
  match goal with |- context [assign_names r ?cc] => destruct (IH cc) as [I1 [I2 [I3 I4]]] end.
  - cbn. lia.
  - cbn. exact S4.
  - split; [exact I1|]. split; [exact I2|]. split.
    + rewrite I3. cbn. rewrite S3. reflexivity.
    + intros _. apply I4. cbn. rewrite S2. discriminate.
Qed.

Lemma merge_names_ok js : forall rest next m,
  Forall (fun k => 0 <= k) js -> (rest = [] -> next = -1) -> exists r, merge_names js rest next m = Ok r.
Proof.
  induction js as [|j js IH]; intros rest next m Hj Hr; cbn [merge_names]; [eauto|].
  inversion Hj; subst.
  destruct (next =? j) eqn:E.
  - destruct rest as [|s rest']; [specialize (Hr eq_refl); lia|].
    destruct (IH rest' (match rest' with [] => -1 | s' :: _ => aget0 s' m end) m) as [[l m'] El]; [assumption | intros ->; reflexivity |].
    rewrite El. cbn [bind]. eauto.
  - destruct (IH rest next (aset (itoa j) j m)) as [[l m'] El]; [assumption | exact Hr |].
    rewrite El. cbn [bind]. eauto.
Qed.

Lemma zrange_nonneg n : Forall (fun k => 0 <= k) (zrange n).
Proof. rewrite Forall_forall. intros k H. apply zrange_In in H. lia. Qed.

Lemma assign_default_ok c : cinv false c -> exists t, assign_default c = Ok t.
Proof.
  intros [A N M _]. unfold assign_default.
  set (c' := match c_capnames c with Some _ => assign_names (c_capnamelist c) c | None => c end).
  assert (K : 1 <= c_autocap c' /\ Forall (fun k => 0 <= k) (c_caps c') /\ (c_capnames c' <> None -> c_capnamelist c' <> [])).
  { subst c'. destruct (c_capnames c) eqn:En; [|auto].
    destruct (assign_names_keeps (c_capnamelist c) c A N) as [K1 [K2 [K3 K4]]]. split; [exact K1|]. split; [exact K2|].
    intros _. rewrite K3. apply M. discriminate. }
  destruct K as [K1 [K2 K3]].
  assert (JS : Forall (fun k => 0 <= k) (match capnumlist_of c' with Some l => l | None => zrange (c_capcount c') end)).
  { unfold capnumlist_of. destruct (c_capcount c' <? c_captop c'); [exact K2 | apply zrange_nonneg]. }
  destruct (c_capnames c') as [m|] eqn:En.
  - destruct (c_capnamelist c') as [|s l] eqn:El; [exfalso; apply K3; [discriminate | reflexivity]|].
    assert (G : exists r, merge_names (match capnumlist_of c' with Some l0 => l0 | None => zrange (c_capcount c') end) (s :: l) (aget0 s m) m = Ok r)
      by (apply merge_names_ok; [exact JS | discriminate]).
    destruct G as [[l' m'] G].
    destruct (capnumlist_of c'); cbn [bind]; rewrite G; cbn [bind]; eauto.
  - destruct (capnumlist_of c') as [nl|] eqn:Enl; [|eauto].
    cbn [bind].
    destruct (merge_names_ok nl [] (-1) [] JS ltac:(reflexivity)) as [[l' m'] G]. rewrite G. cbn [bind]. eauto.
Qed.

Lemma set_nth_length {A} (i : nat) (v : A) l l' : set_nth i v l = Some l' -> length l' = length l.
Proof.
  revert l l'. induction i as [|i IH]; intros l l' H; destruct l as [|x r]; cbn [set_nth] in H; try discriminate.
  - inversion H. reflexivity.
  - destruct (set_nth i v r) eqn:E; [|discriminate]. inversion H. cbn. f_equal. eapply IH. exact E.
Qed.

Lemma place_names_ok names (m : nmap) : forall l,
  (forall s, 0 <= aget0 s m < Z.of_nat (length l)) -> exists l', place_names names None m l = Ok l'.
Proof.
  induction names as [|s r IH]; intros l H; cbn [place_names]; [eauto|].
  specialize (H s) as Hs.
  unfold zset_nth. destruct (aget0 s m <? 0) eqn:E; [lia|].
  destruct (set_nth_some l (Z.to_nat (aget0 s m)) s ltac:(lia)) as [l' El]. rewrite El.
  apply IH. intros s0. rewrite (set_nth_length _ _ _ _ El). apply H.
Qed.

Lemma assign_ordered_ok ecma c : cinv true c -> exists t, assign_ordered ecma c = Ok t.
Proof.
  intros [A N M D]. destruct (D eq_refl) as [D1 [D2 [D3 D4]]]. unfold assign_ordered.
  assert (NL : capnumlist_of c = None).
  { unfold capnumlist_of. destruct (c_capcount c <? c_captop c) eqn:E; [lia | reflexivity]. }
  rewrite NL.
  destruct (c_capnames c) as [m|] eqn:En.
  - destruct (place_names_ok (c_capnamelist c) m (repeat [] (Z.to_nat (c_capcount c)))) as [l1 E1].
    { intros s. rewrite repeat_length. unfold aget0. destruct (aget s m) as [v|] eqn:Ea; [|lia].
      assert (H : aget s (names_of c) = Some v) by (unfold names_of; rewrite En; exact Ea).
      specialize (D4 s v H). lia. }
    rewrite E1. cbn [bind]. destruct (fill_ordered ecma (zrange (c_capcount c)) l1 m). eauto.
  - destruct (negb ecma && (c_capcount c =? c_captop c)); [eauto|].
    destruct (place_names_ok (c_capnamelist c) [] (repeat [] (Z.to_nat (c_capcount c)))) as [l1 E1].
    { intros s. rewrite repeat_length. cbn. lia. }
    rewrite E1. cbn [bind]. destruct (fill_ordered ecma (zrange (c_capcount c)) l1 []). eauto.
Qed.

(* ---------------------------------------------------------------- countCaptures *)
Section Pre.
Variable is_word_char : Z -> bool.
Variable to_lower : Z -> Z.
Variable simple_fold : Z -> Z.
Variable participates : Z -> bool.
Variable cat_in : Z -> Z -> bool.
Variable cat_name : list Z -> Z.

Local Notation prescan_named := (prescan_named is_word_char).
Local Notation prescan_pyname := (prescan_pyname is_word_char).
Local Notation prescan_open := (prescan_open is_word_char).
Local Notation prescan_step := (prescan_step is_word_char to_lower simple_fold cat_in cat_name).
Local Notation prescan_loop := (prescan_loop is_word_char to_lower simple_fold cat_in cat_name).
Local Notation count_captures := (count_captures is_word_char to_lower simple_fold cat_in cat_name).
Local Notation scan_backslash_full := (scan_backslash_full is_word_char to_lower simple_fold cat_in cat_name).
Local Notation cs_scan := (cs_scan is_word_char cat_name).

(* one turn of the pre-scan: the tables stay well formed and the cursor moves right *)
Definition step_res (mco : bool) (r : pr (cst * list Z)) (n : nat) : Prop :=
  match r with
  | POk (st', q) => cinv mco (cs_c st') /\ (length q <= n)%nat
  | PE _ _ | PO => True
  | PC _ | PF => False
  end.

Lemma note_name_pr_ok mco o s c : cinv mco c ->
  match note_name_pr mco o s c with POk c' => cinv mco c' | PE _ _ => True | _ => False end.
Proof.
  intros H. unfold note_name_pr. pose proof (note_name_cinv mco (useE o) s c H) as N.
  destruct (note_name mco (useE o) s c); auto.
Qed.

Lemma prescan_named_ok mco st1 p3 : cinv mco (cs_c st1) -> p3 <> [] ->
  step_res mco (prescan_named mco st1 p3) (length p3).
Proof.
  intros Hc Hp. unfold Parser.prescan_named. destruct p3 as [|ch2 p4]; [congruence|].
  destruct (useE (cs_o st1)).
  { destruct ((ch2 =? 61) || (ch2 =? 33) || (ch2 =? 48)); [cbn [step_res pbind cs_c set_cs_ign set_cs_c]; split; [exact Hc | cbn [length] in *; lia] | exact I]. }
  destruct (negb (ch2 =? 48) && is_word_char ch2); [|cbn [step_res pbind cs_c set_cs_ign set_cs_c]; split; [exact Hc | cbn [length] in *; lia]].
  destruct ((49 <=? ch2) && (ch2 <=? 57)).
  - pose proof (decimal_adv (ch2 :: p4)) as D. pose proof (decimal_nonneg (ch2 :: p4)) as NN.
    destruct (decimal (ch2 :: p4)) as [[dec q]|e q| | |]; cbn [pbind padv step_res] in *; try contradiction; try exact I.
    specialize (NN dec q eq_refl).
    destruct mco.
    + pose proof (note_name_pr_ok true (cs_o st1) (itoa dec) (cs_c st1) Hc) as N.
      destruct (note_name_pr true (cs_o st1) (itoa dec) (cs_c st1)); cbn [pbind step_res]; try contradiction; try exact I.
      cbn [step_res pbind cs_c set_cs_ign set_cs_c]. split; [exact N | exact D].
    + cbn [step_res pbind cs_c set_cs_ign set_cs_c]. split; [apply note_slot_cinv_plain; assumption | exact D].
  - pose proof (scan_word_len' is_word_char (ch2 :: p4)) as W.
    destruct (scan_word is_word_char (ch2 :: p4)) as [nm q]. cbn [snd] in W.
    pose proof (note_name_pr_ok mco (cs_o st1) nm (cs_c st1) Hc) as N.
    destruct (note_name_pr mco (cs_o st1) nm (cs_c st1)); cbn [pbind step_res]; try contradiction; try exact I.
    cbn [step_res pbind cs_c set_cs_ign set_cs_c]. split; [exact N | exact W].
Qed.

Lemma prescan_pyname_ok mco st1 p3 : cinv mco (cs_c st1) -> p3 <> [] ->
  step_res mco (prescan_pyname mco st1 p3) (length p3).
Proof.
  intros Hc Hp. unfold Parser.prescan_pyname. destruct p3 as [|ch2 p4]; [congruence|].
  destruct (is_word_char ch2); [|cbn [step_res pbind cs_c set_cs_ign set_cs_c]; split; [exact Hc | cbn [length] in *; lia]].
  destruct (useE (cs_o st1)); [exact I|].
  pose proof (scan_word_len' is_word_char (ch2 :: p4)) as W.
  destruct (scan_word is_word_char (ch2 :: p4)) as [nm q]. cbn [snd] in W.
  pose proof (note_name_pr_ok mco (cs_o st1) nm (cs_c st1) Hc) as N.
  destruct (note_name_pr mco (cs_o st1) nm (cs_c st1)); cbn [pbind step_res]; try contradiction; try exact I.
  cbn [step_res pbind cs_c set_cs_ign set_cs_c]. split; [exact N | exact W].
Qed.

Lemma step_res_weaken mco r n m : step_res mco r n -> (n <= m)%nat -> step_res mco r m.
Proof. destruct r as [[st q]|e q| | |]; cbn; auto. intros [H1 H2] L. split; [exact H1 | cbn [length] in *; lia]. Qed.

Lemma longer_nonempty (p : list Z) n : longer p n = true -> skipn n p <> [].
Proof.
  unfold longer. intros H E. apply Nat.ltb_lt in H. apply (f_equal (@length Z)) in E. rewrite skipn_length in E. cbn in E. lia.
Qed.

Lemma prescan_open_ok mco st ch p1 : cinv mco (cs_c st) -> ch = 40 ->
  step_res mco (prescan_open mco st (ch :: p1) p1) (length p1).
Proof.
  intros Hc Hch. unfold Parser.prescan_open. cbn [cs_c cs_o cs_os cs_ign].
  destruct (starts_qhash p1) eqn:Eq.
  { pose proof (blank_strict (useX (cs_o st)) ch p1) as B.
    unfold scan_blank_full. 
    assert (BS : padv0 (blank (useX (cs_o st)) BNorm (ch :: p1)) (length p1)).
    { apply B. right. right. rewrite Eq. subst ch. reflexivity. }
    destruct (blank (useX (cs_o st)) BNorm (ch :: p1)) as [q|e q| | |]; cbn [ignore_err0 pbind step_res padv0] in *; try contradiction; try exact I;
      (split; [exact Hc | exact BS]). }
  destruct (hd_is p1 63).
  2:{ destruct (negb (useN (cs_o st)) && negb (cs_ign st)); cbn [step_res pbind cs_c set_cs_ign set_cs_c]; (split; [|cbn [length] in *; lia]); [apply note_auto_cinv; exact Hc | exact Hc]. }
  pose proof (tl_len p1) as T1. pose proof (tl_len (tl p1)) as T2.
  destruct (longer (tl p1) 1 && (hd_is (tl p1) 60 || hd_is (tl p1) 39)) eqn:En.
  { eapply step_res_weaken; [apply prescan_named_ok; [exact Hc|] | cbn [length] in *; lia].
    apply andb_prop in En. destruct En as [En _]. apply (longer_nonempty _ 1) in En. exact En. }
  destruct (useRE2 (cs_o st) && longer (tl p1) 2 && hd_is (tl p1) 80 && nth_is 1 (tl p1) 60) eqn:Ep.
  { pose proof (skipn_len 2 (tl p1)) as SK.
    eapply step_res_weaken; [apply prescan_pyname_ok; [exact Hc|] | cbn [length] in *; lia].
    apply andb_prop in Ep. destruct Ep as [Ep _]. apply andb_prop in Ep. destruct Ep as [Ep _]. apply andb_prop in Ep. destruct Ep as [_ Ep].
    apply (longer_nonempty _ 2) in Ep. exact Ep. }
  destruct (scan_options_text (cs_o st) (tl p1)) as [o2 q] eqn:Eo.
  pose proof (scan_options_text_len _ _ _ _ Eo) as Lo. pose proof (tl_len q) as Tq.
  cbn [cs_c cs_os cs_o cs_ign].
  destruct (hd_is q 41); [cbn [step_res pbind cs_c set_cs_ign set_cs_c]; split; [exact Hc | cbn [length] in *; lia]|].
  destruct (hd_is q 40); cbn [step_res pbind cs_c set_cs_ign set_cs_c]; (split; [exact Hc | cbn [length] in *; lia]).
Qed.

Lemma ignore_err_badv (r : pr (bres * list Z)) n so : badv r n so -> padv0 (ignore_err r) n /\ (forall c q, ignore_err r <> PE c q).
Proof.
  destruct r as [[b q]|e q| | |]; cbn; intros H; try contradiction; (split; [|intros; discriminate]); try exact I; try lia.
Qed.

Lemma ignore_err_padv {A} (r : pr (A * list Z)) n : padv r n -> padv0 (ignore_err r) n /\ (forall c q, ignore_err r <> PE c q).
Proof.
  destruct r as [[b q]|e q| | |]; cbn; intros H; try contradiction; (split; [|intros; discriminate]); try exact I; try lia.
Qed.

Lemma prescan_step_ok mco st ch p1 : cinv mco (cs_c st) ->
  step_res mco (prescan_step mco st ch p1) (length p1).
Proof.
  intros Hc. unfold Parser.prescan_step.
  destruct (ch =? 92).
  { destruct p1 as [|c p2]; [cbn [step_res pbind cs_c set_cs_ign set_cs_c]; split; [exact Hc | cbn [length] in *; lia]|].
    pose proof (scan_backslash_full_badv is_word_char to_lower simple_fold participates cat_in cat_name true (captab_pre (cs_c st)) (cs_o st) (c :: p2)) as B.
    apply ignore_err_badv in B. destruct B as [B1 B2].
    destruct (ignore_err (scan_backslash_full true (captab_pre (cs_c st)) (cs_o st) (c :: p2))) as [q|e q| | |];
      cbn [pbind step_res padv0] in *; try contradiction; try exact I. split; [exact Hc | exact B1]. }
  destruct (ch =? 35) eqn:E35.
  { destruct (useX (cs_o st)) eqn:Ex; [|cbn [step_res pbind cs_c set_cs_ign set_cs_c]; split; [exact Hc | cbn [length] in *; lia]].
    unfold scan_blank_full. rewrite Ex.
    assert (BS : padv0 (blank true BNorm (ch :: p1)) (length p1)).
    { apply blank_strict. right. left. rewrite E35. reflexivity. }
    destruct (blank true BNorm (ch :: p1)) as [q|e q| | |]; cbn [ignore_err0 pbind step_res padv0] in *; try contradiction; try exact I;
      (split; [exact Hc | exact BS]). }
  destruct (ch =? 91).
  { pose proof (cs_scan_adv is_word_char to_lower simple_fold participates cat_in cat_name (S (length p1)) true (cs_o st) p1 ltac:(lia)) as C.
    apply ignore_err_padv in C. destruct C as [C1 C2].
    destruct (ignore_err (cs_scan (S (length p1)) true (cs_o st) p1)) as [q|e q| | |];
      cbn [pbind step_res padv0] in *; try contradiction; try exact I. split; [exact Hc | exact C1]. }
  destruct (ch =? 41).
  { destruct (cs_os st); cbn [step_res pbind cs_c set_cs_ign set_cs_c]; (split; [exact Hc | cbn [length] in *; lia]). }
  destruct (ch =? 40) eqn:E40.
  { apply prescan_open_ok; [exact Hc | cbn [length] in *; lia]. }
  cbn [step_res pbind cs_c set_cs_ign set_cs_c]. split; [exact Hc | cbn [length] in *; lia].
Qed.

Lemma prescan_loop_ok mco fuel : forall st p, cinv mco (cs_c st) -> (length p < fuel)%nat ->
  match prescan_loop fuel mco st p with
  | POk st' => cinv mco (cs_c st')
  | PE _ _ | PO => True
  | _ => False
  end.
Proof.
  induction fuel as [|f IH]; intros st p Hc Hf; [lia|].
  cbn [Parser.prescan_loop]. destruct p as [|ch p1]; [exact Hc|].
  pose proof (prescan_step_ok mco st ch p1 Hc) as S.
  destruct (prescan_step mco st ch p1) as [[st' q]|e q| | |]; cbn [pbind step_res] in *; try contradiction; try exact I.
  destruct S as [S1 S2]. apply IH; [exact S1 | cbn [length] in Hf; lia].
Qed.

Lemma count_captures_ok mco o p : psafe (count_captures mco o p).
Proof.
  unfold Parser.count_captures.
  pose proof (prescan_loop_ok mco (S (length p)) (mkCS c_init o [] false) p (cinv_init mco) ltac:(lia)) as L.
  destruct (prescan_loop (S (length p)) mco (mkCS c_init o [] false) p) as [st| | | |]; cbn [pbind psafe]; try contradiction; try exact I.
  destruct mco.
  - destruct (assign_ordered_ok (useE o) (cs_c st) L) as [t E]. rewrite E. exact I.
  - destruct (assign_default_ok (cs_c st) L) as [t E]. rewrite E. exact I.
Qed.

End Pre.

(* compile_correct for the interpreter with its REAL finite stacks: whenever VM.exec_at (any
   backtracking-stack limit L, any interpreter fuel) returns a state, that state is at the final Stop
   and carries exactly the position and captures of the reference semantics' Spec.attempt.
   (compile_correct_top_partial + "every successful real step is a ustep" + "ustep is a function"
   + "raising the limit does not change a successful run".) *)
From Verif Require Import Base.Prelude Model.Tree Model.Spec Model.VM Model.Writer Gen.RunnerGen
  Proofs.SpecBoundsProofs Proofs.VMLimitProofs Proofs.VMLimitSimProofs
  Proofs.VMU Proofs.VMUOps2 Proofs.VMUBridge Proofs.CompileBase Proofs.CompileDefs Proofs.CompileProofs.
From Coq Require Import Relations ZifyBool.

(* from a ustep path to a final Stop state to the state VM.exec_at returns, for any relation [R] between
   the reference captures and the final capture arrays *)
Lemma cc_exec_of_top (e : env) (p : program) (R : caps_t -> list (list Z) -> Prop) :
  0 <= trackcount p ->
  forall L vfuel t0 stop (r : option st) s',
  let M0 := repeat [] (Z.to_nat (capsize p)) in
  (exists t T S C M,
     VMU.usteps e p (VMU.mk 0 0 t0 [] [] [] M0) (VMU.mk stop 0 t T S C M) /\
     VMU.ustep e p (VMU.mk stop 0 t T S C M) = Ok (Done (VMU.mk stop 0 t T S C M)) /\
     match r with
     | Some q => t = pos q /\ R (caps q) M /\ matched0 (VMU.mk stop 0 t T S C M) = true
     | None => M = M0 /\ T = [] /\ S = [] /\ C = [] /\ matched0 (VMU.mk stop 0 t T S C M) = false
     end) ->
  exec_at e p L vfuel t0 = Ok s' ->
  pc s' = stop /\ mode s' = 0 /\
  match r with
  | Some q => tp s' = pos q /\ R (caps q) (mcaps s') /\ matched0 s' = true
  | None => mcaps s' = M0 /\ matched0 s' = false
  end.
Proof.
  intros Htc L vfuel t0 stop r s' M0 (t & T & S & C & M & Hpath' & Hdone' & Hres) Hex.
  assert (HL : lim_le L (-1)) by (left; lia).
  destruct (vml_exec_raise_limit e p L (-1) vfuel t0 s' HL Hex) as (s2 & Hex2 & Heq).
  destruct (exec_at_usteps e p Htc vfuel t0 s2 Hex2) as (sd & Hpath & Hdone).
  fold M0 in Hpath.
  destruct (usteps_done_unique e p _ _ _ _ _ Hpath Hdone Hpath' Hdone') as [_ Hfin].
  unfold eqv in Heq. destruct Heq as (Epc & Emd & Etp & _ & _ & _ & _ & Emc).
  unfold norm, VMU.mk in Hfin. injection Hfin as Fpc Fmd Ftp _ _ _ Fmc.
  assert (Hm0 : matched0 s' = matched0 (VMU.mk stop 0 t T S C M)).
  { unfold matched0. cbn [mcaps VMU.mk]. rewrite Emc, Fmc. reflexivity. }
  split; [congruence|]. split; [congruence|].
  destruct r as [q|].
  - destruct Hres as (Ht & Hc & Hm). split; [congruence|]. split; [|congruence].
    rewrite Emc, Fmc. exact Hc.
  - destruct Hres as (HM & _ & _ & _ & Hm). split; [congruence|congruence].
Qed.

Theorem compile_correct_exec_partial :
  forall (e : env) (p : program), 0 <= trackcount p -> tlen e <= INF ->
  forall L fuel vfuel o body t0 r s',
  let root := NCapture o 0 (-1) body in
  let M0 := repeat [] (Z.to_nat (capsize p)) in
  let stop := 2 + csize cfg0 root in
  codes p = fst (compile cfg0 root) -> strings p = snd (compile cfg0 root) ->
  supported root = true -> groups_ok (capsize p) root -> 0 <= t0 <= tlen e ->
  Z.of_nat fuel <= INF ->
  attempt e fuel root t0 = Ok r ->
  exec_at e p L vfuel t0 = Ok s' ->
  pc s' = stop /\ mode s' = 0 /\
  match r with
  | Some q => tp s' = pos q /\ caps_rel p (caps q) (mcaps s') /\ matched0 s' = true
  | None => mcaps s' = M0 /\ matched0 s' = false
  end.
Proof.
  intros e p Htc Htl L fuel vfuel o body t0 r s' root M0 stop Hcodes Hstr Hs Hg Ht0 Hf Hatt.
  apply cc_exec_of_top; [exact Htc|].
  apply (compile_correct_top_partial e p Htc Htl fuel o body t0 r Hcodes Hstr Hs Hg Ht0 Hf Hatt).
Qed.

Print Assumptions compile_correct_exec_partial.

(* Instance coverage of the compile_correct theorems: DECIDABLE versions of their structural hypotheses
   (root shape, supported / supported2, slot conditions, slot-map conditions, quick-program conditions),
   computed by the model leg 0104 (Extract/Drv01.v) on every real tree of the c01-writer corpus
   (harness leg c01-frag), and their soundness: a program whose flags are true IS inside the theorem. *)
From Verif Require Import Base.Prelude Model.Tree Model.Spec Model.VM Model.Writer
  Proofs.SpecBoundsProofs Proofs.MaskProofs Proofs.EraseProofs Proofs.CompileDefs
  Proofs.CompileBalDefs Proofs.CompileCapmap.
From Verif Require Import Proofs.ListFacts.
From Coq Require Import ZifyBool.

Fixpoint sb_allb (P : node -> bool) (t : node) : bool :=
  P t &&
  match t with
  | NConcat _ l | NAlternate _ l =>
      (fix go (l : list node) : bool := match l with [] => true | x :: l' => sb_allb P x && go l' end) l
  | NLoop _ _ _ _ r | NCapture _ _ _ r | NGroup r | NPosLook _ r | NNegLook _ r | NAtomic r => sb_allb P r
  | NBackRefCond _ _ y no => sb_allb P y && match no with Some n => sb_allb P n | None => true end
  | NExprCond _ c y no => sb_allb P c && sb_allb P y && match no with Some n => sb_allb P n | None => true end
  | _ => true
  end.

Lemma sb_allb_sound (P : node -> bool) (Q : node -> Prop) : (forall t, P t = true -> Q t) ->
  forall t, sb_allb P t = true -> sb_all Q t.
Proof.
  intros HPQ.
  induction t as [kd o ch|kd lk o ch m n|o str|o g|an| | | |o l HF|o l HF|lazy o m n r IHr|o g u r IHr
                 |r IHr|o r IHr|o r IHr|r IHr|o g yes no IHy IHn|o cnd yes no IHc IHy IHn]
    using node_ind'; cbn [sb_allb sb_all]; intros H; apply andb_prop in H; destruct H as [H0 H];
    (split; [apply HPQ; exact H0|]); try exact I; try (apply IHr; exact H).
  - clear H0. induction HF as [|x l Hx HF IH]; [exact I|]. apply andb_prop in H. destruct H as [H1 H2]. split; [apply Hx; exact H1|apply IH; exact H2].
  - clear H0. induction HF as [|x l Hx HF IH]; [exact I|]. apply andb_prop in H. destruct H as [H1 H2]. split; [apply Hx; exact H1|apply IH; exact H2].
  - apply andb_prop in H. destruct H as [H1 H2]. split; [apply IHy; exact H1|].
    destruct no as [x|]; cbn [opt_all] in *; [apply IHn; exact H2|exact I].
  - apply andb_prop in H. destruct H as [H1 H2]. apply andb_prop in H1. destruct H1 as [H1 H3].
    split; [apply IHc; exact H1|]. split; [apply IHy; exact H3|].
    destruct no as [x|]; cbn [opt_all] in *; [apply IHn; exact H2|exact I].
Qed.

Definition in_slots (cs g : Z) : bool := (0 <=? g) && (g <? cs).

Definition grp_ok_node2b (cs : Z) (t : node) : bool :=
  match t with
  | NCapture _ g u _ => if u =? -1 then in_slots cs g else in_slots cs u && ((g =? -1) || in_slots cs g)
  | NRef _ g => in_slots cs g
  | NBackRefCond _ g _ _ => in_slots cs g
  | _ => true
  end.
Definition groups_ok2b (cs : Z) (t : node) : bool := sb_allb (grp_ok_node2b cs) t.

Lemma groups_ok2b_sound cs t : groups_ok2b cs t = true -> groups_ok2 cs t.
Proof.
  apply sb_allb_sound. intros n H. unfold in_slots in *.
  destruct n as [kd o ch|kd lk o ch m n0|o str|o g|an| | | |o l|o l|lazy o m n0 r|o g u r|r|o r|o r|r|o g yes no|o cnd yes no]; cbn [grp_ok_node2b grp_ok_node2] in *; unfold in_slots in *; try exact I; try lia.
  destruct (u =? -1); [lia|]. apply andb_prop in H. destruct H as [H1 H2]. split; [lia|].
  apply orb_prop in H2. destruct H2 as [H2|H2]; [left; lia|right; lia].
Qed.

Definition grp_ok_nodeb (cs : Z) (t : node) : bool :=
  match t with
  | NCapture _ g _ _ => in_slots cs g
  | NRef _ g => in_slots cs g
  | NBackRefCond _ g _ _ => in_slots cs g
  | _ => true
  end.
Definition groups_okb (cs : Z) (t : node) : bool := sb_allb (grp_ok_nodeb cs) t.
Lemma groups_okb_sound cs t : groups_okb cs t = true -> groups_ok cs t.
Proof.
  apply sb_allb_sound. intros n H. unfold in_slots in *. destruct n as [kd o ch|kd lk o ch m n0|o str|o g|an| | | |o l|o l|lazy o m n0 r|o g u r|r|o r|o r|r|o g yes no|o cnd yes no]; cbn [grp_ok_nodeb grp_ok_node] in *; unfold in_slots in *; try exact I; lia.
Qed.

Definition cm_Gb (cm : option (list (Z * Z))) (g : Z) : bool :=
  match cm with None => true | Some m => zmem g (map fst m) end.
Lemma cm_Gb_sound cm g : cm_Gb cm g = true -> cm_G cm g.
Proof. destruct cm as [m|]; cbn [cm_Gb cm_G]; [apply zmem_In|intros _; exact I]. Qed.

Definition ren_ok_nodeb (cm : option (list (Z * Z))) (t : node) : bool :=
  match t with
  | NCapture _ g u _ => if u =? -1 then cm_Gb cm g else cm_Gb cm u && ((g =? -1) || cm_Gb cm g)
  | NRef _ g => cm_Gb cm g
  | NBackRefCond _ g _ _ => cm_Gb cm g
  | _ => true
  end.
Definition ren_okb (cm : option (list (Z * Z))) (t : node) : bool := sb_allb (ren_ok_nodeb cm) t.
Lemma ren_okb_sound cm t : ren_okb cm t = true -> ren_ok (cm_G cm) t.
Proof.
  apply sb_allb_sound. intros n H.
  destruct n as [kd o ch|kd lk o ch m n0|o str|o g|an| | | |o l|o l|lazy o m n0 r|o g u r|r|o r|o r|r|o g yes no|o cnd yes no]; cbn [ren_ok_nodeb ren_ok_node] in *; try exact I; try (apply cm_Gb_sound; exact H).
  destruct (u =? -1); [apply cm_Gb_sound; exact H|]. apply andb_prop in H. destruct H as [H1 H2].
  split; [apply cm_Gb_sound; exact H1|]. apply orb_prop in H2. destruct H2 as [H2|H2]; [left; lia|right; apply cm_Gb_sound; exact H2].
Qed.

Definition root_shape (t : node) : bool :=
  match t with NCapture _ g u _ => (g =? 0) && (u =? -1) | _ => false end.
Lemma root_shape_sound t : root_shape t = true -> exists o body, t = NCapture o 0 (-1) body.
Proof.
  destruct t as [kd o ch|kd lk o ch m n0|o str|o g|an| | | |o l|o l|lazy o m n0 r|o g u r|r|o r|o r|r|o g yes no|o cnd yes no]; cbn [root_shape]; try discriminate. intros H. apply andb_prop in H. destruct H as [H1 H2].
  assert (g = 0) by lia. assert (u = -1) by lia. subst. eexists _, _. reflexivity.
Qed.

Definition has_balancing (t : node) : bool :=
  negb (sb_allb (fun n => match n with NCapture _ _ u _ => u =? -1 | _ => true end) t).

Fixpoint tree_groups (t : node) : list Z :=
  match t with
  | NRef _ g => [g]
  | NConcat _ l | NAlternate _ l => flat_map tree_groups l
  | NLoop _ _ _ _ r | NGroup r | NPosLook _ r | NNegLook _ r | NAtomic r => tree_groups r
  | NCapture _ g u r => g :: u :: tree_groups r
  | NBackRefCond _ g y no => g :: tree_groups y ++ match no with Some n => tree_groups n | None => [] end
  | NExprCond _ c y no => tree_groups c ++ tree_groups y ++ match no with Some n => tree_groups n | None => [] end
  | _ => []
  end.

Lemma reads_in_groups g : forall t, reads g t = true -> In g (tree_groups t).
Proof.
  induction t as [kd o ch|kd lk o ch m n|o str|o g'|an| | | |o l HF|o l HF|lazy o m n r IHr|o g' u r IHr
                 |r IHr|o r IHr|o r IHr|r IHr|o g' yes no IHy IHn|o cnd yes no IHc IHy IHn]
    using node_ind'; cbn [reads tree_groups]; intros H; try discriminate; try (apply IHr; exact H).
  - left. lia.
  - apply existsb_exists in H. destruct H as (x & Hin & Hx). apply in_flat_map. exists x. split; [exact Hin|].
    rewrite Forall_forall in HF. apply HF; assumption.
  - apply existsb_exists in H. destruct H as (x & Hin & Hx). apply in_flat_map. exists x. split; [exact Hin|].
    rewrite Forall_forall in HF. apply HF; assumption.
  - apply orb_prop in H. destruct H as [H|H].
    + apply andb_prop in H. destruct H as [_ H]. right. left. lia.
    + right. right. apply IHr. exact H.
  - apply orb_prop in H. destruct H as [H|H]; [apply orb_prop in H; destruct H as [H|H]|].
    + left. lia.
    + right. apply in_or_app. left. apply IHy. exact H.
    + right. apply in_or_app. right. destruct no as [x|]; cbn [opt_b opt_all] in *; [apply IHn; exact H|discriminate].
  - apply orb_prop in H. destruct H as [H|H]; [apply orb_prop in H; destruct H as [H|H]|].
    + apply in_or_app. left. apply IHc. exact H.
    + apply in_or_app. right. apply in_or_app. left. apply IHy. exact H.
    + apply in_or_app. right. apply in_or_app. right.
      destruct no as [x|]; cbn [opt_b opt_all] in *; [apply IHn; exact H|discriminate].
Qed.

Definition reads_okb (cm : option (list (Z * Z))) (t : node) : bool :=
  forallb (fun g => negb (reads g t) || (0 <=? map_capnum {| capmap := cm; quick := None |} g)) (tree_groups t).
Lemma reads_okb_sound cm t : reads_okb cm t = true ->
  forall g, reads g t = true -> 0 <= map_capnum {| capmap := cm; quick := None |} g.
Proof.
  intros H g Hr. unfold reads_okb in H. rewrite forallb_forall in H.
  specialize (H g (reads_in_groups g t Hr)). rewrite Hr in H. cbn [negb orb] in H. lia.
Qed.

(* ---------- the flags of model leg 0104 ---------- *)
Definition frag_flags (cm : option (list (Z * Z))) (cs : Z) (t : node) : list bool :=
  let c := {| capmap := cm; quick := None |} in
  [ root_shape t;                                  (* 0 *)
    supported t;                                   (* 1 *)
    supported2 t;                                  (* 2 *)
    match cm with None => true | Some _ => false end; (* 3: dense *)
    cm_good cm;                                    (* 4 *)
    map_capnum c 0 =? 0;                           (* 5 *)
    ren_okb cm t;                                  (* 6 *)
    groups_ok2b cs (ren c t);                      (* 7 *)
    reads_okb cm t;                                (* 8 *)
    match write_quick cm cs t with Some _ => true | None => false end; (* 9 *)
    has_balancing t;                               (* 10 *)
    groups_okb cs t ].                             (* 11 *)

(* in the fragment of C01_compile_correct_exec_partial (supported, dense) *)
Definition in_thm1 (cm : option (list (Z * Z))) (cs : Z) (t : node) : bool :=
  root_shape t && supported t && match cm with None => true | Some _ => false end && groups_okb cs t.
(* ... of C01_compile_correct2_exec_partial (supported2, dense) *)
Definition in_thm2 (cm : option (list (Z * Z))) (cs : Z) (t : node) : bool :=
  root_shape t && supported2 t && match cm with None => true | Some _ => false end && groups_ok2b cs t.
(* ... of C01_compile_correct_capmap_exec_partial (any slot map) *)
Definition in_thm3 (cm : option (list (Z * Z))) (cs : Z) (t : node) : bool :=
  let c := {| capmap := cm; quick := None |} in
  root_shape t && supported2 t && cm_good cm && (map_capnum c 0 =? 0) && ren_okb cm t && groups_ok2b cs (ren c t).
(* ... of C01_compile_correct_write_quick_exec_partial (the quick program, when there is one) *)
Definition in_thm4 (cm : option (list (Z * Z))) (cs : Z) (t : node) : bool :=
  in_thm3 cm cs t && reads_okb cm t && match write_quick cm cs t with Some _ => true | None => false end.

Theorem in_thm1_sound cs t : in_thm1 None cs t = true ->
  exists o body, t = NCapture o 0 (-1) body /\ supported t = true /\ groups_ok cs t.
Proof.
  unfold in_thm1. intros H. repeat (apply andb_prop in H; destruct H as [H ?]).
  destruct (root_shape_sound t H) as (o & body & ->). exists o, body.
  split; [reflexivity|]. split; [assumption|apply groups_okb_sound; assumption].
Qed.

Theorem in_thm3_sound cm cs t : in_thm3 cm cs t = true ->
  let c := {| capmap := cm; quick := None |} in
  exists o body, t = NCapture o 0 (-1) body /\ supported2 t = true /\ cm_good cm = true /\ map_capnum c 0 = 0 /\
                 ren_ok (cm_G cm) t /\ groups_ok2 cs (ren c t).
Proof.
  unfold in_thm3. cbv zeta. intros H. repeat (apply andb_prop in H; destruct H as [H ?]).
  destruct (root_shape_sound t H) as (o & body & ->). exists o, body.
  split; [reflexivity|]. split; [assumption|]. split; [assumption|]. split; [lia|].
  split; [apply ren_okb_sound; assumption|apply groups_ok2b_sound; assumption].
Qed.

Theorem in_thm4_sound cm cs t : in_thm4 cm cs t = true ->
  in_thm3 cm cs t = true /\
  (forall g, reads g t = true -> 0 <= map_capnum {| capmap := cm; quick := None |} g) /\
  exists prog, write_quick cm cs t = Some prog.
Proof.
  unfold in_thm4. intros H. apply andb_prop in H. destruct H as [H H3]. apply andb_prop in H. destruct H as [H1 H2].
  split; [exact H1|]. split; [apply reads_okb_sound; exact H2|].
  destruct (write_quick cm cs t) as [q|]; [exists q; reflexivity|discriminate].
Qed.

Print Assumptions in_thm3_sound.

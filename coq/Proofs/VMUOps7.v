(* Per-opcode lemmas for Ref (back-reference), by symbolic evaluation of VM.step; root-slot liftings. *)
From Verif Require Import Base.Prelude Model.Tree Model.Spec Model.VM Model.Writer Gen.RunnerGen
  Proofs.VMU Proofs.VMUOps Proofs.VMUOps2.
From Coq Require Import Relations ZifyBool.

Section Ops7.
Variable e : env.
Variable p : program.
Hypothesis tc_nonneg : 0 <= trackcount p.

Notation ustep := (VMU.ustep e p).
Notation mk := VMU.mk.

Lemma cmp_ref_spec ci : forall n i p0, 0 <= i -> i + Z.of_nat n <= tlen e -> 0 <= p0 -> p0 + Z.of_nat n <= tlen e ->
  cmp_ref e ci n i p0 = Some (ref_match_at e ci n i p0).
Proof.
  induction n as [|n IH]; intros i p0 Hi Hil Hp Hpl; cbn [cmp_ref ref_match_at]; [reflexivity|].
  rewrite !text_at_ok by (clear IH; lia).
  destruct (if ci then lower e (char_at e i) =? lower e (char_at e p0) else char_at e i =? char_at e p0);
    cbn [andb]; [|reflexivity].
  apply IH; lia.
Qed.

Definition ref_cond (o i len t : Z) : bool :=
  if avail e o t <? len then false
  else ref_match_at e (is_ci o) (Z.to_nat len) i (if is_rtl o then t - len else t).

Lemma ustep_ref_set_ok o g i len pc0 t T S C M w2 :
  code_at p pc0 = Some (Ref + bits_of o) -> code_at p (pc0 + 1) = Some g -> code_at p (pc0 + 2) = Some w2 ->
  vm_is_matched g M = Some true -> vm_match_index g M = Some i -> vm_match_length g M = Some len ->
  0 <= i -> 0 <= len -> i + len <= tlen e -> 0 <= t <= tlen e -> ref_cond o i len t = true ->
  ustep (mk pc0 0 t T S C M) = Ok (Next (mk (pc0 + 2) 0 (t + dir o * len) T S C M)).
Proof.
  intros H0 H1 H2 Hm Hix Hln Hi Hl Hil Ht Hc.
  set (w := Ref + bits_of o) in *.
  assert (Hw : Z.land w 63 = Ref) by apply cp_land_bits, ref_range.
  assert (Hr : rtl_of w = is_rtl o) by apply rtl_of_bits, ref_range.
  assert (Hci : ci_of w = is_ci o) by apply ci_of_bits, ref_range.
  clearbody w. unfold ref_cond in Hc.
  start H0. rewrite Hw. cbn -[opnd fwdchars cmp_ref brk advance vm_is_matched vm_match_index vm_match_length Z.to_nat].
  opn (pc0 + 1) H1. cbn [bind]. cbn [mcaps repad VMU.mk]. rewrite Hm, Hix, Hln.
  unfold fwdchars. rewrite Hr, Hci. cbn [tp repad VMU.mk].
  unfold avail, dir in *. destruct (is_rtl o).
  - destruct (t <? len) eqn:E; [discriminate|].
    rewrite cmp_ref_spec by (clear - Ht E Hi Hl Hil; lia). rewrite Hc. adv (pc0 + 2) H2.
    fin; unfold norm, set_pc, set_tp, repad, VMU.mk; cbn [pc mode tp track stack crawl mcaps]; repeat f_equal; lia.
  - destruct (tlen e - t <? len) eqn:E; [discriminate|].
    rewrite cmp_ref_spec by (clear - Ht E Hi Hl Hil; lia). rewrite Hc. adv (pc0 + 2) H2.
    fin; unfold norm, set_pc, set_tp, repad, VMU.mk; cbn [pc mode tp track stack crawl mcaps]; repeat f_equal; lia.
Qed.

Lemma ustep_ref_set_fail o g i len pc0 t np T S C M w3 :
  code_at p pc0 = Some (Ref + bits_of o) -> code_at p (pc0 + 1) = Some g -> code_at p (Z.abs np) = Some w3 ->
  vm_is_matched g M = Some true -> vm_match_index g M = Some i -> vm_match_length g M = Some len ->
  0 <= i -> 0 <= len -> i + len <= tlen e -> 0 <= t <= tlen e -> ref_cond o i len t = false ->
  ustep (mk pc0 0 t (np :: T) S C M) = Ok (Next (bk np t T S C M)).
Proof.
  intros H0 H1 H3 Hm Hix Hln Hi Hl Hil Ht Hc.
  set (w := Ref + bits_of o) in *.
  assert (Hw : Z.land w 63 = Ref) by apply cp_land_bits, ref_range.
  assert (Hr : rtl_of w = is_rtl o) by apply rtl_of_bits, ref_range.
  assert (Hci : ci_of w = is_ci o) by apply ci_of_bits, ref_range.
  clearbody w. unfold ref_cond in Hc.
  start H0. rewrite Hw. cbn -[opnd fwdchars cmp_ref brk advance vm_is_matched vm_match_index vm_match_length Z.to_nat].
  opn (pc0 + 1) H1. cbn [bind]. cbn [mcaps repad VMU.mk]. rewrite Hm, Hix, Hln.
  unfold fwdchars. rewrite Hr, Hci. cbn [tp repad VMU.mk].
  unfold avail in *. destruct (is_rtl o).
  - destruct (t <? len) eqn:E; [fail_to H3; fin|].
    rewrite cmp_ref_spec by (clear - Ht E Hi Hl Hil; lia). rewrite Hc. fail_to H3; fin.
  - destruct (tlen e - t <? len) eqn:E; [fail_to H3; fin|].
    rewrite cmp_ref_spec by (clear - Ht E Hi Hl Hil; lia). rewrite Hc. fail_to H3; fin.
Qed.

Lemma ustep_ref_unset_ecma o g pc0 t T S C M w2 :
  code_at p pc0 = Some (Ref + bits_of o) -> code_at p (pc0 + 1) = Some g -> code_at p (pc0 + 2) = Some w2 ->
  vm_is_matched g M = Some false -> ecma e = true ->
  ustep (mk pc0 0 t T S C M) = Ok (Next (mk (pc0 + 2) 0 t T S C M)).
Proof.
  intros H0 H1 H2 Hm He.
  set (w := Ref + bits_of o) in *.
  assert (Hw : Z.land w 63 = Ref) by apply cp_land_bits, ref_range.
  clearbody w.
  start H0. rewrite Hw. cbn -[opnd fwdchars cmp_ref brk advance vm_is_matched vm_match_index vm_match_length Z.to_nat].
  opn (pc0 + 1) H1. cbn [bind]. cbn [mcaps repad VMU.mk]. rewrite Hm, He. adv (pc0 + 2) H2. fin.
Qed.

Lemma ustep_ref_unset o g pc0 t np T S C M w3 :
  code_at p pc0 = Some (Ref + bits_of o) -> code_at p (pc0 + 1) = Some g -> code_at p (Z.abs np) = Some w3 ->
  vm_is_matched g M = Some false -> ecma e = false ->
  ustep (mk pc0 0 t (np :: T) S C M) = Ok (Next (bk np t T S C M)).
Proof.
  intros H0 H1 H3 Hm He.
  set (w := Ref + bits_of o) in *.
  assert (Hw : Z.land w 63 = Ref) by apply cp_land_bits, ref_range.
  clearbody w.
  start H0. rewrite Hw. cbn -[opnd fwdchars cmp_ref brk advance vm_is_matched vm_match_index vm_match_length Z.to_nat].
  opn (pc0 + 1) H1. cbn [bind]. cbn [mcaps repad VMU.mk]. rewrite Hm, He. fail_to H3; fin.
Qed.

End Ops7.

Section Root7.
Variable e : env.
Variable p : program.
Hypothesis tc_nonneg : 0 <= trackcount p.
Notation rsteps := (VMUOps2.rsteps e p).

Lemma rs_ref_set_ok o g i len pc0 t T S C M w2 :
  code_at p pc0 = Some (Ref + bits_of o) -> code_at p (pc0 + 1) = Some g -> code_at p (pc0 + 2) = Some w2 ->
  vm_is_matched g M = Some true -> vm_match_index g M = Some i -> vm_match_length g M = Some len ->
  0 <= i -> 0 <= len -> i + len <= tlen e -> 0 <= t <= tlen e -> ref_cond e o i len t = true ->
  rsteps (mkr pc0 0 t T S C M) (mkr (pc0 + 2) 0 (t + dir o * len) T S C M).
Proof. lift ustep_ref_set_ok. Qed.

Lemma rs_ref_set_fail o g i len pc0 t np T S C M w3 :
  code_at p pc0 = Some (Ref + bits_of o) -> code_at p (pc0 + 1) = Some g -> code_at p (Z.abs np) = Some w3 ->
  vm_is_matched g M = Some true -> vm_match_index g M = Some i -> vm_match_length g M = Some len ->
  0 <= i -> 0 <= len -> i + len <= tlen e -> 0 <= t <= tlen e -> ref_cond e o i len t = false ->
  rsteps (mkr pc0 0 t (np :: T) S C M) (bkr np t T S C M).
Proof. lift ustep_ref_set_fail. Qed.

Lemma rs_ref_unset_ecma o g pc0 t T S C M w2 :
  code_at p pc0 = Some (Ref + bits_of o) -> code_at p (pc0 + 1) = Some g -> code_at p (pc0 + 2) = Some w2 ->
  vm_is_matched g M = Some false -> ecma e = true ->
  rsteps (mkr pc0 0 t T S C M) (mkr (pc0 + 2) 0 t T S C M).
Proof. lift ustep_ref_unset_ecma. Qed.

Lemma rs_ref_unset o g pc0 t np T S C M w3 :
  code_at p pc0 = Some (Ref + bits_of o) -> code_at p (pc0 + 1) = Some g -> code_at p (Z.abs np) = Some w3 ->
  vm_is_matched g M = Some false -> ecma e = false ->
  rsteps (mkr pc0 0 t (np :: T) S C M) (bkr np t T S C M).
Proof. lift ustep_ref_unset. Qed.

End Root7.

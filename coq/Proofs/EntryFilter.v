(* C02 — the raw-string prefilter is sound and transparent, filter by filter.

   Vocabulary.  b : byte string, r = runes_of b its rune view, rune positions q are nat,
   boundary b q (Utf8Proofs) the byte offset of rune q.
   [enf_fact f r q]  : the compile-time fact the filter f was built from holds at rune position q
                       (what a successful attempt at q implies: C04's predicates).
   [enf_ok f]        : what the constructor guarantees about the needle data (no U+FFFD, ASCII
                       where required, non-negative distance ...).
   [enf_spec f]      : from a start on a rune boundary the filter always answers; if it answers
                       "no candidate" no position at or after the start satisfies the fact; if it
                       answers candidate c, c is the byte offset of a rune at or after the start and
                       every such position lies at or after byte c.
   Every closure is one or more searches for the FIRST occurrence of something ([enf_first]) that
   the fact places at a fixed distance of each fact position and that can only start on a rune
   boundary: [enf_post_first] for the closures that search once, [enf_fd_step] for one turn of the
   fixed-distance loops. *)
From Verif Require Import Base.Prelude Base.Utf8 Model.Offsets Model.Entry Proofs.Utf8Proofs Proofs.EntryBase.
From Verif Require Import Proofs.ListFacts.
From Coq Require Import ZifyBool.
Ltac Zify.zify_post_hook ::= Z.div_mod_to_equations.

(* MinRequiredLength: at least minreq runes from q to the end *)
Definition enf_min_fact (minreq : Z) (r : list Z) (q : nat) : Prop :=
  minreq <= Z.of_nat (length r) - Z.of_nat q.

(* a literal (byte string): the UTF-8 encoding of the text from q on starts with it (C04_find_prefix_sound) *)
Definition enf_lit_fact (P : list Z) (r : list Z) (q : nat) : Prop :=
  exists rest, encode_string (skipn q r) = P ++ rest.

(* an ordinal-ignore-case ASCII literal: the runes from q on equal it up to ASCII case *)
Definition enf_ci_fact (P : list Z) (r : list Z) (q : nat) : Prop :=
  en_equal_fold_prefix (skipn q r) P = true.

Definition enf_str_fact (ci : bool) (P r : list Z) (q : nat) : Prop :=
  if ci then enf_ci_fact P r q else enf_lit_fact P r q.

Definition enf_scanner_member (sc : en_scanner) (c : Z) : Prop :=
  if sc_use_range sc then sc_first sc <= c <= sc_last sc else In c (sc_chars sc).

(* the literal after the leading loop stands at rune position j *)
Definition enf_lal_at (l : en_lal) (r : list Z) (j : nat) : Prop :=
  match la_string l with
  | _ :: _ => enf_str_fact (la_string_ci l) (la_string l) r j
  | [] =>
    match la_chars l with
    | _ :: _ => exists c, nth_error r j = Some c /\ In c (la_chars l)
    | [] => nth_error r j = Some (la_char l)
    end
  end.

Definition enf_fact (f : en_filter) (r : list Z) (q : nat) : Prop :=
  match f with
  | FPrefix P ci m => enf_min_fact m r q /\ enf_str_fact ci P r q
  | FPrefixes Ps ci m => enf_min_fact m r q /\ exists P, In P Ps /\ enf_str_fact ci P r q
  | FAsciiSet Ps m => enf_min_fact m r q /\ exists P, In P Ps /\ enf_lit_fact P r q
  | FSet sc m => enf_min_fact m r q /\
                 exists c, nth_error r (q + Z.to_nat (sc_distance sc)) = Some c /\ enf_scanner_member sc c
  | FChar ch d m => enf_min_fact m r q /\ nth_error r (q + Z.to_nat d) = Some ch
  | FString lit d m => enf_min_fact m r q /\ enf_lit_fact lit r (q + Z.to_nat d)
  | FLitLoop l m => enf_min_fact m r q /\ exists j, (q <= j)%nat /\ enf_lal_at l r j
  end.

(* ---------- what the constructor guarantees ---------- *)

Definition enf_ascii (P : list Z) : Prop := Forall (fun x => 0 <= x < 128) P.

Definition enf_str_ok (ci : bool) (P : list Z) : Prop :=
  if ci then enf_ascii P else enb_no_fffd P.

Definition enf_ok (f : en_filter) : Prop :=
  match f with
  | FPrefix P ci _ => enf_str_ok ci P
  | FPrefixes Ps ci _ => Forall (enf_str_ok ci) Ps
  | FAsciiSet Ps _ => Forall (fun P => enf_ascii P /\ P <> []) Ps
  | FSet sc _ => 0 <= sc_distance sc /\
                 (if sc_use_range sc then 0 <= sc_first sc /\ sc_last sc <= 127
                  else enf_ascii (sc_chars sc) /\ sc_chars sc <> [])
  | FChar ch d _ => 0 <= d /\ ch <> rune_error
  | FString lit d _ => 0 <= d /\ enb_no_fffd lit /\ lit <> []
  | FLitLoop l _ => enf_str_ok (la_string_ci l) (la_string l)
  end.

(* What a call from the byte offset of rune k0 must answer, F being the fact on rune positions.  The
   loops search from a byte position [sa] on and speak only of the fact positions q whose needle, at
   byte [pos q], has not been passed. *)
Definition enf_post_from (b : list Z) (k0 : nat) (F : nat -> Prop) (pos : nat -> nat) (sa : nat)
    (res : res (Z * bool)) : Prop :=
  exists c ok, res = Ok (c, ok) /\
    (ok = false -> forall q, (k0 <= q <= length (decode b))%nat -> (sa <= pos q)%nat -> ~ F q) /\
    (ok = true -> enb_at_boundary b k0 c /\
                  forall q, (k0 <= q <= length (decode b))%nat -> (sa <= pos q)%nat -> F q ->
                    c <= Z.of_nat (boundary b q)).

Definition enf_post (b : list Z) (k0 : nat) (F : nat -> Prop) (res : res (Z * bool)) : Prop :=
  enf_post_from b k0 F (fun _ => 0%nat) 0 res.

Definition enf_spec (f : en_filter) : Prop :=
  forall (b : list Z) (k0 : nat), (k0 <= length (decode b))%nat ->
    enf_post b k0 (enf_fact f (runes_of b)) (en_run_filter f b (Z.of_nat (boundary b k0))).

Lemma enf_post_none b k0 (F : nat -> Prop) pos sa :
  (forall q, (k0 <= q <= length (decode b))%nat -> (sa <= pos q)%nat -> ~ F q) ->
  enf_post_from b k0 F pos sa en_none.
Proof. intros H. exists 0, false. split; [reflexivity|]. split; [intros _; exact H|discriminate]. Qed.

Lemma enf_post_some b k0 (F : nat -> Prop) pos sa k' :
  (k0 <= k' <= length (decode b))%nat ->
  (forall q, (k0 <= q <= length (decode b))%nat -> (sa <= pos q)%nat -> F q -> (boundary b k' <= boundary b q)%nat) ->
  enf_post_from b k0 F pos sa (Ok (Z.of_nat (boundary b k'), true)).
Proof.
  intros Hk H. exists (Z.of_nat (boundary b k')), true. split; [reflexivity|]. split; [discriminate|].
  intros _. split; [exists k'; split; [exact Hk|reflexivity]|].
  intros q H1 H2 H3. specialize (H q H1 H2 H3). lia.
Qed.

(* fact positions whose needle lies before sa' are excluded already *)
Lemma enf_post_skip b k0 (F : nat -> Prop) pos sa sa' res :
  (forall q, (k0 <= q <= length (decode b))%nat -> (sa <= pos q)%nat -> F q -> (sa' <= pos q)%nat) ->
  enf_post_from b k0 F pos sa' res -> enf_post_from b k0 F pos sa res.
Proof.
  intros H (c & ok & Hr & HB & HC). exists c, ok. split; [exact Hr|]. split.
  - intros Hk q H1 H2 H3. exact (HB Hk q H1 (H q H1 H2 H3) H3).
  - intros Hk. split; [exact (proj1 (HC Hk))|]. intros q H1 H2 H3. exact (proj2 (HC Hk) q H1 (H q H1 H2 H3) H3).
Qed.

Lemma enf_post_start b k0 (F : nat -> Prop) pos res :
  (forall q, (k0 <= q)%nat -> (boundary b k0 <= pos q)%nat) ->
  enf_post_from b k0 F pos (boundary b k0) res -> enf_post b k0 F res.
Proof.
  intros H (c & ok & Hr & HB & HC). exists c, ok. split; [exact Hr|]. split.
  - intros Hk q H1 _. exact (HB Hk q H1 (H q (proj1 H1))).
  - intros Hk. split; [exact (proj1 (HC Hk))|]. intros q H1 _. exact (proj2 (HC Hk) q H1 (H q (proj1 H1))).
Qed.

Lemma enf_min_bytes b k q m :
  (k <= q <= length (decode b))%nat -> enf_min_fact m (runes_of b) q ->
  en_has_min_bytes b (Z.of_nat (boundary b k)) m = true.
Proof.
  intros Hq Hm. unfold enf_min_fact in Hm. rewrite enb_runes_length in Hm.
  unfold en_has_min_bytes, zlen.
  pose proof (boundary_le b k) as H1. pose proof (enb_boundary_mono b k q ltac:(lia)) as H2.
  pose proof (enb_bytes_ge_runes b q ltac:(lia)) as H3. pose proof (boundary_le b q) as H4.
  replace ((Z.of_nat (boundary b k) <? 0) || (Z.of_nat (length b) <? Z.of_nat (boundary b k))) with false by lia.
  lia.
Qed.

(* when the test fails nothing at or after the start has enough input left *)
Lemma enf_min_bytes_false b k m :
  en_has_min_bytes b (Z.of_nat (boundary b k)) m = false ->
  forall q, (k <= q <= length (decode b))%nat -> ~ enf_min_fact m (runes_of b) q.
Proof.
  intros H q Hq Hm. rewrite (enf_min_bytes b k q m Hq Hm) in H. discriminate H.
Qed.

(* hasMinRequiredBytes in front of every closure *)
Lemma enf_post_guard b k0 (F : nat -> Prop) m res :
  (forall q, F q -> enf_min_fact m (runes_of b) q) ->
  enf_post b k0 F res ->
  enf_post b k0 F (if negb (en_has_min_bytes b (Z.of_nat (boundary b k0)) m) then en_none else res).
Proof.
  intros HM H. destruct (en_has_min_bytes b (Z.of_nat (boundary b k0)) m) eqn:Em; [exact H|].
  apply enf_post_none. intros q Hq _ HF. exact (enf_min_bytes_false b k0 m Em q Hq (HM q HF)).
Qed.

Lemma enf_skipn_boundary b k q : (k <= q)%nat ->
  skipn (boundary b q - boundary b k) (skipn (boundary b k) b) = skipn (boundary b q) b.
Proof.
  intros H. rewrite skipn_skipn. f_equal. pose proof (enb_boundary_mono b k q H). lia.
Qed.

(* ---------- literals: the fact gives an occurrence at the byte offset of q ---------- *)

Lemma enf_skipn_valid s q : Forall (fun x => valid_rune x = true) (skipn q (runes_of s)).
Proof.
  pose proof (enb_runes_valid s) as H. rewrite Forall_forall in *. intros x Hin. apply H.
  rewrite <- (firstn_skipn q (runes_of s)). apply in_or_app. right. exact Hin.
Qed.

Lemma enf_lit_bytes b q P :
  enb_no_fffd P -> enf_lit_fact P (runes_of b) q -> en_has_prefix (skipn (boundary b q) b) P = true.
Proof.
  intros HP [rest H]. destruct (enb_no_fffd_good P HP) as [HPe Hgood].
  rewrite HPe in H. rewrite HPe.
  apply enb_bytes_of_rune_prefix; [exact Hgood|].
  eapply enb_runes_of_encoded_prefix; [exact Hgood|apply enf_skipn_valid|exact H].
Qed.

Lemma enf_lit_occ b k q P :
  (k <= q)%nat -> enb_no_fffd P -> enf_lit_fact P (runes_of b) q ->
  enb_occ (skipn (boundary b k) b) P (boundary b q - boundary b k).
Proof.
  intros Hk HP HF. unfold enb_occ. rewrite enf_skipn_boundary by exact Hk. apply enf_lit_bytes; assumption.
Qed.

(* what a search function must satisfy: a total "first occurrence" search for a position predicate *)
Definition enf_first (occ : nat -> Prop) (j : Z) : Prop :=
  (j = -1 /\ forall k, ~ occ k) \/
  (exists k, j = Z.of_nat k /\ occ k /\ forall k', (k' < k)%nat -> ~ occ k').

Lemma enf_index_first s sub : enf_first (enb_occ s sub) (en_index s sub).
Proof.
  destruct (enb_index_spec s sub) as [H|[k [H1 [_ [H2 H3]]]]]; [left; exact H|right; exists k; auto].
Qed.

Lemma enf_first_range occ j : enf_first occ j -> -1 <= j.
Proof. intros [[-> _]|[k [-> _]]]; lia. Qed.

Lemma enf_first_le occ j k : enf_first occ j -> occ k -> 0 <= j <= Z.of_nat k.
Proof.
  intros [[_ H]|[k0 [-> [_ H]]]] Hk; [exfalso; exact (H k Hk)|].
  destruct (Nat.le_gt_cases k0 k) as [|G]; [lia|]. exfalso. exact (H k G Hk).
Qed.

Lemma enf_first_ext (occ occ' : nat -> Prop) j : (forall k, occ k <-> occ' k) -> enf_first occ j -> enf_first occ' j.
Proof.
  intros E [[-> H]|[k [-> [H1 H2]]]].
  - left. split; [reflexivity|]. intros k Hk. apply (H k). apply E. exact Hk.
  - right. exists k. split; [reflexivity|]. split; [apply E; exact H1|].
    intros k' Hk' Ho. apply (H2 k' Hk'). apply E. exact Ho.
Qed.

(* the earlier of two first occurrences: the update of indexAnyPrefixFallback (best, offset) *)
Definition enf_combine (j1 j2 : Z) : Z := if (0 <=? j2) && ((j1 <? 0) || (j2 <? j1)) then j2 else j1.

Lemma enf_first_combine (occ1 occ2 : nat -> Prop) j1 j2 :
  enf_first occ1 j1 -> enf_first occ2 j2 -> enf_first (fun k => occ1 k \/ occ2 k) (enf_combine j1 j2).
Proof.
  unfold enf_combine.
  intros [[-> N1]|[k1 [-> [O1 F1]]]] [[-> N2]|[k2 [-> [O2 F2]]]].
  - left. split; [reflexivity|]. intros k [H|H]; [exact (N1 k H)|exact (N2 k H)].
  - right. exists k2. replace ((0 <=? Z.of_nat k2) && ((-1 <? 0) || (Z.of_nat k2 <? -1))) with true by lia.
    split; [reflexivity|]. split; [right; exact O2|]. intros k' Hk' [H|H]; [exact (N1 k' H)|exact (F2 k' Hk' H)].
  - right. exists k1. replace ((0 <=? -1) && ((Z.of_nat k1 <? 0) || (-1 <? Z.of_nat k1))) with false by lia.
    split; [reflexivity|]. split; [left; exact O1|]. intros k' Hk' [H|H]; [exact (F1 k' Hk' H)|exact (N2 k' H)].
  - destruct (Z.of_nat k2 <? Z.of_nat k1) eqn:E.
    + replace ((0 <=? Z.of_nat k2) && ((Z.of_nat k1 <? 0) || true)) with true by lia.
      right. exists k2. split; [reflexivity|]. split; [right; exact O2|].
      intros k' Hk' [H|H]; [apply (F1 k'); [lia|exact H]|exact (F2 k' Hk' H)].
    + replace ((0 <=? Z.of_nat k2) && ((Z.of_nat k1 <? 0) || false)) with false by lia.
      right. exists k1. split; [reflexivity|]. split; [left; exact O1|].
      intros k' Hk' [H|H]; [exact (F1 k' Hk' H)|apply (F2 k'); [lia|exact H]].
Qed.

(* ---------- IndexByte, indexASCIIByteIgnoreCase ---------- *)

Definition enf_byte_occ (f : Z -> bool) (s : list Z) (k : nat) : Prop := (k < length s)%nat /\ f (nth k s 0) = true.

Lemma enf_find_first_first f s : enf_first (enf_byte_occ f s) (enb_find_first f s 0).
Proof.
  destruct (enb_find_first_spec f s 0 ltac:(lia)) as [[H1 H2]|[k [H1 [H2 [H3 H4]]]]].
  - left. split; [exact H1|]. intros k [Hk Hf]. rewrite (H2 k Hk) in Hf. discriminate Hf.
  - right. exists k. split; [lia|]. split; [split; assumption|].
    intros k' Hk' [_ Hf]. rewrite (H4 k' Hk') in Hf. discriminate Hf.
Qed.

Lemma enf_index_byte_first s c : enf_first (enf_byte_occ (fun b => b =? c) s) (en_index_byte s c).
Proof. unfold en_index_byte. rewrite enb_index_byte_from_find. apply enf_find_first_first. Qed.

Lemma enf_fold_cases x y : en_fold_ascii y = en_fold_ascii x ->
  y = en_fold_ascii x \/ ((97 <= en_fold_ascii x <= 122) /\ y = en_fold_ascii x - 32).
Proof. unfold en_fold_ascii. intros H. repeat break_if; lia. Qed.

Lemma enf_fold_not_upper x : ~ (65 <= en_fold_ascii x <= 90).
Proof. unfold en_fold_ascii. break_if; lia. Qed.

Lemma enf_index_ascii_byte_ci_first t ch :
  enf_first (enf_byte_occ (fun x => en_fold_ascii x =? en_fold_ascii ch) t) (en_index_ascii_byte_ci t ch).
Proof.
  unfold en_index_ascii_byte_ci. set (c := en_fold_ascii ch).
  pose proof (enf_fold_not_upper ch) as NU. fold c in NU.
  pose proof (enf_index_byte_first t c) as L.
  destruct ((c <? 97) || (122 <? c)) eqn:E.
  - eapply enf_first_ext; [|exact L]. intros k. unfold enf_byte_occ. split; intros [Hk H]; (split; [exact Hk|]).
    + assert (nth k t 0 = c) by lia. unfold en_fold_ascii. break_if; lia.
    + assert (Hf : en_fold_ascii (nth k t 0) = c) by lia. unfold en_fold_ascii in Hf. break_if; lia.
  - pose proof (enf_index_byte_first t (c - 32)) as U.
    pose proof (enf_first_combine _ _ _ _ L U) as C. unfold enf_combine in C.
    pose proof (enf_first_range _ _ L) as RL. pose proof (enf_first_range _ _ U) as RU.
    match goal with |- enf_first _ ?j => replace j with
      (if (0 <=? en_index_byte t (c - 32)) && ((en_index_byte t c <? 0) || (en_index_byte t (c - 32) <? en_index_byte t c))
       then en_index_byte t (c - 32) else en_index_byte t c) end.
    + eapply enf_first_ext; [|exact C]. intros k. unfold enf_byte_occ. split.
      * intros [[Hk H]|[Hk H]]; (split; [exact Hk|]); unfold en_fold_ascii; break_if; lia.
      * intros [Hk H]. assert (Hf : en_fold_ascii (nth k t 0) = c) by lia.
        unfold en_fold_ascii in Hf. break_if; [right|left]; (split; [exact Hk|lia]).
    + repeat break_if; lia.
Qed.

(* ---------- IndexStringIgnoreCaseASCII ---------- *)

Definition enf_ci_occ (s P : list Z) (k : nat) : Prop := en_equal_fold_prefix (skipn k s) P = true.

Lemma enf_equal_fold_length s P : en_equal_fold_prefix s P = true -> (length P <= length s)%nat.
Proof.
  revert s. induction P as [|p P IH]; intros s H; [cbn; lia|].
  destruct s as [|y s]; [discriminate H|]. cbn [en_equal_fold_prefix] in H.
  apply andb_true_iff in H. destruct H as [_ H]. specialize (IH s H). cbn [length]. lia.
Qed.

Lemma enf_ci_occ_first_byte s p P' k :
  enf_ci_occ s (p :: P') k ->
  (k + length (p :: P') <= length s)%nat /\ en_fold_ascii (nth k s 0) = en_fold_ascii p.
Proof.
  unfold enf_ci_occ. intros H. pose proof (enf_equal_fold_length _ _ H) as L. rewrite skipn_length in L.
  destruct (skipn k s) as [|y s'] eqn:E; [discriminate H|].
  cbn [en_equal_fold_prefix] in H. apply andb_true_iff in H. destruct H as [H _].
  assert (Hy : nth k s 0 = y).
  { pose proof (nth_skipn s 0 k 0%nat) as N. rewrite E, Nat.add_0_r in N. cbn [nth] in N. congruence. }
  cbn [length] in *. split; [lia|]. rewrite Hy. lia.
Qed.

Lemma enf_index_ci_loop_spec p P' : forall fuel s st,
  (st <= length s)%nat -> (length s + 1 <= fuel + st)%nat ->
  (forall k', (k' < st)%nat -> ~ enf_ci_occ s (p :: P') k') ->
  exists j, en_index_ci_loop fuel s (p :: P') (Z.of_nat st) = Ok j /\ enf_first (enf_ci_occ s (p :: P')) j.
Proof.
  induction fuel as [|f IH]; intros s st Hst Hfuel Hinv; [lia|].
  cbn [en_index_ci_loop]. set (P := p :: P') in *.
  assert (HlenP : zlen P = 1 + zlen P') by (unfold zlen, P; cbn [length]; lia).
  pose proof (zlen_nonneg P') as HP'.
  assert (HlP : (1 <= length P)%nat) by (unfold P; cbn [length]; lia).
  destruct (Z.of_nat st <=? zlen s - zlen P) eqn:E.
  - rewrite enb_from_nat. replace (en_at P 0) with p by reflexivity.
    pose proof (enf_index_ascii_byte_ci_first (skipn st s) p) as F.
    set (offset := en_index_ascii_byte_ci (skipn st s) p) in *.
    assert (Hocc : forall k, (st <= k)%nat -> enf_ci_occ s P k ->
                     enf_byte_occ (fun x => en_fold_ascii x =? en_fold_ascii p) (skipn st s) (k - st) /\
                     Z.of_nat k <= zlen s - zlen P).
    { intros k Hk Ho. destruct (enf_ci_occ_first_byte s p P' k Ho) as [H1 H2]. fold P in H1.
      unfold enf_byte_occ. rewrite skipn_length, nth_skipn. replace (st + (k - st))%nat with k by lia.
      unfold zlen. split; [split; lia|lia]. }
    destruct ((offset <? 0) || (zlen s - zlen P <? Z.of_nat st + offset)) eqn:E2.
    + exists (-1). split; [reflexivity|]. left. split; [reflexivity|]. intros k Ho.
      destruct (Nat.lt_ge_cases k st) as [L|G]; [exact (Hinv k L Ho)|].
      destruct (Hocc k G Ho) as [H1 H2].
      pose proof (enf_first_le _ _ _ F H1). lia.
    + destruct F as [[F1 _]|[o [F1 [F2 F3]]]]; [lia|].
      rewrite F1. replace (Z.of_nat st + Z.of_nat o) with (Z.of_nat (st + o)) by lia. rewrite enb_from_nat.
      assert (Hbefore : forall k', (k' < st + o)%nat -> ~ enf_ci_occ s P k').
      { intros k' Hk' Ho. destruct (Nat.lt_ge_cases k' st) as [L|G]; [exact (Hinv k' L Ho)|].
        destruct (Hocc k' G Ho) as [H1 _]. apply (F3 (k' - st)%nat); [lia|exact H1]. }
      destruct (en_equal_fold_prefix (skipn (st + o) s) P) eqn:E3.
      * exists (Z.of_nat (st + o)). split; [reflexivity|]. right. exists (st + o)%nat.
        split; [reflexivity|]. split; [exact E3|exact Hbefore].
      * replace (Z.of_nat (st + o) + 1) with (Z.of_nat (S (st + o))) by lia.
        apply IH.
        -- unfold zlen in *. lia.
        -- lia.
        -- intros k' Hk'. destruct (Nat.eq_dec k' (st + o)) as [->|]; [|apply Hbefore; lia].
           unfold enf_ci_occ. rewrite E3. discriminate.
  - exists (-1). split; [reflexivity|]. left. split; [reflexivity|]. intros k Ho.
    destruct (Nat.lt_ge_cases k st) as [L|G]; [exact (Hinv k L Ho)|].
    destruct (enf_ci_occ_first_byte s p P' k Ho) as [H1 _]. fold P in H1. unfold zlen in *. lia.
Qed.

Lemma enf_index_ci_first s P : exists j, en_index_ci s P = Ok j /\ enf_first (enf_ci_occ s P) j.
Proof.
  destruct P as [|p P'].
  - exists 0. split; [reflexivity|]. right. exists 0%nat. split; [reflexivity|]. split; [|intros; lia].
    unfold enf_ci_occ. cbn [skipn]. destruct s; reflexivity.
  - unfold en_index_ci. apply (enf_index_ci_loop_spec p P' (S (length s)) s 0); [lia|lia|intros; lia].
Qed.

(* strings.Index or IndexStringIgnoreCaseASCII, as the filter selects *)
Definition enf_str_occ (ci : bool) (s P : list Z) (k : nat) : Prop :=
  if ci then enf_ci_occ s P k else enb_occ s P k.

Lemma enf_index_maybe_ci_first ci s P :
  exists j, en_index_maybe_ci ci s P = Ok j /\ enf_first (enf_str_occ ci s P) j.
Proof.
  unfold en_index_maybe_ci, enf_str_occ. destruct ci.
  - apply enf_index_ci_first.
  - exists (en_index s P). split; [reflexivity|apply enf_index_first].
Qed.

(* the ignore-case fact gives a byte-level ignore-case occurrence *)
Lemma enf_ci_bytes b : forall P q,
  enf_ascii P -> enf_ci_fact P (runes_of b) q -> en_equal_fold_prefix (skipn (boundary b q) b) P = true.
Proof.
  induction P as [|p P IH]; intros q HA HF.
  - destruct (skipn (boundary b q) b); reflexivity.
  - unfold enf_ascii in HA. apply Forall_cons_iff in HA. destruct HA as [Hp HA].
    unfold enf_ci_fact in HF.
    destruct (skipn q (runes_of b)) as [|x rs] eqn:Er; [discriminate HF|].
    cbn [en_equal_fold_prefix] in HF. apply andb_true_iff in HF. destruct HF as [Hx Hrs].
    assert (Hn : nth_error (runes_of b) q = Some x).
    { destruct (nth_error (runes_of b) q) as [y|] eqn:En.
      - rewrite (skipn_cons_nth_error _ _ _ En) in Er. congruence.
      - apply nth_error_None in En. rewrite skipn_all2 in Er by lia. discriminate Er. }
    apply enb_rune_nth in Hn. destruct Hn as [w Hn].
    pose proof (enb_decoded_valid b q x w Hn) as Hv.
    assert (Hx127 : 0 <= x <= 127).
    { unfold valid_rune in Hv. unfold en_fold_ascii in Hx. repeat break_if; lia. }
    assert (Hne : x <> rune_error) by (unfold rune_error; lia).
    destruct (enb_rune_bytes b q x w Hn Hne) as (_ & _ & Hb).
    rewrite Hb. replace (encode x) with [x] by (unfold encode; repeat break_if; try lia; reflexivity).
    cbn [app en_equal_fold_prefix]. rewrite Hx. cbn [andb].
    apply IH; [exact HA|]. unfold enf_ci_fact.
    replace (skipn (S q) (runes_of b)) with rs; [exact Hrs|].
    replace (S q) with (q + 1)%nat by lia. rewrite skipn_add, Er. reflexivity.
Qed.

Lemma enf_str_occ_of_fact ci b k q P :
  (k <= q)%nat -> enf_str_ok ci P -> enf_str_fact ci P (runes_of b) q ->
  enf_str_occ ci (skipn (boundary b k) b) P (boundary b q - boundary b k).
Proof.
  intros Hk Hok HF. unfold enf_str_occ, enf_str_ok, enf_str_fact in *. destruct ci.
  - unfold enf_ci_occ. rewrite enf_skipn_boundary by exact Hk. apply enf_ci_bytes; assumption.
  - apply enf_lit_occ; assumption.
Qed.

(* ---------- bytes that are not continuation bytes start a rune ---------- *)

Lemma enf_decode_rune_cont b0 t i :
  (1 <= i < snd (decode_rune (b0 :: t)))%nat -> is_cont (nth i (b0 :: t) 0) = true.
Proof.
  unfold decode_rune, invalid1.
  destruct t as [|b1 [|b2 [|b3 t]]]; repeat break_if; cbn [snd]; intros Hi; try lia;
    repeat match goal with H : _ && _ = true |- _ => apply andb_true_iff in H; destruct H end;
    destruct i as [|[|[|[|i]]]]; try lia; cbn [nth]; assumption.
Qed.

Lemma enf_noncont_boundary : forall t i,
  (i < length t)%nat -> is_cont (nth i t 0) = false ->
  exists k, (k < length (decode t))%nat /\ i = boundary t k.
Proof.
  induction t as [|b t IH] using decode_ind; intros i Hi Hc; [cbn in Hi; lia|].
  set (w := snd (decode_rune (b :: t))) in *.
  pose proof (decode_rune_width b t) as [Hw Hl]. fold w in Hw, Hl.
  rewrite decode_unfold. fold w. cbn [length].
  destruct (Nat.eq_dec i 0) as [->|Hi0].
  - exists 0%nat. rewrite boundary_0. split; lia.
  - destruct (Nat.lt_ge_cases i w) as [L|G].
    + rewrite (enf_decode_rune_cont b t i) in Hc by (fold w; lia). discriminate Hc.
    + destruct (IH (i - w)%nat) as [k [Hk Hb]].
      * rewrite skipn_length. lia.
      * rewrite nth_skipn. replace (w + (i - w))%nat with i by lia. exact Hc.
      * exists (S k). rewrite boundary_S. fold w. split; lia.
Qed.

Lemma enf_decode_nth t k : (k < length (decode t))%nat ->
  nth_error (decode t) k = Some (decode_rune (skipn (boundary t k) t)).
Proof.
  intros Hk. destruct (nth_error (decode t) k) as [[c w]|] eqn:E.
  - destruct (enb_boundary_step t k c w E) as (_ & _ & Hr & _). rewrite Hr. reflexivity.
  - apply nth_error_None in E. lia.
Qed.

(* an ASCII byte is a rune of its own *)
Lemma enf_ascii_byte_rune t i :
  (i < length t)%nat -> 0 <= nth i t 0 < 128 ->
  exists k, (k < length (decode t))%nat /\ i = boundary t k /\ nth_error (runes_of t) k = Some (nth i t 0).
Proof.
  intros Hi Hx. destruct (enf_noncont_boundary t i Hi) as [k [Hk Hb]]; [unfold is_cont; lia|].
  exists k. split; [exact Hk|]. split; [exact Hb|].
  apply enb_rune_nth. exists 1%nat. rewrite (enf_decode_nth t k Hk), <- Hb.
  rewrite (skipn_cons_nth t 0 i Hi). f_equal. unfold decode_rune. repeat break_if; try lia; reflexivity.
Qed.

Lemma enf_encode_ascii x : 0 <= x <= 127 -> encode x = [x].
Proof. intros H. unfold encode. repeat break_if; try lia; reflexivity. Qed.

Lemma enf_runes_ascii l : enf_ascii l -> runes_of l = l.
Proof.
  unfold runes_of. induction l as [|x l IH]; intros H; [reflexivity|].
  apply Forall_cons_iff in H. destruct H as [Hx H].
  rewrite decode_unfold.
  assert (E : decode_rune (x :: l) = (x, 1%nat)) by (unfold decode_rune; repeat break_if; try lia; reflexivity).
  rewrite E. cbn [snd skipn map fst]. f_equal. apply IH. exact H.
Qed.

(* a rune-level hit of an ASCII rune is a byte-level hit at its boundary, and conversely *)
Lemma enf_rune_byte t k c :
  nth_error (runes_of t) k = Some c -> 0 <= c <= 127 ->
  (boundary t k < length t)%nat /\ nth (boundary t k) t 0 = c.
Proof.
  intros Hn Hc. apply enb_rune_nth in Hn. destruct Hn as [w Hn].
  assert (Hne : c <> rune_error) by (unfold rune_error; lia).
  destruct (enb_rune_bytes t k c w Hn Hne) as (_ & _ & Hb). rewrite (enf_encode_ascii c Hc) in Hb.
  assert (L : (boundary t k < length t)%nat).
  { destruct (Nat.lt_ge_cases (boundary t k) (length t)) as [|G]; [assumption|].
    rewrite skipn_all2 in Hb by lia. discriminate Hb. }
  split; [exact L|]. rewrite (skipn_cons_nth t 0 _ L) in Hb. cbn [app] in Hb. congruence.
Qed.

Lemma enf_index_any_ascii t chars :
  enf_ascii chars -> enf_first (enf_byte_occ (fun x => zmem x chars) t) (en_index_any t chars).
Proof.
  intros HA. unfold en_index_any. destruct chars as [|c0 chars'] eqn:Ec.
  - left. split; [reflexivity|]. intros k [_ H]. discriminate H.
  - rewrite <- Ec in *. clear Ec c0 chars'. rewrite (enf_runes_ascii chars HA). unfold go_range.
    assert (Hmem : forall x, zmem x chars = true -> 0 <= x <= 127).
    { intros x Hx. apply zmem_In in Hx. unfold enf_ascii in HA. rewrite Forall_forall in HA.
      specialize (HA x Hx). lia. }
    destruct (enb_range_find_spec (fun c => zmem c chars) (decode t) 0) as [[H1 H2]|(k & c & w & H1 & H2 & H3 & H4)].
    + left. split; [exact H1|]. intros i [Hi Hx].
      destruct (enf_ascii_byte_rune t i Hi) as (k & Hk & _ & Hn); [specialize (Hmem _ Hx); lia|].
      apply enb_rune_nth in Hn. destruct Hn as [w Hn]. rewrite (H2 k _ w Hn) in Hx. discriminate Hx.
    + right. exists (boundary t k). rewrite H3, enb_off_boundary. split; [lia|].
      assert (Hn : nth_error (runes_of t) k = Some c) by (apply enb_rune_nth; eauto).
      destruct (enf_rune_byte t k c Hn (Hmem c H2)) as [L Hb].
      split; [split; [exact L|rewrite Hb; exact H2]|].
      intros i Hi [Hil Hx].
      destruct (enf_ascii_byte_rune t i Hil) as (k' & Hk' & Hbi & Hn'); [specialize (Hmem _ Hx); lia|].
      apply enb_rune_nth in Hn'. destruct Hn' as [w' Hn'].
      assert (Hkk : (k' < k)%nat).
      { destruct (Nat.lt_ge_cases k' k) as [|G]; [assumption|].
        pose proof (enb_boundary_mono t k k' G). lia. }
      rewrite (H4 k' _ w' Hkk Hn') in Hx. discriminate Hx.
Qed.

Lemma enf_encode_lead c : valid_rune c = true -> exists x rest, encode c = x :: rest /\ is_cont x = false.
Proof.
  intros Hv. unfold valid_rune, is_surrogate, max_rune in Hv. unfold encode, is_surrogate, max_rune, is_cont.
  repeat break_if; try lia; eexists; eexists; (split; [reflexivity|lia]).
Qed.

Lemma enf_encode_string_lead ps :
  Forall enb_good ps -> ps <> [] -> exists x rest, encode_string ps = x :: rest /\ is_cont x = false.
Proof.
  intros Hg Hne. destruct ps as [|p ps]; [congruence|]. apply Forall_cons_iff in Hg. destruct Hg as [[Hv _] _].
  destruct (enf_encode_lead p Hv) as (x & rest & Hx & Hc).
  exists x, (rest ++ encode_string ps). unfold encode_string. cbn [flat_map]. rewrite Hx. split; [reflexivity|exact Hc].
Qed.

Lemma enf_occ_boundary b ps i :
  Forall enb_good ps -> ps <> [] -> enb_occ b (encode_string ps) i ->
  exists kj, (kj < length (decode b))%nat /\ i = boundary b kj.
Proof.
  intros Hg Hne Ho. destruct (enf_encode_string_lead ps Hg Hne) as (x & rest & Hx & Hc).
  unfold enb_occ in Ho. pose proof (enb_has_prefix_length _ _ Ho) as Hl.
  rewrite skipn_length, Hx in Hl. cbn [length] in Hl.
  assert (L : (i < length b)%nat) by lia.
  apply enf_noncont_boundary; [exact L|].
  rewrite (skipn_cons_nth b 0 i L), Hx in Ho. cbn [en_has_prefix] in Ho. apply andb_true_iff in Ho.
  replace (nth i b 0) with x by lia. exact Hc.
Qed.

Lemma enf_lit_occ_boundary b lit i :
  enb_no_fffd lit -> lit <> [] -> enb_occ b lit i ->
  exists kj, (kj < length (decode b))%nat /\ i = boundary b kj.
Proof.
  intros Hnf Hne Ho. destruct (enb_no_fffd_good lit Hnf) as [Hlit Hg]. rewrite Hlit in Ho.
  apply (enf_occ_boundary b (runes_of lit)); [exact Hg| |exact Ho].
  intros E. rewrite E in Hlit. exact (Hne Hlit).
Qed.

Lemma enf_ci_occ_boundary b P i :
  enf_ascii P -> P <> [] -> enf_ci_occ b P i ->
  exists kj, (kj < length (decode b))%nat /\ i = boundary b kj.
Proof.
  intros HA Hne Ho. destruct P as [|p P']; [congruence|].
  destruct (enf_ci_occ_first_byte b p P' i Ho) as [Hl Hf]. cbn [length] in Hl.
  unfold enf_ascii in HA. apply Forall_cons_iff in HA. destruct HA as [Hp _].
  destruct (enf_ascii_byte_rune b i ltac:(lia)) as (kj & Hkj & Hbj & _); [|eauto].
  unfold en_fold_ascii in Hf. repeat break_if; lia.
Qed.

Lemma enf_occ_skipn s P sa o : enb_occ (skipn sa s) P o <-> enb_occ s P (sa + o).
Proof. unfold enb_occ. rewrite skipn_skipn. reflexivity. Qed.

Lemma enf_ci_occ_skipn s P sa o : enf_ci_occ (skipn sa s) P o <-> enf_ci_occ s P (sa + o).
Proof. unfold enf_ci_occ. rewrite skipn_skipn. reflexivity. Qed.

Lemma enf_byte_occ_skipn f s sa o : enf_byte_occ f (skipn sa s) o <-> enf_byte_occ f s (sa + o).
Proof.
  unfold enf_byte_occ. rewrite skipn_length, nth_skipn. split; intros [H1 H2]; (split; [lia|exact H2]).
Qed.

(* the empty prefix stands at the start itself *)
Lemma enf_str_occ_boundary ci b P sa o :
  enf_str_ok ci P -> enf_str_occ ci (skipn sa b) P o ->
  enf_str_occ ci (skipn sa b) P 0 \/
  exists kj, (kj < length (decode b))%nat /\ (sa + o)%nat = boundary b kj.
Proof.
  intros Hok Ho. destruct P as [|p P'].
  - left. unfold enf_str_occ, enf_ci_occ, enb_occ. cbn [skipn]. destruct ci; destruct (skipn sa b); reflexivity.
  - right. unfold enf_str_ok, enf_str_occ in *. destruct ci.
    + apply (enf_ci_occ_boundary b (p :: P')); [exact Hok|discriminate|apply enf_ci_occ_skipn; exact Ho].
    + apply (enf_lit_occ_boundary b (p :: P')); [exact Hok|discriminate|apply enf_occ_skipn; exact Ho].
Qed.

(* A closure that searches once.  [occ] is read on the slice from the start; the fact puts an
   occurrence at the offset of every fact position, and an occurrence starts a rune (or the needle
   is empty and stands at offset 0): the candidate, start + first occurrence, is a rune offset that
   no fact position precedes. *)
Lemma enf_post_first b k0 (F occ : nat -> Prop) j :
  (k0 <= length (decode b))%nat -> enf_first occ j ->
  (forall q, (k0 <= q <= length (decode b))%nat -> F q -> occ (boundary b q - boundary b k0)%nat) ->
  (forall o, occ o -> occ 0%nat \/
     exists kj, (kj < length (decode b))%nat /\ (boundary b k0 + o)%nat = boundary b kj) ->
  enf_post b k0 F (if j <? 0 then en_none else Ok (Z.of_nat (boundary b k0) + j, true)).
Proof.
  intros Hk0 [[-> Hno]|[o [-> [Ho Hfst]]]] HF Hbd.
  - apply enf_post_none. intros q Hq _ Hf. exact (Hno _ (HF q Hq Hf)).
  - replace (Z.of_nat o <? 0) with false by lia.
    assert (Hk : exists k', (k0 <= k' <= length (decode b))%nat /\ (boundary b k0 + o)%nat = boundary b k').
    { destruct (Hbd o Ho) as [H0|(kj & Hkj & Hb)].
      - exists k0. split; [lia|]. destruct o as [|o']; [lia|]. exfalso. apply (Hfst 0%nat); [lia|exact H0].
      - exists kj. split; [|exact Hb]. split; [apply (enb_boundary_inj_le b); lia|lia]. }
    destruct Hk as (k' & Hk' & Hb).
    replace (Z.of_nat (boundary b k0) + Z.of_nat o) with (Z.of_nat (boundary b k')) by lia.
    apply enf_post_some; [exact Hk'|]. intros q Hq _ Hf.
    pose proof (enb_boundary_mono b k0 q ltac:(lia)).
    destruct (Nat.le_gt_cases o (boundary b q - boundary b k0)) as [|G]; [lia|].
    exfalso. exact (Hfst _ G (HF q Hq Hf)).
Qed.

(* ---------- stringIndexPrefixFilter ---------- *)

Lemma enf_spec_prefix P ci m : enf_ok (FPrefix P ci m) -> enf_spec (FPrefix P ci m).
Proof.
  intros Hok b k0 Hk0. cbn [enf_ok] in Hok. cbn [en_run_filter].
  apply enf_post_guard; [intros q HF; exact (proj1 HF)|]. rewrite enb_from_nat.
  destruct (enf_index_maybe_ci_first ci (skipn (boundary b k0) b) P) as [j [Hj Hf]]. rewrite Hj. cbn [bind].
  apply (enf_post_first b k0 _ _ j Hk0 Hf).
  - intros q Hq [_ HF]. apply enf_str_occ_of_fact; [lia|exact Hok|exact HF].
  - intros o Ho. exact (enf_str_occ_boundary ci b P _ o Hok Ho).
Qed.

(* ---------- indexAnyPrefixFallback ---------- *)

Lemma enf_best_offset_spec ci s : forall Ps (occ0 : nat -> Prop) best0,
  enf_first occ0 best0 ->
  exists best, en_best_offset ci s Ps best0 = Ok best /\
               enf_first (fun k => occ0 k \/ exists P, In P Ps /\ enf_str_occ ci s P k) best.
Proof.
  induction Ps as [|P Ps IH]; intros occ0 best0 H0.
  - exists best0. split; [reflexivity|]. eapply enf_first_ext; [|exact H0]. intros k. split; [auto|].
    intros [H|[P [[] _]]]. exact H.
  - cbn [en_best_offset]. destruct (enf_index_maybe_ci_first ci s P) as [j [Hj Hf]]. rewrite Hj. cbn [bind].
    pose proof (enf_first_combine _ _ _ _ H0 Hf) as C. unfold enf_combine in C.
    destruct (IH _ _ C) as [best [Hb Hbf]]. exists best. split; [exact Hb|].
    eapply enf_first_ext; [|exact Hbf]. intros k. split.
    + intros [[H|H]|[P' [Hin H]]]; [left; exact H|right; exists P; split; [left; reflexivity|exact H]|
                                    right; exists P'; split; [right; exact Hin|exact H]].
    + intros [H|[P' [[<-|Hin] H]]]; [left; left; exact H|left; right; exact H|right; exists P'; auto].
Qed.

Lemma enf_spec_prefixes Ps ci m : enf_ok (FPrefixes Ps ci m) -> enf_spec (FPrefixes Ps ci m).
Proof.
  intros Hok b k0 Hk0. cbn [enf_ok] in Hok. rewrite Forall_forall in Hok. cbn [en_run_filter].
  apply enf_post_guard; [intros q HF; exact (proj1 HF)|]. rewrite enb_from_nat.
  destruct (enf_best_offset_spec ci (skipn (boundary b k0) b) Ps (fun _ => False) (-1)) as [j [Hj Hf]].
  { left. split; [reflexivity|]. intros k []. }
  rewrite Hj. cbn [bind]. apply (enf_post_first b k0 _ _ j Hk0 Hf).
  - intros q Hq [_ [P [Hin HF]]]. right. exists P. split; [exact Hin|].
    apply enf_str_occ_of_fact; [lia|apply Hok; exact Hin|exact HF].
  - intros o [[]|[P [Hin Ho]]].
    destruct (enf_str_occ_boundary ci b P _ o (Hok P Hin) Ho) as [H0|H]; [left; right; exists P; auto|right; exact H].
Qed.

(* ---------- the ASCII string-set filter ---------- *)

Lemma enf_ascii_no_fffd P : enf_ascii P -> enb_no_fffd P.
Proof.
  intros HA. unfold enb_no_fffd, en_contains_rune, en_index_rune.
  replace ((0 <=? rune_error) && (rune_error <? 128)) with false by reflexivity.
  rewrite Z.eqb_refl. unfold go_range.
  destruct (enb_range_find_spec (fun c => c =? rune_error) (decode P) 0) as [[H1 _]|(k & c1 & w & H1 & H2 & _)].
  - rewrite H1. reflexivity.
  - exfalso. assert (Hn : nth_error (runes_of P) k = Some c1) by (apply enb_rune_nth; eauto).
    rewrite (enf_runes_ascii P HA) in Hn. apply nth_error_In in Hn.
    unfold enf_ascii in HA. rewrite Forall_forall in HA. specialize (HA c1 Hn). unfold rune_error in H2. lia.
Qed.

Lemma enf_iota_In x n : In x (iota n) <-> 0 <= x < Z.of_nat n.
Proof.
  unfold iota. rewrite in_map_iff. split.
  - intros [k [<- Hk]]. apply in_seq in Hk. lia.
  - intros H. exists (Z.to_nat x). split; [lia|]. apply in_seq. lia.
Qed.

Lemma enf_first_chars_mem Ps x :
  zmem x (en_first_chars Ps) = true <-> (0 <= x < 256 /\ exists P, In P Ps /\ en_first_byte P = x).
Proof.
  rewrite zmem_In. unfold en_first_chars. rewrite filter_In, enf_iota_In, existsb_exists.
  change (Z.of_nat 256) with 256. split.
  - intros [H1 [P [Hin HP]]]. split; [exact H1|]. exists P. split; [exact Hin|lia].
  - intros [H1 [P [Hin HP]]]. split; [exact H1|]. exists P. split; [exact Hin|lia].
Qed.

Lemma enf_bucket_hit_iff input i bucket :
  en_bucket_hit input i bucket = true <->
  exists P, In P bucket /\ zlen P <= zlen input - i /\ en_has_prefix (en_from input i) P = true.
Proof.
  induction bucket as [|P ps IH]; cbn [en_bucket_hit].
  - split; [discriminate|]. intros [P [[] _]].
  - destruct ((zlen P <=? zlen input - i) && en_has_prefix (en_from input i) P) eqn:E.
    + split; [|reflexivity]. intros _. apply andb_true_iff in E. exists P. split; [left; reflexivity|].
      destruct E as [E1 E2]. split; [lia|exact E2].
    + rewrite IH. split.
      * intros [P' [Hin H]]. exists P'. split; [right; exact Hin|exact H].
      * intros [P' [[<-|Hin] [H1 H2]]]; [|exists P'; auto].
        rewrite H2 in E. replace (zlen P <=? zlen input - i) with true in E by lia. discriminate E.
Qed.

Definition enf_any_occ (Ps : list (list Z)) (b : list Z) (i : nat) : Prop := exists P, In P Ps /\ enb_occ b P i.

Lemma enf_any_occ_first_byte Ps b i :
  Forall (fun P => enf_ascii P /\ P <> []) Ps -> enf_any_occ Ps b i ->
  (i < length b)%nat /\ zmem (nth i b 0) (en_first_chars Ps) = true /\
  en_bucket_hit b (Z.of_nat i) (en_bucket Ps (nth i b 0)) = true.
Proof.
  intros Hok [P [Hin Ho]]. rewrite Forall_forall in Hok. destruct (Hok P Hin) as [HA Hne].
  unfold enb_occ in Ho. destruct P as [|p P']; [congruence|].
  apply enb_has_prefix_iff in Ho. destruct Ho as [rest Ho].
  assert (L : (i < length b)%nat).
  { destruct (Nat.lt_ge_cases i (length b)) as [|G]; [assumption|]. rewrite skipn_all2 in Ho by lia. discriminate Ho. }
  assert (Hb : nth i b 0 = p).
  { rewrite (skipn_cons_nth b 0 i L) in Ho. cbn [app] in Ho. congruence. }
  unfold enf_ascii in HA. apply Forall_cons_iff in HA. destruct HA as [Hp _].
  split; [exact L|]. split.
  - apply enf_first_chars_mem. split; [lia|]. exists (p :: P'). split; [exact Hin|]. rewrite Hb. reflexivity.
  - apply enf_bucket_hit_iff. exists (p :: P'). split.
    + unfold en_bucket. apply filter_In. split; [exact Hin|]. rewrite Hb. unfold en_first_byte, en_at. cbn. lia.
    + rewrite enb_from_nat. split.
      * pose proof (f_equal (@length Z) Ho) as Hl. rewrite skipn_length, app_length in Hl.
        unfold zlen. lia.
      * apply enb_has_prefix_iff. eauto.
Qed.

Lemma enf_first_chars_ascii Ps :
  Forall (fun P => enf_ascii P /\ P <> []) Ps -> enf_ascii (en_first_chars Ps).
Proof.
  intros Hok. unfold enf_ascii. apply Forall_forall. intros x Hx. apply zmem_In in Hx.
  apply enf_first_chars_mem in Hx. destruct Hx as [_ [P [Hin HP]]].
  rewrite Forall_forall in Hok. destruct (Hok P Hin) as [HA Hne].
  destruct P as [|p P']; [congruence|]. unfold en_first_byte, en_at in HP. cbn in HP. subst x.
  unfold enf_ascii in HA. apply Forall_cons_iff in HA. tauto.
Qed.

Lemma enf_ascii_set_loop_spec Ps b k0 (F : nat -> Prop) :
  Forall (fun P => enf_ascii P /\ P <> []) Ps -> (k0 <= length (decode b))%nat ->
  (forall q, F q -> enf_any_occ Ps b (boundary b q)) ->
  forall fuel sa, (boundary b k0 <= sa <= length b)%nat -> (length b + 1 <= fuel + sa)%nat ->
  enf_post_from b k0 F (boundary b) sa (en_ascii_set_loop fuel Ps b (Z.of_nat sa)).
Proof.
  intros Hok Hk0 HF. induction fuel as [|f IH]; intros sa Hsa Hf; [lia|].
  cbn [en_ascii_set_loop]. unfold zlen.
  destruct (Z.of_nat sa <? Z.of_nat (length b)) eqn:E.
  - rewrite enb_from_nat.
    pose proof (enf_first_chars_ascii Ps Hok) as HA.
    (* an occurrence at i >= sa shows up as a first-chars byte at offset i - sa *)
    assert (Hocc : forall i, (sa <= i)%nat -> enf_any_occ Ps b i ->
              enf_byte_occ (fun x => zmem x (en_first_chars Ps)) (skipn sa b) (i - sa) /\
              en_bucket_hit b (Z.of_nat i) (en_bucket Ps (nth i b 0)) = true).
    { intros i Hi Ho. destruct (enf_any_occ_first_byte Ps b i Hok Ho) as (L & H1 & H2).
      split; [|exact H2]. apply enf_byte_occ_skipn. replace (sa + (i - sa))%nat with i by lia. split; [exact L|exact H1]. }
    destruct (enf_index_any_ascii (skipn sa b) (en_first_chars Ps) HA) as [[-> Hno]|[o [-> [Ho F3]]]].
    + apply enf_post_none. intros q _ Hle Hq. exact (Hno _ (proj1 (Hocc _ Hle (HF q Hq)))).
    + replace (Z.of_nat o <? 0) with false by lia.
      replace (Z.of_nat sa + Z.of_nat o) with (Z.of_nat (sa + o)) by lia. rewrite enb_at_nat.
      apply enf_byte_occ_skipn in Ho. destruct Ho as [F2 F2'].
      assert (Hge : forall i, (sa <= i)%nat -> enf_any_occ Ps b i -> (sa + o <= i)%nat).
      { intros i Hi Ho. destruct (Hocc i Hi Ho) as [H1 _].
        destruct (Nat.le_gt_cases (sa + o) i) as [|G]; [assumption|].
        exfalso. apply (F3 (i - sa)%nat); [lia|exact H1]. }
      destruct (en_bucket_hit b (Z.of_nat (sa + o)) (en_bucket Ps (nth (sa + o) b 0))) eqn:E3.
      * destruct (enf_ascii_byte_rune b (sa + o) F2) as (kj & Hkj & Hbj & _).
        { apply zmem_In in F2'. unfold enf_ascii in HA. rewrite Forall_forall in HA. specialize (HA _ F2'). lia. }
        rewrite Hbj. apply enf_post_some; [split; [apply (enb_boundary_inj_le b); lia|lia]|].
        intros q _ Hle Hq. rewrite <- Hbj. exact (Hge _ Hle (HF q Hq)).
      * replace (Z.of_nat (sa + o) + 1) with (Z.of_nat (S (sa + o))) by lia.
        apply (enf_post_skip b k0 F (boundary b) sa (S (sa + o))); [|apply IH; lia].
        intros q _ Hle Hq. pose proof (Hge _ Hle (HF q Hq)) as G.
        destruct (Nat.eq_dec (boundary b q) (sa + o)) as [Heq|]; [|lia].
        destruct (Hocc _ Hle (HF q Hq)) as [_ H2]. rewrite Heq in H2. congruence.
  - apply enf_post_none. intros q _ Hle Hq. destruct (enf_any_occ_first_byte Ps b _ Hok (HF q Hq)) as (L & _). lia.
Qed.

Lemma enf_spec_ascii_set Ps m : enf_ok (FAsciiSet Ps m) -> enf_spec (FAsciiSet Ps m).
Proof.
  intros Hok b k0 Hk0. cbn [enf_ok] in Hok. cbn [en_run_filter].
  apply enf_post_guard; [intros q HF; exact (proj1 HF)|].
  apply (enf_post_start b k0 _ (boundary b)); [intros q Hq; apply enb_boundary_mono; exact Hq|].
  pose proof (boundary_le b k0).
  apply enf_ascii_set_loop_spec; [exact Hok|exact Hk0| |lia|lia].
  intros q [_ [P [Hin HF]]]. exists P. split; [exact Hin|]. unfold enb_occ.
  apply enf_lit_bytes; [|exact HF]. rewrite Forall_forall in Hok. exact (enf_ascii_no_fffd P (proj1 (Hok P Hin))).
Qed.

(* ---------- stringLiteralAfterLoopFilter ---------- *)

Lemma enf_runes_encode_string rs : runes_of (encode_string rs) = map sanitize rs.
Proof. unfold runes_of. rewrite decode_encode_string, map_map. reflexivity. Qed.

Lemma enf_lal_found b k0 l j :
  (k0 <= j)%nat -> enf_str_ok (la_string_ci l) (la_string l) -> enf_lal_at l (runes_of b) j ->
  en_has_literal_after_loop b (Z.of_nat (boundary b k0)) l = Ok true.
Proof.
  intros Hj Hok HA. unfold en_has_literal_after_loop, enf_lal_at in *. rewrite enb_from_nat.
  set (t := skipn (boundary b k0) b).
  pose proof (enb_boundary_mono b k0 j Hj) as Hmono.
  destruct (la_string l) as [|s0 S'] eqn:ES.
  - destruct (la_chars l) as [|c0 C'] eqn:EC.
    + (* a single rune *)
      assert (Hv : valid_rune (la_char l) = true).
      { pose proof (enb_runes_valid b) as F. rewrite Forall_forall in F. apply F. eapply nth_error_In. exact HA. }
      unfold en_contains_rune, en_index_rune. f_equal.
      destruct ((0 <=? la_char l) && (la_char l <? 128)) eqn:E1.
      * destruct (enf_rune_byte b j _ HA ltac:(lia)) as [L Hb].
        pose proof (enf_index_byte_first t (la_char l)) as F.
        assert (Ho : enf_byte_occ (fun x => x =? la_char l) t (boundary b j - boundary b k0)).
        { unfold enf_byte_occ, t. rewrite skipn_length, nth_skipn.
          replace (boundary b k0 + (boundary b j - boundary b k0))%nat with (boundary b j) by lia. split; lia. }
        pose proof (enf_first_le _ _ _ F Ho). lia.
      * destruct (la_char l =? rune_error) eqn:E2.
        -- unfold go_range, t. rewrite decode_skipn_boundary.
           apply enb_rune_nth in HA. destruct HA as [w HA].
           destruct (enb_range_find_spec (fun c => c =? rune_error) (skipn k0 (decode b)) 0) as [[_ H2]|(k & c & w' & _ & _ & H3 & _)].
           ++ specialize (H2 (j - k0)%nat (la_char l) w). rewrite nth_error_skipn in H2.
              replace (k0 + (j - k0))%nat with j in H2 by lia. specialize (H2 HA). cbn in H2. lia.
           ++ rewrite H3. lia.
        -- rewrite Hv. cbn [negb].
           apply enb_rune_nth in HA. destruct HA as [w HA].
           destruct (enb_rune_bytes b j _ w HA ltac:(lia)) as (_ & _ & Hb).
           pose proof (enf_index_first t (encode (la_char l))) as F.
           assert (Ho : enb_occ t (encode (la_char l)) (boundary b j - boundary b k0)).
           { unfold enb_occ, t. rewrite enf_skipn_boundary by exact Hj. rewrite Hb. apply enb_has_prefix_app. }
           pose proof (enf_first_le _ _ _ F Ho). lia.
    + (* one of a few runes *)
      destruct HA as [c [Hn Hin]]. unfold en_contains_any, en_index_any. f_equal.
      destruct (encode_string (c0 :: C')) as [|e0 E'] eqn:Ee.
      { exfalso. unfold encode_string in Ee. cbn [flat_map] in Ee. apply app_eq_nil in Ee.
        exact (encode_nonempty c0 (proj1 Ee)). }
      rewrite <- Ee, enf_runes_encode_string. unfold go_range, t. rewrite decode_skipn_boundary.
      assert (Hv : valid_rune c = true).
      { pose proof (enb_runes_valid b) as F. rewrite Forall_forall in F. apply F. eapply nth_error_In. exact Hn. }
      apply enb_rune_nth in Hn. destruct Hn as [w Hn].
      destruct (enb_range_find_spec (fun x => zmem x (map sanitize (c0 :: C'))) (skipn k0 (decode b)) 0)
        as [[_ H2]|(k & c' & w' & _ & _ & H3 & _)].
      * specialize (H2 (j - k0)%nat c w). rewrite nth_error_skipn in H2.
        replace (k0 + (j - k0))%nat with j in H2 by lia. specialize (H2 Hn).
        assert (Hm : zmem c (map sanitize (c0 :: C')) = true).
        { apply zmem_In. apply in_map_iff. exists c. split; [|exact Hin]. unfold sanitize. rewrite Hv. reflexivity. }
        congruence.
      * rewrite H3. lia.
  - (* a string *)
    assert (Hne : s0 :: S' <> []) by discriminate.
    pose proof (enf_str_occ_of_fact (la_string_ci l) b k0 j (s0 :: S') Hj Hok HA) as Ho. fold t in Ho.
    unfold enf_str_occ in Ho. destruct (la_string_ci l).
    + destruct (enf_index_ci_first t (s0 :: S')) as [jx [Hjx F]]. rewrite Hjx. cbn [bind]. f_equal.
      pose proof (enf_first_le _ _ _ F Ho). lia.
    + unfold en_contains. f_equal. pose proof (enf_first_le _ _ _ (enf_index_first t (s0 :: S')) Ho). lia.
Qed.

Lemma enf_lal_total b sa l : exists h, en_has_literal_after_loop b sa l = Ok h.
Proof.
  unfold en_has_literal_after_loop. destruct (la_string l) as [|s0 S'].
  - destruct (la_chars l); eauto.
  - destruct (la_string_ci l); [|eauto].
    destruct (enf_index_ci_first (en_from b sa) (s0 :: S')) as [j [Hj _]]. rewrite Hj. cbn [bind]. eauto.
Qed.

Lemma enf_spec_lit_loop l m : enf_ok (FLitLoop l m) -> enf_spec (FLitLoop l m).
Proof.
  intros Hok b k0 Hk0. cbn [enf_ok] in Hok. cbn [en_run_filter].
  apply enf_post_guard; [intros q HF; exact (proj1 HF)|].
  destruct (enf_lal_total b (Z.of_nat (boundary b k0)) l) as [h Hh]. rewrite Hh. cbn [bind]. destruct h.
  - apply enf_post_some; [lia|]. intros q Hq _ _. apply enb_boundary_mono. lia.
  - apply enf_post_none. intros q Hq _ [_ [j [Hj HA]]].
    rewrite (enf_lal_found b k0 l j ltac:(lia) Hok HA) in Hh. discriminate Hh.
Qed.

(* ---------- walking back from a needle: DecodeLastRuneInString at a boundary ---------- *)

Lemma enf_dlr_start_le s e : en_dlr_start s e <= e - 2.
Proof. unfold en_dlr_start. repeat break_if; lia. Qed.

(* a rune decoded with width >= 2 is valid: its bytes are its encoding, whatever follows *)
Lemma enf_decode_rune_wide p c w :
  decode_rune p = (c, w) -> (2 <= w)%nat ->
  valid_rune c = true /\ Z.of_nat w = rune_len c /\ firstn w p = encode c.
Proof.
  intros H Hw. destruct p as [|b0 t]; [cbn in H; injection H as _ <-; lia|].
  destruct (decode_rune_cases b0 t) as [C|C].
  - rewrite H in C. injection C as _ ->. lia.
  - rewrite H in C. exact C.
Qed.

Lemma enf_decode_rune_complete t r' size :
  decode_rune (firstn size t) = (r', size) -> (2 <= size)%nat -> decode_rune t = (r', size).
Proof.
  intros H Hs. destruct (enf_decode_rune_wide _ _ _ H Hs) as (Hv & Hl & Hf).
  rewrite firstn_firstn, Nat.min_id in Hf.
  rewrite <- (firstn_skipn size t), Hf, decode_rune_encode by exact Hv. f_equal. lia.
Qed.

Lemma enf_dlr_step b k c w :
  nth_error (decode b) k = Some (c, w) ->
  snd (en_decode_last_rune (firstn (boundary b (S k)) b)) = Z.of_nat w.
Proof.
  intros Hn. destruct (enb_boundary_step b k c w Hn) as (HS & Hw & Hr & Hne).
  assert (Hk : (k < length (decode b))%nat) by (apply nth_error_Some; congruence).
  set (p := boundary b k) in *. set (e := boundary b (S k)) in *.
  pose proof (boundary_le b (S k)) as Hle. fold e in Hle.
  set (s := firstn e b).
  assert (Hlen : length s = e) by (unfold s; apply firstn_length_le; exact Hle).
  assert (Hnth : forall i, (i < e)%nat -> nth i s 0 = nth i b 0) by (intros; apply nth_firstn; assumption).
  assert (Hcont : forall i, (p < i < e)%nat -> is_cont (nth i b 0) = true).
  { intros i Hi. destruct (skipn p b) as [|b0 t] eqn:Es; [congruence|].
    pose proof (enf_decode_rune_cont b0 t (i - p)) as Hc. rewrite Hr in Hc. cbn [snd] in Hc.
    specialize (Hc ltac:(lia)). rewrite <- Es, nth_skipn in Hc.
    replace (p + (i - p))%nat with i in Hc by lia. exact Hc. }
  assert (Hsk : forall st, skipn st s = firstn (e - st) (skipn st b)) by (intros; unfold s; apply skipn_firstn_comm).
  unfold en_decode_last_rune. unfold zlen. rewrite Hlen.
  replace (Z.of_nat e =? 0) with false by lia.
  replace (Z.of_nat e - 1) with (Z.of_nat (e - 1)) by lia. rewrite enb_at_nat, Hnth by lia.
  destruct (nth (e - 1) b 0 <? 128) eqn:Elast.
  - cbn [snd]. destruct (Nat.eq_dec w 1) as [->|Hw1]; [reflexivity|].
    specialize (Hcont (e - 1)%nat ltac:(lia)). unfold is_cont in Hcont. lia.
  - destruct (Nat.eq_dec w 1) as [->|Hw1].
    + (* an invalid byte, or a byte >= 128 forming a rune alone: whatever start is tried, width 1 *)
      pose proof (enf_dlr_start_le s (Z.of_nat e)) as Hst.
      set (start0 := en_dlr_start s (Z.of_nat e)) in *.
      set (start := if start0 <? 0 then 0 else start0).
      assert (Hstart : 0 <= start <= Z.of_nat e - 1) by (unfold start; break_if; lia).
      replace start with (Z.of_nat (Z.to_nat start)) by lia. rewrite enb_from_nat.
      set (st := Z.to_nat start) in *. rewrite Hsk.
      destruct (decode_rune (firstn (e - st) (skipn st b))) as [r' size] eqn:Ed.
      destruct (Z.of_nat st + Z.of_nat size =? Z.of_nat e) eqn:Esum; cbn [negb snd]; [|reflexivity].
      destruct (Nat.le_gt_cases 2 size) as [G|L]; [exfalso|].
      * replace (e - st)%nat with size in Ed by lia.
        pose proof (enf_decode_rune_complete _ _ _ Ed G) as Hfull.
        destruct (enf_decode_rune_wide _ _ _ Hfull G) as (Hv & _ & Hf).
        destruct (enf_encode_lead r' Hv) as (x & rest & Hx & Hxc).
        assert (Lst : (st < length b)%nat) by lia.
        rewrite (skipn_cons_nth b 0 st Lst), Hx in Hf.
        assert (Hb : nth st b 0 = x).
        { destruct size as [|size]; [lia|]. cbn [firstn] in Hf. congruence. }
        destruct (enf_noncont_boundary b st Lst ltac:(rewrite Hb; exact Hxc)) as [k' [Hk' Hbk']].
        pose proof (enf_decode_nth b k' Hk') as Hn'. rewrite <- Hbk', Hfull in Hn'.
        destruct (enb_boundary_step b k' r' size Hn') as (HS' & _).
        assert (Hee : boundary b (S k') = e) by lia.
        assert (k' = k).
        { pose proof (enb_boundary_inj_le b (S k') (S k) ltac:(lia) ltac:(lia) ltac:(fold e; lia)).
          pose proof (enb_boundary_inj_le b (S k) (S k') ltac:(lia) ltac:(lia) ltac:(fold e; lia)). lia. }
        subst k'. fold p in Hbk'. lia.
      * assert (size <> 0)%nat.
        { intros ->. lia. }
        lia.
    + (* a valid multi-byte rune: the backward scan stops at its lead byte *)
      destruct (enf_decode_rune_wide _ _ _ Hr ltac:(lia)) as (Hv & Hl & Hf).
      destruct (enf_encode_lead c Hv) as (x & rest & Hx & Hxc).
      assert (Lp : (p < length b)%nat) by lia.
      assert (Hlead : is_cont (nth p b 0) = false).
      { rewrite (skipn_cons_nth b 0 p Lp), Hx in Hf. destruct w as [|w']; [lia|]. cbn [firstn] in Hf.
        replace (nth p b 0) with x by congruence. exact Hxc. }
      assert (Hstart : en_dlr_start s (Z.of_nat e) = Z.of_nat p).
      { unfold en_dlr_start, en_rune_start. cbv zeta.
        assert (Hw3 : w = 2%nat \/ w = 3%nat \/ w = 4%nat) by lia.
        destruct Hw3 as [ -> | [ -> | -> ] ].
        - replace (Z.of_nat e - 2) with (Z.of_nat p) by lia.
          rewrite enb_at_nat, Hnth, Hlead by lia. cbn [negb]. repeat break_if; lia.
        - replace (Z.of_nat e - 2) with (Z.of_nat (p + 1)) by lia.
          replace (Z.of_nat e - 3) with (Z.of_nat p) by lia.
          rewrite !enb_at_nat, !Hnth, Hlead, (Hcont (p + 1)%nat) by lia. cbn [negb]. repeat break_if; lia.
        - replace (Z.of_nat e - 2) with (Z.of_nat (p + 2)) by lia.
          replace (Z.of_nat e - 3) with (Z.of_nat (p + 1)) by lia.
          replace (Z.of_nat e - 4) with (Z.of_nat p) by lia.
          rewrite !enb_at_nat, !Hnth, Hlead, (Hcont (p + 1)%nat), (Hcont (p + 2)%nat) by lia.
          cbn [negb]. repeat break_if; lia. }
      rewrite Hstart. replace (Z.of_nat p <? 0) with false by lia. rewrite enb_from_nat, Hsk.
      replace (e - p)%nat with w by lia.
      rewrite decode_rune_firstn by (rewrite Hr; cbn [snd]; lia). rewrite Hr.
      replace (Z.of_nat p + Z.of_nat w =? Z.of_nat e) with true by lia. reflexivity.
Qed.

(* stringFixedDistanceCandidateStart from boundary kj back d runes, never below the start boundary k0 *)
Lemma enf_candidate_start_spec b k0 : forall d kj,
  (k0 <= kj <= length (decode b))%nat ->
  en_candidate_start b (Z.of_nat (boundary b k0)) (Z.of_nat (boundary b kj)) d =
  if (k0 + d <=? kj)%nat then Some (Z.of_nat (boundary b (kj - d))) else None.
Proof.
  induction d as [|d IH]; intros kj Hkj.
  - cbn [en_candidate_start]. replace (k0 + 0 <=? kj)%nat with true by (symmetry; apply Nat.leb_le; lia).
    rewrite Nat.sub_0_r. reflexivity.
  - cbn [en_candidate_start].
    destruct (Nat.eq_dec kj k0) as [->|Hne].
    + rewrite Z.leb_refl. replace (k0 + S d <=? k0)%nat with false by (symmetry; apply Nat.leb_gt; lia). reflexivity.
    + pose proof (enb_boundary_lt b k0 kj ltac:(lia) ltac:(lia)) as Hlt.
      replace (Z.of_nat (boundary b kj) <=? Z.of_nat (boundary b k0)) with false by lia.
      destruct kj as [|k']; [lia|].
      destruct (nth_error (decode b) k') as [[c w]|] eqn:En; [|apply nth_error_None in En; lia].
      rewrite enb_upto_nat, (enf_dlr_step b k' c w En).
      destruct (enb_boundary_step b k' c w En) as (HS & Hw & _).
      replace (Z.of_nat w =? 0) with false by lia.
      replace (Z.of_nat (boundary b (S k')) - Z.of_nat w) with (Z.of_nat (boundary b k')) by lia.
      rewrite IH by lia. replace (S k' - S d)%nat with (k' - d)%nat by lia.
      destruct (k0 + d <=? k')%nat eqn:E1; destruct (k0 + S d <=? S k')%nat eqn:E2; try reflexivity;
        apply Nat.leb_le in E1 || apply Nat.leb_gt in E1; apply Nat.leb_le in E2 || apply Nat.leb_gt in E2; lia.
Qed.

(* What the loops do with a needle found at the offset of rune kj, when no fact position still in
   play has its needle before kj: the candidate d runes back is the answer (or, failing the length
   test, nothing is); when the walk back would cross the start, the fact positions left have their
   needle after kj, where [rec] resumes. *)
Lemma enf_fd_turn b k0 d m (F : nat -> Prop) sa sa' kj rec :
  (k0 <= kj < length (decode b))%nat ->
  (forall q, F q -> enf_min_fact m (runes_of b) q) ->
  (forall q, (k0 <= q <= length (decode b))%nat -> (sa <= boundary b (q + d))%nat -> F q -> (kj <= q + d)%nat) ->
  (sa' <= boundary b (S kj))%nat ->
  enf_post_from b k0 F (fun q => boundary b (q + d)) sa' rec ->
  enf_post_from b k0 F (fun q => boundary b (q + d)) sa
    match en_candidate_start b (Z.of_nat (boundary b k0)) (Z.of_nat (boundary b kj)) d with
    | Some c => if en_has_min_bytes b c m then Ok (c, true) else en_none
    | None => rec
    end.
Proof.
  intros Hkj HM Hq Hsa' Hrec. rewrite enf_candidate_start_spec by lia.
  destruct (k0 + d <=? kj)%nat eqn:E.
  - apply Nat.leb_le in E.
    destruct (en_has_min_bytes b (Z.of_nat (boundary b (kj - d))) m) eqn:Em.
    + apply enf_post_some; [lia|]. intros q H1 H2 H3. apply enb_boundary_mono. specialize (Hq q H1 H2 H3). lia.
    + apply enf_post_none. intros q H1 H2 H3. specialize (Hq q H1 H2 H3).
      rewrite (enf_min_bytes b (kj - d) q m ltac:(lia) (HM q H3)) in Em. discriminate Em.
  - apply Nat.leb_gt in E. apply (enf_post_skip _ _ _ _ sa sa' _); [|exact Hrec].
    intros q H1 _ _. pose proof (enb_boundary_mono b (S kj) (q + d) ltac:(lia)). lia.
Qed.

(* One turn.  [N i]: the needle stands at byte i.  The fact puts a needle d runes after every fact
   position, needles start runes, and the search function answers the first needle at or after sa. *)
Lemma enf_fd_step b k0 d m (F N : nat -> Prop) sa j rec :
  (k0 <= length (decode b))%nat -> (boundary b k0 <= sa)%nat ->
  (forall q, F q -> enf_min_fact m (runes_of b) q) ->
  (forall q, (k0 <= q <= length (decode b))%nat -> F q -> N (boundary b (q + d))) ->
  (forall i, N i -> exists kj, (kj < length (decode b))%nat /\ i = boundary b kj) ->
  enf_first (fun o => N (sa + o)%nat) j ->
  (forall kj, (k0 <= kj < length (decode b))%nat -> (sa <= boundary b kj)%nat ->
     Z.of_nat sa + j = Z.of_nat (boundary b kj) ->
     exists sa', (sa' <= boundary b (S kj))%nat /\ enf_post_from b k0 F (fun q => boundary b (q + d)) sa' rec) ->
  enf_post_from b k0 F (fun q => boundary b (q + d)) sa
    (if j <? 0 then en_none
     else match en_candidate_start b (Z.of_nat (boundary b k0)) (Z.of_nat sa + j) d with
          | Some c => if en_has_min_bytes b c m then Ok (c, true) else en_none
          | None => rec
          end).
Proof.
  intros Hk0 Hsa HM HN Hbd [[-> Hno]|[o [-> [Ho Hfst]]]] Hrec.
  - apply enf_post_none. intros q H1 H2 H3. apply (Hno (boundary b (q + d) - sa)%nat).
    replace (sa + (boundary b (q + d) - sa))%nat with (boundary b (q + d)) by lia. exact (HN q H1 H3).
  - replace (Z.of_nat o <? 0) with false by lia.
    destruct (Hbd _ Ho) as (kj & Hkj & Hb).
    assert (Hk0j : (k0 <= kj)%nat) by (apply (enb_boundary_inj_le b); lia).
    destruct (Hrec kj ltac:(lia) ltac:(lia) ltac:(lia)) as (sa' & Hsa' & Hpost).
    replace (Z.of_nat sa + Z.of_nat o) with (Z.of_nat (boundary b kj)) by lia.
    apply (enf_fd_turn b k0 d m F sa sa' kj rec); [lia|exact HM| |exact Hsa'|exact Hpost].
    intros q H1 H2 H3. destruct (Nat.le_gt_cases (q + d) (length (decode b))) as [L|G]; [|lia].
    apply (enb_boundary_inj_le b); [lia|exact L|].
    destruct (Nat.le_gt_cases (sa + o) (boundary b (q + d))) as [|G]; [lia|].
    exfalso. apply (Hfst (boundary b (q + d) - sa)%nat); [lia|].
    replace (sa + (boundary b (q + d) - sa))%nat with (boundary b (q + d)) by lia. exact (HN q H1 H3).
Qed.

Lemma enf_post_fd b k0 d (F : nat -> Prop) res : (k0 <= length (decode b))%nat ->
  (forall fuel sa, (boundary b k0 <= sa <= length b)%nat -> (length b + 1 <= fuel + sa)%nat ->
     enf_post_from b k0 F (fun q => boundary b (q + d)) sa (res fuel (Z.of_nat sa))) ->
  enf_post b k0 F (res (S (length b)) (Z.of_nat (boundary b k0))).
Proof.
  intros Hk0 H. apply (enf_post_start b k0 F (fun q => boundary b (q + d))).
  - intros q Hq. apply enb_boundary_mono. lia.
  - pose proof (boundary_le b k0). apply H; lia.
Qed.

(* ---------- stringFixedDistanceSetFilter ---------- *)

Definition enf_sc_pred (sc : en_scanner) (x : Z) : bool :=
  if sc_use_range sc then (sc_first sc <=? x) && (x <=? sc_last sc) else zmem x (sc_chars sc).

Lemma enf_scanner_index_first sc m t :
  enf_ok (FSet sc m) -> enf_first (enf_byte_occ (enf_sc_pred sc) t) (en_scanner_index sc t).
Proof.
  intros [_ Hok]. unfold en_scanner_index, enf_sc_pred. destruct (sc_use_range sc); cbn [negb].
  - rewrite enb_index_in_range_find. apply enf_find_first_first.
  - destruct Hok as [HA Hne]. destruct (sc_chars sc) as [|c [|c' cs]] eqn:E; [congruence| |].
    + eapply enf_first_ext; [|apply enf_index_byte_first]. intros k. unfold enf_byte_occ, zmem. cbn [existsb].
      split; intros [H1 H2]; (split; [exact H1|lia]).
    + apply enf_index_any_ascii. exact HA.
Qed.

Lemma enf_sc_pred_ascii sc m x : enf_ok (FSet sc m) -> enf_sc_pred sc x = true -> 0 <= x <= 127.
Proof.
  intros [_ Hok] H. unfold enf_sc_pred in H. destruct (sc_use_range sc); [lia|].
  destruct Hok as [HA _]. apply zmem_In in H. unfold enf_ascii in HA. rewrite Forall_forall in HA.
  specialize (HA x H). lia.
Qed.

Lemma enf_sc_member_pred sc c : enf_scanner_member sc c -> enf_sc_pred sc c = true.
Proof.
  unfold enf_scanner_member, enf_sc_pred. destruct (sc_use_range sc); [lia|]. apply zmem_In.
Qed.

Lemma enf_set_loop_spec sc m b k0 :
  enf_ok (FSet sc m) -> (k0 <= length (decode b))%nat ->
  forall fuel sa, (boundary b k0 <= sa <= length b)%nat -> (length b + 1 <= fuel + sa)%nat ->
  enf_post_from b k0 (enf_fact (FSet sc m) (runes_of b)) (fun q => boundary b (q + Z.to_nat (sc_distance sc))) sa
    (en_set_loop fuel sc m b (Z.of_nat (boundary b k0)) (Z.of_nat sa)).
Proof.
  intros Hok Hk0. induction fuel as [|f IH]; intros sa Hsa Hf; [lia|].
  cbn [en_set_loop]. unfold zlen.
  assert (HN : forall q, (k0 <= q <= length (decode b))%nat -> enf_fact (FSet sc m) (runes_of b) q ->
            enf_byte_occ (enf_sc_pred sc) b (boundary b (q + Z.to_nat (sc_distance sc)))).
  { intros q _ [_ [c [Hn Hmem]]]. pose proof (enf_sc_member_pred sc c Hmem) as Hp.
    destruct (enf_rune_byte b _ c Hn (enf_sc_pred_ascii sc m c Hok Hp)) as [L Hb].
    split; [exact L|rewrite Hb; exact Hp]. }
  destruct (Z.of_nat sa <? Z.of_nat (length b)) eqn:E.
  - rewrite enb_from_nat.
    apply (enf_fd_step b k0 _ m _ (enf_byte_occ (enf_sc_pred sc) b) sa);
      [exact Hk0|lia|intros q HF; exact (proj1 HF)|exact HN| | |].
    + intros i [L Hp]. pose proof (enf_sc_pred_ascii sc m _ Hok Hp).
      destruct (enf_ascii_byte_rune b i L ltac:(lia)) as (kj & Hkj & Hbj & _). eauto.
    + eapply enf_first_ext; [|exact (enf_scanner_index_first sc m (skipn sa b) Hok)]. intros o. apply enf_byte_occ_skipn.
    + intros kj Hkj Hle ->. exists (S (boundary b kj)).
      pose proof (enb_boundary_S_lt b kj ltac:(lia)). pose proof (boundary_le b (S kj)). split; [lia|].
      replace (Z.of_nat (boundary b kj) + 1) with (Z.of_nat (S (boundary b kj))) by lia. apply IH; lia.
  - apply enf_post_none. intros q Hq Hle HF. destruct (HN q Hq HF) as [L _]. lia.
Qed.

Lemma enf_spec_set sc m : enf_ok (FSet sc m) -> enf_spec (FSet sc m).
Proof.
  intros Hok b k0 Hk0. cbn [enf_ok] in Hok. cbn [en_run_filter].
  apply enf_post_guard; [intros q HF; exact (proj1 HF)|].
  exact (enf_post_fd b k0 _ _ (fun fuel sa => en_set_loop fuel sc m b (Z.of_nat (boundary b k0)) sa) Hk0 (enf_set_loop_spec sc m b k0 Hok Hk0)).
Qed.

(* ---------- stringFixedDistanceStringFilter ---------- *)

Lemma enf_string_loop_spec lit dz m b k0 :
  enb_no_fffd lit -> lit <> [] -> (k0 <= length (decode b))%nat ->
  forall fuel sa, (boundary b k0 <= sa <= length b)%nat -> (length b + 1 <= fuel + sa)%nat ->
  enf_post_from b k0 (enf_fact (FString lit dz m) (runes_of b)) (fun q => boundary b (q + Z.to_nat dz)) sa
    (en_string_loop fuel lit dz m b (Z.of_nat (boundary b k0)) (Z.of_nat sa)).
Proof.
  intros Hnf Hne Hk0. induction fuel as [|f IH]; intros sa Hsa Hf; [lia|].
  cbn [en_string_loop]. unfold zlen.
  assert (HN : forall q, (k0 <= q <= length (decode b))%nat -> enf_fact (FString lit dz m) (runes_of b) q ->
            enb_occ b lit (boundary b (q + Z.to_nat dz))).
  { intros q _ [_ HF]. apply enf_lit_bytes; assumption. }
  destruct (Z.of_nat sa <=? Z.of_nat (length b) - Z.of_nat (length lit)) eqn:E.
  - rewrite enb_from_nat.
    apply (enf_fd_step b k0 _ m _ (enb_occ b lit) sa); [exact Hk0|lia|intros q HF; exact (proj1 HF)|exact HN| | |].
    + intros i. apply enf_lit_occ_boundary; assumption.
    + eapply enf_first_ext; [|exact (enf_index_first (skipn sa b) lit)]. intros o. apply enf_occ_skipn.
    + intros kj Hkj Hle ->. exists (S (boundary b kj)).
      pose proof (enb_boundary_S_lt b kj ltac:(lia)). pose proof (boundary_le b (S kj)). split; [lia|].
      replace (Z.of_nat (boundary b kj) + 1) with (Z.of_nat (S (boundary b kj))) by lia. apply IH; lia.
  - apply enf_post_none. intros q Hq Hle HF.
    pose proof (enb_has_prefix_length _ _ (HN q Hq HF)) as Hl. rewrite skipn_length in Hl. lia.
Qed.

Lemma enf_spec_string lit dz m : enf_ok (FString lit dz m) -> enf_spec (FString lit dz m).
Proof.
  intros (Hd & Hnf & Hne) b k0 Hk0. cbn [en_run_filter].
  apply enf_post_guard; [intros q HF; exact (proj1 HF)|].
  exact (enf_post_fd b k0 _ _ (fun fuel sa => en_string_loop fuel lit dz m b (Z.of_nat (boundary b k0)) sa) Hk0
           (enf_string_loop_spec lit dz m b k0 Hnf Hne Hk0)).
Qed.

(* ---------- stringFixedDistanceCharFilter ---------- *)

Lemma enf_occ_single t c k : enb_occ t [c] k <-> ((k < length t)%nat /\ nth k t 0 = c).
Proof.
  unfold enb_occ. split.
  - intros H. pose proof (enb_has_prefix_length _ _ H) as Hl. rewrite skipn_length in Hl. cbn [length] in Hl.
    assert (L : (k < length t)%nat) by lia. split; [exact L|].
    rewrite (skipn_cons_nth t 0 k L) in H. cbn [en_has_prefix] in H. apply andb_true_iff in H. lia.
  - intros [L H]. rewrite (skipn_cons_nth t 0 k L). cbn [en_has_prefix]. rewrite H, Z.eqb_refl.
    destruct (skipn (S k) t); reflexivity.
Qed.

Lemma enf_index_rune_first t ch :
  valid_rune ch = true -> ch <> rune_error -> enf_first (enb_occ t (encode ch)) (en_index_rune t ch).
Proof.
  intros Hv Hne. unfold en_index_rune. destruct ((0 <=? ch) && (ch <? 128)) eqn:E.
  - rewrite (enf_encode_ascii ch ltac:(lia)).
    eapply enf_first_ext; [|apply enf_index_byte_first]. intros k. rewrite enf_occ_single. unfold enf_byte_occ.
    split; intros [H1 H2]; (split; [exact H1|lia]).
  - replace (ch =? rune_error) with false by lia. rewrite Hv. cbn [negb]. apply enf_index_first.
Qed.

Lemma enf_char_loop_spec ch dz m b k0 :
  ch <> rune_error -> (k0 <= length (decode b))%nat ->
  forall fuel sa, (boundary b k0 <= sa <= length b)%nat -> (length b + 1 <= fuel + sa)%nat ->
  enf_post_from b k0 (enf_fact (FChar ch dz m) (runes_of b)) (fun q => boundary b (q + Z.to_nat dz)) sa
    (en_char_loop fuel ch dz m b (Z.of_nat (boundary b k0)) (Z.of_nat sa)).
Proof.
  intros Hne Hk0.
  destruct (valid_rune ch) eqn:Hv.
  2:{ (* a rune no string decodes to: never found, and never a fact *)
    intros fuel sa Hsa Hf. destruct fuel as [|f]; [lia|]. cbn [en_char_loop].
    assert (E : en_index_rune (en_from b (Z.of_nat sa)) ch = -1).
    { unfold en_index_rune.
      assert (Hrange : (0 <=? ch) && (ch <? 128) = false).
      { pose proof Hv as Hv'. unfold valid_rune, is_surrogate, max_rune in Hv'. lia. }
      rewrite Hrange. replace (ch =? rune_error) with false by lia. rewrite Hv. reflexivity. }
    rewrite E. apply enf_post_none. intros q _ _ [_ HF].
    pose proof (enb_runes_valid b) as F. rewrite Forall_forall in F.
    specialize (F ch (nth_error_In _ _ HF)). congruence. }
  assert (Hg : Forall enb_good [ch]) by (constructor; [split; assumption|constructor]).
  assert (Hlit : encode ch = encode_string [ch]) by (unfold encode_string; cbn [flat_map]; rewrite app_nil_r; reflexivity).
  induction fuel as [|f IH]; intros sa Hsa Hf; [lia|].
  cbn [en_char_loop]. rewrite enb_from_nat.
  apply (enf_fd_step b k0 _ m _ (enb_occ b (encode ch)) sa); [exact Hk0|lia|intros q HF; exact (proj1 HF)| | | |].
  - intros q _ [_ HF]. apply enb_rune_nth in HF. destruct HF as [w HF].
    destruct (enb_rune_bytes b _ ch w HF Hne) as (_ & _ & Hb). unfold enb_occ. rewrite Hb. apply enb_has_prefix_app.
  - intros i Ho. rewrite Hlit in Ho. apply (enf_occ_boundary b [ch]); [exact Hg|discriminate|exact Ho].
  - eapply enf_first_ext; [|exact (enf_index_rune_first (skipn sa b) ch Hv Hne)]. intros o. apply enf_occ_skipn.
  - intros kj Hkj Hle ->. exists (boundary b (S kj)). split; [lia|]. rewrite enb_from_nat.
    pose proof (enf_decode_nth b kj ltac:(lia)) as Hn.
    destruct (decode_rune (skipn (boundary b kj) b)) as [c' w'] eqn:Ed.
    destruct (enb_boundary_step b kj c' w' Hn) as (HS & Hw & _). cbn [snd].
    replace (Z.of_nat w' =? 0) with false by lia.
    replace (Z.of_nat (boundary b kj) + Z.of_nat w') with (Z.of_nat (boundary b (S kj))) by lia.
    pose proof (boundary_le b (S kj)). apply IH; lia.
Qed.

Lemma enf_spec_char ch dz m : enf_ok (FChar ch dz m) -> enf_spec (FChar ch dz m).
Proof.
  intros (Hd & Hne) b k0 Hk0. cbn [en_run_filter].
  apply enf_post_guard; [intros q HF; exact (proj1 HF)|].
  exact (enf_post_fd b k0 _ _ (fun fuel sa => en_char_loop fuel ch dz m b (Z.of_nat (boundary b k0)) sa) Hk0
           (enf_char_loop_spec ch dz m b k0 Hne Hk0)).
Qed.

(* From the byte offset of rune k0 every closure answers; "no candidate" means no fact position at or
   after k0, and a candidate is the byte offset of a rune k' >= k0 that no fact position precedes. *)
Theorem enf_filter_spec f : enf_ok f -> enf_spec f.
Proof.
  destruct f.
  - apply enf_spec_prefix.
  - apply enf_spec_prefixes.
  - apply enf_spec_ascii_set.
  - apply enf_spec_set.
  - apply enf_spec_char.
  - apply enf_spec_string.
  - apply enf_spec_lit_loop.
Qed.

Theorem enf_filter_sound f : enf_ok f ->
  forall (b : list Z) (k0 : nat), (k0 <= length (decode b))%nat ->
    exists c ok, en_run_filter f b (Z.of_nat (boundary b k0)) = Ok (c, ok) /\
      (ok = false -> forall q, (k0 <= q <= length (decode b))%nat -> ~ enf_fact f (runes_of b) q) /\
      (ok = true -> forall q, (k0 <= q <= length (decode b))%nat -> enf_fact f (runes_of b) q ->
                    c <= Z.of_nat (boundary b q)).
Proof.
  intros Hok b k0 Hk0. destruct (enf_filter_spec f Hok b k0 Hk0) as (c & ok & Hr & HB & HC).
  exists c, ok. split; [exact Hr|]. split.
  - intros Hk q Hq. exact (HB Hk q Hq (Nat.le_0_l _)).
  - intros Hk q Hq. exact (proj2 (HC Hk) q Hq (Nat.le_0_l _)).
Qed.

(* One lemma per opcode variant: what [ustep] (VM.step with unbounded stacks) does.
   These are obtained by symbolic evaluation of VM.step itself. *)
From Verif Require Import Base.Prelude Model.Tree Model.Spec Model.VM Gen.RunnerGen Proofs.VMU.
From Coq Require Import Relations ZifyBool.

(* The steps of a symbolic evaluation of [ustep] on a state [mk ...]: unfold the step at the code word H0,
   read an operand (opn), push (tpu, spu), leave by advance (adv), goTo (gto) or backtrack (fail_to), and
   normalise what is left (fin). *)
Ltac start H0 :=
  unfold VMU.ustep, step; cbn [repad VMU.mk pc mode tp track stack crawl mcaps tcap scap]; rewrite H0.
Ltac fin := cbn [bind cont norm VMU.mk repad set_pc set_tp set_track set_stack set_caps set_tcap set_scap pc mode tp track stack crawl mcaps tcap scap app];
            try reflexivity.
Ltac pcs := cbn [repad VMU.mk set_pc set_tp set_track set_stack set_caps pc]; lia.
Ltac adv n H := erewrite (advance_at _ _ _ n) by (first [exact H | pcs]).
Ltac opn a H := erewrite (opnd_at _ _ _ a) by (first [exact H | pcs]).
Ltac gto H := erewrite goto_ok by (first [exact H | room]).
Ltac tpu := rewrite tpush_ok by room; cbn [bind].
Ltac spu := rewrite spush_ok by room; cbn [bind].
Ltac fail_to H3 := (erewrite brk_ok; [| cbn [repad VMU.mk set_pc set_tp set_track set_stack set_caps track]; reflexivity | exact H3 | room | room]).

Section Ops.
Variable e : env.
Variable p : program.
Hypothesis tc_nonneg : 0 <= trackcount p.

Notation ustep := (ustep e p).
Notation mk := VMU.mk.

(* the state entered when backtracking pops the frame head [np] *)
Definition bk (np t : Z) (T S C : list Z) (M : list (list Z)) : vm :=
  mk (Z.abs np) (if np <? 0 then Back2Bit else BackBit) t T S C M.

Lemma ustep_lazybranch pc0 t T S C M L w2 :
  code_at p pc0 = Some Lazybranch -> code_at p (pc0 + 1) = Some L -> code_at p (pc0 + 2) = Some w2 ->
  ustep (mk pc0 0 t T S C M) = Ok (Next (mk (pc0 + 2) 0 t (pc0 :: t :: T) S C M)).
Proof.
  intros H0 H1 H2. start H0. change (Z.land Lazybranch 63) with 23. cbn -[tpush advance].
  tpu. adv (pc0 + 2) H2. fin.
Qed.

Lemma ustep_lazybranch_back pc0 t x T S C M L w2 :
  code_at p pc0 = Some Lazybranch -> code_at p (pc0 + 1) = Some L -> code_at p L = Some w2 ->
  ustep (mk pc0 BackBit t (x :: T) S C M) = Ok (Next (mk L 0 x T S C M)).
Proof.
  intros H0 H1 H2. start H0. change (Z.land Lazybranch 63) with 23. cbn -[goto opnd].
  opn (pc0 + 1) H1. cbn [bind]. gto H2. fin.
Qed.

Lemma ustep_goto pc0 t T S C M L w2 :
  code_at p pc0 = Some Goto -> code_at p (pc0 + 1) = Some L -> code_at p L = Some w2 ->
  ustep (mk pc0 0 t T S C M) = Ok (Next (mk L 0 t T S C M)).
Proof.
  intros H0 H1 H2. start H0. change (Z.land Goto 63) with 38. cbn -[goto opnd].
  opn (pc0 + 1) H1. cbn [bind]. gto H2. fin.
Qed.

Lemma ustep_setmark pc0 t T S C M w2 :
  code_at p pc0 = Some Setmark -> code_at p (pc0 + 1) = Some w2 ->
  ustep (mk pc0 0 t T S C M) = Ok (Next (mk (pc0 + 1) 0 t (pc0 :: T) (t :: S) C M)).
Proof.
  intros H0 H2. start H0. change (Z.land Setmark 63) with 31. cbn -[tpush spush advance].
  spu. tpu. adv (pc0 + 1) H2. fin.
Qed.

Lemma ustep_nullmark pc0 t T S C M w2 :
  code_at p pc0 = Some Nullmark -> code_at p (pc0 + 1) = Some w2 ->
  ustep (mk pc0 0 t T S C M) = Ok (Next (mk (pc0 + 1) 0 t (pc0 :: T) (-1 :: S) C M)).
Proof.
  intros H0 H2. start H0. change (Z.land Nullmark 63) with 30. cbn -[tpush spush advance].
  spu. tpu. adv (pc0 + 1) H2. fin.
Qed.

(* Setmark|Back and Nullmark|Back: pop the mark and keep backtracking *)
Lemma ustep_mark_back pc0 w t np T x S C M w3 :
  code_at p pc0 = Some w -> (w = Setmark \/ w = Nullmark) -> code_at p (Z.abs np) = Some w3 ->
  ustep (mk pc0 BackBit t (np :: T) (x :: S) C M) = Ok (Next (bk np t T S C M)).
Proof.
  intros H0 Hw H3. start H0.
  destruct Hw as [-> | ->]; [change (Z.land Setmark 63) with 31 | change (Z.land Nullmark 63) with 30]; cbn -[brk];
    fail_to H3; fin.
Qed.

Lemma ustep_nothing pc0 t np T S C M w3 :
  code_at p pc0 = Some Nothing -> code_at p (Z.abs np) = Some w3 ->
  ustep (mk pc0 0 t (np :: T) S C M) = Ok (Next (bk np t T S C M)).
Proof.
  intros H0 H3. start H0. change (Z.land Nothing 63) with 22. cbn -[brk].
  fail_to H3; fin.
Qed.

Lemma ustep_stop pc0 t T S C M :
  code_at p pc0 = Some Stop -> ustep (mk pc0 0 t T S C M) = Ok (Done (mk pc0 0 t T S C M)).
Proof. intros H0. start H0. change (Z.land Stop 63) with 40. cbn. reflexivity. Qed.

End Ops.

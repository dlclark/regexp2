(* Proofs about Model/CharClass.v: lookup paths, canonicalize, the add* mutators, singleton
   reduction, MayOverlap. *)
From Verif Require Import Base.Prelude Model.CharClass Proofs.CharClassRanges.
From Coq Require Import ZifyBool Permutation.
Ltac Zify.zify_post_hook ::= Z.div_mod_to_equations.

(* induction over the subtraction chain *)
Section ClsInd.
  Variable P : cls -> Prop.
  Hypothesis Hnone : forall rs cs ng an asc, P (Cls rs cs None ng an asc).
  Hypothesis Hsome : forall rs cs s ng an asc, P s -> P (Cls rs cs (Some s) ng an asc).
  Fixpoint cls_induction (c : cls) : P c :=
    match c with
    | Cls rs cs sb ng an asc =>
      match sb with
      | None => Hnone rs cs ng an asc
      | Some s => Hsome rs cs s ng an asc (cls_induction s)
      end
    end.
End ClsInd.

Definition valid_rune (ch : Z) : Prop := 0 <= ch <= max_rune.

Section Proofs.
  Variable cat_in : Z -> Z -> bool.

  Definition cat_accepts (k : bool * Z) (ch : Z) : bool := xorb (fst k) (cat_in (snd k) ch).
  Definition cats_in (cs : list (bool * Z)) (ch : Z) : bool := existsb (fun k => cat_accepts k ch) cs.

  (* before subtraction *)
  Definition top_in (c : cls) (ch : Z) : bool :=
    xorb (neg c) (mem (ranges c) ch || cats_in (cats c) ch).

  (* plain set algebra on the representation: no fast path, no early exit, no bitmap *)
  Fixpoint plain_in (c : cls) (ch : Z) : bool :=
    match c with
    | Cls rs cs sb ng _ _ =>
      xorb ng (mem rs ch || cats_in cs ch) &&
      negb (match sb with Some s => plain_in s ch | None => false end)
    end.

  Definition sub_in (c : cls) (ch : Z) : bool :=
    match sub c with Some s => plain_in s ch | None => false end.

  Lemma plain_in_top c ch : plain_in c ch = top_in c ch && negb (sub_in c ch).
  Proof. destruct c; reflexivity. Qed.

  Lemma char_in_categories_spec cs ch : char_in_categories cat_in cs ch = cats_in cs ch.
  Proof.
    induction cs as [|[ng name] t IH]; [reflexivity|].
    cbn [char_in_categories cats_in existsb]. unfold cat_accepts at 1; cbn [fst snd].
    fold (cats_in t ch). rewrite IH. destruct (cat_in name ch), ng; reflexivity.
  Qed.

  (* every level has canonical ranges *)
  Fixpoint canonical (c : cls) : Prop :=
    match c with
    | Cls rs _ sb _ _ _ => canonical_ranges rs /\ match sb with Some s => canonical s | None => True end
    end.

  (* every bitmap present is the one prepareASCIIBitmap computes *)
  Fixpoint bitmaps_ok (c : cls) : Prop :=
    match c with
    | Cls rs cs sb ng an asc =>
      match asc with Some bm => bm = ascii_bitmap cat_in (Cls rs cs sb ng an asc) | None => True end /\
      match sb with Some s => bitmaps_ok s | None => True end
    end.

  Lemma testbit_one_shift m k : 0 <= m -> 0 <= k -> Z.testbit (Z.shiftl 1 m) k = (k =? m).
  Proof.
    intros Hm Hk. rewrite Z.shiftl_1_l. rewrite Z.pow2_bits_eqb by lia. apply Z.eqb_sym.
  Qed.

  Lemma bitmap_word_spec p base : base mod 64 = 0 -> 0 <= base ->
    forall n w k, (n <= 64)%nat -> 0 <= k ->
      Z.testbit (bitmap_word p base n w) k = Z.testbit w k || ((k <? Z.of_nat n) && p (base + k)).
  Proof.
    intros Hb Hb0. induction n as [|n IH]; intros w k Hn Hk.
    - cbn. replace (k <? 0) with false by lia. rewrite orb_false_r. reflexivity.
    - cbn [bitmap_word]. rewrite IH by lia.
      assert (Hi : (base + Z.of_nat n) mod 64 = Z.of_nat n).
      { rewrite Z.add_mod by lia. rewrite Hb. rewrite Z.add_0_l. rewrite Z.mod_mod by lia. apply Z.mod_small. lia. }
      rewrite Hi.
      destruct (p (base + Z.of_nat n)) eqn:Ep.
      + rewrite Z.lor_spec. rewrite testbit_one_shift by lia.
        destruct (k =? Z.of_nat n) eqn:Ek.
        * assert (k = Z.of_nat n) by lia. subst k. rewrite Ep.
          replace (Z.of_nat n <? Z.of_nat (S n)) with true by lia. cbn. rewrite !orb_true_r. reflexivity.
        * rewrite orb_false_r. f_equal.
          destruct (k <? Z.of_nat n) eqn:E1.
          -- replace (k <? Z.of_nat (S n)) with true by lia. reflexivity.
          -- replace (k <? Z.of_nat (S n)) with false by lia. reflexivity.
      + destruct (k =? Z.of_nat n) eqn:Ek.
        * assert (k = Z.of_nat n) by lia. subst k. rewrite Ep. rewrite !andb_false_r. reflexivity.
        * f_equal. destruct (k <? Z.of_nat n) eqn:E1.
          -- replace (k <? Z.of_nat (S n)) with true by lia. reflexivity.
          -- replace (k <? Z.of_nat (S n)) with false by lia. reflexivity.
  Qed.

  Lemma bitmap_test_spec c ch : 0 <= ch < 128 ->
    bitmap_test (ascii_bitmap cat_in c) ch = char_in_slow cat_in c ch.
  Proof.
    intros Hc. unfold bitmap_test, ascii_bitmap; cbn [fst snd].
    destruct (ch / 64 =? 0) eqn:E.
    - assert (0 <= ch < 64) by lia.
      rewrite bitmap_word_spec by (try reflexivity; lia).
      rewrite Z.mod_small by lia. rewrite Z.bits_0. cbn [orb].
      replace (ch <? Z.of_nat 64) with true by lia. reflexivity.
    - assert (64 <= ch < 128) by lia.
      rewrite bitmap_word_spec by (try reflexivity; lia).
      rewrite Z.bits_0. cbn [orb].
      replace (ch mod 64) with (ch - 64) by lia.
      replace (ch - 64 <? Z.of_nat 64) with true by lia.
      replace (64 + (ch - 64)) with ch by lia. reflexivity.
  Qed.

  (* ---------------------------------------------------------------- all lookup paths = plain membership *)
  Lemma char_in_unfold c ch :
    char_in cat_in c ch =
    match ascii c with
    | Some bm => if (0 <=? ch) && (ch <? 128) then bitmap_test bm ch else char_in_slow cat_in c ch
    | None => char_in_slow cat_in c ch
    end.
  Proof. reflexivity. Qed.

  Lemma char_in_slow_unfold rs cs sb ng an asc ch :
    char_in_slow cat_in (Cls rs cs sb ng an asc) ch =
    let v := in_ranges rs ch in
    let v := if negb v then (match cs with [] => v | _ => char_in_categories cat_in cs ch end) else v in
    let v := if ng then negb v else v in
    if v then match sb with Some s => negb (char_in cat_in s ch) | None => v end else v.
  Proof. reflexivity. Qed.

  Lemma lookup_agree c : canonical c -> bitmaps_ok c ->
    forall ch, char_in_slow cat_in c ch = plain_in c ch /\ char_in cat_in c ch = plain_in c ch.
  Proof.
    induction c as [rs cs ng an asc | rs cs s ng an asc IH] using cls_induction; intros Hc Hb ch.
    - cbn in Hc, Hb. destruct Hc as [Hc _]. destruct Hb as [Hb _].
      assert (Hs : char_in_slow cat_in (Cls rs cs None ng an asc) ch = plain_in (Cls rs cs None ng an asc) ch).
      { rewrite char_in_slow_unfold. cbn zeta. rewrite (in_ranges_canonical rs ch Hc).
        cbn [plain_in]. rewrite andb_true_r.
        replace (if negb (mem rs ch) then match cs with [] => mem rs ch | _ :: _ => char_in_categories cat_in cs ch end else mem rs ch)
          with (mem rs ch || cats_in cs ch).
        2:{ destruct (mem rs ch); cbn; [reflexivity|]. destruct cs; [reflexivity|]. rewrite char_in_categories_spec. reflexivity. }
        destruct ng, (mem rs ch || cats_in cs ch); reflexivity. }
      split; [exact Hs|].
      rewrite char_in_unfold. cbn [ascii]. destruct asc as [bm|]; [|exact Hs].
      destruct ((0 <=? ch) && (ch <? 128)) eqn:E; [|exact Hs].
      rewrite Hb. rewrite bitmap_test_spec by lia. exact Hs.
    - cbn in Hc, Hb. destruct Hc as [Hc Hcs]. destruct Hb as [Hb Hbs].
      destruct (IH Hcs Hbs ch) as [_ IH2].
      assert (Hs : char_in_slow cat_in (Cls rs cs (Some s) ng an asc) ch = plain_in (Cls rs cs (Some s) ng an asc) ch).
      { rewrite char_in_slow_unfold. cbn zeta. rewrite (in_ranges_canonical rs ch Hc).
        cbn [plain_in]. rewrite IH2.
        replace (if negb (mem rs ch) then match cs with [] => mem rs ch | _ :: _ => char_in_categories cat_in cs ch end else mem rs ch)
          with (mem rs ch || cats_in cs ch).
        2:{ destruct (mem rs ch); cbn; [reflexivity|]. destruct cs; [reflexivity|]. rewrite char_in_categories_spec. reflexivity. }
        destruct ng, (mem rs ch || cats_in cs ch); reflexivity. }
      split; [exact Hs|].
      rewrite char_in_unfold. cbn [ascii]. destruct asc as [bm|]; [|exact Hs].
      destruct ((0 <=? ch) && (ch <? 128)) eqn:E; [|exact Hs].
      rewrite Hb. rewrite bitmap_test_spec by lia. exact Hs.
  Qed.

  (* the individual range paths, on any canonical list *)
  Lemma range_paths_agree rs ch : canonical_ranges rs ->
    linear_scan rs ch = mem rs ch /\ binary_scan rs ch = mem rs ch.
  Proof.
    intros H. destruct (canonical_sorted_from rs H) as [p Hp].
    split; [eapply linear_scan_sorted|eapply binary_scan_sorted]; eauto.
  Qed.

  (* prepareASCIIBitmap keeps the set and produces correct bitmaps *)
  Lemma prepare_bitmaps_ok c : bitmaps_ok c -> bitmaps_ok (prepare_ascii_bitmap cat_in c).
  Proof.
    induction c as [rs cs ng an asc | rs cs s ng an asc IH] using cls_induction; intros Hb.
    - cbn [prepare_ascii_bitmap]. destruct asc; [exact Hb|]. cbn. auto.
    - cbn [prepare_ascii_bitmap]. destruct asc; [exact Hb|].
      cbn in Hb. destruct Hb as [_ Hb]. cbn [bitmaps_ok]. split; [reflexivity|]. apply IH. exact Hb.
  Qed.

  Lemma prepare_plain_in c ch : plain_in (prepare_ascii_bitmap cat_in c) ch = plain_in c ch.
  Proof.
    induction c as [rs cs ng an asc | rs cs s ng an asc IH] using cls_induction.
    - cbn [prepare_ascii_bitmap]. destruct asc; reflexivity.
    - cbn [prepare_ascii_bitmap]. destruct asc; [reflexivity|]. cbn [plain_in]. rewrite IH. reflexivity.
  Qed.

  Lemma prepare_canonical c : canonical c -> canonical (prepare_ascii_bitmap cat_in c).
  Proof.
    induction c as [rs cs ng an asc | rs cs s ng an asc IH] using cls_induction; intros Hc.
    - cbn [prepare_ascii_bitmap]. destruct asc; exact Hc.
    - cbn [prepare_ascii_bitmap]. destruct asc; [exact Hc|]. cbn in *. intuition.
  Qed.

  (* c' represents the same set as c on valid runes, with the same subtraction and bitmap,
     and its ranges are well-formed and canonical *)
  Definition same_set (c c' : cls) : Prop :=
    sub c' = sub c /\ ascii c' = ascii c /\ wf_ranges (ranges c') /\ canonical_ranges (ranges c') /\
    forall ch, valid_rune ch -> top_in c' ch = top_in c ch.

  Lemma same_set_refl c : wf_ranges (ranges c) -> canonical_ranges (ranges c) -> same_set c c.
  Proof. unfold same_set. auto. Qed.

  Lemma same_set_trans c1 c2 c3 : same_set c1 c2 -> same_set c2 c3 -> same_set c1 c3.
  Proof.
    unfold same_set. intros (A1 & A2 & A3 & A4 & A5) (B1 & B2 & B3 & B4 & B5).
    repeat split; try congruence; auto. intros ch Hv. rewrite B5, A5; auto.
  Qed.

  Lemma wf_single a b : 0 <= a -> a <= b -> b <= max_rune -> wf_ranges [(a, b)].
  Proof. intros. constructor; [repeat split; auto|constructor]. Qed.

  Lemma make_anything_top c ch : valid_rune ch -> top_in (make_anything c) ch = negb (neg c).
  Proof.
    intros [H1 H2]. unfold top_in, make_anything, mem, in_range, cats_in; cbn [neg ranges cats existsb fst snd].
    replace ((0 <=? ch) && (ch <=? max_rune)) with true by lia. destruct (neg c); reflexivity.
  Qed.

  Lemma make_anything_shape c : sub (make_anything c) = sub c /\ ascii (make_anything c) = ascii c /\
    wf_ranges (ranges (make_anything c)) /\ canonical_ranges (ranges (make_anything c)).
  Proof. unfold make_anything; cbn. repeat split; auto; [apply wf_single; unfold max_rune; lia|unfold max_rune; lia]. Qed.

  Definition has_top (rs : list (Z * Z)) : Prop := exists w, max_rune - 1 <= w /\ mem rs w = true.

  (* What a normal form that applies makes of c.  It applies only to a class that is not marked negated and
     reaches the last two code points; the result is "anything", or the complement of the range part as one
     range, marked negated.  What needs the ranges of c well-formed says so. *)
  Inductive nf_changed (c : cls) : cls -> Prop :=
  | NfAny : neg c = false -> (wf_ranges (ranges c) -> has_top (ranges c)) ->
      (forall ch, valid_rune ch -> mem (ranges c) ch || cats_in (cats c) ch = true) ->
      nf_changed c (make_anything c)
  | NfFlip p q : neg c = false -> sub c = None -> p <= q ->
      (wf_ranges (ranges c) -> 0 <= p /\ q <= max_rune /\ has_top (ranges c)) ->
      (forall ch, valid_rune ch -> mem (ranges c) ch = negb (in_range (p, q) ch)) ->
      (forall ch, in_range (p, q) ch = true -> cats_in (cats c) ch = false) ->
      nf_changed c (Cls [(p, q)] [] None true (anything c) (ascii c)).

  Lemma wf_cons_inv a b t : wf_ranges ((a, b) :: t) -> 0 <= a /\ a <= b /\ b <= max_rune /\ wf_ranges t.
  Proof. intros H. inversion H as [|? ? W Ht]; subst. destruct W as (W1 & W2 & W3). auto. Qed.

  Lemma flip_intro rs cs an asc p q : p <= q ->
    (wf_ranges rs -> 0 <= p /\ q <= max_rune /\ has_top rs) ->
    (forall ch, valid_rune ch -> mem rs ch = negb ((p <=? ch) && (ch <=? q))) ->
    (forall ch, p <= ch <= q -> cats_in cs ch = false) ->
    nf_changed (Cls rs cs None false an asc) (Cls [(p, q)] [] None true an asc).
  Proof.
    intros H1 H2 H3 H4. apply (NfFlip (Cls rs cs None false an asc) p q); auto.
    intros ch Hc. apply H4. unfold in_range in Hc; cbn [fst snd] in Hc. lia.
  Qed.

  Ltac mlia := unfold max_rune in *; lia.
  Ltac mem_lia := intros; unfold valid_rune, mem, in_range in *; cbn [existsb fst snd]; mlia.

  Lemma nf1_cases c : normal_form_1 c = c \/ nf_changed c (normal_form_1 c).
  Proof.
    unfold normal_form_1. destruct c as [rs cs sb ng an asc]; cbn [neg no_sub no_cats sub cats ranges].
    destruct ng; [left; reflexivity|]. destruct sb; [left; reflexivity|]. destruct cs; [|left; reflexivity].
    cbn [negb andb]. destruct rs as [|[a0 b0] [|[a1 b1] [|]]]; try (left; reflexivity).
    - destruct (a0 =? 0) eqn:E0.
      + destruct (b0 =? max_rune - 1) eqn:E1; [right|left; reflexivity].
        apply flip_intro; [mlia| |mem_lia|reflexivity].
        intros _. split; [mlia|]. split; [mlia|]. exists b0. split; mem_lia.
      + destruct (a0 =? 1) eqn:E1; [|left; reflexivity]. destruct (b0 >=? max_rune) eqn:E2; [right|left; reflexivity].
        apply flip_intro; [mlia| |mem_lia|reflexivity].
        intros _. split; [mlia|]. split; [mlia|]. exists b0. split; mem_lia.
    - destruct ((a0 =? 0) && (b1 >=? max_rune) && (b0 <? a1 - 1)) eqn:E; [right|left; reflexivity].
      apply flip_intro; [mlia| |mem_lia|reflexivity].
      intros Hw. destruct (wf_cons_inv _ _ _ Hw) as (W1 & W2 & W3 & Hw'). destruct (wf_cons_inv _ _ _ Hw') as (W4 & W5 & W6 & _).
      split; [mlia|]. split; [mlia|]. exists b1. split; mem_lia.
  Qed.

  Lemma nf2_cases c : normal_form_2 c = c \/ nf_changed c (normal_form_2 c).
  Proof.
    unfold normal_form_2. destruct (neg c) eqn:Hn; [left; reflexivity|]. cbn [negb andb].
    destruct (no_sub c); [|left; reflexivity].
    destruct (ranges c) as [|[a b] [|]] eqn:Er; try (left; reflexivity).
    destruct ((a =? 0) && (b >=? max_rune)) eqn:E; [right|left; reflexivity].
    apply NfAny; [exact Hn| |]; rewrite Er.
    - intros _. exists b. split; mem_lia.
    - intros ch Hv. apply orb_true_iff. left. mem_lia.
  Qed.

  Lemma nf3_cases c : normal_form_3 cat_in c = c \/ nf_changed c (normal_form_3 cat_in c).
  Proof.
    unfold normal_form_3. destruct c as [rs cs sb ng an asc]; cbn [neg no_sub no_cats sub cats ranges].
    destruct ng; [left; reflexivity|]. destruct sb; [left; reflexivity|]. destruct cs as [|k cs]; [left; reflexivity|].
    cbn [negb andb]. destruct rs as [|[a0 b0] [|[a1 b1] [|]]]; try (left; reflexivity).
    destruct ((a0 =? 0) && (b0 + 2 =? a1) && (b1 =? max_rune)) eqn:E; [right|left; reflexivity].
    assert (Top : wf_ranges [(a0, b0); (a1, b1)] -> 0 <= b0 + 1 /\ b0 + 1 <= max_rune /\ has_top [(a0, b0); (a1, b1)]).
    { intros Hw. destruct (wf_cons_inv _ _ _ Hw) as (W1 & W2 & W3 & Hw'). destruct (wf_cons_inv _ _ _ Hw') as (W4 & W5 & W6 & _).
      split; [lia|]. split; [lia|]. exists b1. split; mem_lia. }
    rewrite char_in_categories_spec. destruct (cats_in (k :: cs) (b0 + 1)) eqn:Eg.
    - apply NfAny; [reflexivity|intros Hw; apply (Top Hw)|]. cbn [ranges cats].
      intros ch Hv. destruct (ch =? b0 + 1) eqn:Ec; [assert (ch = b0 + 1) by lia; subst ch; rewrite Eg; apply orb_true_r|].
      apply orb_true_iff. left. mem_lia.
    - apply flip_intro; [lia|exact Top|mem_lia|].
      intros ch Hc. assert (ch = b0 + 1) by lia. subst ch. exact Eg.
  Qed.

  Lemma nf_changed_fixed c c' : nf_changed c c' -> normal_form_2 c' = c' /\ normal_form_3 cat_in c' = c'.
  Proof.
    intros [Hn _ _|p q _ _ _ _ _ _]; [|split; reflexivity].
    unfold normal_form_2, normal_form_3, make_anything; cbn [neg no_sub no_cats sub cats ranges]. rewrite Hn.
    destruct (sub c); split; reflexivity.
  Qed.

  Lemma nf_cases c :
    normal_form_3 cat_in (normal_form_2 (normal_form_1 c)) = c \/
    nf_changed c (normal_form_3 cat_in (normal_form_2 (normal_form_1 c))).
  Proof.
    destruct (nf1_cases c) as [E1|H1].
    - rewrite E1. destruct (nf2_cases c) as [E2|H2].
      + rewrite E2. apply nf3_cases.
      + right. rewrite (proj2 (nf_changed_fixed _ _ H2)). exact H2.
    - right. destruct (nf_changed_fixed _ _ H1) as [F2 F3]. rewrite F2, F3. exact H1.
  Qed.

  Lemma nf_same_set c : wf_ranges (ranges c) -> canonical_ranges (ranges c) ->
    same_set c (normal_form_3 cat_in (normal_form_2 (normal_form_1 c))).
  Proof.
    intros Hw Hc. destruct (nf_cases c) as [E|H]; [rewrite E; apply same_set_refl; auto|].
    destruct H as [Hn _ Hb|p q Hn Hs Hpq Hb Hm Hk]; unfold same_set.
    - destruct (make_anything_shape c) as (S1 & S2 & S3 & S4). repeat (split; [assumption|]).
      intros ch Hv. rewrite make_anything_top by exact Hv. unfold top_in. rewrite Hn, (Hb ch Hv). reflexivity.
    - destruct (Hb Hw) as (B1 & B2 & _). cbn [sub ascii ranges].
      split; [symmetry; exact Hs|]. split; [reflexivity|]. split; [apply wf_single; assumption|]. split; [cbn; auto|].
      intros ch Hv. unfold top_in; cbn [neg ranges cats]. rewrite Hn, (Hm ch Hv). unfold mem, cats_in at 1; cbn [existsb].
      rewrite !orb_false_r. destruct (in_range (p, q) ch) eqn:Ei; [rewrite (Hk ch Ei)|]; reflexivity.
  Qed.

  Lemma merged_ok c : wf_ranges (ranges c) -> same_set c (set_ranges c (merged (ranges c))).
  Proof.
    intros Hw. unfold same_set, set_ranges; cbn [sub ascii ranges cats neg].
    repeat split; auto; [apply merged_wf; auto|apply merged_canonical; auto|].
    intros ch _. unfold top_in; cbn [neg ranges cats]. rewrite merged_mem by auto. reflexivity.
  Qed.

  Lemma canonicalize_unfold c :
    canonicalize cat_in c =
    match ranges c with
    | [] => c
    | _ => normal_form_3 cat_in (normal_form_2 (normal_form_1 (set_ranges c (merged (ranges c)))))
    end.
  Proof.
    destruct c as [rs cs sb ng an asc]. unfold canonicalize; cbn [ranges].
    destruct rs as [|r1 [|r2 t]]; reflexivity.
  Qed.

  Lemma nf_neg c : neg c = true ->
    normal_form_3 cat_in (normal_form_2 (normal_form_1 c)) = c.
  Proof. intros Hn. destruct (nf_cases c) as [E|[Hf _ _|p q Hf _ _ _ _ _]]; [exact E|congruence..]. Qed.

  Lemma canon_neg c : neg c = true -> canonicalize cat_in c = set_ranges c (merged (ranges c)).
  Proof.
    intros Hn. rewrite canonicalize_unfold. destruct (ranges c) as [|r t] eqn:Er.
    - destruct c; cbn in *; subst; reflexivity.
    - rewrite <- Er. apply nf_neg. exact Hn.
  Qed.

  Lemma canonicalize_same_set c : wf_ranges (ranges c) -> same_set c (canonicalize cat_in c).
  Proof.
    intros Hw. rewrite canonicalize_unfold.
    destruct (ranges c) as [|r t] eqn:Er.
    - apply same_set_refl; rewrite Er; [constructor|exact I].
    - rewrite <- Er in *.
      eapply same_set_trans; [apply merged_ok; exact Hw|].
      apply nf_same_set; cbn [ranges set_ranges]; [apply merged_wf|apply merged_canonical]; exact Hw.
  Qed.

  Lemma same_set_plain c c' ch : same_set c c' -> valid_rune ch -> plain_in c' ch = plain_in c ch.
  Proof.
    intros (S1 & _ & _ & _ & S5) Hv. rewrite !plain_in_top. rewrite S5 by auto.
    unfold sub_in. rewrite S1. reflexivity.
  Qed.

  (* C16 canonicalize_preserves and canonical_sorted *)
  Lemma canonicalize_plain_in c ch : wf_ranges (ranges c) -> valid_rune ch ->
    plain_in (canonicalize cat_in c) ch = plain_in c ch.
  Proof. intros Hw Hv. eapply same_set_plain; eauto. apply canonicalize_same_set; auto. Qed.

  Lemma canonicalize_canonical_ranges c : wf_ranges (ranges c) ->
    canonical_ranges (ranges (canonicalize cat_in c)) /\ wf_ranges (ranges (canonicalize cat_in c)).
  Proof. intros Hw. destruct (canonicalize_same_set c Hw) as (_ & _ & A & B & _). auto. Qed.

  Definition kept (c c' : cls) : Prop :=
    sub c' = sub c /\ ascii c' = ascii c /\ (anything c = true -> anything c' = true).

  Lemma canonicalize_kept c : kept c (canonicalize cat_in c).
  Proof.
    rewrite canonicalize_unfold. unfold kept. destruct (ranges c) eqn:Er; [auto|]. rewrite <- Er.
    destruct (nf_cases (set_ranges c (merged (ranges c)))) as [E|H]; [rewrite E; auto|].
    destruct H as [_ _ _|lo hi _ Hs _ _ _ _]; cbn [sub ascii anything make_anything set_ranges] in *; auto.
  Qed.

  Lemma canonicalize_sub c : sub (canonicalize cat_in c) = sub c /\ ascii (canonicalize cat_in c) = ascii c.
  Proof. destruct (canonicalize_kept c) as (A & B & _). auto. Qed.

  Lemma canonicalize_anything c : anything c = true -> anything (canonicalize cat_in c) = true.
  Proof. apply canonicalize_kept. Qed.

  Definition body (c : cls) (ch : Z) : bool := mem (ranges c) ch || cats_in (cats c) ch.

  Lemma top_in_body c ch : top_in c ch = xorb (neg c) (body c ch).
  Proof. reflexivity. Qed.

  (* the "anything" flag is only ever set together with the full range *)
  Definition any_inv (c : cls) : Prop := anything c = true -> ranges c = [(0, max_rune)].

  Lemma any_inv_body c ch : any_inv c -> anything c = true -> valid_rune ch -> body c ch = true.
  Proof.
    intros Hi Ha [H1 H2]. unfold body. rewrite (Hi Ha). unfold mem, in_range; cbn [existsb fst snd].
    replace ((0 <=? ch) && (ch <=? max_rune)) with true by lia. reflexivity.
  Qed.

  Lemma cats_in_app l1 l2 ch : cats_in (l1 ++ l2) ch = cats_in l1 ch || cats_in l2 ch.
  Proof. unfold cats_in. apply existsb_app. Qed.

  Lemma cats_in_cons k l ch : cats_in (k :: l) ch = cat_accepts k ch || cats_in l ch.
  Proof. reflexivity. Qed.

  Lemma find_cat_some name l b : find_cat name l = Some b -> In (b, name) l.
  Proof.
    induction l as [|[ng n] t IH]; cbn; [discriminate|].
    destruct (n =? name) eqn:E; [|auto]. intros H; injection H as ->. left. f_equal. lia.
  Qed.

  Lemma cats_in_In k l ch : In k l -> cat_accepts k ch = true -> cats_in l ch = true.
  Proof. intros Hin Ha. unfold cats_in. apply existsb_exists. exists k; auto. Qed.

  (* what addCategories leaves alone *)
  Lemma add_categories_loop_shape l : forall c,
    sub (add_categories_loop c l) = sub c /\ ascii (add_categories_loop c l) = ascii c /\
    neg (add_categories_loop c l) = neg c /\
    (wf_ranges (ranges c) -> wf_ranges (ranges (add_categories_loop c l))) /\
    (any_inv c -> any_inv (add_categories_loop c l)).
  Proof.
    induction l as [|[ng name] t IH]; intros c; cbn [add_categories_loop]; [tauto|].
    destruct (find_cat name (cats c)) as [ng2|].
    - destruct (Bool.eqb ng ng2); [apply IH|].
      unfold make_anything; cbn. repeat split; auto.
      intros _. apply wf_single; unfold max_rune; lia.
    - destruct (IH (set_cats c (cats c ++ [(ng, name)]))) as (A & B & C & D & E). cbn in *. tauto.
  Qed.

  Lemma add_categories_loop_top l : forall c ch, valid_rune ch ->
    top_in (add_categories_loop c l) ch = xorb (neg c) (body c ch || cats_in l ch).
  Proof.
    induction l as [|[ng name] t IH]; intros c ch Hv; cbn [add_categories_loop].
    - unfold cats_in; cbn. rewrite orb_false_r. reflexivity.
    - rewrite cats_in_cons.
      destruct (find_cat name (cats c)) as [ng2|] eqn:Ef.
      + apply find_cat_some in Ef.
        destruct (Bool.eqb ng ng2) eqn:Eb.
        * apply Bool.eqb_prop in Eb. subst ng2. rewrite IH by auto. f_equal.
          destruct (cat_accepts (ng, name) ch) eqn:Ea; [|reflexivity].
          unfold body. rewrite (cats_in_In _ _ _ Ef Ea). rewrite !orb_true_r. reflexivity.
        * rewrite make_anything_top by auto.
          assert (Hb : cats_in (cats c) ch || cat_accepts (ng, name) ch = true).
          { destruct (cat_accepts (ng, name) ch) eqn:Ea; [apply orb_true_r|].
            rewrite (cats_in_In _ _ ch Ef); [reflexivity|].
            unfold cat_accepts in *; cbn [fst snd] in *. destruct ng, ng2, (cat_in name ch); cbn in *; congruence. }
          unfold body.
          destruct (cats_in (cats c) ch), (cat_accepts (ng, name) ch); cbn in Hb; try discriminate;
            rewrite ?orb_true_r; cbn; destruct (neg c); reflexivity.
      + rewrite IH by auto. cbn [neg set_cats]. f_equal. unfold body; cbn [ranges cats set_cats].
        rewrite cats_in_app. rewrite cats_in_cons. unfold cats_in at 3; cbn [existsb].
        rewrite orb_false_r. rewrite !orb_assoc. reflexivity.
  Qed.

  (* on an X / not-X clash addCategories makes the class "anything", which is the same set *)
  Lemma add_categories_top c l ch : any_inv c -> valid_rune ch ->
    top_in (add_categories c l) ch = xorb (neg c) (body c ch || cats_in l ch).
  Proof.
    intros Hi Hv. unfold add_categories. destruct (anything c) eqn:Ea.
    - rewrite top_in_body. rewrite (any_inv_body c ch Hi Ea Hv). reflexivity.
    - apply add_categories_loop_top; auto.
  Qed.

  Lemma add_categories_shape c l :
    sub (add_categories c l) = sub c /\ ascii (add_categories c l) = ascii c /\
    neg (add_categories c l) = neg c /\
    (wf_ranges (ranges c) -> wf_ranges (ranges (add_categories c l))) /\
    (any_inv c -> any_inv (add_categories c l)).
  Proof. unfold add_categories. destruct (anything c); [tauto|apply add_categories_loop_shape]. Qed.

  Lemma wf_ranges_app l1 l2 : wf_ranges l1 -> wf_ranges l2 -> wf_ranges (l1 ++ l2).
  Proof. unfold wf_ranges. intros. apply Forall_app; auto. Qed.

  (* canonicalize keeps the anything invariant *)
  Lemma nf_any_inv c : any_inv c -> wf_ranges (ranges c) ->
    any_inv (normal_form_3 cat_in (normal_form_2 (normal_form_1 c))).
  Proof.
    intros Hi Hw. destruct (nf_cases c) as [E|H]; [rewrite E; exact Hi|].
    destruct H as [_ _ _|p q _ _ Hpq Hb Hm _]; [intros _; reflexivity|].
    (* a flipped class was not "anything": its range part left out the rune p *)
    intros Ha. cbn [anything] in Ha. destruct (Hb Hw) as (B1 & B2 & _).
    assert (Hp : valid_rune p) by (unfold valid_rune; lia).
    specialize (Hm p Hp). rewrite (Hi Ha) in Hm. unfold mem, in_range, valid_rune in *; cbn [existsb fst snd] in Hm. lia.
  Qed.

  (* a canonical, well-formed list that contains [0, MaxRune] is exactly that range *)
  Lemma canonical_full rs : wf_ranges rs -> canonical_ranges rs ->
    (forall ch, valid_rune ch -> mem rs ch = true) -> rs = [(0, max_rune)].
  Proof.
    intros Hw Hc Hall. destruct rs as [|[a b] t].
    - specialize (Hall 0). cbn in Hall. unfold valid_rune, max_rune in Hall. assert (false = true) by (apply Hall; lia). discriminate.
    - cbn in Hc. destruct Hc as [Hab Hs]. inversion Hw as [|? ? W1 W2]; subst. destruct W1 as (V1 & V2 & V3); cbn [fst snd] in *.
      assert (Ha : a = 0).
      { pose proof (Hall 0 ltac:(unfold valid_rune, max_rune; lia)) as H0. rewrite mem_cons in H0.
        rewrite (sorted_from_mem_false b t 0 Hs) in H0 by lia. unfold in_range in H0; cbn [fst snd] in H0. lia. }
      subst a.
      destruct (b =? max_rune) eqn:Eb.
      + assert (b = max_rune) by lia. subst b. f_equal.
        destruct t as [|[x y] t']; [reflexivity|]. cbn in Hs. inversion W2 as [|? ? W3 _]; subst. destruct W3 as (U1 & U2 & U3); cbn [fst snd] in *. exfalso; unfold max_rune in *; lia.
      + pose proof (Hall (b + 1) ltac:(unfold valid_rune; lia)) as H1. rewrite mem_cons in H1.
        rewrite (sorted_from_mem_false b t (b + 1) Hs) in H1 by lia. unfold in_range in H1; cbn [fst snd] in H1. lia.
  Qed.

  Definition any_sem (c : cls) : Prop :=
    anything c = true -> forall ch, valid_rune ch -> mem (ranges c) ch = true.

  Lemma any_inv_sem c : any_inv c -> any_sem c.
  Proof.
    intros Hi Ha ch [H1 H2]. rewrite (Hi Ha). unfold mem, in_range; cbn [existsb fst snd]. lia.
  Qed.

  Lemma canonicalize_any_inv c : any_sem c -> wf_ranges (ranges c) -> any_inv (canonicalize cat_in c).
  Proof.
    intros Hi Hw. rewrite canonicalize_unfold. destruct (ranges c) as [|r t] eqn:Er.
    - intros Ha. specialize (Hi Ha 0). rewrite Er in Hi. cbn in Hi.
      assert (false = true) by (apply Hi; unfold valid_rune, max_rune; lia). discriminate.
    - rewrite <- Er in *. apply nf_any_inv.
      + intros Ha. cbn [anything set_ranges] in Ha. cbn [ranges set_ranges].
        apply canonical_full; [apply merged_wf; auto|apply merged_canonical; auto|].
        intros ch Hv. rewrite merged_mem by auto. apply Hi; auto.
      + cbn [ranges set_ranges]. apply merged_wf; auto.
  Qed.

  Lemma add_range_top c lo hi ch : wf_ranges (ranges c) -> 0 <= lo -> lo <= hi -> hi <= max_rune -> valid_rune ch ->
    top_in (add_range cat_in c lo hi) ch = xorb (neg c) (body c ch || ((lo <=? ch) && (ch <=? hi))).
  Proof.
    intros Hw H0 H1 H2 Hv. unfold add_range.
    assert (Hw' : wf_ranges (ranges (set_ranges c (ranges c ++ [(lo, hi)])))).
    { cbn [ranges set_ranges]. apply wf_ranges_app; auto. apply wf_single; auto. }
    destruct (canonicalize_same_set _ Hw') as (_ & _ & _ & _ & S5). rewrite S5 by auto.
    unfold top_in, body; cbn [neg ranges cats set_ranges]. rewrite mem_app.
    unfold mem at 2, in_range; cbn [existsb fst snd]. rewrite orb_false_r.
    f_equal. destruct (mem (ranges c) ch), (cats_in (cats c) ch), ((lo <=? ch) && (ch <=? hi)); reflexivity.
  Qed.

  Lemma add_range_shape c lo hi : wf_ranges (ranges c) -> 0 <= lo -> lo <= hi -> hi <= max_rune ->
    sub (add_range cat_in c lo hi) = sub c /\ ascii (add_range cat_in c lo hi) = ascii c /\
    wf_ranges (ranges (add_range cat_in c lo hi)) /\ canonical_ranges (ranges (add_range cat_in c lo hi)) /\
    (any_inv c -> any_inv (add_range cat_in c lo hi)).
  Proof.
    intros Hw H0 H1 H2. unfold add_range.
    assert (Hw' : wf_ranges (ranges (set_ranges c (ranges c ++ [(lo, hi)])))).
    { cbn [ranges set_ranges]. apply wf_ranges_app; auto. apply wf_single; auto. }
    destruct (canonicalize_same_set _ Hw') as (S1 & S2 & S3 & S4 & _).
    repeat split; auto.
    intros Hi. apply canonicalize_any_inv; auto.
    intros Ha ch Hv. cbn [anything set_ranges] in Ha. cbn [ranges set_ranges]. rewrite mem_app.
    rewrite (any_inv_sem c Hi Ha ch Hv). reflexivity.
  Qed.

  (* what a canonicalizing mutator guarantees about its result *)
  Definition mut_ok (c c' : cls) : Prop :=
    sub c' = sub c /\ ascii c' = ascii c /\ wf_ranges (ranges c') /\ canonical_ranges (ranges c') /\ any_inv c'.

  Lemma canonicalize_mut_ok c : wf_ranges (ranges c) -> any_sem c -> mut_ok c (canonicalize cat_in c).
  Proof.
    intros Hw Hs. destruct (canonicalize_same_set c Hw) as (S1 & S2 & S3 & S4 & _).
    unfold mut_ok. repeat split; auto. apply canonicalize_any_inv; auto.
  Qed.

  Lemma add_ranges_top c rs ch : any_inv c -> wf_ranges (ranges c) -> wf_ranges rs -> valid_rune ch ->
    top_in (add_ranges cat_in c rs) ch = xorb (neg c) (body c ch || mem rs ch).
  Proof.
    intros Hi Hw Hr Hv. unfold add_ranges. destruct (anything c) eqn:Ea.
    - rewrite top_in_body. rewrite (any_inv_body c ch Hi Ea Hv). reflexivity.
    - assert (Hw' : wf_ranges (ranges (set_ranges c (ranges c ++ rs)))) by (cbn [ranges set_ranges]; apply wf_ranges_app; auto).
      destruct (canonicalize_same_set _ Hw') as (_ & _ & _ & _ & S5). rewrite S5 by auto.
      unfold top_in, body; cbn [neg ranges cats set_ranges]. rewrite mem_app. f_equal.
      destruct (mem (ranges c) ch), (cats_in (cats c) ch), (mem rs ch); reflexivity.
  Qed.

  Lemma add_ranges_ok c rs : any_inv c -> wf_ranges (ranges c) -> canonical_ranges (ranges c) -> wf_ranges rs ->
    mut_ok c (add_ranges cat_in c rs).
  Proof.
    intros Hi Hw Hc Hr. unfold add_ranges. destruct (anything c) eqn:Ea.
    - unfold mut_ok. auto.
    - apply (canonicalize_mut_ok (set_ranges c (ranges c ++ rs))).
      + cbn [ranges set_ranges]; apply wf_ranges_app; auto.
      + intros Ha. cbn in Ha. congruence.
  Qed.

  (* addNegativeRanges: the incoming ranges are ascending and end before MaxRune - 1 *)
  Fixpoint ordered (hi : Z) (rs : list (Z * Z)) : Prop :=
    hi < max_rune /\
    match rs with
    | [] => True
    | (a, b) :: t => hi <= a /\ a <= b /\ ordered (b + 1) t
    end.

  Lemma ordered_mem_false rs : forall hi ch, ordered hi rs -> ch < hi -> mem rs ch = false.
  Proof.
    induction rs as [|[a b] t IH]; intros hi ch Ho Hc; [reflexivity|].
    cbn in Ho. destruct Ho as (O0 & O1 & O2 & O3). rewrite mem_cons. unfold in_range; cbn [fst snd].
    rewrite (IH (b + 1) ch O3) by lia. lia.
  Qed.

  Lemma negative_ranges_mem rs : forall hi ch, ordered hi rs ->
    mem (negative_ranges hi rs) ch = (hi <=? ch) && (ch <=? max_rune) && negb (mem rs ch).
  Proof.
    induction rs as [|[a b] t IH]; intros hi ch Ho.
    - cbn in Ho. cbn [negative_ranges]. replace (hi <? max_rune) with true by lia.
      unfold mem, in_range; cbn [existsb fst snd]. lia.
    - cbn in Ho. destruct Ho as (O0 & O1 & O2 & O3). cbn [negative_ranges]. rewrite mem_app.
      rewrite (IH (b + 1) ch O3). rewrite mem_cons. unfold in_range; cbn [fst snd].
      assert (Hb : b + 1 < max_rune) by (destruct t as [|[x y] t']; cbn in O3; lia).
      destruct (hi <? a) eqn:E.
      + unfold mem at 1, in_range; cbn [existsb fst snd].
        destruct (ch <? b + 1) eqn:E2.
        * rewrite (ordered_mem_false t (b + 1) ch O3) by lia. lia.
        * destruct (mem t ch); lia.
      + unfold mem at 1; cbn [existsb].
        destruct (ch <? b + 1) eqn:E2.
        * rewrite (ordered_mem_false t (b + 1) ch O3) by lia. lia.
        * destruct (mem t ch); lia.
  Qed.

  Lemma negative_ranges_wf rs : forall hi, 0 <= hi -> ordered hi rs -> wf_ranges (negative_ranges hi rs).
  Proof.
    induction rs as [|[a b] t IH]; intros hi H0 Ho.
    - cbn in Ho. cbn [negative_ranges]. destruct (hi <? max_rune) eqn:E; [|constructor].
      apply wf_single; lia.
    - cbn in Ho. destruct Ho as (O0 & O1 & O2 & O3). cbn [negative_ranges]. apply wf_ranges_app.
      + destruct (hi <? a) eqn:E; [|constructor]. apply wf_single; try lia.
        assert (b + 1 < max_rune) by (destruct t as [|[x y] t']; cbn in O3; lia). lia.
      + apply IH; [lia|exact O3].
  Qed.

  Lemma add_negative_ranges_top c rs ch : any_inv c -> wf_ranges (ranges c) -> ordered 0 rs -> valid_rune ch ->
    top_in (add_negative_ranges cat_in c rs) ch = xorb (neg c) (body c ch || negb (mem rs ch)).
  Proof.
    intros Hi Hw Ho Hv. unfold add_negative_ranges. destruct (anything c) eqn:Ea.
    - rewrite top_in_body. rewrite (any_inv_body c ch Hi Ea Hv). reflexivity.
    - pose proof (negative_ranges_wf rs 0 ltac:(lia) Ho) as Hn.
      assert (Hw' : wf_ranges (ranges (set_ranges c (ranges c ++ negative_ranges 0 rs)))) by (cbn [ranges set_ranges]; apply wf_ranges_app; auto).
      destruct (canonicalize_same_set _ Hw') as (_ & _ & _ & _ & S5). rewrite S5 by auto.
      unfold top_in, body; cbn [neg ranges cats set_ranges]. rewrite mem_app. rewrite negative_ranges_mem by auto.
      destruct Hv as [Hv1 Hv2]. replace ((0 <=? ch) && (ch <=? max_rune)) with true by lia. cbn [andb]. f_equal.
      destruct (mem (ranges c) ch), (cats_in (cats c) ch), (mem rs ch); reflexivity.
  Qed.

  Lemma add_negative_ranges_ok c rs : any_inv c -> wf_ranges (ranges c) -> canonical_ranges (ranges c) -> ordered 0 rs ->
    mut_ok c (add_negative_ranges cat_in c rs).
  Proof.
    intros Hi Hw Hc Ho. unfold add_negative_ranges. destruct (anything c) eqn:Ea.
    - unfold mut_ok. auto.
    - apply (canonicalize_mut_ok (set_ranges c (ranges c ++ negative_ranges 0 rs))).
      + cbn [ranges set_ranges]; apply wf_ranges_app; auto. apply negative_ranges_wf; [lia|auto].
      + intros Ha. cbn in Ha. congruence.
  Qed.

  Lemma add_range_ok c lo hi : any_inv c -> wf_ranges (ranges c) -> 0 <= lo -> lo <= hi -> hi <= max_rune ->
    mut_ok c (add_range cat_in c lo hi).
  Proof.
    intros Hi Hw H0 H1 H2. destruct (add_range_shape c lo hi Hw H0 H1 H2) as (A & B & C & D & E).
    unfold mut_ok. split; [exact A|split; [exact B|split; [exact C|split; [exact D|exact (E Hi)]]]].
  Qed.

  Lemma add_set_top c s ch : any_inv c -> any_inv s -> wf_ranges (ranges c) -> wf_ranges (ranges s) -> valid_rune ch ->
    top_in (add_set cat_in c s) ch = xorb (neg c) (body c ch || body s ch).
  Proof.
    intros Hi His Hw Hws Hv. unfold add_set. destruct (anything c) eqn:Ea.
    - rewrite top_in_body. rewrite (any_inv_body c ch Hi Ea Hv). reflexivity.
    - destruct (anything s) eqn:Eas.
      + rewrite make_anything_top by auto. rewrite (any_inv_body s ch His Eas Hv). rewrite orb_true_r.
        destruct (neg c); reflexivity.
      + set (c1 := set_ranges c (ranges c ++ ranges s)).
        assert (Hi1 : any_inv c1) by (intros Ha; cbn in Ha; congruence).
        destruct (add_categories_shape c1 (cats s)) as (A & B & C & D & E).
        assert (Hw1 : wf_ranges (ranges c1)) by (cbn [ranges set_ranges c1]; apply wf_ranges_app; auto).
        destruct (canonicalize_same_set _ (D Hw1)) as (_ & _ & _ & _ & S5). rewrite S5 by auto.
        rewrite add_categories_top by auto. cbn [neg set_ranges c1]. f_equal.
        unfold body; cbn [ranges cats set_ranges c1]. rewrite mem_app.
        destruct (mem (ranges c) ch), (cats_in (cats c) ch), (mem (ranges s) ch), (cats_in (cats s) ch); reflexivity.
  Qed.

  Lemma is_singleton_spec c : is_singleton c = true ->
    exists a an asc, c = Cls [(a, a)] [] None false an asc.
  Proof.
    destruct c as [rs cs sb ng an asc]. unfold is_singleton, no_cats, no_sub, single_range; cbn [neg cats sub ranges].
    destruct ng; [discriminate|]. destruct cs; [|discriminate]. destruct sb; [discriminate|].
    destruct rs as [|[a b] [|]]; try discriminate. cbn. intros H. assert (a = b) by lia. subst b. eauto.
  Qed.

  Lemma is_singleton_inverse_spec c : is_singleton_inverse c = true ->
    exists a an asc, c = Cls [(a, a)] [] None true an asc.
  Proof.
    destruct c as [rs cs sb ng an asc]. unfold is_singleton_inverse, no_cats, no_sub, single_range; cbn [neg cats sub ranges].
    destruct ng; [|discriminate]. destruct cs; [|discriminate]. destruct sb; [discriminate|].
    destruct rs as [|[a b] [|]]; try discriminate. cbn. intros H. assert (a = b) by lia. subst b. eauto.
  Qed.

  Lemma reduce_set_sound c r : bitmaps_ok c -> reduce_set c = Ok r ->
    forall ch, reduced_in cat_in r ch = char_in cat_in c ch.
  Proof.
    intros Hb Hr ch. unfold reduce_set in Hr.
    destruct (is_singleton c) eqn:E1.
    - destruct (is_singleton_spec c E1) as (a & an & asc & ->). cbn in Hr. injection Hr as <-.
      destruct (lookup_agree (Cls [(a, a)] [] None false an asc)) with (ch := ch) as [_ H2]; [cbn; auto with zarith|exact Hb|].
      rewrite H2. cbn [reduced_in plain_in]. unfold mem, cats_in, in_range; cbn [existsb fst snd]. lia.
    - destruct (is_singleton_inverse c) eqn:E2.
      + destruct (is_singleton_inverse_spec c E2) as (a & an & asc & ->). cbn in Hr. injection Hr as <-.
        destruct (lookup_agree (Cls [(a, a)] [] None true an asc)) with (ch := ch) as [_ H2]; [cbn; auto with zarith|exact Hb|].
        rewrite H2. cbn [reduced_in plain_in]. unfold mem, cats_in, in_range; cbn [existsb fst snd]. lia.
      + injection Hr as <-. reflexivity.
  Qed.

  (* ---------------------------------------------------------------- statements used by Properties/C16.v *)
  Lemma lookup_paths_agree c ch : canonical c -> bitmaps_ok c ->
    char_in cat_in c ch = plain_in c ch /\
    char_in_slow cat_in c ch = plain_in c ch /\
    char_in cat_in (prepare_ascii_bitmap cat_in c) ch = plain_in c ch /\
    (match ascii c with Some bm => 0 <= ch < 128 -> bitmap_test bm ch = plain_in c ch | None => True end) /\
    linear_scan (ranges c) ch = mem (ranges c) ch /\
    binary_scan (ranges c) ch = mem (ranges c) ch.
  Proof.
    intros Hc Hb. destruct (lookup_agree c Hc Hb ch) as [L1 L2].
    split; [exact L2|]. split; [exact L1|]. split.
    - destruct (lookup_agree _ (prepare_canonical c Hc) (prepare_bitmaps_ok c Hb) ch) as [_ L3].
      rewrite L3. apply prepare_plain_in.
    - split.
      + destruct c as [rs cs sb ng an asc]. cbn [ascii]. destruct asc as [bm|]; [|exact I].
        intros Hr. cbn in Hb. destruct Hb as [Hb _]. rewrite Hb. rewrite bitmap_test_spec by auto. exact L1.
      + apply range_paths_agree. destruct c; cbn in Hc; tauto.
  Qed.

  Lemma add_range_union c lo hi ch :
    neg c = false -> wf_ranges (ranges c) -> 0 <= lo -> lo <= hi -> hi <= max_rune -> valid_rune ch ->
    plain_in (add_range cat_in c lo hi) ch =
    (body c ch || ((lo <=? ch) && (ch <=? hi))) && negb (sub_in c ch).
  Proof.
    intros Hn Hw H0 H1 H2 Hv. rewrite plain_in_top. rewrite add_range_top by auto. rewrite Hn.
    unfold sub_in. destruct (add_range_shape c lo hi Hw H0 H1 H2) as (A & _). rewrite A.
    destruct (body c ch || (lo <=? ch) && (ch <=? hi)); reflexivity.
  Qed.

  Lemma add_set_sub c s : sub (add_set cat_in c s) = sub c.
  Proof.
    unfold add_set. destruct (anything c); [reflexivity|]. destruct (anything s); [reflexivity|].
    rewrite (proj1 (canonicalize_sub _)).
    destruct (add_categories_shape (set_ranges c (ranges c ++ ranges s)) (cats s)) as (A & _). rewrite A. reflexivity.
  Qed.

  Lemma add_set_union c s ch :
    neg c = false -> any_inv c -> any_inv s -> wf_ranges (ranges c) -> wf_ranges (ranges s) -> valid_rune ch ->
    plain_in (add_set cat_in c s) ch = (body c ch || body s ch) && negb (sub_in c ch).
  Proof.
    intros Hn Hi His Hw Hws Hv. rewrite plain_in_top. rewrite add_set_top by auto. rewrite Hn.
    unfold sub_in. rewrite add_set_sub. destruct (body c ch || body s ch); reflexivity.
  Qed.

  Lemma add_categories_union c l ch :
    neg c = false -> any_inv c -> valid_rune ch ->
    plain_in (add_categories c l) ch = (body c ch || cats_in l ch) && negb (sub_in c ch).
  Proof.
    intros Hn Hi Hv. rewrite plain_in_top. rewrite add_categories_top by auto. rewrite Hn.
    unfold sub_in. destruct (add_categories_shape c l) as (A & _). rewrite A.
    destruct (body c ch || cats_in l ch); reflexivity.
  Qed.

  (* "X and not-X" makes the class match every valid rune *)
  Lemma add_categories_clash c ng name ch :
    neg c = false -> sub c = None -> any_inv c -> valid_rune ch -> In (ng, name) (cats c) ->
    plain_in (add_categories c [(negb ng, name)]) ch = true.
  Proof.
    intros Hn Hs Hi Hv Hin. rewrite add_categories_union by auto. unfold sub_in. rewrite Hs. rewrite andb_true_r.
    unfold body. unfold cats_in at 2; cbn [existsb]. rewrite orb_false_r.
    destruct (cat_accepts (negb ng, name) ch) eqn:E; [apply orb_true_r|].
    rewrite (cats_in_In (ng, name) (cats c) ch Hin); [rewrite orb_true_r; reflexivity|].
    unfold cat_accepts in *; cbn [fst snd] in *. destruct ng, (cat_in name ch); cbn in *; congruence.
  Qed.

End Proofs.

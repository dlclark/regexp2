(* char_in_denote under IgnoreCase, end: one bracket level (scan_level), then the induction over the
   bracket-expression syntax (scan_ci, elab_ci) and the theorems C16 quotes, for the order of
   scanCharSet after fix dd13520 (fold case on the members as written, then restore the negate flag and
   canonicalize; the tree pass expands the finished class once more). *)
From Coq Require Import FMapPositive ZifyBool.
From Verif Require Import Base.Prelude Model.CharClass Model.FoldD
  Proofs.CharClassRanges Proofs.CharClassProofs Proofs.CharClassElab
  Proofs.CharClassFold Proofs.CharClassCi Proofs.CharClassCi2 Proofs.CharClassCi3
  Proofs.CharClassCi4 Proofs.CharClassCi5.

Section CiDenote.
  Variable cat_in : Z -> Z -> bool.
  Variable simple_fold to_lower : Z -> Z.
  Hypothesis agree : forall x, In x dom_t -> simple_fold x = fold_t x /\ to_lower x = lower_t x.
  Variable B : Prop.
  Hypothesis Hout : B -> outside_ok simple_fold.
  Variable o : opts.
  Hypothesis Hci : o_ci o = true.

  Notation den := (denote cat_in simple_fold orbit_fuel).
  Notation litd := (lit_den cat_in simple_fold orbit_fuel o).
  Notation catd := (cat_den cat_in simple_fold orbit_fuel o).
  Notation ace := (add_case_equivalences cat_in simple_fold orbit_fuel).
  Notation fin' := (fin B).

  (* code-point members allowed under IgnoreCase lie in the good part of the table *)
  Lemma litd_good it x : wf_item it -> ci_item_ok o it -> litd it x = true -> In x good_dom.
  Proof.
    intros Hw Hok H. unfold lit_den in H.
    destruct it as [a b|ng|ng|ng|ng name|ng k]; cbn [item_lit_exp] in H; cbn in Hok.
    - cbn in H. rewrite orb_false_r in H. apply Hok. lia.
    - destruct (o_ecma o || o_re2 o) eqn:E; [|discriminate]. rewrite (Hok eq_refl) in H.
      cbn [existsb] in H. rewrite den_neg_if in H. cbn [denote] in H. rewrite xorb_false_l, orb_false_r in H.
      apply good_ecma_digit. unfold mem, in_range, ecma_digit_ranges; cbn [existsb fst snd]. rewrite orb_false_r. exact H.
    - destruct (o_ecma o) eqn:Ee.
      + cbn [orb] in Hok. rewrite (Hok eq_refl) in H. cbn [existsb] in H.
        rewrite den_neg_if, den_ranges_exp, xorb_false_l, orb_false_r in H. apply good_ecma_space. exact H.
      + cbn [orb] in Hok. destruct (o_re2 o) eqn:Er; [|discriminate]. rewrite (Hok eq_refl) in H. cbn [existsb] in H.
        rewrite den_neg_if, den_ranges_exp, xorb_false_l, orb_false_r in H. apply good_re2_space. exact H.
    - destruct (o_ecma o || o_re2 o) eqn:E; [|discriminate]. rewrite (Hok eq_refl) in H.
      cbn [existsb] in H. rewrite den_neg_if, den_ranges_exp, xorb_false_l, orb_false_r in H. apply good_ecma_word. exact H.
    - discriminate.
    - subst ng. cbn in Hw. cbn [existsb] in H.
      rewrite den_neg_if, den_ranges_exp, xorb_false_l, orb_false_r in H. apply (good_posix k Hw). exact H.
  Qed.

  Lemma litd_range a b x : litd (IRange a b) x = (a <=? x) && (x <=? b).
  Proof. unfold lit_den. cbn. apply orb_false_r. Qed.

  (* the code-point members of one bracket level are admissible *)
  Lemma litd_okp items : Forall wf_item items -> Forall (ci_item_okx B o items) items ->
    okp B (fun x => existsb (fun it => litd it x) items).
  Proof.
    intros Hw Hok x Hx. apply existsb_exists in Hx. destruct Hx as [it [Hit Hx]].
    rewrite Forall_forall in Hw, Hok. specialize (Hw it Hit). specialize (Hok it Hit).
    destruct it as [a b|ng|ng|ng|ng name|ng k];
      try (left; apply (litd_good _ x Hw Hok Hx)).
    cbn [ci_item_okx] in Hok. rewrite litd_range in Hx. destruct Hok as [Hok|(HB & Ha & Hb & a' & b' & Hin & Hi)].
    - left. apply Hok. lia.
    - right. cbn [wf_item] in Hw. split; [exact HB|]. split; [unfold valid_rune; lia|]. split.
      + intros y Hy. apply existsb_exists. exists (IRange a b). split; [exact Hit|]. rewrite litd_range. lia.
      + destruct Hi as [Hi|Hi]; [right|left]; apply existsb_exists; exists (IRange a' b');
          (split; [exact Hin|rewrite litd_range; lia]).
  Qed.

  Lemma tracked_init : tracked cat_in (Cls [] [] None true false None) (fun _ => false) (fun _ => false).
  Proof. split; [intros _; split; reflexivity|intros H; discriminate]. Qed.

  (* a single member [x, x] of a canonical admissible range list is a good rune *)
  Lemma single_good R x : canonical_ranges R -> okp B (mem R) -> In (x, x) R -> In x good_dom.
  Proof.
    intros Hc Hg Hin. destruct (canonical_gap R (x, x) Hc Hin) as (_ & G1 & G2). cbn [fst snd] in G1, G2.
    assert (Hx : mem R x = true) by (apply mem_true_iff; exists (x, x); split; [exact Hin|cbn; lia]).
    destruct (Hg x Hx) as [G|(_ & Hv & Hcov & _)]; [exact G|].
    destruct (x <? 128) eqn:E; [apply ascii_good; unfold valid_rune in Hv; lia|]. exfalso.
    destruct (x <? 65536) eqn:E2.
    - rewrite (Hcov (x + 1)) in G1 by lia. discriminate.
    - rewrite (Hcov (x - 1)) in G2 by lia. discriminate.
  Qed.

  (* what one bracket level builds.  sbc is the finished subtracted class (if any), sbsem what it means. *)
  Lemma scan_level ng items (sbc : option cls) (sbsem : Z -> bool) :
    Forall wf_item items -> Forall (ci_item_okx B o items) items ->
    match sbc with
    | Some sc => fin' sc /\ forall z, In z dom_t -> plain_in cat_in sc z = sbsem z
    | None => forall z, sbsem z = false
    end ->
    let c0 := fold_left (elab_item cat_in o) items (Cls [] [] None true false None) in
    let c1 := match sbc with Some sc => add_subtraction c0 sc | None => c0 end in
    exists c2, ace (add_lowercase cat_in to_lower c1) = Ok c2 /\
      fin' (canonicalize cat_in (set_neg c2 ng)) /\
      forall z, In z dom_t ->
        plain_in cat_in (canonicalize cat_in (set_neg c2 ng)) z =
        xorb ng (den (CUnion (CFold (CUnion (flat_map (item_lit_exp o) items)) :: flat_map (item_cat_exp o) items)) z)
        && negb (sbsem z).
  Proof.
    intros Hw Hok Hsb c0 c1.
    assert (Hnr : Forall (ci_item_nr o) items).
    { apply Forall_forall. intros it Hit. rewrite Forall_forall in Hok. apply (ci_item_okx_nr B o items it). auto. }
    assert (Hg : Forall (item_guard o) items).
    { apply Forall_forall. intros it Hit. rewrite Forall_forall in Hnr. apply ci_item_nr_guard. auto. }
    destruct (items_step cat_in simple_fold orbit_fuel o items _ scan_inv_init Hw Hg) as [Hinv _].
    pose proof (tracked_items cat_in simple_fold to_lower agree o Hci items _ _ _ scan_inv_init tracked_init Hw Hnr) as Hf.
    fold c0 in Hinv, Hf. destruct Hinv as (I1 & I2 & I3 & I4 & I5 & I6). destruct Hf as [F1 F2].
    assert (HL : forall x, (false || existsb (fun it => litd it x) items) =
                           den (CUnion (flat_map (item_lit_exp o) items)) x)
      by (intros x; cbn [orb denote]; rewrite existsb_flat_map; reflexivity).
    assert (HK : forall x, (false || existsb (fun it => catd it x) items) =
                           existsb (fun e => den e x) (flat_map (item_cat_exp o) items))
      by (intros x; cbn [orb]; rewrite existsb_flat_map; reflexivity).
    (* the shape of c1 *)
    assert (R1 : ranges c1 = ranges c0) by (unfold c1; destruct sbc; reflexivity).
    assert (K1 : cats c1 = cats c0) by (unfold c1; destruct sbc; reflexivity).
    assert (N1 : neg c1 = true) by (unfold c1; destruct sbc; exact I1).
    assert (A1 : anything c1 = anything c0) by (unfold c1; destruct sbc; reflexivity).
    assert (B1 : ascii c1 = None) by (unfold c1; destruct sbc; exact I3).
    assert (S1 : sub c1 = sbc) by (unfold c1; destruct sbc; [reflexivity|exact I2]).
    (* the subtracted class goes through addCaseEquivalences once more *)
    assert (Hsub : exists sb', match sbc with
                               | None => sb' = None
                               | Some s => exists s', ace s = Ok s' /\ sb' = Some s'
                               end /\
                               match sb' with Some s => fin' s | None => True end /\
                               forall z, In z dom_t -> opt_in cat_in sb' z = sbsem z).
    { destruct sbc as [sc|].
      - destruct Hsb as [Fs Ps]. destruct (ace_fin cat_in simple_fold to_lower agree B Hout sc Fs) as (s' & E' & F' & P').
        exists (Some s'). split; [exists s'; auto|]. split; [exact F'|].
        intros z Hz. cbn [opt_in]. rewrite (P' z Hz). apply Ps. exact Hz.
      - exists None. split; [reflexivity|]. split; [exact I|]. intros z _. cbn. symmetry. apply Hsb. }
    destruct Hsub as (sb' & Hace & Fsb & Psb).
    destruct (anything c0) eqn:Ea.
    - (* X and not-X among the categories: the class is "anything" *)
      assert (Hl : add_lowercase cat_in to_lower c1 = c1) by (unfold add_lowercase; rewrite A1; reflexivity).
      rewrite Hl.
      destruct c1 as [rs cs sb ngc an asc] eqn:Ec1. cbn [ranges cats neg anything ascii sub] in *. subst rs cs ngc an asc sb.
      set (c2 := Cls (ranges c0) (cats c0) sb' true true None).
      assert (E2 : ace (Cls (ranges c0) (cats c0) sbc true true None) = Ok c2).
      { cbn [add_case_equivalences]. destruct sbc as [sc|].
        - destruct Hace as (s' & E' & ->). rewrite E'. reflexivity.
        - subst sb'. reflexivity. }
      exists c2. split; [exact E2|].
      set (c3 := set_neg c2 ng).
      assert (Hw3 : wf_ranges (ranges c3)) by exact I4.
      destruct (canonicalize_same_set cat_in c3 Hw3) as (T1 & T2 & T3 & T4 & T5).
      split.
      + apply fin_intro.
        * apply (canon_level cat_in simple_fold to_lower agree B); [exact Hw3|reflexivity|left; reflexivity].
        * rewrite T1. exact Fsb.
      + intros z Hz. pose proof (dom_valid z Hz) as Hv.
        rewrite plain_in_top. rewrite (T5 z Hv). unfold sub_in. rewrite T1. cbn [sub c3 c2 set_neg].
        change (match sb' with Some s => plain_in cat_in s z | None => false end) with (opt_in cat_in sb' z).
        rewrite (Psb z Hz). f_equal.
        rewrite top_in_body. cbn [neg c3 c2 set_neg]. f_equal.
        change (body cat_in c3 z) with (body cat_in c0 z).
        rewrite (any_inv_body cat_in c0 z I6 Ea Hv).
        cbn [denote existsb]. rewrite <- HK. rewrite (F2 eq_refl z). rewrite orb_true_r. reflexivity.
    - destruct (F1 eq_refl) as [G1 G2].
      assert (Hokp : okp B (mem (ranges c1))).
      { rewrite R1. eapply okp_ext; [|exact (litd_okp items Hw Hok)].
        intros x. rewrite G1. reflexivity. }
      destruct (ci_closure_gen cat_in simple_fold to_lower agree B Hout c1 sb')
        as (c2 & Hc2 & M1 & M2 & M3 & M4 & M5 & M6 & M7 & M8 & M9).
      { exact A1. }
      { rewrite R1. exact I4. }
      { exact Hokp. }
      { intros x Hx. apply (single_good (ranges c1) x); [rewrite R1; exact I5|exact Hokp|exact Hx]. }
      { left. exact N1. }
      { rewrite S1. exact Hace. }
      exists c2. split; [exact Hc2|].
      set (c3 := set_neg c2 ng).
      assert (Hw3 : wf_ranges (ranges c3)) by exact M7.
      destruct (canonicalize_same_set cat_in c3 Hw3) as (T1 & T2 & T3 & T4 & T5).
      assert (Hcl : closed_t (ranges c2)).
      { intros x Hx y Hy. pose proof (orb_in_dom x y Hx Hy) as Hyd.
        rewrite (M8 y Hyd), (M8 x Hx).
        rewrite (orbit_agree cat_in simple_fold to_lower agree y Hyd), (orbit_agree cat_in simple_fold to_lower agree x Hx).
        destruct (rel_facts x Hx) as (Fx & _). destruct (Fx y Hy) as (_ & Hxy & Hsub).
        destruct (rel_facts y Hyd) as (Fy & _). destruct (Fy x Hxy) as (_ & _ & Hsub').
        apply eq_true_iff_eq. rewrite !existsb_exists. split; intros (w & W1 & W2); exists w; auto. }
      split.
      + apply fin_intro.
        * apply (canon_level cat_in simple_fold to_lower agree B); [exact Hw3|cbn [ascii c3 set_neg]; rewrite M5; exact B1|right; split; [exact Hcl|exact M9]].
        * rewrite T1. cbn [sub c3 set_neg]. rewrite M3. exact Fsb.
      + intros z Hz. pose proof (dom_valid z Hz) as Hv.
        rewrite plain_in_top. rewrite (T5 z Hv). unfold sub_in. rewrite T1. cbn [sub c3 set_neg]. rewrite M3.
        change (match sb' with Some s => plain_in cat_in s z | None => false end) with (opt_in cat_in sb' z).
        rewrite (Psb z Hz). f_equal.
        unfold top_in. cbn [neg cats ranges c3 set_neg]. rewrite M2, K1, (M8 z Hz), G2. f_equal.
        cbn [denote existsb]. rewrite <- HK. f_equal.
        apply existsb_ext'. intros x. rewrite R1, G1. apply HL.
  Qed.

  (* a finished class and what it means *)
  Definition done (s : csyn) (c : cls) : Prop :=
    fin' c /\ forall z, In z dom_t -> plain_in cat_in c z = den (sem o s) z.

  Theorem scan_ci s : wf_syn s -> ci_syn_okx B o s ->
    exists c, scan_char_set cat_in simple_fold to_lower orbit_fuel o s = Ok c /\ done s c.
  Proof.
    induction s as [ng items | ng items s' IH] using csyn_induction; intros Hw Hok;
      cbn in Hw, Hok; destruct Hw as [Hw Hw']; destruct Hok as [Hok Hok'].
    - destruct (scan_level ng items None (fun _ => false) Hw Hok (fun _ => eq_refl)) as (c2 & E2 & F2 & P2).
      cbn zeta in E2. cbn [scan_char_set bind]. rewrite Hci. rewrite E2. cbn [bind].
      eexists. split; [reflexivity|]. split; [exact F2|].
      intros z Hz. rewrite (P2 z Hz). rewrite sem_unfold. cbn zeta. rewrite Hci. rewrite den_neg_if.
      cbn [negb]. rewrite andb_true_r. reflexivity.
    - destruct (IH Hw' Hok') as (sc & Esc & Fsc & Psc).
      destruct (scan_level ng items (Some sc) (den (sem o s')) Hw Hok (conj Fsc Psc)) as (c2 & E2 & F2 & P2).
      cbn zeta in E2. cbn [scan_char_set]. rewrite Esc. cbn [bind]. rewrite Hci. rewrite E2. cbn [bind].
      eexists. split; [reflexivity|]. split; [exact F2|].
      intros z Hz. rewrite (P2 z Hz). rewrite sem_unfold. cbn zeta. rewrite Hci. cbn [denote]. rewrite den_neg_if.
      reflexivity.
  Qed.

  (* the tree pass: addCaseEquivalences on the finished class *)
  Theorem elab_ci s : wf_syn s -> ci_syn_okx B o s ->
    exists c, elab cat_in simple_fold to_lower orbit_fuel s o = Ok c /\ done s c.
  Proof.
    intros Hw Hok. destruct (scan_ci s Hw Hok) as (c & Ec & Fc & Pc).
    destruct (ace_fin cat_in simple_fold to_lower agree B Hout c Fc) as (c' & Ec' & Fc' & Pc').
    exists c'. split; [unfold elab; rewrite Ec; cbn [bind]; rewrite Hci; exact Ec'|].
    split; [exact Fc'|]. intros z Hz. rewrite (Pc' z Hz). apply Pc. exact Hz.
  Qed.

  (* char_in_denote under IgnoreCase, on the runes of the table *)
  Theorem char_in_denote_cix s c z :
    wf_syn s -> ci_syn_okx B o s -> In z dom_t ->
    elab cat_in simple_fold to_lower orbit_fuel s o = Ok c ->
    char_in cat_in c z = den (sem o s) z.
  Proof.
    intros Hw Hok Hz He. destruct (elab_ci s Hw Hok) as (c' & Hc' & D1 & D3). rewrite Hc' in He. injection He as <-.
    destruct (fin_canonical B c' D1) as [C1 C2].
    destruct (lookup_agree cat_in c' C1 (no_bitmaps_ok cat_in c' C2) z) as [_ L]. rewrite L. apply D3. exact Hz.
  Qed.

  Theorem elab_canonical_cix s c :
    wf_syn s -> ci_syn_okx B o s ->
    elab cat_in simple_fold to_lower orbit_fuel s o = Ok c -> canonical c /\ no_bitmaps c.
  Proof.
    intros Hw Hok He. destruct (elab_ci s Hw Hok) as (c' & Hc' & D1 & _). rewrite Hc' in He. injection He as <-.
    apply (fin_canonical B c' D1).
  Qed.

End CiDenote.

(* members in the good part of the table only: nothing is assumed about SimpleFold outside the table *)
Theorem char_in_denote_ci (cat_in : Z -> Z -> bool) (simple_fold to_lower : Z -> Z)
  (agree : forall x, In x dom_t -> simple_fold x = fold_t x /\ to_lower x = lower_t x)
  (o : opts) (Hci : o_ci o = true) s c z :
  wf_syn s -> ci_syn_ok o s -> In z dom_t ->
  elab cat_in simple_fold to_lower orbit_fuel s o = Ok c ->
  char_in cat_in c z = denote cat_in simple_fold orbit_fuel (sem o s) z.
Proof.
  intros Hw Hok. apply (char_in_denote_cix cat_in simple_fold to_lower agree False (fun f => match f with end) o Hci);
    [exact Hw|apply ci_syn_ok_x; exact Hok].
Qed.

(* the extended domain: complement-shaped ranges admitted *)
Definition ci_syn_ok_ext (o : opts) (s : csyn) : Prop := ci_syn_okx True o s.

Lemma ci_syn_ok_ext_of o s : ci_syn_ok o s -> ci_syn_ok_ext o s.
Proof. apply ci_syn_ok_x. Qed.

Theorem char_in_denote_ci_ext (cat_in : Z -> Z -> bool) (simple_fold to_lower : Z -> Z)
  (agree : forall x, In x dom_t -> simple_fold x = fold_t x /\ to_lower x = lower_t x)
  (Hout : outside_ok simple_fold)
  (o : opts) (Hci : o_ci o = true) s c z :
  wf_syn s -> ci_syn_ok_ext o s -> In z dom_t ->
  elab cat_in simple_fold to_lower orbit_fuel s o = Ok c ->
  char_in cat_in c z = denote cat_in simple_fold orbit_fuel (sem o s) z.
Proof.
  apply (char_in_denote_cix cat_in simple_fold to_lower agree True (fun _ => Hout) o Hci).
Qed.

Theorem elab_canonical_ci_ext (cat_in : Z -> Z -> bool) (simple_fold to_lower : Z -> Z)
  (agree : forall x, In x dom_t -> simple_fold x = fold_t x /\ to_lower x = lower_t x)
  (Hout : outside_ok simple_fold)
  (o : opts) (Hci : o_ci o = true) s c :
  wf_syn s -> ci_syn_ok_ext o s ->
  elab cat_in simple_fold to_lower orbit_fuel s o = Ok c -> canonical c /\ no_bitmaps c.
Proof.
  apply (elab_canonical_cix cat_in simple_fold to_lower agree True (fun _ => Hout) o Hci).
Qed.

(* the table itself as oracle satisfies outside_ok: outside the table fold_t is the identity (fold_t_outside) *)
Lemma outside_ok_fold_t : outside_ok fold_t.
Proof.
  intros x Hv Hn. exists []. split; [|intros y []].
  unfold case_equivalences. change orbit_fuel with (S 7). cbn [fold_orbit].
  rewrite (fold_t_outside x Hn), Z.eqb_refl. reflexivity.
Qed.

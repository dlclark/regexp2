(* Proofs about Model/Parser.v, part 1: the scanners never fault, never run out of fuel (given
   fuel above the length of what is left of the pattern) and only move right - whether they succeed
   or return an error (the capture pre-scan goes on from the cursor an error leaves). *)
From Verif Require Import Base.Prelude Gen.ParseLitGen Model.Escape Model.ParseLit Model.GroupMap Model.CharClass
  Model.Parser Proofs.ParseLitProofs.

Definition psafe {A} (r : pr A) : Prop := match r with PC _ | PF => False | _ => True end.

(* [padv r n]: r is not a fault, and the cursor it leaves (with its result or with its error) has at
   most n runes to the right *)
Definition padv {A} (r : pr (A * list Z)) (n : nat) : Prop :=
  match r with
  | POk (_, q) => (length q <= n)%nat
  | PE _ q => (length q <= n)%nat
  | PO => True
  | PC _ | PF => False
  end.
Definition padv0 (r : pr (list Z)) (n : nat) : Prop :=
  match r with
  | POk q => (length q <= n)%nat
  | PE _ q => (length q <= n)%nat
  | PO => True
  | PC _ | PF => False
  end.

Lemma padv_weaken {A} (r : pr (A * list Z)) n m : padv r n -> (n <= m)%nat -> padv r m.
Proof. destruct r as [[a q]|c q| | |]; cbn; intros; try lia; auto. Qed.
Lemma padv0_weaken (r : pr (list Z)) n m : padv0 r n -> (n <= m)%nat -> padv0 r m.
Proof. destruct r as [q|c q| | |]; cbn; intros; try lia; auto. Qed.
Lemma padv_safe {A} (r : pr (A * list Z)) n : padv r n -> psafe r.
Proof. destruct r as [[a q]|c q| | |]; cbn; auto. Qed.

Lemma pbind_safe {A B} (r : pr A) (f : A -> pr B) :
  psafe r -> (forall a, r = POk a -> psafe (f a)) -> psafe (pbind r f).
Proof. destruct r; cbn; intros H1 H2; auto. Qed.

Lemma pbind_padv {A B} (r : pr (A * list Z)) (f : A * list Z -> pr (B * list Z)) n :
  padv r n -> (forall a q, r = POk (a, q) -> (length q <= n)%nat -> padv (f (a, q)) n) -> padv (pbind r f) n.
Proof. destruct r as [[a q]|c q| | |]; cbn; intros H1 H2; auto. Qed.
Lemma pbind_padv0 {B} (r : pr (list Z)) (f : list Z -> pr (B * list Z)) n :
  padv0 r n -> (forall q, r = POk q -> (length q <= n)%nat -> padv (f q) n) -> padv (pbind r f) n.
Proof. destruct r as [q|c q| | |]; cbn; intros H1 H2; auto. Qed.

Lemma of_res_padv {A} (r : res (A * list Z)) (q : list Z) n :
  adv r n -> (length q <= n)%nat -> padv (of_res r q) n.
Proof.
  intros [F L] Hq. destruct r as [[a rest]|c|w|]; cbn in *; try contradiction.
  - exact (L a rest eq_refl).
  - exact Hq.
Qed.

(* ---------------------------------------------------------------- scanBlank *)
Lemma blank_adv x p : forall md, padv0 (blank x md p) (length p).
Proof.
  induction p as [|c p IH]; intros md; cbn [blank length].
  - destruct md; cbn; lia.
  - destruct md.
    + destruct (x && is_space c); [eapply padv0_weaken; [apply IH|lia]|].
      destruct (x && (c =? 35)); [eapply padv0_weaken; [apply IH|lia]|].
      destruct ((c =? 40) && starts_qhash p); [eapply padv0_weaken; [apply IH|lia]|].
      cbn. lia.
    + destruct (c =? 10).
      * destruct (is_space 10); [eapply padv0_weaken; [apply IH|lia] | cbn; lia].
      * eapply padv0_weaken; [apply IH|lia].
    + destruct (c =? 41); eapply padv0_weaken; try apply IH; lia.
Qed.

Lemma scan_blank_full_adv o p : padv0 (scan_blank_full o p) (length p).
Proof. apply blank_adv. Qed.

(* a blank in front is consumed *)
Lemma blank_strict x c p :
  (x && is_space c = true) \/ (x && (c =? 35) = true) \/ ((c =? 40) && starts_qhash p = true) ->
  padv0 (blank x BNorm (c :: p)) (length p).
Proof.
  intros H. cbn [blank].
  destruct (x && is_space c) eqn:E1; [apply blank_adv|].
  destruct (x && (c =? 35)) eqn:E2; [apply blank_adv|].
  destruct ((c =? 40) && starts_qhash p) eqn:E3; [apply blank_adv|].
  destruct H as [H|[H|H]]; discriminate.
Qed.

(* scanBlank stops in front of a rune it would not skip *)
Lemma blank_head x p : forall md c t, blank x md p = POk (c :: t) ->
  x && is_space c = false /\ x && (c =? 35) = false.
Proof.
  induction p as [|a p IH]; intros md c t H; cbn [blank] in H.
  - destruct md; discriminate.
  - destruct md.
    + destruct (x && is_space a) eqn:E1; [exact (IH _ _ _ H)|].
      destruct (x && (a =? 35)) eqn:E2; [exact (IH _ _ _ H)|].
      destruct ((a =? 40) && starts_qhash p); [exact (IH _ _ _ H)|].
      inversion H; subst. auto.
    + destruct (a =? 10) eqn:E10.
      * destruct (is_space 10) eqn:Es; [exact (IH _ _ _ H)|].
        inversion H; subst. assert (c = 10) by lia. subst c. rewrite Es.
        split; [apply andb_false_r | destruct x; reflexivity].
      * exact (IH _ _ _ H).
    + destruct (a =? 41); exact (IH _ _ _ H).
Qed.

(* ---------------------------------------------------------------- scanOptions *)
Lemma ochars_of_len p : (length (snd (ochars_of p)) <= length p)%nat.
Proof.
  induction p as [|c p IH]; cbn [ochars_of length snd]; [lia|].
  destruct (c =? 45); [destruct (ochars_of p); cbn [snd] in *; lia|].
  destruct (c =? 43); [destruct (ochars_of p); cbn [snd] in *; lia|].
  destruct ((option_from_code c =? 0) || is_only_top_option (option_from_code c)); [cbn; lia|].
  destruct (ochars_of p); cbn [snd] in *; lia.
Qed.
Lemma scan_options_text_len o p o' q : scan_options_text o p = (o', q) -> (length q <= length p)%nat.
Proof.
  unfold scan_options_text. pose proof (ochars_of_len p) as L.
  destruct (ochars_of p) as [cs r]. intros H. inversion H; subst. exact L.
Qed.

(* ---------------------------------------------------------------- scanCharEscape, scanDecimal *)
Lemma hexbrace_err_rest_len p : forall i, (length (hexbrace_err_rest i p) <= length p)%nat.
Proof.
  induction p as [|c p IH]; intros i; cbn [hexbrace_err_rest length]; [lia|].
  destruct (c =? 125); [lia|]. destruct (hex_digit c <? 0); [lia|].
  destruct (1114111 <? i * 16 + hex_digit c); [lia|]. specialize (IH (i * 16 + hex_digit c)). lia.
Qed.
Lemma hex_err_rest_len c : forall p, (length (hex_err_rest c p) <= length p)%nat.
Proof.
  induction c as [|c IH]; intros p; cbn [hex_err_rest]; [lia|].
  destruct p as [|a p]; cbn [length]; [lia|]. destruct (hex_digit a <? 0); [lia|]. specialize (IH p). lia.
Qed.
Lemma scan_hex_err_rest_len c p : (length (scan_hex_err_rest c p) <= length p)%nat.
Proof. unfold scan_hex_err_rest. destruct (Nat.leb c (length p)); [apply hex_err_rest_len | lia]. Qed.

Lemma esc_err_rest_len o p : (length (esc_err_rest o p) <= length p)%nat.
Proof.
  destruct p as [|ch p']; cbn [esc_err_rest length]; [lia|].
  destruct (ch =? 120).
  { destruct p' as [|c2 p'']; cbn [length]; [lia|].
    destruct (c2 =? 123).
    - pose proof (hexbrace_err_rest_len p'' 0). lia.
    - pose proof (scan_hex_err_rest_len pl_x_digits (c2 :: p'')). cbn [length] in *. lia. }
  destruct (ch =? 117).
  { destruct p' as [|c2 p'']; cbn [length]; [lia|].
    destruct ((c2 =? 123) && useE o && useU o).
    - pose proof (hexbrace_err_rest_len p'' 0). lia.
    - pose proof (scan_hex_err_rest_len pl_u_digits (c2 :: p'')). cbn [length] in *. lia. }
  destruct (ch =? 99); [destruct p'; cbn [length]; lia | lia].
Qed.

Lemma dec_err_rest_len p : forall i, (length (dec_err_rest i p) <= length p)%nat.
Proof.
  induction p as [|c p IH]; intros i; cbn [dec_err_rest length]; [lia|].
  destruct ((c - 48 <? 0) || (9 <? c - 48)); [cbn [length]; lia|].
  destruct ((214748364 <? i) || ((i =? 214748364) && (7 <? c - 48))); [lia|].
  specialize (IH (i * 10 + (c - 48))). lia.
Qed.

Lemma decimal_adv p : padv (decimal p) (length p).
Proof. apply of_res_padv; [apply scan_decimal_adv | apply dec_err_rest_len]. Qed.

Lemma tl_len {A} (q : list A) : (length (tl q) <= length q)%nat.
Proof. destruct q; cbn; lia. Qed.
Lemma skipn_len {A} k (q : list A) : (length (skipn k q) <= length q)%nat.
Proof. rewrite skipn_length. lia. Qed.

Section Scan.
Variable is_word_char : Z -> bool.
Variable to_lower : Z -> Z.
Variable simple_fold : Z -> Z.
Variable participates : Z -> bool.
Variable cat_in : Z -> Z -> bool.
Variable cat_name : list Z -> Z.

Local Notation char_escape := (char_escape is_word_char).
Local Notation parse_property := (parse_property is_word_char cat_name).
Local Notation cs_loop := (cs_loop is_word_char cat_name).
Local Notation cs_scan := (cs_scan is_word_char cat_name).

Lemma char_escape_adv o p : p <> [] -> padv (char_escape o p) (length p).
Proof.
  intros Hne. apply of_res_padv; [apply (pl_scan_char_escape_adv is_word_char); exact Hne | apply esc_err_rest_len].
Qed.

(* ---------------------------------------------------------------- parseProperty *)
Lemma prop_name_len p : (length (snd (prop_name is_word_char p)) <= length p)%nat.
Proof.
  induction p as [|c p IH]; cbn [prop_name length snd]; [lia|].
  destruct (is_word_char c || (c =? 45) || (c =? 61)); [|cbn; lia].
  destruct (prop_name is_word_char p); cbn [snd] in *; lia.
Qed.

Lemma prop_lookup_adv nm q n : (length q <= n)%nat -> padv (prop_lookup cat_name nm q) n.
Proof.
  intros H. unfold prop_lookup. destruct (0 <=? cat_name nm); [exact H|].
  destruct (cat_name nm =? -1); [exact H | exact I].
Qed.

Lemma parse_property_adv o p : padv (parse_property o p) (length p).
Proof.
  unfold Parser.parse_property. destruct p as [|ch p1]; [cbn; lia|].
  destruct (negb (ch =? 123) && (negb (useE o) || negb (useU o))); [apply prop_lookup_adv; cbn [length]; lia|].
  destruct (negb (longer (ch :: p1) 2)); [cbn; lia|].
  destruct (negb (ch =? 123)); [cbn; lia|].
  pose proof (prop_name_len p1) as L. destruct (prop_name is_word_char p1) as [nm q]. cbn [snd] in L.
  destruct q as [|c q']; [cbn; lia|].
  cbn [length] in *. destruct (c =? 125); [apply prop_lookup_adv; lia | cbn; lia].
Qed.

(* ---------------------------------------------------------------- scanCharSet *)

Lemma caret_len p : (length (snd (caret p)) <= length p)%nat.
Proof. unfold caret. destruct (hd_is p 94); cbn [snd]; [apply tl_len | lia]. Qed.

Lemma scan_word_len' p : (length (snd (scan_word is_word_char p)) <= length p)%nat.
Proof.
  destruct (scan_word is_word_char p) as [w r] eqn:E. cbn [snd].
  eapply (scan_word_len is_word_char). exact E.
Qed.

(* what the class loop needs of its recursive call: on every pattern of at most n runes it moves right
   and does not fault *)
Definition rec_ok (rec : cs_rec) (n : nat) : Prop :=
  forall so ng q cp ir fi its sb, (length q <= n)%nat -> padv (rec so ng q cp ir fi its sb) (length q).

Section ClassLoopProofs.
Variable rec : cs_rec.
Variable n : nat.
Hypothesis Hrec : rec_ok rec n.

Lemma cs_next_adv so ng q cp ir its sb m :
  (length q <= n)%nat -> (length q <= m)%nat -> padv (cs_next rec so ng q cp ir its sb) m.
Proof. intros H1 H2. eapply padv_weaken; [apply Hrec; exact H1 | exact H2]. Qed.

Lemma cs_nested_adv so' q m :
  (length q <= n)%nat -> (length q <= m)%nat -> padv (cs_nested rec so' q) m.
Proof.
  intros H1 H2. unfold cs_nested. pose proof (caret_len q) as L. destruct (caret q) as [ng2 q2]. cbn [snd] in L.
  eapply padv_weaken; [apply Hrec; lia | lia].
Qed.

Lemma cs_after_sub_adv so ng chprev sb q3 its m :
  (length q3 <= n)%nat -> (length q3 <= m)%nat -> padv (cs_after_sub rec so ng chprev (sb, q3) its) m.
Proof.
  intros H1 H2. unfold cs_after_sub.
  destruct (negb (match q3 with [] => true | _ => false end) && negb (hd_is q3 93)); [exact H2|].
  apply cs_next_adv; assumption.
Qed.

Lemma cs_generic_adv so ng chprev inrange first sub ch tr q its m :
  (length q <= n)%nat -> (length q <= m)%nat ->
  padv (cs_generic rec so ng chprev inrange first sub ch tr q its) m.
Proof.
  intros H1 H2. unfold cs_generic.
  destruct inrange.
  - destruct so.
    { destruct ((ch =? 91) && negb tr && negb first); [|apply cs_next_adv; assumption].
      pose proof (cs_nested_adv true q (length q) H1 (le_n _)) as S.
      destruct (cs_nested rec true q) as [[sb q3]|e q3| | |]; cbn in S; try contradiction; try exact I;
        apply cs_next_adv; lia. }
    destruct ((ch =? 91) && negb tr && negb first).
    + pose proof (cs_nested_adv false q (length q) H1 (le_n _)) as S.
      destruct (cs_nested rec false q) as [[sb q3]|e q3| | |]; cbn [pbind padv] in *; try contradiction; [|lia|exact I].
      apply cs_after_sub_adv; lia.
    + destruct (ch <? chprev); [exact H2 | apply cs_next_adv; assumption].
  - destruct (longer q 1 && hd_is q 45 && negb (nth_is 1 q 93)).
    { pose proof (tl_len q). apply cs_next_adv; lia. }
    destruct (longer q 0 && (ch =? 45) && negb tr && hd_is q 91 && negb first); [|apply cs_next_adv; assumption].
    pose proof (tl_len q) as T.
    destruct so.
    + pose proof (cs_nested_adv true (tl q) (length (tl q)) ltac:(lia) (le_n _)) as S.
      destruct (cs_nested rec true (tl q)) as [[sb q3]|e q3| | |]; cbn in S; try contradiction; try exact I;
        apply cs_next_adv; lia.
    + pose proof (cs_nested_adv false (tl q) (length (tl q)) ltac:(lia) (le_n _)) as S.
      destruct (cs_nested rec false (tl q)) as [[sb q3]|e q3| | |]; cbn [pbind padv] in *; try contradiction; [|lia|exact I].
      apply cs_after_sub_adv; lia.
Qed.

Lemma cs_shorthand_adv so o ng chprev inrange sub it q its m :
  (length q <= n)%nat -> (length q <= m)%nat ->
  padv (cs_shorthand rec so o ng chprev inrange sub it q its) m.
Proof.
  intros H1 H2. unfold cs_shorthand. destruct so; [apply cs_next_adv; assumption|].
  destruct inrange; [|apply cs_next_adv; assumption].
  destruct (negb (useE o)); [exact H2 | apply cs_next_adv; assumption].
Qed.

Lemma cs_prop_adv so o ng chprev inrange sub c2 p2 its m :
  (length p2 <= n)%nat -> (length p2 <= m)%nat ->
  padv (cs_prop is_word_char cat_name rec so o ng chprev inrange sub c2 p2 its) m.
Proof.
  intros H1 H2. unfold cs_prop.
  destruct (useE o && negb (useU o) && (c2 =? 80) && inrange); [exact H2|].
  destruct (useE o && negb (useU o) && (c2 =? 112)).
  - destruct inrange.
    + destruct so; [apply cs_next_adv; assumption|].
      destruct (112 <? chprev); [exact H2 | apply cs_next_adv; assumption].
    + pose proof (skipn_len 2 p2) as SK.
      destruct (longer p2 1 && hd_is p2 45 && negb (nth_is 1 p2 93)); [|apply cs_next_adv; assumption].
      destruct so; [apply cs_next_adv; lia|].
      destruct (nth 1 p2 0 <? 112); [unfold padv; cbn [length] in *; lia | apply cs_next_adv; lia].
  - pose proof (parse_property_adv o p2) as PP.
    destruct (parse_property o p2) as [[id q]|e q| | |]; cbn [pbind padv] in *; try contradiction; [|lia|exact I].
    destruct so; [apply cs_next_adv; lia|].
    destruct inrange; [unfold padv; cbn [length] in *; lia | apply cs_next_adv; lia].
Qed.

Lemma cs_posix_adv so o ng chprev inrange first sub p1 its m :
  (length p1 <= n)%nat -> (length p1 <= m)%nat ->
  padv (cs_posix is_word_char rec so o ng chprev inrange first sub p1 (tl p1) its) m.
Proof.
  intros H1 H2. unfold cs_posix.
  pose proof (tl_len p1) as T1.
  set (P3 := if longer (tl p1) 1 && hd_is (tl p1) 94 then (true, tl (tl p1)) else (false, tl p1)).
  assert (L3 : (length (snd P3) <= length (tl p1))%nat).
  { subst P3. destruct (longer (tl p1) 1 && hd_is (tl p1) 94); cbn [snd]; [apply tl_len | lia]. }
  destruct P3 as [ngp p3]. cbn [snd] in L3.
  pose proof (scan_word_len' p3) as L4. destruct (scan_word is_word_char p3) as [nm p4]. cbn [snd] in L4.
  pose proof (skipn_len 2 p4) as SK.
  destruct (longer p4 1 && hd_is p4 58 && nth_is 1 p4 93).
  - destruct (useRE2 o); [|apply cs_generic_adv; lia].
    destruct (negb so); cbn [pbind]; [|apply cs_next_adv; lia].
    destruct (posix_index nm); cbn [pbind]; [apply cs_next_adv; lia | unfold padv; cbn [length] in *; lia].
  - apply cs_generic_adv; lia.
Qed.

Lemma cs_body_adv so o ng chprev inrange first sub p its :
  (length p <= S n)%nat ->
  padv (cs_body is_word_char cat_name rec so o ng chprev inrange first sub p its) (length p).
Proof.
  intros Hp. unfold cs_body. destruct p as [|ch p1]; [unfold padv; cbn [length] in *; lia|].
  cbn [length] in *.
  destruct (ch =? 93).
  { destruct (negb first || useE o); [unfold padv; cbn [length] in *; lia | apply cs_generic_adv; lia]. }
  destruct (ch =? 92).
  { destruct p1 as [|c2 p2]; [apply cs_generic_adv; cbn [length]; lia|].
    cbn [length] in *.
    destruct ((c2 =? 68) || (c2 =? 100)); [apply cs_shorthand_adv; lia|].
    destruct ((c2 =? 83) || (c2 =? 115)); [apply cs_shorthand_adv; lia|].
    destruct ((c2 =? 87) || (c2 =? 119)); [apply cs_shorthand_adv; lia|].
    destruct ((c2 =? 112) || (c2 =? 80)); [apply cs_prop_adv; lia|].
    destruct (c2 =? 45); [apply cs_next_adv; lia|].
    pose proof (char_escape_adv o (c2 :: p2) ltac:(discriminate)) as CE.
    destruct (char_escape o (c2 :: p2)) as [[c q]|e q| | |]; cbn [pbind padv length] in *; try contradiction; [|lia|exact I].
    apply cs_generic_adv; lia. }
  destruct ((ch =? 91) && hd_is p1 58 && negb inrange); [apply cs_posix_adv; lia|].
  apply cs_generic_adv; lia.
Qed.
End ClassLoopProofs.

Lemma cs_loop_adv fuel : forall so o ng p chprev inrange first items sub,
  (length p < fuel)%nat -> padv (cs_loop fuel so o ng p chprev inrange first items sub) (length p).
Proof.
  induction fuel as [|f IH]; intros so o ng p chprev inrange first items sub Hf; [lia|].
  cbn [Parser.cs_loop].
  destruct f as [|f'].
  - destruct p; [cbn; lia | cbn [length] in Hf; lia].
  - apply (cs_body_adv (fun so' ng' q cp ir fi its sb => cs_loop (S f') so' o ng' q cp ir fi its sb) f').
    + intros so' ng' q cp ir fi its sb Hq. apply IH. lia.
    + lia.
Qed.

Lemma cs_scan_adv fuel so o p : (length p < fuel)%nat -> padv (cs_scan fuel so o p) (length p).
Proof.
  intros Hf. unfold Parser.cs_scan. pose proof (caret_len p) as L. destruct (caret p) as [ng p0]. cbn [snd] in L.
  eapply padv_weaken; [apply cs_loop_adv; lia | exact L].
Qed.

End Scan.

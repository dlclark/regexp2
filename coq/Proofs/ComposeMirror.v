(* C15 at the INTERPRETER level, composed from:

     MirrorProofs.mirror_attempt_partial      attempt (mirror_env e) fuel (flip root) (n - t0)
                                              = the mirror image of  attempt e fuel root t0      (reference semantics)
     CompileBal.compile_correct2_exec_partial whenever exec_at returns on the program compiled from a supported2
                                              tree, the returned state carries Spec.attempt's answer
     SpecTermProofs.spec_attempt_total        the reference attempt answers within term_fuel e root
     CompileSafe.compile_exec_total           with no stack limit and enough interpreter fuel exec_at returns

   chained on BOTH sides (the program of [root] on the text, the program of [flip root] on the reversed text):

     cm_exec_mirror_given_attempt   two returned interpreter states are mirror images (match flag, final position,
                                    every capture stack DENOTED by every slot -- CompileBalDen.Den -- and what
                                    match.go's three readers answer), given one reference attempt that answers
     cm_exec_mirror                 the same with the attempt hypothesis discharged by term_ok / term_fuel
     cm_exec_mirror_all_readings    "denoted" is unambiguous: whatever pair lists read the two arrays, the stacks
                                    are mirror images (Den is functional, flat o rev is injective)
     cm_exec_mirror_total           with no stack limit and enough fuel BOTH calls return, and are mirror images
     cm_find_mirror                 the scan over fresh execute() calls (cm_find: Spec.find with exec_at in place of
                                    Spec.attempt) in direction rtl from start  is the mirror image of the scan of
                                    the flipped program in direction (negb rtl) from n - start
     cm_vm_find_mirror              the same for the interpreter's own scan VM.vm_find (capacities carried from
                                    attempt to attempt), any stack limits, whenever both searches return:
                                    vm_find under a limit = vm_find without (VMLimitSimProofs.vml_limit_transparent),
                                    and without a limit it visits the states of the fresh-call scan up to allocated
                                    capacities (cm_vm_find_fresh, from CompileTotal.run_total / exec_total)

   [flip] changes option words, anchors and the literal of a Multi only, so the compile fragment and the slot
   condition are invariant under it (cm_flip_supported2, cm_flip_groups_ok2, cm_flip_term_ok, cm_flip_term_fuel):
   no hypothesis about [flip root] is left in the statements. *)
From Verif Require Import Base.Prelude.
From Verif Require Import Model.Tree Model.Spec Model.VM Model.Writer Gen.RunnerGen
  Proofs.MirrorProofs
  Proofs.SpecProofs Proofs.SpecBoundsProofs Proofs.SpecTermProofs Proofs.MaskProofs
  Proofs.CompileBase Proofs.CompileDefs Proofs.CompileProofs
  Proofs.CompileBalDen Proofs.CompileBalBase Proofs.CompileBalDefs Proofs.CompileBal
  Proofs.VMLimitProofs Proofs.VMLimitSimProofs Proofs.VMCapacityProofs Proofs.VMU Proofs.VMUBridge
  Proofs.CompileTotal Proofs.CompileLimit Proofs.CompileLimitTop
  Proofs.CompileSafe Proofs.CompileFrag Proofs.ComposeExec.
From Coq Require Import ZifyBool.

(* ============================ flip preserves the fragments ============================ *)

Lemma cm_flip_supported2 : forall t, supported2 (flip t) = supported2 t.
Proof.
  induction t as [kd o ch|kd lk o ch m n|o str|o g|an| | | |o l HF|o l HF|lazy o m n r IHr|o g u r IHr
                 |r IHr|o r IHr|o r IHr|r IHr|o g yes no IHy IHn|o cnd yes no IHc IHy IHn]
    using node_ind'; cbn [flip supported2]; try reflexivity; try assumption.
  - exact (c2_supported_list_map flip l HF).
  - exact (c2_supported_alt_map flip o (flip_opt o) l HF).
  - rewrite IHr. reflexivity.
  - rewrite IHy. destruct no as [x|]; cbn [option_map opt_all] in *; [rewrite IHn|]; reflexivity.
  - rewrite IHc, IHy. destruct no as [x|]; cbn [option_map opt_all] in *; [rewrite IHn|]; reflexivity.
Qed.

Lemma cm_flip_sb_all_list (P : node -> Prop) l :
  Forall (fun t => sb_all P t <-> sb_all P (flip t)) l -> (sb_all_list P l <-> sb_all_list P (map flip l)).
Proof.
  induction 1 as [|x l Hx HF IH]; [split; intros; exact I|]. cbn [map].
  change (sb_all_list P (x :: l)) with (sb_all P x /\ sb_all_list P l).
  change (sb_all_list P (flip x :: map flip l)) with (sb_all P (flip x) /\ sb_all_list P (map flip l)).
  rewrite Hx, IH. reflexivity.
Qed.

(* any node predicate that does not look at option words, anchors and literals is kept by flip *)
Lemma cm_flip_sb_all (P : node -> Prop) :
  (forall t, P (flip t) <-> P t) -> forall t, sb_all P t <-> sb_all P (flip t).
Proof.
  intros HP.
  induction t as [kd o ch|kd lk o ch m n|o str|o g|an| | | |o l HF|o l HF|lazy o m n r IHr|o g u r IHr
                 |r IHr|o r IHr|o r IHr|r IHr|o g yes no IHy IHn|o cnd yes no IHc IHy IHn]
    using node_ind';
    match goal with |- sb_all P ?t <-> _ => pose proof (HP t) as H0 end;
    cbn [flip] in H0 |- *; cbn [sb_all]; try (clear - H0; tauto); try (clear - H0 IHr; tauto).
  - pose proof (cm_flip_sb_all_list P l HF) as HL. unfold sb_all_list in HL. clear - H0 HL. tauto.
  - pose proof (cm_flip_sb_all_list P l HF) as HL. unfold sb_all_list in HL. clear - H0 HL. tauto.
  - destruct no as [x|]; cbn [option_map opt_all] in *; clear - H0 IHy IHn; tauto.
  - destruct no as [x|]; cbn [option_map opt_all] in *; clear - H0 IHc IHy IHn; tauto.
Qed.

Lemma cm_flip_groups_ok2 cs t : groups_ok2 cs t <-> groups_ok2 cs (flip t).
Proof.
  unfold groups_ok2. apply cm_flip_sb_all. intros t0. destruct t0; cbn [flip grp_ok_node2]; reflexivity.
Qed.

Lemma cm_flip_no_group0 t : no_group0 t <-> no_group0 (flip t).
Proof.
  unfold no_group0. apply cm_flip_sb_all. intros t0. destruct t0; cbn [flip sb_not0]; reflexivity.
Qed.

Lemma cm_flip_root o body : flip (NCapture o 0 (-1) body) = NCapture (flip_opt o) 0 (-1) (flip body).
Proof. reflexivity. Qed.

(* ---------- the termination side condition and its fuel ---------- *)
Lemma cm_eqb_negb a d : Bool.eqb (negb a) (negb d) = Bool.eqb a d.
Proof. destruct a, d; reflexivity. Qed.

Lemma cm_forallb_map_ext (f g : node -> bool) l :
  Forall (fun t => f (flip t) = g t) l -> forallb f (map flip l) = forallb g l.
Proof. induction 1 as [|x l Hx HF IH]; [reflexivity|]. cbn [map forallb]. rewrite Hx, IH. reflexivity. Qed.

Lemma cm_flip_dir_ok : forall t d, tm_dir_ok (negb d) (flip t) = tm_dir_ok d t.
Proof.
  induction t as [kd o ch|kd lk o ch m n|o str|o g|an| | | |o l HF|o l HF|lazy o m n r IHr|o g u r IHr
                 |r IHr|o r IHr|o r IHr|r IHr|o g yes no IHy IHn|o cnd yes no IHc IHy IHn]
    using node_ind'; intros d; cbn [flip tm_dir_ok]; try reflexivity;
    try (rewrite flip_is_rtl; apply cm_eqb_negb); try (apply IHr).
  - apply cm_forallb_map_ext. eapply Forall_impl; [|exact HF]. intros a Ha. apply Ha.
  - apply cm_forallb_map_ext. eapply Forall_impl; [|exact HF]. intros a Ha. apply Ha.
  - rewrite IHy. destruct no as [x|]; cbn [option_map opt_all tm_opt] in *; [rewrite IHn|]; reflexivity.
  - rewrite IHy. destruct no as [x|]; cbn [option_map opt_all tm_opt] in *; [rewrite IHn|]; reflexivity.
Qed.

Lemma cm_flip_term_ok : forall t, term_ok (flip t) = term_ok t.
Proof.
  induction t as [kd o ch|kd lk o ch m n|o str|o g|an| | | |o l HF|o l HF|lazy o m n r IHr|o g u r IHr
                 |r IHr|o r IHr|o r IHr|r IHr|o g yes no IHy IHn|o cnd yes no IHc IHy IHn]
    using node_ind'; cbn [flip term_ok]; try reflexivity; try assumption.
  - apply cm_forallb_map_ext. exact HF.
  - apply cm_forallb_map_ext. exact HF.
  - rewrite IHr. change false with (negb true) at 1. change true with (negb false) at 2.
    rewrite !cm_flip_dir_ok. rewrite orb_comm. reflexivity.
  - rewrite IHy. destruct no as [x|]; cbn [option_map opt_all tm_opt] in *; [rewrite IHn|]; reflexivity.
  - rewrite IHc, IHy. destruct no as [x|]; cbn [option_map opt_all tm_opt] in *; [rewrite IHn|]; reflexivity.
Qed.

Lemma cm_flip_fuel_list tl l : Forall (fun t => term_fuel_n tl (flip t) = term_fuel_n tl t) l ->
  tm_fuel_list tl (map flip l) = tm_fuel_list tl l.
Proof.
  induction 1 as [|x l Hx HF IH]; [reflexivity|]. cbn [map].
  change (tm_fuel_list tl (flip x :: map flip l)) with (Nat.max (term_fuel_n tl (flip x)) (tm_fuel_list tl (map flip l))).
  change (tm_fuel_list tl (x :: l)) with (Nat.max (term_fuel_n tl x) (tm_fuel_list tl l)).
  rewrite Hx, IH. reflexivity.
Qed.

Lemma cm_flip_term_fuel_n tl : forall t, term_fuel_n tl (flip t) = term_fuel_n tl t.
Proof.
  induction t as [kd o ch|kd lk o ch m n|o str|o g|an| | | |o l HF|o l HF|lazy o m n r IHr|o g u r IHr
                 |r IHr|o r IHr|o r IHr|r IHr|o g yes no IHy IHn|o cnd yes no IHc IHy IHn]
    using node_ind'; cbn [flip term_fuel_n]; try reflexivity; try (rewrite IHr; reflexivity).
  - f_equal. exact (cm_flip_fuel_list tl l HF).
  - f_equal. exact (cm_flip_fuel_list tl l HF).
  - rewrite IHy. destruct no as [x|]; cbn [option_map opt_all] in *; [rewrite IHn|]; reflexivity.
  - rewrite IHc, IHy. destruct no as [x|]; cbn [option_map opt_all] in *; [rewrite IHn|]; reflexivity.
Qed.

Lemma cm_flip_term_fuel e t : term_fuel (mirror_env e) (flip t) = term_fuel e t.
Proof. unfold term_fuel. rewrite mirror_tlen. apply cm_flip_term_fuel_n. Qed.

(* Den is functional: one pair list denotes one stack *)
Lemma cm_den_fun ps s1 : Den ps s1 -> forall s2, Den ps s2 -> s1 = s2.
Proof.
  induction 1 as [|ps stk i n Hd IH Hi Hn|ps m1 m2 E1 E2|ps k i n ps' stk' m1 m2 E1 E2 Hk Hs Hi Hd IH]; intros s2 H2.
  - inversion H2. reflexivity.
  - inversion H2; subst; try (exfalso; lia). f_equal. apply IH. assumption.
  - inversion H2; subst; try (exfalso; lia). reflexivity.
  - inversion H2 as [|? ? ? ? ? ? ?|? ? ? F1 F2|? k0 i0 n0 ps0' ? ? ? F1 F2 Fk Fs Fi Fd]; subst; try (exfalso; lia).
    assert (Ek : k0 = k) by lia. subst k0. rewrite Hs in Fs. injection Fs as <- <- <-.
    apply IH. exact Fd.
Qed.

Lemma cm_flat_inj : forall a b, flat a = flat b -> a = b.
Proof.
  induction a as [|[i n] a IH]; intros [|[j m] b] H; cbn [flat] in H; try discriminate H; [reflexivity|].
  injection H as -> -> H. f_equal. apply IH. exact H.
Qed.

Lemma cm_flat_rev_inj a b : flat (rev a) = flat (rev b) -> a = b.
Proof.
  intros H. apply cm_flat_inj in H. rewrite <- (rev_involutive a), <- (rev_involutive b), H. reflexivity.
Qed.

(* ============================ the mirror relation between two returned interpreter states ============================ *)

(* [s] returned by the program p on the text of e, [s'] by p' on the reversed text (n = tlen e):
     same match flag;
     no match: both capture tables are the initial ones;
     match: final positions are mirror images, and for every slot g of both programs the two arrays denote
            (CompileBalDen.Den: pairs newest first, balancing markers resolved) capture stacks that are mirror
            images of each other ELEMENT BY ELEMENT IN THE SAME STACK ORDER ([map], as MirrorProofs.mirror_caps):
            (i, len) |-> (n - i - len, len); every capture lies inside the text; and match.go's readers
            (isMatched / matchIndex / matchLength) give mirrored answers. *)
Definition cm_mirrored (e : env) (p p' : program) (s s' : vm) : Prop :=
  matched0 s' = matched0 s /\
  (matched0 s = false ->
     mcaps s = repeat [] (Z.to_nat (capsize p)) /\ mcaps s' = repeat [] (Z.to_nat (capsize p'))) /\
  (matched0 s = true ->
     0 <= tp s <= tlen e /\ tp s' = tlen e - tp s /\
     forall g, 0 <= g < capsize p -> g < capsize p' ->
       exists ps ps' stk,
         nth (Z.to_nat g) (mcaps s) [] = flat (rev ps) /\ Den ps stk /\
         nth (Z.to_nat g) (mcaps s') [] = flat (rev ps') /\ Den ps' (map (mirror_span (tlen e)) stk) /\
         (forall i len, In (i, len) stk -> 0 <= i /\ 0 <= len /\ i + len <= tlen e) /\
         vm_is_matched g (mcaps s) = Some (match stk with [] => false | _ => true end) /\
         vm_is_matched g (mcaps s') = Some (match stk with [] => false | _ => true end) /\
         (forall i len rest, stk = (i, len) :: rest ->
            vm_match_index g (mcaps s) = Some i /\ vm_match_length g (mcaps s) = Some len /\
            vm_match_index g (mcaps s') = Some (tlen e - i - len) /\ vm_match_length g (mcaps s') = Some len)).

(* the hypotheses of the compile theorems about [root] on the text carry over to [flip root] on the reversed text *)
Lemma cm_mirror_side e cs o body t : let root := NCapture o 0 (-1) body in
  tlen e <= INF -> supported2 root = true -> groups_ok2 cs root -> 0 <= t <= tlen e ->
  tlen (mirror_env e) <= INF /\ supported2 (flip root) = true /\ groups_ok2 cs (flip root) /\
  0 <= tlen e - t <= tlen (mirror_env e).
Proof.
  intros root Htl Hs Hg Ht. rewrite mirror_tlen, cm_flip_supported2.
  split; [exact Htl|]. split; [exact Hs|]. split; [apply (proj1 (cm_flip_groups_ok2 cs root)); exact Hg|lia].
Qed.

(* the hypotheses about the two programs, once *)
Definition cm_compiled (p p' : program) (o : Z) (body : node) : Prop :=
  let root := NCapture o 0 (-1) body in
  0 <= trackcount p /\ 0 <= trackcount p' /\
  codes p = fst (compile cfg0 root) /\ strings p = snd (compile cfg0 root) /\
  codes p' = fst (compile cfg0 (flip root)) /\ strings p' = snd (compile cfg0 (flip root)) /\
  mirror_ok root = true /\ supported2 root = true /\
  groups_ok2 (capsize p) root /\ groups_ok2 (capsize p') root.

Theorem cm_exec_mirror_given_attempt :
  forall (e : env) (p p' : program), 0 <= trackcount p -> 0 <= trackcount p' -> tlen e <= INF ->
  forall L L' fuel vfuel vfuel' o body t0 r s s',
  let root := NCapture o 0 (-1) body in
  codes p = fst (compile cfg0 root) -> strings p = snd (compile cfg0 root) ->
  codes p' = fst (compile cfg0 (flip root)) -> strings p' = snd (compile cfg0 (flip root)) ->
  mirror_ok root = true -> supported2 root = true ->
  groups_ok2 (capsize p) root -> groups_ok2 (capsize p') root ->
  0 <= t0 <= tlen e -> Z.of_nat fuel <= INF ->
  Spec.attempt e fuel root t0 = Ok r ->
  exec_at e p L vfuel t0 = Ok s ->
  exec_at (mirror_env e) p' L' vfuel' (tlen e - t0) = Ok s' ->
  cm_mirrored e p p' s s'.
Proof.
  intros e p p' Htc Htc' Htl L L' fuel vfuel vfuel' o body t0 r s s' root
    Hcodes Hstr Hcodes' Hstr' Hmo Hs Hg Hg' Ht0 Hf Hatt Hex Hex'.
  pose proof (mirror_attempt_partial e fuel root t0 Hmo Ht0) as Hatt'.
  rewrite Hatt in Hatt'. cbn [map_res] in Hatt'.
  destruct (cm_mirror_side e (capsize p') o body t0 Htl Hs Hg' Ht0) as (Htl' & Hs' & Hgf & Ht0').
  destruct (compile_correct2_exec_partial e p Htc Htl L fuel vfuel o body t0 r s
              Hcodes Hstr Hs Hg Ht0 Hf Hatt Hex) as (_ & _ & Hr).
  destruct (compile_correct2_exec_partial (mirror_env e) p' Htc' Htl' L' fuel vfuel' (flip_opt o) (flip body)
              (tlen e - t0) (option_map (mirror_st e) r) s'
              Hcodes' Hstr' Hs' Hgf Ht0' Hf Hatt' Hex') as (_ & _ & Hr').
  destruct r as [q|]; cbn [option_map] in Hr', Hatt'.
  - destruct Hr as (Hp & Hc & Hm). destruct Hr' as (Hp' & Hc' & Hm').
    assert (Hok : st_ok e q).
    { eapply sb_attempt_in_bounds; [apply c2_supported_min_ok; exact Hs|exact Ht0|exact Hatt]. }
    assert (Hok' : st_ok (mirror_env e) (mirror_st e q)).
    { eapply sb_attempt_in_bounds; [apply c2_supported_min_ok; exact Hs'|exact Ht0'|exact Hatt']. }
    split; [rewrite Hm, Hm'; reflexivity|]. split; [intros Hm0; rewrite Hm in Hm0; discriminate Hm0|].
    intros _. split; [rewrite Hp; exact (proj1 Hok)|]. split; [rewrite Hp', Hp; reflexivity|].
    intros g Hgr Hgr'.
    assert (Hgr2 : 0 <= g < capsize p') by (clear - Hgr Hgr'; lia).
    destruct (cx_slot_reads e p q (mcaps s) g Hc Hok Hgr) as (ps & Ea & Hd & Hin & R1 & R2).
    destruct (cx_slot_reads (mirror_env e) p' (mirror_st e q) (mcaps s') g Hc' Hok' Hgr2)
      as (ps' & Ea' & Hd' & _ & R1' & R2').
    cbn [mirror_st caps] in Hd', R1', R2'. rewrite mirror_cap_get in Hd', R2'. rewrite mirror_is_matched in R1'.
    exists ps, ps', (cap_get g (caps q)).
    split; [exact Ea|]. split; [exact Hd|]. split; [exact Ea'|]. split; [exact Hd'|]. split; [exact Hin|].
    split; [exact R1|]. split; [exact R1'|].
    intros i len rest E. destruct (R2 i len rest E) as [A1 A2].
    destruct (R2' (tlen e - i - len) len (map (mirror_span (tlen e)) rest)) as [A1' A2'];
      [rewrite E; reflexivity|]. repeat split; assumption.
  - destruct Hr as (HM & Hm). destruct Hr' as (HM' & Hm').
    split; [rewrite Hm, Hm'; reflexivity|]. split; [intros _; split; [exact HM|exact HM']|].
    intros Hm0. rewrite Hm in Hm0. discriminate Hm0.
Qed.

(* the reference attempt answers (SpecTermProofs): term_ok root, and its fuel term_fuel e root in counter range *)
Theorem cm_exec_mirror :
  forall (e : env) (p p' : program), 0 <= trackcount p -> 0 <= trackcount p' -> tlen e <= INF ->
  forall L L' vfuel vfuel' o body t0 s s',
  let root := NCapture o 0 (-1) body in
  codes p = fst (compile cfg0 root) -> strings p = snd (compile cfg0 root) ->
  codes p' = fst (compile cfg0 (flip root)) -> strings p' = snd (compile cfg0 (flip root)) ->
  mirror_ok root = true -> supported2 root = true ->
  groups_ok2 (capsize p) root -> groups_ok2 (capsize p') root ->
  term_ok root = true -> Z.of_nat (term_fuel e root) <= INF ->
  0 <= t0 <= tlen e ->
  exec_at e p L vfuel t0 = Ok s ->
  exec_at (mirror_env e) p' L' vfuel' (tlen e - t0) = Ok s' ->
  cm_mirrored e p p' s s'.
Proof.
  intros e p p' Htc Htc' Htl L L' vfuel vfuel' o body t0 s s' root
    Hcodes Hstr Hcodes' Hstr' Hmo Hs Hg Hg' Hok Hf Ht0 Hex Hex'.
  destruct (spec_attempt_total e root t0 Hok Ht0 (term_fuel e root) (Nat.le_refl _)) as (r & Hatt & _).
  exact (cm_exec_mirror_given_attempt e p p' Htc Htc' Htl L L' (term_fuel e root) vfuel vfuel' o body t0 r s s'
           Hcodes Hstr Hcodes' Hstr' Hmo Hs Hg Hg' Ht0 Hf Hatt Hex Hex').
Qed.

(* "denoted" is unambiguous: ANY two readings of the two arrays of a slot as pair lists with a denotation give
   mirror-image stacks, same order *)
Theorem cm_exec_mirror_all_readings :
  forall (e : env) (p p' : program) (s s' : vm), cm_mirrored e p p' s s' -> matched0 s = true ->
  forall g, 0 <= g < capsize p -> g < capsize p' ->
  forall ps stk ps' stk',
    nth (Z.to_nat g) (mcaps s) [] = flat (rev ps) -> Den ps stk ->
    nth (Z.to_nat g) (mcaps s') [] = flat (rev ps') -> Den ps' stk' ->
    stk' = map (mirror_span (tlen e)) stk /\
    stk = map (mirror_span (tlen e)) stk' /\
    (forall i len, In (i, len) stk -> 0 <= i /\ 0 <= len /\ i + len <= tlen e).
Proof.
  intros e p p' s s' (_ & _ & HM) Hm g Hg Hg' ps stk ps' stk' Ea Hd Ea' Hd'.
  destruct (HM Hm) as (_ & _ & HG). destruct (HG g Hg Hg') as (qs & qs' & st0 & Fa & Fd & Fa' & Fd' & Hin & _).
  rewrite Ea in Fa. apply cm_flat_rev_inj in Fa. subst qs.
  rewrite Ea' in Fa'. apply cm_flat_rev_inj in Fa'. subst qs'.
  pose proof (cm_den_fun ps stk Hd st0 Fd) as E. subst st0.
  pose proof (cm_den_fun ps' stk' Hd' _ Fd') as E'. subst stk'.
  split; [reflexivity|]. split; [|exact Hin].
  rewrite map_map. rewrite <- (map_id stk) at 1. apply map_ext. intros a. symmetry. apply mirror_span_invol.
Qed.

(* ============================ both calls return ============================ *)
(* no stack limit, enough interpreter fuel: "both return" is a conclusion.  [track_count (codes p) <= trackcount p]
   (the runner's trackcount is the writer's count) is compile_exec_total's hypothesis. *)
Theorem cm_exec_mirror_total :
  forall (e : env) (p p' : program), 0 <= trackcount p -> 0 <= trackcount p' ->
  track_count (codes p) <= trackcount p -> track_count (codes p') <= trackcount p' -> tlen e <= INF ->
  forall o body t0,
  let root := NCapture o 0 (-1) body in
  codes p = fst (compile cfg0 root) -> strings p = snd (compile cfg0 root) ->
  codes p' = fst (compile cfg0 (flip root)) -> strings p' = snd (compile cfg0 (flip root)) ->
  mirror_ok root = true -> supported2 root = true ->
  groups_ok2 (capsize p) root -> groups_ok2 (capsize p') root ->
  term_ok root = true -> Z.of_nat (term_fuel e root) <= INF ->
  0 <= t0 <= tlen e ->
  exists vfuel0 : nat, forall L L' vfuel vfuel', L < 0 -> L' < 0 -> (vfuel0 <= vfuel)%nat -> (vfuel0 <= vfuel')%nat ->
    exists s s', exec_at e p L vfuel t0 = Ok s /\
                 exec_at (mirror_env e) p' L' vfuel' (tlen e - t0) = Ok s' /\
                 cm_mirrored e p p' s s'.
Proof.
  intros e p p' Htc Htc' Htk Htk' Htl o body t0 root Hcodes Hstr Hcodes' Hstr' Hmo Hs Hg Hg' Hok Hf Ht0.
  destruct (spec_attempt_total e root t0 Hok Ht0 (term_fuel e root) (Nat.le_refl _)) as (r & Hatt & _).
  pose proof (mirror_attempt_partial e (term_fuel e root) root t0 Hmo Ht0) as Hatt'.
  rewrite Hatt in Hatt'. cbn [map_res] in Hatt'.
  destruct (cm_mirror_side e (capsize p') o body t0 Htl Hs Hg' Ht0) as (Htl' & Hs' & Hgf & Ht0').
  pose proof (compile_exec_total e p Htc Htk Htl (term_fuel e root) o body t0 r Hcodes Hstr Hs Hg Ht0 Hf Hatt)
    as [n Hn].
  pose proof (compile_exec_total (mirror_env e) p' Htc' Htk' Htl' (term_fuel e root) (flip_opt o) (flip body)
              (tlen e - t0) (option_map (mirror_st e) r) Hcodes' Hstr' Hs' Hgf Ht0' Hf Hatt') as [n' Hn'].
  exists (S (Nat.max n n')). intros L L' vfuel vfuel' HL HL' Hv Hv'.
  assert (Hnv : (n < 1000 * vfuel)%nat) by (apply clt_fuel_enough; clear - Hv; lia).
  assert (Hnv' : (n' < 1000 * vfuel')%nat) by (apply clt_fuel_enough; clear - Hv'; lia).
  pose proof (proj2 (Hn L vfuel) HL Hnv) as [s Hx]. pose proof (proj2 (Hn' L' vfuel') HL' Hnv') as [s' Hx'].
  exists s, s'. split; [exact Hx|]. split; [exact Hx'|].
  exact (cm_exec_mirror_given_attempt e p p' Htc Htc' Htl L L' (term_fuel e root) vfuel vfuel' o body t0 r s s'
           Hcodes Hstr Hcodes' Hstr' Hmo Hs Hg Hg' Ht0 Hf Hatt Hx Hx').
Qed.

(* ============================ the scan over fresh execute() calls ============================ *)
(* Spec.scan_from / Spec.find with one interpreter call (VM.exec_at, a fresh runner) in place of Spec.attempt.
   VM.vm_find differs: it carries the grown stack capacities from one attempt to the next (related to this scan
   further down, cm_vm_find_fresh). *)
Fixpoint cm_scan (e : env) (p : program) (L : Z) (vfuel : nat) (n : nat) (rtl : bool) (t : Z) : res (option vm) :=
  match n with
  | O => Ok None
  | S n' =>
      do s <- exec_at e p L vfuel t ;
      if matched0 s then Ok (Some s)
      else if (if rtl then t <=? 0 else tlen e <=? t) then Ok None
      else cm_scan e p L vfuel n' rtl (if rtl then t - 1 else t + 1)
  end.

Definition cm_find (e : env) (p : program) (L : Z) (vfuel : nat) (rtl : bool) (start prevlen : Z) : res (option vm) :=
  let stop := if rtl then 0 else tlen e in
  if (prevlen =? 0) && (start =? stop) then Ok None
  else let p0 := if prevlen =? 0 then (if rtl then start - 1 else start + 1) else start in
       cm_scan e p L vfuel (S (Z.to_nat (tlen e))) rtl p0.

Definition cm_opt_mirrored (e : env) (p p' : program) (x x' : option vm) : Prop :=
  match x, x' with
  | None, None => True
  | Some s, Some s' => cm_mirrored e p p' s s'
  | _, _ => False
  end.

(* the scan's stop test and step, seen from the other end of a text of length n *)
Lemma cm_stop_flip : forall (rtl : bool) n t,
  (if negb rtl then n - t <=? 0 else n <=? n - t) = (if rtl then t <=? 0 else n <=? t).
Proof. intros [|] n t; cbn [negb]; lia. Qed.

Lemma cm_step_flip : forall (rtl : bool) n t,
  (if negb rtl then n - t - 1 else n - t + 1) = n - (if rtl then t - 1 else t + 1).
Proof. intros [|] n t; cbn [negb]; lia. Qed.

Section Scan.
Variable e : env.
Variables p p' : program.
Variables o : Z.
Variable body : node.
Let root := NCapture o 0 (-1) body.
Hypothesis Htc : 0 <= trackcount p.
Hypothesis Htc' : 0 <= trackcount p'.
Hypothesis Htl : tlen e <= INF.
Hypothesis Hcodes : codes p = fst (compile cfg0 root).
Hypothesis Hstr : strings p = snd (compile cfg0 root).
Hypothesis Hcodes' : codes p' = fst (compile cfg0 (flip root)).
Hypothesis Hstr' : strings p' = snd (compile cfg0 (flip root)).
Hypothesis Hmo : mirror_ok root = true.
Hypothesis Hs : supported2 root = true.
Hypothesis Hg : groups_ok2 (capsize p) root.
Hypothesis Hg' : groups_ok2 (capsize p') root.
Hypothesis Hok : term_ok root = true.
Hypothesis Hf : Z.of_nat (term_fuel e root) <= INF.
Variables L L' : Z.
Variables vfuel vfuel' : nat.

Lemma cm_scan_mirror_sec : forall n rtl t x x', 0 <= t <= tlen e ->
  cm_scan e p L vfuel n rtl t = Ok x ->
  cm_scan (mirror_env e) p' L' vfuel' n (negb rtl) (tlen e - t) = Ok x' ->
  cm_opt_mirrored e p p' x x'.
Proof.
  induction n as [|n IH]; intros rtl t x x' Ht Hx Hx'; cbn [cm_scan] in Hx, Hx'.
  - injection Hx as <-. injection Hx' as <-. exact I.
  - destruct (exec_at e p L vfuel t) as [s| | |] eqn:Ex; cbn [bind] in Hx; try discriminate Hx.
    destruct (exec_at (mirror_env e) p' L' vfuel' (tlen e - t)) as [s'| | |] eqn:Ex'; cbn [bind] in Hx';
      try discriminate Hx'.
    pose proof (cm_exec_mirror e p p' Htc Htc' Htl L L' vfuel vfuel' o body t s s'
                  Hcodes Hstr Hcodes' Hstr' Hmo Hs Hg Hg' Hok Hf Ht Ex Ex') as HM.
    pose proof HM as (Hm & _). rewrite Hm in Hx'. destruct (matched0 s).
    + injection Hx as <-. injection Hx' as <-. exact HM.
    + rewrite mirror_tlen in Hx'.
      rewrite cm_stop_flip in Hx'. destruct (if rtl then t <=? 0 else tlen e <=? t) eqn:Es.
      * injection Hx as <-. injection Hx' as <-. exact I.
      * rewrite cm_step_flip in Hx'. apply (IH rtl (if rtl then t - 1 else t + 1) x x'); [|exact Hx|exact Hx'].
        clear - Ht Es. destruct rtl; lia.
Qed.

Lemma cm_find_mirror_sec : forall rtl start prevlen x x', 0 <= start <= tlen e ->
  cm_find e p L vfuel rtl start prevlen = Ok x ->
  cm_find (mirror_env e) p' L' vfuel' (negb rtl) (tlen e - start) prevlen = Ok x' ->
  cm_opt_mirrored e p p' x x'.
Proof.
  intros rtl start prevlen x x' Hst Hx Hx'. unfold cm_find in Hx, Hx'. rewrite mirror_tlen in Hx'.
  assert (Estop : (tlen e - start =? (if negb rtl then 0 else tlen e)) = (start =? (if rtl then 0 else tlen e)))
    by (destruct rtl; cbn [negb]; lia).
  rewrite Estop in Hx'.
  destruct ((prevlen =? 0) && (start =? (if rtl then 0 else tlen e))) eqn:E0.
  - injection Hx as <-. injection Hx' as <-. exact I.
  - assert (Ep0 : (if prevlen =? 0 then if negb rtl then tlen e - start - 1 else tlen e - start + 1 else tlen e - start)
                  = tlen e - (if prevlen =? 0 then if rtl then start - 1 else start + 1 else start))
      by (destruct (prevlen =? 0); [apply cm_step_flip | reflexivity]).
    rewrite Ep0 in Hx'.
    apply (cm_scan_mirror_sec (S (Z.to_nat (tlen e))) rtl
             (if prevlen =? 0 then if rtl then start - 1 else start + 1 else start) x x'); [|exact Hx|exact Hx'].
    destruct (prevlen =? 0) eqn:Ep; cbn [andb] in E0; [|exact Hst]. destruct rtl; lia.
Qed.

End Scan.

Theorem cm_find_mirror :
  forall (e : env) (p p' : program), 0 <= trackcount p -> 0 <= trackcount p' -> tlen e <= INF ->
  forall L L' vfuel vfuel' o body,
  let root := NCapture o 0 (-1) body in
  codes p = fst (compile cfg0 root) -> strings p = snd (compile cfg0 root) ->
  codes p' = fst (compile cfg0 (flip root)) -> strings p' = snd (compile cfg0 (flip root)) ->
  mirror_ok root = true -> supported2 root = true ->
  groups_ok2 (capsize p) root -> groups_ok2 (capsize p') root ->
  term_ok root = true -> Z.of_nat (term_fuel e root) <= INF ->
  forall rtl start prevlen x x', 0 <= start <= tlen e ->
  cm_find e p L vfuel rtl start prevlen = Ok x ->
  cm_find (mirror_env e) p' L' vfuel' (negb rtl) (tlen e - start) prevlen = Ok x' ->
  cm_opt_mirrored e p p' x x'.
Proof.
  intros e p p' Htc Htc' Htl L L' vfuel vfuel' o body root Hcodes Hstr Hcodes' Hstr' Hmo Hs Hg Hg' Hok Hf.
  exact (cm_find_mirror_sec e p p' o body Htc Htc' Htl Hcodes Hstr Hcodes' Hstr' Hmo Hs Hg Hg' Hok Hf L L' vfuel vfuel').
Qed.

(* ============================ the interpreter's own scan VM.vm_find ============================ *)
(* vm_find carries the (grown) stack capacities of one attempt into the next; cm_find starts every attempt on a
   fresh runner.  Without a limit the two agree in everything but the capacities: both follow the unbounded path
   of the attempt (CompileTotal.run_total / exec_total), whatever capacities they start with. *)
Definition cm_view (a b : vm) : Prop := tp a = tp b /\ mcaps a = mcaps b.

Definition cm_view_rel (r1 r2 : res (option vm)) : Prop :=
  match r1, r2 with
  | Ok x, Ok y => opt_rel cm_view x y
  | Fuel, Fuel => True
  | _, _ => False
  end.

Lemma cm_view_norm a b : norm a = norm b -> cm_view a b.
Proof. intros H. split; [exact (f_equal tp H)|exact (f_equal mcaps H)]. Qed.

Lemma cm_mirrored_view e p p' s s' a a' : cm_view a s -> cm_view a' s' ->
  cm_mirrored e p p' s s' -> cm_mirrored e p p' a a'.
Proof.
  intros [H1 H2] [H3 H4] H. unfold cm_mirrored, matched0 in *. rewrite H1, H2, H3, H4. exact H.
Qed.

Section VmScan.
Variable e : env.
Variable p : program.
Hypothesis Htc : 0 <= trackcount p.
Hypothesis Hw : cp_need (codes p) 0 <= trackcount p * G_ensure_factor.
Variable w0 : Z.
Hypothesis H0 : code_at p 0 = Some w0.
Hypothesis Hall : all_paths e p.

Lemma cm_simrel_refl c : simrel (-1) c c.
Proof. split; [unfold eqv; repeat split|left; reflexivity]. Qed.

Lemma cm_attempt_carrier c t fuel : carrier_ok p c -> 0 <= t <= tlen e ->
  exists s1, goto p (-1) (fresh p c t) 0 = Ok s1 /\
    ((run e p (-1) fuel s1 = Fuel /\ exec_at e p (-1) fuel t = Fuel) \/
     exists a b, run e p (-1) fuel s1 = Ok a /\ exec_at e p (-1) fuel t = Ok b /\ cm_view a b /\ carrier_ok p a).
Proof.
  intros Hc Ht. destruct (Hall t Ht) as (n & sd & sd' & Hap).
  destruct (lim_goto0 e p Hw (-1) c c t w0 n sd sd' H0 (cm_simrel_refl c) Hc Hap)
    as [[_ Habs]|(s1 & s2 & E1 & E2 & Hgp)]; [lia|].
  rewrite E1 in E2. injection E2 as <-. exists s1. split; [exact E1|].
  destruct Hgp as (_ & _ & Hti & Hpo & Hus). destruct Hap as (Hp0 & Hn0 & Hd).
  pose proof (run_total e p Htc Hw (-1) ltac:(lia) fuel n s1 sd sd' Hti Hpo Hus Hd) as [R1 R2].
  pose proof (exec_total e p Htc Hw (-1) ltac:(lia) t n sd sd' w0 H0 Hp0 Hn0 Hd fuel) as [X1 X2].
  pose proof (Nat.lt_ge_cases n (1000 * fuel)) as [Hlt|Hge].
  - right. pose proof (R1 Hlt) as (a & Ea & Na & Ta). pose proof (X1 Hlt) as (b & Eb & Nb & _).
    exists a, b. split; [exact Ea|]. split; [exact Eb|]. split; [apply cm_view_norm; congruence|].
    apply lim_tinv_carrier. exact Ta.
  - left. split; [exact (R2 Hge)|exact (X2 Hge)].
Qed.

Lemma cm_scan_carrier fuel : forall n rtl c t, carrier_ok p c -> 0 <= t <= tlen e ->
  cm_view_rel (vm_scan_from e p (-1) fuel n rtl c t) (cm_scan e p (-1) fuel n rtl t).
Proof.
  induction n as [|n IH]; intros rtl c t Hc Ht; cbn [vm_scan_from cm_scan]; [exact I|].
  change {| pc := 0; mode := 0; tp := t; track := []; tcap := tcap c; stack := []; scap := scap c;
            crawl := []; mcaps := repeat [] (Z.to_nat (capsize p)) |} with (fresh p c t).
  destruct (cm_attempt_carrier c t fuel Hc Ht) as (s1 & E1 & [[Ea Eb]|(a & b & Ea & Eb & Hv & Hca)]);
    rewrite E1; cbn [bind]; rewrite Ea, Eb; cbn [bind]; [exact I|].
  assert (Hm : matched0 a = matched0 b) by (unfold matched0; rewrite (proj2 Hv); reflexivity).
  rewrite Hm. destruct (matched0 b); [exact Hv|].
  destruct (if rtl then t <=? 0 else tlen e <=? t) eqn:Es; [exact I|].
  apply IH; [exact Hca|destruct rtl; lia].
Qed.

Lemma cm_vm_find_view fuel rtl start prevlen : 0 <= start <= tlen e ->
  cm_view_rel (vm_find e p (-1) fuel rtl start prevlen) (cm_find e p (-1) fuel rtl start prevlen).
Proof.
  intros Hs. unfold vm_find, cm_find.
  destruct ((prevlen =? 0) && (start =? (if rtl then 0 else tlen e))) eqn:E; [exact I|].
  apply cm_scan_carrier.
  - unfold carrier_ok, VMUBridge.need, sinit, init_vm, G_ensure_factor, G_tracksize_mul, G_tracksize_min,
      G_stacksize_mul, G_stacksize_min. cbn [tcap scap].
    change ((0 <=? -1) && _) with false. cbv iota. split; lia.
  - destruct (prevlen =? 0); cbn [andb] in E; [|exact Hs]. destruct rtl; lia.
Qed.

End VmScan.

Lemma cm_all_paths e p : 0 <= trackcount p -> track_count (codes p) <= trackcount p -> tlen e <= INF ->
  forall o body, let root := NCapture o 0 (-1) body in
  codes p = fst (compile cfg0 root) -> strings p = snd (compile cfg0 root) ->
  supported2 root = true -> groups_ok2 (capsize p) root ->
  term_ok root = true -> Z.of_nat (term_fuel e root) <= INF ->
  all_paths e p.
Proof.
  intros Htc Htk Htl o body root Hcodes Hstr Hs Hg Hok Hf t Ht.
  destruct (spec_attempt_total e root t Hok Ht (term_fuel e root) (Nat.le_refl _)) as (r & Hatt & _).
  exact (clt_path e p Htc Htl (term_fuel e root) o body t r Hcodes Hstr Hs Hg Ht Hf Hatt
           (compiled_path_ok cfg0 root p Hcodes Htk e t)).
Qed.

(* vm_find under any limit, when it returns, returns what the fresh-call scan without limit returns (positions and
   capture tables) *)
Lemma cm_vm_find_fresh e p : 0 <= trackcount p -> track_count (codes p) <= trackcount p -> tlen e <= INF ->
  forall o body, let root := NCapture o 0 (-1) body in
  codes p = fst (compile cfg0 root) -> strings p = snd (compile cfg0 root) ->
  supported2 root = true -> groups_ok2 (capsize p) root ->
  term_ok root = true -> Z.of_nat (term_fuel e root) <= INF ->
  forall L fuel rtl start prevlen x, 0 <= start <= tlen e ->
  vm_find e p L fuel rtl start prevlen = Ok x ->
  exists y, cm_find e p (-1) fuel rtl start prevlen = Ok y /\ opt_rel cm_view x y.
Proof.
  intros Htc Htk Htl o body root Hcodes Hstr Hs Hg Hok Hf L fuel rtl start prevlen x Hst Hx.
  destruct (vml_limit_transparent e p L fuel rtl start prevlen x Hx) as (x1 & Hx1 & Hsame).
  pose proof (cm_vm_find_view e p Htc (clt_weight cfg0 root p Hcodes Htk) Lazybranch (clt_code0 root p Hcodes)
                (cm_all_paths e p Htc Htk Htl o body Hcodes Hstr Hs Hg Hok Hf) fuel rtl start prevlen Hst) as HV.
  rewrite Hx1 in HV. unfold cm_view_rel in HV.
  destruct (cm_find e p (-1) fuel rtl start prevlen) as [y| | |]; try contradiction.
  exists y. split; [reflexivity|].
  unfold same_result, opt_rel in *. destruct x as [a|], x1 as [a1|], y as [b|]; try contradiction; try exact I.
  destruct Hsame as (_ & _ & Ht & _ & _ & _ & _ & Hm). destruct HV as [Ht' Hm']. split; congruence.
Qed.

(* C15 for the interpreter's scan: any stack limits, any fuels, whenever both searches return *)
Theorem cm_vm_find_mirror :
  forall (e : env) (p p' : program), 0 <= trackcount p -> 0 <= trackcount p' ->
  track_count (codes p) <= trackcount p -> track_count (codes p') <= trackcount p' -> tlen e <= INF ->
  forall L L' vfuel vfuel' o body,
  let root := NCapture o 0 (-1) body in
  codes p = fst (compile cfg0 root) -> strings p = snd (compile cfg0 root) ->
  codes p' = fst (compile cfg0 (flip root)) -> strings p' = snd (compile cfg0 (flip root)) ->
  mirror_ok root = true -> supported2 root = true ->
  groups_ok2 (capsize p) root -> groups_ok2 (capsize p') root ->
  term_ok root = true -> Z.of_nat (term_fuel e root) <= INF ->
  forall rtl start prevlen x x', 0 <= start <= tlen e ->
  vm_find e p L vfuel rtl start prevlen = Ok x ->
  vm_find (mirror_env e) p' L' vfuel' (negb rtl) (tlen e - start) prevlen = Ok x' ->
  cm_opt_mirrored e p p' x x'.
Proof.
  intros e p p' Htc Htc' Htk Htk' Htl L L' vfuel vfuel' o body root Hcodes Hstr Hcodes' Hstr' Hmo Hs Hg Hg' Hok Hf
    rtl start prevlen x x' Hst Hx Hx'.
  destruct (cm_mirror_side e (capsize p') o body start Htl Hs Hg' Hst) as (Htl' & Hs' & Hgf & Hst').
  assert (Hok' : term_ok (flip root) = true) by (rewrite cm_flip_term_ok; exact Hok).
  assert (Hf' : Z.of_nat (term_fuel (mirror_env e) (flip root)) <= INF) by (rewrite cm_flip_term_fuel; exact Hf).
  destruct (cm_vm_find_fresh e p Htc Htk Htl o body Hcodes Hstr Hs Hg Hok Hf L vfuel rtl start prevlen x Hst Hx)
    as (y & Hy & Hv).
  destruct (cm_vm_find_fresh (mirror_env e) p' Htc' Htk' Htl' (flip_opt o) (flip body) Hcodes' Hstr' Hs' Hgf Hok' Hf'
              L' vfuel' (negb rtl) (tlen e - start) prevlen x' Hst' Hx') as (y' & Hy' & Hv').
  pose proof (cm_find_mirror e p p' Htc Htc' Htl (-1) (-1) vfuel vfuel' o body Hcodes Hstr Hcodes' Hstr' Hmo Hs Hg Hg'
                Hok Hf rtl start prevlen y y' Hst Hy Hy') as HM.
  unfold cm_opt_mirrored, opt_rel in *.
  destruct x as [a|], y as [b|]; try contradiction; destruct x' as [a'|], y' as [b'|]; try contradiction; try exact I.
  exact (cm_mirrored_view e p p' b b' a a' Hv Hv' HM).
Qed.

(* ============================ non-vacuity ============================ *)
Definition cm_prog_of (cs : Z) (root : node) : program :=
  {| codes := fst (compile cfg0 root); strings := snd (compile cfg0 root);
     trackcount := track_count (fst (compile cfg0 root)); capsize := cs |}.

(* (a)(b|c)*  -- group 1 = (a), group 2 = the repeated (b|c) *)
Definition cm_demo_body : node :=
  NConcat 0 [NCapture 0 1 (-1) (NChar COne 0 97);
             NLoop false 0 0 INF (NCapture 0 2 (-1) (NAlternate 0 [NChar COne 0 98; NChar COne 0 99]))].

(* every hypothesis of cm_exec_mirror_total holds for (a)(b|c)* on "xabcb" from position 1.  The left-to-right
   program matches (1,4), group 1 = (1,1), group 2 = (2,1) (3,1) (4,1) oldest first; the program of the flipped
   tree (every node RightToLeft) on "bcbax" from position 5 - 1 = 4 matches (0,4), group 1 = (3,1),
   group 2 = (2,1) (1,1) (0,1) oldest first: the mirror images (i,len) |-> (5-i-len,len) in the same order.
   From position 0 neither matches. *)
Example cm_demo :
  let e := mirror_ex_env [120; 97; 98; 99; 98] 0 false in
  let root := NCapture 0 0 (-1) cm_demo_body in
  let p := cm_prog_of 3 root in
  let p' := cm_prog_of 3 (flip root) in
  (0 <= trackcount p /\ 0 <= trackcount p' /\
   track_count (codes p) <= trackcount p /\ track_count (codes p') <= trackcount p' /\ tlen e <= INF /\
   codes p = fst (compile cfg0 root) /\ strings p = snd (compile cfg0 root) /\
   codes p' = fst (compile cfg0 (flip root)) /\ strings p' = snd (compile cfg0 (flip root)) /\
   mirror_ok root = true /\ supported2 root = true /\
   groups_ok2 (capsize p) root /\ groups_ok2 (capsize p') root /\
   term_ok root = true /\ Z.of_nat (term_fuel e root) <= INF) /\
  flip root =
    NCapture 64 0 (-1)
      (NConcat 64 [NCapture 64 1 (-1) (NChar COne 64 97);
                   NLoop false 64 0 INF (NCapture 64 2 (-1) (NAlternate 64 [NChar COne 64 98; NChar COne 64 99]))]) /\
  txt (mirror_env e) = [98; 99; 98; 97; 120] /\
  (exists s s', exec_at e p (-1) 5 1 = Ok s /\ exec_at (mirror_env e) p' (-1) 5 4 = Ok s' /\
     matched0 s = true /\ matched0 s' = true /\ tp s = 5 /\ tp s' = 0 /\
     mcaps s = [[1; 4]; [1; 1]; [2; 1; 3; 1; 4; 1]] /\
     mcaps s' = [[0; 4]; [3; 1]; [2; 1; 1; 1; 0; 1]] /\
     cm_mirrored e p p' s s') /\
  (exists s s', exec_at e p (-1) 5 0 = Ok s /\ exec_at (mirror_env e) p' (-1) 5 5 = Ok s' /\
     matched0 s = false /\ matched0 s' = false /\ cm_mirrored e p p' s s') /\
  (exists s s', cm_find e p (-1) 5 false 0 (-1) = Ok (Some s) /\
                cm_find (mirror_env e) p' (-1) 5 true 5 (-1) = Ok (Some s') /\
                tp s = 5 /\ tp s' = 0 /\ cm_mirrored e p p' s s').
Proof.
  cbv zeta.
  set (e := mirror_ex_env [120; 97; 98; 99; 98] 0 false). set (root := NCapture 0 0 (-1) cm_demo_body).
  set (p := cm_prog_of 3 root). set (p' := cm_prog_of 3 (flip root)).
  assert (Htc : 0 <= trackcount p) by (vm_compute; congruence).
  assert (Htc' : 0 <= trackcount p') by (vm_compute; congruence).
  assert (Htl : tlen e <= INF) by (vm_compute; congruence).
  assert (Hg : groups_ok2 3 root) by (apply groups_ok2b_sound; vm_compute; reflexivity).
  assert (Hf : Z.of_nat (term_fuel e root) <= INF) by (vm_compute; congruence).
  assert (HM : forall t0 s s', 0 <= t0 <= tlen e -> exec_at e p (-1) 5 t0 = Ok s ->
                 exec_at (mirror_env e) p' (-1) 5 (tlen e - t0) = Ok s' -> cm_mirrored e p p' s s').
  { intros t0 s s'. exact (cm_exec_mirror e p p' Htc Htc' Htl (-1) (-1) 5%nat 5%nat 0 cm_demo_body t0 s s'
                             eq_refl eq_refl eq_refl eq_refl eq_refl eq_refl Hg Hg eq_refl Hf). }
  split.
  { split; [exact Htc|]. split; [exact Htc'|]. split; [apply Z.le_refl|]. split; [apply Z.le_refl|].
    split; [exact Htl|]. do 6 (split; [reflexivity|]). split; [exact Hg|]. split; [exact Hg|].
    split; [reflexivity|exact Hf]. }
  split; [vm_compute; reflexivity|]. split; [vm_compute; reflexivity|].
  (* each interpreter call is evaluated once, into the witness *)
  split; [|split].
  - eassert (Ex : exec_at e p (-1) 5 1 = Ok _) by (vm_compute; reflexivity).
    eassert (Ex' : exec_at (mirror_env e) p' (-1) 5 4 = Ok _) by (vm_compute; reflexivity).
    eexists _, _. split; [exact Ex|]. split; [exact Ex'|]. do 6 (split; [reflexivity|]).
    exact (HM 1 _ _ ltac:(vm_compute; split; congruence) Ex Ex').
  - eassert (Ex : exec_at e p (-1) 5 0 = Ok _) by (vm_compute; reflexivity).
    eassert (Ex' : exec_at (mirror_env e) p' (-1) 5 5 = Ok _) by (vm_compute; reflexivity).
    eexists _, _. split; [exact Ex|]. split; [exact Ex'|]. do 2 (split; [reflexivity|]).
    exact (HM 0 _ _ ltac:(vm_compute; split; congruence) Ex Ex').
  - eassert (Ex : cm_find e p (-1) 5 false 0 (-1) = Ok (Some _)) by (vm_compute; reflexivity).
    eassert (Ex' : cm_find (mirror_env e) p' (-1) 5 true 5 (-1) = Ok (Some _)) by (vm_compute; reflexivity).
    eexists _, _. split; [exact Ex|]. split; [exact Ex'|]. do 2 (split; [reflexivity|]).
    exact (cm_find_mirror e p p' Htc Htc' Htl (-1) (-1) 5%nat 5%nat 0 cm_demo_body
             eq_refl eq_refl eq_refl eq_refl eq_refl eq_refl Hg Hg eq_refl Hf false 0 (-1) _ _
             ltac:(vm_compute; split; congruence) Ex Ex').
Qed.

(* a balancing group: (?<a>x)z(?<b-a>y) on "xzy" (MirrorProofs.mirror_ex_balance).  Slot 1 (= a) holds one capture
   and one balanceMatch marker on both sides and DENOTES the empty stack on both sides; slot 2 (= b) holds the gap
   "z" = (1,1), its own mirror image; the popped capture (0,1) is (2,1) on the mirrored side. *)
Example cm_demo_balance :
  let e := mirror_ex_env [120; 122; 121] 0 false in
  let root := NCapture 0 0 (-1) mirror_ex_balance in
  let p := cm_prog_of 3 root in
  let p' := cm_prog_of 3 (flip root) in
  mirror_ok root = true /\ supported2 root = true /\ groups_ok2 3 root /\ term_ok root = true /\
  exists s s', exec_at e p (-1) 5 0 = Ok s /\ exec_at (mirror_env e) p' (-1) 5 3 = Ok s' /\
     matched0 s = true /\ tp s = 3 /\ tp s' = 0 /\
     mcaps s = [[0; 3]; [0; 1; -1; -2]; [1; 1]] /\
     mcaps s' = [[0; 3]; [2; 1; -1; -2]; [1; 1]] /\
     cm_mirrored e p p' s s'.
Proof.
  cbv zeta.
  set (e := mirror_ex_env [120; 122; 121] 0 false). set (root := NCapture 0 0 (-1) mirror_ex_balance).
  set (p := cm_prog_of 3 root). set (p' := cm_prog_of 3 (flip root)).
  split; [reflexivity|]. split; [reflexivity|].
  assert (Hg : groups_ok2 3 root) by (apply groups_ok2b_sound; vm_compute; reflexivity).
  split; [exact Hg|]. split; [reflexivity|].
  eassert (Ex : exec_at e p (-1) 5 0 = Ok _) by (vm_compute; reflexivity).
  eassert (Ex' : exec_at (mirror_env e) p' (-1) 5 3 = Ok _) by (vm_compute; reflexivity).
  eexists _, _. split; [exact Ex|]. split; [exact Ex'|]. do 5 (split; [reflexivity|]).
  exact (cm_exec_mirror e p p' ltac:(vm_compute; congruence) ltac:(vm_compute; congruence) ltac:(vm_compute; congruence)
           (-1) (-1) 5%nat 5%nat 0 mirror_ex_balance 0 _ _
           eq_refl eq_refl eq_refl eq_refl eq_refl eq_refl Hg Hg eq_refl ltac:(vm_compute; congruence)
           ltac:(vm_compute; split; congruence) Ex Ex').
Qed.

(* the interpreter's own scan on the same instance, left-to-right under a stack limit of 200 words against
   right-to-left without a limit *)
Example cm_demo_vm_find :
  let e := mirror_ex_env [120; 97; 98; 99; 98] 0 false in
  let root := NCapture 0 0 (-1) cm_demo_body in
  let p := cm_prog_of 3 root in
  let p' := cm_prog_of 3 (flip root) in
  exists s s', vm_find e p 200 5 false 0 (-1) = Ok (Some s) /\
               vm_find (mirror_env e) p' (-1) 5 true 5 (-1) = Ok (Some s') /\
               tp s = 5 /\ tp s' = 0 /\
               mcaps s = [[1; 4]; [1; 1]; [2; 1; 3; 1; 4; 1]] /\
               mcaps s' = [[0; 4]; [3; 1]; [2; 1; 1; 1; 0; 1]] /\
               cm_mirrored e p p' s s'.
Proof.
  cbv zeta.
  set (e := mirror_ex_env [120; 97; 98; 99; 98] 0 false). set (root := NCapture 0 0 (-1) cm_demo_body).
  set (p := cm_prog_of 3 root). set (p' := cm_prog_of 3 (flip root)).
  assert (Hg : groups_ok2 3 root) by (apply groups_ok2b_sound; vm_compute; reflexivity).
  eassert (Ex : vm_find e p 200 5 false 0 (-1) = Ok (Some _)) by (vm_compute; reflexivity).
  eassert (Ex' : vm_find (mirror_env e) p' (-1) 5 true 5 (-1) = Ok (Some _)) by (vm_compute; reflexivity).
  eexists _, _. split; [exact Ex|]. split; [exact Ex'|]. do 4 (split; [reflexivity|]).
  exact (cm_vm_find_mirror e p p' ltac:(vm_compute; congruence) ltac:(vm_compute; congruence)
           ltac:(apply Z.le_refl) ltac:(apply Z.le_refl) ltac:(vm_compute; congruence)
           200 (-1) 5%nat 5%nat 0 cm_demo_body
           eq_refl eq_refl eq_refl eq_refl eq_refl eq_refl Hg Hg eq_refl ltac:(vm_compute; congruence)
           false 0 (-1) _ _ ltac:(vm_compute; split; congruence) Ex Ex').
Qed.

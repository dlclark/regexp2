(* C03 x C04: the Boyer-Moore branch of findFirstCharDefault end to end on a tree.
   "getPrefix computes the literal (C04: every successful attempt starts with it) => newBmPrefix builds
   sound tables => Scan / IsMatch never skip a successful attempt => the scan loop with this finder
   returns what Spec.find returns".  Left-to-right, case-sensitive prefix (what C04_bm_prefix_sound_partial
   covers); the other direction / the CaseInsensitive flag are covered by Proofs/BMProofs.v relative to
   the prefix fact [bmp_prefix_fact].
   One induction over the tree, [bmc_ga_all]: getAnchors answers 0 or the bit of a single findable
   anchor, so that the four anchor hypotheses of fd_default_H1 follow from C04's an_get_anchors_sound. *)
From Coq Require Import ZifyBool.
From Verif Require Import Base.Prelude Base.Utf8 Model.Tree Model.Spec Model.Scan Model.Finder Model.Analysis Model.BM
     Proofs.ScanProofs Proofs.ScanBumpProofs Proofs.FinderProofs Proofs.MaskProofs
     Proofs.AnalysisReach Proofs.AnalysisProofs Proofs.AnalysisPrefix Proofs.AnalysisFacts Proofs.FinderCompose
     Proofs.BMProofs.

From Verif Require Import Proofs.ListFacts.
(* Code.Anchors is 0 or the bit of one findable anchor *)
Definition bmc_ga_shape (t : node) : Prop :=
  match get_anchors_walk t with
  | WSkip => True
  | WDone z => z = 0 \/ exists a, anchor_findable a = true /\ z = anchor_bit a
  end.

Lemma bmc_ga_seq : forall l, Forall bmc_ga_shape l ->
  first_done (map get_anchors_walk l) 0 = 0 \/
  exists a, anchor_findable a = true /\ first_done (map get_anchors_walk l) 0 = anchor_bit a.
Proof.
  induction 1 as [|x l Hx Hl IH]; cbn [map first_done]; [left; reflexivity|].
  unfold bmc_ga_shape in Hx. destruct (get_anchors_walk x) as [z|]; [exact Hx | exact IH].
Qed.

Lemma bmc_ga_all : forall t, bmc_ga_shape t.
Proof.
  induction t using node_ind'; unfold bmc_ga_shape; cbn [get_anchors_walk]; try (left; reflexivity); try exact I.
  - destruct (anchor_findable a) eqn:Ea; [right; exists a; split; [exact Ea | reflexivity] | left; reflexivity].
  - destruct l as [|x l]; [exact I|]. apply bmc_ga_seq. exact H.
  - unfold bmc_ga_shape in IHt. destruct (get_anchors_walk t) as [z|]; [exact IHt | left; reflexivity].
  - unfold bmc_ga_shape in IHt. destruct (get_anchors_walk t) as [z|]; [exact IHt | left; reflexivity].
Qed.

Lemma bmc_get_anchors_cases : forall t,
  get_anchors t = 0 \/ exists a, anchor_findable a = true /\ get_anchors t = anchor_bit a.
Proof.
  intros t. pose proof (bmc_ga_all t) as H. unfold bmc_ga_shape, get_anchors in *.
  destruct (get_anchors_walk t) as [z|]; [exact H | left; reflexivity].
Qed.

Section ComposeBM.
Variable e : env.
Variable fuel : nat.
Variable root : node.
Variable bumpq : Z -> Z.

Local Notation exec := (bp_exec e fuel root bumpq).
Local Notation n := (tlen e).

Hypothesis Hshape : shape_ok false root = true.
Hypothesis Hfuel : forall x, 0 <= x <= n -> exists r, attempt e fuel root x = Ok r.
Hypothesis H3 : sc_H3 st n false exec.

(* the anchor facts findFirstCharDefault relies on, from Code.Anchors alone (C04_anchors_sound) *)
Lemma bmc_anchor_facts :
  let anchors := get_anchors root in
  let succeeds := fun x => fst (exec x) <> None in
  (abit anchors ANCH_BEGINNING = true -> forall x, sc_in_text n x -> succeeds x -> x = 0) /\
  (abit anchors ANCH_START = true -> forall x, sc_in_text n x -> succeeds x -> x = tstart e) /\
  (abit anchors ANCH_ENDZ = true -> forall x, sc_in_text n x -> succeeds x ->
     x = zlen (txt e) \/ (x = zlen (txt e) - 1 /\ nth (Z.to_nat x) (txt e) 0 = 10)) /\
  (abit anchors ANCH_END = true -> forall x, sc_in_text n x -> succeeds x -> x = zlen (txt e)).
Proof.
  cbv zeta. destruct (bmc_get_anchors_cases root) as [Hz|(a & Hfind & Hga)].
  - rewrite Hz. repeat split; intros Hb; discriminate Hb.
  - assert (Hok : forall x, sc_in_text n x -> fst (exec x) <> None -> anchor_ok e a x = true).
    { intros x Hx Hsx. destruct (fc_succeeds_attempt e fuel root bumpq x Hsx) as [s' Hat].
      exact (an_get_anchors_sound e fuel root x s' a Hfind Hga Hat). }
    rewrite Hga. repeat split; intros Hb x Hx Hsx; specialize (Hok x Hx Hsx); unfold sc_in_text, tlen in *.
    + destruct a; try discriminate Hb. cbn [anchor_ok] in Hok. lia.
    + destruct a; try discriminate Hb. cbn [anchor_ok] in Hok. lia.
    + destruct a; try discriminate Hb. cbn [anchor_ok] in Hok. unfold char_at, tlen in *. cbv zeta in Hok.
      destruct (1 <? zlen (txt e) - x) eqn:E1; cbv iota in Hok; [discriminate|].
      destruct (endz_strict e); cbv iota in Hok; [left; lia|].
      destruct ((zlen (txt e) - x =? 1) && negb (nth (Z.to_nat x) (txt e) 0 =? 10)) eqn:E2; [discriminate|].
      lia.
    + destruct a; try discriminate Hb. cbn [anchor_ok] in Hok. unfold tlen in *. lia.
Qed.

(* C04: every successful attempt starts with the literal => the fact the machine needs *)
Lemma bmc_prefix_fact : forall str t,
  bm_prefix root = Some (str, false) -> bm_new (lower e) str false false = Ok (Some t) ->
  bmp_prefix_fact (lower e) t (txt e) st exec.
Proof.
  intros str t Hbm Hnew x Hx Hsx.
  destruct (bmp_new_Some_ok (lower e) str false false t Hnew) as (Hpat & Hrtl & Hci & _).
  destruct (fc_succeeds_attempt e fuel root bumpq x Hsx) as [s' Hat].
  destruct (an_bm_prefix_sound e fuel root x s' str Hbm Hshape Hx Hat) as [rest Hrest]. unfold txt_from in Hrest.
  assert (Hpat' : bm_pattern t = str) by (rewrite Hpat; unfold bm_fold; apply map_id).
  unfold bmp_occ_at. rewrite Hrtl, Hpat'. intros j Hj.
  assert (Hlen : length (skipn (Z.to_nat x) (txt e)) = (length str + length rest)%nat) by (rewrite Hrest, app_length; reflexivity).
  rewrite skipn_length in Hlen. unfold zlen in *.
  split; [lia|]. unfold bmp_tx, bm_fold, bmp_p, bm_gz. rewrite Hci.
  replace (Z.to_nat (x + j)) with (Z.to_nat x + Z.to_nat j)%nat by lia.
  rewrite <- nth_skipn, Hrest. apply app_nth1. lia.
Qed.

(* Code.BmPrefix != nil, left-to-right: the Boyer-Moore branch (Scan without an anchor bit, IsMatch after the
   anchor jumps with one), whatever FindOptimizations and FcPrefix hold *)
Theorem bmc_mode_bm_sound : forall str t (o : option fdopts) (fc : option fdfc),
  bm_prefix root = Some (str, false) ->
  bm_new (lower e) str false false = Ok (Some t) ->
  (forall x, In x (txt e) -> 0 <= x) ->
  forall start prevlen, 0 <= start <= n ->
  exists r, find e fuel root false start prevlen = Ok r /\
            scan n false (min_len root)
                 (fd_total (fd_find_first_char_default (txt e) (set_in e) (lower e) false (get_anchors root) (tstart e)
                              (Some (bm_is_match_fn (lower e) t (txt e))) (Some (bm_scan_fn (lower e) t (txt e))) o fc))
                 exec start prevlen = Ok r.
Proof.
  intros str t o fc Hbm Hnew Hnn start prevlen Hs.
  destruct (bmp_new_Some_ok (lower e) str false false t Hnew) as (Hpat & Hrtl & Hci & Hok).
  destruct bmc_anchor_facts as (A1 & A2 & A3 & A4).
  pose proof (bmp_finder_default_H1 st (txt e) exec (set_in e) (lower e) (get_anchors root) (tstart e) t o fc) as HH.
  cbv zeta in HH. rewrite Hrtl in HH. unfold tlen in *.
  destruct HH as [F1 F2]; try assumption.
  - intros i Hi. unfold bmp_tx, bm_fold. rewrite Hci. apply Hnn. unfold bm_gz. apply nth_In. unfold zlen in Hi. lia.
  - exact (bmc_prefix_fact str t Hbm Hnew).
  - destruct (sc_scan_finder_sound st (zlen (txt e)) false (min_len root) _ exec F1 F2) with (start := start) (prevlen := prevlen)
      as (r & Hr1 & Hr2).
    + apply fc_min_len_H2. exact Hshape.
    + exact H3.
    + exact Hs.
    + exists r. split; [|exact Hr1].
      rewrite (bp_find_naive_scan e fuel root false bumpq start prevlen Hfuel Hs). exact Hr2.
Qed.

End ComposeBM.
